(* C12 -- NON-VACUITY of the theorems of Props/C12_WFQ.v (WFQ and VirtualClock).  Witness execution: Elem/WFQExamples.v
   (fx_acts, accepted by both models): a static backlog of four packets at 0 (two of them with EQUAL stamps), an arrival
   at 3 during a transmission, the scheduler empties at 8, an arrival at 9 into the idle scheduler; flows 1 and 5 share
   class 1.  Service order p1 p0 p2 p3 p5 p4.

   Coverage (theorem of Props/C12_WFQ.v -> witness), X = wfq / vc:
     C12_X_work_conserving (both branches), C12_X_tx_time, C12_X_flow_fifo,
     C12_X_exactly_once, C12_X_counters                                       -> C12_ex_X_execution
     C12_X_no_idle_backlog (arrival into the idle scheduler), C12_X_back_to_back -> C12_ex_X_trace_points
     C12_X_one_at_a_time (start / undisturbed by a put() / ended by its timeout) -> C12_ex_X_one_at_a_time
   Unconditional: none. *)
From Coq Require Import ZArith QArith List Bool Permutation.
From ONL Require Import Base.Tools Elem.Packet Elem.StoreQ Elem.WFQServer Elem.WFQServerProofs Elem.WFQServerTrace Elem.WFQ
  Elem.WFQProofs
  Elem.VC Elem.VCProofs Elem.WFQInst Elem.WFQExamples.
From ONL Require Import Props.C12_WFQ.
Import ListNotations.

(* the PriorityStore entry of p0: put at instant 0 with stamp 2 (under both disciplines) as arrival number 1 *)
Definition fx_e0 : entry := (0, {| istamp := 2; iseq := 1; ipkt := fx_p0 |}).

(* ================= WFQ ================= *)
(* State W = after 19 actions (instant 3): p0 is in transmission until 4; p2, p3 and p5 (just arrived) wait; p1 has left.
   The clock may move.  Final state (45 actions, instant 10): drained. *)
Theorem C12_ex_wfq_execution :
  (* hypotheses *)
  wcfg_ok wfx_cfg /\ wadm wfx_cfg fx_acts /\
  wfq_run wfx_cfg (wfq0 wfx_cfg) fx_acts = Some (wfx_state 45, wfx_trace 45) /\
  NoDup (map uid (puts (WS wfx_cfg) (wfx_trace 45))) /\
  wreach wfx_cfg (wfx_state 45) /\ urgent (wfx_state 45) = false /\ (forall e dl, chl (wfx_state 45) <> CTx e dl) /\
  wadm wfx_cfg (firstn 19 fx_acts) /\
  wfq_run wfx_cfg (wfq0 wfx_cfg) (firstn 19 fx_acts) = Some (wfx_state 19, wfx_trace 19) /\
  wreach wfx_cfg (wfx_state 19) /\ urgent (wfx_state 19) = false /\
  (* the execution *)
  now (wfx_state 19) = 3 /\
  puts (WS wfx_cfg) (wfx_trace 19) = [fx_p0; fx_p1; fx_p2; fx_p3; fx_p5] /\ fwds (WS wfx_cfg) (wfx_trace 19) = [fx_p1] /\
  held (WS wfx_cfg) (wfx_state 19) = [fx_p0; fx_p2; fx_p3; fx_p5] /\
  fwds (WS wfx_cfg) (wfx_trace 45) = [fx_p1; fx_p0; fx_p2; fx_p3; fx_p5; fx_p4] /\
  (* conclusions at W *)
  (exists e dl, chl (wfx_state 19) = CTx e dl /\ now (wfx_state 19) < dl /\ e = fx_e0 /\ dl = 4) /\
  only 0 (fwds (WS wfx_cfg) (wfx_trace 19)) ++ only 0 (held (WS wfx_cfg) (wfx_state 19)) = only 0 (puts (WS wfx_cfg) (wfx_trace 19)) /\
  only 0 (puts (WS wfx_cfg) (wfx_trace 19)) = [fx_p0; fx_p3; fx_p5] /\
  (qcount (wfx_state 19) 0 = 3 /\ qbytes (wfx_state 19) 0 = 512 /\ qcount (wfx_state 19) 1 = 0 /\ qcount (wfx_state 19) 5 = 1 /\
   nrecv (wfx_state 19) = 5)%Z /\
  (forall f, qcount (wfx_state 19) f = cnt f (held (WS wfx_cfg) (wfx_state 19)) /\ qbytes (wfx_state 19) f = byt f (held (WS wfx_cfg) (wfx_state 19))) /\
  (* conclusions on the whole execution *)
  held (WS wfx_cfg) (wfx_state 45) = [] /\
  tx_ok (WS wfx_cfg) (wrate wfx_cfg) None (wfx_trace 45) /\
  NoDup (map uid (fwds (WS wfx_cfg) (wfx_trace 45))) /\
  Permutation (puts (WS wfx_cfg) (wfx_trace 45)) (fwds (WS wfx_cfg) (wfx_trace 45)).
Proof.
  split; [exact wfx_cfg_ok|]. split; [exact (wfx_adm 45)|]. apply conj_keep; [exact wfx_full|intros HF].
  apply conj_keep; [(vm_compute; repeat constructor; cbn; intuition discriminate)|intros ND].
  split; [exact (wfx_reach 45)|].
  apply conj_keep; [vm_compute; reflexivity|intros UF].
  apply conj_keep; [intros e dl H; vm_compute in H; discriminate H|intros CF]. split; [exact (wfx_adm 19)|].
  apply conj_keep; [exact (wfx_run 19)|intros HW]. split; [exact (wfx_reach 19)|].
  apply conj_keep; [vm_compute; reflexivity|intros UW].
  split; [vm_compute; reflexivity|]. split; [vm_compute; reflexivity|]. split; [vm_compute; reflexivity|].
  split; [vm_compute; reflexivity|]. split; [vm_compute; reflexivity|].
  split.
  { destruct (C12_wfq_work_conserving _ wfx_cfg_ok _ (wfx_reach 19) UW) as [(e & dl & A & B)|N].
    - exists e, dl. split; [exact A|]. split; [exact B|]. vm_compute in A. injection A as <- <-. split; reflexivity.
    - exfalso. vm_compute in N. discriminate N. }
  split; [exact (C12_wfq_flow_fifo _ wfx_cfg_ok _ _ _ 0%Z (wfx_adm 19) HW)|].
  split; [vm_compute; reflexivity|].
  split; [repeat split; vm_compute; reflexivity|].
  split; [exact (proj1 (C12_wfq_counters _ _ (wfx_reach 19)))|].
  split.
  { destruct (C12_wfq_work_conserving _ wfx_cfg_ok _ (wfx_reach 45) UF) as [(e & dl & A & _)|N]; [|exact N].
    exfalso. exact (CF _ _ A). }
  split; [exact (C12_wfq_tx_time _ wfx_cfg_ok _ _ _ (wfx_adm 45) HF)|].
  destruct (C12_wfq_exactly_once _ wfx_cfg_ok _ _ _ (wfx_adm 45) HF ND) as (A & _ & C).
  split; [exact A|exact (C UF CF)].
Qed.
Print Assumptions C12_ex_wfq_execution.

(* two points of the trace: entry 12 is the timeout that ends the transmission of p1 at instant 2 with p0, p2, p3 held:
   the next transmission starts at 2; entry 38 is the put() of p4 at 9 into the idle scheduler: its transmission starts at 9 *)
Theorem C12_ex_wfq_trace_points :
  wcfg_ok wfx_cfg /\ wadm wfx_cfg fx_acts /\
  wfq_run wfx_cfg (wfq0 wfx_cfg) fx_acts = Some (wfx_state 45, wfx_trace 45) /\
  (* C12_wfq_back_to_back *)
  wfx_trace 45 = firstn 12 (wfx_trace 45) ++ (FChildTimer, [OForward fx_p1], wfx_state 13) :: skipn 13 (wfx_trace 45) /\
  held (WS wfx_cfg) (wfx_state 13) <> [] /\
  (* C12_wfq_no_idle_backlog *)
  wfx_trace 45 = firstn 38 (wfx_trace 45) ++ (FPut fx_p4, [], wfx_state 39) :: skipn 39 (wfx_trace 45) /\
  held (WS wfx_cfg) (wfx_state 39) <> [] /\ (forall e dl, chl (wfx_state 39) <> CTx e dl) /\
  (* conclusions *)
  held (WS wfx_cfg) (wfx_state 13) = [fx_p0; fx_p2; fx_p3] /\ now (wfx_state 13) = 2 /\
  starts_at (WS wfx_cfg) (now (wfx_state 13)) (skipn 13 (wfx_trace 45)) /\
  held (WS wfx_cfg) (wfx_state 39) = [fx_p4] /\ now (wfx_state 39) = 9 /\
  starts_at (WS wfx_cfg) (now (wfx_state 39)) (skipn 39 (wfx_trace 45)).
Proof.
  split; [exact wfx_cfg_ok|]. split; [exact (wfx_adm 45)|]. apply conj_keep; [exact wfx_full|intros HF].
  apply conj_keep; [(apply split_nth; apply wfx_trace_nth; vm_compute; reflexivity)|intros E12].
  apply conj_keep; [vm_compute; discriminate|intros B13].
  apply conj_keep; [(apply split_nth; apply wfx_trace_nth; vm_compute; reflexivity)|intros E38].
  apply conj_keep; [vm_compute; discriminate|intros B39].
  apply conj_keep; [intros e dl H; vm_compute in H; discriminate H|intros C39].
  split; [vm_compute; reflexivity|]. split; [vm_compute; reflexivity|].
  split; [exact (C12_wfq_back_to_back _ wfx_cfg_ok _ _ _ (wfx_adm 45) HF _ _ _ _ E12 B13)|].
  split; [vm_compute; reflexivity|]. split; [vm_compute; reflexivity|].
  exact (C12_wfq_no_idle_backlog _ wfx_cfg_ok _ _ _ (wfx_adm 45) HF _ _ _ _ _ E38 B39 C39).
Qed.
Print Assumptions C12_ex_wfq_trace_points.

(* three steps from reachable states: the start of the transmission of p0 (state after 15 actions), the put() of p5 during it
   (state after 17 actions), the timeout that ends it (state after 20 actions) *)
Theorem C12_ex_wfq_one_at_a_time :
  wcfg_ok wfx_cfg /\
  wreach wfx_cfg (wfx_state 15) /\ wfq_act wfx_cfg (wfx_state 15) FChildInit = Ok (wfx_state 16, []) /\
  wreach wfx_cfg (wfx_state 17) /\ wfq_act wfx_cfg (wfx_state 17) (FPut fx_p5) = Ok (wfx_state 18, []) /\
  chl (wfx_state 17) = CTx fx_e0 4 /\
  wreach wfx_cfg (wfx_state 20) /\ wfq_act wfx_cfg (wfx_state 20) FChildTimer = Ok (wfx_state 21, [OForward fx_p0]) /\
  chl (wfx_state 20) = CTx fx_e0 4 /\
  (* conclusions *)
  (current_packet (wfx_state 15) = None /\ chl (wfx_state 15) = CInit fx_e0 /\
   chl (wfx_state 16) = CTx fx_e0 (Qred (now (wfx_state 15) + tx_time (wrate wfx_cfg) (epkt fx_e0))) /\
   current_packet (wfx_state 16) = Some fx_p0 /\ tx_time (wrate wfx_cfg) fx_p0 == 2) /\
  (chl (wfx_state 18) = CTx fx_e0 4 /\ now (wfx_state 18) <= 4) /\
  (4 == now (wfx_state 20) /\ chl (wfx_state 21) = CEnded fx_e0 /\ current_packet (wfx_state 21) = None).
Proof.
  split; [exact wfx_cfg_ok|]. split; [exact (wfx_reach 15)|].
  apply conj_keep; [apply wfx_step; vm_compute; reflexivity|intros A15]. split; [exact (wfx_reach 17)|].
  apply conj_keep; [apply wfx_step; vm_compute; reflexivity|intros A17].
  apply conj_keep; [vm_compute; reflexivity|intros C17]. split; [exact (wfx_reach 20)|].
  apply conj_keep; [apply wfx_step; vm_compute; reflexivity|intros A20].
  apply conj_keep; [vm_compute; reflexivity|intros C20].
  split.
  { destruct (C12_wfq_one_at_a_time _ wfx_cfg_ok _ _ _ _ (wfx_reach 15) A15) as (S1 & _ & _).
    destruct (S1 eq_refl) as (N & e & E1 & E2 & E3).
    assert (Ee : e = fx_e0) by (vm_compute in E1; injection E1 as <-; reflexivity). subst e.
    split; [exact N|]. split; [exact E1|]. split; [exact E2|]. split; [exact E3|]. vm_compute; reflexivity. }
  split.
  { destruct (C12_wfq_one_at_a_time _ wfx_cfg_ok _ _ _ _ (wfx_reach 17) A17) as (_ & S2 & _).
    destruct (S2 _ _ C17) as [(E & _)|(_ & K & _ & L)]; [discriminate E|]. split; [exact K|exact L]. }
  destruct (C12_wfq_one_at_a_time _ wfx_cfg_ok _ _ _ _ (wfx_reach 20) A20) as (_ & S2 & _).
  destruct (S2 _ _ C20) as [(_ & _ & D & K & L)|(N & _)]; [|exfalso; apply N; reflexivity].
  split; [exact D|]. split; [exact K|exact L].
Qed.
Print Assumptions C12_ex_wfq_one_at_a_time.

(* ================= VirtualClock ================= *)
(* State W = after 19 actions (instant 3): p0 is in transmission until 4; p2, p3 and p5 (just arrived) wait; p1 has left.
   The clock may move.  Final state (45 actions, instant 10): drained. *)
Theorem C12_ex_vc_execution :
  (* hypotheses *)
  vcfg_ok vcx_cfg /\ vadm vcx_cfg fx_acts /\
  vc_run vcx_cfg (vc0 vcx_cfg) fx_acts = Some (vcx_state 45, vcx_trace 45) /\
  NoDup (map uid (puts (VS vcx_cfg) (vcx_trace 45))) /\
  vreach vcx_cfg (vcx_state 45) /\ urgent (vcx_state 45) = false /\ (forall e dl, chl (vcx_state 45) <> CTx e dl) /\
  vadm vcx_cfg (firstn 19 fx_acts) /\
  vc_run vcx_cfg (vc0 vcx_cfg) (firstn 19 fx_acts) = Some (vcx_state 19, vcx_trace 19) /\
  vreach vcx_cfg (vcx_state 19) /\ urgent (vcx_state 19) = false /\
  (* the execution *)
  now (vcx_state 19) = 3 /\
  puts (VS vcx_cfg) (vcx_trace 19) = [fx_p0; fx_p1; fx_p2; fx_p3; fx_p5] /\ fwds (VS vcx_cfg) (vcx_trace 19) = [fx_p1] /\
  held (VS vcx_cfg) (vcx_state 19) = [fx_p0; fx_p2; fx_p3; fx_p5] /\
  fwds (VS vcx_cfg) (vcx_trace 45) = [fx_p1; fx_p0; fx_p2; fx_p3; fx_p5; fx_p4] /\
  (* conclusions at W *)
  (exists e dl, chl (vcx_state 19) = CTx e dl /\ now (vcx_state 19) < dl /\ e = fx_e0 /\ dl = 4) /\
  only 0 (fwds (VS vcx_cfg) (vcx_trace 19)) ++ only 0 (held (VS vcx_cfg) (vcx_state 19)) = only 0 (puts (VS vcx_cfg) (vcx_trace 19)) /\
  only 0 (puts (VS vcx_cfg) (vcx_trace 19)) = [fx_p0; fx_p3; fx_p5] /\
  (qcount (vcx_state 19) 0 = 3 /\ qbytes (vcx_state 19) 0 = 512 /\ qcount (vcx_state 19) 1 = 0 /\ qcount (vcx_state 19) 5 = 1 /\
   nrecv (vcx_state 19) = 5)%Z /\
  (forall f, qcount (vcx_state 19) f = cnt f (held (VS vcx_cfg) (vcx_state 19)) /\ qbytes (vcx_state 19) f = byt f (held (VS vcx_cfg) (vcx_state 19))) /\
  (* conclusions on the whole execution *)
  held (VS vcx_cfg) (vcx_state 45) = [] /\
  tx_ok (VS vcx_cfg) (vrate vcx_cfg) None (vcx_trace 45) /\
  NoDup (map uid (fwds (VS vcx_cfg) (vcx_trace 45))) /\
  Permutation (puts (VS vcx_cfg) (vcx_trace 45)) (fwds (VS vcx_cfg) (vcx_trace 45)).
Proof.
  split; [exact vcx_cfg_ok|]. split; [exact (vcx_adm 45)|]. apply conj_keep; [exact vcx_full|intros HF].
  apply conj_keep; [(vm_compute; repeat constructor; cbn; intuition discriminate)|intros ND].
  split; [exact (vcx_reach 45)|].
  apply conj_keep; [vm_compute; reflexivity|intros UF].
  apply conj_keep; [intros e dl H; vm_compute in H; discriminate H|intros CF]. split; [exact (vcx_adm 19)|].
  apply conj_keep; [exact (vcx_run 19)|intros HW]. split; [exact (vcx_reach 19)|].
  apply conj_keep; [vm_compute; reflexivity|intros UW].
  split; [vm_compute; reflexivity|]. split; [vm_compute; reflexivity|]. split; [vm_compute; reflexivity|].
  split; [vm_compute; reflexivity|]. split; [vm_compute; reflexivity|].
  split.
  { destruct (C12_vc_work_conserving _ vcx_cfg_ok _ (vcx_reach 19) UW) as [(e & dl & A & B)|N].
    - exists e, dl. split; [exact A|]. split; [exact B|]. vm_compute in A. injection A as <- <-. split; reflexivity.
    - exfalso. vm_compute in N. discriminate N. }
  split; [exact (C12_vc_flow_fifo _ vcx_cfg_ok _ _ _ 0%Z (vcx_adm 19) HW)|].
  split; [vm_compute; reflexivity|].
  split; [repeat split; vm_compute; reflexivity|].
  split; [exact (proj1 (C12_vc_counters _ _ (vcx_reach 19)))|].
  split.
  { destruct (C12_vc_work_conserving _ vcx_cfg_ok _ (vcx_reach 45) UF) as [(e & dl & A & _)|N]; [|exact N].
    exfalso. exact (CF _ _ A). }
  split; [exact (C12_vc_tx_time _ vcx_cfg_ok _ _ _ (vcx_adm 45) HF)|].
  destruct (C12_vc_exactly_once _ vcx_cfg_ok _ _ _ (vcx_adm 45) HF ND) as (A & _ & C).
  split; [exact A|exact (C UF CF)].
Qed.
Print Assumptions C12_ex_vc_execution.

(* two points of the trace: entry 12 is the timeout that ends the transmission of p1 at instant 2 with p0, p2, p3 held:
   the next transmission starts at 2; entry 38 is the put() of p4 at 9 into the idle scheduler: its transmission starts at 9 *)
Theorem C12_ex_vc_trace_points :
  vcfg_ok vcx_cfg /\ vadm vcx_cfg fx_acts /\
  vc_run vcx_cfg (vc0 vcx_cfg) fx_acts = Some (vcx_state 45, vcx_trace 45) /\
  (* C12_vc_back_to_back *)
  vcx_trace 45 = firstn 12 (vcx_trace 45) ++ (FChildTimer, [OForward fx_p1], vcx_state 13) :: skipn 13 (vcx_trace 45) /\
  held (VS vcx_cfg) (vcx_state 13) <> [] /\
  (* C12_vc_no_idle_backlog *)
  vcx_trace 45 = firstn 38 (vcx_trace 45) ++ (FPut fx_p4, [], vcx_state 39) :: skipn 39 (vcx_trace 45) /\
  held (VS vcx_cfg) (vcx_state 39) <> [] /\ (forall e dl, chl (vcx_state 39) <> CTx e dl) /\
  (* conclusions *)
  held (VS vcx_cfg) (vcx_state 13) = [fx_p0; fx_p2; fx_p3] /\ now (vcx_state 13) = 2 /\
  starts_at (VS vcx_cfg) (now (vcx_state 13)) (skipn 13 (vcx_trace 45)) /\
  held (VS vcx_cfg) (vcx_state 39) = [fx_p4] /\ now (vcx_state 39) = 9 /\
  starts_at (VS vcx_cfg) (now (vcx_state 39)) (skipn 39 (vcx_trace 45)).
Proof.
  split; [exact vcx_cfg_ok|]. split; [exact (vcx_adm 45)|]. apply conj_keep; [exact vcx_full|intros HF].
  apply conj_keep; [(apply split_nth; apply vcx_trace_nth; vm_compute; reflexivity)|intros E12].
  apply conj_keep; [vm_compute; discriminate|intros B13].
  apply conj_keep; [(apply split_nth; apply vcx_trace_nth; vm_compute; reflexivity)|intros E38].
  apply conj_keep; [vm_compute; discriminate|intros B39].
  apply conj_keep; [intros e dl H; vm_compute in H; discriminate H|intros C39].
  split; [vm_compute; reflexivity|]. split; [vm_compute; reflexivity|].
  split; [exact (C12_vc_back_to_back _ vcx_cfg_ok _ _ _ (vcx_adm 45) HF _ _ _ _ E12 B13)|].
  split; [vm_compute; reflexivity|]. split; [vm_compute; reflexivity|].
  exact (C12_vc_no_idle_backlog _ vcx_cfg_ok _ _ _ (vcx_adm 45) HF _ _ _ _ _ E38 B39 C39).
Qed.
Print Assumptions C12_ex_vc_trace_points.

(* three steps from reachable states: the start of the transmission of p0 (state after 15 actions), the put() of p5 during it
   (state after 17 actions), the timeout that ends it (state after 20 actions) *)
Theorem C12_ex_vc_one_at_a_time :
  vcfg_ok vcx_cfg /\
  vreach vcx_cfg (vcx_state 15) /\ vc_act vcx_cfg (vcx_state 15) FChildInit = Ok (vcx_state 16, []) /\
  vreach vcx_cfg (vcx_state 17) /\ vc_act vcx_cfg (vcx_state 17) (FPut fx_p5) = Ok (vcx_state 18, []) /\
  chl (vcx_state 17) = CTx fx_e0 4 /\
  vreach vcx_cfg (vcx_state 20) /\ vc_act vcx_cfg (vcx_state 20) FChildTimer = Ok (vcx_state 21, [OForward fx_p0]) /\
  chl (vcx_state 20) = CTx fx_e0 4 /\
  (* conclusions *)
  (current_packet (vcx_state 15) = None /\ chl (vcx_state 15) = CInit fx_e0 /\
   chl (vcx_state 16) = CTx fx_e0 (Qred (now (vcx_state 15) + tx_time (vrate vcx_cfg) (epkt fx_e0))) /\
   current_packet (vcx_state 16) = Some fx_p0 /\ tx_time (vrate vcx_cfg) fx_p0 == 2) /\
  (chl (vcx_state 18) = CTx fx_e0 4 /\ now (vcx_state 18) <= 4) /\
  (4 == now (vcx_state 20) /\ chl (vcx_state 21) = CEnded fx_e0 /\ current_packet (vcx_state 21) = None).
Proof.
  split; [exact vcx_cfg_ok|]. split; [exact (vcx_reach 15)|].
  apply conj_keep; [apply vcx_step; vm_compute; reflexivity|intros A15]. split; [exact (vcx_reach 17)|].
  apply conj_keep; [apply vcx_step; vm_compute; reflexivity|intros A17].
  apply conj_keep; [vm_compute; reflexivity|intros C17]. split; [exact (vcx_reach 20)|].
  apply conj_keep; [apply vcx_step; vm_compute; reflexivity|intros A20].
  apply conj_keep; [vm_compute; reflexivity|intros C20].
  split.
  { destruct (C12_vc_one_at_a_time _ vcx_cfg_ok _ _ _ _ (vcx_reach 15) A15) as (S1 & _ & _).
    destruct (S1 eq_refl) as (N & e & E1 & E2 & E3).
    assert (Ee : e = fx_e0) by (vm_compute in E1; injection E1 as <-; reflexivity). subst e.
    split; [exact N|]. split; [exact E1|]. split; [exact E2|]. split; [exact E3|]. vm_compute; reflexivity. }
  split.
  { destruct (C12_vc_one_at_a_time _ vcx_cfg_ok _ _ _ _ (vcx_reach 17) A17) as (_ & S2 & _).
    destruct (S2 _ _ C17) as [(E & _)|(_ & K & _ & L)]; [discriminate E|]. split; [exact K|exact L]. }
  destruct (C12_vc_one_at_a_time _ vcx_cfg_ok _ _ _ _ (vcx_reach 20) A20) as (_ & S2 & _).
  destruct (S2 _ _ C20) as [(_ & _ & D & K & L)|(N & _)]; [|exfalso; apply N; reflexivity].
  split; [exact D|]. split; [exact K|exact L].
Qed.
Print Assumptions C12_ex_vc_one_at_a_time.
