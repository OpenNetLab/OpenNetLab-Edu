(* C17 -- NON-VACUITY of the theorems of Props/C17.v.
   An implication no reachable state satisfies means nothing: every theorem below is a machine-checked witness that ALL
   hypotheses of the theorems it covers hold together on a concrete, non-trivial instance -- states the sender really
   gets into along two histories (Tcp/SenderExamples.v): a Reno history with a new ACK, two resumptions, three duplicate
   ACKs (fast retransmit), a timer expiry and a cumulative ACK; a CUBIC history that goes through slow start, fast
   retransmit, deflation and two congestion-avoidance ACKs (start of an epoch, running epoch) -- together with what the
   theorem's conclusion says there (window values, segments on the output).

   Coverage (every hypothesis-carrying theorem of Props/C17.v):
     C17_ex_wake                 C17_send_guard, C17_window_respected, C17_wake_never_out_of_fuel
     C17_ex_ack_sends_no_new     C17_only_wake_sends_new_data
     C17_ex_history              C17_segments_consecutive, C17_cwnd_ge_mss, C17_never_zero_div
     C17_ex_new_ack              C17_new_ack_rule, C17_rto_formula, C17_no_deflate_before_third_dup
     C17_ex_reno_ack             C17_reno_ack_rule, C17_gen_reno_ack
     C17_ex_cubic_ack            C17_cubic_ack_rule, C17_gen_cubic_ack_received
     C17_ex_dupacks              C17_early_dup_rule, C17_fast_retransmit_rule, C17_more_dupacks_rule,
                                 C17_oracle_only_in_ack_received
     C17_ex_deflate              C17_deflate_then_count, C17_ack_received_sees_ack_cwnd
     C17_ex_timeout              C17_timeout_rule, C17_rto_doubles
     C17_ex_cubic_run            C17_stepx_is_step, C17_cubic_root_unreachable
     C17_ex_cubic_rules          C17_cubic_epoch_start_rule, C17_cubic_growth_rule, C17_cubic_slow_start_rule,
                                 C17_cubic_cnt_pos, C17_cubic_new_ack_rule
     C17_ex_app_limited          C17_app_send_guard, C17_app_window_respected, C17_app_buffer_respected,
                                 C17_app_other_events
     C17_ex_app_partial_tail     C17_app_partial_tail_waits, C17_app_partial_buffer_is_permanent
     C17_ex_app_writes           (C17_app_send_guard again: writes of 2, 3 and 4 MSS, numbering stays consecutive)
     C17_ex_app_plain            C17_app_plain_is_on_wake
   Unconditional (no hypotheses beyond typing binders): C17_fr_ssthresh_is_max, C17_cubic_friendliness_gain,
     C17_gen_timer_expired, C17_gen_dupack_over, C17_gen_fast_retransmit, C17_gen_more_dupacks, C17_gen_cubic_consts,
     C17_gen_cubic_timer_expired.
   Already a witness (existential statement): C17_deflate_refuted_before_fix. *)
From Coq Require Import ZArith QArith Qabs Qminmax List Lia.
From ONL Require Import Base.Tools Tcp.Sender Tcp.SenderProofs Gen.Extracted_cc Tcp.CcBridge Tcp.Cubic Tcp.CubicProofs
  Tcp.CubicBridge Tcp.SenderExamples Tcp.AppSender Tcp.AppSenderProofs Tcp.AppSenderExamples.
Import ListNotations.
Open Scope Z_scope.

(* the states used below, all on the Reno history [hS2 ++ ...] of Tcp/SenderExamples.v *)
Definition sWk : sender := sender_after (firstn 3 hS2).     (* after wake, ACK 512, hand-off: the process is about to resume *)
Definition sD1 : sender := sender_after (firstn 5 hS2).     (* one duplicate of ACK 512 *)
Definition sD2 : sender := sender_after hS2.                (* two duplicates *)
Definition sD3 : sender := sender_after (hS2 ++ [dupS]).    (* three: fast retransmit done *)

(* ------------------------------------------------------------------------------------------------ *)
(* Covers C17_send_guard, C17_window_respected, C17_wake_never_out_of_fuel: MSS 512 > 0; in [sWk] (last_ack 512, cwnd
   1536, next_seq 1024) the resumption is enabled and emits the two segments 1024 and 1536 -- next_seq moves, and the
   new data in flight, 2048 - 512 = 1536, is exactly the window. *)
Theorem C17_ex_wake :
  0 < mss cS /\
  exists s' outs, on_wake cS sWk = Ok s' outs /\ next_seq sWk < next_seq s' /\
    txs outs = [(1024, 512); (1536, 512)] /\ starts outs = [1024; 1536] /\
    next_seq sWk = 1024 /\ next_seq s' = 2048 /\ last_ack s' = 512 /\ (cwnd s' == 1536 # 1)%Q /\
    (zq (next_seq s' - last_ack s') <= cwnd s')%Q /\
    wake_spec cS (set_store sWk (tokens sWk) (pend sWk) false false) s' [] outs /\
    on_wake cS sWk <> Raise OutOfFuel.
Proof.
  split; [reflexivity|].
  destruct (on_wake cS sWk) as [s' outs|x] eqn:E; [|vm_compute in E; discriminate].
  exists s', outs. split; [reflexivity|].
  apply conj_keep; [vm_compute in E; injection E as <- _; reflexivity|intros Hlt].
  split; [vm_compute in E; injection E as _ <-; reflexivity|].
  split; [vm_compute in E; injection E as _ <-; reflexivity|].
  split; [vm_compute; reflexivity|].
  split; [vm_compute in E; injection E as <- _; reflexivity|].
  split; [vm_compute in E; injection E as <- _; reflexivity|].
  split; [vm_compute in E; injection E as <- _; reflexivity|].
  split; [apply (window_respected cS sWk s' outs); [reflexivity|exact E|exact Hlt]|].
  split; [apply (send_guard cS sWk s' outs); [reflexivity|exact E]|].
  discriminate.
Qed.
Print Assumptions C17_ex_wake.

(* Covers C17_only_wake_sends_new_data: the event is the third duplicate ACK (not EWake), the step succeeds from [sD2]
   and does transmit something -- segment 512 again -- while next_seq stays 2048 and no timer is started. *)
Theorem C17_ex_ack_sends_no_new :
  dupS <> EWake /\
  exists s' outs, step current cS sD2 dupS = Ok s' outs /\ txs outs = [(512, 512)] /\
    next_seq s' = 2048 /\ next_seq sD2 = 2048 /\ in_sent 512 (sent sD2) = true /\
    retransmissions_only sD2 outs.
Proof.
  split; [discriminate|].
  destruct (step current cS sD2 dupS) as [s' outs|x] eqn:E; [|vm_compute in E; discriminate].
  exists s', outs. split; [reflexivity|].
  split; [vm_compute in E; injection E as _ <-; reflexivity|].
  split; [vm_compute in E; injection E as <- _; reflexivity|].
  split; [vm_compute; reflexivity|]. split; [vm_compute; reflexivity|].
  apply (only_wake_sends_new_data current cS sD2 dupS s' outs); [discriminate|exact E].
Qed.
Print Assumptions C17_ex_ack_sends_no_new.

(* Covers C17_segments_consecutive, C17_cwnd_ge_mss, C17_never_zero_div: the repaired code (fx_deflate3), MSS 512 > 0,
   initial window 1024 >= MSS; the history [hSca] of 11 events from the initial state runs without exception, its new
   segments are 0, 512, ..., 3072 = seg_ids 512 0 7; the window ends at 1536 >= 512 -- and on the shorter history that
   stops at the timer expiry it is EXACTLY one MSS, so the bound is attained; the next event after [hSca], a new ACK in
   congestion avoidance (cwnd 1536 > ssthresh 1024: the division MSS*MSS/cwnd is executed), succeeds: cwnd = 5120/3. *)
Theorem C17_ex_history :
  fx_deflate3 current = true /\ 0 < mss cS /\ (zq (mss cS) <= 1024 # 1)%Q /\
  exists s' outs, run current cS (init (1024 # 1) (65535 # 1) (1 # 16)) hSca = Ok s' outs /\ length hSca = 11%nat /\
    starts outs = [0; 512; 1024; 1536; 2048; 2560; 3072] /\ starts outs = seg_ids (mss cS) 0 7 /\
    next_seq s' = Z.of_nat 7 * mss cS /\ (cwnd s' == 1536 # 1)%Q /\ (zq (mss cS) <= cwnd s')%Q /\
    (exists s1 o1, run current cS (init (1024 # 1) (65535 # 1) (1 # 16)) (hS2 ++ [dupS; EExpire 1024]) = Ok s1 o1 /\
                   (cwnd s1 == zq (mss cS))%Q) /\
    (exists s2 o2, step current cS s' (EAck 2560 2048 (1 # 4) 0) = Ok s2 o2 /\ (cwnd s2 == 5120 # 3)%Q /\
                   ~ (cwnd s' <= ssthresh s')%Q) /\
    step current cS s' (EAck 2560 2048 (1 # 4) 0) <> Raise ZeroDiv.
Proof.
  split; [reflexivity|]. split; [reflexivity|]. split; [cbn; discriminate|].
  destruct (run current cS (init (1024 # 1) (65535 # 1) (1 # 16)) hSca) as [s' outs|x] eqn:E; [|vm_compute in E; discriminate].
  exists s', outs. split; [reflexivity|]. split; [reflexivity|].
  split; [vm_compute in E; injection E as _ <-; reflexivity|].
  split; [vm_compute in E; injection E as _ <-; reflexivity|].
  split; [vm_compute in E; injection E as <- _; reflexivity|].
  split; [vm_compute in E; injection E as <- _; reflexivity|].
  split; [apply (cwnd_ge_mss current cS (1024 # 1) (65535 # 1) (1 # 16) hSca s' outs);
          [reflexivity|reflexivity|cbn; discriminate|exact E]|].
  split; [eexists; eexists; split; [vm_compute; reflexivity|vm_compute; reflexivity]|].
  split.
  - destruct (step current cS s' (EAck 2560 2048 (1 # 4) 0)) as [s2 o2|x] eqn:E2;
      [|vm_compute in E; injection E as <- _; vm_compute in E2; discriminate].
    exists s2, o2. split; [reflexivity|].
    vm_compute in E; injection E as <- _. vm_compute in E2. injection E2 as <- _.
    split; [reflexivity|apply Qlt_not_le; reflexivity].
  - apply (never_zero_div current cS (1024 # 1) (65535 # 1) (1 # 16) hSca s' outs);
      [reflexivity|reflexivity|cbn; discriminate|exact E].
Qed.
Print Assumptions C17_ex_history.

(* Covers C17_new_ack_rule, C17_rto_formula, C17_no_deflate_before_third_dup: in [sD2] (last_ack 512, dupack 2, cwnd
   1536, segments 512, 1024, 1536 in flight) the new ACK 1536 arrives: repaired code, 1536 <> last_ack, 0 < dupack < 3,
   cc_ack and stop_all succeed (the timers of 512 and 1024 are stopped).  The window is NOT deflated: 1536 + 512 = 2048
   (slow start), last_ack = 1536, dupack = 0, RTO = srtt + 4 rttvar. *)
Theorem C17_ex_new_ack :
  fx_deflate3 current = true /\ 1536 <> last_ack sD2 /\ 0 <= dupack sD2 < 3 /\ 0 < dupack sD2 < 3 /\
  (exists cw ccnt cn t se outs,
     cc_ack cS (cwnd sD2) (ssthresh sD2) (cwnd_cnt sD2) (cnt sD2) 0 = Some (cw, ccnt, cn) /\
     stop_all (acked_ids current cS sD2 1536 1024) (timers sD2) (sent sD2) [] = Some (t, se, outs) /\
     outs = [TStop 512; TStop 1024] /\ se = [1536] /\ (cw == 2048 # 1)%Q) /\
  exists s' o, on_ack current cS sD2 1536 1024 (1 # 4) 0 = Ok s' o /\
    on_ack current cS sD2 1536 1024 (1 # 4) 0 = on_ack current cS (set_dupack sD2 0) 1536 1024 (1 # 4) 0 /\
    (cwnd sD2 == 1536 # 1)%Q /\ (cwnd s' == 2048 # 1)%Q /\ last_ack s' = 1536 /\ dupack s' = 0 /\
    (srtt s' == srtt sD2 + ((1 # 4) - srtt sD2) / (8 # 1))%Q /\ (rto s' == srtt s' + (4 # 1) * rttvar s')%Q.
Proof.
  assert (Hd : dupack sD2 = 2) by (vm_compute; reflexivity).
  split; [reflexivity|]. split; [vm_compute; discriminate|].
  split; [rewrite Hd; lia|]. split; [rewrite Hd; lia|].
  split; [do 6 eexists; split; [vm_compute; reflexivity|]; split; [vm_compute; reflexivity|];
          split; [reflexivity|]; split; reflexivity|].
  destruct (on_ack current cS sD2 1536 1024 (1 # 4) 0) as [s' o|x] eqn:E; [|vm_compute in E; discriminate].
  exists s', o. split; [reflexivity|].
  split; [rewrite <- E; apply no_deflate_before_third_dup; [reflexivity|vm_compute; discriminate|rewrite Hd; lia]|].
  split; [vm_compute; reflexivity|].
  split; [vm_compute in E; injection E as <- _; reflexivity|].
  destruct (rto_formula current cS sD2 1536 1024 (1 # 4) 0 s' o) as (F1 & F2 & F3 & F4 & F5);
    [vm_compute; discriminate|vm_compute; discriminate|exact E|].
  repeat split; assumption.
Qed.
Print Assumptions C17_ex_new_ack.

(* Covers C17_reno_ack_rule and C17_gen_reno_ack: a Reno configuration and a window <> 0, in both regimes: slow start
   (cwnd 1024 <= ssthresh 65535: + MSS) and congestion avoidance (cwnd 1536 > ssthresh 1024: + 512*512/1536). *)
Theorem C17_ex_reno_ack :
  calg cS = Reno /\ ~ ((1024 # 1) == 0)%Q /\ ~ ((1536 # 1) == 0)%Q /\
  (exists cw', cc_ack cS (1024 # 1) (65535 # 1) 0 0 0 = Some (cw', 0, 0%Q) /\ (cw' == 1536 # 1)%Q /\
               (cw' == x_cwnd (g_TCPReno_ack_received (mkcc (zq (mss cS)) (1024 # 1) (65535 # 1))))%Q) /\
  (exists cw', cc_ack cS (1536 # 1) (1024 # 1) 0 0 0 = Some (cw', 0, 0%Q) /\ (cw' == 5120 # 3)%Q /\
               (cw' == x_cwnd (g_TCPReno_ack_received (mkcc (zq (mss cS)) (1536 # 1) (1024 # 1))))%Q).
Proof.
  split; [reflexivity|]. split; [cbn; discriminate|]. split; [cbn; discriminate|].
  split; eexists; (split; [vm_compute; reflexivity|]); split; vm_compute; reflexivity.
Qed.
Print Assumptions C17_ex_reno_ack.

(* Covers C17_cubic_ack_rule and C17_gen_cubic_ack_received (one hypothesis: the configuration is CUBIC), in the three
   branches of the rule: slow start; congestion avoidance with cnt < cwnd_cnt (window grows, counter reset); and with
   cnt >= cwnd_cnt (counter incremented). *)
Theorem C17_ex_cubic_ack :
  calg cX = Cubic /\
  cc_ack cX (1280 # 1) (1280 # 1) 0 0 (7 # 1) = Some (((1280 # 1) + zq 512)%Q, 0, 0%Q) /\
  cc_ack cX (1792 # 1) (1280 # 1) 3 0 (2 # 1) = Some (((1792 # 1) + zq 512)%Q, 0, (2 # 1)%Q) /\
  cc_ack cX (1792 # 1) (1280 # 1) 1 0 (35840 # 1) = Some ((1792 # 1)%Q, 2, (35840 # 1)%Q).
Proof. repeat split; reflexivity. Qed.
Print Assumptions C17_ex_cubic_ack.

(* Covers C17_early_dup_rule (state [sD1]: dupack 1, 1 + 1 < 3), C17_fast_retransmit_rule and
   C17_oracle_only_in_ack_received (state [sD2]: dupack 2, the segment at last_ack = 512 is in flight; a duplicate does
   not reach ack_received()), C17_more_dupacks_rule (state [sD3]: dupack 3, cwnd 2560 >= 0, MSS > 0, 512 in flight).
   What happens: sD1 -> sD2 without output; sD2 -> sD3 with ssthresh = max(1024, 1536/2) = 1024, cwnd = 1024 + 3*512,
   Tx 512; from sD3 a fourth duplicate gives cwnd 3072 and Tx 512 again. *)
Theorem C17_ex_dupacks :
  (0 <= dupack sD1 /\ dupack sD1 + 1 < 3 /\ last_ack sD1 = 512 /\
   on_ack current cS sD1 512 0 (1 # 8) 0 = Ok sD2 []) /\
  (dupack sD2 = 2 /\ in_sent (last_ack sD2) (sent sD2) = true /\ ack_counts sD2 512 = false /\ last_ack sD2 = 512 /\
   (cwnd sD2 == 1536 # 1)%Q /\
   exists s', on_ack current cS sD2 512 0 (1 # 8) 0 = Ok s' [Tx 512 512] /\ dupack s' = 3 /\
              (ssthresh s' == 1024 # 1)%Q /\ (cwnd s' == 2560 # 1)%Q /\
              on_ack current cS sD2 512 0 (1 # 8) (99 # 1) = Ok s' [Tx 512 512]) /\
  (3 <= dupack sD3 /\ (0 <= cwnd sD3)%Q /\ 0 < mss cS /\ in_sent (last_ack sD3) (sent sD3) = true /\ last_ack sD3 = 512 /\
   exists s', on_ack current cS sD3 512 0 (1 # 8) 0 = Ok s' [Tx 512 512] /\ dupack s' = 4 /\
              (ssthresh s' == 1024 # 1)%Q /\ (cwnd s' == 3072 # 1)%Q).
Proof.
  split; [|split].
  - split; [vm_compute; discriminate|]. split; [vm_compute; reflexivity|]. split; [vm_compute; reflexivity|].
    vm_compute. reflexivity.
  - split; [vm_compute; reflexivity|]. split; [vm_compute; reflexivity|]. split; [vm_compute; reflexivity|].
    split; [vm_compute; reflexivity|]. split; [vm_compute; reflexivity|].
    eexists. split; [vm_compute; reflexivity|]. repeat split; vm_compute; reflexivity.
  - split; [vm_compute; discriminate|]. split; [vm_compute; discriminate|]. split; [reflexivity|].
    split; [vm_compute; reflexivity|]. split; [vm_compute; reflexivity|].
    eexists. split; [vm_compute; reflexivity|]. repeat split; vm_compute; reflexivity.
Qed.
Print Assumptions C17_ex_dupacks.

(* Covers C17_deflate_then_count and C17_ack_received_sees_ack_cwnd: in [sD3] (after fast retransmit: dupack 3, cwnd
   2560, ssthresh 1024) the new cumulative ACK 2048 arrives; repaired code, 2048 <> last_ack, 3 <= dupack, the ACK
   counts.  ack_received() sees cwnd = ssthresh = 1024 (deflated), and then counts: slow start, 1024 + 512 = 1536. *)
Theorem C17_ex_deflate :
  fx_deflate3 current = true /\ 2048 <> last_ack sD3 /\ 3 <= dupack sD3 /\ ack_counts sD3 2048 = true /\ 0 <= dupack sD3 /\
  (cwnd sD3 == 2560 # 1)%Q /\ (ack_cwnd current sD3 2048 == 1024 # 1)%Q /\
  on_ack current cS sD3 2048 1024 (1 # 4) 0 =
  on_ack current cS (set_dupack (set_cc sD3 (ssthresh sD3) (ssthresh sD3)) 0) 2048 1024 (1 # 4) 0 /\
  exists s' o, on_ack current cS sD3 2048 1024 (1 # 4) 0 = Ok s' o /\ (cwnd s' == 1536 # 1)%Q /\
               o = [TStop 512; TStop 1024; TStop 1536] /\ dupack s' = 0 /\ last_ack s' = 2048.
Proof.
  split; [reflexivity|]. split; [vm_compute; discriminate|]. split; [vm_compute; discriminate|].
  split; [vm_compute; reflexivity|]. split; [vm_compute; discriminate|].
  split; [vm_compute; reflexivity|]. split; [vm_compute; reflexivity|].
  split; [apply deflate_then_count; [reflexivity|vm_compute; discriminate|vm_compute; discriminate]|].
  eexists. eexists. split; [vm_compute; reflexivity|]. repeat split; vm_compute; reflexivity.
Qed.
Print Assumptions C17_ex_deflate.

(* Covers C17_timeout_rule and C17_rto_doubles: in [sD3] segment 1024 has a timer and is in flight: its expiry sets
   cwnd = 512, retransmits 1024 and re-arms with the doubled RTO; the ACK-free history of three expiries (1024, 512,
   1024 again) multiplies the RTO by 2^3. *)
Theorem C17_ex_timeout :
  has_timer 1024 (timers sD3) = true /\ in_sent 1024 (sent sD3) = true /\
  (exists s', on_timer current cS sD3 1024 = Ok s' [Tx 1024 512; TRestart 1024 (rto sD3 * (2 # 1))%Q] /\
              (cwnd s' == 512 # 1)%Q /\ (rto sD3 == 17 # 128)%Q /\ (rto s' == 17 # 64)%Q) /\
  0 < mss cS /\ no_ack [EExpire 1024; EExpire 512; EExpire 1024] /\
  expiries [EExpire 1024; EExpire 512; EExpire 1024] = 3%nat /\
  exists s' outs, run current cS sD3 [EExpire 1024; EExpire 512; EExpire 1024] = Ok s' outs /\
    txs outs = [(1024, 512); (512, 512); (1024, 512)] /\ (rto s' == 17 # 16)%Q /\
    (rto s' == rto sD3 * inject_Z (2 ^ Z.of_nat 3))%Q.
Proof.
  split; [vm_compute; reflexivity|]. split; [vm_compute; reflexivity|].
  split; [eexists; split; [apply timeout_rule; vm_compute; reflexivity|]; repeat split; vm_compute; reflexivity|].
  split; [reflexivity|]. split; [exact I|]. split; [reflexivity|].
  eexists. eexists. split; [vm_compute; reflexivity|]. repeat split; vm_compute; reflexivity.
Qed.
Print Assumptions C17_ex_timeout.

(* ------------------------------------------------------------------------------------------------ *)
(* CUBIC.  The history [hX4] (Tcp/SenderExamples.v): 12 events with the clock.
   Covers C17_cubic_root_unreachable (repaired code, MSS 512 > 0, initial window 2048 >= MSS: the run is not XCubicRoot
   -- it is XOk, and it did go through cubic_update twice) and C17_stepx_is_step (the 11th event, the ACK 3584 that
   starts the epoch, is an XOk step of the composed model: cnt becomes 286720, epoch_start = now = 5/4). *)
Theorem C17_ex_cubic_run :
  fx_deflate3 current = true /\ 0 < mss cX /\ (zq (mss cX) <= 2048 # 1)%Q /\ length hX4 = 12%nat /\
  (exists s cs o, runx current cX (init (2048 # 1) (65535 # 1) (1 # 4)) cubic0 hX4 = XOk s cs o /\
     txs o = [(0, 512); (512, 512); (1024, 512); (1536, 512); (2048, 512); (2560, 512); (512, 512);
              (3072, 512); (3584, 512); (4096, 512)] /\
     (cwnd s == 1792 # 1)%Q /\ (ssthresh s == 1280 # 1)%Q /\ cwnd_cnt s = 2 /\ (cnt s == 35840 # 1)%Q /\
     (c_epoch cs == 5 # 4)%Q /\ (c_origin cs == 1792 # 1)%Q) /\
  runx current cX (init (2048 # 1) (65535 # 1) (1 # 4)) cubic0 hX4 <> XCubicRoot /\
  (exists s' cs' o, stepx current cX (fst (xafter hX2)) (snd (xafter hX2)) (XAck 3584 3072 (1 # 4) (5 # 4)) = XOk s' cs' o /\
     (cnt s' == 286720 # 1)%Q /\ cwnd_cnt s' = 1 /\ (c_epoch cs' == 5 # 4)%Q /\
     exists ev, step current cX (fst (xafter hX2)) ev = Ok s' o /\
                match ev with EAck a p sm _ => 3584 = a /\ 3072 = p /\ (1 # 4) = sm | _ => False end).
Proof.
  split; [reflexivity|]. split; [reflexivity|]. split; [cbn; discriminate|]. split; [reflexivity|].
  split; [do 3 eexists; split; [vm_compute; reflexivity|]; repeat split; vm_compute; reflexivity|].
  split; [apply cubic_root_unreachable; [reflexivity|reflexivity|cbn; discriminate]|].
  destruct (stepx current cX (fst (xafter hX2)) (snd (xafter hX2)) (XAck 3584 3072 (1 # 4) (5 # 4))) as [s' cs' o| |] eqn:E;
    [|vm_compute in E; discriminate|vm_compute in E; discriminate].
  exists s', cs', o. split; [reflexivity|].
  split; [vm_compute in E; injection E as <- _ _; reflexivity|].
  split; [vm_compute in E; injection E as <- _ _; reflexivity|].
  split; [vm_compute in E; injection E as _ <- _; reflexivity|].
  destruct (stepx_is_step current cX _ _ _ s' cs' o E) as (ev & Hs & Hm).
  exists ev. split; [exact Hs|]. destruct ev; exact Hm.
Qed.
Print Assumptions C17_ex_cubic_run.

(* Covers C17_cubic_epoch_start_rule, C17_cubic_growth_rule, C17_cubic_slow_start_rule, C17_cubic_cnt_pos and
   C17_cubic_new_ack_rule, on the CUBIC epoch states the history really produces:
   (a) [csA] after [hX2] (no epoch running, d_min 1/4), cwnd 1792 > ssthresh 1280, W_last_max = 0: the ACK at t = 5/4 starts
       an epoch -- epoch_start 5/4, origin_point 1792, K = 0, cnt = 1792 / (0.4 * (1/4)^3) = 286720 > 0;
   (b) [csB] after [hX3] (epoch running since 5/4): the ACK at t = 3/2 gives t - K = 1/2, cnt = 1792 / (0.4 / 8) = 35840 > 0;
   (c) [csS] after [hX1], cwnd = ssthresh = 1280 (slow start): cubic_update is not called, cnt unchanged (None);
   (d) the new-ACK rule of TCPCubic in the sender states of (a) (no duplicates pending) and of (c) (dupack 3: the window
       ack_received() sees is the deflated one, 1280). *)
Theorem C17_ex_cubic_rules :
  let sA := fst (xafter hX2) in let csA := snd (xafter hX2) in
  let csB := snd (xafter hX3) in
  let sS := fst (xafter hX1) in let csS := snd (xafter hX1) in
  (~ ((1792 # 1) <= (1280 # 1))%Q /\ (c_epoch csA <= 0)%Q /\ ~ ((1792 # 1) < c_wlast csA)%Q /\ (0 < 1792 # 1)%Q /\
   exists cs' q, cubic_ack csA (1792 # 1) (1280 # 1) (1 # 4) (5 # 4) = CubOk cs' (Some q) /\
     (q == 286720 # 1)%Q /\ (0 < q)%Q /\ (c_epoch cs' == 5 # 4)%Q /\ (c_origin cs' == 1792 # 1)%Q /\ (c_k cs' == 0)%Q) /\
  (~ ((1792 # 1) <= (1280 # 1))%Q /\ (0 < c_epoch csB)%Q /\
   exists cs' q, cubic_ack csB (1792 # 1) (1280 # 1) (1 # 4) (3 # 2) = CubOk cs' (Some q) /\
     (q == 35840 # 1)%Q /\ (0 < q)%Q /\ (c_epoch cs' == 5 # 4)%Q) /\
  (((1280 # 1) <= (1280 # 1))%Q /\
   exists cs', cubic_ack csS (1280 # 1) (1280 # 1) (1 # 2) (1 # 1) = CubOk cs' None /\ (c_dmin cs' == 1 # 4)%Q) /\
  (calg cX = Cubic /\ ack_counts sA 3584 = true /\ 0 <= dupack sA /\ (ack_cwnd current sA 3584 == 1792 # 1)%Q /\
   (exists cs' q, cubic_ack csA (ack_cwnd current sA 3584) (ssthresh sA) (1 # 4) (5 # 4) = CubOk cs' (Some q) /\
                  (q == 286720 # 1)%Q) /\
   ack_counts sS 3072 = true /\ 0 <= dupack sS /\ dupack sS = 3 /\ (cwnd sS == 2816 # 1)%Q /\
   (ack_cwnd current sS 3072 == 1280 # 1)%Q /\
   (exists cs', cubic_ack csS (ack_cwnd current sS 3072) (ssthresh sS) (1 # 2) (1 # 1) = CubOk cs' None)).
Proof.
  cbv zeta. split; [|split; [|split]].
  - split; [apply Qlt_not_le; reflexivity|]. split; [vm_compute; discriminate|].
    split; [apply Qle_not_lt; vm_compute; discriminate|]. split; [reflexivity|].
    eexists. eexists. split; [vm_compute; reflexivity|]. repeat split; vm_compute; reflexivity.
  - split; [apply Qlt_not_le; reflexivity|]. split; [vm_compute; reflexivity|].
    eexists. eexists. split; [vm_compute; reflexivity|]. repeat split; vm_compute; reflexivity.
  - split; [apply Qle_refl|]. eexists. split; [vm_compute; reflexivity|]. vm_compute; reflexivity.
  - split; [reflexivity|]. split; [vm_compute; reflexivity|]. split; [vm_compute; discriminate|].
    split; [vm_compute; reflexivity|].
    split; [eexists; eexists; split; [vm_compute; reflexivity|vm_compute; reflexivity]|].
    split; [vm_compute; reflexivity|]. split; [vm_compute; discriminate|]. split; [vm_compute; reflexivity|].
    split; [vm_compute; reflexivity|]. split; [vm_compute; reflexivity|].
    eexists. vm_compute. reflexivity.
Qed.
Print Assumptions C17_ex_cubic_rules.

(* ------------------------------------------------------------------------------------------------ *)
(* The sender with an application process (Tcp/AppSenderExamples.v).
   Covers C17_app_send_guard, C17_app_window_respected, C17_app_buffer_respected, C17_app_other_events: one MSS of data
   per second, RTO 3/4 s, window 4 MSS, no ACKs.  Asleep until t = 1 ([sA 1]); the write at t = 1 resumes run(), segment 0
   goes out inside the window 2048 and inside the 512 buffered bytes; its timer expires at 7/4 (an event of Tcp/Sender.v:
   cwnd := 512) while run() sleeps for the next write; at t = 2 the write is taken (send_buffer 1024) but NOTHING is sent:
   next_seq + MSS = 1024 exceeds last_ack + cwnd = 512, the window in force at that resumption. *)
Theorem C17_ex_app_limited :
  0 < mss (ac_cfg acA) /\ (exists now, AAppWake 1 = AWake now \/ AAppWake 1 = AAppWake now) /\
  fetch_ok acA (sA 1) /\ (forall d, ap_sleep (aA 1) = Some (true, d) -> send_buffer (sA 1) <= next_seq (sA 1)) /\
  ap_sleep (aA 1) = Some (true, 1%Q) /\
  astep fxA 100 acA (sA 1) (aA 1) (AAppWake 1) = AOk (sA 2) (aA 2) [Tx 0 512; TStart 0 (6 # 8)] /\
  next_seq (sA 1) < next_seq (sA 2) /\ next_seq (sA 2) = 512 /\ send_buffer (sA 2) = 512 /\
  (zq (next_seq (sA 2) - last_ack (sA 1)) <= cwnd (sA 1))%Q /\ (cwnd (sA 1) == 2048 # 1)%Q /\
  (forall i z, In (Tx i z) [Tx 0 512; TStart 0 (6 # 8)] -> i + mss (ac_cfg acA) <= send_buffer (sA 2)) /\
  EExpire 0 <> EWake /\
  astep fxA 100 acA (sA 2) (aA 2) (AEv (EExpire 0)) =
    match step fxA (ac_cfg acA) (sA 2) (EExpire 0) with Ok s' o => AOk s' (aA 2) o | Raise x => ARaise x end /\
  (cwnd (sA 3) == 512 # 1)%Q /\ ap_sleep (aA 3) = Some (true, 2 # 1) /\
  astep fxA 100 acA (sA 3) (aA 3) (AAppWake (2 # 1)) = AOk (sA 4) (aA 4) [] /\
  next_seq (sA 4) = 512 /\ send_buffer (sA 4) = 1024 /\ waiting (sA 4) = true /\ last_ack (sA 4) = 0.
Proof.
  split; [reflexivity|]. split; [exists 1%Q; right; reflexivity|].
  split; [vm_compute; left; reflexivity|].
  split; [intros d _; vm_compute; discriminate|].
  split; [vm_compute; reflexivity|]. split; [vm_compute; reflexivity|].
  split; [vm_compute; reflexivity|]. split; [vm_compute; reflexivity|]. split; [vm_compute; reflexivity|].
  split; [vm_compute; discriminate|]. split; [vm_compute; reflexivity|].
  split; [intros i z [H|[H|[]]]; [injection H as <- _; vm_compute; discriminate|discriminate]|].
  split; [discriminate|]. split; [reflexivity|].
  split; [vm_compute; reflexivity|]. split; [vm_compute; reflexivity|]. split; [vm_compute; reflexivity|].
  repeat split; vm_compute; reflexivity.
Qed.
Print Assumptions C17_ex_app_limited.

(* Covers C17_app_partial_tail_waits, C17_app_partial_buffer_is_permanent: a bulk flow of 1280 bytes = 2.5 MSS.  The
   first resumption sends segments 0 and 512 and buffers the last 256 bytes ([sP]: next_seq 1024, send_buffer 1280);
   they are never sent: run() waits on its store, is not finished, and a later resumption (store token) changes nothing. *)
Definition sPw : sender := set_store sP O O false true.
Theorem C17_ex_app_partial_tail :
  txs (snd stP) = [(0, 512); (512, 512)] /\ next_seq sP = 1024 /\ send_buffer sP = 1280 /\
  waiting sP = true /\ finished sP = false /\
  match ac_finish acP with Some ft => (1 < ft)%Q | None => True end /\
  (fsize (ac_cfg acP) = 0 \/ next_seq sPw < fsize (ac_cfg acP)) /\
  next_seq sPw < send_buffer sPw < next_seq sPw + mss (ac_cfg acP) /\
  wake sPw = true /\ finished sPw = false /\ ap_sleep aP = None /\ ap_started aP = true /\
  arun 2 acP 1 MOuter sPw aP [] = AOk (set_store sPw O (pend sPw) true false) aP [] /\
  exists s', astep fxA 2 acP sPw aP (AWake 1) = AOk s' aP [] /\ next_seq s' = 1024 /\ send_buffer s' = 1280 /\ finished s' = false.
Proof.
  split; [vm_compute; reflexivity|]. split; [vm_compute; reflexivity|]. split; [vm_compute; reflexivity|].
  split; [vm_compute; reflexivity|]. split; [vm_compute; reflexivity|]. split; [exact I|].
  split; [right; vm_compute; reflexivity|]. split; [vm_compute; split; reflexivity|].
  split; [reflexivity|]. split; [vm_compute; reflexivity|]. split; [vm_compute; reflexivity|]. split; [vm_compute; reflexivity|].
  split; [vm_compute; reflexivity|].
  eexists. split; [vm_compute; reflexivity|]. repeat split.
Qed.
Print Assumptions C17_ex_app_partial_tail.

(* Application writes of 1024, 1536 and 2048 bytes, 1/4 s apart, window 16 MSS: nine segments 0, 512, ..., 4096, each of
   one MSS, numbered consecutively whatever the size of the write that made them available. *)
Theorem C17_ex_app_writes :
  txs (snd (stW 3)) = [(0, 512); (512, 512); (1024, 512); (1536, 512); (2048, 512); (2560, 512); (3072, 512); (3584, 512); (4096, 512)] /\
  starts (snd (stW 3)) = seg_ids 512 0 9 /\ next_seq (sW 3) = 4608 /\ send_buffer (sW 3) = 4608 /\
  send_buffer (sW 1) = 1024 /\ send_buffer (sW 2) = 2560.
Proof. repeat split; vm_compute; reflexivity. Qed.
Print Assumptions C17_ex_app_writes.

(* No application configured, on the Reno history of Tcp/SenderExamples.v: the plain configuration over [cS]
   (MSS 512, 4096 bytes) satisfies the hypotheses of C17_app_plain_is_on_wake; in [sWk] (after wake, ACK 512,
   hand-off) Sender.on_wake sends segments 1024 and 1536 and then waits on the store, and the application
   layer's run(), resumed in the same state, does exactly the same -- with fuel 12 and with fuel 5000. *)
Definition acS : acfg := mkacfg cS 0 None None None.
Theorem C17_ex_app_plain :
  ac_arr acS = None /\ ac_siz acS = None /\ ac_finish acS = None /\ Qeq_bool (ac_start acS) 0 = true /\
  0 < mss (ac_cfg acS) /\ ap_sleep app0 = None /\
  (exists s', on_wake (ac_cfg acS) sWk = Ok s' [Tx 1024 512; TStart 1024 (rto sWk); Tx 1536 512; TStart 1536 (rto sWk)] /\
     next_seq s' = 2048 /\ waiting s' = true /\
     astep fxA 12 acS sWk app0 (AWake 1) = AOk s' (mkapp 0 None true O O) [Tx 1024 512; TStart 1024 (rto sWk); Tx 1536 512; TStart 1536 (rto sWk)] /\
     astep fxA 5000 acS sWk app0 (AWake 1) = astep fxA 12 acS sWk app0 (AWake 1)).
Proof.
  split; [reflexivity|]. split; [reflexivity|]. split; [reflexivity|]. split; [reflexivity|].
  split; [reflexivity|]. split; [reflexivity|].
  eexists. split; [vm_compute; reflexivity|]. split; [reflexivity|]. split; [reflexivity|].
  split; vm_compute; reflexivity.
Qed.
Print Assumptions C17_ex_app_plain.
