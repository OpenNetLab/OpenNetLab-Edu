(* C08, the Wire's share -- NON-VACUITY of Props/C08_Wire.v: for every theorem there that has hypotheses, a concrete non-trivial
   execution that satisfies all of them at once, with the instantiated conclusion.
   Witness (Elem/WireProofs.v, ex_acts): loss rate 1/4, four packets of two flows; p0 propagates until 2, p1 queues behind it,
   p2 is lost on its draw, p3 arrives at an idle wire.
     C08_ex_wire_run                    covers C08_wire_conserves, C08_wire_flow_fifo            (hyp: admissible execution)
     C08_ex_wire_held                   covers C08_wire_conserves_uids (and conserves, with a packet still propagating)
     C08_ex_wire_delivers_what_was_put  covers C08_wire_delivers_what_was_put                    (+ nth_error premise)
     C08_ex_wire_drained                covers C08_wire_drained   (reachable, no timeout pending, nothing but put/advance enabled)
   No theorem of Props/C08_Wire.v is unconditional.
   The conclusions are obtained by applying the theorem to the witness ([C08_x] below abbreviates the lemma that closes theorem
   C08_x in Props/C08_Wire.v), except the drained conclusion (nothing held), which is evaluated on the final state together with
   its hypotheses.  Every `Theorem` is a witness and is followed by Print Assumptions. *)
From Coq Require Import ZArith QArith List Bool Permutation.
From ONL Require Import Base.Tools Elem.Packet Elem.StoreQ Elem.Wire Elem.WireProofs.
Import ListNotations.

Local Notation C08_wire_conserves := wire_conserves.
Local Notation C08_wire_conserves_uids := wire_conserves_uids.
Local Notation C08_wire_delivers_what_was_put := wire_delivers_what_was_put.
Local Notation C08_wire_flow_fifo := wire_flow_fifo.

(* covers: C08_wire_conserves, C08_wire_flow_fifo -- the complete example execution (one packet lost, nothing held at the end) *)
Theorem C08_ex_wire_run :
  exists w tr, wire_run ex_loss (wire0 0) ex_acts = Some (w, tr) /\
    map snd (arrivals tr) = [ex_p 0; ex_p 1; ex_p 2; ex_p 3] /\
    map snd (tdeliv tr) = [ex_p 0; ex_p 1; ex_p 3] /\ map snd (tlost tr) = [ex_p 2] /\ wheld w = [] /\
    Permutation (map snd (arrivals tr)) (map snd (tdeliv tr) ++ map snd (tlost tr) ++ wheld w) /\
    subseq (filter (fun p => Z.eqb (flow p) 1) (map snd (tdeliv tr)))
           (filter (fun p => Z.eqb (flow p) 1) (map snd (arrivals tr))) /\
    filter (fun p => Z.eqb (flow p) 1) (map snd (tdeliv tr)) = [ex_p 1; ex_p 3].
Proof.
  destruct (run_facts (wire_run ex_loss (wire0 0) ex_acts) (fun _ _ => True)) as (w & tr & E & _); [vm_compute; exact I|].
  exists w, tr. split; [exact E|].
  pose proof (C08_wire_conserves _ _ _ _ _ E) as HC. pose proof (C08_wire_flow_fifo _ _ _ _ _ E 1%Z) as HF.
  repeat split; try exact HC; try exact HF; pattern w, tr; apply (run_elim _ _ _ _ E); vm_compute; reflexivity.
Qed.
Print Assumptions C08_ex_wire_run.

(* covers: C08_wire_conserves_uids (and C08_wire_conserves) -- the same execution stopped after 17 actions: p3 is propagating *)
Theorem C08_ex_wire_held :
  exists w tr, wire_run ex_loss (wire0 0) (firstn 17 ex_acts) = Some (w, tr) /\
    map snd (arrivals tr) = [ex_p 0; ex_p 1; ex_p 2; ex_p 3] /\
    map snd (tdeliv tr) = [ex_p 0; ex_p 1] /\ map snd (tlost tr) = [ex_p 2] /\ wheld w = [ex_p 3] /\
    Permutation (map uid (map snd (arrivals tr)))
                (map uid (map snd (tdeliv tr)) ++ map uid (map snd (tlost tr)) ++ map uid (wheld w)).
Proof.
  destruct (run_facts (wire_run ex_loss (wire0 0) (firstn 17 ex_acts)) (fun _ _ => True)) as (w & tr & E & _); [vm_compute; exact I|].
  exists w, tr. split; [exact E|].
  pose proof (C08_wire_conserves_uids _ _ _ _ _ E) as HC.
  repeat split; try exact HC; pattern w, tr; apply (run_elim _ _ _ _ E); vm_compute; reflexivity.
Qed.
Print Assumptions C08_ex_wire_held.

(* covers: C08_wire_delivers_what_was_put -- the second delivery (p1, at 2) is the packet put in at 1 *)
Theorem C08_ex_wire_delivers_what_was_put :
  exists w tr t, wire_run ex_loss (wire0 0) ex_acts = Some (w, tr) /\
    nth_error (tdeliv tr) 1 = Some (t, ex_p 1) /\ t == 2 /\
    exists i a, nth_error (arrivals tr) i = Some (a, ex_p 1) /\ a <= t.
Proof.
  destruct (run_facts (wire_run ex_loss (wire0 0) ex_acts) (fun _ tr => nth_error (tdeliv tr) 1 = Some (2, ex_p 1)))
    as (w & tr & E & Hk); [vm_compute; reflexivity|].
  exists w, tr, 2. split; [exact E|]. split; [exact Hk|]. split; [reflexivity|].
  exact (C08_wire_delivers_what_was_put _ _ _ _ _ E 1%nat _ _ Hk).
Qed.
Print Assumptions C08_ex_wire_delivers_what_was_put.

(* covers: C08_wire_drained -- the final state: reachable by an execution with four arrivals, nothing but put / advance enabled *)
Theorem C08_ex_wire_drained :
  exists w, (exists acts tr, wire_run ex_loss (wire0 0) acts = Some (w, tr) /\ length (arrivals tr) = 4%nat) /\
    hold w = None /\
    (forall a, (forall p, a <> WPut p) -> (forall t, a <> WAdvance t) -> wire_act ex_loss w a = None) /\
    wheld w = [].
Proof.
  destruct (run_facts (wire_run ex_loss (wire0 0) ex_acts) (fun _ _ => True)) as (w & tr & E & _); [vm_compute; exact I|].
  exists w. split; [exists ex_acts, tr; split; [exact E|]|repeat split]; try (pattern w, tr; apply (run_elim _ _ _ _ E); vm_compute; reflexivity).
  intros a HP HA. pattern w, tr; apply (run_elim _ _ _ _ E). vm_compute.
  destruct a; try reflexivity; [destruct (HP p); reflexivity|destruct (HA t); reflexivity].
Qed.
Print Assumptions C08_ex_wire_drained.
