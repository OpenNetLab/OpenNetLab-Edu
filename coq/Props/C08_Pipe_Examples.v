(* C08 -- "... and any pipeline built from them" -- NON-VACUITY of Props/C08_Pipe.v: for every theorem there that has hypotheses
   (an admissible execution of a composite, laws / timed / tagged of the parts, well-formed configurations, an admissible put ...)
   a concrete non-trivial instance that satisfies all of them at once, with the instantiated conclusion.
   Executions: the four of Elem/ComposeExample.v -- Port(1024 bit/s, 2 packets) >> Wire(1/2) >> TokenBucket(512 bit/s, 128 B), three
   packets, one refused by the port, one delayed by the bucket (seen as A >> B with A = the port, B = wire >> bucket; complete,
   stopped after 14 actions, and the remainder run from that NON-initial state); fan-in of two rate-0 ports into SP; fan-out
   Wire -> FlowDemux -> two ports with a flow that has no route -- and, for the adapters, the non-vacuity executions of the element
   models (Elem/*Proofs.v).  States and traces are named by projection out of the computed run (px_s n, px_tr n ...).
     C08_ex_pipe_compose        C08_pipe_compose_conserves, C08_pipe_series_conserves, C08_pipe_compose_flow_fifo,
                                C08_pipe_compose_drained, C08_pipe_network_instance
     C08_ex_pipe_compose_held   the same three conservation theorems with packets held in both stages
     C08_ex_pipe_projection     C08_pipe_projection, C08_pipe_series_clock, C08_pipe_hands        (from a non-initial state pair)
     C08_ex_pipe_pipeline       C08_pipe_series_laws, C08_pipe_pipeline_laws, C08_pipe_series_timed, C08_pipe_pipeline_timed,
                                C08_pipe_pipeline_tagged, C08_pipe_pipeline_network, C08_pipe_pipeline_views
     C08_ex_pipe_port_wire_tb   C08_pipe_port_wire_tb (incl. its inner premises: sizes >= 0, nothing urgent, no deadline)
     C08_ex_pipe_par            C08_pipe_par_projection, C08_pipe_par_tagged, C08_pipe_par_laws_by_flow
     C08_ex_pipe_fanin          C08_pipe_fanin_conserves, C08_pipe_fanin_flow_fifo (both disjuncts), C08_pipe_fanin_drained,
                                C08_pipe_fanin_hands
     C08_ex_pipe_demux          the inner premises (an admissible put) of C08_pipe_demux_elem and C08_pipe_demux_routes
     C08_ex_pipe_fanout         C08_pipe_fanout_laws (premises of its three implications), C08_pipe_fanout_conserves
     C08_ex_pipe_X_adapter      C08_pipe_X_adapter_exact for X = wire, port, tb, trtb, drr, mq, srv (WFQ), oport (REDPort with draws):
                                a model execution (+ no_draw / put_ok / draw_det), the interface execution the first half yields,
                                and the second half applied to it
     C08_ex_pipe_configs        the configuration premises of C08_pipe_tb_laws, C08_pipe_mq_laws, C08_pipe_sp_laws,
                                C08_pipe_rr_wrr_laws, C08_pipe_wfq_vc_laws, C08_pipe_drr_laws, C08_pipe_trtb_laws
   Unconditional (no witness needed): C08_pipe_adapters_tagged, C08_pipe_wire_laws, C08_pipe_port_laws, C08_pipe_oport_laws, the
   second conjunct of C08_pipe_demux_routes.  Already witnesses (computed executions): C08_pipe_example_run / _held / _sp / _fanin /
   _fanout / _views in Props/C08_Pipe.v.
   The conclusions are obtained by applying the theorem to the witness.  Statement files are compiled independently (and in
   parallel) by the pipeline, so one statement file cannot import another: [C08_x] below is a LOCAL abbreviation of the proof
   term that closes theorem C08_x in Props/C08_Pipe.v (there: `Proof. exact <that term>. Qed.`), hence has the same statement.
   Helper facts are stated with `Fact` (they are not obligations); every `Theorem` is a witness and is followed by
   Print Assumptions. *)
From Coq Require Import ZArith QArith List Bool Permutation Arith.
From ONL Require Import Base.Tools Elem.Packet Elem.StoreQ
  Elem.HeapList Elem.WFQServer Elem.WFQServerProofs Elem.WFQServerTrace Elem.WFQ Elem.WFQProofs Elem.VC Elem.VCProofs Elem.WFQInst
  Elem.DRR Elem.DRRInv Elem.DRRProofs Elem.DRRLive Elem.DRRExample Elem.TwoRate Elem.TwoRateProofs Elem.Red
  Elem.Wire Elem.WireProofs Elem.Port Elem.PortProofs Elem.Bucket Elem.BucketProofs Elem.SchedBase Elem.SchedBaseProofs Elem.SP Elem.SPProofs
  Route.Demux Route.DemuxProofs Elem.Network Elem.Iface Elem.Compose Elem.ComposePar Elem.ComposeHands Elem.AdaptWire Elem.AdaptPort Elem.AdaptBucket Elem.AdaptSched
  Elem.AdaptSrv Elem.AdaptDRR Elem.AdaptTwoRate Elem.AdaptRed Elem.ComposeFan Elem.ComposeNet Elem.ComposeExample.
Import ListNotations.
Local Open Scope Q_scope.

Local Notation C08_pipe_projection := series_projection.
Local Notation C08_pipe_compose_conserves := compose_conserves.
Local Notation C08_pipe_series_conserves := series_conserves.
Local Notation C08_pipe_compose_flow_fifo := compose_flow_fifo.
Local Notation C08_pipe_compose_drained :=
  (fun A B CA DA DB acts s tr H Acc U Dl => app_eq_nil _ _ (compose_drained A B CA DA DB acts s tr H Acc U Dl)).
Local Notation C08_pipe_series_laws := series_laws.
Local Notation C08_pipe_pipeline_laws := pipeline_laws.
Local Notation C08_pipe_series_timed := series_timed.
Local Notation C08_pipe_series_clock := series_clock.
Local Notation C08_pipe_pipeline_timed := pipeline_timed.
Local Notation C08_pipe_hands := series_hands.
Local Notation C08_pipe_pipeline_tagged := pipeline_tagged.
Local Notation C08_pipe_adapters_tagged := (conj wire_elem_tagged (conj port_elem_tagged (conj tb_elem_tagged mq_elem_tagged))).
Local Notation C08_pipe_par_projection := par_projection.
Local Notation C08_pipe_fanin_conserves := fanin_conserves.
Local Notation C08_pipe_fanin_flow_fifo := fanin_flow_fifo.
Local Notation C08_pipe_fanin_drained := fanin_drained.
Local Notation C08_pipe_par_tagged := par_tagged.
Local Notation C08_pipe_fanin_hands := fanin_hands.
Local Notation C08_pipe_par_laws_by_flow := par_laws_by_flow.
Local Notation C08_pipe_demux_elem :=
  (fun route t0 => conj (demux_elem_laws route t0) (conj (demux_elem_timed route t0) (conj (demux_elem_tagged route t0) (demux_put_once route)))).
Local Notation C08_pipe_demux_routes := (conj fibdemux_put_deliveries flowdemux2_routes).
Local Notation C08_pipe_fanout_laws :=
  (fun route t0 A B C => conj (fanout_laws route t0 A B C) (conj (fanout_timed route t0 A B C) (fanout_tagged route t0 A B C))).
Local Notation C08_pipe_fanout_conserves := fanout_conserves.
Local Notation C08_pipe_network_instance := compose_network.
Local Notation C08_pipe_pipeline_network := pipeline_network.
Local Notation C08_pipe_pipeline_views := pipeline_views.
Local Notation C08_pipe_wire_adapter_exact :=
  (fun loss t0 w w' => conj (fun acts tr => wire_run_elem loss t0 acts w w' tr) (fun acts tr => wire_elem_run loss t0 acts w w' tr)).
Local Notation C08_pipe_port_adapter_exact :=
  (fun c t0 s s' => conj (fun acts tr => port_run_elem c t0 acts s s' tr) (fun acts tr => port_elem_run c t0 acts s s' tr)).
Local Notation C08_pipe_tb_adapter_exact :=
  (fun c t0 s s' => conj (fun acts tr => tb_run_elem c t0 acts s s' tr) (fun acts tr => tb_elem_run c t0 acts s s' tr)).
Local Notation C08_pipe_mq_adapter_exact :=
  (fun c s s' => conj (fun acts tr => mq_run_elem c acts s s' tr) (fun acts tr => mq_elem_run c acts s s' tr)).
Local Notation C08_pipe_srv_adapter_exact :=
  (fun S rate st0 confb s s' => conj (fun acts tr => srv_run_elem S rate st0 confb acts s s' tr)
                                     (fun acts tr => srv_elem_run S rate st0 confb acts s s' tr)).
Local Notation C08_pipe_drr_adapter_exact :=
  (fun c t0 s s' => conj (fun acts tr => drr_run_elem c t0 acts s s' tr) (fun acts tr => drr_elem_run c t0 acts s s' tr)).
Local Notation C08_pipe_trtb_adapter_exact :=
  (fun c t0 s s' => conj (fun acts tr => tr_run_elem c t0 acts s s' tr) (fun acts tr => trtb_elem_run c t0 acts s s' tr)).
Local Notation C08_pipe_oport_adapter_exact :=
  (fun c t0 => conj (oport_elem_run c t0) (conj (port_run_oelem c t0) (conj red_draw_det tail_draw_det))).
Local Notation C08_pipe_wire_laws := (fun loss t0 => conj (wire_elem_laws loss t0) (wire_elem_timed loss t0)).
Local Notation C08_pipe_port_laws := (fun c t0 => conj (port_elem_laws c t0) (port_elem_timed c t0)).
Local Notation C08_pipe_tb_laws := (fun c t0 R (_ : forall k, peak_on c = Some k -> 0 < k) => conj (tb_elem_laws c t0 R) (tb_elem_timed c t0)).
Local Notation C08_pipe_mq_laws := (fun c Ok => conj (mq_elem_laws c Ok) (mq_elem_timed c)).
Local Notation C08_pipe_sp_laws := sp_elem_laws.
Local Notation C08_pipe_rr_wrr_laws := (conj rr_elem_laws wrr_elem_laws).
Local Definition C08_pipe_wfq_vc_laws :
  (forall cfg, wcfg_ok cfg -> laws (wfq_elem cfg) /\ timed (wfq_elem cfg) /\ tagged (wfq_elem cfg)) /\
  (forall cfg, vcfg_ok cfg -> laws (vc_elem cfg) /\ timed (vc_elem cfg) /\ tagged (vc_elem cfg)) :=
  conj (fun cfg Ok => conj (wfq_elem_laws cfg Ok) (conj (srv_elem_timed _ _ _ _) (wfq_elem_tagged cfg)))
       (fun cfg Ok => conj (vc_elem_laws cfg Ok) (conj (srv_elem_timed _ _ _ _) (vc_elem_tagged cfg))).
Local Notation C08_pipe_drr_laws :=
  (fun cfg t0 W => conj (drr_elem_laws cfg t0 W) (conj (drr_elem_timed cfg t0) (drr_elem_tagged cfg t0))).
Local Notation C08_pipe_trtb_laws :=
  (fun c t0 W => conj (trtb_elem_laws c t0 W) (conj (trtb_elem_timed c t0) (trtb_elem_tagged c t0))).
Local Notation C08_pipe_port_wire_tb := port_wire_tb_conserves.

(* a closed run named by its projections: the run succeeds and what is claimed of the projections is read off ONE evaluation *)
Fact some_proj {A B : Type} (r : option (A * B)) (a : A) (b : B) (P : A -> B -> Prop) :
  match r with Some (s, t) => P s t | None => False end ->
  r = Some (match r with Some (s, _) => s | None => a end, match r with Some (_, t) => t | None => b end) /\
  P (match r with Some (s, _) => s | None => a end) (match r with Some (_, t) => t | None => b end).
Proof. destruct r as [[s t]|]; [intros H; split; [reflexivity|exact H]|intros []]. Qed.

(* ---- the three-stage example of Elem/ComposeExample.v, seen as A >> B with A = the port, B = wire >> bucket ---- *)
Definition px_A : elem := port_elem ex_port 0.
Definition px_W : elem := wire_elem None 0.
Definition px_T : elem := tb_elem ex_tb 0.
Definition px_B : elem := px_W >> px_T.
Definition px_run (n : nat) := run (px_A >> px_B) (init (px_A >> px_B)) (firstn n ComposeExample.ex_acts).
Definition px_s (n : nat) : st (px_A >> px_B) := match px_run n with Some (s, _) => s | None => init (px_A >> px_B) end.
Definition px_tr (n : nat) : list (tev (lab (px_A >> px_B))) := match px_run n with Some (_, tr) => tr | None => [] end.
Strategy expand [px_run].
Fact px_end_facts : px_run 28 = Some (px_s 28, px_tr 28) /\
  (puts (px_tr 28) = [xp 0; xp 1; xp 2] /\ fwds (px_tr 28) = [xp 0; xp 1] /\ drops (px_tr 28) = [xp 2] /\
   urgent (px_A >> px_B) (px_s 28) = false /\ deadline (px_A >> px_B) (px_s 28) = None).
Proof.
  unfold px_s, px_tr. apply (some_proj (px_run 28) _ _ (fun s tr => puts tr = [xp 0; xp 1; xp 2] /\ fwds tr = [xp 0; xp 1] /\
    drops tr = [xp 2] /\ urgent (px_A >> px_B) s = false /\ deadline (px_A >> px_B) s = None)). vm_compute. repeat split.
Qed.
Fact px_end : run (px_A >> px_B) (init (px_A >> px_B)) ComposeExample.ex_acts = Some (px_s 28, px_tr 28).
Proof. exact (proj1 px_end_facts). Qed.
Fact px_mid_facts : px_run 14 = Some (px_s 14, px_tr 14) /\
  (puts (px_tr 14) = [xp 0; xp 1; xp 2] /\ fwds (px_tr 14) = [] /\ drops (px_tr 14) = [xp 2] /\
   held px_A (fst (px_s 14)) = [xp 1] /\ held px_B (snd (px_s 14)) = [xp 0] /\
   now px_A (fst (px_s 14)) = now px_B (snd (px_s 14)) /\ now px_A (fst (px_s 14)) == 1).
Proof.
  unfold px_s, px_tr. apply (some_proj (px_run 14) _ _ (fun s tr => puts tr = [xp 0; xp 1; xp 2] /\ fwds tr = [] /\ drops tr = [xp 2] /\
    held px_A (fst s) = [xp 1] /\ held px_B (snd s) = [xp 0] /\ now px_A (fst s) = now px_B (snd s) /\ now px_A (fst s) == 1)).
  vm_compute. repeat split.
Qed.
Fact px_mid : run (px_A >> px_B) (init (px_A >> px_B)) (firstn 14 ComposeExample.ex_acts) = Some (px_s 14, px_tr 14).
Proof. exact (proj1 px_mid_facts). Qed.

Fact px_tb_peak : forall k, peak_on ex_tb = Some k -> 0 < k.
Proof. intros k H. vm_compute in H. discriminate. Qed.
Fact px_lawsA : laws px_A. Proof. exact (proj1 (C08_pipe_port_laws ex_port 0)). Qed.
Fact px_lawsW : laws px_W. Proof. exact (proj1 (C08_pipe_wire_laws None 0)). Qed.
Fact px_lawsT : laws px_T. Proof. exact (proj1 (C08_pipe_tb_laws ex_tb 0 eq_refl px_tb_peak)). Qed.
Fact px_lawsB : laws px_B. Proof. exact (C08_pipe_series_laws _ _ px_lawsW px_lawsT). Qed.
Fact px_timedA : timed px_A. Proof. exact (proj2 (C08_pipe_port_laws ex_port 0)). Qed.
Fact px_timedW : timed px_W. Proof. exact (proj2 (C08_pipe_wire_laws None 0)). Qed.
Fact px_timedT : timed px_T. Proof. exact (proj2 (C08_pipe_tb_laws ex_tb 0 eq_refl px_tb_peak)). Qed.
Fact px_timedB : timed px_B. Proof. exact (C08_pipe_series_timed _ _ px_timedW px_timedT). Qed.
Fact px_taggedA : tagged px_A. Proof. exact (proj1 (proj2 C08_pipe_adapters_tagged) ex_port 0). Qed.
Fact px_taggedW : tagged px_W. Proof. exact (proj1 C08_pipe_adapters_tagged None 0). Qed.
Fact px_taggedT : tagged px_T. Proof. exact (proj1 (proj2 (proj2 C08_pipe_adapters_tagged)) ex_tb 0). Qed.

Fact px_puts_end : puts (px_tr 28) = [xp 0; xp 1; xp 2]. Proof. exact (proj1 (proj2 px_end_facts)). Qed.

(* covers: C08_pipe_compose_conserves, C08_pipe_series_conserves, C08_pipe_compose_flow_fifo, C08_pipe_compose_drained,
   C08_pipe_network_instance *)
Theorem C08_ex_pipe_compose :
  let s := px_s 28 in let tr := px_tr 28 in
  conserves px_A /\ conserves px_B /\ flow_fifo px_A 0 /\ flow_fifo px_B 0 /\ drained px_A /\ drained px_B /\
  run (px_A >> px_B) (init (px_A >> px_B)) ComposeExample.ex_acts = Some (s, tr) /\
  Forall (fun p => accepts (px_A >> px_B) p = true) (puts tr) /\
  urgent (px_A >> px_B) s = false /\ deadline (px_A >> px_B) s = None /\
  puts tr = [xp 0; xp 1; xp 2] /\ fwds tr = [xp 0; xp 1] /\ drops tr = [xp 2] /\
  Permutation (puts tr) (fwds tr ++ drops tr ++ held (px_A >> px_B) s) /\
  sublist (filter (on_flow 0) (fwds tr)) (filter (on_flow 0) (puts tr)) /\
  held px_A (fst s) = [] /\ held px_B (snd s) = [].
Proof.
  cbv zeta. destruct px_end_facts as (_ & _ & Fw & Dr & U & D).
  split; [exact (l_conserves _ px_lawsA)|]. split; [exact (l_conserves _ px_lawsB)|].
  split; [exact (l_fifo _ px_lawsA 0%Z)|]. split; [exact (l_fifo _ px_lawsB 0%Z)|].
  split; [exact (l_drained _ px_lawsA)|]. split; [exact (l_drained _ px_lawsB)|].
  split; [exact px_end|]. apply conj_keep; [rewrite px_puts_end; repeat constructor|intros Acc]. split; [exact U|]. split; [exact D|].
  split; [exact px_puts_end|]. split; [exact Fw|]. split; [exact Dr|].
  split; [exact (C08_pipe_series_conserves _ _ (l_conserves _ px_lawsA) (l_conserves _ px_lawsB) _ _ _ px_end)|].
  split; [exact (C08_pipe_compose_flow_fifo _ _ 0%Z (l_fifo _ px_lawsA 0%Z) (l_fifo _ px_lawsB 0%Z) _ _ _ px_end)|].
  exact (C08_pipe_compose_drained _ _ (l_conserves _ px_lawsA) (l_drained _ px_lawsA) (l_drained _ px_lawsB) _ _ _ px_end Acc U D).
Qed.
Print Assumptions C08_ex_pipe_compose.

(* the same execution stopped after 14 actions: the stages hold packets.  covers (again, with held <> []):
   C08_pipe_compose_conserves, C08_pipe_series_conserves, C08_pipe_network_instance *)
Theorem C08_ex_pipe_compose_held :
  let s := px_s 14 in let tr := px_tr 14 in
  conserves px_A /\ conserves px_B /\
  run (px_A >> px_B) (init (px_A >> px_B)) (firstn 14 ComposeExample.ex_acts) = Some (s, tr) /\
  puts tr = [xp 0; xp 1; xp 2] /\ fwds tr = [] /\ drops tr = [xp 2] /\ held px_A (fst s) = [xp 1] /\ held px_B (snd s) = [xp 0] /\
  (exists trA trB,
    run px_A (init px_A) (actsA px_A px_B (firstn 14 ComposeExample.ex_acts)) = Some (fst s, trA) /\
    run px_B (init px_B) (actsB px_A px_B (init px_A) (firstn 14 ComposeExample.ex_acts)) = Some (snd s, trB) /\
    puts trA = puts tr /\ puts trB = fwds trA /\ fwds trB = fwds tr /\
    Permutation (puts trA) (fwds trB ++ drops trA ++ drops trB ++ held px_A (fst s) ++ held px_B (snd s))) /\
  (exists trA trB,
    run px_A (init px_A) (actsA px_A px_B (firstn 14 ComposeExample.ex_acts)) = Some (fst s, trA) /\
    run px_B (init px_B) (actsB px_A px_B (init px_A) (firstn 14 ComposeExample.ex_acts)) = Some (snd s, trB) /\
    puts trA = puts tr /\ fwds trB = fwds tr /\
    ((forall i u, i < 2 -> cnt u (n_inp px_A px_B trA trB i) = cnt u (n_fwd px_A px_B trA trB i) + cnt u (n_drp px_A px_B trA trB i) + cnt u (n_held px_A px_B (fst s) (snd s) i)) /\
     (forall i u, i < 2 -> cnt u (n_fwd px_A px_B trA trB i) = sum_n 2 (fun j => cnt u (n_sent px_A trA i j)) + cnt u (n_tosink px_B trB i)) /\
     (forall j u, j < 2 -> cnt u (n_inp px_A px_B trA trB j) = cnt u (n_inj px_A trA j) + sum_n 2 (fun i => cnt u (n_sent px_A trA i j))) /\
     (forall u, cnt u (uids (puts tr)) =
                cnt u (uids (fwds tr)) + (cnt u (uids (drops trA)) + cnt u (uids (drops trB)))
                + (cnt u (uids (held px_A (fst s))) + cnt u (uids (held px_B (snd s))))))%nat).
Proof.
  cbv zeta. pose proof (l_conserves _ px_lawsA) as CA. pose proof (l_conserves _ px_lawsB) as CB.
  destruct px_mid_facts as (_ & P & Fw & Dr & HA & HB & _).
  split; [exact CA|]. split; [exact CB|]. split; [exact px_mid|].
  split; [exact P|]. split; [exact Fw|]. split; [exact Dr|]. split; [exact HA|]. split; [exact HB|].
  split; [exact (C08_pipe_compose_conserves _ _ CA CB _ _ _ px_mid)|].
  exact (C08_pipe_network_instance _ _ CA CB _ _ _ px_mid).
Qed.
Print Assumptions C08_ex_pipe_compose_held.

(* an execution of A >> B from a NON-initial pair of states (the one reached after 14 actions; clocks equal 1).
   covers: C08_pipe_projection, C08_pipe_series_clock, C08_pipe_hands *)
Definition px_rest : list (iact (lab (px_A >> px_B))) := skipn 14 ComposeExample.ex_acts.
Definition px_run2 := run (px_A >> px_B) (px_s 14) px_rest.
Definition px_s2 : st (px_A >> px_B) := match px_run2 with Some (s, _) => s | None => init (px_A >> px_B) end.
Definition px_tr2 : list (tev (lab (px_A >> px_B))) := match px_run2 with Some (_, tr) => tr | None => [] end.
Strategy expand [px_run2].
Fact px_second_facts : px_run2 = Some (px_s2, px_tr2) /\
  (puts px_tr2 = [] /\ fwds px_tr2 = [xp 0; xp 1] /\ hands 0 px_tr2 = [xp 1] /\ now px_A (fst px_s2) == 7 # 2).
Proof.
  unfold px_s2, px_tr2. apply (some_proj px_run2 _ _ (fun s tr => puts tr = [] /\ fwds tr = [xp 0; xp 1] /\ hands 0 tr = [xp 1] /\
    now px_A (fst s) == 7 # 2)). vm_compute. repeat split.
Qed.
Fact px_second : run (px_A >> px_B) (fst (px_s 14), snd (px_s 14)) px_rest = Some ((fst px_s2, snd px_s2), px_tr2).
Proof. rewrite <- !surjective_pairing. exact (proj1 px_second_facts). Qed.
Definition px_runA2 := run px_A (fst (px_s 14)) (actsA px_A px_B px_rest).
Definition px_sA2 : st px_A := match px_runA2 with Some (s, _) => s | None => init px_A end.
Definition px_trA2 : list (tev (lab px_A)) := match px_runA2 with Some (_, tr) => tr | None => [] end.
Strategy expand [px_runA2].
Fact px_secondA_facts : px_runA2 = Some (px_sA2, px_trA2) /\ fwds px_trA2 = [xp 1].
Proof. unfold px_sA2, px_trA2. apply (some_proj px_runA2 _ _ (fun _ tr => fwds tr = [xp 1])). vm_compute. reflexivity. Qed.
Fact px_secondA : run px_A (fst (px_s 14)) (actsA px_A px_B px_rest) = Some (px_sA2, px_trA2).
Proof. exact (proj1 px_secondA_facts). Qed.

Theorem C08_ex_pipe_projection :
  let sA := fst (px_s 14) in let sB := snd (px_s 14) in let sA' := fst px_s2 in let sB' := snd px_s2 in let tr := px_tr2 in
  timed px_A /\ timed px_B /\ tagged px_A /\
  run (px_A >> px_B) (sA, sB) px_rest = Some ((sA', sB'), tr) /\
  run px_A sA (actsA px_A px_B px_rest) = Some (px_sA2, px_trA2) /\
  now px_A sA = now px_B sB /\ now px_A sA == 1 /\ held px_A sA = [xp 1] /\ held px_B sB = [xp 0] /\
  puts tr = [] /\ fwds tr = [xp 0; xp 1] /\ hands 0 tr = [xp 1] /\ fwds px_trA2 = [xp 1] /\
  (exists trA trB,
    run px_A sA (actsA px_A px_B px_rest) = Some (sA', trA) /\ run px_B sB (actsB px_A px_B sA px_rest) = Some (sB', trB) /\
    puts trA = puts tr /\ puts trB = fwds trA /\ fwds trB = fwds tr /\ Permutation (drops tr) (drops trA ++ drops trB)) /\
  now px_A sA' = now px_B sB' /\ now px_A sA' == 7 # 2 /\
  hands (pred (width px_A)) tr = fwds px_trA2.
Proof.
  cbv zeta. destruct px_mid_facts as (_ & _ & _ & _ & HA & HB & N & N1).
  destruct px_second_facts as (_ & P2 & F2 & H2 & N2).
  split; [exact px_timedA|]. split; [exact px_timedB|]. split; [exact px_taggedA|].
  split; [exact px_second|]. split; [exact px_secondA|]. split; [exact N|].
  split; [exact N1|]. split; [exact HA|]. split; [exact HB|].
  split; [exact P2|]. split; [exact F2|]. split; [exact H2|].
  split; [exact (proj2 px_secondA_facts)|].
  split; [exact (C08_pipe_projection _ _ _ _ _ _ _ _ px_second)|].
  split; [exact (C08_pipe_series_clock _ _ px_timedA px_timedB _ _ _ _ _ _ px_second N)|].
  split; [exact N2|].
  exact (C08_pipe_hands _ px_B px_taggedA _ _ _ _ _ _ _ px_second px_secondA).
Qed.
Print Assumptions C08_ex_pipe_projection.

(* covers: C08_pipe_series_laws, C08_pipe_pipeline_laws, C08_pipe_series_timed, C08_pipe_pipeline_timed,
   C08_pipe_pipeline_tagged, C08_pipe_pipeline_network, C08_pipe_pipeline_views  (E = the port, es = [wire; bucket]) *)
Fact px_pipe_end : run (pipeline px_A [px_W; px_T]) (init (pipeline px_A [px_W; px_T])) ComposeExample.ex_acts = Some (px_s 28, px_tr 28).
Proof. exact px_end. Qed.

Theorem C08_ex_pipe_pipeline :
  let E := pipeline px_A [px_W; px_T] in let s := px_s 28 in let tr := px_tr 28 in
  laws px_A /\ laws px_B /\ Forall laws [px_W; px_T] /\ timed px_A /\ timed px_B /\ Forall timed [px_W; px_T] /\
  tagged px_A /\ Forall tagged [px_W; px_T] /\ conserves px_A /\ Forall conserves [px_W; px_T] /\
  run E (init E) ComposeExample.ex_acts = Some (s, tr) /\
  laws (px_A >> px_B) /\ laws E /\ timed (px_A >> px_B) /\ timed E /\ tagged E /\
  (exists vs, pviews [px_W; px_T] px_A ComposeExample.ex_acts = Some vs /\ length vs = 3%nat /\ Forall v_ok vs /\ chained vs /\
              v_puts (nthv vs 0) = [xp 0; xp 1; xp 2] /\ v_fwds (nthv vs 2) = [xp 0; xp 1] /\
              v_drops (nthv vs 0) = [xp 2] /\ v_puts (nthv vs 1) = [xp 0; xp 1]) /\
  (exists vs, pviews [px_W; px_T] px_A ComposeExample.ex_acts = Some vs /\ length vs = 3%nat /\
    let n := length vs in
    ((forall i u, i < n -> cnt u (c_inp vs i) = cnt u (c_fwd vs i) + cnt u (c_drp vs i) + cnt u (c_held vs i)) /\
     (forall i u, i < n -> cnt u (c_fwd vs i) = sum_n n (fun j => cnt u (c_sent vs i j)) + cnt u (c_tosink vs i)) /\
     (forall j u, j < n -> cnt u (c_inp vs j) = cnt u (c_inj vs j) + sum_n n (fun i => cnt u (c_sent vs i j))) /\
     (forall u, cnt u (uids (puts tr)) =
                cnt u (uids (fwds tr)) + sum_n n (fun i => cnt u (c_drp vs i)) + sum_n n (fun i => cnt u (c_held vs i))))%nat).
Proof.
  cbv zeta.
  split; [exact px_lawsA|]. split; [exact px_lawsB|].
  apply conj_keep; [exact (Forall_cons _ px_lawsW (Forall_cons _ px_lawsT (Forall_nil _)))|intros FL].
  split; [exact px_timedA|]. split; [exact px_timedB|].
  apply conj_keep; [exact (Forall_cons _ px_timedW (Forall_cons _ px_timedT (Forall_nil _)))|intros FT]. split; [exact px_taggedA|].
  apply conj_keep; [exact (Forall_cons _ px_taggedW (Forall_cons _ px_taggedT (Forall_nil _)))|intros FG].
  split; [exact (l_conserves _ px_lawsA)|].
  apply conj_keep; [exact (Forall_cons _ (l_conserves _ px_lawsW) (Forall_cons _ (l_conserves _ px_lawsT) (Forall_nil _)))|intros FC].
  split; [exact px_pipe_end|].
  split; [exact (C08_pipe_series_laws _ _ px_lawsA px_lawsB)|]. split; [exact (C08_pipe_pipeline_laws _ _ px_lawsA FL)|].
  split; [exact (C08_pipe_series_timed _ _ px_timedA px_timedB)|].
  split; [exact (C08_pipe_pipeline_timed _ _ px_timedA FT)|].
  split; [exact (C08_pipe_pipeline_tagged _ _ px_taggedA FG)|].
  split.
  - destruct (C08_pipe_pipeline_views _ _ (l_conserves _ px_lawsA) FC _ _ _ px_pipe_end) as (vs & Hv & Hl & Hok & Hch & _).
    exists vs. split; [exact Hv|]. split; [exact Hl|]. split; [exact Hok|]. split; [exact Hch|].
    pose proof ex_pipe_views as X. unfold px_A, px_W, px_T in Hv. rewrite X in Hv. injection Hv as <-. repeat split; reflexivity.
  - exact (C08_pipe_pipeline_network _ _ (l_conserves _ px_lawsA) FC _ _ _ px_pipe_end).
Qed.
Print Assumptions C08_ex_pipe_pipeline.

(* covers: C08_pipe_port_wire_tb (with its inner hypotheses: sizes >= 0, nothing urgent, no deadline) *)
Theorem C08_ex_pipe_port_wire_tb :
  let E := pipeline (port_elem ex_port 0) [wire_elem None 0; tb_elem ex_tb 0] in let s := px_s 28 in let tr := px_tr 28 in
  0 < Bucket.rate ex_tb /\ (forall k, peak_on ex_tb = Some k -> 0 < k) /\
  run E (init E) ComposeExample.ex_acts = Some (s, tr) /\
  Forall (fun p => (0 <= psize p)%Z) (puts tr) /\ urgent E s = false /\ deadline E s = None /\
  puts tr = [xp 0; xp 1; xp 2] /\ fwds tr = [xp 0; xp 1] /\ drops tr = [xp 2] /\
  Permutation (puts tr) (fwds tr ++ drops tr).
Proof.
  cbv zeta. destruct px_end_facts as (_ & _ & Fw & Dr & U & D).
  split; [reflexivity|]. split; [exact px_tb_peak|]. split; [exact px_pipe_end|].
  apply conj_keep; [rewrite px_puts_end; repeat constructor; vm_compute; discriminate|intros Sz]. split; [exact U|]. split; [exact D|].
  split; [exact px_puts_end|]. split; [exact Fw|]. split; [exact Dr|].
  destruct (C08_pipe_port_wire_tb ex_port None ex_tb 0 eq_refl px_tb_peak _ _ _ px_pipe_end) as (_ & _ & H). exact (H Sz U D).
Qed.
Print Assumptions C08_ex_pipe_port_wire_tb.

(* ---- fan-in: two rate-0 ports into one SP (ex3_net of Elem/ComposeExample.v) ---- *)
Definition fi_A : elem := port_elem ex2_port 0.
Definition fi_C : elem := sp_elem 1024 (fun f => f) [0%Z; 1%Z] [(0%Z, 1%Z); (1%Z, 2%Z)].
Definition fi_E : elem := fanin ex3_sel fi_A fi_A fi_C.
Definition fi_run := run fi_E (init fi_E) ex3_acts.
Definition fi_s : st fi_E := match fi_run with Some (s, _) => s | None => init fi_E end.
Definition fi_tr : list (tev (lab fi_E)) := match fi_run with Some (_, tr) => tr | None => [] end.
Strategy expand [fi_run].
Fact fi_end_facts : fi_run = Some (fi_s, fi_tr) /\
  (puts fi_tr = [yp 0 0; yp 1 1] /\ fwds fi_tr = [yp 1 1; yp 0 0] /\ hands 1 fi_tr = [yp 0 0; yp 1 1] /\
   urgent fi_E fi_s = false /\ deadline fi_E fi_s = None).
Proof.
  unfold fi_s, fi_tr. apply (some_proj fi_run _ _ (fun s tr => puts tr = [yp 0 0; yp 1 1] /\ fwds tr = [yp 1 1; yp 0 0] /\
    hands 1 tr = [yp 0 0; yp 1 1] /\ urgent fi_E s = false /\ deadline fi_E s = None)). vm_compute. repeat split.
Qed.
Fact fi_end : run (fanin ex3_sel fi_A fi_A fi_C) (init (fanin ex3_sel fi_A fi_A fi_C)) ex3_acts = Some (fi_s, fi_tr).
Proof. exact (proj1 fi_end_facts). Qed.
(* what the two branches (without the scheduler) see of it *)
Definition fi_pacts : list (iact (lab (par ex3_sel fi_A fi_A))) := actsA (par ex3_sel fi_A fi_A) fi_C ex3_acts.
Definition fi_prun := run (par ex3_sel fi_A fi_A) (init (par ex3_sel fi_A fi_A)) fi_pacts.
Definition fi_ps : st (par ex3_sel fi_A fi_A) := match fi_prun with Some (s, _) => s | None => init (par ex3_sel fi_A fi_A) end.
Definition fi_ptr : list (tev (lab (par ex3_sel fi_A fi_A))) := match fi_prun with Some (_, tr) => tr | None => [] end.
Strategy expand [fi_prun].
Fact fi_pend_facts : fi_prun = Some (fi_ps, fi_ptr) /\ (puts fi_ptr = [yp 0 0; yp 1 1] /\ fwds fi_ptr = [yp 0 0; yp 1 1]).
Proof.
  unfold fi_ps, fi_ptr. apply (some_proj fi_prun _ _ (fun _ tr => puts tr = [yp 0 0; yp 1 1] /\ fwds tr = [yp 0 0; yp 1 1])).
  vm_compute. repeat split.
Qed.
Fact fi_pend : run (par ex3_sel fi_A fi_A) (init fi_A, init fi_A) fi_pacts = Some ((fst fi_ps, snd fi_ps), fi_ptr).
Proof. rewrite <- surjective_pairing. exact (proj1 fi_pend_facts). Qed.

Fact fi_tbl_pos : forall k p, In (k, p) [(0%Z, 1%Z); (1%Z, 2%Z)] -> (0 < p)%Z.
Proof. intros k p [H|[H|[]]]; injection H as _ <-; reflexivity. Qed.
Fact fi_lawsA : laws fi_A. Proof. exact (proj1 (C08_pipe_port_laws ex2_port 0)). Qed.
Fact fi_lawsC : laws fi_C. Proof. exact (C08_pipe_sp_laws 1024 (fun f => f) _ _ eq_refl fi_tbl_pos). Qed.
Fact fi_taggedA : tagged fi_A. Proof. exact (proj1 (proj2 C08_pipe_adapters_tagged) ex2_port 0). Qed.
Fact fi_sel0 : forall p, on_flow 0 p = true -> ex3_sel p = true.
Proof. intros p H. exact H. Qed.
Fact fi_sel1 : forall p, on_flow 1 p = true -> ex3_sel p = false.
Proof. intros p H. unfold on_flow in H. apply Z.eqb_eq in H. unfold ex3_sel. rewrite H. reflexivity. Qed.

(* covers: C08_pipe_par_projection, C08_pipe_par_tagged, C08_pipe_par_laws_by_flow *)
Theorem C08_ex_pipe_par :
  (forall p, ex3_sel p = (fun f => Z.eqb f 0) (flow p)) /\ laws fi_A /\ tagged fi_A /\
  run (par ex3_sel fi_A fi_A) (init fi_A, init fi_A) fi_pacts = Some ((fst fi_ps, snd fi_ps), fi_ptr) /\
  puts fi_ptr = [yp 0 0; yp 1 1] /\ fwds fi_ptr = [yp 0 0; yp 1 1] /\
  (exists trA trB,
    run fi_A (init fi_A) (pactsA ex3_sel fi_A fi_A fi_pacts) = Some (fst fi_ps, trA) /\
    run fi_A (init fi_A) (pactsB ex3_sel fi_A fi_A fi_pacts) = Some (snd fi_ps, trB) /\
    interleave (puts trA) (puts trB) (puts fi_ptr) /\ interleave (fwds trA) (fwds trB) (fwds fi_ptr) /\
    interleave (drops trA) (drops trB) (drops fi_ptr) /\
    Forall (fun p => ex3_sel p = true) (puts trA) /\ Forall (fun p => ex3_sel p = false) (puts trB)) /\
  laws (par ex3_sel fi_A fi_A) /\ tagged (par ex3_sel fi_A fi_A).
Proof.
  split; [intros p; reflexivity|]. split; [exact fi_lawsA|]. split; [exact fi_taggedA|]. split; [exact fi_pend|].
  split; [exact (proj1 (proj2 fi_pend_facts))|]. split; [exact (proj2 (proj2 fi_pend_facts))|].
  split; [exact (C08_pipe_par_projection _ _ _ _ _ _ _ _ _ fi_pend)|].
  split; [exact (C08_pipe_par_laws_by_flow ex3_sel (fun f => Z.eqb f 0) _ _ (fun p => eq_refl) fi_lawsA fi_lawsA)|].
  exact (C08_pipe_par_tagged _ _ _ fi_taggedA fi_taggedA).
Qed.
Print Assumptions C08_ex_pipe_par.

(* covers: C08_pipe_fanin_conserves, C08_pipe_fanin_flow_fifo (both disjuncts), C08_pipe_fanin_drained, C08_pipe_fanin_hands *)
Theorem C08_ex_pipe_fanin :
  let s := fi_s in let tr := fi_tr in
  conserves fi_A /\ conserves fi_C /\ drained fi_A /\ drained fi_C /\ tagged fi_A /\
  ((forall p, on_flow 0 p = true -> ex3_sel p = true) /\ flow_fifo fi_A 0) /\
  ((forall p, on_flow 1 p = true -> ex3_sel p = false) /\ flow_fifo fi_A 1) /\ flow_fifo fi_C 0 /\ flow_fifo fi_C 1 /\
  run (fanin ex3_sel fi_A fi_A fi_C) (init (fanin ex3_sel fi_A fi_A fi_C)) ex3_acts = Some (s, tr) /\
  Forall (fun p => accepts (fanin ex3_sel fi_A fi_A fi_C) p = true) (puts tr) /\
  urgent (fanin ex3_sel fi_A fi_A fi_C) s = false /\ deadline (fanin ex3_sel fi_A fi_A fi_C) s = None /\
  puts tr = [yp 0 0; yp 1 1] /\ fwds tr = [yp 1 1; yp 0 0] /\ hands 1 tr = [yp 0 0; yp 1 1] /\
  Permutation (puts tr) (fwds tr ++ drops tr ++ (held fi_A (fst (fst s)) ++ held fi_A (snd (fst s))) ++ held fi_C (snd s)) /\
  sublist (filter (on_flow 0) (fwds tr)) (filter (on_flow 0) (puts tr)) /\
  sublist (filter (on_flow 1) (fwds tr)) (filter (on_flow 1) (puts tr)) /\
  held (fanin ex3_sel fi_A fi_A fi_C) s = [] /\
  (exists trA trB,
    run fi_A (init fi_A) (pactsA ex3_sel fi_A fi_A (actsA (par ex3_sel fi_A fi_A) fi_C ex3_acts)) = Some (fst (fst s), trA) /\
    run fi_A (init fi_A) (pactsB ex3_sel fi_A fi_A (actsA (par ex3_sel fi_A fi_A) fi_C ex3_acts)) = Some (snd (fst s), trB) /\
    interleave (fwds trA) (fwds trB) (hands (pred (width fi_A + width fi_A)%nat) tr)).
Proof.
  cbv zeta. pose proof (l_conserves _ fi_lawsA) as CA. pose proof (l_conserves _ fi_lawsC) as CC.
  pose proof (l_drained _ fi_lawsA) as DA. pose proof (l_drained _ fi_lawsC) as DC.
  destruct fi_end_facts as (_ & P & Fw & Hd & U & D).
  split; [exact CA|]. split; [exact CC|]. split; [exact DA|]. split; [exact DC|]. split; [exact fi_taggedA|].
  split; [exact (conj fi_sel0 (l_fifo _ fi_lawsA 0%Z))|]. split; [exact (conj fi_sel1 (l_fifo _ fi_lawsA 1%Z))|].
  split; [exact (l_fifo _ fi_lawsC 0%Z)|]. split; [exact (l_fifo _ fi_lawsC 1%Z)|].
  split; [exact fi_end|]. apply conj_keep; [rewrite P; repeat constructor|intros Acc]. split; [exact U|]. split; [exact D|]. split; [exact P|].
  split; [exact Fw|]. split; [exact Hd|].
  split; [exact (C08_pipe_fanin_conserves _ _ _ _ CA CA CC _ _ _ fi_end)|].
  split; [exact (C08_pipe_fanin_flow_fifo _ _ _ _ 0%Z CA CA (or_introl (conj fi_sel0 (l_fifo _ fi_lawsA 0%Z))) (l_fifo _ fi_lawsC 0%Z) _ _ _ fi_end)|].
  split; [exact (C08_pipe_fanin_flow_fifo _ _ _ _ 1%Z CA CA (or_intror (conj fi_sel1 (l_fifo _ fi_lawsA 1%Z))) (l_fifo _ fi_lawsC 1%Z) _ _ _ fi_end)|].
  split; [exact (C08_pipe_fanin_drained _ _ _ _ CA CA DA DA DC _ _ _ fi_end Acc U D)|].
  exact (C08_pipe_fanin_hands _ _ _ fi_C fi_taggedA fi_taggedA _ _ _ fi_end).
Qed.
Print Assumptions C08_ex_pipe_fanin.

(* ---- fan-out: Wire -> FlowDemux(two outputs, no default) -> two rate-0 ports (ex4_net of Elem/ComposeExample.v) ---- *)
Definition fo_W : elem := wire_elem None 0.
Definition fo_P : elem := port_elem ex2_port 0.
Definition fo_E : elem := fanout ex4_route 0 fo_W fo_P fo_P.
Definition fo_run := run fo_E (init fo_E) ex4_acts.
Definition fo_s : st fo_E := match fo_run with Some (s, _) => s | None => init fo_E end.
Definition fo_tr : list (tev (lab fo_E)) := match fo_run with Some (_, tr) => tr | None => [] end.
Strategy expand [fo_run].
Fact fo_end_facts : fo_run = Some (fo_s, fo_tr) /\
  (puts fo_tr = [yp 0 0; yp 1 1; yp 2 2] /\ fwds fo_tr = [yp 1 1; yp 0 0] /\ drops fo_tr = [yp 2 2]).
Proof.
  unfold fo_s, fo_tr. apply (some_proj fo_run _ _ (fun _ tr => puts tr = [yp 0 0; yp 1 1; yp 2 2] /\ fwds tr = [yp 1 1; yp 0 0] /\
    drops tr = [yp 2 2])). vm_compute. repeat split.
Qed.
Fact fo_end : run (fanout ex4_route 0 fo_W fo_P fo_P) (init (fanout ex4_route 0 fo_W fo_P fo_P)) ex4_acts = Some (fo_s, fo_tr).
Proof. exact (proj1 fo_end_facts). Qed.
Fact fo_lawsW : laws fo_W. Proof. exact (proj1 (C08_pipe_wire_laws None 0)). Qed.
Fact fo_lawsP : laws fo_P. Proof. exact (proj1 (C08_pipe_port_laws ex2_port 0)). Qed.
Fact fo_timedW : timed fo_W. Proof. exact (proj2 (C08_pipe_wire_laws None 0)). Qed.
Fact fo_timedP : timed fo_P. Proof. exact (proj2 (C08_pipe_port_laws ex2_port 0)). Qed.
Fact fo_taggedW : tagged fo_W. Proof. exact (proj1 C08_pipe_adapters_tagged None 0). Qed.
Fact fo_taggedP : tagged fo_P. Proof. exact (proj1 (proj2 C08_pipe_adapters_tagged) ex2_port 0). Qed.

(* a FIBDemux: flows 3 -> output 1, 4 -> out of range -> default, 9 -> end device 4 *)
Definition fo_fib : fibdemux_cfg :=
  {| fb_fib := Some [(3, 1); (4, 7); (5, -1)]%Z; fb_outs := Some 2%nat; fb_ends := [(9%Z, 4%nat)]; fb_default := true |}.

(* covers the inner hypotheses of C08_pipe_demux_elem and C08_pipe_demux_routes: a put into the demultiplexer that is
   admissible, once with a route (handed on), once without (discarded); a put into a FIBDemux *)
Theorem C08_ex_pipe_demux :
  demux_put ex4_route (yp 0 0) 5 = Some (5, [EForward (yp 0 0)]) /\
  demux_put ex4_route (yp 2 2) 5 = Some (5, [EDrop (yp 2 2)]) /\
  deliverable (ex4_route (flow (yp 0 0))) = true /\ deliverable (ex4_route (flow (yp 2 2))) = false /\
  (o_fwds [EForward (yp 0 0)] ++ o_drops [EForward (yp 0 0)] = [yp 0 0] /\
   (o_fwds [EForward (yp 0 0)] = [yp 0 0] <-> deliverable (ex4_route (flow (yp 0 0))) = true)) /\
  (o_fwds [EDrop (yp 2 2)] ++ o_drops [EDrop (yp 2 2)] = [yp 2 2] /\
   (o_fwds [EDrop (yp 2 2)] = [yp 2 2] <-> deliverable (ex4_route (flow (yp 2 2))) = true)) /\
  demux_put (fibdemux true true fo_fib) (yp 7 3) 5 = Some (5, [EForward (yp 7 3)]) /\
  fst (fib_deliveries true true true fo_fib [] (flow (yp 7 3))) = [OOut 1] /\
  length (o_fwds [EForward (yp 7 3)]) = length (fst (fib_deliveries true true true fo_fib [] (flow (yp 7 3)))).
Proof.
  destruct (C08_pipe_demux_elem ex4_route 0) as (_ & _ & _ & HD). destruct C08_pipe_demux_routes as (HR & _).
  apply conj_keep; [reflexivity|intros P0]. apply conj_keep; [reflexivity|intros P2]. split; [reflexivity|]. split; [reflexivity|].
  split; [exact (proj2 (HD _ _ _ _ P0))|]. split; [exact (proj2 (HD _ _ _ _ P2))|].
  apply conj_keep; [reflexivity|intros P7]. split; [reflexivity|]. exact (HR _ _ _ _ _ P7).
Qed.
Print Assumptions C08_ex_pipe_demux.

(* covers: C08_pipe_fanout_laws (the premises of its three implications), C08_pipe_fanout_conserves *)
Theorem C08_ex_pipe_fanout :
  let s := fo_s in let tr := fo_tr in
  laws fo_W /\ laws fo_P /\ timed fo_W /\ timed fo_P /\ tagged fo_W /\ tagged fo_P /\ conserves fo_W /\ conserves fo_P /\
  run (fanout ex4_route 0 fo_W fo_P fo_P) (init (fanout ex4_route 0 fo_W fo_P fo_P)) ex4_acts = Some (s, tr) /\
  puts tr = [yp 0 0; yp 1 1; yp 2 2] /\ fwds tr = [yp 1 1; yp 0 0] /\ drops tr = [yp 2 2] /\
  laws (fanout ex4_route 0 fo_W fo_P fo_P) /\ timed (fanout ex4_route 0 fo_W fo_P fo_P) /\ tagged (fanout ex4_route 0 fo_W fo_P fo_P) /\
  Permutation (puts tr) (fwds tr ++ drops tr ++ held fo_W (fst s) ++ held fo_P (fst (snd (snd s))) ++ held fo_P (snd (snd (snd s)))).
Proof.
  cbv zeta. pose proof (l_conserves _ fo_lawsW) as CW. pose proof (l_conserves _ fo_lawsP) as CP.
  destruct (C08_pipe_fanout_laws ex4_route 0 fo_W fo_P fo_P) as (HL & HT & HG).
  split; [exact fo_lawsW|]. split; [exact fo_lawsP|]. split; [exact fo_timedW|]. split; [exact fo_timedP|].
  split; [exact fo_taggedW|]. split; [exact fo_taggedP|]. split; [exact CW|]. split; [exact CP|]. split; [exact fo_end|].
  destruct fo_end_facts as (_ & P & Fw & Dr). split; [exact P|]. split; [exact Fw|]. split; [exact Dr|].
  split; [exact (HL fo_lawsW fo_lawsP fo_lawsP)|]. split; [exact (HT fo_timedW fo_timedP fo_timedP)|].
  split; [exact (HG fo_taggedW fo_taggedP fo_taggedP)|].
  exact (C08_pipe_fanout_conserves _ _ _ _ _ CW CP CP _ _ _ fo_end).
Qed.
Print Assumptions C08_ex_pipe_fanout.

(* ================= the adapters: model executions and interface executions ================= *)
(* each witness: an admissible execution of the MODEL (the one of the element's own non-vacuity example), the side
   condition of the adapter theorem, the interface execution the first half of the theorem yields from it (which is the
   hypothesis of the second half), and the second half applied to that *)
Theorem C08_ex_pipe_wire_adapter :
  exists w' tr, wire_run WireProofs.ex_loss (wire0 0) WireProofs.ex_acts = Some (w', tr) /\
    run (wire_elem WireProofs.ex_loss 0) (wire0 0) (map w_of WireProofs.ex_acts) = Some (w', map w_ev tr) /\
    fwds (map w_ev tr) = [WireProofs.ex_p 0; WireProofs.ex_p 1; WireProofs.ex_p 3] /\ drops (map w_ev tr) = [WireProofs.ex_p 2] /\
    exists tr0, wire_run WireProofs.ex_loss (wire0 0) (map w_to (map w_of WireProofs.ex_acts)) = Some (w', tr0) /\
                map w_ev tr = map w_ev tr0 /\ map w_of (map w_to (map w_of WireProofs.ex_acts)) = map w_of WireProofs.ex_acts.
Proof.
  destruct (run_facts (wire_run WireProofs.ex_loss (wire0 0) WireProofs.ex_acts) (fun _ tr =>
    fwds (map w_ev tr) = [WireProofs.ex_p 0; WireProofs.ex_p 1; WireProofs.ex_p 3] /\ drops (map w_ev tr) = [WireProofs.ex_p 2]))
    as (w & tr & E & F & D); [vm_compute; split; reflexivity|].
  exists w, tr. split; [exact E|].
  destruct (C08_pipe_wire_adapter_exact WireProofs.ex_loss 0 (wire0 0) w) as (H1 & H2).
  pose proof (H1 _ _ E) as R. split; [exact R|]. split; [exact F|]. split; [exact D|]. exact (H2 _ _ R).
Qed.
Print Assumptions C08_ex_pipe_wire_adapter.

Theorem C08_ex_pipe_port_adapter :
  exists s' tr, Forall no_draw PortProofs.ex_acts /\ port_run PortProofs.ex_cfg (port0 0) PortProofs.ex_acts = Some (s', tr) /\
    run (port_elem PortProofs.ex_cfg 0) (port0 0) (map p_of PortProofs.ex_acts) = Some (s', map p_ev tr) /\
    map uid (fwds (map p_ev tr)) = [0; 1; 4]%nat /\ map uid (drops (map p_ev tr)) = [2; 3]%nat /\
    exists tr0, port_run PortProofs.ex_cfg (port0 0) (map p_to (map p_of PortProofs.ex_acts)) = Some (s', tr0) /\
                map p_ev tr = map p_ev tr0 /\ map p_of (map p_to (map p_of PortProofs.ex_acts)) = map p_of PortProofs.ex_acts /\
                Forall no_draw (map p_to (map p_of PortProofs.ex_acts)).
Proof.
  destruct (run_facts (port_run PortProofs.ex_cfg (port0 0) PortProofs.ex_acts) (fun _ tr =>
    map uid (fwds (map p_ev tr)) = [0; 1; 4]%nat /\ map uid (drops (map p_ev tr)) = [2; 3]%nat))
    as (s & tr & E & F & D); [vm_compute; split; reflexivity|].
  exists s, tr. apply conj_keep; [unfold PortProofs.ex_acts; repeat constructor|intros ND]. split; [exact E|].
  destruct (C08_pipe_port_adapter_exact PortProofs.ex_cfg 0 (port0 0) s) as (H1 & H2).
  pose proof (H1 _ _ ND E) as R. split; [exact R|]. split; [exact F|]. split; [exact D|]. exact (H2 _ _ R).
Qed.
Print Assumptions C08_ex_pipe_port_adapter.

Theorem C08_ex_pipe_tb_adapter :
  exists s' tr, tb_run BucketProofs.ex_c (tb0 true BucketProofs.ex_c 0) BucketProofs.ex_acts = Some (s', tr) /\
    run (tb_elem BucketProofs.ex_c 0) (tb0 true BucketProofs.ex_c 0) (map t_of BucketProofs.ex_acts) = Some (s', map t_ev tr) /\
    fwds (map t_ev tr) = [BucketProofs.ex_p0; BucketProofs.ex_p1] /\
    exists tr0, tb_run BucketProofs.ex_c (tb0 true BucketProofs.ex_c 0) (map t_to (map t_of BucketProofs.ex_acts)) = Some (s', tr0) /\
                map t_ev tr = map t_ev tr0 /\ map t_of (map t_to (map t_of BucketProofs.ex_acts)) = map t_of BucketProofs.ex_acts.
Proof.
  destruct (run_facts (tb_run BucketProofs.ex_c (tb0 true BucketProofs.ex_c 0) BucketProofs.ex_acts) (fun _ tr =>
    fwds (map t_ev tr) = [BucketProofs.ex_p0; BucketProofs.ex_p1])) as (s & tr & E & F); [vm_compute; reflexivity|].
  exists s, tr. split; [exact E|].
  destruct (C08_pipe_tb_adapter_exact BucketProofs.ex_c 0 (tb0 true BucketProofs.ex_c 0) s) as (H1 & H2).
  pose proof (H1 _ _ E) as R. split; [exact R|]. split; [exact F|]. exact (H2 _ _ R).
Qed.
Print Assumptions C08_ex_pipe_tb_adapter.

Theorem C08_ex_pipe_trtb_adapter :
  exists s' tr, tr_run true true rx_c (tr0 true rx_c 0) rx_acts = Some (s', tr) /\
    Iface.run (trtb_elem rx_c 0) (tr0 true rx_c 0) (map r_of rx_acts) = Some (s', map r_ev tr) /\
    Iface.fwds (map r_ev tr) = [rx_p 0 256; rx_p 1 256; rx_p 2 256; rx_p 3 128] /\
    exists trm, tr_run true true rx_c (tr0 true rx_c 0) (map r_to (map r_of rx_acts)) = Some (s', trm) /\
                map r_ev tr = map r_ev trm /\ map r_of (map r_to (map r_of rx_acts)) = map r_of rx_acts.
Proof.
  destruct (run_facts (tr_run true true rx_c (tr0 true rx_c 0) rx_acts) (fun _ tr =>
    Iface.fwds (map r_ev tr) = [rx_p 0 256; rx_p 1 256; rx_p 2 256; rx_p 3 128])) as (s & tr & E & F); [vm_compute; reflexivity|].
  exists s, tr. split; [exact E|].
  destruct (C08_pipe_trtb_adapter_exact rx_c 0 (tr0 true rx_c 0) s) as (H1 & H2).
  pose proof (H1 _ _ E) as R. split; [exact R|]. split; [exact F|]. exact (H2 _ _ R).
Qed.
Print Assumptions C08_ex_pipe_trtb_adapter.

Theorem C08_ex_pipe_drr_adapter :
  exists s' tr, drr_run dex_cfg (drr0 0) dex_acts = Some (s', tr) /\
    Iface.run (drr_elem dex_cfg 0) (drr0 0) (map d_of dex_acts) = Some (s', map d_ev tr) /\
    map uid (Iface.fwds (map d_ev tr)) = [1; 2; 0; 3; 4]%nat /\
    exists tr0, drr_run dex_cfg (drr0 0) (map d_to (map d_of dex_acts)) = Some (s', tr0) /\
                map d_ev tr = map d_ev tr0 /\ map d_of (map d_to (map d_of dex_acts)) = map d_of dex_acts.
Proof.
  destruct (run_facts (drr_run dex_cfg (drr0 0) dex_acts) (fun _ tr =>
    map uid (Iface.fwds (map d_ev tr)) = [1; 2; 0; 3; 4]%nat)) as (s & tr & E & F); [vm_compute; reflexivity|].
  exists s, tr. split; [exact E|].
  destruct (C08_pipe_drr_adapter_exact dex_cfg 0 (drr0 0) s) as (H1 & H2).
  pose proof (H1 _ _ E) as R. split; [exact R|]. split; [exact F|]. exact (H2 _ _ R).
Qed.
Print Assumptions C08_ex_pipe_drr_adapter.

(* SP as a configuration of the multi-queue automaton *)
Definition ax_cm : Z -> Z := cls_of [(0, 10); (1, 10); (2, 11)]%Z.
Definition ax_tbl : list (Z * Z) := [(10, 1); (11, 2)]%Z.
Definition ax_cfg : mq_cfg := sp_cfg true 1024 ax_cm [0; 1; 2]%Z ax_tbl.
Definition ax_run := mq_run ax_cfg (mq0 ax_cfg) sp_ex_acts.
Definition ax_s : mq := match ax_run with Some (s, _) => s | None => mq0 ax_cfg end.
Definition ax_tr : list SchedBase.tev := match ax_run with Some (_, tr) => tr | None => [] end.
Strategy expand [ax_run].
Fact ax_end_facts : ax_run = Some (ax_s, ax_tr) /\ map uid (fwds (map s_ev ax_tr)) = [2; 0; 1; 3]%nat.
Proof.
  unfold ax_s, ax_tr. apply (some_proj ax_run _ _ (fun _ tr => map uid (fwds (map s_ev tr)) = [2; 0; 1; 3]%nat)). vm_compute. reflexivity.
Qed.
Fact ax_end : mq_run ax_cfg (mq0 ax_cfg) sp_ex_acts = Some (ax_s, ax_tr).
Proof. exact (proj1 ax_end_facts). Qed.

Theorem C08_ex_pipe_mq_adapter :
  mq_run ax_cfg (mq0 ax_cfg) sp_ex_acts = Some (ax_s, ax_tr) /\
  run (mq_elem ax_cfg) (mq0 ax_cfg) (map s_of sp_ex_acts) = Some (ax_s, map s_ev ax_tr) /\
  map uid (fwds (map s_ev ax_tr)) = [2; 0; 1; 3]%nat /\
  exists tr0, mq_run ax_cfg (mq0 ax_cfg) (map s_to (map s_of sp_ex_acts)) = Some (ax_s, tr0) /\
              map s_ev ax_tr = map s_ev tr0 /\ map s_of (map s_to (map s_of sp_ex_acts)) = map s_of sp_ex_acts.
Proof.
  destruct (C08_pipe_mq_adapter_exact ax_cfg (mq0 ax_cfg) ax_s) as (H1 & H2).
  pose proof (H1 _ _ ax_end) as R. split; [exact ax_end|]. split; [exact R|]. split; [exact (proj2 ax_end_facts)|]. exact (H2 _ _ R).
Qed.
Print Assumptions C08_ex_pipe_mq_adapter.

(* WFQ through the generic server adapter *)
Definition bx_run := WFQServer.run (WS ex_wcfg) (wrate ex_wcfg) (wfq0 ex_wcfg) ex_wacts.
Definition bx_s : srv (WS ex_wcfg) := match bx_run with Some (s, _) => s | None => wfq0 ex_wcfg end.
Definition bx_tr : list (WFQServer.tev (WS ex_wcfg)) := match bx_run with Some (_, tr) => tr | None => [] end.
Strategy expand [bx_run].
Fact bx_end_facts : bx_run = Some (bx_s, bx_tr) /\
  Iface.fwds (map (f_ev (WS ex_wcfg)) bx_tr) = [WFQInst.ex_p1; WFQInst.ex_p0; WFQInst.ex_p2].
Proof.
  unfold bx_s, bx_tr. apply (some_proj bx_run _ _ (fun _ tr => Iface.fwds (map (f_ev (WS ex_wcfg)) tr) = [WFQInst.ex_p1; WFQInst.ex_p0; WFQInst.ex_p2])).
  vm_compute. reflexivity.
Qed.
Fact bx_end : WFQServer.run (WS ex_wcfg) (wrate ex_wcfg) (wfq0 ex_wcfg) ex_wacts = Some (bx_s, bx_tr).
Proof. exact (proj1 bx_end_facts). Qed.
Fact bx_put_ok : Forall (put_ok (wconfb ex_wcfg)) ex_wacts.
Proof.
  unfold ex_wacts.
  repeat (constructor; [intros p H; first [discriminate H | injection H as <-; vm_compute; reflexivity]|]). constructor.
Qed.

Theorem C08_ex_pipe_srv_adapter :
  Forall (put_ok (wconfb ex_wcfg)) ex_wacts /\
  WFQServer.run (WS ex_wcfg) (wrate ex_wcfg) (wfq0 ex_wcfg) ex_wacts = Some (bx_s, bx_tr) /\
  Iface.run (srv_elem (WS ex_wcfg) (wrate ex_wcfg) wst0 (wconfb ex_wcfg)) (wfq0 ex_wcfg) (map f_of ex_wacts) = Some (bx_s, map (f_ev (WS ex_wcfg)) bx_tr) /\
  Iface.fwds (map (f_ev (WS ex_wcfg)) bx_tr) = [WFQInst.ex_p1; WFQInst.ex_p0; WFQInst.ex_p2] /\
  exists tr0, WFQServer.run (WS ex_wcfg) (wrate ex_wcfg) (wfq0 ex_wcfg) (map f_to (map f_of ex_wacts)) = Some (bx_s, tr0) /\
              map (f_ev (WS ex_wcfg)) bx_tr = map (f_ev (WS ex_wcfg)) tr0 /\ map f_of (map f_to (map f_of ex_wacts)) = map f_of ex_wacts /\
              Forall (put_ok (wconfb ex_wcfg)) (map f_to (map f_of ex_wacts)).
Proof.
  destruct (C08_pipe_srv_adapter_exact (WS ex_wcfg) (wrate ex_wcfg) wst0 (wconfb ex_wcfg) (wfq0 ex_wcfg) bx_s) as (H1 & H2).
  pose proof (H1 _ _ bx_put_ok bx_end) as R. split; [exact bx_put_ok|]. split; [exact bx_end|]. split; [exact R|].
  split; [exact (proj2 bx_end_facts)|]. exact (H2 _ _ R).
Qed.
Print Assumptions C08_ex_pipe_srv_adapter.

(* REDPort: the third put is refused on a draw (u = 1/4 below the drop probability 5/16), the fourth is kept on a draw *)
Definition ox_rc : redcfg := {| r_min := 128; r_max := 256; r_maxp := 1 # 2; r_qlimit := 384; r_w := 1; r_lb := true |}.
Definition ox_cfg : pcfg := red_cfg all_fixed 1024 ox_rc (Some 0%Z).
Definition oq (u : nat) (f sz : Z) : pkt := mkp u (Z.of_nat u + 1) f sz 0.
Definition ox_acts : list paction :=
  [PInit; PPut (oq 0 1 192) None; PPut (oq 1 0 128) None; PPut (oq 2 1 64) (Some (1#4)); PPut (oq 3 0 64) (Some (7#8));
   PStoreCb; PStoreCb; PStoreCb; Port.PGet; PAdvance (3#2); PTimer; Port.PGet; PAdvance (5#2); PTimer; Port.PGet; PAdvance 3; PTimer].

Theorem C08_ex_pipe_oport_adapter :
  exists s' tr0, draw_det ox_cfg /\ port_run ox_cfg (port0 0) ox_acts = Some (s', tr0) /\
    map uid (PortProofs.puts tr0) = [0; 1; 2; 3]%nat /\ map uid (forwarded tr0) = [0; 1; 3]%nat /\ map uid (dropped tr0) = [2]%nat /\
    exists tr, Iface.run (oport_elem ox_cfg 0) (port0 0, []) (flat_map o_of ox_acts) = Some ((s', []), tr) /\
      Iface.puts tr = PortProofs.puts tr0 /\ Iface.fwds tr = forwarded tr0 /\ Iface.drops tr = dropped tr0 /\
      exists tr1, port_run ox_cfg (port0 0) (o_model ox_cfg (port0 0) [] (flat_map o_of ox_acts)) = Some (s', tr1) /\
        Iface.puts tr = PortProofs.puts tr1 /\ Iface.fwds tr = forwarded tr1 /\ Iface.drops tr = dropped tr1.
Proof.
  destruct (run_facts (port_run ox_cfg (port0 0) ox_acts) (fun _ tr0 => map uid (PortProofs.puts tr0) = [0; 1; 2; 3]%nat /\
    map uid (forwarded tr0) = [0; 1; 3]%nat /\ map uid (dropped tr0) = [2]%nat)) as (s & tr0 & E & C1 & C2 & C3); [vm_compute; repeat split|].
  exists s, tr0. destruct (C08_pipe_oport_adapter_exact ox_cfg 0) as (H1 & H2 & H3 & _).
  pose proof (H3 all_fixed 1024 ox_rc (Some 0%Z)) as DD. split; [exact DD|]. split; [exact E|].
  destruct (H2 DD _ _ _ _ E) as (tr & R & P1 & P2 & P3).
  pose proof (H1 _ _ _ _ _ _ R) as R1.
  split; [exact C1|]. split; [exact C2|]. split; [exact C3|].
  exists tr. split; [exact R|]. split; [exact P1|]. split; [exact P2|]. split; [exact P3|]. exact R1.
Qed.
Print Assumptions C08_ex_pipe_oport_adapter.

(* ---- the element configurations used above are well formed: the hypotheses of the per-element law theorems ---- *)
Fact cx_peak : forall k, peak_on BucketProofs.ex_c = Some k -> 0 < k.
Proof. intros k H. vm_compute in H. injection H as <-. reflexivity. Qed.
Fact cx_tbl_pos : forall k p, In (k, p) ax_tbl -> (0 < p)%Z.
Proof. intros k p [H|[H|[]]]; injection H as _ <-; reflexivity. Qed.
Fact cx_ws_pos : forall f w, In (f, w) [(0, 2); (1, 1)]%Z -> (0 < w)%Z.
Proof. intros k p [H|[H|[]]]; injection H as _ <-; reflexivity. Qed.
Fact cx_rx_wf : trwf rx_c.
Proof. apply trwf_pir; reflexivity. Qed.

Theorem C08_ex_pipe_configs :
  (0 < Bucket.rate BucketProofs.ex_c /\ (forall k, peak_on BucketProofs.ex_c = Some k -> 0 < k) /\ peak_on BucketProofs.ex_c = Some 4096) /\
  cfg_ok ax_cfg /\
  (0 < 1024 /\ forall k p, In (k, p) ax_tbl -> (0 < p)%Z) /\
  (0 < 1024 /\ forall f w, In (f, w) [(0, 2); (1, 1)]%Z -> (0 < w)%Z) /\
  wcfg_ok ex_wcfg /\ vcfg_ok ex_vcfg /\ dwf dex_cfg /\ trwf rx_c /\
  laws (tb_elem BucketProofs.ex_c 0) /\ timed (tb_elem BucketProofs.ex_c 0) /\
  laws (mq_elem ax_cfg) /\ laws (sp_elem 1024 ax_cm [0; 1; 2]%Z ax_tbl) /\ laws (rr_elem 1024 [0; 1]%Z) /\
  laws (wrr_elem 1024 [(0, 2); (1, 1)]%Z) /\
  laws (wfq_elem ex_wcfg) /\ tagged (wfq_elem ex_wcfg) /\ laws (vc_elem ex_vcfg) /\ tagged (vc_elem ex_vcfg) /\
  laws (drr_elem dex_cfg 0) /\ tagged (drr_elem dex_cfg 0) /\ laws (trtb_elem rx_c 0) /\ tagged (trtb_elem rx_c 0) /\
  Permutation (puts (map s_ev ax_tr)) (fwds (map s_ev ax_tr) ++ drops (map s_ev ax_tr) ++ held (mq_elem ax_cfg) ax_s).
Proof.
  split; [exact (conj eq_refl (conj cx_peak eq_refl))|].
  apply conj_keep; [exact (sp_cfg_ok true 1024 ax_cm [0; 1; 2]%Z ax_tbl eq_refl cx_tbl_pos)|intros OK].
  pose proof (proj1 (C08_pipe_mq_laws ax_cfg OK)) as LM. split; [exact (conj eq_refl cx_tbl_pos)|].
  split; [exact (conj eq_refl cx_ws_pos)|]. split; [exact ex_wcfg_ok|]. split; [exact ex_vcfg_ok|]. split; [exact dex_wf|].
  split; [exact cx_rx_wf|].
  split; [exact (proj1 (C08_pipe_tb_laws BucketProofs.ex_c 0 eq_refl cx_peak))|].
  split; [exact (proj2 (C08_pipe_tb_laws BucketProofs.ex_c 0 eq_refl cx_peak))|].
  split; [exact LM|].
  split; [exact (C08_pipe_sp_laws 1024 ax_cm [0; 1; 2]%Z ax_tbl eq_refl cx_tbl_pos)|].
  split; [exact (proj1 C08_pipe_rr_wrr_laws 1024 [0; 1]%Z eq_refl)|].
  split; [exact (proj2 C08_pipe_rr_wrr_laws 1024 [(0, 2); (1, 1)]%Z eq_refl cx_ws_pos)|].
  destruct (proj1 C08_pipe_wfq_vc_laws ex_wcfg ex_wcfg_ok) as (W1 & _ & W3).
  destruct (proj2 C08_pipe_wfq_vc_laws ex_vcfg ex_vcfg_ok) as (V1 & _ & V3).
  destruct (C08_pipe_drr_laws dex_cfg 0 dex_wf) as (D1 & _ & D3).
  destruct (C08_pipe_trtb_laws rx_c 0 cx_rx_wf) as (R1 & _ & R3).
  split; [exact W1|]. split; [exact W3|]. split; [exact V1|]. split; [exact V3|]. split; [exact D1|]. split; [exact D3|].
  split; [exact R1|]. split; [exact R3|].
  destruct (C08_pipe_mq_adapter_exact ax_cfg (mq0 ax_cfg) ax_s) as (H1 & _).
  exact (l_conserves _ LM _ _ _ (H1 _ _ ax_end)).
Qed.
Print Assumptions C08_ex_pipe_configs.
