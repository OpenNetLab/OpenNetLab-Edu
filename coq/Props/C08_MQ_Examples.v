(* C08 -- packet conservation, the share of SP, RR, WRR -- NON-VACUITY of Props/C08_MQ.v.
   Witnesses (Elem/SPProofs.v sp_ex_acts, Elem/RRProofs.v rr_ex_acts, Elem/WRRProofs.v wrr_ex_acts: executions observed on the real
   schedulers): four 128-byte packets put at 0 before the wake-up token is processed, 1 s of transmission each; SP with flows 0,1 in
   class 10 (priority 1) and flow 2 in class 11 (priority 2); RR over flows 0,1; WRR with weights 2,1.
     C08_ex_sp_run / C08_ex_rr_run / C08_ex_wrr_run              cover C08_X_flow_fifo, C08_X_conserves (rate > 0, admissible
                                                                 execution; stopped after 18 actions: one forwarded, one in
                                                                 transmission, two queued)
     C08_ex_sp_drained / C08_ex_rr_drained / C08_ex_wrr_drained  cover C08_X_drained (+ positive priorities / weights, nothing
                                                                 urgent, no transmission pending: the complete executions)
   No theorem of Props/C08_MQ.v is unconditional.
   The facts about the concrete run are computed; the conservation / FIFO / drained conclusions are the theorems of
   Props/C08_MQ.v applied to it.  Every `Theorem` is a witness and is followed by Print Assumptions. *)
From Coq Require Import ZArith QArith List.
From ONL Require Import Base.Tools Elem.Packet Elem.StoreQ Elem.SchedBase Elem.SchedBaseProofs Elem.SP Elem.SPProofs Elem.RR Elem.RRProofs Elem.WRR Elem.WRRProofs.
From ONL Require Import Props.C08_MQ.
Import ListNotations.

Definition sx_cm : Z -> Z := cls_of [(0, 10); (1, 10); (2, 11)]%Z.
Definition sx_fl : list Z := [0; 1; 2]%Z.
Definition sx_tbl : list (Z * Z) := [(10, 1); (11, 2)]%Z.
Definition sx_cfg : mq_cfg := sp_cfg true 1024 sx_cm sx_fl sx_tbl.
Definition rrx_cfg : mq_cfg := rr_cfg 1024 [0; 1]%Z.
Definition wx_ws : list (Z * Z) := [(0, 2); (1, 1)]%Z.
Definition wx_cfg : mq_cfg := wrr_cfg 1024 wx_ws.

Fact sx_tbl_pos : forall k p, In (k, p) sx_tbl -> (0 < p)%Z.
Proof. intros k p [H|[H|[]]]; injection H as _ <-; reflexivity. Qed.
Fact wx_ws_pos : forall f w, In (f, w) wx_ws -> (0 < w)%Z.
Proof. intros k p [H|[H|[]]]; injection H as _ <-; reflexivity. Qed.

(* covers: C08_sp_flow_fifo, C08_sp_conserves *)
Theorem C08_ex_sp_run :
  exists s tr, 0 < 1024 /\ sp_run 1024 sx_cm sx_fl sx_tbl (firstn 18 sp_ex_acts) = Some (s, tr) /\
    map uid (tr_puts tr) = [0; 1; 2; 3]%nat /\ map uid (tr_fwds tr) = [2]%nat /\
    map uid (held_class sx_cfg s 10) = [0; 1; 3]%nat /\ held_class sx_cfg s 11 = [] /\
    (forall k, filter (is_class sx_cfg k) (tr_puts tr) = filter (is_class sx_cfg k) (tr_fwds tr) ++ held_class sx_cfg s k) /\
    (forall f, filter (is_flow f) (tr_puts tr) = filter (is_flow f) (tr_fwds tr) ++ held_flow sx_cfg s f) /\
    (exists rest, filter (is_flow 2) (tr_puts tr) = filter (is_flow 2) (tr_fwds tr) ++ rest).
Proof.
  destruct (run_facts (sp_run 1024 sx_cm sx_fl sx_tbl (firstn 18 sp_ex_acts))
              (fun s tr => map uid (tr_puts tr) = [0; 1; 2; 3]%nat /\ map uid (tr_fwds tr) = [2]%nat /\
                           map uid (held_class sx_cfg s 10) = [0; 1; 3]%nat /\ held_class sx_cfg s 11 = []))
    as (s & tr & E & P1 & P2 & P3 & P4); [vm_compute; repeat split; reflexivity|].
  destruct (C08_sp_conserves 1024 sx_cm sx_fl sx_tbl _ _ _ eq_refl E) as (HK & HF & _).
  pose proof (C08_sp_flow_fifo 1024 sx_cm sx_fl sx_tbl _ _ _ 2%Z eq_refl E) as HO.
  exists s, tr. split; [reflexivity|]. repeat (split; [assumption|]). exact HO.
Qed.
Print Assumptions C08_ex_sp_run.

(* covers: C08_sp_drained *)
Theorem C08_ex_sp_drained :
  exists s tr, 0 < 1024 /\ (forall k p, In (k, p) sx_tbl -> (0 < p)%Z) /\
    sp_run 1024 sx_cm sx_fl sx_tbl sp_ex_acts = Some (s, tr) /\ urgent sx_cfg s = false /\
    (forall p dl, mchild s <> CTx p dl) /\
    map uid (tr_puts tr) = [0; 1; 2; 3]%nat /\ map uid (tr_fwds tr) = [2; 0; 1; 3]%nat /\
    (forall k, held_class sx_cfg s k = []) /\ mcur s = None /\ mpc s <> PSpin.
Proof.
  destruct (run_facts (sp_run 1024 sx_cm sx_fl sx_tbl sp_ex_acts)
              (fun s tr => urgent sx_cfg s = false /\ (forall p dl, mchild s <> CTx p dl) /\
                           map uid (tr_puts tr) = [0; 1; 2; 3]%nat /\ map uid (tr_fwds tr) = [2; 0; 1; 3]%nat))
    as (s & tr & E & U & Nd & P1 & P2); [vm_compute; repeat split; (reflexivity || (intros; discriminate))|].
  destruct (C08_sp_drained 1024 sx_cm sx_fl sx_tbl _ _ _ eq_refl sx_tbl_pos E U Nd) as (H1 & _ & H3 & _ & H5).
  exists s, tr. split; [reflexivity|]. split; [exact sx_tbl_pos|]. repeat (split; [assumption|]). exact H5.
Qed.
Print Assumptions C08_ex_sp_drained.

(* covers: C08_rr_flow_fifo, C08_rr_conserves *)
Theorem C08_ex_rr_run :
  exists s tr, 0 < 1024 /\ rr_run 1024 [0; 1]%Z (firstn 18 rr_ex_acts) = Some (s, tr) /\
    map uid (tr_puts tr) = [0; 1; 2; 3]%nat /\ map uid (tr_fwds tr) = [0]%nat /\
    map uid (held_class rrx_cfg s 0) = [1; 3]%nat /\ map uid (held_class rrx_cfg s 1) = [2]%nat /\
    (forall k, filter (is_class rrx_cfg k) (tr_puts tr) = filter (is_class rrx_cfg k) (tr_fwds tr) ++ held_class rrx_cfg s k) /\
    (forall f, filter (is_flow f) (tr_puts tr) = filter (is_flow f) (tr_fwds tr) ++ held_flow rrx_cfg s f) /\
    (exists rest, filter (is_flow 0) (tr_puts tr) = filter (is_flow 0) (tr_fwds tr) ++ rest).
Proof.
  destruct (run_facts (rr_run 1024 [0; 1]%Z (firstn 18 rr_ex_acts))
              (fun s tr => map uid (tr_puts tr) = [0; 1; 2; 3]%nat /\ map uid (tr_fwds tr) = [0]%nat /\
                           map uid (held_class rrx_cfg s 0) = [1; 3]%nat /\ map uid (held_class rrx_cfg s 1) = [2]%nat))
    as (s & tr & E & P1 & P2 & P3 & P4); [vm_compute; repeat split; reflexivity|].
  destruct (C08_rr_conserves 1024 [0; 1]%Z _ _ _ eq_refl E) as (HK & HF & _).
  pose proof (C08_rr_flow_fifo 1024 [0; 1]%Z _ _ _ 0%Z eq_refl E) as HO.
  exists s, tr. split; [reflexivity|]. repeat (split; [assumption|]). exact HO.
Qed.
Print Assumptions C08_ex_rr_run.

(* covers: C08_rr_drained *)
Theorem C08_ex_rr_drained :
  exists s tr, 0 < 1024 /\ rr_run 1024 [0; 1]%Z rr_ex_acts = Some (s, tr) /\ urgent rrx_cfg s = false /\
    (forall p dl, mchild s <> CTx p dl) /\
    map uid (tr_puts tr) = [0; 1; 2; 3]%nat /\ map uid (tr_fwds tr) = [0; 2; 1; 3]%nat /\
    (forall k, held_class rrx_cfg s k = []) /\ mcur s = None /\ mpc s <> PSpin.
Proof.
  destruct (run_facts (rr_run 1024 [0; 1]%Z rr_ex_acts)
              (fun s tr => urgent rrx_cfg s = false /\ (forall p dl, mchild s <> CTx p dl) /\
                           map uid (tr_puts tr) = [0; 1; 2; 3]%nat /\ map uid (tr_fwds tr) = [0; 2; 1; 3]%nat))
    as (s & tr & E & U & Nd & P1 & P2); [vm_compute; repeat split; (reflexivity || (intros; discriminate))|].
  destruct (C08_rr_drained 1024 [0; 1]%Z _ _ _ eq_refl E U Nd) as (H1 & _ & H3 & _ & H5).
  exists s, tr. split; [reflexivity|]. repeat (split; [assumption|]). exact H5.
Qed.
Print Assumptions C08_ex_rr_drained.

(* covers: C08_wrr_flow_fifo, C08_wrr_conserves *)
Theorem C08_ex_wrr_run :
  exists s tr, 0 < 1024 /\ wrr_run 1024 wx_ws (firstn 18 wrr_ex_acts) = Some (s, tr) /\
    map uid (tr_puts tr) = [0; 1; 2; 3]%nat /\ map uid (tr_fwds tr) = [0]%nat /\
    map uid (held_class wx_cfg s 0) = [1; 3]%nat /\ map uid (held_class wx_cfg s 1) = [2]%nat /\
    (forall k, filter (is_class wx_cfg k) (tr_puts tr) = filter (is_class wx_cfg k) (tr_fwds tr) ++ held_class wx_cfg s k) /\
    (forall f, filter (is_flow f) (tr_puts tr) = filter (is_flow f) (tr_fwds tr) ++ held_flow wx_cfg s f) /\
    (exists rest, filter (is_flow 0) (tr_puts tr) = filter (is_flow 0) (tr_fwds tr) ++ rest).
Proof.
  destruct (run_facts (wrr_run 1024 wx_ws (firstn 18 wrr_ex_acts))
              (fun s tr => map uid (tr_puts tr) = [0; 1; 2; 3]%nat /\ map uid (tr_fwds tr) = [0]%nat /\
                           map uid (held_class wx_cfg s 0) = [1; 3]%nat /\ map uid (held_class wx_cfg s 1) = [2]%nat))
    as (s & tr & E & P1 & P2 & P3 & P4); [vm_compute; repeat split; reflexivity|].
  destruct (C08_wrr_conserves 1024 wx_ws _ _ _ eq_refl E) as (HK & HF & _).
  pose proof (C08_wrr_flow_fifo 1024 wx_ws _ _ _ 0%Z eq_refl E) as HO.
  exists s, tr. split; [reflexivity|]. repeat (split; [assumption|]). exact HO.
Qed.
Print Assumptions C08_ex_wrr_run.

(* covers: C08_wrr_drained *)
Theorem C08_ex_wrr_drained :
  exists s tr, 0 < 1024 /\ (forall f w, In (f, w) wx_ws -> (0 < w)%Z) /\
    wrr_run 1024 wx_ws wrr_ex_acts = Some (s, tr) /\ urgent wx_cfg s = false /\
    (forall p dl, mchild s <> CTx p dl) /\
    map uid (tr_puts tr) = [0; 1; 2; 3]%nat /\ map uid (tr_fwds tr) = [0; 1; 2; 3]%nat /\
    (forall k, held_class wx_cfg s k = []) /\ mcur s = None /\ mpc s <> PSpin.
Proof.
  destruct (run_facts (wrr_run 1024 wx_ws wrr_ex_acts)
              (fun s tr => urgent wx_cfg s = false /\ (forall p dl, mchild s <> CTx p dl) /\
                           map uid (tr_puts tr) = [0; 1; 2; 3]%nat /\ map uid (tr_fwds tr) = [0; 1; 2; 3]%nat))
    as (s & tr & E & U & Nd & P1 & P2); [vm_compute; repeat split; (reflexivity || (intros; discriminate))|].
  destruct (C08_wrr_drained 1024 wx_ws _ _ _ eq_refl wx_ws_pos E U Nd) as (H1 & _ & H3 & _ & H5).
  exists s, tr. split; [reflexivity|]. split; [exact wx_ws_pos|]. repeat (split; [assumption|]). exact H5.
Qed.
Print Assumptions C08_ex_wrr_drained.
