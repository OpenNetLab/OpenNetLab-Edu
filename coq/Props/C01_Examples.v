(* C01 -- NON-VACUITY of the statements of Props/C01.v.

   Every theorem of Props/C01.v that has hypotheses is listed above a witness below: a machine-checked statement that
   ALL its hypotheses hold simultaneously at concrete closed terms, followed by what its conclusion then says about
   them (obtained by applying the very lemma that closes the theorem in Props/C01.v, or by computation).
   The concrete execution is the one of Kernel/OrderExamples.v (real kernel model [step]/[run]/[do_call], two script
   processes W and I, module-level timeouts): four occurrences coincide at instant 0 (two URGENT process starts, two
   NORMAL timeouts, inserted alternately), I interrupts W at instant 1/2 (an URGENT Interruption and two NORMAL Process
   events coincide there), W's abandoned timeout is processed at instant 1.  [oS n] = the state after n steps,
   [oL] = the nine popped entries in order; entries are written (time, class, insertion id, event).

   Unconditional theorems of Props/C01.v (only typing binders, no witness needed):
     C01_good_init, C01_schedule_inserts, C01_trigger_normal.
   Hypothesis-carrying theorems and the witness that covers each:
     C01_run_is_execution, C01_run_now_monotone, C01_run_all_drains        C01_ex_run
     C01_step_is_execution, C01_step_now_monotone                          C01_ex_step
     C01_module_code_is_execution                                          C01_ex_module_code
     C01_good_preserved, C01_agenda_invariant, C01_now_monotone            C01_ex_executions
     C01_takes_effect_exactly                                              C01_ex_takes_effect_exactly
     C01_timeout_takes_effect_exactly                                      C01_ex_timeout_takes_effect_exactly
     C01_nothing_skipped                                                   C01_ex_nothing_skipped
     C01_pop_order                                                         C01_ex_pop_order
     C01_same_class_fifo                                                   C01_ex_same_class_fifo
     C01_urgent_first                                                      C01_ex_urgent_first
     C01_priority_classes                                                  C01_ex_priority_classes
     C01_initialize_urgent                                                 C01_ex_initialize_urgent
     C01_interruption_urgent                                               C01_ex_interruption_urgent
     C01_until_sentinel_urgent                                             C01_ex_until_sentinel_urgent
     C01_negative_delay_refused, C01_nonnegative_delay_accepted            C01_ex_delay_sign
   Statement file Props/C01_Bridge.v (second tie): unconditional: C01_gen_schedule, C01_gen_peek, C01_gen_timeout_init,
   C01_gen_initialize_init; hypothesis-carrying:
     C01_gen_step                                                          C01_ex_gen_step
     C01_spawn_uses_init                                                   C01_ex_spawn_uses_init *)
From Coq Require Import ZArith QArith List Lia.
From ONL Require Import Base.Tools Kernel.Model Kernel.Script Kernel.Keys Kernel.Inv Kernel.Order Kernel.OrderExamples
  Gen.Extracted_kernel Kernel.LeafBridge.
Import ListNotations.
Local Open Scope nat_scope.

(* covers C01_run_is_execution (hypothesis: run ... = (s', r)), C01_run_now_monotone (+ good s),
   C01_run_all_drains (u = UNone, r = ROk): env.run() on the state after the module-level code processes all nine
   occurrences, ends at instant 1 with an empty agenda *)
Theorem C01_ex_run :
  good o0 /\ run 50 ocodes UNone o0 = (oS 9, ROk) /\
  (* content: four entries pending at 0 before, clock 0 -> 1, nothing pending after *)
  agenda o0 = [eT7; eIW; eT8; eII] /\ (now o0 == 0)%Q /\ (now (oS 9) == 1)%Q /\
  (now o0 <= now (oS 9))%Q /\ agenda (oS 9) = [] /\ (exists l, Order.exec ocodes o0 l (oS 9)).
Proof.
  apply conj_keep; [exact o0_good|intros G]. apply conj_keep; [exact o0_run|intros R].
  split; [vm_compute; reflexivity|]. split; [vm_compute; reflexivity|]. split; [vm_compute; reflexivity|].
  split; [exact (proj1 (run_now_monotone _ _ _ _ _ _ G R))|].
  split; [exact (run_all_drains _ _ _ _ R)|exact (run_exec _ _ _ _ _ _ R)].
Qed.
Print Assumptions C01_ex_run.

(* covers C01_step_is_execution (hypothesis: step ... = (s', r)), C01_step_now_monotone (+ good s): the fifth step
   (after the four occurrences of instant 0) pops I's timeout and moves the clock from 0 to 1/2 *)
Theorem C01_ex_step :
  good (oS 4) /\ step 50 ocodes (oS 4) = (oS 5, ROk) /\
  agenda (oS 4) = [eTW; eTI] /\ (now (oS 4) == 0)%Q /\ (now (oS 5) == 1 # 2)%Q /\ agenda (oS 5) = [eTW; eX; ePI] /\
  ((now (oS 4) <= now (oS 5))%Q /\ good (oS 5)) /\ (exists l, Order.exec ocodes (oS 4) l (oS 5)).
Proof.
  apply conj_keep; [apply oS_good|intros G]. apply conj_keep; [apply oS_step; vm_compute; reflexivity|intros R].
  split; [vm_compute; reflexivity|]. split; [vm_compute; reflexivity|]. split; [vm_compute; reflexivity|].
  split; [vm_compute; reflexivity|].
  split; [exact (step_now_monotone _ _ _ _ _ G R)|exact (step_exec _ _ _ _ _ R)].
Qed.
Print Assumptions C01_ex_step.

(* covers C01_module_code_is_execution (hypothesis: run_frag ... = (s', r)): the module-level code (two timeouts,
   two process creations: eight API calls) is an execution of eight call transitions *)
Theorem C01_ex_module_code :
  run_frag ocodes (Script.exec osetup []) (init_state 0) = (o0, FrRet VNone) /\
  Order.exec ocodes (init_state 0) (repeat None 8) o0 /\ agenda o0 = [eT7; eIW; eT8; eII] /\ next_eid o0 = 4.
Proof.
  split; [exact o0_frag|]. split; [exact o0_exec|]. split; vm_compute; reflexivity.
Qed.
Print Assumptions C01_ex_module_code.

(* covers C01_good_preserved (good s, exec s l s'), C01_agenda_invariant (exec from init_state),
   C01_now_monotone (good s, exec s l1 s1, exec s1 l2 s2): init --8 calls--> o0 --5 steps--> oS 5 --3 steps--> oS 8 *)
Theorem C01_ex_executions :
  good (init_state 0) /\
  Order.exec ocodes (init_state 0) (repeat None 8) o0 /\
  Order.exec ocodes o0 (map Some [eIW; eII; eT7; eT8; eTI]) (oS 5) /\
  Order.exec ocodes (oS 5) (map Some [eX; ePI; ePW]) (oS 8) /\
  (* content *)
  agenda (oS 5) = [eTW; eX; ePI] /\ agenda (oS 8) = [eTW] /\
  (now o0 == 0)%Q /\ (now (oS 5) == 1 # 2)%Q /\ (now (oS 8) == 1 # 2)%Q /\
  (now o0 <= now (oS 5))%Q /\ (now (oS 5) <= now (oS 8))%Q /\ good (oS 8) /\
  (forall x, In x (agenda (oS 5)) -> (now (oS 5) <= e_time x)%Q) /\
  (key_lt eX eTW \/ key_lt eTW eX).
Proof.
  apply conj_keep; [apply good_init|intros G]. apply conj_keep; [exact o0_exec|intros E0].
  apply conj_keep; [apply (o0_steps 5); vm_compute; reflexivity|intros E1].
  apply conj_keep; [apply (oS_exec 5 3); vm_compute; reflexivity|intros E2].
  apply conj_keep; [vm_compute; reflexivity|intros A5].
  destruct (agenda_invariant _ _ _ _ (exec_app _ _ _ _ _ _ E0 E1)) as (I1 & _ & _ & I4).
  repeat (split; [vm_compute; reflexivity|]).
  split; [exact (now_monotone _ _ _ _ _ _ G E0 E1)|].
  split; [exact (now_monotone _ _ _ _ _ _ o0_good E1 E2)|].
  split; [exact (exec_good _ _ _ _ o0_good (exec_app _ _ _ _ _ _ E1 E2))|].
  split; [exact I1|].
  apply I4; [rewrite A5; cbn; tauto|rewrite A5; cbn; tauto|discriminate].
Qed.
Print Assumptions C01_ex_executions.

(* covers C01_takes_effect_exactly (good s, In x (agenda s), exec s l s'): W's timeout(1), created at 0 (entry eTW,
   pending from the second step on).  Both alternatives of the conclusion occur: after six more steps it is still
   pending and the clock (1/2) has not passed its time; in the full run it is popped by the step that sets now = 1 *)
Theorem C01_ex_takes_effect_exactly :
  good (oS 2) /\ In eTW (agenda (oS 2)) /\
  Order.exec ocodes (oS 2) (map Some [eT7; eT8; eTI; eX; ePI; ePW]) (oS 8) /\
  Order.exec ocodes (oS 2) (map Some [eT7; eT8; eTI; eX; ePI; ePW] ++ Some eTW :: []) (oS 9) /\
  (* content *)
  (In eTW (agenda (oS 8)) /\ (now (oS 8) <= e_time eTW)%Q) /\ (now (oS 8) == 1 # 2)%Q /\
  ktrans ocodes (oS 8) (Some eTW) (oS 9) /\ now (oS 9) = e_time eTW /\ e_time eTW = 1%Q /\
  ((In eTW (agenda (oS 9)) /\ (now (oS 9) <= e_time eTW)%Q) \/
   (exists l1 l2 sa sb, map Some [eT7; eT8; eTI; eX; ePI; ePW] ++ Some eTW :: [] = l1 ++ Some eTW :: l2 /\
      Order.exec ocodes (oS 2) l1 sa /\ In eTW (agenda sa) /\ ktrans ocodes sa (Some eTW) sb /\
      now sb = e_time eTW /\ Order.exec ocodes sb l2 (oS 9))).
Proof.
  apply conj_keep; [apply oS_good|intros G]. apply conj_keep; [vm_compute; tauto|intros I].
  apply conj_keep; [apply (oS_exec 2 6); vm_compute; reflexivity|intros E1].
  apply conj_keep; [apply (oS_exec 2 7); vm_compute; reflexivity|intros E2].
  split; [split; [vm_compute; tauto|vm_compute; discriminate]|].
  split; [vm_compute; reflexivity|].
  split; [apply (oS_trans 8 eTW []); vm_compute; reflexivity|].
  split; [vm_compute; reflexivity|]. split; [reflexivity|].
  exact (pending_takes_effect_exactly _ _ _ _ _ G I E2).
Qed.
Print Assumptions C01_ex_takes_effect_exactly.

(* covers C01_timeout_takes_effect_exactly (good s, do_call (CTimeout d v) s = (s1, Ok (VEv e)), exec s1 l s'):
   a timeout created at t0 = 1/2 (after five steps) with delay 1/4 is entry eN = (3/4, NORMAL, #8); three occurrences
   of instant 1/2 are processed first, then eN in a step that sets now = 3/4 = 1/2 + 1/4, then W's timeout at 1 *)
Theorem C01_ex_timeout_takes_effect_exactly :
  good (oS 5) /\ do_call ocodes (CTimeout (1 # 4) (VInt 9)) (oS 5) = (oF, Ok (VEv 9)) /\
  Order.exec ocodes oF (map Some [eX; ePI; ePW'] ++ Some eN :: [Some eTW]) (nsteps 50 ocodes 5 oF) /\
  (* content *)
  (now (oS 5) == 1 # 2)%Q /\ agenda oF = agenda (oS 5) ++ [eN] /\ next_eid (oS 5) = 8 /\
  (now (nsteps 50 ocodes 3 oF) == 1 # 2)%Q /\
  ktrans ocodes (nsteps 50 ocodes 3 oF) (Some eN) (nsteps 50 ocodes 4 oF) /\
  (now (nsteps 50 ocodes 4 oF) == (1 # 2) + (1 # 4))%Q /\ (now (nsteps 50 ocodes 5 oF) == 1)%Q /\
  ((0 <= 1 # 4)%Q /\
   exists x, e_ev x = 9 /\ e_prio x = NORMAL /\ e_eid x = next_eid (oS 5) /\ (e_time x == now (oS 5) + (1 # 4))%Q /\
             agenda oF = agenda (oS 5) ++ [x] /\
     ((In x (agenda (nsteps 50 ocodes 5 oF)) /\ (now (nsteps 50 ocodes 5 oF) <= now (oS 5) + (1 # 4))%Q) \/
      (exists l1 l2 sa sb, map Some [eX; ePI; ePW'] ++ Some eN :: [Some eTW] = l1 ++ Some x :: l2 /\
         Order.exec ocodes oF l1 sa /\ ktrans ocodes sa (Some x) sb /\
         (now sb == now (oS 5) + (1 # 4))%Q /\ Order.exec ocodes sb l2 (nsteps 50 ocodes 5 oF)))).
Proof.
  apply conj_keep; [apply oS_good|intros G]. apply conj_keep; [exact oF_call|intros C]. apply conj_keep; [apply klabels_exec; vm_compute; reflexivity|intros E].
  split; [vm_compute; reflexivity|]. split; [vm_compute; reflexivity|]. split; [vm_compute; reflexivity|].
  split; [vm_compute; reflexivity|].
  split; [apply (nsteps_trans 50 ocodes 3 oF eN [eTW]); vm_compute; reflexivity|].
  split; [vm_compute; reflexivity|]. split; [vm_compute; reflexivity|].
  exact (timeout_takes_effect_exactly _ _ _ _ _ _ _ _ G C E).
Qed.
Print Assumptions C01_ex_timeout_takes_effect_exactly.

(* covers C01_nothing_skipped (good s, ktrans s (Some m) s'): the step that advances the clock from 0 to 1/2 pops
   I's timeout(1/2) while W's timeout(1) is pending: nothing pending before or after is due before 1/2 *)
Theorem C01_ex_nothing_skipped :
  good (oS 4) /\ ktrans ocodes (oS 4) (Some eTI) (oS 5) /\
  agenda (oS 4) = [eTW; eTI] /\ agenda (oS 5) = [eTW; eX; ePI] /\ (now (oS 4) == 0)%Q /\
  (now (oS 5) = e_time eTI /\ (now (oS 4) <= now (oS 5))%Q /\
   (forall x, In x (agenda (oS 4)) -> (e_time eTI <= e_time x)%Q) /\
   (forall x, In x (agenda (oS 5)) -> (now (oS 5) <= e_time x)%Q)).
Proof.
  apply conj_keep; [apply oS_good|intros G]. apply conj_keep; [apply (oS_trans 4 eTI [eTW]); vm_compute; reflexivity|intros T].
  split; [vm_compute; reflexivity|]. split; [vm_compute; reflexivity|]. split; [vm_compute; reflexivity|].
  exact (nothing_skipped _ _ _ _ G T).
Qed.
Print Assumptions C01_ex_nothing_skipped.

(* covers C01_pop_order (good s, exec s (l1 ++ Some a :: l2) s', In b (agenda s), ~ In (Some b) l1, b <> a):
   at instant 0 the process start of I (a = eII, inserted LAST, #3) is popped while the timeout t7 (b = eT7, inserted
   FIRST, #0) is still pending: key a < key b because URGENT < NORMAL *)
Theorem C01_ex_pop_order :
  good o0 /\ Order.exec ocodes o0 ([Some eIW] ++ Some eII :: map Some [eT7; eT8; eTI; eX; ePI; ePW; eTW]) (oS 9) /\
  In eT7 (agenda o0) /\ ~ In (Some eT7) [Some eIW] /\ eT7 <> eII /\
  key_lt eII eT7.
Proof.
  split; [exact o0_good|]. apply conj_keep; [apply (o0_steps 9); vm_compute; reflexivity|intros E].
  apply conj_keep; [vm_compute; tauto|intros I]. apply conj_keep; [intros [H|[]]; discriminate H|intros N].
  apply conj_keep; [discriminate|intros D].
  exact (pop_order _ _ _ _ _ _ _ o0_good E I N D).
Qed.
Print Assumptions C01_ex_pop_order.

(* covers C01_same_class_fifo (good s, exec s (l1 ++ Some b :: l2) s', In (Some a) (...), same time, same class,
   eid a < eid b): at instant 1/2 the Process events of I (a = ePI, #7) and of W (b = ePW, #8) are both NORMAL;
   b is not even on the agenda of the start state oS 5 (it is inserted by the Interruption step): a is processed first *)
Theorem C01_ex_same_class_fifo :
  good (oS 5) /\ Order.exec ocodes (oS 5) ([Some eX; Some ePI] ++ Some ePW :: [Some eTW]) (oS 9) /\
  In (Some ePI) ([Some eX; Some ePI] ++ Some ePW :: [Some eTW]) /\
  (e_time ePI == e_time ePW)%Q /\ e_prio ePI = e_prio ePW /\ e_eid ePI < e_eid ePW /\
  ~ In ePW (agenda (oS 5)) /\
  In (Some ePI) [Some eX; Some ePI].
Proof.
  apply conj_keep; [apply oS_good|intros G]. apply conj_keep; [apply (oS_exec 5 4); vm_compute; reflexivity|intros E].
  apply conj_keep; [cbn; tauto|intros I]. apply conj_keep; [reflexivity|intros T]. apply conj_keep; [reflexivity|intros P].
  apply conj_keep; [cbn; lia|intros L].
  split; [vm_compute; intros [H|[H|[H|[]]]]; discriminate H|].
  exact (same_class_fifo _ _ _ _ _ _ _ G E I T P L).
Qed.
Print Assumptions C01_ex_same_class_fifo.

(* covers C01_urgent_first (good s, In a (agenda s), In b (agenda s), same time, prio a < prio b,
   exec s (l1 ++ Some b :: l2) s'), twice:
   (i) instant 0: process start of I (eII, #3) before the timeout t7 (eT7, #0) inserted three calls earlier;
   (ii) instant 1/2: the Interruption of W (eX, #6) before the Process event of I (ePI, #7) *)
Theorem C01_ex_urgent_first :
  (good o0 /\ In eII (agenda o0) /\ In eT7 (agenda o0) /\ (e_time eII == e_time eT7)%Q /\ e_prio eII < e_prio eT7 /\
   Order.exec ocodes o0 ([Some eIW; Some eII] ++ Some eT7 :: [Some eT8]) (oS 4) /\
   In (Some eII) [Some eIW; Some eII]) /\
  (good (oS 5) /\ In eX (agenda (oS 5)) /\ In ePI (agenda (oS 5)) /\ (e_time eX == e_time ePI)%Q /\
   e_prio eX < e_prio ePI /\
   Order.exec ocodes (oS 5) ([Some eX] ++ Some ePI :: [Some ePW]) (oS 8) /\
   In (Some eX) [Some eX]).
Proof.
  split.
  - split; [exact o0_good|]. apply conj_keep; [vm_compute; tauto|intros Ia]. apply conj_keep; [vm_compute; tauto|intros Ib].
    apply conj_keep; [reflexivity|intros T]. apply conj_keep; [cbn; unfold URGENT, NORMAL; lia|intros P].
    apply conj_keep; [apply (o0_steps 4); vm_compute; reflexivity|intros E].
    exact (urgent_first _ _ _ _ _ _ _ o0_good Ia Ib T P E).
  - apply conj_keep; [apply oS_good|intros G]. apply conj_keep; [vm_compute; tauto|intros Ia].
    apply conj_keep; [vm_compute; tauto|intros Ib]. apply conj_keep; [reflexivity|intros T].
    apply conj_keep; [cbn; unfold URGENT, NORMAL; lia|intros P].
    apply conj_keep; [apply (oS_exec 5 3); vm_compute; reflexivity|intros E].
    exact (urgent_first _ _ _ _ _ _ _ G Ia Ib T P E).
Qed.
Print Assumptions C01_ex_urgent_first.

(* covers C01_priority_classes (exec from init_state, In x (agenda s)): the state oU reached by eight module-level
   calls, five steps and the prelude of run(until = 3/4) holds a NORMAL timeout, an URGENT Interruption, a NORMAL
   Process event and the URGENT until-sentinel *)
Theorem C01_ex_priority_classes :
  Order.exec ocodes (init_state 0) (repeat None 8 ++ map Some [eIW; eII; eT7; eT8; eTI] ++ [None]) oU /\
  agenda oU = [eTW; eX; ePI; eStop] /\
  In eX (agenda oU) /\ In eStop (agenda oU) /\ In ePI (agenda oU) /\
  map kind (events oU) = [KTimeout; KProcess 0; KInit 0; KTimeout; KProcess 1; KInit 1; KTimeout; KTimeout;
                          KInterruption 0; KSentinel] /\
  (exists ev, nth_error (events oU) (e_ev eStop) = Some ev /\
     (urgent_kind (kind ev) -> e_prio eStop = URGENT) /\ (~ urgent_kind (kind ev) -> e_prio eStop = NORMAL)) /\
  (exists ev, nth_error (events oU) (e_ev ePI) = Some ev /\
     (urgent_kind (kind ev) -> e_prio ePI = URGENT) /\ (~ urgent_kind (kind ev) -> e_prio ePI = NORMAL)).
Proof.
  split; [exact oU_exec|]. apply conj_keep; [vm_compute; reflexivity|intros A].
  apply conj_keep; [rewrite A; cbn; tauto|intros I1]. apply conj_keep; [rewrite A; cbn; tauto|intros I2].
  apply conj_keep; [rewrite A; cbn; tauto|intros I3].
  split; [vm_compute; reflexivity|].
  split; [exact (priority_classes _ _ _ _ _ oU_exec I2)|exact (priority_classes _ _ _ _ _ oU_exec I3)].
Qed.
Print Assumptions C01_ex_priority_classes.

(* covers C01_initialize_urgent (nth_error codes code = Some pr): a third process (code 1) created at instant 1/2 *)
Theorem C01_ex_initialize_urgent :
  nth_error ocodes 1 = Some (compile oI) /\
  agenda (fst (call_spawn ocodes 1 VNone (oS 5))) = agenda (oS 5) ++ [mkEntry (1 # 2) URGENT 8 10] /\
  (let s' := fst (call_spawn ocodes 1 VNone (oS 5)) in
   exists x ev, agenda s' = agenda (oS 5) ++ [x] /\ e_prio x = URGENT /\ (e_time x == now (oS 5))%Q /\
                e_eid x = next_eid (oS 5) /\ nth_error (events s') (e_ev x) = Some ev /\
                kind ev = KInit (length (procs (oS 5)))).
Proof.
  apply conj_keep; [reflexivity|intros H]. split; [vm_compute; reflexivity|].
  exact (spawn_schedules_initialize_urgent ocodes 1 VNone (oS 5) _ H).
Qed.
Print Assumptions C01_ex_initialize_urgent.

(* covers C01_interruption_urgent (call_interrupt e cause s = (s', Ok VNone)): W (Process event 1) is alive and
   waits for its timeout; interrupting it from module level at instant 0 (after four steps) *)
Theorem C01_ex_interruption_urgent :
  call_interrupt 1 (VInt 9) (oS 4) = (fst (call_interrupt 1 (VInt 9) (oS 4)), Ok VNone) /\
  agenda (fst (call_interrupt 1 (VInt 9) (oS 4))) = [eTW; eTI; mkEntry 0 URGENT 6 8] /\
  (exists x ev p, agenda (fst (call_interrupt 1 (VInt 9) (oS 4))) = agenda (oS 4) ++ [x] /\ e_prio x = URGENT /\
                  (e_time x == now (oS 4))%Q /\ e_eid x = next_eid (oS 4) /\
                  nth_error (events (fst (call_interrupt 1 (VInt 9) (oS 4)))) (e_ev x) = Some ev /\
                  kind ev = KInterruption p).
Proof.
  apply conj_keep; [apply pair_of_snd; vm_compute; reflexivity|intros H]. split; [vm_compute; reflexivity|].
  exact (interrupt_schedules_urgent _ _ _ _ H).
Qed.
Print Assumptions C01_ex_interruption_urgent.

(* covers C01_until_sentinel_urgent (run_prelude (UNum t) s = inr s1): run(until = 3/4) entered at instant 1/2 *)
Theorem C01_ex_until_sentinel_urgent :
  run_prelude (UNum (3 # 4)) (oS 5) = inr oU /\
  (now (oS 5) == 1 # 2)%Q /\ agenda oU = agenda (oS 5) ++ [eStop] /\
  ((now (oS 5) < 3 # 4)%Q /\
   exists x ev, agenda oU = agenda (oS 5) ++ [x] /\ e_prio x = URGENT /\ (e_time x == 3 # 4)%Q /\
                e_eid x = next_eid (oS 5) /\ nth_error (events oU) (e_ev x) = Some ev /\ kind ev = KSentinel) /\
  (* and the run stops there: the sentinel is processed at 3/4 before W's timeout(1), which stays pending *)
  snd (run 50 ocodes (UNum (3 # 4)) (oS 5)) = RStop VNone /\
  (now (fst (run 50 ocodes (UNum (3 # 4)) (oS 5))) == 3 # 4)%Q /\
  agenda (fst (run 50 ocodes (UNum (3 # 4)) (oS 5))) = [eTW].
Proof.
  apply conj_keep; [exact oU_prelude|intros H]. split; [vm_compute; reflexivity|]. split; [vm_compute; reflexivity|].
  split; [exact (until_sentinel_urgent _ _ _ H)|].
  split; [vm_compute; reflexivity|]. split; vm_compute; reflexivity.
Qed.
Print Assumptions C01_ex_until_sentinel_urgent.

(* covers C01_negative_delay_refused (d < 0) and C01_nonnegative_delay_accepted (0 <= d, at the boundary d = 0) *)
Theorem C01_ex_delay_sign :
  (-1 # 2 < 0)%Q /\
  do_call ocodes (CTimeout (-1 # 2) VNone) (oS 5) = (oS 5, Fail (kexn EValue M_negative_delay)) /\
  (0 <= 0)%Q /\
  (exists e s', do_call ocodes (CTimeout 0 VNone) (oS 5) = (s', Ok (VEv e))) /\
  agenda (fst (do_call ocodes (CTimeout 0 VNone) (oS 5))) = agenda (oS 5) ++ [mkEntry (1 # 2) NORMAL 8 9].
Proof.
  apply conj_keep; [reflexivity|intros N]. split; [exact (negative_delay_refused ocodes _ VNone (oS 5) N)|].
  apply conj_keep; [discriminate|intros P]. split; [exact (nonnegative_delay_accepted ocodes _ VNone (oS 5) P)|].
  vm_compute. reflexivity.
Qed.
Print Assumptions C01_ex_delay_sign.

(* covers C01_gen_step of Props/C01_Bridge.v (snd (step fuel codes s) <> RBroken): the sixth step pops the Interruption
   of W, runs its callback (W resumes with the Interrupt, logs it and ends) and returns normally; the first step of
   run() on an empty agenda (EmptySchedule) is the other way through the generated body *)
Theorem C01_ex_gen_step :
  snd (step 50 ocodes (oS 5)) <> RBroken /\ step 50 ocodes (oS 5) = (oS 6, ROk) /\
  step_fx 50 ocodes (oS 5) (step_gen 50 ocodes (oS 5)) = Some (step 50 ocodes (oS 5)) /\
  snd (step 50 ocodes (oS 9)) <> RBroken /\ step 50 ocodes (oS 9) = (oS 9, REmpty) /\
  step_fx 50 ocodes (oS 9) (step_gen 50 ocodes (oS 9)) = Some (step 50 ocodes (oS 9)).
Proof.
  apply conj_keep; [vm_compute; discriminate|intros H5]. split; [apply oS_step; vm_compute; reflexivity|].
  split; [exact (bridge_step _ _ _ H5)|].
  apply conj_keep; [vm_compute; discriminate|intros H9].
  split; [apply step_drained; vm_compute; reflexivity|exact (bridge_step _ _ _ H9)].
Qed.
Print Assumptions C01_ex_gen_step.

(* covers C01_spawn_uses_init of Props/C01_Bridge.v (nth_error codes code = Some pr): a third process created at 1/2 *)
Theorem C01_ex_spawn_uses_init :
  nth_error ocodes 1 = Some (compile oI) /\
  (let p := length (procs (oS 5)) in
   let '(pe, s1) := new_event (mkEvent (Some []) None false (KProcess p)) (oS 5) in
   let s3 := fst (init_of_spawn p s1) in
   call_spawn ocodes 1 VNone (oS 5) =
     (set_procs (procs s3 ++ [mkProc (compile oI) (start (compile oI) VNone) pe (Some (length (events s1)))]) s3,
      Ok (VEv pe))) /\
  length (procs (oS 5)) = 2 /\ snd (call_spawn ocodes 1 VNone (oS 5)) = Ok (VEv 9).
Proof.
  apply conj_keep; [reflexivity|intros H]. split; [exact (spawn_uses_init ocodes 1 VNone (oS 5) _ H)|].
  split; vm_compute; reflexivity.
Qed.
Print Assumptions C01_ex_spawn_uses_init.
