(* C08 (conservation), share of WFQ and VirtualClock -- NON-VACUITY of Props/C08_WFQ.v.
   Witnesses (Elem/WFQInst.v, ex_wcfg / ex_wacts and ex_vcfg / ex_vacts: executions observed on the real code, corpus/C14): WFQ with
   two classes, a 1536-byte and two 96-byte packets at 0 (the small packet of class 1 overtakes); VirtualClock with four flows and four
   equal stamps.  The states and traces are named by projection out of the computed run (fx_s n, fx_tr n = after the first n actions)
   so that they are never printed in normal form.
     C08_ex_wfq_run      covers C08_wfq_conserves, C08_wfq_flow_fifo, C08_wfq_never_raises (wcfg_ok, wadm, admissible execution,
                         reachable state; stopped after 14 actions: one forwarded, one in transmission, one queued)
     C08_ex_wfq_drained  covers C08_wfq_drained (nothing urgent, no transmission pending: the complete execution)
     C08_ex_vc_run       covers C08_vc_conserves, C08_vc_flow_fifo, C08_vc_never_raises
     C08_ex_vc_drained   covers C08_vc_drained
   No theorem of Props/C08_WFQ.v is unconditional.
   The conclusions are obtained by applying the theorem to the witness.  Statement files are compiled independently (and in
   parallel) by the pipeline, so one statement file cannot import another: [C08_x] below is a LOCAL abbreviation of the proof
   term that closes theorem C08_x in Props/C08_WFQ.v (there: `Proof. exact <that term>. Qed.`), hence has the same statement.
   Helper facts are stated with `Fact` (they are not obligations); every `Theorem` is a witness and is followed by
   Print Assumptions. *)
From Coq Require Import ZArith QArith List Bool Permutation.
From ONL Require Import Base.Tools Elem.Packet Elem.StoreQ Elem.WFQServer Elem.WFQServerProofs Elem.WFQServerTrace Elem.WFQ
  Elem.WFQProofs
  Elem.VC Elem.VCProofs Elem.WFQInst.
From ONL Require Import Props.C08_WFQ.
Import ListNotations.

Fact fx_wadm n : wadm ex_wcfg (firstn n ex_wacts).
Proof. intros p Hp. apply ex_wadm. rewrite <- (firstn_skipn n ex_wacts). apply in_or_app. left. exact Hp. Qed.
Fact fx_vadm n : vadm ex_vcfg (firstn n ex_vacts).
Proof. intros p Hp. apply ex_vadm. rewrite <- (firstn_skipn n ex_vacts). apply in_or_app. left. exact Hp. Qed.

Fact vc_run_reach' cfg acts s' tr : vadm cfg acts -> vc_run cfg (vc0 cfg) acts = Some (s', tr) -> vreach cfg s'.
Proof. intros C H. eapply run_reach; [apply reach0|exact C|exact H]. Qed.

Definition fx_run (n : nat) := wfq_run ex_wcfg (wfq0 ex_wcfg) (firstn n ex_wacts).
Definition fx_s (n : nat) : wfq ex_wcfg := match fx_run n with Some (s, _) => s | None => wfq0 ex_wcfg end.
Definition fx_tr (n : nat) : list (tev (WS ex_wcfg)) := match fx_run n with Some (_, tr) => tr | None => [] end.
Definition vx_run (n : nat) := vc_run ex_vcfg (vc0 ex_vcfg) (firstn n ex_vacts).
Definition vx_s (n : nat) : vc ex_vcfg := match vx_run n with Some (s, _) => s | None => vc0 ex_vcfg end.
Definition vx_tr (n : nat) : list (tev (VS ex_vcfg)) := match vx_run n with Some (_, tr) => tr | None => [] end.

Strategy expand [fx_run vx_run].
Fact some_proj {A B : Type} (r : option (A * B)) (a : A) (b : B) :
  (match r with Some _ => true | None => false end) = true ->
  r = Some (match r with Some (s, _) => s | None => a end, match r with Some (_, t) => t | None => b end).
Proof. destruct r as [[s t]|]; [reflexivity|discriminate]. Qed.

Ltac by_proj := unfold fx_s, fx_tr, vx_s, vx_tr; apply some_proj; vm_compute; reflexivity.
Fact fx_mid0 : fx_run 14 = Some (fx_s 14, fx_tr 14). Proof. by_proj. Qed.
Fact fx_end0 : fx_run 22 = Some (fx_s 22, fx_tr 22). Proof. by_proj. Qed.
Fact vx_mid0 : vx_run 16 = Some (vx_s 16, vx_tr 16). Proof. by_proj. Qed.
Fact vx_end0 : vx_run 29 = Some (vx_s 29, vx_tr 29). Proof. by_proj. Qed.
Fact fx_mid : wfq_run ex_wcfg (wfq0 ex_wcfg) (firstn 14 ex_wacts) = Some (fx_s 14, fx_tr 14).
Proof. exact fx_mid0. Qed.
Fact fx_end : wfq_run ex_wcfg (wfq0 ex_wcfg) ex_wacts = Some (fx_s 22, fx_tr 22).
Proof. exact fx_end0. Qed.
Fact vx_mid : vc_run ex_vcfg (vc0 ex_vcfg) (firstn 16 ex_vacts) = Some (vx_s 16, vx_tr 16).
Proof. exact vx_mid0. Qed.
Fact vx_end : vc_run ex_vcfg (vc0 ex_vcfg) ex_vacts = Some (vx_s 29, vx_tr 29).
Proof. exact vx_end0. Qed.

(* covers: C08_wfq_conserves, C08_wfq_flow_fifo, C08_wfq_never_raises *)
Theorem C08_ex_wfq_run :
  let s' := fx_s 14 in let tr := fx_tr 14 in
  wcfg_ok ex_wcfg /\ wadm ex_wcfg (firstn 14 ex_wacts) /\
    wfq_run ex_wcfg (wfq0 ex_wcfg) (firstn 14 ex_wacts) = Some (s', tr) /\
    puts (WS ex_wcfg) tr = [ex_p0; ex_p1; ex_p2] /\ fwds (WS ex_wcfg) tr = [ex_p1] /\ held (WS ex_wcfg) s' = [ex_p0; ex_p2] /\
    Permutation (puts (WS ex_wcfg) tr) (fwds (WS ex_wcfg) tr ++ held (WS ex_wcfg) s') /\
    (forall f, only f (fwds (WS ex_wcfg) tr) ++ only f (held (WS ex_wcfg) s') = only f (puts (WS ex_wcfg) tr)) /\
    only 0 (held (WS ex_wcfg) s') = [ex_p0; ex_p2] /\
    wreach ex_wcfg s' /\ (forall a, (forall p, a = FPut p -> wconf ex_wcfg p) -> wfq_act ex_wcfg s' a <> Raises).
Proof.
  cbv zeta. split; [exact ex_wcfg_ok|]. split; [exact (fx_wadm 14)|]. split; [exact fx_mid|].
  split; [vm_compute; reflexivity|]. split; [vm_compute; reflexivity|]. split; [vm_compute; reflexivity|].
  split; [exact (C08_wfq_conserves _ _ _ _ fx_mid)|].
  split; [exact (fun f => C08_wfq_flow_fifo _ ex_wcfg_ok _ _ _ f (fx_wadm 14) fx_mid)|].
  split; [vm_compute; reflexivity|]. apply conj_keep; [exact (wfq_run_reach ex_wcfg _ _ _ (fx_wadm 14) fx_mid)|intros HR].
  exact (fun a => C08_wfq_never_raises _ ex_wcfg_ok _ a HR).
Qed.
Print Assumptions C08_ex_wfq_run.

(* covers: C08_wfq_drained *)
Theorem C08_ex_wfq_drained :
  let s' := fx_s 22 in let tr := fx_tr 22 in
  wcfg_ok ex_wcfg /\ wadm ex_wcfg ex_wacts /\ wfq_run ex_wcfg (wfq0 ex_wcfg) ex_wacts = Some (s', tr) /\
    urgent s' = false /\ (forall e dl, chl s' <> CTx e dl) /\
    puts (WS ex_wcfg) tr = [ex_p0; ex_p1; ex_p2] /\ fwds (WS ex_wcfg) tr = [ex_p1; ex_p0; ex_p2] /\
    held (WS ex_wcfg) s' = [] /\ (forall f, qcount s' f = 0%Z /\ qbytes s' f = 0%Z).
Proof.
  cbv zeta. split; [exact ex_wcfg_ok|]. split; [exact ex_wadm|]. split; [exact fx_end|].
  apply conj_keep; [vm_compute; reflexivity|intros U].
  apply conj_keep; [intros e dl; vm_compute; discriminate|intros N]. split; [vm_compute; reflexivity|].
  split; [vm_compute; reflexivity|].
  exact (C08_wfq_drained _ ex_wcfg_ok _ _ _ ex_wadm fx_end U N).
Qed.
Print Assumptions C08_ex_wfq_drained.

(* covers: C08_vc_conserves, C08_vc_flow_fifo, C08_vc_never_raises *)
Theorem C08_ex_vc_run :
  let s' := vx_s 16 in let tr := vx_tr 16 in
  vcfg_ok ex_vcfg /\ vadm ex_vcfg (firstn 16 ex_vacts) /\
    vc_run ex_vcfg (vc0 ex_vcfg) (firstn 16 ex_vacts) = Some (s', tr) /\
    puts (VS ex_vcfg) tr = [ex_q 0; ex_q 1; ex_q 2; ex_q 3] /\ fwds (VS ex_vcfg) tr = [ex_q 0] /\
    held (VS ex_vcfg) s' = [ex_q 1; ex_q 2; ex_q 3] /\
    Permutation (puts (VS ex_vcfg) tr) (fwds (VS ex_vcfg) tr ++ held (VS ex_vcfg) s') /\
    (forall f, only f (fwds (VS ex_vcfg) tr) ++ only f (held (VS ex_vcfg) s') = only f (puts (VS ex_vcfg) tr)) /\
    vreach ex_vcfg s' /\ (forall a, (forall p, a = FPut p -> vconf ex_vcfg p) -> vc_act ex_vcfg s' a <> Raises).
Proof.
  cbv zeta. split; [exact ex_vcfg_ok|]. split; [exact (fx_vadm 16)|]. split; [exact vx_mid|].
  split; [vm_compute; reflexivity|]. split; [vm_compute; reflexivity|]. split; [vm_compute; reflexivity|].
  split; [exact (C08_vc_conserves _ _ _ _ vx_mid)|].
  split; [exact (fun f => C08_vc_flow_fifo _ ex_vcfg_ok _ _ _ f (fx_vadm 16) vx_mid)|].
  apply conj_keep; [exact (vc_run_reach' ex_vcfg _ _ _ (fx_vadm 16) vx_mid)|intros HR].
  exact (fun a => C08_vc_never_raises _ ex_vcfg_ok _ a HR).
Qed.
Print Assumptions C08_ex_vc_run.

(* covers: C08_vc_drained *)
Theorem C08_ex_vc_drained :
  let s' := vx_s 29 in let tr := vx_tr 29 in
  vcfg_ok ex_vcfg /\ vadm ex_vcfg ex_vacts /\ vc_run ex_vcfg (vc0 ex_vcfg) ex_vacts = Some (s', tr) /\
    urgent s' = false /\ (forall e dl, chl s' <> CTx e dl) /\
    puts (VS ex_vcfg) tr = [ex_q 0; ex_q 1; ex_q 2; ex_q 3] /\ fwds (VS ex_vcfg) tr = [ex_q 0; ex_q 1; ex_q 2; ex_q 3] /\
    held (VS ex_vcfg) s' = [] /\ (forall f, qcount s' f = 0%Z /\ qbytes s' f = 0%Z).
Proof.
  cbv zeta. split; [exact ex_vcfg_ok|]. split; [exact ex_vadm|]. split; [exact vx_end|].
  apply conj_keep; [vm_compute; reflexivity|intros U].
  apply conj_keep; [intros e dl; vm_compute; discriminate|intros N]. split; [vm_compute; reflexivity|].
  split; [vm_compute; reflexivity|].
  exact (C08_vc_drained _ ex_vcfg_ok _ _ _ ex_vadm vx_end U N).
Qed.
Print Assumptions C08_ex_vc_drained.
