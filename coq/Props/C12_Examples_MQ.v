(* C12 -- NON-VACUITY of the theorems of Props/C12_MQ.v, Props/C12_BridgeMQ.v and Props/C12_BridgeMon.v (SP, RR, WRR,
   Monitor).  Every theorem there that has hypotheses is matched by a machine-checked witness: a concrete admissible
   execution of the scheduler (Elem/SchedExamples.v: five resp. four packets of three flows, arrivals during a
   transmission and exactly at a transmission end, several flows on one class for SP) on which ALL its hypotheses hold
   together, with the concrete content of the conclusion on that execution.

   Coverage (theorem -> witness):
     C12_sp_work_conserving (both branches), C12_sp_one_at_a_time_tx_time, C12_sp_flow_fifo,
     C12_sp_exactly_once, C12_sp_counters, C12_sp_never_spins, C12_sp_monitor_samples      -> C12_ex_sp_execution
     C12_sp_back_to_back                                                                     -> C12_ex_sp_back_to_back
     C12_rr_* (the same seven)   -> C12_ex_rr_execution       C12_rr_back_to_back   -> C12_ex_rr_back_to_back
     C12_wrr_* (the same seven)  -> C12_ex_wrr_execution      C12_wrr_back_to_back  -> C12_ex_wrr_back_to_back
     C12_gen_sp_put, C12_gen_mqs_put (hypotheses: configured class, non-negative size, identity class map)
                                                                                             -> C12_ex_gen_put
   Unconditional (no hypotheses): C12_gen_add_packet_to_queue, C12_gen_schedmon_sample, and the three theorems of
   Props/C12_BridgeRun.v (send_packet). *)
From Coq Require Import ZArith QArith List Lia.
From ONL Require Import Base.Tools Elem.Packet Elem.StoreQ Elem.SchedBase Elem.SchedBaseProofs Elem.SP Elem.SPProofs Elem.RR Elem.RRProofs
  Elem.WRR Elem.WRRProofs Elem.SchedExamples Gen.Extracted_mq Elem.SchedBridge.
From ONL Require Import Props.C12_MQ Props.C12_BridgeMQ.
Import ListNotations.

(* pkt_eq_dec is opaque: concrete multiplicities are computed by case analysis on its (decidable) outcome *)
Ltac count_pkts :=
  vm_compute;
  repeat match goal with
         | |- context [pkt_eq_dec ?a ?b] =>
             let E := fresh "E" in
             destruct (pkt_eq_dec a b) as [E|E]; [try discriminate E|try (exfalso; apply E; reflexivity)]; clear E
         end;
  reflexivity.

(* ================= SP ================= *)
(* State W = after 31 actions (instant 3): a1 (class 10, priority 1) is being transmitted until 4 while b2 (class 11) waits;
   a0, b0, b1 have left.  The clock may move (SAdvance 4 is admissible): work conservation says a transmission is in
   progress.  Final state (39 actions, instant 5): drained, the clock may move, nothing is held. *)
Theorem C12_ex_sp_execution :
  (* hypotheses *)
  0 < spx_r /\ (forall k p, In (k, p) spx_tbl -> (0 < p)%Z) /\
  sp_run spx_r spx_cm spx_fl spx_tbl (firstn 31 spx_acts) = Some (spx_state 31, spx_trace 31) /\
  (exists x, sp_act spx_r spx_cm spx_fl spx_tbl (spx_state 31) (SAdvance 4) = Some x) /\
  sp_run spx_r spx_cm spx_fl spx_tbl spx_acts = Some (spx_state 39, spx_trace 39) /\
  (exists x, sp_act spx_r spx_cm spx_fl spx_tbl (spx_state 39) (SAdvance 6) = Some x) /\
  (* the execution *)
  mnow (spx_state 31) = 3 /\
  tr_puts (spx_trace 31) = [spx_a0; spx_a1; spx_b0; spx_b1; spx_b2] /\ tr_fwds (spx_trace 31) = [spx_a0; spx_b0; spx_b1] /\
  held_class spx_cfg (spx_state 31) 10 = [spx_a1] /\ held_class spx_cfg (spx_state 31) 11 = [spx_b2] /\
  tr_fwds (spx_trace 39) = [spx_a0; spx_b0; spx_b1; spx_a1; spx_b2] /\
  (* conclusions at W: work-conserving (a backlog, hence a transmission in progress), tx_wf, per-flow FIFO, exactly once,
     counters, never spins, Monitor samples with the packet in service excluded / included *)
  (exists p dl, mchild (spx_state 31) = CTx p dl /\ mcur (spx_state 31) = Some p /\ mnow (spx_state 31) < dl /\ p = spx_a1 /\ dl == 4) /\
  tx_wf spx_cfg None (spx_trace 31) /\ tx_wf spx_cfg None (spx_trace 39) /\
  filter (is_flow 2) (tr_puts (spx_trace 31)) = filter (is_flow 2) (tr_fwds (spx_trace 31)) ++ [spx_b2] /\
  (exists rest, filter (is_flow 2) (tr_puts (spx_trace 31)) = filter (is_flow 2) (tr_fwds (spx_trace 31)) ++ rest) /\
  count_occ pkt_eq_dec (tr_puts (spx_trace 31)) spx_b2
    = (count_occ pkt_eq_dec (tr_fwds (spx_trace 31)) spx_b2 + count_occ pkt_eq_dec (held_class spx_cfg (spx_state 31) (spx_cm (flow spx_b2))) spx_b2)%nat /\
  count_occ pkt_eq_dec (tr_puts (spx_trace 31)) spx_b2 = 1%nat /\ count_occ pkt_eq_dec (tr_fwds (spx_trace 31)) spx_b2 = 0%nat /\
  count_occ pkt_eq_dec (tr_fwds (spx_trace 31)) spx_b0 = 1%nat /\
  (mqc (spx_state 31) 0 = 0 /\ mqc (spx_state 31) 1 = 1 /\ mqc (spx_state 31) 2 = 1 /\ mqb (spx_state 31) 2 = 128 /\
   mtotal (spx_state 31) = 2 /\ mcur (spx_state 31) = Some spx_a1 /\ mrecv (spx_state 31) = 5)%Z /\
  (forall f, mqc (spx_state 31) f = Z.of_nat (length (held_flow spx_cfg (spx_state 31) f))) /\
  mpc (spx_state 31) <> PSpin /\
  sp_act spx_r spx_cm spx_fl spx_tbl (spx_state 31) (SSample false) = Some (spx_state 31, [OSample [(0, 0, 0); (1, 0, 0); (2, 1, 128)]%Z]) /\
  sp_act spx_r spx_cm spx_fl spx_tbl (spx_state 31) (SSample true) = Some (spx_state 31, [OSample [(0, 0, 0); (1, 1, 128); (2, 1, 128)]%Z]) /\
  waiting_flow spx_cfg (spx_state 31) 1 = [] /\ held_flow spx_cfg (spx_state 31) 1 = [spx_a1] /\
  (* conclusion at the final state: nothing is held *)
  (forall k, held_class spx_cfg (spx_state 39) k = []).
Proof.
  apply conj_keep; [reflexivity|intros Hr]. apply conj_keep; [intros k p [H|[H|[]]]; injection H as <- <-; lia|intros Hp].
  apply conj_keep; [vm_compute; reflexivity|intros HW].
  apply conj_keep; [eexists; vm_compute; reflexivity|intros AW]. apply conj_keep; [vm_compute; reflexivity|intros HF].
  apply conj_keep; [eexists; vm_compute; reflexivity|intros AF].
  split; [vm_compute; reflexivity|]. split; [vm_compute; reflexivity|]. split; [vm_compute; reflexivity|].
  split; [vm_compute; reflexivity|]. split; [vm_compute; reflexivity|]. split; [vm_compute; reflexivity|].
  split.
  { destruct AW as [x AW]. destruct (C12_sp_work_conserving _ _ _ _ _ _ _ _ _ Hr Hp HW AW) as [(p & dl & A & B & C)|N].
    - exists p, dl. split; [exact A|]. split; [exact B|]. split; [exact C|].
      vm_compute in A. injection A as <- <-. split; reflexivity.
    - exfalso. specialize (N 11%Z). vm_compute in N. discriminate N. }
  split; [exact (C12_sp_one_at_a_time_tx_time _ _ _ _ _ _ _ Hr HW)|].
  split; [exact (C12_sp_one_at_a_time_tx_time _ _ _ _ _ _ _ Hr HF)|].
  split; [vm_compute; reflexivity|].
  split; [exact (C12_sp_flow_fifo _ _ _ _ _ _ _ 2%Z Hr HW)|].
  split; [exact (C12_sp_exactly_once _ _ _ _ _ _ _ spx_b2 Hr HW)|].
  split; [count_pkts|]. split; [count_pkts|]. split; [count_pkts|].
  split; [repeat split; vm_compute; reflexivity|].
  split; [intros f; exact (proj1 (proj1 (C12_sp_counters _ _ _ _ _ _ _ Hr HW) f))|].
  split; [exact (C12_sp_never_spins _ _ _ _ _ _ _ Hr Hp HW)|].
  split; [rewrite (C12_sp_monitor_samples _ _ _ _ _ _ _ false Hr HW); vm_compute; reflexivity|].
  split; [rewrite (C12_sp_monitor_samples _ _ _ _ _ _ _ true Hr HW); vm_compute; reflexivity|].
  split; [vm_compute; reflexivity|]. split; [vm_compute; reflexivity|].
  destruct AF as [x AF]. destruct (C12_sp_work_conserving _ _ _ _ _ _ _ _ _ Hr Hp HF AF) as [(p & dl & A & _)|N]; [|exact N].
  vm_compute in A. discriminate A.
Qed.
Print Assumptions C12_ex_sp_execution.

(* SP: the transmission of the first packet ends at instant 1 (action 13: SChildTimer) while packets are held; run() resumes, takes the
   next packet and its transmission starts (OStart) before the clock can move: at instant 1 *)
Definition spx_b2b_acts : list saction := [SChildEnd; SGetDone (Some 11%Z); SChildInit].
Definition spx_b2b_trace : list tev :=
  match mq_run spx_cfg (spx_state 14) spx_b2b_acts with Some (_, tr) => tr | None => [] end.

Theorem C12_ex_sp_back_to_back :
  (* hypotheses of C12_sp_back_to_back *)
  0 < spx_r /\ (forall k p, In (k, p) spx_tbl -> (0 < p)%Z) /\
  sp_run spx_r spx_cm spx_fl spx_tbl (firstn 13 spx_acts) = Some (spx_state 13, spx_trace 13) /\
  sp_act spx_r spx_cm spx_fl spx_tbl (spx_state 13) SChildTimer = Some (spx_state 14, [OForward spx_a0]) /\
  (exists k, held_class spx_cfg (spx_state 14) k <> []) /\
  mq_run spx_cfg (spx_state 14) spx_b2b_acts = Some (spx_state 17, spx_b2b_trace) /\
  (forall t', ~ In (SAdvance t') spx_b2b_acts) /\
  (exists x, sp_act spx_r spx_cm spx_fl spx_tbl (spx_state 17) (SAdvance 2) = Some x) /\
  (* conclusion: a transmission start at the instant the previous one ended *)
  mnow (spx_state 14) = 1 /\
  nth_error spx_b2b_trace 2 = Some (1, SChildInit, [OStart spx_b0]) /\
  (exists e p, In e spx_b2b_trace /\ In (OStart p) (snd e) /\ fst (fst e) = mnow (spx_state 14)).
Proof.
  apply conj_keep; [reflexivity|intros Hr]. apply conj_keep; [intros k p [H|[H|[]]]; injection H as <- <-; lia|intros Hp].
  apply conj_keep; [vm_compute; reflexivity|intros H1].
  apply conj_keep; [vm_compute; reflexivity|intros H2]. apply conj_keep; [exists 11%Z; vm_compute; discriminate|intros H3].
  apply conj_keep; [vm_compute; reflexivity|intros H4].
  apply conj_keep; [intros t' [H|[H|[H|[]]]]; discriminate H|intros H5].
  apply conj_keep; [eexists; vm_compute; reflexivity|intros H6]. split; [vm_compute; reflexivity|].
  split; [vm_compute; reflexivity|].
  destruct H6 as [x H6].
  exact (C12_sp_back_to_back _ _ _ _ _ _ _ _ _ _ _ _ _ _ Hr Hp H1 H2 H3 H4 H5 H6).
Qed.
Print Assumptions C12_ex_sp_back_to_back.

(* ================= RR ================= *)
(* State W = after 24 actions (instant 2): rrx_y0 is being transmitted while other packets wait; the clock may move.
   Final state (32 actions): drained. *)
Theorem C12_ex_rr_execution :
  (* hypotheses *)
  0 < rrx_r /\
  rr_run rrx_r rrx_fl (firstn 24 rrx_acts) = Some (rrx_state 24, rrx_trace 24) /\
  (exists x, rr_act rrx_r rrx_fl (rrx_state 24) (SAdvance 3) = Some x) /\
  rr_run rrx_r rrx_fl rrx_acts = Some (rrx_state 32, rrx_trace 32) /\
  (exists x, rr_act rrx_r rrx_fl (rrx_state 32) (SAdvance 5) = Some x) /\
  (* the execution *)
  mnow (rrx_state 24) = 2 /\
  tr_puts (rrx_trace 24) = [rrx_x0; rrx_x1; rrx_y0; rrx_z0] /\ tr_fwds (rrx_trace 24) = [rrx_x0; rrx_z0] /\
  held_class rrx_cfg (rrx_state 24) 0 = [rrx_x1] /\ held_class rrx_cfg (rrx_state 24) 1 = [] /\ held_class rrx_cfg (rrx_state 24) 2 = [rrx_y0] /\
  tr_fwds (rrx_trace 32) = [rrx_x0; rrx_z0; rrx_y0; rrx_x1] /\
  (* conclusions at W *)
  (exists p dl, mchild (rrx_state 24) = CTx p dl /\ mcur (rrx_state 24) = Some p /\ mnow (rrx_state 24) < dl /\ p = rrx_y0 /\ dl == 3) /\
  tx_wf rrx_cfg None (rrx_trace 24) /\ tx_wf rrx_cfg None (rrx_trace 32) /\
  filter (is_flow 0) (tr_puts (rrx_trace 24)) = filter (is_flow 0) (tr_fwds (rrx_trace 24)) ++ [rrx_x1] /\
  (exists rest, filter (is_flow 0) (tr_puts (rrx_trace 24)) = filter (is_flow 0) (tr_fwds (rrx_trace 24)) ++ rest) /\
  count_occ pkt_eq_dec (tr_puts (rrx_trace 24)) rrx_x1
    = (count_occ pkt_eq_dec (tr_fwds (rrx_trace 24)) rrx_x1 + count_occ pkt_eq_dec (held_class rrx_cfg (rrx_state 24) (flow rrx_x1)) rrx_x1)%nat /\
  count_occ pkt_eq_dec (tr_puts (rrx_trace 24)) rrx_x1 = 1%nat /\ count_occ pkt_eq_dec (tr_fwds (rrx_trace 24)) rrx_x1 = 0%nat /\
  (mqc (rrx_state 24) 0 = 1 /\ mqc (rrx_state 24) 1 = 0 /\ mqc (rrx_state 24) 2 = 1 /\ mqb (rrx_state 24) 2 = 128 /\ mtotal (rrx_state 24) = 2 /\ mcur (rrx_state 24) = Some rrx_y0 /\ mrecv (rrx_state 24) = 4)%Z /\
  (forall f, mqc (rrx_state 24) f = Z.of_nat (length (held_flow rrx_cfg (rrx_state 24) f))) /\
  mpc (rrx_state 24) <> PSpin /\
  rr_act rrx_r rrx_fl (rrx_state 24) (SSample false) = Some (rrx_state 24, [OSample [(0, 1, 128); (1, 0, 0); (2, 0, 0)]%Z]) /\
  rr_act rrx_r rrx_fl (rrx_state 24) (SSample true) = Some (rrx_state 24, [OSample [(0, 1, 128); (1, 0, 0); (2, 1, 128)]%Z]) /\
  waiting_flow rrx_cfg (rrx_state 24) 2 = [] /\ held_flow rrx_cfg (rrx_state 24) 2 = [rrx_y0] /\
  (* conclusion at the final state: nothing is held *)
  (forall k, held_class rrx_cfg (rrx_state 32) k = []).
Proof.
  apply conj_keep; [reflexivity|intros Hr]. apply conj_keep; [vm_compute; reflexivity|intros HW].
  apply conj_keep; [eexists; vm_compute; reflexivity|intros AW]. apply conj_keep; [vm_compute; reflexivity|intros HF].
  apply conj_keep; [eexists; vm_compute; reflexivity|intros AF].
  split; [vm_compute; reflexivity|]. split; [vm_compute; reflexivity|]. split; [vm_compute; reflexivity|].
  split; [vm_compute; reflexivity|]. split; [vm_compute; reflexivity|]. split; [vm_compute; reflexivity|]. split; [vm_compute; reflexivity|].
  split.
  { destruct AW as [x AW]. destruct (C12_rr_work_conserving _ _ _ _ _ _ _ Hr HW AW) as [(p & dl & A & B & C)|N].
    - exists p, dl. split; [exact A|]. split; [exact B|]. split; [exact C|].
      vm_compute in A. injection A as <- <-. split; reflexivity.
    - exfalso. specialize (N 0%Z). vm_compute in N. discriminate N. }
  split; [exact (C12_rr_one_at_a_time_tx_time _ _ _ _ _ Hr HW)|].
  split; [exact (C12_rr_one_at_a_time_tx_time _ _ _ _ _ Hr HF)|].
  split; [vm_compute; reflexivity|].
  split; [exact (C12_rr_flow_fifo _ _ _ _ _ 0%Z Hr HW)|].
  split; [exact (C12_rr_exactly_once _ _ _ _ _ rrx_x1 Hr HW)|].
  split; [count_pkts|]. split; [count_pkts|].
  split; [repeat split; vm_compute; reflexivity|].
  split; [intros f; exact (proj1 (proj1 (C12_rr_counters _ _ _ _ _ Hr HW) f))|].
  split; [exact (C12_rr_never_spins _ _ _ _ _ Hr HW)|].
  split; [rewrite (C12_rr_monitor_samples _ _ _ _ _ false Hr HW); vm_compute; reflexivity|].
  split; [rewrite (C12_rr_monitor_samples _ _ _ _ _ true Hr HW); vm_compute; reflexivity|].
  split; [vm_compute; reflexivity|]. split; [vm_compute; reflexivity|].
  destruct AF as [x AF]. destruct (C12_rr_work_conserving _ _ _ _ _ _ _ Hr HF AF) as [(p & dl & A & _)|N]; [|exact N].
  vm_compute in A. discriminate A.
Qed.
Print Assumptions C12_ex_rr_execution.

(* RR: the transmission of the first packet ends at instant 1 (action 15: SChildTimer) while packets are held; run() resumes, takes the
   next packet and its transmission starts (OStart) before the clock can move: at instant 1 *)
Definition rrx_b2b_acts : list saction := [SChildEnd; SGetDone (Some 1%Z); SChildInit].
Definition rrx_b2b_trace : list tev :=
  match mq_run rrx_cfg (rrx_state 16) rrx_b2b_acts with Some (_, tr) => tr | None => [] end.

Theorem C12_ex_rr_back_to_back :
  (* hypotheses of C12_rr_back_to_back *)
  0 < rrx_r /\
  rr_run rrx_r rrx_fl (firstn 15 rrx_acts) = Some (rrx_state 15, rrx_trace 15) /\
  rr_act rrx_r rrx_fl (rrx_state 15) SChildTimer = Some (rrx_state 16, [OForward rrx_x0]) /\
  (exists k, held_class rrx_cfg (rrx_state 16) k <> []) /\
  mq_run rrx_cfg (rrx_state 16) rrx_b2b_acts = Some (rrx_state 19, rrx_b2b_trace) /\
  (forall t', ~ In (SAdvance t') rrx_b2b_acts) /\
  (exists x, rr_act rrx_r rrx_fl (rrx_state 19) (SAdvance 2) = Some x) /\
  (* conclusion: a transmission start at the instant the previous one ended *)
  mnow (rrx_state 16) = 1 /\
  nth_error rrx_b2b_trace 2 = Some (1, SChildInit, [OStart rrx_z0]) /\
  (exists e p, In e rrx_b2b_trace /\ In (OStart p) (snd e) /\ fst (fst e) = mnow (rrx_state 16)).
Proof.
  apply conj_keep; [reflexivity|intros Hr]. apply conj_keep; [vm_compute; reflexivity|intros H1].
  apply conj_keep; [vm_compute; reflexivity|intros H2]. apply conj_keep; [exists 0%Z; vm_compute; discriminate|intros H3].
  apply conj_keep; [vm_compute; reflexivity|intros H4].
  apply conj_keep; [intros t' [H|[H|[H|[]]]]; discriminate H|intros H5].
  apply conj_keep; [eexists; vm_compute; reflexivity|intros H6]. split; [vm_compute; reflexivity|].
  split; [vm_compute; reflexivity|].
  destruct H6 as [x H6].
  exact (C12_rr_back_to_back _ _ _ _ _ _ _ _ _ _ _ _ Hr H1 H2 H3 H4 H5 H6).
Qed.
Print Assumptions C12_ex_rr_back_to_back.

(* ================= WRR ================= *)
(* State W = after 19 actions (instant 1): rrx_x1 is being transmitted while other packets wait; the clock may move.
   Final state (32 actions): drained. *)
Theorem C12_ex_wrr_execution :
  (* hypotheses *)
  0 < wrx_r /\ (forall f w, In (f, w) wrx_ws -> (0 < w)%Z) /\
  wrr_run wrx_r wrx_ws (firstn 19 wrx_acts) = Some (wrx_state 19, wrx_trace 19) /\
  (exists x, wrr_act wrx_r wrx_ws (wrx_state 19) (SAdvance 2) = Some x) /\
  wrr_run wrx_r wrx_ws wrx_acts = Some (wrx_state 32, wrx_trace 32) /\
  (exists x, wrr_act wrx_r wrx_ws (wrx_state 32) (SAdvance 5) = Some x) /\
  (* the execution *)
  mnow (wrx_state 19) = 1 /\
  tr_puts (wrx_trace 19) = [rrx_x0; rrx_x1; rrx_y0; rrx_z0] /\ tr_fwds (wrx_trace 19) = [rrx_x0] /\
  held_class wrx_cfg (wrx_state 19) 0 = [rrx_x1] /\ held_class wrx_cfg (wrx_state 19) 1 = [rrx_z0] /\ held_class wrx_cfg (wrx_state 19) 2 = [rrx_y0] /\
  tr_fwds (wrx_trace 32) = [rrx_x0; rrx_x1; rrx_z0; rrx_y0] /\
  (* conclusions at W *)
  (exists p dl, mchild (wrx_state 19) = CTx p dl /\ mcur (wrx_state 19) = Some p /\ mnow (wrx_state 19) < dl /\ p = rrx_x1 /\ dl == 2) /\
  tx_wf wrx_cfg None (wrx_trace 19) /\ tx_wf wrx_cfg None (wrx_trace 32) /\
  filter (is_flow 2) (tr_puts (wrx_trace 19)) = filter (is_flow 2) (tr_fwds (wrx_trace 19)) ++ [rrx_y0] /\
  (exists rest, filter (is_flow 2) (tr_puts (wrx_trace 19)) = filter (is_flow 2) (tr_fwds (wrx_trace 19)) ++ rest) /\
  count_occ pkt_eq_dec (tr_puts (wrx_trace 19)) rrx_y0
    = (count_occ pkt_eq_dec (tr_fwds (wrx_trace 19)) rrx_y0 + count_occ pkt_eq_dec (held_class wrx_cfg (wrx_state 19) (flow rrx_y0)) rrx_y0)%nat /\
  count_occ pkt_eq_dec (tr_puts (wrx_trace 19)) rrx_y0 = 1%nat /\ count_occ pkt_eq_dec (tr_fwds (wrx_trace 19)) rrx_y0 = 0%nat /\
  (mqc (wrx_state 19) 0 = 1 /\ mqc (wrx_state 19) 1 = 1 /\ mqc (wrx_state 19) 2 = 1 /\ mqb (wrx_state 19) 0 = 128 /\ mtotal (wrx_state 19) = 3 /\ mcur (wrx_state 19) = Some rrx_x1 /\ mrecv (wrx_state 19) = 4)%Z /\
  (forall f, mqc (wrx_state 19) f = Z.of_nat (length (held_flow wrx_cfg (wrx_state 19) f))) /\
  mpc (wrx_state 19) <> PSpin /\
  wrr_act wrx_r wrx_ws (wrx_state 19) (SSample false) = Some (wrx_state 19, [OSample [(0, 0, 0); (1, 1, 128); (2, 1, 128)]%Z]) /\
  wrr_act wrx_r wrx_ws (wrx_state 19) (SSample true) = Some (wrx_state 19, [OSample [(0, 1, 128); (1, 1, 128); (2, 1, 128)]%Z]) /\
  waiting_flow wrx_cfg (wrx_state 19) 0 = [] /\ held_flow wrx_cfg (wrx_state 19) 0 = [rrx_x1] /\
  (* conclusion at the final state: nothing is held *)
  (forall k, held_class wrx_cfg (wrx_state 32) k = []).
Proof.
  apply conj_keep; [reflexivity|intros Hr]. apply conj_keep; [intros f w [H|[H|[H|[]]]]; injection H as <- <-; lia|intros Hp].
  apply conj_keep; [vm_compute; reflexivity|intros HW].
  apply conj_keep; [eexists; vm_compute; reflexivity|intros AW]. apply conj_keep; [vm_compute; reflexivity|intros HF].
  apply conj_keep; [eexists; vm_compute; reflexivity|intros AF].
  split; [vm_compute; reflexivity|]. split; [vm_compute; reflexivity|]. split; [vm_compute; reflexivity|].
  split; [vm_compute; reflexivity|]. split; [vm_compute; reflexivity|]. split; [vm_compute; reflexivity|]. split; [vm_compute; reflexivity|].
  split.
  { destruct AW as [x AW]. destruct (C12_wrr_work_conserving _ _ _ _ _ _ _ Hr Hp HW AW) as [(p & dl & A & B & C)|N].
    - exists p, dl. split; [exact A|]. split; [exact B|]. split; [exact C|].
      vm_compute in A. injection A as <- <-. split; reflexivity.
    - exfalso. specialize (N 1%Z). vm_compute in N. discriminate N. }
  split; [exact (C12_wrr_one_at_a_time_tx_time _ _ _ _ _ Hr HW)|].
  split; [exact (C12_wrr_one_at_a_time_tx_time _ _ _ _ _ Hr HF)|].
  split; [vm_compute; reflexivity|].
  split; [exact (C12_wrr_flow_fifo _ _ _ _ _ 2%Z Hr HW)|].
  split; [exact (C12_wrr_exactly_once _ _ _ _ _ rrx_y0 Hr HW)|].
  split; [count_pkts|]. split; [count_pkts|].
  split; [repeat split; vm_compute; reflexivity|].
  split; [intros f; exact (proj1 (proj1 (C12_wrr_counters _ _ _ _ _ Hr HW) f))|].
  split; [exact (C12_wrr_never_spins _ _ _ _ _ Hr Hp HW)|].
  split; [rewrite (C12_wrr_monitor_samples _ _ _ _ _ false Hr HW); vm_compute; reflexivity|].
  split; [rewrite (C12_wrr_monitor_samples _ _ _ _ _ true Hr HW); vm_compute; reflexivity|].
  split; [vm_compute; reflexivity|]. split; [vm_compute; reflexivity|].
  destruct AF as [x AF]. destruct (C12_wrr_work_conserving _ _ _ _ _ _ _ Hr Hp HF AF) as [(p & dl & A & _)|N]; [|exact N].
  vm_compute in A. discriminate A.
Qed.
Print Assumptions C12_ex_wrr_execution.

(* WRR: the transmission of the first packet ends at instant 1 (action 15: SChildTimer) while packets are held; run() resumes, takes the
   next packet and its transmission starts (OStart) before the clock can move: at instant 1 *)
Definition wrx_b2b_acts : list saction := [SChildEnd; SGetDone (Some 0%Z); SChildInit].
Definition wrx_b2b_trace : list tev :=
  match mq_run wrx_cfg (wrx_state 16) wrx_b2b_acts with Some (_, tr) => tr | None => [] end.

Theorem C12_ex_wrr_back_to_back :
  (* hypotheses of C12_wrr_back_to_back *)
  0 < wrx_r /\ (forall f w, In (f, w) wrx_ws -> (0 < w)%Z) /\
  wrr_run wrx_r wrx_ws (firstn 15 wrx_acts) = Some (wrx_state 15, wrx_trace 15) /\
  wrr_act wrx_r wrx_ws (wrx_state 15) SChildTimer = Some (wrx_state 16, [OForward rrx_x0]) /\
  (exists k, held_class wrx_cfg (wrx_state 16) k <> []) /\
  mq_run wrx_cfg (wrx_state 16) wrx_b2b_acts = Some (wrx_state 19, wrx_b2b_trace) /\
  (forall t', ~ In (SAdvance t') wrx_b2b_acts) /\
  (exists x, wrr_act wrx_r wrx_ws (wrx_state 19) (SAdvance 2) = Some x) /\
  (* conclusion: a transmission start at the instant the previous one ended *)
  mnow (wrx_state 16) = 1 /\
  nth_error wrx_b2b_trace 2 = Some (1, SChildInit, [OStart rrx_x1]) /\
  (exists e p, In e wrx_b2b_trace /\ In (OStart p) (snd e) /\ fst (fst e) = mnow (wrx_state 16)).
Proof.
  apply conj_keep; [reflexivity|intros Hr]. apply conj_keep; [intros f w [H|[H|[H|[]]]]; injection H as <- <-; lia|intros Hp].
  apply conj_keep; [vm_compute; reflexivity|intros H1].
  apply conj_keep; [vm_compute; reflexivity|intros H2]. apply conj_keep; [exists 1%Z; vm_compute; discriminate|intros H3].
  apply conj_keep; [vm_compute; reflexivity|intros H4].
  apply conj_keep; [intros t' [H|[H|[H|[]]]]; discriminate H|intros H5].
  apply conj_keep; [eexists; vm_compute; reflexivity|intros H6]. split; [vm_compute; reflexivity|].
  split; [vm_compute; reflexivity|].
  destruct H6 as [x H6].
  exact (C12_wrr_back_to_back _ _ _ _ _ _ _ _ _ _ _ _ Hr Hp H1 H2 H3 H4 H5 H6).
Qed.
Print Assumptions C12_ex_wrr_back_to_back.

(* ================= second tie: the generated put() bodies ================= *)
(* hypotheses of C12_gen_sp_put (configured class, size >= 0) at the SP state in which a0 is being transmitted and b0
   (flow 2 -> class 11) arrives: no wake-up token (total_packets = 2), the packet goes into the store of its CLASS 11;
   at the initial state the first packet also puts the token.  Hypotheses of C12_gen_mqs_put (identity class map in
   addition) at the RR state in which z0 (flow 1) arrives during the transmission of x0. *)
Theorem C12_ex_gen_put :
  memZ (cls spx_cfg (flow spx_b0)) (classes spx_cfg) && Z.leb 0 (psize spx_b0) = true /\
  memZ (cls spx_cfg (flow spx_a0)) (classes spx_cfg) && Z.leb 0 (psize spx_a0) = true /\
  cls rrx_cfg (flow rrx_z0) = flow rrx_z0 /\
  memZ (cls rrx_cfg (flow rrx_z0)) (classes rrx_cfg) && Z.leb 0 (psize rrx_z0) = true /\
  (* conclusions *)
  mtotal (spx_state 10) = 2%Z /\
  snd (sp_gen_put spx_cfg (spx_state 10) spx_b0) = [FxStorePut 11%Z] /\
  snd (sp_gen_put spx_cfg (mq0 spx_cfg) spx_a0) = [FxToken; FxStorePut 10%Z] /\
  snd (mqs_gen_put rrx_cfg (rrx_state 12) rrx_z0) = [FxStorePut 1%Z] /\
  mq_act spx_cfg (spx_state 10) (SPut spx_b0)
    = Some (fold_left (mq_fx_apply spx_b0) (snd (sp_gen_put spx_cfg (spx_state 10) spx_b0))
                      (mq_with_fields (spx_state 10) (fst (sp_gen_put spx_cfg (spx_state 10) spx_b0))), []) /\
  mq_act rrx_cfg (rrx_state 12) (SPut rrx_z0)
    = Some (fold_left (mq_fx_apply rrx_z0) (snd (mqs_gen_put rrx_cfg (rrx_state 12) rrx_z0))
                      (mq_with_fields (rrx_state 12) (fst (mqs_gen_put rrx_cfg (rrx_state 12) rrx_z0))), []).
Proof.
  apply conj_keep; [reflexivity|intros H1]. apply conj_keep; [reflexivity|intros H2]. apply conj_keep; [reflexivity|intros H3].
  apply conj_keep; [reflexivity|intros H4].
  split; [vm_compute; reflexivity|].
  pose proof (C12_gen_sp_put spx_cfg (spx_state 10) spx_b0 H1) as [A1 B1].
  pose proof (C12_gen_sp_put spx_cfg (mq0 spx_cfg) spx_a0 H2) as [_ B2].
  pose proof (C12_gen_mqs_put rrx_cfg (rrx_state 12) rrx_z0 H3 H4) as [A3 B3].
  split; [rewrite B1; vm_compute; reflexivity|]. split; [rewrite B2; vm_compute; reflexivity|].
  split; [rewrite B3; vm_compute; reflexivity|]. split; [exact A1|exact A3].
Qed.
Print Assumptions C12_ex_gen_put.
