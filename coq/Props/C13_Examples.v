(* C13 -- NON-VACUITY of the theorems of Props/C13.v.  Witness execution: Elem/SchedExamples.v, [spx_acts] (SP with
   flow2class {0 -> 10, 1 -> 10, 2 -> 11}, priorities {10: 1, 11: 2}; 128-byte packets at 1024 bit/s = 1 s each):
   a0 (flow 0), a1 (flow 1) at 0; b0 (flow 2, the urgent class 11) at 1/2 during the transmission of a0; b1 (flow 2) at 2,
   exactly when b0's transmission ends; b2 (flow 2) at 3, right after run() committed to a1 and before a1's timer starts.
   Two priority levels are backlogged simultaneously from 1/2 to 3.  Departure order a0 b0 b1 a1 b2.

   Coverage (theorem of Props/C13.v -> witness):
     C13_sp_strict              -> C13_ex_sp_strict              (the commit to a1 at 3: class 11 holds nothing)
     C13_sp_strict_at_start     -> C13_ex_sp_strict_at_start     (a1's timer starts at 3 with b2 present: b2 was put at 3)
     C13_sp_commit_same_instant -> C13_ex_sp_commit_same_instant (both forms of "committed")
     C13_sp_non_preemptive      -> C13_ex_sp_non_preemptive      (b0 arrives while a0 is being transmitted)
   Unconditional: none.  Already a witness: C13_sp_strict_refuted_before_fix. *)
From Coq Require Import ZArith QArith List Lia.
From ONL Require Import Base.Tools Elem.Packet Elem.StoreQ Elem.SchedBase Elem.SchedBaseProofs Elem.SP Elem.SPProofs Elem.SchedExamples.
From ONL Require Import Props.C13.
Import ListNotations.

(* state after 26 actions (instant 3): the transmission of b1 has ended (child CEnded), a1 has been waiting in the store of class
   10 since 0, class 11 is empty.  SChildEnd: run() rescans from the top: class 11 empty, takes a1 of class 10. *)
Theorem C13_ex_sp_strict :
  (* hypotheses *)
  0 < spx_r /\ NoDup (map fst spx_tbl) /\
  sp_run spx_r spx_cm spx_fl spx_tbl (firstn 26 spx_acts) = Some (spx_state 26, spx_trace 26) /\
  sp_act spx_r spx_cm spx_fl spx_tbl (spx_state 26) SChildEnd = Some (spx_state 27, [OVisit 11 false; OVisit 10 true]) /\
  In (OVisit 10 true) [OVisit 11 false; OVisit 10 true] /\ higher spx_tbl 10 11 /\
  (* the situation: a1 waited since 0 and was overtaken twice by class 11 (b0 put at 1/2, b1 put at 2) *)
  items (mstores (spx_state 26) 10) = [(0, spx_a1)] /\ tr_fwds (spx_trace 26) = [spx_a0; spx_b0; spx_b1] /\
  (* conclusion *)
  sq_held (mstores (spx_state 27) 11) = [] /\ items (mstores (spx_state 26) 11) = [] /\
  mpc (spx_state 27) = PGet 10 [] /\ (exists rem, mpc (spx_state 27) = PGet 10 rem) /\
  mnow (spx_state 27) = mnow (spx_state 26) /\ mnow (spx_state 27) = 3 /\
  get (mstores (spx_state 27) 10) = GGranted (0, spx_a1).
Proof.
  apply conj_keep; [reflexivity|intros Hr]. apply conj_keep; [repeat constructor; cbn; intuition discriminate|intros ND].
  apply conj_keep; [vm_compute; reflexivity|intros H26]. apply conj_keep; [vm_compute; reflexivity|intros A26].
  apply conj_keep; [right; left; reflexivity|intros IN]. apply conj_keep; [exists 1%Z, 2%Z; cbn; intuition lia|intros HI].
  split; [vm_compute; reflexivity|]. split; [vm_compute; reflexivity|].
  destruct (C13_sp_strict _ _ _ _ _ _ _ _ _ _ _ _ Hr ND H26 A26 IN HI) as (C1 & C2 & C3 & C4).
  split; [exact C1|]. split; [exact C2|]. split; [vm_compute; reflexivity|]. split; [exact C3|]. split; [exact C4|].
  split; vm_compute; reflexivity.
Qed.
Print Assumptions C13_ex_sp_strict.

(* state after 29 actions (instant 3): run() holds a1 (child CInit a1); b2 of the urgent class 11 was put at 3 AFTER the
   commit.  SChildInit starts a1's transmission although class 11 is non-empty: everything class 11 holds was put at this instant. *)
Theorem C13_ex_sp_strict_at_start :
  0 < spx_r /\ NoDup (map fst spx_tbl) /\
  sp_run spx_r spx_cm spx_fl spx_tbl (firstn 29 spx_acts) = Some (spx_state 29, spx_trace 29) /\
  sp_act spx_r spx_cm spx_fl spx_tbl (spx_state 29) SChildInit = Some (spx_state 30, [OStart spx_a1]) /\
  In (OStart spx_a1) [OStart spx_a1] /\ higher spx_tbl (spx_cm (flow spx_a1)) 11 /\
  (* the situation: class 11 is NOT empty *)
  sq_held (mstores (spx_state 29) 11) = [(3, spx_b2)] /\ mnow (spx_state 29) = 3 /\
  (* conclusion *)
  Forall (fun x => fst x = mnow (spx_state 29)) (sq_held (mstores (spx_state 29) 11)).
Proof.
  apply conj_keep; [reflexivity|intros Hr]. apply conj_keep; [repeat constructor; cbn; intuition discriminate|intros ND].
  apply conj_keep; [vm_compute; reflexivity|intros H29]. apply conj_keep; [vm_compute; reflexivity|intros A29].
  apply conj_keep; [left; reflexivity|intros IN]. apply conj_keep; [exists 1%Z, 2%Z; cbn; intuition lia|intros HI].
  split; [vm_compute; reflexivity|]. split; [vm_compute; reflexivity|].
  exact (C13_sp_strict_at_start _ _ _ _ _ _ _ _ _ _ _ Hr ND H29 A29 IN HI).
Qed.
Print Assumptions C13_ex_sp_strict_at_start.

(* committed, first form (state after 27 actions: run() waits for the granted get on class 10) and second form (state after 29
   actions: the child holding a1 is created, its Initialize pending): the clock cannot move, whatever the target instant *)
Theorem C13_ex_sp_commit_same_instant :
  0 < spx_r /\
  sp_run spx_r spx_cm spx_fl spx_tbl (firstn 27 spx_acts) = Some (spx_state 27, spx_trace 27) /\
  committed spx_cfg (spx_state 27) 10 /\ mpc (spx_state 27) = PGet 10 [] /\
  sp_run spx_r spx_cm spx_fl spx_tbl (firstn 29 spx_acts) = Some (spx_state 29, spx_trace 29) /\
  committed spx_cfg (spx_state 29) 10 /\ mchild (spx_state 29) = CInit spx_a1 /\
  (* conclusion *)
  (forall t, sp_act spx_r spx_cm spx_fl spx_tbl (spx_state 27) (SAdvance t) = None) /\
  (forall t, sp_act spx_r spx_cm spx_fl spx_tbl (spx_state 29) (SAdvance t) = None) /\
  sp_act spx_r spx_cm spx_fl spx_tbl (spx_state 29) (SAdvance 4) = None.
Proof.
  apply conj_keep; [reflexivity|intros Hr]. apply conj_keep; [vm_compute; reflexivity|intros H27].
  apply conj_keep; [left; exists []; vm_compute; reflexivity|intros C27]. apply conj_keep; [vm_compute; reflexivity|intros P27].
  apply conj_keep; [vm_compute; reflexivity|intros H29].
  apply conj_keep; [right; exists spx_a1; split; [vm_compute; reflexivity|reflexivity]|intros C29].
  apply conj_keep; [vm_compute; reflexivity|intros M29].
  split; [intros t; exact (C13_sp_commit_same_instant _ _ _ _ _ _ _ _ t Hr H27 C27)|].
  split; [intros t; exact (C13_sp_commit_same_instant _ _ _ _ _ _ _ _ t Hr H29 C29)|].
  exact (C13_sp_commit_same_instant _ _ _ _ _ _ _ _ 4 Hr H29 C29).
Qed.
Print Assumptions C13_ex_sp_commit_same_instant.

(* the whole execution: b0 of the urgent class arrives at 1/2 while a0 (low priority) is being transmitted; a0 is forwarded at 1,
   exactly 1 s after its start, and only then b0 starts *)
Theorem C13_ex_sp_non_preemptive :
  0 < spx_r /\
  sp_run spx_r spx_cm spx_fl spx_tbl spx_acts = Some (spx_state 39, spx_trace 39) /\
  (* the execution: arrival of b0 (entry 10) at 1/2 inside the transmission of a0 (started at 0 by entry 8, ended at 1 by entry 13) *)
  nth_error (spx_trace 39) 8 = Some (0, SChildInit, [OStart spx_a0]) /\
  nth_error (spx_trace 39) 10 = Some (1 # 2, SPut spx_b0, []) /\
  nth_error (spx_trace 39) 13 = Some (1, SChildTimer, [OForward spx_a0]) /\
  nth_error (spx_trace 39) 16 = Some (1, SChildInit, [OStart spx_b0]) /\
  tr_starts (spx_trace 39) = [spx_a0; spx_b0; spx_b1; spx_a1; spx_b2] /\
  tr_fwds (spx_trace 39) = [spx_a0; spx_b0; spx_b1; spx_a1; spx_b2] /\
  (* conclusion *)
  tx_wf spx_cfg None (spx_trace 39).
Proof.
  apply conj_keep; [reflexivity|intros Hr]. apply conj_keep; [vm_compute; reflexivity|intros HF].
  split; [vm_compute; reflexivity|]. split; [vm_compute; reflexivity|]. split; [vm_compute; reflexivity|].
  split; [vm_compute; reflexivity|]. split; [vm_compute; reflexivity|]. split; [vm_compute; reflexivity|].
  exact (C13_sp_non_preemptive _ _ _ _ _ _ _ Hr HF).
Qed.
Print Assumptions C13_ex_sp_non_preemptive.
