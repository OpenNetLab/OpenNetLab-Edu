(* C16 -- TCP acknowledgements are cumulative and correct; all data gets through.
   Only statements, closed by the lemma that proves them, and their assumptions. *)
From Coq Require Import ZArith QArith List.
From ONL Require Import Tcp.Sink Tcp.SinkProofs Tcp.Sender Tcp.SenderProofs Tcp.Loop Tcp.LoopProofs Tcp.LoopLive Tcp.LoopLossfree.
Import ListNotations.
Open Scope Z_scope.

(* The ACK returned for the k-th arriving segment is the length of the contiguous prefix [0,n)
   received so far: every byte below it was covered by some arrival, the byte at it was not. *)
Theorem C16_ack_is_prefix : forall segs : list (Z * Z),
  (forall g, In g segs -> 0 <= fst g /\ 0 <= snd g) ->
  forall k a, nth_error (acks true sink0 segs) k = Some a -> prefix_len (firstn (S k) segs) a.
Proof. exact ack_is_prefix. Qed.
Print Assumptions C16_ack_is_prefix.

Theorem C16_ack_monotone : forall segs : list (Z * Z),
  (forall g, In g segs -> 0 <= fst g /\ 0 <= snd g) ->
  forall i j a b, (i <= j)%nat ->
  nth_error (acks true sink0 segs) i = Some a -> nth_error (acks true sink0 segs) j = Some b -> a <= b.
Proof. exact ack_monotone. Qed.
Print Assumptions C16_ack_monotone.

(* the ACK choice of the pinned commit (before the fix: commit 4cddda4) violates monotonicity *)
Theorem C16_ack_refuted_before_fix :
  exists segs, (forall g, In g segs -> 0 <= fst g /\ 0 <= snd g) /\
    exists i j a b, (i <= j)%nat /\ nth_error (acks false sink0 segs) i = Some a /\
                    nth_error (acks false sink0 segs) j = Some b /\ b < a.
Proof. exact ack_refuted_unfixed. Qed.
Print Assumptions C16_ack_refuted_before_fix.

(* ------------------------------------------------------------------------------------------------ *)
(* Sender and closed loop.  Models: Tcp/Sender.v (TCPPacketGenerator), Tcp/Loop.v (sender, sink, two
   Wires with constant delay, droppers by transmission index, agenda ordered like the kernel's).
   [repaired] = the three fix: commits (eae436e, 5f98ada, 5f6e664); the correspondence runs [current]. *)

Theorem C16_current_is_repaired : current = repaired.
Proof. exact current_is_repaired. Qed.
Print Assumptions C16_current_is_repaired.

(* the sender alone: for every history of ACKs (any numbers, any packet ids, samples >= 0), expiries,
   store callbacks and resumptions nothing is raised (KeyError, ZeroDivisionError, ValueError); the
   only "error" left is the model-level NotEnabled for an event that cannot occur in the state *)
Theorem C16_sender_never_raises : forall c cw0 ss0 rtt0,
  0 < mss c -> (zq (mss c) <= cw0)%Q -> (0 < rtt0)%Q ->
  forall evs x, Forall sample_ok evs -> run repaired c (init cw0 ss0 rtt0) evs = Raise x -> x = NotEnabled.
Proof. exact sender_never_raises. Qed.
Print Assumptions C16_sender_never_raises.

Theorem C16_sender_raises_before_fix :
  exists c evs, Forall sample_ok evs /\
    run (mkfx true false false) c (init (1024 # 1) (65535 # 1) (1 # 16)) evs = Raise (KeyErr 512).
Proof. exact sender_raises_before_fix. Qed.
Print Assumptions C16_sender_raises_before_fix.

(* the closed loop never raises: any flow, MSS > 0, delay >= 0, drop sets, CUBIC oracle, fuel *)
Theorem C16_loop_never_raises : forall lc cw ss rtt0 orc,
  lc_ok lc -> (zq (mss (lc_cfg lc)) <= cw)%Q -> (0 < rtt0)%Q ->
  forall fuel st e, lrun fuel lc (linit cw ss rtt0 orc) <> LRaised st e.
Proof. exact loop_never_raises. Qed.
Print Assumptions C16_loop_never_raises.

Theorem C16_loop_raises_before_fix :
  exists st, lrun 200 lc_found (linit (1000 # 1) (65535 # 1) (1 # 4) []) = LRaised st (LSender (KeyErr 1000)).
Proof. exact loop_raises_before_fix. Qed.
Print Assumptions C16_loop_raises_before_fix.

(* in every reachable state: last_ack <= contiguous prefix held by the sink <= next_seq *)
Theorem C16_last_ack_le_prefix_le_next_seq : forall lc cw ss rtt0 orc st,
  lc_ok lc -> (zq (mss (lc_cfg lc)) <= cw)%Q -> (0 < rtt0)%Q ->
  lreach lc (linit cw ss rtt0 orc) st ->
  last_ack (l_snd st) <= nse (l_sink st) <= next_seq (l_snd st) /\ sink_prefix (l_sink st) (nse (l_sink st)).
Proof. exact loop_last_ack_le_prefix_le_next_seq. Qed.
Print Assumptions C16_last_ack_le_prefix_le_next_seq.

(* last_ack never decreases along any run of the loop (repaired sink + FIFO ACK wire) *)
Theorem C16_last_ack_monotone : forall lc cw ss rtt0 orc st st',
  lc_ok lc -> (zq (mss (lc_cfg lc)) <= cw)%Q -> (0 < rtt0)%Q ->
  lreach lc (linit cw ss rtt0 orc) st -> lreach lc st st' ->
  last_ack (l_snd st) <= last_ack (l_snd st').
Proof. exact loop_last_ack_monotone. Qed.
Print Assumptions C16_last_ack_monotone.

(* unfinished => pending work: the timer of the first unacknowledged segment is armed and has its
   kernel event on the agenda, or an event that resumes the sender process is on the agenda *)
Theorem C16_unfinished_has_pending : forall lc cw ss rtt0 orc st,
  lc_ok2 lc -> (zq (mss (lc_cfg lc)) <= cw)%Q -> (0 < rtt0)%Q -> fsize (lc_cfg lc) <> 0 ->
  lreach lc (linit cw ss rtt0 orc) st ->
  last_ack (l_snd st) < fsize (lc_cfg lc) -> pending_work lc st.
Proof. exact loop_unfinished_has_pending. Qed.
Print Assumptions C16_unfinished_has_pending.

Theorem C16_not_quiescent_while_unfinished : forall lc cw ss rtt0 orc st,
  lc_ok2 lc -> (zq (mss (lc_cfg lc)) <= cw)%Q -> (0 < rtt0)%Q -> fsize (lc_cfg lc) <> 0 ->
  lreach lc (linit cw ss rtt0 orc) st ->
  (last_ack (l_snd st) < fsize (lc_cfg lc) \/ nse (l_sink st) < fsize (lc_cfg lc)) -> l_agenda st <> [].
Proof. exact loop_not_quiescent_while_unfinished. Qed.
Print Assumptions C16_not_quiescent_while_unfinished.

(* reliable_delivery, safety half: a quiescent loop has delivered everything (that the loop does become quiescent is
   C16_reliable_delivery, Props/C16_Live.v) *)
Theorem C16_reliable_delivery_partial : forall lc cw ss rtt0 orc st,
  lc_ok2 lc -> (zq (mss (lc_cfg lc)) <= cw)%Q -> (0 < rtt0)%Q -> fsize (lc_cfg lc) <> 0 ->
  lreach lc (linit cw ss rtt0 orc) st -> l_agenda st = [] ->
  last_ack (l_snd st) = fsize (lc_cfg lc) /\ nse (l_sink st) = fsize (lc_cfg lc) /\
  sink_prefix (l_sink st) (fsize (lc_cfg lc)).
Proof. exact loop_quiescent_complete. Qed.
Print Assumptions C16_reliable_delivery_partial.

(* every state the executable runner ends in is reachable, so the theorems above apply to it *)
Theorem C16_runner_reaches : forall lc st0 fuel st, lreach lc st0 st -> lreach lc st0 (lfinal (lrun fuel lc st)).
Proof. intros lc st0 fuel st. apply lrun_reach. Qed.
Print Assumptions C16_runner_reaches.

(* lossfree_no_retransmit, the part that holds on every path: a segment is transmitted again only by its timer's expiry
   or a third-or-later duplicate (the loss-free clause itself is C16_lossfree_no_retransmit below) *)
Theorem C16_lossfree_no_retransmit_partial : forall fx c s e s' o id z,
  0 <= dupack s -> step fx c s e = Ok s' o -> In (Tx id z) o ->
  e = EWake \/ e = EExpire id \/
  (exists pid sample orc, e = EAck id pid sample orc /\ id = last_ack s /\ 3 <= dupack s + 1).
Proof. exact retransmission_needs_expiry_or_third_dup. Qed.
Print Assumptions C16_lossfree_no_retransmit_partial.

(* ------------------------------------------------------------------------------------------------ *)
(* Bounds on the work of the loop (the liveness theorem itself is C16_reliable_delivery, Props/C16_Live.v).
   Everything but transmitting is finite work: after k agenda steps,
   k <= 3 + flow size + 10 * (data packets handed to the data path so far); so the runner can only
   run out of fuel by transmitting that often. *)
Theorem C16_work_bounded_by_transmissions : forall lc cw ss rtt0 orc k st,
  lc_ok2 lc -> (zq (mss (lc_cfg lc)) <= cw)%Q -> (0 < rtt0)%Q -> fsize (lc_cfg lc) <> 0 ->
  lsteps lc k (linit cw ss rtt0 orc) st ->
  Z.of_nat k <= 3 + fsize (lc_cfg lc) + 10 * Z.of_nat (l_n1 st).
Proof. exact loop_work_bounded. Qed.
Print Assumptions C16_work_bounded_by_transmissions.

Theorem C16_out_of_fuel_needs_transmissions : forall lc cw ss rtt0 orc fuel st,
  lc_ok2 lc -> (zq (mss (lc_cfg lc)) <= cw)%Q -> (0 < rtt0)%Q -> fsize (lc_cfg lc) <> 0 ->
  lrun fuel lc (linit cw ss rtt0 orc) = LFuel st ->
  Z.of_nat fuel <= 3 + fsize (lc_cfg lc) + 10 * Z.of_nat (l_n1 st).
Proof. exact loop_out_of_fuel_needs_transmissions. Qed.
Print Assumptions C16_out_of_fuel_needs_transmissions.

(* lossfree_no_retransmit, in full: no drops, one-way delay d >= 0, initial RTT estimate rtt0 with
   d < rtt0 (first RTO 2*rtt0 > RTT = 2d) and rtt0 <> 2d (then srtt never equals 2d and the RTO
   stays strictly above the RTT; at rtt0 = 2d the estimator reaches RTO = RTT exactly and the timer wins
   the same-instant race against the ACK).  In every reachable state the transmission log is
   0, MSS, 2 MSS, ... : every segment is handed to the data path exactly once. *)
Theorem C16_lossfree_no_retransmit : forall lc,
  lc_ok2 lc -> lc_drop_data lc = [] -> lc_drop_ack lc = [] ->
  forall (cw ss rtt0 : Q) (orc : list Q),
  (zq (mss (lc_cfg lc)) <= cw)%Q -> (lc_delay lc < rtt0)%Q -> ~ (rtt0 == (2 # 1) * lc_delay lc)%Q ->
  forall st, lreach lc (linit cw ss rtt0 orc) st ->
  NoDup (map dl_id (l_d1 st)) /\
  exists nN : nat, map dl_id (rev (l_d1 st)) = seg_ids (mss (lc_cfg lc)) 0 nN /\
                   Z.of_nat nN * mss (lc_cfg lc) = next_seq (l_snd st) /\ l_n1 st = nN.
Proof.
  intros lc H1 H2 H3 cw ss rtt0 orc H4 H5 H6 st Hr. split.
  - eapply lossfree_no_retransmit; eauto.
  - eapply lossfree_transmissions; eauto.
Qed.
Print Assumptions C16_lossfree_no_retransmit.

(* reliable_delivery for the loss-free loop, with an explicit fuel bound: with more than
   3 + 11 * size steps of fuel the runner ends quiescent (unless t_max cuts it short) with
   last_ack = size, the sink holding exactly [0,size), and no segment sent twice *)
Theorem C16_lossfree_terminates : forall lc,
  lc_ok2 lc -> lc_drop_data lc = [] -> lc_drop_ack lc = [] ->
  forall (cw ss rtt0 : Q) (orc : list Q),
  (zq (mss (lc_cfg lc)) <= cw)%Q -> (lc_delay lc < rtt0)%Q -> ~ (rtt0 == (2 # 1) * lc_delay lc)%Q ->
  forall fuel : nat, fsize (lc_cfg lc) <> 0 -> 3 + 11 * fsize (lc_cfg lc) < Z.of_nat fuel ->
  match lrun fuel lc (linit cw ss rtt0 orc) with
  | LQuiescent st => last_ack (l_snd st) = fsize (lc_cfg lc) /\ nse (l_sink st) = fsize (lc_cfg lc) /\
                     sink_prefix (l_sink st) (fsize (lc_cfg lc)) /\ NoDup (map dl_id (l_d1 st))
  | LStopped st => exists a rest, l_agenda st = a :: rest /\ (lc_tmax lc <= ae_time a)%Q
  | LFuel _ | LRaised _ _ => False
  end.
Proof. exact lossfree_terminates. Qed.
Print Assumptions C16_lossfree_terminates.
