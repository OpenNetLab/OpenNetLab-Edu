(* C08 (DRR part) -- NON-VACUITY of Props/C08_DRR.v.
   Witness (Elem/DRRExample.v, dex_cfg / dex_acts, an execution logged from the real scheduler): two classes with quanta 1500 and
   3000, flows 1 and 7 share class 1, a 2000-byte head that is parked for one round, a class that empties and refills.
     C08_ex_drr_run      covers C08_drr_conserves, C08_drr_flow_fifo, C08_drr_no_error (dwf, admissible execution; stopped after
                         22 actions: two packets forwarded, two held, a transmission about to start)
     C08_ex_drr_drained  covers C08_drr_drained (the complete execution: nothing urgent, no transmission pending)
   No theorem of Props/C08_DRR.v is unconditional.
   The conclusions are obtained by applying the theorem to the witness.  Statement files are compiled independently (and in
   parallel) by the pipeline, so one statement file cannot import another: [C08_x] below is a LOCAL abbreviation of the proof
   term that closes theorem C08_x in Props/C08_DRR.v (there: `Proof. exact <that term>. Qed.`), hence has the same statement.
   Helper facts are stated with `Fact` (they are not obligations); every `Theorem` is a witness and is followed by
   Print Assumptions. *)
From Coq Require Import ZArith QArith List Bool.
From ONL Require Import Elem.Packet Elem.StoreQ Elem.DRR Elem.DRRInv Elem.DRRProofs Elem.DRRLive Elem.DRRExample.
Import ListNotations.

Local Notation C08_drr_conserves := drr_conserves_l.
Local Notation C08_drr_flow_fifo := drr_flow_fifo_l.
Local Notation C08_drr_drained := drr_drained_l.
Local Notation C08_drr_no_error := drr_progress_l.

(* covers: C08_drr_conserves, C08_drr_flow_fifo, C08_drr_no_error *)
Theorem C08_ex_drr_run :
  exists d tr, dwf dex_cfg /\ drr_run dex_cfg (drr0 0) (firstn 22 dex_acts) = Some (d, tr) /\
    map uid (dputs tr) = [0; 1; 2; 3]%nat /\ map uid (dfwds tr) = [1; 2]%nat /\
    map uid (dheld dex_cfg d 0) = [0; 3]%nat /\ dheld dex_cfg d 1 = [] /\
    (forall c, dof_cls dex_cfg c (dputs tr) = dof_cls dex_cfg c (dfwds tr) ++ dheld dex_cfg d c) /\
    (forall f, dof_flow f (dputs tr) = dof_flow f (dfwds tr) ++ dof_flow f (dheld dex_cfg d (df2c dex_cfg f))) /\
    map uid (dof_cls dex_cfg 1 (dfwds tr)) = [1; 2]%nat /\ map uid (dof_flow 7 (dfwds tr)) = [2]%nat /\
    dlmax d = 2000%Z /\
    (exists r, drr_act dex_cfg d DChildInit = Some r).
Proof.
  assert (F : match drr_run dex_cfg (drr0 0) (firstn 22 dex_acts) with
              | Some (d, tr) =>
                  (map uid (dputs tr) = [0; 1; 2; 3]%nat /\ map uid (dfwds tr) = [1; 2]%nat /\
                   map uid (dheld dex_cfg d 0) = [0; 3]%nat /\ dheld dex_cfg d 1 = []) /\
                  (map uid (dof_cls dex_cfg 1 (dfwds tr)) = [1; 2]%nat /\ map uid (dof_flow 7 (dfwds tr)) = [2]%nat /\
                   dlmax d = 2000%Z) /\
                  match dchd d with DCStart _ => True | _ => False end
              | None => False
              end) by (vm_compute; repeat split; reflexivity).
  destruct (drr_run dex_cfg (drr0 0) (firstn 22 dex_acts)) as [[d tr]|] eqn:E; [|destruct F].
  destruct F as ((F1 & F2 & F3 & F4) & (F5 & F6 & F7) & F8).
  destruct (C08_drr_conserves _ _ _ _ _ dex_wf E) as (HC & _).
  pose proof (C08_drr_flow_fifo _ _ _ _ _ dex_wf E) as HF.
  destruct (C08_drr_no_error _ _ _ _ _ dex_wf E) as (_ & _ & _ & HN & _).
  exists d, tr. split; [exact dex_wf|]. split; [reflexivity|]. repeat (split; [assumption|]).
  destruct (dchd d) as [|p| |]; try destruct F8. exact (HN p eq_refl).
Qed.
Print Assumptions C08_ex_drr_run.

(* covers: C08_drr_drained *)
Theorem C08_ex_drr_drained :
  exists d tr, dwf dex_cfg /\ drr_run dex_cfg (drr0 0) dex_acts = Some (d, tr) /\
    durgent dex_cfg d = false /\ (forall p dl, dchd d <> DCTx p dl) /\
    map uid (dputs tr) = [0; 1; 2; 3; 4]%nat /\ map uid (dfwds tr) = [1; 2; 0; 3; 4]%nat /\
    forall c, dheld dex_cfg d c = [].
Proof.
  assert (F : match drr_run dex_cfg (drr0 0) dex_acts with
              | Some (d, tr) =>
                  durgent dex_cfg d = false /\ dchd d = DCNone /\
                  map uid (dputs tr) = [0; 1; 2; 3; 4]%nat /\ map uid (dfwds tr) = [1; 2; 0; 3; 4]%nat
              | None => False
              end) by (vm_compute; repeat split; reflexivity).
  destruct (drr_run dex_cfg (drr0 0) dex_acts) as [[d tr]|] eqn:E; [|destruct F].
  destruct F as (U & Ch & F1 & F2).
  assert (N : forall p dl, dchd d <> DCTx p dl) by (intros p dl; rewrite Ch; discriminate).
  exists d, tr. split; [exact dex_wf|]. split; [reflexivity|]. repeat (split; [assumption|]). exact (C08_drr_drained _ _ _ _ _ dex_wf E U N).
Qed.
Print Assumptions C08_ex_drr_drained.
