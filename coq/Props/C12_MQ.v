(* C12 -- schedulers are work-conserving, non-preemptive, rate-exact and per-flow FIFO: the share of SP, RR, WRR and of the
   scheduler Monitor.  Only statements, closed by the lemma that proves them, and their assumptions.
   X_run ... acts = Some (s, tr): acts is an admissible execution (any interleaving of put() calls and kernel steps, clock
   moves only when nothing is due) from the initial state, s the state reached, tr the timed trace.
   SP: cm is flow2class (ANY function: several flows may share a class), tbl the priority table keyed by class, fl the flows
   the Monitor reports; put(p) is admissible when the class of p's flow is in the table and 0 <= size of p.  RR, WRR: identity
   class map.  `forall k p, In (k, p) tbl -> 0 < p` (WRR: all weights positive): run() never looks at a class whose priority is
   <= 0 (Elem/SP.v: allowance 0), so its packets would be counted and never served.
   held_class c s k: packets of class k in transmission ++ in the granted get ++ in the store of k, oldest first;
   held_flow c s f = the packets of flow f among held_class c s (cls f). *)
From Coq Require Import ZArith QArith List.
From ONL Require Import Elem.Packet Elem.StoreQ Elem.SchedBase Elem.SchedBaseProofs Elem.SP Elem.SPProofs Elem.RR Elem.RRProofs Elem.WRR Elem.WRRProofs.
Import ListNotations.

(* ================= SP ================= *)
(* never idle with a backlog: whenever the clock may move (SAdvance admissible) a transmission is in progress and not yet due, or no packet is held at all (no class queue, no granted get, no child holds one) *)
Theorem C12_sp_work_conserving : forall (r : Q) (cm : Z -> Z) (fl : list Z) (tbl : list (Z * Z)) acts s tr t x,
  0 < r -> (forall k p, In (k, p) tbl -> (0 < p)%Z) ->
  sp_run r cm fl tbl acts = Some (s, tr) -> sp_act r cm fl tbl s (SAdvance t) = Some x ->
  (exists p dl, mchild s = CTx p dl /\ mcur s = Some p /\ mnow s < dl) \/ (forall k, held_class (sp_cfg true r cm fl tbl) s k = []).
Proof. intros; eapply work_conserving; eauto using sp_cfg_ok, run_reachable. Qed.
Print Assumptions C12_sp_work_conserving.

(* tx_wf: along the timed trace a transmission starts only when none is in progress; it ends exactly 8*size/rate later by forwarding the very packet that was started; no other action ends it and the clock never passes its end *)
Theorem C12_sp_one_at_a_time_tx_time : forall (r : Q) (cm : Z -> Z) (fl : list Z) (tbl : list (Z * Z)) acts s tr,
  0 < r ->
  sp_run r cm fl tbl acts = Some (s, tr) -> tx_wf (sp_cfg true r cm fl tbl) None tr.
Proof. intros; eapply tx_wf_run0; eauto using sp_wf. Qed.
Print Assumptions C12_sp_one_at_a_time_tx_time.

(* if a packet is held when a transmission ends, a transmission starts (OStart) at that same instant before the clock can move *)
Theorem C12_sp_back_to_back : forall (r : Q) (cm : Z -> Z) (fl : list Z) (tbl : list (Z * Z)) acts1 s1 tr1 s2 o acts2 s3 tr2 t x,
  0 < r -> (forall k p, In (k, p) tbl -> (0 < p)%Z) ->
  sp_run r cm fl tbl acts1 = Some (s1, tr1) -> sp_act r cm fl tbl s1 SChildTimer = Some (s2, o) -> (exists k, held_class (sp_cfg true r cm fl tbl) s2 k <> []) ->
  mq_run (sp_cfg true r cm fl tbl) s2 acts2 = Some (s3, tr2) -> (forall t', ~ In (SAdvance t') acts2) -> sp_act r cm fl tbl s3 (SAdvance t) = Some x ->
  exists e p, In e tr2 /\ In (OStart p) (snd e) /\ fst (fst e) = mnow s2.
Proof. intros; eapply back_to_back; eauto using sp_cfg_ok. Qed.
Print Assumptions C12_sp_back_to_back.

(* packets of one FLOW are forwarded in the order they were put in (the forwarded ones are a prefix of the arrivals of that flow), also when several flows share a class *)
Theorem C12_sp_flow_fifo : forall (r : Q) (cm : Z -> Z) (fl : list Z) (tbl : list (Z * Z)) acts s tr f,
  0 < r ->
  sp_run r cm fl tbl acts = Some (s, tr) ->
  exists rest, filter (is_flow f) (tr_puts tr) = filter (is_flow f) (tr_fwds tr) ++ rest.
Proof. intros; eapply run_flow_fifo; eauto using sp_wf. Qed.
Print Assumptions C12_sp_flow_fifo.

(* every packet put in is forwarded or held in the queue of its class, and the multiplicities add up: nothing is lost, duplicated or invented *)
Theorem C12_sp_exactly_once : forall (r : Q) (cm : Z -> Z) (fl : list Z) (tbl : list (Z * Z)) acts s tr p,
  0 < r ->
  sp_run r cm fl tbl acts = Some (s, tr) ->
  count_occ pkt_eq_dec (tr_puts tr) p
  = (count_occ pkt_eq_dec (tr_fwds tr) p + count_occ pkt_eq_dec (held_class (sp_cfg true r cm fl tbl) s (cm (flow p))) p)%nat.
Proof. intros; eapply run_exactly_once; eauto using sp_wf. Qed.
Print Assumptions C12_sp_exactly_once.

(* queue_count[f] / queue_byte_size[f] = number / bytes of the packets of FLOW f in the store of its class, in a granted get or in transmission; total_packets is the number of packets held; current_packet is the packet in transmission; packets_received counts the puts *)
Theorem C12_sp_counters : forall (r : Q) (cm : Z -> Z) (fl : list Z) (tbl : list (Z * Z)) acts s tr,
  0 < r ->
  sp_run r cm fl tbl acts = Some (s, tr) ->
  (forall f, mqc s f = Z.of_nat (length (held_flow (sp_cfg true r cm fl tbl) s f)) /\ mqb s f = sumsz (held_flow (sp_cfg true r cm fl tbl) s f))
  /\ mtotal s = zsum (fun k => Z.of_nat (length (held_class (sp_cfg true r cm fl tbl) s k))) (dclasses (sp_cfg true r cm fl tbl))
  /\ mcur s = match mchild s with CTx p _ => Some p | _ => None end
  /\ mrecv s = Z.of_nat (length (tr_puts tr)).
Proof. intros; eapply run_counters; eauto using sp_wf. Qed.
Print Assumptions C12_sp_counters.

(* run() never enters a pass that finds nothing while packets are counted (the state in which the real code would loop without yielding -- what SP did before a131332 when flow id != class id) *)
Theorem C12_sp_never_spins : forall (r : Q) (cm : Z -> Z) (fl : list Z) (tbl : list (Z * Z)) acts s tr,
  0 < r -> (forall k p, In (k, p) tbl -> (0 < p)%Z) ->
  sp_run r cm fl tbl acts = Some (s, tr) -> mpc s <> PSpin.
Proof. intros; eapply never_spins; eauto using sp_cfg_ok, run_reachable. Qed.
Print Assumptions C12_sp_never_spins.

(* a Monitor sample is, per flow, the number and bytes of the packets waiting or in transmission (service_included) resp. waiting only *)
Theorem C12_sp_monitor_samples : forall (r : Q) (cm : Z -> Z) (fl : list Z) (tbl : list (Z * Z)) acts s tr incl,
  0 < r ->
  sp_run r cm fl tbl acts = Some (s, tr) ->
  sp_act r cm fl tbl s (SSample incl) =
    Some (s, [OSample (map (fun f => let l := if incl then held_flow (sp_cfg true r cm fl tbl) s f else waiting_flow (sp_cfg true r cm fl tbl) s f in
                                     (f, Z.of_nat (length l), sumsz l)) (sflows (sp_cfg true r cm fl tbl)))]).
Proof. intros; eapply monitor_samples0; eauto using sp_wf. Qed.
Print Assumptions C12_sp_monitor_samples.

(* ================= RR ================= *)
Theorem C12_rr_work_conserving : forall (r : Q) (fl : list Z) acts s tr t x,
  0 < r ->
  rr_run r fl acts = Some (s, tr) -> rr_act r fl s (SAdvance t) = Some x ->
  (exists p dl, mchild s = CTx p dl /\ mcur s = Some p /\ mnow s < dl) \/ (forall k, held_class (rr_cfg r fl) s k = []).
Proof. intros; eapply work_conserving; eauto using rr_cfg_ok, run_reachable. Qed.
Print Assumptions C12_rr_work_conserving.

Theorem C12_rr_one_at_a_time_tx_time : forall (r : Q) (fl : list Z) acts s tr,
  0 < r ->
  rr_run r fl acts = Some (s, tr) -> tx_wf (rr_cfg r fl) None tr.
Proof. intros; eapply tx_wf_run0; eauto using rr_wf. Qed.
Print Assumptions C12_rr_one_at_a_time_tx_time.

Theorem C12_rr_back_to_back : forall (r : Q) (fl : list Z) acts1 s1 tr1 s2 o acts2 s3 tr2 t x,
  0 < r ->
  rr_run r fl acts1 = Some (s1, tr1) -> rr_act r fl s1 SChildTimer = Some (s2, o) -> (exists k, held_class (rr_cfg r fl) s2 k <> []) ->
  mq_run (rr_cfg r fl) s2 acts2 = Some (s3, tr2) -> (forall t', ~ In (SAdvance t') acts2) -> rr_act r fl s3 (SAdvance t) = Some x ->
  exists e p, In e tr2 /\ In (OStart p) (snd e) /\ fst (fst e) = mnow s2.
Proof. intros; eapply back_to_back; eauto using rr_cfg_ok. Qed.
Print Assumptions C12_rr_back_to_back.

Theorem C12_rr_flow_fifo : forall (r : Q) (fl : list Z) acts s tr f,
  0 < r ->
  rr_run r fl acts = Some (s, tr) ->
  exists rest, filter (is_flow f) (tr_puts tr) = filter (is_flow f) (tr_fwds tr) ++ rest.
Proof. intros; eapply run_flow_fifo; eauto using rr_wf. Qed.
Print Assumptions C12_rr_flow_fifo.

Theorem C12_rr_exactly_once : forall (r : Q) (fl : list Z) acts s tr p,
  0 < r ->
  rr_run r fl acts = Some (s, tr) ->
  count_occ pkt_eq_dec (tr_puts tr) p
  = (count_occ pkt_eq_dec (tr_fwds tr) p + count_occ pkt_eq_dec (held_class (rr_cfg r fl) s ((flow p))) p)%nat.
Proof. intros; eapply run_exactly_once; eauto using rr_wf. Qed.
Print Assumptions C12_rr_exactly_once.

Theorem C12_rr_counters : forall (r : Q) (fl : list Z) acts s tr,
  0 < r ->
  rr_run r fl acts = Some (s, tr) ->
  (forall f, mqc s f = Z.of_nat (length (held_flow (rr_cfg r fl) s f)) /\ mqb s f = sumsz (held_flow (rr_cfg r fl) s f))
  /\ mtotal s = zsum (fun k => Z.of_nat (length (held_class (rr_cfg r fl) s k))) (dclasses (rr_cfg r fl))
  /\ mcur s = match mchild s with CTx p _ => Some p | _ => None end
  /\ mrecv s = Z.of_nat (length (tr_puts tr)).
Proof. intros; eapply run_counters; eauto using rr_wf. Qed.
Print Assumptions C12_rr_counters.

Theorem C12_rr_never_spins : forall (r : Q) (fl : list Z) acts s tr,
  0 < r ->
  rr_run r fl acts = Some (s, tr) -> mpc s <> PSpin.
Proof. intros; eapply never_spins; eauto using rr_cfg_ok, run_reachable. Qed.
Print Assumptions C12_rr_never_spins.

Theorem C12_rr_monitor_samples : forall (r : Q) (fl : list Z) acts s tr incl,
  0 < r ->
  rr_run r fl acts = Some (s, tr) ->
  rr_act r fl s (SSample incl) =
    Some (s, [OSample (map (fun f => let l := if incl then held_flow (rr_cfg r fl) s f else waiting_flow (rr_cfg r fl) s f in
                                     (f, Z.of_nat (length l), sumsz l)) (sflows (rr_cfg r fl)))]).
Proof. intros; eapply monitor_samples0; eauto using rr_wf. Qed.
Print Assumptions C12_rr_monitor_samples.

(* ================= WRR ================= *)
Theorem C12_wrr_work_conserving : forall (r : Q) (ws : list (Z * Z)) acts s tr t x,
  0 < r -> (forall f w, In (f, w) ws -> (0 < w)%Z) ->
  wrr_run r ws acts = Some (s, tr) -> wrr_act r ws s (SAdvance t) = Some x ->
  (exists p dl, mchild s = CTx p dl /\ mcur s = Some p /\ mnow s < dl) \/ (forall k, held_class (wrr_cfg r ws) s k = []).
Proof. intros; eapply work_conserving; eauto using wrr_cfg_ok, run_reachable. Qed.
Print Assumptions C12_wrr_work_conserving.

Theorem C12_wrr_one_at_a_time_tx_time : forall (r : Q) (ws : list (Z * Z)) acts s tr,
  0 < r ->
  wrr_run r ws acts = Some (s, tr) -> tx_wf (wrr_cfg r ws) None tr.
Proof. intros; eapply tx_wf_run0; eauto using wrr_wf. Qed.
Print Assumptions C12_wrr_one_at_a_time_tx_time.

Theorem C12_wrr_back_to_back : forall (r : Q) (ws : list (Z * Z)) acts1 s1 tr1 s2 o acts2 s3 tr2 t x,
  0 < r -> (forall f w, In (f, w) ws -> (0 < w)%Z) ->
  wrr_run r ws acts1 = Some (s1, tr1) -> wrr_act r ws s1 SChildTimer = Some (s2, o) -> (exists k, held_class (wrr_cfg r ws) s2 k <> []) ->
  mq_run (wrr_cfg r ws) s2 acts2 = Some (s3, tr2) -> (forall t', ~ In (SAdvance t') acts2) -> wrr_act r ws s3 (SAdvance t) = Some x ->
  exists e p, In e tr2 /\ In (OStart p) (snd e) /\ fst (fst e) = mnow s2.
Proof. intros; eapply back_to_back; eauto using wrr_cfg_ok. Qed.
Print Assumptions C12_wrr_back_to_back.

Theorem C12_wrr_flow_fifo : forall (r : Q) (ws : list (Z * Z)) acts s tr f,
  0 < r ->
  wrr_run r ws acts = Some (s, tr) ->
  exists rest, filter (is_flow f) (tr_puts tr) = filter (is_flow f) (tr_fwds tr) ++ rest.
Proof. intros; eapply run_flow_fifo; eauto using wrr_wf. Qed.
Print Assumptions C12_wrr_flow_fifo.

Theorem C12_wrr_exactly_once : forall (r : Q) (ws : list (Z * Z)) acts s tr p,
  0 < r ->
  wrr_run r ws acts = Some (s, tr) ->
  count_occ pkt_eq_dec (tr_puts tr) p
  = (count_occ pkt_eq_dec (tr_fwds tr) p + count_occ pkt_eq_dec (held_class (wrr_cfg r ws) s ((flow p))) p)%nat.
Proof. intros; eapply run_exactly_once; eauto using wrr_wf. Qed.
Print Assumptions C12_wrr_exactly_once.

Theorem C12_wrr_counters : forall (r : Q) (ws : list (Z * Z)) acts s tr,
  0 < r ->
  wrr_run r ws acts = Some (s, tr) ->
  (forall f, mqc s f = Z.of_nat (length (held_flow (wrr_cfg r ws) s f)) /\ mqb s f = sumsz (held_flow (wrr_cfg r ws) s f))
  /\ mtotal s = zsum (fun k => Z.of_nat (length (held_class (wrr_cfg r ws) s k))) (dclasses (wrr_cfg r ws))
  /\ mcur s = match mchild s with CTx p _ => Some p | _ => None end
  /\ mrecv s = Z.of_nat (length (tr_puts tr)).
Proof. intros; eapply run_counters; eauto using wrr_wf. Qed.
Print Assumptions C12_wrr_counters.

Theorem C12_wrr_never_spins : forall (r : Q) (ws : list (Z * Z)) acts s tr,
  0 < r -> (forall f w, In (f, w) ws -> (0 < w)%Z) ->
  wrr_run r ws acts = Some (s, tr) -> mpc s <> PSpin.
Proof. intros; eapply never_spins; eauto using wrr_cfg_ok, run_reachable. Qed.
Print Assumptions C12_wrr_never_spins.

Theorem C12_wrr_monitor_samples : forall (r : Q) (ws : list (Z * Z)) acts s tr incl,
  0 < r ->
  wrr_run r ws acts = Some (s, tr) ->
  wrr_act r ws s (SSample incl) =
    Some (s, [OSample (map (fun f => let l := if incl then held_flow (wrr_cfg r ws) s f else waiting_flow (wrr_cfg r ws) s f in
                                     (f, Z.of_nat (length l), sumsz l)) (sflows (wrr_cfg r ws)))]).
Proof. intros; eapply monitor_samples0; eauto using wrr_wf. Qed.
Print Assumptions C12_wrr_monitor_samples.
