(* C08 -- generator law, sink books, abstract wiring -- NON-VACUITY of Props/C08_GenSink.v and Props/C08_Net.v
   (Props/C08_BridgeSink.v has one theorem, C08_gen_packetsink_put, which is unconditional).
     C08_ex_generator_law        covers C08_generator_law (admissible execution of the generator + nth_error premise: the SECOND
                                 emission, at 1 + (1/2 + 3)) and C08_generator_until_finish (admissible execution; the last firing
                                 is at 9/2 >= finish = 4 and draws nothing)
     C08_ex_network_conserves    covers C08_network_conserves: a three-node fan-out wiring with a drop at two nodes and a packet held
     C08_ex_network_quiescent    covers C08_network_quiescent: the same wiring later, nothing held
   Unconditional (no witness needed): C08_sink_books (for every delivery sequence), C08_gen_packetsink_put.
   Already witnesses of the three wiring hypotheses, for EVERY execution of a composite: C08_pipe_network_instance,
   C08_pipe_pipeline_network (Props/C08_Pipe.v).
   The conclusions are obtained by applying the theorem to the witness.  Statement files are compiled independently (and in
   parallel) by the pipeline, so one statement file cannot import another: [C08_x] below is a LOCAL abbreviation of the proof
   term that closes theorem C08_x in Props/C08_GenSink.v / Props/C08_Net.v (there: `Proof. exact <that term>. Qed.`), hence has the same statement.
   Helper facts are stated with `Fact` (they are not obligations); every `Theorem` is a witness and is followed by
   Print Assumptions. *)
From Coq Require Import ZArith QArith List Arith Lia.
From ONL Require Import Base.Tools Elem.Packet Elem.GenSink Elem.GenSinkProofs Elem.Network.
Import ListNotations.

Local Notation C08_generator_law := generator_law_nth.
Local Notation C08_generator_until_finish := gen_draw_iff.
Local Notation C08_network_conserves := network_conserves.
Local Notation C08_network_quiescent := network_quiescent.

Definition gx_c : gcfg := {| g_init := 1; g_finish := Some 4; g_flow := 7 |}.
Definition gx_acts : list gaction :=
  [GStart; GAdvance 1; GInitFire (Some (1#2)); GAdvance (3#2); GFire 100 (Some 3); GAdvance (9#2); GFire 200 None].

(* covers: C08_generator_law, C08_generator_until_finish *)
Theorem C08_ex_generator_law :
  exists g tr t ct, gen_run gx_c (gen0 0) gx_acts = Some (g, tr) /\
    nth_error (emissions tr) 1 = Some (t, (2%Z, 200%Z, ct, 7%Z)) /\
    adraws tr = [1 # 2; 3] /\ sdraws tr = [100%Z; 200%Z] /\
    t == 0 + g_init gx_c + qsum (firstn 2 (adraws tr)) /\ t == 9 # 2 /\ ct == t /\
    Forall (fun e => match e with
                     | (t, GInitFire a, _) | (t, GFire _ a, _) => (a <> None <-> before_finish gx_c t = true)
                     | _ => True
                     end) tr.
Proof.
  destruct (gen_run gx_c (gen0 0) gx_acts) as [[g tr]|] eqn:E; [|vm_compute in E; discriminate].
  pose proof (fun k t i s ct f => C08_generator_law gx_c 0 _ _ _ k t i s ct f E) as HL.
  pose proof (C08_generator_until_finish gx_c _ _ _ _ E) as HU.
  vm_compute in E. injection E as <- <-.
  eexists _, _, _, _. split; [reflexivity|]. split; [vm_compute; reflexivity|].
  split; [vm_compute; reflexivity|]. split; [vm_compute; reflexivity|].
  destruct (HL 1%nat _ _ _ _ _ eq_refl) as (H1 & H2 & _).
  split; [exact H1|]. split; [reflexivity|]. split; [exact H2|exact HU].
Qed.
Print Assumptions C08_ex_generator_law.

Local Close Scope Q_scope.
(* node 0 (a lossy classifier) gets uids 1..5 injected, drops 5, sends 1,3 to node 1 and 2,4 to node 2; node 1 has delivered 1
   and still holds 3; node 2 gets uid 6 injected as well, has delivered 2 and 6, dropped 4 *)
Definition nx_sel {A} (a b c d : A) (i : nat) : A := match i with 0 => a | 1 => b | 2 => c | _ => d end.
Definition nx_inp := nx_sel [1; 2; 3; 4; 5] [1; 3] [6; 2; 4] [].
Definition nx_fwd := nx_sel [1; 2; 3; 4] [1] [2; 6] [].
Definition nx_drp := nx_sel [5] [] [4] [].
Definition nx_held := nx_sel [] [3] [] ([] : list nat).
Definition nx_inj := nx_sel [1; 2; 3; 4; 5] [] [6] [].
Definition nx_tosink := nx_sel [] [1] [2; 6] [].
Definition nx_sent (i j : nat) : list nat := match i, j with 0, 1 => [1; 3] | 0, 2 => [2; 4] | _, _ => [] end.
(* the same network later: node 1 has delivered 3 too *)
Definition nq_fwd := nx_sel [1; 2; 3; 4] [1; 3] [2; 6] [].
Definition nq_held := nx_sel [] [] [] ([] : list nat).
Definition nq_tosink := nx_sel [] [1; 3] [2; 6] [].

(* per node, and per uid 0..6 or beyond: both sides compute *)
Ltac nx_solve := intros i u Hi; destruct i as [|[|[|i]]]; [| | |lia]; destruct u as [|[|[|[|[|[|[|u]]]]]]]; reflexivity.

(* covers: C08_network_conserves *)
Theorem C08_ex_network_conserves :
  (forall i u, i < 3 -> cnt u (nx_inp i) = cnt u (nx_fwd i) + cnt u (nx_drp i) + cnt u (nx_held i)) /\
  (forall i u, i < 3 -> cnt u (nx_fwd i) = sum_n 3 (fun j => cnt u (nx_sent i j)) + cnt u (nx_tosink i)) /\
  (forall j u, j < 3 -> cnt u (nx_inp j) = cnt u (nx_inj j) + sum_n 3 (fun i => cnt u (nx_sent i j))) /\
  (forall u, sum_n 3 (fun j => cnt u (nx_inj j)) =
             sum_n 3 (fun i => cnt u (nx_tosink i)) + sum_n 3 (fun i => cnt u (nx_drp i)) + sum_n 3 (fun i => cnt u (nx_held i))) /\
  sum_n 3 (fun i => cnt 3 (nx_held i)) = 1 /\ sum_n 3 (fun i => cnt 4 (nx_drp i)) = 1 /\ sum_n 3 (fun i => cnt 6 (nx_tosink i)) = 1.
Proof.
  apply conj_keep; [nx_solve|intros H1]. apply conj_keep; [nx_solve|intros H2]. apply conj_keep; [nx_solve|intros H3].
  split; [exact (C08_network_conserves 3 _ _ _ _ _ _ _ H1 H2 H3)|]. repeat split; reflexivity.
Qed.
Print Assumptions C08_ex_network_conserves.

(* covers: C08_network_quiescent *)
Theorem C08_ex_network_quiescent :
  (forall i u, i < 3 -> cnt u (nx_inp i) = cnt u (nq_fwd i) + cnt u (nx_drp i) + cnt u (nq_held i)) /\
  (forall i u, i < 3 -> cnt u (nq_fwd i) = sum_n 3 (fun j => cnt u (nx_sent i j)) + cnt u (nq_tosink i)) /\
  (forall j u, j < 3 -> cnt u (nx_inp j) = cnt u (nx_inj j) + sum_n 3 (fun i => cnt u (nx_sent i j))) /\
  (forall i, i < 3 -> nq_held i = []) /\
  (forall u, sum_n 3 (fun j => cnt u (nx_inj j)) = sum_n 3 (fun i => cnt u (nq_tosink i)) + sum_n 3 (fun i => cnt u (nx_drp i))) /\
  sum_n 3 (fun i => cnt 3 (nq_tosink i)) = 1 /\ sum_n 3 (fun i => cnt 5 (nx_drp i)) = 1.
Proof.
  apply conj_keep; [nx_solve|intros H1]. apply conj_keep; [nx_solve|intros H2]. apply conj_keep; [nx_solve|intros H3].
  apply conj_keep; [intros i Hi; destruct i as [|[|[|i]]]; reflexivity|intros H4].
  split; [exact (C08_network_quiescent 3 _ _ _ _ _ _ _ H1 H2 H3 H4)|]. split; reflexivity.
Qed.
Print Assumptions C08_ex_network_quiescent.
