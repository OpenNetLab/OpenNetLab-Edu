(* C05 -- NON-VACUITY of the theorems of Props/C05.v: for every theorem that has hypotheses, a concrete non-trivial state / step /
   execution on which ALL its hypotheses hold together, with the concrete content of its conclusion there.

   The instances (Kernel/CondWitness.v; module-level code only, [codes] = [], event ids are creation indices):
     family M   0: a = timeout(1, 11)  1: b = timeout(2, 22)  2: d = timeout(3, 33)  3: x = event(), x.succeed(44) (explicit trigger)
                4: call = all_of [a; b]   5: cany = any_of [a; b]   6: cn = all_of [call; d; x] (nested)
                [m_at k] = k steps later: 1 x processed (t = 0) / 2 a processed (t = 1): cany triggers, call counts 1 / 3 cany processed,
                value {a: 11} / 4 b processed (t = 2): call triggers / 5 call processed, value {a: 11, b: 22} / 6 d processed (t = 3): cn
                triggers / 7 cn processed, value {a: 11, b: 22, d: 33, x: 44}, agenda empty
     family N   0: a = timeout(1, 11)  1: x = event(), x.fail(E)  2: all_of [a; x]  3: any_of [a; x];  n_at 1: x processed, both failed
     family L   0: a = timeout(0, 11)  1: x = event()  2: cl = any_of [a; x];  x.fail(E);  l_at 1: a processed, cl triggered, the
                failed x is the next entry and carries only the late _check of cl

   Coverage (theorem of Props/C05.v -> witness below):
     C05_executions_covered, C05_clean_executions_covered, C05_invariant, C05_count_le_operands,
       C05_build_value_never_broken ................................... C05_ex_reach
     C05_pending_boundary .............................................. C05_ex_pending_boundary
     C05_trigger_at_construction, C05_any_of_at_construction, C05_all_of_at_construction ... C05_ex_at_construction
     C05_construction_refused .......................................... C05_ex_construction_refused
     C05_cond_step, C05_never_earlier, C05_any_of_first, C05_all_of_last  C05_ex_cond_step (pending / first-of-any / not an operand),
                                                                         C05_ex_all_of_last (last-of-all), C05_ex_operand_fails (failure)
     C05_check_fails_with_operand ...................................... C05_ex_operand_fails
     C05_check_succeeds_when ........................................... C05_ex_check_succeeds_when
     C05_value_exact, C05_value_unique ................................. C05_ex_value_exact
     C05_late_check_ignored, C05_late_failure_surfaces ................. C05_ex_late
     C05_outcome_final ................................................. C05_ex_outcome_final
   Unconditional (only typing binders / let): C05_empty_operands_immediate.
   Already a witness (exists ...): C05_all_of_refuted_when_detached.

   The list X of explicitly triggered events of [reach] / [creach] is produced by the lemmas that build the execution
   ([creach_exec_top], [creach_step_ok]) and stays existential here; what the steps do to the conditions is shown on the computed
   successor states.  "Not detached" is decided by [anc_free] (Kernel/CondWitness.v): no processed condition above c.
   Proofs: computation on closed terms, constructors, and the lemma that closes the covered theorem where needed. *)
From Coq Require Import ZArith QArith List Bool Lia.
From ONL Require Import Base.Tools Kernel.Model Kernel.Cond Kernel.CondInv Kernel.CondProofs Kernel.CondWitness.
Import ListNotations.

Ltac not_detached_by_anc_free := apply (anc_free_not_detached 5); vm_compute; reflexivity.

(* ---- C05_executions_covered, C05_invariant (reach codes X s), C05_clean_executions_covered (creach codes X s),
   C05_count_le_operands (creach /\ get_event c s = Some cev /\ kind cev = KCond all ops n), C05_build_value_never_broken (reach /\
   get_event /\ is_cond cev = true /\ out cev <> None): m_at 2, cany has just triggered on its first operand ------------------------ *)
Theorem C05_ex_reach :
  exists X cev, creach [] X (m_at 2) /\ reach [] X (m_at 2) /\ cinv X (m_at 2) /\
    get_event 5%nat (m_at 2) = Some cev /\ kind cev = KCond false [0; 1]%nat 1 /\ is_cond cev = true /\ out cev = Some (Ok VNone) /\
    out cev <> None /\ procpos (m_at 2) [0; 1]%nat = 1%nat /\ snd (cond_build 5%nat (m_at 2)) = ROk /\ now (m_at 2) == 1.
Proof.
  destruct (m_creach 2) as (X & C); [vm_compute; reflexivity|].
  pose proof (creach_reach _ _ _ C) as R.
  exists X. eexists. split; [exact C|]. split; [exact R|]. split; [apply (reach_cinv _ _ _ R)|]. split; [vm_compute; reflexivity|].
  split; [reflexivity|]. split; [reflexivity|]. split; [reflexivity|]. split; [intros H; discriminate H|].
  split; [vm_compute; reflexivity|]. split; vm_compute; reflexivity.
Qed.
Print Assumptions C05_ex_reach.

(* ---- C05_pending_boundary (creach /\ get_event c s = Some cev /\ kind cev = KCond all ops n /\ out cev = None /\ ~ detached s c):
   m_at 3 -- cany (5) has been PROCESSED, call (4: one of two operands processed) and the nested cn (6: x processed, call and d not)
   are pending and not detached: no processed condition has them as (transitive) operands ------------------------------------------ *)
Theorem C05_ex_pending_boundary :
  exists X c4 c6, creach [] X (m_at 3) /\ is_proc (m_at 3) 5%nat = true /\
    get_event 4%nat (m_at 3) = Some c4 /\ kind c4 = KCond true [0; 1]%nat 1 /\ out c4 = None /\ ~ detached (m_at 3) 4%nat /\
    get_event 6%nat (m_at 3) = Some c6 /\ kind c6 = KCond true [4; 2; 3]%nat 1 /\ out c6 = None /\ ~ detached (m_at 3) 6%nat /\
    procpos (m_at 3) [0; 1]%nat = 1%nat /\ procpos (m_at 3) [4; 2; 3]%nat = 1%nat /\ cond_evaluate true 3 1 = false.
Proof.
  destruct (m_creach 3) as (X & C); [vm_compute; reflexivity|].
  exists X. eexists _, _. split; [exact C|]. split; [vm_compute; reflexivity|].
  split; [vm_compute; reflexivity|]. split; [reflexivity|]. split; [reflexivity|]. split; [not_detached_by_anc_free|].
  split; [vm_compute; reflexivity|]. split; [reflexivity|]. split; [reflexivity|]. split; [not_detached_by_anc_free|].
  split; [vm_compute; reflexivity|]. split; vm_compute; reflexivity.
Qed.
Print Assumptions C05_ex_pending_boundary.

(* ---- C05_trigger_at_construction (reach /\ all_valid es s = true), C05_any_of_at_construction (all_valid /\ es <> [] /\ get_event
   (length (events s)) (fst (call_cond false es s)) = Some cev /\ kind cev = KCond false es n), C05_all_of_at_construction: conditions
   built in m_at 4, where a, b, x are processed and d is not: any_of [d; a] and all_of [a; b; x] trigger AT CONSTRUCTION, all_of [a; d]
   stays pending having counted a ---------------------------------------------------------------------------------------------------- *)
Theorem C05_ex_at_construction :
  exists X c1 c2 c3, reach [] X (m_at 4) /\ length (events (m_at 4)) = 7%nat /\
    all_valid [2; 0]%nat (m_at 4) = true /\ [2; 0]%nat <> [] /\ procpos (m_at 4) [2; 0]%nat = 1%nat /\
    get_event 7%nat (fst (call_cond false [2; 0]%nat (m_at 4))) = Some c1 /\ kind c1 = KCond false [2; 0]%nat 1 /\ out c1 = Some (Ok VNone) /\
    all_valid [0; 1; 3]%nat (m_at 4) = true /\ procpos (m_at 4) [0; 1; 3]%nat = 3%nat /\
    get_event 7%nat (fst (call_cond true [0; 1; 3]%nat (m_at 4))) = Some c2 /\ kind c2 = KCond true [0; 1; 3]%nat 3 /\ out c2 = Some (Ok VNone) /\
    all_valid [0; 2]%nat (m_at 4) = true /\ procpos (m_at 4) [0; 2]%nat = 1%nat /\
    get_event 7%nat (fst (call_cond true [0; 2]%nat (m_at 4))) = Some c3 /\ kind c3 = KCond true [0; 2]%nat 1 /\ out c3 = None /\
    snd (call_cond true [0; 2]%nat (m_at 4)) = Ok (VEv 7%nat).
Proof.
  destruct (m_creach 4) as (X & C); [vm_compute; reflexivity|].
  exists X. eexists _, _, _. split; [apply creach_reach, C|]. split; [vm_compute; reflexivity|].
  split; [vm_compute; reflexivity|]. split; [intros H; discriminate H|]. split; [vm_compute; reflexivity|].
  split; [vm_compute; reflexivity|]. split; [reflexivity|]. split; [reflexivity|].
  split; [vm_compute; reflexivity|]. split; [vm_compute; reflexivity|].
  split; [vm_compute; reflexivity|]. split; [reflexivity|]. split; [reflexivity|].
  split; [vm_compute; reflexivity|]. split; [vm_compute; reflexivity|].
  split; [vm_compute; reflexivity|]. split; [reflexivity|]. split; [reflexivity|]. vm_compute. reflexivity.
Qed.
Print Assumptions C05_ex_at_construction.

(* ---- C05_construction_refused (all_valid es s = false): an operand that is not an event of this environment ------------------- *)
Theorem C05_ex_construction_refused :
  all_valid [0; 99]%nat (m_at 1) = false /\
  call_cond true [0; 99]%nat (m_at 1) = (m_at 1, Fail (kexn EAttribute M_not_an_event)) /\
  do_call [] (CAnyOf [0; 99]%nat) (m_at 1) = (m_at 1, Fail (kexn EAttribute M_not_an_event)).
Proof.
  apply conj_keep; [vm_compute; reflexivity|intros V].
  split; [exact (proj1 (cond_construction_refused [] true _ _ V))|exact (proj2 (cond_construction_refused [] false _ _ V))].
Qed.
Print Assumptions C05_ex_construction_refused.

(* ---- C05_cond_step (creach /\ clean_step fuel codes s s' e /\ get_event c s = Some cev /\ kind cev = KCond all ops n /\ out cev = None
   /\ ~ detached s c), C05_never_earlier (.. /\ ~ In e ops), C05_any_of_first (all = false, In e ops), C05_all_of_last (all = true,
   In e ops): the step m_at 1 -> m_at 2 processes a (event 0) at t = 1.  cany (5) = any_of [a; b] TRIGGERS (no operand was processed
   before), call (4) = all_of [a; b] counts one and stays pending, the nested cn (6) = all_of [call; d; x] does not have a among its
   operands and is untouched ---------------------------------------------------------------------------------------------------------- *)
Theorem C05_ex_cond_step :
  exists X c4 c5 c6, creach [] X (m_at 1) /\ pop_min (agenda (m_at 1)) = Some (m_e0, [m_e1; m_e2]) /\
    clean_step 50 [] (m_at 1) (m_at 2) 0%nat /\
    get_event 4%nat (m_at 1) = Some c4 /\ kind c4 = KCond true [0; 1]%nat 0 /\ out c4 = None /\ ~ detached (m_at 1) 4%nat /\ In 0%nat [0; 1]%nat /\
    get_event 5%nat (m_at 1) = Some c5 /\ kind c5 = KCond false [0; 1]%nat 0 /\ out c5 = None /\ ~ detached (m_at 1) 5%nat /\
    get_event 6%nat (m_at 1) = Some c6 /\ kind c6 = KCond true [4; 2; 3]%nat 1 /\ out c6 = None /\ ~ detached (m_at 1) 6%nat /\
    ~ In 0%nat [4; 2; 3]%nat /\ procpos (m_at 1) [0; 1]%nat = 0%nat /\
    (* after the step *)
    option_map (fun e => (kind e, out e)) (get_event 4%nat (m_at 2)) = Some (KCond true [0; 1]%nat 1, None) /\
    option_map (fun e => (kind e, out e)) (get_event 5%nat (m_at 2)) = Some (KCond false [0; 1]%nat 1, Some (Ok VNone)) /\
    option_map (fun e => (kind e, out e)) (get_event 6%nat (m_at 2)) = Some (KCond true [4; 2; 3]%nat 1, None) /\
    In m_e5 (agenda (m_at 2)) /\ now (m_at 2) == 1.
Proof.
  destruct (m_creach 1) as (X & C); [vm_compute; reflexivity|].
  exists X. eexists _, _, _. split; [exact C|]. apply conj_keep; [vm_compute; reflexivity|intros P]. split.
  { rewrite (m_at_S 1). apply (clean_step_of_ok (m_at 1) m_e0 [m_e1; m_e2]); [vm_compute; reflexivity|exact P]. }
  split; [vm_compute; reflexivity|]. split; [reflexivity|]. split; [reflexivity|]. split; [not_detached_by_anc_free|]. split; [left; reflexivity|].
  split; [vm_compute; reflexivity|]. split; [reflexivity|]. split; [reflexivity|]. split; [not_detached_by_anc_free|].
  split; [vm_compute; reflexivity|]. split; [reflexivity|]. split; [reflexivity|]. split; [not_detached_by_anc_free|].
  split; [intros [H|[H|[H|[]]]]; discriminate H|]. split; [vm_compute; reflexivity|].
  split; [vm_compute; reflexivity|]. split; [vm_compute; reflexivity|]. split; [vm_compute; reflexivity|].
  split; [vm_compute; tauto|vm_compute; reflexivity].
Qed.
Print Assumptions C05_ex_cond_step.

(* ---- C05_all_of_last, C05_cond_step, the branch in which the condition triggers: the step m_at 3 -> m_at 4 processes b (event 1), the
   LAST unprocessed operand of call (4); cany (5), which has the same operands, is processed already ---------------------------------- *)
Theorem C05_ex_all_of_last :
  exists X c4, creach [] X (m_at 3) /\ pop_min (agenda (m_at 3)) = Some (m_e1, [m_e2]) /\ clean_step 50 [] (m_at 3) (m_at 4) 1%nat /\
    get_event 4%nat (m_at 3) = Some c4 /\ kind c4 = KCond true [0; 1]%nat 1 /\ out c4 = None /\ ~ detached (m_at 3) 4%nat /\
    In 1%nat [0; 1]%nat /\ procpos (m_at 3) [0; 1]%nat = 1%nat /\ is_proc (m_at 3) 0%nat = true /\
    option_map (fun e => (kind e, out e)) (get_event 4%nat (m_at 4)) = Some (KCond true [0; 1]%nat 2, Some (Ok VNone)) /\
    now (m_at 4) == 2.
Proof.
  destruct (m_creach 3) as (X & C); [vm_compute; reflexivity|].
  exists X. eexists. split; [exact C|]. apply conj_keep; [vm_compute; reflexivity|intros P]. split.
  { rewrite (m_at_S 3). apply (clean_step_of_ok (m_at 3) m_e1 [m_e2]); [vm_compute; reflexivity|exact P]. }
  split; [vm_compute; reflexivity|]. split; [reflexivity|]. split; [reflexivity|]. split; [not_detached_by_anc_free|]. split; [right; left; reflexivity|].
  split; [vm_compute; reflexivity|]. split; [vm_compute; reflexivity|]. split; vm_compute; reflexivity.
Qed.
Print Assumptions C05_ex_all_of_last.

(* ---- C05_cond_step / C05_any_of_first / C05_all_of_last, the branch in which the condition FAILS, and C05_check_fails_with_operand
   (get_event c s = Some cev /\ kind cev = KCond all ops n /\ out cev = None /\ get_event o s = Some oev /\ out oev = Some (Fail x) /\
   c <> o): family N, the step n_at 0 -> n_at 1 processes the failed x (event 1) at t = 0 while a is pending: all_of [a; x] (2) and
   any_of [a; x] (3) fail with x's exception, x is defused; the _check in isolation, in the state where x has been popped ------------- *)
Theorem C05_ex_operand_fails :
  let s := popped n_e1 [n_e0] (n_at 0) in
  exists X c2 c3 x1 x1', creach [] X (n_at 0) /\ pop_min (agenda (n_at 0)) = Some (n_e1, [n_e0]) /\ clean_step 50 [] (n_at 0) (n_at 1) 1%nat /\
    get_event 2%nat (n_at 0) = Some c2 /\ kind c2 = KCond true [0; 1]%nat 0 /\ out c2 = None /\ ~ detached (n_at 0) 2%nat /\
    get_event 3%nat (n_at 0) = Some c3 /\ kind c3 = KCond false [0; 1]%nat 0 /\ out c3 = None /\ ~ detached (n_at 0) 3%nat /\
    In 1%nat [0; 1]%nat /\ get_event 1%nat (n_at 0) = Some x1 /\ out x1 = Some (Fail (EUser 1, [VInt 5])) /\ defused x1 = false /\
    (* _check of condition 2 on operand 1, in isolation *)
    get_event 2%nat s = Some c2 /\ get_event 1%nat s = Some x1' /\ out x1' = Some (Fail (EUser 1, [VInt 5])) /\ 2%nat <> 1%nat /\
    option_map (fun e => (kind e, out e)) (get_event 2%nat (cond_check 2%nat 1%nat s)) =
      Some (KCond true [0; 1]%nat 1, Some (Fail (EUser 1, [VInt 5]))) /\
    (* after the step *)
    option_map (fun e => (kind e, out e)) (get_event 2%nat (n_at 1)) = Some (KCond true [0; 1]%nat 1, Some (Fail (EUser 1, [VInt 5]))) /\
    option_map (fun e => (kind e, out e)) (get_event 3%nat (n_at 1)) = Some (KCond false [0; 1]%nat 1, Some (Fail (EUser 1, [VInt 5]))) /\
    option_map (fun e => (cbs e, defused e)) (get_event 1%nat (n_at 1)) = Some (None, true) /\
    is_proc (n_at 1) 0%nat = false.
Proof.
  cbn zeta. destruct (n_creach 0) as (X & C); [vm_compute; reflexivity|].
  exists X. eexists _, _, _, _. split; [exact C|]. apply conj_keep; [vm_compute; reflexivity|intros P]. split.
  { rewrite (n_at_S 0). apply (clean_step_of_ok (n_at 0) n_e1 [n_e0]); [vm_compute; reflexivity|exact P]. }
  split; [vm_compute; reflexivity|]. split; [reflexivity|]. split; [reflexivity|]. split; [not_detached_by_anc_free|].
  split; [vm_compute; reflexivity|]. split; [reflexivity|]. split; [reflexivity|]. split; [not_detached_by_anc_free|].
  split; [right; left; reflexivity|]. split; [vm_compute; reflexivity|]. split; [reflexivity|]. split; [reflexivity|].
  split; [vm_compute; reflexivity|]. split; [vm_compute; reflexivity|]. split; [reflexivity|]. split; [intros H; discriminate H|].
  split; [vm_compute; reflexivity|]. split; [vm_compute; reflexivity|]. split; [vm_compute; reflexivity|].
  split; vm_compute; reflexivity.
Qed.
Print Assumptions C05_ex_operand_fails.

(* ---- C05_check_succeeds_when (get_event c s = Some cev /\ kind cev = KCond all ops n /\ out cev = None /\ get_event o s = Some oev /\
   is_failed oev = false /\ c <> o): the _check callbacks of a in the state where a has been popped from m_at 1: any_of (5) succeeds,
   all_of (4) counts and stays pending ------------------------------------------------------------------------------------------------ *)
Theorem C05_ex_check_succeeds_when :
  let s := popped m_e0 [m_e1; m_e2] (m_at 1) in
  exists c4 c5 a0, get_event 4%nat s = Some c4 /\ kind c4 = KCond true [0; 1]%nat 0 /\ out c4 = None /\
    get_event 5%nat s = Some c5 /\ kind c5 = KCond false [0; 1]%nat 0 /\ out c5 = None /\
    get_event 0%nat s = Some a0 /\ is_failed a0 = false /\ cbs a0 = None /\ 4%nat <> 0%nat /\ 5%nat <> 0%nat /\
    option_map (fun e => (kind e, out e)) (get_event 4%nat (cond_check 4%nat 0%nat s)) = Some (KCond true [0; 1]%nat 1, None) /\
    option_map (fun e => (kind e, out e)) (get_event 5%nat (cond_check 5%nat 0%nat s)) = Some (KCond false [0; 1]%nat 1, Some (Ok VNone)).
Proof.
  cbn zeta. eexists _, _, _. split; [vm_compute; reflexivity|]. split; [reflexivity|]. split; [reflexivity|].
  split; [vm_compute; reflexivity|]. split; [reflexivity|]. split; [reflexivity|].
  split; [vm_compute; reflexivity|]. split; [reflexivity|]. split; [reflexivity|]. split; [intros H; discriminate H|].
  split; [intros H; discriminate H|]. split; vm_compute; reflexivity.
Qed.
Print Assumptions C05_ex_check_succeeds_when.

(* ---- C05_value_exact (creach /\ clean_step fuel codes s s' c /\ get_event c s = Some cev /\ kind cev = KCond all ops n /\ ops <> [] /\
   out cev = Some (Ok v0)), C05_value_unique (leaves evs ops items /\ leaves evs ops items').  (i) m_at 2 -> m_at 3 processes cany (5)
   = any_of [a; b], triggered by a: b is NOT processed yet, the value is {a: 11} only.  (ii) m_at 6 -> m_at 7 processes the nested cn
   (6) = all_of [call; d; x]: the value is the flattened {a: 11, b: 22, d: 33, x: 44}, in operand order -------------------------------- *)
Theorem C05_ex_value_exact :
  exists X X' c5 c6, creach [] X (m_at 2) /\ pop_min (agenda (m_at 2)) = Some (m_e5, [m_e1; m_e2]) /\
    clean_step 50 [] (m_at 2) (m_at 3) 5%nat /\
    get_event 5%nat (m_at 2) = Some c5 /\ kind c5 = KCond false [0; 1]%nat 1 /\ [0; 1]%nat <> [] /\ out c5 = Some (Ok VNone) /\
    is_proc (m_at 2) 1%nat = false /\
    leaves (events (m_at 2)) [0; 1]%nat [(0%nat, VInt 11)] /\
    option_map out (get_event 5%nat (m_at 3)) = Some (Some (Ok (VCond [(0%nat, VInt 11)]))) /\
    creach [] X' (m_at 6) /\ pop_min (agenda (m_at 6)) = Some (m_e6, []) /\ clean_step 50 [] (m_at 6) (m_at 7) 6%nat /\
    get_event 6%nat (m_at 6) = Some c6 /\ kind c6 = KCond true [4; 2; 3]%nat 3 /\ [4; 2; 3]%nat <> [] /\ out c6 = Some (Ok VNone) /\
    leaves (events (m_at 6)) [4; 2; 3]%nat [(0%nat, VInt 11); (1%nat, VInt 22); (2%nat, VInt 33); (3%nat, VInt 44)] /\
    option_map out (get_event 6%nat (m_at 7)) =
      Some (Some (Ok (VCond [(0%nat, VInt 11); (1%nat, VInt 22); (2%nat, VInt 33); (3%nat, VInt 44)]))).
Proof.
  destruct (m_creach 2) as (X & C); [vm_compute; reflexivity|].
  destruct (m_creach 6) as (X' & C'); [vm_compute; reflexivity|].
  exists X, X'. eexists _, _. split; [exact C|]. apply conj_keep; [vm_compute; reflexivity|intros P]. split.
  { rewrite (m_at_S 2). apply (clean_step_of_ok (m_at 2) m_e5 [m_e1; m_e2]); [vm_compute; reflexivity|exact P]. }
  split; [vm_compute; reflexivity|]. split; [reflexivity|]. split; [intros H; discriminate H|]. split; [reflexivity|].
  split; [vm_compute; reflexivity|]. split; [apply (leaves_of 10); vm_compute; reflexivity|]. split; [vm_compute; reflexivity|].
  split; [exact C'|]. apply conj_keep; [vm_compute; reflexivity|intros P']. split.
  { rewrite (m_at_S 6). apply (clean_step_of_ok (m_at 6) m_e6 []); [vm_compute; reflexivity|exact P']. }
  split; [vm_compute; reflexivity|]. split; [reflexivity|]. split; [intros H; discriminate H|]. split; [reflexivity|].
  split; [apply (leaves_of 10); vm_compute; reflexivity|]. vm_compute. reflexivity.
Qed.
Print Assumptions C05_ex_value_exact.

(* ---- C05_late_check_ignored (get_event c s = Some cev /\ out cev <> None), C05_late_failure_surfaces (pop_min (agenda s) = Some (m,
   rest) /\ get_event (e_ev m) s = Some ev /\ cbs ev = Some l /\ out ev = Some (Fail x) /\ defused ev = false /\ forall c, In c l ->
   late_cb s c): family L in l_at 1 -- cl (2) = any_of [a; x] has been triggered by a and waits BEHIND the failed x on the agenda; x's
   only callback is the late _check of cl: it changes nothing, nobody defuses x, step() raises x's exception ---------------------------- *)
Theorem C05_ex_late :
  exists X ev c2, creach [] X (l_at 1) /\ pop_min (agenda (l_at 1)) = Some (l_e1, [l_e2]) /\
    get_event (e_ev l_e1) (l_at 1) = Some ev /\ cbs ev = Some [CbCheck 2%nat] /\ out ev = Some (Fail (EUser 1, [VInt 5])) /\
    defused ev = false /\ (forall c, In c [CbCheck 2%nat] -> late_cb (l_at 1) c) /\
    get_event 2%nat (l_at 1) = Some c2 /\ out c2 = Some (Ok VNone) /\ out c2 <> None /\
    cond_check 2%nat 1%nat (popped l_e1 [l_e2] (l_at 1)) = popped l_e1 [l_e2] (l_at 1) /\
    snd (step 50 [] (l_at 1)) = RRaise (EUser 1, [VInt 5]) /\
    option_map out (get_event 2%nat (l_at 2)) = Some (Some (Ok VNone)) /\ agenda (l_at 2) = [l_e2].
Proof.
  destruct (l_creach 1) as (X & C); [vm_compute; reflexivity|].
  assert (E2 : exists c2, get_event 2%nat (l_at 1) = Some c2 /\ out c2 = Some (Ok VNone))
    by (eexists; split; [vm_compute; reflexivity|reflexivity]).
  destruct E2 as (c2 & E2 & O2).
  assert (N2 : out c2 <> None) by (rewrite O2; intros H; discriminate H).
  exists X. eexists. exists c2. split; [exact C|]. split; [vm_compute; reflexivity|]. split; [vm_compute; reflexivity|].
  split; [reflexivity|]. split; [reflexivity|]. split; [reflexivity|].
  split; [intros c [<-|[]]; exists c2; split; [exact E2|exact N2]|].
  split; [exact E2|]. split; [exact O2|]. split; [exact N2|].
  split; [apply (late_check_ignored 2%nat 1%nat _ c2); [vm_compute; rewrite <- E2; vm_compute; reflexivity|exact N2]|].
  split; [vm_compute; reflexivity|]. split; vm_compute; reflexivity.
Qed.
Print Assumptions C05_ex_late.

(* ---- C05_outcome_final (ptrace X s s' /\ get_event c s = Some cev /\ is_cond cev = true): from m_at 2, where cany (5) is triggered
   (Ok), to m_at 7 five steps later, where everything is processed: its outcome is still Ok (now with the value filled in) ---------- *)
Theorem C05_ex_outcome_final :
  exists X cev, ptrace X (m_at 2) (m_at 7) /\ get_event 5%nat (m_at 2) = Some cev /\ is_cond cev = true /\ out cev = Some (Ok VNone) /\
    option_map out (get_event 5%nat (m_at 7)) = Some (Some (Ok (VCond [(0%nat, VInt 11)]))) /\ agenda (m_at 7) = [].
Proof.
  destruct (m_creach 2) as (X0 & C); [vm_compute; reflexivity|].
  destruct (ptrace_c_run 5 X0 (m_at 2) C) as (X & T); [vm_compute; reflexivity|].
  assert (E : c_run 5 (m_at 2) = m_at 7) by (unfold m_at; rewrite <- c_run_add; reflexivity). rewrite E in T.
  exists X. eexists. split; [exact T|]. split; [vm_compute; reflexivity|]. split; [reflexivity|]. split; [reflexivity|].
  split; vm_compute; reflexivity.
Qed.
Print Assumptions C05_ex_outcome_final.
