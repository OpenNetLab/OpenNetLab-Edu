(* C15 -- NON-VACUITY of the theorems of Props/C15_RR.v (RR and WRR).  Witness executions: Elem/SchedExamples.v
   ([rrx_acts]: RR over flows [0; 1; 2]; [wrx_acts]: WRR with weights {0: 3, 1: 1, 2: 1}; 128-byte packets at 1024 bit/s):
   x0, x1 (flow 0) and y0 (flow 2) arrive at 0, z0 (flow 1) at 1/2 while x0 is being transmitted: class 1 is empty when the
   round starts and backlogged when its turn comes.  RR serves x0 z0 y0 x1 and its last pass finds classes 1 and 2 empty;
   WRR lets class 0 send up to 3 per visit, it holds only 2 (the visit ends on the empty queue): x0 x1 z0 y0.

   Coverage (theorem of Props/C15_RR.v -> witness), X = rr / wrr:
     C15_X_visit, C15_X_starts_follow_visits  -> C15_ex_X_visiting      (the whole run, and a state with a commit pending)
     C15_X_visit_meaning                      -> C15_ex_X_visit_meaning (a visit that takes a packet, a visit that skips)
   Unconditional: none. *)
From Coq Require Import ZArith QArith List.
From ONL Require Import Base.Tools Elem.Packet Elem.StoreQ Elem.SchedBase Elem.SchedBaseProofs Elem.RR Elem.RRProofs
  Elem.WRR Elem.WRRProofs Elem.SchedExamples.
From ONL Require Import Props.C15_RR.
Import ListNotations.

(* ================= RR ================= *)
Theorem C15_ex_rr_visiting :
  0 < rrx_r /\
  rr_run rrx_r rrx_fl rrx_acts = Some (rrx_state 32, rrx_trace 32) /\
  rr_run rrx_r rrx_fl (firstn 22 rrx_acts) = Some (rrx_state 22, rrx_trace 22) /\
  (* the execution: the classes run() tested, in order, with the outcome; the transmission starts *)
  tr_visits (rrx_trace 32) = [(0, false); (1, false); (2, false); (0, true); (1, true); (2, true); (0, true); (1, false); (2, false)]%Z /\
  tr_starts (rrx_trace 32) = [rrx_x0; rrx_z0; rrx_y0; rrx_x1] /\
  (* conclusions: the visit sequence is a walk of the cyclic specification ending at the scheduler's cursor; the classes of the
     starts are the visits that took a packet -- in the state after 22 actions with one commit still pending *)
  (exists k, walk (pass rrx_cfg) (pass rrx_cfg) (tr_visits (rrx_trace 32)) = Some k /\
             norm (pass rrx_cfg) k = norm (pass rrx_cfg) (cursor rrx_cfg (rrx_state 32))) /\
  served (tr_visits (rrx_trace 32)) = map (pclass rrx_cfg) (tr_starts (rrx_trace 32)) ++ pending rrx_cfg (rrx_state 32) /\
  pending rrx_cfg (rrx_state 32) = [] /\
  served (tr_visits (rrx_trace 22)) = map (pclass rrx_cfg) (tr_starts (rrx_trace 22)) ++ pending rrx_cfg (rrx_state 22) /\
  served (tr_visits (rrx_trace 22)) = [0; 1; 2]%Z /\ tr_starts (rrx_trace 22) = [rrx_x0; rrx_z0] /\
  pending rrx_cfg (rrx_state 22) = [2]%Z.
Proof.
  apply conj_keep; [reflexivity|intros Hr]. apply conj_keep; [vm_compute; reflexivity|intros HF].
  apply conj_keep; [vm_compute; reflexivity|intros HM].
  split; [vm_compute; reflexivity|]. split; [vm_compute; reflexivity|].
  split; [exact (C15_rr_visit _ _ _ _ _ Hr HF)|].
  split; [exact (C15_rr_starts_follow_visits _ _ _ _ _ Hr HF)|]. split; [vm_compute; reflexivity|].
  split; [exact (C15_rr_starts_follow_visits _ _ _ _ _ Hr HM)|].
  split; [vm_compute; reflexivity|]. split; vm_compute; reflexivity.
Qed.
Print Assumptions C15_ex_rr_visiting.

(* a visit that takes a packet: state after 16 actions, SChildEnd emits [OVisit 1 true]: the head of the queue of class 1 is handed over;
   a visit that skips: state after 31 actions, SChildEnd emits [OVisit 1 false; OVisit 2 false]: class 2 holds nothing at all *)
Theorem C15_ex_rr_visit_meaning :
  0 < rrx_r /\
  rr_run rrx_r rrx_fl (firstn 16 rrx_acts) = Some (rrx_state 16, rrx_trace 16) /\
  rr_act rrx_r rrx_fl (rrx_state 16) SChildEnd = Some (rrx_state 17, [OVisit 1 true]) /\
  In (OVisit 1 true) [OVisit 1 true] /\
  rr_run rrx_r rrx_fl (firstn 31 rrx_acts) = Some (rrx_state 31, rrx_trace 31) /\
  rr_act rrx_r rrx_fl (rrx_state 31) SChildEnd = Some (rrx_state 32, [OVisit 1 false; OVisit 2 false]) /\
  In (OVisit 2 false) [OVisit 1 false; OVisit 2 false] /\
  (* conclusions *)
  (exists x rest, items (mstores (rrx_state 16) 1) = x :: rest /\ get (mstores (rrx_state 17) 1) = GGranted x /\
                  items (mstores (rrx_state 17) 1) = rest /\ x = (1 # 2, rrx_z0)) /\
  (items (mstores (rrx_state 31) 2) = [] /\ held_class rrx_cfg (rrx_state 31) 2 = []).
Proof.
  apply conj_keep; [reflexivity|intros Hr]. apply conj_keep; [vm_compute; reflexivity|intros HT].
  apply conj_keep; [vm_compute; reflexivity|intros AT]. apply conj_keep; [cbn; tauto|intros IT].
  apply conj_keep; [vm_compute; reflexivity|intros HF]. apply conj_keep; [vm_compute; reflexivity|intros AF].
  apply conj_keep; [cbn; tauto|intros IF'].
  split.
  { pose proof (C15_rr_visit_meaning _ _ _ _ _ _ _ _ _ _ Hr HT AT IT) as (x & rest & A & B & C).
    exists x, rest. split; [exact A|]. split; [exact B|]. split; [exact C|].
    assert (E : items (mstores (rrx_state 16) 1) = (1 # 2, rrx_z0) :: rest).
    { rewrite A. f_equal. assert (G : get (mstores (rrx_state 17) 1) = GGranted (1 # 2, rrx_z0)) by (vm_compute; reflexivity).
      rewrite G in B. injection B as <-. reflexivity. }
    rewrite A in E. injection E as E. exact E. }
  exact (C15_rr_visit_meaning _ _ _ _ _ _ _ _ _ _ Hr HF AF IF').
Qed.
Print Assumptions C15_ex_rr_visit_meaning.

(* ================= WRR ================= *)
Theorem C15_ex_wrr_visiting :
  0 < wrx_r /\
  wrr_run wrx_r wrx_ws wrx_acts = Some (wrx_state 32, wrx_trace 32) /\
  wrr_run wrx_r wrx_ws (firstn 22 wrx_acts) = Some (wrx_state 22, wrx_trace 22) /\
  (* the execution: the classes run() tested, in order, with the outcome; the transmission starts *)
  tr_visits (wrx_trace 32) = [(0, false); (1, false); (2, false); (0, true); (0, true); (0, false); (1, true); (2, true)]%Z /\
  tr_starts (wrx_trace 32) = [rrx_x0; rrx_x1; rrx_z0; rrx_y0] /\
  (* conclusions: the visit sequence is a walk of the cyclic specification ending at the scheduler's cursor; the classes of the
     starts are the visits that took a packet -- in the state after 22 actions with one commit still pending *)
  (exists k, walk (pass wrx_cfg) (pass wrx_cfg) (tr_visits (wrx_trace 32)) = Some k /\
             norm (pass wrx_cfg) k = norm (pass wrx_cfg) (cursor wrx_cfg (wrx_state 32))) /\
  served (tr_visits (wrx_trace 32)) = map (pclass wrx_cfg) (tr_starts (wrx_trace 32)) ++ pending wrx_cfg (wrx_state 32) /\
  pending wrx_cfg (wrx_state 32) = [] /\
  served (tr_visits (wrx_trace 22)) = map (pclass wrx_cfg) (tr_starts (wrx_trace 22)) ++ pending wrx_cfg (wrx_state 22) /\
  served (tr_visits (wrx_trace 22)) = [0; 0; 1]%Z /\ tr_starts (wrx_trace 22) = [rrx_x0; rrx_x1] /\
  pending wrx_cfg (wrx_state 22) = [1]%Z.
Proof.
  apply conj_keep; [reflexivity|intros Hr]. apply conj_keep; [vm_compute; reflexivity|intros HF].
  apply conj_keep; [vm_compute; reflexivity|intros HM].
  split; [vm_compute; reflexivity|]. split; [vm_compute; reflexivity|].
  split; [exact (C15_wrr_visit _ _ _ _ _ Hr HF)|].
  split; [exact (C15_wrr_starts_follow_visits _ _ _ _ _ Hr HF)|]. split; [vm_compute; reflexivity|].
  split; [exact (C15_wrr_starts_follow_visits _ _ _ _ _ Hr HM)|].
  split; [vm_compute; reflexivity|]. split; vm_compute; reflexivity.
Qed.
Print Assumptions C15_ex_wrr_visiting.

(* a visit that takes a packet: state after 16 actions, SChildEnd emits [OVisit 0 true]: the head of the queue of class 0 is handed over;
   a visit that skips: state after 21 actions, SChildEnd emits [OVisit 0 false; OVisit 1 true]: class 0 holds nothing at all *)
Theorem C15_ex_wrr_visit_meaning :
  0 < wrx_r /\
  wrr_run wrx_r wrx_ws (firstn 16 wrx_acts) = Some (wrx_state 16, wrx_trace 16) /\
  wrr_act wrx_r wrx_ws (wrx_state 16) SChildEnd = Some (wrx_state 17, [OVisit 0 true]) /\
  In (OVisit 0 true) [OVisit 0 true] /\
  wrr_run wrx_r wrx_ws (firstn 21 wrx_acts) = Some (wrx_state 21, wrx_trace 21) /\
  wrr_act wrx_r wrx_ws (wrx_state 21) SChildEnd = Some (wrx_state 22, [OVisit 0 false; OVisit 1 true]) /\
  In (OVisit 0 false) [OVisit 0 false; OVisit 1 true] /\
  (* conclusions *)
  (exists x rest, items (mstores (wrx_state 16) 0) = x :: rest /\ get (mstores (wrx_state 17) 0) = GGranted x /\
                  items (mstores (wrx_state 17) 0) = rest /\ x = (0, rrx_x1)) /\
  (items (mstores (wrx_state 21) 0) = [] /\ held_class wrx_cfg (wrx_state 21) 0 = []).
Proof.
  apply conj_keep; [reflexivity|intros Hr]. apply conj_keep; [vm_compute; reflexivity|intros HT].
  apply conj_keep; [vm_compute; reflexivity|intros AT]. apply conj_keep; [cbn; tauto|intros IT].
  apply conj_keep; [vm_compute; reflexivity|intros HF]. apply conj_keep; [vm_compute; reflexivity|intros AF].
  apply conj_keep; [cbn; tauto|intros IF'].
  split.
  { pose proof (C15_wrr_visit_meaning _ _ _ _ _ _ _ _ _ _ Hr HT AT IT) as (x & rest & A & B & C).
    exists x, rest. split; [exact A|]. split; [exact B|]. split; [exact C|].
    assert (E : items (mstores (wrx_state 16) 0) = (0, rrx_x1) :: rest).
    { rewrite A. f_equal. assert (G : get (mstores (wrx_state 17) 0) = GGranted (0, rrx_x1)) by (vm_compute; reflexivity).
      rewrite G in B. injection B as <-. reflexivity. }
    rewrite A in E. injection E as E. exact E. }
  exact (C15_wrr_visit_meaning _ _ _ _ _ _ _ _ _ _ Hr HF AF IF').
Qed.
Print Assumptions C15_ex_wrr_visit_meaning.
