(* C08, share of TokenBucket and TwoRateTokenBucket -- NON-VACUITY of Props/C08_Bucket.v.
   Witnesses: (Elem/BucketProofs.v, ex_c / ex_acts) rate 1024, bucket 256 B, peak 4096: a 256-byte and a 128-byte packet at 0 (the
   second waits for tokens, both are spaced by the peak rate); (Elem/TwoRateProofs.v, rx_c / rx_acts) CIR 1024 / CBS 256 / PIR 2048 /
   PBS 512: green, yellow, red (waits for peak tokens), green; and a bucket without PIR whose second packet waits for committed tokens.
     C08_ex_tb_run              covers C08_tb_conserves, C08_tb_counters, C08_tb_flow_fifo       (rate > 0, admissible execution)
     C08_ex_tb_drained          covers C08_tb_drained   (+ peak > 0, sizes >= 0, idle phase, nothing but put / advance enabled)
     C08_ex_tb_timer_enabled    covers C08_tb_timer_enabled, once in phase PPeak and once in phase PTok at its deadline
     C08_ex_trtb_run            covers C08_trtb_conserves, C08_trtb_counters, C08_trtb_flow_fifo (trwf, admissible execution)
     C08_ex_trtb_drained        covers C08_trtb_drained
     C08_ex_trtb_timer_enabled  covers C08_trtb_timer_enabled, once in RWaitPeak and once in RWaitCommit at its deadline
   No theorem of Props/C08_Bucket.v is unconditional.
   The conclusions are obtained by applying the theorem to the witness.  Statement files are compiled independently (and in
   parallel) by the pipeline, so one statement file cannot import another: [C08_x] below is a LOCAL abbreviation of the proof
   term that closes theorem C08_x in Props/C08_Bucket.v (there: `Proof. exact <that term>. Qed.`), hence has the same statement.
   Helper facts are stated with `Fact` (they are not obligations); every `Theorem` is a witness and is followed by
   Print Assumptions. *)
From Coq Require Import ZArith QArith List.
From ONL Require Import Base.Tools Elem.Packet Elem.StoreQ Elem.Bucket Elem.BucketProofs Elem.TwoRate Elem.TwoRateProofs.
Import ListNotations.

Local Notation C08_tb_conserves := tb_conserves.
Local Notation C08_tb_counters := tb_counters.
Local Notation C08_tb_flow_fifo := tb_flow_fifo.
Local Notation C08_tb_drained := tb_drained.
Local Notation C08_tb_timer_enabled := tb_timer_enabled.
Local Notation C08_trtb_conserves := trtb_conserves.
Local Notation C08_trtb_counters := trtb_counters.
Local Notation C08_trtb_flow_fifo := trtb_flow_fifo.
Local Notation C08_trtb_drained := trtb_drained.
Local Notation C08_trtb_timer_enabled := trtb_timer_enabled.

Fact bx_peak : forall k, peak_on ex_c = Some k -> 0 < k.
Proof. intros k H. vm_compute in H. injection H as <-. reflexivity. Qed.

(* covers: C08_tb_conserves, C08_tb_counters, C08_tb_flow_fifo *)
Theorem C08_ex_tb_run :
  exists s tr, 0 < rate ex_c /\ tb_run ex_c (tb0 true ex_c 0) ex_acts = Some (s, tr) /\
    map snd (puts tr) = [ex_p0; ex_p1] /\ map snd (fwds tr) = [ex_p0; ex_p1] /\ tb_held s = [] /\
    nrecv s = 2%Z /\ nsent s = 2%Z /\
    (exists rest, of_flow 1 (map snd (puts tr)) = of_flow 1 (map snd (fwds tr)) ++ rest) /\
    of_flow 1 (map snd (fwds tr)) = [ex_p1].
Proof.
  destruct (run_facts (tb_run ex_c (tb0 true ex_c 0) ex_acts) (fun _ _ => True)) as (s & tr & E & _); [vm_compute; exact I|].
  exists s, tr. split; [reflexivity|]. split; [exact E|].
  pose proof (C08_tb_flow_fifo ex_c 0 _ _ _ eq_refl E 1%Z) as HF.
  repeat split; try exact HF; pattern s, tr; apply (run_elim _ _ _ _ E); vm_compute; reflexivity.
Qed.
Print Assumptions C08_ex_tb_run.

(* covers: C08_tb_drained *)
Theorem C08_ex_tb_drained :
  exists s tr, 0 < rate ex_c /\ tb_run ex_c (tb0 true ex_c 0) ex_acts = Some (s, tr) /\
    (forall k, peak_on ex_c = Some k -> 0 < k) /\ Forall (fun x => 0 <= sz (snd x)) (puts tr) /\
    phase s = PIdle /\
    (forall a, (forall p, a <> TPut p) -> (forall t, a <> TAdvance t) -> tb_act ex_c s a = None) /\
    length (puts tr) = 2%nat /\ tb_held s = [] /\ map snd (fwds tr) = map snd (puts tr).
Proof.
  destruct (run_facts (tb_run ex_c (tb0 true ex_c 0) ex_acts) (fun _ _ => True)) as (s & tr & E & _); [vm_compute; exact I|].
  exists s, tr. split; [reflexivity|]. split; [exact E|]. split; [exact bx_peak|].
  split; [pattern s, tr; apply (run_elim _ _ _ _ E); vm_compute; repeat constructor; discriminate|].
  split; [pattern s, tr; apply (run_elim _ _ _ _ E); vm_compute; reflexivity|].
  split; [|repeat split; pattern s, tr; apply (run_elim _ _ _ _ E); vm_compute; reflexivity].
  intros a HP HA. destruct a; try (exfalso; eapply HP; reflexivity); try (exfalso; eapply HA; reflexivity);
    pattern s, tr; apply (run_elim _ _ _ _ E); vm_compute; reflexivity.
Qed.
Print Assumptions C08_ex_tb_drained.

(* covers: C08_tb_timer_enabled -- after 6 actions p0 is debited and spaced (PPeak, due at 1/2); after 10 actions p1 waits for tokens (PTok) and its timeout is due now *)
Theorem C08_ex_tb_timer_enabled :
  (exists s tr dl, 0 < rate ex_c /\ tb_run ex_c (tb0 true ex_c 0) (firstn 6 ex_acts) = Some (s, tr) /\
     (forall k, peak_on ex_c = Some k -> 0 < k) /\ Forall (fun x => 0 <= sz (snd x)) (puts tr) /\
     phase s = PPeak ex_p0 dl /\ dl == 1 # 2 /\ tb_held s = [ex_p0; ex_p1] /\
     tnow s <= dl /\ (dl == tnow s -> exists s' o, tb_act ex_c s TTimer = Some (s', o))) /\
  (exists s tr dl, 0 < rate ex_c /\ tb_run ex_c (tb0 true ex_c 0) (firstn 10 ex_acts) = Some (s, tr) /\
     (forall k, peak_on ex_c = Some k -> 0 < k) /\ Forall (fun x => 0 <= sz (snd x)) (puts tr) /\
     phase s = PTok ex_p1 dl /\ dl == 1 /\ tb_held s = [ex_p1] /\ tnow s == 1 /\
     exists s' o, tb_act ex_c s TTimer = Some (s', o)).
Proof.
  split.
  - destruct (run_facts (tb_run ex_c (tb0 true ex_c 0) (firstn 6 ex_acts)) (fun _ _ => True)) as (s & tr & E & _); [vm_compute; exact I|].
    exists s, tr, (1 # 2). split; [reflexivity|]. split; [exact E|]. split; [exact bx_peak|].
    apply conj_keep; [pattern s, tr; apply (run_elim _ _ _ _ E); vm_compute; repeat constructor; discriminate|intros Sz].
    apply conj_keep; [pattern s, tr; apply (run_elim _ _ _ _ E); vm_compute; reflexivity|intros Ph]. split; [reflexivity|].
    split; [pattern s, tr; apply (run_elim _ _ _ _ E); vm_compute; reflexivity|].
    exact (C08_tb_timer_enabled ex_c 0 _ _ _ eq_refl E bx_peak Sz _ _ (or_intror Ph)).
  - destruct (run_facts (tb_run ex_c (tb0 true ex_c 0) (firstn 10 ex_acts)) (fun _ _ => True)) as (s & tr & E & _); [vm_compute; exact I|].
    exists s, tr, 1. split; [reflexivity|]. split; [exact E|]. split; [exact bx_peak|].
    apply conj_keep; [pattern s, tr; apply (run_elim _ _ _ _ E); vm_compute; repeat constructor; discriminate|intros Sz].
    apply conj_keep; [pattern s, tr; apply (run_elim _ _ _ _ E); vm_compute; reflexivity|intros Ph]. split; [reflexivity|].
    split; [pattern s, tr; apply (run_elim _ _ _ _ E); vm_compute; reflexivity|].
    apply conj_keep; [pattern s, tr; apply (run_elim _ _ _ _ E); vm_compute; reflexivity|intros Nw].
    apply (proj2 (C08_tb_timer_enabled ex_c 0 _ _ _ eq_refl E bx_peak Sz _ _ (or_introl Ph))). symmetry. exact Nw.
Qed.
Print Assumptions C08_ex_tb_timer_enabled.

Fact rx_wf : trwf rx_c.
Proof. apply trwf_pir; reflexivity. Qed.

(* covers: C08_trtb_conserves, C08_trtb_counters, C08_trtb_flow_fifo *)
Theorem C08_ex_trtb_run :
  exists s tr, trwf rx_c /\ tr_run true true rx_c (tr0 true rx_c 0) rx_acts = Some (s, tr) /\
    map snd (rputs tr) = [rx_p 0 256; rx_p 1 256; rx_p 2 256; rx_p 3 128] /\
    map snd (rfwds tr) = [rx_p 0 256; rx_p 1 256; rx_p 2 256; rx_p 3 128] /\ rcols tr = [Green; Yellow; Red; Green] /\
    tr_held s = [] /\ rrecv s = 4%Z /\ rsent s = 4%Z /\
    (exists rest, of_flow 0 (map snd (rputs tr)) = of_flow 0 (map snd (rfwds tr)) ++ rest).
Proof.
  destruct (run_facts (tr_run true true rx_c (tr0 true rx_c 0) rx_acts) (fun _ _ => True)) as (s & tr & E & _); [vm_compute; exact I|].
  exists s, tr. split; [exact rx_wf|]. split; [exact E|].
  pose proof (C08_trtb_flow_fifo rx_c 0 _ _ _ rx_wf E 0%Z) as HF.
  repeat split; try exact HF; pattern s, tr; apply (run_elim _ _ _ _ E); vm_compute; reflexivity.
Qed.
Print Assumptions C08_ex_trtb_run.

(* covers: C08_trtb_drained *)
Theorem C08_ex_trtb_drained :
  exists s tr, trwf rx_c /\ tr_run true true rx_c (tr0 true rx_c 0) rx_acts = Some (s, tr) /\
    rphase_ s = RIdle /\
    (forall a, (forall p, a <> RPut p) -> (forall t, a <> RAdvance t) -> tr_act true true rx_c s a = None) /\
    length (rputs tr) = 4%nat /\ tr_held s = [] /\ map snd (rfwds tr) = map snd (rputs tr).
Proof.
  destruct (run_facts (tr_run true true rx_c (tr0 true rx_c 0) rx_acts) (fun _ _ => True)) as (s & tr & E & _); [vm_compute; exact I|].
  exists s, tr. split; [exact rx_wf|]. split; [exact E|].
  split; [pattern s, tr; apply (run_elim _ _ _ _ E); vm_compute; reflexivity|].
  split; [|repeat split; pattern s, tr; apply (run_elim _ _ _ _ E); vm_compute; reflexivity].
  intros a HP HA. destruct a; try (exfalso; eapply HP; reflexivity); try (exfalso; eapply HA; reflexivity);
    pattern s, tr; apply (run_elim _ _ _ _ E); vm_compute; reflexivity.
Qed.
Print Assumptions C08_ex_trtb_drained.

Definition rc_c : trcfg := {| cir := 1024; cbs := 256; pk := None |}.
Definition rc_acts : list raction := [RInit; RPut (rx_p 0 256); RPut (rx_p 1 256); RStoreCb; RStoreCb; RGet; RGet; RAdvance 2].
Fact rc_wf : trwf rc_c.
Proof. split; [reflexivity|]. intros pir pbs H. discriminate H. Qed.

(* covers: C08_trtb_timer_enabled -- RWaitPeak (the red packet, due at 1) and RWaitCommit (no PIR, due now at 2) *)
Theorem C08_ex_trtb_timer_enabled :
  (exists s tr dl, trwf rx_c /\ tr_run true true rx_c (tr0 true rx_c 0) (firstn 10 rx_acts) = Some (s, tr) /\
     rphase_ s = RWaitPeak (rx_p 2 256) dl /\ dl == 1 /\ tr_held s = [rx_p 2 256] /\
     rnow s <= dl /\ (dl == rnow s -> exists s' o, tr_act true true rx_c s RTimer = Some (s', o))) /\
  (exists s tr dl, trwf rc_c /\ tr_run true true rc_c (tr0 true rc_c 0) rc_acts = Some (s, tr) /\
     rphase_ s = RWaitCommit (rx_p 1 256) dl /\ dl == 2 /\ tr_held s = [rx_p 1 256] /\ rnow s == 2 /\
     exists s' o, tr_act true true rc_c s RTimer = Some (s', o)).
Proof.
  split.
  - destruct (run_facts (tr_run true true rx_c (tr0 true rx_c 0) (firstn 10 rx_acts)) (fun _ _ => True)) as (s & tr & E & _); [vm_compute; exact I|].
    exists s, tr, 1. split; [exact rx_wf|]. split; [exact E|].
    apply conj_keep; [pattern s, tr; apply (run_elim _ _ _ _ E); vm_compute; reflexivity|intros Ph]. split; [reflexivity|].
    split; [pattern s, tr; apply (run_elim _ _ _ _ E); vm_compute; reflexivity|].
    exact (C08_trtb_timer_enabled rx_c 0 _ _ _ rx_wf E _ _ (or_introl Ph)).
  - destruct (run_facts (tr_run true true rc_c (tr0 true rc_c 0) rc_acts) (fun _ _ => True)) as (s & tr & E & _); [vm_compute; exact I|].
    exists s, tr, 2. split; [exact rc_wf|]. split; [exact E|].
    apply conj_keep; [pattern s, tr; apply (run_elim _ _ _ _ E); vm_compute; reflexivity|intros Ph]. split; [reflexivity|].
    split; [pattern s, tr; apply (run_elim _ _ _ _ E); vm_compute; reflexivity|].
    apply conj_keep; [pattern s, tr; apply (run_elim _ _ _ _ E); vm_compute; reflexivity|intros Nw].
    apply (proj2 (C08_trtb_timer_enabled rc_c 0 _ _ _ rc_wf E _ _ (or_intror Ph))). symmetry. exact Nw.
Qed.
Print Assumptions C08_ex_trtb_timer_enabled.
