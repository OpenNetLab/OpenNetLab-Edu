(* C02 -- NON-VACUITY of the statements of Props/C02.v and Props/C02_Bridge.v.

   Every theorem of these files that has hypotheses is listed above a witness below: a machine-checked statement that ALL
   its hypotheses hold simultaneously at concrete closed terms, followed by what its conclusion then says about them
   (obtained by applying the very lemma that closes the theorem in Props/C02.v, or by computation).  The concrete
   executions are those of Kernel/DeliverWitness.v, run on the real kernel model ([step], [run], [run_cb], [resume_loop]):
     scenario x  a shared event G0 (event 0) with two waiters -- A (process 0) catches what it gets, B (process 1) lets it
                 propagate --, T fails G0 with User1(7) and is refused a second trigger, a parent joins a child that
                 returns 0.  [xS n] = state after n steps; xS 5 -> xS 6 processes G0 (callbacks [CbResume 0; CbResume 1]);
                 [xmid] = the state between the two callbacks; the ninth step raises B's unhandled failure.
                 [xU]/[xR n]: the same under run(until = 5).
     scenario y  Late yields an event that is ALREADY processed (G0, succeeded with 11) and goes on at once; a condition
                 AllOf[G1] takes over (defuses) the failure of G1; G2 fails with only a probe listening: step() raises.
                 [yS n] = state after n steps.

   Unconditional theorems (only typing binders, no witness needed): C02_cnt_In, C02_feed_defuses; C02_gen_defused_set.
   Hypothesis-carrying theorems and the witness that covers each:
     C02_callbacks_exactly_once, C02_processed_during_loop, C02_normal_step_is_clean,
       C02_failure_never_lost (defused: step returns), C02_failure_leaves_clean_state      C02_ex_step_processing_G0
     C02_waiter_invariant_inside_loop, C02_resume_gets_outcome, C02_value_stable_in_loop,
       C02_delivered_is_triggered_outcome, C02_wellformed_inside_step                      C02_ex_between_two_callbacks
     C02_waiter_unique, C02_waiter_registered, C02_resumed_exactly_once, C02_not_resumed_by_other_events,
       C02_clean_states_wellformed, C02_clean_executions_are_executions                    C02_ex_two_waiters
     C02_processed_forever, C02_no_append_after_processing, C02_value_stable,
       C02_triggered_forever, C02_wellformed_always                                        C02_ex_later_states
     C02_creach_run, C02_failure_propagates_from_run, C02_run_returns_a_step_result        C02_ex_run_until
     C02_resume_turn, C02_process_event_outcome                                            C02_ex_resumption_that_raises
     C02_yield_pending_waits                                                               C02_ex_yield_pending_waits
     C02_yield_processed_continues                                                         C02_ex_yield_processed_continues
     C02_succeed_once, C02_fail_once; C02_gen_succeed, C02_gen_fail, C02_gen_defused_get   C02_ex_triggered_event
     C02_fail_non_exception, C02_first_trigger (and the C02_gen_* again, other branch)     C02_ex_pending_event
     C02_timeout_carries_value                                                             C02_ex_timeout_carries_value
     C02_cond_check_defuses                                                                C02_ex_cond_check_defuses
     C02_only_handlers_defuse                                                              C02_ex_only_handlers_defuse
     C02_undefused_without_handler, C02_failure_never_lost (undefused: step raises),
       C02_failure_leaves_clean_state                                                      C02_ex_unhandled_failure
     C02_gen_step                                                                          C02_ex_gen_step *)
From Coq Require Import ZArith QArith List Lia.
From ONL Require Import Base.Tools Kernel.Model Kernel.Script Kernel.Keys Kernel.Deliver Kernel.DeliverInv Kernel.DeliverWf Kernel.DeliverThm
  Kernel.DeliverVal Kernel.DeliverMore Kernel.DeliverExamples Kernel.DeliverWitness Gen.Extracted_kernel Kernel.LeafBridge.
Import ListNotations.
Local Open Scope nat_scope.

(* covers C02_callbacks_exactly_once (step = .., pop_min = .., get_event = .., cbs = ..), C02_processed_during_loop (cb_chain,
   the event processed at the start of the loop), C02_normal_step_is_clean (step = (s', ROk)), C02_failure_never_lost (later
   from init, the chain ran through, no stop callback) and C02_failure_leaves_clean_state (creach + chain): the step that
   processes the failed G0 with its two waiters *)
Theorem C02_ex_step_processing_G0 :
  creach xcodes (xS 5) /\ later xcodes (init_state 0) (xS 5) /\
  step 50 xcodes (xS 5) = (xS 6, ROk) /\ pop_min (agenda (xS 5)) = Some (xm, xrest) /\
  get_event (e_ev xm) (xS 5) = Some xevG0 /\ cbs xevG0 = Some [CbResume 0; CbResume 1] /\
  cb_chain 50 xcodes (e_ev xm) [CbResume 0; CbResume 1] (loop_start xm xrest (xS 5)) (xS 6) /\
  (forall c, In c [CbResume 0; CbResume 1] -> is_stop_cb c = false) /\
  get_event (e_ev xm) (loop_start xm xrest (xS 5)) = Some (ev_set_cbs None xevG0) /\ cbs (ev_set_cbs None xevG0) = None /\
  (* what the theorems say *)
  (forall s'', later xcodes (xS 6) s'' -> exists ev'', get_event (e_ev xm) s'' = Some ev'' /\ cbs ev'' = None) /\
  (exists ev', get_event (e_ev xm) (xS 6) = Some ev' /\ cbs ev' = None) /\
  step_clean 50 xcodes (xS 5) /\
  (exists ev', get_event (e_ev xm) (xS 6) = Some ev' /\
     match out ev' with
     | Some (Fail x) => if defused ev' then ROk = ROk else ROk = RRaise x
     | Some (Ok _) => ROk = ROk
     | None => False
     end) /\
  get_event 0 (xS 6) = Some (mkEvent None (Some (Fail xexn)) true KPlain) /\
  (fst (step 50 xcodes (xS 5)) = xS 6 /\ creach xcodes (xS 6)).
Proof.
  assert (C' : cbs (ev_set_cbs None xevG0) = None) by reflexivity.
  apply conj_keep; [exact xS5_creach|intros R]. apply conj_keep; [apply xS_later|intros L].
  apply conj_keep; [exact xS5_step|intros St]. apply conj_keep; [exact xS5_pop|intros P].
  apply conj_keep; [exact xS5_G0|intros G]. apply conj_keep; [reflexivity|intros C].
  apply conj_keep; [exact x_chain_AB|intros Ch]. apply conj_keep; [intros c [<-|[<-|[]]]; reflexivity|intros NS].
  apply conj_keep; [exact (loop_start_processed xm xrest (xS 5) xevG0 G)|intros G']. split; [exact C'|].
  split; [exact (proj2 (proj2 (callbacks_exactly_once _ _ _ _ _ _ _ _ _ St P G C)))|].
  split; [exact (cb_chain_processed _ _ _ _ _ _ _ Ch G' C')|].
  split; [exact (step_ok_clean _ _ _ _ St)|].
  split; [exact (failure_never_lost _ _ _ _ _ _ _ _ _ _ L St P G C Ch NS)|].
  split; [vm_compute; reflexivity|].
  exact (failure_leaves_clean_state _ _ _ _ _ _ _ _ R P G C Ch).
Qed.
Print Assumptions C02_ex_step_processing_G0.

(* covers C02_waiter_invariant_inside_loop, C02_resume_gets_outcome, C02_value_stable_in_loop,
   C02_delivered_is_triggered_outcome, C02_wellformed_inside_step (creach / later / uinv of the state before the step, the popped
   entry, the event and its list split as pre ++ CbResume p :: post, the chain over pre): after A's callback, before B's *)
Theorem C02_ex_between_two_callbacks :
  creach xcodes (xS 5) /\ later xcodes (init_state 0) (xS 5) /\ uinv (xS 5) /\
  pop_min (agenda (xS 5)) = Some (xm, xrest) /\ get_event (e_ev xm) (xS 5) = Some xevG0 /\
  cbs xevG0 = Some ([CbResume 0] ++ CbResume 1 :: []) /\
  cb_chain (S 49) xcodes (e_ev xm) [CbResume 0] (loop_start xm xrest (xS 5)) xmid /\
  stable_kind (kind xevG0) = true /\ out xevG0 = Some (Fail xexn) /\
  (* what the theorems say: B (process 1) is still registered, waits for G0, and is fed exactly Fail User1(7) at G0's time *)
  winv (Some (e_ev xm, [CbResume 1])) None xmid /\
  (exists pr, get_proc 1 xmid = Some pr /\ ptarget pr = Some (e_ev xm) /\ now xmid = e_time xm /\
     run_cb (S 49) xcodes (e_ev xm) (CbResume 1) xmid =
       after_frag 49 xcodes 1 pr
         (run_frag xcodes (resume (pcode pr) (pst pr) (Fail xexn))
            (feed_state (e_ev xm) (Fail xexn) (set_active (Some 1) xmid)))) /\
  (exists ev' o pr,
     get_event (e_ev xm) xmid = Some ev' /\ out ev' = Some o /\
     get_proc 1 xmid = Some pr /\ ptarget pr = Some (e_ev xm) /\
     run_cb (S 49) xcodes (e_ev xm) (CbResume 1) xmid =
       after_frag 49 xcodes 1 pr
         (run_frag xcodes (resume (pcode pr) (pst pr) o) (feed_state (e_ev xm) o (set_active (Some 1) xmid))) /\
     (forall x, o = Fail x ->
        exists ev1, get_event (e_ev xm) (feed_state (e_ev xm) o (set_active (Some 1) xmid)) = Some ev1 /\
                    defused ev1 = true /\ out ev1 = Some (Fail x))) /\
  (now xmid = e_time xm /\
   forall e ev o, get_event e (xS 5) = Some ev -> stable_kind (kind ev) = true -> out ev = Some o ->
                  exists ev', get_event e xmid = Some ev' /\ out ev' = Some o) /\
  uinv (set_active (Some 1) xmid) /\
  (* A has already received and caught the exception *)
  In (OLog (Some 0) 0 (VList [VInt 1; VInt 1; VList [VInt 1; VExn (EUser 1) [VInt 7]]])) (obs xmid).
Proof.
  apply conj_keep; [exact xS5_creach|intros R]. apply conj_keep; [apply xS_later|intros L].
  apply conj_keep; [exact (wellformed_always _ _ _ L)|intros U]. apply conj_keep; [exact xS5_pop|intros P].
  apply conj_keep; [exact xS5_G0|intros G]. apply conj_keep; [reflexivity|intros C].
  apply conj_keep; [exact x_chain_A|intros Ch]. apply conj_keep; [reflexivity|intros K].
  apply conj_keep; [reflexivity|intros O].
  split; [exact (waiter_invariant_inside_loop _ _ _ _ _ _ [CbResume 0] [CbResume 1] _ R G C Ch)|].
  split; [exact (delivered_is_triggered_outcome _ _ _ _ _ _ _ _ _ _ _ R P G C Ch K O)|].
  split; [exact (resume_gets_outcome _ _ _ _ _ _ _ _ _ _ R P G C Ch)|].
  split; [exact (value_stable_in_loop _ _ _ _ _ _ _ _ L P Ch)|].
  split; [exact (wellformed_inside_step _ _ _ _ _ _ _ 1 U P Ch)|].
  vm_compute. repeat ((left; reflexivity) || right).
Qed.
Print Assumptions C02_ex_between_two_callbacks.

(* covers C02_waiter_unique, C02_waiter_registered, C02_resumed_exactly_once, C02_not_resumed_by_other_events,
   C02_clean_states_wellformed, C02_clean_executions_are_executions (a clean state, a suspended process with its target, an
   event with a callback list, the entry popped next): in xS 5 A and B wait for G0 (event 0), the parent (process 3) waits for
   its child's Process event 9, and G0 is popped next *)
Theorem C02_ex_two_waiters :
  creach xcodes (xS 5) /\
  get_proc 0 (xS 5) = Some (getp 0 (xS 5)) /\ ptarget (getp 0 (xS 5)) = Some 0 /\
  get_proc 3 (xS 5) = Some (getp 3 (xS 5)) /\ ptarget (getp 3 (xS 5)) = Some 9 /\
  get_event 0 (xS 5) = Some xevG0 /\ cbs xevG0 = Some [CbResume 0; CbResume 1] /\ In (CbResume 1) [CbResume 0; CbResume 1] /\
  pop_min (agenda (xS 5)) = Some (xm, xrest) /\ get_event (e_ev xm) (xS 5) = Some xevG0 /\
  e_ev xm <> 9 /\ (forall c, In c [CbResume 0; CbResume 1] -> is_interrupt_cb c = false) /\
  (* what the theorems say *)
  (exists tev l, get_event 0 (xS 5) = Some tev /\ cbs tev = Some l /\ cnt 0 l = 1 /\
     forall x xev xl, x <> 0 -> get_event x (xS 5) = Some xev -> cbs xev = Some xl -> cnt 0 xl = 0) /\
  (exists pr, get_proc 1 (xS 5) = Some pr /\ ptarget pr = Some 0 /\ cnt 1 [CbResume 0; CbResume 1] = 1) /\
  cnt 0 [CbResume 0; CbResume 1] = (if Nat.eqb (e_ev xm) 0 then 1 else 0) /\
  cnt 3 [CbResume 0; CbResume 1] = (if Nat.eqb (e_ev xm) 9 then 1 else 0) /\
  get_proc 3 (fst (step 50 xcodes (xS 5))) = Some (getp 3 (xS 5)) /\
  (winv None None (xS 5) /\ uinv (xS 5)) /\
  (exists t0, later xcodes (init_state t0) (xS 5)).
Proof.
  apply conj_keep; [exact xS5_creach|intros R]. apply conj_keep; [apply getp_some; vm_compute; reflexivity|intros P0].
  apply conj_keep; [vm_compute; reflexivity|intros T0].
  apply conj_keep; [apply getp_some; vm_compute; reflexivity|intros P3].
  apply conj_keep; [vm_compute; reflexivity|intros T3]. apply conj_keep; [exact xS5_G0|intros G].
  apply conj_keep; [reflexivity|intros C]. apply conj_keep; [cbn; tauto|intros I].
  apply conj_keep; [exact xS5_pop|intros P]. apply conj_keep; [exact G|intros Gm].
  apply conj_keep; [discriminate|intros N]. apply conj_keep; [intros c [<-|[<-|[]]]; reflexivity|intros NI].
  split; [exact (waiter_unique _ _ _ _ _ R P0 T0)|].
  split; [exact (waiter_registered _ _ _ _ _ _ R G C I)|].
  split; [exact (resumed_exactly_once _ _ _ _ _ _ _ _ _ R P0 T0 P Gm C)|].
  split; [exact (resumed_exactly_once _ _ _ _ _ _ _ _ _ R P3 T3 P Gm C)|].
  split; [exact (not_resumed_by_other_events 50 _ _ _ _ _ _ _ _ _ R P3 T3 P Gm C N NI)|].
  split; [exact (clean_states_wellformed _ _ R)|exact (creach_later _ _ R)].
Qed.
Print Assumptions C02_ex_two_waiters.

(* covers C02_processed_forever, C02_no_append_after_processing, C02_value_stable, C02_triggered_forever,
   C02_wellformed_always (later ..; an event that is processed / triggered / of a stable kind with an outcome): G0 after its
   step, and the state in which a following run() stops (it raises B's unhandled failure) *)
Theorem C02_ex_later_states :
  later xcodes (init_state 0) (xS 6) /\ later xcodes (xS 6) (fst (run 50 xcodes UNone (xS 6))) /\
  get_event 0 (xS 6) = Some (mkEvent None (Some (Fail xexn)) true KPlain) /\
  cbs (mkEvent None (Some (Fail xexn)) true KPlain) = None /\
  out (mkEvent None (Some (Fail xexn)) true KPlain) <> None /\
  stable_kind (kind (mkEvent None (Some (Fail xexn)) true KPlain)) = true /\
  out (mkEvent None (Some (Fail xexn)) true KPlain) = Some (Fail xexn) /\
  snd (run 50 xcodes UNone (xS 6)) = RRaise xexn /\
  (* what the theorems say *)
  (exists ev', get_event 0 (fst (run 50 xcodes UNone (xS 6))) = Some ev' /\ cbs ev' = None) /\
  add_callback 0 (CbResume 2) (xS 6) = xS 6 /\
  (exists ev', get_event 0 (fst (run 50 xcodes UNone (xS 6))) = Some ev' /\ out ev' = Some (Fail xexn)) /\
  (exists ev', get_event 0 (fst (run 50 xcodes UNone (xS 6))) = Some ev' /\ out ev' <> None) /\
  uinv (fst (run 50 xcodes UNone (xS 6))).
Proof.
  apply conj_keep; [apply xS_later|intros L0]. apply conj_keep; [apply later_run, later_refl|intros L1].
  apply conj_keep; [vm_compute; reflexivity|intros G]. apply conj_keep; [reflexivity|intros C].
  apply conj_keep; [discriminate|intros N]. apply conj_keep; [reflexivity|intros K].
  apply conj_keep; [reflexivity|intros O]. split; [vm_compute; reflexivity|].
  split; [exact (processed_forever _ _ _ _ _ L1 G C)|].
  split; [exact (add_callback_processed _ _ _ _ G C)|].
  split; [exact (value_stable _ _ _ _ _ _ _ L0 L1 G K O)|].
  split; [exact (triggered_forever _ _ _ _ _ L1 G N)|].
  exact (wellformed_always _ _ _ (later_run _ _ _ 50 UNone L0)).
Qed.
Print Assumptions C02_ex_later_states.

(* covers C02_creach_run (creach s, run_clean), C02_failure_propagates_from_run (run_prelude = inr, ok_steps, a raising step),
   C02_run_returns_a_step_result (run_loop = ..): run(until = 5) from x0: eight normal steps, the ninth raises User1(7) *)
Theorem C02_ex_run_until :
  creach xcodes x0 /\ run_clean 50 xcodes (UNum 5) x0 /\
  run_prelude (UNum 5) x0 = inr xU /\ ok_steps 50 xcodes xU (xR 8) /\ step 50 xcodes (xR 8) = (xR 9, RRaise xexn) /\
  run_loop 50 50 xcodes (UNum 5) xU = (xR 9, RRaise xexn) /\
  (* what the theorems say *)
  creach xcodes (fst (run 50 xcodes (UNum 5) x0)) /\
  (exists k, forall n, k <= n -> run_loop n 50 xcodes (UNum 5) xU = (xR 9, RRaise xexn)) /\
  ((RRaise xexn = RFuel /\ ok_steps 50 xcodes xU (xR 9)) \/
   (exists sk rk, ok_steps 50 xcodes xU sk /\ step 50 xcodes sk = (xR 9, rk) /\ rk <> ROk /\
                  RRaise xexn = match rk with REmpty => run_empty (UNum 5) (xR 9) | _ => rk end)) /\
  run 50 xcodes (UNum 5) x0 = (xR 9, RRaise xexn) /\ (now (xR 9) == 0)%Q.
Proof.
  assert (A : all_ok 50 xcodes 8 xU = true) by (vm_compute; reflexivity).
  split; [exact x0_creach|]. split; [exact x_run_clean|]. apply conj_keep; [exact xU_prelude|intros P].
  apply conj_keep; [apply xR_ok_steps; vm_compute; reflexivity|intros O].
  apply conj_keep; [apply xR_step; vm_compute; reflexivity|intros St].
  apply conj_keep; [exact (xR_raises 8 41 (xR 9) xexn A St)|intros RL].
  split; [exact (creach_run _ _ _ _ x0_creach x_run_clean)|].
  split; [exact (failure_propagates_from_run _ _ _ _ _ _ _ _ P O St)|].
  split; [exact (run_loop_spec _ _ _ _ _ _ _ RL)|].
  split; [unfold run; rewrite P; exact RL|vm_compute; reflexivity].
Qed.
Print Assumptions C02_ex_run_until.

(* covers C02_resume_turn (get_event, get_proc, out) and C02_process_event_outcome (+ uinv s, the automaton's fragment ends):
   B resumed with the failure of G0 re-raises it; its Process event 3 gets exactly Fail User1(7), scheduled NORMAL behind
   everything else *)
Theorem C02_ex_resumption_that_raises :
  uinv xsB /\ get_event 0 xsB = Some (gete 0 xsB) /\ get_proc 1 xsB = Some xprB /\ out (gete 0 xsB) = Some (Fail xexn) /\
  run_frag xcodes (resume (pcode xprB) (pst xprB) (Fail xexn)) (feed_state 0 (Fail xexn) xsB) = (fst xfragB, FrRaise xexn) /\
  fres_outcome (@FrRaise (St (pcode xprB)) xexn) = Some (Fail xexn) /\
  (* what the theorems say *)
  resume_loop (S 49) xcodes 1 0 xsB =
    after_frag 49 xcodes 1 xprB
      (run_frag xcodes (resume (pcode xprB) (pst xprB) (Fail xexn)) (feed_state 0 (Fail xexn) xsB)) /\
  (exists pe,
     resume_loop (S 49) xcodes 1 0 xsB = (proc_finish 1 xprB (Fail xexn) (fst xfragB), ROk) /\
     get_event (pev xprB) (fst xfragB) = Some pe /\
     let s' := proc_finish 1 xprB (Fail xexn) (fst xfragB) in
     get_event (pev xprB) s' = Some (ev_set_out (Some (Fail xexn)) pe) /\
     agenda s' = agenda (fst xfragB) ++ [mkEntry (Qred (now (fst xfragB) + 0)%Q) NORMAL (next_eid (fst xfragB)) (pev xprB)] /\
     get_proc 1 s' = Some (proc_set_target None xprB) /\ active s' = None) /\
  pev xprB = 3 /\ agenda (proc_finish 1 xprB (Fail xexn) (fst xfragB)) = xrest ++ [mkEntry 0 NORMAL 8 1; mkEntry 0 NORMAL 9 3].
Proof.
  assert (U : uinv xsB).
  { unfold xsB. refine (wellformed_inside_step 50 xcodes (xS 5) xm xrest [CbResume 0] xmid 1 _ _ x_chain_A).
    - exact (wellformed_always _ _ _ (xS_later 5)).
    - exact xS5_pop. }
  split; [exact U|]. apply conj_keep; [apply gete_some; vm_compute; reflexivity|intros G].
  apply conj_keep; [apply getp_some; vm_compute; reflexivity|intros P].
  apply conj_keep; [vm_compute; reflexivity|intros O].
  apply conj_keep; [apply pair_of_snd; vm_compute; reflexivity|intros F]. apply conj_keep; [reflexivity|intros FO].
  split; [exact (resume_loop_eq 49 xcodes 1 0 xsB _ xprB _ G P O)|].
  split; [exact (process_event_outcome 49 xcodes 1 0 xsB _ xprB _ _ _ _ U G P O F FO)|].
  split; vm_compute; reflexivity.
Qed.
Print Assumptions C02_ex_resumption_that_raises.

(* covers C02_yield_pending_waits (get_event, get_proc, out, the fragment yields an event whose callbacks are a list): the
   Initialize of A: A yields the pending G0 and is appended to its (empty) callback list *)
Theorem C02_ex_yield_pending_waits :
  pop_min (agenda x0) = Some (xmI, xrestI) /\
  get_event 2 xsI = Some (gete 2 xsI) /\ get_proc 0 xsI = Some xprA /\ out (gete 2 xsI) = Some (Ok VNone) /\
  run_frag xcodes (resume (pcode xprA) (pst xprA) (Ok VNone)) (feed_state 2 (Ok VNone) xsI)
    = (fst xfragI, FrYield (VEv 0) xaI) /\
  get_event 0 (put_proc 0 (proc_set_st xprA xaI) (fst xfragI)) = Some (mkEvent (Some []) None false KPlain) /\
  cbs (mkEvent (Some []) None false KPlain) = Some [] /\
  (* what the theorem says *)
  resume_loop (S 49) xcodes 0 2 xsI = (proc_wait 0 0 (put_proc 0 (proc_set_st xprA xaI) (fst xfragI)), ROk) /\
  get_event 0 (proc_wait 0 0 (put_proc 0 (proc_set_st xprA xaI) (fst xfragI)))
    = Some (mkEvent (Some [CbResume 0]) None false KPlain).
Proof.
  assert (G' : get_event 0 (put_proc 0 (proc_set_st xprA xaI) (fst xfragI)) = Some (mkEvent (Some []) None false KPlain))
    by (vm_compute; reflexivity).
  assert (C' : cbs (mkEvent (Some []) None false KPlain) = Some []) by reflexivity.
  split; [vm_compute; reflexivity|]. apply conj_keep; [apply gete_some; vm_compute; reflexivity|intros G].
  apply conj_keep; [apply getp_some; vm_compute; reflexivity|intros P].
  apply conj_keep; [vm_compute; reflexivity|intros O].
  apply conj_keep; [apply pair_of_snd, yielded_eq; vm_compute; reflexivity|intros F].
  split; [exact G'|]. split; [exact C'|].
  split; [exact (resume_yield_pending 49 xcodes 0 2 xsI _ xprA _ _ 0 xaI _ _ G P O F G' C')|].
  vm_compute. reflexivity.
Qed.
Print Assumptions C02_ex_yield_pending_waits.

(* covers C02_yield_processed_continues (.., the fragment yields an event that is processed and has an outcome): Late, resumed
   by its timeout (event 9, value 4) at instant 1, yields G0 (event 0), processed at instant 0 with value 11: no callback is
   registered, the loop goes round and the automaton is fed Ok 11 in the same resumption *)
Theorem C02_ex_yield_processed_continues :
  pop_min (agenda (yS 7)) = Some (ymT, yrestT) /\
  get_event 9 ysT = Some (gete 9 ysT) /\ get_proc 0 ysT = Some yprL /\ out (gete 9 ysT) = Some (Ok (VInt 4)) /\
  run_frag ycodes (resume (pcode yprL) (pst yprL) (Ok (VInt 4))) (feed_state 9 (Ok (VInt 4)) ysT)
    = (fst yfragT, FrYield (VEv 0) yaT) /\
  get_event 0 (put_proc 0 (proc_set_st yprL yaT) (fst yfragT)) = Some (mkEvent None (Some (Ok (VInt 11))) false KPlain) /\
  cbs (mkEvent None (Some (Ok (VInt 11))) false KPlain) = None /\
  out (mkEvent None (Some (Ok (VInt 11))) false KPlain) = Some (Ok (VInt 11)) /\
  (* what the theorem says *)
  (let s3 := put_proc 0 (proc_set_st yprL yaT) (fst yfragT) in
   resume_loop (S (S 48)) ycodes 0 9 ysT = resume_loop (S 48) ycodes 0 0 s3 /\
   resume_loop (S 48) ycodes 0 0 s3 =
     after_frag 48 ycodes 0 (proc_set_st yprL yaT)
       (run_frag ycodes (resume (pcode yprL) yaT (Ok (VInt 11))) (feed_state 0 (Ok (VInt 11)) s3))) /\
  (* Late logged what it received from the two yields, both at instant 1 *)
  In (OLog (Some 0) 1 (VList [VInt 1; VInt 1; VList [VInt 0; VInt 4]])) (obs (yS 8)) /\
  In (OLog (Some 0) 1 (VList [VInt 1; VInt 2; VList [VInt 0; VInt 11]])) (obs (yS 8)).
Proof.
  assert (G' : get_event 0 (put_proc 0 (proc_set_st yprL yaT) (fst yfragT))
               = Some (mkEvent None (Some (Ok (VInt 11))) false KPlain)) by (vm_compute; reflexivity).
  assert (C' : cbs (mkEvent None (Some (Ok (VInt 11))) false KPlain) = None) by reflexivity.
  assert (O' : out (mkEvent None (Some (Ok (VInt 11))) false KPlain) = Some (Ok (VInt 11))) by reflexivity.
  split; [vm_compute; reflexivity|]. apply conj_keep; [apply gete_some; vm_compute; reflexivity|intros G].
  apply conj_keep; [apply getp_some; vm_compute; reflexivity|intros P].
  apply conj_keep; [vm_compute; reflexivity|intros O].
  apply conj_keep; [apply pair_of_snd, yielded_eq; vm_compute; reflexivity|intros F].
  split; [exact G'|]. split; [exact C'|]. split; [exact O'|].
  split; [exact (yield_processed_continues 48 ycodes 0 9 ysT _ yprL _ _ 0 yaT _ _ G P O F G' C' O')|].
  split; vm_compute; repeat ((left; reflexivity) || right).
Qed.
Print Assumptions C02_ex_yield_processed_continues.

(* covers C02_succeed_once, C02_fail_once (get_event e s = Some ev, out ev <> None) and, of Props/C02_Bridge.v, C02_gen_succeed,
   C02_gen_fail, C02_gen_defused_get (get_event e s = Some ev): G0 in xS 5, failed by T and not yet processed *)
Theorem C02_ex_triggered_event :
  get_event 0 (xS 5) = Some xevG0 /\ out xevG0 <> None /\
  call_succeed 0 (VInt 0) (xS 5) = (xS 5, Fail (kexn ERuntime M_already_triggered)) /\
  call_fail 0 (VExn (EUser 9) []) (xS 5) = (xS 5, Fail (kexn ERuntime M_already_triggered)) /\
  trigger_fx 0 (VInt 0) None None (xS 5) (gen_Event_succeed (is_triggered xevG0)) = Some (call_succeed 0 (VInt 0) (xS 5)) /\
  trigger_fx 0 (VInt 3) None None (xS 5) (gen_Event_fail (is_triggered xevG0) (LeafBridge.is_exn_val (VInt 3)))
    = Some (call_fail 0 (VInt 3) (xS 5)) /\
  (call_query QDefused 0 (xS 5) = (xS 5, Ok (vbool (snd (gen_Event_defused_get (defused xevG0))))) /\
   fst (gen_Event_defused_get (defused xevG0)) = []) /\
  (* T's own second trigger, inside the run, was refused in the same way: it logged the RuntimeError *)
  In (OLog (Some 2) 0 (VList [VInt 2; VExn ERuntime [VInt M_already_triggered]])) (obs (xS 5)).
Proof.
  apply conj_keep; [exact xS5_G0|intros G]. apply conj_keep; [discriminate|intros N].
  split; [exact (succeed_triggered _ _ _ _ G N)|]. split; [exact (fail_triggered _ _ _ _ G N)|].
  split; [exact (bridge_succeed _ _ _ _ G)|]. split; [exact (bridge_fail _ _ _ _ G)|].
  split; [exact (bridge_defused_get _ _ _ G)|].
  vm_compute. repeat ((left; reflexivity) || right).
Qed.
Print Assumptions C02_ex_triggered_event.

(* covers C02_fail_non_exception (get_event, out ev = None, not an exception), C02_first_trigger (get_event) and the other
   branch of C02_gen_succeed / C02_gen_fail: G0 in x0, still pending *)
Theorem C02_ex_pending_event :
  get_event 0 x0 = Some (mkEvent (Some []) None false KPlain) /\ out (mkEvent (Some []) None false KPlain) = None /\
  Deliver.is_exn_val (VInt 3) = false /\
  call_fail 0 (VInt 3) x0 = (x0, Fail (kexn EValue M_not_exception)) /\
  (let s' := trigger_event 0 (Fail xexn) x0 in
   get_event 0 s' = Some (ev_set_out (Some (Fail xexn)) (mkEvent (Some []) None false KPlain)) /\
   agenda s' = agenda x0 ++ [mkEntry (Qred (now x0 + 0)%Q) NORMAL (next_eid x0) 0] /\
   next_eid s' = S (next_eid x0) /\ now s' = now x0 /\ procs s' = procs x0 /\
   (forall x, x <> 0 -> get_event x s' = get_event x x0)) /\
  trigger_fx 0 (VInt 1) None None x0 (gen_Event_succeed (is_triggered (mkEvent (Some []) None false KPlain)))
    = Some (call_succeed 0 (VInt 1) x0) /\
  snd (call_succeed 0 (VInt 1) x0) = Ok (VEv 0) /\
  trigger_fx 0 (VExn (EUser 1) [VInt 7]) None None x0
    (gen_Event_fail (is_triggered (mkEvent (Some []) None false KPlain)) (LeafBridge.is_exn_val (VExn (EUser 1) [VInt 7])))
    = Some (call_fail 0 (VExn (EUser 1) [VInt 7]) x0) /\
  fst (call_fail 0 (VExn (EUser 1) [VInt 7]) x0) = trigger_event 0 (Fail xexn) x0.
Proof.
  apply conj_keep; [vm_compute; reflexivity|intros G]. apply conj_keep; [reflexivity|intros O].
  apply conj_keep; [reflexivity|intros X].
  split; [exact (fail_non_exception _ _ _ _ G O X)|].
  split; [exact (trigger_event_spec _ (Fail xexn) _ _ G)|].
  split; [exact (bridge_succeed _ _ _ _ G)|]. split; [vm_compute; reflexivity|].
  split; [exact (bridge_fail _ _ _ _ G)|]. rewrite (fail_pending 0 (EUser 1) [VInt 7] x0 _ G O). reflexivity.
Qed.
Print Assumptions C02_ex_pending_event.

(* covers C02_timeout_carries_value (neg_delay d = false): timeout(3/2, 42) created in xS 5 *)
Theorem C02_ex_timeout_carries_value :
  neg_delay (3 # 2) = false /\
  (let e := length (events (xS 5)) in
   exists s', call_timeout (3 # 2) (VInt 42) (xS 5) = (s', Ok (VEv e)) /\
     get_event e s' = Some (mkEvent (Some []) (Some (Ok (VInt 42))) false KTimeout) /\
     agenda s' = agenda (xS 5) ++ [mkEntry (Qred (now (xS 5) + (3 # 2))%Q) NORMAL (next_eid (xS 5)) e]) /\
  length (events (xS 5)) = 12 /\ Qred (now (xS 5) + (3 # 2))%Q = (3 # 2)%Q.
Proof.
  apply conj_keep; [reflexivity|intros H].
  split; [exact (timeout_carries_value _ (VInt 42) (xS 5) H)|]. split; vm_compute; reflexivity.
Qed.
Print Assumptions C02_ex_timeout_carries_value.

(* covers C02_cond_check_defuses (the check changes some `defused` mark): the step that processes G1 (event 1, failed with
   User2(3), callbacks [CbCheck 10]): the check of condition 10 takes the failure over and defuses G1 *)
Theorem C02_ex_cond_check_defuses :
  pop_min (agenda (yS 4)) = Some (ymG1, yrestG1) /\
  get_event 1 yLG1 = Some (mkEvent None (Some (Fail yexn2)) false KPlain) /\
  defused_at (cond_check 10 1 yLG1) 1 <> defused_at yLG1 1 /\
  defused_at yLG1 1 = Some false /\ defused_at (cond_check 10 1 yLG1) 1 = Some true /\
  (1 = 1 /\ exists cev oev fx cev',
     get_event 10 yLG1 = Some cev /\ out cev = None /\ get_event 1 yLG1 = Some oev /\ out oev = Some (Fail fx) /\
     get_event 10 (cond_check 10 1 yLG1) = Some cev' /\ out cev' = Some (Fail fx)) /\
  (* the waiting process then receives that exception from the condition and catches it *)
  In (OLog (Some 1) 0 (VList [VInt 1; VInt 3; VList [VInt 1; VExn (EUser 2) [VInt 3]]])) (obs (yS 6)).
Proof.
  split; [vm_compute; reflexivity|]. split; [vm_compute; reflexivity|]. apply conj_keep; [vm_compute; discriminate|intros D].
  split; [vm_compute; reflexivity|]. split; [vm_compute; reflexivity|].
  split; [exact (cond_check_defuses _ _ _ _ D)|]. vm_compute. repeat ((left; reflexivity) || right).
Qed.
Print Assumptions C02_ex_cond_check_defuses.

(* covers C02_only_handlers_defuse (is_handler c = false): the probe on G2, called for the failed, undefused G2 *)
Theorem C02_ex_only_handlers_defuse :
  is_handler (CbProbe 1) = false /\
  (forall x, defused_at (fst (run_cb 50 ycodes 2 (CbProbe 1) yLG2)) x = defused_at yLG2 x) /\
  defused_at yLG2 2 = Some false /\ fst (run_cb 50 ycodes 2 (CbProbe 1) yLG2) = yS 11.
Proof.
  apply conj_keep; [reflexivity|intros H]. split; [exact (only_handlers_defuse 50 ycodes 2 (CbProbe 1) yLG2 H)|].
  split; [vm_compute; reflexivity|].
  rewrite (yS_S 10), (step_loop_fst 50 ycodes (yS 10) ymG2 yrestG2 yevG2 [CbProbe 1] yS10_pop yS10_G2 eq_refl).
  unfold yLG2.
  destruct (run_callbacks_fst_cases 50 ycodes (e_ev ymG2) (CbProbe 1) [] (loop_start ymG2 yrestG2 (yS 10))) as [E|E];
    rewrite E; reflexivity.
Qed.
Print Assumptions C02_ex_only_handlers_defuse.

(* covers C02_undefused_without_handler (all hypotheses), C02_failure_never_lost (raising case) and
   C02_failure_leaves_clean_state: G2 (event 2) failed with User3(9) by Trig at instant 2, only a probe among its callbacks:
   step() raises exactly User3(9) at instant 2, and the state it leaves is clean *)
Theorem C02_ex_unhandled_failure :
  creach ycodes (yS 10) /\ later ycodes (init_state 0) (yS 10) /\
  step 50 ycodes (yS 10) = (yS 11, RRaise yexn3) /\ pop_min (agenda (yS 10)) = Some (ymG2, yrestG2) /\
  get_event (e_ev ymG2) (yS 10) = Some yevG2 /\ cbs yevG2 = Some [CbProbe 1] /\
  out yevG2 = Some (Fail yexn3) /\ defused yevG2 = false /\ stable_kind (kind yevG2) = true /\
  (forall c, In c [CbProbe 1] -> is_handler c = false) /\ (forall c, In c [CbProbe 1] -> is_stop_cb c = false) /\
  cb_chain 50 ycodes (e_ev ymG2) [CbProbe 1] (loop_start ymG2 yrestG2 (yS 10)) (yS 11) /\
  (* what the theorems say *)
  (RRaise yexn3 = RRaise yexn3 /\ now (yS 11) = e_time ymG2) /\ e_time ymG2 = 2%Q /\
  (exists ev', get_event (e_ev ymG2) (yS 11) = Some ev' /\
     match out ev' with
     | Some (Fail x) => if defused ev' then RRaise yexn3 = ROk else RRaise yexn3 = RRaise x
     | Some (Ok _) => RRaise yexn3 = ROk
     | None => False
     end) /\
  (fst (step 50 ycodes (yS 10)) = yS 11 /\ creach ycodes (yS 11)) /\
  In (OProbe 1 2 2 (Some (Fail yexn3))) (obs (yS 11)).
Proof.
  apply conj_keep; [apply yS_creach; vm_compute; reflexivity|intros R]. apply conj_keep; [apply yS_later|intros L].
  apply conj_keep; [apply yS_step; vm_compute; reflexivity|intros St]. apply conj_keep; [exact yS10_pop|intros P].
  apply conj_keep; [exact yS10_G2|intros G]. apply conj_keep; [reflexivity|intros C].
  apply conj_keep; [reflexivity|intros O]. apply conj_keep; [reflexivity|intros D].
  apply conj_keep; [reflexivity|intros K]. apply conj_keep; [intros c [<-|[]]; reflexivity|intros NH].
  apply conj_keep; [intros c [<-|[]]; reflexivity|intros NS]. apply conj_keep; [exact y_chain_G2|intros Ch].
  split; [exact (undefused_without_handler _ _ _ _ _ _ _ _ _ _ _ L St P G C O D K NH Ch)|]. split; [reflexivity|].
  split; [exact (failure_never_lost _ _ _ _ _ _ _ _ _ _ L St P G C Ch NS)|].
  split; [exact (failure_leaves_clean_state _ _ _ _ _ _ _ _ R P G C Ch)|].
  vm_compute. repeat ((left; reflexivity) || right).
Qed.
Print Assumptions C02_ex_unhandled_failure.

(* covers C02_gen_step of Props/C02_Bridge.v (snd (step fuel codes s) <> RBroken): the raising step above, and the
   step that processes G0 with its two waiters, through the body of Environment.step translated from the tree under test *)
Theorem C02_ex_gen_step :
  snd (step 50 ycodes (yS 10)) <> RBroken /\ snd (step 50 ycodes (yS 10)) = RRaise yexn3 /\
  step_fx 50 ycodes (yS 10) (step_gen 50 ycodes (yS 10)) = Some (step 50 ycodes (yS 10)) /\
  snd (step 50 xcodes (xS 5)) <> RBroken /\
  step_fx 50 xcodes (xS 5) (step_gen 50 xcodes (xS 5)) = Some (step 50 xcodes (xS 5)).
Proof.
  assert (H2 : snd (step 50 xcodes (xS 5)) <> RBroken) by (vm_compute; discriminate).
  apply conj_keep; [vm_compute; discriminate|intros H1]. split; [vm_compute; reflexivity|].
  split; [exact (bridge_step _ _ _ H1)|].
  split; [exact H2|exact (bridge_step _ _ _ H2)].
Qed.
Print Assumptions C02_ex_gen_step.
