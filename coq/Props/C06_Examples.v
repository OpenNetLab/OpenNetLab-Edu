(* C06 -- NON-VACUITY of the theorems of Props/C06.v (and Props/C06_Bridge.v).

   An implication whose hypotheses no reachable state satisfies says nothing: every theorem below instantiates ALL hypotheses of one or several
   theorems of Props/C06.v at closed terms -- histories of five processes on a PreemptiveResource / PriorityResource /
   Resource of capacity 2 with waiting, an eviction, a release, a stale release -- proves them together, and adds the
   concrete content of the instantiated conclusion (who holds, who waits, who is granted, who is evicted), obtained by
   running the model and, where a conclusion is a Prop, by applying the very lemma that closes the theorem.

   The history (C06_ex_hist, kind KPreempt, capacity 2, t0 = 0):
       t=0  p0 requests (prio 5)             -> request 0 granted
            p1 requests (prio 3)             -> request 1 granted          (resource full)
            p2 requests (prio 4)             -> request 2 waits
            p3 requests (prio 1, preempt)    -> request 3 goes to the head of the queue, evicts request 0 (key (5,0,True) >
                                                (1,0,False)): p0 gets Interrupt(Preempted(by=p3, usage_since=0)), 3 is granted
            p4 requests (prio 4)             -> request 4 waits behind request 2 (equal key: arrival order)
            the kernel processes the grant events of 0, 1, 3
       t=2  somebody releases request 1      -> Release event 5 triggered, slot free, 2 and 4 still wait  (C06_ex_freed)
            the kernel processes Release 5   -> rescan: request 2 (the head) is granted at t=2, request 4 still waits

   Coverage (hypothesis-carrying theorems of Props/C06.v -> witness):
     C06_users_le_capacity, C06_queue_sorted, C06_users_have_usage_since      -> C06_ex_reachable
     C06_grant_is_head, C06_no_overtaking                                     -> C06_ex_grant_head_no_overtaking
     C06_free_slot_has_release                                                -> C06_ex_free_slot_has_release
     C06_no_idle_slot_at_advance                                              -> C06_ex_no_idle_slot_at_advance
     C06_release_idempotent, C06_release_twice                                -> C06_ex_release_stale_and_twice
     C06_preempt_call                                                         -> C06_ex_preempt_call
     C06_victim_is_worst_ranked                                               -> C06_ex_victim_is_worst_ranked
     C06_preempt_request                                                      -> C06_ex_preempt_request
     C06_evictions_strict                                                     -> C06_ex_evictions_strict
     C06_only_preemptive_evicts                                               -> C06_ex_only_preemptive_evicts
   Unconditional (no hypotheses, nothing to witness): C06_rank_meaning (an equivalence for all k, x, y);
     C06_gen_resource_do_put, C06_gen_resource_do_get, C06_gen_preemptive_do_put (Props/C06_Bridge.v: equations for
     all capacities, states and requests). *)
From Coq Require Import ZArith List Bool Sorted Lia.
From ONL Require Import Base.Tools Res.Resource Res.ResourceProofs.
Import ListNotations.

(* a request object: id, process, priority, preempt flag, usage_since; all are created at t = 0 *)
Definition C06_rq (i p : nat) (prio : Z) (pre : bool) (since : option Z) : req := mkReq i p prio 0%Z pre since.

(* up to the end of instant 0: users = requests 1, 3; queue = requests 2, 4; nothing pending *)
Definition C06_ex_hist0 : list action :=
  [ ARequest 0 5%Z false; ARequest 1 3%Z false; ARequest 2 4%Z false; ARequest 3 1%Z true; ARequest 4 4%Z false;
    AProcess (EReq 0); AProcess (EReq 1); AProcess (EReq 3) ].
(* t = 2 *)
Definition C06_ex_hist2 : list action := C06_ex_hist0 ++ [AAdvance 2%Z].
(* request 1 released, its Release event (id 5) not yet processed *)
Definition C06_ex_freed : list action := C06_ex_hist2 ++ [ARelease 1].
(* Release 5 processed: request 2 granted *)
Definition C06_ex_hist : list action := C06_ex_freed ++ [AProcess (ERel 5)].

(* the states these histories lead to, written out *)
Definition C06_ex_evict03 : intr := mkIntr (C06_rq 0 0 5%Z false (Some 0%Z)) (C06_rq 3 3 1%Z true None) true.
Definition C06_ex_s0 : state :=
  mkState [C06_rq 1 1 3%Z false (Some 0%Z); C06_rq 3 3 1%Z true (Some 0%Z)]
          [C06_rq 2 2 4%Z false None; C06_rq 4 4 4%Z false None]
          [] [] [0; 1; 3] [C06_ex_evict03] [] 5 0%Z.
Definition C06_ex_s2 : state :=
  mkState (users C06_ex_s0) (queue C06_ex_s0) [] [] [0; 1; 3] [C06_ex_evict03] [] 5 2%Z.
Definition C06_ex_sfreed : state :=
  mkState [C06_rq 3 3 1%Z true (Some 0%Z)]
          [C06_rq 2 2 4%Z false None; C06_rq 4 4 4%Z false None]
          [] [ERel 5] [0; 1; 3] [C06_ex_evict03] [] 6 2%Z.
Definition C06_ex_send : state :=
  mkState [C06_rq 3 3 1%Z true (Some 0%Z); C06_rq 2 2 4%Z false (Some 2%Z)]
          [C06_rq 4 4 4%Z false None]
          [] [EReq 2] [0; 1; 3; 2] [C06_ex_evict03] [] 6 2%Z.

(* ---- hypotheses `1 <= cap`, `run k cap (init t0) acts = Some s` [, `In u (users s)`] ------------------------------
   covers C06_users_le_capacity, C06_queue_sorted, C06_users_have_usage_since.
   The history is admissible and leads to C06_ex_send; there the resource is full (2 users on capacity 2), the queue
   is sorted, and user request 2 -- granted by the rescan at t = 2 -- carries usage_since = 2 <= now.  The same holds
   in the intermediate state C06_ex_s0 where TWO requests wait, in rank order 2 before 4. *)
Definition C06_cap_ok : 1 <= 2 := le_S 1 1 (le_n 1).

Theorem C06_ex_reachable :
  1 <= 2
  /\ run KPreempt 2 (init 0%Z) C06_ex_hist = Some C06_ex_send
  /\ In (C06_rq 2 2 4%Z false (Some 2%Z)) (users C06_ex_send)
  /\ run KPreempt 2 (init 0%Z) C06_ex_hist0 = Some C06_ex_s0
  (* what the three theorems then say *)
  /\ length (users C06_ex_send) <= 2 /\ length (users C06_ex_send) = 2
  /\ StronglySorted (fun x y => rank_ltb KPreempt x y = true) (queue C06_ex_s0)
  /\ map rid (queue C06_ex_s0) = [2; 4]
  /\ (exists t, rsince (C06_rq 2 2 4%Z false (Some 2%Z)) = Some t /\ (t <= now C06_ex_send)%Z).
Proof.
  split; [exact C06_cap_ok|]. apply conj_keep; [vm_compute; reflexivity|intros Hr].
  apply conj_keep; [right; left; reflexivity|intros Hin]. apply conj_keep; [vm_compute; reflexivity|intros Hr0].
  split; [exact (users_le_capacity _ _ _ _ _ C06_cap_ok Hr)|]. split; [reflexivity|].
  split; [exact (queue_sorted _ _ _ _ _ C06_cap_ok Hr0)|]. split; [reflexivity|].
  exact (users_have_usage_since _ _ _ _ _ _ C06_cap_ok Hr Hin).
Qed.
Print Assumptions C06_ex_reachable.

(* ---- hypotheses `1 <= cap`, `run … = Some s`, `adm s a = true` [, `step k cap s a = Some s'`, `In x (qscan k s a)`,
        `In (rid x) (granted s')`, `In y (queue s')`] ------------------------------------------------------------------
   covers C06_grant_is_head, C06_no_overtaking.
   s = C06_ex_sfreed (one slot free, requests 2 and 4 waiting, Release 5 pending), a = the kernel processes Release 5.
   The scan starts on the queue [2; 4]; it grants exactly the prefix [2]; 4 stays; and the granted request 2 ranks
   before the waiting request 4. *)
Theorem C06_ex_grant_head_no_overtaking :
  let a := AProcess (ERel 5) in
  let x := C06_rq 2 2 4%Z false None in
  let y := C06_rq 4 4 4%Z false None in
  1 <= 2
  /\ run KPreempt 2 (init 0%Z) C06_ex_freed = Some C06_ex_sfreed
  /\ adm C06_ex_sfreed a = true
  /\ step KPreempt 2 C06_ex_sfreed a = Some C06_ex_send
  /\ In x (qscan KPreempt C06_ex_sfreed a) /\ In (rid x) (granted C06_ex_send) /\ In y (queue C06_ex_send)
  (* conclusions, concretely *)
  /\ qscan KPreempt C06_ex_sfreed a = [x] ++ queue C06_ex_send
  /\ granted C06_ex_send = granted C06_ex_sfreed ++ map rid [x]
  /\ rank_ltb KPreempt x y = true.
Proof.
  intros a x y.
  split; [exact C06_cap_ok|]. apply conj_keep; [vm_compute; reflexivity|intros Hr]. apply conj_keep; [reflexivity|intros Ha].
  apply conj_keep; [vm_compute; reflexivity|intros Hs].
  apply conj_keep; [left; reflexivity|intros Hx]. apply conj_keep; [vm_compute; tauto|intros Hg].
  apply conj_keep; [left; reflexivity|intros Hy].
  split; [reflexivity|]. split; [reflexivity|].
  exact (no_overtaking _ _ _ _ _ _ _ C06_cap_ok Hr Ha Hs x y Hx Hg Hy).
Qed.
Print Assumptions C06_ex_grant_head_no_overtaking.

(* ---- hypotheses `1 <= cap`, `run … = Some s`, `length (users s) < cap`, `queue s <> []` ------------------------------
   covers C06_free_slot_has_release.
   C06_ex_sfreed: one user on capacity 2 while two requests wait -- and indeed Release 5 is triggered and unprocessed. *)
Theorem C06_ex_free_slot_has_release :
  1 <= 2
  /\ run KPreempt 2 (init 0%Z) C06_ex_freed = Some C06_ex_sfreed
  /\ length (users C06_ex_sfreed) < 2
  /\ queue C06_ex_sfreed <> []
  /\ In (ERel 5) (pending C06_ex_sfreed).
Proof.
  split; [exact C06_cap_ok|]. split; [vm_compute; reflexivity|]. split; [vm_compute; lia|].
  split; [discriminate|]. left; reflexivity.
Qed.
Print Assumptions C06_ex_free_slot_has_release.

(* ---- hypotheses `1 <= cap`, `run … = Some s`, `adm s (AAdvance t) = true`, `queue s <> []` ----------------------------
   covers C06_no_idle_slot_at_advance.
   C06_ex_s0 (end of instant 0): every event processed, so the clock may move to 2; requests 2 and 4 wait; both slots
   are taken. *)
Theorem C06_ex_no_idle_slot_at_advance :
  1 <= 2
  /\ run KPreempt 2 (init 0%Z) C06_ex_hist0 = Some C06_ex_s0
  /\ adm C06_ex_s0 (AAdvance 2%Z) = true
  /\ queue C06_ex_s0 <> []
  /\ length (users C06_ex_s0) = 2.
Proof.
  split; [exact C06_cap_ok|]. apply conj_keep; [vm_compute; reflexivity|intros Hr]. apply conj_keep; [reflexivity|intros Ha].
  apply conj_keep; [discriminate|intros Hq].
  exact (no_idle_slot_at_advance _ _ _ _ _ _ C06_cap_ok Hr Ha Hq).
Qed.
Print Assumptions C06_ex_no_idle_slot_at_advance.

(* ---- hypotheses `1 <= cap`, `run … = Some s`, `~ In r (map rid (users s))` / `step k cap s (ARelease r) = Some s1` ----
   covers C06_release_idempotent, C06_release_twice.
   In C06_ex_s2 (t = 2, users 1 and 3): request 0 was evicted, so releasing it is a stale release -- users and queue
   stay, one Release event is triggered.  Releasing request 1 (a user) gives C06_ex_sfreed; releasing it AGAIN there
   changes nothing but triggers Release 6. *)
Theorem C06_ex_release_stale_and_twice :
  1 <= 2
  /\ run KPreempt 2 (init 0%Z) C06_ex_hist2 = Some C06_ex_s2
  /\ ~ In 0 (map rid (users C06_ex_s2))
  /\ step KPreempt 2 C06_ex_s2 (ARelease 1) = Some C06_ex_sfreed
  (* conclusions, concretely *)
  /\ step KPreempt 2 C06_ex_s2 (ARelease 0) =
       Some (mkState (users C06_ex_s2) (queue C06_ex_s2) [] [ERel 5] [0; 1; 3] [C06_ex_evict03] [] 6 2%Z)
  /\ step KPreempt 2 C06_ex_sfreed (ARelease 1) =
       Some (mkState (users C06_ex_sfreed) (queue C06_ex_sfreed) [] [ERel 5; ERel 6] [0; 1; 3] [C06_ex_evict03] [] 7 2%Z).
Proof.
  split; [exact C06_cap_ok|]. apply conj_keep; [vm_compute; reflexivity|intros Hr].
  apply conj_keep; [vm_compute; intros [H|[H|[]]]; discriminate|intros Hn].
  apply conj_keep; [vm_compute; reflexivity|intros Hs].
  split.
  - rewrite (release_idempotent _ _ _ _ _ 0 C06_cap_ok Hr Hn). reflexivity.
  - rewrite (release_twice _ _ _ _ _ 1 _ C06_cap_ok Hr Hs). reflexivity.
Qed.
Print Assumptions C06_ex_release_stale_and_twice.

(* ---- hypotheses of C06_preempt_call: `1 <= cap`, `length (users s) <= cap`, `NoDup (map rid (users s))`,
        `forall p, act = Some p -> forall u, In u (users s) -> rproc u <> p` ------------------------------------------------
   The state in which the history's fourth request is examined by PreemptiveResource._do_put: users 0 (prio 5) and 1
   (prio 3) on capacity 2, request 2 waiting; e = request 3 (prio 1, preempt) made by the active process p3.  The
   resource is full, so the second branch applies: the victim is w = request 0 (l1 = [], l2 = [request 1]), e preempts
   and its key is strictly smaller, so request 0 is evicted and notified, request 3 gets the slot. *)
Definition C06_ex_sfull : state :=
  mkState [C06_rq 0 0 5%Z false (Some 0%Z); C06_rq 1 1 3%Z false (Some 0%Z)]
          [C06_rq 3 3 1%Z true None; C06_rq 2 2 4%Z false None]
          [] [EReq 0; EReq 1] [0; 1] [] [] 4 0%Z.

Theorem C06_ex_preempt_call :
  let s := C06_ex_sfull in
  let e := C06_rq 3 3 1%Z true None in
  let w := C06_rq 0 0 5%Z false (Some 0%Z) in
  1 <= 2
  /\ length (users s) <= 2
  /\ NoDup (map rid (users s))
  /\ (forall p, Some 3 = Some p -> forall u, In u (users s) -> rproc u <> p)
  (* the branch taken and its content *)
  /\ (length (users s) <? 2) = false
  /\ users s = [] ++ w :: [C06_rq 1 1 3%Z false (Some 0%Z)]
  /\ rpre e && key_ltb (rkey e) (rkey w) = true
  /\ do_put KPreempt 2 (Some 3) s e =
       Some (mkState [C06_rq 1 1 3%Z false (Some 0%Z); C06_rq 3 3 1%Z true (Some 0%Z)] (queue s) []
                     [EReq 0; EReq 1; EReq 3] [0; 1; 3] [mkIntr w e true] [] 4 0%Z, true, true).
Proof.
  intros s e w.
  split; [exact C06_cap_ok|]. split; [vm_compute; lia|].
  split; [vm_compute; repeat constructor; simpl; intuition discriminate|].
  split; [intros p Hp u [Hu|[Hu|[]]]; injection Hp as <-; subst u; discriminate|].
  repeat split.
Qed.
Print Assumptions C06_ex_preempt_call.

(* ---- hypotheses `1 <= cap`, `run KPreempt … = Some s`, `worst (users s) = Some w`, `In u (users s)` ------------------
   covers C06_victim_is_worst_ranked.
   After the first three requests (users 0 and 1): sorted(users, key)[-1] is request 0 (prio 5), and the other user,
   request 1 (prio 3), ranks strictly before it. *)
Theorem C06_ex_victim_is_worst_ranked :
  let w := C06_rq 0 0 5%Z false (Some 0%Z) in
  let u := C06_rq 1 1 3%Z false (Some 0%Z) in
  exists s,
  1 <= 2
  /\ run KPreempt 2 (init 0%Z) (firstn 3 C06_ex_hist0) = Some s
  /\ worst (users s) = Some w
  /\ In u (users s)
  /\ u <> w /\ rank_ltb KPreempt u w = true.
Proof.
  intros w u. eexists. split; [exact C06_cap_ok|]. split; [vm_compute; reflexivity|].
  split; [reflexivity|]. split; [right; left; reflexivity|]. split; [discriminate|reflexivity].
Qed.
Print Assumptions C06_ex_victim_is_worst_ranked.

(* ---- hypotheses `1 <= cap`, `run KPreempt … = Some s`, `adm s (ARequest p prio pre) = true`, `queue s = []` ----------
   covers C06_preempt_request.
   Capacity 2, requests 0 (prio 5) and 1 (prio 3) granted and their grant events processed, clock at 1, nobody
   waiting.  Process 2 then requests with prio 1 and preempt=True: the resource is full, so request 0 (the worst) is
   evicted, Preempted(by=p2, usage_since=0) goes to p0, and request 2 holds the slot since t = 1.  The same request
   WITHOUT preempt merely queues. *)
Definition C06_ex_hist_pr : list action :=
  [ ARequest 0 5%Z false; ARequest 1 3%Z false; AProcess (EReq 0); AProcess (EReq 1); AAdvance 1%Z ].
Definition C06_ex_spr : state :=
  mkState [C06_rq 0 0 5%Z false (Some 0%Z); C06_rq 1 1 3%Z false (Some 0%Z)] [] [] [] [0; 1] [] [] 2 1%Z.

Theorem C06_ex_preempt_request :
  let e := mkReq 2 2 1%Z 1%Z true None in
  let w := C06_rq 0 0 5%Z false (Some 0%Z) in
  1 <= 2
  /\ run KPreempt 2 (init 0%Z) C06_ex_hist_pr = Some C06_ex_spr
  /\ adm C06_ex_spr (ARequest 2 1%Z true) = true
  /\ queue C06_ex_spr = []
  (* the branch taken and its content *)
  /\ (length (users C06_ex_spr) <? 2) = false
  /\ new_req C06_ex_spr 2 1%Z true = e
  /\ true && key_ltb (rkey e) (rkey w) = true
  /\ step KPreempt 2 C06_ex_spr (ARequest 2 1%Z true) =
       Some (mkState [C06_rq 1 1 3%Z false (Some 0%Z); mkReq 2 2 1%Z 1%Z true (Some 1%Z)] [] [] [EReq 2] [0; 1; 2]
                     [mkIntr w e true] [] 3 1%Z)
  /\ adm C06_ex_spr (ARequest 2 1%Z false) = true
  /\ step KPreempt 2 C06_ex_spr (ARequest 2 1%Z false) =
       Some (mkState (users C06_ex_spr) [mkReq 2 2 1%Z 1%Z false None] [] [] [0; 1] [] [] 3 1%Z).
Proof.
  intros e w. split; [exact C06_cap_ok|]. split; [vm_compute; reflexivity|]. repeat split.
Qed.
Print Assumptions C06_ex_preempt_request.

(* ---- hypotheses `1 <= cap`, `run … = Some s`, `In i (intrs s)` ------------------------------------------------------
   covers C06_evictions_strict.
   The full history contains the eviction of request 0 (key (5,0,True)) by request 3 (key (1,0,False), preempt). *)
Theorem C06_ex_evictions_strict :
  1 <= 2
  /\ run KPreempt 2 (init 0%Z) C06_ex_hist = Some C06_ex_send
  /\ In C06_ex_evict03 (intrs C06_ex_send)
  /\ key_ltb (rkey (iby C06_ex_evict03)) (rkey (ivictim C06_ex_evict03)) = true /\ rpre (iby C06_ex_evict03) = true
  /\ intr_fields C06_ex_evict03 = (0, 3, Some 0%Z).
Proof.
  split; [exact C06_cap_ok|]. apply conj_keep; [vm_compute; reflexivity|intros Hr].
  apply conj_keep; [left; reflexivity|intros Hi].
  destruct (evictions_strict _ _ _ _ _ _ C06_cap_ok Hr Hi) as [H1 H2].
  split; [exact H1|]. split; [exact H2|reflexivity].
Qed.
Print Assumptions C06_ex_evictions_strict.

(* ---- hypotheses `1 <= cap`, `k <> KPreempt`, `run … = Some s` ---------------------------------------------------------
   covers C06_only_preemptive_evicts (and once more C06_users_le_capacity / C06_queue_sorted for the other two kinds).
   The same five requests on a PriorityResource: request 3 (prio 1, preempt flag ignored) goes to the head of the
   queue but evicts nobody; after request 1 is released at t = 2 it is request 3 that is granted.  On a plain Resource
   the queue is in arrival order and request 2 is granted. *)
Definition C06_ex_hist_np : list action :=
  [ ARequest 0 5%Z false; ARequest 1 3%Z false; ARequest 2 4%Z false; ARequest 3 1%Z true; ARequest 4 4%Z false;
    AProcess (EReq 0); AProcess (EReq 1); AAdvance 2%Z; ARelease 1; AProcess (ERel 5) ].

Theorem C06_ex_only_preemptive_evicts :
  exists sp sr,
  1 <= 2
  /\ KPrio <> KPreempt /\ KRes <> KPreempt
  /\ run KPrio 2 (init 0%Z) C06_ex_hist_np = Some sp
  /\ run KRes 2 (init 0%Z) C06_ex_hist_np = Some sr
  /\ intrs sp = [] /\ intrs sr = []
  /\ map rid (users sp) = [0; 3] /\ map rid (queue sp) = [2; 4]
  /\ map rid (users sr) = [0; 2] /\ map rid (queue sr) = [3; 4].
Proof.
  eexists. eexists. split; [exact C06_cap_ok|]. split; [discriminate|]. split; [discriminate|].
  split; [vm_compute; reflexivity|]. split; [vm_compute; reflexivity|]. repeat split.
Qed.
Print Assumptions C06_ex_only_preemptive_evicts.
