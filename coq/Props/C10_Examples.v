(* C10 -- NON-VACUITY of the theorems of Props/C10.v (and Props/C10_BridgeRun.v).

   Every theorem below instantiates ALL hypotheses of one or several
   theorems of Props/C10.v at closed terms -- a lossy wire execution with a burst, a loss, a later packet with a shorter
   delay and a packet still propagating; a loss-free one with a zero delay; a cable with traffic in both directions --
   proves them together, and states the concrete content of the instantiated conclusions (delivery instants, who is
   lost, what the recurrence gives), obtained by running the model and by applying the lemmas that close the
   theorems (of C10_wire_never_late the deadline and the refusal conclusions; the admitted Advance is evaluated).

   Lossy execution C10_ex_acts (loss rate 1/4, t0 = 0):
     t=0  p0 arrives, draws (u 1/2, delay 2): propagates until 2
     t=1  p1, p2, p3 arrive and wait
     t=2  p0 delivered; p1 (u 1/2, delay 1/2: due at 3/2, but behind p0) delivered at 2; p2 (u 0 < 1/4) LOST at 2;
          p3 (u 3/4, delay 3) dequeued at 2 -- the loss delayed nobody -- and propagates until 1 + 3 = 4
     t=3  p4 arrives and waits
     t=4  p3 delivered; p4 (u 1, delay 1/2: due at 7/2, a SHORTER delay than p3's) delivered at 4, not before p3
     t=5  p5 arrives at the idle wire, draws (u 1/2, delay 1): propagating until 6 when the execution stops

   Coverage (hypothesis-carrying theorems of Props/C10.v -> witness):
     C10_wire_spec, C10_wire_fifo, C10_wire_delivery_instants_sorted, C10_wire_loss_iff   -> C10_ex_wire_run
     C10_wire_delivery_time                                                               -> C10_ex_wire_delivery_time
     C10_wire_lost_never_delivered, C10_wire_lost_delays_nobody                           -> C10_ex_wire_lost
     C10_wire_no_loss_exactly_once                                                        -> C10_ex_wire_no_loss
     C10_wire_never_late                                                                  -> C10_ex_wire_never_late
     C10_cable_independent, C10_cable_outputs_go_across                                   -> C10_ex_cable_run
     C10_cable_independent_frame, C10_cable_commute                                       -> C10_ex_cable_steps
   Props/C10_BridgeRun.v (Wire.run as translated from the tree under test):
     C10_gen_wire_run_init, C10_gen_wire_run_get, C10_gen_wire_run_get_draws              -> C10_ex_gen_wire_run
   Unconditional (nothing to witness): C10_cable_wiring (a conjunction of equations);
     C10_gen_wire_put (Props/C10_Bridge.v: for all loss rates, states and packets);
     C10_gen_wire_run_timer, C10_gen_wire_run_get_explicit, C10_gen_wire_run_timer_explicit, C10_gen_wire_run_wire_waits
     (Props/C10_BridgeRun.v: equations and an equivalence for all states and draws). *)
From Coq Require Import ZArith QArith Qminmax List Bool Sorted Lia.
From ONL Require Import Base.Tools Elem.Packet Elem.StoreQ Elem.Wire Elem.WireProofs Elem.Cable Elem.CableProofs.
From ONL Require Import Gen.Extracted_wire_run Elem.WireRunBridge.
Import ListNotations.

Definition C10_pk (i : nat) : pkt := mkp i (Z.of_nat i + 1) (Z.of_nat (i mod 2)) 1000 0.

Definition C10_ex_loss : option Q := Some (1 # 4).
Definition C10_ex_acts : list waction :=
  [ WInit; WPut (C10_pk 0); WStoreCb; WGet (Some (1 # 2)) (Some 2);
    WAdvance 1; WPut (C10_pk 1); WPut (C10_pk 2); WPut (C10_pk 3); WStoreCb; WStoreCb; WStoreCb;
    WAdvance 2; WTimer; WGet (Some (1 # 2)) (Some (1 # 2)); WGet (Some 0) None; WGet (Some (3 # 4)) (Some 3);
    WAdvance 3; WPut (C10_pk 4); WStoreCb;
    WAdvance 4; WTimer; WGet (Some 1) (Some (1 # 2));
    WAdvance 5; WPut (C10_pk 5); WStoreCb; WGet (Some (1 # 2)) (Some 1) ].

(* state, trace and recurrence outcomes of an execution from wire0 0 (the theorems below prove wire_run … = Some (state,
   trace) and wire_rec … = Some outcomes, so the defaults are never used) *)
Definition C10_st (loss : option Q) (acts : list waction) : wire :=
  match wire_run loss (wire0 0) acts with Some (w, _) => w | None => wire0 0 end.
Definition C10_tr (loss : option Q) (acts : list waction) : list tev :=
  match wire_run loss (wire0 0) acts with Some (_, tr) => tr | None => [] end.
Definition C10_rec (loss : option Q) (acts : list waction) : list outcome :=
  match wire_rec loss 0 (arrivals (C10_tr loss acts)) (draws (C10_tr loss acts)) with Some R => R | None => [] end.
(* readable forms: (instant, uid) *)
Definition C10_show (l : list (Q * pkt)) : list (Q * nat) := map (fun x => (Qred (fst x), uid (snd x))) l.
Definition C10_show_fate (f : fate) : option Q := match f with Lost => None | Deliv T => Some (Qred T) end.

(* ---- hypotheses `wire_run loss (wire0 t0) acts = Some (w, tr)`, `wire_rec loss t0 (arrivals tr) (draws tr) = Some R` ----
   covers C10_wire_spec (branch `hold w = Some …`: p5 is still propagating, its stored deadline 6 is its T),
   C10_wire_fifo, C10_wire_delivery_instants_sorted, C10_wire_loss_iff. *)
Theorem C10_ex_wire_run :
  let w := C10_st C10_ex_loss C10_ex_acts in
  let tr := C10_tr C10_ex_loss C10_ex_acts in
  let R := C10_rec C10_ex_loss C10_ex_acts in
  wire_run C10_ex_loss (wire0 0) C10_ex_acts = Some (w, tr)
  /\ wire_rec C10_ex_loss 0 (arrivals tr) (draws tr) = Some R
  (* what the execution looks like *)
  /\ C10_show (arrivals tr) = [(0, 0%nat); (1, 1%nat); (1, 2%nat); (1, 3%nat); (3, 4%nat); (5, 5%nat)]
  /\ C10_show (tdeliv tr) = [(2, 0%nat); (2, 1%nat); (4, 3%nat); (4, 4%nat)]
  /\ C10_show (tlost tr) = [(2, 2%nat)]
  /\ map Qred (tgets tr) = [0; 2; 2; 2; 4; 5]
  /\ map (fun o => (Qred (o_start o), C10_show_fate (o_fate o))) R
     = [(0, Some 2); (2, Some 2); (2, None); (2, Some 4); (4, Some 4); (5, Some 6)]
  /\ hold w = Some (C10_pk 5, 5 + (1 - (5 - 5)))
  (* C10_wire_spec *)
  /\ (exists R0, wire_rec C10_ex_loss 0 (arrivals tr) (draws tr) = Some R0
        /\ arrivals tr = map o_ap R0 ++ sq_held (wq w)
        /\ Forall2 Qeq (tgets tr) (map o_start R0)
        /\ tp_equiv (tlost tr) (exp_lost R0)
        /\ exists R' o T, R0 = R' ++ [o] /\ o_pkt o = C10_pk 5 /\ o_fate o = Deliv T /\ T == 5 + (1 - (5 - 5)) /\
                          tp_equiv (tdeliv tr) (exp_deliv R'))
  (* C10_wire_fifo, C10_wire_delivery_instants_sorted *)
  /\ subseq (map snd (tdeliv tr)) (map snd (arrivals tr))
  /\ StronglySorted (fun x y : Q * pkt => fst x <= fst y) (tdeliv tr)
  (* C10_wire_loss_iff, at the lost packet (index 2, draw 0 < 1/4) and at a kept one (index 3, draw 3/4) *)
  /\ tp_equiv (tlost tr) (exp_lost R)
  /\ (forall i o, nth_error R i = Some o ->
        exists u d, nth_error (draws tr) i = Some (u, d) /\
          (o_fate o = Lost <-> exists r x, C10_ex_loss = Some r /\ ~ r == 0 /\ u = Some x /\ x < r))
  /\ nth_error (draws tr) 2 = Some (Some 0, None) /\ nth_error (draws tr) 3 = Some (Some (3 # 4), Some 3).
Proof.
  intros w tr R.
  apply conj_keep; [vm_compute; reflexivity|intros Hr].
  apply conj_keep; [vm_compute; reflexivity|intros HR].
  split; [vm_compute; reflexivity|]. split; [vm_compute; reflexivity|]. split; [vm_compute; reflexivity|].
  split; [vm_compute; reflexivity|]. split; [vm_compute; reflexivity|].
  apply conj_keep; [vm_compute; reflexivity|intros Hh].
  split.
  { destruct (wire_spec C10_ex_loss 0 C10_ex_acts w tr Hr) as (R0 & H1 & H2 & H3 & H4 & H5).
    exists R0. unfold deliveries_match in H5. rewrite Hh in H5. repeat (split; [assumption|]). exact H5. }
  split; [exact (wire_fifo C10_ex_loss 0 C10_ex_acts w tr Hr)|].
  split; [exact (wire_delivery_instants_sorted C10_ex_loss 0 C10_ex_acts w tr Hr)|].
  destruct (wire_loss_iff C10_ex_loss 0 C10_ex_acts w tr Hr R HR) as [L1 L2].
  split; [exact L1|]. split; [exact L2|]. split; vm_compute; reflexivity.
Qed.
Print Assumptions C10_ex_wire_run.

(* ---- hypotheses … and `nth_error (tdeliv tr) k = Some (t, p)` ----------------------------------------------------------
   covers C10_wire_delivery_time, at delivery k = 1: p1 at t = 2.  It is arrival i = 1 (a = 1) with delay 1/2: a + dd = 3/2
   <= 2, and 2 = max(3/2, completion of p0 = 2): held back by the packet in front, never longer.  And at k = 3: p4
   (a = 3, delay 1/2) at t = 4 = max(7/2, completion of p3 = 4). *)
Theorem C10_ex_wire_delivery_time :
  let w := C10_st C10_ex_loss C10_ex_acts in
  let tr := C10_tr C10_ex_loss C10_ex_acts in
  let R := C10_rec C10_ex_loss C10_ex_acts in
  wire_run C10_ex_loss (wire0 0) C10_ex_acts = Some (w, tr)
  /\ wire_rec C10_ex_loss 0 (arrivals tr) (draws tr) = Some R
  /\ nth_error (tdeliv tr) 1 = Some (2, C10_pk 1)
  /\ nth_error (tdeliv tr) 3 = Some (4, C10_pk 4)
  (* conclusion at k = 1, and its content *)
  /\ (exists i a u dd,
        nth_error (arrivals tr) i = Some (a, C10_pk 1) /\ nth_error (draws tr) i = Some (u, Some dd) /\
        a + dd <= 2 /\ (0 <= dd -> 2 == Qmax (a + dd) (last_fin 0 (firstn i R))) /\
        2 == deliver_at (Qmax a (last_fin 0 (firstn i R))) a dd)
  /\ nth_error (arrivals tr) 1 = Some (1, C10_pk 1) /\ nth_error (draws tr) 1 = Some (Some (1 # 2), Some (1 # 2))
  /\ last_fin 0 (firstn 1 R) == 2 /\ 2 == Qmax (1 + (1 # 2)) (last_fin 0 (firstn 1 R))
  (* content at k = 3 *)
  /\ nth_error (arrivals tr) 4 = Some (3, C10_pk 4) /\ nth_error (draws tr) 4 = Some (Some 1, Some (1 # 2))
  /\ last_fin 0 (firstn 4 R) == 4 /\ 4 == Qmax (3 + (1 # 2)) (last_fin 0 (firstn 4 R)).
Proof.
  intros w tr R.
  apply conj_keep; [vm_compute; reflexivity|intros Hr].
  apply conj_keep; [vm_compute; reflexivity|intros HR].
  apply conj_keep; [vm_compute; reflexivity|intros Hk].
  split; [vm_compute; reflexivity|].
  split; [exact (wire_delivery_time C10_ex_loss 0 C10_ex_acts w tr Hr R HR 1%nat 2 (C10_pk 1) Hk)|].
  repeat split; vm_compute; reflexivity.
Qed.
Print Assumptions C10_ex_wire_delivery_time.

(* ---- hypotheses … `NoDup (map uid (map snd (arrivals tr)))`, `In (t, p) (tlost tr)`; `nth_error R i = Some o`,
        `o_fate o = Lost`, `nth_error R (S i) = Some o'` ----------------------------------------------------------------
   covers C10_wire_lost_never_delivered, C10_wire_lost_delays_nobody: p2 (index 2) is lost at 2; p3 (index 3, arrived
   at 1) is dequeued at max(1, 2) = 2, the very instant p2 was dequeued. *)
Theorem C10_ex_wire_lost :
  let w := C10_st C10_ex_loss C10_ex_acts in
  let tr := C10_tr C10_ex_loss C10_ex_acts in
  let R := C10_rec C10_ex_loss C10_ex_acts in
  let o := {| o_pkt := C10_pk 2; o_arr := 1; o_start := Qmax 1 2; o_fate := Lost |} in
  let o' := {| o_pkt := C10_pk 3; o_arr := 1; o_start := Qmax 1 (Qmax 1 2);
               o_fate := Deliv (deliver_at (Qmax 1 (Qmax 1 2)) 1 3) |} in
  wire_run C10_ex_loss (wire0 0) C10_ex_acts = Some (w, tr)
  /\ wire_rec C10_ex_loss 0 (arrivals tr) (draws tr) = Some R
  /\ NoDup (map uid (map snd (arrivals tr)))
  /\ In (2, C10_pk 2) (tlost tr)
  /\ nth_error R 2 = Some o /\ o_fate o = Lost /\ nth_error R 3 = Some o'
  (* conclusions *)
  /\ ~ In (C10_pk 2) (map snd (tdeliv tr)) /\ ~ In (C10_pk 2) (wheld w)
  /\ o_start o' = Qmax (o_arr o') (o_start o)
  /\ (exists ti ti', nth_error (tgets tr) 2 = Some ti /\ nth_error (tgets tr) 3 = Some ti' /\
                     ti == o_start o /\ ti' == Qmax (o_arr o') ti)
  /\ nth_error (tgets tr) 2 = Some 2 /\ nth_error (tgets tr) 3 = Some 2.
Proof.
  intros w tr R o o'.
  apply conj_keep; [vm_compute; reflexivity|intros Hr].
  apply conj_keep; [vm_compute; reflexivity|intros HR].
  apply conj_keep; [vm_compute; repeat constructor; simpl; intuition discriminate|intros Hn].
  apply conj_keep; [vm_compute; left; reflexivity|intros Hl].
  apply conj_keep; [vm_compute; reflexivity|intros H2].
  split; [reflexivity|].
  apply conj_keep; [vm_compute; reflexivity|intros H3].
  destruct (wire_lost_never_delivered C10_ex_loss 0 C10_ex_acts w tr Hr Hn 2 (C10_pk 2) Hl) as [N1 N2].
  split; [exact N1|]. split; [exact N2|].
  destruct (wire_lost_delays_nobody C10_ex_loss 0 C10_ex_acts w tr Hr R HR 2%nat o o' H2 eq_refl H3) as [S1 S2].
  split; [exact S1|]. split; [exact S2|]. split; vm_compute; reflexivity.
Qed.
Print Assumptions C10_ex_wire_lost.

(* ---- hypotheses `loss = None \/ exists r, loss = Some r /\ r == 0`, `wire_run … = Some (w, tr)` ---------------------------
   covers C10_wire_no_loss_exactly_once, for loss_rate None and for loss_rate 0 (the same execution is admissible for
   both: no uniform draw is made).  p0, p1 arrive at 0; p0 (delay 3) delivered at 3, p1 (delay 1) right behind it at 3;
   p2 arrives at 4 with delay 0 and is delivered at 4; p3 arrives at 4 (delay 2) and is still inside at the end. *)
Definition C10_ex_acts_nl : list waction :=
  [ WInit; WPut (C10_pk 0); WPut (C10_pk 1); WStoreCb; WStoreCb; WGet None (Some 3);
    WAdvance 3; WTimer; WGet None (Some 1);
    WAdvance 4; WPut (C10_pk 2); WStoreCb; WGet None (Some 0); WPut (C10_pk 3); WStoreCb; WGet None (Some 2) ].

Theorem C10_ex_wire_no_loss :
  let w := C10_st None C10_ex_acts_nl in
  let tr := C10_tr None C10_ex_acts_nl in
  ((None : option Q) = None \/ exists r : Q, None = Some r /\ r == 0)
  /\ wire_run None (wire0 0) C10_ex_acts_nl = Some (w, tr)
  /\ (Some 0 = None \/ exists r : Q, Some 0 = Some r /\ r == 0)
  /\ wire_run (Some 0) (wire0 0) C10_ex_acts_nl = Some (w, tr)
  (* conclusions *)
  /\ tlost tr = [] /\ map snd (arrivals tr) = map snd (tdeliv tr) ++ wheld w
  /\ C10_show (arrivals tr) = [(0, 0%nat); (0, 1%nat); (4, 2%nat); (4, 3%nat)]
  /\ C10_show (tdeliv tr) = [(3, 0%nat); (3, 1%nat); (4, 2%nat)]
  /\ wheld w = [C10_pk 3].
Proof.
  intros w tr.
  apply conj_keep; [left; reflexivity|intros H0].
  apply conj_keep; [vm_compute; reflexivity|intros Hr].
  split; [right; exists 0; split; reflexivity|]. split; [vm_compute; reflexivity|].
  destruct (wire_no_loss_exactly_once None 0 C10_ex_acts_nl w tr H0 Hr) as [E1 E2].
  split; [exact E1|]. split; [exact E2|]. repeat split; vm_compute; reflexivity.
Qed.
Print Assumptions C10_ex_wire_no_loss.

(* ---- hypothesis `exists acts tr, wire_run loss (wire0 t0) acts = Some (w, tr)` ---------------------------------------------
   covers C10_wire_never_late.  The end state of the lossy execution: now = 5, p5 propagating until 6.  The clock may
   move to 6 but not to 7. *)
Theorem C10_ex_wire_never_late :
  let w := C10_st C10_ex_loss C10_ex_acts in
  (exists acts tr, wire_run C10_ex_loss (wire0 0) acts = Some (w, tr))
  /\ hold w = Some (C10_pk 5, 5 + (1 - (5 - 5))) /\ wnow w = 5
  /\ wnow w <= 5 + (1 - (5 - 5))
  /\ (exists w', wire_act C10_ex_loss w (WAdvance 6) = Some (w', []))
  /\ wire_act C10_ex_loss w (WAdvance 7) = None.
Proof.
  intros w.
  apply conj_keep; [exists C10_ex_acts, (C10_tr C10_ex_loss C10_ex_acts); vm_compute; reflexivity|intros Hre].
  apply conj_keep; [vm_compute; reflexivity|intros Hh].
  destruct (wire_never_late C10_ex_loss 0 w Hre) as (N1 & _ & N3).
  split; [vm_compute; reflexivity|].
  split; [exact (N1 _ _ Hh)|].
  split; [eexists; vm_compute; reflexivity|].
  apply (N3 (C10_pk 5) (5 + (1 - (5 - 5))) 7 Hh). vm_compute; reflexivity.
Qed.
Print Assumptions C10_ex_wire_never_late.

(* ================================================================================================================ *)
(* A cable (no loss) with traffic in both directions at once: a0, a1 travel dev1 -> dev2 (direction D1), b0 travels
   dev2 -> dev1 (direction D2).  b0 (delay 1) is handed to dev1 at 1; a0 (delay 2) to dev2 at 2, a1 (delay 1/2, queued
   behind a0) to dev2 at 2. *)
Definition C10_ex_cacts : list caction :=
  [ CA D1 WInit; CA D2 WInit; CA D1 (WPut (C10_pk 0)); CA D2 (WPut (C10_pk 10)); CA D1 (WPut (C10_pk 1));
    CA D1 WStoreCb; CA D2 WStoreCb; CA D1 WStoreCb;
    CA D1 (WGet None (Some 2)); CA D2 (WGet None (Some 1));
    CAdvance 1; CA D2 WTimer; CAdvance 2; CA D1 WTimer; CA D1 (WGet None (Some (1 # 2))) ].
Definition C10_cst (acts : list caction) : cable :=
  match cable_run None (cable0 0) acts with Some (c, _) => c | None => cable0 0 end.
Definition C10_ctr (acts : list caction) : list ctev :=
  match cable_run None (cable0 0) acts with Some (_, tr) => tr | None => [] end.

(* ---- hypothesis `cable_run loss c acts = Some (c', tr)`: covers C10_cable_independent, C10_cable_outputs_go_across ---- *)
Theorem C10_ex_cable_run :
  let c' := C10_cst C10_ex_cacts in
  let tr := C10_ctr C10_ex_cacts in
  cable_run None (cable0 0) C10_ex_cacts = Some (c', tr)
  (* each direction, seen alone, is an admissible execution of one wire ... *)
  /\ wire_run None (cget (cable0 0) D1) (proj_acts D1 C10_ex_cacts) = Some (cget c' D1, proj_tr D1 tr)
  /\ wire_run None (cget (cable0 0) D2) (proj_acts D2 C10_ex_cacts) = Some (cget c' D2, proj_tr D2 tr)
  /\ length (proj_acts D1 C10_ex_cacts) = 10%nat /\ length (proj_acts D2 C10_ex_cacts) = 7%nat
  (* ... delivering only its own packets, at its own instants, to the device at the far end *)
  /\ C10_show (tdeliv (proj_tr D1 tr)) = [(2, 0%nat); (2, 1%nat)]
  /\ C10_show (tdeliv (proj_tr D2 tr)) = [(1, 10%nat)]
  /\ flat_map (fun e : ctev => map fst (snd e)) tr = [Dev1; Dev2; Dev2]
  /\ Forall (fun e : ctev => match e with
                             | (_, CA d _, outs) => Forall (fun o : cout => fst o = dir_dest d) outs
                             | (_, CAdvance _, outs) => outs = []
                             end) tr.
Proof.
  intros c' tr.
  apply conj_keep; [vm_compute; reflexivity|intros Hr].
  split; [exact (cable_projection None D1 _ _ _ _ Hr)|]. split; [exact (cable_projection None D2 _ _ _ _ Hr)|].
  split; [reflexivity|]. split; [reflexivity|].
  split; [vm_compute; reflexivity|]. split; [vm_compute; reflexivity|]. split; [vm_compute; reflexivity|].
  exact (cable_outputs_go_across None _ _ _ _ Hr).
Qed.
Print Assumptions C10_ex_cable_run.

(* ---- hypotheses `cable_act loss c (CA d a) = Some (c', outs)`;
        `cable_act loss c (CA D1 a) = Some (c1, o1)`, `cable_act loss c1 (CA D2 b) = Some (c2, o2)` ------------------------------
   covers C10_cable_independent_frame (the timeout of direction D2 at t = 1 hands b0 to dev1 and leaves direction D1,
   where a0 is propagating and a1 waits, untouched) and C10_cable_commute (at t = 0 the two servers resume with their
   packets and draw their delays, D1 first or D2 first: same result). *)
Theorem C10_ex_cable_steps :
  let c := C10_cst (firstn 11 C10_ex_cacts) in
  let c' := C10_cst (firstn 12 C10_ex_cacts) in
  let k := C10_cst (firstn 8 C10_ex_cacts) in
  let k1 := C10_cst (firstn 9 C10_ex_cacts) in
  let k2 := C10_cst (firstn 10 C10_ex_cacts) in
  cable_act None c (CA D2 WTimer) = Some (c', [(Dev1, ODeliver (C10_pk 10))])
  /\ cable_act None k (CA D1 (WGet None (Some 2))) = Some (k1, [])
  /\ cable_act None k1 (CA D2 (WGet None (Some 1))) = Some (k2, [])
  (* frame *)
  /\ cget c' (other D2) = cget c (other D2)
  /\ Forall (fun o : cout => fst o = dir_dest D2) [(Dev1, ODeliver (C10_pk 10))]
  /\ wire_act None (cget c D2) WTimer = Some (cget c' D2, map snd [(Dev1, ODeliver (C10_pk 10))])
  /\ wheld (cget c D1) = [C10_pk 0; C10_pk 1]
  (* commute *)
  /\ (exists k1', cable_act None k (CA D2 (WGet None (Some 1))) = Some (k1', []) /\
                  cable_act None k1' (CA D1 (WGet None (Some 2))) = Some (k2, []))
  /\ hold (cw1 k2) = Some (C10_pk 0, 0 + (2 - (0 - 0))) /\ hold (cw2 k2) = Some (C10_pk 10, 0 + (1 - (0 - 0))).
Proof.
  intros c c' k k1 k2.
  apply conj_keep; [vm_compute; reflexivity|intros Ha].
  apply conj_keep; [vm_compute; reflexivity|intros H1].
  apply conj_keep; [vm_compute; reflexivity|intros H2].
  destruct (cable_frame None c D2 WTimer c' _ Ha) as (F1 & F2 & F3).
  split; [exact F1|]. split; [exact F2|]. split; [exact F3|]. split; [vm_compute; reflexivity|].
  split; [exact (cable_commute None k _ _ k1 [] k2 [] H1 H2)|].
  split; vm_compute; reflexivity.
Qed.
Print Assumptions C10_ex_cable_steps.

(* ================================================================================================================ *)
(* Props/C10_BridgeRun.v.
   ---- hypotheses `hold w = None`; `sq_take (wq w) = Some ((a0, p), q)`, `started w = true`;
        `wire_act loss w (WGet uo do) = Some r` ----------------------------------------------------------------------------
   covers C10_gen_wire_run_init (w = wire0 0), C10_gen_wire_run_get and C10_gen_wire_run_get_draws: in the lossy execution
   above, at t = 2, the state in which the server resumes with p3 (filed at 1; draws u = 3/4 >= 1/4: kept, delay 3: the
   translated code consumes both draws and asks for a timeout of 3 - (2 - 1) = 2) and, one step earlier, with p2 (u = 0 <
   1/4: lost, only the uniform draw is consumed). *)
Definition C10_rest (w : wire) : sq pkt := match sq_take (wq w) with Some (_, q) => q | None => wq w end.

Theorem C10_ex_gen_wire_run :
  let w := C10_st C10_ex_loss (firstn 15 C10_ex_acts) in
  let w2 := C10_st C10_ex_loss (firstn 14 C10_ex_acts) in
  let g := wire_gen_get C10_ex_loss w 1 false (3 # 4) 3 in
  let g2 := wire_gen_get C10_ex_loss w2 1 false 0 0 in
  hold (wire0 0) = None
  /\ hold w = None /\ sq_take (wq w) = Some ((1, C10_pk 3), C10_rest w) /\ started w = true
  /\ wire_act C10_ex_loss w (WGet (Some (3 # 4)) (Some 3)) = Some (C10_st C10_ex_loss (firstn 16 C10_ex_acts), [])
  /\ hold w2 = None /\ sq_take (wq w2) = Some ((1, C10_pk 2), C10_rest w2) /\ started w2 = true
  /\ wire_act C10_ex_loss w2 (WGet (Some 0) None) = Some (w, [OLost (C10_pk 2)])
  (* conclusions *)
  /\ wire_act C10_ex_loss (wire0 0) WInit
     = wire_run_step (set_started (wire0 0)) None 0 (wire_gen_init C10_ex_loss (wire0 0) 0 false true 0 0)
  /\ wire_act C10_ex_loss (wire0 0) WInit <> None
  /\ g = ([FxUniform; FxDelayDist], NxYield (RqTimeout (3 - (2 - 1))) PP2)
  /\ wire_act C10_ex_loss w (WGet (consumed is_uniform (fst g) (3 # 4)) (consumed is_delay (fst g) 3))
     = wire_run_step (with_q w (C10_rest w)) (Some (C10_pk 3)) (3 - (wnow w - 1)) g
  /\ (Some (3 # 4) = consumed is_uniform (fst g) (3 # 4) /\ Some 3 = consumed is_delay (fst g) 3)
  /\ g2 = ([FxUniform], NxYield RqStoreGet PP1)
  /\ (Some 0 = consumed is_uniform (fst g2) 0 /\ None = consumed is_delay (fst g2) 0).
Proof.
  intros w w2 g g2.
  apply conj_keep; [reflexivity|intros H0].
  apply conj_keep; [vm_compute; reflexivity|intros Hh].
  apply conj_keep; [vm_compute; reflexivity|intros Ht].
  apply conj_keep; [vm_compute; reflexivity|intros Hs].
  apply conj_keep; [vm_compute; reflexivity|intros Ha].
  apply conj_keep; [vm_compute; reflexivity|intros Hh2].
  apply conj_keep; [vm_compute; reflexivity|intros Ht2].
  apply conj_keep; [vm_compute; reflexivity|intros Hs2].
  apply conj_keep; [vm_compute; reflexivity|intros Ha2].
  split; [exact (bridge_wire_run_init C10_ex_loss (wire0 0) 0 false true 0 0 H0)|].
  split; [vm_compute; discriminate|].
  split; [vm_compute; reflexivity|].
  split; [exact (bridge_wire_run_get C10_ex_loss w 1 (C10_pk 3) (C10_rest w) false (3 # 4) 3 Hh Ht Hs)|].
  split; [exact (bridge_wire_run_get_draws C10_ex_loss w 1 (C10_pk 3) (C10_rest w) false (Some (3 # 4)) (Some 3) _ Hh Ht Hs Ha)|].
  split; [vm_compute; reflexivity|].
  exact (bridge_wire_run_get_draws C10_ex_loss w2 1 (C10_pk 2) (C10_rest w2) false (Some 0) None _ Hh2 Ht2 Hs2 Ha2).
Qed.
Print Assumptions C10_ex_gen_wire_run.
