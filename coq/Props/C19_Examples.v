(* C19 -- NON-VACUITY of the theorems of Props/C19.v (and Props/C19_Bridge.v, Props/C19_BridgeRun.v).

   "Beside each theorem prove an Example that a concrete non-trivial state meets its hypotheses; an implication no
   reachable state satisfies means nothing."  Every theorem below instantiates ALL hypotheses of one or several
   theorems of Props/C19.v at closed terms -- histories of one-shot and auto-restart timers with expiries, a restart at
   the very expiry instant, restarts and a stop from the callback, restarts while Initialize is still pending, calls on
   an expired timer -- proves them together, and states the concrete content of the instantiated conclusions (the
   instants and arguments of the callback invocations), obtained by running the model and by applying the very lemmas
   that close the theorems.

   Coverage (hypothesis-carrying theorems of Props/C19.v -> witness):
     C19_fires_at_expiry                        -> C19_ex_fires_at_expiry  (both disjuncts)
     C19_expired_one_shot_never_refires         -> C19_ex_expired_one_shot_never_refires
     C19_auto_restart_period                    -> C19_ex_auto_restart_period
     C19_stop_is_final                          -> C19_ex_stop_is_final  (stop by a foreign process; stop from the callback)
     C19_restart_rebases                        -> C19_ex_restart_rebases  (restart at the expiry instant, Timeout not yet processed)
     C19_restart_rebases_from_callback,
       C19_fires_only_at_expire_time            -> C19_ex_restart_from_callback
     C19_no_double_fire, C19_timer_never_raises,
       C19_single_live_process                  -> C19_ex_any_history
     C19_gen_timer_restart (Props/C19_Bridge.v) -> C19_ex_gen_timer_restart
   Already witnesses (existential statements): C19_raises_before_fix_scalar_args,
     C19_raises_before_fix_restart_from_callback, C19_raises_before_fix_restart_after_expiry.
   Unconditional (nothing to witness): C19_gen_timer_stop (Props/C19_Bridge.v); C19_gen_timer_run_init,
     C19_gen_timer_run_timeout, C19_gen_timer_run_interrupt, C19_gen_timer_run_explicit (Props/C19_BridgeRun.v):
     equations for all states. *)
From Coq Require Import ZArith QArith List Sorted Lia.
From ONL Require Import Base.Tools Elem.Timer Elem.TimerProofs Gen.Extracted_timer Elem.TimerBridge.
Import ListNotations.
Local Open Scope Q_scope.

(* state and trace a history leads to from a given start state (the theorems below prove timer_run … = Some (state, trace),
   so the defaults are never used) *)
Definition C19_st (s0 : timer) (acts : list taction) : timer :=
  match timer_run fixed s0 acts with Some (st, _) => st | None => s0 end.
Definition C19_tr (s0 : timer) (acts : list taction) : list tev :=
  match timer_run fixed s0 acts with Some (_, tr) => tr | None => [] end.

(* ---- hypotheses `0 < tau`, `norm_args fixed a = Some l`, `forallb quiet acts = true`,
        `timer_run fixed (timer0 fixed t0 tau false a) acts = Some (st, tr)` ----------------------------------------------
   covers C19_fires_at_expiry.  One-shot Timer(5) with the scalar argument 7 created at 1: the callback runs once, at 6,
   with [7]; stopped at 3 (a prefix of the same history) nothing has fired and the clock is before 6. *)
Definition C19_ex_one_shot : timer := timer0 fixed 1 5 false (AScalar 7).
Definition C19_ex_acts1 : list taction :=
  [ TProcInit 0; TAdvance 3; TAdvance 6; TProcTimeout 0 []; TProcEnd 0; TAdvance 20 ].

Theorem C19_ex_fires_at_expiry :
  let st := C19_st C19_ex_one_shot C19_ex_acts1 in
  let tr := C19_tr C19_ex_one_shot C19_ex_acts1 in
  let st3 := C19_st C19_ex_one_shot (firstn 2 C19_ex_acts1) in
  let tr3 := C19_tr C19_ex_one_shot (firstn 2 C19_ex_acts1) in
  0 < 5 /\ norm_args fixed (AScalar 7) = Some [7%Z]
  /\ forallb quiet C19_ex_acts1 = true
  /\ timer_run fixed C19_ex_one_shot C19_ex_acts1 = Some (st, tr)
  /\ timer_run fixed C19_ex_one_shot (firstn 2 C19_ex_acts1) = Some (st3, tr3)
  (* conclusions *)
  /\ (exists t, fires tr = [(t, [7%Z])] /\ t == 1 + 5)
  /\ fires tr = [(6, [7%Z])] /\ tnow st = 20
  /\ (fires tr3 = [] /\ tnow st3 <= 1 + 5) /\ tnow st3 = 3.
Proof.
  intros st tr st3 tr3.
  apply conj_keep; [reflexivity|intros Ht]. split; [reflexivity|]. split; [reflexivity|].
  apply conj_keep; [vm_compute; reflexivity|intros Hr]. apply conj_keep; [vm_compute; reflexivity|intros Hr3].
  split.
  { destruct (fires_at_expiry 1 5 (AScalar 7) [7%Z] C19_ex_acts1 st tr Ht eq_refl eq_refl Hr) as [[F _]|H]; [|exact H].
    exfalso. vm_compute in F. discriminate F. }
  split; [vm_compute; reflexivity|]. split; [vm_compute; reflexivity|].
  split; [|vm_compute; reflexivity].
  destruct (fires_at_expiry 1 5 (AScalar 7) [7%Z] (firstn 2 C19_ex_acts1) st3 tr3 Ht eq_refl eq_refl Hr3)
    as [H|(t & F & _)]; [exact H|].
  exfalso. vm_compute in F. discriminate F.
Qed.
Print Assumptions C19_ex_fires_at_expiry.

(* ---- … `forallb quiet pre = true`, `timer_run … pre = Some (st1, tr1)`, `fires tr1 <> []`,
        `timer_run fixed st1 post = Some (st, tr)` ---------------------------------------------------------------------------
   covers C19_expired_one_shot_never_refires.  After the callback ran at 6: restart(3) in the same instant, the Process
   event, the clock to 9, stop(), restart(2), the clock to 30 -- all admissible, nothing raises, nothing fires. *)
Definition C19_ex_post1 : list taction := [ TRestart 3; TProcEnd 0; TAdvance 9; TStop; TRestart 2; TAdvance 30 ].

Theorem C19_ex_expired_one_shot_never_refires :
  let pre := firstn 4 C19_ex_acts1 in
  let st1 := C19_st C19_ex_one_shot pre in
  let tr1 := C19_tr C19_ex_one_shot pre in
  let st := C19_st st1 C19_ex_post1 in
  let tr := C19_tr st1 C19_ex_post1 in
  0 < 5 /\ norm_args fixed (AScalar 7) = Some [7%Z]
  /\ forallb quiet pre = true
  /\ timer_run fixed C19_ex_one_shot pre = Some (st1, tr1)
  /\ fires tr1 <> []
  /\ timer_run fixed st1 C19_ex_post1 = Some (st, tr)
  (* conclusion *)
  /\ fires tr = [] /\ length tr = 6%nat /\ tnow st = 30 /\ err st = None.
Proof.
  intros pre st1 tr1 st tr.
  apply conj_keep; [reflexivity|intros Ht]. split; [reflexivity|]. split; [reflexivity|].
  apply conj_keep; [vm_compute; reflexivity|intros Hr1]. apply conj_keep; [vm_compute; discriminate|intros Hf].
  apply conj_keep; [vm_compute; reflexivity|intros Hr].
  split; [exact (expired_one_shot_never_refires 1 5 (AScalar 7) [7%Z] pre C19_ex_post1 st1 tr1 st tr Ht eq_refl eq_refl Hr1 Hf Hr)|].
  repeat split; vm_compute; reflexivity.
Qed.
Print Assumptions C19_ex_expired_one_shot_never_refires.

(* ---- hypotheses as for C19_fires_at_expiry with auto_restart = true: covers C19_auto_restart_period -----------------------
   Timer(5, auto_restart, args [1; 2]) created at 1: callbacks at 6, 11, 16; at 18 the clock is before the next expiry 21. *)
Definition C19_ex_auto : timer := timer0 fixed 1 5 true (AList [1; 2]%Z).
Definition C19_ex_acts3 : list taction :=
  [ TProcInit 0; TAdvance 6; TProcTimeout 0 []; TAdvance 11; TProcTimeout 0 []; TAdvance 16; TProcTimeout 0 []; TAdvance 18 ].

Theorem C19_ex_auto_restart_period :
  let st := C19_st C19_ex_auto C19_ex_acts3 in
  let tr := C19_tr C19_ex_auto C19_ex_acts3 in
  0 < 5 /\ norm_args fixed (AList [1; 2]%Z) = Some [1; 2]%Z
  /\ forallb quiet C19_ex_acts3 = true
  /\ timer_run fixed C19_ex_auto C19_ex_acts3 = Some (st, tr)
  (* conclusions *)
  /\ (forall k f, nth_error (fires tr) k = Some f ->
        fst f == 1 + 5 + inject_Z (Z.of_nat k) * 5 /\ snd f = [1; 2]%Z)
  /\ tnow st <= 1 + 5 + inject_Z (Z.of_nat (length (fires tr))) * 5
  /\ fires tr = [(6, [1; 2]%Z); (11, [1; 2]%Z); (16, [1; 2]%Z)] /\ tnow st = 18.
Proof.
  intros st tr.
  apply conj_keep; [reflexivity|intros Ht]. split; [reflexivity|]. split; [reflexivity|].
  apply conj_keep; [vm_compute; reflexivity|intros Hr].
  destruct (auto_restart_period 1 5 (AList [1; 2]%Z) [1; 2]%Z C19_ex_acts3 st tr Ht eq_refl eq_refl Hr) as [P1 P2].
  split; [exact P1|]. split; [exact P2|]. split; vm_compute; reflexivity.
Qed.
Print Assumptions C19_ex_auto_restart_period.

(* ---- hypotheses `timer_run fixed (timer0 …) (pre ++ post) = Some (st, tr)`, `exists x, In x pre /\ is_stop x` --------------
   covers C19_stop_is_final, for both kinds of stop.  (a) The auto-restart timer fires at 6, a foreign process stops it
   at 8; then the old Timeout at 11 is processed (no callback), restart(4), the clock to 30: nothing fires.
   (b) The callback at 6 calls stop() itself; the Timeout re-armed for 11 is processed without a callback. *)
Definition C19_ex_pre4 : list taction := [ TProcInit 0; TAdvance 6; TProcTimeout 0 []; TAdvance 8; TStop ].
Definition C19_ex_post4 : list taction := [ TAdvance 11; TProcTimeout 0 []; TRestart 4; TProcEnd 0; TAdvance 30 ].
Definition C19_ex_pre4b : list taction := [ TProcInit 0; TAdvance 6; TProcTimeout 0 [CStop] ].
Definition C19_ex_post4b : list taction := [ TAdvance 11; TProcTimeout 0 []; TProcEnd 0; TRestart 4; TAdvance 30 ].

Theorem C19_ex_stop_is_final :
  let st := C19_st C19_ex_auto (C19_ex_pre4 ++ C19_ex_post4) in
  let tr := C19_tr C19_ex_auto (C19_ex_pre4 ++ C19_ex_post4) in
  let stb := C19_st C19_ex_auto (C19_ex_pre4b ++ C19_ex_post4b) in
  let trb := C19_tr C19_ex_auto (C19_ex_pre4b ++ C19_ex_post4b) in
  timer_run fixed C19_ex_auto (C19_ex_pre4 ++ C19_ex_post4) = Some (st, tr)
  /\ (exists x, In x C19_ex_pre4 /\ is_stop x)
  /\ timer_run fixed C19_ex_auto (C19_ex_pre4b ++ C19_ex_post4b) = Some (stb, trb)
  /\ (exists x, In x C19_ex_pre4b /\ is_stop x)
  (* conclusions *)
  /\ (exists st1 tr1 tr2, timer_run fixed C19_ex_auto C19_ex_pre4 = Some (st1, tr1) /\
                          timer_run fixed st1 C19_ex_post4 = Some (st, tr2) /\ tr = tr1 ++ tr2 /\
                          stopped st1 = true /\ fires tr2 = [])
  /\ fires tr = [(6, [1; 2]%Z)] /\ tnow st = 30
  /\ (exists st1 tr1 tr2, timer_run fixed C19_ex_auto C19_ex_pre4b = Some (st1, tr1) /\
                          timer_run fixed st1 C19_ex_post4b = Some (stb, tr2) /\ trb = tr1 ++ tr2 /\
                          stopped st1 = true /\ fires tr2 = [])
  /\ fires trb = [(6, [1; 2]%Z)] /\ tnow stb = 30.
Proof.
  intros st tr stb trb.
  assert (Hs : exists x, In x C19_ex_pre4 /\ is_stop x).
  { exists TStop. split; [do 4 right; left; reflexivity|left; reflexivity]. }
  assert (Hsb : exists x, In x C19_ex_pre4b /\ is_stop x).
  { exists (TProcTimeout 0 [CStop]). split; [do 2 right; left; reflexivity|].
    right. exists 0%nat, [CStop]. split; [reflexivity|left; reflexivity]. }
  apply conj_keep; [vm_compute; reflexivity|intros Hr]. split; [exact Hs|].
  apply conj_keep; [vm_compute; reflexivity|intros Hrb]. split; [exact Hsb|].
  split; [exact (stop_is_final 1 5 true (AList [1; 2]%Z) C19_ex_pre4 C19_ex_post4 st tr Hr Hs)|].
  split; [vm_compute; reflexivity|]. split; [vm_compute; reflexivity|].
  split; [exact (stop_is_final 1 5 true (AList [1; 2]%Z) C19_ex_pre4b C19_ex_post4b stb trb Hrb Hsb)|].
  split; vm_compute; reflexivity.
Qed.
Print Assumptions C19_ex_stop_is_final.

(* ---- hypotheses `norm_args fixed a = Some l`, `timer_run fixed (timer0 …) pre = Some (st, trp)`, `stopped st = false`,
        `cur_alive st = true`, `0 < tau'`, `forallb quiet acts = true`, `timer_run fixed st (TRestart tau' :: acts) = Some (st', tr)` ----
   covers C19_restart_rebases, at the sharpest instant: one-shot Timer(5) created at 0; at 5 -- the expiry instant, the
   Timeout not yet processed -- a foreign process calls restart(3).  The old process is interrupted and ends, the new one
   waits until 8: the callback runs at 8 = 5 + 3 and NOT at the old expiry 5. *)
Definition C19_ex_one_shot0 : timer := timer0 fixed 0 5 false (AScalar 7).
Definition C19_ex_pre5 : list taction := [ TProcInit 0; TAdvance 5 ].
Definition C19_ex_acts5 : list taction :=
  [ TProcInterrupt 0; TProcInit 1; TProcEnd 0; TAdvance 8; TProcTimeout 1 []; TProcEnd 1; TAdvance 20 ].

Theorem C19_ex_restart_rebases :
  let st := C19_st C19_ex_one_shot0 C19_ex_pre5 in
  let trp := C19_tr C19_ex_one_shot0 C19_ex_pre5 in
  let st' := C19_st st (TRestart 3 :: C19_ex_acts5) in
  let tr := C19_tr st (TRestart 3 :: C19_ex_acts5) in
  norm_args fixed (AScalar 7) = Some [7%Z]
  /\ timer_run fixed C19_ex_one_shot0 C19_ex_pre5 = Some (st, trp)
  /\ stopped st = false /\ cur_alive st = true /\ 0 < 3
  /\ forallb quiet C19_ex_acts5 = true
  /\ timer_run fixed st (TRestart 3 :: C19_ex_acts5) = Some (st', tr)
  (* the state at the call: the clock is AT the old expiry *)
  /\ tnow st = 5 /\ expire st == 5 /\ fires trp = []
  (* conclusions *)
  /\ fires_from false (tnow st + 3) 3 [7%Z] (fires tr) (tnow st')
  /\ Forall (fun f => tnow st + 3 <= fst f) (fires tr)
  /\ fires tr = [(8, [7%Z])] /\ tnow st' = 20.
Proof.
  intros st trp st' tr.
  split; [reflexivity|]. apply conj_keep; [vm_compute; reflexivity|intros Hrp].
  apply conj_keep; [vm_compute; reflexivity|intros Hs]. apply conj_keep; [vm_compute; reflexivity|intros Ha].
  apply conj_keep; [reflexivity|intros Ht].
  split; [reflexivity|]. apply conj_keep; [vm_compute; reflexivity|intros Hr].
  split; [vm_compute; reflexivity|]. split; [vm_compute; reflexivity|]. split; [vm_compute; reflexivity|].
  destruct (restart_rebases 0 5 false (AScalar 7) [7%Z] C19_ex_pre5 st trp 3 C19_ex_acts5 st' tr eq_refl Hrp Hs Ha Ht eq_refl Hr)
    as [R1 R2].
  split; [exact R1|]. split; [exact R2|]. split; vm_compute; reflexivity.
Qed.
Print Assumptions C19_ex_restart_rebases.

(* ---- hypotheses … `~ In CStop cs0`, `timer_run fixed st (TProcTimeout i (cs0 ++ [CRestart tau']) :: acts) = Some (st', tr)`;
        `timer_act fixed st x = Some (st', outs)`, `outs <> []` -------------------------------------------------------------------
   covers C19_restart_rebases_from_callback, C19_fires_only_at_expire_time.  Auto-restart Timer(5, args [4]) created at 0.
   Its callback at 5 calls restart(1) and then restart(2) on its own timer (the way the TCP sender re-arms its
   retransmission timer): this callback is at 5, the next ones at 7 and 9 -- period 2 from the instant of the call. *)
Definition C19_ex_auto0 : timer := timer0 fixed 0 5 true (AList [4]%Z).
Definition C19_ex_acts6 : list taction := [ TAdvance 7; TProcTimeout 0 []; TAdvance 9; TProcTimeout 0 []; TAdvance 10 ].

Theorem C19_ex_restart_from_callback :
  let st := C19_st C19_ex_auto0 C19_ex_pre5 in
  let trp := C19_tr C19_ex_auto0 C19_ex_pre5 in
  let x := TProcTimeout 0 ([CRestart 1] ++ [CRestart 2]) in
  let st' := C19_st st (x :: C19_ex_acts6) in
  let tr := C19_tr st (x :: C19_ex_acts6) in
  let st1 := C19_st st [x] in
  norm_args fixed (AList [4]%Z) = Some [4%Z]
  /\ timer_run fixed C19_ex_auto0 C19_ex_pre5 = Some (st, trp)
  /\ stopped st = false /\ ~ In CStop [CRestart 1] /\ 0 < 2
  /\ forallb quiet C19_ex_acts6 = true
  /\ timer_run fixed st (x :: C19_ex_acts6) = Some (st', tr)
  /\ timer_act fixed st x = Some (st1, [OFire [4%Z]]) /\ [OFire [4%Z]] <> []
  (* conclusions *)
  /\ (exists rest, fires tr = (tnow st, [4%Z]) :: rest /\
                   fires_from true (tnow st + 2) 2 [4%Z] rest (tnow st') /\
                   Forall (fun f => tnow st + 2 <= fst f) rest)
  /\ fires tr = [(5, [4%Z]); (7, [4%Z]); (9, [4%Z])] /\ tnow st' = 10
  /\ (stopped st = false /\ tnow st == expire st /\ tnow st1 = tnow st /\ exists cs, x = TProcTimeout (cur st) cs)
  /\ expire st1 == 7 /\ tmo st1 == 2.
Proof.
  intros st trp x st' tr st1.
  split; [reflexivity|]. apply conj_keep; [vm_compute; reflexivity|intros Hrp].
  apply conj_keep; [vm_compute; reflexivity|intros Hs]. apply conj_keep; [intros [H|[]]; discriminate H|intros Hn].
  apply conj_keep; [reflexivity|intros Ht].
  split; [reflexivity|]. apply conj_keep; [vm_compute; reflexivity|intros Hr].
  apply conj_keep; [vm_compute; reflexivity|intros Ha]. apply conj_keep; [discriminate|intros Ho].
  split; [exact (restart_rebases_from_callback 0 5 true (AList [4]%Z) [4%Z] C19_ex_pre5 st trp 0%nat [CRestart 1] 2
                   C19_ex_acts6 st' tr eq_refl Hrp Hs Hn Ht eq_refl Hr)|].
  split; [vm_compute; reflexivity|]. split; [vm_compute; reflexivity|].
  destruct (fires_only_at_expire_time 0 5 true (AList [4]%Z) [4%Z] C19_ex_pre5 st trp x st1 _ eq_refl Hrp Ha Ho)
    as (_ & F2 & F3 & F4 & F5).
  split; [exact (conj F2 (conj F3 (conj F4 F5)))|]. split; vm_compute; reflexivity.
Qed.
Print Assumptions C19_ex_restart_from_callback.

(* ---- hypotheses `norm_args fixed a = Some l`, `timer_run fixed (timer0 fixed t0 tau au a) acts = Some (st, tr)` ------------
   covers C19_no_double_fire, C19_timer_never_raises, C19_single_live_process, on a history that is anything but quiet:
   auto-restart Timer(5, scalar 7) created at 0; restart(3) and restart(4) in the instant of creation, while the
   Initialize of every process is still pending; the callback at 4 restarts with 2; fires at 6; restart(1) by a foreign
   process at 6 right after that callback; the callback at 7 calls stop(); restart(9) afterwards arms process 4 for 16.
   Five timer processes were created; the callback ran at 4, 6, 7 -- strictly increasing, always with [7]. *)
Definition C19_ex_acts7 : list taction :=
  [ TRestart 3; TRestart 4; TProcInit 0; TProcInterrupt 0; TProcInit 1; TProcInterrupt 1; TProcInit 2;
    TAdvance 4; TProcTimeout 2 [CRestart 2]; TProcEnd 0;
    TAdvance 6; TProcTimeout 2 []; TRestart 1; TProcInterrupt 2; TProcInit 3; TProcEnd 1;
    TAdvance 7; TProcTimeout 3 [CStop]; TRestart 9; TProcInterrupt 3; TProcInit 4;
    TAdvance 16 ].
Definition C19_ex_auto7 : timer := timer0 fixed 0 5 true (AScalar 7).

Theorem C19_ex_any_history :
  let st := C19_st C19_ex_auto7 C19_ex_acts7 in
  let tr := C19_tr C19_ex_auto7 C19_ex_acts7 in
  norm_args fixed (AScalar 7) = Some [7%Z]
  /\ timer_run fixed C19_ex_auto7 C19_ex_acts7 = Some (st, tr)
  (* conclusions *)
  /\ StronglySorted before (fires tr) /\ Forall (fun f => 0 < fst f /\ snd f = [7%Z]) (fires tr)
  /\ fires tr = [(4, [7%Z]); (6, [7%Z]); (7, [7%Z])]
  /\ err st = None
  /\ (forall i p, nth_error (procs st) i = Some p -> alive p = true -> intr p = 0%nat -> i = cur st)
  /\ (exists p, nth_error (procs st) (cur st) = Some p /\ intr p = 0%nat /\
        forall d, ph p = PWait d -> tnow st <= d /\ (stopped st = false -> d == expire st))
  /\ length (procs st) = 5%nat /\ cur st = 4%nat /\ map alive (procs st) = [false; false; false; false; true]
  /\ stopped st = true.
Proof.
  intros st tr.
  split; [reflexivity|]. apply conj_keep; [vm_compute; reflexivity|intros Hr].
  destruct (no_double_fire 0 5 true (AScalar 7) C19_ex_acts7 st tr [7%Z] eq_refl Hr) as [D1 D2].
  split; [exact D1|]. split; [exact D2|]. split; [vm_compute; reflexivity|].
  split; [exact (timer_never_raises 0 5 true (AScalar 7) C19_ex_acts7 st tr Hr)|].
  destruct (single_live_process 0 5 true (AScalar 7) C19_ex_acts7 st tr Hr) as [S1 S2].
  split; [exact S1|]. split; [exact S2|]. repeat split; vm_compute; reflexivity.
Qed.
Print Assumptions C19_ex_any_history.

(* ---- Props/C19_Bridge.v: hypothesis `nth_error (procs st) (cur st) = Some p` ------------------------------------------------
   covers C19_gen_timer_restart.  st = the state of C19_ex_restart_rebases at the expiry instant 5; self.proc is process 0,
   waiting; restart(3) by a foreign process: the translated body re-bases the fields, interrupts self.proc and then
   replaces it by a new process. *)
Theorem C19_ex_gen_timer_restart :
  let st := C19_st C19_ex_one_shot0 C19_ex_pre5 in
  let p := {| ph := PWait (0 + (0 + 5 - 0)); intr := 0 |} in
  let g := timer_gen_restart None 3 6 st in
  nth_error (procs st) (cur st) = Some p
  /\ do_restart fixed None 3 st = timer_fx_run st (fst g) (snd g)
  /\ snd g = [FxInterrupt; FxNewProc]
  /\ fst g = {| t_start_time := 5; t_timeout := 3; t_expire_time := 5 + 3; t_stopped := false |}
  /\ length (procs (do_restart fixed None 3 st)) = 2%nat /\ cur (do_restart fixed None 3 st) = 1%nat.
Proof.
  intros st p g.
  apply conj_keep; [vm_compute; reflexivity|intros Hp].
  destruct (bridge_timer_restart None 3 6 st p Hp) as [B1 B2].
  split; [exact B1|]. split; [exact B2|]. repeat split; vm_compute; reflexivity.
Qed.
Print Assumptions C19_ex_gen_timer_restart.
