(* C12 -- NON-VACUITY of the theorems of Props/C12_DRR.v.  Witness execution: Elem/DRRExample.v (dex_cfg, dex_acts: the
   action list the harness logged from a run of the real DRR): rate 8192 bit/s, classes 0 and 1 with weights 1 and 2
   (quanta 1500 and 3000), flows 1 and 7 share class 1; u0 (2000 B, flow 0), u1 (1000 B, flow 1), u2 (1000 B, flow 7),
   u3 (500 B, flow 0) arrive at 0, u4 (256 B, flow 1) arrives at 4 during the transmission of u3.  The 2000-byte head of
   class 0 is parked in the first round; departure order u1 u2 u0 u3 u4; the run ends drained.

   Coverage (theorem of Props/C12_DRR.v -> witness):
     C12_drr_work_conserving (both branches), C12_drr_flow_fifo, C12_drr_exactly_once,
     C12_drr_counters, C12_drr_tx_time, C12_drr_progress (several clauses enabled)       -> C12_ex_drr_execution
     C12_drr_one_at_a_time (both cases: the timeout ends it / a put() leaves it alone)     -> C12_ex_drr_one_at_a_time
     C12_drr_back_to_back                                                                  -> C12_ex_drr_back_to_back
   Unconditional: none. *)
From Coq Require Import ZArith QArith List Bool.
From ONL Require Import Base.Tools Elem.Packet Elem.StoreQ Elem.DRR Elem.DRRInv Elem.DRRProofs Elem.DRRLive Elem.DRRExample Elem.DRRWitness.
From ONL Require Import Props.C12_DRR.
Import ListNotations.

(* State W = after 31 actions (instant 4): u3 (class 0) is in transmission until 1125/256, u4 (flow 1, class 1) has just
   arrived and waits; u1 u2 u0 have left.  Final state: all 39 actions, drained. *)
Theorem C12_ex_drr_execution :
  (* hypotheses *)
  dwf dex_cfg /\
  drr_run dex_cfg (drr0 0) (firstn 31 dex_acts) = Some (dex_state 31, dex_trace 31) /\
  durgent dex_cfg (dex_state 31) = false /\
  drr_run dex_cfg (drr0 0) dex_acts = Some (dex_state 39, dex_trace 39) /\
  durgent dex_cfg (dex_state 39) = false /\
  (forall c, dheld dex_cfg (dex_state 39) c = []) /\
  (* C12_drr_tx_time: the state before the first transmission starts *)
  drr_run dex_cfg (drr0 0) (firstn 13 dex_acts) = Some (dex_state 13, dex_trace 13) /\
  drr_act dex_cfg (dex_state 13) DChildInit = Some (dex_state 14, []) /\
  (* the execution *)
  dnow (dex_state 31) = 4 /\
  dputs (dex_trace 31) = [dex_u0; dex_u1; dex_u2; dex_u3; dex_u4] /\ dfwds (dex_trace 31) = [dex_u1; dex_u2; dex_u0] /\
  dheld dex_cfg (dex_state 31) 0 = [dex_u3] /\ dheld dex_cfg (dex_state 31) 1 = [dex_u4] /\
  dfwds (dex_trace 39) = [dex_u1; dex_u2; dex_u0; dex_u3; dex_u4] /\
  (* conclusions at W *)
  (exists p dl, dchd (dex_state 31) = DCTx p dl /\ dnow (dex_state 31) < dl /\ p = dex_u3 /\ dl = 1125 # 256) /\
  dof_flow 1 (dputs (dex_trace 31)) = dof_flow 1 (dfwds (dex_trace 31)) ++ dof_flow 1 (dheld dex_cfg (dex_state 31) (df2c dex_cfg 1)) /\
  dof_flow 1 (dputs (dex_trace 31)) = [dex_u1; dex_u4] /\ dof_flow 1 (dfwds (dex_trace 31)) = [dex_u1] /\
  (dqcnt (dex_state 31) 0 = 1 /\ dqcnt (dex_state 31) 1 = 1 /\ dqcnt (dex_state 31) 7 = 0 /\ dqbytes (dex_state 31) 1 = 256 /\
   dqbytes (dex_state 31) 0 = 500 /\ dtotal (dex_state 31) = 2)%Z /\
  (forall f, dqcnt (dex_state 31) f = Z.of_nat (length (dof_flow f (dall_held dex_cfg (dex_state 31))))) /\
  dall_held dex_cfg (dex_state 31) = [dex_u3; dex_u4] /\
  (* conclusions at the final state: per flow and per class (flows 1 and 7 on class 1) everything left exactly once, in order *)
  (forall f, dof_flow f (dfwds (dex_trace 39)) = dof_flow f (dputs (dex_trace 39))) /\
  (forall c, dof_cls dex_cfg c (dfwds (dex_trace 39)) = dof_cls dex_cfg c (dputs (dex_trace 39))) /\
  dof_cls dex_cfg 1 (dfwds (dex_trace 39)) = [dex_u1; dex_u2; dex_u4] /\
  (* transmission time of u1: 8 * 1000 / 8192 = 125/128 *)
  (exists p dl, dchd (dex_state 13) = DCStart p /\ dchd (dex_state 14) = DCTx p dl /\
                dl == dnow (dex_state 13) + inject_Z (8 * psize p) / drate dex_cfg /\ p = dex_u1 /\ dl == 125 # 128) /\
  (* progress at W: the pending clauses are enabled -- a put() of a configured class and a clock move up to the deadline *)
  (exists r, drr_act dex_cfg (dex_state 31) (DPut dex_u2) = Some r) /\
  (exists r, drr_act dex_cfg (dex_state 31) (DAdvance (1125 # 256)) = Some r) /\
  (* progress at the state after 11 actions: run() holds a granted get on the store of class 0 *)
  get (dst (dex_state 11) 0) = GGranted (0, dex_u0) /\
  (exists r, drr_act dex_cfg (dex_state 11) (DGetDone (Some 0%Z)) = Some r).
Proof.
  split; [exact dex_wf|]. apply conj_keep; [apply dex_prefix_runs; vm_compute; exact I|intros HW].
  apply conj_keep; [vm_compute; reflexivity|intros UW].
  apply conj_keep; [change dex_acts with (firstn 39 dex_acts) at 1; apply dex_prefix_runs; vm_compute; exact I|intros HF].
  apply conj_keep; [vm_compute; reflexivity|intros UF].
  apply conj_keep; [|intros EF].
  { destruct (C12_drr_work_conserving _ _ _ _ _ dex_wf HF UF) as [(p & dl & A & _)|N]; [|exact N]. vm_compute in A. discriminate A. }
  apply conj_keep; [apply dex_prefix_runs; vm_compute; exact I|intros H13]. apply conj_keep; [vm_compute; reflexivity|intros A13].
  split; [vm_compute; reflexivity|]. split; [vm_compute; reflexivity|]. split; [vm_compute; reflexivity|].
  split; [vm_compute; reflexivity|]. split; [vm_compute; reflexivity|]. split; [vm_compute; reflexivity|].
  split.
  { destruct (C12_drr_work_conserving _ _ _ _ _ dex_wf HW UW) as [(p & dl & A & B)|N].
    - exists p, dl. split; [exact A|]. split; [exact B|]. vm_compute in A. injection A as <- <-. split; reflexivity.
    - exfalso. specialize (N 1%Z). vm_compute in N. discriminate N. }
  split; [exact (C12_drr_flow_fifo _ _ _ _ _ dex_wf HW 1%Z)|].
  split; [vm_compute; reflexivity|]. split; [vm_compute; reflexivity|].
  split; [repeat split; vm_compute; reflexivity|].
  split; [intros f; exact (proj1 (proj1 (C12_drr_counters _ _ _ _ _ dex_wf HW) f))|].
  split; [vm_compute; reflexivity|].
  destruct (C12_drr_exactly_once _ _ _ _ _ dex_wf HF EF) as [X1 X2].
  split; [exact X1|]. split; [exact X2|]. split; [vm_compute; reflexivity|].
  split.
  { destruct (C12_drr_tx_time _ _ _ _ _ _ _ dex_wf H13 A13) as (p & dl & A & B & C & _).
    exists p, dl. split; [exact A|]. split; [exact B|]. split; [exact C|].
    vm_compute in B. injection B as <- <-. split; reflexivity. }
  destruct (C12_drr_progress _ _ _ _ _ dex_wf HW) as (_ & _ & _ & _ & _ & _ & _ & _ & PP & PA).
  split; [apply PP; [vm_compute; right; left; reflexivity|reflexivity]|].
  split.
  { apply PA; [exact UW|vm_compute; reflexivity|]. intros p dl E. vm_compute in E. injection E as _ <-. vm_compute. discriminate. }
  apply conj_keep; [vm_compute; reflexivity|intros G11].
  assert (H11 : drr_run dex_cfg (drr0 0) (firstn 11 dex_acts) = Some (dex_state 11, dex_trace 11))
    by (apply dex_prefix_runs; vm_compute; exact I).
  destruct (C12_drr_progress _ _ _ _ _ dex_wf H11) as (_ & _ & PG & _).
  exact (PG _ _ G11).
Qed.
Print Assumptions C12_ex_drr_execution.

(* while u3 is being transmitted (state after 28 actions, instant 4, deadline 1125/256) the put() of u4 neither ends nor
   disturbs the transmission; at the deadline (state after 32 actions) the timeout ends it by forwarding u3 *)
Theorem C12_ex_drr_one_at_a_time :
  dwf dex_cfg /\
  drr_run dex_cfg (drr0 0) (firstn 29 dex_acts) = Some (dex_state 29, dex_trace 29) /\
  drr_act dex_cfg (dex_state 29) (DPut dex_u4) = Some (dex_state 30, []) /\
  dchd (dex_state 29) = DCTx dex_u3 (1125 # 256) /\
  drr_run dex_cfg (drr0 0) (firstn 32 dex_acts) = Some (dex_state 32, dex_trace 32) /\
  drr_act dex_cfg (dex_state 32) DChildTimer = Some (dex_state 33, [DOForward dex_u3]) /\
  dchd (dex_state 32) = DCTx dex_u3 (1125 # 256) /\
  (* conclusions *)
  (dnow (dex_state 29) <= 1125 # 256 /\ dchd (dex_state 30) = DCTx dex_u3 (1125 # 256) /\ dnow (dex_state 30) <= 1125 # 256) /\
  (dnow (dex_state 32) == 1125 # 256 /\ dchd (dex_state 33) = DCDone dex_u3 /\ dnow (dex_state 33) = dnow (dex_state 32)).
Proof.
  split; [exact dex_wf|]. apply conj_keep; [apply dex_prefix_runs; vm_compute; exact I|intros H29].
  apply conj_keep; [vm_compute; reflexivity|intros A29]. apply conj_keep; [vm_compute; reflexivity|intros C29].
  apply conj_keep; [apply dex_prefix_runs; vm_compute; exact I|intros H32].
  apply conj_keep; [vm_compute; reflexivity|intros A32].
  apply conj_keep; [vm_compute; reflexivity|intros C32].
  split.
  { destruct (C12_drr_one_at_a_time _ _ _ _ _ _ _ _ _ _ dex_wf H29 A29 C29) as [L [(E & _)|(_ & _ & K & _ & M)]]; [discriminate E|].
    split; [exact L|]. split; [exact K|exact M]. }
  destruct (C12_drr_one_at_a_time _ _ _ _ _ _ _ _ _ _ dex_wf H32 A32 C32) as [_ [(_ & E & _ & K & M)|(N & _)]]; [|exfalso; apply N; reflexivity].
  split; [exact E|]. split; [exact K|exact M].
Qed.
Print Assumptions C12_ex_drr_one_at_a_time.

(* the transmission of u1 has just ended (state after 16 actions, instant 125/128, child DCDone u1) while u0, u3 (class 0) and
   u2 (class 1) are held; without a clock move run() debits class 1, takes u2 and starts its transmission *)
Definition dex_b2b_acts : list daction := [DChildEnd; DGetDone (Some 1%Z); DChildInit].
Definition dex_b2b_trace : list dtev :=
  match drr_run dex_cfg (dex_state 16) dex_b2b_acts with Some (_, tr) => tr | None => [] end.

Theorem C12_ex_drr_back_to_back :
  dwf dex_cfg /\
  drr_run dex_cfg (drr0 0) (firstn 16 dex_acts) = Some (dex_state 16, dex_trace 16) /\
  dchd (dex_state 16) = DCDone dex_u1 /\
  drr_run dex_cfg (dex_state 16) dex_b2b_acts = Some (dex_state 19, dex_b2b_trace) /\
  (forall t, ~ In (DAdvance t) dex_b2b_acts) /\
  durgent dex_cfg (dex_state 19) = false /\
  (exists c, dheld dex_cfg (dex_state 19) c <> []) /\
  (* conclusion *)
  dnow (dex_state 16) = 125 # 128 /\
  (exists p dl, dchd (dex_state 19) = DCTx p dl /\ In DChildInit dex_b2b_acts /\ dnow (dex_state 19) = dnow (dex_state 16) /\
                dnow (dex_state 19) < dl /\ p = dex_u2 /\ dl = 125 # 64).
Proof.
  split; [exact dex_wf|]. apply conj_keep; [apply dex_prefix_runs; vm_compute; exact I|intros H16].
  apply conj_keep; [vm_compute; reflexivity|intros C16]. apply conj_keep; [vm_compute; reflexivity|intros H19].
  apply conj_keep; [intros t [H|[H|[H|[]]]]; discriminate H|intros NA].
  apply conj_keep; [vm_compute; reflexivity|intros U19].
  apply conj_keep; [exists 0%Z; vm_compute; discriminate|intros B19]. split; [vm_compute; reflexivity|].
  destruct (C12_drr_back_to_back _ _ _ _ _ _ _ _ _ dex_wf H16 C16 H19 NA U19 B19) as (p & dl & A & B & C & D).
  exists p, dl. split; [exact A|]. split; [exact B|]. split; [exact C|]. split; [exact D|].
  vm_compute in A. injection A as <- <-. split; reflexivity.
Qed.
Print Assumptions C12_ex_drr_back_to_back.
