(* C18 -- NON-VACUITY of the theorems of Props/C18.v (and Props/C18_Bridge.v).
   An implication no reachable state satisfies means nothing: every theorem below is a machine-checked witness that ALL
   hypotheses of the theorems it covers -- the premises of every clause, where the theorem is a conjunction of
   implications -- hold together on a concrete, non-trivial instance (a demux with end devices, a table with a valid, an
   out-of-range and a missing entry, an output that raises; a hub with three endpoints and port devices; a splitter with
   four outputs one of which is detached; the fat tree with k = 4 and two flows that share links; a small general graph
   with two flows sharing a link), together with what the theorem's conclusion says there.

   Coverage (every hypothesis-carrying theorem of Props/C18.v):
     C18_ex_flowdemux          C18_flowdemux_rule, C18_simple_switch_rule             (premises of all clauses)
     C18_ex_fibdemux           C18_fibdemux_rule, C18_fibdemux_never_raises, C18_fibdemux_empty_table
     C18_ex_exactly_one        C18_exactly_one_output                                 (premises of all four clauses)
     C18_ex_fair_switch        C18_fair_switch_rule                                   (both sides of the equivalence)
     C18_ex_hub                C18_hub_repeats, C18_hub_make                          (premises of all clauses)
     C18_ex_splitter           C18_splitter_copies
     C18_ex_fattree_shape      C18_ft_counts, C18_ft_degrees, C18_hostdist_is_distance
     C18_ex_path_ok            C18_path_ok_shortest_partial
     C18_ex_fib_follows_path   C18_fib_follows_path
     C18_ex_routed_delivery    C18_routed_delivery
     C18_ex_fattree_delivery   C18_fattree_delivery
   Unconditional (equations or equivalences for every configuration, no premises): C18_hub_repeats_dynamic,
     C18_hub_attached_so_far, C18_gen_flowdemux_put, C18_gen_fibdemux_put.
   Already witnesses (existential statements): C18_flowdemux_refuted_before_fix, C18_fibdemux_refuted_before_fix,
     C18_exactly_one_refuted_before_fix, C18_hub_refuted_before_fix, C18_routed_delivery_refuted_before_fix. *)
From Coq Require Import ZArith List Bool Arith Lia.
From ONL Require Import Base.Tools Route.Demux Route.Hub Route.FatTree Route.Fib.
From ONL Require Import Route.DemuxProofs Route.HubProofs Route.FatTreeProofs Route.FibProofs Route.FatTreeFibProofs.
Import ListNotations.

(* ---- demuxes and switches -------------------------------------------------------------------- *)

(* Covers C18_flowdemux_rule and C18_simple_switch_rule.  A FlowDemux with 3 outputs: flow 2 is in range; flow 5 is
   not and there is a default output; flow -1 is not (it would index from the end in Python) and there is none.
   A SimplePacketSwitch with 4 ports: flow 3 in range, flow -2 not. *)
Theorem C18_ex_flowdemux :
  let c := {| fd_nouts := 3; fd_default := true |} in
  let c' := {| fd_nouts := 3; fd_default := false |} in
  ((0 <= 2 < Z.of_nat (fd_nouts c))%Z /\ flowdemux true c 2 = OOut 2) /\
  (~ (0 <= 5 < Z.of_nat (fd_nouts c))%Z /\ fd_default c = true /\ flowdemux true c 5 = ODefault) /\
  (~ (0 <= -1 < Z.of_nat (fd_nouts c'))%Z /\ fd_default c' = false /\ flowdemux true c' (-1) = ONowhere) /\
  ((0 <= 3 < Z.of_nat 4)%Z /\ simple_switch true 4 3 = OOut 3) /\
  (~ (0 <= -2 < Z.of_nat 4)%Z /\ simple_switch true 4 (-2) = ONowhere).
Proof. cbv zeta. cbn. repeat split; try reflexivity; try lia. Qed.
Print Assumptions C18_ex_flowdemux.

(* the FIBDemux used below: table {1: 2, 3: 7, 4: 0}, three outputs, end device 5 registered for flow 9, a default output *)
Definition cFib : fibdemux_cfg :=
  {| fb_fib := Some [(1, 2); (3, 7); (4, 0)]%Z; fb_outs := Some 3; fb_ends := [(9%Z, 5)]; fb_default := true |}.
(* an EMPTY table (a valid table), two outputs, the same end device, no default output *)
Definition cFib0 : fibdemux_cfg :=
  {| fb_fib := Some []; fb_outs := Some 2; fb_ends := [(9%Z, 5)]; fb_default := false |}.

(* Covers C18_fibdemux_rule (every clause: flow 9 has an end device; flow 1 has none and the table names port 2 of 3;
   flow 3's port 7 is out of range; flow 8 is not in the table), C18_fibdemux_never_raises (a table is given) and
   C18_fibdemux_empty_table (table {}, flow 1 has no end device). *)
Theorem C18_ex_fibdemux :
  fb_fib cFib = Some [(1, 2); (3, 7); (4, 0)]%Z /\
  (lookup (fb_ends cFib) 9 = Some 5 /\ fibdemux true true cFib 9 = OEnd 5) /\
  (lookup (fb_ends cFib) 1 = None /\ lookup [(1, 2); (3, 7); (4, 0)]%Z 1 = Some 2%Z /\ (0 <= 2 < Z.of_nat (nouts cFib))%Z /\
   fibdemux true true cFib 1 = OOut 2) /\
  (lookup (fb_ends cFib) 3 = None /\ lookup [(1, 2); (3, 7); (4, 0)]%Z 3 = Some 7%Z /\
   (7 < - Z.of_nat (nouts cFib) \/ Z.of_nat (nouts cFib) <= 7)%Z /\ fibdemux true true cFib 3 = ODefault) /\
  (lookup (fb_ends cFib) 8 = None /\ lookup [(1, 2); (3, 7); (4, 0)]%Z 8 = None /\ fibdemux true true cFib 8 = ODefault) /\
  (forall f e, fibdemux true true cFib f <> OError e) /\
  (fb_fib cFib0 = Some [] /\ lookup (fb_ends cFib0) 1 = None /\ fibdemux true true cFib0 1 = ONowhere /\
   fibdemux true true cFib0 9 = OEnd 5).
Proof.
  split; [reflexivity|]. split; [split; reflexivity|].
  split; [repeat split; try reflexivity; cbn; lia|].
  split; [repeat split; try reflexivity; cbn; lia|].
  split; [repeat split; reflexivity|].
  split; [intros f e; apply (fibdemux_total cFib _ f eq_refl)|].
  repeat split; reflexivity.
Qed.
Print Assumptions C18_ex_fibdemux.

(* Covers C18_exactly_one_output, all four clauses: output 2 raises KeyError from its own put().  Flow 1 is deliverable
   (to output 2): exactly that one delivery, and the exception reaches the caller (no second delivery to the default
   output); flow 9 goes to its end device, once; with the empty table and no default, flow 1 is not deliverable:
   nothing is delivered. *)
Theorem C18_ex_exactly_one :
  (deliverable (fibdemux true true cFib 1) = true /\ fibdemux true true cFib 1 = OOut 2 /\ In 2 [2] /\
   fib_deliveries true true true cFib [2] 1 = ([OOut 2], Some KeyError)) /\
  (deliverable (fibdemux true true cFib 9) = true /\ fib_deliveries true true true cFib [2] 9 = ([OEnd 5], None)) /\
  (deliverable (fibdemux true true cFib0 1) = false /\ fib_deliveries true true true cFib0 [2] 1 = ([], None)) /\
  length (fst (fib_deliveries true true true cFib [2] 1)) <= 1.
Proof. repeat split; try reflexivity; cbn; auto. Qed.
Print Assumptions C18_ex_exactly_one.

(* Covers C18_fair_switch_rule: a FairPacketSwitch with 4 ports, table {1: 2, 2: 0}, end device 3 for flow 7, classes
   f mod 2.  Flow 1 reaches scheduler 2 under class 1 -- both sides of the equivalence hold for (2, 1); flow 7 reaches no
   scheduler (its end device takes it); another class function does not change the port. *)
Theorem C18_ex_fair_switch :
  let c := {| fs_nports := 4; fs_fib := Some [(1, 2); (2, 0)]%Z; fs_ends := [(7%Z, 3)]; fs_class := fun f => (f mod 2)%Z |} in
  fair_switch true true c 1 = OOut 2 /\
  fair_reaches true true c 1 = Some (2, 1%Z) /\
  (fibdemux true true (fair_demux_cfg c) 1 = OOut 2 /\ 1%Z = fs_class c 1) /\
  fair_reaches true true c 2 = Some (0, 0%Z) /\
  fair_switch true true c 7 = OEnd 3 /\ fair_reaches true true c 7 = None /\
  fair_switch true true {| fs_nports := 4; fs_fib := fs_fib c; fs_ends := fs_ends c; fs_class := fun _ => 9%Z |} 1 = OOut 2.
Proof. cbv zeta. repeat split; reflexivity. Qed.
Print Assumptions C18_ex_fair_switch.

(* ---- hub and splitter ------------------------------------------------------------------------ *)

(* Covers C18_hub_make (all three clauses) and C18_hub_repeats.  Endpoints with element ids 10, 20, 30: with the port
   list [yes; no; yes] the hub is built; a packet from 20 is repeated to endpoints 0 and 2, through their port devices,
   and not to endpoint 1 (whose id is the source); with no port list every endpoint is attached directly; with a port
   list of the wrong length the constructor raises ValueError. *)
Theorem C18_ex_hub :
  let s := [ {| ep_id := 10; ep_port := true |}; {| ep_id := 20; ep_port := false |}; {| ep_id := 30; ep_port := true |} ] in
  ([true; false; true] <> [] /\ length [true; false; true] = length [10; 20; 30]%Z /\
   hub_make true [10; 20; 30]%Z [true; false; true] = inl s) /\
  (hub_make true [10; 20; 30]%Z [] =
   inl [ {| ep_id := 10; ep_port := false |}; {| ep_id := 20; ep_port := false |}; {| ep_id := 30; ep_port := false |} ]) /\
  ([true; false] <> [] /\ length [true; false] <> length [10; 20; 30]%Z /\
   hub_make true [10; 20; 30]%Z [true; false] = inr HValueError) /\
  hub_put s 20 = [(0, true); (2, true)] /\
  (nth_error s 1 = Some {| ep_id := 20; ep_port := false |} /\ ~ In 1 (map fst (hub_put s 20))) /\
  (In (2, true) (hub_put s 20) /\ exists e, nth_error s 2 = Some e /\ ep_id e <> 20%Z /\ true = ep_port e) /\
  hub_put s 99 = [(0, true); (1, false); (2, true)].
Proof.
  cbv zeta. repeat split; try reflexivity; try discriminate.
  - cbn. intros [H|[H|[]]]; discriminate.
  - cbn. auto.
  - eexists. split; [reflexivity|]. split; [discriminate|reflexivity].
Qed.
Print Assumptions C18_ex_hub.

(* Covers C18_splitter_copies: a heap with two packets, the NSplitter has outputs 0, 1, 3 attached and 2 detached, and
   is handed object 1 (flow 3, src 7, dst 8, size 100; dict references 5 and 6).  Output 0 gets object 1 itself, outputs 1
   and 3 get the fresh objects 2 and 3 with the same header and the same dict references; writing dst = 99 into the copy
   at output 1 leaves the original and the other copy untouched. *)
Definition pA : pobj := {| hdr := mk_hdr [0; 64; 0; 0; 1; 2; 1; 0; 0; 0; 0]%Z; perhop_ref := 3; prio_ref := 4 |}.
Definition pB : pobj := {| hdr := mk_hdr [0; 100; 1; 0; 7; 8; 3; 0; 0; 0; 0]%Z; perhop_ref := 5; prio_ref := 6 |}.
Theorem C18_ex_splitter :
  let att := [true; true; false; true] in
  let h := [pA; pB] in
  let h' := fst (splitter_put true att h 1) in
  let ds := snd (splitter_put true att h 1) in
  hget h 1 = Some pB /\
  ds = [(0, 1); (1, 2); (3, 3)] /\ map fst ds = attached_from 0 att /\ length h' = 4 /\
  hget h' 2 = Some pB /\ hget h' 3 = Some pB /\ hget h' 0 = Some pA /\
  let h2 := hset h' 2 FDst 99%Z in
  option_map hdr_list (hget h2 2) = Some [0; 100; 1; 0; 7; 99; 3; 0; 0; 0; 0]%Z /\
  option_map hdr_list (hget h2 1) = Some [0; 100; 1; 0; 7; 8; 3; 0; 0; 0; 0]%Z /\
  option_map hdr_list (hget h2 3) = Some [0; 100; 1; 0; 7; 8; 3; 0; 0; 0; 0]%Z /\
  option_map perhop_ref (hget h2 2) = Some 5 /\ option_map prio_ref (hget h2 2) = Some 6.
Proof. cbv zeta. repeat split; reflexivity. Qed.
Print Assumptions C18_ex_splitter.

(* ---- fat tree --------------------------------------------------------------------------------- *)

(* Covers C18_ft_counts, C18_ft_degrees, C18_hostdist_is_distance with k = 4 (even, >= 2): 4 core, 8 aggregation, 8 edge
   switches, 16 hosts, 36 nodes; edge switch 6 (a member of ft_edgesw) has the 2 hosts 20, 21; core switch 0, aggregation
   switch 4 and edge switch 6 (members of ft_switches) have degree 4, host 20 degree 1; hosts 20 and 35 are different
   hosts in different pods: distance 6, and [20; 6; 4; 0; 16; 19; 35] is a walk of that length between them. *)
Theorem C18_ex_fattree_shape :
  Nat.even 4 = true /\ 2 <= 4 /\
  (length (ft_cores 4), length (ft_aggrs 4), length (ft_edgesw 4), length (ft_hosts 4), ft_nnodes 4) = (4, 8, 8, 16, 36) /\
  (In 6 (ft_edgesw 4) /\ hosts_of 4 6 = [20; 21]) /\
  (In 0 (ft_switches 4) /\ In 4 (ft_switches 4) /\ In 6 (ft_switches 4) /\
   map (degree (ft_edges 4)) [0; 4; 6] = [4; 4; 4]) /\
  (In 20 (ft_hosts 4) /\ degree (ft_edges 4) 20 = 1) /\
  (is_host 4 20 = true /\ is_host 4 35 = true /\ 20 <> 35 /\ hostdist 4 20 35 = 6 /\
   walkb (ft_edges 4) (20 :: [6; 4; 0; 16; 19; 35]) = true /\ last (20 :: [6; 4; 0; 16; 19; 35]) 20 = 35 /\
   length [6; 4; 0; 16; 19; 35] = hostdist 4 20 35 /\
   hostdist 4 20 21 = 2 /\ hostdist 4 20 22 = 4).
Proof.
  split; [reflexivity|]. split; [lia|]. split; [vm_compute; reflexivity|].
  (* membership by position in the node lists *)
  split; [split; [apply (nth_error_In _ 0); reflexivity|vm_compute; reflexivity]|].
  split; [split; [apply (nth_error_In _ 0); reflexivity|split; [apply (nth_error_In _ 4); reflexivity|
          split; [apply (nth_error_In _ 12); reflexivity|vm_compute; reflexivity]]]|].
  split; [split; [apply (nth_error_In _ 0); reflexivity|vm_compute; reflexivity]|].
  repeat split; try (vm_compute; reflexivity). lia.
Qed.
Print Assumptions C18_ex_fattree_shape.

(* the two flows used below (tests/apps/fattree.py style, k = 4): flow 1 from host 20 to host 35 through core switch 0,
   flow 2 from host 21 to host 22 inside pod 0; both use the link 6 - 4 *)
Definition flowsFT : list flow :=
  [ {| fid := 1%Z; fpath := [20; 6; 4; 0; 16; 19; 35] |}; {| fid := 2%Z; fpath := [21; 6; 4; 7; 22] |} ].

(* Covers C18_path_ok_shortest_partial: k = 4, and the per-run check accepts both paths (distinct hosts, a simple walk of
   length hostdist + 1); then they are shortest. *)
Theorem C18_ex_path_ok :
  Nat.even 4 = true /\ 2 <= 4 /\
  path_ok 4 20 35 [20; 6; 4; 0; 16; 19; 35] = true /\ path_ok 4 21 22 [21; 6; 4; 7; 22] = true /\
  (forall rest', walkb (ft_edges 4) (20 :: rest') = true -> last (20 :: rest') 20 = 35 -> 6 <= length rest') /\
  path_ok 4 20 35 [20; 6; 4; 2; 16; 19; 35] = false.
Proof.
  split; [reflexivity|]. split; [lia|]. split; [vm_compute; reflexivity|]. split; [vm_compute; reflexivity|].
  split; [|vm_compute; reflexivity].
  destruct (path_ok_shortest 4 20 35 [20; 6; 4; 0; 16; 19; 35] eq_refl ltac:(lia) ltac:(vm_compute; reflexivity))
    as (rest & Hp & _ & _ & _ & Hmin).
  injection Hp as <-. exact Hmin.
Qed.
Print Assumptions C18_ex_path_ok.

(* ---- forwarding tables ------------------------------------------------------------------------ *)

(* Covers C18_fib_follows_path on the fat tree's neighbour lists, with reverse (TCP) entries: distinct flow ids 1, 2 in
   [0, 10000), simple paths, consecutive nodes adjacent in both directions.  The generated table has 20 assignments; at
   the shared switch 6 flow 1 and flow 2 leave through the same port (towards 4), and the ACK class 10001 at switch 4
   leads back to 6. *)
Theorem C18_ex_fib_follows_path :
  let nb := nbrs (ft_edges 4) in
  (NoDup (map fid flowsFT) /\
   forall fl, In fl flowsFT -> (0 <= fid fl < 10000)%Z /\ NoDup (fpath fl) /\
     forall a z, In (a, z) (segs (fpath fl)) -> In z (nb a) /\ (true = true -> In a (nb z))) /\
  exists t, gen_fib nb true flowsFT = Some t /\ length t = 20 /\
    tget t 6 1%Z = Some (0, 4) /\ tget t 6 2%Z = Some (0, 4) /\ p2n (nb 6) 0 = Some 4 /\
    tget t 4 10001%Z = Some (0, 6) /\ p2n (nb 4) 0 = Some 6 /\
    tget t 4 1%Z = Some (2, 0) /\ tget t 4 2%Z = Some (1, 7) /\ tget t 35 10001%Z = Some (0, 19).
Proof.
  cbv zeta. split.
  - split; [cbn; repeat constructor; cbn; intuition discriminate|].
    intros fl [<-|[<-|[]]]; cbn [fid fpath]; (split; [lia|]);
      (split; [apply nodupb_NoDup; reflexivity|apply (walkb_walk_ok (ft_edges 4) true); vm_compute; reflexivity]).
  - apply some_fact. vm_compute. repeat split.
Qed.
Print Assumptions C18_ex_fib_follows_path.

(* Covers C18_routed_delivery on a graph that is not a fat tree: a triangle with a tail (edges 0-1, 1-2, 0-2, 2-3), flows
   5 = 0 -> 1 -> 2 -> 3 and 6 = 1 -> 2 sharing the link 1-2, TCP entries, every switch with one port per neighbour, fuel 4 =
   the length of the path.  Flow 5's packet visits exactly its path and ends in sink 5; its ACK class travels back. *)
Definition gTri : graph := [(0, 1); (1, 2); (0, 2); (2, 3)].
Definition flowsTri : list flow := [ {| fid := 5%Z; fpath := [0; 1; 2; 3] |}; {| fid := 6%Z; fpath := [1; 2] |} ].
Theorem C18_ex_routed_delivery :
  let nb := nbrs gTri in
  let fl := {| fid := 5%Z; fpath := [0; 1; 2; 3] |} in
  map nb [0; 1; 2; 3] = [[1; 2]; [0; 2]; [1; 0; 3]; [2]] /\
  flows_ok nb true flowsTri /\
  exists t, gen_fib nb true flowsTri = Some t /\
    In fl flowsTri /\ fpath fl = 0 :: [1; 2; 3] /\ length (fpath fl) <= 4 /\
    (forall n, In n (fpath fl) -> length (nb n) <= length (nb n)) /\
    last_node (fpath fl) = Some 3 /\
    route true true 4 (mk_net nb t flowsTri true (fun n => length (nb n))) 0 5%Z [] = Delivered 5 [0; 1; 2; 3] /\
    route true true 4 (mk_net nb t flowsTri true (fun n => length (nb n))) 3 10005%Z [] = Delivered (Z.to_nat 10005) [3; 2; 1; 0] /\
    route true true 4 (mk_net nb t flowsTri true (fun n => length (nb n))) 1 6%Z [] = Delivered 6 [1; 2].
Proof.
  cbv zeta.
  assert (Hok : flows_ok (nbrs gTri) true flowsTri).
  { split; [cbn; repeat constructor; cbn; intuition discriminate|].
    intros fl [<-|[<-|[]]]; cbn [fid fpath]; (split; [lia|]);
      (split; [apply nodupb_NoDup; reflexivity|apply (walkb_walk_ok gTri true); vm_compute; reflexivity]). }
  split; [vm_compute; reflexivity|]. split; [exact Hok|].
  assert (H6 : match gen_fib (nbrs gTri) true flowsTri with
               | Some t => route true true 4 (mk_net (nbrs gTri) t flowsTri true (fun n => length (nbrs gTri n))) 1 6%Z []
                           = Delivered 6 [1; 2]
               | None => False end) by (vm_compute; reflexivity).
  destruct (gen_fib (nbrs gTri) true flowsTri) as [t|] eqn:Ht; [|destruct H6].
  exists t. split; [reflexivity|]. split; [left; reflexivity|]. split; [reflexivity|]. split; [cbn; lia|].
  split; [intros n _; apply le_n|]. split; [reflexivity|].
  destruct (routed_delivery (nbrs gTri) true flowsTri t (fun n => length (nbrs gTri n)) Hok Ht
              {| fid := 5%Z; fpath := [0; 1; 2; 3] |} 0 [1; 2; 3] 4 (or_introl eq_refl) eq_refl ltac:(cbn; lia)
              (fun n _ => le_n _)) as [R1 R2].
  split; [exact R1|]. split; [exact (R2 eq_refl 3 eq_refl)|exact H6].
Qed.
Print Assumptions C18_ex_routed_delivery.

(* Covers C18_fattree_delivery: k = 4, TCP entries, the two flows above: distinct ids in range, each path accepted by
   path_ok for its (src, dst).  In the simulated fat tree of 4-port FIB switches flow 1's packet put in at host 20 arrives
   at sink 1 having visited exactly its path, flow 2's at sink 2, and the ACK class of flow 1 put in at host 35 arrives at
   the ACK sink 10001 along the reverse path -- although both flows cross the link 6 - 4. *)
Theorem C18_ex_fattree_delivery :
  Nat.even 4 = true /\ 2 <= 4 /\ NoDup (map fid flowsFT) /\
  (forall fl, In fl flowsFT -> (0 <= fid fl < 10000)%Z /\ exists src dst, path_ok 4 src dst (fpath fl) = true) /\
  exists t, gen_fib (nbrs (ft_edges 4)) true flowsFT = Some t /\
    let w := mk_net (nbrs (ft_edges 4)) t flowsFT true (fun _ => 4) in
    route true true 7 w 20 1%Z [] = Delivered 1 [20; 6; 4; 0; 16; 19; 35] /\
    route true true 7 w 35 10001%Z [] = Delivered (Z.to_nat 10001) [35; 19; 16; 0; 4; 6; 20] /\
    route true true 7 w 21 2%Z [] = Delivered 2 [21; 6; 4; 7; 22] /\
    route true true 7 w 22 10002%Z [] = Delivered (Z.to_nat 10002) [22; 7; 4; 6; 21].
Proof.
  assert (Hfl : forall fl, In fl flowsFT -> (0 <= fid fl < 10000)%Z /\ exists src dst, path_ok 4 src dst (fpath fl) = true).
  { intros fl [<-|[<-|[]]]; cbn [fid fpath]; (split; [lia|]).
    - exists 20, 35. vm_compute. reflexivity.
    - exists 21, 22. vm_compute. reflexivity. }
  split; [reflexivity|]. split; [lia|].
  apply conj_keep; [cbn; repeat constructor; cbn; intuition discriminate|intros Hnd]. split; [exact Hfl|].
  destruct (fattree_delivery 4 true flowsFT eq_refl ltac:(lia) Hnd Hfl) as (t & Ht & Hdel).
  exists t. split; [exact Ht|]. cbv zeta.
  destruct (Hdel {| fid := 1%Z; fpath := [20; 6; 4; 0; 16; 19; 35] |} 20 35 (or_introl eq_refl) ltac:(vm_compute; reflexivity))
    as [A1 A2].
  destruct (Hdel {| fid := 2%Z; fpath := [21; 6; 4; 7; 22] |} 21 22 (or_intror (or_introl eq_refl)) ltac:(vm_compute; reflexivity))
    as [B1 B2].
  split; [exact A1|]. split; [exact (A2 eq_refl)|]. split; [exact B1|exact (B2 eq_refl)].
Qed.
Print Assumptions C18_ex_fattree_delivery.
