(* C05, second tie (DESIGN 2.6), the LOOPS -- Condition.__init__ (the part before its subscription loop, ONE iteration of the
   loop and what follows it), _populate_value and _remove_check_callbacks (ONE iteration each) as translated from the tree
   under test on THIS run (Gen/Extracted_condloops.v, state record = the position k in self._events; regenerated by
   props/c05.py through props/kernel_tie.py before every build), run on the operand list with fuel 1 + its length
   (Kernel/CondLoopBridge.v [run_subscribe] / [run_populate] / [run_remove]), are call_cond / populate_ops / remove_ops of
   the hand-written kernel model (Kernel/Model.v).  Only statements.  The recursion into a nested condition is an effect
   whose meaning is the model's recursive call (the parameter rec).  The mixed-environment check loop of __init__ is one
   whitelisted statement (the model has one environment).
     C05_gen_cond_init     witness C05_ex_gen_cond_init        (the other two have no hypothesis) *)
From Coq Require Import ZArith QArith List Bool.
From ONL Require Import Kernel.Model Gen.Extracted_condloops Kernel.CondLoopBridge.
Import ListNotations.

(* no operands: succeeds at once with an empty value; else every operand, in order, is checked (already processed) or gets
   the _check callback, and only then the condition gets _build_value *)
Theorem C05_gen_cond_init : forall (all : bool) (es : list evid) (s : state),
  all_valid es s = true ->
  cond_init_fx all es s (snd (gen_Condition_init_before {| o_k := 0 |} (Z.of_nat (length es)) false false false)) =
  Some (call_cond all es s).
Proof. exact bridge_cond_init. Qed.
Print Assumptions C05_gen_cond_init.

(* the value: processed leaves left to right, nested conditions flattened in place *)
Theorem C05_gen_populate : forall (rec : list evid -> option (list (evid * val))) (evs : list event) (ops : list evid),
  run_populate rec evs (S (length ops)) ops [] {| o_k := 0 |} = populate_ops rec evs ops.
Proof. exact bridge_populate. Qed.
Print Assumptions C05_gen_populate.

(* the check callback leaves every operand that carries it, nested conditions are cleaned recursively *)
Theorem C05_gen_remove_checks : forall (rec : evid -> state -> option state) (c : evid) (ops : list evid) (s : state),
  run_remove rec c (S (length ops)) ops s {| o_k := 0 |} = remove_ops rec c ops s.
Proof. exact bridge_remove. Qed.
Print Assumptions C05_gen_remove_checks.

Theorem C05_ex_gen_cond_init :
  all_valid [0%nat; 1%nat] ex_cond_state = true /\
  cond_init_fx true [0%nat; 1%nat] ex_cond_state
    (snd (gen_Condition_init_before {| o_k := 0 |} (Z.of_nat (length [0%nat; 1%nat])) false false false)) =
  Some (call_cond true [0%nat; 1%nat] ex_cond_state) /\
  option_map cbs (get_event 0%nat (fst (call_cond true [0%nat; 1%nat] ex_cond_state))) = Some (Some [CbCheck 2%nat]) /\
  option_map cbs (get_event 2%nat (fst (call_cond true [0%nat; 1%nat] ex_cond_state))) = Some (Some [CbBuild 2%nat]) /\
  option_map out (get_event 2%nat (fst (call_cond true [0%nat; 1%nat] ex_cond_state))) = Some None.
Proof. exact ex_cond_init. Qed.
Print Assumptions C05_ex_gen_cond_init.
