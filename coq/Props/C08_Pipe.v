(* C08 -- "... and any pipeline built from them": a Coq model of COMPOSED elements and its theorems.
   Only statements, closed by the lemma that proves them, and their assumptions.
   Vocabulary (Elem/Iface.v, Elem/Compose.v, Elem/Adapt*.v):
     elem                      the common shape of the element models: state, labels of internal micro-steps, put / step /
                               advance (None = not admissible), urgent, deadline, held; outputs EForward p | EDrop p |
                               EHand k p (hand-over from stage k to stage k+1 inside a composite)
     run E s acts = Some (s', tr)   acts is an admissible execution of E from s (every action enabled); tr its timed trace
     puts tr / fwds tr / drops tr   the packets put in / forwarded / dropped along tr, in order (packet RECORDS: uid + header)
     A >> B  (= series A B)    series composition: state pair, every EForward of A is fed to B's put inside the same action
     actsA / actsB             what A / B see of a composite execution;  pipeline E [E1; ..; En] = E >> (E1 >> (.. >> En))
     conserves / flow_fifo / drained / laws   the three C08 statements in interface form
     wire_elem / port_elem / tb_elem / mq_elem (sp_elem, rr_elem, wrr_elem)   the adapters of the existing models
     par sel A B               two elements side by side (a packet goes to A iff sel p); fanin sel A B C = par sel A B >> C
     hands k tr                the packets shown as handed from stage k to stage k+1, in order;  tagged E: E numbers them consistently *)
From Coq Require Import ZArith QArith List Bool Permutation Arith.
From ONL Require Import Elem.Packet Elem.StoreQ
  Elem.HeapList Elem.WFQServer Elem.WFQServerProofs Elem.WFQServerTrace Elem.WFQ Elem.WFQProofs Elem.VC Elem.VCProofs Elem.WFQInst
  Elem.DRR Elem.DRRInv Elem.DRRProofs Elem.TwoRate Elem.TwoRateProofs Elem.Red
  Elem.Wire Elem.Port Elem.PortProofs Elem.Bucket Elem.BucketProofs Elem.SchedBase Elem.SchedBaseProofs Elem.SP
  Route.Demux Route.DemuxProofs Elem.Network Elem.Iface Elem.Compose Elem.ComposePar Elem.ComposeHands Elem.AdaptWire Elem.AdaptPort Elem.AdaptBucket Elem.AdaptSched
  Elem.AdaptSrv Elem.AdaptDRR Elem.AdaptTwoRate Elem.AdaptRed Elem.ComposeFan Elem.ComposeNet Elem.ComposeExample.
Import ListNotations.
Local Open Scope Q_scope.

(* ================= the composite is made of its parts ================= *)
(* PROJECTION, for ALL elements A B and ALL admissible executions of A >> B from any pair of states: what A sees and what B
   sees are admissible executions of A alone and of B alone ending in the component states; A was given what was put into
   the composite; B was given exactly what A forwarded, in order; the composite forwards what B forwards; its drops are A's
   and B's.  (Like cable_projection for the two directions of a Cable, but here the two automata are coupled.) *)
Theorem C08_pipe_projection : forall (A B : elem) acts sA sB sA' sB' tr,
  run (A >> B) (sA, sB) acts = Some ((sA', sB'), tr) ->
  exists trA trB,
    run A sA (actsA A B acts) = Some (sA', trA) /\ run B sB (actsB A B sA acts) = Some (sB', trB) /\
    puts trA = puts tr /\ puts trB = fwds trA /\ fwds trB = fwds tr /\
    Permutation (drops tr) (drops trA ++ drops trB).
Proof. exact series_projection. Qed.
Print Assumptions C08_pipe_projection.

(* ================= the C08 laws compose ================= *)
(* injected into A = forwarded by B ++ dropped by A ++ dropped by B ++ held by A ++ held by B, as multisets of packet records *)
Theorem C08_pipe_compose_conserves : forall (A B : elem), conserves A -> conserves B -> forall acts s tr,
  run (A >> B) (init (A >> B)) acts = Some (s, tr) ->
  exists trA trB,
    run A (init A) (actsA A B acts) = Some (fst s, trA) /\ run B (init B) (actsB A B (init A) acts) = Some (snd s, trB) /\
    puts trA = puts tr /\ puts trB = fwds trA /\ fwds trB = fwds tr /\
    Permutation (puts trA) (fwds trB ++ drops trA ++ drops trB ++ held A (fst s) ++ held B (snd s)).
Proof. exact compose_conserves. Qed.
Print Assumptions C08_pipe_compose_conserves.

(* hence the composite is again an element that conserves packets (in its own vocabulary) *)
Theorem C08_pipe_series_conserves : forall (A B : elem), conserves A -> conserves B ->
  forall acts s tr, run (A >> B) (init (A >> B)) acts = Some (s, tr) ->
  Permutation (puts tr) (fwds tr ++ drops tr ++ held (A >> B) s).
Proof. exact series_conserves. Qed.
Print Assumptions C08_pipe_series_conserves.

(* packets of one flow leave the composite in the order in which they entered it *)
Theorem C08_pipe_compose_flow_fifo : forall (A B : elem) (f : Z), flow_fifo A f -> flow_fifo B f ->
  forall acts s tr, run (A >> B) (init (A >> B)) acts = Some (s, tr) ->
  sublist (filter (on_flow f) (fwds tr)) (filter (on_flow f) (puts tr)).
Proof. exact compose_flow_fifo. Qed.
Print Assumptions C08_pipe_compose_flow_fifo.

(* nothing of either stage due now and no deadline pending: neither stage holds a packet *)
Theorem C08_pipe_compose_drained : forall (A B : elem), conserves A -> drained A -> drained B ->
  forall acts s tr, run (A >> B) (init (A >> B)) acts = Some (s, tr) ->
  Forall (fun p => accepts (A >> B) p = true) (puts tr) ->
  urgent (A >> B) s = false -> deadline (A >> B) s = None -> held A (fst s) = [] /\ held B (snd s) = [].
Proof.
  exact (fun A B CA DA DB acts s tr H Acc U Dl => app_eq_nil _ _ (compose_drained A B CA DA DB acts s tr H Acc U Dl)).
Qed.
Print Assumptions C08_pipe_compose_drained.

Theorem C08_pipe_series_laws : forall (A B : elem), laws A -> laws B -> laws (A >> B).
Proof. exact series_laws. Qed.
Print Assumptions C08_pipe_series_laws.

(* by induction: every finite linear pipeline of law-abiding elements conserves packets, keeps per-flow order and drains *)
Theorem C08_pipe_pipeline_laws : forall (es : list elem) (E : elem), laws E -> Forall laws es -> laws (pipeline E es).
Proof. exact pipeline_laws. Qed.
Print Assumptions C08_pipe_pipeline_laws.

(* the stages share the clock; Advance is admissible only when nothing of any stage is due and no stage's deadline is passed *)
Theorem C08_pipe_series_timed : forall (A B : elem), timed A -> timed B -> timed (A >> B).
Proof. exact series_timed. Qed.
Print Assumptions C08_pipe_series_timed.

Theorem C08_pipe_series_clock : forall (A B : elem), timed A -> timed B -> forall acts sA sB sA' sB' tr,
  run (A >> B) (sA, sB) acts = Some ((sA', sB'), tr) -> now A sA = now B sB -> now A sA' = now B sB'.
Proof. exact series_clock. Qed.
Print Assumptions C08_pipe_series_clock.

Theorem C08_pipe_pipeline_timed : forall (es : list elem) (E : elem), timed E -> Forall timed es -> timed (pipeline E es).
Proof. exact pipeline_timed. Qed.
Print Assumptions C08_pipe_pipeline_timed.

(* ================= the hand-overs shown are the hand-overs made ================= *)
(* what any execution of A >> B shows at the boundary between A and B (this is what the correspondence compares with the taps
   between the stages of a real pipeline) is, in order, exactly what A forwarded, i.e. what was put into B *)
Theorem C08_pipe_hands : forall (A B : elem), tagged A -> forall acts sA sB s' tr sA' trA,
  run (A >> B) (sA, sB) acts = Some (s', tr) -> run A sA (actsA A B acts) = Some (sA', trA) ->
  hands (pred (width A)) tr = fwds trA.
Proof. exact series_hands. Qed.
Print Assumptions C08_pipe_hands.

Theorem C08_pipe_pipeline_tagged : forall (es : list elem) (E : elem), tagged E -> Forall tagged es -> tagged (pipeline E es).
Proof. exact pipeline_tagged. Qed.
Print Assumptions C08_pipe_pipeline_tagged.

Theorem C08_pipe_adapters_tagged :
  (forall loss t0, tagged (wire_elem loss t0)) /\ (forall c t0, tagged (port_elem c t0)) /\
  (forall c t0, tagged (tb_elem c t0)) /\ (forall c, tagged (mq_elem c)).
Proof. exact (conj wire_elem_tagged (conj port_elem_tagged (conj tb_elem_tagged mq_elem_tagged))). Qed.
Print Assumptions C08_pipe_adapters_tagged.

(* ================= fan-in ================= *)
(* two upstream elements side by side: each branch of ANY execution is an admissible execution of that element alone; what is
   put in, forwarded and dropped are interleavings of the branches' *)
Theorem C08_pipe_par_projection : forall (sel : pkt -> bool) (A B : elem) acts sA sB sA' sB' tr,
  run (par sel A B) (sA, sB) acts = Some ((sA', sB'), tr) ->
  exists trA trB,
    run A sA (pactsA sel A B acts) = Some (sA', trA) /\ run B sB (pactsB sel A B acts) = Some (sB', trB) /\
    interleave (puts trA) (puts trB) (puts tr) /\ interleave (fwds trA) (fwds trB) (fwds tr) /\
    interleave (drops trA) (drops trB) (drops tr) /\
    Forall (fun p => sel p = true) (puts trA) /\ Forall (fun p => sel p = false) (puts trB).
Proof. exact par_projection. Qed.
Print Assumptions C08_pipe_par_projection.

(* (A | B) >> C: injected into A and into B = forwarded by C ++ dropped by A, B, C ++ held by A, B, C *)
Theorem C08_pipe_fanin_conserves : forall (sel : pkt -> bool) (A B C : elem), conserves A -> conserves B -> conserves C ->
  forall acts s tr, run (fanin sel A B C) (init (fanin sel A B C)) acts = Some (s, tr) ->
  Permutation (puts tr) (fwds tr ++ drops tr ++ (held A (fst (fst s)) ++ held B (snd (fst s))) ++ held C (snd s)).
Proof. exact fanin_conserves. Qed.
Print Assumptions C08_pipe_fanin_conserves.

(* a flow injected into one branch only leaves the fan-in in the order in which it entered *)
Theorem C08_pipe_fanin_flow_fifo : forall (sel : pkt -> bool) (A B C : elem) (f : Z),
  conserves A -> conserves B ->
  ((forall p, on_flow f p = true -> sel p = true) /\ flow_fifo A f \/ (forall p, on_flow f p = true -> sel p = false) /\ flow_fifo B f) ->
  flow_fifo C f ->
  forall acts s tr, run (fanin sel A B C) (init (fanin sel A B C)) acts = Some (s, tr) ->
  sublist (filter (on_flow f) (fwds tr)) (filter (on_flow f) (puts tr)).
Proof. exact fanin_flow_fifo. Qed.
Print Assumptions C08_pipe_fanin_flow_fifo.

Theorem C08_pipe_fanin_drained : forall (sel : pkt -> bool) (A B C : elem),
  conserves A -> conserves B -> drained A -> drained B -> drained C -> drained (fanin sel A B C).
Proof. exact fanin_drained. Qed.
Print Assumptions C08_pipe_fanin_drained.

(* the hand-overs of a fan-in: what is shown in front of C is an interleaving of what A and what B forwarded *)
Theorem C08_pipe_par_tagged : forall (sel : pkt -> bool) (A B : elem), tagged A -> tagged B -> tagged (par sel A B).
Proof. exact par_tagged. Qed.
Print Assumptions C08_pipe_par_tagged.

Theorem C08_pipe_fanin_hands : forall (sel : pkt -> bool) (A B C : elem), tagged A -> tagged B -> forall acts s tr,
  run (fanin sel A B C) (init (fanin sel A B C)) acts = Some (s, tr) ->
  exists trA trB,
    run A (init A) (pactsA sel A B (actsA (par sel A B) C acts)) = Some (fst (fst s), trA) /\
    run B (init B) (pactsB sel A B (actsA (par sel A B) C acts)) = Some (snd (fst s), trB) /\
    interleave (fwds trA) (fwds trB) (hands (pred (width A + width B)%nat) tr).
Proof. exact fanin_hands. Qed.
Print Assumptions C08_pipe_fanin_hands.

(* ================= fan-out ================= *)
(* two elements side by side behind a classifier that looks at the flow id only: all three laws, for every flow *)
Theorem C08_pipe_par_laws_by_flow : forall (sel : pkt -> bool) (g : Z -> bool) (A B : elem),
  (forall p, sel p = g (flow p)) -> laws A -> laws B -> laws (par sel A B).
Proof. exact par_laws_by_flow. Qed.
Print Assumptions C08_pipe_par_laws_by_flow.

(* the demultiplexer (FlowDemux / FIBDemux: any decision function of Route/Demux.v) as a stateless element: every packet put
   in leaves it exactly once -- handed on iff the decision is a device, discarded iff it is "nowhere" *)
Theorem C08_pipe_demux_elem : forall (route : Z -> Demux.output) (t0 : Q),
  laws (demux_elem route t0) /\ timed (demux_elem route t0) /\ tagged (demux_elem route t0) /\
  (forall p s s' o, demux_put route p s = Some (s', o) ->
     s' = s /\ o_fwds o ++ o_drops o = [p] /\ (o_fwds o = [p] <-> deliverable (route (flow p)) = true)).
Proof.
  exact (fun route t0 => conj (demux_elem_laws route t0) (conj (demux_elem_timed route t0) (conj (demux_elem_tagged route t0)
                            (demux_put_once route)))).
Qed.
Print Assumptions C08_pipe_demux_elem.

(* C18's exactly-one-output theorem feeds the composition: the FIBDemux element hands a packet on as often as the delivery list
   of C18_exactly_one_output is long; FlowDemux(two outputs, no default) sends flow 0 to the first branch, flow 1 to the second
   and discards every other flow (C18_flowdemux_rule) *)
Theorem C08_pipe_demux_routes :
  (forall c p s s' o, demux_put (fibdemux true true c) p s = Some (s', o) ->
     length (o_fwds o) = length (fst (fib_deliveries true true true c [] (flow p)))) /\
  (let route := flowdemux true {| fd_nouts := 2; fd_default := false |} in
   forall p, (branch0 route p = true <-> flow p = 0%Z) /\ (routed route p = true <-> (0 <= flow p < 2)%Z) /\
             (routed route p = false -> route (flow p) = ONowhere)).
Proof. exact (conj fibdemux_put_deliveries flowdemux2_routes). Qed.
Print Assumptions C08_pipe_demux_routes.

(* A -> demux -> (B | C) *)
Theorem C08_pipe_fanout_laws : forall (route : Z -> Demux.output) (t0 : Q) (A B C : elem),
  (laws A -> laws B -> laws C -> laws (fanout route t0 A B C)) /\
  (timed A -> timed B -> timed C -> timed (fanout route t0 A B C)) /\
  (tagged A -> tagged B -> tagged C -> tagged (fanout route t0 A B C)).
Proof. exact (fun route t0 A B C => conj (fanout_laws route t0 A B C) (conj (fanout_timed route t0 A B C) (fanout_tagged route t0 A B C))). Qed.
Print Assumptions C08_pipe_fanout_laws.

(* injected into A = delivered by B and by C ++ dropped (by A, by the demux's no-route rule, by B, by C) ++ held by A, B, C *)
Theorem C08_pipe_fanout_conserves : forall (route : Z -> Demux.output) (t0 : Q) (A B C : elem),
  conserves A -> conserves B -> conserves C -> forall acts s tr,
  run (fanout route t0 A B C) (init (fanout route t0 A B C)) acts = Some (s, tr) ->
  Permutation (puts tr) (fwds tr ++ drops tr ++ held A (fst s) ++ held B (fst (snd (snd s))) ++ held C (snd (snd (snd s)))).
Proof. exact fanout_conserves. Qed.
Print Assumptions C08_pipe_fanout_conserves.

(* ================= the abstract composition theorem is instantiated ================= *)
(* For every execution of every series composition of two conserving elements, the wiring "node 0 = A, node 1 = B, injection
   into A, A sends what it forwards to B, B delivers to the sink" satisfies the three hypotheses of C08_network_conserves
   (Props/C08_Net.v); its conclusion is the conservation equation of the composite, per packet identity. *)
Theorem C08_pipe_network_instance : forall (A B : elem), conserves A -> conserves B -> forall acts s tr,
  run (A >> B) (init (A >> B)) acts = Some (s, tr) ->
  exists trA trB,
    run A (init A) (actsA A B acts) = Some (fst s, trA) /\ run B (init B) (actsB A B (init A) acts) = Some (snd s, trB) /\
    puts trA = puts tr /\ fwds trB = fwds tr /\
    ((forall i u, i < 2 -> cnt u (n_inp A B trA trB i) = cnt u (n_fwd A B trA trB i) + cnt u (n_drp A B trA trB i) + cnt u (n_held A B (fst s) (snd s) i)) /\
    (forall i u, i < 2 -> cnt u (n_fwd A B trA trB i) = sum_n 2 (fun j => cnt u (n_sent A trA i j)) + cnt u (n_tosink B trB i)) /\
    (forall j u, j < 2 -> cnt u (n_inp A B trA trB j) = cnt u (n_inj A trA j) + sum_n 2 (fun i => cnt u (n_sent A trA i j))) /\
    (forall u, cnt u (uids (puts tr)) =
               cnt u (uids (fwds tr)) + (cnt u (uids (drops trA)) + cnt u (uids (drops trB)))
               + (cnt u (uids (held A (fst s))) + cnt u (uids (held B (snd s))))))%nat.
Proof. exact compose_network. Qed.
Print Assumptions C08_pipe_network_instance.

(* ... and for linear pipelines of ANY length: the stage-by-stage views of an execution (what each stage was given, forwarded,
   dropped, holds: pviews) form a wiring "node i sends what it forwards to node i+1" that satisfies the three hypotheses of
   C08_network_conserves, for every execution of every finite pipeline of conserving elements; the conclusion is the
   end-to-end equation with the drops and the held packets of all stages summed *)
Theorem C08_pipe_pipeline_network : forall (es : list elem) (E : elem), conserves E -> Forall conserves es -> forall acts s tr,
  run (pipeline E es) (init (pipeline E es)) acts = Some (s, tr) ->
  exists vs, pviews es E acts = Some vs /\ length vs = S (length es) /\
    let n := length vs in
    ((forall i u, i < n -> cnt u (c_inp vs i) = cnt u (c_fwd vs i) + cnt u (c_drp vs i) + cnt u (c_held vs i)) /\
     (forall i u, i < n -> cnt u (c_fwd vs i) = sum_n n (fun j => cnt u (c_sent vs i j)) + cnt u (c_tosink vs i)) /\
     (forall j u, j < n -> cnt u (c_inp vs j) = cnt u (c_inj vs j) + sum_n n (fun i => cnt u (c_sent vs i j))) /\
     (forall u, cnt u (uids (puts tr)) =
                cnt u (uids (fwds tr)) + sum_n n (fun i => cnt u (c_drp vs i)) + sum_n n (fun i => cnt u (c_held vs i))))%nat.
Proof. exact pipeline_network. Qed.
Print Assumptions C08_pipe_pipeline_network.

(* the views are what the stages' own executions say, they are chained, and each satisfies its element's conservation law *)
Theorem C08_pipe_pipeline_views : forall (es : list elem) (E : elem), conserves E -> Forall conserves es -> forall acts s tr,
  run (pipeline E es) (init (pipeline E es)) acts = Some (s, tr) ->
  exists vs, pviews es E acts = Some vs /\ length vs = S (length es) /\ Forall v_ok vs /\ chained vs /\
             v_puts (nthv vs 0) = puts tr /\ v_fwds (nthv vs (length es)) = fwds tr.
Proof. exact pipeline_views. Qed.
Print Assumptions C08_pipe_pipeline_views.

(* ================= the adapters: the interface elements ARE the existing models ================= *)
Theorem C08_pipe_wire_adapter_exact : forall loss t0 w w',
  (forall acts tr, wire_run loss w acts = Some (w', tr) -> run (wire_elem loss t0) w (map w_of acts) = Some (w', map w_ev tr)) /\
  (forall acts tr, run (wire_elem loss t0) w acts = Some (w', tr) ->
     exists tr0, wire_run loss w (map w_to acts) = Some (w', tr0) /\ tr = map w_ev tr0 /\ map w_of (map w_to acts) = acts).
Proof. exact (fun loss t0 w w' => conj (fun acts tr => wire_run_elem loss t0 acts w w' tr) (fun acts tr => wire_elem_run loss t0 acts w w' tr)). Qed.
Print Assumptions C08_pipe_wire_adapter_exact.

Theorem C08_pipe_port_adapter_exact : forall c t0 s s',
  (forall acts tr, Forall no_draw acts -> port_run c s acts = Some (s', tr) -> run (port_elem c t0) s (map p_of acts) = Some (s', map p_ev tr)) /\
  (forall acts tr, run (port_elem c t0) s acts = Some (s', tr) ->
     exists tr0, port_run c s (map p_to acts) = Some (s', tr0) /\ tr = map p_ev tr0 /\
                 map p_of (map p_to acts) = acts /\ Forall no_draw (map p_to acts)).
Proof. exact (fun c t0 s s' => conj (fun acts tr => port_run_elem c t0 acts s s' tr) (fun acts tr => port_elem_run c t0 acts s s' tr)). Qed.
Print Assumptions C08_pipe_port_adapter_exact.

Theorem C08_pipe_tb_adapter_exact : forall c t0 s s',
  (forall acts tr, tb_run c s acts = Some (s', tr) -> run (tb_elem c t0) s (map t_of acts) = Some (s', map t_ev tr)) /\
  (forall acts tr, run (tb_elem c t0) s acts = Some (s', tr) ->
     exists tr0, tb_run c s (map t_to acts) = Some (s', tr0) /\ tr = map t_ev tr0 /\ map t_of (map t_to acts) = acts).
Proof. exact (fun c t0 s s' => conj (fun acts tr => tb_run_elem c t0 acts s s' tr) (fun acts tr => tb_elem_run c t0 acts s s' tr)). Qed.
Print Assumptions C08_pipe_tb_adapter_exact.

Theorem C08_pipe_mq_adapter_exact : forall c s s',
  (forall acts tr, mq_run c s acts = Some (s', tr) -> run (mq_elem c) s (map s_of acts) = Some (s', map s_ev tr)) /\
  (forall acts tr, run (mq_elem c) s acts = Some (s', tr) ->
     exists tr0, mq_run c s (map s_to acts) = Some (s', tr0) /\ tr = map s_ev tr0 /\ map s_of (map s_to acts) = acts).
Proof. exact (fun c s s' => conj (fun acts tr => mq_run_elem c acts s s' tr) (fun acts tr => mq_elem_run c acts s s' tr)). Qed.
Print Assumptions C08_pipe_mq_adapter_exact.

(* WFQ and VirtualClock (one automaton with a stamping discipline S): the adapter's put refuses unconfigured packets, so its
   executions are exactly the model's executions over configured packets (put_ok: every FPut carries a configured packet) *)
Theorem C08_pipe_srv_adapter_exact : forall (S : stamper) (rate : Q) (st0 : ST S) (confb : pkt -> bool) s s',
  (forall acts tr, Forall (put_ok confb) acts -> WFQServer.run S rate s acts = Some (s', tr) ->
     Iface.run (srv_elem S rate st0 confb) s (map f_of acts) = Some (s', map (f_ev S) tr)) /\
  (forall acts tr, Iface.run (srv_elem S rate st0 confb) s acts = Some (s', tr) ->
     exists tr0, WFQServer.run S rate s (map f_to acts) = Some (s', tr0) /\ tr = map (f_ev S) tr0 /\
                 map f_of (map f_to acts) = acts /\ Forall (put_ok confb) (map f_to acts)).
Proof.
  exact (fun S rate st0 confb s s' => conj (fun acts tr => srv_run_elem S rate st0 confb acts s s' tr)
                                           (fun acts tr => srv_elem_run S rate st0 confb acts s s' tr)).
Qed.
Print Assumptions C08_pipe_srv_adapter_exact.

Theorem C08_pipe_drr_adapter_exact : forall c t0 s s',
  (forall acts tr, drr_run c s acts = Some (s', tr) -> Iface.run (drr_elem c t0) s (map d_of acts) = Some (s', map d_ev tr)) /\
  (forall acts tr, Iface.run (drr_elem c t0) s acts = Some (s', tr) ->
     exists tr0, drr_run c s (map d_to acts) = Some (s', tr0) /\ tr = map d_ev tr0 /\ map d_of (map d_to acts) = acts).
Proof. exact (fun c t0 s s' => conj (fun acts tr => drr_run_elem c t0 acts s s' tr) (fun acts tr => drr_elem_run c t0 acts s s' tr)). Qed.
Print Assumptions C08_pipe_drr_adapter_exact.

Theorem C08_pipe_trtb_adapter_exact : forall c t0 s s',
  (forall acts tr, tr_run true true c s acts = Some (s', tr) -> Iface.run (trtb_elem c t0) s (map r_of acts) = Some (s', map r_ev tr)) /\
  (forall acts tr, Iface.run (trtb_elem c t0) s acts = Some (s', tr) ->
     exists tr0, tr_run true true c s (map r_to acts) = Some (s', tr0) /\ tr = map r_ev tr0 /\ map r_of (map r_to acts) = acts).
Proof. exact (fun c t0 s s' => conj (fun acts tr => tr_run_elem c t0 acts s s' tr) (fun acts tr => trtb_elem_run c t0 acts s s' tr)). Qed.
Print Assumptions C08_pipe_trtb_adapter_exact.

(* elements whose put() consumes a random draw (REDPort; any drop policy of Elem/Port.v): the adapter keeps an oracle tape of
   draws in its state (`OLoad u` appends the next value of random.uniform, a put consumes the head exactly when the policy asks
   for a draw), because in a composition the put is made inside an action of the UPSTREAM element.  Its executions are the
   executions of port_run: adapter -> model for every tape; model -> adapter (each draw loaded right before the put that
   consumes it) for every policy that asks for a determinate number of draws, which RED's and the tail-drop policy do *)
Theorem C08_pipe_oport_adapter_exact : forall c t0,
  (forall acts s tape s' tape' tr, Iface.run (oport_elem c t0) (s, tape) acts = Some ((s', tape'), tr) ->
     exists tr0, port_run c s (o_model c s tape acts) = Some (s', tr0) /\
                 Iface.puts tr = PortProofs.puts tr0 /\ Iface.fwds tr = forwarded tr0 /\ Iface.drops tr = dropped tr0) /\
  (draw_det c -> forall acts s s' tr0, port_run c s acts = Some (s', tr0) ->
     exists tr, Iface.run (oport_elem c t0) (s, []) (flat_map o_of acts) = Some ((s', []), tr) /\
                Iface.puts tr = PortProofs.puts tr0 /\ Iface.fwds tr = forwarded tr0 /\ Iface.drops tr = dropped tr0) /\
  (forall f rate rc eid, draw_det (red_cfg f rate rc eid)) /\ (forall f rate ql lb eid, draw_det (port_cfg f rate ql lb eid)).
Proof.
  exact (fun c t0 => conj (oport_elem_run c t0) (conj (port_run_oelem c t0) (conj red_draw_det tail_draw_det))).
Qed.
Print Assumptions C08_pipe_oport_adapter_exact.

(* the per-element C08 theorems in interface form *)
Theorem C08_pipe_wire_laws : forall loss t0, laws (wire_elem loss t0) /\ timed (wire_elem loss t0).
Proof. exact (fun loss t0 => conj (wire_elem_laws loss t0) (wire_elem_timed loss t0)). Qed.
Print Assumptions C08_pipe_wire_laws.

Theorem C08_pipe_port_laws : forall c t0, laws (port_elem c t0) /\ timed (port_elem c t0).
Proof. exact (fun c t0 => conj (port_elem_laws c t0) (port_elem_timed c t0)). Qed.
Print Assumptions C08_pipe_port_laws.

Theorem C08_pipe_tb_laws : forall c t0, 0 < Bucket.rate c -> (forall k, peak_on c = Some k -> 0 < k) ->
  laws (tb_elem c t0) /\ timed (tb_elem c t0).
Proof. exact (fun c t0 R _ => conj (tb_elem_laws c t0 R) (tb_elem_timed c t0)). Qed.
Print Assumptions C08_pipe_tb_laws.

(* SP, RR and WRR are configurations of one automaton: rate > 0, identity class map for the counting schedulers,
   every allowance (SP priority, WRR weight) positive *)
Theorem C08_pipe_mq_laws : forall c, cfg_ok c -> laws (mq_elem c) /\ timed (mq_elem c).
Proof. exact (fun c Ok => conj (mq_elem_laws c Ok) (mq_elem_timed c)). Qed.
Print Assumptions C08_pipe_mq_laws.

Theorem C08_pipe_sp_laws : forall r cm fl tbl, 0 < r -> (forall k p, In (k, p) tbl -> (0 < p)%Z) -> laws (sp_elem r cm fl tbl).
Proof. exact sp_elem_laws. Qed.
Print Assumptions C08_pipe_sp_laws.

Theorem C08_pipe_rr_wrr_laws :
  (forall r fl, 0 < r -> laws (rr_elem r fl)) /\
  (forall r ws, 0 < r -> (forall f w, In (f, w) ws -> (0 < w)%Z) -> laws (wrr_elem r ws)).
Proof. exact (conj rr_elem_laws wrr_elem_laws). Qed.
Print Assumptions C08_pipe_rr_wrr_laws.

Theorem C08_pipe_wfq_vc_laws :
  (forall cfg, wcfg_ok cfg -> laws (wfq_elem cfg) /\ timed (wfq_elem cfg) /\ tagged (wfq_elem cfg)) /\
  (forall cfg, vcfg_ok cfg -> laws (vc_elem cfg) /\ timed (vc_elem cfg) /\ tagged (vc_elem cfg)).
Proof.
  exact (conj (fun cfg Ok => conj (wfq_elem_laws cfg Ok) (conj (srv_elem_timed _ _ _ _) (wfq_elem_tagged cfg)))
              (fun cfg Ok => conj (vc_elem_laws cfg Ok) (conj (srv_elem_timed _ _ _ _) (vc_elem_tagged cfg)))).
Qed.
Print Assumptions C08_pipe_wfq_vc_laws.

Theorem C08_pipe_drr_laws : forall cfg t0, dwf cfg ->
  laws (drr_elem cfg t0) /\ timed (drr_elem cfg t0) /\ tagged (drr_elem cfg t0).
Proof. exact (fun cfg t0 W => conj (drr_elem_laws cfg t0 W) (conj (drr_elem_timed cfg t0) (drr_elem_tagged cfg t0))). Qed.
Print Assumptions C08_pipe_drr_laws.

Theorem C08_pipe_trtb_laws : forall c t0, trwf c ->
  laws (trtb_elem c t0) /\ timed (trtb_elem c t0) /\ tagged (trtb_elem c t0).
Proof. exact (fun c t0 W => conj (trtb_elem_laws c t0 W) (conj (trtb_elem_timed c t0) (trtb_elem_tagged c t0))). Qed.
Print Assumptions C08_pipe_trtb_laws.

(* REDPort (and the port under any other drop policy, draws or not) *)
Theorem C08_pipe_oport_laws : forall c t0, laws (oport_elem c t0) /\ timed (oport_elem c t0) /\ tagged (oport_elem c t0).
Proof. exact (fun c t0 => conj (oport_elem_laws c t0) (conj (oport_elem_timed c t0) (oport_elem_tagged c t0))). Qed.
Print Assumptions C08_pipe_oport_laws.

(* ================= a concrete family: Port >> Wire >> TokenBucket, every configuration ================= *)
(* every admissible execution of the three-stage pipeline: injected = delivered ++ dropped (port refusals, wire losses) ++
   held (by the port, the wire, the bucket), per-flow order kept end to end, and at quiescence nothing is held *)
Theorem C08_pipe_port_wire_tb : forall (pc : pcfg) (loss : option Q) (tc : tbcfg) (t0 : Q),
  0 < Bucket.rate tc -> (forall k, peak_on tc = Some k -> 0 < k) ->
  let E := pipeline (port_elem pc t0) [wire_elem loss t0; tb_elem tc t0] in
  forall acts s tr, run E (init E) acts = Some (s, tr) ->
    Permutation (puts tr) (fwds tr ++ drops tr ++ port_held (fst s) ++ wheld (fst (snd s)) ++ tb_held (snd (snd s)))
    /\ (forall f, sublist (filter (on_flow f) (fwds tr)) (filter (on_flow f) (puts tr)))
    /\ (Forall (fun p => (0 <= psize p)%Z) (puts tr) -> urgent E s = false -> deadline E s = None ->
        Permutation (puts tr) (fwds tr ++ drops tr)).
Proof. exact port_wire_tb_conserves. Qed.
Print Assumptions C08_pipe_port_wire_tb.

(* ================= non-vacuity: concrete executions, computed ================= *)
(* Port(1024 bit/s, 2 packets) >> Wire(delay 1/2) >> TokenBucket(512 bit/s, 128 B): three 128-byte packets at t = 0; the third
   is refused by the port; the other two cross the wire and the bucket (the second waits one second for tokens) *)
Example C08_pipe_example_run :
  exists s tr, run ex_pipe (init ex_pipe) ex_acts = Some (s, tr) /\
    puts tr = [xp 0; xp 1; xp 2] /\ fwds tr = [xp 0; xp 1] /\ drops tr = [xp 2] /\
    hands 0 tr = [xp 0; xp 1] /\ hands 1 tr = [xp 0; xp 1] /\
    tfwds tr = [(3 # 2, xp 0); (7 # 2, xp 1)] /\
    held ex_pipe s = [] /\ urgent ex_pipe s = false /\ deadline ex_pipe s = None.
Proof. exact ex_pipe_run. Qed.
Print Assumptions C08_pipe_example_run.

(* the same execution stopped after 14 actions: one packet is in the port's transmission, one propagates on the wire *)
Example C08_pipe_example_held :
  exists s tr, run ex_pipe (init ex_pipe) (firstn 14 ex_acts) = Some (s, tr) /\
    puts tr = [xp 0; xp 1; xp 2] /\ fwds tr = [] /\ drops tr = [xp 2] /\
    port_held (fst s) = [xp 1] /\ wheld (fst (snd s)) = [xp 0] /\ tb_held (snd (snd s)) = [] /\
    deadline ex_pipe s = Some (3 # 2).
Proof. exact ex_pipe_held. Qed.
Print Assumptions C08_pipe_example_held.

(* a scheduler in the middle: Wire >> SP(flows 0,1; priorities 1,2) >> Port, two flows *)
Example C08_pipe_example_sp :
  exists s tr, run ex2_pipe (init ex2_pipe) ex2_acts = Some (s, tr) /\
    puts tr = [yp 0 0; yp 1 1; yp 2 0] /\ fwds tr = [yp 1 1; yp 0 0; yp 2 0] /\ drops tr = [] /\ held ex2_pipe s = [].
Proof. exact ex2_pipe_run. Qed.
Print Assumptions C08_pipe_example_sp.

(* fan-in: two rate-0 ports (flow 0 / the other flows) into one SP; the scheduler serves flow 1 first *)
Example C08_pipe_example_fanin :
  exists s tr, run ex3_net (init ex3_net) ex3_acts = Some (s, tr) /\
    puts tr = [yp 0 0; yp 1 1] /\ fwds tr = [yp 1 1; yp 0 0] /\ drops tr = [] /\
    hands 1 tr = [yp 0 0; yp 1 1] /\ held ex3_net s = [] /\ urgent ex3_net s = false /\ deadline ex3_net s = None.
Proof. exact ex3_fanin_run. Qed.
Print Assumptions C08_pipe_example_fanin.

(* fan-out: Wire -> FlowDemux(two outputs, no default) -> two rate-0 ports; the packet of flow 2 is discarded by the demux *)
Example C08_pipe_example_fanout :
  exists s tr, run ex4_net (init ex4_net) ex4_acts = Some (s, tr) /\
    puts tr = [yp 0 0; yp 1 1; yp 2 2] /\ fwds tr = [yp 1 1; yp 0 0] /\ drops tr = [yp 2 2] /\
    hands 0 tr = [yp 0 0; yp 1 1; yp 2 2] /\ hands 1 tr = [yp 0 0; yp 1 1] /\
    held ex4_net s = [] /\ urgent ex4_net s = false /\ deadline ex4_net s = None.
Proof. exact ex4_fanout_run. Qed.
Print Assumptions C08_pipe_example_fanout.

(* the stage-by-stage views of the three-stage example *)
Example C08_pipe_example_views :
  pviews [wire_elem None 0; tb_elem ex_tb 0] (port_elem ex_port 0) ex_acts =
  Some [ {| v_puts := [xp 0; xp 1; xp 2]; v_fwds := [xp 0; xp 1]; v_drops := [xp 2]; v_held := [] |};
         {| v_puts := [xp 0; xp 1]; v_fwds := [xp 0; xp 1]; v_drops := []; v_held := [] |};
         {| v_puts := [xp 0; xp 1]; v_fwds := [xp 0; xp 1]; v_drops := []; v_held := [] |} ].
Proof. exact ex_pipe_views. Qed.
Print Assumptions C08_pipe_example_views.
