(* C07 -- NON-VACUITY of the theorems of Props/C07.v (and Props/C07_Bridge.v).

   An implication whose hypotheses no reachable state satisfies says nothing: every theorem below instantiates ALL hypotheses of one or several
   theorems of Props/C07.v at closed terms -- one history per kind of resource, each with blocked puts, blocked gets,
   coinciding operations, clock advances, and (Container) a cancel that lets the next request through -- proves them
   together, and states the concrete content of the instantiated conclusions (level, items held, grant log, who
   waits), obtained by running the model and by applying the very lemmas that close the theorems.
   All histories run the repaired code (fixed = true), so they also witness the theorems stated for both variants.

   Coverage (hypothesis-carrying theorems of Props/C07.v -> witness):
     C07_level_bounds, C07_level_conservation, C07_triggered_at_most_once, C07_puts_fcfs     -> C07_ex_container
     C07_heads_blocked_at_advance (gblock = true), C07_heads_blocked_container               -> C07_ex_container_advance
     C07_store_bounded, C07_delivered_exactly_once_store, C07_store_fifo, C07_gets_fcfs      -> C07_ex_store
     C07_heads_blocked_store                                                                 -> C07_ex_store_advance
     C07_prio_store_bounded, C07_delivered_exactly_once_prio, C07_prio_store_min             -> C07_ex_prio
     C07_heads_blocked_prio                                                                  -> C07_ex_prio_advance
     C07_filter_store_bounded, C07_delivered_exactly_once_filter, C07_filter_put_ids_exactly_once,
       C07_filter_store_first_match, C07_filter_store_put_appends                            -> C07_ex_filter
     C07_filter_overtake_only_nonmatching                                                    -> C07_ex_filter_overtake
     C07_heads_blocked_filter, C07_heads_blocked_at_advance (gblock = false)                 -> C07_ex_filter_advance
     C07_heappop_min_and_multiset, C07_heappush_multiset                                     -> C07_ex_heap
   Already witnesses (existential statements): C07_store_bounded_refuted_before_fix,
     C07_filter_delivered_once_refuted_before_fix, C07_heads_blocked_refuted_before_fix.
   Unconditional (nothing to witness): C07_laws_container, C07_laws_store, C07_laws_prio, C07_laws_filter;
     C07_heap_total (its only premise, h <> [], sits inside the conclusion; C07_ex_heap has such an h);
     all of Props/C07_Bridge.v (C07_gen_container_do_put, C07_gen_container_do_get, C07_gen_store_do_put,
     C07_gen_store_do_get, C07_gen_pstore_do_put, C07_gen_pstore_do_get: equations for all arguments). *)
From Coq Require Import ZArith QArith List Bool Arith Sorted Permutation Lia.
From ONL Require Import Base.Tools Res.Heap Res.HeapProofs Res.ContainerStore Res.ContainerStoreProofs
                        Res.ContainerProofs Res.StoreProofs.
Import ListNotations.
Local Open Scope nat_scope.

(* ================================================================================================================ *)
(* Container(capacity 10, init 5).
     t=0  put(4) -> request 0 granted, level 9      put(3) -> request 1 waits (room 1)
          put(1) -> request 2 waits BEHIND request 1 although it would fit (first come first served)
          get(12) -> request 3 waits                the kernel processes the event of request 0
     t=1  get(2) -> request 4 waits behind request 3 although the level suffices
          request 3 is cancelled -> rescan: request 4 granted, level 7
          its event is processed -> rescan of the puts: request 1 granted, level 10; request 2 (amount 1) still blocked
          the event of request 1 is processed
     t=2                                                                                                          *)
Definition C07_KCo : kind := Container (Some 10%Q).
Definition C07_ex_co_acts : list (action C07_KCo) :=
  [ APut (K:=C07_KCo) 4%Q; APut (K:=C07_KCo) 3%Q; APut (K:=C07_KCo) 1%Q; AGet (K:=C07_KCo) 12%Q; AProcess (K:=C07_KCo) 0;
    AAdvance (K:=C07_KCo) 1%Q; AGet (K:=C07_KCo) 2%Q; ACancel (K:=C07_KCo) 3; AProcess (K:=C07_KCo) 4;
    AProcess (K:=C07_KCo) 1; AAdvance (K:=C07_KCo) 2%Q ].
Definition C07_ex_co_end : state C07_KCo :=
  mkst (K:=C07_KCo) 10%Q [(2, 1%Q)] [] [] [GPut (K:=C07_KCo) 0 4%Q; GGet (K:=C07_KCo) 4 2%Q tt; GPut (K:=C07_KCo) 1 3%Q] 5 2%Q.
(* the state at the end of instant 0 (after the first five actions) *)
Definition C07_ex_co_t0 : state C07_KCo :=
  mkst (K:=C07_KCo) 9%Q [(1, 3%Q); (2, 1%Q)] [(3, 12%Q)] [] [GPut (K:=C07_KCo) 0 4%Q] 4 0%Q.

(* hypotheses: `0 <= init_level <= cap`, `run fixed (init init_level t0) acts = Some s`, `laws K gblock`
   covers C07_level_bounds, C07_level_conservation, C07_triggered_at_most_once, C07_puts_fcfs *)
Theorem C07_ex_container :
  ((0 <= 5)%Q /\ (5 <= 10)%Q)
  /\ run true (init (K:=C07_KCo) 5%Q 0%Q) C07_ex_co_acts = Some C07_ex_co_end
  /\ laws C07_KCo true
  (* what the theorems say here *)
  /\ ((0 <= content C07_ex_co_end)%Q /\ (content C07_ex_co_end <= 10)%Q)
  /\ (content C07_ex_co_end == 5 + put_sum (log C07_ex_co_end) - get_sum (log C07_ex_co_end))%Q
  /\ (put_sum (log C07_ex_co_end) == 7)%Q /\ (get_sum (log C07_ex_co_end) == 2)%Q
  /\ NoDup (map grant_id (log C07_ex_co_end))
  /\ StronglySorted lt (put_ids C07_KCo (log C07_ex_co_end) ++ ids (putq C07_ex_co_end))
  /\ put_ids C07_KCo (log C07_ex_co_end) ++ ids (putq C07_ex_co_end) = [0; 1; 2].
Proof.
  apply conj_keep; [split; unfold Qle; simpl; lia|intros H0]. apply conj_keep; [reflexivity|intros Hr].
  apply conj_keep; [exact (container_laws _)|intros L].
  split; [exact (level_bounds (Some 10%Q) true C07_ex_co_acts 5%Q 0%Q C07_ex_co_end H0 Hr)|].
  split; [exact (level_conservation (Some 10%Q) true C07_ex_co_acts 5%Q 0%Q C07_ex_co_end Hr)|].
  split; [reflexivity|]. split; [reflexivity|].
  split; [exact (proj1 (triggered_once C07_KCo true C07_ex_co_acts 5%Q 0%Q C07_ex_co_end Hr))|].
  split; [exact (puts_fcfs_generic C07_KCo true L true C07_ex_co_acts 5%Q 0%Q C07_ex_co_end Hr)|].
  reflexivity.
Qed.
Print Assumptions C07_ex_container.

(* hypotheses: `laws K gblock`, `run true (init c0 t0) acts = Some s`, `step true s (AAdvance t) = Some s'`
   covers C07_heads_blocked_at_advance (gblock = true), C07_heads_blocked_container.
   At the end of instant 0 both queues are non-empty and the clock may move: the oldest put (3) exceeds the room
   10 - 9, the oldest get (12) exceeds the level 9. *)
Theorem C07_ex_container_advance :
  laws C07_KCo true
  /\ run true (init (K:=C07_KCo) 5%Q 0%Q) (firstn 5 C07_ex_co_acts) = Some C07_ex_co_t0
  /\ step true C07_ex_co_t0 (AAdvance (K:=C07_KCo) 1%Q)
     = Some (mkst (K:=C07_KCo) 9%Q [(1, 3%Q); (2, 1%Q)] [(3, 12%Q)] [] [GPut (K:=C07_KCo) 0 4%Q] 4 1%Q)
  (* conclusions *)
  /\ putq C07_ex_co_t0 = (1, 3%Q) :: [(2, 1%Q)] /\ (10 - content C07_ex_co_t0 < 3)%Q
  /\ getq C07_ex_co_t0 = (3, 12%Q) :: [] /\ (content C07_ex_co_t0 < 12)%Q
  /\ r_val (k_do_put C07_KCo (content C07_ex_co_t0) 3%Q) = None
  /\ r_val (k_do_get C07_KCo (content C07_ex_co_t0) 12%Q) = None.
Proof.
  split; [exact (container_laws _)|]. apply conj_keep; [reflexivity|intros Hr]. apply conj_keep; [reflexivity|intros Hs].
  destruct (container_heads_blocked (Some 10%Q) _ 5%Q 0%Q _ _ _ Hr Hs) as [Hp Hg].
  split; [reflexivity|]. split; [exact (Hp 1 3%Q [(2, 1%Q)] eq_refl)|].
  split; [reflexivity|]. split; [exact (Hg 3 12%Q [] eq_refl)|].
  destruct (heads_blocked_at_advance C07_KCo true (container_laws _) _ 5%Q 0%Q _ _ _ Hr Hs) as [Hp' Hg'].
  split; [exact Hp'|exact Hg'].
Qed.
Print Assumptions C07_ex_container_advance.

(* ================================================================================================================ *)
(* Store(capacity 5/2) of integers.
     t=0  put 10, put 20 accepted; put 30 (request 2) waits: 2 + 1 > 5/2      events 0, 1 processed
     t=1  get (request 3) receives 10; its event is processed -> request 2 accepted; its event processed
          get (request 4) receives 20; processed
     t=2  [extension] get (request 5) receives 30, get (request 6) waits on the empty store; event 5 processed   *)
Definition C07_KSt : kind := Store Z (Some (5 # 2)%Q).
Definition C07_ex_st_acts : list (action C07_KSt) :=
  [ APut (K:=C07_KSt) 10%Z; APut (K:=C07_KSt) 20%Z; APut (K:=C07_KSt) 30%Z; AProcess (K:=C07_KSt) 0; AProcess (K:=C07_KSt) 1;
    AAdvance (K:=C07_KSt) 1%Q; AGet (K:=C07_KSt) tt; AProcess (K:=C07_KSt) 3; AProcess (K:=C07_KSt) 2;
    AGet (K:=C07_KSt) tt; AProcess (K:=C07_KSt) 4; AAdvance (K:=C07_KSt) 2%Q ].
Definition C07_ex_st_acts2 : list (action C07_KSt) :=
  C07_ex_st_acts ++ [ AGet (K:=C07_KSt) tt; AGet (K:=C07_KSt) tt; AProcess (K:=C07_KSt) 5 ].
Definition C07_ex_st_end : state C07_KSt :=
  mkst (K:=C07_KSt) [30%Z] [] [] [] [GPut (K:=C07_KSt) 0 10%Z; GPut (K:=C07_KSt) 1 20%Z; GGet (K:=C07_KSt) 3 tt 10%Z; GPut (K:=C07_KSt) 2 30%Z; GGet (K:=C07_KSt) 4 tt 20%Z] 5 2%Q.
Definition C07_ex_st_end2 : state C07_KSt :=
  mkst (K:=C07_KSt) [] [] [(6, tt)] []
       [GPut (K:=C07_KSt) 0 10%Z; GPut (K:=C07_KSt) 1 20%Z; GGet (K:=C07_KSt) 3 tt 10%Z; GPut (K:=C07_KSt) 2 30%Z; GGet (K:=C07_KSt) 4 tt 20%Z; GGet (K:=C07_KSt) 5 tt 30%Z] 7 2%Q.
Definition C07_ex_st_t0 : state C07_KSt :=
  mkst (K:=C07_KSt) [10%Z; 20%Z] [(2, 30%Z)] [] [] [GPut (K:=C07_KSt) 0 10%Z; GPut (K:=C07_KSt) 1 20%Z] 3 0%Q.

(* hypotheses: `cap_pos cap`, `run fixed (init [] t0) acts = Some s`, `laws K gblock`, `gblock = true`
   covers C07_store_bounded, C07_delivered_exactly_once_store, C07_store_fifo, C07_gets_fcfs *)
Theorem C07_ex_store :
  cap_pos (Some (5 # 2)%Q)
  /\ run true (init (K:=C07_KSt) [] 0%Q) C07_ex_st_acts = Some C07_ex_st_end
  /\ run true (init (K:=C07_KSt) [] 0%Q) C07_ex_st_acts2 = Some C07_ex_st_end2
  /\ laws C07_KSt true /\ true = true
  (* what the theorems say here *)
  /\ (inject_Z (Z.of_nat (length (content C07_ex_st_end))) <= 5 # 2)%Q
  /\ Permutation (accepted (K:=C07_KSt) (fun x => x) (log C07_ex_st_end))
                 (content C07_ex_st_end ++ delivered (K:=C07_KSt) (fun x => x) (log C07_ex_st_end))
  /\ accepted (K:=C07_KSt) (fun x => x) (log C07_ex_st_end)
     = delivered (K:=C07_KSt) (fun x => x) (log C07_ex_st_end) ++ content C07_ex_st_end
  /\ accepted (K:=C07_KSt) (fun x => x) (log C07_ex_st_end) = [10; 20; 30]%Z
  /\ delivered (K:=C07_KSt) (fun x => x) (log C07_ex_st_end) = [10; 20]%Z
  /\ StronglySorted lt (get_ids C07_KSt (log C07_ex_st_end2) ++ ids (getq C07_ex_st_end2))
  /\ get_ids C07_KSt (log C07_ex_st_end2) ++ ids (getq C07_ex_st_end2) = [3; 4; 5; 6].
Proof.
  apply conj_keep; [unfold cap_pos, Qlt; simpl; lia|intros Hc]. apply conj_keep; [reflexivity|intros Hr].
  apply conj_keep; [reflexivity|intros Hr2]. apply conj_keep; [exact (store_laws _ _)|intros L]. split; [reflexivity|].
  split; [exact (store_bounded Z (Some (5 # 2)%Q) Hc true C07_ex_st_acts 0%Q C07_ex_st_end Hr)|].
  split; [exact (store_delivered_once Z (Some (5 # 2)%Q) true C07_ex_st_acts 0%Q C07_ex_st_end Hr)|].
  split; [exact (store_fifo Z (Some (5 # 2)%Q) true C07_ex_st_acts 0%Q C07_ex_st_end Hr)|].
  split; [reflexivity|]. split; [reflexivity|].
  split; [exact (gets_fcfs_generic C07_KSt true L true C07_ex_st_acts2 [] 0%Q C07_ex_st_end2 eq_refl Hr2)|].
  reflexivity.
Qed.
Print Assumptions C07_ex_store.

(* hypotheses: `run true (init [] t0) acts = Some s`, `step true s (AAdvance t) = Some s'`
   covers C07_heads_blocked_store -- once with a waiting put (the store is full: 5/2 < 2 + 1), once with a waiting get
   (the store is empty) *)
Theorem C07_ex_store_advance :
  run true (init (K:=C07_KSt) [] 0%Q) (firstn 5 C07_ex_st_acts) = Some C07_ex_st_t0
  /\ step true C07_ex_st_t0 (AAdvance (K:=C07_KSt) 1%Q)
     = Some (mkst (K:=C07_KSt) [10%Z; 20%Z] [(2, 30%Z)] [] [] [GPut (K:=C07_KSt) 0 10%Z; GPut (K:=C07_KSt) 1 20%Z] 3 1%Q)
  /\ run true (init (K:=C07_KSt) [] 0%Q) C07_ex_st_acts2 = Some C07_ex_st_end2
  /\ step true C07_ex_st_end2 (AAdvance (K:=C07_KSt) 3%Q)
     = Some (mkst (K:=C07_KSt) [] [] [(6, tt)] [] (log C07_ex_st_end2) 7 3%Q)
  (* conclusions *)
  /\ putq C07_ex_st_t0 <> []
  /\ (exists c, Some (5 # 2)%Q = Some c /\ (c < inject_Z (Z.of_nat (length (content C07_ex_st_t0))) + 1)%Q)
  /\ getq C07_ex_st_end2 <> [] /\ content C07_ex_st_end2 = [].
Proof.
  apply conj_keep; [reflexivity|intros Hr]. apply conj_keep; [reflexivity|intros Hs].
  apply conj_keep; [reflexivity|intros Hr2]. apply conj_keep; [reflexivity|intros Hs2].
  apply conj_keep; [discriminate|intros Hp].
  split; [exact (proj1 (store_heads_blocked Z (Some (5 # 2)%Q) _ 0%Q _ _ _ Hr Hs) Hp)|].
  apply conj_keep; [discriminate|intros Hg].
  exact (proj2 (store_heads_blocked Z (Some (5 # 2)%Q) _ 0%Q _ _ _ Hr2 Hs2) Hg).
Qed.
Print Assumptions C07_ex_store_advance.

(* ================================================================================================================ *)
(* PriorityStore(capacity 3) of integers ordered by value.
     t=0  put 5, put 2, put 7 accepted (heap [2; 5; 7]); put 1 (request 3) waits; events 0, 1, 2 processed
     t=1  get (request 4) receives 2, the smallest; its event processed -> put 1 accepted; its event processed
          get (request 5) receives 1; processed
     t=2                                                                                                          *)
Definition C07_KPr : kind := PriorityStore Z (fun x => x) (Some 3%Q).
Definition C07_ex_pr_acts : list (action C07_KPr) :=
  [ APut (K:=C07_KPr) 5%Z; APut (K:=C07_KPr) 2%Z; APut (K:=C07_KPr) 7%Z; APut (K:=C07_KPr) 1%Z;
    AProcess (K:=C07_KPr) 0; AProcess (K:=C07_KPr) 1; AProcess (K:=C07_KPr) 2; AAdvance (K:=C07_KPr) 1%Q;
    AGet (K:=C07_KPr) tt; AProcess (K:=C07_KPr) 4; AProcess (K:=C07_KPr) 3; AGet (K:=C07_KPr) tt; AProcess (K:=C07_KPr) 5;
    AAdvance (K:=C07_KPr) 2%Q ].
Definition C07_ex_pr_end : state C07_KPr :=
  mkst (K:=C07_KPr) [5%Z; 7%Z] [] [] []
       [GPut (K:=C07_KPr) 0 5%Z; GPut (K:=C07_KPr) 1 2%Z; GPut (K:=C07_KPr) 2 7%Z; GGet (K:=C07_KPr) 4 tt 2%Z; GPut (K:=C07_KPr) 3 1%Z; GGet (K:=C07_KPr) 5 tt 1%Z] 6 2%Q.
Definition C07_ex_pr_t0 : state C07_KPr :=
  mkst (K:=C07_KPr) [2%Z; 5%Z; 7%Z] [(3, 1%Z)] [] [] [GPut (K:=C07_KPr) 0 5%Z; GPut (K:=C07_KPr) 1 2%Z; GPut (K:=C07_KPr) 2 7%Z] 4 0%Q.

(* hypotheses: `cap_pos cap`, `run fixed (init [] t0) acts = Some s`, `log s = l1 ++ GGet i g x :: l2`
   covers C07_prio_store_bounded, C07_delivered_exactly_once_prio, C07_prio_store_min (for the first get: it received 2
   while the store held 2, 5, 7) *)
Theorem C07_ex_prio :
  let l1 := [GPut (K:=C07_KPr) 0 5%Z; GPut (K:=C07_KPr) 1 2%Z; GPut (K:=C07_KPr) 2 7%Z] in
  let l2 := [GPut (K:=C07_KPr) 3 1%Z; GGet (K:=C07_KPr) 5 tt 1%Z] in
  cap_pos (Some 3%Q)
  /\ run true (init (K:=C07_KPr) [] 0%Q) C07_ex_pr_acts = Some C07_ex_pr_end
  /\ log C07_ex_pr_end = l1 ++ GGet (K:=C07_KPr) 4 tt 2%Z :: l2
  (* what the theorems say here *)
  /\ (inject_Z (Z.of_nat (length (content C07_ex_pr_end))) <= 3)%Q
  /\ Permutation (accepted (K:=C07_KPr) (fun x => x) (log C07_ex_pr_end))
                 (content C07_ex_pr_end ++ delivered (K:=C07_KPr) (fun x => x) (log C07_ex_pr_end))
  /\ accepted (K:=C07_KPr) (fun x => x) (log C07_ex_pr_end) = [5; 2; 7; 1]%Z
  /\ content C07_ex_pr_end ++ delivered (K:=C07_KPr) (fun x => x) (log C07_ex_pr_end) = [5; 7; 2; 1]%Z
  /\ (exists c1, path C07_KPr [] l1 c1 /\ In 2%Z c1 /\ forall y, In y c1 -> (2 <= y)%Z)
  /\ path C07_KPr [] l1 [2; 5; 7]%Z.
Proof.
  intros l1 l2.
  apply conj_keep; [unfold cap_pos, Qlt; simpl; lia|intros Hc]. apply conj_keep; [reflexivity|intros Hr].
  apply conj_keep; [reflexivity|intros Hl].
  split; [exact (prio_bounded Z (fun x => x) (Some 3%Q) Hc true C07_ex_pr_acts 0%Q C07_ex_pr_end Hr)|].
  split; [exact (prio_delivered_once Z (fun x => x) (Some 3%Q) true C07_ex_pr_acts 0%Q C07_ex_pr_end Hr)|].
  split; [reflexivity|]. split; [reflexivity|].
  split; [exact (prio_min Z (fun x => x) (Some 3%Q) true C07_ex_pr_acts 0%Q C07_ex_pr_end l1 4 tt 2%Z l2 Hr Hl)|].
  unfold l1. apply path_put; [reflexivity|]. apply path_put; [reflexivity|].
  apply path_put; [reflexivity|]. apply path_nil.
Qed.
Print Assumptions C07_ex_prio.

(* covers C07_heads_blocked_prio: at the end of instant 0 the put of 1 waits and the store is full (3 < 3 + 1) *)
Theorem C07_ex_prio_advance :
  run true (init (K:=C07_KPr) [] 0%Q) (firstn 7 C07_ex_pr_acts) = Some C07_ex_pr_t0
  /\ step true C07_ex_pr_t0 (AAdvance (K:=C07_KPr) 1%Q)
     = Some (mkst (K:=C07_KPr) [2%Z; 5%Z; 7%Z] [(3, 1%Z)] [] [] (log C07_ex_pr_t0) 4 1%Q)
  (* conclusions *)
  /\ putq C07_ex_pr_t0 <> []
  /\ (exists c, Some 3%Q = Some c /\ (c < inject_Z (Z.of_nat (length (content C07_ex_pr_t0))) + 1)%Q).
Proof.
  apply conj_keep; [reflexivity|intros Hr]. apply conj_keep; [reflexivity|intros Hs].
  apply conj_keep; [discriminate|intros Hp].
  exact (proj1 (prio_heads_blocked Z (fun x => x) (Some 3%Q) _ 0%Q _ _ _ Hr Hs) Hp).
Qed.
Print Assumptions C07_ex_prio_advance.

(* ================================================================================================================ *)
(* FilterStore(capacity 2) of items (value, put-id).
     t=0  get(value = 7) (request 0) waits; get(value odd) (request 1) waits
          put (4, #100) accepted, event processed: neither filter matches
          put (3, #101) accepted, event processed: request 0 does not match, request 1 -- the YOUNGER one -- receives
            (3, #101); its event processed
          put (4, #102) accepted (same value as #100, a different item); put (9, #103) (request 5) waits: store full
          event of request 4 processed
     t=1  get(put-id = 102) (request 6) receives (4, #102) -- not the equal-valued (4, #100) in front of it;
          its event processed -> request 5 accepted; its event processed                                         *)
Definition C07_KFi : kind := FilterStore (Z * nat) (Some 2%Q).
Definition C07_f7 (x : Z * nat) : bool := (fst x =? 7)%Z.
Definition C07_fodd (x : Z * nat) : bool := Z.odd (fst x).
Definition C07_f102 (x : Z * nat) : bool := snd x =? 102.
Definition C07_ex_fi_acts : list (action C07_KFi) :=
  [ AGet (K:=C07_KFi) C07_f7; AGet (K:=C07_KFi) C07_fodd; APut (K:=C07_KFi) (4%Z, 100); AProcess (K:=C07_KFi) 2;
    APut (K:=C07_KFi) (3%Z, 101); AProcess (K:=C07_KFi) 3; AProcess (K:=C07_KFi) 1; APut (K:=C07_KFi) (4%Z, 102);
    APut (K:=C07_KFi) (9%Z, 103); AProcess (K:=C07_KFi) 4; AAdvance (K:=C07_KFi) 1%Q; AGet (K:=C07_KFi) C07_f102;
    AProcess (K:=C07_KFi) 6; AProcess (K:=C07_KFi) 5 ].
Definition C07_ex_fi_log : list (grant C07_KFi) :=
  [ GPut (K:=C07_KFi) 2 (4%Z, 100); GPut (K:=C07_KFi) 3 (3%Z, 101); GGet (K:=C07_KFi) 1 C07_fodd (3%Z, 101); GPut (K:=C07_KFi) 4 (4%Z, 102); GGet (K:=C07_KFi) 6 C07_f102 (4%Z, 102);
    GPut (K:=C07_KFi) 5 (9%Z, 103) ].
Definition C07_ex_fi_end : state C07_KFi :=
  mkst (K:=C07_KFi) [(4%Z, 100); (9%Z, 103)] [] [(0, C07_f7)] [] C07_ex_fi_log 7 1%Q.

(* hypotheses: `cap_pos cap`, `run … = Some s`, `NoDup (map snd (accepted … (log s)))`,
   `log s = l1 ++ GGet i f x :: l2`, `log s = l1 ++ GPut i p :: l2`
   covers C07_filter_store_bounded, C07_delivered_exactly_once_filter, C07_filter_put_ids_exactly_once,
   C07_filter_store_first_match (the get with filter put-id = 102), C07_filter_store_put_appends (the put of #102) *)
Theorem C07_ex_filter :
  let l1 := firstn 4 C07_ex_fi_log in
  let l2 := [GPut (K:=C07_KFi) 5 (9%Z, 103)] in
  let l1' := firstn 3 C07_ex_fi_log in
  let l2' := skipn 4 C07_ex_fi_log in
  cap_pos (Some 2%Q)
  /\ run true (init (K:=C07_KFi) [] 0%Q) C07_ex_fi_acts = Some C07_ex_fi_end
  /\ NoDup (map snd (accepted (K:=C07_KFi) (fun x => x) (log C07_ex_fi_end)))
  /\ log C07_ex_fi_end = l1 ++ GGet (K:=C07_KFi) 6 C07_f102 (4%Z, 102) :: l2
  /\ log C07_ex_fi_end = l1' ++ GPut (K:=C07_KFi) 4 (4%Z, 102) :: l2'
  (* what the theorems say here *)
  /\ (inject_Z (Z.of_nat (length (content C07_ex_fi_end))) <= 2)%Q
  /\ Permutation (accepted (K:=C07_KFi) (fun x => x) (log C07_ex_fi_end))
                 (content C07_ex_fi_end ++ delivered (K:=C07_KFi) (fun x => x) (log C07_ex_fi_end))
  /\ map snd (accepted (K:=C07_KFi) (fun x => x) (log C07_ex_fi_end)) = [100; 101; 102; 103]
  /\ map snd (content C07_ex_fi_end ++ delivered (K:=C07_KFi) (fun x => x) (log C07_ex_fi_end)) = [100; 103; 101; 102]
  /\ NoDup (map snd (content C07_ex_fi_end ++ delivered (K:=C07_KFi) (fun x => x) (log C07_ex_fi_end)))
  /\ (exists a b, path C07_KFi [] l1 (a ++ (4%Z, 102) :: b) /\ C07_f102 (4%Z, 102) = true
                  /\ (forall y, In y a -> C07_f102 y = false) /\ path C07_KFi (a ++ b) l2 (content C07_ex_fi_end))
  /\ path C07_KFi [] l1 ([(4%Z, 100)] ++ (4%Z, 102) :: [])
  /\ (exists c1, path C07_KFi [] l1' c1 /\ path C07_KFi (c1 ++ [(4%Z, 102)]) l2' (content C07_ex_fi_end)).
Proof.
  intros l1 l2 l1' l2'.
  apply conj_keep; [unfold cap_pos, Qlt; simpl; lia|intros Hc]. apply conj_keep; [reflexivity|intros Hr].
  apply conj_keep; [|intros Hn].
  { change (NoDup [100; 101; 102; 103]). repeat constructor; simpl; intuition discriminate. }
  apply conj_keep; [reflexivity|intros Hl]. apply conj_keep; [reflexivity|intros Hl'].
  split; [exact (filter_bounded (Z * nat) (Some 2%Q) Hc true C07_ex_fi_acts 0%Q C07_ex_fi_end Hr)|].
  split; [exact (filter_delivered_once (Z * nat) (Some 2%Q) true C07_ex_fi_acts 0%Q C07_ex_fi_end Hr)|].
  split; [reflexivity|]. split; [reflexivity|].
  split; [exact (proj1 (filter_put_ids_exactly_once Z nat (Some 2%Q) true C07_ex_fi_acts 0%Q C07_ex_fi_end Hr Hn))|].
  split; [exact (filter_first_match (Z * nat) (Some 2%Q) true C07_ex_fi_acts 0%Q C07_ex_fi_end l1 6 C07_f102 (4%Z, 102) l2 Hr Hl)|].
  split.
  { unfold l1. cbn [firstn C07_ex_fi_log].
    apply path_put; [reflexivity|]. apply path_put; [reflexivity|].
    apply path_get; [reflexivity|]. apply path_put; [reflexivity|]. apply path_nil. }
  exact (put_appends_filter (Z * nat) (Some 2%Q) true C07_ex_fi_acts 0%Q C07_ex_fi_end l1' 4 (4%Z, 102) l2' Hr Hl').
Qed.
Print Assumptions C07_ex_filter.

(* hypotheses: `run … = Some s`, `step fixed s a = Some s'`, `log s' = log s ++ news`, `In (GGet b fb x) news`,
   `In (o, fo) (getq s')`, `o < b`
   covers C07_filter_overtake_only_nonmatching.
   s = after the put of (3, #101), a = its event is processed: the younger request 1 (value odd) receives (3, #101)
   while the older request 0 (value = 7) keeps waiting -- its filter rejects (3, #101). *)
Definition C07_ex_fi_s5 : state C07_KFi :=
  mkst (K:=C07_KFi) [(4%Z, 100); (3%Z, 101)] [] [(0, C07_f7); (1, C07_fodd)] [(3, EvPut)]
       [GPut (K:=C07_KFi) 2 (4%Z, 100); GPut (K:=C07_KFi) 3 (3%Z, 101)] 4 0%Q.
Definition C07_ex_fi_s6 : state C07_KFi :=
  mkst (K:=C07_KFi) [(4%Z, 100)] [] [(0, C07_f7)] [(1, EvGet)]
       [GPut (K:=C07_KFi) 2 (4%Z, 100); GPut (K:=C07_KFi) 3 (3%Z, 101); GGet (K:=C07_KFi) 1 C07_fodd (3%Z, 101)] 4 0%Q.

Theorem C07_ex_filter_overtake :
  let news := [GGet (K:=C07_KFi) 1 C07_fodd (3%Z, 101)] in
  run true (init (K:=C07_KFi) [] 0%Q) (firstn 5 C07_ex_fi_acts) = Some C07_ex_fi_s5
  /\ step true C07_ex_fi_s5 (AProcess (K:=C07_KFi) 3) = Some C07_ex_fi_s6
  /\ log C07_ex_fi_s6 = log C07_ex_fi_s5 ++ news
  /\ In (GGet (K:=C07_KFi) 1 C07_fodd (3%Z, 101)) news
  /\ In (0, C07_f7) (getq C07_ex_fi_s6)
  /\ 0 < 1
  (* conclusion *)
  /\ C07_f7 (3%Z, 101) = false.
Proof.
  intros news.
  apply conj_keep; [reflexivity|intros Hr]. apply conj_keep; [reflexivity|intros Hs].
  apply conj_keep; [reflexivity|intros Hl]. apply conj_keep; [left; reflexivity|intros Hi].
  apply conj_keep; [left; reflexivity|intros Ho]. split; [lia|].
  exact (filter_overtake_only_nonmatching (Z * nat) (Some 2%Q) true _ 0%Q _ _ _ news Hr Hs Hl 1 C07_fodd (3%Z, 101) Hi
                                          0 C07_f7 Ho (le_n 1)).
Qed.
Print Assumptions C07_ex_filter_overtake.

(* hypotheses: `laws K gblock`, `run true … = Some s`, `step true s (AAdvance t) = Some s'`
   covers C07_heads_blocked_filter, C07_heads_blocked_at_advance (gblock = false).
   End of instant 0: the put of (9, #103) waits on the full store, the get(value = 7) waits and its filter rejects both
   items held. *)
Definition C07_ex_fi_t0 : state C07_KFi :=
  mkst (K:=C07_KFi) [(4%Z, 100); (4%Z, 102)] [(5, (9%Z, 103))] [(0, C07_f7)] []
       [GPut (K:=C07_KFi) 2 (4%Z, 100); GPut (K:=C07_KFi) 3 (3%Z, 101); GGet (K:=C07_KFi) 1 C07_fodd (3%Z, 101); GPut (K:=C07_KFi) 4 (4%Z, 102)] 6 0%Q.

Theorem C07_ex_filter_advance :
  laws C07_KFi false
  /\ run true (init (K:=C07_KFi) [] 0%Q) (firstn 10 C07_ex_fi_acts) = Some C07_ex_fi_t0
  /\ step true C07_ex_fi_t0 (AAdvance (K:=C07_KFi) 1%Q)
     = Some (mkst (K:=C07_KFi) (content C07_ex_fi_t0) (putq C07_ex_fi_t0) (getq C07_ex_fi_t0) [] (log C07_ex_fi_t0) 6 1%Q)
  (* conclusions *)
  /\ putq C07_ex_fi_t0 <> []
  /\ (exists c, Some 2%Q = Some c /\ (c < inject_Z (Z.of_nat (length (content C07_ex_fi_t0))) + 1)%Q)
  /\ In (0, C07_f7) (getq C07_ex_fi_t0)
  /\ (forall y, In y (content C07_ex_fi_t0) -> C07_f7 y = false)
  /\ r_val (k_do_put C07_KFi (content C07_ex_fi_t0) (9%Z, 103)) = None
  /\ (forall r, In r (getq C07_ex_fi_t0) -> r_val (k_do_get C07_KFi (content C07_ex_fi_t0) (snd r)) = None).
Proof.
  apply conj_keep; [exact (filter_laws _ _)|intros L]. apply conj_keep; [reflexivity|intros Hr]. apply conj_keep; [reflexivity|intros Hs].
  apply conj_keep; [discriminate|intros Hp].
  destruct (filter_heads_blocked (Z * nat) (Some 2%Q) _ 0%Q _ _ _ Hr Hs) as [H1 H2].
  split; [exact (H1 Hp)|]. apply conj_keep; [left; reflexivity|intros Hg]. split; [exact (H2 0 C07_f7 Hg)|].
  destruct (heads_blocked_at_advance C07_KFi false L _ [] 0%Q _ _ _ Hr Hs) as [H3 H4].
  split; [exact H3|exact H4].
Qed.
Print Assumptions C07_ex_filter_advance.

(* ================================================================================================================ *)
(* heapq: hypotheses `h <> []`, `heap_ok A key h`
   covers C07_heappop_min_and_multiset, C07_heappush_multiset (and the premise inside C07_heap_total).
   h = [1; 3; 2; 7; 4] is a heap (3, 2 above 1; 7, 4 above 3) of five integers ordered by value. *)
Definition C07_ex_heap_h : list Z := [1; 3; 2; 7; 4]%Z.

Theorem C07_ex_heap :
  C07_ex_heap_h <> []
  /\ heap_ok Z (fun x => x) C07_ex_heap_h
  (* conclusions *)
  /\ heappop (fun x : Z => x) C07_ex_heap_h = Some (1%Z, [2; 3; 4; 7]%Z)
  /\ heap_ok Z (fun x => x) [2; 3; 4; 7]%Z
  /\ Permutation C07_ex_heap_h (1%Z :: [2; 3; 4; 7]%Z)
  /\ heappush (fun x : Z => x) C07_ex_heap_h 0%Z = Some [0; 3; 1; 7; 4; 2]%Z
  /\ heap_ok Z (fun x => x) [0; 3; 1; 7; 4; 2]%Z
  /\ Permutation (0%Z :: C07_ex_heap_h) [0; 3; 1; 7; 4; 2]%Z.
Proof.
  apply conj_keep; [discriminate|intros Hne]. apply conj_keep; [|intros Hok].
  { intros i x p Hi Hx Hp.
    do 5 (destruct i as [|i]; [try lia; vm_compute in Hx, Hp; injection Hx as <-; injection Hp as <-; lia|]).
    destruct i; discriminate Hx. }
  apply conj_keep; [reflexivity|intros E].
  destruct (heappop_spec Z (fun x => x) C07_ex_heap_h Hne Hok) as (x & h' & Hpop & Hok' & Hperm & _).
  rewrite E in Hpop. injection Hpop as <- <-.
  split; [exact Hok'|]. split; [exact Hperm|].
  apply conj_keep; [reflexivity|intros E2].
  destruct (heappush_spec Z (fun x => x) C07_ex_heap_h 0%Z Hok) as (h2 & Hpush & Hok2 & Hperm2).
  rewrite E2 in Hpush. injection Hpush as <-.
  split; [exact Hok2|exact Hperm2].
Qed.
Print Assumptions C07_ex_heap.
