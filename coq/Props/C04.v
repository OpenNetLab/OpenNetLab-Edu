(* C04 -- interrupts reach a live process once, in issue order, ahead of ordinary events.
   Statements only (each closed by the lemma of Kernel/Intr.v that proves it) and their assumptions.

   All statements are about the operational semantics of Kernel/Model.v (call_interrupt, do_interruption,
   resume_loop / resume_proc, run_callbacks, step) and quantify over ALL code tables [codes] (any number of process
   automata of any state type) and ALL states [s] reachable ([reach], Kernel/IntrStep.v) from [init_state] by
   module-level code ([exec_top], any fragment), run() preludes and steps, with no bound on their number.  An
   execution is followed up to the first step whose callback loop is cut short ([step_clean] fails: an exception
   escaping from the middle of the loop -- invalid yield, a forged event id -- or out-of-fuel; the StopSimulation of
   run(until=...) is NOT such a cut since the C03 repair: it is raised after the loop); after such a step the real
   kernel has dropped callbacks and no property is claimed (DESIGN.md section 4, hypothesis (ii)).  The function-level statements
   (refused, accepted, finish_is_dead, resume_feeds_outcome, yield_*, detach_keeps_others) hold in every state.

   Vocabulary (Kernel/Intr.v, Kernel/IntrStep.v, Kernel/IntrInv.v)
     dead s p / live s p     the Process event of p is triggered / pending (Process.triggered, .is_alive)
     trans_star codes s s'   s' is reached from s by any transitions (module-level code, preludes, steps)
     popped m rest s         the state in which the callbacks of the popped entry m run (clock set, callbacks := None)
     resume_with f codes p pr o s   the body of Process._resume once the outcome o is known: run the generator of
                             p (record pr) with o up to its next yield / end, then wait, loop or terminate
     cnt c l                 number of occurrences of callback c in l
     good s                  the invariant (Kernel/IntrInv.v): structure, waiter uniqueness, agenda facts

   How the clauses of the property map to the theorems
     refused (dead or self), state unchanged ............ interrupt_refused_dead/_self, finish_is_dead,
                                                          interrupt_refused_after_end
     accepted -> URGENT entry, delay 0 ................... interrupt_accepted, interruption_entry
     delivered exactly once .............................. interruption_entry (one entry), processed_interruption_gone,
                                                          pending_interruption_scheduled, interrupt_callback_only_own_event
     at the instant of issue ............................. interruption_entry (due now), clock_frozen, interrupt_step
     before every NORMAL event, in issue order ........... interrupt_before_normal, interrupts_in_issue_order,
                                                          later_issue_later_eid
     Interrupt(cause) thrown into the victim, detached ... interrupt_step, interrupt_delivery, resume_feeds_outcome,
                                                          waiter_unique
     victim ended meanwhile: dropped silently ............ interrupt_dead_dropped
     old target no longer resumes the victim ............. detached_nowhere, detach_keeps_others, resumed_only_by_target,
                                                          untouched_unless_resumed, yield_processed_continues,
                                                          yield_pending_waits
     never before the first statement .................... process_has_initialize, init_before_interrupt, not_started,
                                                          not_started_untouched, first_resumption_is_none
   Witnesses on which the hypotheses of each theorem hold together: Props/C04_Examples.v (family F of Kernel/IntrWitness.v);
   further concrete runs: Kernel/IntrExamples.v. *)
From Coq Require Import ZArith QArith List Bool.
From ONL Require Import Kernel.Model Kernel.Keys Kernel.IntrBase Kernel.IntrInv Kernel.IntrStep Kernel.Intr.
Import ListNotations.

(* the invariant holds in every reachable state *)
Theorem C04_invariant : forall codes s, reach codes s -> good s.
Proof. exact reach_good. Qed.
Print Assumptions C04_invariant.

(* ------------------------------------------------------------------------------------------------ *)
(* refused *)

Theorem C04_interrupt_refused_dead :
  forall codes s e ev p cause,
  get_event e s = Some ev -> kind ev = KProcess p -> out ev <> None ->
  do_call codes (CInterrupt e cause) s = (s, Fail (kexn ERuntime M_terminated)).
Proof. exact interrupt_refused_dead. Qed.
Print Assumptions C04_interrupt_refused_dead.

Theorem C04_interrupt_refused_self :
  forall codes s e ev p cause,
  get_event e s = Some ev -> kind ev = KProcess p -> out ev = None -> active s = Some p ->
  do_call codes (CInterrupt e cause) s = (s, Fail (kexn ERuntime M_self_interrupt)).
Proof. exact interrupt_refused_self. Qed.
Print Assumptions C04_interrupt_refused_self.

(* the generator ends: the Process event is triggered in the same resumption, before its entry is processed *)
Theorem C04_finish_is_dead :
  forall p pr o s ev,
  get_proc p s = Some pr -> get_event (pev pr) s = Some ev ->
  let s' := proc_finish p pr o s in
  dead s' p /\
  (exists ev', get_event (pev pr) s' = Some ev' /\ out ev' = Some o /\ cbs ev' = cbs ev) /\
  agenda s' = agenda s ++ [mkEntry (Qred (now s + 0)) NORMAL (next_eid s) (pev pr)].
Proof. exact finish_is_dead. Qed.
Print Assumptions C04_finish_is_dead.

Theorem C04_dead_forever :
  forall codes s s' p,
  pevK s -> trans_star codes s s' -> dead s p -> dead s' p /\ pevK s'.
Proof. exact dead_forever. Qed.
Print Assumptions C04_dead_forever.

(* the property clause: once the generator of p has ended, every later interrupt() on it raises RuntimeError and
   changes nothing -- whether or not the termination event has been processed meanwhile *)
Theorem C04_interrupt_refused_after_end :
  forall codes s s' p cause,
  reach codes s -> dead s p -> trans_star codes s s' ->
  exists e, (forall pr, get_proc p s' = Some pr -> pev pr = e) /\
            do_call codes (CInterrupt e cause) s' = (s', Fail (kexn ERuntime M_terminated)).
Proof. exact interrupt_refused_after_end. Qed.
Print Assumptions C04_interrupt_refused_after_end.

(* ------------------------------------------------------------------------------------------------ *)
(* accepted *)

Theorem C04_interrupt_accepted :
  forall codes s e ev p cause,
  get_event e s = Some ev -> kind ev = KProcess p -> out ev = None -> active s <> Some p ->
  let i := length (events s) in
  let s' := fst (do_call codes (CInterrupt e cause) s) in
  do_call codes (CInterrupt e cause) s = (s', Ok VNone) /\
  events s' = events s ++ [mkEvent (Some [CbInterrupt i]) (Some (Fail (EInterrupt, [cause]))) true (KInterruption p)] /\
  agenda s' = agenda s ++ [mkEntry (Qred (now s + 0)) URGENT (next_eid s) i] /\
  Qred (now s + 0) == now s /\
  next_eid s' = S (next_eid s) /\ procs s' = procs s /\ now s' = now s /\ active s' = active s.
Proof. exact interrupt_accepted. Qed.
Print Assumptions C04_interrupt_accepted.

(* ------------------------------------------------------------------------------------------------ *)
(* the pending interruption *)

Theorem C04_interruption_entry :
  forall codes s x iev p,
  reach codes s -> In x (agenda s) -> get_event (e_ev x) s = Some iev -> kind iev = KInterruption p ->
  e_time x == now s /\ e_prio x = URGENT /\ (e_eid x < next_eid s)%nat /\
  (forall y, In y (agenda s) -> e_ev y = e_ev x -> y = x) /\
  (exists cause others, out iev = Some (Fail (EInterrupt, [cause])) /\ defused iev = true /\
                        cbs iev = Some (CbInterrupt (e_ev x) :: others) /\ ~ In (CbInterrupt (e_ev x)) others) /\
  (exists pr, get_proc p s = Some pr).
Proof. exact interruption_entry. Qed.
Print Assumptions C04_interruption_entry.

(* a processed Interruption event is never on the agenda again: delivered at most once *)
Theorem C04_processed_interruption_gone :
  forall codes s x iev p,
  reach codes s -> In x (agenda s) -> get_event (e_ev x) s = Some iev -> kind iev = KInterruption p -> cbs iev <> None.
Proof. exact processed_interruption_gone. Qed.
Print Assumptions C04_processed_interruption_gone.

(* ... and an unprocessed one is on the agenda: delivered (or dropped) at least once if the run goes on *)
Theorem C04_pending_interruption_scheduled :
  forall codes s i iev p,
  reach codes s -> get_event i s = Some iev -> kind iev = KInterruption p -> cbs iev <> None ->
  exists x, In x (agenda s) /\ e_ev x = i.
Proof. exact pending_interruption_scheduled. Qed.
Print Assumptions C04_pending_interruption_scheduled.

(* the clock does not move while an interruption is pending: it takes effect at the instant of issue *)
Theorem C04_clock_frozen :
  forall codes s s' x iev iev' p,
  reach codes s -> reach codes s' -> In x (agenda s) -> In x (agenda s') ->
  get_event (e_ev x) s = Some iev -> kind iev = KInterruption p ->
  get_event (e_ev x) s' = Some iev' -> kind iev' = KInterruption p ->
  now s' == now s.
Proof. exact clock_frozen. Qed.
Print Assumptions C04_clock_frozen.

(* urgent before normal: while an interruption is pending, no NORMAL entry is the next one processed *)
Theorem C04_interrupt_before_normal :
  forall codes s m rest x y iev p,
  reach codes s -> In x (agenda s) -> get_event (e_ev x) s = Some iev -> kind iev = KInterruption p ->
  In y (agenda s) -> e_prio y = NORMAL -> pop_min (agenda s) = Some (m, rest) -> e_eid m <> e_eid y.
Proof. exact interrupt_before_normal. Qed.
Print Assumptions C04_interrupt_before_normal.

(* issue order: of two pending interruptions the one issued later (larger eid) is not processed first *)
Theorem C04_interrupts_in_issue_order :
  forall codes s m rest x y ix iy p q,
  reach codes s -> In x (agenda s) -> In y (agenda s) ->
  get_event (e_ev x) s = Some ix -> kind ix = KInterruption p ->
  get_event (e_ev y) s = Some iy -> kind iy = KInterruption q ->
  (e_eid x < e_eid y)%nat -> pop_min (agenda s) = Some (m, rest) -> e_eid m <> e_eid y.
Proof. exact interrupts_in_issue_order. Qed.
Print Assumptions C04_interrupts_in_issue_order.

(* ... and "issued later" is "larger eid": the entry of a new interrupt() lies above every pending entry *)
Theorem C04_later_issue_later_eid :
  forall codes s e ev p cause x,
  reach codes s -> get_event e s = Some ev -> kind ev = KProcess p -> out ev = None -> active s <> Some p ->
  In x (agenda s) ->
  exists y, agenda (fst (do_call codes (CInterrupt e cause) s)) = agenda s ++ [y] /\ (e_eid x < e_eid y)%nat /\
            e_ev y = length (events s).
Proof. exact later_issue_later_eid. Qed.
Print Assumptions C04_later_issue_later_eid.

Theorem C04_interrupt_step :
  forall fuel codes s m rest iev p,
  reach codes s -> pop_min (agenda s) = Some (m, rest) -> get_event (e_ev m) s = Some iev -> kind iev = KInterruption p ->
  exists cause others,
    out iev = Some (Fail (EInterrupt, [cause])) /\ cbs iev = Some (CbInterrupt (e_ev m) :: others) /\
    now (popped m rest s) == now s /\
    step fuel codes s =
      (let '(s2, r) := do_interruption fuel codes (e_ev m) (popped m rest s) in
       match r with
       | ROk => let '(s3, r3) := run_callbacks fuel codes (e_ev m) others s2 in
                (s3, match r3 with ROk => check_failure (e_ev m) s3 | _ => r3 end)
       | _ => (s2, r)
       end).
Proof. exact interrupt_step. Qed.
Print Assumptions C04_interrupt_step.

(* a resumption by event e feeds the automaton the outcome of e (a failure is marked defused first) *)
Theorem C04_resume_feeds_outcome :
  forall f codes p e s ev pr o,
  get_event e s = Some ev -> get_proc p s = Some pr -> out ev = Some o ->
  resume_loop (S f) codes p e s =
  resume_with f codes p pr o (match o with Fail _ => upd_event e ev_set_defused s | Ok _ => s end).
Proof. exact resume_feeds_outcome. Qed.
Print Assumptions C04_resume_feeds_outcome.

Theorem C04_interrupt_dead_dropped :
  forall fuel codes s m rest iev p,
  reach codes s -> pop_min (agenda s) = Some (m, rest) -> get_event (e_ev m) s = Some iev -> kind iev = KInterruption p ->
  dead s p ->
  do_interruption fuel codes (e_ev m) (popped m rest s) = (popped m rest s, ROk) /\
  (* nothing else waits on the interruption event (always so unless a process was made to yield it): the step
     only removes the entry and marks the event processed, and raises nothing *)
  (cbs iev = Some [CbInterrupt (e_ev m)] -> step fuel codes s = (popped m rest s, ROk)).
Proof. exact interrupt_dead_dropped. Qed.
Print Assumptions C04_interrupt_dead_dropped.

Theorem C04_interrupt_delivery :
  forall fuel codes s m rest iev p pr,
  reach codes s -> pop_min (agenda s) = Some (m, rest) -> get_event (e_ev m) s = Some iev -> kind iev = KInterruption p ->
  get_proc p s = Some pr -> live s p ->
  ptarget pr <> Some (e_ev m) ->            (* the victim was not made to wait for this very Interruption event *)
  exists cause t tev l,
    out iev = Some (Fail (EInterrupt, [cause])) /\
    (* the victim is suspended on exactly one event, once *)
    ptarget pr = Some t /\ get_event t s = Some tev /\ cbs tev = Some l /\ cnt (CbResume p) l = 1%nat /\
    (forall t' tev' l', get_event t' s = Some tev' -> cbs tev' = Some l' -> In (CbResume p) l' -> t' = t) /\
    (* _interrupt removes that _resume and resumes the victim with the interruption event ... *)
    let s2 := upd_event t (ev_set_cbs (Some (remove_first (CbResume p) l))) (popped m rest s) in
    do_interruption fuel codes (e_ev m) (popped m rest s) = resume_proc fuel codes p (e_ev m) s2 /\
    (* ... i.e. throws Interrupt(cause) into its generator, at the instant of issue *)
    now s2 == now s /\
    forall f, fuel = S f ->
      resume_proc fuel codes p (e_ev m) s2 =
      resume_with f codes p pr (Fail (EInterrupt, [cause])) (upd_event (e_ev m) ev_set_defused (set_active (Some p) s2)).
Proof. exact interrupt_delivery. Qed.
Print Assumptions C04_interrupt_delivery.

(* ------------------------------------------------------------------------------------------------ *)
(* the old target *)

(* after the detachment the victim's _resume is in no callback list at all *)
Theorem C04_detached_nowhere :
  forall codes s m rest p pr t tev l,
  reach codes s -> get_proc p s = Some pr -> ptarget pr = Some t -> get_event t s = Some tev -> cbs tev = Some l ->
  In (CbResume p) l -> t <> e_ev m ->
  let s2 := upd_event t (ev_set_cbs (Some (remove_first (CbResume p) l))) (popped m rest s) in
  forall t' tev' l', get_event t' s2 = Some tev' -> cbs tev' = Some l' -> ~ In (CbResume p) l'.
Proof. exact detached_nowhere. Qed.
Print Assumptions C04_detached_nowhere.

(* the old target keeps its outcome, defusal and kind, and every other callback, in order *)
Theorem C04_detach_keeps_others :
  forall t p l tev,
  let tev' := ev_set_cbs (Some (remove_first (CbResume p) l)) tev in
  out tev' = out tev /\ defused tev' = defused tev /\ kind tev' = kind tev /\
  (forall c, c <> CbResume p -> cnt c (remove_first (CbResume p) l) = cnt c l) /\
  (forall l1 l2, l = l1 ++ CbResume p :: l2 -> ~ In (CbResume p) l1 -> remove_first (CbResume p) l = l1 ++ l2) /\
  get_event t (upd_event t (ev_set_cbs (Some (remove_first (CbResume p) l))) (mkState 0 [] 0 (repeat tev (S t)) [] None [] [])) = Some tev'.
Proof. exact detach_keeps_others. Qed.
Print Assumptions C04_detach_keeps_others.

(* in every reachable state: processing an event resumes only processes whose CURRENT target it is (the event
   they yielded last), each once *)
Theorem C04_resumed_only_by_target :
  forall codes s m rest ev l q,
  reach codes s -> pop_min (agenda s) = Some (m, rest) -> get_event (e_ev m) s = Some ev -> cbs ev = Some l ->
  In (CbResume q) l ->
  exists pr, get_proc q s = Some pr /\ ptarget pr = Some (e_ev m) /\ cnt (CbResume q) l = 1%nat.
Proof. exact resumed_only_by_target. Qed.
Print Assumptions C04_resumed_only_by_target.

(* ... and a step leaves alone every process that is neither in the callback list of the processed event nor the
   victim of the processed interruption *)
Theorem C04_untouched_unless_resumed :
  forall fuel codes s m rest ev l q pr,
  reach codes s -> pop_min (agenda s) = Some (m, rest) -> get_event (e_ev m) s = Some ev -> cbs ev = Some l ->
  get_proc q s = Some pr -> ~ In (CbResume q) l -> kind ev <> KInterruption q ->
  get_proc q (fst (step fuel codes s)) = Some pr.
Proof. exact untouched_unless_resumed. Qed.
Print Assumptions C04_untouched_unless_resumed.

(* yielding an event that has been processed continues at once with that event's outcome ... *)
Theorem C04_yield_processed_continues :
  forall f codes p pr o s1 s2 a e' ev',
  run_frag codes (resume (pcode pr) (pst pr) o) s1 = (s2, FrYield (VEv e') a) ->
  get_event e' (put_proc p (proc_set_st pr a) s2) = Some ev' -> cbs ev' = None ->
  resume_with f codes p pr o s1 = resume_loop f codes p e' (put_proc p (proc_set_st pr a) s2).
Proof. exact yield_processed_continues. Qed.
Print Assumptions C04_yield_processed_continues.

(* ... and yielding a pending one appends the _resume to its list and makes it the target *)
Theorem C04_yield_pending_waits :
  forall f codes p pr o s1 s2 a e' ev' l,
  run_frag codes (resume (pcode pr) (pst pr) o) s1 = (s2, FrYield (VEv e') a) ->
  let s3 := put_proc p (proc_set_st pr a) s2 in
  get_event e' s3 = Some ev' -> cbs ev' = Some l -> get_proc p s2 = Some pr ->
  resume_with f codes p pr o s1 = (proc_wait p e' s3, ROk) /\
  get_event e' (proc_wait p e' s3) = Some (ev_set_cbs (Some (l ++ [CbResume p])) ev') /\
  get_proc p (proc_wait p e' s3) = Some (proc_set_target (Some e') (proc_set_st pr a)).
Proof. exact yield_pending_waits. Qed.
Print Assumptions C04_yield_pending_waits.

(* ------------------------------------------------------------------------------------------------ *)
(* Initialize first *)

Theorem C04_init_before_interrupt :
  forall codes s m rest iev p,
  reach codes s -> pop_min (agenda s) = Some (m, rest) -> get_event (e_ev m) s = Some iev -> kind iev = KInterruption p ->
  forall ie ev, get_event ie s = Some ev -> kind ev = KInit p -> cbs ev = None.
Proof. exact init_before_interrupt. Qed.
Print Assumptions C04_init_before_interrupt.

(* while its Initialize event is unprocessed a process sits at its start: it waits for that event only, whose first
   callback is its _resume and whose value is None *)
Theorem C04_not_started :
  forall codes s ie ev p,
  reach codes s -> get_event ie s = Some ev -> kind ev = KInit p -> cbs ev <> None ->
  exists pr r, get_proc p s = Some pr /\ ptarget pr = Some ie /\ cbs ev = Some (CbResume p :: r) /\ ~ In (CbResume p) r /\
               out ev = Some (Ok VNone) /\ (exists x, In x (agenda s) /\ e_ev x = ie /\ e_prio x = URGENT /\ e_time x == now s) /\
               (forall t' tev' l', get_event t' s = Some tev' -> cbs tev' = Some l' -> In (CbResume p) l' -> t' = ie).
Proof. exact not_started. Qed.
Print Assumptions C04_not_started.

(* hence no step touches it before its Initialize is processed ... *)
Theorem C04_not_started_untouched :
  forall fuel codes s ie ev p pr m rest,
  reach codes s -> get_event ie s = Some ev -> kind ev = KInit p -> cbs ev <> None -> get_proc p s = Some pr ->
  pop_min (agenda s) = Some (m, rest) -> e_ev m <> ie ->
  get_proc p (fst (step fuel codes s)) = Some pr.
Proof. exact not_started_untouched. Qed.
Print Assumptions C04_not_started_untouched.

(* ... and that step begins by sending None into the generator: the first resumption is never an Interrupt *)
Theorem C04_first_resumption_is_none :
  forall fuel codes s ev p m rest,
  reach codes s -> pop_min (agenda s) = Some (m, rest) -> get_event (e_ev m) s = Some ev -> kind ev = KInit p ->
  exists pr r,
    get_proc p s = Some pr /\ cbs ev = Some (CbResume p :: r) /\
    step fuel codes s =
      (let '(s2, r2) := resume_proc fuel codes p (e_ev m) (popped m rest s) in
       match r2 with
       | ROk => let '(s3, r3) := run_callbacks fuel codes (e_ev m) r s2 in
                (s3, match r3 with ROk => check_failure (e_ev m) s3 | _ => r3 end)
       | _ => (s2, r2)
       end) /\
    forall f, fuel = S f ->
      resume_proc fuel codes p (e_ev m) (popped m rest s) =
      resume_with f codes p pr (Ok VNone) (set_active (Some p) (popped m rest s)).
Proof. exact first_resumption_is_none. Qed.
Print Assumptions C04_first_resumption_is_none.

(* every process has its Initialize event (created right after its Process event) *)
Theorem C04_process_has_initialize :
  forall codes s p pr,
  reach codes s -> get_proc p s = Some pr ->
  exists iev, get_event (S (pev pr)) s = Some iev /\ kind iev = KInit p.
Proof. exact process_has_initialize. Qed.
Print Assumptions C04_process_has_initialize.

(* _interrupt of interruption i is a callback of event i only, once: it runs only in the step that processes i *)
Theorem C04_interrupt_callback_only_own_event :
  forall codes s e ev l i,
  reach codes s -> get_event e s = Some ev -> cbs ev = Some l -> In (CbInterrupt i) l ->
  e = i /\ cnt (CbInterrupt i) l = 1%nat /\ exists p, kind ev = KInterruption p.
Proof. exact interrupt_callback_only_own_event. Qed.
Print Assumptions C04_interrupt_callback_only_own_event.

(* waiter uniqueness, as a statement of its own *)
Theorem C04_waiter_unique :
  forall codes s p pr,
  reach codes s -> get_proc p s = Some pr -> live s p ->
  exists t tev l, ptarget pr = Some t /\ get_event t s = Some tev /\ cbs tev = Some l /\ cnt (CbResume p) l = 1%nat /\
    forall t' tev' l', get_event t' s = Some tev' -> cbs tev' = Some l' -> In (CbResume p) l' -> t' = t.
Proof. exact waiter_unique. Qed.
Print Assumptions C04_waiter_unique.

(* along every execution an event stays, keeps the shape of its kind, stays triggered / processed once it is, and an
   Initialize / Interruption event keeps its outcome *)
Theorem C04_events_monotone :
  forall codes s s' e ev,
  pevK s -> trans_star codes s s' -> get_event e s = Some ev ->
  exists ev', get_event e s' = Some ev' /\ ev_mono ev ev'.
Proof. exact events_monotone. Qed.
Print Assumptions C04_events_monotone.

(* the Interrupt(cause) delivered is the one issued: the interruption event keeps its outcome until (and after) it
   is processed, and once processed it stays processed *)
Theorem C04_interruption_keeps_cause :
  forall codes s s' i iev p cause,
  reach codes s -> trans_star codes s s' ->
  get_event i s = Some iev -> kind iev = KInterruption p -> out iev = Some (Fail (EInterrupt, [cause])) ->
  exists iev', get_event i s' = Some iev' /\ kind iev' = KInterruption p /\
               out iev' = Some (Fail (EInterrupt, [cause])) /\ (cbs iev = None -> cbs iev' = None).
Proof. exact interruption_keeps_cause. Qed.
Print Assumptions C04_interruption_keeps_cause.

(* run() stays inside the reachable states as long as every step it takes is clean *)
Theorem C04_reach_run :
  forall codes fuel u s,
  reach codes s ->
  (forall s1, run_prelude u s = inr s1 -> steps_clean fuel fuel codes s1) ->
  reach codes (fst (run fuel codes u s)).
Proof. exact reach_run. Qed.
Print Assumptions C04_reach_run.
