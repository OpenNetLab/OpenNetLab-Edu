(* C16 -- reliable delivery, the liveness half: over any path that delays (constant one-way delay d >= 0)
   and drops finitely many data and ACK packets (two finite lists of dropped transmission indices), a
   TCPPacketGenerator keeps (re)transmitting until the sink holds every full MSS segment of the flow
   contiguously and the sender's acknowledged mark reaches the end of the data.
   Only statements, closed by the lemma that proves them, and their assumptions.
   Model: Tcp/Loop.v (the repaired sender, the sink, two Wires with the Store hand-offs, droppers, Timers
   as agenda entries, one Packet object per segment so that a retransmission restamps a copy still inside
   the wire).  Proofs: Tcp/LoopLive.v (the potential that every agenda step lowers), LoopLive2.v (its weights:
   work is bounded by expiries; geo and the invariant RtoLow behind the RTO's lower bound), LoopLive2T.v (one agenda step,
   exactly; timing invariant of the wires), LoopLive2P.v (delivery deadlines of everything in flight),
   LoopLive2Q.v (the potential: every expiry lowers it), LoopLive2U.v (one kernel event per timer, the
   segment at last_ack is in flight), LoopLive2F.v (the bound and the conclusion). *)
From Coq Require Import ZArith QArith Qround List.
From ONL Require Import Tcp.Sink Tcp.SinkProofs Tcp.Sender Tcp.SenderProofs Tcp.Loop Tcp.LoopProofs Tcp.LoopLive
  Tcp.LoopLive2 Tcp.LoopLive2F.
Import ListNotations.
Open Scope Z_scope.

(* The explicit bounds.  nphase = size + number of listed drop indices + 1 (epochs: one per new ACK and
   per consumed drop index);  rho = rtt0 * (7/8)^size (lower bound of the RTO);  kappa = ceil(d / rho);
   Bexp = nphase * (3 size + 3 + 2 log2up(A1 + A2 + 1)) bounds the number of timer expiries;
   Gnew = 20 (size+1) + 11 and Cexp = 20 (size+1) + 10 are the prices of a new segment and of an expiry. *)
Theorem C16_live_bound_unfolded : forall lc rtt0,
  Bexp lc rtt0 = nphase lc * (3 * fsize (lc_cfg lc) + 3 + 2 * Z.log2_up (A1 lc rtt0 + A2 lc rtt0 + 1)) /\
  nphase lc = fsize (lc_cfg lc) + Z.of_nat (length (lc_drop_data lc)) + Z.of_nat (length (lc_drop_ack lc)) + 1 /\
  A1 lc rtt0 = (6 + Gnew lc * fsize (lc_cfg lc) + Cexp lc + Cexp lc * nphase lc * (3 * fsize (lc_cfg lc) + 3)) * kappa lc rtt0 /\
  A2 lc rtt0 = Cexp lc * nphase lc * kappa lc rtt0 /\
  kappa lc rtt0 = Qceiling (lc_delay lc / (rtt0 * geo (Z.to_nat (fsize (lc_cfg lc))))) /\
  Gnew lc = 20 * (fsize (lc_cfg lc) + 1) + 11 /\ Cexp lc = 20 * (fsize (lc_cfg lc) + 1) + 10.
Proof. intros. repeat split. Qed.
Print Assumptions C16_live_bound_unfolded.

(* RELIABLE DELIVERY.  Every flow of whole segments (size a positive multiple of MSS), MSS > 0, delay
   d >= 0, initial RTT estimate > 0, initial window >= MSS, any two finite drop lists, Reno or CUBIC with
   any oracle: with more than 3 + Gnew*size + Cexp*Bexp steps of fuel the runner never runs out of fuel
   and never raises; it ends with an empty agenda, last_ack = size, and the sink holding exactly
   [0, size) -- unless env.run(until=t_max) stops it first. *)
Theorem C16_reliable_delivery : forall lc cw ss rtt0 orc fuel,
  lc_ok2 lc -> (zq (mss (lc_cfg lc)) <= cw)%Q -> (0 < rtt0)%Q -> fsize (lc_cfg lc) <> 0 ->
  3 + Gnew lc * fsize (lc_cfg lc) + Cexp lc * Bexp lc rtt0 < Z.of_nat fuel ->
  match lrun fuel lc (linit cw ss rtt0 orc) with
  | LQuiescent st => last_ack (l_snd st) = fsize (lc_cfg lc) /\ nse (l_sink st) = fsize (lc_cfg lc) /\
                     sink_prefix (l_sink st) (fsize (lc_cfg lc))
  | LStopped st => exists a rest, l_agenda st = a :: rest /\ (lc_tmax lc <= ae_time a)%Q
  | LFuel _ | LRaised _ _ => False
  end.
Proof. exact loop_reliable_delivery. Qed.
Print Assumptions C16_reliable_delivery.

(* in every reachable state: the number of timer expiries (timeout_callback calls) so far *)
Theorem C16_expiries_bounded : forall lc cw ss rtt0 orc st,
  lc_ok2 lc -> (zq (mss (lc_cfg lc)) <= cw)%Q -> (0 < rtt0)%Q -> fsize (lc_cfg lc) <> 0 ->
  lreach lc (linit cw ss rtt0 orc) st -> Z.of_nat (nexp st) <= Bexp lc rtt0.
Proof. exact loop_expiries_bounded_explicit. Qed.
Print Assumptions C16_expiries_bounded.

(* only timer expiries keep the loop busy: new data, fast retransmissions (paid by the duplicate ACK
   that triggers them), duplicate ACKs and hand-offs are finite work *)
Theorem C16_work_bounded_by_expiries : forall lc cw ss rtt0 orc k st,
  lc_ok2 lc -> (zq (mss (lc_cfg lc)) <= cw)%Q -> (0 < rtt0)%Q -> fsize (lc_cfg lc) <> 0 ->
  lsteps lc k (linit cw ss rtt0 orc) st ->
  Z.of_nat k <= 3 + Gnew lc * fsize (lc_cfg lc) + Cexp lc * Z.of_nat (nexp st).
Proof. exact loop_work_bounded_by_expiries. Qed.
Print Assumptions C16_work_bounded_by_expiries.

(* the RTO never reaches 0 (Timer would raise ValueError), also with delay 0 where every sample is 0 *)
Theorem C16_rto_lower_bound : forall lc cw ss rtt0 orc st,
  lc_ok2 lc -> (zq (mss (lc_cfg lc)) <= cw)%Q -> (0 < rtt0)%Q -> fsize (lc_cfg lc) <> 0 ->
  lreach lc (linit cw ss rtt0 orc) st ->
  (0 < rtt0 * geo (Z.to_nat (fsize (lc_cfg lc))) <= rto (l_snd st))%Q.
Proof. exact loop_rto_lower_bound. Qed.
Print Assumptions C16_rto_lower_bound.

(* the hypotheses are satisfiable and the bound is a number: 4 one-byte segments, delay 1, drops *)
Theorem C16_live_example :
  lc_ok2 lc_live /\ (zq (mss (lc_cfg lc_live)) <= 2 # 1)%Q /\ fsize (lc_cfg lc_live) <> 0 /\
  Bexp lc_live 1 = 360 /\ 3 + Gnew lc_live * 4 + Cexp lc_live * Bexp lc_live 1 = 40047 /\
  exists st, lrun (Z.to_nat 40048) lc_live (linit (2 # 1) (65535 # 1) 1 []) = LQuiescent st /\
             last_ack (l_snd st) = 4 /\ nse (l_sink st) = 4 /\ nexp st = 3%nat /\ l_n1 st = 7%nat.
Proof. exact live_example. Qed.
Print Assumptions C16_live_example.
