(* C14 -- NON-VACUITY of the theorems of Props/C14.v, Props/C14_Bridge.v and Props/C14_BridgeVC.v.  Witness execution:
   Elem/WFQExamples.v ([fx_acts], accepted by the WFQ model with weights {0: 1, 1: 2} and by the VirtualClock model with
   vticks {0: 2, 1: 1}; rate 1024 bit/s; flows 1 and 5 share class 1): a static backlog p0 p1 p2 p3 at 0 -- p0 and p2
   get EQUAL stamps --, p5 arrives at 3 during a transmission, the scheduler empties at 8 (virtual time and stamps reset),
   p4 arrives at 9.  Service order p1 p0 p2 p3 p5 p4.

   Coverage (theorem -> witness):
     C14_wfq_stamp, C14_wfq_never_raises                                   -> C14_ex_wfq_stamp
     C14_wfq_vtime (put / end of a transmission / the end that empties the scheduler), C14_wfq_active,
     C14_wfq_last_le, C14_wfq_reset (a state that is not the initial one)   -> C14_ex_wfq_vtime
     C14_vc_stamp, C14_vc_never_raises                                      -> C14_ex_vc_stamp
     C14_wfq_stamp_order_service, C14_vc_stamp_order_service,
     C14_wfq_store_keys_distinct, C14_vc_store_keys_distinct                -> C14_ex_stamp_order_service
     C14_wfq_static_fairness                                                -> C14_ex_wfq_static_fairness
     C14_key_order_total, C14_pq_refines_heapq_pop, C14_pq_refines_heapq_push -> C14_ex_key_order_and_heap
     C14_gen_wfq_update_vtime, C14_gen_wfq_put, C14_gen_wfq_act_put         -> C14_ex_gen_wfq
     C14_gen_vc_put, C14_gen_vc_act_put                                     -> C14_ex_gen_vc
   Unconditional: C14_gen_wfq_reset_vtime.  Already a witness: C14_wfq_stamp_refuted_before_fix. *)
From Coq Require Import ZArith QArith Qminmax Qabs List Bool Permutation Lia.
From ONL Require Import Base.Tools Elem.Packet Elem.StoreQ Elem.HeapList Elem.Heap Elem.HeapProofs Elem.WFQServer Elem.WFQServerProofs
  Elem.WFQServerTrace Elem.WFQ Elem.WFQProofs Elem.VC Elem.VCProofs Elem.WFQInst Elem.WFQFair Elem.WFQExamples.
From ONL Require Import Gen.Extracted_wfq Elem.WFQBridge Gen.Extracted_vc Elem.VCBridge.
From ONL Require Import Props.C14 Props.C14_Bridge Props.C14_BridgeVC.
Import ListNotations.

(* the PriorityStore entries of the static backlog: (instant of the put, (stamp, arrival counter, packet)) *)
Definition fx_w0 : entry := (0, {| istamp := 2; iseq := 1; ipkt := fx_p0 |}).
Definition fx_w1 : entry := (0, {| istamp := 1; iseq := 2; ipkt := fx_p1 |}).
Definition fx_w2 : entry := (0, {| istamp := 2; iseq := 3; ipkt := fx_p2 |}).
Definition fx_w3 : entry := (0, {| istamp := 3; iseq := 4; ipkt := fx_p3 |}).

(* ---- WFQ: the stamp.  State after 17 actions: instant 3, p0 in transmission, p2 p3 waiting, F_0 = 3, V = 2/3 as of instant 2.
   put(p5), class 0, weight 1: V becomes 2/3 + (3 - 2)/3 = 1, stamp max(3, 1) + 8*128/1024 = 4.
   State after 38 actions: instant 9, idle since 8 (everything reset).  put(p4), class 1, weight 2: the FIRST packet of a busy
   period is stamped max(0, 0) + 8*128/(1024*2) = 1/2. *)
Theorem C14_ex_wfq_stamp :
  wcfg_ok wfx_cfg /\ wfix_first wfx_cfg = true /\
  wreach wfx_cfg (wfx_state 17) /\ wconf wfx_cfg fx_p5 /\
  wreach wfx_cfg (wfx_state 38) /\ wconf wfx_cfg fx_p4 /\
  (* the situation *)
  now (wfx_state 17) = 3 /\ insys (WS wfx_cfg) (wfx_state 17) = [fx_p0; fx_p2; fx_p3] /\
  fin (stm (wfx_state 17)) 0 = 3 /\ vtime (stm (wfx_state 17)) = 2 # 3 /\
  now (wfx_state 38) = 9 /\ insys (WS wfx_cfg) (wfx_state 38) = [] /\
  (* conclusions *)
  (exists F, wfq_act wfx_cfg (wfx_state 17) (FPut fx_p5) = Ok (wfx_state 18, []) /\
     zlookup (wcls wfx_cfg fx_p5) (wweights wfx_cfg) = Some 1%Z /\
     F == Qmax (fin (stm (wfx_state 17)) (wcls wfx_cfg fx_p5)) (vtime (stm (wfx_state 18)))
          + (inject_Z (psize fx_p5) * 8) / (wrate wfx_cfg * inject_Z 1) /\
     fin (stm (wfx_state 18)) (wcls wfx_cfg fx_p5) == F /\ F == 4 /\ vtime (stm (wfx_state 18)) == 1 /\
     fin (stm (wfx_state 18)) 1 == fin (stm (wfx_state 17)) 1 /\
     exists F', F' == F /\
       items (store (wfx_state 18)) = items (store (wfx_state 17)) ++ [(3, {| istamp := F'; iseq := 5; ipkt := fx_p5 |})]) /\
  (exists F, wfq_act wfx_cfg (wfx_state 38) (FPut fx_p4) = Ok (wfx_state 39, []) /\
     fin (stm (wfx_state 39)) (wcls wfx_cfg fx_p4) == F /\ F == 1 # 2 /\
     items (store (wfx_state 39)) = [(9, {| istamp := 1 # 2; iseq := 6; ipkt := fx_p4 |})]) /\
  wfq_act wfx_cfg (wfx_state 17) (FPut fx_p5) <> Raises /\
  (* run() noticing the end of the last transmission (state after 36 actions): update_vtime does not divide by zero *)
  wfq_act wfx_cfg (wfx_state 36) FChildEnd <> Raises.
Proof.
  split; [exact wfx_cfg_ok|]. split; [reflexivity|]. split; [exact (wfx_reach 17)|].
  apply conj_keep; [apply wconf_b_ok; reflexivity|intros C5].
  split; [exact (wfx_reach 38)|]. apply conj_keep; [apply wconf_b_ok; reflexivity|intros C4].
  split; [vm_compute; reflexivity|]. split; [vm_compute; reflexivity|]. split; [vm_compute; reflexivity|].
  split; [vm_compute; reflexivity|]. split; [vm_compute; reflexivity|]. split; [vm_compute; reflexivity|].
  split.
  { destruct (C14_wfq_stamp _ wfx_cfg_ok eq_refl _ _ (wfx_reach 17) C5) as (s' & w & F & A & B & C & D & E & F' & G1 & G2).
    assert (Es : s' = wfx_state 18).
    { assert (X : wfq_act wfx_cfg (wfx_state 17) (FPut fx_p5) = Ok (wfx_state 18, [])) by (apply wfx_step; vm_compute; reflexivity).
      rewrite X in A. exact (proj1 (Ok_inj _ _ _ _ _ _ A)). }
    subst s'. assert (Ew : w = 1%Z) by (symmetry; exact (Some_inj _ _ _ (eq_trans (eq_sym B) (eq_refl : zlookup (wcls wfx_cfg fx_p5) (wweights wfx_cfg) = Some 1%Z)))). subst w.
    exists F. split; [exact A|]. split; [exact B|]. split; [exact C|]. split; [exact D|].
    split; [rewrite <- D; vm_compute; reflexivity|]. split; [vm_compute; reflexivity|].
    assert (N01 : 1%Z <> wcls wfx_cfg fx_p5) by (vm_compute; discriminate).
    assert (I17 : insys (WS wfx_cfg) (wfx_state 17) <> []) by (vm_compute; discriminate).
    split; [exact (E 1%Z N01 I17)|].
    exists F'. split; [exact G1|exact G2]. }
  split.
  { destruct (C14_wfq_stamp _ wfx_cfg_ok eq_refl _ _ (wfx_reach 38) C4) as (s' & w & F & A & _ & _ & D & _).
    assert (Es : s' = wfx_state 39).
    { assert (X : wfq_act wfx_cfg (wfx_state 38) (FPut fx_p4) = Ok (wfx_state 39, [])) by (apply wfx_step; vm_compute; reflexivity).
      rewrite X in A. exact (proj1 (Ok_inj _ _ _ _ _ _ A)). }
    subst s'. exists F. split; [exact A|]. split; [exact D|].
    split; [rewrite <- D; vm_compute; reflexivity|vm_compute; reflexivity]. }
  split.
  - apply (C14_wfq_never_raises _ wfx_cfg_ok _ _ (wfx_reach 17)). intros p E. injection E as <-. exact C5.
  - apply (C14_wfq_never_raises _ wfx_cfg_ok _ _ (wfx_reach 36)). intros p E. discriminate E.
Qed.
Print Assumptions C14_ex_wfq_stamp.

(* ---- WFQ: virtual time, active set, reset.  Three steps from reachable states: the put of p5 at 3 (state 17: classes 0 and 1
   active, weight sum 3), run() noticing the end of p1's transmission at 2 (state 13: the first update since 0), and run()
   noticing the end of the last transmission at 8 (state 36): the scheduler empties, V and all F return to 0. *)
Theorem C14_ex_wfq_vtime :
  wcfg_ok wfx_cfg /\
  wreach wfx_cfg (wfx_state 17) /\ (forall p, FPut fx_p5 = FPut p -> wconf wfx_cfg p) /\
  wfq_act wfx_cfg (wfx_state 17) (FPut fx_p5) = Ok (wfx_state 18, []) /\
  wreach wfx_cfg (wfx_state 13) /\ wfq_act wfx_cfg (wfx_state 13) FChildEnd = Ok (wfx_state 14, []) /\
  wreach wfx_cfg (wfx_state 36) /\ wfq_act wfx_cfg (wfx_state 36) FChildEnd = Ok (wfx_state 37, []) /\
  wreach wfx_cfg (wfx_state 37) /\ insys (WS wfx_cfg) (wfx_state 37) = [] /\
  (* the situation *)
  active (stm (wfx_state 17)) = [0; 1]%Z /\ insys (WS wfx_cfg) (wfx_state 17) <> [] /\
  vtime (stm (wfx_state 36)) = 3 /\ fin (stm (wfx_state 36)) 0 = 4 /\ now (wfx_state 37) = 8 /\
  (* conclusions *)
  (last_time (stm (wfx_state 18)) = now (wfx_state 17) /\
   exists W, weight_sum (wweights wfx_cfg) (active (stm (wfx_state 17))) = Some W /\ (0 < W)%Z /\ W = 3%Z /\
     vtime (stm (wfx_state 18)) == vtime (stm (wfx_state 17)) + (now (wfx_state 17) - last_time (stm (wfx_state 17))) / inject_Z W) /\
  (last_time (stm (wfx_state 14)) = now (wfx_state 13) /\
   exists W, weight_sum (wweights wfx_cfg) (active (stm (wfx_state 13))) = Some W /\ (0 < W)%Z /\
     vtime (stm (wfx_state 14)) == vtime (stm (wfx_state 13)) + (now (wfx_state 13) - last_time (stm (wfx_state 13))) / inject_Z W /\
     vtime (stm (wfx_state 14)) == 2 # 3) /\
  (last_time (stm (wfx_state 37)) = now (wfx_state 36) /\ vtime (stm (wfx_state 37)) == 0 /\ forall c, fin (stm (wfx_state 37)) c == 0) /\
  (forall c, In c (active (stm (wfx_state 17))) <-> exists p, In p (insys (WS wfx_cfg) (wfx_state 17)) /\ wcls wfx_cfg p = c) /\
  last_time (stm (wfx_state 17)) <= now (wfx_state 17) /\ last_time (stm (wfx_state 17)) = 2 /\
  (vtime (stm (wfx_state 37)) == 0 /\ forall c, fin (stm (wfx_state 37)) c == 0).
Proof.
  assert (NP : forall a p, a = FChildEnd -> a = FPut p -> wconf wfx_cfg p) by (intros a p -> E; discriminate E).
  split; [exact wfx_cfg_ok|]. split; [exact (wfx_reach 17)|].
  apply conj_keep; [intros p E; injection E as <-; apply wconf_b_ok; reflexivity|intros C5].
  apply conj_keep; [apply wfx_step; vm_compute; reflexivity|intros A17].
  split; [exact (wfx_reach 13)|]. apply conj_keep; [apply wfx_step; vm_compute; reflexivity|intros A13].
  split; [exact (wfx_reach 36)|]. apply conj_keep; [apply wfx_step; vm_compute; reflexivity|intros A36].
  split; [exact (wfx_reach 37)|]. apply conj_keep; [vm_compute; reflexivity|intros I37].
  split; [vm_compute; reflexivity|]. apply conj_keep; [vm_compute; discriminate|intros I17].
  split; [vm_compute; reflexivity|]. split; [vm_compute; reflexivity|].
  split; [vm_compute; reflexivity|].
  split.
  { pose proof (C14_wfq_vtime _ wfx_cfg_ok _ _ _ _ (wfx_reach 17) C5 A17) as (L & _ & K). cbv beta iota in K.
    destruct (K I17) as (W & W1 & W2 & W3). split; [exact L|]. exists W. split; [exact W1|]. split; [exact W2|].
    split; [|exact W3].
    assert (X : weight_sum (wweights wfx_cfg) (active (stm (wfx_state 17))) = Some 3%Z) by (vm_compute; reflexivity).
    exact (Some_inj _ _ _ (eq_trans (eq_sym X) W1)). }
  split.
  { pose proof (C14_wfq_vtime _ wfx_cfg_ok _ _ _ _ (wfx_reach 13) (fun p => NP _ p eq_refl) A13) as (L & W & W1 & W2 & K & _).
    split; [exact L|]. exists W. split; [exact W1|]. split; [exact W2|].
    assert (I14 : insys (WS wfx_cfg) (wfx_state 14) <> []) by (vm_compute; discriminate).
    split; [exact (proj1 (K I14))|vm_compute; reflexivity]. }
  split.
  { pose proof (C14_wfq_vtime _ wfx_cfg_ok _ _ _ _ (wfx_reach 36) (fun p => NP _ p eq_refl) A36) as (L & W & _ & _ & _ & K).
    split; [exact L|]. exact (K I37). }
  split; [intros c; exact (C14_wfq_active _ wfx_cfg_ok _ c (wfx_reach 17))|].
  split; [exact (C14_wfq_last_le _ wfx_cfg_ok _ (wfx_reach 17))|]. split; [vm_compute; reflexivity|].
  exact (C14_wfq_reset _ wfx_cfg_ok _ (wfx_reach 37) I37).
Qed.
Print Assumptions C14_ex_wfq_vtime.

(* ---- VirtualClock: the stamp.  State 17 (instant 3, auxVC_0 = 4): put(p5), class 0, vtick 2: max(3, 4) + 2 = 6 (the class clock
   leads).  State 38 (instant 9, auxVC_1 = 2): put(p4), class 1, vtick 1: max(9, 2) + 1 = 10 (real time leads). *)
Theorem C14_ex_vc_stamp :
  vcfg_ok vcx_cfg /\
  vreach vcx_cfg (vcx_state 17) /\ vconf vcx_cfg fx_p5 /\ vreach vcx_cfg (vcx_state 38) /\ vconf vcx_cfg fx_p4 /\
  now (vcx_state 17) = 3 /\ (stm (vcx_state 17) : vst) 0%Z = 4 /\ now (vcx_state 38) = 9 /\ (stm (vcx_state 38) : vst) 1%Z = 2 /\
  (* conclusions *)
  (exists vt, vc_act vcx_cfg (vcx_state 17) (FPut fx_p5) = Ok (vcx_state 18, []) /\
     zlookup (vcls vcx_cfg fx_p5) (vticks vcx_cfg) = Some vt /\ vt = 2 /\
     (stm (vcx_state 18) : vst) (vcls vcx_cfg fx_p5) == Qmax (now (vcx_state 17)) ((stm (vcx_state 17) : vst) (vcls vcx_cfg fx_p5)) + vt /\
     (stm (vcx_state 18) : vst) 0%Z == 6 /\ (stm (vcx_state 18) : vst) 1%Z == (stm (vcx_state 17) : vst) 1%Z /\
     exists F', F' == (stm (vcx_state 18) : vst) (vcls vcx_cfg fx_p5) /\
       items (store (vcx_state 18)) = items (store (vcx_state 17)) ++ [(3, {| istamp := F'; iseq := 5; ipkt := fx_p5 |})]) /\
  (exists vt, vc_act vcx_cfg (vcx_state 38) (FPut fx_p4) = Ok (vcx_state 39, []) /\
     (stm (vcx_state 39) : vst) (vcls vcx_cfg fx_p4) == Qmax (now (vcx_state 38)) ((stm (vcx_state 38) : vst) (vcls vcx_cfg fx_p4)) + vt /\
     (stm (vcx_state 39) : vst) 1%Z == 10) /\
  vc_act vcx_cfg (vcx_state 17) (FPut fx_p5) <> Raises.
Proof.
  split; [exact vcx_cfg_ok|]. split; [exact (vcx_reach 17)|].
  apply conj_keep; [apply vconf_b_ok; reflexivity|intros C5]. split; [exact (vcx_reach 38)|].
  apply conj_keep; [apply vconf_b_ok; reflexivity|intros C4].
  split; [vm_compute; reflexivity|]. split; [vm_compute; reflexivity|]. split; [vm_compute; reflexivity|].
  split; [vm_compute; reflexivity|].
  split.
  { destruct (C14_vc_stamp _ _ _ (vcx_reach 17) C5) as (s' & vt & A & B & C & D & F' & G1 & G2).
    assert (Es : s' = vcx_state 18).
    { assert (X : vc_act vcx_cfg (vcx_state 17) (FPut fx_p5) = Ok (vcx_state 18, [])) by (apply vcx_step; vm_compute; reflexivity).
      rewrite X in A. exact (proj1 (Ok_inj _ _ _ _ _ _ A)). }
    subst s'. exists vt. split; [exact A|]. split; [exact B|].
    split; [exact (Some_inj _ _ _ (eq_trans (eq_sym (eq_refl : zlookup (vcls vcx_cfg fx_p5) (vticks vcx_cfg) = Some 2)) B))|].
    split; [exact C|]. split; [vm_compute; reflexivity|].
    assert (N01 : 1%Z <> vcls vcx_cfg fx_p5) by (vm_compute; discriminate).
    split; [exact (D 1%Z N01)|]. exists F'. split; [exact G1|exact G2]. }
  split.
  { destruct (C14_vc_stamp _ _ _ (vcx_reach 38) C4) as (s' & vt & A & _ & C & _).
    assert (Es : s' = vcx_state 39).
    { assert (X : vc_act vcx_cfg (vcx_state 38) (FPut fx_p4) = Ok (vcx_state 39, [])) by (apply vcx_step; vm_compute; reflexivity).
      rewrite X in A. exact (proj1 (Ok_inj _ _ _ _ _ _ A)). }
    subst s'. exists vt. split; [exact A|]. split; [exact C|vm_compute; reflexivity]. }
  apply (C14_vc_never_raises _ vcx_cfg_ok _ _ (vcx_reach 17)). intros p E. injection E as <-. exact C5.
Qed.
Print Assumptions C14_ex_vc_stamp.

(* ---- service in stamp order, both schedulers, on the whole execution; the store after the four puts at 0 holds two entries with
   EQUAL stamps (p0 and p2: 2) and still has pairwise distinct keys *)
Theorem C14_ex_stamp_order_service :
  wcfg_ok wfx_cfg /\ wadm wfx_cfg fx_acts /\
  wfq_run wfx_cfg (wfq0 wfx_cfg) fx_acts = Some (wfx_state 45, wfx_trace 45) /\
  vcfg_ok vcx_cfg /\ vadm vcx_cfg fx_acts /\
  vc_run vcx_cfg (vc0 vcx_cfg) fx_acts = Some (vcx_state 45, vcx_trace 45) /\
  wreach wfx_cfg (wfx_state 5) /\ vreach vcx_cfg (vcx_state 5) /\
  (* the execution *)
  items (store (wfx_state 5)) = [fx_w0; fx_w1; fx_w2; fx_w3] /\
  map (fun e => (uid (epkt e), istamp (snd e))) (items (store (vcx_state 5))) = [(0%nat, 2); (1%nat, 1); (2%nat, 2); (3%nat, 4)] /\
  fwds (WS wfx_cfg) (wfx_trace 45) = [fx_p1; fx_p0; fx_p2; fx_p3; fx_p5; fx_p4] /\
  fwds (VS vcx_cfg) (vcx_trace 45) = [fx_p1; fx_p0; fx_p2; fx_p3; fx_p5; fx_p4] /\
  (* conclusions *)
  sel_ok (WS wfx_cfg) (wcls wfx_cfg) (wfq0 wfx_cfg) None (wfx_trace 45) /\
  sel_ok (VS vcx_cfg) (vcls vcx_cfg) (vc0 vcx_cfg) None (vcx_trace 45) /\
  distinct_keys entry_ltb (items (store (wfx_state 5))) /\ distinct_keys entry_ltb (items (store (vcx_state 5))) /\
  entry_ltb fx_w0 fx_w2 = true.
Proof.
  split; [exact wfx_cfg_ok|]. split; [exact (wfx_adm 45)|]. apply conj_keep; [exact wfx_full|intros HW].
  split; [exact vcx_cfg_ok|]. split; [exact (vcx_adm 45)|]. apply conj_keep; [exact vcx_full|intros HV].
  split; [exact (wfx_reach 5)|]. split; [exact (vcx_reach 5)|].
  split; [vm_compute; reflexivity|]. split; [vm_compute; reflexivity|]. split; [vm_compute; reflexivity|].
  split; [vm_compute; reflexivity|].
  split; [exact (C14_wfq_stamp_order_service _ wfx_cfg_ok _ _ _ (wfx_adm 45) HW)|].
  split; [exact (C14_vc_stamp_order_service _ vcx_cfg_ok _ _ _ (vcx_adm 45) HV)|].
  split; [exact (C14_wfq_store_keys_distinct _ wfx_cfg_ok _ (wfx_reach 5))|].
  split; [exact (C14_vc_store_keys_distinct _ vcx_cfg_ok _ (vcx_reach 5))|].
  vm_compute; reflexivity.
Qed.
Print Assumptions C14_ex_stamp_order_service.

(* ---- static backlog: the first 16 actions (all four puts, then only service: no FPut after the first FChildInit).  In the state
   reached p1 (class 1) has been transmitted and p0 (class 0) is in transmission; class 0 still holds p0 p3, class 1 holds p2:
   W_0 / w_0 = 256 / 1, W_1 / w_1 = 256 / 2, difference 128 <= 256/1 + 256/2 = 384 *)
Theorem C14_ex_wfq_static_fairness :
  wcfg_ok wfx_cfg /\ wfix_first wfx_cfg = true /\ (0 <= 256)%Z /\
  wadm wfx_cfg (firstn 16 fx_acts) /\ (forall p, In (FPut p) (firstn 16 fx_acts) -> (psize p <= 256)%Z) /\
  static_from false (firstn 16 fx_acts) /\
  wfq_run wfx_cfg (wfq0 wfx_cfg) (firstn 16 fx_acts) = Some (wfx_state 16, wfx_trace 16) /\
  zlookup 0%Z (wweights wfx_cfg) = Some 1%Z /\ zlookup 1%Z (wweights wfx_cfg) = Some 2%Z /\
  holds wfx_cfg 0 (wfx_state 16) /\ holds wfx_cfg 1 (wfx_state 16) /\
  (* the situation *)
  held (WS wfx_cfg) (wfx_state 16) = [fx_p0; fx_p2; fx_p3] /\
  started_bytes wfx_cfg 0 (wfx_trace 16) = 256%Z /\ started_bytes wfx_cfg 1 (wfx_trace 16) = 256%Z /\
  (* conclusion *)
  Qabs (inject_Z (started_bytes wfx_cfg 0 (wfx_trace 16)) / inject_Z 1 - inject_Z (started_bytes wfx_cfg 1 (wfx_trace 16)) / inject_Z 2)
    <= inject_Z 256 / inject_Z 1 + inject_Z 256 / inject_Z 2 /\
  Qabs (inject_Z (started_bytes wfx_cfg 0 (wfx_trace 16)) / inject_Z 1 - inject_Z (started_bytes wfx_cfg 1 (wfx_trace 16)) / inject_Z 2) == 128.
Proof.
  split; [exact wfx_cfg_ok|]. split; [reflexivity|]. apply conj_keep; [lia|intros L]. split; [exact (wfx_adm 16)|].
  apply conj_keep; [|intros SZ].
  { apply puts_conf_firstn, (puts_conf_check _ (fun p => (psize p <=? 256)%Z)); [intros p; apply Z.leb_le|reflexivity]. }
  apply conj_keep; [cbn; tauto|intros SF]. apply conj_keep; [exact (wfx_run 16)|intros HR]. split; [reflexivity|].
  split; [reflexivity|]. apply conj_keep; [exists fx_p0; split; [vm_compute; tauto|reflexivity]|intros H0].
  apply conj_keep; [exists fx_p2; split; [vm_compute; tauto|reflexivity]|intros H1].
  split; [vm_compute; reflexivity|]. split; [vm_compute; reflexivity|]. split; [vm_compute; reflexivity|].
  split; [exact (C14_wfq_static_fairness _ wfx_cfg_ok eq_refl 256%Z L _ _ _ 0%Z 1%Z 1%Z 2%Z (wfx_adm 16) SZ SF HR eq_refl eq_refl H0 H1)|].
  vm_compute; reflexivity.
Qed.
Print Assumptions C14_ex_wfq_static_fairness.

(* ---- the key order and CPython's heapq.  l = the store after the four puts at 0 in arrival order; h = the array heapq holds after
   the same four pushes.  p0 and p2 have EQUAL stamps and arrival instants: the arrival counters 1 <> 3 decide, p0 first. *)
Definition fx_heap : list entry := [fx_w1; fx_w0; fx_w2; fx_w3].
Definition fx_w5 : entry := (3, {| istamp := 4; iseq := 5; ipkt := fx_p5 |}).

Theorem C14_ex_key_order_and_heap :
  (* C14_key_order_total *)
  iseq (snd fx_w0) <> iseq (snd fx_w2) /\ istamp (snd fx_w0) = istamp (snd fx_w2) /\ fst fx_w0 = fst fx_w2 /\
  (* C14_pq_refines_heapq_pop, C14_pq_refines_heapq_push *)
  heap_inv entry_ltb fx_heap /\ Permutation fx_heap [fx_w0; fx_w1; fx_w2; fx_w3] /\
  distinct_keys entry_ltb [fx_w0; fx_w1; fx_w2; fx_w3] /\
  pq_pop [fx_w0; fx_w1; fx_w2; fx_w3] = Some (fx_w1, [fx_w0; fx_w2; fx_w3]) /\
  heap_pushall entry_ltb [] [fx_w0; fx_w1; fx_w2; fx_w3] = Some fx_heap /\
  (* conclusions *)
  (entry_ltb fx_w0 fx_w2 = true \/ entry_ltb fx_w2 fx_w0 = true) /\ entry_ltb fx_w0 fx_w2 = true /\ entry_ltb fx_w2 fx_w0 = false /\
  (exists h', heappop entry_ltb fx_heap = Some (fx_w1, h') /\ heap_inv entry_ltb h' /\ Permutation h' [fx_w0; fx_w2; fx_w3] /\
              distinct_keys entry_ltb [fx_w0; fx_w2; fx_w3] /\ h' = [fx_w0; fx_w3; fx_w2]) /\
  (exists h', heappush entry_ltb fx_heap fx_w5 = Some h' /\ heap_inv entry_ltb h' /\
              Permutation h' (pq_push fx_w5 [fx_w0; fx_w1; fx_w2; fx_w3]) /\ h' = [fx_w1; fx_w0; fx_w2; fx_w3; fx_w5]).
Proof.
  assert (HI : heap_inv entry_ltb fx_heap).
  { intros i a p Hi Ha Hp. destruct i as [|[|[|[|i]]]]; [lia| | | |destruct i; discriminate Ha];
      cbn in Ha, Hp; injection Ha as <-; injection Hp as <-; vm_compute; reflexivity. }
  assert (PM : Permutation fx_heap [fx_w0; fx_w1; fx_w2; fx_w3]) by apply perm_swap.
  assert (DK : distinct_keys entry_ltb [fx_w0; fx_w1; fx_w2; fx_w3]).
  { assert (E : items (store (wfx_state 5)) = [fx_w0; fx_w1; fx_w2; fx_w3]) by (vm_compute; reflexivity).
    rewrite <- E. exact (C14_wfq_store_keys_distinct _ wfx_cfg_ok _ (wfx_reach 5)). }
  apply conj_keep; [cbn; discriminate|intros NE]. split; [reflexivity|]. split; [reflexivity|]. split; [exact HI|].
  split; [exact PM|]. split; [exact DK|].
  apply conj_keep; [vm_compute; reflexivity|intros PP]. split; [vm_compute; reflexivity|].
  split; [exact (C14_key_order_total _ _ NE)|]. split; [vm_compute; reflexivity|]. split; [vm_compute; reflexivity|].
  split.
  { destruct (C14_pq_refines_heapq_pop _ _ HI PM DK _ _ PP) as (h' & A & B & C & D).
    exists h'. split; [exact A|]. split; [exact B|]. split; [exact C|]. split; [exact D|].
    assert (X : heappop entry_ltb fx_heap = Some (fx_w1, [fx_w0; fx_w3; fx_w2])) by (vm_compute; reflexivity).
    exact (f_equal snd (Some_inj _ _ _ (eq_trans (eq_sym X) A))). }
  destruct (C14_pq_refines_heapq_push _ _ fx_w5 HI PM) as (h' & A & B & C).
  exists h'. split; [exact A|]. split; [exact B|]. split; [exact C|].
  assert (X : heappush entry_ltb fx_heap fx_w5 = Some [fx_w1; fx_w0; fx_w2; fx_w3; fx_w5]) by (vm_compute; reflexivity).
  exact (Some_inj _ _ _ (eq_trans (eq_sym X) A)).
Qed.
Print Assumptions C14_ex_key_order_and_heap.

(* ---- second tie, WFQ: the generated put / update_vtime on the fields of the state after 17 actions (instant 3, arrivals = 4,
   active set {0, 1} with weight sum 3 <> 0), packet p5 (class 0, weight 1) *)
Theorem C14_ex_gen_wfq :
  wfix_first wfx_cfg = true /\
  weight_sum (wweights wfx_cfg) (active (stm (wfx_state 17))) = Some 3%Z /\ 3%Z <> 0%Z /\
  zlookup (wf2c wfx_cfg (flow fx_p5)) (wweights wfx_cfg) = Some 1%Z /\
  (active (stm (wfx_state 17)) <> [] ->
     exists ws, weight_sum (wweights wfx_cfg) (active (stm (wfx_state 17))) = Some ws /\ ws <> 0%Z) /\
  active (stm (wfx_state 17)) <> [] /\ seq (wfx_state 17) = 4%nat /\
  (* conclusions *)
  (exists v, update_vtime wfx_cfg 3 (stm (wfx_state 17)) = Some v /\
             v == w_vtime (fst (wfq_gen_update_vtime wfx_cfg 3 (stm (wfx_state 17)) 4)) /\ v == 1) /\
  (exists s' F, wfq_put wfx_cfg 3 (stm (wfx_state 17)) fx_p5 = Some (s', F) /\
     wst_agrees s' (fst (wfq_gen_put wfx_cfg 3 (stm (wfx_state 17)) 4 fx_p5 1)) /\
     w_arrivals (fst (wfq_gen_put wfx_cfg 3 (stm (wfx_state 17)) 4 fx_p5 1)) = 5%Z /\
     F == w_finish_times (fst (wfq_gen_put wfx_cfg 3 (stm (wfx_state 17)) 4 fx_p5 1)) 0%Z /\ F == 4 /\
     snd (wfq_gen_put wfx_cfg 3 (stm (wfx_state 17)) 4 fx_p5 1)
       = [Extracted_wfq.FxAddToQueue; Extracted_wfq.FxActiveAdd 0%Z; Extracted_wfq.FxStorePut (w_finish_times (fst (wfq_gen_put wfx_cfg 3 (stm (wfx_state 17)) 4 fx_p5 1)) 0%Z) 3 5]) /\
  (exists sv' stamp, wfq_act wfx_cfg (wfx_state 17) (FPut fx_p5) = Ok (sv', []) /\
     store sv' = sq_put pq_push (now (wfx_state 17)) {| istamp := Qred stamp; iseq := seq sv'; ipkt := fx_p5 |} (store (wfx_state 17)) /\
     nrecv sv' = (nrecv (wfx_state 17) + 1)%Z /\ qcount sv' 0%Z = (qcount (wfx_state 17) 0%Z + 1)%Z).
Proof.
  assert (NN : now (wfx_state 17) = 3) by (vm_compute; reflexivity).
  split; [reflexivity|]. apply conj_keep; [vm_compute; reflexivity|intros WS3].
  apply conj_keep; [discriminate|intros N3]. apply conj_keep; [reflexivity|intros ZL].
  apply conj_keep; [intros _; exists 3%Z; split; [exact WS3|exact N3]|intros AW].
  split; [vm_compute; discriminate|]. apply conj_keep; [vm_compute; reflexivity|intros SQ].
  split.
  { destruct (C14_gen_wfq_update_vtime wfx_cfg 3 (stm (wfx_state 17)) 4 3 WS3 N3) as (v & A & B & _).
    exists v. split; [exact A|]. split; [exact B|].
    assert (X : update_vtime wfx_cfg 3 (stm (wfx_state 17)) = Some 1) by (vm_compute; reflexivity).
    rewrite (Some_inj _ _ _ (eq_trans (eq_sym X) A)). reflexivity. }
  split.
  { destruct (C14_gen_wfq_put wfx_cfg 3 (stm (wfx_state 17)) 4 fx_p5 1 eq_refl ZL AW) as (s' & F & A & B & _ & D & E & G).
    exists s', F. split; [exact A|]. split; [exact B|]. split; [exact D|]. split; [exact E|].
    split; [|exact G].
    assert (X : option_map snd (wfq_put wfx_cfg 3 (stm (wfx_state 17)) fx_p5) = Some 4) by (vm_compute; reflexivity).
    rewrite A in X. cbn [option_map snd] in X. rewrite <- (Some_inj _ _ _ X). reflexivity. }
  pose proof (C14_gen_wfq_act_put wfx_cfg (wfx_state 17) fx_p5 1 eq_refl ZL AW) as (sv' & stamp & A & _ & C & _ & E & G & _).
  exists sv', stamp. split; [exact A|]. split; [exact C|]. split; [exact E|exact G].
Qed.
Print Assumptions C14_ex_gen_wfq.

(* ---- second tie, VirtualClock: the generated put on the fields of the state after 38 actions (instant 9, auxVC_1 = 2, arrivals 5),
   packet p4 (flow 1, class 1, vtick 1); VC.vc is not modelled: any function *)
Theorem C14_ex_gen_vc :
  zlookup (vf2c vcx_cfg (flow fx_p4)) (vticks vcx_cfg) = Some 1 /\ seq (vcx_state 38) = 5%nat /\ now (vcx_state 38) = 9 /\
  (* conclusions *)
  (exists s' F, vc_put vcx_cfg 9 (stm (vcx_state 38)) fx_p4 = Some (s', F) /\
     (forall k, s' k == v_aux_vc (fst (vc_gen_put vcx_cfg 9 (stm (vcx_state 38)) (fun _ => 7) 5 fx_p4 1)) k) /\
     v_arrivals (fst (vc_gen_put vcx_cfg 9 (stm (vcx_state 38)) (fun _ => 7) 5 fx_p4 1)) = 6%Z /\
     F == v_aux_vc (fst (vc_gen_put vcx_cfg 9 (stm (vcx_state 38)) (fun _ => 7) 5 fx_p4 1)) 1%Z /\ F == 10) /\
  (exists sv' stamp, vc_act vcx_cfg (vcx_state 38) (FPut fx_p4) = Ok (sv', []) /\
     store sv' = sq_put pq_push (now (vcx_state 38)) {| istamp := Qred stamp; iseq := seq sv'; ipkt := fx_p4 |} (store (vcx_state 38)) /\
     nrecv sv' = (nrecv (vcx_state 38) + 1)%Z /\ qcount sv' 1%Z = (qcount (vcx_state 38) 1%Z + 1)%Z).
Proof.
  apply conj_keep; [reflexivity|intros ZL]. split; [vm_compute; reflexivity|]. split; [vm_compute; reflexivity|].
  split.
  { destruct (C14_gen_vc_put vcx_cfg 9 (stm (vcx_state 38)) (fun _ => 7) 5 fx_p4 1 ZL) as (s' & F & A & B & C & D & _).
    exists s', F. split; [exact A|]. split; [exact B|]. split; [exact C|]. split; [exact D|].
    assert (X : option_map snd (vc_put vcx_cfg 9 (stm (vcx_state 38)) fx_p4) = Some 10) by (vm_compute; reflexivity).
    rewrite A in X. cbn [option_map snd] in X. rewrite <- (Some_inj _ _ _ X). reflexivity. }
  pose proof (C14_gen_vc_act_put vcx_cfg (vcx_state 38) (fun _ => 7) fx_p4 1 ZL) as (sv' & stamp & A & _ & C & _ & E & G & _).
  exists sv', stamp. split; [exact A|]. split; [exact C|]. split; [exact E|exact G].
Qed.
Print Assumptions C14_ex_gen_vc.
