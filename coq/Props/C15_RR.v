(* C15 -- round-robin family: the RR and WRR clauses.  Only statements + exact + assumptions.
   tr_visits tr: the classes run() tested, in order, with the outcome (true = it took one packet of the class, false = it
   found the class empty and moved on).  walk pass cursor visits: the specification of cyclic visiting -- every visit is to
   the class of the next slot in declaration order (slots whose allowance is used up are passed over, after the last slot
   the pass starts again); a visit that takes a packet uses one unit of the slot's allowance (RR: 1, WRR: weight), a visit
   that finds the class empty ends the slot.  *_visit says the whole visit sequence of every execution follows it;
   *_visit_meaning says what a visit does to the queues; *_starts_follow_visits that the sequence of transmission starts
   is exactly the sequence of visits that took a packet (pclass = class of the packet's flow; identity map here).
   cursor c s: the slots run() still has to look at in this pass, read off its program counter; norm pass k: the slot list k
   with used-up slots dropped and the pass restarted when nothing is left (two cursors with the same norm are the same
   position); served vs: the classes of the visits that took a packet; pending c s: the class run() has committed to whose
   transmission has not started yet. *)
From Coq Require Import ZArith QArith List.
From ONL Require Import Elem.Packet Elem.StoreQ Elem.SchedBase Elem.SchedBaseProofs Elem.RR Elem.RRProofs Elem.WRR Elem.WRRProofs.
Import ListNotations.

(* ================= RR ================= *)
(* classes are visited cyclically in declaration order, one packet (RR) resp. up to weight packets (WRR) per visit *)
Theorem C15_rr_visit : forall (r : Q) (fl : list Z) acts s tr,
  0 < r ->
  rr_run r fl acts = Some (s, tr) ->
  exists k, walk (pass (rr_cfg r fl)) (pass (rr_cfg r fl)) (tr_visits tr) = Some k /\
            norm (pass (rr_cfg r fl)) k = norm (pass (rr_cfg r fl)) (cursor (rr_cfg r fl) s).
Proof. exact rr_visit. Qed.
Print Assumptions C15_rr_visit.

(* a class is skipped only when it holds nothing; a class that is served hands over the head of its queue *)
Theorem C15_rr_visit_meaning : forall (r : Q) (fl : list Z) acts s tr a s' o f b,
  0 < r ->
  rr_run r fl acts = Some (s, tr) -> rr_act r fl s a = Some (s', o) -> In (OVisit f b) o ->
  if b then exists x rest, items (mstores s f) = x :: rest /\ get (mstores s' f) = GGranted x /\ items (mstores s' f) = rest
  else items (mstores s f) = [] /\ held_class (rr_cfg r fl) s f = [].
Proof. intros; eapply visit_meaning; eauto using rr_wf, run_reachable. Qed.
Print Assumptions C15_rr_visit_meaning.

(* the classes of the transmission starts, in order, are the classes of the visits that took a packet (the last one possibly still pending) *)
Theorem C15_rr_starts_follow_visits : forall (r : Q) (fl : list Z) acts s tr,
  0 < r ->
  rr_run r fl acts = Some (s, tr) -> served (tr_visits tr) = map (pclass (rr_cfg r fl)) (tr_starts tr) ++ pending (rr_cfg r fl) s.
Proof. intros; eapply starts_follow_visits0; eauto using rr_wf. Qed.
Print Assumptions C15_rr_starts_follow_visits.

(* ================= WRR ================= *)
Theorem C15_wrr_visit : forall (r : Q) (ws : list (Z * Z)) acts s tr,
  0 < r ->
  wrr_run r ws acts = Some (s, tr) ->
  exists k, walk (pass (wrr_cfg r ws)) (pass (wrr_cfg r ws)) (tr_visits tr) = Some k /\
            norm (pass (wrr_cfg r ws)) k = norm (pass (wrr_cfg r ws)) (cursor (wrr_cfg r ws) s).
Proof. exact wrr_visit. Qed.
Print Assumptions C15_wrr_visit.

Theorem C15_wrr_visit_meaning : forall (r : Q) (ws : list (Z * Z)) acts s tr a s' o f b,
  0 < r ->
  wrr_run r ws acts = Some (s, tr) -> wrr_act r ws s a = Some (s', o) -> In (OVisit f b) o ->
  if b then exists x rest, items (mstores s f) = x :: rest /\ get (mstores s' f) = GGranted x /\ items (mstores s' f) = rest
  else items (mstores s f) = [] /\ held_class (wrr_cfg r ws) s f = [].
Proof. intros; eapply visit_meaning; eauto using wrr_wf, run_reachable. Qed.
Print Assumptions C15_wrr_visit_meaning.

Theorem C15_wrr_starts_follow_visits : forall (r : Q) (ws : list (Z * Z)) acts s tr,
  0 < r ->
  wrr_run r ws acts = Some (s, tr) -> served (tr_visits tr) = map (pclass (wrr_cfg r ws)) (tr_starts tr) ++ pending (wrr_cfg r ws) s.
Proof. intros; eapply starts_follow_visits0; eauto using wrr_wf. Qed.
Print Assumptions C15_wrr_starts_follow_visits.
