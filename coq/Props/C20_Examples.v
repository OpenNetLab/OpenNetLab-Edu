(* C20 -- NON-VACUITY of the statements of Props/C20.v.

   Every theorem of Props/C20.v has hypotheses; each is listed above a witness below: a machine-checked statement that
   ALL its hypotheses hold simultaneously at concrete closed terms, followed by what its conclusion then says about them
   (obtained by applying the very lemma that closes the theorem in Props/C20.v, or by computation).

   The instance: factor 1/2, initial simulated time 2, real_start 7 (the wall-clock reading of the last sync()); a kernel
   whose agenda holds occurrences due at simulated times 5/2, 3, 3, 9/2, i.e. at wall times 29/4, 15/2, 15/2, 33/4; the
   wall clock is scripted per step: sleeps that return early (step 1), late (step 2), no sleep needed (step 3), a long
   sleep (step 4).  The kernel: K = list of due times, peek = head, step = pop and report the time processed.
   The model does not normalise the rationals it computes: 4 # 32 is the sleep of 1/8, 10 # 8 the lag 5/4, 28 # 32 = 7/8.

   Unconditional theorems (Props/C20_Bridge.v, second tie): C20_gen_rt_step, C20_gen_rt_sync -- no witness needed.
   Hypothesis-carrying theorems and the witness that covers each:
     C20_same_events                          C20_ex_same_events          (a non-strict run of four steps that proceeds, and a
                                                                           strict run that stops with 'too slow' at its third step)
     C20_never_early, C20_sleeps_exact        C20_ex_never_early_sleeps_exact
     C20_strict_iff                           C20_ex_strict_iff           (lag above `factor`: raises; lag exactly `factor`: does not)
     C20_nonstrict_never_raises               C20_ex_nonstrict_never_raises
     C20_proceeds_when_reached                C20_ex_proceeds_when_reached *)
From Coq Require Import ZArith QArith List Bool.
From ONL Require Import Base.Tools Rt.Realtime Rt.RealtimeProofs.
Import ListNotations.

Definition xc (s : bool) : rtcfg := {| factor := 1 # 2; strict := s; env_start := 2 |}.
Definition xrs : Q := 7.

(* a concrete kernel: the state is the list of due times, a step pops the head and reports it *)
Definition xpeek (k : list Q) : option Q := hd_error k.
Definition xkstep (k : list Q) : list Q * Q := (tl k, hd 0 k).
Definition xk0 : list Q := [5 # 2; 3; 3; 9 # 2].

(* per-step wall-clock readings *)
Definition xclk1 : list Q := [7; 57 # 8; 29 # 4].        (* due 29/4: sleep(1/4) returns after 1/8, sleep(1/8) on time *)
Definition xclk2 : list Q := [59 # 8; 61 # 8].           (* due 15/2: sleep(1/8) returns 1/8 late *)
Definition xclk3 : list Q := [61 # 8].                   (* due 15/2: already past, no sleep *)
Definition xclk4 : list Q := [31 # 4; 17 # 2].           (* due 33/4: sleep(1/2) returns 1/4 late *)

(* covers C20_same_events (rt_run .. = (k', results, o)), twice: a non-strict run that proceeds through all four steps, and
   a strict run whose third step finds the clock 1 > factor past the due instant and raises: in both the kernel steps
   performed are exactly those of the plain Environment *)
Theorem C20_ex_same_events :
  rt_run (list Q) Q xpeek xkstep (xc false) xrs xk0 [xclk1; xclk2; xclk3; xclk4] = ([], [5 # 2; 3; 3; 9 # 2], RProceed) /\
  plain_run (list Q) Q xkstep xk0 (length [5 # 2; 3; 3; 9 # 2]) = ([], [5 # 2; 3; 3; 9 # 2]) /\
  rt_run (list Q) Q xpeek xkstep (xc true) xrs xk0 [[7; 7; 57 # 8; 29 # 4]; [59 # 8; 59 # 8; 61 # 8]; [17 # 2; 35 # 4]; xclk4]
    = ([3; 9 # 2], [5 # 2; 3], RTooSlow (10 # 8)) /\
  plain_run (list Q) Q xkstep xk0 (length [5 # 2; 3]) = ([3; 9 # 2], [5 # 2; 3]).
Proof.
  apply conj_keep; [vm_compute; reflexivity|intros H1]. split; [exact (rt_same_events _ _ _ _ _ _ _ _ _ _ _ H1)|].
  apply conj_keep; [vm_compute; reflexivity|intros H2]. exact (rt_same_events _ _ _ _ _ _ _ _ _ _ _ H2).
Qed.
Print Assumptions C20_ex_same_events.

(* covers C20_never_early (rt_step .. = (RProceed, sl, used)) and C20_sleeps_exact (+ strict c = false): the first step above;
   and C20_never_early once more in strict mode (the first reading is the lateness check, lag 1/4 <= factor) *)
Theorem C20_ex_never_early_sleeps_exact :
  strict (xc false) = false /\
  rt_step (xc false) xrs (Some (5 # 2)) xclk1 = (RProceed, [1 # 4; 4 # 32], [7; 57 # 8; 29 # 4]) /\
  real_time_of (xc false) xrs (5 # 2) == 29 # 4 /\
  (exists pre r, [7; 57 # 8; 29 # 4] = pre ++ [r] /\ real_time_of (xc false) xrs (5 # 2) <= r) /\
  (exists pre r, [7; 57 # 8; 29 # 4] = pre ++ [r] /\ Forall (fun x => x < real_time_of (xc false) xrs (5 # 2)) pre /\
                 [1 # 4; 4 # 32] = map (fun x => real_time_of (xc false) xrs (5 # 2) - x) pre) /\
  rt_step (xc true) xrs (Some (5 # 2)) [15 # 2; 15 # 2] = (RProceed, [], [15 # 2; 15 # 2]) /\
  (exists pre r, [15 # 2; 15 # 2] = pre ++ [r] /\ real_time_of (xc true) xrs (5 # 2) <= r).
Proof.
  apply conj_keep; [reflexivity|intros S]. apply conj_keep; [vm_compute; reflexivity|intros H]. split; [vm_compute; reflexivity|].
  split; [exact (rt_never_early _ _ _ _ _ _ H)|]. split; [exact (rt_sleeps_exact _ _ _ _ _ _ S H)|].
  apply conj_keep; [vm_compute; reflexivity|intros H']. exact (rt_never_early _ _ _ _ _ _ H').
Qed.
Print Assumptions C20_ex_never_early_sleeps_exact.

(* covers C20_strict_iff (strict c = true): due wall time 29/4, factor 1/2.  First reading 8 (lag 3/4 > factor): raises, the
   message carries the second reading's lag; first reading 31/4 (lag exactly = factor): does not raise *)
Theorem C20_ex_strict_iff :
  strict (xc true) = true /\
  (factor (xc true) < 8 - real_time_of (xc true) xrs (5 # 2)) /\
  rt_step (xc true) xrs (Some (5 # 2)) [8; 65 # 8; 9] = (RTooSlow (28 # 32), [], [8; 65 # 8]) /\
  (exists d, fst (fst (rt_step (xc true) xrs (Some (5 # 2)) (8 :: (65 # 8) :: [9]))) = RTooSlow d) /\
  ~ (factor (xc true) < (31 # 4) - real_time_of (xc true) xrs (5 # 2)) /\
  rt_step (xc true) xrs (Some (5 # 2)) [31 # 4; 31 # 4] = (RProceed, [], [31 # 4; 31 # 4]) /\
  ~ (exists d, fst (fst (rt_step (xc true) xrs (Some (5 # 2)) ((31 # 4) :: (31 # 4) :: []))) = RTooSlow d).
Proof.
  apply conj_keep; [reflexivity|intros S]. apply conj_keep; [vm_compute; reflexivity|intros L]. split; [vm_compute; reflexivity|].
  split; [exact (proj2 (rt_strict_iff _ xrs (5 # 2) 8 (65 # 8) [9] S) L)|].
  apply conj_keep; [vm_compute; discriminate|intros NL]. split; [vm_compute; reflexivity|].
  intros E. exact (NL (proj1 (rt_strict_iff _ xrs (5 # 2) (31 # 4) (31 # 4) [] S) E)).
Qed.
Print Assumptions C20_ex_strict_iff.

(* covers C20_nonstrict_never_raises (strict c = false): the clock is 93 past the due instant, the step just proceeds *)
Theorem C20_ex_nonstrict_never_raises :
  strict (xc false) = false /\
  rt_step (xc false) xrs (Some (5 # 2)) [401 # 4; 102] = (RProceed, [], [401 # 4]) /\
  (forall d, fst (fst (rt_step (xc false) xrs (Some (5 # 2)) [401 # 4; 102])) <> RTooSlow d).
Proof.
  apply conj_keep; [reflexivity|intros S]. split; [vm_compute; reflexivity|]. exact (rt_nonstrict_never_raises _ _ _ _ S).
Qed.
Print Assumptions C20_ex_nonstrict_never_raises.

(* covers C20_proceeds_when_reached (strict c = false, some reading reaches the due real time): three sleeps that all return
   early, the fourth reading reaches 29/4 *)
Theorem C20_ex_proceeds_when_reached :
  strict (xc false) = false /\
  Exists (fun r => real_time_of (xc false) xrs (5 # 2) <= r) [7; 57 # 8; 115 # 16; 29 # 4; 8] /\
  (exists sl used, rt_step (xc false) xrs (Some (5 # 2)) [7; 57 # 8; 115 # 16; 29 # 4; 8] = (RProceed, sl, used)) /\
  rt_step (xc false) xrs (Some (5 # 2)) [7; 57 # 8; 115 # 16; 29 # 4; 8]
    = (RProceed, [1 # 4; 4 # 32; 4 # 64], [7; 57 # 8; 115 # 16; 29 # 4]).
Proof.
  apply conj_keep; [reflexivity|intros S]. apply conj_keep; [|intros E].
  { apply Exists_cons_tl, Exists_cons_tl, Exists_cons_tl, Exists_cons_hd. vm_compute. discriminate. }
  split; [exact (rt_proceeds_when_reached _ _ _ _ S E)|].
  vm_compute. reflexivity.
Qed.
Print Assumptions C20_ex_proceeds_when_reached.
