(* C17 -- TCP sends only inside its window and adapts it by the Reno/CUBIC rules.
   Only statements, closed by the lemma that proves them, and their assumptions.
   Model: Tcp/Sender.v (TCPPacketGenerator.put / timeout_callback / run + CongestionControl).
   [fx] ranges over the repair flags; every theorem that needs the deflation repair says so. *)
From Coq Require Import ZArith QArith Qabs Qminmax List.
From ONL Require Import Tcp.Sender Tcp.SenderProofs Gen.Extracted_cc Tcp.CcBridge Tcp.Cubic Tcp.CubicProofs Tcp.CubicBridge Tcp.AppSender Tcp.AppSenderProofs.
Import ListNotations.
Open Scope Z_scope.

(* --- the send guard: one resumption of the sender process emits n >= 0 MSS-sized, consecutively
   numbered segments, each allowed by next_seq + MSS <= min(send_buffer, last_ack + cwnd), changes
   nothing else, and stops only at the end of the flow or when the guard is false --- *)
Theorem C17_send_guard : forall c s s' outs,
  0 < mss c -> on_wake c s = Ok s' outs ->
  wake_spec c (set_store s (tokens s) (pend s) false false) s' [] outs.
Proof. exact send_guard. Qed.
Print Assumptions C17_send_guard.

Theorem C17_window_respected : forall c s s' outs,
  0 < mss c -> on_wake c s = Ok s' outs -> next_seq s < next_seq s' ->
  (zq (next_seq s' - last_ack s') <= cwnd s')%Q.
Proof. exact window_respected. Qed.
Print Assumptions C17_window_respected.

(* ACKs, expiries and store callbacks never emit new data: next_seq and send_buffer stay, no timer is
   started, and whatever is transmitted is a retransmission of a segment in flight *)
Theorem C17_only_wake_sends_new_data : forall fx c s e s' outs,
  e <> EWake -> step fx c s e = Ok s' outs ->
  next_seq s' = next_seq s /\ send_buffer s' = send_buffer s /\ retransmissions_only s outs.
Proof. exact only_wake_sends_new_data. Qed.
Print Assumptions C17_only_wake_sends_new_data.

(* over every history from the initial state the new segments are numbered 0, MSS, 2 MSS, ... *)
Theorem C17_segments_consecutive : forall fx c cw0 ss0 rtt0 evs s' outs,
  0 < mss c -> run fx c (init cw0 ss0 rtt0) evs = Ok s' outs ->
  exists n : nat, starts outs = seg_ids (mss c) 0 n /\ next_seq s' = Z.of_nat n * mss c.
Proof. exact segments_consecutive. Qed.
Print Assumptions C17_segments_consecutive.

(* --- new ACK, no fast retransmit pending --- *)
Theorem C17_new_ack_rule : forall fx c s ackno pid sample o cw ccnt cn t se outs,
  fx_deflate3 fx = true ->
  ackno <> last_ack s -> 0 <= dupack s < 3 ->
  cc_ack c (cwnd s) (ssthresh s) (cwnd_cnt s) (cnt s) o = Some (cw, ccnt, cn) ->
  stop_all (acked_ids fx c s ackno pid) (timers s) (sent s) [] = Some (t, se, outs) ->
  on_ack fx c s ackno pid sample o =
  Ok (mkst (next_seq s) (send_buffer s) ackno 0 cw (ssthresh s)
           (srtt s + (1 # 8) * (sample - srtt s))%Q
           (rttvar s + (1 # 4) * (Qabs (sample - srtt s) - rttvar s))%Q
           (srtt s + (1 # 8) * (sample - srtt s) + (4 # 1) * (rttvar s + (1 # 4) * (Qabs (sample - srtt s) - rttvar s)))%Q
           ccnt cn t se (S (tokens s)) (S (pend s)) (waiting s) (wake s) (finished s))
     outs.
Proof. exact new_ack_rule. Qed.
Print Assumptions C17_new_ack_rule.

Theorem C17_reno_ack_rule : forall c cw ss ccnt cn o,
  calg c = Reno -> ~ (cw == 0)%Q ->
  cc_ack c cw ss ccnt cn o =
  Some ((if Qle_bool cw ss then cw + zq (mss c) else cw + zq (mss c * mss c) / cw)%Q, ccnt, cn).
Proof. exact reno_ack_rule. Qed.
Print Assumptions C17_reno_ack_rule.

Theorem C17_cubic_ack_rule : forall c cw ss ccnt cn o,
  calg c = Cubic ->
  cc_ack c cw ss ccnt cn o =
  Some (if Qle_bool cw ss then ((cw + zq (mss c))%Q, ccnt, cn)
        else if Qltb o (zq ccnt) then ((cw + zq (mss c))%Q, 0, o) else (cw, ccnt + 1, o)).
Proof. exact cubic_ack_rule. Qed.
Print Assumptions C17_cubic_ack_rule.

(* --- duplicate ACKs --- *)
Theorem C17_early_dup_rule : forall fx c s pid sample o,
  0 <= dupack s -> dupack s + 1 < 3 ->
  on_ack fx c s (last_ack s) pid sample o = Ok (set_dupack s (dupack s + 1)) [].
Proof. exact early_dup_rule. Qed.
Print Assumptions C17_early_dup_rule.

Theorem C17_fast_retransmit_rule : forall fx c s pid sample o,
  dupack s = 2 -> in_sent (last_ack s) (sent s) = true ->
  on_ack fx c s (last_ack s) pid sample o =
  Ok (mkst (next_seq s) (send_buffer s) (last_ack s) 3
           (fr_ssthresh (mss c) (cwnd s) + zq (3 * mss c))%Q (fr_ssthresh (mss c) (cwnd s))
           (srtt s) (rttvar s) (rto s) (cwnd_cnt s) (cnt s) (timers s) (sent s)
           (tokens s) (pend s) (waiting s) (wake s) (finished s))
     [Tx (last_ack s) (mss c)].
Proof. exact fast_retransmit_rule. Qed.
Print Assumptions C17_fast_retransmit_rule.

Theorem C17_fr_ssthresh_is_max : forall m cw, (fr_ssthresh m cw == Qmax (zq (2 * m)) (cw / (2 # 1)))%Q.
Proof. exact fr_ssthresh_spec. Qed.
Print Assumptions C17_fr_ssthresh_is_max.

Theorem C17_more_dupacks_rule : forall fx c s pid sample o,
  3 <= dupack s -> (0 <= cwnd s)%Q -> 0 < mss c -> in_sent (last_ack s) (sent s) = true ->
  on_ack fx c s (last_ack s) pid sample o =
  Ok (mkst (next_seq s) (send_buffer s) (last_ack s) (dupack s + 1)
           (cwnd s + zq (mss c))%Q (ssthresh s)
           (srtt s) (rttvar s) (rto s) (cwnd_cnt s) (cnt s) (timers s) (sent s)
           (tokens s) (pend s) (waiting s) (wake s) (finished s))
     [Tx (last_ack s) (mss c)].
Proof. exact more_dupacks_rule. Qed.
Print Assumptions C17_more_dupacks_rule.

(* --- the next new ACK after fast retransmit deflates, then counts; after one or two duplicates it
   only counts (repaired by fix: eae436e; the code as found deflated after a single duplicate) --- *)
Theorem C17_deflate_then_count : forall fx c s ackno pid sample o,
  fx_deflate3 fx = true -> ackno <> last_ack s -> 3 <= dupack s ->
  on_ack fx c s ackno pid sample o =
  on_ack fx c (set_dupack (set_cc s (ssthresh s) (ssthresh s)) 0) ackno pid sample o.
Proof. exact deflate_then_count. Qed.
Print Assumptions C17_deflate_then_count.

Theorem C17_no_deflate_before_third_dup : forall fx c s ackno pid sample o,
  fx_deflate3 fx = true -> ackno <> last_ack s -> 0 < dupack s < 3 ->
  on_ack fx c s ackno pid sample o = on_ack fx c (set_dupack s 0) ackno pid sample o.
Proof. exact no_deflate_before_third_dup. Qed.
Print Assumptions C17_no_deflate_before_third_dup.

Theorem C17_deflate_refuted_before_fix :
  exists c s ackno pid sample o s' outs,
    ackno <> last_ack s /\ 0 < dupack s < 3 /\ (cwnd s <= ssthresh s)%Q /\
    on_ack as_found c s ackno pid sample o = Ok s' outs /\
    ~ (cwnd s' == cwnd s + zq (mss c))%Q /\ (cwnd s' == ssthresh s + zq (mss c))%Q.
Proof. exact deflate_refuted_before_fix. Qed.
Print Assumptions C17_deflate_refuted_before_fix.

(* --- retransmission timeout: cwnd = MSS, the segment is retransmitted, the RTO doubles and the
   segment's timer is re-armed with it; nothing else changes --- *)
Theorem C17_timeout_rule : forall fx c s id,
  has_timer id (timers s) = true -> in_sent id (sent s) = true ->
  on_timer fx c s id =
  Ok (mkst (next_seq s) (send_buffer s) (last_ack s) (dupack s) (zq (mss c)) (ssthresh s)
           (srtt s) (rttvar s) (rto s * (2 # 1))%Q (cwnd_cnt s) (cnt s)
           (rearm id (rto s * (2 # 1))%Q (timers s)) (sent s)
           (tokens s) (pend s) (waiting s) (wake s) (finished s))
     [Tx id (mss c); TRestart id (rto s * (2 # 1))%Q].
Proof. exact timeout_rule. Qed.
Print Assumptions C17_timeout_rule.

Theorem C17_rto_doubles : forall fx c, 0 < mss c -> forall evs s s' outs,
  no_ack evs -> run fx c s evs = Ok s' outs -> (rto s' == rto s * inject_Z (2 ^ Z.of_nat (expiries evs)))%Q.
Proof. exact rto_doubles_k. Qed.
Print Assumptions C17_rto_doubles.

(* --- after every new ACK: RTO = srtt + 4 rttvar with gains 1/8 and 1/4 --- *)
Theorem C17_rto_formula : forall fx c s ackno pid sample o s' outs,
  ackno <> last_ack s -> 0 <= dupack s ->
  on_ack fx c s ackno pid sample o = Ok s' outs ->
  (srtt s' == srtt s + (sample - srtt s) / (8 # 1))%Q /\
  (rttvar s' == rttvar s + (Qabs (sample - srtt s) - rttvar s) / (4 # 1))%Q /\
  (rto s' == srtt s' + (4 # 1) * rttvar s')%Q /\
  last_ack s' = ackno /\ dupack s' = 0.
Proof. exact rto_formula. Qed.
Print Assumptions C17_rto_formula.

(* --- cwnd never falls below one MSS: all histories, any initial cwnd >= MSS, ANY initial ssthresh,
   Reno and CUBIC (for every value the cnt oracle may take) --- *)
Theorem C17_cwnd_ge_mss : forall fx c cw0 ss0 rtt0 evs s' outs,
  fx_deflate3 fx = true -> 0 < mss c -> (zq (mss c) <= cw0)%Q ->
  run fx c (init cw0 ss0 rtt0) evs = Ok s' outs -> (zq (mss c) <= cwnd s')%Q.
Proof. exact cwnd_ge_mss. Qed.
Print Assumptions C17_cwnd_ge_mss.

(* --- the model's explicit error states for mss*mss/cwnd and for the loop fuel are never reached --- *)
Theorem C17_never_zero_div : forall fx c cw0 ss0 rtt0 evs s' outs e,
  fx_deflate3 fx = true -> 0 < mss c -> (zq (mss c) <= cw0)%Q ->
  run fx c (init cw0 ss0 rtt0) evs = Ok s' outs -> step fx c s' e <> Raise ZeroDiv.
Proof. exact never_zero_div. Qed.
Print Assumptions C17_never_zero_div.

Theorem C17_wake_never_out_of_fuel : forall c s, 0 < mss c -> on_wake c s <> Raise OutOfFuel.
Proof. exact wake_never_out_of_fuel. Qed.
Print Assumptions C17_wake_never_out_of_fuel.

(* --- second tie (DESIGN 2.6): the CongestionControl method bodies translated from /repo on this run
   (Gen/Extracted_cc.v) are what the model uses.  A changed constant / operator / comparison in
   tcp_generator.py breaks one of these before any test input is drawn. --- *)
Theorem C17_gen_timer_expired : forall m cw ss,
  let s' := g_CongestionControl_timer_expired (mkcc (zq m) cw ss) in
  x_cwnd s' = zq m /\ x_ssthresh s' = ss.
Proof. exact bridge_timer_expired. Qed.
Print Assumptions C17_gen_timer_expired.

Theorem C17_gen_dupack_over : forall m cw ss,
  let s' := g_CongestionControl_dupack_over (mkcc (zq m) cw ss) in
  x_cwnd s' = ss /\ x_ssthresh s' = ss.
Proof. exact bridge_dupack_over. Qed.
Print Assumptions C17_gen_dupack_over.

Theorem C17_gen_fast_retransmit : forall m cw ss,
  let s' := g_CongestionControl_consecutive_dupacks_received (mkcc (zq m) cw ss) in
  (x_ssthresh s' == fr_ssthresh m cw)%Q /\ (x_cwnd s' == fr_cwnd m cw)%Q.
Proof. exact bridge_fast_retransmit. Qed.
Print Assumptions C17_gen_fast_retransmit.

Theorem C17_gen_more_dupacks : forall m cw ss,
  let s' := g_CongestionControl_more_dupacks_received (mkcc (zq m) cw ss) in
  x_cwnd s' = (cw + zq m)%Q /\ x_ssthresh s' = ss.
Proof. exact bridge_more_dupacks. Qed.
Print Assumptions C17_gen_more_dupacks.

Theorem C17_gen_reno_ack : forall c cw ss ccnt cn o,
  calg c = Reno -> ~ (cw == 0)%Q ->
  exists cw', cc_ack c cw ss ccnt cn o = Some (cw', ccnt, cn) /\
              (cw' == x_cwnd (g_TCPReno_ack_received (mkcc (zq (mss c)) cw ss)))%Q /\
              x_ssthresh (g_TCPReno_ack_received (mkcc (zq (mss c)) cw ss)) = ss.
Proof. exact bridge_reno_ack. Qed.
Print Assumptions C17_gen_reno_ack.

(* --- TCPCubic exactly (Tcp/Cubic.v): the cnt that the sender model takes as an oracle is computed by
   the model of cubic_update / cubic_tcp_friendliness over Q (C = 2/5, beta = 1/5, (t-K)^3 an
   integer power).  [stepx] = [step] with that value. --- *)

(* the oracle is looked at only when put() reaches ack_received(), ... *)
Theorem C17_oracle_only_in_ack_received : forall fx c s ackno pid sample o o',
  ack_counts s ackno = false -> on_ack fx c s ackno pid sample o = on_ack fx c s ackno pid sample o'.
Proof. exact on_ack_oracle_irrelevant. Qed.
Print Assumptions C17_oracle_only_in_ack_received.

(* ... and then ack_received() runs on cwnd = ack_cwnd (after the deflation, if any) *)
Theorem C17_ack_received_sees_ack_cwnd : forall fx c s ackno pid sample o,
  ack_counts s ackno = true -> 0 <= dupack s ->
  ackno <> last_ack s /\
  on_ack fx c s ackno pid sample o =
  let s1 := set_dupack (set_cc s (ack_cwnd fx s ackno) (ssthresh s)) 0 in
  match cc_ack c (ack_cwnd fx s ackno) (ssthresh s) (cwnd_cnt s) (cnt s) o with
  | None => Raise ZeroDiv
  | Some (cw, ccnt, cn) =>
      let ids := acked_ids fx c s1 ackno pid in
      match stop_all ids (timers s) (sent s) [] with
      | None => Raise (KeyErr (first_missing ids (sent s)))
      | Some (t, se, oo) =>
          Ok (store_put (mkst (next_seq s) (send_buffer s) ackno 0 cw (ssthresh s)
                              (srtt s + (1 # 8) * (sample - srtt s))%Q
                              (rttvar s + (1 # 4) * (Qabs (sample - srtt s) - rttvar s))%Q
                              (srtt s + (1 # 8) * (sample - srtt s) + (4 # 1) * (rttvar s + (1 # 4) * (Qabs (sample - srtt s) - rttvar s)))%Q
                              ccnt cn t se (tokens s) (pend s) (waiting s) (wake s) (finished s))) oo
      end
  end.
Proof. exact on_ack_counts. Qed.
Print Assumptions C17_ack_received_sees_ack_cwnd.

(* every transition of the composed model is a transition of the sender model (so all theorems above,
   stated for every oracle value, hold for TCPCubic with its real cnt) *)
Theorem C17_stepx_is_step : forall fx c s cs e s' cs' o,
  stepx fx c s cs e = XOk s' cs' o ->
  exists ev, step fx c s ev = Ok s' o /\
             match e, ev with
             | XAck a p sm _, EAck a' p' sm' _ => a = a' /\ p = p' /\ sm = sm'
             | XExpire i, EExpire i' => i = i'
             | XStoreCb, EStoreCb | XWake, EWake => True
             | _, _ => False
             end.
Proof. exact stepx_is_step. Qed.
Print Assumptions C17_stepx_is_step.

(* the cube-root branch (cwnd < W_last_max) is dead: W_last_max is only ever 0, cwnd >= MSS > 0 *)
Theorem C17_cubic_root_unreachable : forall fx c cw0 ss0 rtt0 evs,
  fx_deflate3 fx = true -> 0 < mss c -> (zq (mss c) <= cw0)%Q ->
  runx fx c (init cw0 ss0 rtt0) cubic0 evs <> XCubicRoot.
Proof. exact cubic_root_unreachable. Qed.
Print Assumptions C17_cubic_root_unreachable.

Theorem C17_cubic_friendliness_gain : ((3 # 1) * cBeta / ((2 # 1) - cBeta) == 1 # 3)%Q.
Proof. exact friendliness_gain. Qed.
Print Assumptions C17_cubic_friendliness_gain.

(* the cubic / TCP-friendly growth: congestion avoidance with a running epoch *)
Theorem C17_cubic_growth_rule : forall cs cw ss rtt now,
  ~ (cw <= ss)%Q -> (0 < c_epoch cs)%Q ->
  let dmin := if Qltb 0 (c_dmin cs) then (if Qle_bool (c_dmin cs) rtt then c_dmin cs else rtt) else rtt in
  let t := (now + dmin - c_epoch cs)%Q in
  let target := (c_origin cs + (2 # 5) * ((t - c_k cs) * (t - c_k cs) * (t - c_k cs)))%Q in
  let wtcp := (c_wtcp cs + (3 # 1) * cBeta / ((2 # 1) - cBeta) * ((c_ackcnt cs + 1) / cw))%Q in
  let cnt1 := if Qltb cw target then (cw / (target - cw))%Q else ((100 # 1) * cw)%Q in
  cubic_ack cs cw ss rtt now =
  CubOk (mkcub (c_wlast cs) (c_epoch cs) (c_origin cs) dmin wtcp (c_k cs) 0)
        (Some (if Qltb cw wtcp then (if Qltb (cw / (wtcp - cw)) cnt1 then cw / (wtcp - cw) else cnt1)%Q else cnt1)).
Proof. exact cubic_growth_rule. Qed.
Print Assumptions C17_cubic_growth_rule.

(* a new epoch: origin_point = cwnd, epoch_start = now, W_tcp = cwnd, K = 0 *)
Theorem C17_cubic_epoch_start_rule : forall cs cw ss rtt now,
  ~ (cw <= ss)%Q -> (c_epoch cs <= 0)%Q -> ~ (cw < c_wlast cs)%Q ->
  let dmin := if Qltb 0 (c_dmin cs) then (if Qle_bool (c_dmin cs) rtt then c_dmin cs else rtt) else rtt in
  let t := (now + dmin - now)%Q in
  let target := (cw + (2 # 5) * ((t - 0) * (t - 0) * (t - 0)))%Q in
  let wtcp := (cw + (3 # 1) * cBeta / ((2 # 1) - cBeta) * (1 / cw))%Q in
  let cnt1 := if Qltb cw target then (cw / (target - cw))%Q else ((100 # 1) * cw)%Q in
  cubic_ack cs cw ss rtt now =
  CubOk (mkcub (c_wlast cs) now cw dmin wtcp 0 0)
        (Some (if Qltb cw wtcp then (if Qltb (cw / (wtcp - cw)) cnt1 then cw / (wtcp - cw) else cnt1)%Q else cnt1)).
Proof. exact cubic_epoch_start_rule. Qed.
Print Assumptions C17_cubic_epoch_start_rule.

Theorem C17_cubic_slow_start_rule : forall cs cw ss rtt now,
  (cw <= ss)%Q ->
  cubic_ack cs cw ss rtt now =
  CubOk (mkcub (c_wlast cs) (c_epoch cs) (c_origin cs)
               (if Qltb 0 (c_dmin cs) then (if Qle_bool (c_dmin cs) rtt then c_dmin cs else rtt) else rtt)
               (c_wtcp cs) (c_k cs) (c_ackcnt cs)) None.
Proof. exact cubic_slow_start_rule. Qed.
Print Assumptions C17_cubic_slow_start_rule.

Theorem C17_cubic_cnt_pos : forall cs cw ss rtt now cs' q,
  (0 < cw)%Q -> cubic_ack cs cw ss rtt now = CubOk cs' (Some q) -> (0 < q)%Q.
Proof. exact cubic_cnt_pos. Qed.
Print Assumptions C17_cubic_cnt_pos.

(* the ACK rule of TCPCubic with the computed cnt in place of the oracle of C17_cubic_ack_rule *)
Theorem C17_cubic_new_ack_rule : forall fx c s cs ackno pid sample now cs' q,
  calg c = Cubic -> ack_counts s ackno = true -> 0 <= dupack s ->
  cubic_ack cs (ack_cwnd fx s ackno) (ssthresh s) sample now = CubOk cs' q ->
  stepx fx c s cs (XAck ackno pid sample now) =
  match on_ack fx c s ackno pid sample (match q with Some x => x | None => cnt s end) with
  | Ok s' o => XOk s' cs' o
  | Raise x => XRaise x
  end /\
  cc_ack c (ack_cwnd fx s ackno) (ssthresh s) (cwnd_cnt s) (cnt s) (match q with Some x => x | None => cnt s end) =
  Some (match q with
        | None => ((ack_cwnd fx s ackno + zq (mss c))%Q, cwnd_cnt s, cnt s)
        | Some x => if Qltb x (zq (cwnd_cnt s)) then ((ack_cwnd fx s ackno + zq (mss c))%Q, 0, x)
                    else (ack_cwnd fx s ackno, cwnd_cnt s + 1, x)
        end).
Proof. exact cubic_new_ack_rule. Qed.
Print Assumptions C17_cubic_new_ack_rule.

(* --- second tie for TCPCubic: the bodies of ack_received (calling cubic_update, calling
   cubic_tcp_friendliness), timer_expired (calling cubic_reset) and the constants beta, C,
   tcp_friendliness of __init__, translated from /repo on this run, are the model of Tcp/Cubic.v and
   cc_ack.  [G] embeds a model state into the generated record; the `** (1/3)` branch is translated as
   the explicit result None and corresponds to CubicRoot. --- *)
Theorem C17_gen_cubic_consts : g_cubic_init_beta = cBeta /\ g_cubic_init_C = cC /\ g_cubic_init_tcp_friendliness = true.
Proof. exact bridge_cubic_consts. Qed.
Print Assumptions C17_gen_cubic_consts.

Theorem C17_gen_cubic_timer_expired : forall m cw ss cs cn ccnt,
  exists g', g_TCPCubic_timer_expired (G m cw ss cs cn ccnt) = Some g' /\ gc_eq g' (G m m ss (cubic_reset cs) cn ccnt).
Proof. exact bridge_cubic_timer_expired. Qed.
Print Assumptions C17_gen_cubic_timer_expired.

Theorem C17_gen_cubic_ack_received : forall c cs cw ss ccnt cn rtt now,
  calg c = Cubic ->
  match cubic_ack cs cw ss rtt now with
  | CubicRoot => g_TCPCubic_ack_received (G (zq (mss c)) cw ss cs cn ccnt) rtt now = None
  | CubOk cs' q =>
      exists g', g_TCPCubic_ack_received (G (zq (mss c)) cw ss cs cn ccnt) rtt now = Some g' /\
                 match cc_ack c cw ss ccnt cn (match q with Some x => x | None => cn end) with
                 | Some (cw', ccnt', cn') => gc_eq g' (G (zq (mss c)) cw' ss cs' cn' ccnt')
                 | None => False
                 end
  end.
Proof. exact bridge_cubic_ack_received. Qed.
Print Assumptions C17_gen_cubic_ack_received.

(* --- the sender with the Flow's APPLICATION PROCESS (Tcp/AppSender.v): run() fetches data from
   flow.arrival_dist / size_dist / size, sleeping on env.timeout for the next write; start_time,
   finish_time.  [astep] = [step] for ACKs, expiries and store callbacks; the two kinds of resumption of
   run() (AWake: Initialize / granted StoreGet; AAppWake: the Timeout it sleeps on) run the fetching
   loop.  The send guard is evaluated on the window in force at that resumption. --- *)
Theorem C17_app_send_guard : forall fx fuel ac s a e s' a' outs,
  0 < mss (ac_cfg ac) -> (exists now, e = AWake now \/ e = AAppWake now) ->
  astep fx fuel ac s a e = AOk s' a' outs ->
  arun_spec (ac_cfg ac) (set_store s (tokens s) (pend s) false false) s' [] outs.
Proof. exact app_send_guard. Qed.
Print Assumptions C17_app_send_guard.

Theorem C17_app_window_respected : forall fx fuel ac s a e s' a' outs,
  0 < mss (ac_cfg ac) -> (exists now, e = AWake now \/ e = AAppWake now) ->
  astep fx fuel ac s a e = AOk s' a' outs -> next_seq s < next_seq s' ->
  (zq (next_seq s' - last_ack s) <= cwnd s)%Q /\ last_ack s' = last_ack s /\ cwnd s' = cwnd s.
Proof. exact app_window_respected. Qed.
Print Assumptions C17_app_window_respected.

(* never beyond the buffered data: writes are non-negative, send_buffer only grows, every segment
   emitted ends inside it *)
Theorem C17_app_buffer_respected : forall fx fuel ac s a e s' a' outs,
  0 < mss (ac_cfg ac) -> (exists now, e = AWake now \/ e = AAppWake now) ->
  fetch_ok ac s -> (forall d, ap_sleep a = Some (true, d) -> send_buffer s <= next_seq s) ->
  astep fx fuel ac s a e = AOk s' a' outs ->
  send_buffer s <= send_buffer s' /\ fetch_ok ac s' /\
  (forall i z, In (Tx i z) outs -> i + mss (ac_cfg ac) <= send_buffer s').
Proof. exact app_buffer_respected. Qed.
Print Assumptions C17_app_buffer_respected.

Theorem C17_app_other_events : forall fx fuel ac s a e,
  e <> EWake ->
  astep fx fuel ac s a (AEv e) = match step fx (ac_cfg ac) s e with Ok s' o => AOk s' a o | Raise x => ARaise x end.
Proof. exact app_other_events. Qed.
Print Assumptions C17_app_other_events.

(* what the code does with less than one MSS of buffered data beyond next_seq (a trailing partial
   segment of a flow whose size is not a multiple of the MSS; a short application write): nothing is
   sent, run() waits on its store, does not finish -- and does not fetch more data either *)
Theorem C17_app_partial_tail_waits : forall ac fuel now s a acc,
  match ac_finish ac with Some ft => (now < ft)%Q | None => True end ->
  fsize (ac_cfg ac) = 0 \/ next_seq s < fsize (ac_cfg ac) ->
  next_seq s < send_buffer s < next_seq s + mss (ac_cfg ac) ->
  arun (S (S fuel)) ac now MOuter s a acc =
  AOk (match tokens s with S tk => set_store s tk (pend s) false true | O => set_store s O (pend s) true false end) a acc.
Proof. exact app_partial_tail_waits. Qed.
Print Assumptions C17_app_partial_tail_waits.

Theorem C17_app_partial_buffer_is_permanent : forall fx fuel ac s a now,
  match ac_finish ac with Some ft => (now < ft)%Q | None => True end ->
  fsize (ac_cfg ac) = 0 \/ next_seq s < fsize (ac_cfg ac) ->
  next_seq s < send_buffer s < next_seq s + mss (ac_cfg ac) ->
  wake s = true -> finished s = false -> ap_sleep a = None -> ap_started a = true ->
  exists s', astep fx (S (S fuel)) ac s a (AWake now) = AOk s' a [] /\
             next_seq s' = next_seq s /\ send_buffer s' = send_buffer s /\ finished s' = false.
Proof. exact app_partial_buffer_is_permanent. Qed.
Print Assumptions C17_app_partial_buffer_is_permanent.

(* No application configured -- no arrival_dist, no size_dist, no finish_time, start_time 0 (flow.size as in
   the plain model: 0 = unbounded, else the last write is capped at size - next_seq) -- and run() of the
   application layer (astep on AWake, i.e. arun) IS on_wake of Tcp/Sender.v: from ANY sender state (so in
   particular every state the plain sender reaches) and any application state without a pending sleep, a
   resumption by the store yields the same successor state, the same emissions or the same error, for
   every fuel above a bound; the application state is only marked started.  The theorems above about
   on_wake/step/run (C17_send_guard, C17_window_respected, ...) and C16's loop model, which uses on_wake,
   are therefore about the same run() as the C17_app_* theorems. *)
Theorem C17_app_plain_is_on_wake : forall fx ac s a now,
  ac_arr ac = None -> ac_siz ac = None -> ac_finish ac = None -> Qeq_bool (ac_start ac) 0 = true ->
  0 < mss (ac_cfg ac) -> ap_sleep a = None ->
  exists fuel0, forall fuel, (fuel0 <= fuel)%nat ->
    astep fx fuel ac s a (AWake now) =
    match on_wake (ac_cfg ac) s with
    | Ok s' o => AOk s' (mkapp (ap_last a) None true (ap_ai a) (ap_si a)) o
    | Raise x => ARaise x
    end.
Proof. exact app_plain_is_on_wake_explicit. Qed.
Print Assumptions C17_app_plain_is_on_wake.
