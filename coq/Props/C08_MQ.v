(* C08 -- packet conservation: the share of SP, RR, WRR.  Only statements + exact + assumptions.
   Vocabulary and the hypothesis on the priorities / weights: as in Props/C12_MQ.v. *)
From Coq Require Import ZArith QArith List.
From ONL Require Import Elem.Packet Elem.StoreQ Elem.SchedBase Elem.SchedBaseProofs Elem.SP Elem.SPProofs Elem.RR Elem.RRProofs Elem.WRR Elem.WRRProofs.
Import ListNotations.

(* ================= SP ================= *)
(* forwarded packets of one flow are in arrival order *)
Theorem C08_sp_flow_fifo : forall (r : Q) (cm : Z -> Z) (fl : list Z) (tbl : list (Z * Z)) acts s tr f,
  0 < r ->
  sp_run r cm fl tbl acts = Some (s, tr) ->
  exists rest, filter (is_flow f) (tr_puts tr) = filter (is_flow f) (tr_fwds tr) ++ rest.
Proof. intros; eapply run_flow_fifo; eauto using sp_wf. Qed.
Print Assumptions C08_sp_flow_fifo.

(* per class and per flow, as lists in order: packets put in = packets forwarded ++ packets held (hence as multisets over all flows; each forwarded packet is the very record that was put in); only packets whose class is configured are accepted *)
Theorem C08_sp_conserves : forall (r : Q) (cm : Z -> Z) (fl : list Z) (tbl : list (Z * Z)) acts s tr,
  0 < r ->
  sp_run r cm fl tbl acts = Some (s, tr) ->
  (forall k, filter (is_class (sp_cfg true r cm fl tbl) k) (tr_puts tr) = filter (is_class (sp_cfg true r cm fl tbl) k) (tr_fwds tr) ++ held_class (sp_cfg true r cm fl tbl) s k)
  /\ (forall f, filter (is_flow f) (tr_puts tr) = filter (is_flow f) (tr_fwds tr) ++ held_flow (sp_cfg true r cm fl tbl) s f)
  /\ (forall p, In p (tr_puts tr) -> In (cm (flow p)) (classes (sp_cfg true r cm fl tbl))).
Proof. intros; eapply run_conserves; eauto using sp_wf. Qed.
Print Assumptions C08_sp_conserves.

(* in a state with nothing enabled and no deadline nothing is held, all counters are 0, everything put in was forwarded, and the loop is not in its error state *)
Theorem C08_sp_drained : forall (r : Q) (cm : Z -> Z) (fl : list Z) (tbl : list (Z * Z)) acts s tr,
  0 < r -> (forall k p, In (k, p) tbl -> (0 < p)%Z) ->
  sp_run r cm fl tbl acts = Some (s, tr) -> urgent (sp_cfg true r cm fl tbl) s = false -> (forall p dl, mchild s <> CTx p dl) ->
  (forall k, held_class (sp_cfg true r cm fl tbl) s k = []) /\ (forall f, mqc s f = 0%Z /\ mqb s f = 0%Z) /\ mcur s = None /\
  (forall f, filter (is_flow f) (tr_puts tr) = filter (is_flow f) (tr_fwds tr)) /\ mpc s <> PSpin.
Proof. intros; eapply drained0; eauto using sp_cfg_ok. Qed.
Print Assumptions C08_sp_drained.

(* ================= RR ================= *)
Theorem C08_rr_flow_fifo : forall (r : Q) (fl : list Z) acts s tr f,
  0 < r ->
  rr_run r fl acts = Some (s, tr) ->
  exists rest, filter (is_flow f) (tr_puts tr) = filter (is_flow f) (tr_fwds tr) ++ rest.
Proof. intros; eapply run_flow_fifo; eauto using rr_wf. Qed.
Print Assumptions C08_rr_flow_fifo.

Theorem C08_rr_conserves : forall (r : Q) (fl : list Z) acts s tr,
  0 < r ->
  rr_run r fl acts = Some (s, tr) ->
  (forall k, filter (is_class (rr_cfg r fl) k) (tr_puts tr) = filter (is_class (rr_cfg r fl) k) (tr_fwds tr) ++ held_class (rr_cfg r fl) s k)
  /\ (forall f, filter (is_flow f) (tr_puts tr) = filter (is_flow f) (tr_fwds tr) ++ held_flow (rr_cfg r fl) s f)
  /\ (forall p, In p (tr_puts tr) -> In ((flow p)) (classes (rr_cfg r fl))).
Proof. intros; eapply run_conserves; eauto using rr_wf. Qed.
Print Assumptions C08_rr_conserves.

Theorem C08_rr_drained : forall (r : Q) (fl : list Z) acts s tr,
  0 < r ->
  rr_run r fl acts = Some (s, tr) -> urgent (rr_cfg r fl) s = false -> (forall p dl, mchild s <> CTx p dl) ->
  (forall k, held_class (rr_cfg r fl) s k = []) /\ (forall f, mqc s f = 0%Z /\ mqb s f = 0%Z) /\ mcur s = None /\
  (forall f, filter (is_flow f) (tr_puts tr) = filter (is_flow f) (tr_fwds tr)) /\ mpc s <> PSpin.
Proof. intros; eapply drained0; eauto using rr_cfg_ok. Qed.
Print Assumptions C08_rr_drained.

(* ================= WRR ================= *)
Theorem C08_wrr_flow_fifo : forall (r : Q) (ws : list (Z * Z)) acts s tr f,
  0 < r ->
  wrr_run r ws acts = Some (s, tr) ->
  exists rest, filter (is_flow f) (tr_puts tr) = filter (is_flow f) (tr_fwds tr) ++ rest.
Proof. intros; eapply run_flow_fifo; eauto using wrr_wf. Qed.
Print Assumptions C08_wrr_flow_fifo.

Theorem C08_wrr_conserves : forall (r : Q) (ws : list (Z * Z)) acts s tr,
  0 < r ->
  wrr_run r ws acts = Some (s, tr) ->
  (forall k, filter (is_class (wrr_cfg r ws) k) (tr_puts tr) = filter (is_class (wrr_cfg r ws) k) (tr_fwds tr) ++ held_class (wrr_cfg r ws) s k)
  /\ (forall f, filter (is_flow f) (tr_puts tr) = filter (is_flow f) (tr_fwds tr) ++ held_flow (wrr_cfg r ws) s f)
  /\ (forall p, In p (tr_puts tr) -> In ((flow p)) (classes (wrr_cfg r ws))).
Proof. intros; eapply run_conserves; eauto using wrr_wf. Qed.
Print Assumptions C08_wrr_conserves.

Theorem C08_wrr_drained : forall (r : Q) (ws : list (Z * Z)) acts s tr,
  0 < r -> (forall f w, In (f, w) ws -> (0 < w)%Z) ->
  wrr_run r ws acts = Some (s, tr) -> urgent (wrr_cfg r ws) s = false -> (forall p dl, mchild s <> CTx p dl) ->
  (forall k, held_class (wrr_cfg r ws) s k = []) /\ (forall f, mqc s f = 0%Z /\ mqb s f = 0%Z) /\ mcur s = None /\
  (forall f, filter (is_flow f) (tr_puts tr) = filter (is_flow f) (tr_fwds tr)) /\ mpc s <> PSpin.
Proof. intros; eapply drained0; eauto using wrr_cfg_ok. Qed.
Print Assumptions C08_wrr_drained.
