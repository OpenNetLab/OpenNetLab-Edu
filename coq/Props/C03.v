(* C03 -- runs are reproducible and unaffected by where they are stopped and resumed.
   Only statements, closed by the lemma that proves them, and their assumptions.  Proofs: Kernel/Stop*.v.
   All theorems are about Kernel/Model.v ([run], [run_prelude], [run_loop], [step]) and hold for every table of process
   automata [codes : list prog] (any number of processes, any state types, any arguments).

   Vocabulary (definitions in Kernel/Order.v, Deliver.v, DeliverVal.v, StopFrame.v, StopInv.v, StopSpec.v, Stop.v):
     exec codes s l s'        an execution of the kernel from s to s'; l lists, per transition, the agenda entry popped by a step
                              (Some m) or None for a module-level call / the prelude of run()                      (C01)
     calm s                   good (agenda invariant of C01) /\ uinv (C02) /\ no pending event carries a stop callback /\ every
                              pending URGENT entry is due now /\ a triggered, unprocessed event has an agenda entry.  It holds
                              in the initial state and is kept by module-level code, step(), run() and by every
                              run(until=...) that returns (the C03_calm theorems): the design's hypothesis (iii) "no stale stop callback
                              left by an earlier run() that ended with an exception" is this invariant.
     num_entry hz s / num_start hz s    the sentinel entry (due hz, URGENT, next insertion id, a fresh event) and the state in
                              which the loop of run(until=hz) starts
     popped_before hz x l     every label of l is a popped entry that is x or is due strictly before hz
     cb_chain fuel codes e l s s'   the callbacks l of e were invoked in order, each once, none ending the loop        (C02)
     loop_start m rest s      the state in which the callback loop of the step that pops m starts                    (C02)
     stable_kind k            every kind of event but Process events and conditions (whose outcome the kernel rewrites) (C02)
     stop / run_stop / run_split / plan_returned   stop points, what they do, plans, "every run(until=...) of the plan returned"
     free_run k / logs s      k times step() whatever the steps answer (the uninterrupted execution); the user-visible trace of s
                              (the OLog / OProbe records, in order)
     erase s / ghost_run      s without stop callbacks; a free run with inert sentinels inserted (Kernel/StopErase.v, StopSplit.v)
     parametric_codes codes   every automaton of the table treats event ids as opaque tokens and does not call env.peek()
                              (Kernel/StopRen.v); all programs compiled from scripts without peek are (C03_scripts_parametric)
     selfsim s                s is related to itself by the simulation relation with the identity renaming: its processes are
                              suspended parametric automata and every id in it has been allocated (holds initially, kept by
                              module-level script code: Kernel/StopGhost.v)
     clean / never_broken     the steps of the free run do not answer the explicit internal-error result RBroken
     je e s                   the invariant of the loop of run(until=e): wk with the stop callback allowed on e only, and e carries it
     ok_steps fuel codes s s' steps from s to s' that all answer ROk (Kernel/Deliver.v)
     not_for e l              every label of l is a popped entry of another event than e
     vgrows s s'              every event of s is in s' with the same kind and, once triggered, the same outcome, for the stable
                              kinds (Kernel/DeliverVal.v)
     bsim f g a b             sim f g a b (b is a renamed by (f, g) plus inert sentinels: Kernel/StopSim.v) /\ good a /\ good b
     no_horizon plan          no stop point of the plan is a run(until=number)
     ren_obs f / smono f      renaming of the event ids in a trace record; f strictly increasing *)
From Coq Require Import ZArith QArith List.
From ONL Require Import Kernel.Model Kernel.Script Kernel.Keys Kernel.Inv Kernel.Order Kernel.Deliver Kernel.DeliverWf
  Kernel.DeliverVal Kernel.StopFrame Kernel.StopInv Kernel.Stop Kernel.StopSpec Kernel.StopErase Kernel.StopSplit Kernel.StopRen Kernel.StopSim
  Kernel.StopSimCalls Kernel.StopSimStep Kernel.StopGhost Kernel.StopScript.
Import ListNotations.

(* ---- determinism ------------------------------------------------------------------------------------------------------- *)
Theorem C03_run_deterministic : forall fuel codes u s x y, run fuel codes u s = x -> run fuel codes u s = y -> x = y.
Proof. exact run_deterministic. Qed.
Print Assumptions C03_run_deterministic.

Theorem C03_run_split_deterministic : forall fuel codes plan s x y,
  run_split fuel codes plan s = x -> run_split fuel codes plan s = y -> x = y.
Proof. exact run_split_deterministic. Qed.
Print Assumptions C03_run_split_deterministic.

(* ---- the kernel as found violates split transparency ------------------------------------------------------------------- *)
Theorem C03_split_refuted_before_fix :
  exists fuel codes s0 plan,
    let S := fst (run_split_sel false fuel codes plan s0) in
    let U := run_sel false fuel codes UNone s0 in
    snd U = ROk /\ agenda (fst U) = [] /\ agenda S = [] /\
    snd (run_split_sel false fuel codes plan s0) = [RStop (VInt 5); ROk] /\
    logs S <> logs (fst U) /\ (length (logs S) < length (logs (fst U)))%nat.
Proof. exact split_refuted_before_fix. Qed.
Print Assumptions C03_split_refuted_before_fix.

(* ---- the invariant behind the specifications of run(until=...) ------------------------------------------------------------ *)

Theorem C03_calm_init : forall t0, calm (init_state t0).
Proof. exact calm_init. Qed.
Print Assumptions C03_calm_init.

Theorem C03_calm_module_code : forall A codes (f : frag A) s, calm s -> calm (fst (exec_top codes f s)).
Proof. exact (@calm_exec_top). Qed.
Print Assumptions C03_calm_module_code.

Theorem C03_calm_step : forall fuel codes s, calm s -> calm (fst (step fuel codes s)).
Proof. exact calm_step. Qed.
Print Assumptions C03_calm_step.

Theorem C03_calm_run : forall fuel codes s, calm s -> calm (fst (run fuel codes UNone s)).
Proof. exact calm_run_none. Qed.
Print Assumptions C03_calm_run.

(* a plan of stop points in which every run(until=...) returned (or was refused at once) ends in a calm state *)
Theorem C03_calm_run_split : forall fuel codes plan s,
  calm s -> plan_returned fuel codes plan s -> calm (fst (run_split fuel codes plan s)).
Proof. exact calm_run_split. Qed.
Print Assumptions C03_calm_run_split.

(* ---- run(until = number) -------------------------------------------------------------------------------------------------- *)

(* until <= now: ValueError, nothing changes (in any state) *)
Theorem C03_run_until_number_past : forall fuel codes hz s,
  hz <= now s -> run fuel codes (UNum hz) s = (s, RRaise (kexn EValue M_until_past)).
Proof. exact run_num_past. Qed.
Print Assumptions C03_run_until_number_past.

(* until > now: see Kernel/StopSpec.v *)
Theorem C03_run_until_number_spec : forall fuel codes hz s s' r,
  calm s -> now s < hz -> run fuel codes (UNum hz) s = (s', r) ->
  let x := num_entry hz s in
  run_prelude (UNum hz) s = inr (num_start hz s) /\ agenda (num_start hz s) = agenda s ++ [x] /\
  e_time x == hz /\ e_prio x = URGENT /\ e_eid x = next_eid s /\
  exists l, exec codes (num_start hz s) l s' /\ popped_before hz x l /\ now s' <= hz /\
    match r with
    | RStop v => v = VNone /\ now s' == hz /\ (exists l0, l = l0 ++ [Some x] /\ ~ In (Some x) l0) /\
                 (forall y, In y (agenda s') -> hz <= e_time y) /\ calm s'
    | RRaise _ | RFuel | RBroken => True
    | ROk | REmpty => False
    end.
Proof. exact run_until_number_spec. Qed.
Print Assumptions C03_run_until_number_spec.

(* ---- run(until = event) --------------------------------------------------------------------------------------------------- *)

(* an already processed event: its value at once, without stepping (in any state) *)
Theorem C03_run_until_event_processed : forall fuel codes e s ev,
  get_event e s = Some ev -> cbs ev = None ->
  run fuel codes (UEv e) s =
  (s, match raw_value ev with Some v => RStop v | None => RRaise (kexn EAttribute M_value_pending) end).
Proof. exact run_event_processed. Qed.
Print Assumptions C03_run_until_event_processed.

Theorem C03_run_until_event_spec : forall fuel codes e s s' r ev l0,
  calm s -> get_event e s = Some ev -> cbs ev = Some l0 -> run fuel codes (UEv e) s = (s', r) ->
  run_prelude (UEv e) s = inr (add_callback e CbStop s) /\
  exists l, exec codes (add_callback e CbStop s) l s' /\
    match r with
    | RStop v =>
        exists l0 m sk rest, l = l0 ++ [Some m] /\ not_for e l0 /\ e_ev m = e /\ exec codes (add_callback e CbStop s) l0 sk /\
          pop_min (agenda sk) = Some (m, rest) /\ step fuel codes sk = (s', RStop v) /\
          (exists evk lk, get_event e sk = Some evk /\ cbs evk = Some lk /\ cb_chain fuel codes e lk (loop_start m rest sk) s') /\
          (exists sm evm, vgrows (loop_start m rest sk) sm /\ get_event e sm = Some evm /\ out evm = Some (Ok v)) /\
          (exists ev', get_event e s' = Some ev' /\ cbs ev' = None /\ (stable_kind (kind ev') = true -> out ev' = Some (Ok v))) /\
          calm s'
    | RRaise x =>
        (x = kexn ERuntime M_until_not_triggered /\ agenda s' = [] /\ not_for e l /\
         exists ev', get_event e s' = Some ev' /\ out ev' = None) \/
        (exists l0 m, l = l0 ++ [Some m] /\ not_for e l0 /\
                      (e_ev m = e -> calm s' /\ exists ev', get_event e s' = Some ev' /\ cbs ev' = None))
    | RFuel | RBroken => True
    | ROk | REmpty => False
    end.
Proof. exact run_until_event_spec. Qed.
Print Assumptions C03_run_until_event_spec.

(* the agenda runs dry before the until-event is triggered: RuntimeError (never the AssertionError of run()) *)
Theorem C03_run_until_event_exhausted : forall fuel codes e s sk,
  je e s -> ok_steps fuel codes s sk -> agenda sk = [] ->
  exists k, forall n, (k <= n)%nat -> run_loop n fuel codes (UEv e) s = (sk, RRaise (kexn ERuntime M_until_not_triggered)).
Proof. exact run_until_event_exhausted. Qed.
Print Assumptions C03_run_until_event_exhausted.

Theorem C03_until_event_loop_invariant : forall e s ev l, calm s -> get_event e s = Some ev -> cbs ev = Some l -> je e (add_callback e CbStop s).
Proof. exact je_start. Qed.
Print Assumptions C03_until_event_loop_invariant.

(* the step that answers "stop" has invoked every callback of its event (the repaired step()) *)
Theorem C03_stop_after_all_callbacks : forall fuel codes s s' m rest ev l v,
  step fuel codes s = (s', RStop v) -> pop_min (agenda s) = Some (m, rest) ->
  get_event (e_ev m) s = Some ev -> cbs ev = Some l -> cb_chain fuel codes (e_ev m) l (loop_start m rest s) s'.
Proof. exact step_stop_chain. Qed.
Print Assumptions C03_stop_after_all_callbacks.

(* ---- split transparency --------------------------------------------------------------------------------------------------- *)

(* split_transparent_partial -- ALL stop points, ALL programs, no hypothesis but the well-formedness [uinv] that every execution
   has: with its stop callbacks erased, the split run IS the free run (step() repeated, whatever the steps answer: the
   uninterrupted execution) in which an INERT urgent event -- pre-triggered, without callbacks -- is scheduled at every accepted
   numeric horizon, for the numbers of steps the split run made.  [erase] changes callback lists only: clock, agenda, processes,
   shared variables and the whole trace of the split run are those of that free run. *)
Theorem C03_split_transparent_partial : forall fuel codes plan s,
  uinv s -> exists ks, length ks = length plan /\
    erase (fst (run_split fuel codes plan s)) = ghost_run fuel codes (combine plan ks) (erase s).
Proof. exact split_ghost. Qed.
Print Assumptions C03_split_transparent_partial.

(* plans of run(), run(until=event), step(n): nothing is inserted, the split run IS a free run *)
Theorem C03_split_transparent_events_steps : forall fuel codes plan s,
  uinv s -> no_horizon plan -> exists K, erase (fst (run_split fuel codes plan s)) = free_run K fuel codes (erase s).
Proof. exact split_transparent_events_steps. Qed.
Print Assumptions C03_split_transparent_events_steps.

(* ... and ends where the uninterrupted run() ends: identical traces, entry by entry *)
Theorem C03_split_transparent_events_steps_run : forall fuel codes plan s U,
  uinv s -> no_stop s -> no_horizon plan ->
  run fuel codes UNone s = (U, ROk) -> agenda (fst (run_split fuel codes plan s)) = [] ->
  erase (fst (run_split fuel codes plan s)) = U /\ obs (fst (run_split fuel codes plan s)) = obs U /\
  logs (fst (run_split fuel codes plan s)) = logs U.
Proof. exact split_transparent_events_steps_run. Qed.
Print Assumptions C03_split_transparent_events_steps_run.

(* the uninterrupted run() is a free run; a free run on an empty agenda stands still *)
Theorem C03_run_is_free_run : forall fuel codes s, exists k, fst (run fuel codes UNone s) = free_run k fuel codes s.
Proof. exact run_none_free. Qed.
Print Assumptions C03_run_is_free_run.

(* stop callbacks are invisible below run(): every step commutes with their erasure *)
Theorem C03_step_erase : forall fuel codes s, uinv s -> fst (step fuel codes (erase s)) = erase (fst (step fuel codes s)).
Proof. exact step_erase. Qed.
Print Assumptions C03_step_erase.

(* split_transparent -- ALL stop points (numeric horizons also AT due instants, until-events, single steps, run()), every table
   of parametric programs, every plan: the user-visible trace of the split run is the user-visible trace of the free run of K steps
   from the same state, event ids renamed by a strictly increasing map (sentinels take event ids, so everything created after a
   numeric stop is shifted): no record of any process is lost, duplicated or reordered by a stop.  Hypotheses: the initial state is
   well-formed (selfsim, good, uinv: every state reached from an initial state by module-level script code is) and carries no stale
   stop callback; the free run does not answer RBroken (the explicit internal-error result the design excludes). *)
Theorem C03_split_transparent : forall codes fuel s0 plan, parametric_codes codes ->
  selfsim s0 -> good s0 -> uinv s0 -> no_stop s0 ->
  exists K, clean fuel codes K s0 ->
    exists f, smono f /\ logs (fst (run_split fuel codes plan s0)) = map (ren_obs f) (logs (free_run K fuel codes s0)) /\
              (agenda (fst (run_split fuel codes plan s0)) = [] -> agenda (free_run K fuel codes s0) = []).
Proof. exact split_transparent. Qed.
Print Assumptions C03_split_transparent.

(* ... and when the uninterrupted run() returned normally and the split run has emptied the agenda as well: the split run shows
   exactly the (renamed) trace of run() *)
Theorem C03_split_transparent_run : forall codes fuel s0 plan U, parametric_codes codes ->
  selfsim s0 -> good s0 -> uinv s0 -> no_stop s0 -> never_broken fuel codes s0 ->
  run fuel codes UNone s0 = (U, ROk) -> agenda (fst (run_split fuel codes plan s0)) = [] ->
  exists f, smono f /\ logs (fst (run_split fuel codes plan s0)) = map (ren_obs f) (logs U).
Proof. exact split_transparent_run. Qed.
Print Assumptions C03_split_transparent_run.

(* inert sentinels are invisible to parametric programs: the layer between the two theorems above and C03_split_transparent_partial *)
Theorem C03_ghost_transparent : forall codes fuel, parametric_codes codes ->
  forall items f g a b, bsim f g a b ->
    exists K, clean fuel codes K a -> exists f' g', bsim f' g' (free_run K fuel codes a) (ghost_run fuel codes items b).
Proof. exact ghost_transparent. Qed.
Print Assumptions C03_ghost_transparent.

(* the class of programs is not small: every script without env.peek() compiles to a parametric program -- all generated
   families of the correspondence check *)
Theorem C03_scripts_parametric : forall scripts, forallb nopeek scripts = true -> parametric_codes (map compile scripts).
Proof. exact compile_parametric_codes. Qed.
Print Assumptions C03_scripts_parametric.

Theorem C03_selfsim_init : forall t0, selfsim (init_state t0).
Proof. exact selfsim_init. Qed.
Print Assumptions C03_selfsim_init.

Theorem C03_selfsim_module_code : forall codes l s,
  parametric_codes codes -> nopeek l = true -> selfsim s -> selfsim (fst (exec_top codes (Script.exec l []) s)).
Proof. exact selfsim_exec_top. Qed.
Print Assumptions C03_selfsim_module_code.
