(* C03 -- NON-VACUITY of the theorems of Props/C03.v: for every theorem that has hypotheses, a concrete non-trivial state /
   execution / plan on which ALL its hypotheses hold together, with the concrete content of its conclusion there.

   The instance (Kernel/Stop.v, Kernel/StopWitness.v; it is corpus/C03/until-event-loses-late-waiter.json):
     wit_codes     two processes.  Process 0: timeout 2, then G0.succeed(5).  Process 1: timeout 1, then yield G0 (a LATE waiter: it
                   registers on G0 at t = 1), log the value, timeout 1, log 99.
     wit_s0        the state after the module-level code  G0 = env.event(); probe(G0); spawn 0; spawn 1   (5 events, 2 agenda entries)
     wit_s0_idle   the same with one more event G3 (id 5) that nobody triggers
     wit_plan_all  [run(until=1); run(until=2); step(); run(until=G0); run(until=5/2); run()] -- every kind of stop point; 1 is the
                   instant process 1 resumes, 2 the instant the timeout of process 0 is due (NOT processed by run(until=2)), G0 is
                   processed at 2 with three callbacks (probe, stop, late waiter), 5/2 lies between two occurrences
     wit_plan_ev   [run(until=G0); step(); step(); run()]
     wit_logs      the nine user-visible records of the uninterrupted run()

   Coverage (theorem of Props/C03.v -> witness below):
     C03_run_deterministic, C03_run_split_deterministic           C03_ex_deterministic (their hypotheses only name the result)
     C03_calm_module_code, C03_calm_step, C03_calm_run            C03_ex_calm
     C03_calm_run_split                                           C03_ex_calm_run_split
     C03_run_until_number_past                                    C03_ex_run_until_number_past
     C03_run_until_number_spec                                    C03_ex_run_until_number_spec
     C03_run_until_event_processed                                C03_ex_run_until_event_processed
     C03_run_until_event_spec, C03_until_event_loop_invariant     C03_ex_run_until_event_spec  (RStop branch)
                                                                  C03_ex_run_until_event_exhausted  (RRaise branch of the spec)
     C03_run_until_event_exhausted                                C03_ex_run_until_event_exhausted
     C03_stop_after_all_callbacks                                 C03_ex_stop_after_all_callbacks
     C03_split_transparent_partial, C03_step_erase                C03_ex_split_transparent_partial
     C03_split_transparent_events_steps, .._events_steps_run      C03_ex_split_transparent_events_steps
     C03_split_transparent, C03_split_transparent_run,
       C03_scripts_parametric, C03_selfsim_module_code            C03_ex_split_transparent
     C03_ghost_transparent                                        C03_ex_ghost_transparent
   Unconditional (only typing binders): C03_calm_init, C03_run_is_free_run, C03_selfsim_init.
   Already a witness (exists ...): C03_split_refuted_before_fix.

   Proofs are by computation on the closed terms, and by applying the lemma that closes the covered theorem (the name after
   [exact] in Props/C03.v) to the witness for the parts that are not computable. *)
From Coq Require Import ZArith QArith List Lia.
From ONL Require Import Base.Tools Kernel.Model Kernel.Script Kernel.Keys Kernel.Inv Kernel.Order Kernel.Deliver Kernel.DeliverWf
  Kernel.DeliverVal Kernel.StopFrame Kernel.StopInv Kernel.Stop Kernel.StopSpec Kernel.StopErase Kernel.StopSplit Kernel.StopRen Kernel.StopSim
  Kernel.StopSimCalls Kernel.StopSimStep Kernel.StopGhost Kernel.StopScript Kernel.StopExamples Kernel.StopWitness.
Import ListNotations.

(* ---- C03_run_deterministic, C03_run_split_deterministic: hypotheses [run .. = x], [run .. = y] ------------------------------- *)
Theorem C03_ex_deterministic :
  let x := run 100 wit_codes (UNum 2) wit_s0 in
  let y := run_split 100 wit_codes wit_plan_all wit_s0 in
  run 100 wit_codes (UNum 2) wit_s0 = x /\ run_split 100 wit_codes wit_plan_all wit_s0 = y /\
  snd x = RStop VNone /\ snd y = [RStop VNone; RStop VNone; ROk; RStop (VInt 5); RStop VNone; ROk].
Proof. cbn zeta. split; [reflexivity|]. split; [reflexivity|]. split; vm_compute; reflexivity. Qed.
Print Assumptions C03_ex_deterministic.

(* ---- C03_calm_module_code (calm (init_state 0), f := the module-level code), C03_calm_step, C03_calm_run (calm wit_s0) ------- *)
Theorem C03_ex_calm :
  calm (init_state 0) /\ wit_s0 = fst (exec_top wit_codes (Script.exec wit_setup []) (init_state 0)) /\
  calm wit_s0 /\ length (agenda wit_s0) = 2%nat /\ length (events wit_s0) = 5%nat /\
  calm (fst (step 100 wit_codes wit_s0)) /\ snd (step 100 wit_codes wit_s0) = ROk /\
  calm (fst (run 100 wit_codes UNone wit_s0)) /\ snd (run 100 wit_codes UNone wit_s0) = ROk /\
  logs (fst (run 100 wit_codes UNone wit_s0)) = wit_logs.
Proof.
  assert (C0 : calm (init_state 0)) by apply calm_init.
  split; [exact C0|]. split; [reflexivity|]. apply conj_keep; [unfold wit_s0; apply calm_exec_top, C0|intros C].
  split; [vm_compute; reflexivity|]. split; [vm_compute; reflexivity|].
  split; [apply calm_step, C|]. split; [vm_compute; reflexivity|]. split; [apply calm_run_none, C|].
  split; vm_compute; reflexivity.
Qed.
Print Assumptions C03_ex_calm.

(* ---- C03_calm_run_split: calm s /\ plan_returned fuel codes plan s ------------------------------------------------------------ *)
Theorem C03_ex_calm_run_split :
  calm wit_s0 /\ plan_returned 100 wit_codes wit_plan_all wit_s0 /\
  snd (run_split 100 wit_codes wit_plan_all wit_s0) = [RStop VNone; RStop VNone; ROk; RStop (VInt 5); RStop VNone; ROk] /\
  calm (fst (run_split 100 wit_codes wit_plan_all wit_s0)) /\ agenda (fst (run_split 100 wit_codes wit_plan_all wit_s0)) = [].
Proof.
  assert (P : plan_returned 100 wit_codes wit_plan_all wit_s0).
  { unfold wit_plan_all. cbn [plan_returned returned]. repeat split; right; eexists; vm_compute; reflexivity. }
  split; [exact ex_calm|]. split; [exact P|]. split; [vm_compute; reflexivity|].
  split; [apply calm_run_split; [exact ex_calm|exact P]|vm_compute; reflexivity].
Qed.
Print Assumptions C03_ex_calm_run_split.

(* ---- C03_run_until_number_past: hz <= now s, in a state whose clock has moved (s1 = after run(until=1)); hz = now s1 ------------ *)
Theorem C03_ex_run_until_number_past :
  let s1 := fst (run 100 wit_codes (UNum 1) wit_s0) in
  now s1 == 1 /\ 1 <= now s1 /\ agenda s1 <> [] /\
  run 100 wit_codes (UNum 1) s1 = (s1, RRaise (kexn EValue M_until_past)).
Proof.
  cbn zeta. split; [vm_compute; reflexivity|].
  apply conj_keep; [vm_compute; discriminate|intros L]. split; [vm_compute; discriminate|]. apply run_num_past, L.
Qed.
Print Assumptions C03_ex_run_until_number_past.

(* ---- C03_run_until_number_spec: calm s /\ now s < hz /\ run .. (UNum hz) s = (s', r); the horizon 2 coincides with a due
   occurrence (the timeout of process 0, event 6), which stays on the agenda ------------------------------------------------------- *)
Theorem C03_ex_run_until_number_spec :
  exists s', calm wit_s0 /\ now wit_s0 < 2 /\ run 100 wit_codes (UNum 2) wit_s0 = (s', RStop VNone) /\
    now s' == 2 /\ map (fun y => (e_time y, e_prio y, e_ev y)) (agenda s') = [(2, NORMAL, 6%nat)] /\ calm s' /\
    e_ev (num_entry 2 wit_s0) = 5%nat /\
    (exists l l0, exec wit_codes (num_start 2 wit_s0) l s' /\ l = l0 ++ [Some (num_entry 2 wit_s0)]) /\
    logs s' = firstn 3 wit_logs.
Proof.
  eexists. split; [exact ex_calm|]. apply conj_keep; [reflexivity|intros Lt].
  apply conj_keep; [apply pair_of_snd; vm_compute; reflexivity|intros R].
  destruct (run_until_number_spec _ _ _ _ _ _ ex_calm Lt R) as (_ & _ & _ & _ & _ & l & Ex & _ & _ & _ & _ & (l0 & El & _) & _ & Cm).
  split; [vm_compute; reflexivity|]. split; [vm_compute; reflexivity|]. split; [exact Cm|].
  split; [vm_compute; reflexivity|]. split; [|vm_compute; reflexivity].
  exists l, l0. split; [exact Ex|exact El].
Qed.
Print Assumptions C03_ex_run_until_number_spec.

(* ---- C03_run_until_event_processed: get_event e s = Some ev /\ cbs ev = None (s1 = after run(until=G0); process 1 still runs) - *)
Theorem C03_ex_run_until_event_processed :
  let s1 := fst (run 100 wit_codes (UEv 0%nat) wit_s0) in
  exists ev, get_event 0%nat s1 = Some ev /\ cbs ev = None /\ raw_value ev = Some (VInt 5) /\ agenda s1 <> [] /\
    run 100 wit_codes (UEv 0%nat) s1 = (s1, RStop (VInt 5)).
Proof.
  intros s1. eexists. apply conj_keep; [vm_compute; reflexivity|intros H].
  split; [reflexivity|]. split; [reflexivity|]. split; [vm_compute; discriminate|].
  exact (run_event_processed 100 wit_codes 0%nat s1 _ H eq_refl).
Qed.
Print Assumptions C03_ex_run_until_event_processed.

(* ---- C03_run_until_event_spec, C03_until_event_loop_invariant: calm s /\ get_event e s = Some ev /\ cbs ev = Some l0
   /\ run .. (UEv e) s = (s', r).  G0 is pending with one callback (the probe); the call returns 5 at t = 2 after the late waiter
   (process 1, registered at t = 1 behind the stop callback) has been resumed: its two records are in the trace ------------------- *)
Theorem C03_ex_run_until_event_spec :
  exists ev s', calm wit_s0 /\ get_event 0%nat wit_s0 = Some ev /\ cbs ev = Some [CbProbe 1] /\
    run 100 wit_codes (UEv 0%nat) wit_s0 = (s', RStop (VInt 5)) /\
    je 0%nat (add_callback 0%nat CbStop wit_s0) /\
    now s' == 2 /\ calm s' /\ logs s' = firstn 7 wit_logs.
Proof.
  eexists. eexists. split; [exact ex_calm|]. apply conj_keep; [vm_compute; reflexivity|intros H]. split; [reflexivity|].
  apply conj_keep; [apply pair_of_snd; vm_compute; reflexivity|intros R].
  split; [exact (je_start _ _ _ _ ex_calm H eq_refl)|]. split; [vm_compute; reflexivity|].
  split; [apply calm_run_ev with (v := VInt 5); [exact ex_calm|vm_compute; reflexivity]|vm_compute; reflexivity].
Qed.
Print Assumptions C03_ex_run_until_event_spec.

(* ---- C03_run_until_event_exhausted: je e s /\ ok_steps fuel codes s sk /\ agenda sk = [] (and the RRaise branch of
   C03_run_until_event_spec).  The until-event G3 is never triggered; both processes run to their end (eight steps, the whole trace
   of run()), then the agenda is empty: RuntimeError ---------------------------------------------------------------------------- *)
Theorem C03_ex_run_until_event_exhausted :
  let s := add_callback 5%nat CbStop wit_s0_idle in
  let sk := fst (nsteps 8 100 wit_codes s) in
  exists ev, calm wit_s0_idle /\ get_event 5%nat wit_s0_idle = Some ev /\ cbs ev = Some [] /\
    je 5%nat s /\ ok_steps 100 wit_codes s sk /\ agenda sk = [] /\
    run 100 wit_codes (UEv 5%nat) wit_s0_idle = (sk, RRaise (kexn ERuntime M_until_not_triggered)) /\
    (exists ev', get_event 5%nat sk = Some ev' /\ out ev' = None) /\ logs sk = wit_logs.
Proof.
  intros s sk. subst sk.
  eexists. apply conj_keep; [unfold wit_s0_idle; apply calm_exec_top, calm_init|intros Cm].
  apply conj_keep; [vm_compute; reflexivity|intros H]. split; [reflexivity|].
  apply conj_keep; [exact (je_start _ _ _ _ Cm H eq_refl)|intros J].
  assert (N : nsteps 8 100 wit_codes s = (fst (nsteps 8 100 wit_codes s), ROk)) by (apply pair_of_snd; vm_compute; reflexivity).
  apply conj_keep; [exact (nsteps_ok_steps _ _ _ _ _ N)|intros Ok]. apply conj_keep; [vm_compute; reflexivity|intros A].
  split; [|split; [eexists; split; [vm_compute; reflexivity|reflexivity]|vm_compute; reflexivity]].
  (* the eight steps answer ROk, the ninth finds the agenda empty *)
  unfold run. rewrite (run_event_pending_prelude _ _ _ _ H eq_refl). change (run_loop 100) with (run_loop (8 + 92)).
  rewrite (run_loop_nsteps _ _ _ _ _ _ N). apply run_loop_ev_empty; [exact (je_ok_steps _ _ _ _ _ J Ok)|exact A].
Qed.
Print Assumptions C03_ex_run_until_event_exhausted.

(* ---- C03_stop_after_all_callbacks: step .. s = (s', RStop v) /\ pop_min (agenda s) = Some (m, rest) /\
   get_event (e_ev m) s = Some ev /\ cbs ev = Some l.  s = the state of run(until=G0) in which G0 is about to be processed: three
   callbacks, the stop callback in the MIDDLE, the late waiter behind it ---------------------------------------------------------- *)
Theorem C03_ex_stop_after_all_callbacks :
  let sk := free_run 4 100 wit_codes (add_callback 0%nat CbStop wit_s0) in
  exists s' m rest ev, step 100 wit_codes sk = (s', RStop (VInt 5)) /\ pop_min (agenda sk) = Some (m, rest) /\ e_ev m = 0%nat /\
    get_event (e_ev m) sk = Some ev /\ cbs ev = Some [CbProbe 1; CbStop; CbResume 1%nat] /\
    cb_chain 100 wit_codes (e_ev m) [CbProbe 1; CbStop; CbResume 1%nat] (loop_start m rest sk) s'.
Proof.
  intros sk.
  destruct (pop_min (agenda sk)) as [[m rest]|] eqn:P; [|exfalso; revert P; vm_compute; discriminate].
  assert (Em : e_ev m = 0%nat).
  { assert (X : option_map (fun x => e_ev (fst x)) (pop_min (agenda sk)) = Some 0%nat) by (vm_compute; reflexivity).
    rewrite P in X. injection X as X. exact X. }
  set (ev := mkEvent (Some [CbProbe 1; CbStop; CbResume 1%nat]) (Some (Ok (VInt 5))) false KPlain).
  exists (fst (step 100 wit_codes sk)), m, rest, ev.
  apply conj_keep; [apply pair_of_snd; vm_compute; reflexivity|intros St]. split; [reflexivity|]. split; [exact Em|].
  apply conj_keep; [rewrite Em; vm_compute; reflexivity|intros H]. split; [reflexivity|].
  exact (step_stop_chain _ _ _ _ _ _ _ _ _ St P H eq_refl).
Qed.
Print Assumptions C03_ex_stop_after_all_callbacks.

(* ---- C03_split_transparent_partial (uinv s), C03_step_erase (uinv s).  Partial transparency at wit_s0 with the plan of all kinds
   of stop points: the numbers of steps are 3, 2, 1, 1, 2, 2 (three of the eleven pop an inert sentinel).  Erasure commutes with
   the step of run(until=G0) that answers "stop": without the stop callback the same step answers ROk -------------------------- *)
Theorem C03_ex_split_transparent_partial :
  let sk := free_run 4 100 wit_codes (add_callback 0%nat CbStop wit_s0) in
  uinv wit_s0 /\
  erase (fst (run_split 100 wit_codes wit_plan_all wit_s0)) =
    ghost_run 100 wit_codes (combine wit_plan_all [3; 2; 1; 1; 2; 2]%nat) (erase wit_s0) /\
  uinv sk /\ erase sk <> sk /\ snd (step 100 wit_codes sk) = RStop (VInt 5) /\ snd (step 100 wit_codes (erase sk)) = ROk /\
  fst (step 100 wit_codes (erase sk)) = erase (fst (step 100 wit_codes sk)).
Proof.
  intros sk. pose proof ex_calm as (_ & U & _).
  split; [exact U|]. split.
  { replace [3; 2; 1; 1; 2; 2]%nat with (plan_steps 100 wit_codes wit_plan_all wit_s0) by (vm_compute; reflexivity).
    apply split_ghost_steps, U. }
  apply conj_keep; [apply uinv_free_run, uinv_add_callback, U|intros Uk]. split.
  { (* G0 carries the stop callback in sk *)
    intros E. apply (f_equal (fun s => option_map has_stop (get_event 0%nat s))) in E. vm_compute in E. discriminate E. }
  split; [vm_compute; reflexivity|]. split; [vm_compute; reflexivity|]. apply step_erase, Uk.
Qed.
Print Assumptions C03_ex_split_transparent_partial.

(* ---- C03_split_transparent_events_steps (uinv s /\ no_horizon plan), C03_split_transparent_events_steps_run (.. /\ no_stop s /\
   run .. UNone s = (U, ROk) /\ agenda (split run) = []): stop at G0, two single steps, run to the end ------------------------------ *)
Theorem C03_ex_split_transparent_events_steps :
  exists U, uinv wit_s0 /\ no_stop wit_s0 /\ no_horizon wit_plan_ev /\
    run 100 wit_codes UNone wit_s0 = (U, ROk) /\ agenda (fst (run_split 100 wit_codes wit_plan_ev wit_s0)) = [] /\
    snd (run_split 100 wit_codes wit_plan_ev wit_s0) = [RStop (VInt 5); ROk; ROk; ROk] /\
    erase (fst (run_split 100 wit_codes wit_plan_ev wit_s0)) = free_run 8 100 wit_codes (erase wit_s0) /\
    logs (fst (run_split 100 wit_codes wit_plan_ev wit_s0)) = logs U /\ logs U = wit_logs.
Proof.
  pose proof ex_calm as (_ & Ui & _ & Ns & _).
  eexists. split; [exact Ui|]. split; [exact Ns|]. split; [exact ex_no_horizon|]. split; [exact wit_run|].
  apply conj_keep; [vm_compute; reflexivity|intros A].
  split; [vm_compute; reflexivity|].
  split; [apply split_events_steps_count; [exact Ui|exact ex_no_horizon|vm_compute; reflexivity]|].
  split; [apply (split_transparent_events_steps_run 100 wit_codes wit_plan_ev wit_s0 _ Ui Ns ex_no_horizon wit_run A)|].
  vm_compute. reflexivity.
Qed.
Print Assumptions C03_ex_split_transparent_events_steps.

(* ---- C03_split_transparent, C03_split_transparent_run (parametric_codes codes /\ selfsim s0 /\ good s0 /\ uinv s0 /\ no_stop s0
   /\ never_broken (hence clean .. K for every K) /\ run .. UNone s0 = (U, ROk) /\ agenda (split run) = []),
   C03_scripts_parametric (forallb nopeek scripts = true), C03_selfsim_module_code (parametric_codes /\ nopeek l = true /\ selfsim s).
   Numeric horizons AT due instants; the split run allocates three sentinels (11 events against 8), so the renaming is not the
   identity on states, and the visible trace is the renamed trace of run() ---------------------------------------------------------- *)
Theorem C03_ex_split_transparent :
  exists U, forallb nopeek [wit_code0; wit_code1] = true /\ parametric_codes wit_codes /\
    nopeek wit_setup = true /\ selfsim (init_state 0) /\ selfsim wit_s0 /\ good wit_s0 /\ uinv wit_s0 /\ no_stop wit_s0 /\
    never_broken 100 wit_codes wit_s0 /\ (forall K, clean 100 wit_codes K wit_s0) /\
    run 100 wit_codes UNone wit_s0 = (U, ROk) /\ agenda (fst (run_split 100 wit_codes wit_plan_all wit_s0)) = [] /\
    length (events (fst (run_split 100 wit_codes wit_plan_all wit_s0))) = 11%nat /\ length (events U) = 8%nat /\
    (exists f, smono f /\ logs (fst (run_split 100 wit_codes wit_plan_all wit_s0)) = map (ren_obs f) (logs U)) /\
    logs (fst (run_split 100 wit_codes wit_plan_all wit_s0)) = wit_logs.
Proof.
  pose proof ex_calm as (G & Ui & _ & Ns & _).
  eexists. split; [vm_compute; reflexivity|]. split; [exact ex_parametric|]. split; [reflexivity|].
  split; [apply selfsim_init|]. split; [exact ex_selfsim|]. split; [exact G|]. split; [exact Ui|]. split; [exact Ns|].
  split; [exact ex_never_broken|]. split; [apply never_broken_clean, ex_never_broken|]. split; [exact wit_run|].
  apply conj_keep; [vm_compute; reflexivity|intros A].
  split; [vm_compute; reflexivity|]. split; [vm_compute; reflexivity|].
  split; [apply (split_transparent_run wit_codes 100 wit_s0 _ _ ex_parametric ex_selfsim G Ui Ns ex_never_broken wit_run A)|].
  vm_compute. reflexivity.
Qed.
Print Assumptions C03_ex_split_transparent.

(* ---- C03_ghost_transparent: parametric_codes codes /\ bsim f g a b (and clean .. K a for the K it gives): a = b = wit_s0 with
   the identity renamings, three inert sentinels inserted at the horizons 1, 2, 5/2 ------------------------------------------------ *)
Theorem C03_ex_ghost_transparent :
  let items := combine wit_plan_all [3; 2; 1; 1; 2; 2]%nat in
  parametric_codes wit_codes /\ bsim (fun i => i) (fun i => i) wit_s0 wit_s0 /\ (forall K, clean 100 wit_codes K wit_s0) /\
  length (events (ghost_run 100 wit_codes items wit_s0)) = 11%nat /\
  exists K f' g', bsim f' g' (free_run K 100 wit_codes wit_s0) (ghost_run 100 wit_codes items wit_s0).
Proof.
  cbn zeta. pose proof ex_calm as (G & _).
  split; [exact ex_parametric|]. apply conj_keep; [split; [exact ex_selfsim|split; exact G]|intros B].
  apply conj_keep; [apply never_broken_clean, ex_never_broken|intros Cl]. split; [vm_compute; reflexivity|].
  destruct (ghost_transparent wit_codes 100 ex_parametric (combine wit_plan_all [3; 2; 1; 1; 2; 2]%nat) _ _ _ _ B) as (K & HK).
  destruct (HK (Cl K)) as (f' & g' & B'). exists K, f', g'. exact B'.
Qed.
Print Assumptions C03_ex_ghost_transparent.
