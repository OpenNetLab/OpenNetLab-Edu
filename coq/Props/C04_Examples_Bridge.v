(* C04, second tie -- NON-VACUITY of the theorems of Props/C04_Bridge.v (kept apart from Props/C04_Examples.v because this file
   depends on the GENERATED Gen/Extracted_kernel.v).  Instance: family F of Kernel/IntrWitness.v.

   Coverage:
     C04_gen_interruption_init (get_event e s = Some ev /\ kind ev = KProcess p) ... C04_ex_gen_interruption_init: in f_at 3, e = 0 (the
         live victim: accepted, event 9 is created) and e = 2 (the ended interrupter: RuntimeError)
     C04_gen_interrupt_cb (get_event i s = Some iev /\ kind iev = KInterruption p /\ get_proc p s = Some pr /\ get_event (pev pr) s =
         Some pe /\ ptarget pr = Some t /\ get_event t s = Some tev) ... C04_ex_gen_interrupt_cb: the state in which the callback of
         interruption 6 runs (popped from f_at 3), the victim alive and waiting for event 4
   Unconditional: C04_gen_process_interrupt. *)
From Coq Require Import ZArith QArith List Bool Lia.
From ONL Require Import Base.Tools Kernel.Model Kernel.Keys Kernel.Script Kernel.IntrBase Kernel.IntrInv Kernel.IntrStep Kernel.Intr Kernel.IntrView
  Kernel.IntrExamples Kernel.IntrWitness Gen.Extracted_kernel Kernel.LeafBridge.
Import ListNotations.

Theorem C04_ex_gen_interruption_init :
  exists ev ev2, get_event 0%nat (f_at 3) = Some ev /\ kind ev = KProcess 0%nat /\
    get_event 2%nat (f_at 3) = Some ev2 /\ kind ev2 = KProcess 1%nat /\
    option_map snd (ctor_fx (KInterruption 0%nat) 0%nat VNone (VInt 10) build0 (f_at 3) (interruption_gen ev 0%nat (f_at 3)))
      = Some (Ok (VEv 9%nat)) /\
    snd (call_interrupt 0%nat (VInt 10) (f_at 3)) = Ok VNone /\
    ctor_fx (KInterruption 1%nat) 1%nat VNone (VInt 10) build0 (f_at 3) (interruption_gen ev2 1%nat (f_at 3))
      = Some (f_at 3, Fail (kexn ERuntime M_terminated)) /\
    call_interrupt 2%nat (VInt 10) (f_at 3) = (f_at 3, Fail (kexn ERuntime M_terminated)).
Proof.
  (* the refusals leave the state as it is, whatever it is: f_at 3 itself is not evaluated for them *)
  assert (G : forall s ev, is_triggered ev = true ->
              ctor_fx (KInterruption 1%nat) 1%nat VNone (VInt 10) build0 s (interruption_gen ev 1%nat s)
              = Some (s, Fail (kexn ERuntime M_terminated))) by (intros s ev T; unfold interruption_gen; rewrite T; reflexivity).
  pose proof (proj1 (view_reads _ _ (f_view 3 : view (f_at 3) = _))) as Ve.
  eexists _, _. rewrite !Ve. split; [reflexivity|]. split; [reflexivity|]. split; [reflexivity|]. split; [reflexivity|].
  split; [vm_compute; reflexivity|]. split; [vm_compute; reflexivity|]. split; [apply G; reflexivity|].
  eapply call_interrupt_refused_dead; [rewrite Ve; reflexivity|reflexivity|discriminate].
Qed.
Print Assumptions C04_ex_gen_interruption_init.

Theorem C04_ex_gen_interrupt_cb :
  let s := popped f_x6 f_rest6 (f_at 3) in
  exists iev pr pe tev, get_event 6%nat s = Some iev /\ kind iev = KInterruption 0%nat /\ get_proc 0%nat s = Some pr /\
    get_event (pev pr) s = Some pe /\ ptarget pr = Some 4%nat /\ get_event 4%nat s = Some tev /\
    is_triggered pe = false /\ cbs tev = Some [CbResume 0%nat] /\
    gen_Interruption_interrupt (is_triggered pe) = [FxRemoveResumeFromTarget; FxResumeProcess] /\
    interrupt_cb_fx 10 f_codes 6%nat 0%nat pr s (gen_Interruption_interrupt (is_triggered pe)) = Some (do_interruption 10 f_codes 6%nat s).
Proof.
  cbn zeta. set (s := popped f_x6 f_rest6 (f_at 3)).
  assert (Ei : exists iev, get_event 6%nat s = Some iev /\ kind iev = KInterruption 0%nat) by (eexists; split; [vm_compute; reflexivity|reflexivity]).
  destruct Ei as (iev & Ei & Ki).
  destruct (view_proc (f_at 3) _ 0%nat _ _ (f_view 3) eq_refl) as (pr & Hp & Pe & Pt). change (get_proc 0%nat s = Some pr) in Hp.
  assert (Ep : exists pe, get_event 0%nat s = Some pe /\ is_triggered pe = false) by (eexists; split; [vm_compute; reflexivity|reflexivity]).
  destruct Ep as (pe & Ep & Tp).
  assert (Et : exists tev, get_event 4%nat s = Some tev /\ cbs tev = Some [CbResume 0%nat]) by (eexists; split; [vm_compute; reflexivity|reflexivity]).
  destruct Et as (tev & Et & Ct).
  exists iev, pr, pe, tev. split; [exact Ei|]. split; [exact Ki|]. split; [exact Hp|].
  apply conj_keep; [rewrite Pe; exact Ep|intros Ep']. split; [exact Pt|].
  split; [exact Et|]. split; [exact Tp|]. split; [exact Ct|]. split; [rewrite Tp; reflexivity|].
  exact (bridge_interrupt_cb 10 f_codes 6%nat s iev 0%nat pr pe 4%nat tev Ei Ki Hp Ep' Pt Et).
Qed.
Print Assumptions C04_ex_gen_interrupt_cb.
