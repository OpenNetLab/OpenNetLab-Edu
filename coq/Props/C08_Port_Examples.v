(* C08, the share of Port / REDPort -- NON-VACUITY of Props/C08_Port.v: concrete non-trivial executions that satisfy the
   hypotheses of its theorems, with the instantiated conclusions.
   Witnesses: (Elem/PortProofs.v, ex_cfg / ex_acts) tail-drop port, 64 bit/s, limit 3 packets: a burst of four at 0 (two refused),
   a fifth packet arriving exactly at the first departure; and a REDPort whose third put is refused on its draw.
     C08_ex_port_run      covers C08_port_conserves, C08_port_flow_fifo, C08_port_drained (final state: nothing urgent, not serving)
     C08_ex_port_held     covers C08_port_conserves again, stopped while one packet is in transmission and one queued
     C08_ex_port_red_run  covers C08_port_conserves / C08_port_flow_fifo for a drop policy that consumes random draws (RED)
   No theorem of Props/C08_Port.v is unconditional.
   The conservation and FIFO conclusions are obtained by applying the theorem to the witness ([C08_x] below abbreviates the lemma
   that closes theorem C08_x in Props/C08_Port.v); the drained conclusion (nothing held) is evaluated on the final state, whose
   hypotheses (nothing urgent, not serving) are conjuncts of the witness.  Every `Theorem` is a witness and is followed by
   Print Assumptions. *)
From Coq Require Import ZArith QArith List Bool Permutation.
From ONL Require Import Base.Tools Elem.Packet Elem.StoreQ Elem.Port Elem.Red Elem.PortProofs.
Import ListNotations.

Local Notation C08_port_conserves := port_conserves.
Local Notation C08_port_flow_fifo := port_flow_fifo.

(* covers: C08_port_conserves, C08_port_flow_fifo, C08_port_drained -- the complete example execution *)
Theorem C08_ex_port_run :
  exists s tr, port_run ex_cfg (port0 0) ex_acts = Some (s, tr) /\
    map uid (puts tr) = [0; 1; 2; 3; 4]%nat /\ map uid (forwarded tr) = [0; 1; 4]%nat /\
    map uid (dropped tr) = [2; 3]%nat /\ port_held s = [] /\ pdrop s = 2%Z /\
    Permutation (puts tr) (forwarded tr ++ dropped tr ++ port_held s) /\
    subseq (filter (fun p => Z.eqb (flow p) 0) (forwarded tr)) (filter (fun p => Z.eqb (flow p) 0) (puts tr)) /\
    map uid (filter (fun p => Z.eqb (flow p) 0) (forwarded tr)) = [0; 4]%nat /\
    purgent s = false /\ psvc s = None.
Proof.
  destruct (run_facts (port_run ex_cfg (port0 0) ex_acts) (fun _ _ => True)) as (s & tr & E & _); [vm_compute; exact I|].
  exists s, tr. split; [exact E|].
  destruct (C08_port_conserves _ _ _ _ _ E) as (HC & _).
  destruct (C08_port_flow_fifo _ _ _ _ _ (fun p => Z.eqb (flow p) 0) E) as (HF & _).
  repeat split; try exact HC; try exact HF; pattern s, tr; apply (run_elim _ _ _ _ E); vm_compute; reflexivity.
Qed.
Print Assumptions C08_ex_port_run.

(* covers: C08_port_conserves -- the same execution stopped after 11 actions (held = [1; 4]) *)
Theorem C08_ex_port_held :
  exists s tr, port_run ex_cfg (port0 0) (firstn 11 ex_acts) = Some (s, tr) /\
    map uid (puts tr) = [0; 1; 2; 3; 4]%nat /\ map uid (forwarded tr) = [0]%nat /\
    map uid (dropped tr) = [2; 3]%nat /\ map uid (port_held s) = [1; 4]%nat /\
    Permutation (puts tr) (forwarded tr ++ dropped tr ++ port_held s) /\
    map snd (accepted tr) = forwarded tr ++ port_held s.
Proof.
  destruct (run_facts (port_run ex_cfg (port0 0) (firstn 11 ex_acts)) (fun _ _ => True)) as (s & tr & E & _); [vm_compute; exact I|].
  exists s, tr. split; [exact E|].
  destruct (C08_port_conserves _ _ _ _ _ E) as (HC & _ & HA).
  repeat split; try exact HC; try exact HA; pattern s, tr; apply (run_elim _ _ _ _ E); vm_compute; reflexivity.
Qed.
Print Assumptions C08_ex_port_held.

(* REDPort(1024 bit/s; min 128, max 256, maxp 1/2, limit 384 bytes, w = 1): the queue average seen by the third put is 208, drop
   probability 5/16; its draw 1/4 is below: refused; the fourth put draws 7/8: kept *)
Definition rd_cfg : pcfg :=
  red_cfg all_fixed 1024 {| r_min := 128; r_max := 256; r_maxp := 1 # 2; r_qlimit := 384; r_w := 1; r_lb := true |} (Some 0%Z).
Definition rd_p (u : nat) (f sz : Z) : pkt := mkp u (Z.of_nat u + 1) f sz 0.
Definition rd_acts : list paction :=
  [PInit; PPut (rd_p 0 1 192) None; PPut (rd_p 1 0 128) None; PPut (rd_p 2 1 64) (Some (1#4)); PPut (rd_p 3 0 64) (Some (7#8));
   PStoreCb; PStoreCb; PStoreCb; PGet; PAdvance (3#2); PTimer; PGet; PAdvance (5#2); PTimer; PGet; PAdvance 3; PTimer].

(* covers: C08_port_conserves, C08_port_flow_fifo, C08_port_drained -- REDPort: the third put is dropped on a draw, the fourth kept on a draw *)
Theorem C08_ex_port_red_run :
  exists s tr, port_run rd_cfg (port0 0) rd_acts = Some (s, tr) /\
    map uid (puts tr) = [0; 1; 2; 3]%nat /\ map uid (forwarded tr) = [0; 1; 3]%nat /\
    map uid (dropped tr) = [2]%nat /\ port_held s = [] /\ pdrop s = 1%Z /\
    Permutation (puts tr) (forwarded tr ++ dropped tr ++ port_held s) /\
    subseq (filter (fun p => Z.eqb (flow p) 0) (forwarded tr)) (filter (fun p => Z.eqb (flow p) 0) (puts tr)) /\
    purgent s = false /\ psvc s = None.
Proof.
  destruct (run_facts (port_run rd_cfg (port0 0) rd_acts) (fun _ _ => True)) as (s & tr & E & _); [vm_compute; exact I|].
  exists s, tr. split; [exact E|].
  destruct (C08_port_conserves _ _ _ _ _ E) as (HC & _).
  destruct (C08_port_flow_fifo _ _ _ _ _ (fun p => Z.eqb (flow p) 0) E) as (HF & _).
  repeat split; try exact HC; try exact HF; pattern s, tr; apply (run_elim _ _ _ _ E); vm_compute; reflexivity.
Qed.
Print Assumptions C08_ex_port_red_run.
