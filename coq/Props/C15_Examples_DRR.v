(* C15 -- NON-VACUITY of the theorems of Props/C15_DRR.v and Props/C15_BridgeDRR.v.  Witness execution: Elem/DRRExample.v
   (dex_cfg, dex_acts, logged from a run of the real DRR; accessors in Elem/DRRWitness.v): rate 8192 bit/s, classes 0 and 1
   with weights 1 and 2 (quanta 1500 and 3000), flows 1 and 7 on class 1; u0 (2000 B, class 0: LARGER than the quantum),
   u1, u2 (1000 B, class 1), u3 (500 B, class 0) at 0; u4 (256 B, class 1) at 4.  Round 1: class 0 gets 1500, cannot afford
   u0: parked; class 1 gets 3000, sends u1 and u2, empties: credit forgotten.  Round 2: class 0 has 3000, sends u0 and u3.

   Coverage (theorem -> witness):
     C15_drr_quantum                                                        -> C15_ex_drr_quantum
     C15_drr_credit_bounds, C15_drr_visit_complete, C15_drr_credit_forgotten -> C15_ex_drr_credit
     C15_drr_visit                                                          -> C15_ex_drr_visit
     C15_drr_fairness                                                       -> C15_ex_drr_fairness
     C15_gen_drr_put                                                        -> C15_ex_gen_drr_put
   Unconditional: none. *)
From Coq Require Import ZArith QArith List Bool.
From Coq Require Import Qabs.
From ONL Require Import Base.Tools Elem.Packet Elem.StoreQ Elem.DRR Elem.DRRInv Elem.DRRProofs Elem.DRRVisit Elem.DRRFair Elem.DRRLive
  Elem.DRRExample Elem.DRRWitness Gen.Extracted_drr Elem.DRRBridge.
From ONL Require Import Props.C15_DRR Props.C15_BridgeDRR.
Import ListNotations.

Theorem C15_ex_drr_quantum :
  dwf dex_cfg /\ In (0, 1)%Z (dweights dex_cfg) /\ In (1, 2)%Z (dweights dex_cfg) /\
  (* conclusions: min weight 1, quanta 1500 and 3000 *)
  dminw (dweights dex_cfg) = 1%Z /\
  dquantum dex_cfg 1 == inject_Z (1500 * 2) / inject_Z (dminw (dweights dex_cfg)) /\
  dquantum dex_cfg 0 == 1500 /\ dquantum dex_cfg 1 == 3000 /\
  (exists x, In x (dweights dex_cfg) /\ snd x = dminw (dweights dex_cfg)) /\
  (forall x, In x (dweights dex_cfg) -> (dminw (dweights dex_cfg) <= snd x)%Z).
Proof.
  split; [exact dex_wf|]. apply conj_keep; [left; reflexivity|intros I0].
  apply conj_keep; [right; left; reflexivity|intros I1]. split; [reflexivity|].
  destruct (C15_drr_quantum _ _ _ dex_wf I1) as (A & B & C).
  split; [exact A|]. split; [vm_compute; reflexivity|]. split; [vm_compute; reflexivity|]. split; [exact B|exact C].
Qed.
Print Assumptions C15_ex_drr_quantum.

(* State after 13 actions (instant 0, first round): class 1 is being visited (credit 3000, u1 about to be transmitted); class 0 is NOT
   being visited: its head u0 (2000 B) is parked with credit 1500 < 2000.
   State after 22 actions (instant 125/64): class 1 has sent u1 and u2 and holds nothing, its last transmission is debited: the
   remaining credit 3000 - 2000 = 1000 has been forgotten; one step earlier (state 21, debit pending) it was still 2000. *)
Theorem C15_ex_drr_credit :
  dwf dex_cfg /\
  drr_run dex_cfg (drr0 0) (firstn 13 dex_acts) = Some (dex_state 13, dex_trace 13) /\
  In 0%Z (dclasses dex_cfg) /\ In 1%Z (dclasses dex_cfg) /\
  dvisiting (dex_state 13) <> Some 0%Z /\
  drr_run dex_cfg (drr0 0) (firstn 22 dex_acts) = Some (dex_state 22, dex_trace 22) /\
  dheld dex_cfg (dex_state 22) 1 = [] /\ ddone dex_cfg (dex_state 22) 1 = 0%Z /\
  (* the situation *)
  dvisiting (dex_state 13) = Some 1%Z /\ dhol (dex_state 13) 0 = Some dex_u0 /\ dlmax (dex_state 13) = 2000%Z /\
  ddef (dex_state 21) 1 = 2000 /\ dfwds (dex_trace 22) = [dex_u1; dex_u2] /\
  (* conclusions *)
  (0 <= ddef (dex_state 13) 0 /\ ddef (dex_state 13) 0 < dquantum dex_cfg 0 + inject_Z (dlmax (dex_state 13))) /\
  (0 <= ddef (dex_state 13) 1 /\ ddef (dex_state 13) 1 < dquantum dex_cfg 1 + inject_Z (dlmax (dex_state 13))) /\
  ddef (dex_state 13) 0 = 1500 /\ ddef (dex_state 13) 1 = 3000 /\
  (hd_error (dheld dex_cfg (dex_state 13) 0) = Some dex_u0 /\ ddef (dex_state 13) 0 < inject_Z (psize dex_u0)) /\
  ddef (dex_state 22) 1 == 0.
Proof.
  split; [exact dex_wf|]. apply conj_keep; [apply dex_prefix_runs; vm_compute; exact I|intros H13].
  apply conj_keep; [left; reflexivity|intros I0]. apply conj_keep; [right; left; reflexivity|intros I1].
  apply conj_keep; [vm_compute; discriminate|intros NV].
  apply conj_keep; [apply dex_prefix_runs; vm_compute; exact I|intros H22].
  apply conj_keep; [vm_compute; reflexivity|intros E22]. apply conj_keep; [vm_compute; reflexivity|intros D22].
  split; [vm_compute; reflexivity|]. apply conj_keep; [vm_compute; reflexivity|intros HOL].
  split; [vm_compute; reflexivity|]. split; [vm_compute; reflexivity|].
  split; [vm_compute; reflexivity|].
  split; [exact (C15_drr_credit_bounds _ _ _ _ _ dex_wf H13 _ I0)|].
  split; [exact (C15_drr_credit_bounds _ _ _ _ _ dex_wf H13 _ I1)|].
  split; [vm_compute; reflexivity|]. split; [vm_compute; reflexivity|].
  split.
  { pose proof (C15_drr_visit_complete _ _ _ _ _ dex_wf H13 _ NV) as K. rewrite HOL in K. exact K. }
  exact (C15_drr_credit_forgotten _ _ _ _ _ dex_wf H22 _ E22 D22).
Qed.
Print Assumptions C15_ex_drr_credit.

(* the visit rule on two actions: from the state after 11 actions run() receives u0 (DGetDone of class 0), cannot afford it, parks it
   and moves on to class 1, which gets its quantum; from the state after 21 actions run() resumes after the transmission of u2
   (DChildEnd): class 1 is debited and reset (empty), the round ends, a new round begins, class 0 gets a second quantum (3000 in all)
   and sends the parked u0 *)
Theorem C15_ex_drr_visit :
  dwf dex_cfg /\
  drr_run dex_cfg (drr0 0) (firstn 11 dex_acts) = Some (dex_state 11, dex_trace 11) /\
  drr_act dex_cfg (dex_state 11) (DGetDone (Some 0%Z)) = Some (dex_state 12, [DOPark 0 dex_u0; DOQuantum 1]) /\
  drr_run dex_cfg (drr0 0) (firstn 21 dex_acts) = Some (dex_state 21, dex_trace 21) /\
  drr_act dex_cfg (dex_state 21) DChildEnd
    = Some (dex_state 22, [DODebit 1 dex_u2 true; DOEnd 1; DOPass; DOQuantum 0; DOSend 0 dex_u0]) /\
  (* conclusions *)
  dspecs dex_cfg (dheld dex_cfg (dex_state 12)) (dabs (dex_state 11)) [DOPark 0 dex_u0; DOQuantum 1] (dabs (dex_state 12)) /\
  dspecs dex_cfg (dheld dex_cfg (dex_state 22)) (dabs (dex_state 21))
         [DODebit 1 dex_u2 true; DOEnd 1; DOPass; DOQuantum 0; DOSend 0 dex_u0] (dabs (dex_state 22)).
Proof.
  split; [exact dex_wf|]. apply conj_keep; [apply dex_prefix_runs; vm_compute; exact I|intros H11].
  apply conj_keep; [vm_compute; reflexivity|intros A11].
  apply conj_keep; [apply dex_prefix_runs; vm_compute; exact I|intros H21].
  apply conj_keep; [vm_compute; reflexivity|intros A21].
  split; [exact (C15_drr_visit _ _ _ _ _ _ _ _ dex_wf H11 A11)|exact (C15_drr_visit _ _ _ _ _ _ _ _ dex_wf H21 A21)].
Qed.
Print Assumptions C15_ex_drr_visit.

(* fairness window: from the state after 13 actions through the next 7 actions (the transmission of u1 from start to end, its debit,
   the start of u2's transmission) classes 0 and 1 both hold packets all the time (class 0: u0 parked and u3; class 1: u1, u2);
   class 1 forwards 1000 bytes, class 0 nothing: |0/1500 - 1000/3000| = 1/3 < 4 + 3*2000*(1/1500 + 1/3000) = 10 *)
Definition dex_fair_acts : list daction := firstn 7 (skipn 13 dex_acts).
Definition dex_fair_trace : list dtev := match drr_run dex_cfg (dex_state 13) dex_fair_acts with Some (_, tr) => tr | None => [] end.

Theorem C15_ex_drr_fairness :
  dwf dex_cfg /\
  drr_run dex_cfg (drr0 0) (firstn 13 dex_acts) = Some (dex_state 13, dex_trace 13) /\
  drr_run dex_cfg (dex_state 13) dex_fair_acts = Some (dex_state 20, dex_fair_trace) /\
  In 0%Z (dclasses dex_cfg) /\ In 1%Z (dclasses dex_cfg) /\
  dalways dex_cfg (fun x => dheld dex_cfg x 0 <> [] /\ dheld dex_cfg x 1 <> []) (dex_state 13) dex_fair_acts /\
  (* the situation *)
  dsent dex_cfg 0 dex_fair_trace = 0%Z /\ dsent dex_cfg 1 dex_fair_trace = 1000%Z /\ dlmax (dex_state 20) = 2000%Z /\
  (* conclusion *)
  Qabs (inject_Z (dsent dex_cfg 0 dex_fair_trace) / dquantum dex_cfg 0 - inject_Z (dsent dex_cfg 1 dex_fair_trace) / dquantum dex_cfg 1)
    < 4 + 3 * inject_Z (dlmax (dex_state 20)) * (1 / dquantum dex_cfg 0 + 1 / dquantum dex_cfg 1) /\
  Qabs (inject_Z (dsent dex_cfg 0 dex_fair_trace) / dquantum dex_cfg 0 - inject_Z (dsent dex_cfg 1 dex_fair_trace) / dquantum dex_cfg 1) == 1 # 3 /\
  4 + 3 * inject_Z (dlmax (dex_state 20)) * (1 / dquantum dex_cfg 0 + 1 / dquantum dex_cfg 1) == 10.
Proof.
  split; [exact dex_wf|]. apply conj_keep; [apply dex_prefix_runs; vm_compute; exact I|intros H13].
  apply conj_keep; [vm_compute; reflexivity|intros H20]. apply conj_keep; [left; reflexivity|intros I0].
  apply conj_keep; [right; left; reflexivity|intros I1]. apply conj_keep; [vm_compute; repeat split; discriminate|intros AL].
  split; [vm_compute; reflexivity|]. split; [vm_compute; reflexivity|]. split; [vm_compute; reflexivity|].
  split; [exact (C15_drr_fairness _ _ _ _ _ _ _ _ _ _ dex_wf H13 H20 I0 I1 AL)|].
  split; vm_compute; reflexivity.
Qed.
Print Assumptions C15_ex_drr_fairness.

(* second tie: the generated DRR.put on the state after 29 actions (instant 4, u3 in transmission, total_packets = 1: no token) with
   u4 (flow 1 -> class 1), and on the initial state with u0 (total_packets = 0: the wake-up token first) *)
Theorem C15_ex_gen_drr_put :
  dmemZ (df2c dex_cfg (flow dex_u4)) (dclasses dex_cfg) && (0 <? psize dex_u4)%Z = true /\
  dmemZ (df2c dex_cfg (flow dex_u0)) (dclasses dex_cfg) && (0 <? psize dex_u0)%Z = true /\
  dtotal (dex_state 29) = 1%Z /\
  (* conclusions *)
  snd (drr_gen_put dex_cfg (dex_state 29) dex_u4) = [FxStorePut 1%Z] /\
  snd (drr_gen_put dex_cfg (drr0 0) dex_u0) = [FxToken; FxStorePut 0%Z] /\
  drr_act dex_cfg (dex_state 29) (DPut dex_u4)
    = Some (fold_left (drr_fx_apply dex_u4) (snd (drr_gen_put dex_cfg (dex_state 29) dex_u4))
                      (drr_with_fields (dex_state 29) (fst (drr_gen_put dex_cfg (dex_state 29) dex_u4)) dex_u4), []).
Proof.
  apply conj_keep; [reflexivity|intros H4]. apply conj_keep; [reflexivity|intros H0]. split; [vm_compute; reflexivity|].
  pose proof (C15_gen_drr_put dex_cfg (dex_state 29) dex_u4 H4) as [A1 B1].
  pose proof (C15_gen_drr_put dex_cfg (drr0 0) dex_u0 H0) as [_ B2].
  split; [rewrite B1; vm_compute; reflexivity|]. split; [rewrite B2; vm_compute; reflexivity|]. exact A1.
Qed.
Print Assumptions C15_ex_gen_drr_put.
