(* C11 -- NON-VACUITY of the theorems of Props/C11.v.
   Every theorem of Props/C11.v that has hypotheses is matched here by a machine-checked witness: a concrete,
   non-trivial execution (several packets, a packet that has to wait for tokens, a packet larger than the bucket,
   a negative initial time, all three colours ...) on which ALL hypotheses of the theorem hold simultaneously,
   together with the concrete content of the theorem's conclusion on that execution (obtained by applying the
   theorem itself to the witness, or by computation).  An implication no reachable state satisfies means nothing;
   these witnesses show the hypotheses are met by real executions.

   Coverage (theorem of Props/C11.v  ->  witness below):
     C11_tb_recurrence, C11_tb_fifo, C11_tb_lossless                      -> C11_ex_tb_admissible
     C11_tb_release_instant (indexed clause), C11_tb_head_instant,
     C11_tb_initially_full, C11_tb_conformance, C11_tb_departure_instant  -> C11_ex_tb_indexed
       (peak_on = None branch), C11_tb_peak_spacing (None branch)
     C11_tb_peak_spacing / C11_tb_departure_instant (peak_on = Some branch),
     C11_tb_release_instant (clause on a packet still waiting: PTok)     -> C11_ex_tb_peak
     C11_tb_release_is_least                                              -> C11_ex_tb_release_is_least
     C11_trtb_recurrence, C11_trtb_is_recurrence, C11_trtb_fifo,
     C11_trtb_lossless                                                    -> C11_ex_trtb_admissible
     C11_trtb_colour_iff, C11_trtb_shapes_against, C11_trtb_green_conforms -> C11_ex_trtb_indexed
     all seven two-rate theorems in the configuration WITHOUT PIR (of C11_trtb_is_recurrence and
     C11_trtb_fifo the hypotheses only)
     (shaping against (CIR, CBS), yellow = waited for committed tokens)  -> C11_ex_trtb_no_pir
   Unconditional theorems (no hypotheses): none.
   Already witnesses (existential statements, each exhibits its own execution):
     C11_tb_initially_full_refuted_before_fix, C11_trtb_yellow_refuted_before_fix,
     C11_trtb_red_refuted_before_fix, C11_trtb_initially_full_refuted_before_fix. *)
From Coq Require Import ZArith QArith Qminmax List.
From ONL Require Import Base.Tools Elem.Packet Elem.StoreQ Elem.Bucket Elem.BucketProofs Elem.TwoRate Elem.TwoRateProofs.
From ONL Require Import Props.C11.
Import ListNotations.

(* ================================ TokenBucket ================================ *)

(* Witness A: rate 512 bit/s (64 B/s), bucket 256 B, no peak rate, initial time -4 (negative: the case the repaired
   constructor is about).  p0 (128 B) and p1 (256 B) arrive together at -3, p2 (512 B: larger than the bucket) at -2.
     p0: bucket full (256): debited and forwarded at -3, 128 tokens left;
     p1: 128 < 256: waits 128/64 = 2 s for exactly the missing tokens: debited at -1;
     p2: reaches the head at -1 with an empty bucket, waits 512/64 = 8 s: debited at 7 (the bucket never holds 512;
         the conformance bound uses max(B, size) for that reason).
   The execution ends quiescent (store empty, server waiting on its get). *)
Definition tbA_c : tbcfg := {| rate := 512; bsize := 256; peak := None |}.
Definition tbA_p0 : pkt := mkp 0 1 0 128 (-3).
Definition tbA_p1 : pkt := mkp 1 2 1 256 (-3).
Definition tbA_p2 : pkt := mkp 2 3 0 512 (-2).
Definition tbA_acts : list taction :=
  [TInit; TAdvance (-3); TPut tbA_p0; TPut tbA_p1; TStoreCb; TStoreCb; TGet; TGet;
   TAdvance (-2); TPut tbA_p2; TStoreCb; TAdvance (-1); TTimer; TGet; TAdvance 7; TTimer].
Definition tbA_run := tb_run tbA_c (tb0 true tbA_c (-4)) tbA_acts.
Definition tbA_s : tb := match tbA_run with Some (s, _) => s | None => tb0 true tbA_c (-4) end.
Definition tbA_tr : list tev := match tbA_run with Some (_, tr) => tr | None => [] end.

(* hypotheses of C11_tb_recurrence / C11_tb_fifo / C11_tb_lossless, and what the execution is *)
Theorem C11_ex_tb_admissible :
  (* hypotheses *)
  0 < rate tbA_c /\
  tb_run tbA_c (tb0 true tbA_c (-4)) tbA_acts = Some (tbA_s, tbA_tr) /\
  tb_quiescent tbA_s /\
  (* the execution: arrivals, head instants, token-debit instants, departures *)
  puts tbA_tr = [(-3, tbA_p0); (-3, tbA_p1); (-2, tbA_p2)] /\
  heads tbA_tr = [(-3, tbA_p0); (-3, tbA_p1); (-1, tbA_p2)] /\
  debits tbA_tr = [(-3, tbA_p0); (-1, tbA_p1); (7, tbA_p2)] /\
  fwds tbA_tr = [(-3, tbA_p0); (-1, tbA_p1); (7, tbA_p2)] /\
  (* conclusions of the three theorems on it *)
  (exists R, chain tbA_c (bsize tbA_c) (-4) (-4) R /\ puts tbA_tr = sv_arr R ++ sq_held (tq tbA_s) /\
             tb_matches tbA_s tbA_tr R) /\
  (exists rest, map snd (puts tbA_tr) = map snd (fwds tbA_tr) ++ rest) /\
  map snd (fwds tbA_tr) = [tbA_p0; tbA_p1; tbA_p2] /\
  map snd (fwds tbA_tr) = map snd (puts tbA_tr).
Proof.
  apply conj_keep; [reflexivity|intros Hr]. apply conj_keep; [vm_compute; reflexivity|intros Hrun].
  apply conj_keep; [split; vm_compute; reflexivity|intros HQ].
  split; [vm_compute; reflexivity|]. split; [vm_compute; reflexivity|].
  split; [vm_compute; reflexivity|]. split; [vm_compute; reflexivity|].
  split; [exact (C11_tb_recurrence _ _ _ _ _ Hr Hrun)|].
  split; [exact (C11_tb_fifo _ _ _ _ _ Hr Hrun)|].
  split; [vm_compute; reflexivity|].
  exact (C11_tb_lossless _ _ _ _ _ Hr Hrun HQ).
Qed.
Print Assumptions C11_ex_tb_admissible.

(* the indexed hypotheses (nth_error premises, i <= j, sz p <= bsize c) of C11_tb_release_instant,
   C11_tb_head_instant, C11_tb_initially_full, C11_tb_conformance, C11_tb_departure_instant and
   C11_tb_peak_spacing hold on witness A; the conformance bound is attained with EQUALITY over the windows
   0..2 and 1..2 (the bucket delays nothing needlessly) *)
Theorem C11_ex_tb_indexed :
  0 < rate tbA_c /\ tb_run tbA_c (tb0 true tbA_c (-4)) tbA_acts = Some (tbA_s, tbA_tr) /\
  (* C11_tb_release_instant at k = 1 (the packet that waited), C11_tb_conformance at i = 0, j = 2 and i = 1, j = 2 *)
  nth_error (debits tbA_tr) 0 = Some (-3, tbA_p0) /\
  nth_error (debits tbA_tr) 1 = Some (-1, tbA_p1) /\
  nth_error (debits tbA_tr) 2 = Some (7, tbA_p2) /\
  (0 <= 2)%nat /\ (1 <= 2)%nat /\
  (* C11_tb_initially_full: first debit, packet within the bucket *)
  sz tbA_p0 <= bsize tbA_c /\
  (* C11_tb_head_instant at k = 2 (a packet that found the server busy) *)
  nth_error (heads tbA_tr) 2 = Some (-1, tbA_p2) /\
  (* C11_tb_departure_instant at k = 1, C11_tb_peak_spacing at k = 1 *)
  nth_error (fwds tbA_tr) 1 = Some (-1, tbA_p1) /\
  nth_error (fwds tbA_tr) 2 = Some (7, tbA_p2) /\
  peak_on tbA_c = None /\
  (* ---- conclusions, instantiated ---- *)
  (* release instant of p1: head at -3 with 128 tokens, earliest instant with 256 tokens is -1 *)
  release (rate tbA_c) (-3) 128 (sz tbA_p1) == -1 /\
  (exists h lvl,
     (exists h', nth_error (heads tbA_tr) 1 = Some (h', tbA_p1) /\ h' == h) /\ lvl <= bsize tbA_c /\
     h <= -1 /\ -1 == release (rate tbA_c) h lvl (sz tbA_p1) /\
     (forall t', h <= t' -> t' < -1 -> tokens_at (bsize tbA_c) (rate tbA_c) h lvl (sz tbA_p1) t' < sz tbA_p1)) /\
  (* head instant of p2 = max(arrival -2, previous departure -1) *)
  (exists a, nth_error (puts tbA_tr) 2 = Some (a, tbA_p2) /\ a <= -1 /\
     exists d p', nth_error (fwds tbA_tr) 1 = Some (d, p') /\ -1 == Qmax a d) /\
  (* initially full at the negative initial time: p0 is debited the instant it arrives *)
  (exists a, nth_error (puts tbA_tr) 0 = Some (a, tbA_p0) /\ -3 == Qmax a (-4)) /\
  (* conformance: 128 + 256 + 512 = 896 = max(256, 128) + 64 * 10;  256 + 512 = 768 = 256 + 64 * 8 *)
  bytes (slice 0 2 (debits tbA_tr)) == 896 /\
  Qmax (bsize tbA_c) (sz tbA_p0) + fill (rate tbA_c) (7 - -3) == 896 /\
  bytes (slice 0 2 (debits tbA_tr)) <= Qmax (bsize tbA_c) (sz tbA_p0) + fill (rate tbA_c) (7 - -3) /\
  bytes (slice 1 2 (debits tbA_tr)) == 768 /\
  Qmax (bsize tbA_c) (sz tbA_p1) + fill (rate tbA_c) (7 - -1) == 768 /\
  bytes (slice 1 2 (debits tbA_tr)) <= Qmax (bsize tbA_c) (sz tbA_p1) + fill (rate tbA_c) (7 - -1) /\
  (* departure = debit instant without a peak rate; departures in order *)
  (exists d, nth_error (debits tbA_tr) 1 = Some (d, tbA_p1) /\ -1 == d) /\
  -1 <= 7.
Proof.
  apply conj_keep; [reflexivity|intros Hr]. apply conj_keep; [vm_compute; reflexivity|intros Hrun].
  apply conj_keep; [vm_compute; reflexivity|intros D0]. apply conj_keep; [vm_compute; reflexivity|intros D1].
  apply conj_keep; [vm_compute; reflexivity|intros D2].
  split; [repeat constructor|]. split; [repeat constructor|]. apply conj_keep; [vm_compute; discriminate|intros S0].
  apply conj_keep; [vm_compute; reflexivity|intros H2].
  apply conj_keep; [vm_compute; reflexivity|intros F1]. apply conj_keep; [vm_compute; reflexivity|intros F2].
  apply conj_keep; [reflexivity|intros PK].
  split; [vm_compute; reflexivity|].
  split.
  { destruct (C11_tb_release_instant _ _ _ _ _ Hr Hrun) as [K _].
    destruct (K _ _ _ D1) as (h & lvl & A & B & _ & C & D & _ & E). exists h, lvl. repeat split; assumption. }
  split; [exact (C11_tb_head_instant _ _ _ _ _ Hr Hrun _ _ _ H2)|].
  split; [exact (C11_tb_initially_full _ _ _ _ _ Hr Hrun _ _ D0 S0)|].
  split; [vm_compute; reflexivity|]. split; [vm_compute; reflexivity|].
  split; [exact (proj2 (C11_tb_conformance _ _ _ _ _ Hr Hrun 0%nat 2%nat _ _ _ _ (le_S _ _ (le_S _ _ (le_n 0))) D0 D2))|].
  split; [vm_compute; reflexivity|]. split; [vm_compute; reflexivity|].
  split; [exact (proj2 (C11_tb_conformance _ _ _ _ _ Hr Hrun 1%nat 2%nat _ _ _ _ (le_S _ _ (le_n 1)) D1 D2))|].
  split.
  { destruct (C11_tb_departure_instant _ _ _ _ _ Hr Hrun _ _ _ F1) as (d & Hd & E & _). exists d. split; [exact Hd|exact (E PK)]. }
  exact (proj1 (C11_tb_peak_spacing _ _ _ _ _ Hr Hrun _ _ _ _ _ F1 F2) PK).
Qed.
Print Assumptions C11_ex_tb_indexed.

(* Witness B: rate 1024 bit/s (128 B/s), bucket 256 B, PEAK 4096 bit/s (512 B/s); burst of p0 (256 B), p1 (128 B),
   p2 (256 B) at 0; the execution is stopped at instant 2 while p2 is still waiting for its tokens (phase PTok).
     p0: debit 0, leaves 256/512 = 1/2 later;   p1: head 1/2 with 64 tokens, waits 1/2: debit 1, leaves 5/4;
     p2: head 5/4 with 32 tokens, needs 224 more = 7/4 s: deadline 3, not yet passed at 2. *)
Definition tbB_c : tbcfg := {| rate := 1024; bsize := 256; peak := Some 4096 |}.
Definition tbB_p0 : pkt := mkp 0 1 0 256 0.
Definition tbB_p1 : pkt := mkp 1 2 1 128 0.
Definition tbB_p2 : pkt := mkp 2 3 0 256 0.
Definition tbB_acts : list taction :=
  [TInit; TPut tbB_p0; TPut tbB_p1; TPut tbB_p2; TStoreCb; TStoreCb; TStoreCb; TGet; TAdvance (1 # 2); TTimer; TGet;
   TAdvance 1; TTimer; TAdvance (5 # 4); TTimer; TGet; TAdvance 2].
Definition tbB_run := tb_run tbB_c (tb0 true tbB_c 0) tbB_acts.
Definition tbB_s : tb := match tbB_run with Some (s, _) => s | None => tb0 true tbB_c 0 end.
Definition tbB_tr : list tev := match tbB_run with Some (_, tr) => tr | None => [] end.

Theorem C11_ex_tb_peak :
  0 < rate tbB_c /\ tb_run tbB_c (tb0 true tbB_c 0) tbB_acts = Some (tbB_s, tbB_tr) /\
  (* C11_tb_peak_spacing at k = 0, C11_tb_departure_instant at k = 1, with a peak rate *)
  nth_error (fwds tbB_tr) 0 = Some (1 # 2, tbB_p0) /\
  nth_error (fwds tbB_tr) 1 = Some (5 # 4, tbB_p1) /\
  peak_on tbB_c = Some 4096 /\
  (* second clause of C11_tb_release_instant: a packet waiting for tokens *)
  phase tbB_s = PTok tbB_p2 3 /\ tnow tbB_s = 2 /\
  (* the execution *)
  heads tbB_tr = [(0, tbB_p0); (1 # 2, tbB_p1); (5 # 4, tbB_p2)] /\
  debits tbB_tr = [(0, tbB_p0); (1, tbB_p1)] /\
  (* ---- conclusions, instantiated ---- *)
  (1 # 2) + spacing 4096 (sz tbB_p1) <= 5 # 4 /\ spacing 4096 (sz tbB_p1) == 1 # 4 /\
  (exists d, nth_error (debits tbB_tr) 1 = Some (d, tbB_p1) /\ 5 # 4 == d + spacing 4096 (sz tbB_p1)) /\
  tnow tbB_s <= 3 /\
  (* ... and the packet in service is exactly what is missing from the departures *)
  (exists rest, map snd (puts tbB_tr) = map snd (fwds tbB_tr) ++ rest) /\
  map snd (puts tbB_tr) = map snd (fwds tbB_tr) ++ [tbB_p2].
Proof.
  apply conj_keep; [reflexivity|intros Hr]. apply conj_keep; [vm_compute; reflexivity|intros Hrun].
  apply conj_keep; [vm_compute; reflexivity|intros F0]. apply conj_keep; [vm_compute; reflexivity|intros F1].
  apply conj_keep; [reflexivity|intros PK].
  apply conj_keep; [vm_compute; reflexivity|intros PH]. split; [vm_compute; reflexivity|].
  split; [vm_compute; reflexivity|]. split; [vm_compute; reflexivity|].
  split; [exact (proj2 (C11_tb_peak_spacing _ _ _ _ _ Hr Hrun _ _ _ _ _ F0 F1) _ PK)|].
  split; [vm_compute; reflexivity|].
  split.
  { destruct (C11_tb_departure_instant _ _ _ _ _ Hr Hrun _ _ _ F1) as (d & Hd & _ & E). exists d. split; [exact Hd|exact (E _ PK)]. }
  split; [exact (proj2 (C11_tb_release_instant _ _ _ _ _ Hr Hrun) _ _ (or_introl PH))|].
  split; [exact (C11_tb_fifo _ _ _ _ _ Hr Hrun)|].
  vm_compute; reflexivity.
Qed.
Print Assumptions C11_ex_tb_peak.

(* C11_tb_release_is_least: 0 < r and lvl <= B, at the values of p1 in witness A (B = 256, r = 512, head at -3
   with 128 tokens, size 256): the release instant is -1, the bucket then holds exactly 256, and one second
   earlier it held only 192 *)
Theorem C11_ex_tb_release_is_least :
  0 < 512 /\ 128 <= 256 /\
  release 512 (-3) 128 256 == -1 /\
  -3 <= release 512 (-3) 128 256 /\
  256 <= tokens_at 256 512 (-3) 128 256 (release 512 (-3) 128 256) /\
  tokens_at 256 512 (-3) 128 256 (-1) == 256 /\
  tokens_at 256 512 (-3) 128 256 (-2) == 192 /\
  (forall t, -3 <= t -> t < release 512 (-3) 128 256 -> tokens_at 256 512 (-3) 128 256 t < 256).
Proof.
  apply conj_keep; [reflexivity|intros Hr]. apply conj_keep; [vm_compute; discriminate|intros Hl].
  destruct (C11_tb_release_is_least 256 512 (-3) 128 256 Hr Hl) as (A & B & C). split; [vm_compute; reflexivity|].
  split; [exact A|]. split; [exact B|]. split; [vm_compute; reflexivity|]. split; [vm_compute; reflexivity|].
  exact C.
Qed.
Print Assumptions C11_ex_tb_release_is_least.

(* ================================ TwoRateTokenBucket ================================ *)

(* Witness C: CIR 1024 bit/s (128 B/s), CBS 256 B, PIR 2048 bit/s (256 B/s), PBS 512 B, initial time 0.
   Four 256-byte packets at 1 (both buckets full), a 128-byte packet at 6:
     q0 green (256 <= 256 committed, 256 <= 512 peak), q1 yellow (committed bucket empty, 256 peak tokens left),
     q2 red (peak bucket empty: waits 256/256 = 1 s, leaves at 2; the committed bucket refills meanwhile to 128),
     q3 red again (head at 2 with 0 peak tokens: leaves at 3), q4 at 6 green (both buckets refilled). *)
Definition trC_c : trcfg := {| cir := 1024; cbs := 256; pk := Some (2048, 512) |}.
Definition trC_q (i : nat) (size : Z) (t : Q) : pkt := mkp i (Z.of_nat i + 1) 0 size t.
Definition trC_acts : list raction :=
  [RInit; RAdvance 1; RPut (trC_q 0 256 1); RPut (trC_q 1 256 1); RPut (trC_q 2 256 1); RPut (trC_q 3 256 1);
   RStoreCb; RStoreCb; RStoreCb; RStoreCb; RGet; RGet; RGet; RAdvance 2; RTimer; RGet; RAdvance 3; RTimer;
   RAdvance 6; RPut (trC_q 4 128 6); RStoreCb; RGet].
Definition trC_run := tr_run true true trC_c (tr0 true trC_c 0) trC_acts.
Definition trC_s : trtb := match trC_run with Some (s, _) => s | None => tr0 true trC_c 0 end.
Definition trC_tr : list rev := match trC_run with Some (_, tr) => tr | None => [] end.

Theorem C11_ex_trtb_admissible :
  (* hypotheses of C11_trtb_recurrence / _is_recurrence / _fifo / _lossless (and 0 <= cbs of _green_conforms) *)
  trwf trC_c /\ 0 <= cbs trC_c /\
  tr_run true true trC_c (tr0 true trC_c 0) trC_acts = Some (trC_s, trC_tr) /\
  tr_quiescent trC_s /\
  (* the execution *)
  rputs trC_tr = [(1, trC_q 0 256 1); (1, trC_q 1 256 1); (1, trC_q 2 256 1); (1, trC_q 3 256 1); (6, trC_q 4 128 6)] /\
  rheads trC_tr = [(1, trC_q 0 256 1); (1, trC_q 1 256 1); (1, trC_q 2 256 1); (2, trC_q 3 256 1); (6, trC_q 4 128 6)] /\
  rfwds trC_tr = [(1, trC_q 0 256 1); (1, trC_q 1 256 1); (2, trC_q 2 256 1); (3, trC_q 3 256 1); (6, trC_q 4 128 6)] /\
  rcols trC_tr = [Green; Yellow; Red; Red; Green] /\
  (* conclusions *)
  (exists R, rchain trC_c (cbs trC_c) (tr_P0 trC_c) 0 R /\ rputs trC_tr = rv_arr R ++ sq_held (rq trC_s) /\
             tr_matches trC_s trC_tr R) /\
  rec_cols trC_c 0 (rputs trC_tr) = [Green; Yellow; Red; Red; Green] /\
  (exists n, rcols trC_tr = firstn n (rec_cols trC_c 0 (rputs trC_tr)) /\
             tpe (rfwds trC_tr) (firstn n (rec_deps trC_c 0 (rputs trC_tr))) /\
             n = length (rfwds trC_tr) /\ (tr_quiescent trC_s -> n = length (rputs trC_tr))) /\
  (exists rest, map snd (rputs trC_tr) = map snd (rfwds trC_tr) ++ rest) /\
  map snd (rfwds trC_tr) = map snd (rputs trC_tr).
Proof.
  apply conj_keep; [apply trwf_pir; reflexivity|intros Hwf]. split; [vm_compute; discriminate|].
  apply conj_keep; [vm_compute; reflexivity|intros Hrun]. apply conj_keep; [split; vm_compute; reflexivity|intros HQ].
  split; [vm_compute; reflexivity|]. split; [vm_compute; reflexivity|].
  split; [vm_compute; reflexivity|]. split; [vm_compute; reflexivity|].
  split; [exact (C11_trtb_recurrence _ _ _ _ _ Hwf Hrun)|].
  split; [vm_compute; reflexivity|].
  split; [exact (C11_trtb_is_recurrence _ _ _ _ _ Hwf Hrun)|].
  split; [exact (C11_trtb_fifo _ _ _ _ _ Hwf Hrun)|].
  exact (C11_trtb_lossless _ _ _ _ _ Hwf Hrun HQ).
Qed.
Print Assumptions C11_ex_trtb_admissible.

(* indexed hypotheses of C11_trtb_colour_iff (k = 1 yellow, k = 2 red), C11_trtb_shapes_against and
   C11_trtb_green_conforms (windows 0..4 and 1..3) on witness C *)
Theorem C11_ex_trtb_indexed :
  trwf trC_c /\ 0 <= cbs trC_c /\
  tr_run true true trC_c (tr0 true trC_c 0) trC_acts = Some (trC_s, trC_tr) /\
  nth_error (rfwds trC_tr) 0 = Some (1, trC_q 0 256 1) /\
  nth_error (rfwds trC_tr) 1 = Some (1, trC_q 1 256 1) /\
  nth_error (rfwds trC_tr) 2 = Some (2, trC_q 2 256 1) /\
  nth_error (rfwds trC_tr) 3 = Some (3, trC_q 3 256 1) /\
  nth_error (rfwds trC_tr) 4 = Some (6, trC_q 4 128 6) /\
  (0 <= 4)%nat /\ (1 <= 3)%nat /\
  (* ---- conclusions, instantiated ---- *)
  (* colour of departure 2 is Red, and Red is exactly "peak tokens short", with a real wait (head 1 < departure 2) *)
  (exists col h c1 p1,
     nth_error (rcols trC_tr) 2 = Some col /\ col = Red /\
     (exists h', nth_error (rheads trC_tr) 2 = Some (h', trC_q 2 256 1) /\ h' == h) /\
     (col = Red <-> pk trC_c <> None /\ p1 < sz (trC_q 2 256 1)) /\
     2 == tr_dep trC_c h c1 p1 (sz (trC_q 2 256 1)) /\ h < 2) /\
  (* colour of departure 1 is Yellow: committed tokens short, peak tokens cover it, no wait *)
  (exists col h c1 p1,
     nth_error (rcols trC_tr) 1 = Some col /\ col = Yellow /\
     (col = Yellow <-> c1 < sz (trC_q 1 256 1) /\ (pk trC_c <> None -> sz (trC_q 1 256 1) <= p1)) /\
     1 == h) /\
  (* shaping against (PIR, PBS) = (256 B/s, 512 B): 1152 bytes in 5 s <= 512 + 1280; the burst 1..3 is tight:
     768 = 512 + 256 * (3 - 1) ... *)
  shape_rate trC_c = 2048 /\ shape_size trC_c = 512 /\
  bytes (slice 0 4 (rfwds trC_tr)) == 1152 /\
  bytes (slice 0 4 (rfwds trC_tr)) <= Qmax (shape_size trC_c) (sz (trC_q 0 256 1)) + fill (shape_rate trC_c) (6 - 1) /\
  bytes (slice 1 3 (rfwds trC_tr)) == 768 /\
  Qmax (shape_size trC_c) (sz (trC_q 1 256 1)) + fill (shape_rate trC_c) (3 - 1) == 1024 /\
  bytes (slice 1 3 (rfwds trC_tr)) <= Qmax (shape_size trC_c) (sz (trC_q 1 256 1)) + fill (shape_rate trC_c) (3 - 1) /\
  (* green traffic: 256 + 128 = 384 green bytes over 0..4 within 256 + 128 * 5; no green byte over 1..3 *)
  gbytes (slice 0 4 (rfwds trC_tr)) (slice 0 4 (rcols trC_tr)) == 384 /\
  gbytes (slice 0 4 (rfwds trC_tr)) (slice 0 4 (rcols trC_tr)) <= cbs trC_c + fill (cir trC_c) (6 - 1) /\
  gbytes (slice 1 3 (rfwds trC_tr)) (slice 1 3 (rcols trC_tr)) == 0.
Proof.
  apply conj_keep; [apply trwf_pir; reflexivity|intros Hwf]. apply conj_keep; [vm_compute; discriminate|intros Hcb].
  apply conj_keep; [vm_compute; reflexivity|intros Hrun].
  apply conj_keep; [vm_compute; reflexivity|intros F0]. apply conj_keep; [vm_compute; reflexivity|intros F1].
  apply conj_keep; [vm_compute; reflexivity|intros F2]. apply conj_keep; [vm_compute; reflexivity|intros F3].
  apply conj_keep; [vm_compute; reflexivity|intros F4].
  apply conj_keep; [repeat constructor|intros L04]. apply conj_keep; [repeat constructor|intros L13].
  split.
  { destruct (C11_trtb_colour_iff _ _ _ _ _ Hwf Hrun _ _ _ F2) as (col & h & c1 & p1 & Hc & Hh & _ & _ & _ & _ & HR & Hd & _ & _ & Hw).
    assert (Ec : col = Red) by (vm_compute in Hc; injection Hc as <-; reflexivity).
    exists col, h, c1, p1. split; [exact Hc|]. split; [exact Ec|]. split; [exact Hh|]. split; [exact HR|].
    split; [exact Hd|exact (Hw Ec)]. }
  split.
  { destruct (C11_trtb_colour_iff _ _ _ _ _ Hwf Hrun _ _ _ F1) as (col & h & c1 & p1 & Hc & _ & _ & _ & _ & HY & _ & _ & _ & Hn & _).
    assert (Ec : col = Yellow) by (vm_compute in Hc; injection Hc as <-; reflexivity).
    exists col, h, c1, p1. split; [exact Hc|]. split; [exact Ec|]. split; [exact HY|].
    apply Hn; [discriminate|rewrite Ec; discriminate]. }
  split; [reflexivity|]. split; [reflexivity|].
  split; [vm_compute; reflexivity|].
  split; [exact (proj2 (C11_trtb_shapes_against _ _ _ _ _ Hwf Hrun _ _ _ _ _ _ L04 F0 F4))|].
  split; [vm_compute; reflexivity|]. split; [vm_compute; reflexivity|].
  split; [exact (proj2 (C11_trtb_shapes_against _ _ _ _ _ Hwf Hrun _ _ _ _ _ _ L13 F1 F3))|].
  split; [vm_compute; reflexivity|].
  split; [exact (C11_trtb_green_conforms _ _ _ _ _ Hwf Hcb Hrun _ _ _ _ _ _ L04 F0 F4)|].
  vm_compute; reflexivity.
Qed.
Print Assumptions C11_ex_trtb_indexed.

(* Witness D: NO PIR: CIR 1024 bit/s (128 B/s), CBS 256 B, initial time 0.  d0 (256 B) and d1 (128 B) at 1, d2 (128 B) at 4:
     d0 green (bucket full), d1 yellow: the committed bucket is empty, it waits 128/128 = 1 s for committed tokens and
     leaves at 2 (the bucket shapes against (CIR, CBS)), d2 green (bucket refilled to 256 by 4). *)
Definition trD_c : trcfg := {| cir := 1024; cbs := 256; pk := None |}.
Definition trD_acts : list raction :=
  [RInit; RAdvance 1; RPut (trC_q 0 256 1); RPut (trC_q 1 128 1); RStoreCb; RStoreCb; RGet; RGet;
   RAdvance 2; RTimer; RAdvance 4; RPut (trC_q 2 128 4); RStoreCb; RGet].
Definition trD_run := tr_run true true trD_c (tr0 true trD_c 0) trD_acts.
Definition trD_s : trtb := match trD_run with Some (s, _) => s | None => tr0 true trD_c 0 end.
Definition trD_tr : list rev := match trD_run with Some (_, tr) => tr | None => [] end.

Theorem C11_ex_trtb_no_pir :
  trwf trD_c /\ 0 <= cbs trD_c /\ pk trD_c = None /\
  tr_run true true trD_c (tr0 true trD_c 0) trD_acts = Some (trD_s, trD_tr) /\
  tr_quiescent trD_s /\
  nth_error (rfwds trD_tr) 0 = Some (1, trC_q 0 256 1) /\
  nth_error (rfwds trD_tr) 1 = Some (2, trC_q 1 128 1) /\
  nth_error (rfwds trD_tr) 2 = Some (4, trC_q 2 128 4) /\
  (0 <= 1)%nat /\ (0 <= 2)%nat /\
  (* the execution *)
  rfwds trD_tr = [(1, trC_q 0 256 1); (2, trC_q 1 128 1); (4, trC_q 2 128 4)] /\
  rcols trD_tr = [Green; Yellow; Green] /\
  (* conclusions: recurrence, colours, shaping against (CIR, CBS) attained with equality over 0..1, green bound *)
  (exists R, rchain trD_c (cbs trD_c) (tr_P0 trD_c) 0 R /\ rputs trD_tr = rv_arr R ++ sq_held (rq trD_s) /\
             tr_matches trD_s trD_tr R) /\
  rec_cols trD_c 0 (rputs trD_tr) = [Green; Yellow; Green] /\
  (exists col h c1 p1,
     nth_error (rcols trD_tr) 1 = Some col /\ col = Yellow /\
     (col = Yellow <-> c1 < sz (trC_q 1 128 1) /\ (pk trD_c <> None -> sz (trC_q 1 128 1) <= p1)) /\
     2 == tr_dep trD_c h c1 p1 (sz (trC_q 1 128 1)) /\ h <= 2) /\
  shape_rate trD_c = 1024 /\ shape_size trD_c = 256 /\
  bytes (slice 0 1 (rfwds trD_tr)) == 384 /\
  Qmax (shape_size trD_c) (sz (trC_q 0 256 1)) + fill (shape_rate trD_c) (2 - 1) == 384 /\
  bytes (slice 0 1 (rfwds trD_tr)) <= Qmax (shape_size trD_c) (sz (trC_q 0 256 1)) + fill (shape_rate trD_c) (2 - 1) /\
  gbytes (slice 0 2 (rfwds trD_tr)) (slice 0 2 (rcols trD_tr)) == 384 /\
  gbytes (slice 0 2 (rfwds trD_tr)) (slice 0 2 (rcols trD_tr)) <= cbs trD_c + fill (cir trD_c) (4 - 1) /\
  map snd (rfwds trD_tr) = map snd (rputs trD_tr).
Proof.
  apply conj_keep; [split; [reflexivity|intros a b E; discriminate E]|intros Hwf].
  apply conj_keep; [vm_compute; discriminate|intros Hcb]. split; [reflexivity|].
  apply conj_keep; [vm_compute; reflexivity|intros Hrun]. apply conj_keep; [split; vm_compute; reflexivity|intros HQ].
  apply conj_keep; [vm_compute; reflexivity|intros F0]. apply conj_keep; [vm_compute; reflexivity|intros F1].
  apply conj_keep; [vm_compute; reflexivity|intros F2]. apply conj_keep; [repeat constructor|intros L01].
  apply conj_keep; [repeat constructor|intros L02].
  split; [vm_compute; reflexivity|]. split; [vm_compute; reflexivity|].
  split; [exact (C11_trtb_recurrence _ _ _ _ _ Hwf Hrun)|].
  split; [vm_compute; reflexivity|].
  split.
  { destruct (C11_trtb_colour_iff _ _ _ _ _ Hwf Hrun _ _ _ F1) as (col & h & c1 & p1 & Hc & _ & _ & _ & _ & HY & _ & Hd & Hle & _).
  exists col, h, c1, p1. split; [exact Hc|].
  apply conj_keep; [vm_compute in Hc; injection Hc as <-; reflexivity|intros Ec]. split; [exact HY|]. split; [exact Hd|exact Hle]. }
  split; [reflexivity|]. split; [reflexivity|].
  split; [vm_compute; reflexivity|]. split; [vm_compute; reflexivity|].
  split; [exact (proj2 (C11_trtb_shapes_against _ _ _ _ _ Hwf Hrun _ _ _ _ _ _ L01 F0 F1))|].
  split; [vm_compute; reflexivity|].
  split; [exact (C11_trtb_green_conforms _ _ _ _ _ Hwf Hcb Hrun _ _ _ _ _ _ L02 F0 F2)|].
  exact (C11_trtb_lossless _ _ _ _ _ Hwf Hrun HQ).
Qed.
Print Assumptions C11_ex_trtb_no_pir.
