(* C09 -- NON-VACUITY of the theorems of Props/C09.v (and Props/C09_Bridge*.v).

   Every theorem below instantiates ALL hypotheses of one or several
   theorems of Props/C09.v at closed terms -- executions of a Port (packet limit, byte limit, no limit, rate 0) and of
   a REDPort with bursts, waiting, refusals, idle periods and uniform draws -- proves them together, and states the
   concrete content of the instantiated conclusions (departure instants, who is refused, counters, samples, averages),
   obtained by running the model and, wherever a conclusion is not itself a closed computation, by applying the lemma that
   closes the theorem (the monitor samples and the generated Port.run steps are evaluated).

   Port execution C09_ex_acts (rate 64 bit/s, so 8 bytes take 1 s; element id 1; limit 2 packets, or 24 bytes):
     t=0    run() starts; p0 (8 B) arrives, is handed to the server, transmission until 1
            p1 (16 B) arrives and waits; p2 (8 B) arrives: one packet waits already (24 B held) -> refused
     t=1/2  a PortMonitor sample         t=1  p0 leaves; p1 in transmission until 3; p3 (8 B) arrives and waits
     t=3    p1 leaves; p3 until 4        t=4  p3 leaves, the port is idle
     t=10   p4 (8 B) arrives on the idle port: transmission until 11
   REDPort execution C09_ex_racts (min 1, max 3, max_p 1/2, qlimit 4, weight 1, packet mode): nine arrivals in one
   instant while the first packet is in transmission; the average climbs 0, 0, 1/2, 5/4, 17/8, 41/16, 105/32, 233/64,
   553/128 through all four regions of the RED rule.

   Coverage (hypothesis-carrying theorems of Props/C09.v -> witness):
     C09_port_departure_recurrence, C09_port_never_late, C09_port_occupancy_le_limit, C09_port_counters,
       C09_port_bytes_exact, C09_port_perhop_stamp                              -> C09_ex_port_run
     C09_port_occupancy_le_limit (byte limit)                                   -> C09_ex_port_run_bytes
     C09_port_work_conserving                                                   -> C09_ex_port_work_conserving
     C09_port_drop_iff                                                          -> C09_ex_port_drop_iff
     C09_port_unlimited_never_drops                                             -> C09_ex_port_unlimited
     C09_monitor_samples                                                        -> C09_ex_monitor_samples
     C09_port_rate0_departs_at_arrival                                          -> C09_ex_port_rate0
     C09_red_perhop_stamp                                                       -> C09_ex_red_run
     C09_red_avg, C09_red_no_drop_below_min                                     -> C09_ex_red_below_min
     C09_red_curve                                                              -> C09_ex_red_curve
     C09_red_drop_at_limit                                                      -> C09_ex_red_drop_at_limit
     C09_red_avg_unchanged                                                      -> C09_ex_red_avg_unchanged
     C09_red_step (min_threshold = max_threshold)                               -> C09_ex_red_step (in Props/C09.v itself)
     C09_red_linear_branch_needs_gap                                            -> no witness in this file
   Props/C09_BridgeRun.v (Port.run as translated from the tree under test):
     C09_gen_port_run_init, C09_gen_port_run_get, C09_gen_port_run_get_fields,
       C09_gen_port_run_timer_fields, C09_gen_port_run_timer_explicit           -> C09_ex_gen_port_run
   Already witnesses (existential statements): C09_port_drop_rule_refuted_before_fix,
     C09_port_bytes_exact_refuted_before_fix, C09_port_perhop_stamp_refuted_before_fix,
     C09_red_perhop_stamp_refuted_before_fix, C09_monitor_samples_refuted_before_fix.
   Unconditional (nothing to witness): C09_port_unlimited_raises_before_fix (an equation for all states and packets);
     C09_gen_port_put, C09_gen_port_put_effects (Props/C09_Bridge.v), C09_gen_portmon_sample (Props/C09_BridgeMon.v),
     C09_gen_red_put, C09_gen_red_put_avg, C09_gen_red_put_effects (Props/C09_BridgeRed.v);
     C09_gen_port_run_timer, C09_gen_port_run_get_explicit (Props/C09_BridgeRun.v: for all configurations and states). *)
From Coq Require Import ZArith QArith Qminmax List Bool Lia.
From ONL Require Import Base.Tools Elem.Packet Elem.StoreQ Elem.Port Elem.Red Elem.PortProofs Elem.RedProofs.
From ONL Require Import Gen.Extracted_port_run Elem.PortRunBridge.
Import ListNotations.

(* packet number u of flow 1 with the given size, created at t *)
Definition C09_pk (u : nat) (size : Z) (t : Q) : pkt := mkp u (Z.of_nat u) 1 size t.
Definition C09_p0 := C09_pk 0 8 0.
Definition C09_p1 := C09_pk 1 16 0.
Definition C09_p2 := C09_pk 2 8 0.
Definition C09_p3 := C09_pk 3 8 1.
Definition C09_p4 := C09_pk 4 8 10.

Definition C09_ex_acts : list paction :=
  [ PInit; PPut C09_p0 None; PStoreCb; PGet; PPut C09_p1 None; PPut C09_p2 None; PStoreCb;
    PAdvance (1 # 2); PSample true;
    PAdvance 1; PTimer; PGet; PPut C09_p3 None; PStoreCb;
    PAdvance 3; PTimer; PGet;
    PAdvance 4; PTimer;
    PAdvance 10; PPut C09_p4 None; PStoreCb; PGet ].

Definition C09_cP : pcfg := port_cfg all_fixed 64 (Some 2%Z) false (Some 1%Z).     (* at most 2 packets *)
Definition C09_cB : pcfg := port_cfg all_fixed 64 (Some 24%Z) true (Some 1%Z).     (* at most 24 bytes *)
Definition C09_cU : pcfg := port_cfg all_fixed 64 None false (Some 1%Z).           (* no limit *)
Definition C09_c0 : pcfg := port_cfg all_fixed 0 (Some 100%Z) true (Some 1%Z).     (* rate 0 *)

(* state and trace an execution leads to (the theorems below prove port_run … = Some (state, trace), so the default is
   never used) *)
Definition C09_st (c : pcfg) (acts : list paction) : port :=
  match port_run c (port0 0) acts with Some (s, _) => s | None => port0 0 end.
Definition C09_tr (c : pcfg) (acts : list paction) : list pev :=
  match port_run c (port0 0) acts with Some (_, tr) => tr | None => [] end.
(* readable form of a timed packet list: (instant, uid) *)
Definition C09_show (l : list (Q * pkt)) : list (Q * nat) := map (fun x => (Qred (fst x), uid (snd x))) l.

(* Forall put_nonneg on a closed action list *)
Ltac C09_nonneg := repeat (apply Forall_cons; [first [exact I | (vm_compute; discriminate)] |]); apply Forall_nil.

(* ---- hypotheses `port_run c (port0 t0) acts = Some (s, tr)`, `Forall put_nonneg acts`, `psvc s = Some (p, dl)`,
        `c_fix_rate0 c = true` -----------------------------------------------------------------------------------------
   covers C09_port_departure_recurrence, C09_port_never_late, C09_port_occupancy_le_limit, C09_port_counters,
   C09_port_bytes_exact, C09_port_perhop_stamp (s0 = port0 0). *)
Theorem C09_ex_port_run :
  let s := C09_st C09_cP C09_ex_acts in
  let tr := C09_tr C09_cP C09_ex_acts in
  port_run C09_cP (port0 0) C09_ex_acts = Some (s, tr)
  /\ Forall put_nonneg C09_ex_acts
  /\ psvc s = Some (C09_p4, 11)
  /\ c_fix_rate0 C09_cP = true
  (* the recurrence: arrivals 0, 0, 1, 10 of p0, p1, p3, p4 give departures 1, 3, 4 and, for the packet still held, 11 *)
  /\ (exists rest, tl_eq (dep_spec (txe C09_cP) (accepted tr)) (departures tr ++ rest) /\ map snd rest = port_held s)
  /\ C09_show (accepted tr) = [(0, 0%nat); (0, 1%nat); (1, 3%nat); (10, 4%nat)]
  /\ C09_show (dep_spec (txe C09_cP) (accepted tr)) = [(1, 0%nat); (3, 1%nat); (4, 3%nat); (11, 4%nat)]
  /\ C09_show (departures tr) = [(1, 0%nat); (3, 1%nat); (4, 3%nat)]
  /\ port_held s = [C09_p4]
  (* never late *)
  /\ pnow s <= 11
  (* occupancy, packet mode *)
  /\ ((Z.of_nat (length (items (pq s))) <= Z.max (2 - 1) 0)%Z /\ (Z.of_nat (length (port_held s)) <= Z.max 2 0)%Z)
  (* counters: 5 received = 4 accepted + 1 dropped (p2) *)
  /\ (precv s = Z.of_nat (length (puts tr)) /\ pdrop s = Z.of_nat (length (dropped tr)) /\
      precv s = (Z.of_nat (length (accepted tr)) + pdrop s)%Z)
  /\ (precv s = 5%Z /\ pdrop s = 1%Z /\ map uid (dropped tr) = [2%nat])
  (* bytes *)
  /\ pbytes s = sum_sizes (port_held s) /\ pbytes s = 8%Z
  (* stamps *)
  /\ Forall (stamped_as (Some 1%Z)) tr.
Proof.
  intros s tr.
  apply conj_keep; [vm_compute; reflexivity|intros Hr].
  apply conj_keep; [C09_nonneg|intros Hn].
  apply conj_keep; [vm_compute; reflexivity|intros Hv].
  split; [reflexivity|].
  split; [exact (port_departure_recurrence C09_cP 0 C09_ex_acts s tr Hr)|].
  split; [vm_compute; reflexivity|]. split; [vm_compute; reflexivity|]. split; [vm_compute; reflexivity|].
  split; [vm_compute; reflexivity|].
  split; [exact (port_never_late C09_cP 0 C09_ex_acts s tr Hn Hr C09_p4 11 Hv)|].
  split; [exact (port_occupancy_le_limit 64 2%Z false (Some 1%Z) 0 C09_ex_acts s tr Hn Hr)|].
  split; [exact (port_counters C09_cP 0 C09_ex_acts s tr Hr)|].
  split; [vm_compute; repeat split; reflexivity|].
  split; [exact (port_bytes_exact C09_cP 0 C09_ex_acts s tr eq_refl Hr)|].
  split; [vm_compute; reflexivity|].
  exact (port_perhop_stamp_eid 64 (Some 2%Z) false (Some 1%Z) (port0 0) C09_ex_acts s tr Hr).
Qed.
Print Assumptions C09_ex_port_run.

(* the same execution is admissible under the byte limit 24 (p0 + p1 = 24 B held when p2 arrives): occupancy in bytes *)
Theorem C09_ex_port_run_bytes :
  let s := C09_st C09_cB (firstn 7 C09_ex_acts) in
  let tr := C09_tr C09_cB (firstn 7 C09_ex_acts) in
  port_run C09_cB (port0 0) (firstn 7 C09_ex_acts) = Some (s, tr)
  /\ Forall put_nonneg (firstn 7 C09_ex_acts)
  /\ (sum_sizes (port_held s) <= Z.max 24 0)%Z
  /\ sum_sizes (port_held s) = 24%Z /\ map uid (dropped tr) = [2%nat].
Proof.
  intros s tr.
  apply conj_keep; [vm_compute; reflexivity|intros Hr].
  apply conj_keep; [C09_nonneg|intros Hn].
  split; [exact (port_occupancy_le_limit 64 24%Z true (Some 1%Z) 0 _ s tr Hn Hr)|].
  split; vm_compute; reflexivity.
Qed.
Print Assumptions C09_ex_port_run_bytes.

(* ---- hypotheses `port_run … = Some (s, tr)`, `port_act c s (PAdvance t) = Some (s', outs)` ---------------------------
   covers C09_port_work_conserving: at t = 10 with p4 in transmission until 11 the clock may move to 21/2 (first
   disjunct); at t = 4 after p3 left it may move to 10 because the port holds nothing (second disjunct). *)
Theorem C09_ex_port_work_conserving :
  let s := C09_st C09_cP C09_ex_acts in
  let tr := C09_tr C09_cP C09_ex_acts in
  let s4 := C09_st C09_cP (firstn 19 C09_ex_acts) in
  let tr4 := C09_tr C09_cP (firstn 19 C09_ex_acts) in
  port_run C09_cP (port0 0) C09_ex_acts = Some (s, tr)
  /\ port_act C09_cP s (PAdvance (21 # 2)) = Some (with_now s (21 # 2), [])
  /\ port_run C09_cP (port0 0) (firstn 19 C09_ex_acts) = Some (s4, tr4)
  /\ port_act C09_cP s4 (PAdvance 10) = Some (with_now s4 10, [])
  (* conclusions *)
  /\ (exists p dl, psvc s = Some (p, dl) /\ 21 # 2 <= dl)
  /\ port_held s4 = [] /\ psvc s4 = None /\ pnow s4 == 4.
Proof.
  intros s tr s4 tr4.
  apply conj_keep; [vm_compute; reflexivity|intros Hr].
  apply conj_keep; [vm_compute; reflexivity|intros Ha].
  apply conj_keep; [vm_compute; reflexivity|intros Hr4].
  apply conj_keep; [vm_compute; reflexivity|intros Ha4].
  split.
  - destruct (port_work_conserving C09_cP 0 _ s tr (21 # 2) _ _ Hr Ha) as [H|H]; [exact H|].
    exfalso. vm_compute in H. discriminate H.
  - repeat split; vm_compute; reflexivity.
Qed.
Print Assumptions C09_ex_port_work_conserving.

(* ---- hypotheses `port_run c (port0 t0) acts = Some (s, tr)`, `port_act c s (PPut p u) = Some (s', outs)` --------------
   covers C09_port_drop_iff.  s = the state in which p2 arrives (p0 in transmission, p1 waiting).
   Packet limit 2: one packet waits already, 1 >= 2 - 1: refused.  Byte limit 24: 24 + 8 > 24: refused.
   And an acceptance: p3 arriving at t = 1 (p1 in transmission, nobody waiting) under the packet limit. *)
Theorem C09_ex_port_drop_iff :
  let sP := C09_st C09_cP (firstn 5 C09_ex_acts) in
  let sB := C09_st C09_cB (firstn 5 C09_ex_acts) in
  let s3 := C09_st C09_cP (firstn 12 C09_ex_acts) in
  port_run C09_cP (port0 0) (firstn 5 C09_ex_acts) = Some (sP, C09_tr C09_cP (firstn 5 C09_ex_acts))
  /\ port_act C09_cP sP (PPut C09_p2 None) = Some (put_refuse sP 0, [OStamp (Some 1%Z) 0; ODrop C09_p2])
  /\ port_run C09_cB (port0 0) (firstn 5 C09_ex_acts) = Some (sB, C09_tr C09_cB (firstn 5 C09_ex_acts))
  /\ port_act C09_cB sB (PPut C09_p2 None) = Some (put_refuse sB 0, [OStamp (Some 1%Z) 0; ODrop C09_p2])
  /\ port_run C09_cP (port0 0) (firstn 12 C09_ex_acts) = Some (s3, C09_tr C09_cP (firstn 12 C09_ex_acts))
  /\ port_act C09_cP s3 (PPut C09_p3 None) = Some (put_accept s3 C09_p3 0, [OStamp (Some 1%Z) 1])
  (* the rule, on both sides of the equivalence *)
  /\ (Z.of_nat (length (items (pq sP))) >= 2 - 1)%Z
  /\ (sum_sizes (port_held sB) + psize C09_p2 > 24)%Z
  /\ ~ (Z.of_nat (length (items (pq s3))) >= 2 - 1)%Z
  /\ (In (ODrop C09_p2) [OStamp (Some 1%Z) 0; ODrop C09_p2] <-> (Z.of_nat (length (items (pq sP))) >= 2 - 1)%Z)
  /\ (In (ODrop C09_p3) [OStamp (Some 1%Z) 1] <-> (Z.of_nat (length (items (pq s3))) >= 2 - 1)%Z).
Proof.
  intros sP sB s3.
  apply conj_keep; [vm_compute; reflexivity|intros HrP].
  apply conj_keep; [vm_compute; reflexivity|intros HaP].
  apply conj_keep; [vm_compute; reflexivity|intros HrB].
  apply conj_keep; [vm_compute; reflexivity|intros HaB].
  apply conj_keep; [vm_compute; reflexivity|intros Hr3].
  apply conj_keep; [vm_compute; reflexivity|intros Ha3].
  split; [vm_compute; discriminate|]. split; [vm_compute; reflexivity|]. split; [vm_compute; intros H; apply H; reflexivity|].
  split.
  - exact (proj1 (port_drop_iff 64 (Some 2%Z) false (Some 1%Z) 0 _ sP _ C09_p2 None _ _ HrP HaP)).
  - exact (proj1 (port_drop_iff 64 (Some 2%Z) false (Some 1%Z) 0 _ s3 _ C09_p3 None _ _ Hr3 Ha3)).
Qed.
Print Assumptions C09_ex_port_drop_iff.

(* ---- the same hypotheses with qlimit = None: covers C09_port_unlimited_never_drops.  p2 is accepted. *)
Theorem C09_ex_port_unlimited :
  let s := C09_st C09_cU (firstn 5 C09_ex_acts) in
  port_run C09_cU (port0 0) (firstn 5 C09_ex_acts) = Some (s, C09_tr C09_cU (firstn 5 C09_ex_acts))
  /\ port_act C09_cU s (PPut C09_p2 None) = Some (put_accept s C09_p2 0, [OStamp (Some 1%Z) 0])
  /\ ~ In (ODrop C09_p2) [OStamp (Some 1%Z) 0]
  /\ map uid (port_held (put_accept s C09_p2 0)) = [0; 1; 2]%nat.
Proof.
  intros s.
  apply conj_keep; [vm_compute; reflexivity|intros Hr].
  apply conj_keep; [vm_compute; reflexivity|intros Ha].
  split; [exact (port_unlimited_never_drops 64 false (Some 1%Z) 0 _ s _ C09_p2 None _ _ Hr Ha)|].
  vm_compute; reflexivity.
Qed.
Print Assumptions C09_ex_port_unlimited.

(* ---- hypotheses `c_fix_rate0 c = true`, `c_fix_mon c = true`, `port_run … = Some (s, tr)` --------------------------------
   covers C09_monitor_samples.  At t = 1/2: p0 (8 B) in transmission, p1 (16 B) waiting.  With the packet in service:
   2 packets, 24 bytes; without: 1 packet, 16 bytes. *)
Theorem C09_ex_monitor_samples :
  let s := C09_st C09_cP (firstn 8 C09_ex_acts) in
  let tr := C09_tr C09_cP (firstn 8 C09_ex_acts) in
  c_fix_rate0 C09_cP = true /\ c_fix_mon C09_cP = true
  /\ port_run C09_cP (port0 0) (firstn 8 C09_ex_acts) = Some (s, tr)
  /\ port_act C09_cP s (PSample true) = Some (s, [OSample 2 24])
  /\ port_act C09_cP s (PSample false) = Some (s, [OSample 1 16])
  /\ sum_sizes (port_held s) = 24%Z /\ sum_sizes (map snd (W s)) = 16%Z
  /\ (forall x, get (pq s) <> GGranted x)
  /\ length (port_held s) = 2%nat /\ length (W s) = 1%nat.
Proof.
  intros s tr.
  split; [reflexivity|]. split; [reflexivity|].
  split; [vm_compute; reflexivity|]. split; [vm_compute; reflexivity|]. split; [vm_compute; reflexivity|].
  split; [vm_compute; reflexivity|]. split; [vm_compute; reflexivity|].
  split; [intros x; vm_compute; discriminate|]. split; vm_compute; reflexivity.
Qed.
Print Assumptions C09_ex_monitor_samples.

(* ---- hypotheses `c_rate c <= 0`, `port_run … = Some (s, tr)` -------------------------------------------------------------
   covers C09_port_rate0_departs_at_arrival.  Rate 0: a burst of three at t = 0 and one packet at t = 1 leave at their
   arrival instants, in order. *)
Definition C09_ex_acts0 : list paction :=
  [ PInit; PPut C09_p0 None; PStoreCb; PGet; PPut C09_p1 None; PPut C09_p2 None; PStoreCb; PGet; PStoreCb; PGet;
    PAdvance 1; PPut C09_p3 None; PStoreCb; PGet; PAdvance 2 ].

Theorem C09_ex_port_rate0 :
  let s := C09_st C09_c0 C09_ex_acts0 in
  let tr := C09_tr C09_c0 C09_ex_acts0 in
  c_rate C09_c0 <= 0
  /\ port_run C09_c0 (port0 0) C09_ex_acts0 = Some (s, tr)
  /\ (exists rest, tl_eq (accepted tr) (departures tr ++ rest) /\ map snd rest = port_held s)
  /\ C09_show (accepted tr) = [(0, 0%nat); (0, 1%nat); (0, 2%nat); (1, 3%nat)]
  /\ C09_show (departures tr) = [(0, 0%nat); (0, 1%nat); (0, 2%nat); (1, 3%nat)]
  /\ port_held s = [] /\ pbytes s = 0%Z.
Proof.
  intros s tr.
  apply conj_keep; [vm_compute; discriminate|intros H0].
  apply conj_keep; [vm_compute; reflexivity|intros Hr].
  split; [exact (port_rate0_departs_at_arrival C09_c0 0 _ s tr H0 Hr)|].
  repeat split; vm_compute; reflexivity.
Qed.
Print Assumptions C09_ex_port_rate0.

(* ================================================================================================================ *)
(* REDPort: min 1, max 3, max_p 1/2, qlimit 4, weight 1 (gain 1/2), packet mode; rate 64; element id 7.
   q0 goes into transmission; then q1 … q8 arrive in the same instant with the draws shown:
     packet  queue before  new average  region              draw   p(avg)    outcome
     q1      0             0            below min           -                accepted
     q2      1             1/2          below min           -                accepted
     q3      2             5/4          min..max            1/2    1/16      accepted
     q4      3             17/8         min..max            1/4    9/32      REFUSED
     q5      3             41/16        min..max            3/4    25/64     accepted
     q6      4             105/32       max..qlimit         1/2    1/2       REFUSED
     q7      4             233/64       max..qlimit         3/4    1/2       accepted
     q8      5             553/128      at or above qlimit  -                REFUSED                               *)
Definition C09_rc : redcfg := {| r_min := 1; r_max := 3; r_maxp := 1 # 2; r_qlimit := 4; r_w := 1; r_lb := false |}.
Definition C09_cR : pcfg := red_cfg all_fixed 64 C09_rc (Some 7%Z).
Definition C09_q (u : nat) : pkt := C09_pk u 8 0.
Definition C09_ex_racts : list paction :=
  [ PInit; PPut (C09_q 0) None; PStoreCb; PGet; PPut (C09_q 1) None; PPut (C09_q 2) None; PPut (C09_q 3) (Some (1 # 2));
    PPut (C09_q 4) (Some (1 # 4)); PPut (C09_q 5) (Some (3 # 4)); PPut (C09_q 6) (Some (1 # 2)); PPut (C09_q 7) (Some (3 # 4));
    PPut (C09_q 8) None; PStoreCb ].

(* ---- hypothesis `port_run (red_cfg all_fixed rate rc eid) s0 acts = Some (s, tr)`: covers C09_red_perhop_stamp ---- *)
Theorem C09_ex_red_run :
  let s := C09_st C09_cR C09_ex_racts in
  let tr := C09_tr C09_cR C09_ex_racts in
  port_run C09_cR (port0 0) C09_ex_racts = Some (s, tr)
  /\ Forall (stamped_as (Some 7%Z)) tr
  /\ map uid (dropped tr) = [4; 6; 8]%nat /\ length (items (pq s)) = 5%nat /\ pavg s = 553 # 128
  /\ (precv s = 9 /\ pdrop s = 3)%Z.
Proof.
  intros s tr.
  apply conj_keep; [vm_compute; reflexivity|intros Hr].
  split; [exact (red_perhop_stamp_eid 64 C09_rc (Some 7%Z) (port0 0) _ s tr Hr)|].
  repeat split; vm_compute; reflexivity.
Qed.
Print Assumptions C09_ex_red_run.

(* ---- hypotheses `red_wf rc`, `port_act (red_cfg f rate rc eid) s (PPut p u) = Some (s', outs)`, `pavg s' < r_min rc` ----
   covers C09_red_avg, C09_red_no_drop_below_min: q2 arrives, one packet waiting, average 0 -> 1/2 < 1. *)
Theorem C09_ex_red_below_min :
  let s := C09_st C09_cR (firstn 5 C09_ex_racts) in
  let s' := put_accept s (C09_q 2) (1 # 2) in
  red_wf C09_rc
  /\ port_run C09_cR (port0 0) (firstn 5 C09_ex_racts) = Some (s, C09_tr C09_cR (firstn 5 C09_ex_racts))
  /\ port_act C09_cR s (PPut (C09_q 2) None) = Some (s', [OStamp (Some 7%Z) 0])
  /\ pavg s' < r_min C09_rc
  (* conclusions *)
  /\ pavg s' == pavg s * (1 - Qpower 2 (- r_w C09_rc)) + red_cur C09_rc s * Qpower 2 (- r_w C09_rc)
  /\ pavg s == 0 /\ red_cur C09_rc s == 1 /\ pavg s' == 1 # 2
  /\ ~ In (ODrop (C09_q 2)) [OStamp (Some 7%Z) 0].
Proof.
  intros s s'.
  apply conj_keep; [split; vm_compute; discriminate|intros Hw].
  apply conj_keep; [vm_compute; reflexivity|intros Hr].
  apply conj_keep; [vm_compute; reflexivity|intros Ha].
  apply conj_keep; [vm_compute; reflexivity|intros Hl].
  split; [exact (red_avg all_fixed 64 C09_rc (Some 7%Z) s (C09_q 2) None s' _ Ha)|].
  split; [vm_compute; reflexivity|]. split; [vm_compute; reflexivity|]. split; [vm_compute; reflexivity|].
  exact (proj1 (red_no_drop_below_min all_fixed 64 C09_rc (Some 7%Z) s (C09_q 2) None s' _ Hw Ha Hl)).
Qed.
Print Assumptions C09_ex_red_below_min.

(* ---- hypotheses `red_wf rc`, `port_act … (PPut p u) = Some (s', outs)`, `r_min rc <= pavg s'`, `pavg s' < r_qlimit rc` ----
   covers C09_red_curve, on the rising part of the curve (q4: average 17/8, p = 1/2 * (17/8 - 1)/2 = 9/32, draw 1/4:
   refused; q3: average 5/4, p = 1/16, draw 1/2: accepted) and on its flat part (q6: average 105/32 >= max, p = 1/2,
   draw 1/2: refused). *)
Theorem C09_ex_red_curve :
  let s3 := C09_st C09_cR (firstn 6 C09_ex_racts) in
  let s4 := C09_st C09_cR (firstn 7 C09_ex_racts) in
  let s6 := C09_st C09_cR (firstn 9 C09_ex_racts) in
  red_wf C09_rc
  /\ port_run C09_cR (port0 0) (firstn 7 C09_ex_racts) = Some (s4, C09_tr C09_cR (firstn 7 C09_ex_racts))
  /\ port_act C09_cR s4 (PPut (C09_q 4) (Some (1 # 4))) = Some (put_refuse s4 (17 # 8), [OStamp (Some 7%Z) 0; ODrop (C09_q 4)])
  /\ r_min C09_rc <= 17 # 8 /\ 17 # 8 < r_qlimit C09_rc
  /\ port_act C09_cR s3 (PPut (C09_q 3) (Some (1 # 2))) = Some (put_accept s3 (C09_q 3) (5 # 4), [OStamp (Some 7%Z) 0])
  /\ r_min C09_rc <= 5 # 4 /\ 5 # 4 < r_qlimit C09_rc
  /\ port_act C09_cR s6 (PPut (C09_q 6) (Some (1 # 2))) = Some (put_refuse s6 (105 # 32), [OStamp (Some 7%Z) 0; ODrop (C09_q 6)])
  /\ r_min C09_rc <= 105 # 32 /\ 105 # 32 < r_qlimit C09_rc
  (* the curve *)
  /\ r_maxp C09_rc * (((17 # 8) - r_min C09_rc) / (r_max C09_rc - r_min C09_rc)) == 9 # 32 /\ 1 # 4 <= 9 # 32
  /\ r_maxp C09_rc * (((5 # 4) - r_min C09_rc) / (r_max C09_rc - r_min C09_rc)) == 1 # 16 /\ ~ 1 # 2 <= 1 # 16
  /\ r_max C09_rc <= 105 # 32 /\ 1 # 2 <= r_maxp C09_rc
  /\ (exists x, Some (1 # 4) = Some x /\
        (In (ODrop (C09_q 4)) [OStamp (Some 7%Z) 0; ODrop (C09_q 4)] <->
         x <= (if Qlt_le_dec (17 # 8) (r_max C09_rc)
               then r_maxp C09_rc * (((17 # 8) - r_min C09_rc) / (r_max C09_rc - r_min C09_rc)) else r_maxp C09_rc))).
Proof.
  intros s3 s4 s6.
  apply conj_keep; [split; vm_compute; discriminate|intros Hw].
  apply conj_keep; [vm_compute; reflexivity|intros Hr].
  apply conj_keep; [vm_compute; reflexivity|intros Ha].
  apply conj_keep; [vm_compute; discriminate|intros H1].
  apply conj_keep; [vm_compute; reflexivity|intros H2].
  split; [vm_compute; reflexivity|]. split; [vm_compute; discriminate|]. split; [vm_compute; reflexivity|].
  split; [vm_compute; reflexivity|]. split; [vm_compute; discriminate|]. split; [vm_compute; reflexivity|].
  split; [vm_compute; reflexivity|]. split; [vm_compute; discriminate|].
  split; [vm_compute; reflexivity|]. split; [vm_compute; intros H; apply H; reflexivity|].
  split; [vm_compute; discriminate|]. split; [vm_compute; discriminate|].
  exact (red_curve_rule all_fixed 64 C09_rc (Some 7%Z) s4 (C09_q 4) (Some (1 # 4)) _ _ Hw Ha H1 H2).
Qed.
Print Assumptions C09_ex_red_curve.

(* ---- hypotheses `port_act … (PPut p u) = Some (s', outs)`, `r_qlimit rc <= pavg s'` -----------------------------------
   covers C09_red_drop_at_limit: q8 arrives with five packets waiting, average 553/128 >= 4: refused without a draw. *)
Theorem C09_ex_red_drop_at_limit :
  let s := C09_st C09_cR (firstn 11 C09_ex_racts) in
  port_run C09_cR (port0 0) (firstn 11 C09_ex_racts) = Some (s, C09_tr C09_cR (firstn 11 C09_ex_racts))
  /\ port_act C09_cR s (PPut (C09_q 8) None) = Some (put_refuse s (553 # 128), [OStamp (Some 7%Z) 0; ODrop (C09_q 8)])
  /\ r_qlimit C09_rc <= pavg (put_refuse s (553 # 128))
  /\ In (ODrop (C09_q 8)) [OStamp (Some 7%Z) 0; ODrop (C09_q 8)]
  /\ length (items (pq s)) = 5%nat.
Proof.
  intros s.
  split; [vm_compute; reflexivity|].
  apply conj_keep; [vm_compute; reflexivity|intros Ha].
  apply conj_keep; [vm_compute; discriminate|intros Hq].
  split; [exact (proj1 (red_drop_at_limit all_fixed 64 C09_rc (Some 7%Z) s (C09_q 8) None _ _ Ha Hq))|].
  vm_compute; reflexivity.
Qed.
Print Assumptions C09_ex_red_drop_at_limit.

(* ---- hypotheses `port_act c s a = Some (s', outs)`, `forall p u, a <> PPut p u` -----------------------------------------
   covers C09_red_avg_unchanged: the kernel processes a StorePut event after the burst; the average stays 553/128. *)
Theorem C09_ex_red_avg_unchanged :
  let s := C09_st C09_cR (firstn 12 C09_ex_racts) in
  let s' := C09_st C09_cR C09_ex_racts in
  port_act C09_cR s PStoreCb = Some (s', [])
  /\ (forall p u, PStoreCb <> PPut p u)
  /\ pavg s' = pavg s /\ pavg s = 553 # 128.
Proof.
  intros s s'.
  apply conj_keep; [vm_compute; reflexivity|intros Ha].
  apply conj_keep; [intros p u; discriminate|intros Hn].
  split; [exact (red_avg_unchanged C09_cR s PStoreCb s' [] Ha Hn)|]. vm_compute; reflexivity.
Qed.
Print Assumptions C09_ex_red_avg_unchanged.

(* ================================================================================================================ *)
(* Props/C09_BridgeRun.v.
   ---- hypotheses `psvc s = None`; `c_fix_rate0 c = true`; `port_run_step s (Some p) (port_gen_get c s p) = Some (s', outs)`;
        `port_run_step s (Some p) (port_gen_timer c s p) = Some (s', outs)`; `psvc s = Some (p, dl)` ------------------------
   covers C09_gen_port_run_init (s = port0 0), C09_gen_port_run_get, C09_gen_port_run_get_fields (the state of the Port
   execution above in which the server resumes with p0 at t = 0: the translated code asks for a timeout of 8*8/64 = 1),
   C09_gen_port_run_timer_fields, C09_gen_port_run_timer_explicit (the state at t = 1 in which that timeout is processed:
   byte_size 24 - 8 = 16, out.put(p0), back to the get, which finds p1). *)
Theorem C09_ex_gen_port_run :
  let sg := C09_st C09_cP (firstn 3 C09_ex_acts) in
  let sg1 := with_q sg (match sq_take (pq sg) with Some (_, q) => q | None => pq sg end) in
  let sg' := C09_st C09_cP (firstn 4 C09_ex_acts) in
  let st := C09_st C09_cP (firstn 10 C09_ex_acts) in
  let st' := C09_st C09_cP (firstn 11 C09_ex_acts) in
  psvc (port0 0) = None
  /\ c_fix_rate0 C09_cP = true
  /\ psvc sg1 = None
  /\ port_run_step sg1 (Some C09_p0) (port_gen_get C09_cP sg1 C09_p0) = Some (sg', [])
  /\ psvc st = Some (C09_p0, 1)
  /\ port_run_step st (Some C09_p0) (port_gen_timer C09_cP st C09_p0) = Some (st', [OForward C09_p0])
  (* conclusions *)
  /\ port_act C09_cP (port0 0) PInit
     = port_run_step (with_started (port0 0)) None (port_gen_init C09_cP (port0 0) 0 true)
  /\ port_act C09_cP (port0 0) PInit <> None
  /\ port_act C09_cP sg PGet = Some (sg', [])
  /\ snd (port_gen_get C09_cP sg1 C09_p0) = NxYield (RqTimeout (inject_Z (8 * 8) / 64)) PP2
  /\ port_run_fields sg' = fst (fst (port_gen_get C09_cP sg1 C09_p0))
  /\ port_run_fields sg' = {| pr_byte_size := 8; pr_busy := 1; pr_busy_packet_size := 8 |}
  /\ port_run_fields st' = fst (fst (port_gen_timer C09_cP st C09_p0))
  /\ port_run_fields st' = {| pr_byte_size := 16; pr_busy := 0; pr_busy_packet_size := 0 |}
  /\ (snd (fst (port_gen_timer C09_cP st C09_p0)) = [FxOutPut 1 (psize C09_p0) (pbytes st - psize C09_p0)] /\
      snd (port_gen_timer C09_cP st C09_p0) = NxYield RqStoreGet PP1)
  /\ pbytes st = 24%Z.
Proof.
  intros sg sg1 sg' st st'.
  apply conj_keep; [reflexivity|intros H0].
  split; [reflexivity|].
  apply conj_keep; [vm_compute; reflexivity|intros Hn].
  apply conj_keep; [vm_compute; reflexivity|intros Hg].
  apply conj_keep; [vm_compute; reflexivity|intros Hv].
  apply conj_keep; [vm_compute; reflexivity|intros Ht].
  split; [exact (bridge_port_run_init C09_cP (port0 0) 0 true H0)|].
  split; [vm_compute; discriminate|].
  split; [vm_compute; reflexivity|].
  split; [vm_compute; reflexivity|].
  split; [exact (port_run_step_fields_get C09_cP sg1 C09_p0 sg' [] Hn Hg)|].
  split; [vm_compute; reflexivity|].
  split; [exact (port_run_step_fields_timer C09_cP st C09_p0 st' _ Ht)|].
  split; [vm_compute; reflexivity|].
  split; [exact (port_run_timer_explicit C09_cP st C09_p0 1 Hv)|].
  vm_compute; reflexivity.
Qed.
Print Assumptions C09_ex_gen_port_run.
