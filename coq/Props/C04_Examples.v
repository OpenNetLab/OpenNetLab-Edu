(* C04 -- NON-VACUITY of the theorems of Props/C04.v: for every theorem that has hypotheses, a concrete non-trivial reachable state
   (or pair of states, or resumption) on which ALL its hypotheses hold together, with the concrete content of its conclusion there.

   The instance (Kernel/IntrWitness.v), family F: a victim (process 0) that waits for timeout(5), re-yields it after the first
   Interrupt and ends after the second; an interrupter (process 1) that waits for timeout(1), issues interrupt(7), interrupt(8),
   interrupt(9) on the victim in one resumption, yields its (processed) timeout again and ends.  [f_at k] is the state k steps after
   the module-level code; everything of interest happens at t = 1:
     f_at 0 / 1 / 2   nothing started / the victim started / both started, the interrupter's timeout (event 5) is next
     f_at 3           interruptions 6, 7, 8 pending (URGENT, eids 4 < 5 < 6) with two NORMAL entries (the victim's timeout, eid 2 -- OLDER
                      than the interruptions -- and the interrupter's termination); the interrupter is dead, the victim alive
     f_at 4           Interrupt(7) delivered, the victim re-attached to event 4;   f_at 5   Interrupt(8) delivered, the victim ended
     f_at 6           interruption 8 (for a dead process) dropped;                 f_at 7   the interrupter's termination processed
   exC_* (Kernel/IntrExamples.v): a process that interrupts itself.

   Coverage (theorem of Props/C04.v -> witness below):
     C04_invariant, C04_process_has_initialize, C04_waiter_unique ................. C04_ex_reach
     C04_interrupt_refused_dead, C04_dead_forever, C04_interrupt_refused_after_end,
       C04_events_monotone ....................................................... C04_ex_interrupt_refused_dead
     C04_interrupt_refused_self ................................................... C04_ex_interrupt_refused_self
     C04_finish_is_dead ........................................................... C04_ex_finish_is_dead
     C04_interrupt_accepted, C04_later_issue_later_eid ............................ C04_ex_interrupt_accepted
     C04_interruption_entry, C04_processed_interruption_gone, C04_pending_interruption_scheduled, C04_interrupt_before_normal,
       C04_interrupts_in_issue_order, C04_interrupt_step, C04_init_before_interrupt,
       C04_interrupt_callback_only_own_event ...................................... C04_ex_pending_interruptions
     C04_clock_frozen ............................................................. C04_ex_clock_frozen
     C04_interrupt_delivery, C04_detached_nowhere, C04_resume_feeds_outcome ....... C04_ex_interrupt_delivery
     C04_interrupt_dead_dropped ................................................... C04_ex_interrupt_dead_dropped
     C04_resumed_only_by_target, C04_untouched_unless_resumed ..................... C04_ex_resumed_only_by_target
     C04_yield_processed_continues ................................................ C04_ex_yield_processed_continues
     C04_yield_pending_waits ...................................................... C04_ex_yield_pending_waits
     C04_not_started, C04_not_started_untouched, C04_first_resumption_is_none ..... C04_ex_not_started
     C04_interruption_keeps_cause ................................................. C04_ex_interruption_keeps_cause
     C04_reach_run ................................................................ C04_ex_reach_run
   Unconditional (only typing binders / let): C04_detach_keeps_others.

   Proofs: the states are read in their views (Kernel/IntrView.v; process records are kept abstract behind [get_proc .. = Some pr]:
   their normal forms contain the compiled programs), and the lemma that closes the covered theorem (the name after [exact] in
   Props/C04.v) is applied to the witness where a conclusion is not a reading of a view. *)
From Coq Require Import ZArith QArith List Bool Lia.
From ONL Require Import Base.Tools Kernel.Model Kernel.Keys Kernel.Script Kernel.IntrBase Kernel.IntrInv Kernel.IntrStep Kernel.Intr Kernel.IntrView
  Kernel.IntrExamples Kernel.IntrWitness.
Import ListNotations.

(* V : the view of f_at k is the k-th entry of the evaluated list f_vs; Ve, Va : the events and the agenda of f_at k are those of the view *)
Ltac view_at k V Ve Va :=
  pose proof (f_view k : view (f_at k) = _) as V; pose proof (proj1 (view_reads _ _ V)) as Ve;
  pose proof (proj1 (proj2 (view_reads _ _ V))) as Va.

(* ---- C04_invariant (reach codes s), C04_process_has_initialize (reach /\ get_proc p s = Some pr), C04_waiter_unique (reach /\
   get_proc /\ live s p): the state with three pending interruptions ------------------------------------------------------------- *)
Theorem C04_ex_reach :
  exists pr, reach f_codes (f_at 3) /\ good (f_at 3) /\ get_proc 0%nat (f_at 3) = Some pr /\ live (f_at 3) 0%nat /\
    pev pr = 0%nat /\ ptarget pr = Some 4%nat /\
    (exists iev, get_event 1%nat (f_at 3) = Some iev /\ kind iev = KInit 0%nat) /\
    (exists tev, get_event 4%nat (f_at 3) = Some tev /\ cbs tev = Some [CbResume 0%nat]) /\
    map e_ev (agenda (f_at 3)) = [4; 6; 7; 8; 2]%nat.
Proof.
  view_at 3%nat V Ve Va. destruct (view_proc _ _ 0%nat _ _ V eq_refl) as (pr & Hp & Pe & Pt).
  exists pr. apply conj_keep; [apply f_reach; lia|intros R]. split; [apply reach_good with f_codes, R|]. split; [exact Hp|].
  split; [eapply view_live; [exact V|reflexivity|reflexivity|reflexivity]|]. split; [exact Pe|]. split; [exact Pt|].
  rewrite Va. split; [eexists; rewrite Ve; split; reflexivity|]. split; [eexists; rewrite Ve; split; reflexivity|reflexivity].
Qed.
Print Assumptions C04_ex_reach.

(* ---- C04_interrupt_refused_dead (get_event e s = Some ev /\ kind ev = KProcess p /\ out ev <> None), C04_dead_forever (pevK s /\
   trans_star codes s s' /\ dead s p), C04_interrupt_refused_after_end (reach /\ dead s p /\ trans_star), C04_events_monotone (pevK /\
   trans_star /\ get_event e s = Some ev).  In f_at 3 the interrupter (process 1, event 2) has ended and its Process event is
   triggered but NOT processed; four steps later (f_at 7) it is processed: refused in both ------------------------------------------- *)
Theorem C04_ex_interrupt_refused_dead :
  exists ev ev', reach f_codes (f_at 3) /\ pevK (f_at 3) /\ dead (f_at 3) 1%nat /\ trans_star f_codes (f_at 3) (f_at 7) /\
    get_event 2%nat (f_at 3) = Some ev /\ kind ev = KProcess 1%nat /\ out ev <> None /\ cbs ev <> None /\ In f_p2 (agenda (f_at 3)) /\
    do_call f_codes (CInterrupt 2%nat (VInt 1)) (f_at 3) = (f_at 3, Fail (kexn ERuntime M_terminated)) /\
    dead (f_at 7) 1%nat /\ get_event 2%nat (f_at 7) = Some ev' /\ cbs ev' = None /\ ev_mono ev ev' /\
    do_call f_codes (CInterrupt 2%nat (VInt 1)) (f_at 7) = (f_at 7, Fail (kexn ERuntime M_terminated)).
Proof.
  view_at 3%nat V Ve Va. view_at 7%nat V' Ve' Va'.
  eexists _, _. rewrite Ve, Ve', Va. apply conj_keep; [apply f_reach; lia|intros R].
  apply conj_keep; [apply iS_pev, (reach_good _ _ R)|intros K].
  apply conj_keep; [eapply view_dead; [exact V|reflexivity|reflexivity|discriminate]|intros D].
  apply conj_keep; [apply (f_trans 3 4)|intros T].
  split; [reflexivity|]. split; [reflexivity|]. split; [discriminate|]. split; [discriminate|]. split; [vm_compute; tauto|].
  split; [eapply (interrupt_refused_dead f_codes _ 2%nat); [rewrite Ve; reflexivity|reflexivity|discriminate]|].
  split; [apply (dead_forever f_codes _ _ 1%nat K T D)|]. split; [reflexivity|]. split; [reflexivity|].
  split; [repeat split; try discriminate; intros _; discriminate|].
  eapply (interrupt_refused_dead f_codes _ 2%nat); [rewrite Ve'; reflexivity|reflexivity|discriminate].
Qed.
Print Assumptions C04_ex_interrupt_refused_dead.

(* ---- C04_interrupt_refused_self (get_event e s = Some ev /\ kind ev = KProcess p /\ out ev = None /\ active s = Some p): the state
   in which the body of a process that interrupts itself starts to run (its Initialize popped, the process active); the step from
   exC_s1 passes through it and logs the RuntimeError ------------------------------------------------------------------------------ *)
Theorem C04_ex_interrupt_refused_self :
  let s := set_active (Some 0%nat) (popped (mkEntry 0 URGENT 0%nat 1%nat) [] exC_s1) in
  exists ev, pop_min (agenda exC_s1) = Some (mkEntry 0 URGENT 0%nat 1%nat, []) /\
    get_event 0%nat s = Some ev /\ kind ev = KProcess 0%nat /\ out ev = None /\ active s = Some 0%nat /\
    do_call exC_codes (CInterrupt 0%nat VNone) s = (s, Fail (kexn ERuntime M_self_interrupt)) /\
    hd_error (obs (fst (step 10 exC_codes exC_s1))) = Some (OLog (Some 0%nat) 0 (VList [VInt 2; VExn ERuntime [VInt M_self_interrupt]])).
Proof.
  cbn zeta. set (s := set_active (Some 0%nat) (popped (mkEntry 0 URGENT 0%nat 1%nat) [] exC_s1)).
  assert (E : exists ev, get_event 0%nat s = Some ev /\ kind ev = KProcess 0%nat /\ out ev = None)
    by (eexists; split; [vm_compute; reflexivity|split; reflexivity]).
  destruct E as (ev & E & K & O). exists ev. split; [vm_compute; reflexivity|]. split; [exact E|]. split; [exact K|]. split; [exact O|].
  split; [reflexivity|]. split; [exact (interrupt_refused_self exC_codes s _ _ _ VNone E K O eq_refl)|vm_compute; reflexivity].
Qed.
Print Assumptions C04_ex_interrupt_refused_self.

(* ---- C04_finish_is_dead (get_proc p s = Some pr /\ get_event (pev pr) s = Some ev): the live victim in f_at 4 ------------------ *)
Theorem C04_ex_finish_is_dead :
  exists pr ev, get_proc 0%nat (f_at 4) = Some pr /\ get_event (pev pr) (f_at 4) = Some ev /\ out ev = None /\
    dead (proc_finish 0%nat pr (Ok (VInt 3)) (f_at 4)) 0%nat /\
    map e_ev (agenda (proc_finish 0%nat pr (Ok (VInt 3)) (f_at 4))) = [4; 7; 8; 2; 0]%nat.
Proof.
  view_at 4%nat V Ve Va. destruct (view_proc _ _ 0%nat _ _ V eq_refl) as (pr & Hp & Pe & _).
  assert (E : exists ev, get_event (pev pr) (f_at 4) = Some ev /\ out ev = None) by (rewrite Pe, Ve; eexists; split; reflexivity).
  destruct E as (ev & E & O). exists pr, ev. split; [exact Hp|]. split; [exact E|]. split; [exact O|].
  destruct (finish_is_dead 0%nat pr (Ok (VInt 3)) (f_at 4) ev Hp E) as (D & _ & A).
  split; [exact D|]. rewrite A, map_app, Va, Pe. reflexivity.
Qed.
Print Assumptions C04_ex_finish_is_dead.

(* ---- C04_interrupt_accepted (get_event e s = Some ev /\ kind ev = KProcess p /\ out ev = None /\ active s <> Some p),
   C04_later_issue_later_eid (reach /\ the same /\ In x (agenda s)): a FOURTH interrupt() on the victim, issued at module level in
   f_at 3 while three are pending: its entry goes behind them (eid 8 > 6) ----------------------------------------------------------- *)
Theorem C04_ex_interrupt_accepted :
  exists ev, reach f_codes (f_at 3) /\ get_event 0%nat (f_at 3) = Some ev /\ kind ev = KProcess 0%nat /\ out ev = None /\
    active (f_at 3) <> Some 0%nat /\ In f_x8 (agenda (f_at 3)) /\
    let s' := fst (do_call f_codes (CInterrupt 0%nat (VInt 10)) (f_at 3)) in
    snd (do_call f_codes (CInterrupt 0%nat (VInt 10)) (f_at 3)) = Ok VNone /\
    agenda s' = agenda (f_at 3) ++ [mkEntry 1 URGENT 8%nat 9%nat] /\ (e_eid f_x8 < 8)%nat /\
    nth_error (events s') 9 = Some (mkEvent (Some [CbInterrupt 9%nat]) (Some (Fail (EInterrupt, [VInt 10]))) true (KInterruption 0%nat)).
Proof.
  view_at 3%nat V Ve Va. pose proof (view_reads _ _ V) as (_ & _ & _ & _ & Vc & _).
  eexists. rewrite Ve, Va, Vc. split; [apply f_reach; lia|]. split; [reflexivity|]. split; [reflexivity|]. split; [reflexivity|].
  split; [discriminate|]. split; [vm_compute; tauto|]. cbn zeta. split; [vm_compute; reflexivity|]. split; [vm_compute; reflexivity|].
  split; [vm_compute; lia|vm_compute; reflexivity].
Qed.
Print Assumptions C04_ex_interrupt_accepted.

(* ---- C04_interruption_entry, C04_processed_interruption_gone (reach /\ In x (agenda s) /\ get_event (e_ev x) s = Some iev /\
   kind iev = KInterruption p), C04_pending_interruption_scheduled (reach /\ get_event i s = Some iev /\ kind .. /\ cbs iev <> None),
   C04_interrupt_before_normal (.. /\ In y (agenda s) /\ e_prio y = NORMAL /\ pop_min (agenda s) = Some (m, rest)),
   C04_interrupts_in_issue_order (two interruptions x, y with e_eid x < e_eid y /\ pop_min ..),
   C04_interrupt_step, C04_init_before_interrupt (reach /\ pop_min .. /\ get_event (e_ev m) s = Some iev /\ kind iev = KInterruption p
   [/\ get_event ie s = Some ev /\ kind ev = KInit p]), C04_interrupt_callback_only_own_event (reach /\ get_event e s = Some ev /\
   cbs ev = Some l /\ In (CbInterrupt i) l): f_at 3, three pending interruptions and two NORMAL entries, one of them (the victim's
   timeout, eid 2) OLDER than all interruptions ------------------------------------------------------------------------------------ *)
Theorem C04_ex_pending_interruptions :
  exists ix iy iz ini, reach f_codes (f_at 3) /\
    agenda (f_at 3) = [f_t4; f_x6; f_x7; f_x8; f_p2] /\ pop_min (agenda (f_at 3)) = Some (f_x6, [f_t4; f_x7; f_x8; f_p2]) /\
    get_event 6%nat (f_at 3) = Some ix /\ kind ix = KInterruption 0%nat /\ cbs ix = Some [CbInterrupt 6%nat] /\
    get_event 7%nat (f_at 3) = Some iy /\ kind iy = KInterruption 0%nat /\ cbs iy = Some [CbInterrupt 7%nat] /\
    get_event 8%nat (f_at 3) = Some iz /\ kind iz = KInterruption 0%nat /\ cbs iz = Some [CbInterrupt 8%nat] /\
    out ix = Some (Fail (EInterrupt, [VInt 7])) /\ out iy = Some (Fail (EInterrupt, [VInt 8])) /\ out iz = Some (Fail (EInterrupt, [VInt 9])) /\
    (e_eid f_x6 < e_eid f_x7 < e_eid f_x8)%nat /\ e_prio f_t4 = NORMAL /\ e_prio f_p2 = NORMAL /\ (e_eid f_t4 < e_eid f_x6)%nat /\
    get_event 1%nat (f_at 3) = Some ini /\ kind ini = KInit 0%nat /\ cbs ini = None /\
    now (f_at 3) == 1 /\ e_time f_x6 == now (f_at 3).
Proof.
  view_at 3%nat V Ve Va. pose proof (view_reads _ _ V) as (_ & _ & Vn & _).
  eexists _, _, _, _. rewrite !Ve, Va, Vn. split; [apply f_reach; lia|]. split; [reflexivity|]. split; [reflexivity|].
  split; [reflexivity|]. split; [reflexivity|]. split; [reflexivity|].
  split; [reflexivity|]. split; [reflexivity|]. split; [reflexivity|].
  split; [reflexivity|]. split; [reflexivity|]. split; [reflexivity|].
  split; [reflexivity|]. split; [reflexivity|]. split; [reflexivity|]. split; [vm_compute; lia|]. split; [reflexivity|]. split; [reflexivity|].
  split; [vm_compute; lia|]. split; [reflexivity|]. split; [reflexivity|]. split; [reflexivity|].
  split; reflexivity.
Qed.
Print Assumptions C04_ex_pending_interruptions.

(* ---- C04_clock_frozen (reach s /\ reach s' /\ In x (agenda s) /\ In x (agenda s') /\ the event of x is an Interruption in both):
   interruption 7 is pending before and after the delivery of interruption 6 ------------------------------------------------------- *)
Theorem C04_ex_clock_frozen :
  exists iev iev', reach f_codes (f_at 3) /\ reach f_codes (f_at 4) /\ In f_x7 (agenda (f_at 3)) /\ In f_x7 (agenda (f_at 4)) /\
    get_event (e_ev f_x7) (f_at 3) = Some iev /\ kind iev = KInterruption 0%nat /\
    get_event (e_ev f_x7) (f_at 4) = Some iev' /\ kind iev' = KInterruption 0%nat /\
    f_at 4 <> f_at 3 /\ now (f_at 4) == now (f_at 3).
Proof.
  view_at 3%nat V Ve Va. view_at 4%nat V' Ve' Va'.
  pose proof (view_reads _ _ V) as (_ & _ & Vn & _). pose proof (view_reads _ _ V') as (_ & _ & Vn' & _).
  eexists _, _. rewrite Ve, Ve', Va, Va', Vn, Vn'. split; [apply f_reach; lia|]. split; [apply f_reach; lia|].
  split; [vm_compute; tauto|]. split; [vm_compute; tauto|].
  split; [reflexivity|]. split; [reflexivity|]. split; [reflexivity|]. split; [reflexivity|].
  split; [|reflexivity]. intros H. apply (f_equal (fun s => length (agenda s))) in H. rewrite Va, Va' in H. discriminate.
Qed.
Print Assumptions C04_ex_clock_frozen.
(* ---- C04_interrupt_delivery (reach /\ pop_min (agenda s) = Some (m, rest) /\ get_event (e_ev m) s = Some iev /\ kind iev =
   KInterruption p /\ get_proc p s = Some pr /\ live s p /\ ptarget pr <> Some (e_ev m)), C04_detached_nowhere (reach /\ get_proc /\
   ptarget pr = Some t /\ get_event t s = Some tev /\ cbs tev = Some l /\ In (CbResume p) l /\ t <> e_ev m), C04_resume_feeds_outcome
   (get_event e s = Some ev /\ get_proc p s = Some pr /\ out ev = Some o): f_at 3, the victim waits for its timeout (event 4).  What
   the two deliveries do: Interrupt(7) at t = 1, the victim re-yields event 4 and is attached to it again, once; then Interrupt(8),
   in issue order, the victim ends; event 4 keeps its outcome and is left without callbacks --------------------------------------- *)
Theorem C04_ex_interrupt_delivery :
  exists iev pr tev, reach f_codes (f_at 3) /\ pop_min (agenda (f_at 3)) = Some (f_x6, [f_t4; f_x7; f_x8; f_p2]) /\
    get_event (e_ev f_x6) (f_at 3) = Some iev /\ kind iev = KInterruption 0%nat /\ out iev = Some (Fail (EInterrupt, [VInt 7])) /\
    get_proc 0%nat (f_at 3) = Some pr /\ live (f_at 3) 0%nat /\ ptarget pr <> Some (e_ev f_x6) /\
    ptarget pr = Some 4%nat /\ get_event 4%nat (f_at 3) = Some tev /\ cbs tev = Some [CbResume 0%nat] /\
    In (CbResume 0%nat) [CbResume 0%nat] /\ 4%nat <> e_ev f_x6 /\
    (* after the step *)
    firstn 2 (obs (f_at 4)) = [OLog (Some 0%nat) 1 (VList [VInt 1; VInt 1; VList [VInt 1; VExn EInterrupt [VInt 7]]]); OStep 6%nat 1] /\
    option_map ptarget (get_proc 0%nat (f_at 4)) = Some (Some 4%nat) /\
    option_map cbs (get_event 4%nat (f_at 4)) = Some (Some [CbResume 0%nat]) /\
    pop_min (agenda (f_at 4)) = Some (f_x7, [f_t4; f_x8; f_p2]) /\
    (* after the next one *)
    firstn 3 (obs (f_at 5)) = [OLog (Some 0%nat) 1 (VList [VInt 3; VExn EInterrupt [VInt 8]]);
                               OLog (Some 0%nat) 1 (VList [VInt 1; VInt 1; VList [VInt 1; VExn EInterrupt [VInt 8]]]); OStep 7%nat 1] /\
    dead (f_at 5) 0%nat /\
    option_map (fun e => (cbs e, out e)) (get_event 4%nat (f_at 5)) = Some (Some [], Some (Ok VNone)).
Proof.
  view_at 3%nat V Ve Va. view_at 4%nat V4 Ve4 Va4. view_at 5%nat V5 Ve5 Va5.
  pose proof (view_reads _ _ V4) as (_ & _ & _ & _ & _ & Vo4). pose proof (view_reads _ _ V5) as (_ & _ & _ & _ & _ & Vo5).
  destruct (view_proc _ _ 0%nat _ _ V eq_refl) as (pr & Hp & _ & Pt).
  destruct (view_proc _ _ 0%nat _ _ V4 eq_refl) as (pr4 & Hp4 & _ & Pt4).
  eexists _, pr, _. rewrite !Ve, Va, Hp4, Ve4, Va4, Ve5, Vo4, Vo5, Pt. cbn [option_map]. rewrite Pt4.
  split; [apply f_reach; lia|]. split; [reflexivity|]. split; [reflexivity|].
  split; [reflexivity|]. split; [reflexivity|]. split; [exact Hp|].
  split; [eapply view_live; [exact V|reflexivity|reflexivity|reflexivity]|].
  split; [discriminate|]. split; [reflexivity|]. split; [reflexivity|]. split; [reflexivity|].
  split; [left; reflexivity|]. split; [discriminate|].
  split; [reflexivity|]. split; [reflexivity|]. split; [reflexivity|]. split; [reflexivity|].
  split; [reflexivity|]. split; [eapply view_dead; [exact V5|reflexivity|reflexivity|discriminate]|]. reflexivity.
Qed.
Print Assumptions C04_ex_interrupt_delivery.

(* ---- C04_interrupt_dead_dropped (reach /\ pop_min .. = Some (m, rest) /\ get_event (e_ev m) s = Some iev /\ kind iev =
   KInterruption p /\ dead s p [/\ cbs iev = Some [CbInterrupt (e_ev m)]]): in f_at 5 the victim has ended and interruption 8 (cause 9)
   is the minimum of the agenda: the step only removes it -------------------------------------------------------------------------- *)
Theorem C04_ex_interrupt_dead_dropped :
  let rest := [f_t4; f_p2; mkEntry 1 NORMAL 8%nat 0%nat] in
  exists iev, reach f_codes (f_at 5) /\ pop_min (agenda (f_at 5)) = Some (f_x8, rest) /\
    get_event (e_ev f_x8) (f_at 5) = Some iev /\ kind iev = KInterruption 0%nat /\ dead (f_at 5) 0%nat /\
    cbs iev = Some [CbInterrupt (e_ev f_x8)] /\
    step 10 f_codes (f_at 5) = (popped f_x8 rest (f_at 5), ROk) /\
    filter (fun o => match o with OStep _ _ => false | _ => true end) (obs (f_at 6)) =
    filter (fun o => match o with OStep _ _ => false | _ => true end) (obs (f_at 5)).
Proof.
  cbn zeta. view_at 5%nat V Ve Va. view_at 6%nat V6 Ve6 Va6.
  pose proof (view_reads _ _ V) as (_ & _ & _ & _ & _ & Vo). pose proof (view_reads _ _ V6) as (_ & _ & _ & _ & _ & Vo6).
  assert (E : exists iev, get_event (e_ev f_x8) (f_at 5) = Some iev /\ kind iev = KInterruption 0%nat /\
                          cbs iev = Some [CbInterrupt (e_ev f_x8)]) by (rewrite Ve; eexists; split; [reflexivity|split; reflexivity]).
  destruct E as (iev & E & K & C). exists iev. apply conj_keep; [apply f_reach; lia|intros R].
  apply conj_keep; [rewrite Va; reflexivity|intros P]. split; [exact E|]. split; [exact K|].
  apply conj_keep; [eapply view_dead; [exact V|reflexivity|reflexivity|discriminate]|intros D]. split; [exact C|].
  split; [exact (proj2 (interrupt_dead_dropped 10 f_codes _ _ _ _ _ R P E K D) C)|]. rewrite Vo, Vo6. reflexivity.
Qed.
Print Assumptions C04_ex_interrupt_dead_dropped.

(* ---- C04_resumed_only_by_target (reach /\ pop_min .. /\ get_event (e_ev m) s = Some ev /\ cbs ev = Some l /\ In (CbResume q) l),
   C04_untouched_unless_resumed (.. /\ get_proc q s = Some pr /\ ~ In (CbResume q) l /\ kind ev <> KInterruption q): in f_at 2 the
   interrupter's timeout (event 5) is processed next; it resumes process 1 only.  The victim's record is the same after that step
   although it was interrupted three times in it ------------------------------------------------------------------------------------ *)
Theorem C04_ex_resumed_only_by_target :
  exists ev pr1 pr0, reach f_codes (f_at 2) /\ pop_min (agenda (f_at 2)) = Some (mkEntry 1 NORMAL 3%nat 5%nat, [f_t4]) /\
    get_event 5%nat (f_at 2) = Some ev /\ cbs ev = Some [CbResume 1%nat] /\ In (CbResume 1%nat) [CbResume 1%nat] /\ kind ev = KTimeout /\
    get_proc 1%nat (f_at 2) = Some pr1 /\ ptarget pr1 = Some 5%nat /\
    get_proc 0%nat (f_at 2) = Some pr0 /\ ~ In (CbResume 0%nat) [CbResume 1%nat] /\ kind ev <> KInterruption 0%nat /\
    get_proc 0%nat (fst (step 10 f_codes (f_at 2))) = Some pr0 /\ length (agenda (fst (step 10 f_codes (f_at 2)))) = 5%nat.
Proof.
  view_at 2%nat V Ve Va. view_at 3%nat V3 Ve3 Va3.
  destruct (view_proc _ _ 1%nat _ _ V eq_refl) as (pr1 & Hp1 & _ & Pt1).
  destruct (view_proc _ _ 0%nat _ _ V eq_refl) as (pr0 & Hp0 & _).
  assert (E : exists ev, get_event 5%nat (f_at 2) = Some ev /\ cbs ev = Some [CbResume 1%nat] /\ kind ev = KTimeout)
    by (rewrite Ve; eexists; split; [reflexivity|split; reflexivity]).
  destruct E as (ev & E & C & K).
  exists ev, pr1, pr0. apply conj_keep; [apply f_reach; lia|intros R]. apply conj_keep; [rewrite Va; reflexivity|intros P].
  split; [exact E|]. split; [exact C|]. split; [left; reflexivity|].
  split; [exact K|]. split; [exact Hp1|]. split; [exact Pt1|]. split; [exact Hp0|].
  apply conj_keep; [intros [X|[]]; discriminate|intros N]. apply conj_keep; [rewrite K; discriminate|intros NK].
  split; [exact (untouched_unless_resumed 10 f_codes (f_at 2) _ _ ev _ 0%nat pr0 R P E C Hp0 N NK)|].
  rewrite f_at_S, Va3. reflexivity.
Qed.
Print Assumptions C04_ex_resumed_only_by_target.

(* ---- C04_yield_processed_continues (run_frag codes (resume (pcode pr) (pst pr) o) s1 = (s2, FrYield (VEv e') a) /\
   get_event e' (put_proc p (proc_set_st pr a) s2) = Some ev' /\ cbs ev' = None): the resumption of the interrupter by its timeout
   (event 5) in f_at 2: it issues the three interrupts (agenda 4, 6, 7, 8 at the yield) and yields event 5 AGAIN, which is being
   processed: it goes on at once with the value of event 5 ------------------------------------------------------------------------- *)
Theorem C04_ex_yield_processed_continues :
  exists pr s2 a ev', pop_min (agenda (f_at 2)) = Some (f_m5, [f_t4]) /\ get_proc 1%nat (f_at 2) = Some pr /\
    run_frag f_codes (resume (pcode pr) (pst pr) (Ok VNone)) f_s1_5 = (s2, FrYield (VEv 5%nat) a) /\
    get_event 5%nat (put_proc 1%nat (proc_set_st pr a) s2) = Some ev' /\ cbs ev' = None /\
    map e_ev (agenda s2) = [4; 6; 7; 8]%nat /\
    resume_with 9 f_codes 1%nat pr (Ok VNone) f_s1_5 = resume_loop 9 f_codes 1%nat 5%nat (put_proc 1%nat (proc_set_st pr a) s2).
Proof.
  assert (X : option_map (fun x => (fst (fst x), option_map cbs (get_event 5%nat (snd x)), map e_ev (agenda (snd (fst x)))))
                (yield_at f_codes 1%nat (Ok VNone) f_s1_5 (f_at 2)) = Some (5%nat, Some None, [4; 6; 7; 8]%nat)) by (vm_compute; reflexivity).
  destruct (yield_at_ok _ _ _ _ _ _ _ X) as (pr & e' & s2 & a & Hp & RF & Fb). cbn [fst snd] in Fb. injection Fb as -> Xc Xa.
  destruct (get_event 5%nat (put_proc 1%nat (proc_set_st pr a) s2)) as [ev'|] eqn:E; [|discriminate Xc].
  cbn [option_map] in Xc. injection Xc as Xc.
  exists pr, s2, a, ev'. split; [vm_compute; reflexivity|]. split; [exact Hp|]. split; [exact RF|]. split; [exact E|].
  split; [exact Xc|]. split; [exact Xa|]. apply (yield_processed_continues 9 f_codes 1%nat pr (Ok VNone) f_s1_5 s2 a 5%nat ev' RF E Xc).
Qed.
Print Assumptions C04_ex_yield_processed_continues.

(* ---- C04_yield_pending_waits (run_frag .. = (s2, FrYield (VEv e') a) /\ get_event e' s3 = Some ev' /\ cbs ev' = Some l /\
   get_proc p s2 = Some pr): the victim receives Interrupt(7) in f_s1_retry (the state C04_interrupt_delivery describes: detached
   from event 4) and yields its old target 4 again, which is pending with no callback left: it is attached again, once ----------- *)
Theorem C04_ex_yield_pending_waits :
  exists pr s2 a ev', get_proc 0%nat (f_at 3) = Some pr /\
    run_frag f_codes (resume (pcode pr) (pst pr) (Fail (EInterrupt, [VInt 7]))) f_s1_retry = (s2, FrYield (VEv 4%nat) a) /\
    let s3 := put_proc 0%nat (proc_set_st pr a) s2 in
    get_event 4%nat s3 = Some ev' /\ cbs ev' = Some [] /\ out ev' = Some (Ok VNone) /\ get_proc 0%nat s2 = Some pr /\
    resume_with 9 f_codes 0%nat pr (Fail (EInterrupt, [VInt 7])) f_s1_retry = (proc_wait 0%nat 4%nat s3, ROk) /\
    get_event 4%nat (proc_wait 0%nat 4%nat s3) = Some (ev_set_cbs (Some [CbResume 0%nat]) ev') /\
    get_proc 0%nat (proc_wait 0%nat 4%nat s3) = Some (proc_set_target (Some 4%nat) (proc_set_st pr a)).
Proof.
  assert (X : option_map (fun x => (fst (fst x), option_map (fun e => (cbs e, out e)) (get_event 4%nat (snd x))))
                (yield_at f_codes 0%nat (Fail (EInterrupt, [VInt 7])) f_s1_retry (f_at 3)) = Some (4%nat, Some (Some [], Some (Ok VNone))))
    by (vm_compute; reflexivity).
  destruct (yield_at_ok _ _ _ _ _ _ _ X) as (pr & e' & s2 & a & Hp & RF & Fb). cbn [fst snd] in Fb. injection Fb as -> Xc.
  destruct (get_event 4%nat (put_proc 0%nat (proc_set_st pr a) s2)) as [ev'|] eqn:E; [|discriminate Xc].
  cbn [option_map] in Xc. injection Xc as Xc Xo.
  destruct f_retry_ok as (K & Pk).
  assert (Hp2 : get_proc 0%nat s2 = Some pr).
  { pose proof (run_frag_keeps_proc f_codes (resume (pcode pr) (pst pr) (Fail (EInterrupt, [VInt 7]))) f_s1_retry 0%nat pr K (Pk _ _ Hp)) as Y.
    rewrite RF in Y. exact Y. }
  exists pr, s2, a, ev'. split; [exact Hp|]. split; [exact RF|]. cbn zeta. split; [exact E|]. split; [exact Xc|]. split; [exact Xo|].
  split; [exact Hp2|].
  exact (yield_pending_waits 9 f_codes 0%nat pr (Fail (EInterrupt, [VInt 7])) f_s1_retry s2 a 4%nat ev' [] RF E Xc Hp2).
Qed.
Print Assumptions C04_ex_yield_pending_waits.

(* ---- C04_not_started (reach /\ get_event ie s = Some ev /\ kind ev = KInit p /\ cbs ev <> None), C04_not_started_untouched
   (.. /\ get_proc p s = Some pr /\ pop_min (agenda s) = Some (m, rest) /\ e_ev m <> ie), C04_first_resumption_is_none (reach /\
   pop_min .. /\ get_event (e_ev m) s = Some ev /\ kind ev = KInit p).  f_at 0: the step pops the victim's Initialize (event 1) while
   the interrupter (Initialize = event 3) has not started: its record is untouched.  f_at 1: the interrupter's Initialize is popped,
   the victim already runs ------------------------------------------------------------------------------------------------------------ *)
Theorem C04_ex_not_started :
  exists ev3 pr1 ev1, reach f_codes (f_at 0) /\ get_event 3%nat (f_at 0) = Some ev3 /\ kind ev3 = KInit 1%nat /\ cbs ev3 <> None /\
    get_proc 1%nat (f_at 0) = Some pr1 /\ ptarget pr1 = Some 3%nat /\
    pop_min (agenda (f_at 0)) = Some (mkEntry 0 URGENT 0%nat 1%nat, [mkEntry 0 URGENT 1%nat 3%nat]) /\ 1%nat <> 3%nat /\
    get_event 1%nat (f_at 0) = Some ev1 /\ kind ev1 = KInit 0%nat /\ cbs ev1 = Some [CbResume 0%nat] /\
    get_proc 1%nat (f_at 1) = Some pr1 /\
    reach f_codes (f_at 1) /\ pop_min (agenda (f_at 1)) = Some (mkEntry 0 URGENT 1%nat 3%nat, [f_t4]) /\
    get_event 3%nat (f_at 1) = Some ev3 /\
    hd_error (obs (f_at 2)) = Some (OLog (Some 1%nat) 0 (VList [VInt 0])).
Proof.
  view_at 0%nat V Ve Va. view_at 1%nat V1 Ve1 Va1.
  view_at 2%nat V2 Ve2 Va2. pose proof (view_reads _ _ V2) as (_ & _ & _ & _ & _ & Vo2).
  destruct (view_proc _ _ 1%nat _ _ V eq_refl) as (pr1 & Hp & _ & Pt).
  assert (E3 : exists ev3, get_event 3%nat (f_at 0) = Some ev3 /\ kind ev3 = KInit 1%nat /\ cbs ev3 <> None /\ get_event 3%nat (f_at 1) = Some ev3).
  { rewrite Ve, Ve1. eexists. split; [reflexivity|]. split; [reflexivity|]. split; [discriminate|reflexivity]. }
  destruct E3 as (ev3 & E3 & K3 & C3 & E3').
  exists ev3, pr1. eexists. apply conj_keep; [apply f_reach; lia|intros R]. split; [exact E3|]. split; [exact K3|]. split; [exact C3|]. split; [exact Hp|].
  split; [exact Pt|]. apply conj_keep; [rewrite Va; reflexivity|intros P]. split; [discriminate|]. split; [rewrite Ve; reflexivity|]. split; [reflexivity|].
  split; [reflexivity|].
  split; [apply (not_started_untouched 10 f_codes (f_at 0) 3%nat ev3 1%nat pr1 _ _ R E3 K3 C3 Hp P); discriminate|].
  split; [apply f_reach; lia|]. split; [rewrite Va1; reflexivity|]. split; [exact E3'|]. rewrite Vo2. reflexivity.
Qed.
Print Assumptions C04_ex_not_started.

(* ---- C04_interruption_keeps_cause (reach s /\ trans_star codes s s' /\ get_event i s = Some iev /\ kind iev = KInterruption p /\
   out iev = Some (Fail (EInterrupt, [cause]))): interruption 8 from its issue (f_at 3) until after it was dropped (f_at 6) -------- *)
Theorem C04_ex_interruption_keeps_cause :
  exists iev iev', reach f_codes (f_at 3) /\ trans_star f_codes (f_at 3) (f_at 6) /\
    get_event 8%nat (f_at 3) = Some iev /\ kind iev = KInterruption 0%nat /\ out iev = Some (Fail (EInterrupt, [VInt 9])) /\
    cbs iev = Some [CbInterrupt 8%nat] /\
    get_event 8%nat (f_at 6) = Some iev' /\ kind iev' = KInterruption 0%nat /\ out iev' = Some (Fail (EInterrupt, [VInt 9])) /\
    cbs iev' = None.
Proof.
  view_at 3%nat V Ve Va. view_at 6%nat V6 Ve6 Va6.
  eexists _, _. rewrite Ve, Ve6. split; [apply f_reach; lia|]. split; [apply (f_trans 3 3)|]. split; [reflexivity|].
  split; [reflexivity|]. split; [reflexivity|]. split; [reflexivity|]. split; [reflexivity|]. repeat split.
Qed.
Print Assumptions C04_ex_interruption_keeps_cause.

(* ---- C04_reach_run (reach s /\ forall s1, run_prelude u s = inr s1 -> steps_clean fuel fuel codes s1): run() from f_at 0 to the
   end (nine steps, all clean: interrupts never cut a callback loop short) ------------------------------------------------------------ *)
Theorem C04_ex_reach_run :
  reach f_codes (f_at 0) /\ (forall s1, run_prelude UNone (f_at 0) = inr s1 -> steps_clean 12 12 f_codes s1) /\
  snd (run 12 f_codes UNone (f_at 0)) = ROk /\ agenda (fst (run 12 f_codes UNone (f_at 0))) = [] /\
  now (fst (run 12 f_codes UNone (f_at 0))) == 5 /\ reach f_codes (fst (run 12 f_codes UNone (f_at 0))).
Proof.
  apply conj_keep; [apply f_reach; lia|intros R].
  apply conj_keep; [intros s1 H; cbn [run_prelude] in H; injection H as <-; vm_compute; repeat split|intros S].
  split; [vm_compute; reflexivity|]. split; [vm_compute; reflexivity|].
  split; [vm_compute; reflexivity|]. apply reach_run; assumption.
Qed.
Print Assumptions C04_ex_reach_run.
