(* C16 -- NON-VACUITY of the theorems of Props/C16.v, Props/C16_Live.v and Props/C16_Bridge.v.
   An implication no reachable state satisfies means nothing: every theorem below is a machine-checked witness that ALL
   hypotheses of the theorems it covers hold together on a concrete, non-trivial instance (a reordered arrival sequence
   with a duplicate and a late first segment; an ACK/expiry history of the sender with a fast retransmit and a timeout;
   an 8-segment flow over a path that drops two data packets and one ACK -- 120 agenda steps, 7 timer expiries, 22
   transmissions; the same flow over a loss-free path), together with what the theorem's conclusion says there.
   The witness terms are defined in Tcp/LoopExamples.v ([lstepsf] computes k agenda steps; [lstepsf_runs],
   [lstepsf_reach] turn the computation into the inductive [lsteps] / [lreach] of the theorems).

   Coverage (every hypothesis-carrying theorem of the three statement files):
     C16_ex_acks                      C16_ack_is_prefix, C16_ack_monotone
     C16_ex_sender_never_raises       C16_sender_never_raises
     C16_ex_loop_never_raises         C16_loop_never_raises
     C16_ex_reach_sandwich            C16_last_ack_le_prefix_le_next_seq, C16_runner_reaches
     C16_ex_last_ack_monotone         C16_last_ack_monotone
     C16_ex_unfinished                C16_unfinished_has_pending, C16_not_quiescent_while_unfinished
     C16_ex_quiescent                 C16_reliable_delivery_partial
     C16_ex_retransmission_causes     C16_lossfree_no_retransmit_partial
     C16_ex_work_bounded              C16_work_bounded_by_transmissions
     C16_ex_out_of_fuel               C16_out_of_fuel_needs_transmissions
     C16_ex_lossfree                  C16_lossfree_no_retransmit, C16_lossfree_terminates
     C16_ex_live                      C16_expiries_bounded, C16_work_bounded_by_expiries, C16_rto_lower_bound
     (C16_live_example, Props/C16_Live.v, is the witness of C16_reliable_delivery: its fuel bound is a number, 40047,
      and the run with that fuel is computed; for the 4096-byte flow used here the bound is about 4.7e12 steps)
   Unconditional (no hypotheses beyond typing binders): C16_current_is_repaired, C16_live_bound_unfolded,
     C16_gen_sink_put (for every sink state and segment).
   Already witnesses (existential statements): C16_ack_refuted_before_fix, C16_sender_raises_before_fix,
     C16_loop_raises_before_fix, C16_live_example. *)
From Coq Require Import ZArith QArith Qround List Lia.
From ONL Require Import Base.Tools Tcp.Sink Tcp.SinkProofs Tcp.Sender Tcp.SenderProofs Tcp.Loop Tcp.LoopProofs Tcp.LoopLive
  Tcp.LoopLossfree Tcp.LoopLive2 Tcp.LoopLive2F Tcp.LoopExamples.
Import ListNotations.
Open Scope Z_scope.

(* ------------------------------------------------------------------------------------------------ *)
(* The sink.  Covers C16_ack_is_prefix (k = 2, a = 1536) and C16_ack_monotone (i = 1, j = 5).
   Arrivals 512, 1024, 0, 512 (duplicate), 2048, 1536: ACKs 0, 0, 1536, 1536, 1536, 2560. *)
Theorem C16_ex_acks :
  (forall g, In g segsW -> 0 <= fst g /\ 0 <= snd g) /\
  acks true sink0 segsW = [0; 0; 1536; 1536; 1536; 2560] /\
  nth_error (acks true sink0 segsW) 2 = Some 1536 /\
  (1 <= 5)%nat /\ nth_error (acks true sink0 segsW) 1 = Some 0 /\ nth_error (acks true sink0 segsW) 5 = Some 2560 /\
  (* what the theorems say here *)
  prefix_len (firstn 3 segsW) 1536 /\ 0 <= 2560.
Proof.
  assert (Hnn : forall g, In g segsW -> 0 <= fst g /\ 0 <= snd g).
  { intros g Hg. unfold segsW in Hg. cbn [In] in Hg.
    repeat (destruct Hg as [<-|Hg]; [cbn; lia|]). contradiction. }
  split; [exact Hnn|]. split; [vm_compute; reflexivity|]. split; [vm_compute; reflexivity|].
  split; [lia|]. split; [vm_compute; reflexivity|]. split; [vm_compute; reflexivity|].
  split.
  - apply (ack_is_prefix segsW Hnn 2%nat 1536). vm_compute. reflexivity.
  - lia.
Qed.
Print Assumptions C16_ex_acks.

(* ------------------------------------------------------------------------------------------------ *)
(* The sender alone.  Covers C16_sender_never_raises: MSS 512 > 0, initial window 1024 >= MSS, rtt_estimate 1/16 > 0,
   a history of 10 events with samples >= 0 (new ACK, two wakes, three duplicates = fast retransmit of 512, expiry of
   timer 1024, cumulative ACK 2048) whose last event -- the expiry of a timer the cumulative ACK has stopped -- is
   refused: the run is Raise x, and x is NotEnabled.  Without that last event the run is Ok, with 4 transmissions
   of new data, the fast retransmit of 512 and the timeout retransmission of 1024 on the output. *)
Theorem C16_ex_sender_never_raises :
  0 < mss cS /\ (zq (mss cS) <= 1024 # 1)%Q /\ (0 < 1 # 16)%Q /\ Forall sample_ok hSbad /\ length hSbad = 10%nat /\
  run repaired cS sS0 hSbad = Raise NotEnabled /\
  (exists s o, run repaired cS sS0 hS = Ok s o /\
               txs o = [(0, 512); (512, 512); (1024, 512); (1536, 512); (512, 512); (1024, 512)] /\
               last_ack s = 2048 /\ next_seq s = 2048 /\ timers s = [] /\ (cwnd s == 1536 # 1)%Q /\ (ssthresh s == 1024 # 1)%Q).
Proof.
  split; [reflexivity|]. split; [cbn; discriminate|]. split; [reflexivity|].
  split; [repeat constructor; cbn; discriminate|]. split; [reflexivity|].
  split; [vm_compute; reflexivity|].
  eexists. eexists. split; [vm_compute; reflexivity|]. repeat split; vm_compute; reflexivity.
Qed.
Print Assumptions C16_ex_sender_never_raises.

(* Covers C16_lossfree_no_retransmit_partial, twice: (a) the state after [hS2] (dupack = 2), the third duplicate ACK 512
   makes the step emit Tx 512 -- the theorem's third disjunct, id = last_ack and 3 <= dupack + 1;  (b) one event later
   (dupack = 3) the expiry of timer 1024 emits Tx 1024 -- the second disjunct. *)
Theorem C16_ex_retransmission_causes :
  let sa := sender_after hS2 in
  let sb := sender_after (hS2 ++ [EAck 512 0 (1 # 8) 0]) in
  (0 <= dupack sa /\ dupack sa = 2 /\ last_ack sa = 512 /\
   exists s' o, step repaired cS sa (EAck 512 0 (1 # 8) 0) = Ok s' o /\ In (Tx 512 512) o /\ 3 <= dupack sa + 1) /\
  (0 <= dupack sb /\ dupack sb = 3 /\
   exists s' o, step repaired cS sb (EExpire 1024) = Ok s' o /\ In (Tx 1024 512) o /\ (rto s' == (2 # 1) * rto sb)%Q).
Proof.
  cbv zeta. split.
  - split; [vm_compute; discriminate|]. split; [vm_compute; reflexivity|]. split; [vm_compute; reflexivity|].
    eexists. eexists. split; [vm_compute; reflexivity|]. split; [cbn; auto|vm_compute; discriminate].
  - split; [vm_compute; discriminate|]. split; [vm_compute; reflexivity|].
    eexists. eexists. split; [vm_compute; reflexivity|]. split; [cbn; auto|vm_compute; reflexivity].
Qed.
Print Assumptions C16_ex_retransmission_causes.

(* ------------------------------------------------------------------------------------------------ *)
(* The closed loop with losses: [lcW] = 8 segments of 512 bytes, delay 1/4, data transmissions 1 and 6 and ACK
   transmission 2 dropped; initial window 2048, rtt_estimate 1/2.  [stW k] = the state after k agenda steps. *)

(* Covers C16_loop_never_raises (hypotheses lc_ok, cwnd >= MSS, rtt0 > 0; it then speaks about every fuel): the
   complete run is not trivial -- 120 steps to quiescence, 22 data packets offered to the dropper (3 of them
   retransmissions by timeout of segment 512 alone), 7 expiries. *)
Theorem C16_ex_loop_never_raises :
  lc_ok lcW /\ (zq (mss (lc_cfg lcW)) <= 2048 # 1)%Q /\ (0 < 1 # 2)%Q /\
  lrun 121 lcW stW0 = LQuiescent (stW 120) /\ l_agenda (stW 120) = [] /\
  l_n1 (stW 120) = 22%nat /\ l_n2 (stW 120) = 20%nat /\ nexp (stW 120) = 7%nat /\
  map dl_idx (filter dl_dropped (l_d1 (stW 120))) = [6; 1]%nat /\
  forall fuel st e, lrun fuel lcW stW0 <> LRaised st e.
Proof.
  pose proof (ok2_ok _ lcW_ok2) as Hok.
  split; [exact Hok|]. split; [cbn; discriminate|]. split; [reflexivity|].
  split; [vm_compute; reflexivity|]. split; [vm_compute; reflexivity|].
  split; [vm_compute; reflexivity|]. split; [vm_compute; reflexivity|]. split; [vm_compute; reflexivity|].
  split; [vm_compute; reflexivity|].
  apply loop_never_raises; [exact Hok|cbn; discriminate|reflexivity].
Qed.
Print Assumptions C16_ex_loop_never_raises.

(* Covers C16_last_ack_le_prefix_le_next_seq and C16_runner_reaches: the state after 82 steps (t = 7/4) is reachable;
   there last_ack = 3072 < next_seq_expected of the sink = 3584 < next_seq = 4096, all three different. *)
Theorem C16_ex_reach_sandwich :
  lc_ok lcW /\ (zq (mss (lc_cfg lcW)) <= 2048 # 1)%Q /\ (0 < 1 # 2)%Q /\
  lreach lcW stW0 (stW 82) /\
  last_ack (l_snd (stW 82)) = 3072 /\ nse (l_sink (stW 82)) = 3584 /\ next_seq (l_snd (stW 82)) = 4096 /\
  buf (l_sink (stW 82)) = [(0, 3584)] /\ sink_prefix (l_sink (stW 82)) 3584 /\
  (* the runner continued from there for 10 more steps ends in a reachable state, a different one *)
  lreach lcW stW0 (lfinal (lrun 10 lcW (stW 82))) /\ lfinal (lrun 10 lcW (stW 82)) = stW 92.
Proof.
  pose proof (ok2_ok _ lcW_ok2) as Hok.
  split; [exact Hok|]. split; [cbn; discriminate|]. split; [reflexivity|].
  apply conj_keep; [apply (lsteps_reach lcW 82), (lstepsf_runs lcW 82); vm_compute; reflexivity|intros Hr].
  split; [vm_compute; reflexivity|]. split; [vm_compute; reflexivity|]. split; [vm_compute; reflexivity|].
  split; [vm_compute; reflexivity|].
  split.
  - replace 3584 with (nse (l_sink (stW 82))) at 2 by (vm_compute; reflexivity).
    apply (loop_last_ack_le_prefix_le_next_seq lcW (2048 # 1) (65535 # 1) (1 # 2) [] (stW 82) Hok);
      [cbn; discriminate|reflexivity|exact Hr].
  - split; [apply lrun_reach; exact Hr|vm_compute; reflexivity].
Qed.
Print Assumptions C16_ex_reach_sandwich.

(* Covers C16_last_ack_monotone: two reachable states, the second reachable from the first (43 steps later), between
   them a fast retransmit and five expiries; last_ack 512 <= 3584. *)
Theorem C16_ex_last_ack_monotone :
  lc_ok lcW /\ (zq (mss (lc_cfg lcW)) <= 2048 # 1)%Q /\ (0 < 1 # 2)%Q /\
  lreach lcW stW0 (stW 55) /\ lreach lcW (stW 55) (stW 98) /\
  last_ack (l_snd (stW 55)) = 512 /\ last_ack (l_snd (stW 98)) = 3584 /\
  l_n1 (stW 55) = 12%nat /\ l_n1 (stW 98) = 22%nat.
Proof.
  split; [exact (ok2_ok _ lcW_ok2)|]. split; [cbn; discriminate|]. split; [reflexivity|].
  split; [apply (lsteps_reach lcW 55), (lstepsf_runs lcW 55); vm_compute; reflexivity|].
  split; [apply (lstepsf_reach lcW 43); vm_compute; reflexivity|].
  repeat split; vm_compute; reflexivity.
Qed.
Print Assumptions C16_ex_last_ack_monotone.

(* Covers C16_unfinished_has_pending and C16_not_quiescent_while_unfinished: lc_ok2 (4096 = 8 * 512), flow size <> 0,
   the reachable state after 82 steps has last_ack 3072 < 4096 (first disjunct of the second theorem; the sink is also
   still short: 3584 < 4096).  Conclusions there: pending_work holds through its FIRST disjunct -- the timer of segment
   3072 = last_ack is in the table and its Timeout is on the agenda -- and the agenda has 10 entries. *)
Theorem C16_ex_unfinished :
  lc_ok2 lcW /\ (zq (mss (lc_cfg lcW)) <= 2048 # 1)%Q /\ (0 < 1 # 2)%Q /\ fsize (lc_cfg lcW) <> 0 /\
  lreach lcW stW0 (stW 82) /\ last_ack (l_snd (stW 82)) < fsize (lc_cfg lcW) /\ nse (l_sink (stW 82)) < fsize (lc_cfg lcW) /\
  pending_work lcW (stW 82) /\
  In 3072 (keys (timers (l_snd (stW 82)))) /\ In (ATimerFire 3072) (map ae_ev (l_agenda (stW 82))) /\
  length (l_agenda (stW 82)) = 10%nat /\ l_agenda (stW 82) <> [].
Proof.
  pose proof lcW_ok2 as Hok.
  split; [exact Hok|]. split; [cbn; discriminate|]. split; [reflexivity|]. split; [cbn; discriminate|].
  apply conj_keep; [apply (lsteps_reach lcW 82), (lstepsf_runs lcW 82); vm_compute; reflexivity|intros Hr].
  apply conj_keep; [vm_compute; reflexivity|intros Hla]. split; [vm_compute; reflexivity|].
  split; [apply (loop_unfinished_has_pending lcW (2048 # 1) (65535 # 1) (1 # 2) [] (stW 82) Hok);
          [cbn; discriminate|reflexivity|cbn; discriminate|exact Hr|exact Hla]|].
  split; [vm_compute; auto|]. split; [vm_compute; auto 10|]. split; [vm_compute; reflexivity|].
  apply (loop_not_quiescent_while_unfinished lcW (2048 # 1) (65535 # 1) (1 # 2) [] (stW 82) Hok);
    [cbn; discriminate|reflexivity|cbn; discriminate|exact Hr|left; exact Hla].
Qed.
Print Assumptions C16_ex_unfinished.

(* Covers C16_reliable_delivery_partial: the reachable state after 120 steps has an empty agenda (t = 17, after the
   last stopped timer's Timeout was discarded); there last_ack = 4096, the sink holds exactly [0, 4096). *)
Theorem C16_ex_quiescent :
  lc_ok2 lcW /\ (zq (mss (lc_cfg lcW)) <= 2048 # 1)%Q /\ (0 < 1 # 2)%Q /\ fsize (lc_cfg lcW) <> 0 /\
  lreach lcW stW0 (stW 120) /\ l_agenda (stW 120) = [] /\ (l_now (stW 120) == 17 # 1)%Q /\
  last_ack (l_snd (stW 120)) = 4096 /\ nse (l_sink (stW 120)) = 4096 /\ buf (l_sink (stW 120)) = [(0, 4096)] /\
  sink_prefix (l_sink (stW 120)) (fsize (lc_cfg lcW)).
Proof.
  pose proof lcW_ok2 as Hok.
  split; [exact Hok|]. split; [cbn; discriminate|]. split; [reflexivity|]. split; [cbn; discriminate|].
  apply conj_keep; [apply (lsteps_reach lcW 120), (lstepsf_runs lcW 120); vm_compute; reflexivity|intros Hr].
  apply conj_keep; [vm_compute; reflexivity|intros Hq]. split; [vm_compute; reflexivity|].
  split; [vm_compute; reflexivity|]. split; [vm_compute; reflexivity|]. split; [vm_compute; reflexivity|].
  apply (loop_quiescent_complete lcW (2048 # 1) (65535 # 1) (1 # 2) [] (stW 120) Hok);
    [cbn; discriminate|reflexivity|cbn; discriminate|exact Hr|exact Hq].
Qed.
Print Assumptions C16_ex_quiescent.

(* Covers C16_work_bounded_by_transmissions: 82 agenda steps from the initial state; 18 data packets handed to the data
   path by then; 82 <= 3 + 4096 + 10 * 18.  (The same with the 1-byte segments of [lc_live], where the flow size does
   not dominate: 32 steps, 7 transmissions, 32 <= 3 + 4 + 70.) *)
Theorem C16_ex_work_bounded :
  lc_ok2 lcW /\ (zq (mss (lc_cfg lcW)) <= 2048 # 1)%Q /\ (0 < 1 # 2)%Q /\ fsize (lc_cfg lcW) <> 0 /\
  lsteps lcW 82 stW0 (stW 82) /\ l_n1 (stW 82) = 18%nat /\
  Z.of_nat 82 <= 3 + fsize (lc_cfg lcW) + 10 * Z.of_nat (l_n1 (stW 82)) /\
  (lc_ok2 lc_live /\ exists st, lsteps lc_live 32 (linit (2 # 1) (65535 # 1) 1 []) st /\ l_n1 st = 7%nat /\
                                Z.of_nat 32 <= 3 + fsize (lc_cfg lc_live) + 10 * Z.of_nat (l_n1 st)).
Proof.
  split; [exact lcW_ok2|].
  split; [cbn; discriminate|]. split; [reflexivity|]. split; [cbn; discriminate|].
  split; [apply (lstepsf_runs lcW 82); vm_compute; reflexivity|]. split; [vm_compute; reflexivity|].
  split; [vm_compute; discriminate|].
  split; [constructor; [constructor; cbn; [reflexivity|lia|discriminate]|]; exists 4; cbn; lia|].
  eexists. split; [apply (lstepsf_runs lc_live 32); vm_compute; reflexivity|]. split; [vm_compute; reflexivity|vm_compute; discriminate].
Qed.
Print Assumptions C16_ex_work_bounded.

(* Covers C16_out_of_fuel_needs_transmissions: with 50 steps of fuel the runner does end in LFuel (at t = 5/4, in the
   middle of the recovery); 12 data packets were transmitted by then; 50 <= 3 + 4096 + 120. *)
Theorem C16_ex_out_of_fuel :
  lc_ok2 lcW /\ (zq (mss (lc_cfg lcW)) <= 2048 # 1)%Q /\ (0 < 1 # 2)%Q /\ fsize (lc_cfg lcW) <> 0 /\
  lrun 50 lcW stW0 = LFuel (stW 50) /\ l_n1 (stW 50) = 12%nat /\ last_ack (l_snd (stW 50)) = 512 /\
  Z.of_nat 50 <= 3 + fsize (lc_cfg lcW) + 10 * Z.of_nat (l_n1 (stW 50)).
Proof.
  split; [exact lcW_ok2|].
  split; [cbn; discriminate|]. split; [reflexivity|]. split; [cbn; discriminate|].
  split; [vm_compute; reflexivity|]. split; [vm_compute; reflexivity|]. split; [vm_compute; reflexivity|].
  vm_compute. discriminate.
Qed.
Print Assumptions C16_ex_out_of_fuel.

(* ------------------------------------------------------------------------------------------------ *)
(* The loss-free loop.  Covers C16_lossfree_no_retransmit and C16_lossfree_terminates: [lcF] has no drops, delay
   1/4 < rtt_estimate 1, and 1 <> 2 * 1/4.  In the reachable state after 46 steps (t = 3/4, 5 of 8 segments acknowledged
   at the sink side, 8 sent) the transmission log is 0, 512, ..., 3584, each once; with fuel 45060 > 3 + 11 * 4096 the
   runner ends quiescent after 64 steps with everything delivered and still 8 transmissions. *)
Theorem C16_ex_lossfree :
  lc_ok2 lcF /\ lc_drop_data lcF = [] /\ lc_drop_ack lcF = [] /\
  (zq (mss (lc_cfg lcF)) <= 2048 # 1)%Q /\ (lc_delay lcF < 1 # 1)%Q /\ ~ ((1 # 1) == (2 # 1) * lc_delay lcF)%Q /\
  lreach lcF stF0 (stF 46) /\ last_ack (l_snd (stF 46)) = 2048 /\ nse (l_sink (stF 46)) = 3584 /\
  map dl_id (rev (l_d1 (stF 46))) = [0; 512; 1024; 1536; 2048; 2560; 3072; 3584] /\
  map dl_id (rev (l_d1 (stF 46))) = seg_ids (mss (lc_cfg lcF)) 0 8 /\ NoDup (map dl_id (l_d1 (stF 46))) /\
  fsize (lc_cfg lcF) <> 0 /\ 3 + 11 * fsize (lc_cfg lcF) < Z.of_nat (Z.to_nat 45060) /\
  lrun (Z.to_nat 45060) lcF stF0 = LQuiescent (stF 64) /\
  last_ack (l_snd (stF 64)) = 4096 /\ nse (l_sink (stF 64)) = 4096 /\ l_n1 (stF 64) = 8%nat /\
  NoDup (map dl_id (l_d1 (stF 64))).
Proof.
  pose proof lcF_ok2 as Hok.
  split; [exact Hok|]. split; [reflexivity|]. split; [reflexivity|]. split; [cbn; discriminate|].
  split; [reflexivity|].
  apply conj_keep; [cbn; discriminate|intros Hne].
  apply conj_keep; [apply (lsteps_reach lcF 46), (lstepsf_runs lcF 46); vm_compute; reflexivity|intros Hr].
  split; [vm_compute; reflexivity|]. split; [vm_compute; reflexivity|]. split; [vm_compute; reflexivity|].
  split; [vm_compute; reflexivity|].
  split; [apply (lossfree_no_retransmit lcF Hok eq_refl eq_refl (2048 # 1) (65535 # 1) (1 # 1) []);
          [cbn; discriminate|reflexivity|exact Hne|exact Hr]|].
  split; [cbn; discriminate|]. split; [vm_compute; reflexivity|].
  apply conj_keep; [vm_compute; reflexivity|intros Hrun].
  split; [vm_compute; reflexivity|]. split; [vm_compute; reflexivity|].
  split; [vm_compute; reflexivity|].
  pose proof (lossfree_terminates lcF Hok eq_refl eq_refl (2048 # 1) (65535 # 1) (1 # 1) []) as T.
  specialize (T ltac:(cbn; discriminate) ltac:(reflexivity) Hne (Z.to_nat 45060) ltac:(cbn; discriminate)
                ltac:(vm_compute; reflexivity)).
  fold stF0 in T. rewrite Hrun in T. apply T.
Qed.
Print Assumptions C16_ex_lossfree.

(* ------------------------------------------------------------------------------------------------ *)
(* Props/C16_Live.v.  Covers C16_expiries_bounded, C16_work_bounded_by_expiries and C16_rto_lower_bound (the fourth
   theorem with these hypotheses, C16_reliable_delivery, needs fuel above the bound and has C16_live_example): lc_ok2,
   window, rtt_estimate 1/2 > 0, size <> 0, and a state reached by exactly 82 steps in which 5 timers have expired;
   the RTO in force there is 1/2 (it was 1, doubled to 2 ... by the expiries, and re-estimated by the new ACKs). *)
Theorem C16_ex_live :
  lc_ok2 lcW /\ (zq (mss (lc_cfg lcW)) <= 2048 # 1)%Q /\ (0 < 1 # 2)%Q /\ fsize (lc_cfg lcW) <> 0 /\
  lsteps lcW 82 stW0 (stW 82) /\ lreach lcW stW0 (stW 82) /\ nexp (stW 82) = 5%nat /\
  Z.of_nat (nexp (stW 82)) <= Bexp lcW (1 # 2) /\
  3 + Gnew lcW * fsize (lc_cfg lcW) + Cexp lcW * Z.of_nat (nexp (stW 82)) = 336081049 /\
  Z.of_nat 82 <= 3 + Gnew lcW * fsize (lc_cfg lcW) + Cexp lcW * Z.of_nat (nexp (stW 82)) /\
  (rto (l_snd (stW 82)) == 1 # 2)%Q /\
  (0 < (1 # 2) * geo (Z.to_nat (fsize (lc_cfg lcW))) <= rto (l_snd (stW 82)))%Q.
Proof.
  pose proof lcW_ok2 as Hok.
  split; [exact Hok|]. split; [cbn; discriminate|]. split; [reflexivity|]. split; [cbn; discriminate|].
  apply conj_keep; [apply (lstepsf_runs lcW 82); vm_compute; reflexivity|intros Hs].
  apply conj_keep; [eapply lsteps_reach; exact Hs|intros Hr]. split; [vm_compute; reflexivity|].
  split; [apply (loop_expiries_bounded_explicit lcW (2048 # 1) (65535 # 1) (1 # 2) [] (stW 82) Hok);
          [cbn; discriminate|reflexivity|cbn; discriminate|exact Hr]|].
  split; [vm_compute; reflexivity|].
  split; [apply (loop_work_bounded_by_expiries lcW (2048 # 1) (65535 # 1) (1 # 2) [] 82 (stW 82) Hok);
          [cbn; discriminate|reflexivity|cbn; discriminate|exact Hs]|].
  split; [vm_compute; reflexivity|].
  apply (loop_rto_lower_bound lcW (2048 # 1) (65535 # 1) (1 # 2) [] (stW 82) Hok);
    [cbn; discriminate|reflexivity|cbn; discriminate|exact Hr].
Qed.
Print Assumptions C16_ex_live.
