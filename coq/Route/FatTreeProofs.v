(* Proofs about Route/FatTree.v, for EVERY even k >= 2, by arithmetic on the node numbering:
   counts, degrees, hosts per edge switch, and the distance between hosts. *)
From Coq Require Import List Bool Arith Lia.
From ONL Require Import Route.FatTree.
Import ListNotations.
Open Scope nat_scope.

(* ---------------------------------------------------------------------------------------------- *)
(* arithmetic on blocks *)

Lemma lt_block a b n m : a < n -> b < m -> a * m + b < n * m.
Proof. intros Ha Hb. assert (S a * m <= n * m) by (apply Nat.mul_le_mono_r; lia). lia. Qed.

Lemma div_block a b m : b < m -> (a * m + b) / m = a.
Proof. intros Hb. symmetry. apply (Nat.div_unique _ m a b); lia. Qed.

Lemma mod_block a b m : b < m -> (a * m + b) mod m = b.
Proof. intros Hb. symmetry. apply (Nat.mod_unique _ m a b); lia. Qed.

Lemma half_double h : (2 * h) / 2 = h.
Proof. rewrite Nat.mul_comm. apply Nat.div_mul. discriminate. Qed.

Lemma even_half k : Nat.even k = true -> k = 2 * (k / 2).
Proof.
  intros H. apply Nat.even_spec in H as [m ->]. rewrite half_double. reflexivity.
Qed.

(* ---------------------------------------------------------------------------------------------- *)
(* coordinates *)

Definition coord_eqb (c d : coord) : bool :=
  match c, d with
  | Core a b, Core a' b' => (a =? a') && (b =? b')
  | Aggr p a, Aggr p' a' => (p =? p') && (a =? a')
  | Edge p e, Edge p' e' => (p =? p') && (e =? e')
  | Host p e i, Host p' e' i' => (p =? p') && (e =? e') && (i =? i')
  | _, _ => false
  end.

Lemma coord_eqb_refl c : coord_eqb c c = true.
Proof. destruct c; cbn [coord_eqb]; rewrite !Nat.eqb_refl; reflexivity. Qed.

Lemma coord_eqb_spec c d : coord_eqb c d = true <-> c = d.
Proof.
  split; [|intros ->; apply coord_eqb_refl].
  destruct c, d; cbn [coord_eqb]; try discriminate; intros H; repeat (apply andb_true_iff in H as [H ?]);
    repeat match goal with X : (_ =? _) = true |- _ => apply Nat.eqb_eq in X end; subst; reflexivity.
Qed.

Definition valid (k : nat) (c : coord) : Prop :=
  let h := k / 2 in
  match c with
  | Core a b => a < h /\ b < h
  | Aggr p a => p < k /\ a < h
  | Edge p e => p < k /\ e < h
  | Host p e i => p < k /\ e < h /\ i < h
  end.

(* the numbering is a bijection between valid coordinates and node numbers *)
Lemma decode_num h c : 0 < h -> valid (2 * h) c -> decode (2 * h) (num (2 * h) c) = c.
Proof.
  intros Hh Hv. unfold valid in Hv. unfold decode, num, aggr, edge, host, ncore.
  (* k, and below the products under remember, are made opaque so that lia sees them as atoms *)
  rewrite !half_double in *. set (k := 2 * h) in *. assert (Hk : k = 2 * h) by reflexivity. clearbody k.
  destruct c as [a b|p a|p e|p e i].
  - destruct Hv as [Ha Hb]. pose proof (lt_block a b h h Ha Hb) as Hlt.
    destruct (a * h + b <? h * h) eqn:E; [|apply Nat.ltb_ge in E; lia].
    rewrite div_block, mod_block by lia. reflexivity.
  - destruct Hv as [Hp Ha].
    assert (Hlt : p * k + a < k * k) by (apply lt_block; lia).
    destruct (h * h + p * k + a <? h * h) eqn:E1; [apply Nat.ltb_lt in E1; lia|].
    destruct (h * h + p * k + a <? h * h + k * k) eqn:E2; [|apply Nat.ltb_ge in E2; lia].
    replace (h * h + p * k + a - h * h) with (p * k + a) by lia.
    rewrite div_block, mod_block by lia.
    destruct (a <? h) eqn:E3; [reflexivity|apply Nat.ltb_ge in E3; lia].
  - destruct Hv as [Hp He].
    assert (Hlt : p * k + (h + e) < k * k) by (apply lt_block; lia).
    destruct (h * h + p * k + h + e <? h * h) eqn:E1; [apply Nat.ltb_lt in E1; lia|].
    destruct (h * h + p * k + h + e <? h * h + k * k) eqn:E2; [|apply Nat.ltb_ge in E2; lia].
    replace (h * h + p * k + h + e - h * h) with (p * k + (h + e)) by lia.
    rewrite div_block, mod_block by lia.
    destruct (h + e <? h) eqn:E3; [apply Nat.ltb_lt in E3; lia|].
    f_equal. lia.
  - destruct Hv as (Hp & He & Hi).
    remember ((p * h + e) * h) as X eqn:EX. remember (k * k) as KK eqn:EKK. remember (h * h) as HH eqn:EHH.
    destruct (HH + KK + X + i <? HH) eqn:E1; [apply Nat.ltb_lt in E1; lia|].
    destruct (HH + KK + X + i <? HH + KK) eqn:E2; [apply Nat.ltb_lt in E2; lia|].
    replace (HH + KK + X + i - (HH + KK)) with (X + i) by lia. subst X.
    rewrite (div_block (p * h + e) i h), (mod_block (p * h + e) i h) by lia.
    rewrite div_block, mod_block by lia. reflexivity.
Qed.

Lemma num_inj h c d : 0 < h -> valid (2 * h) c -> valid (2 * h) d -> num (2 * h) c = num (2 * h) d -> c = d.
Proof.
  intros Hh Hc Hd E. rewrite <- (decode_num h c Hh Hc), <- (decode_num h d Hh Hd), E. reflexivity.
Qed.

Lemma num_eqb h c d : 0 < h -> valid (2 * h) c -> valid (2 * h) d ->
  (num (2 * h) c =? num (2 * h) d) = coord_eqb c d.
Proof.
  intros Hh Hc Hd. destruct (coord_eqb c d) eqn:E.
  - apply coord_eqb_spec in E. subst. apply Nat.eqb_refl.
  - apply Nat.eqb_neq. intros En. apply (num_inj h c d Hh Hc Hd) in En. subst.
    rewrite coord_eqb_refl in E. discriminate.
Qed.

(* every host number is the number of a valid Host coordinate *)
Lemma host_decode h v : 0 < h -> is_host (2 * h) v = true ->
  exists p e i, decode (2 * h) v = Host p e i /\ valid (2 * h) (Host p e i) /\ num (2 * h) (Host p e i) = v.
Proof.
  intros Hh Hv. unfold is_host, ft_nnodes, ncore in Hv. unfold decode, valid, num, host, ncore.
  rewrite !half_double in *. set (k := 2 * h) in *. assert (Hk : k = 2 * h) by reflexivity. clearbody k.
  apply andb_true_iff in Hv as [H1 H2]. apply Nat.leb_le in H1. apply Nat.ltb_lt in H2.
  destruct (v <? h * h) eqn:E1; [apply Nat.ltb_lt in E1; lia|].
  destruct (v <? h * h + k * k) eqn:E2; [apply Nat.ltb_lt in E2; lia|].
  set (w := v - (h * h + k * k)). assert (Hw : w < k * h * h) by (unfold w; lia).
  assert (Hv' : v = h * h + k * k + w) by (unfold w; lia).
  exists (w / h / h), ((w / h) mod h), (w mod h). split; [reflexivity|].
  pose proof (Nat.div_mod w h ltac:(lia)) as D1.
  pose proof (Nat.div_mod (w / h) h ltac:(lia)) as D2.
  pose proof (Nat.mod_upper_bound w h ltac:(lia)) as M1.
  pose proof (Nat.mod_upper_bound (w / h) h ltac:(lia)) as M2.
  assert (Hq : w / h < k * h) by (apply Nat.div_lt_upper_bound; lia).
  assert (Hp : w / h / h < k) by (apply Nat.div_lt_upper_bound; lia).
  split; [auto|].
  rewrite Hv'.
  remember (w / h) as q eqn:Eq. remember (q / h) as r eqn:Er. remember (q mod h) as s eqn:Es. remember (w mod h) as u eqn:Eu.
  assert (G : (r * h + s) * h + u = w) by (rewrite D1 at 1; rewrite D2; ring).
  clear - G. lia.
Qed.

(* ---------------------------------------------------------------------------------------------- *)
(* list toolkit *)

Lemma flat_map_ext_in {A B : Type} (f g : A -> list B) l :
  (forall x, In x l -> f x = g x) -> flat_map f l = flat_map g l.
Proof.
  induction l as [|x t IH]; intros H; [reflexivity|]. cbn [flat_map].
  rewrite (H x (or_introl eq_refl)), IH; [reflexivity|]. intros y Hy. apply H. right. exact Hy.
Qed.

Lemma flat_map_const_nil {A B : Type} (l : list A) : flat_map (fun _ => @nil B) l = [].
Proof. induction l; auto. Qed.

Lemma flat_map_nil {A B : Type} (f : A -> list B) l : (forall x, In x l -> f x = []) -> flat_map f l = [].
Proof. intros H. rewrite (flat_map_ext_in f (fun _ => []) l H). apply flat_map_const_nil. Qed.

Lemma flat_map_pick {B : Type} (f : nat -> list B) n i0 :
  i0 < n -> (forall i, i <> i0 -> f i = []) -> flat_map f (seq 0 n) = f i0.
Proof.
  intros Hi H. replace n with (i0 + S (n - S i0)) by lia. rewrite seq_app, flat_map_app. cbn [seq flat_map].
  rewrite !flat_map_nil; [apply app_nil_r| |]; intros x Hx; apply in_seq in Hx; apply H; lia.
Qed.

Lemma flat_map_singletons {A B : Type} (g : A -> B) l : flat_map (fun x => [g x]) l = map g l.
Proof. induction l as [|x t IH]; [reflexivity|]. cbn [flat_map map app]. rewrite IH. reflexivity. Qed.

Lemma map_flat_map {A B C : Type} (f : B -> C) (g : A -> list B) l :
  map f (flat_map g l) = flat_map (fun x => map f (g x)) l.
Proof. induction l as [|x t IH]; [reflexivity|]. cbn [flat_map]. rewrite map_app, IH. reflexivity. Qed.

Lemma flat_map_flat_map {A B C : Type} (f : B -> list C) (g : A -> list B) l :
  flat_map f (flat_map g l) = flat_map (fun x => flat_map f (g x)) l.
Proof. induction l as [|x t IH]; [reflexivity|]. cbn [flat_map]. rewrite flat_map_app, IH. reflexivity. Qed.

Lemma flat_map_map {A B C : Type} (f : B -> list C) (g : A -> B) l :
  flat_map f (map g l) = flat_map (fun x => f (g x)) l.
Proof. induction l as [|x t IH]; [reflexivity|]. cbn [flat_map map]. rewrite IH. reflexivity. Qed.

Lemma length_flat_map_const {A B : Type} (f : A -> list B) l c :
  (forall x, In x l -> length (f x) = c) -> length (flat_map f l) = length l * c.
Proof.
  induction l as [|x t IH]; intros H; [reflexivity|]. cbn [flat_map length]. rewrite app_length, (H x (or_introl eq_refl)), IH.
  - lia.
  - intros y Hy. apply H. right. exact Hy.
Qed.

Lemma seq_shift_add s m : seq s m = map (fun b => s + b) (seq 0 m).
Proof.
  revert s. induction m as [|m IH]; intros s; [reflexivity|]. cbn [seq map]. rewrite Nat.add_0_r. f_equal.
  rewrite (IH (S s)), (IH 1), map_map. apply map_ext. intros b. lia.
Qed.

(* flat_map over 0 .. n*m-1 in blocks of m *)
Lemma flat_map_blocks {B : Type} (f : nat -> list B) m : forall n,
  flat_map f (seq 0 (n * m)) = flat_map (fun a => flat_map (fun b => f (a * m + b)) (seq 0 m)) (seq 0 n).
Proof.
  induction n as [|n IH]; [reflexivity|].
  replace (S n * m) with (n * m + m) by lia. rewrite seq_app, flat_map_app, IH. cbn [plus].
  rewrite seq_S, flat_map_app. cbn [flat_map]. rewrite app_nil_r. f_equal.
  rewrite (seq_shift_add (n * m) m), flat_map_map. reflexivity.
Qed.

Lemma NoDup_app_intro {A : Type} (l1 l2 : list A) :
  NoDup l1 -> NoDup l2 -> (forall b, In b l1 -> ~ In b l2) -> NoDup (l1 ++ l2).
Proof.
  induction l1 as [|u l1 IH1]; intros H1 H2 H12; [exact H2|]. cbn [app]. inversion H1; subst. constructor.
  - intros Hin. apply in_app_or in Hin as [Hin|Hin]; [contradiction|]. apply (H12 u); [left; reflexivity|exact Hin].
  - apply IH1; auto. intros b Hb. apply H12. right. exact Hb.
Qed.

Lemma NoDup_flat_map {A B : Type} (f : A -> list B) l :
  NoDup l -> (forall x, In x l -> NoDup (f x)) ->
  (forall x y b, In x l -> In y l -> In b (f x) -> In b (f y) -> x = y) -> NoDup (flat_map f l).
Proof.
  induction l as [|x t IH]; intros Hl Hf Hd; [constructor|]. cbn [flat_map].
  inversion Hl as [|? ? Hx Hl']; subst. apply NoDup_app_intro.
  - apply Hf. left. reflexivity.
  - apply IH; auto.
    + intros y Hy. apply Hf. right. exact Hy.
    + intros y z b Hy Hz. apply Hd; right; assumption.
  - intros b Hb Hin. apply in_flat_map in Hin as (y & Hy & Hby).
    assert (x = y) by (apply (Hd x y b); auto; [left; reflexivity|right; exact Hy]). subst y. contradiction.
Qed.

Lemma NoDup_map_inj {A B : Type} (f : A -> B) l :
  NoDup l -> (forall x y, In x l -> In y l -> f x = f y -> x = y) -> NoDup (map f l).
Proof.
  induction l as [|x t IH]; intros Hl Hinj; [constructor|]. inversion Hl as [|? ? Hx Hl']; subst. cbn [map]. constructor.
  - intros Hin. apply in_map_iff in Hin as (y & Hy & Hin).
    assert (y = x) by (apply Hinj; auto; [right; exact Hin|left; reflexivity]). subst y. contradiction.
  - apply IH; auto. intros y z Hy Hz. apply Hinj; right; assumption.
Qed.

(* ---------------------------------------------------------------------------------------------- *)
(* the lists the constructor builds: two and three nested loops over ranges.  The lemmas are stated on nest2/nest3:
   a list defined as a nest is exposed by unfold or by ascription before one of them is applied (left folded,
   unification is slow to find F, n, m, r) *)
Definition nest2 {A : Type} (F : nat -> nat -> A) (n m : nat) : list A :=
  flat_map (fun x => map (F x) (seq 0 m)) (seq 0 n).
Definition nest3 {A : Type} (F : nat -> nat -> nat -> A) (n m r : nat) : list A :=
  flat_map (fun x => nest2 (F x) m r) (seq 0 n).

Lemma in_nest2 {A : Type} (F : nat -> nat -> A) n m c :
  In c (nest2 F n m) <-> exists x y, x < n /\ y < m /\ c = F x y.
Proof.
  unfold nest2. rewrite in_flat_map. split.
  - intros (x & Hx & H). apply in_map_iff in H as (y & <- & Hy). apply in_seq in Hx, Hy. exists x, y. repeat split; lia.
  - intros (x & y & Hx & Hy & ->). exists x. split; [apply in_seq; lia|]. apply in_map, in_seq. lia.
Qed.

Lemma in_nest3 {A : Type} (F : nat -> nat -> nat -> A) n m r c :
  In c (nest3 F n m r) <-> exists x y z, x < n /\ y < m /\ z < r /\ c = F x y z.
Proof.
  unfold nest3. rewrite in_flat_map. split.
  - intros (x & Hx & H). apply in_nest2 in H as (y & z & Hy & Hz & ->). apply in_seq in Hx.
    exists x, y, z. repeat split; auto; lia.
  - intros (x & y & z & Hx & Hy & Hz & ->). exists x. split; [apply in_seq; lia|]. apply in_nest2. eauto.
Qed.

Lemma map_nest2 {A B : Type} (g : A -> B) F n m : map g (nest2 F n m) = nest2 (fun x y => g (F x y)) n m.
Proof. unfold nest2. rewrite map_flat_map. apply flat_map_ext. intros x. apply map_map. Qed.

Lemma map_nest3 {A B : Type} (g : A -> B) F n m r : map g (nest3 F n m r) = nest3 (fun x y z => g (F x y z)) n m r.
Proof. unfold nest3. rewrite map_flat_map. apply flat_map_ext. intros x. apply map_nest2. Qed.

Lemma length_nest2 {A : Type} (F : nat -> nat -> A) n m : length (nest2 F n m) = n * m.
Proof.
  unfold nest2. rewrite (length_flat_map_const _ _ m), seq_length; [reflexivity|].
  intros x _. rewrite map_length. apply seq_length.
Qed.

Lemma length_nest3 {A : Type} (F : nat -> nat -> nat -> A) n m r : length (nest3 F n m r) = n * (m * r).
Proof.
  unfold nest3. rewrite (length_flat_map_const _ _ (m * r)), seq_length; [reflexivity|]. intros x _. apply length_nest2.
Qed.

Lemma nest3_ext_in {A : Type} (F G : nat -> nat -> nat -> A) n m r :
  (forall x y z, x < n -> y < m -> z < r -> F x y z = G x y z) -> nest3 F n m r = nest3 G n m r.
Proof.
  intros H. apply flat_map_ext_in. intros x Hx. apply flat_map_ext_in. intros y Hy. apply map_ext_in. intros z Hz.
  apply in_seq in Hx, Hy, Hz. apply H; lia.
Qed.

Lemma nest2_blocks {A : Type} (G : nat -> nat -> A) n m r :
  nest2 G (n * m) r = nest3 (fun a b => G (a * m + b)) n m r.
Proof. apply flat_map_blocks. Qed.

Lemma NoDup_nest2 {A : Type} (F : nat -> nat -> A) n m :
  (forall x y x' y', F x y = F x' y' -> x = x' /\ y = y') -> NoDup (nest2 F n m).
Proof.
  intros Hinj. apply NoDup_flat_map; [apply seq_NoDup| |].
  - intros x _. apply NoDup_map_inj; [apply seq_NoDup|]. intros y y' _ _ E. apply (Hinj _ _ _ _ E).
  - intros x x' c _ _ H1 H2. apply in_map_iff in H1 as (y & <- & _). apply in_map_iff in H2 as (y' & E & _).
    symmetry. apply (Hinj _ _ _ _ E).
Qed.

Lemma NoDup_nest3 {A : Type} (F : nat -> nat -> nat -> A) n m r :
  (forall x y z x' y' z', F x y z = F x' y' z' -> x = x' /\ y = y' /\ z = z') -> NoDup (nest3 F n m r).
Proof.
  intros Hinj. apply NoDup_flat_map; [apply seq_NoDup| |].
  - intros x _. apply NoDup_nest2. intros y z y' z' E. apply Hinj in E. tauto.
  - intros x x' c _ _ H1 H2. apply in_nest2 in H1 as (y & z & _ & _ & ->). apply in_nest2 in H2 as (y' & z' & _ & _ & E).
    apply Hinj in E. tauto.
Qed.

(* ---------------------------------------------------------------------------------------------- *)
(* the edges in coordinates *)

Definition ce_pod (k : nat) : list (coord * coord) := nest3 (fun p a e => (Aggr p a, Edge p e)) k (k / 2) (k / 2).
Definition ce_core (k : nat) : list (coord * coord) := nest3 (fun a b p => (Core a b, Aggr p a)) (k / 2) (k / 2) k.
Definition ce_host (k : nat) : list (coord * coord) := nest3 (fun p e i => (Edge p e, Host p e i)) k (k / 2) (k / 2).
Definition cedges (k : nat) : list (coord * coord) := ce_pod k ++ ce_core k ++ ce_host k.

Definition numpair (k : nat) (e : coord * coord) : nat * nat := (num k (fst e), num k (snd e)).

Lemma ft_edges_coord h : 0 < h -> ft_edges (2 * h) = map (numpair (2 * h)) (cedges (2 * h)).
Proof.
  intros Hh. unfold ft_edges, cedges. rewrite !map_app. f_equal; [|f_equal].
  - unfold ce_pod. rewrite map_nest3. reflexivity.
  - unfold ce_core. rewrite map_nest3. unfold ft_edges_core, ncore. rewrite !half_double.
    change (flat_map ?f (seq 0 (h * h))) with (nest2 (fun c p => (c, h * h + c / h + 2 * h * p)) (h * h) (2 * h)).
    rewrite nest2_blocks. apply nest3_ext_in. intros a b p _ Hb _.
    unfold numpair, num, aggr, ncore. cbn [fst snd]. rewrite !half_double, div_block by exact Hb. f_equal. lia.
  - unfold ce_host. rewrite map_nest3. reflexivity.
Qed.

Lemma valid_cedges k x : In x (cedges k) -> valid k (fst x) /\ valid k (snd x).
Proof.
  unfold cedges, ce_pod, ce_core, ce_host. rewrite !in_app_iff.
  intros [H|[H|H]]; apply in_nest3 in H as (x1 & x2 & x3 & H1 & H2 & H3 & ->); cbn; auto.
Qed.

Lemma valid_cedge_ends k u v : In (u, v) (cedges k) \/ In (v, u) (cedges k) -> valid k u /\ valid k v.
Proof. intros [H|H]; apply valid_cedges in H; cbn [fst snd] in H; tauto. Qed.

(* neighbour lists in coordinates *)
Definition csel (v : coord) (e : coord * coord) : list coord :=
  if coord_eqb (fst e) v then [snd e] else if coord_eqb (snd e) v then [fst e] else [].
Definition cnbrs (ce : list (coord * coord)) (v : coord) : list coord := flat_map (csel v) ce.

Lemma nbrs_coord h ce v : 0 < h ->
  (forall e, In e ce -> valid (2 * h) (fst e) /\ valid (2 * h) (snd e)) -> valid (2 * h) v ->
  nbrs (map (numpair (2 * h)) ce) (num (2 * h) v) = map (num (2 * h)) (cnbrs ce v).
Proof.
  intros Hh Hce Hv. unfold nbrs, cnbrs. induction ce as [|e t IH]; [reflexivity|].
  cbn [map flat_map]. rewrite map_app, IH by (intros x Hx; apply Hce; right; exact Hx).
  f_equal. destruct (Hce e (or_introl eq_refl)) as [H1 H2].
  unfold numpair, csel. cbn [fst snd]. rewrite !(num_eqb h) by assumption.
  destruct (coord_eqb (fst e) v); [reflexivity|]. destruct (coord_eqb (snd e) v); reflexivity.
Qed.

Lemma cnbrs_app ce1 ce2 v : cnbrs (ce1 ++ ce2) v = cnbrs ce1 v ++ cnbrs ce2 v.
Proof. apply flat_map_app. Qed.

Lemma cnbrs_nest3 (F : nat -> nat -> nat -> coord * coord) n m r v :
  cnbrs (nest3 F n m r) v =
  flat_map (fun x => flat_map (fun y => flat_map (fun z => csel v (F x y z)) (seq 0 r)) (seq 0 m)) (seq 0 n).
Proof.
  unfold cnbrs, nest3, nest2. rewrite flat_map_flat_map. apply flat_map_ext. intros x.
  rewrite flat_map_flat_map. apply flat_map_ext. intros y. apply flat_map_map.
Qed.

(* the neighbours of v: each of the three loops of the constructor contributes the edges whose indices match v;
   a loop index fixed by v is picked (flat_map_pick), a free one enumerates the neighbours *)
Ltac neqb H := rewrite (proj2 (Nat.eqb_neq _ _) H).
Ltac cnbrs_start := unfold cedges, ce_pod, ce_core, ce_host; rewrite !cnbrs_app, !cnbrs_nest3; unfold csel; cbn [fst snd coord_eqb]; rewrite ?flat_map_const_nil, ?app_nil_r.
Ltac pick n i0 := rewrite (flat_map_pick _ n i0)
  by first [assumption | intros ? N; neqb N; repeat (apply flat_map_nil; intros ? _); rewrite ?andb_false_r; reflexivity];
  rewrite ?Nat.eqb_refl; cbn [andb].

(* closed forms, in the port order of networkx' adjacency *)
Lemma cnbrs_core k a0 b0 : a0 < k / 2 -> b0 < k / 2 ->
  cnbrs (cedges k) (Core a0 b0) = map (fun p => Aggr p a0) (seq 0 k).
Proof. intros Ha Hb. cnbrs_start. pick (k / 2) a0. pick (k / 2) b0. apply flat_map_singletons. Qed.

Lemma cnbrs_aggr k p0 a0 : p0 < k -> a0 < k / 2 ->
  cnbrs (cedges k) (Aggr p0 a0) = map (Edge p0) (seq 0 (k / 2)) ++ map (Core a0) (seq 0 (k / 2)).
Proof.
  intros Hp Ha. cnbrs_start. f_equal.
  - pick k p0. pick (k / 2) a0. apply flat_map_singletons.
  - pick (k / 2) a0. rewrite <- flat_map_singletons. apply flat_map_ext. intros b. pick k p0. reflexivity.
Qed.

Lemma cnbrs_edge k p0 e0 : p0 < k -> e0 < k / 2 ->
  cnbrs (cedges k) (Edge p0 e0) = map (Aggr p0) (seq 0 (k / 2)) ++ map (Host p0 e0) (seq 0 (k / 2)).
Proof.
  intros Hp He0. cnbrs_start. f_equal.
  - pick k p0. rewrite <- flat_map_singletons. apply flat_map_ext. intros a. pick (k / 2) e0. reflexivity.
  - pick k p0. pick (k / 2) e0. apply flat_map_singletons.
Qed.

Lemma cnbrs_host k p0 e0 i0 : p0 < k -> e0 < k / 2 -> i0 < k / 2 ->
  cnbrs (cedges k) (Host p0 e0 i0) = [Edge p0 e0].
Proof. intros Hp He0 Hi. cnbrs_start. pick k p0. pick (k / 2) e0. pick (k / 2) i0. reflexivity. Qed.

(* ---------------------------------------------------------------------------------------------- *)
(* node lists in coordinates *)

Definition ccores (k : nat) : list coord := nest2 Core (k / 2) (k / 2).
Definition caggrs (k : nat) : list coord := nest2 Aggr k (k / 2).
Definition cedgesw (k : nat) : list coord := nest2 Edge k (k / 2).
Definition chosts (k : nat) : list coord := nest3 Host k (k / 2) (k / 2).

Lemma ft_cores_coord h : ft_cores (2 * h) = map (num (2 * h)) (ccores (2 * h)).
Proof.
  unfold ft_cores, ccores, ncore. rewrite !half_double, map_nest2.
  rewrite <- (map_id (seq 0 (h * h))), <- flat_map_singletons, flat_map_blocks.
  apply flat_map_ext. intros a. rewrite flat_map_singletons. apply map_ext. intros b.
  cbn [num]. rewrite half_double. reflexivity.
Qed.

Lemma ft_aggrs_coord k : ft_aggrs k = map (num k) (caggrs k).
Proof. unfold caggrs. rewrite map_nest2. reflexivity. Qed.

Lemma ft_edgesw_coord k : ft_edgesw k = map (num k) (cedgesw k).
Proof. unfold cedgesw. rewrite map_nest2. reflexivity. Qed.

Lemma ft_hosts_coord k : ft_hosts k = map (num k) (chosts k).
Proof. unfold chosts. rewrite map_nest3. reflexivity. Qed.

Lemma NoDup_all_coords k : NoDup (ccores k ++ caggrs k ++ cedgesw k ++ chosts k).
Proof.
  unfold ccores, caggrs, cedgesw, chosts.
  apply NoDup_app_intro; [apply NoDup_nest2; intros x y x' y' [= -> ->]; auto| |].
  apply NoDup_app_intro; [apply NoDup_nest2; intros x y x' y' [= -> ->]; auto| |].
  apply NoDup_app_intro; [apply NoDup_nest2; intros x y x' y' [= -> ->]; auto| |].
  - apply NoDup_nest3. intros x y z x' y' z' [= -> -> ->]. auto.
  - intros c H1 H2. apply in_nest2 in H1 as (? & ? & _ & _ & ->). apply in_nest3 in H2 as (? & ? & ? & _ & _ & _ & [=]).
  - intros c H1 H2. apply in_nest2 in H1 as (? & ? & _ & _ & ->). apply in_app_or in H2 as [H2|H2];
      [apply in_nest2 in H2 as (? & ? & _ & _ & [=])|apply in_nest3 in H2 as (? & ? & ? & _ & _ & _ & [=])].
  - intros c H1 H2. apply in_nest2 in H1 as (? & ? & _ & _ & ->). apply in_app_or in H2 as [H2|H2];
      [apply in_nest2 in H2 as (? & ? & _ & _ & [=])|].
    apply in_app_or in H2 as [H2|H2];
      [apply in_nest2 in H2 as (? & ? & _ & _ & [=])|apply in_nest3 in H2 as (? & ? & ? & _ & _ & _ & [=])].
Qed.

Lemma valid_all_coords k c : In c (ccores k ++ caggrs k ++ cedgesw k ++ chosts k) -> valid k c.
Proof.
  unfold ccores, caggrs, cedgesw, chosts. rewrite !in_app_iff. intros [H|[H|[H|H]]].
  - apply in_nest2 in H as (? & ? & ? & ? & ->). cbn. auto.
  - apply in_nest2 in H as (? & ? & ? & ? & ->). cbn. auto.
  - apply in_nest2 in H as (? & ? & ? & ? & ->). cbn. auto.
  - apply in_nest3 in H as (? & ? & ? & ? & ? & ? & ->). cbn. auto.
Qed.

Lemma filter_all_false {A : Type} (f : A -> bool) l : (forall x, In x l -> f x = false) -> filter f l = [].
Proof.
  induction l as [|x t IH]; intros H; [reflexivity|]. cbn [filter]. rewrite (H x (or_introl eq_refl)). apply IH.
  intros y Hy. apply H. right. exact Hy.
Qed.

Lemma filter_all_true {A : Type} (f : A -> bool) l : (forall x, In x l -> f x = true) -> filter f l = l.
Proof.
  induction l as [|x t IH]; intros H; [reflexivity|]. cbn [filter]. rewrite (H x (or_introl eq_refl)). f_equal. apply IH.
  intros y Hy. apply H. right. exact Hy.
Qed.

Lemma is_host_num h c : 0 < h -> valid (2 * h) c ->
  is_host (2 * h) (num (2 * h) c) = match c with Host _ _ _ => true | _ => false end.
Proof.
  intros Hh Hv. unfold is_host, ft_nnodes, num, aggr, edge, host, ncore. unfold valid in Hv. rewrite !half_double in *.
  set (k := 2 * h) in *. assert (Hk : k = 2 * h) by reflexivity. clearbody k.
  destruct c as [a b|p a|p e|p e i].
  - destruct Hv as [Ha Hb]. pose proof (lt_block a b h h Ha Hb).
    destruct (h * h + k * k <=? a * h + b) eqn:E; [apply Nat.leb_le in E; lia|reflexivity].
  - destruct Hv as [Hp Ha]. assert (p * k + a < k * k) by (apply lt_block; lia).
    destruct (h * h + k * k <=? h * h + p * k + a) eqn:E; [apply Nat.leb_le in E; lia|reflexivity].
  - destruct Hv as [Hp Ha]. assert (p * k + (h + e) < k * k) by (apply lt_block; lia).
    destruct (h * h + k * k <=? h * h + p * k + h + e) eqn:E; [apply Nat.leb_le in E; lia|reflexivity].
  - destruct Hv as (Hp & He & Hi).
    assert (H1 : p * h + e < k * h) by (apply lt_block; lia).
    assert (H2 : (p * h + e) * h + i < k * h * h) by (apply lt_block; lia).
    remember ((p * h + e) * h) as X. remember (k * k) as KK. remember (h * h) as HH. remember (k * h * h) as N.
    destruct (HH + KK <=? HH + KK + X + i) eqn:E1; [|apply Nat.leb_gt in E1; lia].
    destruct (HH + KK + X + i <? HH + KK + N) eqn:E2; [reflexivity|apply Nat.ltb_ge in E2; lia].
Qed.

(* the neighbour lists of the four kinds of node, in port order *)
Lemma ft_nbrs_closed h c : 0 < h -> valid (2 * h) c ->
  nbrs (ft_edges (2 * h)) (num (2 * h) c) = map (num (2 * h)) (cnbrs (cedges (2 * h)) c).
Proof. intros Hh Hv. rewrite (ft_edges_coord h Hh). apply nbrs_coord; auto. apply valid_cedges. Qed.

(* ---------------------------------------------------------------------------------------------- *)
(* counts and degrees, for every even k >= 2 *)

Lemma even_ge2 k : Nat.even k = true -> 2 <= k -> exists h, 0 < h /\ k = 2 * h.
Proof. intros He Hk. exists (k / 2). pose proof (even_half k He). split; lia. Qed.

(* (k/2)^2 core switches, k^2/2 aggregation and k^2/2 edge switches, k^3/4 hosts, all node numbers
   distinct and exactly 0 .. ft_nnodes-1 many, k/2 hosts on every edge switch *)
Theorem ft_counts : forall k, Nat.even k = true -> 2 <= k ->
  length (ft_cores k) = (k / 2) * (k / 2) /\
  2 * length (ft_aggrs k) = k * k /\
  2 * length (ft_edgesw k) = k * k /\
  4 * length (ft_hosts k) = k * k * k /\
  NoDup (ft_cores k ++ ft_aggrs k ++ ft_edgesw k ++ ft_hosts k) /\
  length (ft_cores k ++ ft_aggrs k ++ ft_edgesw k ++ ft_hosts k) = ft_nnodes k /\
  (forall sw, In sw (ft_edgesw k) -> length (hosts_of k sw) = k / 2 /\ forall x, In x (hosts_of k sw) -> In x (ft_hosts k)).
Proof.
  intros k He Hk. destruct (even_ge2 k He Hk) as (h & Hh & ->).
  assert (L1 : length (ft_cores (2 * h)) = h * h) by (unfold ft_cores, ncore; rewrite seq_length, half_double; reflexivity).
  pose proof (length_nest2 (aggr (2 * h)) (2 * h) (2 * h / 2) : length (ft_aggrs (2 * h)) = _) as L2.
  pose proof (length_nest2 (edge (2 * h)) (2 * h) (2 * h / 2) : length (ft_edgesw (2 * h)) = _) as L3.
  pose proof (length_nest3 (host (2 * h)) (2 * h) (2 * h / 2) (2 * h / 2) : length (ft_hosts (2 * h)) = _) as L4.
  rewrite half_double in *.
  split; [exact L1|]. split; [rewrite L2; ring|]. split; [rewrite L3; ring|]. split; [rewrite L4; ring|].
  split; [|split].
  - rewrite ft_cores_coord, ft_aggrs_coord, ft_edgesw_coord, ft_hosts_coord, <- !map_app.
    apply NoDup_map_inj; [apply NoDup_all_coords|].
    intros c d Hc Hd. apply (num_inj h c d Hh); apply valid_all_coords; assumption.
  - rewrite !app_length, L1, L2, L3, L4. unfold ft_nnodes, ncore. rewrite half_double. ring.
  - intros sw Hsw. rewrite ft_edgesw_coord in Hsw. apply in_map_iff in Hsw as (c & <- & Hc).
    unfold cedgesw in Hc. apply in_nest2 in Hc as (p & e & Hp & He' & ->).
    assert (Hv : valid (2 * h) (Edge p e)) by (unfold valid; auto).
    unfold hosts_of. rewrite (ft_nbrs_closed h _ Hh Hv), cnbrs_edge by assumption.
    rewrite map_app, filter_app, filter_all_false, filter_all_true.
    + cbn [app]. rewrite !map_length, seq_length. split; [apply half_double|].
      intros x Hx. rewrite ft_hosts_coord. apply in_map_iff in Hx as (c & <- & Hc). apply in_map.
      apply in_map_iff in Hc as (i & <- & Hi). apply in_seq in Hi. unfold chosts. apply in_nest3. exists p, e, i. repeat split; auto; lia.
    + intros x Hx. apply in_map_iff in Hx as (c & <- & Hc). apply in_map_iff in Hc as (i & <- & Hi). apply in_seq in Hi.
      rewrite is_host_num; [reflexivity|exact Hh|]. unfold valid. repeat split; auto; lia.
    + intros x Hx. apply in_map_iff in Hx as (c & <- & Hc). apply in_map_iff in Hc as (a & <- & Ha). apply in_seq in Ha.
      rewrite is_host_num; [reflexivity|exact Hh|]. unfold valid. split; auto; lia.
Qed.

Example ft_counts_ex : (length (ft_cores 4), length (ft_aggrs 4), length (ft_edgesw 4), length (ft_hosts 4), ft_nnodes 4) = (4, 8, 8, 16, 36).
Proof. reflexivity. Qed.

Lemma degree_coord h c : 0 < h -> valid (2 * h) c ->
  degree (ft_edges (2 * h)) (num (2 * h) c) = match c with Host _ _ _ => 1 | _ => 2 * h end.
Proof.
  intros Hh Hv. unfold degree. rewrite (ft_nbrs_closed h c Hh Hv), map_length.
  destruct c; unfold valid in Hv; [rewrite cnbrs_core|rewrite cnbrs_aggr|rewrite cnbrs_edge|rewrite cnbrs_host]; try tauto;
    rewrite ?app_length, ?map_length, ?seq_length, ?half_double; cbn; lia.
Qed.

(* every switch has degree k; every host hangs on one link *)
Theorem ft_degrees : forall k, Nat.even k = true -> 2 <= k ->
  (forall v, In v (ft_switches k) -> degree (ft_edges k) v = k) /\
  (forall v, In v (ft_hosts k) -> degree (ft_edges k) v = 1).
Proof.
  intros k He Hk. destruct (even_ge2 k He Hk) as (h & Hh & ->). unfold ft_switches. split.
  - intros v Hv. rewrite ft_cores_coord, ft_aggrs_coord, ft_edgesw_coord, <- !map_app in Hv.
    apply in_map_iff in Hv as (c & <- & Hc).
    rewrite degree_coord; [|exact Hh|apply valid_all_coords; rewrite !in_app_iff in *; tauto].
    unfold ccores, caggrs, cedgesw in Hc. rewrite !in_app_iff in Hc. destruct Hc as [Hc|[Hc|Hc]]; apply in_nest2 in Hc as (? & ? & _ & _ & ->); reflexivity.
  - intros v Hv. rewrite ft_hosts_coord in Hv. apply in_map_iff in Hv as (c & <- & Hc).
    unfold chosts in Hc. apply in_nest3 in Hc as (p & e & i & Hp & He' & Hi & ->). rewrite degree_coord; [reflexivity|exact Hh|cbn; auto].
Qed.

Example ft_degrees_ex : map (degree (ft_edges 6)) [0; 8; 9; 12; 44; 45; 98] = [6; 6; 6; 6; 6; 1; 1].
Proof. vm_compute. reflexivity. Qed.

(* ---------------------------------------------------------------------------------------------- *)
(* distance between hosts, for every even k >= 2 *)

(* distance from the host x0 to any node *)
Definition pot (x0 c : coord) : nat :=
  match x0 with
  | Host p0 e0 i0 =>
      match c with
      | Host p e i => if (p0 =? p) && (e0 =? e) && (i0 =? i) then 0
                      else if (p0 =? p) && (e0 =? e) then 2 else if p0 =? p then 4 else 6
      | Edge p e => if (p0 =? p) && (e0 =? e) then 1 else if p0 =? p then 3 else 5
      | Aggr p a => if p0 =? p then 2 else 4
      | Core _ _ => 3
      end
  | _ => 0
  end.

Lemma pot_lipschitz k x0 u v : In (u, v) (cedges k) -> pot x0 u <= pot x0 v + 1 /\ pot x0 v <= pot x0 u + 1.
Proof.
  destruct x0 as [| | |p0 e0 i0]; try (cbn; lia).
  unfold cedges, ce_pod, ce_core, ce_host. rewrite !in_app_iff. intros [H|[H|H]].
  - apply in_nest3 in H as (p & a & e & _ & _ & _ & [= -> ->]). cbn [pot].
    destruct (p0 =? p); destruct (e0 =? e); cbn [andb]; lia.
  - apply in_nest3 in H as (a & b & p & _ & _ & _ & [= -> ->]). cbn [pot].
    destruct (p0 =? p); lia.
  - apply in_nest3 in H as (p & e & i & _ & _ & _ & [= -> ->]). cbn [pot].
    destruct (p0 =? p); destruct (e0 =? e); destruct (i0 =? i); cbn [andb]; lia.
Qed.

Lemma adjb_coord k ce a z : adjb (map (numpair k) ce) a z = true ->
  exists u v, (In (u, v) ce \/ In (v, u) ce) /\ a = num k u /\ z = num k v.
Proof.
  unfold adjb. intros H. apply existsb_exists in H as (e & He & H). apply in_map_iff in He as ((u, v) & <- & Hin).
  unfold numpair in H. cbn [fst snd] in H. apply orb_true_iff in H as [H|H]; apply andb_true_iff in H as [H1 H2];
    apply Nat.eqb_eq in H1, H2; subst.
  - exists u, v. auto.
  - exists v, u. auto.
Qed.

Lemma adjb_in k ce u v : In (u, v) ce \/ In (v, u) ce -> adjb (map (numpair k) ce) (num k u) (num k v) = true.
Proof.
  intros H. unfold adjb. apply existsb_exists. destruct H as [H|H].
  - exists (numpair k (u, v)). split; [apply in_map; exact H|]. unfold numpair. cbn [fst snd]. rewrite !Nat.eqb_refl. reflexivity.
  - exists (numpair k (v, u)). split; [apply in_map; exact H|]. unfold numpair. cbn [fst snd]. rewrite !Nat.eqb_refl. apply orb_true_r.
Qed.

Lemma last_cons_default {A : Type} (l : list A) x d d' : last (x :: l) d = last (x :: l) d'.
Proof.
  revert x. induction l as [|y l IH]; intros x; [reflexivity|].
  change (last (x :: y :: l) d) with (last (y :: l) d). change (last (x :: y :: l) d') with (last (y :: l) d'). apply IH.
Qed.

(* no walk from x0 reaches a node in fewer steps than its potential *)
Lemma walk_lower h x0 : 0 < h -> forall rest a,
  walkb (ft_edges (2 * h)) (a :: rest) = true ->
  pot x0 (decode (2 * h) (last (a :: rest) a)) <= pot x0 (decode (2 * h) a) + length rest.
Proof.
  intros Hh. rewrite (ft_edges_coord h Hh). induction rest as [|z rest IH]; intros a Hw.
  - cbn [last length]. lia.
  - cbn [walkb] in Hw. apply andb_true_iff in Hw as [Hadj Hw]. specialize (IH z Hw).
    apply adjb_coord in Hadj as (u & v & Hin & -> & ->).
    assert (Hl : pot x0 u <= pot x0 v + 1 /\ pot x0 v <= pot x0 u + 1).
    { destruct Hin as [Hin|Hin]; [apply (pot_lipschitz _ _ _ _ Hin)|]. destruct (pot_lipschitz _ x0 _ _ Hin). lia. }
    pose proof (valid_cedge_ends _ _ _ Hin) as Hvu.
    rewrite (decode_num h u Hh) by tauto. rewrite (decode_num h v Hh) in IH by tauto.
    replace (last (num (2 * h) u :: num (2 * h) v :: rest) (num (2 * h) u)) with (last (num (2 * h) v :: rest) (num (2 * h) v)).
    + cbn [length]. lia.
    + change (last (num (2 * h) u :: num (2 * h) v :: rest) (num (2 * h) u)) with (last (num (2 * h) v :: rest) (num (2 * h) u)).
      apply last_cons_default.
Qed.

Lemma hostdist_pot h p e i q f j : 0 < h -> valid (2 * h) (Host p e i) -> valid (2 * h) (Host q f j) ->
  hostdist (2 * h) (num (2 * h) (Host p e i)) (num (2 * h) (Host q f j)) = pot (Host p e i) (Host q f j).
Proof.
  intros Hh H1 H2. unfold hostdist. rewrite !(decode_num h) by assumption. reflexivity.
Qed.

(* a shortest walk, explicitly *)
Definition cpath (x y : coord) : list coord :=
  match x, y with
  | Host p e i, Host q f j =>
      if (p =? q) && (e =? f) && (i =? j) then []
      else if (p =? q) && (e =? f) then [Edge p e; y]
      else if p =? q then [Edge p e; Aggr p 0; Edge q f; y]
      else [Edge p e; Aggr p 0; Core 0 0; Aggr q 0; Edge q f; y]
  | _, _ => []
  end.

Lemma in_cedges_pod k p a e : p < k -> a < k / 2 -> e < k / 2 -> In (Aggr p a, Edge p e) (cedges k).
Proof. intros. unfold cedges, ce_pod. apply in_or_app. left. apply in_nest3. exists p, a, e. auto. Qed.
Lemma in_cedges_core k a b p : a < k / 2 -> b < k / 2 -> p < k -> In (Core a b, Aggr p a) (cedges k).
Proof. intros. unfold cedges, ce_core. apply in_or_app. right. apply in_or_app. left. apply in_nest3. exists a, b, p. auto. Qed.
Lemma in_cedges_host k p e i : p < k -> e < k / 2 -> i < k / 2 -> In (Edge p e, Host p e i) (cedges k).
Proof. intros. unfold cedges, ce_host. apply in_or_app. right. apply in_or_app. right. apply in_nest3. exists p, e, i. auto. Qed.

Lemma cpath_walk h x y : 0 < h ->
  match x, y with Host _ _ _, Host _ _ _ => True | _, _ => False end ->
  valid (2 * h) x -> valid (2 * h) y ->
  walkb (ft_edges (2 * h)) (num (2 * h) x :: map (num (2 * h)) (cpath x y)) = true /\
  last (num (2 * h) x :: map (num (2 * h)) (cpath x y)) (num (2 * h) x) = num (2 * h) y /\
  length (cpath x y) = pot x y.
Proof.
  intros Hh Hxy Hx Hy. rewrite (ft_edges_coord h Hh).
  destruct x as [| | |p e i]; try contradiction. destruct y as [| | |q f j]; try contradiction.
  unfold valid in Hx, Hy. rewrite half_double in Hx, Hy. destruct Hx as (Hp & He & Hi). destruct Hy as (Hq & Hf & Hj).
  assert (Hh2 : 2 * h / 2 = h) by apply half_double.
  unfold cpath, pot.
  destruct (p =? q) eqn:Epq;
    [apply Nat.eqb_eq in Epq; subst q; destruct (e =? f) eqn:Eef;
     [apply Nat.eqb_eq in Eef; subst f; destruct (i =? j) eqn:Eij; [apply Nat.eqb_eq in Eij; subst j|]|]|];
    cbn [andb];
    cbn [map walkb last length]; rewrite ?andb_true_r;
    repeat match goal with
    | |- _ /\ _ => split
    | |- _ && _ = true => apply andb_true_iff; split
    | |- adjb _ _ _ = true => apply adjb_in
    | |- _ = _ => reflexivity
    end.
  (* each remaining goal names an edge, in one of its two directions; its bounds are among the hypotheses *)
  all: first [left; first [apply in_cedges_host|apply in_cedges_pod|apply in_cedges_core]; rewrite ?Hh2; assumption
             |right; first [apply in_cedges_host|apply in_cedges_pod|apply in_cedges_core]; rewrite ?Hh2; assumption].
Qed.

(* hostdist is the graph distance between hosts in fattree k: no walk is shorter, and a walk of that
   length exists.  For EVERY even k >= 2. *)
Theorem hostdist_is_distance : forall k, Nat.even k = true -> 2 <= k ->
  forall x y, is_host k x = true -> is_host k y = true ->
  (forall rest, walkb (ft_edges k) (x :: rest) = true -> last (x :: rest) x = y -> hostdist k x y <= length rest) /\
  (exists rest, walkb (ft_edges k) (x :: rest) = true /\ last (x :: rest) x = y /\ length rest = hostdist k x y) /\
  (x <> y -> hostdist k x y = 2 \/ hostdist k x y = 4 \/ hostdist k x y = 6).
Proof.
  intros k He Hk x y Hx Hy. destruct (even_ge2 k He Hk) as (h & Hh & ->).
  destruct (host_decode h x Hh Hx) as (p & e & i & Dx & Vx & <-).
  destruct (host_decode h y Hh Hy) as (q & f & j & Dy & Vy & <-).
  pose proof (hostdist_pot h p e i q f j Hh Vx Vy) as Hd.
  split; [|split].
  - intros rest Hw Hl. pose proof (walk_lower h (Host p e i) Hh rest _ Hw) as Hlow.
    rewrite Hl, Dx, Dy in Hlow. rewrite Hd.
    assert (pot (Host p e i) (Host p e i) = 0) by (cbn [pot]; rewrite !Nat.eqb_refl; reflexivity). lia.
  - destruct (cpath_walk h (Host p e i) (Host q f j) Hh I Vx Vy) as (Hw & Hl & Hlen).
    exists (map (num (2 * h)) (cpath (Host p e i) (Host q f j))).
    split; [exact Hw|]. split; [exact Hl|]. rewrite map_length, Hlen, Hd. reflexivity.
  - intros Hne. rewrite Hd. cbn [pot].
    destruct (p =? q) eqn:Epq; [destruct (e =? f) eqn:Eef; [destruct (i =? j) eqn:Eij|]|]; cbn [andb]; auto.
    apply Nat.eqb_eq in Epq, Eef, Eij. subst. congruence.
Qed.

Example hostdist_ex : map (hostdist 4 20) [20; 21; 22; 24; 35] = [0; 2; 4; 6; 6].
Proof. reflexivity. Qed.

Lemma path_ok_inv k src dst p : path_ok k src dst p = true ->
  is_host k src = true /\ is_host k dst = true /\ src <> dst /\
  (exists rest, p = src :: rest /\ last p src = dst /\ length rest = hostdist k src dst) /\
  walkb (ft_edges k) p = true /\ nodupb p = true.
Proof.
  unfold path_ok. intros H. repeat (apply andb_true_iff in H as [H ?]).
  repeat match goal with
         | X : (_ =? _) = true |- _ => apply Nat.eqb_eq in X
         | X : negb (_ =? _) = true |- _ => apply negb_true_iff in X; apply Nat.eqb_neq in X
         end.
  destruct p as [|s rest]; [discriminate|]. cbn [hd] in *. subst s.
  split; [unfold is_host; apply andb_true_iff; split; assumption|].
  split; [assumption|]. split; [assumption|]. split; [|split; assumption].
  exists rest. split; [reflexivity|]. split; [|cbn [length] in *; congruence].
  match goal with X : last _ _ = dst |- _ => rewrite <- X end. apply last_cons_default.
Qed.

(* what the per-run check of a generated path establishes: a path accepted by path_ok is a simple
   walk between two distinct hosts, and no walk between them in fattree k is shorter *)
Theorem path_ok_shortest : forall k src dst p, Nat.even k = true -> 2 <= k -> path_ok k src dst p = true ->
  exists rest, p = src :: rest /\ last p src = dst /\ walkb (ft_edges k) p = true /\ nodupb p = true /\
    forall rest', walkb (ft_edges k) (src :: rest') = true -> last (src :: rest') src = dst -> length rest <= length rest'.
Proof.
  intros k src dst p He Hk H.
  destruct (path_ok_inv _ _ _ _ H) as (Hs & Hd & _ & (rest & -> & Hl & Hlen) & Hw & Hn).
  exists rest. split; [reflexivity|]. split; [exact Hl|]. split; [exact Hw|]. split; [exact Hn|].
  intros rest' Hw' Hl'. rewrite Hlen. apply (hostdist_is_distance k He Hk src dst Hs Hd); assumption.
Qed.

Lemma adjb_nbrs g a z : adjb g a z = true -> In z (nbrs g a) /\ In a (nbrs g z).
Proof.
  unfold adjb, nbrs. intros H. apply existsb_exists in H as (e & He & H).
  apply orb_true_iff in H as [H|H]; apply andb_true_iff in H as [H1 H2]; apply Nat.eqb_eq in H1, H2; split;
    apply in_flat_map; exists e; (split; [exact He|]).
  - rewrite H1, Nat.eqb_refl. left. exact H2.
  - rewrite H1, H2. destruct (a =? z) eqn:E; [apply Nat.eqb_eq in E; left; auto|]. rewrite Nat.eqb_refl. left. reflexivity.
  - rewrite H1, H2. destruct (z =? a) eqn:E; [apply Nat.eqb_eq in E; left; auto|]. rewrite Nat.eqb_refl. left. reflexivity.
  - rewrite H1, Nat.eqb_refl. left. exact H2.
Qed.

Lemma nodupb_NoDup l : nodupb l = true -> NoDup l.
Proof.
  induction l as [|x t IH]; intros H; [constructor|]. cbn [nodupb] in H. apply andb_true_iff in H as [H1 H2].
  constructor; [|apply IH; exact H2]. intros Hin. apply negb_true_iff in H1.
  assert (existsb (Nat.eqb x) t = true) by (apply existsb_exists; exists x; split; [exact Hin|apply Nat.eqb_refl]). congruence.
Qed.

Lemma hostdist_le6 k x y : hostdist k x y <= 6.
Proof.
  unfold hostdist. destruct (decode k x); try lia. destruct (decode k y); try lia.
  destruct (p =? p0); destruct (e =? e0); destruct (i =? i0); cbn [andb]; lia.
Qed.
