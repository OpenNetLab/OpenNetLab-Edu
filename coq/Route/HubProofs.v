(* Proofs about Route/Hub.v: the hub repeats to everybody but the sender, exactly once, through the
   port device when there is one; the splitter hands out the original and distinct copies whose
   header fields are independent. *)
From Coq Require Import ZArith List Bool Arith Lia.
From ONL Require Import Route.Hub.
Import ListNotations.

(* ---------------------------------------------------------------------------------------------- *)
(* Hub *)

Lemma hub_put_from_spec : forall s idx src i v,
  In (i, v) (hub_put_from idx s src) <->
  exists j e, i = idx + j /\ nth_error s j = Some e /\ ep_id e <> src /\ v = ep_port e.
Proof.
  induction s as [|e t IH]; intros idx src i v; cbn [hub_put_from].
  - split; [intros []|intros ([|j] & e & _ & He & _); discriminate].
  - destruct (Z.eqb_spec (ep_id e) src) as [E|E]; [|cbn [In]]; rewrite IH; split.
    + intros (j & e' & -> & H). exists (S j), e'. split; [lia|exact H].
    + intros ([|j] & e' & -> & Hn & Hne & Hv); [injection Hn as <-; contradiction|]. exists j, e'. split; [lia|auto].
    + intros [[= <- <-]|(j & e' & -> & H)]; [exists 0, e; split; [lia|auto]|exists (S j), e'; split; [lia|exact H]].
    + intros ([|j] & e' & -> & Hn & Hne & Hv); [injection Hn as <-; left; f_equal; [lia|auto]|].
      right. exists j, e'. split; [lia|auto].
Qed.

Lemma hub_put_from_nodup : forall s idx src, NoDup (map fst (hub_put_from idx s src)).
Proof.
  induction s as [|e t IH]; intros idx src; cbn [hub_put_from].
  - constructor.
  - destruct (Z.eqb (ep_id e) src); [apply IH|].
    cbn [map fst]. constructor; [|apply IH].
    intros Hin. apply in_map_iff in Hin as ((i, v) & Hi & Hin). cbn [fst] in Hi. subst i.
    apply hub_put_from_spec in Hin as (j & _ & Hj & _). lia.
Qed.

(* every attached endpoint whose element_id differs from packet.src gets the packet exactly once,
   through its port device exactly when it has one; the sender (every endpoint with that id) never *)
Theorem hub_repeats : forall (s : hub_state) (src : Z),
  NoDup (map fst (hub_put s src)) /\
  (forall i v, In (i, v) (hub_put s src) <-> exists e, nth_error s i = Some e /\ ep_id e <> src /\ v = ep_port e) /\
  (forall i e, nth_error s i = Some e -> ep_id e = src -> ~ In i (map fst (hub_put s src))).
Proof.
  intros s src. unfold hub_put.
  assert (Hspec : forall i v, In (i, v) (hub_put_from 0 s src) <->
                              exists e, nth_error s i = Some e /\ ep_id e <> src /\ v = ep_port e).
  { intros i v. rewrite hub_put_from_spec. split; [intros (j & e & -> & H)|intros (e & H); exists i]; eauto. }
  split; [apply hub_put_from_nodup|]. split; [exact Hspec|].
  intros i e Hn Hid Hin. apply in_map_iff in Hin as ((j, v) & Hj & Hin). cbn [fst] in Hj. subst j.
  apply Hspec in Hin as (e' & Hn' & Hne & _). congruence.
Qed.

Example hub_repeats_ex :
  hub_put [ {| ep_id := 1; ep_port := false |}; {| ep_id := 2; ep_port := true |}; {| ep_id := 1; ep_port := true |};
            {| ep_id := 3; ep_port := false |} ] 1%Z = [(1, true); (3, false)].
Proof. reflexivity. Qed.

Lemma nth_error_combine {A B : Type} (l : list A) : forall (l' : list B) i,
  nth_error (combine l l') i =
  match nth_error l i, nth_error l' i with Some a, Some b => Some (a, b) | _, _ => None end.
Proof.
  induction l as [|a l IH]; intros [|b l'] [|i]; cbn; auto. destruct (nth_error l i); reflexivity.
Qed.

(* the constructor: without a ports list every endpoint is attached directly; with one, endpoint i
   gets port i; lists of different lengths are refused *)
Theorem hub_make_spec : forall eids ports,
  (ports = [] -> hub_make true eids ports = inl (map (fun i => {| ep_id := i; ep_port := false |}) eids)) /\
  (ports <> [] -> length ports = length eids ->
     exists s, hub_make true eids ports = inl s /\ length s = length eids /\
       forall i e, nth_error s i = Some e <->
                   exists id p, nth_error eids i = Some id /\ nth_error ports i = Some p /\ e = {| ep_id := id; ep_port := p |}) /\
  (ports <> [] -> length ports <> length eids -> hub_make true eids ports = inr HValueError).
Proof.
  intros eids ports. repeat split.
  - intros ->. destruct eids; reflexivity.
  - intros Hne Hlen. destruct ports as [|p0 pt]; [contradiction|].
    unfold hub_make. rewrite Hlen, Nat.eqb_refl.
    eexists; split; [reflexivity|]. split.
    + rewrite map_length, combine_length. lia.
    + intros i e. rewrite nth_error_map, nth_error_combine.
      destruct (nth_error eids i) as [id|], (nth_error (p0 :: pt) i) as [p|]; cbn; split;
        try discriminate; try (intros (? & ? & H1 & H2 & _); discriminate).
      * intros [= <-]. eauto.
      * intros (? & ? & [= <-] & [= <-] & ->). reflexivity.
  - intros Hne Hlen. destruct ports as [|p0 pt]; [contradiction|].
    unfold hub_make. apply Nat.eqb_neq in Hlen. rewrite Hlen. reflexivity.
Qed.

Lemma hub_add_nth : forall s e i,
  nth_error (hub_add s e) i = if i <? length s then nth_error s i else if i =? length s then Some e else None.
Proof.
  intros s e i. unfold hub_add.
  destruct (i <? length s) eqn:E1.
  - apply Nat.ltb_lt in E1. apply nth_error_app1. exact E1.
  - apply Nat.ltb_ge in E1. rewrite nth_error_app2 by exact E1.
    destruct (i =? length s) eqn:E2.
    + apply Nat.eqb_eq in E2. rewrite E2, Nat.sub_diag. reflexivity.
    + apply Nat.eqb_neq in E2. destruct (i - length s) as [|m] eqn:Em; [lia|]. destruct m; reflexivity.
Qed.

(* ---- dynamic attachment ---------------------------------------------------------------------- *)

Lemma hub_run_app : forall pre s post,
  hub_run s (pre ++ post) = hub_run s pre ++ hub_run (hub_after s pre) post.
Proof.
  induction pre as [|a pre IH]; intros s post; [reflexivity|].
  destruct a as [e|src|i id]; cbn [app hub_run hub_after fold_left hub_step].
  - apply IH.
  - rewrite IH. reflexivity.
  - apply IH.
Qed.

Lemma hub_run_length : forall acts s, length (hub_run s acts) = count_sends acts.
Proof.
  induction acts as [|a acts IH]; intros s; [reflexivity|].
  destruct a; cbn [hub_run count_sends length]; rewrite ?IH; reflexivity.
Qed.

Lemma hub_after_attaches : forall es s, hub_after s (map HAttach es) = s ++ es.
Proof.
  induction es as [|e es IH]; intros s; cbn [map hub_after fold_left hub_step].
  - rewrite app_nil_r. reflexivity.
  - change (fold_left hub_step (map HAttach es) (hub_add s e)) with (hub_after (hub_add s e) (map HAttach es)).
    rewrite IH. unfold hub_add. rewrite <- app_assoc. reflexivity.
Qed.

(* Whatever was attached, renamed or sent before: the send that follows the actions [pre] is repeated
   to exactly the endpoints attached SO FAR (the population hub_after s pre) other than the sender,
   each exactly once, through its port device exactly when it has one. *)
Theorem hub_repeats_dynamic : forall (s : hub_state) (pre : list hub_act) (src : Z) (post : list hub_act),
  let cur := hub_after s pre in
  nth_error (hub_run s (pre ++ HSend src :: post)) (count_sends pre) = Some (hub_put cur src) /\
  NoDup (map fst (hub_put cur src)) /\
  (forall i v, In (i, v) (hub_put cur src) <-> exists e, nth_error cur i = Some e /\ ep_id e <> src /\ v = ep_port e) /\
  (forall i e, nth_error cur i = Some e -> ep_id e = src -> ~ In i (map fst (hub_put cur src))).
Proof.
  intros s pre src post cur. split.
  - rewrite hub_run_app. rewrite nth_error_app2 by (rewrite hub_run_length; lia).
    rewrite hub_run_length, Nat.sub_diag. reflexivity.
  - apply hub_repeats.
Qed.

(* in particular with add_endpoint only: constructor population s, then endpoints es attached one by
   one (with any sends in between, which change nothing): the population is s ++ es *)
Theorem hub_attached_so_far : forall (s : hub_state) (es : list hub_ep) (src : Z) (i : nat) (v : bool),
  In (i, v) (hub_put (hub_after s (map HAttach es)) src) <->
  exists e, nth_error (s ++ es) i = Some e /\ ep_id e <> src /\ v = ep_port e.
Proof.
  intros s es src i v. rewrite hub_after_attaches. apply hub_repeats.
Qed.

Lemma hub_after_send : forall s src, hub_after s [HSend src] = s.
Proof. reflexivity. Qed.

Example hub_dynamic_ex :
  hub_run [ {| ep_id := 1; ep_port := false |} ]
          [HSend 1%Z; HAttach {| ep_id := 2; ep_port := true |}; HSend 1%Z; HAttach {| ep_id := 3; ep_port := false |};
           HSend 1%Z; HSend 2%Z; HRename 0 3%Z; HSend 3%Z]
  = [ []; [(1, true)]; [(1, true); (2, false)]; [(0, false); (2, false)]; [(1, true)] ].
Proof. reflexivity. Qed.

(* the code as found cannot build a hub without a ports list *)
Theorem hub_refuted_before_fix : exists eids, eids <> [] /\ hub_make false eids [] = inr HIndexError.
Proof. exists [1%Z; 2%Z]. split; [discriminate|reflexivity]. Qed.

(* ---------------------------------------------------------------------------------------------- *)
(* heap facts *)

Lemma hget_hset : forall h o f v o',
  hget (hset h o f v) o' = if o =? o' then option_map (fun p => set_hdr p f v) (hget h o) else hget h o'.
Proof.
  unfold hget. induction h as [|p t IH]; intros o f v o'; cbn [hset].
  - destruct o, o'; cbn; try reflexivity. destruct (o =? o'); reflexivity.
  - destruct o as [|o]; destruct o' as [|o']; cbn [hset nth_error Nat.eqb option_map]; try reflexivity.
    apply IH.
Qed.

Lemma hset_length : forall h o f v, length (hset h o f v) = length h.
Proof. induction h as [|p t IH]; intros [|o] f v; cbn [hset length]; auto. Qed.

(* ---------------------------------------------------------------------------------------------- *)
(* Splitter *)

(* the indices of the attached outputs, from idx on *)
Fixpoint attached_from (idx : nat) (att : list bool) : list nat :=
  match att with
  | [] => []
  | a :: t => (if a then [idx] else []) ++ attached_from (S idx) t
  end.

Lemma attached_from_ge l : forall k i, In i (attached_from k l) -> k <= i.
Proof.
  induction l as [|b l IH]; intros k i; cbn [attached_from]; [intros []|].
  intros Hin. apply in_app_or in Hin as [Hin|Hin]; [|apply IH in Hin; lia].
  destruct b; [destruct Hin as [<-|[]]; lia|destruct Hin].
Qed.

Lemma split_rest_spec : forall att idx h o p,
  hget h o = Some p ->
  exists ext,
    fst (split_rest true idx att h o) = h ++ ext /\
    (forall q, In q ext -> q = p) /\
    map snd (snd (split_rest true idx att h o)) = seq (length h) (length ext) /\
    map fst (snd (split_rest true idx att h o)) = attached_from idx att.
Proof.
  induction att as [|a t IH]; intros idx h o p Hp; cbn [split_rest attached_from].
  - exists []. rewrite app_nil_r. cbn. repeat split; auto. intros q [].
  - destruct a.
    + unfold hcopy. rewrite Hp.
      assert (Hp1 : hget (h ++ [p]) o = Some p).
      { unfold hget in *. rewrite nth_error_app1; auto. apply nth_error_Some. congruence. }
      destruct (IH (S idx) (h ++ [p]) o p Hp1) as (ext & Hh & Hall & Hs & Hf).
      exists (p :: ext). cbn [fst snd map]. repeat split.
      * rewrite Hh, <- app_assoc. reflexivity.
      * intros q [<-|Hq]; auto.
      * rewrite Hs, app_length. cbn [length seq]. f_equal. f_equal. lia.
      * rewrite Hf. reflexivity.
    + destruct (IH (S idx) h o p Hp) as (ext & Hh & Hall & Hs & Hf).
      exists ext. repeat split; auto.
Qed.

(* Splitter / NSplitter.  [att] says which outputs are attached; h is any heap with the packet at o.
   1. exactly the attached outputs get something, each once, in order;
   2. output 0 gets the original object;
   3. every other output gets a fresh object (not in the old heap, so distinct from the original)
      whose value -- all header fields, and the references to the two dicts -- equals the original's;
   4. the objects handed out are pairwise distinct;
   5. nothing that existed before is touched;
   6. assigning a header field of one delivered object changes that object's field and leaves every
      other delivered object unchanged. *)
Theorem splitter_copies : forall (att : list bool) (h : heap) (o : nat) (p : pobj),
  hget h o = Some p ->
  let h' := fst (splitter_put true att h o) in
  let ds := snd (splitter_put true att h o) in
  map fst ds = attached_from 0 att /\
  (forall o', In (0, o') ds -> o' = o) /\
  (forall i o', In (i, o') ds -> i <> 0 -> length h <= o' /\ o' <> o /\ hget h' o' = Some p) /\
  NoDup (map snd ds) /\
  (forall x, x < length h -> hget h' x = hget h x) /\
  (forall i1 o1 i2 o2 f v, In (i1, o1) ds -> In (i2, o2) ds -> o1 <> o2 ->
                           hget (hset h' o1 f v) o2 = hget h' o2) /\
  (forall i1 o1 f v, In (i1, o1) ds ->
                     hget (hset h' o1 f v) o1 = Some (set_hdr p f v) /\
                     forall g, hdr (set_hdr p f v) g = if field_eqb g f then v else hdr p g).
Proof.
  intros att h o p Hp h' ds.
  assert (Ho : o < length h) by (apply nth_error_Some; unfold hget in Hp; congruence).
  destruct att as [|a t].
  { subst h' ds. cbn. repeat split; auto; try (intros; contradiction). constructor. }
  destruct (split_rest_spec t 1 h o p Hp) as (ext & Hh & Hall & Hs & Hf).
  assert (Hds : ds = (if a then [(0, o)] else []) ++ snd (split_rest true 1 t h o)) by reflexivity.
  assert (Hh' : h' = h ++ ext) by (subst h'; cbn [splitter_put fst]; exact Hh).
  assert (Hidx : forall i o', In (i, o') (snd (split_rest true 1 t h o)) -> i <> 0 /\ length h <= o' < length h + length ext).
  { intros i o' Hin. split.
    - assert (Hi : In i (attached_from 1 t)) by (rewrite <- Hf; apply in_map_iff; exists (i, o'); auto).
      apply attached_from_ge in Hi. lia.
    - assert (Hi : In o' (seq (length h) (length ext))) by (rewrite <- Hs; apply in_map_iff; exists (i, o'); auto).
      apply in_seq in Hi. lia. }
  assert (Hget_new : forall o', length h <= o' < length h + length ext -> hget h' o' = Some p).
  { intros o' Hr. rewrite Hh'. unfold hget. rewrite nth_error_app2 by lia.
    destruct (nth_error ext (o' - length h)) as [q|] eqn:Eq.
    - f_equal. apply Hall. eapply nth_error_In; eauto.
    - apply nth_error_None in Eq. lia. }
  assert (Hget_old : forall x, x < length h -> hget h' x = hget h x).
  { intros x Hx. rewrite Hh'. unfold hget. apply nth_error_app1. exact Hx. }
  assert (Hin_ds : forall i o', In (i, o') ds -> (i = 0 /\ o' = o) \/ (i <> 0 /\ length h <= o' < length h + length ext)).
  { intros i o' Hin. rewrite Hds in Hin. apply in_app_or in Hin as [Hin|Hin].
    - destruct a; [destruct Hin as [[= <- <-]|[]]; auto|destruct Hin].
    - right. apply Hidx. exact Hin. }
  assert (Hval : forall i o', In (i, o') ds -> hget h' o' = Some p).
  { intros i o' Hin. apply Hin_ds in Hin as [(_ & ->)|(_ & Hr)]; [rewrite Hget_old; auto|apply Hget_new; auto]. }
  split; [|split; [|split; [|split; [|split; [|split]]]]].
  - rewrite Hds, map_app, Hf. cbn [attached_from]. destruct a; reflexivity.
  - intros o' Hin. apply Hin_ds in Hin as [(_ & ->)|(Hne & _)]; [reflexivity|contradiction].
  - intros i o' Hin Hne. apply Hin_ds in Hin as [(-> & _)|(_ & Hr)]; [contradiction|].
    split; [lia|]. split; [lia|]. apply Hget_new; exact Hr.
  - rewrite Hds, map_app, Hs. destruct a; cbn [map snd app].
    + constructor; [|apply seq_NoDup]. intros Hin. apply in_seq in Hin. lia.
    + apply seq_NoDup.
  - exact Hget_old.
  - intros i1 o1 i2 o2 f v _ _ Hne. rewrite hget_hset. apply Nat.eqb_neq in Hne. rewrite Hne. reflexivity.
  - intros i1 o1 f v Hin. split.
    + rewrite hget_hset, Nat.eqb_refl. rewrite (Hval _ _ Hin). reflexivity.
    + intros g. reflexivity.
Qed.

Example splitter_copies_ex :
  let p := {| hdr := mk_hdr [1; 2; 3; 4; 5; 6; 7; 8; 9; 10; 11]%Z; perhop_ref := 0; prio_ref := 0 |} in
  let r := splitter_put true [true; false; true; true] [p] 0 in
  snd r = [(0, 0); (2, 1); (3, 2)] /\
  map hdr_list (hset (fst r) 1 FFlow 99%Z) =
    [[1; 2; 3; 4; 5; 6; 7; 8; 9; 10; 11]; [1; 2; 3; 4; 5; 6; 99; 8; 9; 10; 11]; [1; 2; 3; 4; 5; 6; 7; 8; 9; 10; 11]]%Z.
Proof. split; reflexivity. Qed.

(* copy.copy is shallow: the dicts perhop_time / priorities of a copy are the original's *)
Lemma splitter_shares_dicts : forall att h o p i o' q,
  hget h o = Some p -> In (i, o') (snd (splitter_put true att h o)) ->
  hget (fst (splitter_put true att h o)) o' = Some q -> perhop_ref q = perhop_ref p /\ prio_ref q = prio_ref p.
Proof.
  intros att h o p i o' q Hp Hin Hq.
  destruct (splitter_copies att h o p Hp) as (_ & H0 & Hn & _ & Hold & _).
  destruct (Nat.eq_dec i 0) as [->|Hne].
  - apply H0 in Hin. subst o'. rewrite Hold in Hq by (apply nth_error_Some; unfold hget in Hp; congruence).
    rewrite Hp in Hq. injection Hq as <-. auto.
  - destruct (Hn _ _ Hin Hne) as (_ & _ & Hv). rewrite Hv in Hq. injection Hq as <-. auto.
Qed.

(* a splitter that does not copy hands out one object: an assignment through one output is seen at another *)
Theorem splitter_without_copy_refuted :
  exists att h o f v o1 o2 i1 i2,
    let r := splitter_put false att h o in
    i1 <> i2 /\ In (i1, o1) (snd r) /\ In (i2, o2) (snd r) /\
    hget (hset (fst r) o1 f v) o2 <> hget (fst r) o2.
Proof.
  exists [true; true], [{| hdr := fun _ => 0%Z; perhop_ref := 0; prio_ref := 0 |}], 0, FFlow, 5%Z, 0, 0, 0, 1.
  cbn. repeat split; auto.
  intros H. injection H as H. apply (f_equal (fun g => g FFlow)) in H. discriminate.
Qed.
