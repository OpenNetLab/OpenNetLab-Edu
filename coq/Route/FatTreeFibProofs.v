(* The generic FIB theorems (FibProofs) instantiated on the fat tree (FatTreeProofs): flows whose
   paths pass the per-run check path_ok are delivered end to end in fattree k, for every even k >= 2. *)
From Coq Require Import ZArith List Bool Arith Lia.
From ONL Require Import Route.Demux Route.FatTree Route.Fib Route.FatTreeProofs Route.FibProofs.
Import ListNotations.
Open Scope nat_scope.

Lemma walkb_walk_ok g tcp p : walkb g p = true -> walk_ok (nbrs g) tcp p.
Proof.
  unfold walk_ok. induction p as [|x p IH]; intros Hw a z Hin; [destruct Hin|].
  destruct p as [|y t]; [destruct Hin|]. rewrite segs_cons2 in Hin. cbn [walkb] in Hw.
  apply andb_true_iff in Hw as [Hadj Hw]. destruct Hin as [[= <- <-]|Hin].
  - apply adjb_nbrs in Hadj as [H1 H2]. auto.
  - apply IH; assumption.
Qed.

Lemma degree_valid h c : 0 < h -> valid (2 * h) c -> degree (ft_edges (2 * h)) (num (2 * h) c) <= 2 * h.
Proof. intros Hh Hv. rewrite (degree_coord h c Hh Hv). destruct c; lia. Qed.

(* a node that has a neighbour in fattree k has at most k of them *)
Lemma degree_on_walk h a z : 0 < h -> adjb (ft_edges (2 * h)) a z = true ->
  degree (ft_edges (2 * h)) a <= 2 * h /\ degree (ft_edges (2 * h)) z <= 2 * h.
Proof.
  intros Hh H. rewrite (ft_edges_coord h Hh) in H. apply adjb_coord in H as (u & v & Hin & -> & ->).
  destruct (valid_cedge_ends _ _ _ Hin) as [Hu Hv].
  split; apply degree_valid; assumption.
Qed.

Lemma walk_degrees h : 0 < h -> forall p, walkb (ft_edges (2 * h)) p = true -> 2 <= length p ->
  forall n, In n p -> length (nbrs (ft_edges (2 * h)) n) <= 2 * h.
Proof.
  intros Hh. induction p as [|x p IH]; intros Hw Hlen n Hin; [destruct Hin|].
  destruct p as [|y t]; [cbn in Hlen; lia|]. cbn [walkb] in Hw. apply andb_true_iff in Hw as [Hadj Hw].
  destruct (degree_on_walk h x y Hh Hadj) as [Dx Dy]. destruct Hin as [<-|Hin]; [exact Dx|].
  destruct t as [|w t'].
  - destruct Hin as [<-|[]]. exact Dy.
  - apply IH; auto. cbn [length]. lia.
Qed.

(* In the fat tree of FIB switches with k ports each (tests/apps/fattree.py), for every even k >= 2:
   any family of flows with pairwise distinct ids in [0, 10000) whose paths pass the per-run check
   path_ok (shortest simple walks between distinct hosts) gets tables from generate_fib, and every
   packet of a flow put in at its source host visits exactly the flow's path and ends in the flow's
   own sink; with tcp the ACK class travels the reverse path to the ACK sink at the source. *)
Theorem fattree_delivery : forall k tcp flows,
  Nat.even k = true -> 2 <= k ->
  NoDup (map fid flows) ->
  (forall fl, In fl flows -> (0 <= fid fl < 10000)%Z /\ exists src dst, path_ok k src dst (fpath fl) = true) ->
  exists t, gen_fib (nbrs (ft_edges k)) tcp flows = Some t /\
    forall fl src dst, In fl flows -> path_ok k src dst (fpath fl) = true ->
      let w := mk_net (nbrs (ft_edges k)) t flows tcp (fun _ => k) in
      route true true 7 w src (fid fl) [] = Delivered (sink_of (fid fl)) (fpath fl) /\
      (tcp = true -> route true true 7 w dst (ack_class (fid fl)) [] = Delivered (sink_of (ack_class (fid fl))) (rev (fpath fl))).
Proof.
  intros k tcp flows He Hk Hnd Hfl. destruct (even_ge2 k He Hk) as (h & Hh & ->).
  assert (Hok : flows_ok (nbrs (ft_edges (2 * h))) tcp flows).
  { split; [exact Hnd|]. intros fl Hin. destruct (Hfl fl Hin) as (Hr & src & dst & Hp).
    destruct (path_ok_inv _ _ _ _ Hp) as (_ & _ & _ & _ & Hw & Hn).
    split; [exact Hr|]. split; [apply nodupb_NoDup; exact Hn|apply walkb_walk_ok; exact Hw]. }
  destruct (gen_fib_succeeds _ _ _ Hok) as [t Ht]. exists t. split; [exact Ht|].
  intros fl src dst Hin Hp w.
  destruct (path_ok_inv _ _ _ _ Hp) as (_ & _ & Hne & (rest & Hpath & Hlast & Hlen) & Hw & _).
  pose proof (hostdist_le6 (2 * h) src dst) as H6.
  assert (Hlen2 : 2 <= length (fpath fl)).
  { rewrite Hpath in *. destruct rest; [cbn in Hlast; congruence|cbn [length]; lia]. }
  destruct (routed_delivery (nbrs (ft_edges (2 * h))) tcp flows t (fun _ => 2 * h) Hok Ht fl src rest 7 Hin Hpath) as [R1 R2].
  - rewrite Hpath. cbn [length]. lia.
  - intros n Hn'. apply (walk_degrees h Hh (fpath fl) Hw Hlen2 n Hn').
  - split; [exact R1|]. intros Htcp. apply (R2 Htcp).
    rewrite (last_node_last _ src) by (rewrite Hpath; discriminate). rewrite Hlast. reflexivity.
Qed.

Example fattree_delivery_ex :
  (* k = 4: hosts 20.. ; flow 1 from host 20 to host 35 through core 0, flow 2 inside one pod, sharing links *)
  let flows := [ {| fid := 1%Z; fpath := [20; 6; 4; 0; 16; 19; 35] |}; {| fid := 2%Z; fpath := [21; 6; 4; 7; 22] |} ] in
  forallb (fun fl => path_ok 4 (hd 0 (fpath fl)) (last (fpath fl) 0) (fpath fl)) flows = true /\
  match gen_fib (nbrs (ft_edges 4)) true flows with
  | Some t => route true true 7 (mk_net (nbrs (ft_edges 4)) t flows true (fun _ => 4)) 20 1%Z [] = Delivered 1 [20; 6; 4; 0; 16; 19; 35]
  | None => False
  end.
Proof. vm_compute. split; reflexivity. Qed.
