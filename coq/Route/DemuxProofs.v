(* Proofs about Route/Demux.v: the lookup rules of FlowDemux / FIBDemux, exactly one output,
   the switches route by the same rules; refutations of the unrepaired variants. *)
From Coq Require Import ZArith List Bool Lia.
From ONL Require Import Route.Demux.
Import ListNotations.
Open Scope Z_scope.

(* comparisons on Z decided by lia *)
Ltac zcmp :=
  repeat match goal with
         | |- context [Z.ltb ?a ?b] => destruct (Z.ltb_spec a b)
         | |- context [Z.leb ?a ?b] => destruct (Z.leb_spec a b)
         end; cbn [andb orb negb]; try lia.

Lemma py_index_in_range n i : 0 <= i < Z.of_nat n -> py_index n i = Some (Z.to_nat i).
Proof.
  intros H. unfold py_index. destruct (Z.leb_spec 0 i); [|lia]. destruct (Z.ltb_spec i (Z.of_nat n)); [reflexivity|lia].
Qed.

Lemma py_index_out_of_range n i : i < - Z.of_nat n \/ Z.of_nat n <= i -> py_index n i = None.
Proof. intros H. unfold py_index. zcmp; reflexivity. Qed.

Lemma py_index_negative n i : - Z.of_nat n <= i < 0 -> py_index n i = Some (Z.to_nat (Z.of_nat n + i)).
Proof.
  intros H. unfold py_index. destruct (Z.leb_spec 0 i); [lia|]. cbn [andb].
  destruct (Z.ltb_spec i 0); [|lia]. destruct (Z.leb_spec (- Z.of_nat n) i); [reflexivity|lia].
Qed.

Lemma py_index_bound n i j : py_index n i = Some j -> (j < n)%nat.
Proof.
  unfold py_index.
  destruct (0 <=? i) eqn:E1; destruct (i <? Z.of_nat n) eqn:E2; cbn [andb].
  - intros [= <-]. apply Z.leb_le in E1. apply Z.ltb_lt in E2. lia.
  - destruct (i <? 0) eqn:E3; [apply Z.leb_le in E1; apply Z.ltb_lt in E3; lia|]. cbn [andb]. discriminate.
  - destruct (i <? 0) eqn:E3; destruct (- Z.of_nat n <=? i) eqn:E4; cbn [andb]; try discriminate.
    intros [= <-]. apply Z.ltb_lt in E3. apply Z.leb_le in E4. lia.
  - destruct (i <? 0) eqn:E3; destruct (- Z.of_nat n <=? i) eqn:E4; cbn [andb]; try discriminate.
    intros [= <-]. apply Z.ltb_lt in E3. apply Z.leb_le in E4. lia.
Qed.

Lemma lookup_some {V : Type} (l : list (Z * V)) c v : lookup l c = Some v -> In (c, v) l.
Proof.
  induction l as [|(k, w) t IH]; cbn [lookup]; [discriminate|].
  destruct (k =? c)%Z eqn:E; [intros [= <-]; apply Z.eqb_eq in E; subst; left; reflexivity|intros H; right; auto].
Qed.

Lemma lookup_none {V : Type} (l : list (Z * V)) c : (forall v, ~ In (c, v) l) -> lookup l c = None.
Proof.
  intros H. destruct (lookup l c) as [v|] eqn:E; [|reflexivity]. apply lookup_some in E. exfalso. eapply H; eauto.
Qed.

Lemma lookup_in_some {V : Type} (l : list (Z * V)) c v : In (c, v) l -> exists w, lookup l c = Some w.
Proof.
  induction l as [|(k, w) t IH]; intros Hin; [destruct Hin|]. cbn [lookup].
  destruct (k =? c)%Z eqn:E; [eauto|]. destruct Hin as [[= -> ->]|Hin]; [rewrite Z.eqb_refl in E; discriminate|auto].
Qed.


(* ---------------------------------------------------------------------------------------------- *)
(* FlowDemux: flow f goes to output f, else to the default output, else nowhere; never an error *)
Theorem flowdemux_rule : forall (c : flowdemux_cfg) (f : Z),
  (0 <= f < Z.of_nat (fd_nouts c) -> flowdemux true c f = OOut (Z.to_nat f)) /\
  (~ (0 <= f < Z.of_nat (fd_nouts c)) -> fd_default c = true -> flowdemux true c f = ODefault) /\
  (~ (0 <= f < Z.of_nat (fd_nouts c)) -> fd_default c = false -> flowdemux true c f = ONowhere).
Proof.
  intros c f. unfold flowdemux, dflt. repeat split.
  - intros H. rewrite (py_index_in_range _ _ H). zcmp; reflexivity.
  - intros H ->. zcmp; reflexivity.
  - intros H ->. zcmp; reflexivity.
Qed.

Example flowdemux_rule_ex :
  map (flowdemux true {| fd_nouts := 3; fd_default := true |}) [0; 2; 3; -1; -3; -4]
  = [OOut 0; OOut 2; ODefault; ODefault; ODefault; ODefault].
Proof. reflexivity. Qed.

(* the code as found: a negative flow id reaches an output (or raises) *)
Theorem flowdemux_refuted_before_fix :
  exists c f, f < 0 /\ flowdemux false c f = OOut 1 /\
  exists c' f', f' < 0 /\ flowdemux false c' f' = OError IndexError.
Proof.
  exists {| fd_nouts := 2; fd_default := true |}, (-1). split; [lia|]. split; [reflexivity|].
  exists {| fd_nouts := 2; fd_default := true |}, (-3). split; [lia|]. reflexivity.
Qed.

(* ---------------------------------------------------------------------------------------------- *)
(* FIBDemux *)
Definition table_of (c : fibdemux_cfg) : list (Z * Z) := match fb_fib c with Some t => t | None => [] end.

Lemma fibdemux_fixed c t f :
  fb_fib c = Some t ->
  fibdemux true true c f =
    match lookup (fb_ends c) f with
    | Some d => OEnd d
    | None => match lookup t f with
              | None => dflt (fb_default c)
              | Some p => match py_index (nouts c) p with Some i => OOut i | None => dflt (fb_default c) end
              end
    end.
Proof. intros Ht. unfold fibdemux. rewrite Ht. destruct t; reflexivity. Qed.

(* end device if registered; else outs[fib[f]]; else default; else nowhere.  Any table, the empty
   one included; any output list, the empty one and None included. *)
Theorem fibdemux_rule : forall (c : fibdemux_cfg) (t : list (Z * Z)) (f : Z),
  fb_fib c = Some t ->
  (forall d, lookup (fb_ends c) f = Some d -> fibdemux true true c f = OEnd d) /\
  (lookup (fb_ends c) f = None ->
     (forall p, lookup t f = Some p -> 0 <= p < Z.of_nat (nouts c) -> fibdemux true true c f = OOut (Z.to_nat p)) /\
     (forall p, lookup t f = Some p -> (p < - Z.of_nat (nouts c) \/ Z.of_nat (nouts c) <= p) ->
                fibdemux true true c f = dflt (fb_default c)) /\
     (lookup t f = None -> fibdemux true true c f = dflt (fb_default c))).
Proof.
  intros c t f Ht. rewrite (fibdemux_fixed c t f Ht). split; [intros d ->; reflexivity|]. intros ->. repeat split.
  - intros p -> Hr. rewrite (py_index_in_range _ _ Hr). reflexivity.
  - intros p -> Hr. rewrite (py_index_out_of_range _ _ Hr). reflexivity.
  - intros ->. reflexivity.
Qed.

(* in particular the empty table {} sends every flow without an end device to the default output *)
Corollary fibdemux_empty_table : forall c f,
  fb_fib c = Some [] -> lookup (fb_ends c) f = None -> fibdemux true true c f = dflt (fb_default c).
Proof.
  intros c f Ht He. destruct (fibdemux_rule c [] f Ht) as [_ H]. destruct (H He) as (_ & _ & H3). apply H3. reflexivity.
Qed.

(* a table is required: with fib = None put() raises and nothing is handed out *)
Lemma fibdemux_no_table : forall c f, fb_fib c = None -> fibdemux true true c f = OError ValueError.
Proof. intros c f H. unfold fibdemux. rewrite H. reflexivity. Qed.

(* a negative port number inside the range indexes from the end, as Python does (faithful; outside the rule) *)
Lemma fibdemux_negative_port : forall c t f p,
  fb_fib c = Some t -> lookup (fb_ends c) f = None -> lookup t f = Some p -> - Z.of_nat (nouts c) <= p < 0 ->
  fibdemux true true c f = OOut (Z.to_nat (Z.of_nat (nouts c) + p)).
Proof.
  intros c t f p Ht He Hp Hr. rewrite (fibdemux_fixed c t f Ht), He, Hp, (py_index_negative _ _ Hr). reflexivity.
Qed.

(* with a table the repaired FIBDemux never raises, whatever the table, outputs, ends, flow *)
Theorem fibdemux_total : forall c t f, fb_fib c = Some t -> forall e, fibdemux true true c f <> OError e.
Proof.
  intros c t f Ht e. rewrite (fibdemux_fixed c t f Ht).
  destruct (lookup (fb_ends c) f); [discriminate|].
  destruct (lookup t f) as [p|]; [destruct (py_index (nouts c) p)|]; unfold dflt; try destruct (fb_default c); discriminate.
Qed.

Example fibdemux_rule_ex :
  let c := {| fb_fib := Some [(3, 1); (4, 7); (5, -1)]; fb_outs := Some 2%nat; fb_ends := [(9, 4%nat)]; fb_default := true |} in
  map (fibdemux true true c) [9; 3; 4; 6; -1] = [OEnd 4; OOut 1; ODefault; ODefault; ODefault]
  /\ map (fibdemux true true {| fb_fib := Some []; fb_outs := Some 0%nat; fb_ends := []; fb_default := true |}) [0; 1] = [ODefault; ODefault].
Proof. split; reflexivity. Qed.

(* the code as found: the empty table raises; no outputs raises instead of using the default *)
Theorem fibdemux_refuted_before_fix :
  (exists c f, fb_fib c = Some [] /\ fb_default c = true /\ fibdemux false true c f = OError ValueError) /\
  (exists c t f, fb_fib c = Some t /\ nouts c = 0%nat /\ fb_default c = true /\ lookup (fb_ends c) f = None /\
                 fibdemux true false c f = OError AssertionError).
Proof.
  split.
  - exists {| fb_fib := Some []; fb_outs := Some 2%nat; fb_ends := []; fb_default := true |}, 3. repeat split.
  - exists {| fb_fib := Some [(3, 0)]; fb_outs := Some 0%nat; fb_ends := []; fb_default := true |}, [(3, 0)], 3. repeat split.
Qed.

(* ---------------------------------------------------------------------------------------------- *)
(* every packet reaches exactly one output: the list of devices that receive the packet is the
   singleton of the decision whenever the decision is a device, and empty otherwise; also when the
   chosen output raises from its own put() (then the exception reaches the caller). *)
Theorem exactly_one_output : forall c raising f,
  let r := fib_deliveries true true true c raising f in
  (deliverable (fibdemux true true c f) = true -> fst r = [fibdemux true true c f]) /\
  (deliverable (fibdemux true true c f) = false -> fst r = []) /\
  (length (fst r) <= 1)%nat /\
  (forall i, fibdemux true true c f = OOut i -> In i raising -> snd r = Some KeyError).
Proof.
  intros c raising f. unfold fib_deliveries.
  destruct (fibdemux true true c f) as [d|i| | |e] eqn:E; cbn [deliverable];
    [|destruct (existsb (Nat.eqb i) raising) eqn:Ex; cbn [fst snd]| | |];
    repeat split; intros; try discriminate; cbn; auto.
  (* the chosen output is among the raising ones *)
  match goal with H : OOut _ = OOut _ |- _ => injection H as <- end.
  assert (existsb (Nat.eqb i) raising = true) by (apply existsb_exists; exists i; split; auto; apply Nat.eqb_refl).
  congruence.
Qed.

Theorem flowdemux_exactly_one : forall c f,
  exists o, flowdemux true c f = o /\ (o = OOut (Z.to_nat f) \/ o = ODefault \/ o = ONowhere).
Proof.
  intros c f. eexists. split; [reflexivity|]. unfold flowdemux, dflt.
  destruct (fd_default c); zcmp; rewrite ?py_index_in_range by lia; auto.
Qed.

(* the code as found hands one packet to two outputs when the chosen output raises KeyError *)
Theorem exactly_one_refuted_before_fix :
  exists c raising f, length (fst (fib_deliveries true true false c raising f)) = 2%nat.
Proof.
  exists {| fb_fib := Some [(3, 0)]; fb_outs := Some 1%nat; fb_ends := []; fb_default := true |}, [0%nat], 3. reflexivity.
Qed.

(* ---------------------------------------------------------------------------------------------- *)
(* the switches route by exactly these rules *)

(* SimplePacketSwitch: flow f reaches port f when 0 <= f < nports, and nothing otherwise *)
Theorem simple_switch_rule : forall nports f,
  (0 <= f < Z.of_nat nports -> simple_switch true nports f = OOut (Z.to_nat f)) /\
  (~ (0 <= f < Z.of_nat nports) -> simple_switch true nports f = ONowhere).
Proof.
  intros n f. unfold simple_switch.
  destruct (flowdemux_rule {| fd_nouts := n; fd_default := false |} f) as (H1 & _ & H3). cbn [fd_nouts fd_default] in *.
  split; auto.
Qed.

(* FairPacketSwitch: the packet is queued at scheduler i exactly when the FIBDemux rule names egress
   port i, with class flow2class(f); the class has no influence on the port. *)
Theorem fair_switch_rule : forall (c : fair_cfg) (f : Z),
  fair_switch true true c f = fibdemux true true (fair_demux_cfg c) f /\
  (forall i cl, fair_reaches true true c f = Some (i, cl) <-> (fibdemux true true (fair_demux_cfg c) f = OOut i /\ cl = fs_class c f)) /\
  (forall cls', fair_switch true true {| fs_nports := fs_nports c; fs_fib := fs_fib c; fs_ends := fs_ends c; fs_class := cls' |} f
                = fair_switch true true c f).
Proof.
  intros c f. split; [reflexivity|]. split.
  - intros i cl. unfold fair_reaches, fair_switch.
    destruct (fibdemux true true (fair_demux_cfg c) f); split; try (intros [H _]; discriminate); try discriminate.
    + intros [= -> <-]. auto.
    + intros [[= ->] ->]. reflexivity.
  - reflexivity.
Qed.

Example fair_switch_ex :
  let c := {| fs_nports := 4; fs_fib := Some [(7, 2); (8, 2)]; fs_ends := [(5, 1%nat)]; fs_class := fun f => f mod 2 |} in
  map (fair_reaches true true c) [7; 8; 5; 6] = [Some (2%nat, 1); Some (2%nat, 0); None; None].
Proof. reflexivity. Qed.
