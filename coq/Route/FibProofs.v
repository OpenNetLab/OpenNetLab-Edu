(* Proofs about Route/Fib.v: for ANY graph (ordered neighbour lists), the tables built by the model
   of generate_fib lead hop by hop along every flow's path (and the ACK class back along the reverse
   path); in the network of FIB switches wired by those tables every packet is delivered to its own
   flow's sink and to nothing else. *)
From Coq Require Import ZArith List Bool Arith Lia.
From ONL Require Import Route.Demux Route.DemuxProofs Route.Fib.
Import ListNotations.
Open Scope nat_scope.

(* ---------------------------------------------------------------------------------------------- *)
(* nexthop_to_port / port_to_nexthop *)

Lemma n2p_from_sound : forall l port z q,
  n2p_from l port z = Some q -> port <= q /\ nth_error l (q - port) = Some z.
Proof.
  induction l as [|x t IH]; intros port z q H; cbn [n2p_from] in H; [discriminate|].
  destruct (n2p_from t (S port) z) as [q'|] eqn:E.
  - injection H as <-. apply IH in E as [H1 H2]. split; [lia|].
    replace (q' - port) with (S (q' - S port)) by lia. exact H2.
  - destruct (x =? z) eqn:Ex; [|discriminate]. injection H as <-. apply Nat.eqb_eq in Ex. subst x.
    split; [lia|]. rewrite Nat.sub_diag. reflexivity.
Qed.

Lemma n2p_from_complete : forall l port z, In z l -> exists q, n2p_from l port z = Some q.
Proof.
  induction l as [|x t IH]; intros port z Hin; [destruct Hin|]. cbn [n2p_from].
  destruct (n2p_from t (S port) z) as [q'|] eqn:E; [eauto|].
  destruct Hin as [->|Hin].
  - rewrite Nat.eqb_refl. eauto.
  - destruct (IH (S port) z Hin) as [q Hq]. congruence.
Qed.

Lemma n2p_sound nb z q : n2p nb z = Some q -> p2n nb q = Some z.
Proof. unfold n2p, p2n. intros H. apply n2p_from_sound in H as [_ H]. rewrite Nat.sub_0_r in H. exact H. Qed.

Lemma n2p_complete nb z : In z nb -> exists q, n2p nb z = Some q.
Proof. apply n2p_from_complete. Qed.

(* ---------------------------------------------------------------------------------------------- *)
(* collect *)

Lemma collect_some {A B : Type} (f : A -> option (list B)) l :
  (forall x, In x l -> exists u, f x = Some u) -> exists r, collect f l = Some r.
Proof.
  induction l as [|x t IH]; intros H; cbn [collect]; [eauto|].
  destruct (H x (or_introl eq_refl)) as [u ->].
  destruct IH as [v ->]; [intros y Hy; apply H; right; exact Hy|]. eauto.
Qed.

Lemma collect_in {A B : Type} (f : A -> option (list B)) l : forall r,
  collect f l = Some r -> forall e, In e r <-> exists x u, In x l /\ f x = Some u /\ In e u.
Proof.
  induction l as [|x t IH]; intros r H e; cbn [collect] in H.
  - injection H as <-. split; [intros []|]. intros (y & u & [] & _).
  - destruct (f x) as [u|] eqn:Ex; [|discriminate]. destruct (collect f t) as [v|] eqn:Et; [|discriminate].
    injection H as <-. rewrite in_app_iff, (IH v eq_refl e). split.
    + intros [Hu|(y & w & Hy & Hf & Hw)].
      * exists x, u. cbn [In]. auto.
      * exists y, w. cbn [In]. auto.
    + intros (y & w & [<-|Hy] & Hf & Hw).
      * left. congruence.
      * right. eauto.
Qed.

Lemma collect_all {A B : Type} (f : A -> option (list B)) l r :
  collect f l = Some r -> forall x, In x l -> exists u, f x = Some u.
Proof.
  revert r. induction l as [|y t IH]; intros r H x Hin; [destruct Hin|]. cbn [collect] in H.
  destruct (f y) as [u|] eqn:Ey; [|discriminate]. destruct (collect f t) as [v|] eqn:Et; [|discriminate].
  destruct Hin as [<-|Hin]; [eauto|]. eapply IH; eauto.
Qed.

(* ---------------------------------------------------------------------------------------------- *)
(* segments of a path *)

Lemma segs_cons2 x y t : segs (x :: y :: t) = (x, y) :: segs (y :: t).
Proof. reflexivity. Qed.

Lemma segs_iff : forall p a z,
  In (a, z) (segs p) <-> exists i, nth_error p i = Some a /\ nth_error p (S i) = Some z.
Proof.
  induction p as [|x p IH]; intros a z.
  - split; [intros []|intros ([|i] & H & _); discriminate].
  - destruct p as [|y t]; [split; [intros []|intros ([|[|i]] & _ & H); discriminate]|].
    rewrite segs_cons2. cbn [In]. rewrite IH. split.
    + intros [[= <- <-]|(i & H)]; [exists 0; auto|exists (S i); exact H].
    + intros ([|i] & H1 & H2); [left; cbn in H1, H2; congruence|right; exists i; auto].
Qed.

Lemma segs_nth p i a z : nth_error p i = Some a -> nth_error p (S i) = Some z -> In (a, z) (segs p).
Proof. intros. apply segs_iff. eauto. Qed.

Lemma segs_in p a z : In (a, z) (segs p) -> In a p /\ In z (tl p).
Proof.
  intros H. apply segs_iff in H as (i & Ha & Hz). split; [exact (nth_error_In _ _ Ha)|].
  destruct p as [|x p]; [destruct i; discriminate|]. exact (nth_error_In p i Hz).
Qed.

Lemma segs_unique p a1 z1 a2 z2 :
  NoDup p -> In (a1, z1) (segs p) -> In (a2, z2) (segs p) -> a1 = a2 \/ z1 = z2 -> a1 = a2 /\ z1 = z2.
Proof.
  intros Hnd H1 H2 E. apply segs_iff in H1 as (i & Ha1 & Hz1). apply segs_iff in H2 as (j & Ha2 & Hz2).
  assert (i = j); [|subst j; split; congruence].
  rewrite NoDup_nth_error in Hnd. destruct E as [<-|<-].
  - apply Hnd; [apply nth_error_Some|]; congruence.
  - apply eq_add_S, Hnd; [apply nth_error_Some|]; congruence.
Qed.

Lemma segs_split p a z : In (a, z) (segs p) -> exists pre post, p = pre ++ a :: z :: post.
Proof.
  intros H. apply segs_iff in H as (i & Ha & Hz). apply nth_error_split in Ha as (pre & r & -> & <-).
  rewrite nth_error_app2, Nat.sub_succ_l, Nat.sub_diag in Hz by lia. destruct r as [|z' post]; [discriminate|].
  injection Hz as ->. eauto.
Qed.

Lemma segs_mid pre a z post : In (a, z) (segs (pre ++ a :: z :: post)).
Proof.
  apply segs_iff. exists (length pre). rewrite !nth_error_app2, Nat.sub_succ_l, Nat.sub_diag by lia. auto.
Qed.

Lemma segs_rev p a z : In (a, z) (segs (rev p)) -> In (z, a) (segs p).
Proof.
  intros H. apply segs_split in H as (pre & post & E).
  replace p with (rev post ++ z :: a :: rev pre); [apply segs_mid|].
  rewrite <- (rev_involutive p), E, rev_app_distr. cbn [rev]. rewrite <- !app_assoc. reflexivity.
Qed.

(* ---------------------------------------------------------------------------------------------- *)
(* the entries generate_fib writes *)

Definition hop_of (nb : nbfun) (e : entry) (c : Z) (a z : nat) : Prop :=
  e_node e = a /\ e_class e = c /\ e_nh e = z /\ n2p (nb a) z = Some (e_port e).
Definition fwd_of (nb : nbfun) (e : entry) (fl : flow) (a z : nat) : Prop := hop_of nb e (fid fl) a z.
Definition rev_of (nb : nbfun) (e : entry) (fl : flow) (a z : nat) : Prop := hop_of nb e (ack_class (fid fl)) z a.

Definition is_entry (nb : nbfun) (tcp : bool) (flows : list flow) (e : entry) : Prop :=
  exists fl a z, In fl flows /\ In (a, z) (segs (fpath fl)) /\ (fwd_of nb e fl a z \/ (tcp = true /\ rev_of nb e fl a z)).

Lemma seg_entries_in nb tcp fl a z u :
  seg_entries nb tcp (fid fl) (a, z) = Some u ->
  (forall e, In e u -> fwd_of nb e fl a z \/ (tcp = true /\ rev_of nb e fl a z)) /\
  (exists e, In e u /\ fwd_of nb e fl a z) /\
  (tcp = true -> exists e, In e u /\ rev_of nb e fl a z).
Proof.
  unfold seg_entries. destruct (n2p (nb a) z) as [port|] eqn:Ep; [|discriminate].
  destruct tcp.
  - destruct (n2p (nb z) a) as [rp|] eqn:Er; [|discriminate]. intros [= <-]. repeat split.
    + intros e [<-|[<-|[]]]; [left|right; split; auto]; repeat split; auto.
    + eexists; split; [left; reflexivity|]. repeat split; auto.
    + intros _. eexists; split; [right; left; reflexivity|]. repeat split; auto.
  - intros [= <-]. repeat split.
    + intros e [<-|[]]. left. repeat split; auto.
    + eexists; split; [left; reflexivity|]. repeat split; auto.
    + discriminate.
Qed.

Lemma gen_fib_entries nb tcp flows t :
  gen_fib nb tcp flows = Some t ->
  (forall e, In e t -> is_entry nb tcp flows e) /\
  (forall fl a z, In fl flows -> In (a, z) (segs (fpath fl)) ->
     (exists e, In e t /\ fwd_of nb e fl a z) /\ (tcp = true -> exists e, In e t /\ rev_of nb e fl a z)).
Proof.
  intros H. unfold gen_fib in H. split.
  - intros e He. apply (collect_in _ _ _ H) in He as (fl & u & Hfl & Hu & He).
    unfold flow_entries in Hu. apply (collect_in _ _ _ Hu) in He as ((a, z) & v & Hs & Hv & He).
    exists fl, a, z. split; [exact Hfl|]. split; [exact Hs|].
    apply (seg_entries_in nb tcp fl a z v Hv). exact He.
  - intros fl a z Hfl Hs.
    destruct (collect_all _ _ _ H fl Hfl) as [u Hu].
    unfold flow_entries in Hu. destruct (collect_all _ _ _ Hu (a, z) Hs) as [v Hv].
    destruct (seg_entries_in nb tcp fl a z v Hv) as (_ & (e & He & Hf) & Hr).
    assert (Hin : forall e, In e v -> In e t).
    { intros e' He'. apply (collect_in _ _ _ H). exists fl, u. split; [exact Hfl|]. split; [exact Hu|].
      apply (collect_in _ _ _ Hu). exists (a, z), v. auto. }
    split.
    + exists e. auto.
    + intros Ht. destruct (Hr Ht) as (e' & He' & Hr'). exists e'. auto.
Qed.

(* ---------------------------------------------------------------------------------------------- *)
(* the hypotheses on a family of flows *)

Definition walk_ok (nb : nbfun) (tcp : bool) (p : list nat) : Prop :=
  forall a z, In (a, z) (segs p) -> In z (nb a) /\ (tcp = true -> In a (nb z)).

Definition flows_ok (nb : nbfun) (tcp : bool) (flows : list flow) : Prop :=
  NoDup (map fid flows) /\
  forall fl, In fl flows -> (0 <= fid fl < 10000)%Z /\ NoDup (fpath fl) /\ walk_ok nb tcp (fpath fl).

Lemma same_fid flows fl1 fl2 : NoDup (map fid flows) -> In fl1 flows -> In fl2 flows -> fid fl1 = fid fl2 -> fl1 = fl2.
Proof.
  induction flows as [|x t IH]; intros Hnd H1 H2 Heq; [destruct H1|].
  cbn [map] in Hnd. inversion Hnd as [|? ? Hx Hnd']; subst.
  destruct H1 as [<-|H1]; destruct H2 as [<-|H2]; auto.
  - exfalso. apply Hx. rewrite Heq. apply in_map. exact H2.
  - exfalso. apply Hx. rewrite <- Heq. apply in_map. exact H1.
Qed.

Lemma gen_fib_succeeds nb tcp flows : flows_ok nb tcp flows -> exists t, gen_fib nb tcp flows = Some t.
Proof.
  intros (_ & Hok). unfold gen_fib. apply collect_some. intros fl Hfl.
  destruct (Hok fl Hfl) as (_ & _ & Hw). unfold flow_entries. apply collect_some. intros (a, z) Hs.
  destruct (Hw a z Hs) as (Hz & Ha). unfold seg_entries.
  destruct (n2p_complete (nb a) z Hz) as [port ->].
  destruct tcp; [|eauto]. destruct (n2p_complete (nb z) a (Ha eq_refl)) as [rp ->]. eauto.
Qed.

(* two assignments to the same (node, class) write the same value *)
Lemma entries_functional nb tcp flows : flows_ok nb tcp flows ->
  forall e1 e2, is_entry nb tcp flows e1 -> is_entry nb tcp flows e2 ->
  e_node e1 = e_node e2 -> e_class e1 = e_class e2 -> e_port e1 = e_port e2 /\ e_nh e1 = e_nh e2.
Proof.
  intros (Hnd & Hok) e1 e2 (f1 & a1 & z1 & Hf1 & Hs1 & K1) (f2 & a2 & z2 & Hf2 & Hs2 & K2) Hn Hc.
  destruct (Hok f1 Hf1) as (Hr1 & Hp1 & _). destruct (Hok f2 Hf2) as (Hr2 & Hp2 & _).
  unfold fwd_of, rev_of, hop_of, ack_class in *.
  destruct K1 as [(<- & C1 & <- & P1)|(_ & <- & C1 & <- & P1)]; destruct K2 as [(<- & C2 & <- & P2)|(_ & <- & C2 & <- & P2)].
  - (* two forward entries: the same flow, the same node of its path *)
    assert (f1 = f2) by (apply (same_fid flows); auto; congruence). subst f2.
    rewrite Hn in Hs1, P1.
    destruct (segs_unique _ _ _ _ _ Hp1 Hs1 Hs2 (or_introl eq_refl)) as [_ E].
    rewrite E in P1. split; congruence.
  - (* a forward and an ACK entry: their classes lie below and above 10000 *)
    exfalso. rewrite C1, C2 in Hc. lia.
  - exfalso. rewrite C1, C2 in Hc. lia.
  - (* two ACK entries *)
    assert (fid f1 = fid f2) by (rewrite C1, C2 in Hc; lia).
    assert (f1 = f2) by (apply (same_fid flows); auto). subst f2.
    rewrite Hn in Hs1, P1.
    destruct (segs_unique _ _ _ _ _ Hp1 Hs1 Hs2 (or_intror eq_refl)) as [E _].
    rewrite E in P1. split; congruence.
Qed.

(* ---------------------------------------------------------------------------------------------- *)
(* table lookup *)

Lemma tget_first_in l :
  (forall e1 e2, In e1 l -> In e2 l -> e_node e1 = e_node e2 -> e_class e1 = e_class e2 ->
                 e_port e1 = e_port e2 /\ e_nh e1 = e_nh e2) ->
  forall e, In e l -> tget_first l (e_node e) (e_class e) = Some (e_port e, e_nh e).
Proof.
  induction l as [|x t IH]; intros Hf e Hin; [destruct Hin|]. cbn [tget_first].
  destruct ((e_node x =? e_node e) && (e_class x =? e_class e)%Z) eqn:E.
  - apply andb_true_iff in E as [E1 E2]. apply Nat.eqb_eq in E1. apply Z.eqb_eq in E2.
    destruct (Hf x e (or_introl eq_refl) Hin E1 E2) as [-> ->]. reflexivity.
  - destruct Hin as [->|Hin].
    + rewrite Nat.eqb_refl, Z.eqb_refl in E. discriminate.
    + apply IH; auto. intros e1 e2 H1 H2. apply Hf; right; auto.
Qed.

Lemma tget_first_some l n c v :
  tget_first l n c = Some v -> exists e, In e l /\ e_node e = n /\ e_class e = c /\ v = (e_port e, e_nh e).
Proof.
  induction l as [|x t IH]; cbn [tget_first]; [discriminate|].
  destruct ((e_node x =? n) && (e_class x =? c)%Z) eqn:E.
  - intros [= <-]. apply andb_true_iff in E as [E1 E2]. apply Nat.eqb_eq in E1. apply Z.eqb_eq in E2.
    exists x. cbn [In]. auto.
  - intros H. destruct (IH H) as (e & He & K). exists e. cbn [In]. auto.
Qed.

Lemma tget_first_none l n c : (forall e, In e l -> ~ (e_node e = n /\ e_class e = c)) -> tget_first l n c = None.
Proof.
  intros H. destruct (tget_first l n c) as [v|] eqn:E; [|reflexivity].
  apply tget_first_some in E as (e & He & Hn & Hc & _). exfalso. apply (H e He). auto.
Qed.

Lemma node_fib_lookup t n c : lookup (node_fib t n) c = option_map (fun v => Z.of_nat (fst v)) (tget t n c).
Proof.
  unfold node_fib, tget. induction (rev t) as [|x l IH]; [reflexivity|].
  cbn [filter tget_first]. destruct (e_node x =? n) eqn:En; cbn [andb map lookup].
  - destruct (e_class x =? c)%Z; [reflexivity|exact IH].
  - exact IH.
Qed.

(* ---------------------------------------------------------------------------------------------- *)
(* fib_follows_path *)

(* the table holds what an entry of it says: later assignments to its (node, class) write the same value *)
Lemma tget_entry nb tcp flows t e :
  flows_ok nb tcp flows -> gen_fib nb tcp flows = Some t -> In e t ->
  tget t (e_node e) (e_class e) = Some (e_port e, e_nh e).
Proof.
  intros Hok Ht He. destruct (gen_fib_entries nb tcp flows t Ht) as (Hall & _).
  apply tget_first_in; [|apply in_rev in He; exact He].
  intros e1 e2 H1 H2. apply (entries_functional nb tcp flows Hok); apply Hall, in_rev; assumption.
Qed.

Lemma tget_hop nb tcp flows t e c a z :
  flows_ok nb tcp flows -> gen_fib nb tcp flows = Some t -> In e t -> hop_of nb e c a z ->
  exists port, tget t a c = Some (port, z) /\ p2n (nb a) port = Some z.
Proof.
  intros Hok Ht He (<- & <- & <- & P). exists (e_port e).
  split; [exact (tget_entry _ _ _ _ _ Hok Ht He)|exact (n2p_sound _ _ _ P)].
Qed.

Lemma fib_follows_segs nb tcp flows t :
  flows_ok nb tcp flows -> gen_fib nb tcp flows = Some t ->
  forall fl a z, In fl flows -> In (a, z) (segs (fpath fl)) ->
    (exists port, tget t a (fid fl) = Some (port, z) /\ p2n (nb a) port = Some z) /\
    (tcp = true -> exists rp, tget t z (ack_class (fid fl)) = Some (rp, a) /\ p2n (nb z) rp = Some a).
Proof.
  intros Hok Ht fl a z Hfl Hs. destruct (gen_fib_entries nb tcp flows t Ht) as (_ & Hex).
  destruct (Hex fl a z Hfl Hs) as ((e & He & Hf) & Hr). split; [exact (tget_hop _ _ _ _ _ _ _ _ Hok Ht He Hf)|].
  intros Htcp. destruct (Hr Htcp) as (e' & He' & Hr'). exact (tget_hop _ _ _ _ _ _ _ _ Hok Ht He' Hr').
Qed.

(* For any graph and any family of flows with pairwise distinct ids in [0, 10000) and simple paths
   (walks of the graph), generate_fib succeeds and its tables satisfy: at node n_i of a flow's path
   the port recorded for the flow leads to n_{i+1} (flow_to_nexthop says n_{i+1} too); with tcp the
   class f + 10000 at n_{i+1} leads back to n_i; without tcp no class >= 10000 is written. *)
Theorem fib_follows_path : forall (nb : nbfun) (tcp : bool) (flows : list flow),
  flows_ok nb tcp flows ->
  exists t, gen_fib nb tcp flows = Some t /\
    (forall fl i a z, In fl flows -> nth_error (fpath fl) i = Some a -> nth_error (fpath fl) (S i) = Some z ->
       (exists port, tget t a (fid fl) = Some (port, z) /\ p2n (nb a) port = Some z) /\
       (tcp = true -> exists rp, tget t z (ack_class (fid fl)) = Some (rp, a) /\ p2n (nb z) rp = Some a)) /\
    (tcp = false -> forall n c, (10000 <= c)%Z -> tget t n c = None).
Proof.
  intros nb tcp flows Hok. destruct (gen_fib_succeeds nb tcp flows Hok) as [t Ht]. exists t. split; [exact Ht|]. split.
  - intros fl i a z Hfl Ha Hz. exact (fib_follows_segs _ _ _ _ Hok Ht fl a z Hfl (segs_nth _ _ _ _ Ha Hz)).
  - intros Htcp n c Hc. unfold tget. apply tget_first_none. intros e He [Hn Hcl].
    apply in_rev in He. destruct (gen_fib_entries nb tcp flows t Ht) as (Hall & _).
    destruct (Hall e He) as (fl & a & z & Hfl & _ & [(_ & C & _)|(Hx & _)]).
    + destruct Hok as (_ & Hok). destruct (Hok fl Hfl) as (Hr & _). lia.
    + congruence.
Qed.

(* ---------------------------------------------------------------------------------------------- *)
(* routed delivery *)

Lemma node_ends_in flows tcp n k v :
  In (k, v) (node_ends flows tcp n) <->
  exists fl, In fl flows /\ v = sink_of k /\
    ((last_node (fpath fl) = Some n /\ k = fid fl) \/
     (tcp = true /\ hd_error (fpath fl) = Some n /\ k = ack_class (fid fl))).
Proof.
  unfold node_ends. rewrite in_flat_map. split.
  - intros (fl & Hfl & Hin). exists fl. split; [exact Hfl|]. apply in_app_or in Hin as [Hin|Hin].
    + destruct (last_node (fpath fl)) as [d|] eqn:El; [|destruct Hin].
      destruct (d =? n) eqn:Ed; [|destruct Hin]. apply Nat.eqb_eq in Ed. subst d.
      destruct Hin as [[= <- <-]|[]]. auto.
    + destruct tcp; [|destruct Hin]. destruct (fpath fl) as [|s r] eqn:Ep; [destruct Hin|].
      destruct (s =? n) eqn:Es; [|destruct Hin]. apply Nat.eqb_eq in Es. subst s.
      destruct Hin as [[= <- <-]|[]]. split; [reflexivity|]. right. auto.
  - intros (fl & Hfl & -> & [(Hl & ->)|(-> & Hh & ->)]); exists fl; (split; [exact Hfl|]); apply in_or_app.
    + left. rewrite Hl, Nat.eqb_refl. left. reflexivity.
    + right. destruct (fpath fl) as [|s r]; [discriminate|]. cbn in Hh. injection Hh as ->.
      rewrite Nat.eqb_refl. left. reflexivity.
Qed.

Definition ends_here (flows : list flow) (tcp : bool) (n : nat) (c : Z) : Prop :=
  exists fl, In fl flows /\
    ((last_node (fpath fl) = Some n /\ c = fid fl) \/
     (tcp = true /\ hd_error (fpath fl) = Some n /\ c = ack_class (fid fl))).

Lemma node_ends_lookup flows tcp n c :
  (ends_here flows tcp n c -> lookup (node_ends flows tcp n) c = Some (sink_of c)) /\
  (~ ends_here flows tcp n c -> lookup (node_ends flows tcp n) c = None).
Proof.
  split.
  - intros (fl & Hfl & H). destruct (lookup_in_some (node_ends flows tcp n) c (sink_of c)) as [s Hs].
    { apply node_ends_in. exists fl. auto. }
    rewrite Hs. apply lookup_some, node_ends_in in Hs as (_ & _ & -> & _). reflexivity.
  - intros N. apply lookup_none. intros v Hv. apply node_ends_in in Hv as (fl & Hfl & _ & H). apply N. exists fl. auto.
Qed.

Lemma last_node_app pre a : last_node (pre ++ [a]) = Some a.
Proof. unfold last_node. rewrite rev_app_distr. reflexivity. Qed.

Lemma last_node_last p d : p <> [] -> last_node p = Some (last p d).
Proof.
  induction p as [|x p _] using rev_ind; [intros N; contradiction N; reflexivity|].
  intros _. unfold last_node. rewrite rev_app_distr, last_last. reflexivity.
Qed.

Lemma last_node_in p d : last_node p = Some d -> In d p.
Proof.
  unfold last_node. destruct (rev p) as [|x r] eqn:E; [discriminate|]. intros [= <-].
  apply in_rev. rewrite E. left. reflexivity.
Qed.

Lemma last_node_cons x l : last_node (x :: l) = match l with [] => Some x | _ :: _ => last_node l end.
Proof.
  unfold last_node. cbn [rev]. destruct l as [|y t]; [reflexivity|]. cbn [rev].
  destruct (rev t ++ [y]) as [|q qs] eqn:E; [destruct (rev t); discriminate|]. reflexivity.
Qed.

Lemma seg_not_last : forall l x z, NoDup l -> In (x, z) (segs l) -> last_node l <> Some x.
Proof.
  induction l as [|u l IH]; intros x z Hn H; [destruct H|]. destruct l as [|v r]; [destruct H|].
  rewrite segs_cons2 in H. rewrite last_node_cons. inversion Hn as [|? ? Hu Hn']; subst.
  destruct H as [[= <- <-]|H].
  - intros Hl. apply last_node_in in Hl. contradiction.
  - apply (IH x z Hn' H).
Qed.

(* one hop of the switch at node a *)
Lemma route_step_out fuel w a c visited port z :
  lookup (node_ends (n_flows w) (n_tcp w) a) c = None ->
  tget (n_tbl w) a c = Some (port, z) -> p2n (n_nb w a) port = Some z -> port < n_nports w a ->
  route true true (S fuel) w a c visited = route true true fuel w z c (visited ++ [a]).
Proof.
  intros He Ht Hp Hn. cbn [route].
  destruct (fibdemux_rule (node_cfg w a) (node_fib (n_tbl w) a) c eq_refl) as (_ & H).
  destruct (H He) as (Hout & _ & _).
  rewrite (Hout (Z.of_nat port)).
  - rewrite Nat2Z.id, Hp. reflexivity.
  - rewrite node_fib_lookup, Ht. reflexivity.
  - cbn [node_cfg nouts fb_outs]. lia.
Qed.

Lemma route_step_end fuel w a c visited d :
  lookup (node_ends (n_flows w) (n_tcp w) a) c = Some d ->
  route true true (S fuel) w a c visited = Delivered d (visited ++ [a]).
Proof.
  intros He. cbn [route].
  destruct (fibdemux_rule (node_cfg w a) (node_fib (n_tbl w) a) c eq_refl) as (H & _).
  rewrite (H d He). reflexivity.
Qed.

(* following the tables along a path whose last node holds the end device *)
Lemma route_along w c s : forall post pre a fuel,
  (forall x z, In (x, z) (segs (a :: post)) ->
     lookup (node_ends (n_flows w) (n_tcp w) x) c = None /\
     exists port, tget (n_tbl w) x c = Some (port, z) /\ p2n (n_nb w x) port = Some z /\ port < n_nports w x) ->
  (forall d, last_node (a :: post) = Some d -> lookup (node_ends (n_flows w) (n_tcp w) d) c = Some s) ->
  length post < fuel ->
  route true true fuel w a c pre = Delivered s (pre ++ a :: post).
Proof.
  induction post as [|z post IH]; intros pre a fuel Hseg Hlast Hfuel.
  - destruct fuel as [|fuel]; [cbn in Hfuel; lia|]. apply route_step_end. apply Hlast. reflexivity.
  - destruct fuel as [|fuel]; [cbn in Hfuel; lia|].
    destruct (Hseg a z) as (He & port & Ht & Hp & Hn); [rewrite segs_cons2; left; reflexivity|].
    rewrite (route_step_out fuel w a c pre port z He Ht Hp Hn).
    rewrite (IH (pre ++ [a]) z fuel).
    + rewrite <- app_assoc. reflexivity.
    + intros x y Hin. apply Hseg. rewrite segs_cons2. right. exact Hin.
    + intros d Hd. apply Hlast. rewrite last_node_cons. exact Hd.
    + cbn [length] in Hfuel. lia.
Qed.

Definition mk_net (nb : nbfun) (t : table) (flows : list flow) (tcp : bool) (nports : nat -> nat) : net :=
  {| n_nb := nb; n_tbl := t; n_flows := flows; n_tcp := tcp; n_nports := nports |}.

(* In the network of FIB switches wired by the generated tables (switch of node n: fib = flow_to_port[n],
   port i linked to port_to_nexthop[n][i], at least one port per neighbour), with the sink of every flow
   registered at the flow's destination (and with tcp the ACK sink at its source):
   a packet of flow f put into the source's switch visits exactly the nodes of f's path, in order, and
   is handed to f's own sink; an ACK (class f + 10000) put in at the destination travels the reverse
   path to the ACK sink.  route is a function: the packet reaches nothing else. *)
Theorem routed_delivery : forall (nb : nbfun) (tcp : bool) (flows : list flow) (t : table) (nports : nat -> nat),
  flows_ok nb tcp flows -> gen_fib nb tcp flows = Some t ->
  forall fl src rest fuel, In fl flows -> fpath fl = src :: rest -> length (fpath fl) <= fuel ->
    (forall n, In n (fpath fl) -> length (nb n) <= nports n) ->
    route true true fuel (mk_net nb t flows tcp nports) src (fid fl) [] = Delivered (sink_of (fid fl)) (fpath fl) /\
    (tcp = true -> forall dst, last_node (fpath fl) = Some dst ->
       route true true fuel (mk_net nb t flows tcp nports) dst (ack_class (fid fl)) []
       = Delivered (sink_of (ack_class (fid fl))) (rev (fpath fl))).
Proof.
  intros nb tcp flows t nports Hok Ht fl src rest fuel Hfl Hpath Hfuel Hports.
  pose proof (fib_follows_segs nb tcp flows t Hok Ht fl) as Hfollow.
  destruct Hok as (Hnd & Hok). destruct (Hok fl Hfl) as (Hrange & Hpnd & _).
  set (w := mk_net nb t flows tcp nports).
  assert (Hport : forall a port z, In a (fpath fl) -> p2n (nb a) port = Some z -> port < nports a).
  { intros a port z Ha Hp. unfold p2n in Hp. assert (port < length (nb a)) by (apply nth_error_Some; congruence).
    specialize (Hports a Ha). lia. }
  (* a class of fl ends at one end of fl's path only: ids are distinct and below 10000 *)
  assert (Hsame : forall fl', In fl' flows -> fid fl' = fid fl -> fl' = fl) by (intros; apply (same_fid flows); auto).
  assert (Hack : forall fl', In fl' flows -> fid fl <> ack_class (fid fl') /\ ack_class (fid fl) <> fid fl').
  { intros fl' Hfl'. destruct (Hok fl' Hfl') as (Hr' & _). unfold ack_class. lia. }
  split.
  - rewrite Hpath. apply (route_along w (fid fl) (sink_of (fid fl)) rest [] src fuel).
    + rewrite <- Hpath. intros x z Hin. split.
      * apply node_ends_lookup. intros (fl' & Hfl' & [(Hl & Hk)|(_ & _ & Hk)]); [|exact (proj1 (Hack fl' Hfl') Hk)].
        rewrite (Hsame fl' Hfl' (eq_sym Hk)) in Hl. apply (seg_not_last (fpath fl) x z Hpnd Hin Hl).
      * destruct (Hfollow x z Hfl Hin) as ((port & Hg & Hp) & _).
        exists port. repeat split; auto. apply (Hport x port z); auto. apply (segs_in _ _ _ Hin).
    + rewrite <- Hpath. intros d Hd. apply node_ends_lookup. exists fl. auto.
    + rewrite Hpath in Hfuel. cbn [length] in Hfuel. lia.
  - intros Htcp dst Hdst.
    assert (Hrev : rev (fpath fl) = dst :: tl (rev (fpath fl))).
    { unfold last_node in Hdst. destruct (rev (fpath fl)) as [|q qs]; [discriminate|]. injection Hdst as ->. reflexivity. }
    rewrite Hrev.
    apply (route_along w (ack_class (fid fl)) (sink_of (ack_class (fid fl))) (tl (rev (fpath fl))) [] dst fuel).
    + rewrite <- Hrev. intros x z Hin. apply segs_rev in Hin. split.
      * apply node_ends_lookup. intros (fl' & Hfl' & [(_ & Hk)|(_ & Hh & Hk)]); [exact (proj2 (Hack fl' Hfl') Hk)|].
        assert (E : fid fl' = fid fl) by (unfold ack_class in Hk; lia). rewrite (Hsame fl' Hfl' E) in Hh.
        (* x would be the first node of the path, but it has a predecessor z *)
        rewrite Hpath in Hh, Hin, Hpnd. cbn in Hh. injection Hh as ->.
        apply segs_in in Hin as (_ & Hin). cbn [tl] in Hin. inversion Hpnd; contradiction.
      * destruct (Hfollow z x Hfl Hin) as (_ & Hr). destruct (Hr Htcp) as (rp & Hg & Hp).
        exists rp. repeat split; auto. apply (Hport x rp z); auto.
        apply segs_in in Hin as [_ Hin]. destruct (fpath fl) as [|u l]; [destruct Hin|]. right. exact Hin.
    + rewrite <- Hrev. intros d Hd.
      assert (d = src) by (unfold last_node in Hd; rewrite rev_involutive, Hpath in Hd; congruence). subst d.
      apply node_ends_lookup. exists fl. split; [exact Hfl|]. right. rewrite Hpath. auto.
    + assert (length (rev (fpath fl)) = S (length (tl (rev (fpath fl))))) by (rewrite Hrev at 1; reflexivity).
      rewrite rev_length in H. lia.
Qed.

Example routed_delivery_ex :
  (* a triangle with a tail: 0-1, 1-2, 0-2, 2-3; two flows, the second shares the link 1-2 *)
  let nb := nbfun_of [[1; 2]; [0; 2]; [1; 0; 3]; [2]] in
  let flows := [ {| fid := 5%Z; fpath := [0; 1; 2; 3] |}; {| fid := 6%Z; fpath := [1; 2] |} ] in
  match gen_fib nb true flows with
  | Some t =>
      route true true 9 (mk_net nb t flows true (fun n => length (nb n))) 0 5%Z [] = Delivered 5 [0; 1; 2; 3] /\
      route true true 9 (mk_net nb t flows true (fun n => length (nb n))) 3 10005%Z [] = Delivered (Z.to_nat 10005) [3; 2; 1; 0] /\
      route true true 9 (mk_net nb t flows true (fun n => length (nb n))) 1 6%Z [] = Delivered 6 [1; 2]
  | None => False
  end.
(* by conversion: evaluating the goal would write the sink number Z.to_nat 10005 out in unary *)
Proof. cbv zeta. repeat split; reflexivity. Qed.

(* with the FIBDemux as found (an empty table raises) the destination of a flow that sends nothing
   itself cannot receive: the theorem fails on the smallest network *)
Theorem routed_delivery_refuted_before_fix :
  exists nb flows t fl, flows_ok nb false flows /\ gen_fib nb false flows = Some t /\ In fl flows /\
    route false true 5 (mk_net nb t flows false (fun n => length (nb n))) 0 (fid fl) [] = Raised ValueError [0; 1].
Proof.
  exists (nbfun_of [[1]; [0]]), [ {| fid := 0%Z; fpath := [0; 1] |} ].
  eexists. exists {| fid := 0%Z; fpath := [0; 1] |}.
  split; [|split; [reflexivity|split; [left; reflexivity|reflexivity]]].
  split; [repeat constructor; intros []|].
  intros fl [<-|[]]. cbn [fid fpath]. split; [lia|]. split.
  - repeat constructor; cbn; intuition discriminate.
  - intros a z [[= <- <-]|[]]. split; [left; reflexivity|discriminate].
Qed.
