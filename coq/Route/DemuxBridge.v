(* Bridging lemmas (DESIGN 2.6 and 8.4, second tie) for FlowDemux.put / FIBDemux.put: the bodies as translated from the tree
   under test on every run (Gen/Extracted_demux.v: the counter and the effects in program order) are the decision
   functions [flowdemux true] / [fibdemux true true] of the hand-written model (Route/Demux.v) the C18 theorems are
   about.  The effects get their meaning here: which model output a sequence of effects is. *)
From Coq Require Import ZArith List Bool Lia.
From ONL Require Import Route.Demux Route.DemuxProofs Gen.Extracted_demux.
Import ListNotations.
Open Scope Z_scope.

(* ---- FlowDemux.put ---------------------------------------------------------------------------------------
   self.outs[i].put(packet) is Python list indexing (IndexError when out of range) *)
Definition flow_fx_output (c : flowdemux_cfg) (fx : list demux_fx) : option output :=
  match fx with
  | [FxOut i] => Some (match py_index (fd_nouts c) i with Some k => OOut k | None => OError IndexError end)
  | [FxDefault] => Some ODefault
  | [] => Some ONowhere
  | _ => None                                              (* not an effect sequence of FlowDemux.put *)
  end.

Definition flow_gen_put (c : flowdemux_cfg) (n : Z) (f : Z) :=
  gen_FlowDemux_put {| d_packets_recevied := n |} f (Z.of_nat (fd_nouts c)) (fd_default c).

Lemma bridge_flowdemux_put c n f :
  let g := flow_gen_put c n f in
  flow_fx_output c (snd g) = Some (flowdemux true c f) /\
  snd g = (if (0 <=? f) && (f <? Z.of_nat (fd_nouts c)) then [FxOut f] else if fd_default c then [FxDefault] else []) /\
  d_packets_recevied (fst g) = n + 1.
Proof.
  unfold flow_gen_put, gen_FlowDemux_put, flowdemux, flow_fx_output, dflt.
  zcmp; destruct (fd_default c); cbn; repeat split; reflexivity.
Qed.

(* ---- FIBDemux.put ------------------------------------------------------------------------------------------
   the observations, read off the configuration *)
Definition fib_has (c : fibdemux_cfg) : bool := match fb_fib c with Some _ => true | None => false end.
Definition fib_in_ends (c : fibdemux_cfg) (f : Z) : bool := match lookup (fb_ends c) f with Some _ => true | None => false end.

(* the try block: out = outs[self._fib[flow_id]] with Python indexing; KeyError / IndexError -> out = default_out.
   None = `out` is None afterwards *)
Definition fib_lookup (c : fibdemux_cfg) (f : Z) : option output :=
  match lookup (match fb_fib c with Some t => t | None => [] end) f with
  | None => if fb_default c then Some ODefault else None
  | Some p => match py_index (nouts c) p with
              | Some i => Some (OOut i)
              | None => if fb_default c then Some ODefault else None
              end
  end.
Definition fib_out_given (c : fibdemux_cfg) (f : Z) : bool := match fib_lookup c f with Some _ => true | None => false end.

Definition fib_fx_output (c : fibdemux_cfg) (f : Z) (fx : list demux_fx) : option output :=
  match fx with
  | [FxRaiseValueError] => Some (OError ValueError)
  | [FxEnd] => match lookup (fb_ends c) f with Some d => Some (OEnd d) | None => Some (OError KeyError) end
  | [FxLookup; FxPutOut] => fib_lookup c f                  (* out.put(packet) on what the lookup chose *)
  | [FxLookup] => Some ONowhere
  | _ => None                                              (* not an effect sequence of FIBDemux.put *)
  end.

Definition fib_gen_put (c : fibdemux_cfg) (n : Z) (f : Z) :=
  gen_FIBDemux_put {| d_packets_recevied := n |} (fib_has c) (fib_in_ends c f) f (fib_out_given c f).

Lemma bridge_fibdemux_put c n f :
  let g := fib_gen_put c n f in
  fib_fx_output c f (snd g) = Some (fibdemux true true c f) /\
  snd g = (if negb (fib_has c) then [FxRaiseValueError]
           else if fib_in_ends c f then [FxEnd]
           else if fib_out_given c f then [FxLookup; FxPutOut] else [FxLookup]) /\
  d_packets_recevied (fst g) = (if fib_has c then n + 1 else n).
Proof.
  destruct (fb_fib c) as [t|] eqn:Ht; [rewrite (fibdemux_fixed c t f Ht)|unfold fibdemux; rewrite Ht];
    unfold fib_gen_put, gen_FIBDemux_put, fib_fx_output, fib_has, fib_in_ends, fib_out_given, fib_lookup, dflt; rewrite Ht;
    cbn [negb andb]; [|repeat split; reflexivity].
  destruct (lookup (fb_ends c) f) as [d|]; cbn; [repeat split; reflexivity|].
  destruct (lookup t f) as [p|]; [destruct (py_index (nouts c) p)|]; destruct (fb_default c); cbn;
    repeat split; reflexivity.
Qed.
