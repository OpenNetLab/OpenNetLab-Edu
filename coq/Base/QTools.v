(* Rational comparisons as the Python code makes them (Qle_bool, Qeq_bool) against the propositions and deciders
   the models and proofs use; shared by the bridges to the generated bodies. *)
From Coq Require Import ZArith QArith Qminmax Qreduction.

Lemma Qle_bool_false x y : Qle_bool x y = false -> y < x.
Proof. intros H. apply Qnot_le_lt. intros L. apply Qle_bool_iff in L. congruence. Qed.

(* computing without opening the arithmetic *)
Ltac cbnq := cbn -[Qred Qplus Qminus Qmult Qdiv Qopp Qinv Qmin Qle_bool Qeq_bool Qlt_le_dec inject_Z Z.add].

(* boolean comparisons in the context as propositions *)
Ltac qb :=
  repeat match goal with
         | H : Qle_bool _ _ = true |- _ => apply Qle_bool_iff in H
         | H : Qle_bool ?a ?b = false |- _ =>
             assert (~ a <= b) by (let K := fresh in intro K; apply Qle_bool_iff in K; congruence); clear H
         | H : Qeq_bool _ _ = true |- _ => apply Qeq_bool_iff in H
         | H : Qeq_bool ?a ?b = false |- _ =>
             assert (~ a == b) by (let K := fresh in intro K; apply Qeq_bool_iff in K; congruence); clear H
         end.

(* two states / outputs equal up to == under Qred *)
Ltac req :=
  repeat match goal with
         | |- Qred _ = Qred _ => apply Qred_complete
         | |- @eq Q _ _ => fail 1
         | |- _ = _ => progress f_equal
         end.
