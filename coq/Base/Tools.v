(* Small facts used across layers that are about no particular model. *)
From Coq Require Import List.
Import ListNotations.

(* A closed run that returns a state and a trace: what is claimed of them is read off the one evaluation of the
   run (vm_compute reduces the match to the claims about the result), and the result itself, which may hold
   closures and unreduced rationals, is never printed back into the proof term. *)
Lemma run_facts {A B} (r : option (A * B)) (P : A -> B -> Prop) :
  match r with Some (a, b) => P a b | None => False end -> exists a b, r = Some (a, b) /\ P a b.
Proof. destruct r as [[a b]|]; [intros H; exists a, b; split; [reflexivity|exact H]|intros []]. Qed.

(* The same for a run already named by an equation: a claim about its result is read off the evaluation of the
   run, and the equation itself is left abstract (no normal-form state is substituted anywhere). *)
Lemma run_elim {A B} (r : option (A * B)) (P : A -> B -> Prop) a b :
  r = Some (a, b) -> match r with Some (a', b') => P a' b' | None => True end -> P a b.
Proof. intros ->. exact (fun H => H). Qed.

(* For a run that returns a pair (state, result): the result is evaluated, the state stays the projection. *)
Lemma pair_of_snd {A B} (x : A * B) b : snd x = b -> x = (fst x, b).
Proof. intros <-. apply surjective_pairing. Qed.

(* The one-component forms, and the link from a result to the projections with a default that the witness
   files use to name the state and the trace of a run. *)
Lemma some_fact {A} (o : option A) (P : A -> Prop) :
  match o with Some a => P a | None => False end -> exists a, o = Some a /\ P a.
Proof. destruct o as [a|]; [intros H; exists a; split; [reflexivity|exact H]|intros []]. Qed.

Lemma some_default {A} (o : option A) d :
  (match o with Some _ => true | None => false end) = true -> o = Some (match o with Some a => a | None => d end).
Proof. destruct o; [reflexivity|discriminate]. Qed.

Lemma some_pair {A B} (o : option (A * B)) a0 b0 :
  o <> None ->
  o = Some (match o with Some (a, _) => a | None => a0 end, match o with Some (_, b) => b | None => b0 end).
Proof. destruct o as [[a b]|]; [reflexivity|intros H; destruct (H eq_refl)]. Qed.

(* A conjunct that the rest of the conjunction is proved from. *)
Lemma conj_keep (A B : Prop) : A -> (A -> B) -> A /\ B.
Proof. intros a f. exact (conj a (f a)). Qed.
