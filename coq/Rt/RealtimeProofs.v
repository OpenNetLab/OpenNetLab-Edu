(* Rt/RealtimeProofs.v -- C20: the theorems about [rt_step] / [rt_run] of Rt/Realtime.v, for every sequence of clock
   readings and every kernel: never early, sleeps exact, strict mode, same events as the plain environment. *)
From Coq Require Import ZArith QArith List Bool Lia Lqa.
From ONL Require Import Rt.Realtime.
Import ListNotations.

(* the sleep loop ends only on a reading that has reached real_time; every earlier reading was before it,
   and each requested sleep is exactly the missing time at that reading *)
Lemma sleep_loop_spec rt : forall clock sl used,
  sleep_loop rt clock = (sl, used, true) ->
  exists pre r, used = pre ++ [r] /\ rt <= r /\
                Forall (fun x => x < rt) pre /\ sl = map (fun x => rt - x) pre /\
                exists rest, clock = used ++ rest.
Proof.
  induction clock as [|r0 rest IH]; intros sl used H; cbn [sleep_loop] in H; [discriminate|].
  destruct (Qle_bool (rt - r0) 0) eqn:E.
  - injection H as <- <-. exists [], r0. repeat split; auto.
    + apply Qle_bool_iff in E. lra.
    + exists rest. reflexivity.
  - destruct (sleep_loop rt rest) as [[sl' used'] ok] eqn:El. injection H as <- <- ->.
    destruct (IH _ _ eq_refl) as (pre & r & -> & Hr & Hpre & Hsl & rest' & Hrest).
    exists (r0 :: pre), r. repeat split; auto.
    + constructor; auto.
      destruct (Qlt_le_dec r0 rt); auto.
      assert (Qle_bool (rt - r0) 0 = true) by (apply Qle_bool_iff; lra). congruence.
    + cbn [map]. rewrite Hsl. reflexivity.
    + exists rest'. cbn [app]. rewrite Hrest. reflexivity.
Qed.

Lemma rt_step_proceeds c rs t clock sl used :
  rt_step c rs (Some t) clock = (RProceed, sl, used) ->
  exists hd used' rest, used = hd ++ used' /\ sleep_loop (real_time_of c rs t) rest = (sl, used', true) /\
                        (strict c = false -> hd = []).
Proof.
  unfold rt_step. set (rt := real_time_of c rs t). destruct (strict c).
  - destruct clock as [|r1 rest]; [discriminate|].
    destruct (Qlt_le_dec (factor c) (r1 - rt)); [destruct rest; discriminate|].
    destruct (sleep_loop rt rest) as [[sl' used'] [|]] eqn:El; [|discriminate].
    intros H; injection H as <- <-. exists [r1], used', rest. split; [reflexivity|]. split; [exact El|discriminate].
  - destruct (sleep_loop rt clock) as [[sl' used'] [|]] eqn:El; [|discriminate].
    intros H; injection H as <- <-. exists [], used', clock. split; [reflexivity|]. split; [exact El|reflexivity].
Qed.

(* never early: Environment.step is entered only after a reading >= real_start + (t - initial)*factor *)
Theorem rt_never_early c rs t clock sl used :
  rt_step c rs (Some t) clock = (RProceed, sl, used) ->
  exists pre r, used = pre ++ [r] /\ real_time_of c rs t <= r.
Proof.
  intros H. destruct (rt_step_proceeds _ _ _ _ _ _ H) as (hd & used' & rest & -> & El & _).
  apply sleep_loop_spec in El as (pre & r & -> & Hr & _). exists (hd ++ pre), r. rewrite app_assoc. auto.
Qed.

(* every reading before the last was too early, and the step slept exactly the missing time each time *)
Theorem rt_sleeps_exact c rs t clock sl used :
  strict c = false ->
  rt_step c rs (Some t) clock = (RProceed, sl, used) ->
  exists pre r, used = pre ++ [r] /\ Forall (fun x => x < real_time_of c rs t) pre /\
                sl = map (fun x => real_time_of c rs t - x) pre.
Proof.
  intros S H. destruct (rt_step_proceeds _ _ _ _ _ _ H) as (hd & used' & rest & -> & El & Hd). rewrite (Hd S).
  apply sleep_loop_spec in El as (pre & r & -> & _ & Hpre & Hsl & _). exists pre, r. auto.
Qed.

(* strict mode: too slow exactly when the first reading is more than `factor` past the due instant *)
Theorem rt_strict_iff c rs t r1 r2 rest :
  strict c = true ->
  ((exists d, fst (fst (rt_step c rs (Some t) (r1 :: r2 :: rest))) = RTooSlow d)
   <-> factor c < r1 - real_time_of c rs t).
Proof.
  intros Hs. unfold rt_step. rewrite Hs. set (rt := real_time_of c rs t).
  destruct (Qlt_le_dec (factor c) (r1 - rt)) as [Hlt|Hge].
  - split; [auto|]. intros _. exists (r2 - rt). reflexivity.
  - split.
    + intros (d & H). destruct (sleep_loop rt (r2 :: rest)) as [[sl used] ok]; destruct ok; cbn in H; discriminate.
    + intros H. exfalso. unfold rt in *. apply (Qlt_irrefl (factor c)). eapply Qlt_le_trans; eauto.
Qed.

Theorem rt_nonstrict_never_raises c rs evt clock :
  strict c = false -> forall d, fst (fst (rt_step c rs evt clock)) <> RTooSlow d.
Proof.
  intros Hs d. unfold rt_step. rewrite Hs. destruct evt as [t|]; [|cbn; discriminate].
  destruct (sleep_loop _ clock) as [[sl used] ok]; destruct ok; cbn; discriminate.
Qed.

Theorem rt_empty c rs clock : rt_step c rs None clock = (REmpty, [], []).
Proof. reflexivity. Qed.

(* the pacing never blocks for ever: with any clock that eventually reaches real_time the step proceeds *)
Theorem rt_proceeds_when_reached c rs t clock :
  strict c = false -> Exists (fun r => real_time_of c rs t <= r) clock ->
  exists sl used, rt_step c rs (Some t) clock = (RProceed, sl, used).
Proof.
  intros Hs Hex. unfold rt_step. rewrite Hs. set (rt := real_time_of c rs t).
  assert (K : exists sl used, sleep_loop rt clock = (sl, used, true)).
  { induction Hex as [r rest Hr|r rest Hex IH]; cbn [sleep_loop].
    - assert (E : Qle_bool (rt - r) 0 = true) by (apply Qle_bool_iff; unfold rt; lra). rewrite E. eauto.
    - destruct (Qle_bool (rt - r) 0); [eauto|]. destruct IH as (sl & used & ->). eauto. }
  destruct K as (sl & used & ->). eauto.
Qed.

Example rt_example2 :
  fst (fst (rt_step {| factor := 1#2; strict := true; env_start := 0 |} 10 (Some 4) [11; 23#2; 12; 13])) = RProceed
  /\ fst (fst (rt_step {| factor := 1#2; strict := true; env_start := 0 |} 10 (Some 4) [13; 13])) = RTooSlow (13 - (10 + (4 - 0) * (1#2))).
Proof. split; vm_compute; reflexivity. Qed.

(* the real-time environment performs exactly the plain environment's steps: same events, same results,
   same resulting kernel state, for as many steps as it proceeds *)
Theorem rt_same_events (K R : Type) (peek : K -> option Q) (kstep : K -> K * R) c rs :
  forall clocks k k' results o,
  rt_run K R peek kstep c rs k clocks = (k', results, o) ->
  plain_run K R kstep k (length results) = (k', results).
Proof.
  induction clocks as [|clock more IH]; intros k k' results o H; cbn [rt_run] in H.
  - injection H as <- <- <-. reflexivity.
  - destruct (rt_step c rs (peek k) clock) as [[o1 sl] used].
    destruct o1; try (injection H as <- <- <-; reflexivity).
    destruct (kstep k) as [k1 r] eqn:Ek.
    destruct (rt_run K R peek kstep c rs k1 more) as [[k2 rs'] o2] eqn:Er.
    injection H as <- <- <-. cbn [length plain_run]. rewrite Ek.
    rewrite (IH _ _ _ _ Er). reflexivity.
Qed.
