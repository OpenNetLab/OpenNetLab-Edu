(* Bridging lemmas (DESIGN 2.6, second tie) for RealtimeEnvironment.step / sync: the bodies as translated from the tree
   under test on every run (Gen/Extracted_rt.v) are [rt_step] / [rt_sync] of the hand-written model (Rt/Realtime.v) the
   C20 theorems are about.  The wall clock is the model's oracle: a list of readings; every monotonic() call of the body
   (effect FxMonotonic) consumes the next one, whose value the generated definition receives as the parameters r1, r2.
   The sleep loop is one whitelisted statement whose meaning is the model's [sleep_loop] on the remaining readings. *)
From Coq Require Import ZArith QArith List Bool Lia Lqa.
From ONL Require Import Base.QTools Rt.Realtime Gen.Extracted_rt.
Import ListNotations.

(* the effects run against the clock oracle: (outcome, sleeps requested, readings consumed) *)
Fixpoint rt_fx_run (clock used : list Q) (fx : list rt_fx) {struct fx} : rtout * list Q * list Q :=
  match fx with
  | [] => (RNoClock, [], used)                                   (* a body never just ends *)
  | FxRaiseEmptySchedule :: _ => (REmpty, [], used)
  | FxMonotonic :: t =>
      match clock with
      | [] => (RNoClock, [], used)
      | r :: rest => rt_fx_run rest (used ++ [r]) t
      end
  | FxRaiseTooSlow d :: _ => (RTooSlow d, [], used)
  | FxSleepLoop rt :: t =>
      match sleep_loop rt clock with
      | (sl, u, true) => match t with [FxKernelStep] => (RProceed, sl, used ++ u) | _ => (RNoClock, sl, used ++ u) end
      | (sl, u, false) => (RNoClock, sl, used ++ u)
      end
  | FxKernelStep :: _ => (RProceed, [], used)
  | FxSetRealStart _ :: _ => (RNoClock, [], used)
  end.

Definition rt_gen_step (c : rtcfg) (real_start : Q) (evt : option Q) (clock : list Q) : list rt_fx :=
  gen_Rt_step (match evt with None => true | Some _ => false end) (match evt with Some t => t | None => 0 end)
              real_start (env_start c) (factor c) (strict c) (nth 0 clock 0) (nth 1 clock 0).

Lemma bridge_rt_step c real_start evt clock :
  rt_fx_run clock [] (rt_gen_step c real_start evt clock) = rt_step c real_start evt clock.
Proof.
  unfold rt_gen_step, gen_Rt_step, rt_step, real_time_of.
  destruct evt as [t|]; [|reflexivity].
  set (rt := real_start + (t - env_start c) * factor c).
  destruct (strict c).
  - destruct clock as [|r1 rest]; cbn [nth].
    + destruct (negb (Qle_bool (0 - rt) (factor c))); reflexivity.
    + destruct (Qlt_le_dec (factor c) (r1 - rt)) as [L|L];
        destruct (Qle_bool (r1 - rt) (factor c)) eqn:E; cbn [negb].
      * apply Qle_bool_iff in E. exfalso. lra.
      * destruct rest as [|r2 rest']; reflexivity.
      * cbn. destruct (sleep_loop rt rest) as [[sl u] [|]]; reflexivity.
      * apply Qle_bool_false in E. exfalso. lra.
  - cbn. destruct (sleep_loop rt clock) as [[sl u] [|]]; reflexivity.
Qed.

(* sync(): real_start := monotonic() *)
Definition rt_sync_fx (clock : list Q) (fx : list rt_fx) : option Q :=
  match fx, clock with
  | [FxMonotonic; FxSetRealStart t], r :: _ => if Qeq_bool t r then Some r else None
  | _, _ => None
  end.

Lemma bridge_rt_sync clock :
  rt_sync_fx clock (gen_Rt_sync (nth 0 clock 0) (nth 1 clock 0)) = rt_sync clock.
Proof.
  unfold gen_Rt_sync, rt_sync_fx, rt_sync. destruct clock as [|r rest]; cbn; [reflexivity|].
  rewrite (proj2 (Qeq_bool_iff r r) (Qeq_refl r)). reflexivity.
Qed.
