(* The multi-queue schedulers SP / RR / WRR (one automaton, Elem/SchedBase.v, any configuration mq_cfg) as an interface
   element (Elem/Iface.v).  The adapter's labels are the scheduler's own actions; its executions are exactly the executions
   of mq_run, so the theorems of SchedBaseProofs.v transfer.  A scheduler has no drop rule; a packet of an unconfigured
   class or of negative size is not an admissible input (C12's domain), exactly as in the model. *)
From Coq Require Import ZArith QArith List Bool Permutation Lia.
From ONL Require Import Elem.Packet Elem.StoreQ Elem.SchedBase Elem.SchedBaseProofs Elem.SP Elem.SPProofs Elem.RR Elem.RRProofs
  Elem.WRR Elem.WRRProofs Elem.Iface Elem.Compose Elem.ComposeHands Elem.AdaptCommon.
Import ListNotations.

Definition sout_e (o : sout) : list eout := match o with OForward p => [EForward p] | _ => [] end.
Definition mq_internal (a : saction) : bool := match a with SPut _ | SAdvance _ => false | _ => true end.
Definition slift (r : option (mq * list sout)) : option (mq * list eout) :=
  match r with Some (s', o) => Some (s', flat_map sout_e o) | None => None end.

(* everything inside the scheduler: per configured class, the packet handed to send_packet, the packet travelling in
   a granted get, the store *)
Definition mq_held (c : mq_cfg) (s : mq) : list pkt := flat_map (held_class c s) (dclasses c).

Definition mq_elem (c : mq_cfg) : elem := {|
  st := mq;
  lab := saction;
  init := mq0 c;
  now := mnow;
  put := fun p s => slift (mq_act c s (SPut p));
  step := fun a s => if mq_internal a then slift (mq_act c s a) else None;
  advance := fun t s => match mq_act c s (SAdvance t) with Some (s', _) => Some s' | None => None end;
  urgent := SchedBase.urgent c;
  deadline := fun s => match mchild s with CTx _ dl => Some dl | _ => None end;
  held := mq_held c;
  accepts := fun _ => true;
  width := 1
|}.

Definition sp_elem (r : Q) (cm : Z -> Z) (fl : list Z) (tbl : list (Z * Z)) : elem := mq_elem (sp_cfg true r cm fl tbl).
Definition rr_elem (r : Q) (fl : list Z) : elem := mq_elem (rr_cfg r fl).
Definition wrr_elem (r : Q) (ws : list (Z * Z)) : elem := mq_elem (wrr_cfg r ws).

Definition s_to (a : iact saction) : saction := match a with IPut p => SPut p | IStep l => l | IAdv t => SAdvance t end.
Definition s_of (a : saction) : iact saction := match a with SPut p => IPut p | SAdvance t => IAdv t | _ => IStep a end.
Definition s_ev (e : SchedBase.tev) : Q * iact saction * list eout := (fst (fst e), s_of (snd (fst e)), flat_map sout_e (snd e)).

Definition mq_adapter (c : mq_cfg) : adapter (mq_elem c) := {|
  m_act := mq_act c; m_run := mq_run c; m_mk := fun s a o => (mnow s, a, o); m_iev := s_ev; m_oe := flat_map sout_e;
  m_put := SPut; m_adv := SAdvance; m_int := mq_internal; m_acc := fun _ => true; m_of := s_of; m_ok := fun _ => True
|}.

Lemma mq_advance_inv c s t s' o : mq_act c s (SAdvance t) = Some (s', o) ->
  o = [] /\ mnow s' = t /\ mnow s < t /\ SchedBase.urgent c s = false /\
  forall d, match mchild s with CTx _ dl => Some dl | _ => None end = Some d -> t <= d.
Proof.
  cbn [mq_act]. destruct (SchedBase.urgent c s); [discriminate|]. destruct (Qlt_le_dec (mnow s) t) as [L|]; [|discriminate].
  destruct (mchild s) as [|p|p dl|]; [| |destruct (Qle_bool t dl) eqn:El; [|discriminate]|]; intros H; injection H as <- <-;
    repeat split; auto; intros d Hd; try discriminate. injection Hd as <-. apply Qle_bool_iff. exact El.
Qed.

Lemma mq_adapter_ok c : adapter_ok (mq_adapter c).
Proof.
  split; try reflexivity.
  - (* ok_no_hand *) intros o. induction o as [|[] o IH]; cbn; repeat constructor; exact IH.
  - (* ok_of_int *) intros [] H; reflexivity || discriminate H.
  - (* ok_view *) intros [] _; repeat split.
  - (* ok_act_now *) intros s a s' o. apply act_now.
  - (* ok_adv_inv *) intros s t s' o. apply mq_advance_inv.
Qed.

(* every execution of the model is an execution of the adapter ... *)
Theorem mq_run_elem c : forall acts s s' tr,
  mq_run c s acts = Some (s', tr) -> run (mq_elem c) s (map s_of acts) = Some (s', map s_ev tr).
Proof. exact (adapter_run_elem_all _ _ (mq_adapter_ok c) (fun _ => I)). Qed.

(* ... and conversely: the adapter has no other executions *)
Theorem mq_elem_run c : forall acts s s' tr,
  run (mq_elem c) s acts = Some (s', tr) ->
  exists tr0, mq_run c s (map s_to acts) = Some (s', tr0) /\ tr = map s_ev tr0 /\ map s_of (map s_to acts) = acts.
Proof. exact (adapter_elem_run_all _ _ (mq_adapter_ok c)). Qed.

Lemma mq_puts tr : Iface.puts (map s_ev tr) = tr_puts tr.
Proof. apply flat_map_link_id. intros [[t []] outs]; reflexivity. Qed.
Lemma mq_fwds tr : fwds (map s_ev tr) = tr_fwds tr.
Proof. apply flat_map_link_id. intros [[t a] o]. apply flat_map_comp. intros []; reflexivity. Qed.
Lemma mq_drops tr : drops (map s_ev tr) = [].
Proof. apply (drops_map_none _ snd sout_e); [reflexivity|intros []; reflexivity]. Qed.

Theorem mq_elem_laws c : cfg_ok c -> laws (mq_elem c).
Proof.
  intros Ok. pose proof (proj1 Ok) as Hw.
  apply (adapter_laws _ _ (mq_adapter_ok c) _ _ (fun _ => []) mq_puts mq_fwds mq_drops). intros acts s tr _ R. split; [|split].
  - cbn [app held mq_elem]. destruct (run_conserves c _ _ _ Hw R) as (Hc & _ & Hin).
    apply (class_partition_perm (fun p => cls c (flow p)) (dclasses c)); [apply NoDup_nodup|exact Hc|].
    intros p Hp. apply nodup_In, Hin, Hp.
  - intros f. destruct (run_flow_fifo c _ _ _ f Hw R) as [rest E]. change (on_flow f) with (is_flow f). rewrite E. apply sublist_app_r.
  - intros _ U Dl. cbn [urgent deadline mq_elem] in U, Dl.
    assert (Nd : forall p dl, mchild s <> CTx p dl) by (intros p dl E; rewrite E in Dl; discriminate).
    destruct (drained0 c _ _ _ Ok R U Nd) as (He & _). exact (flat_map_all_nil _ _ He).
Qed.

(* the three schedulers *)
Corollary sp_elem_laws r cm fl tbl : 0 < r -> (forall k p, In (k, p) tbl -> (0 < p)%Z) -> laws (sp_elem r cm fl tbl).
Proof. intros R P. apply mq_elem_laws. apply sp_cfg_ok; assumption. Qed.

Corollary rr_elem_laws r fl : 0 < r -> laws (rr_elem r fl).
Proof. intros R. apply mq_elem_laws. apply rr_cfg_ok; assumption. Qed.
Corollary wrr_elem_laws r ws : 0 < r -> (forall f w, In (f, w) ws -> (0 < w)%Z) -> laws (wrr_elem r ws).
Proof. intros R P. apply mq_elem_laws. apply wrr_cfg_ok; assumption. Qed.

Theorem mq_elem_timed c : timed (mq_elem c).
Proof. exact (adapter_timed _ _ (mq_adapter_ok c)). Qed.

Theorem mq_elem_tagged c : tagged (mq_elem c).
Proof. exact (adapter_tagged _ _ (mq_adapter_ok c)). Qed.
