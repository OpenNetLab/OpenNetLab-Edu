(* Proofs about Elem/Timer.v (the repaired code: `fixed`).  All statements quantify over every admissible
   execution of the automaton: any interleaving of stop()/restart() calls by foreign processes, calls made by
   the callback, and the kernel steps of the timer processes. *)
From Coq Require Import ZArith QArith Qminmax List Bool Lia Lqa Sorted.
From ONL Require Import Base.Tools Elem.Timer.
Import ListNotations.

Local Open Scope Q_scope.

(* ---- lists ------------------------------------------------------------------------------------ *)
Lemma nth_error_upd {A : Type} (f : A -> A) (l : list A) : forall i j,
  nth_error (upd i f l) j = if Nat.eqb i j then option_map f (nth_error l j) else nth_error l j.
Proof.
  induction l as [|x t IH]; intros i j.
  - destruct i, j; cbn; try reflexivity; destruct (Nat.eqb _ _); reflexivity.
  - destruct i as [|i], j as [|j]; cbn; try reflexivity. apply IH.
Qed.

Lemma nth_error_upd_same {A : Type} (f : A -> A) (l : list A) i p :
  nth_error l i = Some p -> nth_error (upd i f l) i = Some (f p).
Proof. intros H. rewrite nth_error_upd, Nat.eqb_refl, H. reflexivity. Qed.

Lemma nth_error_upd_other {A : Type} (f : A -> A) (l : list A) i j :
  i <> j -> nth_error (upd i f l) j = nth_error l j.
Proof. intros H. rewrite nth_error_upd. apply Nat.eqb_neq in H. rewrite H. reflexivity. Qed.

Lemma length_upd {A : Type} (f : A -> A) (l : list A) : forall i, length (upd i f l) = length l.
Proof. induction l as [|x t IH]; intros [|i]; cbn; auto. Qed.

Lemma existsb_false_nth {A : Type} (f : A -> bool) (l : list A) i x :
  existsb f l = false -> nth_error l i = Some x -> f x = false.
Proof.
  intros H Hn. apply nth_error_In in Hn.
  destruct (f x) eqn:E; [|reflexivity].
  assert (existsb f l = true) by (apply existsb_exists; eauto). congruence.
Qed.

Lemma forallb_nth {A : Type} (f : A -> bool) (l : list A) i x :
  forallb f l = true -> nth_error l i = Some x -> f x = true.
Proof. intros H Hn. apply nth_error_In in Hn. rewrite forallb_forall in H. auto. Qed.

(* ---- the callback's calls, for the repaired code, only touch the scheduling fields -------------- *)
Definition cb_call (st : timer) (c : call) : timer :=
  match c with CStop => do_stop st | CRestart tau => set_sched st tau end.
Definition cb_effect (cs : list call) (st : timer) : timer := fold_left cb_call cs st.
Definition fired (cs : list call) (st : timer) : timer := rebase (cb_effect cs st).

Definition same_frame (st st' : timer) : Prop :=
  tnow st' = tnow st /\ procs st' = procs st /\ cur st' = cur st /\ err st' = err st /\
  autor st' = autor st /\ cargs st' = cargs st.

Lemma cb_effect_frame cs : forall st, same_frame st (cb_effect cs st).
Proof.
  induction cs as [|c t IH]; intros st; cbn; [repeat split|].
  destruct (IH (cb_call st c)) as (A & B & C & D & E & G).
  unfold same_frame, cb_effect in *. rewrite A, B, C, D, E, G. destruct c; cbn; repeat split.
Qed.

Lemma fired_frame cs st : same_frame st (fired cs st).
Proof. unfold fired, rebase. destruct (autor _); [cbn|]; apply cb_effect_frame. Qed.

Lemma apply_calls_fixed cs : forall st,
  err st = None ->
  fold_left (apply_call fixed (cur st)) cs st = cb_effect cs st.
Proof.
  induction cs as [|c t IH]; intros st He; cbn; [reflexivity|].
  assert (E : apply_call fixed (cur st) st c = cb_call st c).
  { unfold apply_call. rewrite He. destruct c; cbn; [reflexivity|].
    unfold do_restart. cbn. rewrite Nat.eqb_refl. reflexivity. }
  rewrite E.
  assert (C : cur (cb_call st c) = cur st) by (destruct c; reflexivity).
  assert (He' : err (cb_call st c) = None) by (destruct c; cbn; exact He).
  rewrite <- C. rewrite IH by exact He'. reflexivity.
Qed.

Definition resched (S st : timer) : timer :=
  {| tnow := tnow st; tmo := tmo S; expire := expire S; tstart := tstart S; stopped := stopped S;
     autor := autor st; cargs := cargs st; procs := procs st; cur := cur st; err := err st |}.
(* st on the schedule of S, with self.proc back at the `while` test of run() *)
Definition wake (S st : timer) : timer :=
  set_procs (resched S st) (upd (cur st) (set_ph (loop_phase (resched S st))) (procs st)).

Lemma wake_eq S st :
  same_frame st S -> set_procs S (upd (cur st) (set_ph (loop_phase S)) (procs S)) = wake S st.
Proof.
  intros (A & B & C & D & E & G). unfold wake, resched, set_procs, loop_phase. cbn.
  rewrite A, B, C, D, E, G. reflexivity.
Qed.

Lemma loop_phase_wait st d :
  loop_phase st = PWait d -> tnow st < expire st /\ d == expire st.
Proof.
  unfold loop_phase. destruct (Qlt_le_dec (tnow st) (expire st)) as [L|L]; [|discriminate].
  intros E. injection E as <-. split; [exact L|ring].
Qed.

Lemma loop_phase_cases st :
  (tnow st < expire st /\ loop_phase st = PWait (tnow st + (expire st - tnow st))) \/
  (expire st <= tnow st /\ loop_phase st = PDone).
Proof. unfold loop_phase. destruct (Qlt_le_dec (tnow st) (expire st)); [left|right]; auto. Qed.

Definition curp (st : timer) : option tproc := nth_error (procs st) (cur st).

Lemma curp_wake S st : curp (wake S st) = option_map (set_ph (loop_phase (resched S st))) (curp st).
Proof. unfold curp, wake. cbn. rewrite nth_error_upd, Nat.eqb_refl. reflexivity. Qed.

Lemma curp_same st f p : curp st = Some p -> curp (set_procs st (upd (cur st) f (procs st))) = Some (f p).
Proof. apply nth_error_upd_same. Qed.

Lemma curp_other st i f : i <> cur st -> curp (set_procs st (upd i f (procs st))) = curp st.
Proof. apply nth_error_upd_other. Qed.

Lemma curp_restart S (l : list tproc) c f :
  curp (set_cur (set_procs S (upd c f l ++ [newp])) (length l)) = Some newp.
Proof.
  unfold curp. cbn. rewrite nth_error_app2 by (rewrite length_upd; lia).
  rewrite length_upd, Nat.sub_diag. reflexivity.
Qed.

(* ---- the invariant ----------------------------------------------------------------------------- *)
(* self.proc carries no pending interruption; while it sleeps and the timer is not stopped its Timeout is due
   exactly at expire_time, which is not in the past; every other live timer process has an interruption
   pending (so it ends before its own Timeout can be processed) *)
Definition cur_ok (st : timer) (p : tproc) : Prop :=
  intr p = 0%nat /\ forall d, ph p = PWait d -> tnow st <= d /\ (stopped st = false -> d == expire st).
Definition others_ok (l : list tproc) (c : nat) : Prop :=
  forall i p, i <> c -> nth_error l i = Some p -> alive p = true -> intr p <> 0%nat.
Definition Inv (st : timer) : Prop :=
  err st = None /\ (exists a, cargs st = Some a) /\ (exists p, curp st = Some p /\ cur_ok st p) /\
  others_ok (procs st) (cur st).

Lemma Inv_init t0 tau au a : Inv (timer0 fixed t0 tau au a).
Proof.
  split; [reflexivity|]. split; [destruct a; cbn; eauto|]. split.
  - exists newp. split; [reflexivity|]. split; [reflexivity|]. intros d H; discriminate.
  - intros [|i] p Hi Hn; [contradiction Hi; reflexivity|]. destruct i; discriminate.
Qed.

Lemma others_upd l c i f :
  others_ok l c ->
  (i <> c -> forall p, nth_error l i = Some p -> alive (f p) = true -> intr (f p) <> 0%nat) ->
  others_ok (upd i f l) c.
Proof.
  intros H Hf j q Hj Hn. rewrite nth_error_upd in Hn. destruct (Nat.eqb_spec i j) as [->|_].
  - destruct (nth_error l j) as [p|] eqn:Hp; [|discriminate]. injection Hn as <-. apply (Hf Hj p eq_refl).
  - apply (H j q Hj Hn).
Qed.

Lemma wake_inv S st : Inv st -> Inv (wake S st).
Proof.
  intros (He & Ha & (p & Hp & Hi0 & _) & Hoth). split; [exact He|]. split; [exact Ha|]. split.
  - exists (set_ph (loop_phase (resched S st)) p). split; [rewrite curp_wake, Hp; reflexivity|].
    split; [exact Hi0|]. intros d Hd. apply loop_phase_wait in Hd as [L E].
    split; [rewrite E; apply Qlt_le_weak, L|intros _; exact E].
  - apply others_upd; [exact Hoth|]. intros N. contradiction N. reflexivity.
Qed.

Lemma no_urgent_nth st i p :
  any_urgent st = false -> nth_error (procs st) i = Some p -> ph p <> PInit /\ intr p = 0%nat.
Proof.
  intros H Hn. apply (existsb_false_nth _ _ _ _ H) in Hn. unfold urgent_p, is_init in Hn.
  apply orb_false_iff in Hn as [H1 H2]. apply negb_false_iff, Nat.eqb_eq in H2.
  split; [|exact H2]. intros E. rewrite E in H1. discriminate.
Qed.

Definition foreign (a : taction) : option nat :=
  match a with TProcInit i | TProcInterrupt i | TProcEnd i => Some i | _ => None end.

(* one constructor per way an admissible action can go; SOther stands for the three kernel steps of a process other
   than self.proc and carries what the invariant needs to know of the update f *)
Inductive step (st : timer) : taction -> timer -> list tout -> Prop :=
| SStop : step st TStop (do_stop st) []
| SRestartLive tau p : curp st = Some p -> alive p = true ->
    step st (TRestart tau)
         (set_cur (set_procs (set_sched st tau) (upd (cur st) add_intr (procs st) ++ [newp])) (length (procs st))) []
| SRestartDead tau p : curp st = Some p -> alive p = false -> step st (TRestart tau) (set_sched st tau) []
| SAdvance t : any_urgent st = false -> tnow st < t ->
    (forall i p d, nth_error (procs st) i = Some p -> ph p = PWait d -> t <= d) ->
    step st (TAdvance t) (set_now st t) []
| SOther a i p f : foreign a = Some i -> i <> cur st -> nth_error (procs st) i = Some p ->
    (alive (f p) = true -> intr (f p) <> 0%nat) ->
    step st a (set_procs st (upd i f (procs st))) []
| SInitCur p : curp st = Some p -> ph p = PInit -> step st (TProcInit (cur st)) (wake st st) []
| SEndCur p : curp st = Some p -> ph p = PDone ->
    step st (TProcEnd (cur st)) (set_procs st (upd (cur st) (set_ph PGone) (procs st))) []
| SIdle p d : curp st = Some p -> ph p = PWait d -> stopped st = true ->
    step st (TProcTimeout (cur st) []) (wake st st) []
| SFire cs p d a0 : curp st = Some p -> ph p = PWait d -> d == tnow st -> stopped st = false ->
    cargs st = Some a0 -> step st (TProcTimeout (cur st) cs) (wake (fired cs st) st) [OFire a0].

Lemma act_step st a st' outs :
  Inv st -> timer_act fixed st a = Some (st', outs) -> step st a st' outs.
Proof.
  intros (He & (a0 & Ha) & (pc & Hc & Hi0 & _) & Hoth) H.
  unfold timer_act in H. rewrite He in H. destruct a as [|tau|i|i cs|i|i|t].
  - injection H as <- <-. constructor.
  - injection H as <- <-. unfold do_restart. cbn [fx_selfcb fixed is_caller andb]. unfold curp in Hc. rewrite Hc.
    unfold alive_test. cbn [fx_alive fixed].
    destruct (alive pc) eqn:E; cbn [negb]; econstructor; eassumption.
  - destruct (nth_error (procs st) i) as [p|] eqn:Hn; [|discriminate].
    destruct (ph p) eqn:Hp; try discriminate. injection H as <- <-.
    destruct (Nat.eq_dec i (cur st)) as [->|N]; [exact (SInitCur st p Hn Hp)|].
    apply (SOther st _ i p); [reflexivity|exact N|exact Hn|]. intros _.
    apply (Hoth i p N Hn). unfold alive. rewrite Hp. reflexivity.
  - destruct (nth_error (procs st) i) as [p|] eqn:Hn; [|discriminate].
    destruct (ph p) as [|d| |] eqn:Hp; try discriminate.
    destruct (Qeq_bool d (tnow st) && negb (any_urgent st)) eqn:G; [|discriminate].
    apply andb_true_iff in G as [G1 G2]. apply Qeq_bool_iff in G1. apply negb_true_iff in G2.
    (* only self.proc can have its Timeout processed: any other live process has an interruption pending *)
    assert (Hic : i = cur st).
    { destruct (Nat.eq_dec i (cur st)) as [|N]; [assumption|]. exfalso.
      destruct (no_urgent_nth _ _ _ G2 Hn) as [_ Z]. apply (Hoth i p N Hn); [unfold alive; rewrite Hp; reflexivity|exact Z]. }
    subst i. destruct (stopped st) eqn:Hs.
    + destruct cs; [|discriminate]. injection H as <- <-. exact (SIdle st p d Hn Hp Hs).
    + rewrite Ha, (apply_calls_fixed cs st He) in H.
      destruct (cb_effect_frame cs st) as (_ & _ & _ & F4 & _). rewrite F4, He in H. injection H as <- <-.
      change (rebase (cb_effect cs st)) with (fired cs st). rewrite (wake_eq _ _ (fired_frame cs st)).
      exact (SFire st cs p d a0 Hn Hp G1 Hs Ha).
  - destruct (nth_error (procs st) i) as [p|] eqn:Hn; [|discriminate].
    destruct (Nat.eqb (intr p) 0) eqn:Z; [discriminate|]. apply Nat.eqb_neq in Z.
    assert (Hic : i <> cur st) by (intros ->; unfold curp in Hc; congruence).
    destruct (ph p) eqn:Hp; try discriminate; injection H as <- <-;
      (apply (SOther st _ i p); [reflexivity|exact Hic|exact Hn|]); unfold alive; cbn; rewrite ?Hp; discriminate.
  - destruct (nth_error (procs st) i) as [p|] eqn:Hn; [|discriminate].
    destruct (ph p) eqn:Hp; try discriminate. injection H as <- <-.
    destruct (Nat.eq_dec i (cur st)) as [->|N]; [exact (SEndCur st p Hn Hp)|].
    apply (SOther st _ i p); [reflexivity|exact N|exact Hn|discriminate].
  - destruct (any_urgent st) eqn:U; [discriminate|].
    destruct (Qlt_le_dec (tnow st) t) as [L|L]; [|discriminate].
    destruct (forallb _ (procs st)) eqn:Fa; [|discriminate]. injection H as <- <-.
    apply SAdvance; [exact U|exact L|].
    intros i p d Hn Hp. apply (forallb_nth _ _ _ _ Fa) in Hn. rewrite Hp in Hn. apply Qle_bool_iff in Hn. exact Hn.
Qed.

Lemma Inv_step st a st' outs :
  Inv st -> timer_act fixed st a = Some (st', outs) -> Inv st'.
Proof.
  intros HI H. pose proof HI as (He & Ha & (pc & Hc & Hi0 & Hw) & Hoth).
  destruct (act_step _ _ _ _ HI H) as [|tau p Hp Al|tau p Hp Al|t _ _ Hall|a i p f _ N Hp Hf|p _ _|p Hp _|p d _ _ _|cs p d a0 _ _ _ _ _];
    [| | | | |apply wake_inv, HI| |apply wake_inv, HI|apply wake_inv, HI]; (split; [exact He|]); (split; [exact Ha|]).
  - (* SStop *) split; [|exact Hoth]. exists pc. split; [exact Hc|]. split; [exact Hi0|]. intros d Hd.
    split; [apply (Hw d Hd)|discriminate].
  - (* SRestartLive *) split.
    + exists newp. split; [apply curp_restart|]. split; [reflexivity|]. intros d Hd; discriminate.
    + (* the old self.proc now has an interruption pending; the new one is the last of the list *)
      intros i q Hi Hn Hal. cbn in Hi, Hn.
      assert (Hlt : (i < length (procs st))%nat).
      { assert (X : (i < length (upd (cur st) add_intr (procs st) ++ [newp]))%nat) by (apply nth_error_Some; congruence).
        rewrite app_length, length_upd in X. cbn in X. lia. }
      rewrite nth_error_app1 in Hn by (rewrite length_upd; exact Hlt).
      rewrite nth_error_upd in Hn. destruct (Nat.eqb_spec (cur st) i) as [<-|Ne]; [|exact (Hoth i q (not_eq_sym Ne) Hn Hal)].
      unfold curp in Hc. rewrite Hc in Hn. injection Hn as <-. discriminate.
  - (* SRestartDead *) split; [|exact Hoth]. exists pc. split; [exact Hc|]. split; [exact Hi0|]. intros d Hd.
    rewrite Hc in Hp. injection Hp as <-. unfold alive in Al. rewrite Hd in Al. discriminate.
  - (* SAdvance *) split; [|exact Hoth]. exists pc. split; [exact Hc|]. split; [exact Hi0|]. intros d Hd.
    split; [apply (Hall _ _ _ Hc Hd)|apply (Hw d Hd)].
  - (* SOther *) split.
    + exists pc. split; [rewrite curp_other by exact N; exact Hc|exact (conj Hi0 Hw)].
    + apply others_upd; [exact Hoth|]. intros _ q Hq. rewrite Hp in Hq. injection Hq as <-. exact Hf.
  - (* SEndCur *) split.
    + exists (set_ph PGone pc). split; [apply curp_same, Hc|]. split; [exact Hi0|]. intros d Hd; discriminate.
    + apply others_upd; [exact Hoth|]. intros N. contradiction N. reflexivity.
Qed.

Lemma run_cons fx st a rest st2 tr :
  timer_run fx st (a :: rest) = Some (st2, tr) ->
  exists s1 o1 t2, timer_act fx st a = Some (s1, o1) /\ timer_run fx s1 rest = Some (st2, t2) /\
                   tr = (tnow s1, a, o1) :: t2.
Proof.
  cbn. destruct (timer_act fx st a) as [[s1 o1]|]; [|discriminate].
  destruct (timer_run fx s1 rest) as [[s2 t2]|] eqn:Hr; [|discriminate]. intros [= <- <-]. exists s1, o1, t2. auto.
Qed.

Lemma run_silent (P : timer -> Prop) :
  (forall st a st' outs, P st -> timer_act fixed st a = Some (st', outs) -> P st' /\ outs = []) ->
  forall acts st st' tr, P st -> timer_run fixed st acts = Some (st', tr) -> P st' /\ fires tr = [].
Proof.
  intros Hstep. induction acts as [|a rest IH]; intros st st' tr HP H.
  - injection H as <- <-. auto.
  - apply run_cons in H as (s1 & o1 & t2 & Ha & Hr & ->). destruct (Hstep _ _ _ _ HP Ha) as [HP1 ->].
    apply (IH _ _ _ HP1 Hr).
Qed.

Lemma Inv_run acts : forall st st' tr,
  Inv st -> timer_run fixed st acts = Some (st', tr) -> Inv st'.
Proof.
  induction acts as [|a rest IH]; intros st st' tr HI H.
  - injection H as <- _. exact HI.
  - apply run_cons in H as (s1 & o1 & t2 & Ha & Hr & _). exact (IH _ _ _ (Inv_step _ _ _ _ HI Ha) Hr).
Qed.

(* ---- never raises; one live uninterrupted process ---------------------------------------------- *)
Theorem timer_never_raises t0 tau au a acts st tr :
  timer_run fixed (timer0 fixed t0 tau au a) acts = Some (st, tr) -> err st = None.
Proof. intros H. apply (Inv_run _ _ _ _ (Inv_init t0 tau au a)) in H. apply H. Qed.

Theorem single_live_process t0 tau au a acts st tr :
  timer_run fixed (timer0 fixed t0 tau au a) acts = Some (st, tr) ->
  (forall i p, nth_error (procs st) i = Some p -> alive p = true -> intr p = 0%nat -> i = cur st) /\
  (exists p, nth_error (procs st) (cur st) = Some p /\ intr p = 0%nat /\
     forall d, ph p = PWait d -> tnow st <= d /\ (stopped st = false -> d == expire st)).
Proof.
  intros H. apply (Inv_run _ _ _ _ (Inv_init t0 tau au a)) in H.
  destruct H as (_ & _ & Hc & Hoth). split; [|exact Hc].
  intros i p Hn Hal Hz. destruct (Nat.eq_dec i (cur st)) as [|N]; [assumption|].
  exfalso. apply (Hoth i p N Hn Hal Hz).
Qed.

Lemma run_app fx pre : forall post st st2 tr,
  timer_run fx st (pre ++ post) = Some (st2, tr) ->
  exists st1 tr1 tr2, timer_run fx st pre = Some (st1, tr1) /\ timer_run fx st1 post = Some (st2, tr2) /\
                      tr = tr1 ++ tr2.
Proof.
  induction pre as [|a rest IH]; intros post st st2 tr H.
  - exists st, [], tr. auto.
  - apply run_cons in H as (s1 & o1 & t2 & Ha & Hr & ->).
    destruct (IH _ _ _ _ Hr) as (st1 & tr1 & tr2 & R1 & R2 & ->).
    exists st1, ((tnow s1, a, o1) :: tr1), tr2. cbn. rewrite Ha, R1. auto.
Qed.

Lemma fires_app tr1 tr2 : fires (tr1 ++ tr2) = fires tr1 ++ fires tr2.
Proof.
  induction tr1 as [|[[t a] o] rest IH]; cbn; [reflexivity|]. rewrite IH, app_assoc. reflexivity.
Qed.

(* ---- stop is final ---------------------------------------------------------------------------- *)
Lemma cb_effect_stopped_mono cs : forall st, stopped st = true -> stopped (cb_effect cs st) = true.
Proof.
  induction cs as [|c t IH]; intros st H; cbn; [exact H|]. apply IH. destruct c; cbn; auto.
Qed.

Lemma cb_effect_stop cs : forall st, In CStop cs -> stopped (cb_effect cs st) = true.
Proof.
  induction cs as [|c t IH]; intros st H; [destruct H|]. cbn. destruct H as [->|H].
  - apply cb_effect_stopped_mono. reflexivity.
  - apply IH, H.
Qed.

Lemma rebase_stopped st : stopped (rebase st) = stopped st.
Proof. unfold rebase. destruct (autor st); reflexivity. Qed.

Lemma stopped_step st a st' outs :
  Inv st /\ stopped st = true -> timer_act fixed st a = Some (st', outs) ->
  (Inv st' /\ stopped st' = true) /\ outs = [].
Proof.
  intros [HI Hs] H. split; [split; [exact (Inv_step _ _ _ _ HI H)|]|];
    destruct (act_step _ _ _ _ HI H); cbn; congruence.
Qed.

(* the history contains a stop: stop() by a foreign process, or a callback that calls stop() *)
Definition is_stop (a : taction) : Prop :=
  a = TStop \/ exists i cs, a = TProcTimeout i cs /\ In CStop cs.

Lemma stop_step st a st' outs :
  Inv st -> is_stop a -> timer_act fixed st a = Some (st', outs) -> stopped st' = true.
Proof.
  intros HI Hst H. pose proof (act_step _ _ _ _ HI H) as S.
  destruct Hst as [->|(i & cs & -> & Hin)]; inversion S; subst; try discriminate; try reflexivity.
  - destruct Hin.
  - cbn. unfold fired. rewrite rebase_stopped. apply cb_effect_stop, Hin.
Qed.

Lemma stop_in_run acts : forall st st' tr,
  Inv st -> (exists a, In a acts /\ is_stop a) -> timer_run fixed st acts = Some (st', tr) -> stopped st' = true.
Proof.
  induction acts as [|a rest IH]; intros st st' tr HI (x & Hin & Hx) H; [destruct Hin|].
  apply run_cons in H as (s1 & o1 & t2 & Ha & Hr & _). pose proof (Inv_step _ _ _ _ HI Ha) as HI1.
  destruct Hin as [->|Hin].
  - apply (run_silent _ stopped_step rest s1 st' t2 (conj HI1 (stop_step _ _ _ _ HI Hx Ha)) Hr).
  - apply (IH s1 st' t2 HI1); eauto.
Qed.

Theorem stop_is_final t0 tau au a pre post st tr :
  timer_run fixed (timer0 fixed t0 tau au a) (pre ++ post) = Some (st, tr) ->
  (exists x, In x pre /\ is_stop x) ->
  exists st1 tr1 tr2, timer_run fixed (timer0 fixed t0 tau au a) pre = Some (st1, tr1) /\
                      timer_run fixed st1 post = Some (st, tr2) /\ tr = tr1 ++ tr2 /\
                      stopped st1 = true /\ fires tr2 = [].
Proof.
  intros H Hst. destruct (run_app _ _ _ _ _ _ H) as (st1 & tr1 & tr2 & R1 & R2 & ->).
  exists st1, tr1, tr2. split; [exact R1|]. split; [exact R2|]. split; [reflexivity|].
  pose proof (Inv_init t0 tau au a) as HI0.
  pose proof (stop_in_run _ _ _ _ HI0 Hst R1) as Hs.
  split; [exact Hs|]. apply (run_silent _ stopped_step _ _ _ _ (conj (Inv_run _ _ _ _ HI0 R1) Hs) R2).
Qed.

(* ---- no double fire: firing instants are strictly increasing; arguments are exact ---------------- *)
(* B is an instant not later than now such that a sleeping, not stopped self.proc expires strictly after B *)
Definition Guard (st : timer) (B : Q) : Prop :=
  B <= tnow st /\
  forall p d, curp st = Some p -> ph p = PWait d -> stopped st = false -> B < expire st.

Lemma guard_wake S st B : B <= tnow st -> Guard (wake S st) B.
Proof.
  intros HB. split; [exact HB|]. intros q d Hn Hd _. rewrite curp_wake in Hn.
  destruct (curp st); [|discriminate]. injection Hn as <-. apply loop_phase_wait in Hd as [L _].
  eapply Qle_lt_trans; eauto.
Qed.

Lemma const_step st a st' outs :
  Inv st -> timer_act fixed st a = Some (st', outs) -> cargs st' = cargs st /\ autor st' = autor st.
Proof. intros HI H. destruct (act_step _ _ _ _ HI H); split; reflexivity. Qed.

Lemma const_run acts : forall st st' tr,
  Inv st -> timer_run fixed st acts = Some (st', tr) -> cargs st' = cargs st /\ autor st' = autor st.
Proof.
  induction acts as [|a rest IH]; intros st st' tr HI H.
  - injection H as <- _. split; reflexivity.
  - apply run_cons in H as (s1 & o1 & t2 & Ha & Hr & _). destruct (const_step _ _ _ _ HI Ha) as [A B].
    destruct (IH _ _ _ (Inv_step _ _ _ _ HI Ha) Hr) as [A' B']. split; congruence.
Qed.

Lemma guard_step st a st' outs B :
  Inv st -> Guard st B -> timer_act fixed st a = Some (st', outs) ->
  (outs = [] /\ Guard st' B) \/
  (exists a0, outs = [OFire a0] /\ cargs st = Some a0 /\ B < tnow st' /\ tnow st' == expire st /\
              Guard st' (tnow st')).
Proof.
  intros HI (GB & GW) H.
  destruct (act_step _ _ _ _ HI H) as [|tau p Hp Al|tau p Hp Al|t _ L _|a i p f _ N _ _|p _ _|p Hp _|p d _ _ _|cs p d a0 Hp Hph Hd Hs Ha0];
    [left; split; [reflexivity|] .. | right];
    [split; [exact GB|]|split; [exact GB|]|split; [exact GB|]| |split; [exact GB|]|apply guard_wake, GB|split; [exact GB|]
    |apply guard_wake, GB|].
  - (* SStop *) intros; discriminate.
  - (* SRestartLive *) intros q d Hn Hd. rewrite curp_restart in Hn. injection Hn as <-. discriminate.
  - (* SRestartDead *) intros q d Hn Hd. change (curp st = Some q) in Hn. rewrite Hp in Hn. injection Hn as <-.
    unfold alive in Al. rewrite Hd in Al. discriminate.
  - (* SAdvance *) split; [|exact GW]. apply Qlt_le_weak. eapply Qle_lt_trans; eauto.
  - (* SOther *) intros q d. rewrite curp_other by exact N. apply GW.
  - (* SEndCur *) intros q d Hn Hd. rewrite (curp_same _ _ _ Hp) in Hn. injection Hn as <-. discriminate.
  - (* SFire *) exists a0. split; [reflexivity|]. split; [exact Ha0|].
    destruct HI as (_ & _ & (pc & Hc & _ & Hw) & _). rewrite Hp in Hc. injection Hc as <-.
    assert (NE : tnow st == expire st) by (rewrite <- Hd; apply (Hw d Hph), Hs).
    split; [cbn; rewrite NE; eapply GW; eauto|]. split; [exact NE|]. apply guard_wake, Qle_refl.
Qed.

Definition before (x y : Q * list Z) : Prop := fst x < fst y.

Lemma fires_sorted_run acts : forall st st' tr B a0,
  Inv st -> Guard st B -> cargs st = Some a0 -> timer_run fixed st acts = Some (st', tr) ->
  Forall (fun f => B < fst f /\ snd f = a0) (fires tr) /\ StronglySorted before (fires tr).
Proof.
  induction acts as [|a rest IH]; intros st st' tr B a0 HI HG Ha H.
  - injection H as <- <-. cbn. split; constructor.
  - apply run_cons in H as (s1 & o1 & t2 & Hact & Hr & ->). pose proof (Inv_step _ _ _ _ HI Hact) as HI1.
    assert (Ha1 : cargs s1 = Some a0) by (rewrite (proj1 (const_step _ _ _ _ HI Hact)); exact Ha).
    destruct (guard_step _ _ _ _ _ HI HG Hact) as [(-> & G1)|(a2 & -> & Ha2 & Lt & _ & G1)].
    + cbn. apply (IH _ _ _ _ _ HI1 G1 Ha1 Hr).
    + destruct (IH _ _ _ _ _ HI1 G1 Ha1 Hr) as [F S]. cbn. split.
      * constructor; [cbn; split; [exact Lt|congruence]|].
        eapply Forall_impl; [|exact F]. cbn. intros f [L E]. split; [eapply Qlt_trans; eauto|exact E].
      * constructor; [exact S|]. eapply Forall_impl; [|exact F]. intros f [L _]. exact L.
Qed.

Theorem no_double_fire t0 tau au a acts st tr l :
  norm_args fixed a = Some l ->
  timer_run fixed (timer0 fixed t0 tau au a) acts = Some (st, tr) ->
  StronglySorted before (fires tr) /\ Forall (fun f => t0 < fst f /\ snd f = l) (fires tr).
Proof.
  intros Hl H.
  assert (G : Guard (timer0 fixed t0 tau au a) t0).
  { split; [cbn; apply Qle_refl|]. intros p d Hn Hd. injection Hn as <-. discriminate. }
  destruct (fires_sorted_run acts _ _ _ t0 l (Inv_init t0 tau au a) G Hl H) as [F S].
  split; assumption.
Qed.

(* ---- armed timers: quiet runs fire exactly at the expiry, then every timeout ---------------------- *)
(* not stopped, self.proc alive: about to start with the expiry still ahead, or sleeping (then, by the
   invariant, until exactly expire_time) *)
Definition Armed (st : timer) (E : Q) : Prop :=
  Inv st /\ stopped st = false /\ expire st == E /\ 0 < tmo st /\
  exists p, curp st = Some p /\ ((ph p = PInit /\ tnow st < E) \/ exists d, ph p = PWait d).

(* self.proc has ended: nothing can re-arm the timer (restart() only re-arms a live process) *)
Definition Spent (st : timer) : Prop := Inv st /\ exists p, curp st = Some p /\ alive p = false.

(* no stop()/restart() from anywhere *)
Definition quiet (a : taction) : bool :=
  match a with
  | TStop | TRestart _ => false
  | TProcTimeout _ (_ :: _) => false
  | _ => true
  end.

Lemma armed_now st E : Armed st E -> tnow st <= E.
Proof.
  intros ((_ & _ & (pc & Hc & _ & Hw) & _) & Hs & He & _ & p & Hp & [(_ & L)|(d & Hd)]).
  - apply Qlt_le_weak, L.
  - rewrite Hc in Hp. injection Hp as <-. destruct (Hw d Hd) as [L E']. rewrite <- He, <- (E' Hs). exact L.
Qed.

Lemma armed_eq st E E' : E == E' -> Armed st E -> Armed st E'.
Proof.
  intros HE (HI & Hs & He & Ht & p & Hp & Hc). split; [exact HI|]. split; [exact Hs|].
  split; [rewrite He; exact HE|]. split; [exact Ht|]. exists p. split; [exact Hp|].
  destruct Hc as [(Hi & L)|Hd]; [left; split; [exact Hi|rewrite <- HE; exact L]|right; exact Hd].
Qed.

Lemma armed_wake S st :
  Inv st -> stopped S = false -> 0 < tmo S -> tnow st < expire S -> Armed (wake S st) (expire S).
Proof.
  intros HI Hs Ht L. split; [apply wake_inv, HI|]. split; [exact Hs|]. split; [reflexivity|]. split; [exact Ht|].
  destruct HI as (_ & _ & (p & Hp & _) & _). exists (set_ph (loop_phase (resched S st)) p).
  split; [rewrite curp_wake, Hp; reflexivity|]. right.
  destruct (loop_phase_cases (resched S st)) as [(_ & E)|(G & _)]; [cbn; rewrite E; eauto|].
  exfalso. apply (Qlt_irrefl (tnow st)). eapply Qlt_le_trans; eauto.
Qed.

Lemma armed_step st a st' outs E :
  Armed st E -> quiet a = true -> timer_act fixed st a = Some (st', outs) ->
  tmo st' = tmo st /\
  ((outs = [] /\ Armed st' E) \/
   (exists a0, outs = [OFire a0] /\ cargs st = Some a0 /\ tnow st' == E /\
      ((autor st = false /\ Spent st') \/ (autor st = true /\ Armed st' (E + tmo st))))).
Proof.
  intros (HI & Hs & HE & Ht & pc & Hc & Hph) Hq H. pose proof (Inv_step _ _ _ _ HI H) as HI'.
  destruct (act_step _ _ _ _ HI H) as [| | |t U _ _|a i p f _ N _ _|p Hp Hpi|p Hp Hpd|p d _ _ Hs'|cs p d a0 Hp Hpw Hd _ Ha0];
    try discriminate; try (rewrite Hc in Hp; injection Hp as <-).
  - (* Advance: no Initialize is pending, so self.proc sleeps *)
    split; [reflexivity|]. left. split; [reflexivity|]. split; [exact HI'|].
    split; [exact Hs|]. split; [exact HE|]. split; [exact Ht|]. exists pc. split; [exact Hc|].
    destruct Hph as [(Hi & _)|Hd]; [|right; exact Hd]. destruct (no_urgent_nth _ _ _ U Hc) as [NI _]. contradiction.
  - split; [reflexivity|]. left. split; [reflexivity|]. split; [exact HI'|].
    split; [exact Hs|]. split; [exact HE|]. split; [exact Ht|]. exists pc. rewrite curp_other by exact N. auto.
  - split; [reflexivity|]. left. split; [reflexivity|]. apply (armed_eq _ _ _ HE), armed_wake; auto.
    destruct Hph as [(_ & L)|(d & Hd)]; [rewrite HE; exact L|congruence].
  - destruct Hph as [(Hi & _)|(d & Hd)]; congruence.
  - congruence.
  - (* Timeout of self.proc: the callback runs *)
    destruct cs; [|discriminate]. pose proof HI as (_ & _ & (pc' & Hc' & _ & Hw) & _).
    rewrite Hc in Hc'. injection Hc' as <-.
    assert (NE : tnow st == E) by (rewrite <- Hd, <- HE; apply (Hw d Hpw), Hs).
    unfold fired, cb_effect. cbn [fold_left]. unfold rebase. destruct (autor st) eqn:Hau.
    + split; [reflexivity|]. right. exists a0. split; [reflexivity|]. split; [exact Ha0|]. split; [exact NE|].
      right. split; [reflexivity|].
      apply (armed_eq _ (tnow st + tmo st)); [rewrite NE; reflexivity|].
      apply (armed_wake (set_expire st (tnow st + tmo st))); auto. cbn. lra.
    + split; [reflexivity|]. right. exists a0. split; [reflexivity|]. split; [exact Ha0|]. split; [exact NE|].
      left. split; [reflexivity|]. split; [apply wake_inv, HI|]. exists (set_ph (loop_phase (resched st st)) pc).
      split; [rewrite curp_wake, Hc; reflexivity|].
      destruct (loop_phase_cases (resched st st)) as [(L & _)|(_ & E')]; [|unfold alive; cbn; rewrite E'; reflexivity].
      exfalso. cbn in L. rewrite HE, NE in L. apply (Qlt_irrefl E L).
Qed.

Lemma spent_step st a st' outs :
  Spent st -> timer_act fixed st a = Some (st', outs) -> Spent st' /\ outs = [].
Proof.
  intros (HI & pc & Hc & Hd) H. pose proof (Inv_step _ _ _ _ HI H) as HI'. unfold Spent.
  destruct (act_step _ _ _ _ HI H) as [|tau p Hp Al|tau p Hp Al| |a i p f _ N _ _|p Hp Hph|p Hp _|p d Hp Hph _|cs p d a0 Hp Hph _ _ _];
    try (rewrite Hc in Hp; injection Hp as <-); try (unfold alive in Hd; rewrite Hph in Hd; discriminate);
    try congruence; (split; [split; [exact HI'|]|reflexivity]).
  1-3: exists pc; auto. (* SStop, SRestartDead, SAdvance *)
  - (* SOther *) exists pc. rewrite curp_other by exact N. auto.
  - (* SEndCur *) exists (set_ph PGone pc). split; [apply curp_same, Hc|reflexivity].
Qed.

Definition nQ (n : nat) : Q := inject_Z (Z.of_nat n).

Lemma nQ_S n : nQ (S n) == nQ n + 1.
Proof. unfold nQ. rewrite Nat2Z.inj_succ. unfold Z.succ. rewrite inject_Z_plus. reflexivity. Qed.

(* the firings of a quiet run that starts with the expiry E pending and period tau:
   the k-th callback (k = 0, 1, ...) runs at E + k tau with the arguments; a one-shot timer fires at most once;
   the clock does not pass the next expiry without the callback *)
Definition fires_from (au : bool) (E tau : Q) (l : list Z) (fs : list (Q * list Z)) (tend : Q) : Prop :=
  (forall k f, nth_error fs k = Some f -> fst f == E + nQ k * tau /\ snd f = l) /\
  (if au then tend <= E + nQ (length fs) * tau else (length fs <= 1)%nat /\ (fs = [] -> tend <= E)).

Lemma fires_from_nil au E tau l tend : tend <= E -> fires_from au E tau l [] tend.
Proof.
  intros L. split; [intros [|k] f Hk; discriminate|]. destruct au; cbn.
  - change (tend <= E + 0 * tau). lra.
  - split; [lia|intros _; exact L].
Qed.

Lemma fires_from_cons (au : bool) E tau l (f : Q * list Z) (fs : list (Q * list Z)) tend :
  fst f == E -> snd f = l ->
  (if au then fires_from true (E + tau) tau l fs tend else fs = []) ->
  fires_from au E tau l (f :: fs) tend.
Proof.
  intros Hf Hl H. assert (H0 : fst f == E + nQ 0 * tau) by (rewrite Hf; change (nQ 0) with 0; ring). destruct au.
  - destruct H as [Hn Hb]. split.
    + intros [|k] g Hk; cbn in Hk; [injection Hk as <-; auto|].
      destruct (Hn k g Hk) as [A B]. split; [rewrite A, nQ_S; ring|exact B].
    + cbn [length]. rewrite nQ_S. eapply Qle_trans; [exact Hb|]. apply Qle_lteq. right. ring.
  - subst fs. split; [|cbn; split; [lia|discriminate]].
    intros [|[|k]] g Hk; try discriminate. injection Hk as <-. auto.
Qed.

Lemma armed_quiet_run acts : forall st st' tr E l,
  Armed st E -> cargs st = Some l -> forallb quiet acts = true ->
  timer_run fixed st acts = Some (st', tr) ->
  fires_from (autor st) E (tmo st) l (fires tr) (tnow st') /\
  (autor st = false -> fires tr <> [] -> Spent st').
Proof.
  induction acts as [|a rest IH]; intros st st' tr E l HA Hl Hq H.
  - injection H as <- <-. split; [apply fires_from_nil, (armed_now _ _ HA)|]. intros _ N. contradiction N. reflexivity.
  - apply run_cons in H as (s1 & o1 & t2 & Ha & Hr & ->). cbn in Hq. apply andb_true_iff in Hq as [Hqa Hqr].
    destruct (const_step _ _ _ _ (proj1 HA) Ha) as [C1 C2].
    destruct (armed_step _ _ _ _ _ HA Hqa Ha) as (Tm & [(-> & HA1)|(a1 & -> & Ha1 & NE & K)]).
    + cbn [fires map app]. rewrite <- Tm, <- C2. apply (IH _ _ _ _ _ HA1); congruence.
    + assert (a1 = l) by congruence. subst a1. cbn [fires map app].
      destruct K as [(Hau & HS)|(Hau & HA1)]; rewrite Hau.
      * destruct (run_silent _ spent_step _ _ _ _ HS Hr) as [HS2 F]. rewrite F.
        split; [apply fires_from_cons; [exact NE|reflexivity|reflexivity]|intros _ _; exact HS2].
      * split; [|discriminate]. apply fires_from_cons; [exact NE|reflexivity|].
        destruct (IH _ _ _ _ _ HA1 (eq_trans C1 Hl) Hqr Hr) as [FF _]. rewrite C2, Hau, Tm in FF. exact FF.
Qed.

(* ---- how a timer gets armed: creation, restart() by a foreign process, restart() from the callback -- *)
Lemma armed_init t0 tau au a : 0 < tau -> Armed (timer0 fixed t0 tau au a) (t0 + tau).
Proof.
  intros Ht. split; [apply Inv_init|]. split; [reflexivity|]. split; [reflexivity|]. split; [exact Ht|].
  exists newp. split; [reflexivity|]. left. split; [reflexivity|]. cbn. lra.
Qed.

Lemma armed_after_restart st tau st1 outs :
  Inv st -> stopped st = false -> cur_alive st = true -> 0 < tau ->
  timer_act fixed st (TRestart tau) = Some (st1, outs) ->
  outs = [] /\ Armed st1 (tnow st + tau) /\ tmo st1 = tau /\ tnow st1 = tnow st.
Proof.
  intros HI Hs Hal Ht H. pose proof (Inv_step _ _ _ _ HI H) as HI'. pose proof (act_step _ _ _ _ HI H) as S.
  inversion S as [|tau' p Hp Al|tau' p Hp Al| | | | | |]; subst; try discriminate.
  - split; [reflexivity|]. split; [|split; reflexivity].
    split; [exact HI'|]. split; [exact Hs|]. split; [reflexivity|]. split; [exact Ht|].
    exists newp. split; [apply curp_restart|]. left. split; [reflexivity|]. cbn. lra.
  - unfold cur_alive in Hal. unfold curp in Hp. rewrite Hp in Hal. congruence.
Qed.

Lemma cb_effect_snoc cs c st : cb_effect (cs ++ [c]) st = cb_call (cb_effect cs st) c.
Proof. unfold cb_effect. rewrite fold_left_app. reflexivity. Qed.

Lemma cb_effect_nostop cs : forall st, ~ In CStop cs -> stopped (cb_effect cs st) = stopped st.
Proof.
  induction cs as [|c t IH]; intros st H; cbn; [reflexivity|].
  unfold cb_effect in IH. rewrite IH by (intros X; apply H; right; exact X).
  destruct c; [exfalso; apply H; left; reflexivity|reflexivity].
Qed.

Lemma armed_after_cb_restart st i cs0 tau st1 outs :
  Inv st -> stopped st = false -> ~ In CStop cs0 -> 0 < tau ->
  timer_act fixed st (TProcTimeout i (cs0 ++ [CRestart tau])) = Some (st1, outs) ->
  exists a0, outs = [OFire a0] /\ cargs st = Some a0 /\ Armed st1 (tnow st + tau) /\ tmo st1 = tau /\
             tnow st1 = tnow st.
Proof.
  intros HI Hs Hns Ht H. pose proof (act_step _ _ _ _ HI H) as S.
  inversion S as [| | | | | | |p d _ _ Hs' E|cs p d a0 _ _ _ _ Ha0]; subst; try discriminate; [congruence|].
  exists a0. split; [reflexivity|]. split; [exact Ha0|].
  (* the last call re-bases the schedule at now, and auto_restart then computes the same expiry again *)
  set (S2 := fired (cs0 ++ [CRestart tau]) st).
  assert (F : stopped S2 = false /\ tmo S2 = tau /\ expire S2 = tnow st + tau).
  { unfold S2, fired. rewrite cb_effect_snoc. cbn [cb_call]. unfold rebase.
    destruct (autor _); cbn; rewrite (proj1 (cb_effect_frame cs0 st)), (cb_effect_nostop cs0 st Hns); auto. }
  destruct F as (F1 & F2 & F3). split; [|split; [exact F2|reflexivity]].
  rewrite <- F3. apply armed_wake; [exact HI|exact F1|rewrite F2; exact Ht|rewrite F3; lra].
Qed.

Lemma fires_from_lower au E tau l fs tend :
  0 < tau -> fires_from au E tau l fs tend -> Forall (fun f => E <= fst f) fs.
Proof.
  intros Ht [Hn _]. apply Forall_forall. intros f Hin. apply In_nth_error in Hin as (k & Hk).
  destruct (Hn k f Hk) as [A _]. rewrite A.
  assert (0 <= nQ k) by (unfold nQ; change 0 with (inject_Z 0); rewrite <- Zle_Qle; lia).
  nra.
Qed.

(* ---- the theorems of C19 ----------------------------------------------------------------------- *)
Theorem fires_at_expiry t0 tau a l acts st tr :
  0 < tau -> norm_args fixed a = Some l -> forallb quiet acts = true ->
  timer_run fixed (timer0 fixed t0 tau false a) acts = Some (st, tr) ->
  (fires tr = [] /\ tnow st <= t0 + tau) \/ (exists t, fires tr = [(t, l)] /\ t == t0 + tau).
Proof.
  intros Ht Hl Hq H.
  destruct (armed_quiet_run _ _ _ _ _ _ (armed_init t0 tau false a Ht) Hl Hq H) as [[Hn [Hlen Hend]] _].
  destruct (fires tr) as [|[t l'] [|f fs]]; [left; auto| |cbn in Hlen; lia].
  right. destruct (Hn 0%nat _ eq_refl) as [A B]. cbn in A, B. subst l'. exists t. split; [reflexivity|].
  rewrite A. change (nQ 0) with 0. ring.
Qed.

(* once the callback of a one-shot timer ran (without restarting it), nothing re-arms the timer *)
Theorem expired_one_shot_never_refires t0 tau a l pre post st1 tr1 st tr :
  0 < tau -> norm_args fixed a = Some l -> forallb quiet pre = true ->
  timer_run fixed (timer0 fixed t0 tau false a) pre = Some (st1, tr1) -> fires tr1 <> [] ->
  timer_run fixed st1 post = Some (st, tr) -> fires tr = [].
Proof.
  intros Ht Hl Hq H1 Hne H2.
  destruct (armed_quiet_run _ _ _ _ _ _ (armed_init t0 tau false a Ht) Hl Hq H1) as [_ HS].
  apply (run_silent _ spent_step _ _ _ _ (HS eq_refl Hne) H2).
Qed.

Theorem auto_restart_period t0 tau a l acts st tr :
  0 < tau -> norm_args fixed a = Some l -> forallb quiet acts = true ->
  timer_run fixed (timer0 fixed t0 tau true a) acts = Some (st, tr) ->
  (forall k f, nth_error (fires tr) k = Some f ->
     fst f == t0 + tau + inject_Z (Z.of_nat k) * tau /\ snd f = l) /\
  tnow st <= t0 + tau + inject_Z (Z.of_nat (length (fires tr))) * tau.
Proof.
  intros Ht Hl Hq H.
  apply (armed_quiet_run _ _ _ _ _ _ (armed_init t0 tau true a Ht) Hl Hq H).
Qed.

Theorem restart_rebases t0 tau au a l pre st trp tau' acts st' tr :
  norm_args fixed a = Some l ->
  timer_run fixed (timer0 fixed t0 tau au a) pre = Some (st, trp) ->
  stopped st = false -> cur_alive st = true -> 0 < tau' -> forallb quiet acts = true ->
  timer_run fixed st (TRestart tau' :: acts) = Some (st', tr) ->
  fires_from au (tnow st + tau') tau' l (fires tr) (tnow st') /\
  Forall (fun f => tnow st + tau' <= fst f) (fires tr).
Proof.
  intros Hl Hp Hs Hal Ht Hq H. pose proof (Inv_run _ _ _ _ (Inv_init t0 tau au a) Hp) as HI.
  destruct (const_run _ _ _ _ (Inv_init t0 tau au a) Hp) as [Hc Hu]. cbn in Hc, Hu.
  apply run_cons in H as (s1 & o1 & t2 & Ha & Hr & ->).
  destruct (armed_after_restart _ _ _ _ HI Hs Hal Ht Ha) as (-> & HA & Tm & Tn).
  destruct (const_step _ _ _ _ HI Ha) as [C1 C2].
  assert (Hl1 : cargs s1 = Some l) by congruence.
  pose proof (proj1 (armed_quiet_run _ _ _ _ _ _ HA Hl1 Hq Hr)) as FF. rewrite C2, Hu, Tm in FF.
  split; [exact FF|]. eapply fires_from_lower; eauto.
Qed.

Theorem restart_rebases_from_callback t0 tau au a l pre st trp i cs0 tau' acts st' tr :
  norm_args fixed a = Some l ->
  timer_run fixed (timer0 fixed t0 tau au a) pre = Some (st, trp) ->
  stopped st = false -> ~ In CStop cs0 -> 0 < tau' -> forallb quiet acts = true ->
  timer_run fixed st (TProcTimeout i (cs0 ++ [CRestart tau']) :: acts) = Some (st', tr) ->
  exists rest, fires tr = (tnow st, l) :: rest /\
               fires_from au (tnow st + tau') tau' l rest (tnow st') /\
               Forall (fun f => tnow st + tau' <= fst f) rest.
Proof.
  intros Hl Hp Hs Hns Ht Hq H. pose proof (Inv_run _ _ _ _ (Inv_init t0 tau au a) Hp) as HI.
  destruct (const_run _ _ _ _ (Inv_init t0 tau au a) Hp) as [Hc Hu]. cbn in Hc, Hu.
  apply run_cons in H as (s1 & o1 & t2 & Ha & Hr & ->).
  destruct (armed_after_cb_restart _ _ _ _ _ _ HI Hs Hns Ht Ha) as (a0 & -> & Ha0 & HA & Tm & Tn).
  destruct (const_step _ _ _ _ HI Ha) as [C1 C2].
  assert (Hl1 : cargs s1 = Some l) by congruence.
  pose proof (proj1 (armed_quiet_run _ _ _ _ _ _ HA Hl1 Hq Hr)) as FF. rewrite C2, Hu, Tm in FF.
  exists (fires t2). cbn. rewrite Tn. split; [congruence|]. split; [exact FF|].
  eapply fires_from_lower; eauto.
Qed.

(* for EVERY history: the callback runs only inside the Timeout step of self.proc, only when the timer is not
   stopped, and only at the instant expire_time holds at that moment *)
Theorem fires_only_at_expire_time t0 tau au a l pre st trp x st' outs :
  norm_args fixed a = Some l ->
  timer_run fixed (timer0 fixed t0 tau au a) pre = Some (st, trp) ->
  timer_act fixed st x = Some (st', outs) -> outs <> [] ->
  outs = [OFire l] /\ stopped st = false /\ tnow st == expire st /\ tnow st' = tnow st /\
  exists cs, x = TProcTimeout (cur st) cs.
Proof.
  intros Hl Hp Ha Hne. pose proof (Inv_run _ _ _ _ (Inv_init t0 tau au a) Hp) as HI.
  destruct (const_run _ _ _ _ (Inv_init t0 tau au a) Hp) as [Hc _]. cbn in Hc.
  destruct (act_step _ _ _ _ HI Ha) as [| | | | | | | |cs p d a0 Hn Hpw Hd Hs Ha0]; try (contradiction Hne; reflexivity).
  destruct HI as (_ & _ & (pc & Hcur & _ & Hw) & _). rewrite Hcur in Hn. injection Hn as <-.
  split; [congruence|]. split; [exact Hs|]. split; [rewrite <- Hd; apply (Hw d Hpw), Hs|]. split; [reflexivity|eauto].
Qed.

(* ---- non-vacuity: concrete admissible histories ------------------------------------------------- *)
(* restart(6) by a foreign process at 3 on a one-shot timer(5) with the scalar argument 7 *)
Example ex_restart_before_expiry :
  option_map (fun r => fires (snd r))
    (timer_run fixed (timer0 fixed 0 5 false (AScalar 7))
       [TProcInit 0; TAdvance 3; TRestart 6; TProcInterrupt 0; TProcInit 1; TProcEnd 0; TAdvance 5; TAdvance 9;
        TProcTimeout 1 []; TProcEnd 1; TAdvance 20])
  = Some [(9, [7%Z])].
Proof. vm_compute. reflexivity. Qed.

(* restart(3) at the expiry instant, before the kernel processed the Timeout: the old process has an
   interruption pending, so its Timeout step is not admissible (K1); the callback runs at 8 only *)
Example ex_restart_at_expiry_before_timeout :
  option_map (fun r => fires (snd r))
    (timer_run fixed (timer0 fixed 0 5 false (AList [1%Z]))
       [TProcInit 0; TAdvance 5; TRestart 3; TProcInterrupt 0; TProcInit 1; TAdvance 8; TProcTimeout 1 []])
  = Some [(8, [1%Z])] /\
  timer_run fixed (timer0 fixed 0 5 false (AList [1%Z])) [TProcInit 0; TAdvance 5; TRestart 3; TProcTimeout 0 []] = None.
Proof. vm_compute. split; reflexivity. Qed.

(* restart(3) at the expiry instant after the callback of a one-shot timer ran: no error, no second callback *)
Example ex_restart_at_expiry_after_callback :
  option_map (fun r => (fires (snd r), err (fst r), cur_alive (fst r)))
    (timer_run fixed (timer0 fixed 0 5 false (AList [1%Z]))
       [TProcInit 0; TAdvance 5; TProcTimeout 0 []; TRestart 3; TProcEnd 0; TAdvance 8; TAdvance 30])
  = Some ([(5, [1%Z])], None, false).
Proof. vm_compute. reflexivity. Qed.

(* auto-restart, the callback restarts (period becomes 2), later stops *)
Example ex_auto_restart_callback_calls :
  option_map (fun r => fires (snd r))
    (timer_run fixed (timer0 fixed 0 5 true ANone)
       [TProcInit 0; TAdvance 5; TProcTimeout 0 [CRestart 2]; TAdvance 7; TProcTimeout 0 []; TAdvance 9;
        TProcTimeout 0 [CStop]; TAdvance 11; TProcTimeout 0 []; TProcEnd 0; TAdvance 40])
  = Some [(5, []); (7, []); (9, [])].
Proof. vm_compute. reflexivity. Qed.

(* two restarts in the instant of creation, Initialize of every process still pending; then stop() makes the
   interruptions hit processes that have already ended (dropped silently) *)
Example ex_two_restarts_at_creation :
  option_map (fun r => fires (snd r))
    (timer_run fixed (timer0 fixed 0 5 false ANone)
       [TRestart 3; TRestart 4; TProcInit 0; TProcInterrupt 0; TProcInit 1; TProcInterrupt 1; TProcInit 2;
        TAdvance 4; TProcTimeout 2 []])
  = Some [(4, [])] /\
  option_map (fun r => (live_count (fst r), err (fst r)))
    (timer_run fixed (timer0 fixed 0 5 false ANone)
       [TRestart 5; TStop; TProcInit 0; TProcInterrupt 0; TProcInit 1; TAdvance 100])
  = Some (0%nat, None).
Proof. vm_compute. split; reflexivity. Qed.

(* the hypotheses of restart_rebases hold in a reachable state *)
Example ex_pending_state :
  exists st trp, timer_run fixed (timer0 fixed 0 5 true (AScalar 7)) [TProcInit 0; TAdvance 5; TProcTimeout 0 []; TAdvance 6]
                 = Some (st, trp) /\ stopped st = false /\ cur_alive st = true /\ fires trp = [(5, [7%Z])].
Proof. apply run_facts. vm_compute. auto. Qed.

(* ---- the code before the three fix: commits reaches an error state ------------------------------- *)
Lemma raises_before_fix_scalar_args :
  exists acts st tr,
    timer_run {| fx_wrap := false; fx_selfcb := true; fx_alive := true |}
              (timer0 {| fx_wrap := false; fx_selfcb := true; fx_alive := true |} 0 5 false (AScalar 7)) acts = Some (st, tr)
    /\ err st = Some ENotIterable.
Proof. exists [TProcInit 0; TAdvance 5; TProcTimeout 0 []]. apply run_facts. vm_compute. reflexivity. Qed.

Lemma raises_before_fix_restart_from_callback :
  exists acts st tr,
    timer_run {| fx_wrap := true; fx_selfcb := false; fx_alive := true |}
              (timer0 {| fx_wrap := true; fx_selfcb := false; fx_alive := true |} 0 5 false (AScalar 7)) acts = Some (st, tr)
    /\ err st = Some EInterruptSelf.
Proof. exists [TProcInit 0; TAdvance 5; TProcTimeout 0 [CRestart 2]]. apply run_facts. vm_compute. reflexivity. Qed.

Lemma raises_before_fix_restart_after_expiry :
  exists acts st tr,
    timer_run {| fx_wrap := true; fx_selfcb := true; fx_alive := false |}
              (timer0 {| fx_wrap := true; fx_selfcb := true; fx_alive := false |} 0 5 false (AScalar 7)) acts = Some (st, tr)
    /\ err st = Some EInterruptDead.
Proof. exists [TProcInit 0; TAdvance 5; TProcTimeout 0 []; TRestart 3]. apply run_facts. vm_compute. reflexivity. Qed.
