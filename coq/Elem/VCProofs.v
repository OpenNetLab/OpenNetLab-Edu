(* Proofs about Elem/VC.v (the VirtualClock stamping discipline): VC satisfies the interface of
   WFQServerProofs.disc (it cannot raise on a configured class; aux_vc never decreases), and vc_stamp_thm (C14). *)
From Coq Require Import ZArith QArith Qminmax Qabs List Bool Lia Lqa Permutation.
From ONL Require Import Elem.Packet Elem.StoreQ Elem.StoreQProofs Elem.HeapList Elem.WFQServer Elem.WFQServerProofs Elem.WFQ Elem.WFQProofs Elem.VC.
Import ListNotations.

Section VC.
  Variable cfg : vcfg.
  Hypothesis rate_pos : 0 < vrate cfg.
  Hypothesis vticks_pos : forall c v, zlookup c (vticks cfg) = Some v -> 0 < v.

  Definition vcls (p : pkt) : Z := vf2c cfg (flow p).
  Definition vconf (p : pkt) : Prop := zlookup (vcls p) (vticks cfg) <> None /\ (0 <= psize p)%Z.
  Definition vconf_b (p : pkt) : bool := if zlookup (vcls p) (vticks cfg) then Z.leb 0 (psize p) else false.
  Lemma vconf_b_ok p : vconf_b p = true -> vconf p.
  Proof.
    unfold vconf_b, vconf. destruct (zlookup (vcls p) (vticks cfg)); [|discriminate].
    intros H. split; [discriminate|apply Z.leb_le; exact H].
  Qed.
  Notation S := (vc_stamper cfg).

  Definition vc_disc : disc S (vst0 : ST S) vconf vcls.
  Proof.
    refine {| dJ := (fun _ _ => True) : ST S -> list pkt -> Prop; dbound := (fun s c => s c) : ST S -> Z -> Q |}.
    - intros p (_ & H). exact H.
    - intros p q E. unfold vcls. rewrite E. reflexivity.
    - auto.
    - exact I.
    - intros nw st l p _ (Hc & _). cbn [st_put vc_stamper]. unfold vc_put. fold (vcls p).
      destruct (zlookup (vcls p) (vticks cfg)); [discriminate|contradiction].
    - intros nw st l p st' F _ _ H. cbn [st_put vc_stamper] in H. unfold vc_put in H. fold (vcls p) in H.
      destruct (zlookup (vcls p) (vticks cfg)) as [vt|] eqn:E; [|discriminate].
      apply Some_pair_inj in H as [-> ->]. split; [exact I|]. split.
      + unfold qupd. rewrite Z.eqb_refl. reflexivity.
      + right. split.
        * rewrite Qred_correct. pose proof (Q.le_max_r nw (st (vcls p))). pose proof (vticks_pos _ _ E). lra.
        * intros c Nc. unfold qupd. destruct (Z.eqb_spec c (vcls p)); [contradiction|reflexivity].
    - intros nw st l p _. cbn. discriminate.
    - intros nw st l p st' _ H. cbn in H. apply Some_inj in H as ->. split; [exact I|]. right. intros c. reflexivity.
  Defined.

  Definition vreach : vc cfg -> Prop := reach S (vrate cfg) (vst0 : ST S) vconf.

  (* every arriving packet of class c is stamped auxVC_c := max(now, auxVC_c) + vtick_c *)
  Theorem vc_stamp_thm s p :
    vreach s -> vconf p ->
    exists s' vt,
      vc_act cfg s (FPut p) = Ok (s', []) /\
      zlookup (vcls p) (vticks cfg) = Some vt /\
      (stm s' : vst) (vcls p) == Qmax (now s) ((stm s : vst) (vcls p)) + vt /\
      (forall c, c <> vcls p -> (stm s' : vst) c == (stm s : vst) c) /\
      exists F', F' == (stm s' : vst) (vcls p) /\
        items (store s') = items (store s) ++ [(now s, {| istamp := F'; iseq := Datatypes.S (seq s); ipkt := p |})].
  Proof.
    intros _ (Hc & _). unfold vc_act, act. cbn [st_put vc_stamper]. unfold vc_put. fold (vcls p).
    destruct (zlookup (vcls p) (vticks cfg)) as [vt|] eqn:E; [|contradiction].
    eexists _, vt. split; [reflexivity|]. split; [reflexivity|]. cbn [stm store items sq_put]. unfold pq_push, lpush, qupd.
    rewrite Z.eqb_refl. split; [apply Qred_correct|].
    split; [intros c Nc; destruct (Z.eqb_spec c (vcls p)); [contradiction|reflexivity]|].
    eexists. split; [|reflexivity]. rewrite !Qred_correct. reflexivity.
  Qed.
End VC.
