(* The DRR scheduler (Elem/DRR.v) as an interface element (Elem/Iface.v).  The adapter's labels are the scheduler's own
   actions; its executions are exactly the executions of drr_run, so the theorems of DRRProofs.v transfer.  DRR has no drop
   rule; a packet of an unconfigured class or of size <= 0 is not an admissible input, exactly as in the model. *)
From Coq Require Import ZArith QArith List Bool Permutation Lia.
From ONL Require Import Elem.Packet Elem.StoreQ Elem.DRR Elem.DRRInv Elem.DRRProofs Elem.Iface Elem.Compose Elem.ComposeHands Elem.AdaptCommon.
Import ListNotations.

Definition dout_e (o : dout) : list eout := match o with DOForward p => [EForward p] | _ => [] end.
Definition drr_internal (a : daction) : bool := match a with DPut _ | DAdvance _ => false | _ => true end.
Definition dlift (r : option (drr * list dout)) : option (drr * list eout) :=
  match r with Some (s', o) => Some (s', flat_map dout_e o) | None => None end.

(* everything inside the scheduler: per class, the packet in transmission, the parked head, the granted get, the store *)
Definition drr_held (cfg : dcfg) (d : drr) : list pkt := flat_map (dheld cfg d) (dclasses cfg).

Definition drr_elem (cfg : dcfg) (t0 : Q) : elem := {|
  st := drr;
  lab := daction;
  init := drr0 t0;
  now := dnow;
  put := fun p s => dlift (drr_act cfg s (DPut p));
  step := fun a s => if drr_internal a then dlift (drr_act cfg s a) else None;
  advance := fun t s => match drr_act cfg s (DAdvance t) with Some (s', _) => Some s' | None => None end;
  urgent := durgent cfg;
  deadline := fun s => match dchd s with DCTx _ dl => Some dl | _ => None end;
  held := drr_held cfg;
  accepts := fun _ => true;
  width := 1
|}.

Definition d_to (a : iact daction) : daction := match a with IPut p => DPut p | IStep l => l | IAdv t => DAdvance t end.
Definition d_of (a : daction) : iact daction := match a with DPut p => IPut p | DAdvance t => IAdv t | _ => IStep a end.
Definition d_ev (e : dtev) : Q * iact daction * list eout := (fst (fst e), d_of (snd (fst e)), flat_map dout_e (snd e)).

Definition drr_adapter (cfg : dcfg) (t0 : Q) : adapter (drr_elem cfg t0) := {|
  m_act := drr_act cfg; m_run := drr_run cfg; m_mk := fun s a o => (dnow s, a, o); m_iev := d_ev; m_oe := flat_map dout_e;
  m_put := DPut; m_adv := DAdvance; m_int := drr_internal; m_acc := fun _ => true; m_of := d_of; m_ok := fun _ => True
|}.

Lemma drr_advance_inv cfg s t s' o : drr_act cfg s (DAdvance t) = Some (s', o) ->
  o = [] /\ dnow s' = t /\ dnow s < t /\ durgent cfg s = false /\
  forall d, match dchd s with DCTx _ dl => Some dl | _ => None end = Some d -> t <= d.
Proof.
  intros H. destruct (dadvance_inv _ _ _ _ _ H) as (-> & -> & U & L & D). repeat split; auto.
  intros d Hd. destruct (dchd s) as [|p|p dl|p] eqn:Ec; try discriminate. injection Hd as <-. eauto.
Qed.

Lemma drr_puts tr : Iface.puts (map d_ev tr) = dputs tr.
Proof. apply flat_map_link_id. intros [[t []] outs]; reflexivity. Qed.
Lemma drr_fwds tr : fwds (map d_ev tr) = dfwds tr.
Proof. apply flat_map_link_id. intros [[t a] o]. apply flat_map_comp. intros []; reflexivity. Qed.
Lemma drr_drops tr : drops (map d_ev tr) = [].
Proof. apply (drops_map_none _ snd dout_e); [reflexivity|intros []; reflexivity]. Qed.

(* ---- the clock: run() between two yields never touches it (structural, for every state) ------------------------- *)
Definition rnow (t : Q) (r : dres) : Prop := match r with DYield d _ | DFall d _ => dnow d = t | DErr => True end.

Lemma dtry_head_now c rest d p : rnow (dnow d) (dtry_head c rest d p).
Proof. unfold dtry_head. destruct (Qle_bool (inject_Z (psize p)) (ddef d c)); reflexivity. Qed.
Lemma dinner_now c rest d : rnow (dnow d) (dinner c rest d).
Proof.
  unfold dinner. destruct (negb (Qle_bool (ddef d c) 0) && (0 <? dccnt d c)%Z); [|reflexivity].
  destruct (dhol d c); [apply dtry_head_now|]. destruct (sq_get fifo_pop (dst d c)); [reflexivity|exact I].
Qed.
Lemma dvisit_start_now cfg c d : dnow (fst (dvisit_start cfg c d)) = dnow d.
Proof. unfold dvisit_start. destruct (0 <? dccnt d c)%Z; reflexivity. Qed.
Lemma dscan_now cfg : forall cs d, rnow (dnow d) (dscan cfg cs d).
Proof.
  induction cs as [|c rest IH]; intros d; cbn [dscan]; [reflexivity|].
  pose proof (dvisit_start_now cfg c d) as V. destruct (dvisit_start cfg c d) as [d1 e1]. cbn [fst] in V.
  pose proof (dinner_now c rest d1) as I1. destruct (dinner c rest d1) as [d2 e2|d2 e2|]; cbn [rnow] in *; [congruence| |exact I].
  pose proof (IH d2) as I2. destruct (dscan cfg rest d2) as [d3 e3|d3 e3|]; cbn [rnow] in *; congruence || exact I.
Qed.
Lemma dpasses_now cfg : forall fuel d d' e, dpasses fuel cfg d = Some (d', e) -> dnow d' = dnow d.
Proof.
  induction fuel as [|n IH]; intros d d' e H; cbn [dpasses] in H; destruct (0 <? dtotal d)%Z.
  - discriminate.
  - destruct (sq_get fifo_pop (dtok d)); [|discriminate]. injection H as <- _. reflexivity.
  - pose proof (dscan_now cfg (dclasses cfg) d) as Sn. destruct (dscan cfg (dclasses cfg) d) as [d1 e1|d1 e1|]; cbn [rnow] in Sn; [| |discriminate].
    + injection H as <- _. exact Sn.
    + destruct (dpasses n cfg d1) as [[d2 e2]|] eqn:P; [|discriminate]. injection H as <- _. rewrite (IH _ _ _ P). exact Sn.
  - destruct (sq_get fifo_pop (dtok d)); [|discriminate]. injection H as <- _. reflexivity.
Qed.
Lemma dcontinue_now cfg rest r t d' e : rnow t r -> dcontinue cfg rest r = Some (d', e) -> dnow d' = t.
Proof.
  intros Rn H. destruct r as [d0 e0|d0 e0|]; cbn [dcontinue rnow] in *; [injection H as <- _; exact Rn| |discriminate].
  pose proof (dscan_now cfg rest d0) as Sn. destruct (dscan cfg rest d0) as [d1 e1|d1 e1|]; cbn [rnow] in Sn; [| |discriminate].
  - injection H as <- _. congruence.
  - destruct (dpasses (dfuel d1) cfg d1) as [[d2 e2]|] eqn:P; [|discriminate]. injection H as <- _.
    rewrite (dpasses_now _ _ _ _ _ P). congruence.
Qed.

Lemma drr_act_now cfg d a d' o : drr_act cfg d a = Some (d', o) -> (forall t, a <> DAdvance t) -> dnow d' = dnow d.
Proof.
  intros H Nt. destruct a as [p| |[c|]|[c|]| | | |t]; cbn [drr_act] in H.
  - destruct (dmemZ (df2c cfg (flow p)) (dclasses cfg) && (0 <? psize p)%Z); [|discriminate]. injection H as <- _. reflexivity.
  - destruct (dctrl d); try discriminate. exact (dpasses_now _ _ _ _ _ H).
  - destruct (dmemZ c (dclasses cfg)); [|discriminate]. destruct (sq_cb fifo_pop (dst d c)); [|discriminate]. injection H as <- _. reflexivity.
  - destruct (sq_cb fifo_pop (dtok d)); [|discriminate]. injection H as <- _. reflexivity.
  - destruct (dctrl d) as [| |c' rest|]; try discriminate. destruct (Z.eqb c c'); [|discriminate].
    destruct (sq_take (dst d c)) as [[[a0 p] q]|]; [|discriminate].
    apply (dcontinue_now cfg rest _ (dnow d) _ _ (dtry_head_now c rest (dset_st d c q) p) H).
  - destruct (dctrl d); try discriminate. destruct (sq_take (dtok d)) as [[x q]|]; [|discriminate]. exact (dpasses_now _ _ _ _ _ H).
  - destruct (dchd d); try discriminate. injection H as <- _. reflexivity.
  - destruct (dchd d) as [|p|p dl|p]; try discriminate. destruct (Qeq_bool dl (dnow d)); [|discriminate]. injection H as <- _. reflexivity.
  - destruct (dchd d) as [|p|p dl|p]; try discriminate. destruct (dctrl d) as [| |c rest|c rest]; try discriminate.
    destruct (dcontinue cfg rest (dinner c rest (ddebit d c rest p))) as [[d2 e2]|] eqn:C; [|discriminate]. injection H as <- _.
    exact (dcontinue_now cfg rest _ (dnow d) _ _ (dinner_now c rest (ddebit d c rest p)) C).
  - exfalso. eapply Nt. reflexivity.
Qed.

Lemma drr_adapter_ok cfg t0 : adapter_ok (drr_adapter cfg t0).
Proof.
  split; try reflexivity.
  - (* ok_no_hand *) intros o. induction o as [|[] o IH]; cbn; repeat constructor; exact IH.
  - (* ok_of_int *) intros [] H; reflexivity || discriminate H.
  - (* ok_view *) intros [] _; repeat split.
  - (* ok_act_now *) intros s a s' o. apply drr_act_now.
  - (* ok_adv_inv *) intros s t s' o. apply drr_advance_inv.
Qed.

Theorem drr_elem_timed cfg t0 : timed (drr_elem cfg t0).
Proof. exact (adapter_timed _ _ (drr_adapter_ok cfg t0)). Qed.

Theorem drr_elem_tagged cfg t0 : tagged (drr_elem cfg t0).
Proof. exact (adapter_tagged _ _ (drr_adapter_ok cfg t0)). Qed.

(* every execution of the model is an execution of the adapter ... *)
Theorem drr_run_elem cfg t0 : forall acts s s' tr,
  drr_run cfg s acts = Some (s', tr) -> run (drr_elem cfg t0) s (map d_of acts) = Some (s', map d_ev tr).
Proof. exact (adapter_run_elem_all _ _ (drr_adapter_ok cfg t0) (fun _ => I)). Qed.

(* ... and conversely: the adapter has no other executions *)
Theorem drr_elem_run cfg t0 : forall acts s s' tr,
  run (drr_elem cfg t0) s acts = Some (s', tr) ->
  exists tr0, drr_run cfg s (map d_to acts) = Some (s', tr0) /\ tr = map d_ev tr0 /\ map d_of (map d_to acts) = acts.
Proof. exact (adapter_elem_run_all _ _ (drr_adapter_ok cfg t0)). Qed.

Theorem drr_elem_laws cfg t0 : dwf cfg -> laws (drr_elem cfg t0).
Proof.
  intros Hwf. apply (adapter_laws _ _ (drr_adapter_ok cfg t0) _ _ (fun _ => []) drr_puts drr_fwds drr_drops).
  intros acts s tr _ R. split; [|split].
  - cbn [app held drr_elem]. destruct (drr_conserves_l cfg _ _ _ _ Hwf R) as (Hc & Hin & _).
    apply (class_partition_perm (dcls cfg) (dclasses cfg)); [exact (proj1 (proj2 (proj2 Hwf)))|exact Hc|exact Hin].
  - intros f. pose proof (drr_flow_fifo_l cfg _ _ _ _ Hwf R f) as E. change (filter (on_flow f)) with (dof_flow f). rewrite E.
    apply sublist_app_r.
  - intros _ U Dl. cbn [urgent deadline drr_elem] in U, Dl.
    assert (Nd : forall p dl, dchd s <> DCTx p dl) by (intros p dl E; rewrite E in Dl; discriminate).
    exact (flat_map_all_nil _ _ (drr_drained_l cfg _ _ _ _ Hwf R U Nd)).
Qed.
