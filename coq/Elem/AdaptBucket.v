(* The TokenBucket (Elem/Bucket.v) as an interface element (Elem/Iface.v).  The adapter's labels are the bucket's own
   actions; its executions are exactly the executions of tb_run, so the theorems of BucketProofs.v transfer.  A token bucket
   has no drop rule: it never emits EDrop.  OHead / ODebit are ghost outputs of the model and have no counterpart. *)
From Coq Require Import ZArith QArith List Bool Permutation Lia.
From ONL Require Import Elem.Packet Elem.StoreQ Elem.Bucket Elem.BucketProofs Elem.Iface Elem.Compose Elem.ComposeHands Elem.AdaptCommon.
Import ListNotations.

Definition tout_e (o : tout) : list eout := match o with OForward p => [EForward p] | _ => [] end.
Definition tb_internal (a : taction) : bool := match a with TPut _ | TAdvance _ => false | _ => true end.
Definition tlift (r : option (tb * list tout)) : option (tb * list eout) :=
  match r with Some (s', o) => Some (s', flat_map tout_e o) | None => None end.

Definition tb_elem (c : tbcfg) (t0 : Q) : elem := {|
  st := tb;
  lab := taction;
  init := tb0 true c t0;
  now := tnow;
  put := fun p s => tlift (tb_act c s (TPut p));
  step := fun a s => if tb_internal a then tlift (tb_act c s a) else None;
  advance := fun t s => match tb_act c s (TAdvance t) with Some (s', _) => Some s' | None => None end;
  urgent := tb_urgent;
  deadline := fun s => match phase s with PIdle => None | PTok _ dl => Some dl | PPeak _ dl => Some dl end;
  held := tb_held;
  accepts := fun p => Z.leb 0 (psize p);      (* a negative size makes the kernel reject the spacing timeout *)
  width := 1
|}.

Definition t_to (a : iact taction) : taction := match a with IPut p => TPut p | IStep l => l | IAdv t => TAdvance t end.
Definition t_of (a : taction) : iact taction := match a with TPut p => IPut p | TAdvance t => IAdv t | _ => IStep a end.
Definition t_ev (e : Bucket.tev) : Q * iact taction * list eout := (fst (fst e), t_of (snd (fst e)), flat_map tout_e (snd e)).

Definition tb_adapter (c : tbcfg) (t0 : Q) : adapter (tb_elem c t0) := {|
  m_act := tb_act c; m_run := tb_run c; m_mk := fun s a o => (tnow s, a, o); m_iev := t_ev; m_oe := flat_map tout_e;
  m_put := TPut; m_adv := TAdvance; m_int := tb_internal; m_acc := fun _ => true; m_of := t_of; m_ok := fun _ => True
|}.

Lemma tb_advance_inv c s t s' o : tb_act c s (TAdvance t) = Some (s', o) ->
  o = [] /\ tnow s' = t /\ tnow s < t /\ tb_urgent s = false /\
  forall d, match phase s with PIdle => None | PTok _ dl => Some dl | PPeak _ dl => Some dl end = Some d -> t <= d.
Proof.
  cbn [tb_act]. destruct (tb_urgent s); [discriminate|]. destruct (Qlt_le_dec (tnow s) t) as [L|]; [|discriminate].
  destruct (phase s) as [|p dl|p dl]; [|destruct (Qle_bool t dl) eqn:El; [|discriminate]..]; intros H; injection H as <- <-;
    repeat split; auto; intros d Hd; [discriminate|injection Hd as <-; apply Qle_bool_iff; exact El..].
Qed.

Lemma tb_act_now c s a s' o : tb_act c s a = Some (s', o) -> (forall t, a <> TAdvance t) -> tnow s' = tnow s.
Proof.
  intros H Nt. destruct a as [p| | | | |t]; cbn [tb_act] in H; unfold tb_after_debit, tb_forward in H;
    try (case_tests H; injection H as <- _; reflexivity).
  exfalso. eapply Nt. reflexivity.
Qed.

Lemma tb_adapter_ok c t0 : adapter_ok (tb_adapter c t0).
Proof.
  split; try reflexivity.
  - (* ok_no_hand *) intros o. induction o as [|[] o IH]; cbn; repeat constructor; exact IH.
  - (* ok_of_int *) intros [] H; reflexivity || discriminate H.
  - (* ok_view *) intros [] _; repeat split.
  - (* ok_act_now *) intros s a s' o. apply tb_act_now.
  - (* ok_adv_inv *) intros s t s' o. apply tb_advance_inv.
Qed.

(* every execution of the model is an execution of the adapter ... *)
Theorem tb_run_elem c t0 : forall acts s s' tr,
  tb_run c s acts = Some (s', tr) -> run (tb_elem c t0) s (map t_of acts) = Some (s', map t_ev tr).
Proof. exact (adapter_run_elem_all _ _ (tb_adapter_ok c t0) (fun _ => I)). Qed.

(* ... and conversely: the adapter has no other executions *)
Theorem tb_elem_run c t0 : forall acts s s' tr,
  run (tb_elem c t0) s acts = Some (s', tr) ->
  exists tr0, tb_run c s (map t_to acts) = Some (s', tr0) /\ tr = map t_ev tr0 /\ map t_of (map t_to acts) = acts.
Proof. exact (adapter_elem_run_all _ _ (tb_adapter_ok c t0)). Qed.

Lemma tb_puts tr : Iface.puts (map t_ev tr) = map snd (BucketProofs.puts tr).
Proof. apply flat_map_link. intros [[t []] o]; reflexivity. Qed.
Lemma tb_fwds tr : Iface.fwds (map t_ev tr) = map snd (BucketProofs.fwds tr).
Proof.
  apply flat_map_link. intros [[t a] o]. cbn [t_ev ev_outs fst snd]. rewrite map_map, map_id.
  apply flat_map_comp. intros []; reflexivity.
Qed.
Lemma tb_drops tr : drops (map t_ev tr) = [].
Proof. apply (drops_map_none _ snd tout_e); [reflexivity|intros []; reflexivity]. Qed.

Theorem tb_elem_laws c t0 : 0 < rate c -> laws (tb_elem c t0).
Proof.
  intros Hr. apply (adapter_laws _ _ (tb_adapter_ok c t0) _ _ (fun _ => []) tb_puts tb_fwds tb_drops). intros acts s tr _ R.
  split; [|split].
  - cbn [app]. rewrite (tb_conserves _ _ _ _ _ Hr R). apply Permutation_refl.
  - intros f. destruct (tb_flow_fifo _ _ _ _ _ Hr R f) as [rest E]. unfold of_flow in E. unfold on_flow. rewrite E. apply sublist_app_r.
  - intros _ U Dl. cbn [urgent deadline tb_elem] in U, Dl.
    assert (Hh : phase s = PIdle) by (destruct (phase s); [reflexivity|discriminate|discriminate]).
    exact (tb_quiescent_empty c t0 _ _ _ Hr R (conj U Hh)).
Qed.

Theorem tb_elem_timed c t0 : timed (tb_elem c t0).
Proof. exact (adapter_timed _ _ (tb_adapter_ok c t0)). Qed.

Theorem tb_elem_tagged c t0 : tagged (tb_elem c t0).
Proof. exact (adapter_tagged _ _ (tb_adapter_ok c t0)). Qed.
