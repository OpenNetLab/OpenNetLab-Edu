(* Lemmas about Elem/StoreQ.v (the kernel Store with its micro-steps, one consumer), proved once for
   an arbitrary payload type A and imported by every server-style element (Wire, Port, buckets, ...).

   Part 1 (any discipline push/pop): the "no stranded consumer" invariant [sq_nostrand] and the shape
          of every micro-step.
   Part 2 (FIFO discipline fifo_push/fifo_pop): conservation and order of [sq_held]:
            sq_put   adds exactly the new item at the END of sq_held,
            sq_cb / sq_get keep sq_held as a list (FIFO order preserved),
            sq_take  removes the HEAD of sq_held;
          time stamps: [sq_stamped] (every held item was put at or before now) and [sq_fresh]
          (while the consumer is waiting, every item in the store was put at the current instant). *)
From Coq Require Import ZArith QArith List Bool Lia.
From ONL Require Import Elem.StoreQ.
Import ListNotations.

(* ---------------------------------------------------------------------------------------------- *)
(* Part 1: any discipline                                                                          *)
Section AnyDiscipline.
  Variable A : Type.
  Variable push : (Q * A) -> list (Q * A) -> list (Q * A).
  Variable pop : list (Q * A) -> option ((Q * A) * list (Q * A)).
  Implicit Types s : sq A.

  (* no stranded consumer: a waiting get with a non-empty store has an unprocessed put event *)
  Definition sq_nostrand (s : sq A) : Prop :=
    get s = GWaiting -> items s <> [] -> (pend s > 0)%nat.

  (* [pop] is honest about emptiness (true of fifo_pop and of heappop) *)
  Definition pop_total : Prop := forall l, pop l = None -> l = [].

  Lemma sq_nostrand_init : sq_nostrand sq0.
  Proof. intros _ H. exfalso. apply H. reflexivity. Qed.

  Lemma sq_nostrand_put now x s : sq_nostrand (sq_put push now x s).
  Proof. intros _ _. cbn. lia. Qed.

  Lemma sq_nostrand_cb s s' : pop_total -> sq_cb pop s = Some s' -> sq_nostrand s'.
  Proof.
    intros Hp H. unfold sq_cb in H.
    destruct (pend s) as [|n]; [discriminate|].
    destruct (get s) eqn:G.
    - injection H as <-. intros G'. cbn in G'. congruence.
    - destruct (pop (items s)) as [[x rest]|] eqn:P.
      + injection H as <-. intros G'. cbn in G'. discriminate.
      + injection H as <-. intros _ Hne. cbn in Hne. apply Hp in P. contradiction.
    - injection H as <-. intros G'. cbn in G'. congruence.
  Qed.

  Lemma sq_nostrand_get s s' : pop_total -> sq_get pop s = Some s' -> sq_nostrand s'.
  Proof.
    intros Hp H. unfold sq_get in H.
    destruct (get s); try discriminate.
    destruct (pop (items s)) as [[x rest]|] eqn:P; injection H as <-.
    - intros G'. cbn in G'. discriminate.
    - intros _ Hne. cbn in Hne. apply Hp in P. contradiction.
  Qed.

  Lemma sq_nostrand_take s x s' : sq_take s = Some (x, s') -> sq_nostrand s'.
  Proof.
    unfold sq_take. destruct (get s); try discriminate.
    intros H. injection H as _ <-. intros G'. cbn in G'. discriminate.
  Qed.

  (* what "not urgent" means *)
  Lemma sq_urgent_false s :
    sq_urgent s = false <-> pend s = 0%nat /\ (forall x, get s <> GGranted x).
  Proof.
    unfold sq_urgent. rewrite orb_false_iff, negb_false_iff, Nat.eqb_eq. split.
    - intros [Hp Hg]. split; [exact Hp|]. intros x E. rewrite E in Hg. discriminate.
    - intros [Hp Hg]. split; [exact Hp|]. destruct (get s) as [| |x]; auto. exfalso. apply (Hg x). reflexivity.
  Qed.

  Lemma sq_urgent_put now x s : sq_urgent (sq_put push now x s) = true.
  Proof. reflexivity. Qed.

  (* the consequence every Advance uses: a waiting consumer of a quiet store sees an empty store *)
  Lemma sq_waiting_quiet_empty s :
    sq_urgent s = false -> sq_nostrand s -> get s = GWaiting -> items s = [].
  Proof.
    intros U N G. apply sq_urgent_false in U as [Hp _].
    destruct (items s) as [|x t] eqn:E; [reflexivity|].
    exfalso. assert (H : (pend s > 0)%nat) by (apply N; [exact G|rewrite E; discriminate]). lia.
  Qed.

  Lemma sq_waiting_quiet_held s :
    sq_urgent s = false -> sq_nostrand s -> get s = GWaiting -> sq_held s = [].
  Proof.
    intros U N G. unfold sq_held. rewrite G. apply sq_waiting_quiet_empty; assumption.
  Qed.

  Lemma sq_quiet_held_empty s :
    sq_urgent s = false -> sq_nostrand s -> get s <> GNone -> sq_held s = [].
  Proof.
    intros U N G. destruct (get s) as [| |x] eqn:E.
    - contradiction.
    - apply sq_waiting_quiet_held; assumption.
    - apply sq_urgent_false in U as [_ Hg]. destruct (Hg x E).
  Qed.

  Lemma sq_quiet_held_items s : sq_urgent s = false -> sq_held s = items s.
  Proof.
    intros U. apply sq_urgent_false in U as [_ Hg]. unfold sq_held.
    destruct (get s) as [| |x]; auto. exfalso. apply (Hg x). reflexivity.
  Qed.

  (* shape of the micro-steps that do not depend on the discipline *)
  Lemma sq_take_inv s x s' :
    sq_take s = Some (x, s') ->
    get s = GGranted x /\ items s' = items s /\ pend s' = pend s /\ get s' = GNone.
  Proof.
    unfold sq_take. destruct (get s) as [| |y]; try discriminate.
    intros H. injection H as <- <-. cbn. auto.
  Qed.

  Lemma sq_take_enabled s x : get s = GGranted x -> exists s', sq_take s = Some (x, s').
  Proof. intros G. unfold sq_take. rewrite G. eauto. Qed.

  Lemma sq_take_none s : sq_take s = None <-> (forall x, get s <> GGranted x).
  Proof.
    unfold sq_take. destruct (get s) as [| |y]; split; intros H; try discriminate; try reflexivity.
    exfalso. apply (H y). reflexivity.
  Qed.

  Lemma sq_put_fields now x s :
    items (sq_put push now x s) = push (now, x) (items s) /\ pend (sq_put push now x s) = S (pend s)
    /\ get (sq_put push now x s) = get s.
  Proof. cbn. auto. Qed.

  Lemma sq_get_requires_none s s' : sq_get pop s = Some s' -> get s = GNone.
  Proof. unfold sq_get. destruct (get s); try discriminate. reflexivity. Qed.

  Lemma sq_get_enabled s : get s = GNone -> exists s', sq_get pop s = Some s'.
  Proof. intros G. unfold sq_get. rewrite G. destruct (pop (items s)) as [[x r]|]; eauto. Qed.

  Lemma sq_get_not_none s s' : sq_get pop s = Some s' -> get s' <> GNone /\ pend s' = pend s.
  Proof.
    unfold sq_get. destruct (get s); try discriminate.
    destruct (pop (items s)) as [[x r]|]; intros H; injection H as <-; cbn; split; auto; discriminate.
  Qed.

  Lemma sq_cb_enabled s : (pend s > 0)%nat <-> exists s', sq_cb pop s = Some s'.
  Proof.
    unfold sq_cb. destruct (pend s) as [|n]; split.
    - lia.
    - intros (s' & H). discriminate.
    - intros _. destruct (get s); [eauto| |eauto]. destruct (pop (items s)) as [[x r]|]; eauto.
    - lia.
  Qed.

  Lemma sq_cb_pend s s' : sq_cb pop s = Some s' -> pend s = S (pend s').
  Proof.
    unfold sq_cb. destruct (pend s) as [|n]; [discriminate|].
    destruct (get s); [| |]; try (intros H; injection H as <-; reflexivity).
    destruct (pop (items s)) as [[x r]|]; intros H; injection H as <-; reflexivity.
  Qed.

  (* a StorePut event processed while nobody waits changes nothing but the counter *)
  Lemma sq_cb_not_waiting s s' :
    sq_cb pop s = Some s' -> get s <> GWaiting -> items s' = items s /\ get s' = get s.
  Proof.
    unfold sq_cb. destruct (pend s) as [|n]; [discriminate|].
    destruct (get s); intros H NW; try (injection H as <-; cbn; auto). contradiction.
  Qed.

  (* the phase of the consumer: GNone stays GNone under put/cb; only sq_get leaves it, only sq_take enters it *)
  Lemma sq_cb_get_none s s' : sq_cb pop s = Some s' -> (get s = GNone <-> get s' = GNone).
  Proof.
    unfold sq_cb. destruct (pend s) as [|n]; [discriminate|].
    destruct (get s) eqn:G.
    - intros H; injection H as <-. cbn. split; auto.
    - destruct (pop (items s)) as [[x r]|]; intros H; injection H as <-; cbn; split; discriminate.
    - intros H; injection H as <-. cbn. split; auto.
  Qed.
End AnyDiscipline.

Arguments sq_nostrand {A} s.
Arguments pop_total {A} pop.

(* ---------------------------------------------------------------------------------------------- *)
(* Part 2: the FIFO discipline of Store                                                            *)
Section Fifo.
  Variable A : Type.
  Notation sqA := (sq A).

  Lemma fifo_pop_total : pop_total (@fifo_pop A).
  Proof. intros [|x t]; cbn; [reflexivity|discriminate]. Qed.

  Lemma fifo_pop_some (l : list (Q * A)) x rest : fifo_pop l = Some (x, rest) <-> l = x :: rest.
  Proof.
    destruct l as [|y t]; cbn; split; intros H; try discriminate.
    - injection H as <- <-. reflexivity.
    - injection H as <- <-. reflexivity.
  Qed.

  (* preservation of sq_nostrand by the four micro-steps, FIFO instance *)
  Lemma fifo_nostrand_put now x (s : sqA) : sq_nostrand (sq_put fifo_push now x s).
  Proof. apply sq_nostrand_put. Qed.
  Lemma fifo_nostrand_cb (s s' : sqA) : sq_cb fifo_pop s = Some s' -> sq_nostrand s'.
  Proof. apply sq_nostrand_cb, fifo_pop_total. Qed.
  Lemma fifo_nostrand_get (s s' : sqA) : sq_get fifo_pop s = Some s' -> sq_nostrand s'.
  Proof. apply sq_nostrand_get, fifo_pop_total. Qed.
  Lemma fifo_nostrand_take (s : sqA) x s' : sq_take s = Some (x, s') -> sq_nostrand s'.
  Proof. apply sq_nostrand_take. Qed.

  (* exact shape of the FIFO micro-steps *)
  Lemma fifo_cb_inv (s s' : sqA) :
    sq_cb fifo_pop s = Some s' ->
    pend s = S (pend s') /\
    ((get s = GWaiting /\ exists x, items s = x :: items s' /\ get s' = GGranted x)
     \/ ((get s <> GWaiting \/ items s = []) /\ items s' = items s /\ get s' = get s)).
  Proof.
    unfold sq_cb. destruct (pend s) as [|n]; [discriminate|].
    destruct (get s) eqn:G.
    - intros H; injection H as <-. cbn. split; [reflexivity|]. right. split; [left; discriminate|auto].
    - destruct (items s) as [|x t] eqn:E; cbn; intros H; injection H as <-; cbn; (split; [reflexivity|]).
      + right. auto.
      + left. split; [reflexivity|]. exists x. auto.
    - intros H; injection H as <-. cbn. split; [reflexivity|]. right. split; [left; discriminate|auto].
  Qed.

  Lemma fifo_get_inv (s s' : sqA) :
    sq_get fifo_pop s = Some s' ->
    get s = GNone /\ pend s' = pend s /\
    ((items s = [] /\ items s' = [] /\ get s' = GWaiting)
     \/ (exists x, items s = x :: items s' /\ get s' = GGranted x)).
  Proof.
    unfold sq_get. destruct (get s); try discriminate.
    destruct (items s) as [|x t] eqn:E; cbn; intros H; injection H as <-; cbn.
    - split; [reflexivity|split; [reflexivity|left; auto]].
    - split; [reflexivity|split; [reflexivity|right; exists x; auto]].
  Qed.

  (* ---- conservation and order of what the store holds ---- *)
  Lemma fifo_held_put now x (s : sqA) : sq_held (sq_put fifo_push now x s) = sq_held s ++ [(now, x)].
  Proof. unfold sq_held, sq_put, fifo_push; cbn. destruct (get s); reflexivity. Qed.

  Lemma fifo_held_cb (s s' : sqA) : sq_cb fifo_pop s = Some s' -> sq_held s' = sq_held s.
  Proof.
    intros H. apply fifo_cb_inv in H as (_ & [(G & x & E & G')|(_ & E & G')]); unfold sq_held.
    - rewrite G, G', E. reflexivity.
    - rewrite G', E. reflexivity.
  Qed.

  Lemma fifo_held_get (s s' : sqA) : sq_get fifo_pop s = Some s' -> sq_held s' = sq_held s.
  Proof.
    intros H. apply fifo_get_inv in H as (G & _ & [(E & E' & G')|(x & E & G')]); unfold sq_held.
    - rewrite G, G', E, E'. reflexivity.
    - rewrite G, G', E. reflexivity.
  Qed.

  Lemma fifo_held_take (s : sqA) x s' : sq_take s = Some (x, s') -> sq_held s = x :: sq_held s'.
  Proof.
    intros H. apply sq_take_inv in H as (G & E & _ & G'). unfold sq_held. rewrite G, G', E. reflexivity.
  Qed.

  Lemma fifo_held_init : sq_held (@sq0 A) = [].
  Proof. reflexivity. Qed.

  (* the item a granted get carries is the head of what is held; nothing is held by an idle consumer (GNone)
     beyond the items *)
  Lemma sq_held_granted (s : sqA) x : get s = GGranted x -> sq_held s = x :: items s.
  Proof. intros G. unfold sq_held. rewrite G. reflexivity. Qed.

  Lemma sq_held_not_granted (s : sqA) : (forall x, get s <> GGranted x) -> sq_held s = items s.
  Proof. intros G. unfold sq_held. destruct (get s) as [| |x]; auto. exfalso. apply (G x). reflexivity. Qed.

  (* ---- time stamps ---- *)
  (* every held item was put at or before [now] *)
  Definition sq_stamped (now : Q) (s : sqA) : Prop := Forall (fun x => fst x <= now) (sq_held s).
  (* while the consumer waits, every item of the store was put at the current instant *)
  Definition sq_fresh (now : Q) (s : sqA) : Prop := get s = GWaiting -> Forall (fun x => fst x = now) (items s).

  Lemma sq_stamped_init now : sq_stamped now (@sq0 A).
  Proof. constructor. Qed.

  Lemma sq_stamped_put now x (s : sqA) : sq_stamped now s -> sq_stamped now (sq_put fifo_push now x s).
  Proof.
    unfold sq_stamped. rewrite fifo_held_put. intros H. apply Forall_app. split; [exact H|].
    constructor; [cbn; apply Qle_refl|constructor].
  Qed.

  Lemma sq_stamped_cb now (s s' : sqA) : sq_cb fifo_pop s = Some s' -> sq_stamped now s -> sq_stamped now s'.
  Proof. unfold sq_stamped. intros H. rewrite (fifo_held_cb _ _ H). auto. Qed.

  Lemma sq_stamped_get now (s s' : sqA) : sq_get fifo_pop s = Some s' -> sq_stamped now s -> sq_stamped now s'.
  Proof. unfold sq_stamped. intros H. rewrite (fifo_held_get _ _ H). auto. Qed.

  Lemma sq_stamped_take now (s : sqA) x s' :
    sq_take s = Some (x, s') -> sq_stamped now s -> fst x <= now /\ sq_stamped now s'.
  Proof.
    unfold sq_stamped. intros H. rewrite (fifo_held_take _ _ _ H). intros F.
    inversion F; subst. auto.
  Qed.

  Lemma sq_stamped_mono now t (s : sqA) : now <= t -> sq_stamped now s -> sq_stamped t s.
  Proof.
    unfold sq_stamped. intros Hle F. eapply Forall_impl; [|exact F].
    intros x Hx. cbn in Hx. eapply Qle_trans; eauto.
  Qed.

  Lemma sq_get_ok now (s s' : sqA) :
    sq_get fifo_pop s = Some s' ->
    sq_held s' = sq_held s /\ sq_nostrand s' /\ (sq_stamped now s -> sq_stamped now s') /\ get s' <> GNone.
  Proof.
    intros H. split; [exact (fifo_held_get _ _ H)|]. split; [exact (fifo_nostrand_get _ _ H)|].
    split; [exact (sq_stamped_get _ _ _ H)|exact (proj1 (sq_get_not_none _ _ _ _ H))].
  Qed.

  Lemma sq_fresh_init now : sq_fresh now (@sq0 A).
  Proof. intros H. discriminate. Qed.

  Lemma sq_fresh_put now x (s : sqA) : sq_fresh now s -> sq_fresh now (sq_put fifo_push now x s).
  Proof.
    unfold sq_fresh, sq_put, fifo_push; cbn. intros H G. apply Forall_app. split; [auto|].
    constructor; [reflexivity|constructor].
  Qed.

  Lemma sq_fresh_cb now (s s' : sqA) : sq_cb fifo_pop s = Some s' -> sq_fresh now s -> sq_fresh now s'.
  Proof.
    intros H F. apply fifo_cb_inv in H as (_ & [(G & x & E & G')|(_ & E & G')]); intros W.
    - rewrite G' in W. discriminate.
    - rewrite E. apply F. rewrite <- G'. exact W.
  Qed.

  Lemma sq_fresh_get now (s s' : sqA) : sq_get fifo_pop s = Some s' -> sq_fresh now s'.
  Proof.
    intros H. apply fifo_get_inv in H as (G & _ & [(E & E' & G')|(x & E & G')]); intros W.
    - rewrite E'. constructor.
    - rewrite G' in W. discriminate.
  Qed.

  Lemma sq_fresh_take now (s : sqA) x s' : sq_take s = Some (x, s') -> sq_fresh now s'.
  Proof. intros H. apply sq_take_inv in H as (_ & _ & _ & G'). intros W. rewrite G' in W. discriminate. Qed.

  (* the clock may move only when the store is quiet; then a waiting consumer has an empty store and
     freshness holds at the new instant for free *)
  Lemma sq_fresh_advance (t : Q) (s : sqA) :
    sq_urgent s = false -> sq_nostrand s -> sq_fresh t s.
  Proof.
    intros U N W. rewrite (sq_waiting_quiet_empty _ s U N W). constructor.
  Qed.

  (* a StorePut event that serves the waiting consumer hands over an item put at the current instant *)
  Lemma sq_cb_grants_fresh now (s s' : sqA) x :
    sq_cb fifo_pop s = Some s' -> sq_fresh now s -> get s = GWaiting -> get s' = GGranted x -> fst x = now.
  Proof.
    intros H F W G'. apply fifo_cb_inv in H as (_ & [(_ & y & E & Gy)|(_ & _ & Gs)]).
    - rewrite Gy in G'. injection G' as <-. specialize (F W). rewrite E in F. inversion F as [|? ? Hh Ht]. exact Hh.
    - rewrite Gs, W in G'. discriminate.
  Qed.

  (* an immediate grant (get on a non-empty store) hands over the head of the items *)
  Lemma sq_get_grants_head (s s' : sqA) x :
    sq_get fifo_pop s = Some s' -> get s' = GGranted x -> exists rest, items s = x :: rest /\ items s' = rest.
  Proof.
    intros H G'. apply fifo_get_inv in H as (_ & _ & [(_ & _ & W)|(y & E & Gy)]).
    - rewrite W in G'. discriminate.
    - rewrite Gy in G'. injection G' as <-. eauto.
  Qed.

  Lemma fifo_held_length_put now x (s : sqA) : length (sq_held (sq_put fifo_push now x s)) = S (length (sq_held s)).
  Proof. rewrite fifo_held_put, app_length. cbn. lia. Qed.

  Lemma fifo_held_length_take (s : sqA) x s' : sq_take s = Some (x, s') -> length (sq_held s) = S (length (sq_held s')).
  Proof. intros H. rewrite (fifo_held_take _ _ _ H). reflexivity. Qed.
End Fifo.

Arguments sq_stamped {A} now s.
Arguments sq_fresh {A} now s.
