(* The Wire (Elem/Wire.v) as an interface element (Elem/Iface.v).  The adapter's labels are the wire's own actions; its
   executions are exactly the executions of wire_run (both directions below), so the theorems of WireProofs.v transfer:
   the C08 laws in interface form.  ODeliver p is the forward, OLost p the drop by the documented loss rule. *)
From Coq Require Import ZArith QArith List Bool Permutation Lia.
From ONL Require Import Elem.Packet Elem.StoreQ Elem.Wire Elem.WireProofs Elem.Iface Elem.Compose Elem.ComposeHands Elem.AdaptCommon.
Import ListNotations.

Definition wout_e (o : wout) : eout := match o with ODeliver p => EForward p | OLost p => EDrop p end.
Definition wire_internal (a : waction) : bool := match a with WPut _ | WAdvance _ => false | _ => true end.
Definition wlift (r : option (wire * list wout)) : option (wire * list eout) :=
  match r with Some (w', o) => Some (w', map wout_e o) | None => None end.

Definition wire_elem (loss : option Q) (t0 : Q) : elem := {|
  st := wire;
  lab := waction;
  init := wire0 t0;
  now := wnow;
  put := fun p w => wlift (wire_act loss w (WPut p));
  step := fun a w => if wire_internal a then wlift (wire_act loss w a) else None;
  advance := fun t w => match wire_act loss w (WAdvance t) with Some (w', _) => Some w' | None => None end;
  urgent := wurgent;
  deadline := fun w => match hold w with Some (_, dl) => Some dl | None => None end;
  held := wheld;
  accepts := fun _ => true;
  width := 1
|}.

(* interface actions <-> model actions *)
Definition w_to (a : iact waction) : waction := match a with IPut p => WPut p | IStep l => l | IAdv t => WAdvance t end.
Definition w_of (a : waction) : iact waction := match a with WPut p => IPut p | WAdvance t => IAdv t | _ => IStep a end.
Definition w_ev (e : Wire.tev) : Q * iact waction * list eout := (fst (fst e), w_of (snd (fst e)), map wout_e (snd e)).

Definition wire_adapter (loss : option Q) (t0 : Q) : adapter (wire_elem loss t0) := {|
  m_act := wire_act loss; m_run := wire_run loss; m_mk := fun w a o => (wnow w, a, o); m_iev := w_ev; m_oe := map wout_e;
  m_put := WPut; m_adv := WAdvance; m_int := wire_internal; m_acc := fun _ => true; m_of := w_of; m_ok := fun _ => True
|}.

Lemma wire_advance_inv loss w t w' o : wire_act loss w (WAdvance t) = Some (w', o) ->
  o = [] /\ wnow w' = t /\ wnow w < t /\ wurgent w = false /\
  forall d, match hold w with Some (_, dl) => Some dl | None => None end = Some d -> t <= d.
Proof.
  intros H. destruct (wire_adv_inv _ _ _ _ _ H) as (U & L & D & -> & ->). repeat split; auto.
  intros d Hd. destruct (hold w) as [[p dl]|]; [|discriminate]. injection Hd as <-. eauto.
Qed.

Lemma wire_act_now loss w a w' o : wire_act loss w a = Some (w', o) -> (forall t, a <> WAdvance t) -> wnow w' = wnow w.
Proof. intros H Nt. apply wire_act_step in H. destruct H; try reflexivity. exfalso. eapply Nt. reflexivity. Qed.

Lemma wire_adapter_ok loss t0 : adapter_ok (wire_adapter loss t0).
Proof.
  split; try reflexivity.
  - (* ok_no_hand *) intros o. induction o as [|[] o IH]; constructor; auto; exact I.
  - (* ok_of_int *) intros [] H; reflexivity || discriminate H.
  - (* ok_view *) intros [] _; repeat split.
  - (* ok_act_now *) intros w a w' o. apply wire_act_now.
  - (* ok_adv_inv *) intros w t w' o. apply wire_advance_inv.
Qed.

(* every execution of the model is an execution of the adapter ... *)
Theorem wire_run_elem loss t0 : forall acts w w' tr,
  wire_run loss w acts = Some (w', tr) -> run (wire_elem loss t0) w (map w_of acts) = Some (w', map w_ev tr).
Proof. exact (adapter_run_elem_all _ _ (wire_adapter_ok loss t0) (fun _ => I)). Qed.

(* ... and conversely: the adapter has no other executions *)
Theorem wire_elem_run loss t0 : forall acts w w' tr,
  run (wire_elem loss t0) w acts = Some (w', tr) ->
  exists tr0, wire_run loss w (map w_to acts) = Some (w', tr0) /\ tr = map w_ev tr0 /\ map w_of (map w_to acts) = acts.
Proof. exact (adapter_elem_run_all _ _ (wire_adapter_ok loss t0)). Qed.

(* what the interface trace functions are on a model trace *)
Lemma wire_puts tr : puts (map w_ev tr) = map snd (arrivals tr).
Proof. apply flat_map_link. intros [[t []] o]; reflexivity. Qed.
Lemma wire_fwds tr : fwds (map w_ev tr) = map snd (tdeliv tr).
Proof. apply flat_map_link. intros [[t a] o]. apply flat_map_link. intros []; reflexivity. Qed.
Lemma wire_drops tr : drops (map w_ev tr) = map snd (tlost tr).
Proof. apply flat_map_link. intros [[t a] o]. apply flat_map_link. intros []; reflexivity. Qed.

Lemma subseq_sublist {X} (a b : list X) : WireProofs.subseq a b -> sublist a b.
Proof. induction 1; constructor; auto. Qed.

Theorem wire_elem_laws loss t0 : laws (wire_elem loss t0).
Proof.
  apply (adapter_laws _ _ (wire_adapter_ok loss t0) _ _ _ wire_puts wire_fwds wire_drops). intros acts s tr _ R. split; [|split].
  - exact (wire_conserves _ _ _ _ _ R).
  - intros f. apply subseq_sublist. exact (wire_flow_fifo _ _ _ _ _ R f).
  - intros _ U Dl. cbn [urgent deadline wire_elem] in U, Dl.
    assert (Hh : hold s = None) by (destruct (hold s) as [[p dl]|]; [discriminate|reflexivity]).
    exact (wire_quiescent_empty _ _ _ _ _ R U Hh).
Qed.

Theorem wire_elem_timed loss t0 : timed (wire_elem loss t0).
Proof. exact (adapter_timed _ _ (wire_adapter_ok loss t0)). Qed.

Theorem wire_elem_tagged loss t0 : tagged (wire_elem loss t0).
Proof. exact (adapter_tagged _ _ (wire_adapter_ok loss t0)). Qed.
