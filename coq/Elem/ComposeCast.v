(* REPLICATING elements: onl/netdev/splitter.py (Splitter, NSplitter) and onl/netdev/hub.py (Hub).
   A splitter legitimately duplicates, so "puts = forwards ++ drops ++ held" is not its law; its law is
   "EVERY output receives EVERY packet (the hub: every packet that did not come from that endpoint) exactly once, in order".

     fork wa wb A B      two elements side by side; a packet p put into it is put into A when wa p and (then) into B when wb p
                         (par sel A B of ComposePar.v behaves as the case wb = negb wa, but is a definition of its own with its
                         own projection theorem; a two-way splitter is wa = wb = true)
     mcast t0 want Es    n elements; branch i is given p iff want i p.  NSplitter: want = true.  Hub: want i p = the endpoint of
                         branch i is not the packet's source.
   [mcast_projection]: inside ANY execution of the composite every branch runs as it would alone and was given exactly the
   packets it is meant to get, in order -- hence, when the branch conserves packets, each of them is forwarded, discarded by the
   branch's own rule, or held there, exactly once PER BRANCH. *)
From Coq Require Import ZArith QArith List Bool Permutation Lia Arith.
From ONL Require Import Elem.Packet Elem.Iface Elem.Compose Elem.ComposePar Elem.ComposeSwitch.
Import ListNotations.
Local Open Scope Q_scope.

Lemma side_put E (w : bool) p s s' o : (if w then put E p s else Some (s, [])) = Some (s', o) ->
  exists tr, run E s (if w then [IPut p] else []) = Some (s', tr) /\
             puts tr = (if w then [p] else []) /\ fwds tr = o_fwds o /\ drops tr = o_drops o.
Proof.
  destruct w; intros H.
  - exact (run_one E s (IPut p) s' o H).
  - injection H as <- <-. exists []. repeat split.
Qed.

Section Fork.
  Variables wa wb : pkt -> bool.
  Variables A B : elem.

  Definition fork_put (p : pkt) (s : st A * st B) : option ((st A * st B) * list eout) :=
    match (if wa p then put A p (fst s) else Some (fst s, [])) with
    | None => None
    | Some (a', oA) =>
        match (if wb p then put B p (snd s) else Some (snd s, [])) with
        | None => None
        | Some (b', oB) => Some ((a', b'), oA ++ map (shift A) oB)
        end
    end.

  Definition fork : elem := {|
    st := (st A * st B)%type;
    lab := (lab A + lab B)%type;
    init := (init A, init B);
    now := fun s => now A (fst s);
    put := fork_put;
    step := fun l s => match l with inl x => onA A B s (step A x (fst s)) | inr y => onB A B s (step B y (snd s)) end;
    advance := fun t s =>
      match advance A t (fst s), advance B t (snd s) with
      | Some a', Some b' => Some (a', b')
      | _, _ => None
      end;
    urgent := fun s => urgent A (fst s) || urgent B (snd s);
    deadline := fun s => omin (deadline A (fst s)) (deadline B (snd s));
    held := fun s => held A (fst s) ++ held B (snd s);
    accepts := fun p => (if wa p then accepts A p else true) && (if wb p then accepts B p else true);
    width := width A + width B
  |}.

  Definition factA (a : iact (lab fork)) : list (iact (lab A)) :=
    match a with
    | IPut p => if wa p then [IPut p] else []
    | IStep (inl x) => [IStep x]
    | IStep (inr _) => []
    | IAdv t => [IAdv t]
    end.
  Definition factB (a : iact (lab fork)) : list (iact (lab B)) :=
    match a with
    | IPut p => if wb p then [IPut p] else []
    | IStep (inl _) => []
    | IStep (inr y) => [IStep y]
    | IAdv t => [IAdv t]
    end.
  Definition factsA (acts : list (iact (lab fork))) := flat_map factA acts.
  Definition factsB (acts : list (iact (lab fork))) := flat_map factB acts.

  (* PROJECTION: each side of ANY execution of the fork is an admissible execution of that element alone, given exactly the
     packets it is meant to get, in order; the composite's forwards / drops are interleavings of the two sides' *)
  Theorem fork_projection : forall acts sA sB sA' sB' tr,
    run fork (sA, sB) acts = Some ((sA', sB'), tr) ->
    exists trA trB,
      run A sA (factsA acts) = Some (sA', trA) /\ run B sB (factsB acts) = Some (sB', trB) /\
      puts trA = filter wa (puts tr) /\ puts trB = filter wb (puts tr) /\
      interleave (fwds trA) (fwds trB) (fwds tr) /\ interleave (drops trA) (drops trB) (drops tr).
  Proof.
    induction acts as [|a acts IH]; intros sA sB sA' sB' tr H.
    - cbn in H. injection H as <- <- <-. exists [], []. cbn. repeat split; constructor.
    - cbn [run] in H.
      destruct (act fork (sA, sB) a) as [[[sA1 sB1] o]|] eqn:Ea; [|discriminate].
      destruct (run fork (sA1, sB1) acts) as [[[sA2 sB2] tr1]|] eqn:Er; [|discriminate].
      injection H as <- <- <-.
      destruct (IH _ _ _ _ _ Er) as (trA1 & trB1 & RA & RB & P1 & P2 & I2 & I3).
      unfold factsA, factsB. cbn [flat_map]. fold (factsA acts) (factsB acts).
      destruct a as [p|[x|y]|t].
      + cbn [act fork put] in Ea. unfold fork_put in Ea. cbn [fst snd] in Ea. cbn [factA factB].
        destruct (if wa p then put A p sA else Some (sA, [])) as [[a1 oA]|] eqn:EA; [|discriminate].
        destruct (if wb p then put B p sB else Some (sB, [])) as [[b1 oB]|] eqn:EB; [|discriminate].
        injection Ea as E1 E2 E3. subst a1 b1 o.
        destruct (side_put _ _ _ _ _ _ EA) as (tA & RA0 & PA & FA & DA). destruct (side_put _ _ _ _ _ _ EB) as (tB & RB0 & PB & FB & DB).
        exists (tA ++ trA1), (tB ++ trB1). rewrite !run_app, RA0, RB0, RA, RB.
        rewrite puts_cons, fwds_cons, drops_cons, !puts_app, !fwds_app, !drops_app, PA, PB, FA, FB, DA, DB, P1, P2,
          o_fwds_app, o_drops_app, (o_fwds_shift A), (o_drops_shift A), <- !app_assoc.
        cbn [a_puts app filter]. repeat split; [destruct (wa p); reflexivity|destruct (wb p); reflexivity|apply interleave_pre; assumption..].
      + cbn [act fork step] in Ea. unfold onA in Ea. cbn [fst snd] in Ea. destruct (step A x sA) as [[a1 oA]|] eqn:EA; [|discriminate].
        injection Ea as E1 E2 E3. subst a1 sB1 o. cbn [factA factB].
        exists ((now A sA1, IStep x, oA) :: trA1), trB1. cbn [app run act]. rewrite EA, RA, RB.
        rewrite !puts_cons, !fwds_cons, !drops_cons, P1, P2. cbn [a_puts app]. repeat split.
        * exact (interleave_pre _ [] _ _ _ I2).
        * exact (interleave_pre _ [] _ _ _ I3).
      + cbn [act fork step] in Ea. unfold onB in Ea. cbn [fst snd] in Ea. destruct (step B y sB) as [[b1 oB]|] eqn:EB; [|discriminate].
        injection Ea as E1 E2 E3. subst sA1 b1 o. cbn [factA factB].
        exists trA1, ((now B sB1, IStep y, oB) :: trB1). cbn [app run act]. rewrite EB, RA, RB.
        rewrite !puts_cons, !fwds_cons, !drops_cons, (o_fwds_shift A), (o_drops_shift A), P1, P2. cbn [a_puts app]. repeat split.
        * exact (interleave_pre [] _ _ _ _ I2).
        * exact (interleave_pre [] _ _ _ _ I3).
      + cbn [act fork advance fst snd] in Ea.
        destruct (advance A t sA) as [a1|] eqn:EA; [|discriminate]. destruct (advance B t sB) as [b1|] eqn:EB; [|discriminate].
        injection Ea as E1 E2 E3. subst a1 b1 o. cbn [factA factB].
        exists ((now A sA1, IAdv t, []) :: trA1), ((now B sB1, IAdv t, []) :: trB1). cbn [app run act]. rewrite EA, EB, RA, RB.
        rewrite !puts_cons, !fwds_cons, !drops_cons, P1, P2. cbn [a_puts o_fwds o_drops flat_map app]. repeat split; auto.
  Qed.
End Fork.

(* the absorbing terminator of a multicast: accepts every packet and does nothing (no law is claimed about it) *)
Definition null_elem (t0 : Q) : elem := {|
  st := Q; lab := Empty_set; init := t0; now := fun s => s;
  put := fun _ s => Some (s, []);
  step := fun l _ => match l with end;
  advance := fun t s => if Qlt_le_dec s t then Some t else None;
  urgent := fun _ => false; deadline := fun _ => None; held := fun _ => []; accepts := fun _ => true; width := 1
|}.

Fixpoint mcast (t0 : Q) (want : nat -> pkt -> bool) (Es : list elem) : elem :=
  match Es with
  | [] => null_elem t0
  | E :: r => fork (want O) (fun _ => true) E (mcast t0 (fun i => want (S i)) r)
  end.

Inductive mcast_has (t0 : Q) : forall (Es : list elem) (want : nat -> pkt -> bool), st (mcast t0 want Es) -> nat -> forall E : elem, st E -> Prop :=
| mh_here E r want (s : st (mcast t0 want (E :: r))) : mcast_has t0 (E :: r) want s 0 E (fst s)
| mh_there E r want (s : st (mcast t0 want (E :: r))) i F sF :
    mcast_has t0 r (fun i => want (S i)) (snd s) i F sF -> mcast_has t0 (E :: r) want s (S i) F sF.

Lemma mcast_has_total t0 : forall Es want s i E, nth_error Es i = Some E -> exists sE, mcast_has t0 Es want s i E sE.
Proof.
  induction Es as [|E0 r IH]; intros want s i E H; [destruct i; discriminate|].
  destruct i as [|i]; cbn [nth_error] in H.
  - injection H as <-. exists (fst s). constructor.
  - destruct (IH (fun i => want (S i)) (snd s) i E H) as [sE HsE]. exists sE. constructor. exact HsE.
Qed.

Lemma filter_true {X} (l : list X) : filter (fun _ => true) l = l.
Proof. induction l; cbn; congruence. Qed.

(* PROJECTION onto output i of a splitter / hub: inside ANY execution, the device behind output i runs as it would alone and
   was given EXACTLY the packets meant for it (NSplitter: every packet; Hub: every packet not coming from endpoint i), each once,
   in the order in which they were put in; what it delivers is among the composite's deliveries *)
Theorem mcast_projection t0 : forall Es want s i E sE, mcast_has t0 Es want s i E sE -> forall acts tr,
  run (mcast t0 want Es) (init (mcast t0 want Es)) acts = Some (s, tr) ->
  exists acts_i tr_i, run E (init E) acts_i = Some (sE, tr_i) /\
    puts tr_i = filter (want i) (puts tr) /\ sublist (fwds tr_i) (fwds tr) /\ sublist (drops tr_i) (drops tr).
Proof.
  intros Es want s i E sE Hh. induction Hh as [E r want s|E r want s i F sF Hh IH]; intros acts tr H; cbn [mcast] in H.
  - destruct s as [sA sB]. destruct (fork_projection _ _ _ _ _ _ _ _ _ _ H) as (trA & trB & RA & _ & P1 & _ & I2 & I3).
    exists (factsA (want O) (fun _ => true) E (mcast t0 (fun i => want (S i)) r) acts), trA.
    split; [exact RA|]. split; [exact P1|]. split; eapply interleave_sub_l; eauto.
  - destruct s as [sA sB]. destruct (fork_projection _ _ _ _ _ _ _ _ _ _ H) as (trA & trB & _ & RB & _ & P2 & I2 & I3).
    cbn [snd] in IH. destruct (IH _ _ RB) as (acts_i & tr_i & R & P & Fw & Dr).
    exists acts_i, tr_i. split; [exact R|]. split; [|split; (eapply sublist_trans; [eassumption|eapply interleave_sub_r; eauto])].
    rewrite P, P2, filter_true. reflexivity.
Qed.

(* replicating conservation: per output, every packet meant for it is forwarded by the device behind it, discarded by that device's
   own documented rule, or still held there -- exactly once *)
Theorem mcast_conserves_per_output t0 : forall Es want s i E sE, mcast_has t0 Es want s i E sE -> conserves E -> forall acts tr,
  run (mcast t0 want Es) (init (mcast t0 want Es)) acts = Some (s, tr) ->
  exists acts_i tr_i, run E (init E) acts_i = Some (sE, tr_i) /\ puts tr_i = filter (want i) (puts tr) /\
    Permutation (filter (want i) (puts tr)) (fwds tr_i ++ drops tr_i ++ held E sE) /\ sublist (fwds tr_i) (fwds tr).
Proof.
  intros Es want s i E sE Hh CE acts tr H. destruct (mcast_projection t0 _ _ _ _ _ _ Hh _ _ H) as (acts_i & tr_i & R & P & Fw & _).
  exists acts_i, tr_i. repeat split; auto. rewrite <- P. exact (CE _ _ _ R).
Qed.

(* ... for the branch at any position of the list *)
Theorem mcast_exists_branch t0 Es want : forall acts s tr,
  run (mcast t0 want Es) (init (mcast t0 want Es)) acts = Some (s, tr) ->
  forall i E, nth_error Es i = Some E -> conserves E ->
  exists sE acts_i tr_i, mcast_has t0 Es want s i E sE /\ run E (init E) acts_i = Some (sE, tr_i) /\
    puts tr_i = filter (want i) (puts tr) /\
    Permutation (filter (want i) (puts tr)) (fwds tr_i ++ drops tr_i ++ held E sE) /\ sublist (fwds tr_i) (fwds tr).
Proof.
  intros acts s tr H i E Hn CE. destruct (mcast_has_total t0 Es want s i E Hn) as [sE Hh].
  destruct (mcast_conserves_per_output t0 _ _ _ _ _ _ Hh CE _ _ H) as (acts_i & tr_i & R & P & C & Fw).
  exists sE, acts_i, tr_i. auto.
Qed.
