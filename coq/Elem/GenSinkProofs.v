(* Proofs about Elem/GenSink.v: the generator law and the sink's books. *)
From Coq Require Import ZArith QArith List Bool Lia Lqa.
From ONL Require Import Base.Tools Elem.Packet Elem.GenSink.
Import ListNotations.

(* ---------------------------------------------------------------------------------------------- *)
(* generator *)

Definition tev := (Q * gaction * list gout)%type.

Definition emissions (tr : list tev) : list (Q * gout) :=
  flat_map (fun e => match e with (t, _, outs) => map (pair t) outs end) tr.

Definition adraws (tr : list tev) : list Q :=
  flat_map (fun e => match e with
                     | (_, GInitFire (Some a), _) => [a]
                     | (_, GFire _ (Some a), _) => [a]
                     | _ => []
                     end) tr.

Definition sdraws (tr : list tev) : list Z :=
  flat_map (fun e => match e with (_, GFire s _, _) => [s] | _ => [] end) tr.

Lemma emissions_cons t x outs tr : emissions ((t, x, outs) :: tr) = map (pair t) outs ++ emissions tr.
Proof. reflexivity. Qed.
Lemma adraws_cons t x outs tr :
  adraws ((t, x, outs) :: tr) =
  match x with GInitFire (Some a) => [a] | GFire _ (Some a) => [a] | _ => [] end ++ adraws tr.
Proof. destruct x as [|[a|]|s [a|]|]; reflexivity. Qed.
Lemma sdraws_cons t x outs tr :
  sdraws ((t, x, outs) :: tr) = match x with GFire s _ => [s] | _ => [] end ++ sdraws tr.
Proof. destruct x; reflexivity. Qed.

(* the law: packet n+1 (ids 1,2,...) leaves at T with the drawn size, creation time T; the next one
   leaves a later, a being the next inter-arrival draw *)
Fixpoint spec (flow : Z) (T : Q) (n : Z) (ss : list Z) (aa : list Q) : list (Q * gout) :=
  match ss with
  | [] => []
  | s :: ss' =>
      (T, ((n + 1)%Z, s, T, flow)) ::
      match aa with
      | a :: aa' => spec flow (T + a) (n + 1) ss' aa'
      | [] => []
      end
  end.

Definition em_equiv (x y : Q * gout) : Prop :=
  match x, y with
  | (t, (i, s, c, f)), (t', (i', s', c', f')) => t == t' /\ i = i' /\ s = s' /\ c == c' /\ f = f'
  end.

Lemma spec_equiv flow : forall ss aa T T' n, T == T' ->
  Forall2 em_equiv (spec flow T n ss aa) (spec flow T' n ss aa).
Proof.
  induction ss as [|s ss IH]; intros aa T T' n H; cbn [spec]; [constructor|].
  constructor.
  - cbn. repeat split; auto.
  - destruct aa as [|a aa]; [constructor|]. apply IH. rewrite H. reflexivity.
Qed.

Lemma Forall2_em_refl l : Forall2 em_equiv l l.
Proof.
  induction l as [|[t [[[i s] c] f]] l IH]; constructor; auto.
  cbn. repeat split; reflexivity.
Qed.

Lemma em_equiv_trans x y z : em_equiv x y -> em_equiv y z -> em_equiv x z.
Proof.
  destruct x as [t [[[i s] c] f]], y as [t' [[[i' s'] c'] f']], z as [t'' [[[i'' s''] c''] f'']].
  cbn. intros (A & B & C & D & E) (A' & B' & C' & D' & E'). repeat split; try congruence.
  - rewrite A; exact A'.
  - rewrite D; exact D'.
Qed.

Lemma Forall2_trans_em l1 : forall l2 l3,
  Forall2 em_equiv l1 l2 -> Forall2 em_equiv l2 l3 -> Forall2 em_equiv l1 l3.
Proof.
  induction l1 as [|x l1 IH]; intros l2 l3 H12 H23; inversion H12; subst; inversion H23; subst; constructor.
  - eapply em_equiv_trans; eauto.
  - eapply IH; eauto.
Qed.

(* what the rest of an execution emits, as a function of the generator's phase *)
Definition from_phase (c : gcfg) (g : gen) (tr : list tev) : Prop :=
  match gph g with
  | GNotStarted =>
      match adraws tr with
      | [] => emissions tr = []
      | a :: aa => Forall2 em_equiv (emissions tr) (spec (g_flow c) (gnow g + g_init c + a) (gsent g) (sdraws tr) aa)
      end
  | GInitWait dl =>
      match adraws tr with
      | [] => emissions tr = []
      | a :: aa => Forall2 em_equiv (emissions tr) (spec (g_flow c) (dl + a) (gsent g) (sdraws tr) aa)
      end
  | GWait dl => Forall2 em_equiv (emissions tr) (spec (g_flow c) dl (gsent g) (sdraws tr) (adraws tr))
  | GDone => emissions tr = [] /\ adraws tr = [] /\ sdraws tr = []
  end.

Lemma loop_head_inv c g a g' : loop_head c g a = Some g' ->
  gnow g' = gnow g /\ gsent g' = gsent g /\
  ((exists d, a = Some d /\ gph g' = GWait (gnow g + d) /\ before_finish c (gnow g) = true) \/
   (a = None /\ gph g' = GDone /\ before_finish c (gnow g) = false)).
Proof.
  unfold loop_head. destruct (before_finish c (gnow g)).
  - destruct a as [d|]; [|discriminate]. destruct (Qle_bool 0 d); [|discriminate].
    intros H; injection H as <-. cbn. repeat split; auto. left; exists d; auto.
  - destruct a as [d|]; [discriminate|]. intros H; injection H as <-. cbn. repeat split; auto.
Qed.

Lemma gen_run_from c : forall acts g g' tr, gen_run c g acts = Some (g', tr) -> from_phase c g tr.
Proof.
  induction acts as [|x acts IH]; intros g g' tr H; cbn [gen_run] in H.
  - injection H as <- <-. unfold from_phase. destruct (gph g); cbn; auto; constructor.
  - destruct (gen_act c g x) as [[g1 outs]|] eqn:Ea; [|discriminate].
    destruct (gen_run c g1 acts) as [[g2 tr1]|] eqn:Er; [|discriminate].
    injection H as <- <-. specialize (IH _ _ _ Er).
    unfold gen_act in Ea.
    destruct x as [|a|s a|t].
    + (* GStart *)
      destruct (gph g) eqn:Ep; try discriminate.
      destruct (Qle_bool 0 (g_init c)); [|discriminate]. injection Ea as <- <-.
      unfold from_phase in *. rewrite Ep. cbn [gph gnow gsent] in IH.
      rewrite emissions_cons, adraws_cons, sdraws_cons; cbn [app map]. exact IH.
    + (* GInitFire *)
      destruct (gph g) eqn:Ep; try discriminate.
      destruct (Qeq_bool dl (gnow g)) eqn:Eq; [|discriminate].
      destruct (loop_head c g a) as [g1'|] eqn:El; [|discriminate]. injection Ea as <- <-.
      apply Qeq_bool_eq in Eq.
      apply loop_head_inv in El as (Hn & Hs & [(d & -> & Hp & _)|(-> & Hp & _)]).
      * unfold from_phase in *. rewrite Ep. rewrite Hp in IH. rewrite Hs in IH.
        rewrite emissions_cons, adraws_cons, sdraws_cons; cbn [app map].
        eapply Forall2_trans_em; [exact IH|]. apply spec_equiv. rewrite Eq. reflexivity.
      * unfold from_phase in *. rewrite Ep. rewrite Hp in IH. destruct IH as (He & Ha & Hd).
        rewrite emissions_cons, adraws_cons, sdraws_cons; cbn [app map]. rewrite Ha. exact He.
    + (* GFire *)
      destruct (gph g) eqn:Ep; try discriminate.
      destruct (Qeq_bool dl (gnow g)) eqn:Eq; [|discriminate].
      destruct (loop_head c _ a) as [g1'|] eqn:El; [|discriminate]. injection Ea as <- <-.
      apply Qeq_bool_eq in Eq.
      apply loop_head_inv in El as (Hn & Hs & [(d & -> & Hp & _)|(-> & Hp & _)]); cbn [gnow gsent] in *.
      * unfold from_phase in *. rewrite Ep. rewrite Hp, Hs in IH.
        rewrite emissions_cons, adraws_cons, sdraws_cons; cbn [app map spec]. rewrite Hn.
        constructor.
        -- cbn. repeat split; auto; rewrite Eq; reflexivity.
        -- eapply Forall2_trans_em; [exact IH|]. apply spec_equiv. rewrite Eq. reflexivity.
      * unfold from_phase in *. rewrite Ep. rewrite Hp in IH. destruct IH as (He & Ha & Hd).
        rewrite emissions_cons, adraws_cons, sdraws_cons; cbn [app map spec]. rewrite Hn, He, Ha. cbn [app spec].
        constructor; [|constructor]. cbn. repeat split; auto; rewrite Eq; reflexivity.
    + (* GAdvance: the phase and the counter are unchanged, nothing is emitted or drawn *)
      destruct (Qlt_le_dec (gnow g) t); [|discriminate].
      assert (K : gph g1 = gph g /\ gsent g1 = gsent g /\ outs = [] /\
                  (gph g = GNotStarted -> False)).
      { destruct (gph g) eqn:Ep; try discriminate.
        - destruct (Qeq_bool dl (gnow g)); [discriminate|]. destruct (Qle_bool t dl); [|discriminate].
          injection Ea as <- <-. cbn. repeat split; auto; discriminate.
        - destruct (Qeq_bool dl (gnow g)); [discriminate|]. destruct (Qle_bool t dl); [|discriminate].
          injection Ea as <- <-. cbn. repeat split; auto; discriminate.
        - injection Ea as <- <-. cbn. repeat split; auto; discriminate. }
      destruct K as (Kp & Ks & -> & Kn).
      unfold from_phase in *. rewrite Kp, Ks in IH.
      rewrite emissions_cons, adraws_cons, sdraws_cons; cbn [app map].
      destruct (gph g); [exfalso; auto| | |]; exact IH.
Qed.

(* closed form of the law: the k-th emission (0-based) of [spec] *)
Fixpoint qsum (l : list Q) : Q := match l with [] => 0 | x :: t => x + qsum t end.

Lemma spec_nth flow : forall ss aa T n k t i s c f,
  nth_error (spec flow T n ss aa) k = Some (t, (i, s, c, f)) ->
  t == T + qsum (firstn k aa) /\ c == t /\ i = (n + Z.of_nat k + 1)%Z /\ nth_error ss k = Some s /\ f = flow.
Proof.
  induction ss as [|s0 ss IH]; intros aa T n k t i s c f H; cbn [spec] in H.
  - destruct k; discriminate.
  - destruct k as [|k]; cbn [nth_error] in H.
    + injection H as <- <- <- <- <-. cbn [firstn qsum nth_error]. repeat split; try reflexivity; try lia. ring.
    + destruct aa as [|a aa]; [destruct k; discriminate|].
      apply IH in H as (Ht & Hc & Hi & Hs & Hf). cbn [firstn qsum nth_error].
      repeat split; auto; [rewrite Ht; ring|lia].
Qed.

Theorem generator_law c t0 acts g tr :
  gen_run c (gen0 t0) acts = Some (g, tr) ->
  match adraws tr with
  | [] => emissions tr = []
  | a :: aa => Forall2 em_equiv (emissions tr) (spec (g_flow c) (t0 + g_init c + a) 0 (sdraws tr) aa)
  end.
Proof. intros H. apply gen_run_from in H. exact H. Qed.

(* packet number k+1 is emitted at initial_delay + (a_0 + ... + a_k) with the k-th drawn size and id k+1 *)
Corollary generator_law_nth c t0 acts g tr k t i s ct f :
  gen_run c (gen0 t0) acts = Some (g, tr) ->
  nth_error (emissions tr) k = Some (t, (i, s, ct, f)) ->
  t == t0 + g_init c + qsum (firstn (S k) (adraws tr)) /\ ct == t /\ i = (Z.of_nat k + 1)%Z /\
  nth_error (sdraws tr) k = Some s /\ f = g_flow c.
Proof.
  intros H Hk. apply generator_law in H.
  destruct (adraws tr) as [|a aa].
  - rewrite H in Hk. destruct k; discriminate.
  - assert (exists y, nth_error (spec (g_flow c) (t0 + g_init c + a) 0 (sdraws tr) aa) k = Some y /\ em_equiv (t, (i, s, ct, f)) y)
      as (y & Hy & He).
    { clear -H Hk. revert k Hk. induction H as [|x y l l' Hxy Hl IH]; intros k Hk.
      - destruct k; discriminate.
      - destruct k; cbn [nth_error] in *; [injection Hk as ->; eauto|eauto]. }
    destruct y as [t' [[[i' s'] c'] f']]. cbn in He. destruct He as (A & -> & -> & D & ->).
    apply spec_nth in Hy as (Ht & Hc & Hi & Hs & Hf).
    cbn [firstn qsum]. split; [rewrite A, Ht; ring|]. split; [rewrite D, Hc, A; reflexivity|].
    split; [lia|]. split; auto.
Qed.

(* a further inter-arrival draw is made exactly while the clock is before `finish` *)
Lemma gen_draw_iff c : forall acts g g' tr, gen_run c g acts = Some (g', tr) ->
  Forall (fun e => match e with
                   | (t, GInitFire a, _) | (t, GFire _ a, _) => (a <> None <-> before_finish c t = true)
                   | _ => True
                   end) tr.
Proof.
  induction acts as [|x acts IH]; intros g g' tr H; cbn [gen_run] in H.
  - injection H as <- <-. constructor.
  - destruct (gen_act c g x) as [[g1 outs]|] eqn:Ea; [|discriminate].
    destruct (gen_run c g1 acts) as [[g2 tr1]|] eqn:Er; [|discriminate].
    injection H as <- <-. constructor; [|eapply IH; eauto].
    (* both firing actions end in loop_head, which draws exactly when the clock is before `finish` *)
    unfold gen_act in Ea. destruct x as [|a|s a|t]; auto;
      (destruct (gph g); try discriminate; destruct (Qeq_bool dl (gnow g)); [|discriminate];
       destruct (loop_head c _ a) as [g1'|] eqn:El; [|discriminate]; injection Ea as <- <-;
       apply loop_head_inv in El as (Hn & _ & [(d & -> & _ & Hb)|(-> & _ & Hb)]); cbn [gnow] in *; rewrite Hn, Hb; split; congruence).
Qed.

Example generator_example :
  exists g tr, gen_run {| g_init := 1; g_finish := Some 4; g_flow := 7 |} (gen0 0)
    [GStart; GAdvance 1; GInitFire (Some (1#2)); GAdvance (3#2); GFire 100 (Some 3); GAdvance (9#2); GFire 200 None] = Some (g, tr)
    /\ emissions tr = [(3#2, (1, 100, 3#2, 7)%Z); (9#2, (2, 200, 9#2, 7)%Z)].
Proof. apply run_facts. vm_compute. reflexivity. Qed.

(* ---------------------------------------------------------------------------------------------- *)
(* sink *)

Definition dkey (d : deliv) : Z := match d with (k, _, _, _) => k end.
Definition dsize (d : deliv) : Z := match d with (_, s, _, _) => s end.
Definition dptime (d : deliv) : Q := match d with (_, _, p, _) => p end.
Definition dnow (d : deliv) : Q := match d with (_, _, _, n) => n end.

Definition of_key (k : Z) (ds : list deliv) : list deliv := filter (fun d => Z.eqb (dkey d) k) ds.

Definition put1 (c : scfg) (r : krec) (d : deliv) : krec := sink_put_rec c r (dsize d) (dptime d) (dnow d).

Lemma lookup_upd_same k f m : lookup k (upd k f m) = f (lookup k m).
Proof.
  induction m as [|[k' r] m IH]; cbn [upd lookup].
  - rewrite Z.eqb_refl. reflexivity.
  - destruct (Z.eqb k k') eqn:E; cbn [lookup]; rewrite E; auto.
Qed.

Lemma lookup_upd_other k k' f m : k <> k' -> lookup k (upd k' f m) = lookup k m.
Proof.
  intros Hne. induction m as [|[k'' r] m IH]; cbn [upd lookup].
  - destruct (Z.eqb k k') eqn:E; [apply Z.eqb_eq in E; contradiction|reflexivity].
  - destruct (Z.eqb k' k'') eqn:E; cbn [lookup].
    + apply Z.eqb_eq in E. subst k''. destruct (Z.eqb k k') eqn:E2; [apply Z.eqb_eq in E2; contradiction|reflexivity].
    + destruct (Z.eqb k k''); auto.
Qed.

(* the books of key k depend only on the deliveries with key k, in their order *)
Lemma sink_key_separation c k : forall ds m,
  lookup k (fold_left (sink_put c) ds m) = fold_left (put1 c) (of_key k ds) (lookup k m).
Proof.
  induction ds as [|d ds IH]; intros m; cbn [fold_left of_key filter]; [reflexivity|].
  rewrite IH. destruct d as [[[k' s] p] n]. unfold sink_put. cbn [dkey].
  destruct (Z.eqb k' k) eqn:E.
  - apply Z.eqb_eq in E. subst k'. rewrite lookup_upd_same. reflexivity.
  - apply Z.eqb_neq in E. rewrite lookup_upd_other by congruence. reflexivity.
Qed.

(* closed forms for one key *)
Fixpoint zsum (l : list Z) : Z := match l with [] => 0%Z | x :: t => (x + zsum t)%Z end.
Fixpoint diffs (prev : Q) (l : list Q) : list Q :=
  match l with [] => [] | x :: t => (x - prev) :: diffs x t end.

Lemma last_cons (A : Type) (l : list A) : forall (x d : A), last (x :: l) d = last l x.
Proof.
  induction l as [|y l IH]; intros x d; [reflexivity|].
  change (last (x :: y :: l) d) with (last (y :: l) d). rewrite !IH. reflexivity.
Qed.

Lemma fold_put1 c : forall ds r,
  let r' := fold_left (put1 c) ds r in
  k_packets r' = (k_packets r + Z.of_nat (length ds))%Z /\
  k_bytes r' = (k_bytes r + zsum (map dsize ds))%Z /\
  (rec_waits c = true ->
     k_waits r' = k_waits r ++ map (fun d => dnow d - dptime d) ds /\
     k_sizes r' = k_sizes r ++ map dsize ds /\ k_times r' = k_times r ++ map dptime ds) /\
  (rec_waits c = false -> k_waits r' = k_waits r /\ k_sizes r' = k_sizes r /\ k_times r' = k_times r) /\
  (rec_arrivals c = true ->
     k_last r' = last (map dnow ds) (k_last r) /\
     (absolute_arrivals c = true -> k_arrivals r' = k_arrivals r ++ map dnow ds) /\
     (absolute_arrivals c = false -> k_arrivals r' = k_arrivals r ++ diffs (k_last r) (map dnow ds)) /\
     k_first r' = match k_arrivals r, ds with [], d :: _ => dnow d | _, _ => k_first r end) /\
  (rec_arrivals c = false -> k_arrivals r' = k_arrivals r /\ k_first r' = k_first r /\ k_last r' = k_last r).
Proof.
  induction ds as [|d ds IH]; intros r; cbn [fold_left].
  - cbn. rewrite !app_nil_r, Z.add_0_r. repeat split; auto; try lia. destruct (k_arrivals r); auto.
  - specialize (IH (put1 c r d)). cbv zeta in IH.
    destruct IH as (P & B & W & W' & A & A').
    set (r1 := put1 c r d) in *. set (r' := fold_left (put1 c) ds r1) in *.
    assert (P1 : k_packets r1 = (k_packets r + 1)%Z) by reflexivity.
    assert (B1 : k_bytes r1 = (k_bytes r + dsize d)%Z) by reflexivity.
    cbn [length map zsum].
    split; [rewrite P, P1; lia|]. split; [rewrite B, B1; lia|].
    split; [|split; [|split]].
    + intros Hw. destruct (W Hw) as (W1 & W2 & W3). unfold r1, put1, sink_put_rec in W1, W2, W3; cbn in W1, W2, W3.
      rewrite Hw in *. rewrite W1, W2, W3, <- !app_assoc. auto.
    + intros Hw. destruct (W' Hw) as (W1 & W2 & W3). unfold r1, put1, sink_put_rec in W1, W2, W3; cbn in W1, W2, W3.
      rewrite Hw in *. auto.
    + intros Ha. destruct (A Ha) as (L & Ab & Ad & F).
      unfold r1, put1, sink_put_rec in L, Ab, Ad, F; cbn in L, Ab, Ad, F. rewrite Ha in *.
      split; [|split; [|split]].
      * rewrite L. cbn [map]. rewrite last_cons. reflexivity.
      * intros Habs. rewrite Habs in *. rewrite (Ab eq_refl), <- app_assoc. reflexivity.
      * intros Habs. rewrite Habs in *. rewrite (Ad eq_refl), <- app_assoc. reflexivity.
      * rewrite F. destruct (k_arrivals r); cbn [app]; [destruct ds; reflexivity|destruct ds; reflexivity].
    + intros Ha. destruct (A' Ha) as (A1 & A2 & A3). unfold r1, put1, sink_put_rec in A1, A2, A3; cbn in A1, A2, A3.
      rewrite Ha in *. auto.
Qed.

(* PacketSink's books for key k are exactly those of the packets delivered with key k *)
Theorem sink_books c ds k :
  let r := lookup k (sink_run c ds) in
  let dk := of_key k ds in
  k_packets r = Z.of_nat (length dk) /\
  k_bytes r = zsum (map dsize dk) /\
  (rec_waits c = true -> k_waits r = map (fun d => dnow d - dptime d) dk /\ k_sizes r = map dsize dk /\ k_times r = map dptime dk) /\
  (rec_arrivals c = true ->
     (absolute_arrivals c = true -> k_arrivals r = map dnow dk) /\
     (absolute_arrivals c = false -> k_arrivals r = diffs 0 (map dnow dk)) /\
     k_first r = match dk with d :: _ => dnow d | [] => 0 end /\
     k_last r = last (map dnow dk) 0).
Proof.
  cbv zeta. unfold sink_run. rewrite sink_key_separation. cbn [lookup].
  destruct (fold_put1 c (of_key k ds) krec0) as (P & B & W & _ & A & _).
  cbn [krec0 k_packets k_bytes k_waits k_sizes k_times k_arrivals k_first k_last app] in *.
  split; [rewrite P; lia|]. split; [rewrite B; lia|]. split; [exact W|].
  intros Ha. destruct (A Ha) as (L & Ab & Ad & F). repeat split; auto.
Qed.

Example sink_example :
  let c := {| rec_arrivals := true; absolute_arrivals := false; rec_waits := true |} in
  let r := lookup 1 (sink_run c [(1%Z, 100%Z, 0, 2); (2%Z, 50%Z, 1, 3); (1%Z, 200%Z, 1, 5)]) in
  k_arrivals r = [2 - 0; 5 - 2] /\ k_packets r = 2%Z /\ k_bytes r = 300%Z.
Proof. cbv zeta. repeat split; reflexivity. Qed.
