(* The abstract composition theorem (Elem/Network.v, `network_conserves`) instantiated for linear pipelines of ANY length.

   An execution of `pipeline E [E1; ..; En]` is viewed stage by stage ([pviews]: what each stage was given, forwarded,
   dropped, holds -- read off the stage's own projected execution).  The views form a chain (stage i+1 was given exactly what
   stage i forwarded), each satisfies its element's conservation law, and the wiring "node i sends everything it forwards
   to node i+1, node 0 is injected into, node n delivers to the sink" satisfies the three hypotheses of network_conserves;
   its conclusion is the end-to-end conservation equation with the drops and the held packets of every stage summed. *)
From Coq Require Import ZArith QArith List Bool Permutation Lia Arith.
From ONL Require Import Elem.Packet Elem.Iface Elem.Network Elem.Compose.
Import ListNotations.
Local Close Scope Q_scope.

Record view := { v_puts : list pkt; v_fwds : list pkt; v_drops : list pkt; v_held : list pkt }.
Definition view_of (E : elem) (s : st E) (tr : list (tev (lab E))) : view :=
  {| v_puts := puts tr; v_fwds := fwds tr; v_drops := drops tr; v_held := held E s |}.
Definition v_ok (v : view) : Prop := Permutation (v_puts v) (v_fwds v ++ v_drops v ++ v_held v).
Fixpoint chained (vs : list view) : Prop :=
  match vs with
  | v :: ((w :: _) as r) => v_puts w = v_fwds v /\ chained r
  | _ => True
  end.
Definition dview : view := {| v_puts := []; v_fwds := []; v_drops := []; v_held := [] |}.

(* ---- any chain of conserving views is a network that satisfies the hypotheses of network_conserves ---------------- *)
Lemma sum_n_at n k (g : nat -> nat) : (forall j, j < n -> j <> k -> g j = 0) -> sum_n n g = if Nat.ltb k n then g k else 0.
Proof.
  intros H. induction n as [|n IH]; cbn [sum_n]; [reflexivity|]. rewrite IH by (intros; apply H; lia).
  destruct (Nat.ltb_spec k n), (Nat.ltb_spec k (S n)); try lia; [rewrite (H n) by lia; lia| |rewrite (H n) by lia; lia].
  replace k with n by lia. lia.
Qed.

Section ChainNet.
  Variable vs : list view.
  Let n := length vs.
  Definition nthv (i : nat) : view := nth i vs dview.
  Definition c_inp (i : nat) : list nat := uids (v_puts (nthv i)).
  Definition c_fwd (i : nat) : list nat := uids (v_fwds (nthv i)).
  Definition c_drp (i : nat) : list nat := uids (v_drops (nthv i)).
  Definition c_held (i : nat) : list nat := uids (v_held (nthv i)).
  Definition c_inj (i : nat) : list nat := if Nat.eqb i 0 then uids (v_puts (nthv 0)) else [].
  Definition c_tosink (i : nat) : list nat := if Nat.eqb (S i) (length vs) then uids (v_fwds (nthv i)) else [].
  Definition c_sent (i j : nat) : list nat := if Nat.eqb j (S i) && Nat.ltb j (length vs) then uids (v_fwds (nthv i)) else [].

  Hypothesis Hok : Forall v_ok vs.
  Hypothesis Hch : chained vs.

  Lemma chained_nth : forall i, S i < n -> v_puts (nthv (S i)) = v_fwds (nthv i).
  Proof.
    unfold n, nthv. clear Hok. revert Hch. induction vs as [|v r IH]; intros C i Hi; [cbn in Hi; lia|].
    destruct r as [|w r']; [cbn in Hi; lia|]. destruct C as [E C]. destruct i as [|i]; [exact E|].
    cbn [nth]. apply (IH C). cbn [length] in *. lia.
  Qed.

  Lemma c_elem_conserves : forall i u, i < n -> cnt u (c_inp i) = cnt u (c_fwd i) + cnt u (c_drp i) + cnt u (c_held i).
  Proof.
    intros i u Hi. unfold c_inp, c_fwd, c_drp, c_held. apply perm_cnt.
    rewrite Forall_forall in Hok. apply Hok. apply nth_In. exact Hi.
  Qed.
  Lemma c_sent_off i j : j <> S i -> c_sent i j = [].
  Proof. intros Hj. unfold c_sent. rewrite (proj2 (Nat.eqb_neq j (S i)) Hj). reflexivity. Qed.

  Lemma c_out_wiring : forall i u, i < n -> cnt u (c_fwd i) = sum_n n (fun j => cnt u (c_sent i j)) + cnt u (c_tosink i).
  Proof.
    intros i u Hi. rewrite (sum_n_at n (S i)) by (intros j _ Hj; rewrite c_sent_off by exact Hj; reflexivity).
    unfold c_sent, c_tosink, c_fwd. rewrite Nat.eqb_refl. fold n. destruct (Nat.ltb_spec (S i) n), (Nat.eqb_spec (S i) n); cbn [andb]; rewrite ?cnt_nil; lia.
  Qed.
  Lemma c_in_wiring : forall j u, j < n -> cnt u (c_inp j) = cnt u (c_inj j) + sum_n n (fun i => cnt u (c_sent i j)).
  Proof.
    intros j u Hj. rewrite (sum_n_at n (pred j)) by (intros i _ Hi; destruct j; [|rewrite c_sent_off by lia]; reflexivity).
    unfold c_inj, c_sent. destruct j as [|j]; cbn [pred Nat.eqb andb].
    - destruct (Nat.ltb 0 n); unfold c_inp; rewrite ?cnt_nil; lia.
    - rewrite Nat.eqb_refl. fold n. destruct (Nat.ltb_spec j n), (Nat.ltb_spec (S j) n); try lia.
      unfold c_inp, c_fwd. rewrite chained_nth by exact Hj. reflexivity.
  Qed.

  Theorem chain_network : forall u,
    sum_n n (fun j => cnt u (c_inj j)) =
    sum_n n (fun i => cnt u (c_tosink i)) + sum_n n (fun i => cnt u (c_drp i)) + sum_n n (fun i => cnt u (c_held i)).
  Proof. exact (network_conserves n c_inp c_fwd c_drp c_held c_inj c_tosink c_sent c_elem_conserves c_out_wiring c_in_wiring). Qed.

  (* ... which reads: what was put into the first stage = what the last stage forwarded + the drops and the held packets of
     every stage, per packet identity *)
  Corollary chain_network_read : 0 < n -> forall u,
    cnt u (uids (v_puts (nthv 0))) =
    cnt u (uids (v_fwds (nthv (pred n)))) + sum_n n (fun i => cnt u (c_drp i)) + sum_n n (fun i => cnt u (c_held i)).
  Proof.
    intros Hn u. pose proof (chain_network u) as H.
    assert (E1 : sum_n n (fun j => cnt u (c_inj j)) = cnt u (uids (v_puts (nthv 0)))).
    { rewrite (sum_n_at n 0) by (intros j _ Hj; unfold c_inj; rewrite (proj2 (Nat.eqb_neq j 0) Hj); reflexivity).
      destruct (Nat.ltb_spec 0 n); [reflexivity|lia]. }
    assert (E2 : sum_n n (fun i => cnt u (c_tosink i)) = cnt u (uids (v_fwds (nthv (pred n))))).
    { rewrite (sum_n_at n (pred n)) by (intros i _ Hi; unfold c_tosink; fold n; rewrite (proj2 (Nat.eqb_neq (S i) n)) by lia; reflexivity).
      unfold c_tosink. fold n. destruct (Nat.ltb_spec (pred n) n), (Nat.eqb_spec (S (pred n)) n); lia. }
    rewrite E1, E2 in H. exact H.
  Qed.
End ChainNet.

(* ---- the views of an execution of a pipeline ----------------------------------------------------------------------- *)
Fixpoint pviews (es : list elem) : forall E : elem, list (iact (lab (pipeline E es))) -> option (list view) :=
  match es with
  | [] => fun E acts =>
      match run E (init E) acts with
      | Some (s, tr) => Some [view_of E s tr]
      | None => None
      end
  | F :: r => fun E acts =>
      match run E (init E) (actsA E (pipeline F r) acts), pviews r F (actsB E (pipeline F r) (init E) acts) with
      | Some (s, tr), Some vs => Some (view_of E s tr :: vs)
      | _, _ => None
      end
  end.

Theorem pipeline_views : forall es E, conserves E -> Forall conserves es -> forall acts s tr,
  run (pipeline E es) (init (pipeline E es)) acts = Some (s, tr) ->
  exists vs, pviews es E acts = Some vs /\ length vs = S (length es) /\ Forall v_ok vs /\ chained vs /\
             v_puts (nthv vs 0) = puts tr /\ v_fwds (nthv vs (length es)) = fwds tr.
Proof.
  induction es as [|F r IH]; intros E CE Ces acts s tr H.
  - cbn [pipeline] in *. exists [view_of E s tr]. cbn [pviews]. rewrite H. repeat split; auto.
    constructor; [exact (CE _ _ _ H)|constructor].
  - inversion Ces as [|? ? CF Cr]; subst. cbn [pipeline] in H.
    destruct (series_projection_init E (pipeline F r) _ _ _ H) as (trA & trB & RA & RB & P1 & P2 & P3 & _).
    destruct (IH F CF Cr _ _ _ RB) as (vs & Ev & Hl & Hok & Hch & Hp & Hf).
    exists (view_of E (fst s) trA :: vs). cbn [pviews]. rewrite RA, Ev. repeat split.
    + cbn [length]. rewrite Hl. reflexivity.
    + constructor; [exact (CE _ _ _ RA)|exact Hok].
    + destruct vs as [|w vs']; [cbn in Hl; lia|]. cbn [chained]. split; [|exact Hch].
      unfold nthv in Hp. cbn [nth] in Hp. rewrite Hp. exact P2.
    + unfold nthv. cbn [nth view_of v_puts]. exact P1.
    + unfold nthv in *. cbn [length nth]. rewrite Hf. exact P3.
Qed.

(* the abstract theorem instantiated: for EVERY execution of EVERY finite pipeline of conserving elements *)
Theorem pipeline_network : forall es E, conserves E -> Forall conserves es -> forall acts s tr,
  run (pipeline E es) (init (pipeline E es)) acts = Some (s, tr) ->
  exists vs, pviews es E acts = Some vs /\ length vs = S (length es) /\
    let n := length vs in
    (forall i u, i < n -> cnt u (c_inp vs i) = cnt u (c_fwd vs i) + cnt u (c_drp vs i) + cnt u (c_held vs i)) /\
    (forall i u, i < n -> cnt u (c_fwd vs i) = sum_n n (fun j => cnt u (c_sent vs i j)) + cnt u (c_tosink vs i)) /\
    (forall j u, j < n -> cnt u (c_inp vs j) = cnt u (c_inj vs j) + sum_n n (fun i => cnt u (c_sent vs i j))) /\
    (forall u, cnt u (uids (puts tr)) =
               cnt u (uids (fwds tr)) + sum_n n (fun i => cnt u (c_drp vs i)) + sum_n n (fun i => cnt u (c_held vs i))).
Proof.
  intros es E CE Ces acts s tr H.
  destruct (pipeline_views es E CE Ces _ _ _ H) as (vs & Ev & Hl & Hok & Hch & Hp & Hf).
  exists vs. split; [exact Ev|]. split; [exact Hl|]. cbn zeta. repeat split.
  - apply c_elem_conserves; assumption.
  - apply c_out_wiring.
  - apply c_in_wiring; assumption.
  - intros u. rewrite <- Hp, <- Hf.
    replace (length es) with (pred (length vs)) by (rewrite Hl; reflexivity).
    apply chain_network_read; auto. rewrite Hl. lia.
Qed.
