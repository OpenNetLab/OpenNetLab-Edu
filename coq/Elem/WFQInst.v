(* The theorems of WFQServerProofs / WFQServerTrace / WFQProofs / VCProofs instantiated for WFQ and
   VirtualClock (Props/C08_WFQ.v, C12_WFQ.v, C14.v state them on the executable [wfq_run] / [vc_run]), WFQ's stamp and
   virtual time along the server's steps (wfq_stamp, wfq_vtime), with non-vacuity examples replayed from real
   runs of the implementation, and the refutation of the pinned WFQ.put (first-packet stamp).
   "Admissible execution over configured classes" = an action list accepted by [*_run] (every action
   enabled, nothing raises) whose puts are configured packets ([wadm] / [vadm]). *)
From Coq Require Import ZArith QArith Qminmax Qabs List Bool Lia Lqa Permutation.
From ONL Require Import Base.Tools Elem.Packet Elem.StoreQ Elem.StoreQProofs Elem.HeapList Elem.WFQServer Elem.WFQServerProofs
  Elem.WFQServerTrace Elem.WFQ Elem.WFQProofs Elem.VC Elem.VCProofs.
Import ListNotations.

(* Remark (independence of instances): a scheduler instance is one [srv] record; [act] reads and writes nothing
   else, so two instances in one simulation cannot influence each other in the model by construction.  Of the
   code this is checked by the two-instance cases of props/part_wfq.py (each instance replayed against its own
   copy of the model, plus the independence monitor). *)
Definition wcfg_ok (cfg : wcfg) : Prop :=
  0 < wrate cfg /\ forall c w, zlookup c (wweights cfg) = Some w -> (0 < w)%Z.
Definition vcfg_ok (cfg : vcfg) : Prop :=
  0 < vrate cfg /\ forall c v, zlookup c (vticks cfg) = Some v -> 0 < v.
Definition wadm (cfg : wcfg) (acts : list faction) : Prop := puts_conf (wconf cfg) acts.
Definition vadm (cfg : vcfg) (acts : list faction) : Prop := puts_conf (vconf cfg) acts.

Notation WS cfg := (wfq_stamper cfg).
Notation VS cfg := (vc_stamper cfg).

Section W.
  Variable cfg : wcfg.
  Hypothesis Hok : wcfg_ok cfg.
  Let rp : 0 < wrate cfg := proj1 Hok.
  Let wp := proj2 Hok.
  Let D := wfq_disc cfg rp wp.
  Notation R := (wreach cfg).

  Lemma wfq_run_reach acts s' tr : wadm cfg acts -> wfq_run cfg (wfq0 cfg) acts = Some (s', tr) -> R s'.
  Proof. intros C H. eapply run_reach; [apply reach0|exact C|exact H]. Qed.

  (* C08 *)
  Definition wfq_conserves := srv_conserves (WS cfg) (wrate cfg) wst0.
  Definition wfq_flow_fifo := srv_flow_fifo _ _ rp _ _ _ D.
  Definition wfq_drained := srv_drained_trace _ _ rp _ _ _ D.
  Definition wfq_never_raises := srv_never_raises _ _ rp _ _ _ D.
  (* C12 *)
  Definition wfq_work_conserving := srv_work_conserving _ _ rp _ _ _ D.
  Definition wfq_no_idle_backlog := srv_no_idle_backlog _ _ rp _ _ _ D.
  Definition wfq_back_to_back := srv_back_to_back _ _ rp _ _ _ D.
  Definition wfq_one_at_a_time := srv_one_at_a_time _ _ rp _ _ _ D.
  Definition wfq_tx_time := srv_tx_time _ _ rp _ _ _ D.
  Definition wfq_exactly_once := srv_exactly_once _ _ rp _ _ _ D.
  Definition wfq_counters := srv_counters (WS cfg) (wrate cfg) wst0 (wconf cfg).
  (* C14 *)
  Definition wfq_stamp_order_service := srv_stamp_order _ _ rp _ _ _ D.
  Definition wfq_store_distinct_keys := srv_store_distinct_keys _ _ rp _ _ _ D.
  Definition wfq_active := wfq_active_thm cfg rp wp.
  Definition wfq_reset := wfq_reset_thm cfg rp wp.

  Theorem wfq_stamp : wfix_first cfg = true -> forall s p,
    R s -> wconf cfg p ->
    exists s' w F,
      wfq_act cfg s (FPut p) = Ok (s', []) /\
      zlookup (wcls cfg p) (wweights cfg) = Some w /\
      F == Qmax (fin (stm s) (wcls cfg p)) (vtime (stm s')) + (inject_Z (psize p) * 8) / (wrate cfg * inject_Z w) /\
      fin (stm s') (wcls cfg p) == F /\
      (forall c, c <> wcls cfg p -> insys (WS cfg) s <> [] -> fin (stm s') c == fin (stm s) c) /\
      exists F', F' == F /\
        items (store s') = items (store s) ++ [(now s, {| istamp := F'; iseq := Datatypes.S (seq s); ipkt := p |})].
  Proof.
    intros Fix s p HR Hc. pose proof (wreach_J cfg rp wp s HR) as HJ. pose proof HJ as (C & ND & A & L & Rz).
    destruct (wfq_put cfg (now s) (stm s) p) as [[st' F]|] eqn:P; [|exfalso; eapply (WJ_put_ok cfg wp); eauto].
    unfold wfq_act, act. cbn [st_put wfq_stamper]. rewrite P.
    pose proof P as P'. unfold wfq_put in P'. fold (wcls cfg p) in P'.
    destruct (zlookup (wcls cfg p) (wweights cfg)) as [w|] eqn:Ew; [|discriminate].
    eexists _, w, F. split; [reflexivity|]. split; [reflexivity|].
    cbn [stm store items sq_put]. unfold pq_push, lpush.
    destruct (active (stm s)) as [|a t] eqn:Ea.
    - assert (El : insys (WS cfg) s = []) by (apply (WJ_active_nil cfg (stm s) _ HJ); exact Ea).
      destruct (Rz El) as (V0 & F0). rewrite Fix in P'. cbn [andb negb] in P'.
      apply Some_pair_inj in P' as [-> ->]. cbn [vtime fin]. unfold qupd. rewrite Z.eqb_refl.
      split.
      + rewrite Qred_correct. unfold wstamp_inc. rewrite (Qmax_zero _ (F0 (wcls cfg p))). rewrite (Qmax_zero 0); reflexivity.
      + split; [reflexivity|]. split; [intros c _ Hn; contradiction|].
        eexists. split; [apply Qred_correct|reflexivity].
    - destruct (update_vtime cfg (now s) (stm s)) as [v|] eqn:Ev; [|discriminate].
      cbn [andb] in P'. apply Some_pair_inj in P' as [-> ->]. cbn [vtime fin]. unfold qupd. rewrite Z.eqb_refl.
      split; [rewrite Qred_correct; reflexivity|]. split; [reflexivity|].
      split; [intros c Nc _; destruct (Z.eqb_spec c (wcls cfg p)); [contradiction|reflexivity]|].
      eexists. split; [apply Qred_correct|reflexivity].
  Qed.

  Theorem wfq_vtime s a s' o :
    R s -> (forall p, a = FPut p -> wconf cfg p) -> wfq_act cfg s a = Ok (s', o) ->
    match a with
    | FPut _ =>
        last_time (stm s') = now s /\
        (insys (WS cfg) s = [] -> vtime (stm s') == 0) /\
        (insys (WS cfg) s <> [] -> exists W, weight_sum (wweights cfg) (active (stm s)) = Some W /\ (0 < W)%Z /\
                              vtime (stm s') == vtime (stm s) + (now s - last_time (stm s)) / inject_Z W)
    | FChildEnd =>
        last_time (stm s') = now s /\
        exists W, weight_sum (wweights cfg) (active (stm s)) = Some W /\ (0 < W)%Z /\
          (insys (WS cfg) s' <> [] -> vtime (stm s') == vtime (stm s) + (now s - last_time (stm s)) / inject_Z W /\
                               forall c, fin (stm s') c == fin (stm s) c) /\
          (insys (WS cfg) s' = [] -> vtime (stm s') == 0 /\ forall c, fin (stm s') c == 0)
    | _ => stm s' = stm s
    end.
  Proof.
    intros HR Hc H. pose proof (wreach_J cfg rp wp s HR) as HJ.
    pose proof (step_held (WS cfg) (wrate cfg) _ _ _ _ H) as SH.
    destruct a; unfold wfq_act in H; step_inv H;
      cbn [now started store stm seq qcount qbytes nrecv chl with_store with_child with_now st_put st_done wfq_stamper] in *;
      try reflexivity.
    - (* FPut *)
      split; [eapply wfq_put_last; exact P|]. exact (wfq_put_vtime cfg wp _ _ _ _ _ _ HJ P).
    - (* FChildEnd *)
      split; [eapply wfq_done_last; exact Dn|].
      destruct SH as (e' & Ee & SI & _ & _). rewrite Ec in Ee. injection Ee as <-.
      eapply (wfq_done_vtime cfg wp); [|exact Dn]. eapply WJ_perm; [exact SI|exact HJ].
  Qed.

  Theorem wfq_last_time_le s : R s -> last_time (stm s) <= now s.
  Proof.
    induction 1 as [|s a s' o HR IH Hc H]; [cbn; lra|].
    pose proof (wfq_vtime s a s' o HR Hc H) as V.
    destruct a; try (rewrite V); try (destruct V as (-> & _));
      unfold wfq_act in H; act_inv H; cbn [now]; try lra; try assumption.
  Qed.
End W.

Section V.
  Variable cfg : vcfg.
  Hypothesis Hok : vcfg_ok cfg.
  Let rp : 0 < vrate cfg := proj1 Hok.
  Let D := vc_disc cfg (proj2 Hok).

  Definition vc_conserves := srv_conserves (VS cfg) (vrate cfg) vst0.
  Definition vc_flow_fifo := srv_flow_fifo _ _ rp _ _ _ D.
  Definition vc_drained := srv_drained_trace _ _ rp _ _ _ D.
  Definition vc_never_raises := srv_never_raises _ _ rp _ _ _ D.
  Definition vc_work_conserving := srv_work_conserving _ _ rp _ _ _ D.
  Definition vc_no_idle_backlog := srv_no_idle_backlog _ _ rp _ _ _ D.
  Definition vc_back_to_back := srv_back_to_back _ _ rp _ _ _ D.
  Definition vc_one_at_a_time := srv_one_at_a_time _ _ rp _ _ _ D.
  Definition vc_tx_time := srv_tx_time _ _ rp _ _ _ D.
  Definition vc_exactly_once := srv_exactly_once _ _ rp _ _ _ D.
  Definition vc_counters := srv_counters (VS cfg) (vrate cfg) vst0 (vconf cfg).
  Definition vc_store_distinct_keys := srv_store_distinct_keys _ _ rp _ _ _ D.
  Definition vc_stamp_order_service := srv_stamp_order _ _ rp _ _ _ D.
End V.

(* ---- non-vacuity: executions observed on the real code (corpus/C14), accepted by the models ------------ *)
Definition ex_wcfg : wcfg :=
  {| wrate := 1024 # 1; wweights := [(0, 1); (1, 1)]%Z; wf2c := f2c_of []; wfix_first := true |}.
Definition ex_p0 := mkp 0 1 0 1536 0.
Definition ex_p1 := mkp 1 2 1 96 0.
Definition ex_p2 := mkp 2 3 0 96 0.
Definition ex_wacts : list faction :=
  [FInit; FPut ex_p0; FPut ex_p1; FPut ex_p2; FStoreCb; FStoreCb; FStoreCb; FGetDone; FChildInit; FAdvance (3 # 4);
   FChildTimer; FChildEnd; FGetDone; FChildInit; FAdvance (51 # 4); FChildTimer; FChildEnd; FGetDone; FChildInit;
   FAdvance (27 # 2); FChildTimer; FChildEnd].

Lemma ex_wcfg_ok : wcfg_ok ex_wcfg.
Proof.
  split; [reflexivity|]. intros c w H. cbn in H.
  destruct (Z.eqb c 0); [injection H as <-; lia|]. destruct (Z.eqb c 1); [injection H as <-; lia|discriminate].
Qed.

Lemma ex_wadm : wadm ex_wcfg ex_wacts.
Proof. apply (puts_conf_check _ (wconf_b ex_wcfg)); [apply wconf_b_ok|reflexivity]. Qed.

(* class 1's small packet (stamp 3/4) is served before class 0's big first packet (stamp 12); the second
   packet of class 0 (stamp 12 + 3/4) last; the run ends drained *)
Example wfq_example :
  exists s' tr, wfq_run ex_wcfg (wfq0 ex_wcfg) ex_wacts = Some (s', tr) /\
                fwds (WS ex_wcfg) tr = [ex_p1; ex_p0; ex_p2] /\ urgent s' = false /\ chl s' = CNone /\
                Qeq_bool (fin (stm s') 0%Z) 0 = true /\ Qeq_bool (vtime (stm s')) 0 = true.
Proof. apply run_facts. vm_compute. repeat split. Qed.

Definition ex_vcfg : vcfg := {| vrate := 1024 # 1; vticks := [(0%Z, 1%Q); (1%Z, 1%Q); (2%Z, 1%Q); (3%Z, 1%Q)]; vf2c := f2c_of [] |}.
Definition ex_q (i : nat) := mkp i (Z.of_nat i + 1) (Z.of_nat i) 384 0.
Definition ex_vacts : list faction :=
  [FInit; FPut (ex_q 0); FPut (ex_q 1); FPut (ex_q 2); FPut (ex_q 3); FStoreCb; FStoreCb; FStoreCb; FStoreCb;
   FGetDone; FChildInit; FAdvance 3; FChildTimer; FChildEnd; FGetDone; FChildInit; FAdvance 6; FChildTimer; FChildEnd;
   FGetDone; FChildInit; FAdvance 9; FChildTimer; FChildEnd; FGetDone; FChildInit; FAdvance 12; FChildTimer; FChildEnd].

Lemma ex_vcfg_ok : vcfg_ok ex_vcfg.
Proof.
  split; [reflexivity|]. intros c v H. cbn in H.
  repeat (match type of H with (if ?b then _ else _) = _ => destruct b; [injection H as <-; reflexivity|] end). discriminate.
Qed.

Lemma ex_vadm : vadm ex_vcfg ex_vacts.
Proof. apply (puts_conf_check _ (vconf_b ex_vcfg)); [apply vconf_b_ok|reflexivity]. Qed.

(* four equal stamps at one instant leave in arrival order (the pinned heap order was 0,2,1,3) *)
Example vc_example :
  exists s' tr, vc_run ex_vcfg (vc0 ex_vcfg) ex_vacts = Some (s', tr) /\
                fwds (VS ex_vcfg) tr = [ex_q 0; ex_q 1; ex_q 2; ex_q 3] /\ urgent s' = false /\ chl s' = CNone.
Proof. apply run_facts. vm_compute. repeat split. Qed.

(* ---- the pinned WFQ.put (before fix d1c8660) refutes wfq_stamp -------------------------------------------- *)
Definition ex_wcfg_unfixed : wcfg :=
  {| wrate := 1024 # 1; wweights := [(0, 1); (1, 1)]%Z; wf2c := f2c_of []; wfix_first := false |}.

Lemma wfq_stamp_refuted_unfixed :
  exists cfg p s' w,
    wcfg_ok cfg /\ wconf cfg p /\ wfix_first cfg = false /\
    wfq_act cfg (wfq0 cfg) (FPut p) = Ok (s', []) /\ zlookup (wcls cfg p) (wweights cfg) = Some w /\
    ~ fin (stm s') (wcls cfg p) ==
      Qmax (fin (stm (wfq0 cfg)) (wcls cfg p)) (vtime (stm s')) + (inject_Z (psize p) * 8) / (wrate cfg * inject_Z w).
Proof.
  exists ex_wcfg_unfixed, ex_p0. eexists _, 1%Z. split; [exact ex_wcfg_ok|].
  split; [split; [cbn; discriminate|cbn; lia]|]. split; [reflexivity|]. split; [reflexivity|]. split; [reflexivity|].
  vm_compute. discriminate.
Qed.
