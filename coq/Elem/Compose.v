(* Composition of interface elements (Elem/Iface.v): SERIES `A >> B` and linear pipelines (parallel composition and fan-in:
   Elem/ComposePar.v).

   series A B: the state is the pair of states (each carries its clock; Advance must be admissible for both); an action
   is a put into A, an internal step of A, an internal step of B or an Advance.  Every `EForward p` emitted by A is fed
   to B's put INSIDE the same action, in order (that is what `self.out.put(packet)` does in the code: a synchronous
   call); the composite shows it as the hand-over `EHand (width A - 1) p`.  B's forwards are the composite's forwards;
   A's drops and B's drops are the composite's drops.  A put that B refuses (not admissible) makes the whole action
   inadmissible.  Executable; the projection and the compositional C08 laws are proved here. *)
From Coq Require Import ZArith QArith Qminmax List Bool Permutation Lia Arith.
From ONL Require Import Elem.Packet Elem.Iface Elem.Network.
Import ListNotations.

Definition omin (a b : option Q) : option Q :=
  match a, b with
  | Some x, Some y => Some (if Qle_bool x y then x else y)
  | Some x, None => Some x
  | None, y => y
  end.

Lemma omin_none a b : omin a b = None -> a = None /\ b = None.
Proof. destruct a, b; cbn; intros; try discriminate; auto. Qed.

Lemma omin_le a b t : (forall d, a = Some d -> t <= d) -> (forall d, b = Some d -> t <= d) ->
  forall d, omin a b = Some d -> t <= d.
Proof.
  intros Ha Hb d. destruct a as [x|], b as [y|]; cbn; intros E; try discriminate; injection E as <-; auto.
  destruct (Qle_bool x y); auto.
Qed.

Lemma pair_advance_timed A B : timed A -> timed B -> forall t sA sB sA' sB',
  advance A t sA = Some sA' -> advance B t sB = Some sB' ->
  now A sA' = t /\ now A sA < t /\ urgent A sA || urgent B sB = false /\
  forall d, omin (deadline A sA) (deadline B sB) = Some d -> t <= d.
Proof.
  intros (_ & _ & AA) (_ & _ & AB) t sA sB sA' sB' EA EB.
  destruct (AA _ _ _ EA) as (N & L & -> & DA). destruct (AB _ _ _ EB) as (_ & _ & -> & DB).
  repeat split; auto. apply omin_le; assumption.
Qed.

Section Series.
  Variables A B : elem.

  (* B's stage numbers come after A's *)
  Definition shift (o : eout) : eout := match o with EHand k p => EHand (width A + k) p | _ => o end.

  (* hand A's outputs over to B, in order *)
  Fixpoint feed (outs : list eout) (sB : st B) : option (st B * list eout) :=
    match outs with
    | [] => Some (sB, [])
    | EForward p :: r =>
        match put B p sB with
        | None => None
        | Some (s1, o1) =>
            match feed r s1 with
            | None => None
            | Some (s2, o2) => Some (s2, EHand (pred (width A)) p :: map shift o1 ++ o2)
            end
        end
    | o :: r =>
        match feed r sB with
        | None => None
        | Some (s2, o2) => Some (s2, o :: o2)
        end
    end.

  Definition via (s : st A * st B) (r : option (st A * list eout)) : option ((st A * st B) * list eout) :=
    match r with
    | None => None
    | Some (a', o) =>
        match feed o (snd s) with
        | None => None
        | Some (b', o') => Some ((a', b'), o')
        end
    end.

  Definition series : elem := {|
    st := (st A * st B)%type;
    lab := (lab A + lab B)%type;
    init := (init A, init B);
    now := fun s => now A (fst s);
    put := fun p s => via s (put A p (fst s));
    step := fun l s =>
      match l with
      | inl x => via s (step A x (fst s))
      | inr y => match step B y (snd s) with
                 | None => None
                 | Some (b', o) => Some ((fst s, b'), map shift o)
                 end
      end;
    advance := fun t s =>
      match advance A t (fst s), advance B t (snd s) with
      | Some a', Some b' => Some (a', b')
      | _, _ => None
      end;
    urgent := fun s => urgent A (fst s) || urgent B (snd s);
    deadline := fun s => omin (deadline A (fst s)) (deadline B (snd s));
    held := fun s => held A (fst s) ++ held B (snd s);
    accepts := fun p => accepts A p && accepts B p;
    width := width A + width B
  |}.

  (* ---- what each side sees of a composite execution ------------------------------------------------------- *)
  Definition actA (a : iact (lab series)) : list (iact (lab A)) :=
    match a with
    | IPut p => [IPut p]
    | IStep (inl x) => [IStep x]
    | IStep (inr _) => []
    | IAdv t => [IAdv t]
    end.
  Definition actsA (acts : list (iact (lab series))) : list (iact (lab A)) := flat_map actA acts.

  (* B's puts are what A forwards: they are read off A's own (deterministic) execution *)
  Fixpoint actsB (sA : st A) (acts : list (iact (lab series))) : list (iact (lab B)) :=
    match acts with
    | [] => []
    | IStep (inr y) :: r => IStep y :: actsB sA r
    | IAdv t :: r =>
        match advance A t sA with
        | Some sA' => IAdv t :: actsB sA' r
        | None => []
        end
    | IPut p :: r =>
        match put A p sA with
        | Some (sA', o) => map IPut (o_fwds o) ++ actsB sA' r
        | None => []
        end
    | IStep (inl x) :: r =>
        match step A x sA with
        | Some (sA', o) => map IPut (o_fwds o) ++ actsB sA' r
        | None => []
        end
    end.

  Lemma o_fwds_shift o : o_fwds (map shift o) = o_fwds o.
  Proof. unfold o_fwds. induction o as [|x o IH]; cbn; [reflexivity|]. destruct x; cbn; rewrite IH; reflexivity. Qed.
  Lemma o_drops_shift o : o_drops (map shift o) = o_drops o.
  Proof. unfold o_drops. induction o as [|x o IH]; cbn; [reflexivity|]. destruct x; cbn; rewrite IH; reflexivity. Qed.

  (* one hand-over: B executes exactly the puts of what A forwarded; B's forwards become the composite's forwards and
     the drops are A's and B's *)
  Lemma feed_spec : forall oA sB sB1 o,
    feed oA sB = Some (sB1, o) ->
    exists trB, run B sB (map IPut (o_fwds oA)) = Some (sB1, trB) /\
                puts trB = o_fwds oA /\ fwds trB = o_fwds o /\
                Permutation (o_drops o) (o_drops oA ++ drops trB).
  Proof.
    induction oA as [|x oA IH]; intros sB sB1 o H; cbn [feed] in H.
    - injection H as <- <-. exists []. cbn. repeat split; auto.
    - destruct x as [p|p|k p].
      + destruct (put B p sB) as [[s1 o1]|] eqn:Ep; [|discriminate].
        destruct (feed oA s1) as [[s2 o2]|] eqn:Ef; [|discriminate].
        injection H as <- <-. destruct (IH _ _ _ Ef) as (trB & R & P & F & D).
        exists ((now B s1, IPut p, o1) :: trB). rewrite o_fwds_cons. cbn [map app run act].
        rewrite Ep, R. rewrite puts_cons, fwds_cons, drops_cons, P, F.
        rewrite !o_fwds_cons, !o_drops_cons, o_fwds_app, o_drops_app, o_fwds_shift, o_drops_shift. cbn [app a_puts].
        repeat split.
        apply occ_perm. intros q. pose proof (perm_occ _ _ D q). rewrite !occ_app in *. lia.
      + destruct (feed oA sB) as [[s2 o2]|] eqn:Ef; [|discriminate].
        injection H as <- <-. destruct (IH _ _ _ Ef) as (trB & R & P & F & D).
        exists trB. rewrite !o_fwds_cons, !o_drops_cons. cbn [app]. repeat split; auto.
      + destruct (feed oA sB) as [[s2 o2]|] eqn:Ef; [|discriminate].
        injection H as <- <-. destruct (IH _ _ _ Ef) as (trB & R & P & F & D).
        exists trB. rewrite !o_fwds_cons, !o_drops_cons. cbn [app]. repeat split; auto.
  Qed.

  Lemma via_spec s r sA1 sB1 o :
    via s r = Some ((sA1, sB1), o) -> exists oA, r = Some (sA1, oA) /\ feed oA (snd s) = Some (sB1, o).
  Proof.
    unfold via. destruct r as [[a' oA]|]; [|discriminate].
    destruct (feed oA (snd s)) as [[b' o']|] eqn:Ef; [|discriminate].
    intros H. injection H as <- <- <-. exists oA. auto.
  Qed.

  (* PROJECTION: what A sees and what B sees of ANY composite execution are admissible executions of A alone and of B
     alone, ending in the component states; B was given exactly what A forwarded, in order; the composite forwards what
     B forwards; the composite's drops are A's and B's.  Hence every theorem about A's and B's executions holds inside
     the composition, whatever the other element does. *)
  Theorem series_projection : forall acts sA sB sA' sB' tr,
    run series (sA, sB) acts = Some ((sA', sB'), tr) ->
    exists trA trB,
      run A sA (actsA acts) = Some (sA', trA) /\ run B sB (actsB sA acts) = Some (sB', trB) /\
      puts trA = puts tr /\ puts trB = fwds trA /\ fwds trB = fwds tr /\
      Permutation (drops tr) (drops trA ++ drops trB).
  Proof.
    induction acts as [|a acts IH]; intros sA sB sA' sB' tr H.
    - cbn in H. injection H as <- <- <-. exists [], []. cbn. repeat split; auto.
    - cbn [run] in H.
      destruct (act series (sA, sB) a) as [[[sA1 sB1] o]|] eqn:Ea; [|discriminate].
      destruct (run series (sA1, sB1) acts) as [[[sA2 sB2] tr1]|] eqn:Er; [|discriminate].
      injection H as <- <- <-.
      destruct (IH _ _ _ _ _ Er) as (trA1 & trB1 & RA & RB & P1 & P2 & P3 & P4).
      assert (Hfeed : forall rA, via (sA, sB) rA = Some ((sA1, sB1), o) ->
                forall a', act A sA a' = rA -> a_puts a' = a_puts a ->
                actsA (a :: acts) = a' :: actsA acts ->
                (forall oA, rA = Some (sA1, oA) -> actsB sA (a :: acts) = map IPut (o_fwds oA) ++ actsB sA1 acts) ->
                exists trA trB,
                  run A sA (actsA (a :: acts)) = Some (sA2, trA) /\ run B sB (actsB sA (a :: acts)) = Some (sB2, trB) /\
                  puts trA = puts ((now series (sA1, sB1), a, o) :: tr1) /\ puts trB = fwds trA /\
                  fwds trB = fwds ((now series (sA1, sB1), a, o) :: tr1) /\
                  Permutation (drops ((now series (sA1, sB1), a, o) :: tr1)) (drops trA ++ drops trB)).
      { intros rA Hv a' Ha' Hp HaA HaB. apply via_spec in Hv as (oA & -> & Ef). cbn [snd] in Ef.
        destruct (feed_spec _ _ _ _ Ef) as (trBf & Rf & Pf & Ff & Df).
        exists ((now A sA1, a', oA) :: trA1), (trBf ++ trB1).
        rewrite HaA, (HaB _ eq_refl). cbn [run]. rewrite Ha', RA. rewrite run_app, Rf, RB.
        rewrite !puts_cons, !fwds_cons, !drops_cons, puts_app, fwds_app, drops_app, P1, P2, P3, Pf, Ff, Hp.
        repeat split.
        apply occ_perm. intros q. pose proof (perm_occ _ _ Df q). pose proof (perm_occ _ _ P4 q). rewrite !occ_app in *. lia. }
      destruct a as [p|[x|y]|t].
      + cbn [act series put] in Ea. cbn [fst] in Ea.
        apply (Hfeed _ Ea (IPut p)); try reflexivity.
        intros oA E. cbn [actsB]. rewrite E. reflexivity.
      + cbn [act series step] in Ea. cbn [fst] in Ea.
        apply (Hfeed _ Ea (IStep x)); try reflexivity.
        intros oA E. cbn [actsB]. rewrite E. reflexivity.
      + cbn [act series step] in Ea. cbn [fst snd] in Ea.
        destruct (step B y sB) as [[b' oB]|] eqn:Es; [|discriminate].
        injection Ea as E1 E2 E3. subst sA1 b' o.
        exists trA1, ((now B sB1, IStep y, oB) :: trB1).
        cbn [actsA flat_map actA app actsB run act]. fold (actsA acts). rewrite Es, RA, RB.
        rewrite !puts_cons, !fwds_cons, !drops_cons, o_fwds_shift, o_drops_shift, P1, P2, P3. cbn [a_puts app].
        repeat split.
        apply occ_perm. intros q. pose proof (perm_occ _ _ P4 q). rewrite !occ_app in *. lia.
      + cbn [act series advance] in Ea. cbn [fst snd] in Ea.
        destruct (advance A t sA) as [a1|] eqn:EA; [|discriminate].
        destruct (advance B t sB) as [b1|] eqn:EB; [|discriminate].
        injection Ea as E1 E2 E3. subst a1 b1 o.
        exists ((now A sA1, IAdv t, []) :: trA1), ((now B sB1, IAdv t, []) :: trB1).
        cbn [actsA flat_map actA app actsB]. fold (actsA acts). rewrite EA. cbn [run act]. rewrite EA, EB, RA, RB.
        rewrite !puts_cons, !fwds_cons, !drops_cons, P1, P2, P3. cbn [a_puts app o_fwds o_drops flat_map].
        repeat split. exact P4.
  Qed.

  (* the same for executions from the initial state, with what was reached spelled out *)
  Corollary series_projection_init : forall acts s tr,
    run series (init series) acts = Some (s, tr) ->
    exists trA trB,
      run A (init A) (actsA acts) = Some (fst s, trA) /\ run B (init B) (actsB (init A) acts) = Some (snd s, trB) /\
      puts trA = puts tr /\ puts trB = fwds trA /\ fwds trB = fwds tr /\
      Permutation (drops tr) (drops trA ++ drops trB).
  Proof. intros acts [sA sB] tr H. exact (series_projection _ _ _ _ _ _ H). Qed.

  (* ---- the C08 laws, compositionally -------------------------------------------------------------------------- *)
  (* injected into A = forwarded by B ++ dropped by A ++ dropped by B ++ held by A ++ held by B *)
  Theorem compose_conserves : conserves A -> conserves B -> forall acts s tr,
    run series (init series) acts = Some (s, tr) ->
    exists trA trB,
      run A (init A) (actsA acts) = Some (fst s, trA) /\ run B (init B) (actsB (init A) acts) = Some (snd s, trB) /\
      puts trA = puts tr /\ puts trB = fwds trA /\ fwds trB = fwds tr /\
      Permutation (puts trA) (fwds trB ++ drops trA ++ drops trB ++ held A (fst s) ++ held B (snd s)).
  Proof.
    intros CA CB acts s tr H.
    destruct (series_projection_init _ _ _ H) as (trA & trB & RA & RB & P1 & P2 & P3 & P4).
    exists trA, trB. repeat split; auto.
    pose proof (CA _ _ _ RA) as HA. pose proof (CB _ _ _ RB) as HB. rewrite P2 in HB.
    apply occ_perm. intros q. pose proof (perm_occ _ _ HA q). pose proof (perm_occ _ _ HB q). rewrite !occ_app in *. lia.
  Qed.

  (* the composite is again an element that conserves packets *)
  Theorem series_conserves : conserves A -> conserves B -> conserves series.
  Proof.
    intros CA CB acts s tr H.
    destruct (series_projection_init _ _ _ H) as (trA & trB & RA & RB & P1 & P2 & P3 & P4).
    pose proof (CA _ _ _ RA) as HA. pose proof (CB _ _ _ RB) as HB. rewrite P1 in HA. rewrite P2 in HB. rewrite P3 in HB.
    apply occ_perm. intros q. pose proof (perm_occ _ _ HA q). pose proof (perm_occ _ _ HB q). pose proof (perm_occ _ _ P4 q).
    cbn [held series]. rewrite !occ_app in *. lia.
  Qed.

  (* per-flow order is preserved through the composition *)
  Theorem compose_flow_fifo f : flow_fifo A f -> flow_fifo B f -> flow_fifo series f.
  Proof.
    intros FA FB acts s tr H.
    destruct (series_projection_init _ _ _ H) as (trA & trB & RA & RB & P1 & P2 & P3 & _).
    pose proof (FA _ _ _ RA) as HA. pose proof (FB _ _ _ RB) as HB.
    rewrite P2 in HB. rewrite P3 in HB. rewrite P1 in HA. eapply sublist_trans; eassumption.
  Qed.

  (* when nothing of the composite is due and no deadline is pending, neither stage holds a packet *)
  Theorem compose_drained : conserves A -> drained A -> drained B -> drained series.
  Proof.
    intros CA DA DB acts s tr H Acc U Dl.
    destruct (series_projection_init _ _ _ H) as (trA & trB & RA & RB & P1 & P2 & P3 & _).
    cbn [urgent series] in U. apply orb_false_elim in U as [UA UB].
    cbn [deadline series] in Dl. apply omin_none in Dl as [DlA DlB].
    assert (AccA : Forall (fun p => accepts A p = true) (puts trA) /\ Forall (fun p => accepts B p = true) (puts trA)).
    { rewrite P1. split; eapply Forall_impl; try exact Acc; cbn; intros p Hp; apply andb_prop in Hp; tauto. }
    destruct AccA as [AccA AccAB].
    cbn [held series]. rewrite (DA _ _ _ RA AccA UA DlA). cbn [app].
    apply (DB _ _ _ RB); auto.
    rewrite P2. apply Forall_forall. intros p Hp.
    pose proof (conserves_fwd_in _ CA _ _ _ _ RA Hp) as Hin.
    rewrite Forall_forall in AccAB. auto.
  Qed.

  Theorem series_laws : laws A -> laws B -> laws series.
  Proof.
    intros [CA FA DA] [CB FB DB]. split.
    - apply series_conserves; assumption.
    - intros f. apply compose_flow_fifo; auto.
    - apply compose_drained; assumption.
  Qed.

  (* ---- the clock ------------------------------------------------------------------------------------------------ *)
  Lemma feed_now : timed B -> forall oA sB sB1 o, feed oA sB = Some (sB1, o) -> now B sB1 = now B sB.
  Proof.
    intros (TP & _ & _). induction oA as [|x oA IH]; intros sB sB1 o H; cbn [feed] in H.
    - injection H as <- _. reflexivity.
    - destruct x as [p|p|k p].
      + destruct (put B p sB) as [[s1 o1]|] eqn:Ep; [|discriminate].
        destruct (feed oA s1) as [[s2 o2]|] eqn:Ef; [|discriminate].
        injection H as <- _. rewrite (IH _ _ _ Ef). eapply TP; eauto.
      + destruct (feed oA sB) as [[s2 o2]|] eqn:Ef; [|discriminate]. injection H as <- _. eapply IH; eauto.
      + destruct (feed oA sB) as [[s2 o2]|] eqn:Ef; [|discriminate]. injection H as <- _. eapply IH; eauto.
  Qed.

  Theorem series_timed : timed A -> timed B -> timed series.
  Proof.
    intros TA TB. pose proof TA as (PA & SA & _). split; [|split].
    - intros p [sA sB] [sA1 sB1] o H. cbn [put series] in H. apply via_spec in H as (oA & E & _). cbn. eapply PA; eauto.
    - intros [x|y] [sA sB] [sA1 sB1] o H; cbn [step series] in H.
      + apply via_spec in H as (oA & E & _). cbn. eapply SA; eauto.
      + cbn [fst snd] in H. destruct (step B y sB) as [[b' oB]|]; [|discriminate]. injection H as <- _ _. reflexivity.
    - intros t [sA sB] s' H. cbn [advance series fst snd] in H.
      destruct (advance A t sA) as [a1|] eqn:EA; [|discriminate]. destruct (advance B t sB) as [b1|] eqn:EB; [|discriminate].
      injection H as <-. exact (pair_advance_timed A B TA TB _ _ _ _ _ EA EB).
  Qed.

  (* the two stages share the clock: started at the same instant they are at the same instant after every execution *)
  Theorem series_clock : timed A -> timed B -> forall acts sA sB sA' sB' tr,
    run series (sA, sB) acts = Some ((sA', sB'), tr) -> now A sA = now B sB -> now A sA' = now B sB'.
  Proof.
    intros TA TB. pose proof TA as (PA & SA & AA). pose proof TB as (PB & SB & AB).
    induction acts as [|a acts IH]; intros sA sB sA' sB' tr H E.
    - cbn in H. injection H as <- <- _. exact E.
    - cbn [run] in H. destruct (act series (sA, sB) a) as [[[sA1 sB1] o]|] eqn:Ea; [|discriminate].
      destruct (run series (sA1, sB1) acts) as [[[sA2 sB2] tr1]|] eqn:Er; [|discriminate].
      injection H as <- <- _. apply (IH _ _ _ _ _ Er).
      destruct a as [p|[x|y]|t]; cbn [act series put step advance fst snd] in Ea.
      + apply via_spec in Ea as (oA & E1 & E2). cbn [snd] in E2. rewrite (PA _ _ _ _ E1), (feed_now TB _ _ _ _ E2). exact E.
      + apply via_spec in Ea as (oA & E1 & E2). cbn [snd] in E2. rewrite (SA _ _ _ _ E1), (feed_now TB _ _ _ _ E2). exact E.
      + destruct (step B y sB) as [[b' oB]|] eqn:Es; [|discriminate]. injection Ea as <- <- _.
        rewrite (SB _ _ _ _ Es). exact E.
      + destruct (advance A t sA) as [a1|] eqn:EA; [|discriminate].
        destruct (advance B t sB) as [b1|] eqn:EB; [|discriminate]. injection Ea as <- <- _.
        destruct (AA _ _ _ EA) as (-> & _). destruct (AB _ _ _ EB) as (-> & _). reflexivity.
  Qed.
End Series.

Infix ">>" := series (at level 61, left associativity).
Local Close Scope Q_scope.

(* ---- linear pipelines of any length --------------------------------------------------------------------------- *)
Fixpoint pipeline (E : elem) (es : list elem) : elem :=
  match es with
  | [] => E
  | F :: r => series E (pipeline F r)
  end.

Lemma pipeline_lift (P : elem -> Prop) : (forall A B, P A -> P B -> P (A >> B)) ->
  forall es E, P E -> Forall P es -> P (pipeline E es).
Proof.
  intros HS. induction es as [|F r IH]; intros E LE Les; cbn [pipeline]; [exact LE|].
  inversion Les; subst. apply HS; [exact LE|]. apply IH; assumption.
Qed.

Theorem pipeline_laws : forall es E, laws E -> Forall laws es -> laws (pipeline E es).
Proof. exact (pipeline_lift laws series_laws). Qed.

Theorem pipeline_timed : forall es E, timed E -> Forall timed es -> timed (pipeline E es).
Proof. exact (pipeline_lift timed series_timed). Qed.

Lemma pipeline_width : forall es E, width (pipeline E es) = width E + fold_right (fun F n => width F + n) 0 es.
Proof. induction es as [|F r IH]; intros E; cbn [pipeline fold_right]; [lia|]. cbn [width series]. rewrite IH. lia. Qed.

(* ---- the abstract composition theorem (Elem/Network.v) instantiated: a series composition IS a wiring of two nodes
        (node 0 = A, node 1 = B; injection into A only; A sends everything it forwards to B; B delivers to the sink), its three
        hypotheses hold for every execution, and its conclusion is the conservation equation of the composite -------- *)
Definition uids (l : list pkt) : list nat := map uid l.

Lemma cnt_app u a b : cnt u (a ++ b) = cnt u a + cnt u b.
Proof. unfold cnt. apply count_occ_app. Qed.

Lemma perm_cnt u (l1 l2 l3 l4 : list pkt) :
  Permutation l1 (l2 ++ l3 ++ l4) -> cnt u (uids l1) = cnt u (uids l2) + cnt u (uids l3) + cnt u (uids l4).
Proof.
  intros H. apply (Permutation_map uid) in H. unfold uids. rewrite !map_app in H.
  unfold cnt. rewrite (proj1 (Permutation_count_occ Nat.eq_dec _ _) H u). rewrite !count_occ_app. lia.
Qed.

Section SeriesNet.
  Variables A B : elem.
  Variables (trA : list (tev (lab A))) (trB : list (tev (lab B))) (sA : st A) (sB : st B).

  Definition sel2 {X} (a b : X) (d : X) (i : nat) : X := match i with 0 => a | 1 => b | _ => d end.
  Definition n_inp := sel2 (uids (puts trA)) (uids (puts trB)) [].
  Definition n_fwd := sel2 (uids (fwds trA)) (uids (fwds trB)) [].
  Definition n_drp := sel2 (uids (drops trA)) (uids (drops trB)) [].
  Definition n_held := sel2 (uids (held A sA)) (uids (held B sB)) [].
  Definition n_inj := sel2 (uids (puts trA)) [] [].
  Definition n_tosink := sel2 [] (uids (fwds trB)) [].
  Definition n_sent (i j : nat) : list nat := match i, j with 0, 1 => uids (fwds trA) | _, _ => [] end.

  Hypothesis HA : Permutation (puts trA) (fwds trA ++ drops trA ++ held A sA).
  Hypothesis HB : Permutation (puts trB) (fwds trB ++ drops trB ++ held B sB).
  Hypothesis Hwire : puts trB = fwds trA.

  Lemma net_elem_conserves : forall i u, i < 2 ->
    cnt u (n_inp i) = cnt u (n_fwd i) + cnt u (n_drp i) + cnt u (n_held i).
  Proof.
    intros i u Hi. destruct i as [|[|i]]; [| |lia]; cbn [n_inp n_fwd n_drp n_held sel2]; apply perm_cnt; assumption.
  Qed.
  Lemma cnt_nil u : cnt u [] = 0.
  Proof. reflexivity. Qed.

  Lemma net_out_wiring : forall i u, i < 2 ->
    cnt u (n_fwd i) = sum_n 2 (fun j => cnt u (n_sent i j)) + cnt u (n_tosink i).
  Proof.
    intros i u Hi. destruct i as [|[|i]]; [| |lia]; cbn [n_fwd n_sent n_tosink sel2 sum_n]; rewrite ?cnt_nil; lia.
  Qed.
  Lemma net_in_wiring : forall j u, j < 2 ->
    cnt u (n_inp j) = cnt u (n_inj j) + sum_n 2 (fun i => cnt u (n_sent i j)).
  Proof.
    intros j u Hj. destruct j as [|[|j]]; [| |lia]; cbn [n_inp n_inj n_sent sel2 sum_n]; rewrite ?cnt_nil; [lia|].
    rewrite Hwire. lia.
  Qed.

  (* the conclusion of network_conserves for this wiring *)
  Theorem series_network : forall u,
    sum_n 2 (fun j => cnt u (n_inj j)) =
    sum_n 2 (fun i => cnt u (n_tosink i)) + sum_n 2 (fun i => cnt u (n_drp i)) + sum_n 2 (fun i => cnt u (n_held i)).
  Proof.
    exact (network_conserves 2 n_inp n_fwd n_drp n_held n_inj n_tosink n_sent net_elem_conserves net_out_wiring net_in_wiring).
  Qed.

  (* ... which reads: injected = delivered + dropped by A + dropped by B + held by A + held by B, per packet identity *)
  Corollary series_network_read : forall u,
    cnt u (uids (puts trA)) =
    cnt u (uids (fwds trB)) + (cnt u (uids (drops trA)) + cnt u (uids (drops trB)))
    + (cnt u (uids (held A sA)) + cnt u (uids (held B sB))).
  Proof.
    intros u. pose proof (series_network u) as H.
    cbn [n_inj n_tosink n_drp n_held sel2 sum_n] in H. rewrite ?cnt_nil in H. lia.
  Qed.
End SeriesNet.

(* for every execution of every composition of two conserving elements the hypotheses of network_conserves hold *)
Theorem compose_network (A B : elem) : conserves A -> conserves B -> forall acts s tr,
  run (A >> B) (init (A >> B)) acts = Some (s, tr) ->
  exists trA trB,
    run A (init A) (actsA A B acts) = Some (fst s, trA) /\ run B (init B) (actsB A B (init A) acts) = Some (snd s, trB) /\
    puts trA = puts tr /\ fwds trB = fwds tr /\
    (forall i u, i < 2 -> cnt u (n_inp A B trA trB i) = cnt u (n_fwd A B trA trB i) + cnt u (n_drp A B trA trB i) + cnt u (n_held A B (fst s) (snd s) i)) /\
    (forall i u, i < 2 -> cnt u (n_fwd A B trA trB i) = sum_n 2 (fun j => cnt u (n_sent A trA i j)) + cnt u (n_tosink B trB i)) /\
    (forall j u, j < 2 -> cnt u (n_inp A B trA trB j) = cnt u (n_inj A trA j) + sum_n 2 (fun i => cnt u (n_sent A trA i j))) /\
    (forall u, cnt u (uids (puts tr)) =
               cnt u (uids (fwds tr)) + (cnt u (uids (drops trA)) + cnt u (uids (drops trB)))
               + (cnt u (uids (held A (fst s))) + cnt u (uids (held B (snd s))))).
Proof.
  intros CA CB acts s tr H.
  destruct (series_projection_init A B _ _ _ H) as (trA & trB & RA & RB & P1 & P2 & P3 & _).
  exists trA, trB. pose proof (CA _ _ _ RA) as HA. pose proof (CB _ _ _ RB) as HB.
  repeat split; auto.
  - apply net_elem_conserves; assumption.
  - apply net_out_wiring.
  - apply net_in_wiring; assumption.
  - intros u. rewrite <- P1, <- P3. apply series_network_read; assumption.
Qed.

(* ---- comparison with an observed execution of a REAL pipeline (correspondence, props/part_gensink.py kind 'pipe'):
        the observed global action sequence must be admissible for the composite and every action must show exactly the
        observed hand-overs between the stages (EHand k) and deliveries (EForward), in order ----------------------- *)
Definition pipe_agree (E : elem) (obs : list (iact (lab E) * list eout)) : bool := agree E (init E) obs.
Definition pipe_first_diff (E : elem) (obs : list (iact (lab E) * list eout)) : option (nat * option (list eout)) :=
  first_diff E (init E) obs 0.
