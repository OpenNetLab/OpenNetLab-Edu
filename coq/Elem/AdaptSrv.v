(* WFQ and VirtualClock (one automaton, Elem/WFQServer.v, parameterised by a stamping discipline) as interface elements
   (Elem/Iface.v).  The adapter's labels are the server's own actions.  Its put REFUSES a packet that is not configured
   (class without a weight / vtick, negative size: the code raises KeyError resp. is outside C12's domain), so that every
   execution of the adapter is an execution of the model over configured packets ([wadm] / [vadm] hold by construction) and
   conversely; `Raises` and `Disabled` of the model are both "not admissible".  The theorems of WFQServerTrace.v transfer. *)
From Coq Require Import ZArith QArith List Bool Permutation Lia.
From ONL Require Import Elem.Packet Elem.StoreQ Elem.HeapList Elem.WFQServer Elem.WFQServerProofs Elem.WFQServerTrace
  Elem.WFQ Elem.WFQProofs Elem.VC Elem.VCProofs Elem.WFQInst Elem.Iface Elem.Compose Elem.ComposeHands Elem.AdaptCommon.
Import ListNotations.

Definition fout_e (o : fout) : eout := match o with OForward p => EForward p end.
Definition srv_internal (a : faction) : bool := match a with FPut _ | FAdvance _ => false | _ => true end.

Lemma srv_advance_inv S rate (s : srv S) t s' o : WFQServer.act S rate s (FAdvance t) = Ok (s', o) ->
  o = [] /\ WFQServer.now s' = t /\ WFQServer.now s < t /\ WFQServer.urgent s = false /\
  forall d, match chl s with CTx _ dl => Some dl | _ => None end = Some d -> t <= d.
Proof.
  intros H. destruct (act_advance _ _ _ _ _ _ H) as (U & L & D & -> & ->). repeat split; auto.
  intros d Hd. destruct (chl s) as [|e|e dl|e] eqn:Ec; try discriminate. injection Hd as <-. eauto.
Qed.

Section Srv.
  Variable S : stamper.
  Variable rate : Q.
  Variable st0 : ST S.
  Variable confb : pkt -> bool.

  Definition flift (r : res (srv S * list fout)) : option (srv S * list eout) :=
    match r with Ok (s', o) => Some (s', map fout_e o) | _ => None end.

  Definition srv_elem : elem := {|
    st := srv S;
    lab := faction;
    init := srv0 0 st0;
    now := @WFQServer.now S;
    put := fun p s => if confb p then flift (WFQServer.act S rate s (FPut p)) else None;
    step := fun a s => if srv_internal a then flift (WFQServer.act S rate s a) else None;
    advance := fun t s => match WFQServer.act S rate s (FAdvance t) with Ok (s', _) => Some s' | _ => None end;
    urgent := @WFQServer.urgent S;
    deadline := fun s => match chl s with CTx _ dl => Some dl | _ => None end;
    held := WFQServerProofs.held S;
    accepts := fun _ => true;
    width := 1
  |}.

  Definition f_to (a : iact faction) : faction := match a with IPut p => FPut p | IStep l => l | IAdv t => FAdvance t end.
  Definition f_of (a : faction) : iact faction := match a with FPut p => IPut p | FAdvance t => IAdv t | _ => IStep a end.
  Definition f_ev (e : WFQServer.tev S) : Q * iact faction * list eout :=
    (WFQServer.now (snd e), f_of (fst (fst e)), map fout_e (snd (fst e))).
  (* the model executions the adapter covers: the upstream puts configured packets only *)
  Definition put_ok (a : faction) : Prop := forall p, a = FPut p -> confb p = true.

  Definition srv_adapter : adapter srv_elem := {|
    m_act := fun s a => match WFQServer.act S rate s a with Ok x => Some x | _ => None end;
    m_run := WFQServer.run S rate; m_mk := fun s a o => (a, o, s); m_iev := f_ev; m_oe := map fout_e;
    m_put := FPut; m_adv := FAdvance; m_int := srv_internal; m_acc := confb; m_of := f_of; m_ok := put_ok
  |}.

  Lemma srv_adapter_ok : adapter_ok srv_adapter.
  Proof.
    split; try reflexivity.
    - (* ok_put *) intros p s. cbn -[WFQServer.act]. destruct (confb p); [|reflexivity]. destruct (WFQServer.act S rate s (FPut p)) as [[]| |]; reflexivity.
    - (* ok_step *) intros a s. cbn -[WFQServer.act]. destruct (srv_internal a); [|reflexivity]. destruct (WFQServer.act S rate s a) as [[]| |]; reflexivity.
    - (* ok_advance *) intros t s. cbn -[WFQServer.act]. destruct (WFQServer.act S rate s (FAdvance t)) as [[]| |]; reflexivity.
    - (* ok_run_cons *) intros s a r. cbn -[WFQServer.act]. destruct (WFQServer.act S rate s a) as [[]| |]; reflexivity.
    - (* ok_no_hand *) intros o. induction o as [|[] o IH]; constructor; auto; exact I.
    - (* ok_of_int *) intros [] H; reflexivity || discriminate H.
    - (* ok_cover *) intros [p|l|t] H q E; cbn in E; [injection E as <-; exact H|subst l; discriminate H|discriminate E].
    - (* ok_view *) intros [] K; repeat split. exact (K _ eq_refl).
    - (* ok_act_now *) intros s a s' o H. cbn -[WFQServer.act] in H. destruct (WFQServer.act S rate s a) as [[s1 o1]| |] eqn:E; try discriminate.
      injection H as <- _. exact (act_now _ _ _ _ _ _ E).
    - (* ok_adv_inv *) intros s t s' o H. cbn -[WFQServer.act] in H. destruct (WFQServer.act S rate s (FAdvance t)) as [[s1 o1]| |] eqn:E; try discriminate.
      injection H as <- <-. exact (srv_advance_inv _ _ _ _ _ _ E).
  Qed.

  (* every execution of the model over configured packets is an execution of the adapter ... *)
  Theorem srv_run_elem : forall acts s s' tr,
    Forall put_ok acts -> WFQServer.run S rate s acts = Some (s', tr) -> Iface.run srv_elem s (map f_of acts) = Some (s', map f_ev tr).
  Proof. exact (adapter_run_elem _ _ srv_adapter_ok). Qed.

  (* ... and conversely: the adapter has no other executions *)
  Theorem srv_elem_run : forall acts s s' tr,
    Iface.run srv_elem s acts = Some (s', tr) ->
    exists tr0, WFQServer.run S rate s (map f_to acts) = Some (s', tr0) /\ tr = map f_ev tr0 /\
                map f_of (map f_to acts) = acts /\ Forall put_ok (map f_to acts).
  Proof. exact (adapter_elem_run _ _ srv_adapter_ok). Qed.

  Theorem srv_elem_timed : timed srv_elem.
  Proof. exact (adapter_timed _ _ srv_adapter_ok). Qed.

  Theorem srv_elem_tagged : tagged srv_elem.
  Proof. exact (adapter_tagged _ _ srv_adapter_ok). Qed.

  Lemma srv_puts tr : Iface.puts (map f_ev tr) = WFQServerTrace.puts S tr.
  Proof.
    induction tr as [|[[a o] s] tr IH]; [reflexivity|]. cbn [map]. unfold f_ev at 1. cbn [fst snd]. rewrite puts_cons, IH.
    destruct a; reflexivity.
  Qed.
  Lemma srv_fwds tr : Iface.fwds (map f_ev tr) = WFQServerTrace.fwds S tr.
  Proof.
    induction tr as [|[[a o] s] tr IH]; [reflexivity|]. cbn [map]. unfold f_ev at 1. cbn [fst snd]. rewrite fwds_cons, IH.
    cbn [WFQServerTrace.fwds]. f_equal. induction o as [|[p] o IHo]; [reflexivity|]. cbn [map]. rewrite o_fwds_cons, IHo. reflexivity.
  Qed.
  Lemma srv_drops tr : Iface.drops (map f_ev tr) = [].
  Proof.
    apply (drops_map_none _ (fun e => snd (fst e)) (fun x => [fout_e x])); [|intros []; reflexivity].
    intros [[a o] s]. cbn [f_ev fst snd]. induction o as [|x o IH]; [reflexivity|]. cbn [map flat_map app]. rewrite IH. reflexivity.
  Qed.

  (* ---- the laws, for every discipline satisfying WFQServerProofs.disc -------------------------------------- *)
  Hypothesis rate_pos : 0 < rate.
  Variable conf : pkt -> Prop.
  Variable cls : pkt -> Z.
  Variable D : disc S st0 conf cls.
  Hypothesis confb_ok : forall p, confb p = true -> conf p.

  Lemma put_ok_conf acts : Forall put_ok acts -> puts_conf conf acts.
  Proof. intros F p Hp. apply confb_ok. rewrite Forall_forall in F. exact (F _ Hp p eq_refl). Qed.

  Theorem srv_elem_laws : laws srv_elem.
  Proof.
    apply (adapter_laws _ _ srv_adapter_ok _ _ (fun _ => []) srv_puts srv_fwds srv_drops). intros acts s tr Hp R. split; [|split].
    - exact (srv_conserves S rate st0 _ _ _ R).
    - intros f. pose proof (srv_flow_fifo S rate rate_pos st0 conf cls D _ _ _ f (put_ok_conf _ Hp) R) as E.
      change (filter (on_flow f)) with (only f). rewrite <- E. apply sublist_app_r.
    - intros _ U Dl. cbn [Iface.urgent deadline srv_elem] in U, Dl.
      assert (Nd : forall e dl, chl s <> CTx e dl) by (intros e dl E; rewrite E in Dl; discriminate).
      exact (proj1 (srv_drained_trace S rate rate_pos st0 conf cls D _ _ _ (put_ok_conf _ Hp) R U Nd)).
  Qed.
End Srv.

(* ---- WFQ and VirtualClock --------------------------------------------------------------------------------------- *)
Definition zknown {V} (k : Z) (l : list (Z * V)) : bool := match zlookup k l with Some _ => true | None => false end.
Definition wconfb (cfg : wcfg) (p : pkt) : bool := zknown (wf2c cfg (flow p)) (wweights cfg) && Z.leb 0 (psize p).
Definition vconfb (cfg : vcfg) (p : pkt) : bool := zknown (vf2c cfg (flow p)) (vticks cfg) && Z.leb 0 (psize p).

Definition wfq_elem (cfg : wcfg) : elem := srv_elem (wfq_stamper cfg) (wrate cfg) (wst0 : ST (wfq_stamper cfg)) (wconfb cfg).
Definition vc_elem (cfg : vcfg) : elem := srv_elem (vc_stamper cfg) (vrate cfg) (vst0 : ST (vc_stamper cfg)) (vconfb cfg).

Lemma wconfb_ok cfg p : wconfb cfg p = true -> wconf cfg p.
Proof.
  unfold wconfb, wconf, wcls, zknown. intros H. apply andb_prop in H as [H1 H2]. split.
  - destruct (zlookup (wf2c cfg (flow p)) (wweights cfg)); [discriminate|discriminate H1].
  - apply Z.leb_le. exact H2.
Qed.
Lemma vconfb_ok cfg p : vconfb cfg p = true -> vconf cfg p.
Proof.
  unfold vconfb, vconf, vcls, zknown. intros H. apply andb_prop in H as [H1 H2]. split.
  - destruct (zlookup (vf2c cfg (flow p)) (vticks cfg)); [discriminate|discriminate H1].
  - apply Z.leb_le. exact H2.
Qed.

Theorem wfq_elem_laws cfg : wcfg_ok cfg -> laws (wfq_elem cfg).
Proof.
  intros Hok. exact (srv_elem_laws _ _ _ _ (proj1 Hok) (wconf cfg) (wcls cfg) (wfq_disc cfg (proj1 Hok) (proj2 Hok)) (wconfb_ok cfg)).
Qed.
Theorem vc_elem_laws cfg : vcfg_ok cfg -> laws (vc_elem cfg).
Proof.
  intros Hok. exact (srv_elem_laws _ _ _ _ (proj1 Hok) (vconf cfg) (vcls cfg) (vc_disc cfg (proj2 Hok)) (vconfb_ok cfg)).
Qed.

Corollary wfq_elem_tagged cfg : tagged (wfq_elem cfg).
Proof. apply srv_elem_tagged. Qed.
Corollary vc_elem_tagged cfg : tagged (vc_elem cfg).
Proof. apply srv_elem_tagged. Qed.
