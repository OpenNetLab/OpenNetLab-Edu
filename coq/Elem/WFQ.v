(* Model of onl/scheduler/wfq.py : the WFQ stamping discipline on top of Elem/WFQServer.v.
   REPAIRED code (fix: commits d1c8660 first-packet stamp, 69e89c0 arrival counter in the key,
   d0d3d61 per-class counter for the active set); the first-packet defect is kept behind [wfix_first] so
   that the refutation of the pinned code can be stated (WFQInst.wfq_stamp_refuted_unfixed).

     put(p):  c = flow2class(p.flow_id)
              if active_set is empty: reset_vtime()  (vtime := 0, finish_times[*] := 0)
              else:                   update_vtime() (vtime += (now - last_time) / sum of weights of active_set)
              finish_times[c] = max(finish_times[c], vtime) + 8*size/(rate*weights[c])
              add_packet_to_queue(p); class_count[c] += 1; active_set.add(c); last_time = now
              arrivals += 1; store.put(PriorityItem((finish_times[c], now, arrivals), p))
     run() after a transmission of p:
              update_vtime(); class_count[c] -= 1; if class_count[c] == 0: active_set.remove(c)
              if active_set is empty: reset_vtime()
              last_time = now
   Executable; no proofs here. *)
From Coq Require Import ZArith QArith Qminmax Qabs List Bool.
From ONL Require Import Elem.Packet Elem.StoreQ Elem.HeapList Elem.WFQServer.
Import ListNotations.

Record wcfg := {
  wrate : Q;                      (* self.rate (bits per second) *)
  wweights : list (Z * Z);        (* self.weights : class -> weight *)
  wf2c : Z -> Z;                  (* self.flow2class *)
  wfix_first : bool               (* true = repaired put(): the first packet of a busy period is stamped *)
}.

Record wst := {
  vtime : Q;
  last_time : Q;
  active : list Z;                (* active_set (no duplicates) *)
  fin : Z -> Q;                   (* finish_times *)
  ccount : Z -> Z                 (* class_count *)
}.

Definition wst0 : wst :=
  {| vtime := 0; last_time := 0; active := []; fin := fun _ => 0; ccount := fun _ => 0%Z |}.

Fixpoint zlookup {V : Type} (k : Z) (l : list (Z * V)) : option V :=
  match l with
  | [] => None
  | (k', v) :: t => if Z.eqb k k' then Some v else zlookup k t
  end.

Definition zmem (k : Z) (l : list Z) : bool := existsb (Z.eqb k) l.
Definition zadd (k : Z) (l : list Z) : list Z := if zmem k l then l else l ++ [k].
Definition zremove (k : Z) (l : list Z) : list Z := filter (fun x => negb (Z.eqb x k)) l.

Definition qupd (f : Z -> Q) (k : Z) (v : Q) : Z -> Q := fun x => if Z.eqb x k then v else f x.

(* weight_sum over the active set; None = KeyError (a class without weight) *)
Fixpoint weight_sum (ws : list (Z * Z)) (act : list Z) : option Z :=
  match act with
  | [] => Some 0%Z
  | c :: t =>
      match zlookup c ws, weight_sum ws t with
      | Some w, Some r => Some (w + r)%Z
      | _, _ => None
      end
  end.

(* update_vtime; None = raises (ZeroDivisionError on an empty active set / weight sum 0, KeyError) *)
Definition update_vtime (cfg : wcfg) (now : Q) (s : wst) : option Q :=
  match weight_sum (wweights cfg) (active s) with
  | Some w => if Z.eqb w 0 then None else Some (Qred (vtime s + (now - last_time s) / inject_Z w))
  | None => None
  end.

Definition wstamp_inc (cfg : wcfg) (p : pkt) (w : Z) : Q := (inject_Z (psize p) * 8) / (wrate cfg * inject_Z w).

Definition wfq_put (cfg : wcfg) (now : Q) (s : wst) (p : pkt) : option (wst * Q) :=
  let c := wf2c cfg (flow p) in
  match zlookup c (wweights cfg) with
  | None => None                                  (* KeyError: unconfigured class *)
  | Some w =>
      let empty := match active s with [] => true | _ => false end in
      let vf := if empty then Some (0, fun _ : Z => 0) else
                  match update_vtime cfg now s with Some v => Some (v, fin s) | None => None end in
      match vf with
      | None => None
      | Some (v, f) =>
          let F := if empty && negb (wfix_first cfg) then f c
                   else Qred (Qmax (f c) v + wstamp_inc cfg p w) in
          Some ({| vtime := v; last_time := now; active := zadd c (active s); fin := qupd f c F;
                   ccount := fupd (ccount s) c (ccount s c + 1)%Z |}, F)
      end
  end.

Definition wfq_done (cfg : wcfg) (now : Q) (s : wst) (p : pkt) : option wst :=
  let c := wf2c cfg (flow p) in
  match update_vtime cfg now s with
  | None => None
  | Some v =>
      let n := (ccount s c - 1)%Z in
      let act1 := if Z.eqb n 0 then (if zmem c (active s) then Some (zremove c (active s)) else None)   (* KeyError *)
                  else Some (active s) in
      match act1 with
      | None => None
      | Some a =>
          match a with
          | [] => Some {| vtime := 0; last_time := now; active := []; fin := fun _ => 0; ccount := fupd (ccount s) c n |}
          | _ => Some {| vtime := v; last_time := now; active := a; fin := fin s; ccount := fupd (ccount s) c n |}
          end
      end
  end.

Definition wfq_stamper (cfg : wcfg) : stamper :=
  {| ST := wst; st_put := wfq_put cfg; st_done := wfq_done cfg |}.

Definition wfq (cfg : wcfg) : Type := srv (wfq_stamper cfg).
Definition wfq0 (cfg : wcfg) : wfq cfg := srv0 0 (wst0 : ST (wfq_stamper cfg)).
Definition wfq_act (cfg : wcfg) : wfq cfg -> faction -> res (wfq cfg * list fout) := act (wfq_stamper cfg) (wrate cfg).
Definition wfq_run (cfg : wcfg) : wfq cfg -> list faction -> option (wfq cfg * list (tev (wfq_stamper cfg))) :=
  run (wfq_stamper cfg) (wrate cfg).

(* flow2class given as a table; flows not listed are their own class (the default lambda) *)
Definition f2c_of (tbl : list (Z * Z)) : Z -> Z := fun f => match zlookup f tbl with Some c => c | None => f end.

(* ---- correspondence: vtime, last_time, active_set (sorted), finish_times per configured class -------- *)
Definition wobs := (Q * Q * list Z * list (Z * Q))%type.

Definition zset_eqb (a b : list Z) : bool :=
  forallb (fun x => zmem x b) a && forallb (fun x => zmem x a) b && Nat.eqb (length a) (length b).

Fixpoint fin_ok (tol : Q) (f : Z -> Q) (l : list (Z * Q)) : bool :=
  match l with
  | [] => true
  | (c, v) :: t => Qclose tol v (f c) && fin_ok tol f t
  end.

Definition wobs_ok (tol : Q) (s : wst) (o : wobs) : bool :=
  match o with
  | (v, lt, ac, fl) => Qclose tol v (vtime s) && Qeq_bool lt (last_time s) && zset_eqb ac (active s) && fin_ok tol (fin s) fl
  end.

Definition wfq_agree (cfg : wcfg) (tol : Q) (obs : list (faction * list pkt * sobs * wobs)) : bool :=
  agree (wrate cfg) (wobs_ok tol : ST (wfq_stamper cfg) -> wobs -> bool) (wfq0 cfg) obs.

Definition wfq_first_bad (cfg : wcfg) (tol : Q) (obs : list (faction * list pkt * sobs * wobs)) : option nat :=
  first_bad (wrate cfg) (wobs_ok tol : ST (wfq_stamper cfg) -> wobs -> bool) (wfq0 cfg) obs 0.
