(* Bridging lemmas (DESIGN 2.6, second tie) for the multi-queue schedulers: Scheduler.add_packet_to_queue,
   MultiQueueScheduler.put (RR, WRR: the class of a flow is the flow) and SP.put (class = flow2class(flow)), as translated
   from the tree under test on every run (Gen/Extracted_mq.v), are the SPut step of the hand-written
   automaton (Elem/SchedBase.v) the C12 / C13 / C15 / C08 theorems about SP, RR, WRR are stated on.
   mtotal (= sum of queue_count) is the model's reading of self.total_packets. *)
From Coq Require Import ZArith QArith List Bool Lia.
From ONL Require Import Elem.Packet Elem.StoreQ Elem.SchedBase.
From ONL Require Import Gen.Extracted_mq.
Import ListNotations.

Definition mq_fields (s : mq) : mq_st :=
  {| m_packets_received := mrecv s; m_queue_count := mqc s; m_queue_byte_size := mqb s |}.

(* the generated fields written back; one more packet is counted *)
Definition mq_with_fields (s : mq) (f : mq_st) : mq :=
  {| mnow := mnow s; mstores := mstores s; mtok := mtok s; mqc := m_queue_count f; mqb := m_queue_byte_size f;
     mtotal := (mtotal s + 1)%Z; mcur := mcur s; mrecv := m_packets_received f; mchild := mchild s; mpc := mpc s |}.

Definition mq_fx_apply (p : pkt) (s : mq) (e : mq_fx) : mq :=
  match e with
  | FxToken => with_tok s (sq_put fifo_push (mnow s) tt (mtok s))                  (* packets_available.put(True) *)
  | FxStorePut k => with_store s k (sq_put fifo_push (mnow s) p (mstores s k))      (* stores[k].put(packet) *)
  end.

Definition sp_gen_put (c : mq_cfg) (s : mq) (p : pkt) :=
  gen_SP_put (mq_fields s) (flow p) (psize p) (cls c (flow p)) (mtotal s).
Definition mqs_gen_put (c : mq_cfg) (s : mq) (p : pkt) :=
  gen_MultiQueueScheduler_put (mq_fields s) (flow p) (psize p) (cls c (flow p)) (mtotal s).
Definition mq_gen_add (s : mq) (p : pkt) := gen_Scheduler_add_packet_to_queue (mq_fields s) (flow p) (psize p).

Ltac as_model := rewrite ?(Z.add_comm 1), ?(Z.eqb_sym 0).    (* `1 + x`, `0 == x` as the model writes them *)

Lemma bridge_add_packet_to_queue s p :
  let g := mq_gen_add s p in
  m_packets_received (fst g) = (mrecv s + 1)%Z /\
  m_queue_count (fst g) = upd (mqc s) (flow p) (mqc s (flow p) + 1)%Z /\
  m_queue_byte_size (fst g) = upd (mqb s) (flow p) (mqb s (flow p) + psize p)%Z /\ snd g = [].
Proof. unfold mq_gen_add, gen_Scheduler_add_packet_to_queue, mq_fields; cbn -[Z.add]; as_model. repeat split; reflexivity. Qed.

Lemma bridge_sp_put c s p :
  memZ (cls c (flow p)) (classes c) && Z.leb 0 (psize p) = true ->
  let g := sp_gen_put c s p in
  mq_act c s (SPut p) = Some (fold_left (mq_fx_apply p) (snd g) (mq_with_fields s (fst g)), []) /\
  snd g = (if (mtotal s =? 0)%Z then [FxToken] else []) ++ [FxStorePut (cls c (flow p))].
Proof.
  intros Hadm. unfold sp_gen_put, gen_SP_put, mq_act. rewrite Hadm.
  unfold mq_fields, mq_with_fields; cbn -[Z.eqb Z.add]. as_model.
  destruct (Z.eqb_spec (mtotal s) 0); cbn -[Z.eqb Z.add]; split; reflexivity.
Qed.

Lemma bridge_mqs_put c s p :
  cls c (flow p) = flow p ->
  memZ (cls c (flow p)) (classes c) && Z.leb 0 (psize p) = true ->
  let g := mqs_gen_put c s p in
  mq_act c s (SPut p) = Some (fold_left (mq_fx_apply p) (snd g) (mq_with_fields s (fst g)), []) /\
  snd g = (if (mtotal s =? 0)%Z then [FxToken] else []) ++ [FxStorePut (flow p)].
Proof.
  intros Hid Hadm. unfold mqs_gen_put, gen_MultiQueueScheduler_put, mq_act. rewrite Hadm, Hid.
  unfold mq_fields, mq_with_fields; cbn -[Z.eqb Z.add]. as_model.
  destruct (Z.eqb_spec (mtotal s) 0); cbn -[Z.eqb Z.add]; split; reflexivity.
Qed.
