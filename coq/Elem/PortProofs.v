(* Proofs about Elem/Port.v, for EVERY drop policy (tail drop, RED, ...) unless a lemma says "tail":
   the departure recurrence, FIFO conservation, counters, exact byte occupancy, stamps, monitor samples,
   never-late / work-conserving, for the tail-drop policy the drop rule and the occupancy bound, conservation as C08
   states it, a concrete execution with the refutations of the code as found, and the rate-0 case.
   All statements quantify over all admissible executions ([port_run ... = Some ...]). *)
From Coq Require Import ZArith QArith Qminmax List Bool Lia Lqa Permutation.
From ONL Require Import Elem.Packet Elem.StoreQ Elem.StoreQProofs Elem.TokenServer Elem.Port.
Import ListNotations.

(* one step of the automaton, as a relation (inversion of port_act) *)

(* proofs by cases of a step take the rules in this order: put accepted, put refused, Initialize, StorePut event, get then
   transmit, get then forward at once, timeout, clock, sample *)
Inductive pstep (c : pcfg) (s : port) : paction -> port -> list pout -> Prop :=
| st_accept p u a (Hpol : c_policy c s p u = Some (false, a)) :
    pstep c s (PPut p u) (put_accept s p a) (stamp_outs c s)
| st_refuse p u a (Hpol : c_policy c s p u = Some (true, a)) :
    pstep c s (PPut p u) (put_refuse s a) (stamp_outs c s ++ [ODrop p])
| st_init q (Hst : pstarted s = false) (Hget : sq_get fifo_pop (pq s) = Some q) :
    pstep c s PInit (with_q (with_started s) q) []
| st_cb q (Hcb : sq_cb fifo_pop (pq s) = Some q) :
    pstep c s PStoreCb (with_q s q) []
| st_get_tx a0 p q (Hsvc : psvc s = None) (Hst : pstarted s = true) (Htake : sq_take (pq s) = Some ((a0, p), q))
    (Hrate : 0 < c_rate c) :
    pstep c s PGet (with_svc (with_q s q) (Some (p, Qred (pnow s + tx c p)))) []
| st_get_now a0 p q q' (Hsvc : psvc s = None) (Hst : pstarted s = true) (Htake : sq_take (pq s) = Some ((a0, p), q))
    (Hrate : c_rate c <= 0) (Hget : sq_get fifo_pop q = Some q') :
    pstep c s PGet (with_q (leave_now c (with_q s q) p) q') [OForward p]
| st_timer p dl q' (Hsvc : psvc s = Some (p, dl)) (Hdl : dl == pnow s) (Hget : sq_get fifo_pop (pq s) = Some q') :
    pstep c s PTimer (with_q (with_bytes (with_svc s None) (pbytes s - psize p)%Z) q') [OForward p]
| st_adv t (Hurg : purgent s = false) (Hlt : pnow s < t) (Hdl : forall p dl, psvc s = Some (p, dl) -> t <= dl) :
    pstep c s (PAdvance t) (with_now s t) []
| st_sample incl :
    pstep c s (PSample incl) s [sample (c_fix_mon c) incl s].

Lemma leave_now_pq c s p : pq (leave_now c s p) = pq s.
Proof. unfold leave_now. destruct (c_fix_rate0 c); reflexivity. Qed.

Lemma port_act_step c s a s' outs : port_act c s a = Some (s', outs) -> pstep c s a s' outs.
Proof.
  destruct a as [p u| | | | |t|incl]; cbn [port_act].
  - unfold port_put. destruct (c_policy c s p u) as [[r a]|] eqn:E; [|discriminate].
    destruct r; intros H; injection H as <- <-; [eapply st_refuse|eapply st_accept]; eauto.
  - destruct (pstarted s) eqn:S; [discriminate|].
    unfold server_get. cbn [pq with_started].
    destruct (sq_get fifo_pop (pq s)) as [q|] eqn:G; [|discriminate].
    intros H; injection H as <- <-. apply st_init; auto.
  - destruct (sq_cb fifo_pop (pq s)) as [q|] eqn:G; [|discriminate].
    intros H; injection H as <- <-. apply st_cb; auto.
  - destruct (psvc s) as [[p0 d0]|] eqn:V; [discriminate|].
    destruct (sq_take (pq s)) as [[[a0 p] q]|] eqn:T; [|discriminate].
    destruct (pstarted s) eqn:S; cbn [negb]; [|discriminate].
    destruct (Qlt_le_dec 0 (c_rate c)) as [R|R].
    + intros H; injection H as <- <-. eapply st_get_tx; eauto.
    + unfold server_get. rewrite leave_now_pq. cbn [pq with_q].
      destruct (sq_get fifo_pop q) as [q'|] eqn:G; [|discriminate].
      intros H; injection H as <- <-. eapply st_get_now; eauto.
  - destruct (psvc s) as [[p dl]|] eqn:V; [|discriminate].
    destruct (Qeq_bool dl (pnow s)) eqn:E; [|discriminate].
    unfold server_get. cbn [pq with_bytes with_svc].
    destruct (sq_get fifo_pop (pq s)) as [q'|] eqn:G; [|discriminate].
    intros H; injection H as <- <-. eapply st_timer; eauto. apply Qeq_bool_iff; exact E.
  - destruct (purgent s) eqn:U; [discriminate|].
    destruct (Qlt_le_dec (pnow s) t) as [L|L]; [|discriminate].
    destruct (psvc s) as [[p dl]|] eqn:V.
    + destruct (Qle_bool t dl) eqn:E; [|discriminate].
      intros H; injection H as <- <-. apply st_adv; auto.
      intros p' dl' H'. rewrite V in H'. injection H' as <- <-. apply Qle_bool_iff; exact E.
    + intros H; injection H as <- <-. apply st_adv; auto. intros p dl H'; rewrite V in H'; discriminate.
  - intros H; injection H as <- <-. apply st_sample.
Qed.

Lemma port_run_ind c (P : port -> list paction -> list pev -> port -> Prop) :
  (forall s, P s [] [] s) ->
  (forall s a s1 outs acts tr s', pstep c s a s1 outs -> P s1 acts tr s' -> P s (a :: acts) ((pnow s1, a, outs) :: tr) s') ->
  forall acts s s' tr, port_run c s acts = Some (s', tr) -> P s acts tr s'.
Proof.
  intros H0 HS. induction acts as [|a rest IH]; intros s s' tr H; cbn [port_run] in H.
  - injection H as <- <-. apply H0.
  - destruct (port_act c s a) as [[s1 outs]|] eqn:A; [|discriminate].
    destruct (port_run c s1 rest) as [[s2 tr']|] eqn:R; [|discriminate].
    injection H as <- <-. apply HS; [apply port_act_step, A|apply IH, R].
Qed.

(* a property kept by every step from a state that has it holds after every admissible execution;
   [okact] restricts the actions considered (e.g. packets of non-negative size) *)
Lemma run_inv (c : pcfg) (okact : paction -> Prop) (P : port -> Prop) :
  (forall s a s' outs, okact a -> P s -> pstep c s a s' outs -> P s') ->
  forall acts s s' tr, Forall okact acts -> P s -> port_run c s acts = Some (s', tr) -> P s'.
Proof.
  intros Hstep acts s s' tr Hok HP H. revert Hok HP. pattern s, acts, tr, s'. eapply port_run_ind; [| |exact H].
  - auto.
  - intros s0 a s1 outs acts0 tr0 s2 St IH Hok HP. inversion Hok; subst. eauto.
Qed.

Lemma run_inv_all (c : pcfg) (P : port -> Prop) :
  (forall s a s' outs, P s -> pstep c s a s' outs -> P s') ->
  forall acts s s' tr, P s -> port_run c s acts = Some (s', tr) -> P s'.
Proof.
  intros Hstep acts s s' tr HP H. revert HP. pattern s, acts, tr, s'. eapply port_run_ind; [| |exact H]; eauto.
Qed.

(* the phase invariant of server and store *)

Definition W (s : port) : list (Q * pkt) := sq_held (pq s).

Definition phase_inv (s : port) : Prop :=
  sq_nostrand (pq s) /\
  match psvc s, pstarted s with
  | Some _, st => get (pq s) = GNone /\ st = true
  | None, true => get (pq s) <> GNone
  | None, false => get (pq s) = GNone
  end.

Lemma phase_init t0 : phase_inv (port0 t0).
Proof. split; [apply sq_nostrand_init|reflexivity]. Qed.

Lemma leave_now_fields c s p :
  pnow (leave_now c s p) = pnow s /\ psvc (leave_now c s p) = psvc s /\ precv (leave_now c s p) = precv s /\
  pdrop (leave_now c s p) = pdrop s /\ pstarted (leave_now c s p) = pstarted s /\ pavg (leave_now c s p) = pavg s.
Proof. unfold leave_now. destruct (c_fix_rate0 c); cbn; auto 10. Qed.

Lemma phase_step c s a s' outs : phase_inv s -> pstep c s a s' outs -> phase_inv s'.
Proof.
  intros [N P] H.
  destruct H; unfold phase_inv;
                  cbn [pq psvc pstarted put_accept put_refuse with_q with_svc with_bytes with_started with_now].
  - split; [apply fifo_nostrand_put|exact P].
  - split; assumption.
  - destruct (sq_get_ok _ (pnow s) _ _ Hget) as (_ & N' & _ & G). split; [exact N'|].
    rewrite Hst in P. destruct (psvc s); [destruct P; discriminate|exact G].
  - split; [eapply fifo_nostrand_cb, Hcb|]. pose proof (sq_cb_get_none _ _ _ _ Hcb) as G.
    destruct (psvc s), (pstarted s); tauto.
  - split; [eapply fifo_nostrand_take, Htake|]. split; [apply (sq_take_inv _ _ _ _ Htake)|exact Hst].
  - destruct (sq_get_ok _ (pnow s) _ _ Hget) as (_ & N' & _ & G).
    destruct (leave_now_fields c (with_q s q) p) as (_ & -> & _ & _ & -> & _). cbn. rewrite Hsvc, Hst. split; assumption.
  - destruct (sq_get_ok _ (pnow s) _ _ Hget) as (_ & N' & _ & G). rewrite Hsvc in P. destruct P as [_ ->]. split; assumption.
  - split; assumption.
  - split; assumption.
Qed.

(* nothing enabled and no transmission in progress: the port holds nothing *)
Lemma quiet_idle_empty s : phase_inv s -> purgent s = false -> psvc s = None -> W s = [].
Proof.
  intros [N P] Hu V. unfold purgent in Hu.
  apply orb_false_iff in Hu as [Hu _]. apply orb_false_iff in Hu as [S Q0].
  apply negb_false_iff in S. rewrite V, S in P. apply sq_quiet_held_empty; assumption.
Qed.

(* what a trace says: accepted arrivals, departures, refusals *)

Definition is_drop (o : pout) : bool := match o with ODrop _ => true | _ => false end.
Definition has_drop (outs : list pout) : bool := existsb is_drop outs.
Definition out_forward (o : pout) : list pkt := match o with OForward p => [p] | _ => [] end.
Definition out_drop (o : pout) : list pkt := match o with ODrop p => [p] | _ => [] end.

(* the packets accepted by put(), with their arrival instants *)
Definition ev_accepted (e : pev) : list (Q * pkt) :=
  match e with
  | (t, PPut p _, outs) => if has_drop outs then [] else [(t, p)]
  | _ => []
  end.
(* the packets handed to self.out, with the instants *)
Definition ev_departures (e : pev) : list (Q * pkt) :=
  match e with (t, _, outs) => map (fun p => (t, p)) (flat_map out_forward outs) end.
Definition ev_puts (e : pev) : list pkt := match e with (_, PPut p _, _) => [p] | _ => [] end.
Definition ev_dropped (e : pev) : list pkt := match e with (_, _, outs) => flat_map out_drop outs end.

Definition accepted (tr : list pev) : list (Q * pkt) := flat_map ev_accepted tr.
Definition departures (tr : list pev) : list (Q * pkt) := flat_map ev_departures tr.
Definition puts (tr : list pev) : list pkt := flat_map ev_puts tr.
Definition dropped (tr : list pev) : list pkt := flat_map ev_dropped tr.
Definition forwarded (tr : list pev) : list pkt := map snd (departures tr).

Lemma put_accept_event c s t p u :
  ev_accepted (t, PPut p u, stamp_outs c s) = [(t, p)] /\ ev_departures (t, PPut p u, stamp_outs c s) = [] /\
  ev_dropped (t, PPut p u, stamp_outs c s) = [].
Proof. unfold stamp_outs. destruct (c_stamp c); repeat split. Qed.

Lemma put_refuse_event c s t p u :
  ev_accepted (t, PPut p u, stamp_outs c s ++ [ODrop p]) = [] /\ ev_departures (t, PPut p u, stamp_outs c s ++ [ODrop p]) = [] /\
  ev_dropped (t, PPut p u, stamp_outs c s ++ [ODrop p]) = [p].
Proof. unfold stamp_outs. destruct (c_stamp c); repeat split. Qed.

(* the departure recurrence *)

(* transmission time of a packet: 8*size/rate, nothing when rate <= 0 *)
Definition txe (c : pcfg) (p : pkt) : Q := if Qlt_le_dec 0 (c_rate c) then tx c p else 0.

(* the recurrence of the property, started with the instant F at which the server became free *)
Fixpoint dep_from (f : pkt -> Q) (F : Q) (arr : list (Q * pkt)) : list (Q * pkt) :=
  match arr with
  | [] => []
  | (a, p) :: rest => let d := Qmax a F + f p in (d, p) :: dep_from f d rest
  end.

(* ... and from scratch: the first accepted packet leaves at arrival + transmission time *)
Definition dep_spec (f : pkt -> Q) (arr : list (Q * pkt)) : list (Q * pkt) :=
  match arr with
  | [] => []
  | (a, p) :: rest => (a + f p, p) :: dep_from f (a + f p) rest
  end.

(* timed packets, instants compared as rationals *)
Definition teq (x y : Q * pkt) : Prop := fst x == fst y /\ snd x = snd y.
Definition tl_eq : list (Q * pkt) -> list (Q * pkt) -> Prop := Forall2 teq.

Lemma teq_refl x : teq x x.
Proof. split; reflexivity. Qed.
Lemma tl_eq_refl l : tl_eq l l.
Proof. induction l; constructor; auto using teq_refl. Qed.
Lemma tl_eq_app l1 l2 m1 m2 : tl_eq l1 l2 -> tl_eq m1 m2 -> tl_eq (l1 ++ m1) (l2 ++ m2).
Proof. intros H1 H2. apply Forall2_app; assumption. Qed.
Lemma tl_eq_length l1 l2 : tl_eq l1 l2 -> length l1 = length l2.
Proof. apply Forall2_len. Qed.
Lemma tl_eq_map_snd l1 l2 : tl_eq l1 l2 -> map snd l1 = map snd l2.
Proof. apply teq_pkts. Qed.

Lemma Qmax_eq_r a F F' : F == F' -> Qmax a F == Qmax a F'.
Proof.
  intros E. destruct (Q.max_spec a F) as [[L1 E1]|[L1 E1]], (Q.max_spec a F') as [[L2 E2]|[L2 E2]];
    rewrite E1, E2; lra.
Qed.

Lemma dep_from_proper f l : forall F F', F == F' -> tl_eq (dep_from f F l) (dep_from f F' l).
Proof.
  induction l as [|[a p] rest IH]; intros F F' E; cbn [dep_from].
  - constructor.
  - assert (E' : Qmax a F + f p == Qmax a F' + f p) by (rewrite (Qmax_eq_r a F F' E); reflexivity).
    constructor; [split; [exact E'|reflexivity]|]. apply IH. exact E'.
Qed.

Lemma dep_from_length f l : forall F, length (dep_from f F l) = length l.
Proof. induction l as [|[a p] rest IH]; intros F; cbn; auto. Qed.

Lemma dep_from_packets f l : forall F, map snd (dep_from f F l) = map snd l.
Proof. induction l as [|[a p] rest IH]; intros F; cbn; [reflexivity|]. rewrite IH. reflexivity. Qed.

(* when the server is free no later than the first arrival, the two forms agree *)
Lemma dep_from_spec f F l :
  (forall a p rest, l = (a, p) :: rest -> F <= a) -> tl_eq (dep_from f F l) (dep_spec f l).
Proof.
  destruct l as [|[a p] rest]; intros H; cbn [dep_from dep_spec].
  - constructor.
  - assert (L : F <= a) by (eapply H; reflexivity).
    assert (E : Qmax a F + f p == a + f p) by (rewrite (Q.max_l a F L); reflexivity).
    constructor; [split; [exact E|reflexivity]|]. apply dep_from_proper. exact E.
Qed.

(* held items were put no later than now; an idle server with work pending found
   that work at the current instant, or became free at the current instant *)
Definition timing (s : port) (F : Q) : Prop :=
  sq_stamped (pnow s) (pq s) /\
  (psvc s = None -> F <= pnow s /\ forall a p rest, W s = (a, p) :: rest -> pnow s <= Qmax a F).

(* the departures still to come, given the packets that will still be accepted *)
Definition future (c : pcfg) (s : port) (F : Q) (arr : list (Q * pkt)) : list (Q * pkt) :=
  match psvc s with
  | Some (p, dl) => (dl, p) :: dep_from (txe c) dl (W s ++ arr)
  | None => dep_from (txe c) F (W s ++ arr)
  end.

Lemma timing_init t0 : timing (port0 t0) t0.
Proof.
  split; cbn.
  - apply sq_stamped_init.
  - intros _. split; [apply Qle_refl|]. intros a p rest H. discriminate.
Qed.

Lemma future_frame c s s' F :
  pnow s' = pnow s -> psvc s' = psvc s -> W s' = W s -> timing s F ->
  timing s' F /\ forall arr, future c s' F arr = future c s F arr.
Proof.
  unfold timing, future, sq_stamped. fold (W s) (W s'). intros -> -> ->. split; [assumption|reflexivity].
Qed.

Lemma take_instant s F a0 p q :
  timing s F -> psvc s = None -> sq_take (pq s) = Some ((a0, p), q) ->
  Qmax a0 F == pnow s /\ W s = (a0, p) :: sq_held q /\ sq_stamped (pnow s) q.
Proof.
  intros [TS TI] V Ht. pose proof (fifo_held_take _ _ _ _ Ht) as EH.
  destruct (sq_stamped_take _ _ _ _ _ Ht TS) as [La TS']. destruct (TI V) as [TF TH].
  split; [|split; [exact EH|exact TS']]. apply Qle_antisym; [apply Q.max_lub; assumption|exact (TH _ _ _ EH)].
Qed.

Lemma future_step c s a s' outs F :
  phase_inv s -> timing s F -> pstep c s a s' outs ->
  exists F', timing s' F' /\
    forall arr, tl_eq (future c s F (ev_accepted (pnow s', a, outs) ++ arr))
                      (ev_departures (pnow s', a, outs) ++ future c s' F' arr).
Proof.
  intros PH TI H.
  assert (Frame : forall s1, pnow s1 = pnow s -> psvc s1 = psvc s -> W s1 = W s ->
            exists F', timing s1 F' /\ forall arr, tl_eq (future c s F arr) (future c s1 F' arr)).
  { intros s1 En Ev Ew. destruct (future_frame c s s1 F En Ev Ew TI) as [T1 E1]. exists F. split; [exact T1|].
    intros arr. rewrite E1. apply tl_eq_refl. }
  destruct H.
  - destruct (put_accept_event c s (pnow (put_accept s p a)) p u) as (-> & -> & _). destruct TI as [TS TI].
    exists F. split.
    + split; cbn.
      * apply sq_stamped_put. exact TS.
      * intros V. destruct (TI V) as [TF TH]. split; [exact TF|].
        intros a1 p1 rest E. unfold W in E. cbn in E. rewrite fifo_held_put in E.
        destruct (sq_held (pq s)) as [|[a2 p2] r2] eqn:EW; cbn in E; injection E as <- <- <-.
        -- apply Q.le_max_l.
        -- eapply TH. unfold W. rewrite EW. reflexivity.
    + intros arr. unfold future, W. cbn [psvc put_accept pq pnow app]. rewrite fifo_held_put, <- app_assoc. apply tl_eq_refl.
  - destruct (put_refuse_event c s (pnow (put_refuse s a)) p u) as (-> & -> & _). apply Frame; reflexivity.
  - apply Frame; [reflexivity|reflexivity|exact (fifo_held_get _ _ _ Hget)].
  - apply Frame; [reflexivity|reflexivity|exact (fifo_held_cb _ _ _ Hcb)].
  - (* the server takes a packet and starts transmitting *)
    destruct (take_instant _ _ _ _ _ TI Hsvc Htake) as (E0 & EW & TS'). exists F. split.
    + split; cbn; [exact TS'|]. intros V; discriminate.
    + intros arr. cbn [ev_accepted ev_departures flat_map map app]. unfold future. cbn [psvc with_svc with_q].
      rewrite Hsvc, EW. cbn [app dep_from].
      assert (E : Qmax a0 F + txe c p == Qred (pnow s + tx c p))
        by (unfold txe; destruct (Qlt_le_dec 0 (c_rate c)); [rewrite Qred_correct, E0; reflexivity|lra]).
      constructor; [split; [exact E|reflexivity]|]. apply dep_from_proper, E.
  - (* the server takes a packet and forwards it at once (no serialisation delay) *)
    destruct (take_instant _ _ _ _ _ TI Hsvc Htake) as (E0 & EW & TS').
    destruct (sq_get_ok _ (pnow s) _ _ Hget) as (Eq' & _ & TS'' & _).
    destruct (leave_now_fields c (with_q s q) p) as (EN & EV & _). cbn [pnow psvc with_q] in EN, EV. rewrite Hsvc in EV.
    exists (pnow s). split.
    + split; cbn; rewrite ?EN, ?EV; [auto|]. intros _. split; [apply Qle_refl|]. intros a1 p1 rest E. apply Q.le_max_r.
    + intros arr. cbn [ev_accepted ev_departures flat_map map app out_forward pnow with_q]. unfold future, W.
      cbn [psvc pq with_q]. rewrite EV, Hsvc, Eq', EN. fold (W s). rewrite EW. cbn [app dep_from].
      assert (E : Qmax a0 F + txe c p == pnow s)
        by (unfold txe; destruct (Qlt_le_dec 0 (c_rate c)); [lra|rewrite E0; lra]).
      constructor; [split; [exact E|reflexivity]|]. apply dep_from_proper, E.
  - (* transmission ends *)
    destruct (sq_get_ok _ (pnow s) _ _ Hget) as (Eq' & _ & TS' & _). exists (pnow s). split.
    + split; cbn; [apply TS', TI|]. intros _. split; [apply Qle_refl|]. intros a1 p1 rest E. apply Q.le_max_r.
    + intros arr. cbn [ev_accepted ev_departures flat_map map app out_forward]. unfold future, W.
      cbn [psvc pq with_q with_bytes with_svc pnow]. rewrite Hsvc, Eq'.
      constructor; [split; [exact Hdl|reflexivity]|]. apply dep_from_proper, Hdl.
  - (* the clock advances: an idle server of a quiet port holds nothing *)
    destruct TI as [TS TI]. exists F. split.
    + split; cbn.
      * eapply sq_stamped_mono; [|exact TS]. apply Qlt_le_weak; exact Hlt.
      * intros V. destruct (TI V) as [TF _]. split; [lra|].
        intros a1 p1 rest E. change (W (with_now s t)) with (W s) in E.
        rewrite (quiet_idle_empty s PH Hurg V) in E. discriminate.
    + intros arr. apply tl_eq_refl.
  - destruct incl; apply Frame; reflexivity.
Qed.

Lemma future_run c acts s s' tr F :
  phase_inv s -> timing s F -> port_run c s acts = Some (s', tr) ->
  exists F', phase_inv s' /\ timing s' F' /\
    forall arr, tl_eq (future c s F (accepted tr ++ arr)) (departures tr ++ future c s' F' arr).
Proof.
  intros PH TI H. revert F PH TI. pattern s, acts, tr, s'. eapply port_run_ind; [| |exact H].
  - intros s0 F PH TI. exists F. split; [exact PH|split; [exact TI|]]. intros arr. apply tl_eq_refl.
  - intros s0 a s1 outs acts0 tr0 s2 St IH F PH TI.
    destruct (future_step c s0 a s1 outs F PH TI St) as (F1 & TI1 & E1).
    destruct (IH F1 (phase_step c s0 a s1 outs PH St) TI1) as (F2 & PH2 & TI2 & E2).
    exists F2. split; [exact PH2|split; [exact TI2|]]. intros arr.
    unfold accepted, departures. cbn [flat_map]. fold (accepted tr0) (departures tr0). rewrite <- !app_assoc.
    eapply teq_trans; [apply E1|]. apply tl_eq_app; [apply tl_eq_refl|]. apply E2.
Qed.

(* time never runs backwards *)
Lemma step_time_mono c s a s' outs : pstep c s a s' outs -> pnow s <= pnow s'.
Proof.
  intros H. destruct H; cbn; try apply Qle_refl.
  - unfold leave_now. destruct (c_fix_rate0 c); cbn; apply Qle_refl.
  - apply Qlt_le_weak. assumption.
Qed.

Fixpoint sorted_from (t : Q) (l : list (Q * pkt)) : Prop :=
  match l with [] => True | (a, _) :: r => t <= a /\ sorted_from a r end.

Lemma sorted_from_weaken t t' l : t' <= t -> sorted_from t l -> sorted_from t' l.
Proof. destruct l as [|[a p] r]; cbn; [auto|]. intros L [H1 H2]. split; [lra|exact H2]. Qed.

Lemma accepted_sorted c acts s s' tr : port_run c s acts = Some (s', tr) -> sorted_from (pnow s) (accepted tr).
Proof.
  intros H. pattern s, acts, tr, s'. eapply port_run_ind; [| |exact H].
  - exact (fun _ => I).
  - intros s0 a s1 outs acts0 tr0 s2 St IH. pose proof (step_time_mono _ _ _ _ _ St) as L.
    unfold accepted. cbn [flat_map]. fold (accepted tr0).
    assert (W0 : sorted_from (pnow s0) (accepted tr0)) by (eapply sorted_from_weaken; eauto).
    destruct a; cbn [ev_accepted app]; try exact W0.
    destruct (has_drop outs); cbn [app]; [exact W0|]. split; [exact L|exact IH].
Qed.

(* what is still to come when nothing more arrives: one departure per packet held, in order *)
Lemma future_nil_packets c s F : map snd (future c s F []) = port_held s.
Proof.
  unfold future, port_held. rewrite app_nil_r. fold (W s).
  destruct (psvc s) as [[p dl]|]; cbn [map snd app]; rewrite dep_from_packets; reflexivity.
Qed.

(* THE RECURRENCE.  For every admissible execution from the initial state: the timed departures so far,
   followed by one more departure per packet still held, are exactly what the recurrence of the property
   gives for the accepted arrivals:  d_1 = a_1 + tx_1,  d_k = max(a_k, d_{k-1}) + tx_k,  same packets, same
   order (FIFO).  So the departures so far are a prefix of the recurrence, and all of it once nothing is held. *)
Theorem port_departure_recurrence c t0 acts s tr :
  port_run c (port0 t0) acts = Some (s, tr) ->
  exists rest, tl_eq (dep_spec (txe c) (accepted tr)) (departures tr ++ rest) /\ map snd rest = port_held s.
Proof.
  intros H.
  destruct (future_run c acts (port0 t0) s tr t0 (phase_init t0) (timing_init t0) H) as (F' & PH & TI & E).
  exists (future c s F' []). split; [|apply future_nil_packets].
  specialize (E []). rewrite app_nil_r in E. unfold future at 1 in E. cbn [psvc port0 W pq] in E.
  change (sq_held sq0 ++ accepted tr) with (accepted tr) in E.
  eapply teq_trans; [|exact E].
  apply teq_sym. apply dep_from_spec. intros a p rest0 Ea.
  pose proof (accepted_sorted c acts _ _ _ H) as S. rewrite Ea in S. apply S.
Qed.

(* the books: FIFO conservation, counters *)

Lemma map_snd_pair (t : Q) (l : list pkt) : map snd (map (fun p => (t, p)) l) = l.
Proof. induction l; cbn; congruence. Qed.

Lemma books_step c s a s' outs : pstep c s a s' outs ->
  let e := (pnow s', a, outs) in
  port_held s ++ map snd (ev_accepted e) = map snd (ev_departures e) ++ port_held s'
  /\ precv s' = (precv s + Z.of_nat (length (ev_puts e)))%Z
  /\ pdrop s' = (pdrop s + Z.of_nat (length (ev_dropped e)))%Z
  /\ ev_puts e = map snd (ev_accepted e) ++ ev_dropped e.
Proof.
  intros H.
  destruct H; cbn zeta.
  - destruct (put_accept_event c s (pnow (put_accept s p a)) p u) as (-> & -> & ->).
    cbn [map app length put_accept precv pdrop ev_puts snd]. repeat split; try lia.
    unfold port_held. cbn [psvc pq put_accept]. rewrite fifo_held_put, map_app, app_assoc. reflexivity.
  - destruct (put_refuse_event c s (pnow (put_refuse s a)) p u) as (-> & -> & ->).
    cbn [map app length put_refuse precv pdrop ev_puts]. repeat split; try lia.
    unfold port_held. cbn [psvc pq put_refuse]. rewrite app_nil_r. reflexivity.
  - cbn. repeat split; try lia. unfold port_held. cbn. rewrite app_nil_r, (fifo_held_get _ _ _ Hget). reflexivity.
  - cbn. repeat split; try lia. unfold port_held. cbn. rewrite app_nil_r, (fifo_held_cb _ _ _ Hcb). reflexivity.
  - cbn. repeat split; try lia. unfold port_held. cbn. rewrite Hsvc, app_nil_r, (fifo_held_take _ _ _ _ Htake). reflexivity.
  - destruct (leave_now_fields c (with_q s q) p) as (E1 & E2 & E3 & E4 & _).
    cbn. rewrite E3, E4. cbn. repeat split; try lia.
    unfold port_held. cbn. rewrite E2. cbn.
    rewrite Hsvc, app_nil_r, (fifo_held_take _ _ _ _ Htake), (fifo_held_get _ _ _ Hget).
    reflexivity.
  - cbn. repeat split; try lia. unfold port_held. cbn. rewrite Hsvc, app_nil_r, (fifo_held_get _ _ _ Hget). reflexivity.
  - cbn. repeat split; try lia. unfold port_held. cbn. rewrite app_nil_r. reflexivity.
  - unfold sample. destruct incl; cbn; repeat split; try lia; rewrite app_nil_r; reflexivity.
Qed.

Lemma perm_4 (A : Type) (a b c d : list A) : Permutation ((a ++ b) ++ (c ++ d)) ((a ++ c) ++ (b ++ d)).
Proof.
  rewrite <- !app_assoc. apply Permutation_app_head. rewrite !app_assoc.
  apply Permutation_app_tail. apply Permutation_app_comm.
Qed.

Lemma books_run c acts s s' tr : port_run c s acts = Some (s', tr) ->
  port_held s ++ map snd (accepted tr) = forwarded tr ++ port_held s'
  /\ precv s' = (precv s + Z.of_nat (length (puts tr)))%Z
  /\ pdrop s' = (pdrop s + Z.of_nat (length (dropped tr)))%Z
  /\ Permutation (puts tr) (map snd (accepted tr) ++ dropped tr).
Proof.
  intros H. pattern s, acts, tr, s'. eapply port_run_ind; [| |exact H].
  - intros s0. cbn. rewrite app_nil_r. repeat split; try lia. constructor.
  - intros s0 a s1 outs acts0 tr0 s2 St (B1 & B2 & B3 & B4). apply books_step in St as (A1 & A2 & A3 & A4).
    unfold forwarded, accepted, departures, puts, dropped. cbn [flat_map].
    fold (accepted tr0) (departures tr0) (puts tr0) (dropped tr0).
    rewrite !map_app, !app_length. fold (forwarded tr0). repeat split; try lia.
    + rewrite app_assoc, A1, <- app_assoc, B1, app_assoc. reflexivity.
    + rewrite A4. eapply Permutation_trans; [apply Permutation_app_head; exact B4|]. apply perm_4.
Qed.

Lemma accepted_le_puts_sub tr : length (accepted tr) = length (map snd (accepted tr)).
Proof. rewrite map_length. reflexivity. Qed.

(* packets_received = accepted + packets_dropped, packets_dropped = number of refusals, in every reachable state *)
Theorem port_counters c t0 acts s tr :
  port_run c (port0 t0) acts = Some (s, tr) ->
  precv s = Z.of_nat (length (puts tr)) /\ pdrop s = Z.of_nat (length (dropped tr)) /\
  precv s = (Z.of_nat (length (accepted tr)) + pdrop s)%Z.
Proof.
  intros H. destruct (books_run c _ _ _ _ H) as (_ & B2 & B3 & B4). cbn in B2, B3.
  apply Permutation_length in B4. rewrite app_length, map_length in B4. repeat split; lia.
Qed.

(* the advertised byte occupancy is the bytes actually held *)

Lemma sum_sizes_app l1 l2 : sum_sizes (l1 ++ l2) = (sum_sizes l1 + sum_sizes l2)%Z.
Proof.
  induction l1 as [|p l IH]; [reflexivity|].
  rewrite <- app_comm_cons. change (sum_sizes (p :: l ++ l2)) with (psize p + sum_sizes (l ++ l2))%Z.
  change (sum_sizes (p :: l)) with (psize p + sum_sizes l)%Z. rewrite IH. lia.
Qed.

Definition bytes_exact (s : port) : Prop := pbytes s = sum_sizes (port_held s).

Lemma bytes_step c s a s' outs : c_fix_rate0 c = true -> bytes_exact s -> pstep c s a s' outs -> bytes_exact s'.
Proof.
  intros FX B H. unfold bytes_exact in *.
  destruct H; unfold port_held in *.
  - cbn. rewrite fifo_held_put, map_app, app_assoc, sum_sizes_app, B. cbn. lia.
  - cbn. exact B.
  - cbn. rewrite (fifo_held_get _ _ _ Hget). exact B.
  - cbn. rewrite (fifo_held_cb _ _ _ Hcb). exact B.
  - cbn. rewrite Hsvc, (fifo_held_take _ _ _ _ Htake) in B. cbn in B. cbn. exact B.
  - unfold leave_now. rewrite FX. cbn. rewrite Hsvc, (fifo_held_take _ _ _ _ Htake) in B. cbn in B.
    rewrite Hsvc, (fifo_held_get _ _ _ Hget). cbn. lia.
  - cbn. rewrite Hsvc in B. cbn in B. rewrite (fifo_held_get _ _ _ Hget). lia.
  - cbn. exact B.
  - exact B.
Qed.

Theorem port_bytes_exact c t0 acts s tr :
  c_fix_rate0 c = true -> port_run c (port0 t0) acts = Some (s, tr) -> pbytes s = sum_sizes (port_held s).
Proof.
  intros FX. apply (run_inv_all c bytes_exact); [|reflexivity].
  intros s0 a s1 outs. apply bytes_step. exact FX.
Qed.

(* never late, work-conserving, drained *)

Definition put_nonneg (a : paction) : Prop := match a with PPut p _ => (0 <= psize p)%Z | _ => True end.
Definition nonneg_held (s : port) : Prop := Forall (fun p => (0 <= psize p)%Z) (port_held s).

Lemma taken_nonneg s a0 p q :
  nonneg_held s -> psvc s = None -> sq_take (pq s) = Some ((a0, p), q) -> (0 <= psize p)%Z.
Proof.
  unfold nonneg_held, port_held. intros NH V Ht. rewrite V, (fifo_held_take _ _ _ _ Ht) in NH. exact (Forall_inv NH).
Qed.

Lemma svc_nonneg s p dl : nonneg_held s -> psvc s = Some (p, dl) -> (0 <= psize p)%Z.
Proof. unfold nonneg_held, port_held. intros NH V. rewrite V in NH. exact (Forall_inv NH). Qed.

Lemma nonneg_step c s a s' outs : put_nonneg a -> nonneg_held s -> pstep c s a s' outs -> nonneg_held s'.
Proof.
  intros OK NH H. pose proof (books_step c s a s' outs H) as (E & _). cbn zeta in E. unfold nonneg_held in *.
  assert (F : Forall (fun p => (0 <= psize p)%Z) (port_held s ++ map snd (ev_accepted (pnow s', a, outs)))).
  { apply Forall_app. split; [exact NH|]. destruct a; cbn; try constructor.
    destruct (has_drop outs); cbn; constructor; [exact OK|constructor]. }
  rewrite E in F. apply Forall_app in F as [_ F]. exact F.
Qed.

Lemma tx_nonneg c p : 0 < c_rate c -> (0 <= psize p)%Z -> 0 <= tx c p.
Proof.
  intros R S. unfold tx. apply Qle_shift_div_l; [exact R|]. rewrite Qmult_0_l.
  unfold Qle; cbn. lia.
Qed.

Definition not_late (s : port) : Prop := forall p dl, psvc s = Some (p, dl) -> pnow s <= dl.

Lemma not_late_step c s a s' outs : nonneg_held s -> not_late s -> pstep c s a s' outs -> not_late s'.
Proof.
  intros NH NL H. unfold not_late in *.
  destruct H;
    cbn [psvc pnow with_svc with_q with_now with_bytes with_started put_accept put_refuse]; auto.
  - pose proof (tx_nonneg c p Hrate (taken_nonneg _ _ _ _ NH Hsvc Htake)) as TX.
    pose proof (Qred_correct (pnow s + tx c p)) as ER.
    intros p1 dl1 E. assert (E' : dl1 = Qred (pnow s + tx c p)) by congruence. rewrite E'. lra.
  - destruct (leave_now_fields c (with_q s q) p) as (_ & E2 & _). rewrite E2. cbn. rewrite Hsvc. discriminate.
  - discriminate.
Qed.

Record safe_inv (s : port) : Prop := { sf_phase : phase_inv s; sf_nonneg : nonneg_held s; sf_late : not_late s }.

Lemma safe_init t0 : safe_inv (port0 t0).
Proof. constructor; [apply phase_init|constructor|intros p dl E; discriminate]. Qed.

Lemma safe_step c s a s' outs : put_nonneg a -> safe_inv s -> pstep c s a s' outs -> safe_inv s'.
Proof.
  intros Ha [P N L] St. constructor; [eapply phase_step|eapply nonneg_step|eapply not_late_step]; eassumption.
Qed.

Lemma safe_run c t0 acts s tr :
  Forall put_nonneg acts -> port_run c (port0 t0) acts = Some (s, tr) -> safe_inv s.
Proof. intros OK. apply (run_inv c put_nonneg safe_inv (safe_step c)); [exact OK|apply safe_init]. Qed.

Lemma phase_run c t0 acts s tr : port_run c (port0 t0) acts = Some (s, tr) -> phase_inv s.
Proof.
  apply (run_inv_all c phase_inv); [|apply phase_init]. intros s0 a s1 outs. apply phase_step.
Qed.

(* a pending transmission deadline is never passed *)
Theorem port_never_late c t0 acts s tr :
  Forall put_nonneg acts -> port_run c (port0 t0) acts = Some (s, tr) ->
  forall p dl, psvc s = Some (p, dl) -> pnow s <= dl.
Proof. intros OK H. apply (sf_late s (safe_run c t0 acts s tr OK H)). Qed.

(* nothing enabled and no deadline pending: nothing is held *)
Theorem port_drained c t0 acts s tr :
  port_run c (port0 t0) acts = Some (s, tr) -> purgent s = false -> psvc s = None -> port_held s = [].
Proof.
  intros H U V. unfold port_held. rewrite V. fold (W s).
  rewrite (quiet_idle_empty s (phase_run c t0 acts s tr H) U V). reflexivity.
Qed.

(* whenever the clock may advance the port is transmitting or holds nothing *)
Theorem port_work_conserving c t0 acts s tr t s' outs :
  port_run c (port0 t0) acts = Some (s, tr) -> port_act c s (PAdvance t) = Some (s', outs) ->
  (exists p dl, psvc s = Some (p, dl) /\ t <= dl) \/ port_held s = [].
Proof.
  intros H A. apply port_act_step in A. inversion A as [| | | | | | |t' Hurg Hlt Hdl|]; subst.
  destruct (psvc s) as [[p dl]|] eqn:V; [|right; exact (port_drained c t0 acts s tr H Hurg V)].
  left. exists p, dl. split; [reflexivity|]. eapply Hdl. reflexivity.
Qed.

(* per-hop stamps *)

Definition out_stamp (o : pout) : list (ekey * Q) := match o with OStamp k t => [(k, t)] | _ => [] end.

(* every put() event carries exactly the stamp (key, its own instant) when the port stamps, nothing else does *)
Definition stamp_ok (c : pcfg) (e : pev) : Prop :=
  match e with
  | (t, a, outs) =>
      flat_map out_stamp outs =
      match a, c_stamp c with
      | PPut _ _, Some k => [(k, t)]
      | _, _ => []
      end
  end.

Lemma stamp_step c s a s' outs : pstep c s a s' outs -> stamp_ok c (pnow s', a, outs).
Proof.
  intros H. destruct H; cbn; try reflexivity.
  - unfold stamp_outs. destruct (c_stamp c); reflexivity.
  - unfold stamp_outs. destruct (c_stamp c); reflexivity.
  - unfold sample. destruct incl; reflexivity.
Qed.

Theorem port_perhop_stamp c s0 acts s tr : port_run c s0 acts = Some (s, tr) -> Forall (stamp_ok c) tr.
Proof.
  intros H. pattern s0, acts, tr, s. eapply port_run_ind; [| |exact H].
  - constructor.
  - intros s1 a s2 outs acts0 tr0 s3 St IH. constructor; [exact (stamp_step _ _ _ _ _ St)|exact IH].
Qed.

(* PortMonitor samples *)

Theorem monitor_samples c t0 acts s tr incl :
  c_fix_rate0 c = true -> c_fix_mon c = true -> port_run c (port0 t0) acts = Some (s, tr) ->
  exists n b, port_act c s (PSample incl) = Some (s, [OSample n b]) /\
    b = (if incl then sum_sizes (port_held s) else sum_sizes (map snd (W s))) /\
    n = (Z.of_nat (length (items (pq s))) + (if incl then busy_flag s else 0))%Z /\
    ((forall x, get (pq s) <> GGranted x) ->
       n = Z.of_nat (length (if incl then port_held s else map snd (W s)))).
Proof.
  intros FX FM H. pose proof (port_bytes_exact c t0 acts s tr FX H) as B.
  cbn [port_act]. rewrite FM. unfold sample.
  assert (EB : sum_sizes (port_held s) = (busy_size s + sum_sizes (map snd (W s)))%Z).
  { unfold port_held, busy_size. fold (W s). destruct (psvc s) as [[p dl]|]; cbn [app]; [|reflexivity]. reflexivity. }
  assert (EN : (forall x, get (pq s) <> GGranted x) ->
               Z.of_nat (length (map snd (W s))) = Z.of_nat (length (items (pq s)))
               /\ Z.of_nat (length (port_held s)) = (Z.of_nat (length (items (pq s))) + busy_flag s)%Z).
  { intros NG. unfold port_held, busy_flag. fold (W s). unfold W. rewrite (sq_held_not_granted _ _ NG).
    rewrite app_length, map_length. destruct (psvc s) as [[p dl]|]; cbn [length]; lia. }
  destruct incl.
  - eexists _, _. split; [reflexivity|]. split; [exact B|]. split; [reflexivity|].
    intros NG. destruct (EN NG) as [_ E2]. lia.
  - eexists _, _. split; [reflexivity|]. split; [lia|]. split; [lia|].
    intros NG. destruct (EN NG) as [E1 _]. lia.
Qed.

(* the tail-drop rule (Port.put, repaired) and the occupancy bound *)

(* the property's refusal condition, on what is ACTUALLY held *)
Definition tail_refuses (qlimit : option Z) (lb : bool) (s : port) (p : pkt) : Prop :=
  match qlimit with
  | None => False
  | Some q => if lb then (sum_sizes (port_held s) + psize p > q)%Z
              else (Z.of_nat (length (items (pq s))) >= q - 1)%Z
  end.

Lemma no_drop_in_stamp c s p : ~ In (ODrop p) (stamp_outs c s).
Proof. unfold stamp_outs. destruct (c_stamp c); cbn; intuition discriminate. Qed.

Lemma tail_policy_inv rate qlimit lb eid s p u r a :
  c_policy (port_cfg all_fixed rate qlimit lb eid) s p u = Some (r, a) ->
  u = None /\ a = pavg s /\ r = match qlimit with None => false | Some q => over_limit lb q s p end.
Proof.
  cbn. unfold tail_policy. destruct u; [discriminate|]. destruct qlimit; intros H; injection H as <- <-; auto.
Qed.

(* the threshold test reads the advertised byte_size; it decides as the property says on what is actually held *)
Lemma over_limit_refuses lb q s p :
  bytes_exact s -> (over_limit lb q s p = true <-> tail_refuses (Some q) lb s p).
Proof.
  unfold over_limit, tail_refuses, bytes_exact. intros <-. destruct lb; [rewrite Z.ltb_lt|rewrite Z.leb_le]; lia.
Qed.

Lemma put_step_inv c s p u s' outs :
  pstep c s (PPut p u) s' outs ->
  exists r a, c_policy c s p u = Some (r, a) /\ (In (ODrop p) outs <-> r = true) /\
              s' = if r then put_refuse s a else put_accept s p a.
Proof.
  intros H. inversion H as [p0 u0 a Hpol|p0 u0 a Hpol| | | | | | |]; subst; eexists _, a; (split; [exact Hpol|]);
    (split; [|reflexivity]).
  - split; [intros D; destruct (no_drop_in_stamp _ _ _ D)|discriminate].
  - split; [reflexivity|]. intros _. apply in_or_app. right. left. reflexivity.
Qed.

Theorem port_drop_iff rate qlimit lb eid t0 acts s tr p u s' outs :
  let c := port_cfg all_fixed rate qlimit lb eid in
  port_run c (port0 t0) acts = Some (s, tr) ->
  port_act c s (PPut p u) = Some (s', outs) ->
  (In (ODrop p) outs <-> tail_refuses qlimit lb s p)
  /\ (In (ODrop p) outs -> pq s' = pq s /\ pbytes s' = pbytes s /\ pdrop s' = (pdrop s + 1)%Z)
  /\ (~ In (ODrop p) outs ->
        pq s' = sq_put fifo_push (pnow s) p (pq s) /\ pbytes s' = (pbytes s + psize p)%Z /\ pdrop s' = pdrop s).
Proof.
  intros c H A. pose proof (port_bytes_exact c t0 acts s tr eq_refl H) as B.
  apply port_act_step, put_step_inv in A as (r & a & Hpol & D & ->).
  apply tail_policy_inv in Hpol as (_ & _ & R).
  split; [|split].
  - rewrite D, R. destruct qlimit as [q|]; [apply over_limit_refuses, B|split; [discriminate|intros []]].
  - intros HD. apply D in HD as ->. cbn. auto.
  - intros HD. destruct r; [destruct HD; apply D; reflexivity|]. cbn. auto.
Qed.

(* a port without limit never refuses *)
Corollary port_unlimited_never_drops rate lb eid t0 acts s tr p u s' outs :
  let c := port_cfg all_fixed rate None lb eid in
  port_run c (port0 t0) acts = Some (s, tr) -> port_act c s (PPut p u) = Some (s', outs) -> ~ In (ODrop p) outs.
Proof.
  intros c H A D. destruct (port_drop_iff rate None lb eid t0 acts s tr p u s' outs H A) as ((T & _) & _).
  exact (T D).
Qed.

Lemma held_le_items s : phase_inv s -> (length (port_held s) <= S (length (items (pq s))))%nat.
Proof.
  intros [N P]. unfold port_held, sq_held. rewrite app_length, map_length.
  destruct (psvc s) as [[p dl]|]; [destruct P as [-> _]|destruct (get (pq s))]; cbn; lia.
Qed.

Lemma items_get_le (q q' : sq pkt) : sq_get fifo_pop q = Some q' -> (length (items q') <= length (items q))%nat.
Proof.
  intros H. apply fifo_get_inv in H as (_ & _ & [(E & E' & _)|(x & E & _)]); rewrite E; [rewrite E'|]; cbn; lia.
Qed.
Lemma items_cb_le (q q' : sq pkt) : sq_cb fifo_pop q = Some q' -> (length (items q') <= length (items q))%nat.
Proof.
  intros H. apply fifo_cb_inv in H as (_ & [(_ & x & E & _)|(_ & E & _)]); rewrite E; cbn; lia.
Qed.
Lemma items_take_eq (q q' : sq pkt) x : sq_take q = Some (x, q') -> items q' = items q.
Proof. intros H. apply sq_take_inv in H as (_ & E & _). exact E. Qed.

(* the occupancy invariant of the tail-drop port *)
Definition occ_inv (qlimit : option Z) (lb : bool) (s : port) : Prop :=
  match qlimit with
  | None => True
  | Some q =>
      if lb then (pbytes s <= Z.max q 0)%Z
      else (Z.of_nat (length (items (pq s))) <= Z.max (q - 1) 0)%Z /\ ((q <= 1)%Z -> port_held s = [])
  end.

Lemma occ_step rate qlimit lb eid s a s' outs :
  let c := port_cfg all_fixed rate qlimit lb eid in
  nonneg_held s -> occ_inv qlimit lb s -> pstep c s a s' outs -> occ_inv qlimit lb s'.
Proof.
  intros c NH O H. unfold occ_inv in *. destruct qlimit as [q|]; [|exact I]. destruct lb.
  - (* byte_size grows only by an accepted put, which the threshold has admitted *)
    destruct H; try exact O.
    + apply tail_policy_inv in Hpol as (_ & _ & R).
      symmetry in R. apply Z.ltb_ge in R. cbn. lia.
    + pose proof (taken_nonneg _ _ _ _ NH Hsvc Htake). unfold leave_now. cbn. lia.
    + pose proof (svc_nonneg _ _ _ NH Hsvc). cbn. lia.
  - destruct O as [O1 O2]. split.
    + (* the waiting line grows only by an accepted put *)
      destruct H;
        cbn [pq with_q with_svc with_bytes with_started with_now put_refuse]; try exact O1.
      * apply tail_policy_inv in Hpol as (_ & _ & R).
        symmetry in R. apply Z.leb_gt in R. cbn [pq put_accept sq_put items]. unfold fifo_push.
        rewrite app_length. cbn [length]. lia.
      * pose proof (items_get_le _ _ Hget). cbn in *. lia.
      * pose proof (items_cb_le _ _ Hcb). lia.
      * rewrite (items_take_eq _ _ _ Htake). exact O1.
      * pose proof (items_get_le _ _ Hget). rewrite <- (items_take_eq _ _ _ Htake) in O1. lia.
      * pose proof (items_get_le _ _ Hget). lia.
    + (* a limit of at most one packet admits nothing, so what is held stays empty *)
      intros Q1. specialize (O2 Q1). destruct (books_step c s a s' outs H) as (EH & _). cbn zeta in EH.
      assert (EA : ev_accepted (pnow s', a, outs) = []).
      { destruct H; try reflexivity; [|apply put_refuse_event].
        apply tail_policy_inv in Hpol as (_ & _ & R).
        symmetry in R. apply Z.leb_gt in R. lia. }
      rewrite O2, EA in EH. symmetry in EH. apply app_eq_nil in EH. apply EH.
Qed.

(* occupancy never exceeds the limit: bytes held <= qlimit in byte mode; packets held (waiting, travelling to
   the server, in transmission) <= qlimit in packet mode (qlimit - 1 waiting + the reserved place) *)
Theorem port_occupancy_le_limit rate q lb eid t0 acts s tr :
  let c := port_cfg all_fixed rate (Some q) lb eid in
  Forall put_nonneg acts -> port_run c (port0 t0) acts = Some (s, tr) ->
  if lb then (sum_sizes (port_held s) <= Z.max q 0)%Z
  else (Z.of_nat (length (items (pq s))) <= Z.max (q - 1) 0)%Z /\ (Z.of_nat (length (port_held s)) <= Z.max q 0)%Z.
Proof.
  intros c OK H.
  assert (INV : safe_inv s /\ occ_inv (Some q) lb s).
  { apply (run_inv c put_nonneg (fun x => safe_inv x /\ occ_inv (Some q) lb x)) with (acts := acts) (s := port0 t0) (tr := tr); auto.
    - intros s0 a s1 outs Ha [SI O] St. split; [eapply safe_step; eassumption|eapply occ_step; [apply SI|eassumption..]].
    - split; [apply safe_init|]. unfold occ_inv. destruct lb; cbn; [lia|]. split; [lia|reflexivity]. }
  destruct INV as [[P N L] O]. unfold occ_inv in O. destruct lb.
  - rewrite <- (port_bytes_exact c t0 acts s tr eq_refl H). exact O.
  - destruct O as [O1 O2]. split; [exact O1|].
    destruct (Z_le_gt_dec q 1) as [Q1|Q1].
    + rewrite (O2 Q1). cbn. lia.
    + pose proof (held_le_items s P). lia.
Qed.

(* conservation as C08 states it *)

Inductive subseq {A : Type} : list A -> list A -> Prop :=
| sub_nil : subseq [] []
| sub_take x l1 l2 : subseq l1 l2 -> subseq (x :: l1) (x :: l2)
| sub_skip x l1 l2 : subseq l1 l2 -> subseq l1 (x :: l2).

Lemma subseq_refl (A : Type) (l : list A) : subseq l l.
Proof. induction l; constructor; auto. Qed.
Lemma subseq_nil_l (A : Type) (l : list A) : subseq [] l.
Proof. induction l; constructor; auto. Qed.
Lemma subseq_app (A : Type) (l1 l2 m1 m2 : list A) : subseq l1 l2 -> subseq m1 m2 -> subseq (l1 ++ m1) (l2 ++ m2).
Proof. intros H1 H2. induction H1; cbn; auto; constructor; auto. Qed.
Lemma subseq_trans (A : Type) (l1 l2 l3 : list A) : subseq l1 l2 -> subseq l2 l3 -> subseq l1 l3.
Proof.
  intros H12 H23. revert l1 H12. induction H23 as [|x l2 l3 H IH|x l2 l3 H IH]; intros l1 H12.
  - exact H12.
  - inversion H12; subst; constructor; auto.
  - constructor. auto.
Qed.
Lemma subseq_filter (A : Type) (f : A -> bool) (l1 l2 : list A) : subseq l1 l2 -> subseq (filter f l1) (filter f l2).
Proof. intros H. induction H; cbn; [constructor| |]; destruct (f x); try constructor; auto. Qed.
Lemma subseq_prefix (A : Type) (l r : list A) : subseq l (l ++ r).
Proof. rewrite <- (app_nil_r l) at 1. apply subseq_app; [apply subseq_refl|apply subseq_nil_l]. Qed.

Lemma accepted_subseq_puts tr : subseq (map snd (accepted tr)) (puts tr).
Proof.
  induction tr as [|[[t a] outs] tr IH]; [constructor|].
  unfold accepted, puts. cbn [flat_map]. fold (accepted tr) (puts tr). rewrite map_app.
  apply subseq_app; [|exact IH].
  destruct a as [p u| | | | |t'|incl]; cbn.
  1: destruct (has_drop outs); cbn; [apply sub_skip, sub_nil|apply sub_take, sub_nil].
  all: constructor.
Qed.

(* put-in = forwarded + refused + held, as multisets of the very packets; refusals are the counted drops *)
Theorem port_conserves c t0 acts s tr :
  port_run c (port0 t0) acts = Some (s, tr) ->
  Permutation (puts tr) (forwarded tr ++ dropped tr ++ port_held s)
  /\ pdrop s = Z.of_nat (length (dropped tr))
  /\ map snd (accepted tr) = forwarded tr ++ port_held s.
Proof.
  intros H. destruct (books_run c _ _ _ _ H) as (B1 & _ & B3 & B4). cbn in B1, B3.
  split; [|split; [lia|exact B1]].
  eapply Permutation_trans; [exact B4|]. rewrite B1, <- app_assoc.
  apply Permutation_app_head. apply Permutation_app_comm.
Qed.

(* packets of one flow leave in the order in which they were put in *)
Theorem port_flow_fifo c t0 acts s tr (f : pkt -> bool) :
  port_run c (port0 t0) acts = Some (s, tr) ->
  subseq (filter f (forwarded tr)) (filter f (puts tr))
  /\ exists rest, filter f (map snd (accepted tr)) = filter f (forwarded tr) ++ rest.
Proof.
  intros H. destruct (port_conserves c t0 acts s tr H) as (_ & _ & E). split.
  - apply subseq_filter. eapply subseq_trans; [|apply accepted_subseq_puts]. rewrite E. apply subseq_prefix.
  - exists (filter f (port_held s)). rewrite E, filter_app. reflexivity.
Qed.

(* the stamp theorem in terms of the configured element id *)

Definition stamped_as (eid : ekey) (e : pev) : Prop :=
  match e with
  | (t, PPut _ _, outs) => flat_map out_stamp outs = match eid with Some _ => [(eid, t)] | None => [] end
  | (_, _, outs) => flat_map out_stamp outs = []
  end.

Lemma stamped_as_eid c eid s0 acts s tr :
  c_stamp c = stamp_key true eid -> port_run c s0 acts = Some (s, tr) -> Forall (stamped_as eid) tr.
Proof.
  intros Hc H. eapply Forall_impl; [|eapply port_perhop_stamp; exact H].
  intros [[t a] outs] E. unfold stamp_ok in E. rewrite Hc in E. unfold stamped_as.
  destruct a; try exact E. destruct eid; exact E.
Qed.

Theorem port_perhop_stamp_eid rate qlimit lb eid s0 acts s tr :
  port_run (port_cfg all_fixed rate qlimit lb eid) s0 acts = Some (s, tr) -> Forall (stamped_as eid) tr.
Proof. apply stamped_as_eid. reflexivity. Qed.

(* non-vacuity: a concrete admissible execution (burst of four at a packet limit of 3, a fifth packet
       arriving exactly at the first departure), and the refutations of the code as found             *)

Definition exP (u : nat) (f sz : Z) (t : Q) : pkt := mkp u (Z.of_nat u + 1) f sz t.

Definition ex_cfg : pcfg := port_cfg all_fixed 64 (Some 3%Z) false (Some 1%Z).
Definition ex_acts : list paction :=
  [PInit; PPut (exP 0 0 8 0) None; PPut (exP 1 1 8 0) None; PPut (exP 2 0 16 0) None; PPut (exP 3 1 8 0) None;
   PStoreCb; PStoreCb; PGet; PAdvance 1; PPut (exP 4 0 8 1) None; PTimer; PStoreCb; PGet; PAdvance 2; PTimer; PGet;
   PAdvance 3; PTimer].

Definition summary (r : port * list pev) :=
  (map (fun x => (fst x, uid (snd x))) (departures (snd r)), map uid (dropped (snd r)),
   map (fun x => (fst x, uid (snd x))) (accepted (snd r)), (precv (fst r), pdrop (fst r), pbytes (fst r)), port_held (fst r)).

Example port_example :
  option_map summary (port_run ex_cfg (port0 0) ex_acts)
  = Some ([(1, 0%nat); (2, 1%nat); (3, 4%nat)], [2%nat; 3%nat], [(0, 0%nat); (0, 1%nat); (1, 4%nat)], (5, 2, 0)%Z, []).
Proof. vm_compute. reflexivity. Qed.

Example port_example_recurrence :
  dep_spec (txe ex_cfg) [(0, exP 0 0 8 0); (0, exP 1 1 8 0); (1, exP 4 0 8 1)]
  = [(0 + txe ex_cfg (exP 0 0 8 0), exP 0 0 8 0);
     (Qmax 0 (0 + txe ex_cfg (exP 0 0 8 0)) + txe ex_cfg (exP 1 1 8 0), exP 1 1 8 0);
     (Qmax 1 (Qmax 0 (0 + txe ex_cfg (exP 0 0 8 0)) + txe ex_cfg (exP 1 1 8 0)) + txe ex_cfg (exP 4 0 8 1), exP 4 0 8 1)]
  /\ map (fun x => Qred (fst x)) (dep_spec (txe ex_cfg) [(0, exP 0 0 8 0); (0, exP 1 1 8 0); (1, exP 4 0 8 1)]) = [1; 2; 3].
Proof. split; [reflexivity|vm_compute; reflexivity]. Qed.

(* rate 0: every packet leaves at its arrival instant and byte_size returns to 0 *)
Example port_example_rate0 :
  option_map summary
    (port_run (port_cfg all_fixed 0 (Some 20%Z) true (Some 1%Z)) (port0 0)
       [PInit; PPut (exP 0 0 8 0) None; PPut (exP 1 1 8 0) None; PPut (exP 2 0 16 0) None; PStoreCb; PStoreCb; PGet; PGet;
        PAdvance 1; PPut (exP 4 0 8 1) None; PStoreCb; PGet])
  = Some ([(0, 0%nat); (0, 1%nat); (1, 4%nat)], [2%nat], [(0, 0%nat); (0, 1%nat); (1, 4%nat)], (4, 1, 0)%Z, []).
Proof. vm_compute. reflexivity. Qed.

(* a monitored port: one packet in transmission (4 bytes), one waiting (4 bytes) *)
Definition mon_acts : list paction :=
  [PInit; PAdvance 1; PPut (exP 0 0 4 1) None; PPut (exP 1 0 4 1) None; PStoreCb; PStoreCb; PGet; PAdvance 2].

Definition sample_of (c : pcfg) (incl : bool) (r : port * list pev) : list pout :=
  match port_act c (fst r) (PSample incl) with Some (_, o) => o | None => [] end.

Example monitor_example :
  let c := port_cfg all_fixed 8 (Some 4%Z) false (Some 1%Z) in
  option_map (fun r => (sample_of c true r, sample_of c false r)) (port_run c (port0 0) mon_acts)
  = Some ([OSample 2 8], [OSample 1 4]).
Proof. vm_compute. reflexivity. Qed.

(* ---- the code as found (one repair withheld at a time) violates the statements ---- *)
Definition without_qlimit_fix : fixes := {| fx_qlimit := false; fx_stamp := true; fx_rate0 := true; fx_mon := true |}.
Definition without_stamp_fix : fixes := {| fx_qlimit := true; fx_stamp := false; fx_rate0 := true; fx_mon := true |}.
Definition without_rate0_fix : fixes := {| fx_qlimit := true; fx_stamp := true; fx_rate0 := false; fx_mon := true |}.
Definition without_mon_fix : fixes := {| fx_qlimit := true; fx_stamp := true; fx_rate0 := true; fx_mon := false |}.

(* `if self.qlimit:` : a packet is accepted although qlimit - 1 = 1 packet is already waiting *)
Lemma port_drop_rule_refuted_unfixed :
  exists acts s tr p s' outs,
    let c := port_cfg without_qlimit_fix 64 (Some 2%Z) false (Some 1%Z) in
    port_run c (port0 0) acts = Some (s, tr) /\ port_act c s (PPut p None) = Some (s', outs) /\
    ~ In (ODrop p) outs /\ tail_refuses (Some 2%Z) false s p.
Proof.
  exists [PInit; PPut (exP 0 0 8 0) None]. eexists. eexists. exists (exP 1 0 8 0). eexists. eexists.
  cbn zeta. split; [lazy; reflexivity|]. split; [lazy; reflexivity|]. split.
  - intros [H|[]]. discriminate.
  - cbn. lia.
Qed.

(* ... and qlimit = None is not "never refused" but a TypeError: the call is not even admissible *)
Lemma port_unlimited_raises_unfixed :
  forall rate lb eid s p, port_act (port_cfg without_qlimit_fix rate None lb eid) s (PPut p None) = None.
Proof. reflexivity. Qed.

(* rate 0: byte_size is never decremented *)
Lemma port_bytes_exact_refuted_unfixed :
  exists acts s tr,
    port_run (port_cfg without_rate0_fix 0 (Some 100%Z) true (Some 1%Z)) (port0 0) acts = Some (s, tr) /\
    port_held s = [] /\ pbytes s = 10%Z.
Proof.
  exists [PInit; PPut (exP 0 0 10 0) None; PStoreCb; PGet]. eexists. eexists.
  split; [lazy; reflexivity|]. split; reflexivity.
Qed.

(* `if not self.element_id:` : a port with an element id stamps nothing *)
Lemma port_perhop_stamp_refuted_unfixed :
  exists acts s tr,
    port_run (port_cfg without_stamp_fix 64 None false (Some 1%Z)) (port0 0) acts = Some (s, tr) /\
    ~ Forall (stamped_as (Some 1%Z)) tr.
Proof.
  exists [PPut (exP 0 0 8 0) None]. eexists. eexists. split; [lazy; reflexivity|].
  intros H. inversion H as [|e l He Hl]; subst. cbn in He. discriminate.
Qed.

(* PortMonitor: the packet in transmission is counted twice when included, once when excluded *)
Lemma monitor_samples_refuted_unfixed :
  exists acts s tr,
    let c := port_cfg without_mon_fix 8 (Some 4%Z) false (Some 1%Z) in
    port_run c (port0 0) acts = Some (s, tr) /\ sum_sizes (port_held s) = 8%Z /\
    port_act c s (PSample true) = Some (s, [OSample 2 12]) /\ port_act c s (PSample false) = Some (s, [OSample 1 8]).
Proof.
  exists mon_acts. eexists. eexists. cbn zeta. split; [lazy; reflexivity|]. split; [reflexivity|]. split; reflexivity.
Qed.

(* rate 0 (no serialisation delay): every accepted packet leaves at its arrival instant *)

Lemma dep_from_zero f : (forall p, f p == 0) ->
  forall l F, sorted_from F l -> tl_eq (dep_from f F l) l.
Proof.
  intros Z0. induction l as [|[a p] r IH]; intros F S; cbn [dep_from].
  - constructor.
  - destruct S as [S1 S2].
    assert (E : Qmax a F + f p == a) by (rewrite (Q.max_l a F S1), Z0; lra).
    constructor; [split; [exact E|reflexivity]|].
    eapply teq_trans; [apply dep_from_proper; exact E|]. apply IH. exact S2.
Qed.

Theorem port_rate0_departs_at_arrival c t0 acts s tr :
  c_rate c <= 0 -> port_run c (port0 t0) acts = Some (s, tr) ->
  exists rest, tl_eq (accepted tr) (departures tr ++ rest) /\ map snd rest = port_held s.
Proof.
  intros R H. destruct (port_departure_recurrence c t0 acts s tr H) as (rest & E & EH).
  exists rest. split; [|exact EH]. eapply teq_trans; [|exact E]. apply teq_sym.
  assert (Z0 : forall p, txe c p == 0).
  { intros p. unfold txe. destruct (Qlt_le_dec 0 (c_rate c)) as [L|L]; [lra|reflexivity]. }
  pose proof (accepted_sorted c acts _ _ _ H) as S. cbn [pnow port0] in S.
  destruct (accepted tr) as [|[a p] r]; cbn [dep_spec]; [constructor|]. destruct S as [S1 S2].
  assert (E0 : a + txe c p == a) by (rewrite Z0; lra).
  constructor; [split; [exact E0|reflexivity]|].
  eapply teq_trans; [apply dep_from_proper; exact E0|]. apply dep_from_zero; assumption.
Qed.
