(* Proofs about Elem/Bucket.v: for every configuration with rate > 0 and every admissible execution
   (any action list accepted by tb_run from tb0), the timed outputs of the token bucket are what the
   property's recurrence gives:  packet k reaches the head at h_k = max(arrival_k, departure_(k-1)),
   the bucket then holds lvl_k = min(B, L + rate*(h_k - U)/8), the tokens are debited at the earliest
   instant the bucket holds size_k, the packet leaves 8*size_k/peak later.
   Skeleton: AGENT_GUIDE "Layer E"; the store, the counters and the traces of arrivals, head instants and
   departures are those of a server of Elem/TokenServer.v, the levels and the debits are the bucket's own. *)
From Coq Require Import ZArith QArith Qminmax List Bool Lia Lqa Morphisms.
From ONL Require Import Base.Tools Elem.Packet Elem.StoreQ Elem.StoreQProofs Elem.TokenServer Elem.Bucket.
Import ListNotations.

(* ---------------------------------------------------------------------------------------------- *)
(* arithmetic of tokens                                                                            *)

Global Instance fill_proper : Proper (Qeq ==> Qeq ==> Qeq) fill.
Proof. intros r r' Er d d' Ed. unfold fill. rewrite Er, Ed. reflexivity. Qed.

Lemma fill_add r a b : fill r (a + b) == fill r a + fill r b.
Proof. unfold fill. field. Qed.

Lemma fill_sub r a b : fill r (a - b) == fill r a - fill r b.
Proof. unfold fill. field. Qed.

Lemma fill_0 r : fill r 0 == 0.
Proof. unfold fill. field. Qed.

Lemma fill_nonneg r d : 0 < r -> 0 <= d -> 0 <= fill r d.
Proof.
  intros Hr Hd. unfold fill. apply Qle_shift_div_l; [reflexivity|]. rewrite Qmult_0_l.
  apply Qmult_le_0_compat; lra.
Qed.

Lemma fill_pos r d : 0 < r -> 0 < d -> 0 < fill r d.
Proof.
  intros Hr Hd. unfold fill. apply Qlt_shift_div_l; [reflexivity|]. rewrite Qmult_0_l.
  apply Qmult_lt_0_compat; lra.
Qed.

Lemma fill_le r a b : 0 < r -> a <= b -> fill r a <= fill r b.
Proof.
  intros Hr H. assert (X : 0 <= fill r (b - a)) by (apply fill_nonneg; lra).
  rewrite fill_sub in X. lra.
Qed.

Lemma fill_lt r a b : 0 < r -> a < b -> fill r a < fill r b.
Proof.
  intros Hr H. assert (X : 0 < fill r (b - a)) by (apply fill_pos; lra).
  rewrite fill_sub in X. lra.
Qed.

Lemma fill_split r U m t : fill r (t - U) == fill r (m - U) + fill r (t - m).
Proof. rewrite <- fill_add. apply fill_proper; [reflexivity|ring]. Qed.

(* waiting (size - lvl)*8/rate brings exactly the missing tokens *)
Lemma fill_tokwait r s l : 0 < r -> fill r (tokwait r s l) == s - l.
Proof. intros Hr. unfold fill, tokwait. field. lra. Qed.

Lemma tokwait_pos r s l : 0 < r -> l < s -> 0 < tokwait r s l.
Proof.
  intros Hr H. unfold tokwait. apply Qlt_shift_div_l; [exact Hr|]. lra.
Qed.

Global Instance tokwait_proper : Proper (Qeq ==> Qeq ==> Qeq ==> Qeq) tokwait.
Proof. intros r r' Er s s' Es l l' El. unfold tokwait. rewrite Er, Es, El. reflexivity. Qed.

Global Instance spacing_proper : Proper (Qeq ==> Qeq ==> Qeq) spacing.
Proof. intros r r' Er s s' Es. unfold spacing. rewrite Er, Es. reflexivity. Qed.

Global Instance refill_proper : Proper (Qeq ==> Qeq ==> Qeq ==> Qeq ==> Qeq ==> Qeq) refill.
Proof. intros B B' EB r r' Er L L' EL U U' EU t t' Et. unfold refill. rewrite EB, Er, EL, EU, Et. reflexivity. Qed.

Lemma refill_le_B B r L U t : refill B r L U t <= B.
Proof. unfold refill. apply Q.le_min_l. Qed.

Lemma refill_le_fill B r L U t : refill B r L U t <= L + fill r (t - U).
Proof. unfold refill. apply Q.le_min_r. Qed.

Lemma refill_nonneg B r L U t : 0 < r -> 0 <= B -> 0 <= L -> U <= t -> 0 <= refill B r L U t.
Proof.
  intros Hr HB HL Ht. unfold refill. pose proof (fill_nonneg r (t - U) Hr). apply Q.min_glb; lra.
Qed.

Lemma spacing_nonneg k size : 0 < k -> 0 <= size -> 0 <= spacing k size.
Proof.
  intros Hk Hs. unfold spacing. apply Qle_shift_div_l; [exact Hk|]. rewrite Qmult_0_l.
  apply Qmult_le_0_compat; lra.
Qed.

(* ---------------------------------------------------------------------------------------------- *)
(* the recurrence of the property                                                                  *)

(* the instant the tokens of a packet of [size] bytes are debited, when it reached the head at [h]
   with [lvl] tokens in the bucket: at once, or after the wait for the missing tokens *)
Definition release (r h lvl size : Q) : Q :=
  if Qlt_le_dec lvl size then h + tokwait r size lvl else h.

(* tokens left right after the debit *)
Definition post (lvl size : Q) : Q := if Qlt_le_dec lvl size then 0 else lvl - size.

Lemma release_compat r h h' lvl lvl' size : h == h' -> lvl == lvl' -> release r h lvl size == release r h' lvl' size.
Proof.
  intros Eh El. unfold release. destruct (Qlt_le_dec lvl size), (Qlt_le_dec lvl' size); try lra.
  rewrite Eh, El. reflexivity.
Qed.

Lemma post_compat lvl lvl' size : lvl == lvl' -> post lvl size == post lvl' size.
Proof. intros El. unfold post. destruct (Qlt_le_dec lvl size), (Qlt_le_dec lvl' size); lra. Qed.

Lemma post_wait lvl size : lvl < size -> post lvl size == 0.
Proof. intros H. unfold post. destruct (Qlt_le_dec lvl size); lra. Qed.
Lemma post_nowait lvl size : size <= lvl -> post lvl size == lvl - size.
Proof. intros H. unfold post. destruct (Qlt_le_dec lvl size); lra. Qed.
Lemma release_wait r h lvl size : lvl < size -> release r h lvl size == h + tokwait r size lvl.
Proof. intros H. unfold release. destruct (Qlt_le_dec lvl size); lra. Qed.
Lemma release_nowait r h lvl size : size <= lvl -> release r h lvl size == h.
Proof. intros H. unfold release. destruct (Qlt_le_dec lvl size); lra. Qed.

Lemma post_nonneg lvl size : 0 <= post lvl size.
Proof. unfold post. destruct (Qlt_le_dec lvl size); lra. Qed.

Lemma release_ge r h lvl size : 0 < r -> h <= release r h lvl size.
Proof.
  intros Hr. unfold release. destruct (Qlt_le_dec lvl size) as [H|H]; [|lra].
  pose proof (tokwait_pos r size lvl Hr H). lra.
Qed.

Lemma wait_budget r L U h lvl size d :
  0 < r -> lvl <= L + fill r (h - U) -> d == release r h lvl size ->
  size + post lvl size <= L + fill r (d - U).
Proof.
  intros Hr Hl Hd. rewrite (fill_split r U h d), Hd. destruct (Qlt_le_dec lvl size) as [Hw|Hw].
  - rewrite (post_wait _ _ Hw), (release_wait _ _ _ _ Hw).
    setoid_replace (h + tokwait r size lvl - h) with (tokwait r size lvl) by ring.
    rewrite (fill_tokwait _ _ _ Hr). lra.
  - rewrite (post_nowait _ _ Hw), (release_nowait _ _ _ _ Hw).
    setoid_replace (h - h) with 0 by ring. rewrite fill_0. lra.
Qed.

Lemma post_cap B lvl size : lvl <= B -> size + post lvl size <= Qmax B size.
Proof.
  intros HB. pose proof (Q.le_max_l B size). pose proof (Q.le_max_r B size).
  destruct (Qlt_le_dec lvl size) as [Hw|Hw]; [rewrite (post_wait _ _ Hw)|rewrite (post_nowait _ _ Hw)]; lra.
Qed.

(* what the bucket holds for the head packet at instant t >= h: the capped level, or - for a packet
   larger than the bucket - the level that keeps growing past the cap ("regardless of the bucket size") *)
Definition tokens_at (B r h lvl size t : Q) : Q :=
  if Qlt_le_dec B size then lvl + fill r (t - h) else Qmin B (lvl + fill r (t - h)).

Lemma tokens_at_compat B r h lvl size t t' : t == t' -> tokens_at B r h lvl size t == tokens_at B r h lvl size t'.
Proof. intros E. unfold tokens_at. destruct (Qlt_le_dec B size); rewrite E; reflexivity. Qed.

(* the debit instant is the EARLIEST instant >= h at which the bucket holds the packet's size *)
Lemma release_least B r h lvl size :
  0 < r -> lvl <= B ->
  let d := release r h lvl size in
  h <= d /\ size <= tokens_at B r h lvl size d /\
  (forall t, h <= t -> t < d -> tokens_at B r h lvl size t < size).
Proof.
  intros Hr HlB d. subst d. unfold release, tokens_at.
  destruct (Qlt_le_dec lvl size) as [Hw|Hw].
  - pose proof (tokwait_pos r size lvl Hr Hw) as Hp.
    assert (E : fill r (h + tokwait r size lvl - h) == size - lvl).
    { rewrite <- (fill_tokwait r size lvl Hr). apply fill_proper; [reflexivity|]. ring. }
    split; [lra|]. split.
    + destruct (Qlt_le_dec B size) as [Hb|Hb]; [|apply Q.min_glb]; lra.
    + intros t Ht1 Ht2.
      assert (X : fill r (t - h) < size - lvl).
      { rewrite <- E. apply fill_lt; [exact Hr|]. lra. }
      destruct (Qlt_le_dec B size) as [Hb|Hb]; [lra|]. apply Q.min_lt_iff. right. lra.
  - split; [lra|]. split; [|intros t Ht1 Ht2; lra].
    assert (E : fill r (h - h) == 0) by (rewrite <- (fill_0 r); apply fill_proper; [reflexivity|ring]).
    destruct (Qlt_le_dec B size) as [Hb|Hb]; [|apply Q.min_glb]; lra.
Qed.

(* one service: packet, arrival instant, instant it reached the head with the server free, bucket level then
   (after the refill), debit instant, departure instant *)
Record svc := { v_pkt : pkt; v_arr : Q; v_head : Q; v_lvl : Q; v_debit : Q; v_dep : Q }.

Definition vsize (o : svc) : Q := sz (v_pkt o).
Definition vpost (o : svc) : Q := post (v_lvl o) (vsize o).

(* the peak-rate spacing between debit and departure *)
Definition gap (c : tbcfg) (size : Q) : Q :=
  match peak_on c with Some k => spacing k size | None => 0 end.

(* [L] tokens at instant [U] (the last debit), server free since [F] (the last departure); one round of the
   reference monitor ref_tb of props/part_bucket.py *)
Definition step_ok (c : tbcfg) (L U F : Q) (o : svc) : Prop :=
  v_head o == Qmax (v_arr o) F /\ U <= v_head o /\
  v_lvl o == refill (bsize c) (rate c) L U (v_head o) /\
  v_debit o == release (rate c) (v_head o) (v_lvl o) (vsize o) /\
  v_dep o == v_debit o + gap c (vsize o).

Fixpoint chain (c : tbcfg) (L U F : Q) (R : list svc) : Prop :=
  match R with
  | [] => True
  | o :: R' => step_ok c L U F o /\ chain c (vpost o) (v_debit o) (v_dep o) R'
  end.

Lemma chain_app c : forall R1 R2 L U F,
  chain c L U F (R1 ++ R2) <->
  chain c L U F R1 /\ chain c (lastof vpost L R1) (lastof v_debit U R1) (lastof v_dep F R1) R2.
Proof.
  induction R1 as [|x R1 IH]; intros R2 L U F; cbn [app chain]; [tauto|].
  rewrite IH. unfold lastof. cbn [fold_left]. tauto.
Qed.

Lemma chain_last c R L U F o :
  chain c L U F (R ++ [o]) -> step_ok c (lastof vpost L R) (lastof v_debit U R) (lastof v_dep F R) o.
Proof. intros H. apply chain_app in H as [_ [H _]]. exact H. Qed.

Lemma chain_nth c : forall R L U F k o, chain c L U F R -> nth_error R k = Some o ->
  step_ok c (lastof vpost L (firstn k R)) (lastof v_debit U (firstn k R)) (lastof v_dep F (firstn k R)) o.
Proof.
  induction R as [|x R IH]; intros L U F k o HC Hk; [destruct k; discriminate|].
  destruct HC as [H0 HC]. destruct k as [|k]; cbn in Hk.
  - injection Hk as <-. exact H0.
  - apply (IH _ _ _ k o HC Hk).
Qed.

(* the service lists the traces are compared with *)
Definition sv_arr (R : list svc) : list (Q * pkt) := map (fun o => (v_arr o, v_pkt o)) R.
Definition sv_head (R : list svc) : list (Q * pkt) := map (fun o => (v_head o, v_pkt o)) R.
Definition sv_debit (R : list svc) : list (Q * pkt) := map (fun o => (v_debit o, v_pkt o)) R.
Definition sv_dep (R : list svc) : list (Q * pkt) := map (fun o => (v_dep o, v_pkt o)) R.

Lemma map_snd_sv_head R : map snd (sv_head R) = map v_pkt R.
Proof. apply (timed_pkts v_pkt). Qed.

(* ---------------------------------------------------------------------------------------------- *)
(* traces                                                                                          *)

(* same packets (Leibniz), same instants (==) *)
Definition tpe : list (Q * pkt) -> list (Q * pkt) -> Prop :=
  Forall2 (fun x y : Q * pkt => fst x == fst y /\ snd x = snd y).

Definition ev_puts (e : tev) : list (Q * pkt) :=
  match e with (t, TPut p, _) => [(t, p)] | _ => [] end.
Definition is_head (o : tout) : list pkt := match o with OHead p => [p] | _ => [] end.
Definition is_debit (o : tout) : list pkt := match o with ODebit p => [p] | _ => [] end.
Definition is_fwd (o : tout) : list pkt := match o with OForward p => [p] | _ => [] end.
Definition ev_outs (f : tout -> list pkt) (e : tev) : list (Q * pkt) :=
  let '(t, _, outs) := e in map (fun p => (t, p)) (flat_map f outs).

(* timed arrivals (put() calls), head instants, debit instants, departures of a trace *)
Definition puts (h : list tev) : list (Q * pkt) := flat_map ev_puts h.
Definition heads (h : list tev) : list (Q * pkt) := flat_map (ev_outs is_head) h.
Definition debits (h : list tev) : list (Q * pkt) := flat_map (ev_outs is_debit) h.
Definition fwds (h : list tev) : list (Q * pkt) := flat_map (ev_outs is_fwd) h.

Lemma puts_snoc h t a outs : puts (h ++ [(t, a, outs)]) = puts h ++ match a with TPut p => [(t, p)] | _ => [] end.
Proof. unfold puts. rewrite flat_map_snoc. reflexivity. Qed.
Lemma heads_snoc h t (a : taction) outs : heads (h ++ [(t, a, outs)]) = heads h ++ map (fun p => (t, p)) (flat_map is_head outs).
Proof. unfold heads. rewrite flat_map_snoc. reflexivity. Qed.
Lemma debits_snoc h t (a : taction) outs : debits (h ++ [(t, a, outs)]) = debits h ++ map (fun p => (t, p)) (flat_map is_debit outs).
Proof. unfold debits. rewrite flat_map_snoc. reflexivity. Qed.
Lemma fwds_snoc h t (a : taction) outs : fwds (h ++ [(t, a, outs)]) = fwds h ++ map (fun p => (t, p)) (flat_map is_fwd outs).
Proof. unfold fwds. rewrite flat_map_snoc. reflexivity. Qed.

(* ---------------------------------------------------------------------------------------------- *)
(* shape of the server's moves                                                                     *)

Lemma tb_forward_inv s p s' o :
  tb_forward s p = Some (s', o) ->
  exists q, sq_get fifo_pop (tq s) = Some q /\ o = [OForward p] /\
    s' = {| tnow := tnow s; tq := q; tstarted := tstarted s; level := level s; utime := utime s;
            phase := PIdle; nrecv := nrecv s; nsent := (nsent s + 1)%Z |}.
Proof.
  unfold tb_forward. destruct (sq_get fifo_pop (tq s)) as [q|]; [|discriminate].
  intros H. injection H as <- <-. eauto.
Qed.

Lemma tb_after_debit_inv c s p s' o :
  tb_after_debit c s p = Some (s', o) ->
  (exists k, peak_on c = Some k /\ 0 <= spacing k (sz p) /\ o = [] /\
     s' = {| tnow := tnow s; tq := tq s; tstarted := tstarted s; level := level s; utime := utime s;
             phase := PPeak p (Qred (tnow s + spacing k (sz p))); nrecv := nrecv s; nsent := nsent s |})
  \/ (peak_on c = None /\ tb_forward s p = Some (s', o)).
Proof.
  unfold tb_after_debit. destruct (peak_on c) as [k|].
  - destruct (Qlt_le_dec (spacing k (sz p)) 0) as [Hn|Hn]; [discriminate|].
    intros H. injection H as <- <-. left. exists k. repeat split; auto.
  - intros H. right. auto.
Qed.

Lemma tb_after_debit_enabled c s p :
  (forall k, peak_on c = Some k -> 0 < k) -> 0 <= sz p -> get (tq s) = GNone ->
  exists r, tb_after_debit c s p = Some r.
Proof.
  intros Hk Hp Hg. unfold tb_after_debit, tb_forward. destruct (peak_on c) as [k|].
  - destruct (Qlt_le_dec (spacing k (sz p)) 0) as [Hn|Hn]; [|eauto].
    pose proof (spacing_nonneg k (sz p) (Hk _ eq_refl) Hp). lra.
  - destruct (sq_get_enabled _ fifo_pop _ Hg) as [q' ->]. eauto.
Qed.

Lemma tb_get_spec c s s' outs :
  tb_act c s TGet = Some (s', outs) ->
  exists a p q, phase s = PIdle /\ sq_take (tq s) = Some ((a, p), q) /\ tstarted s = true /\
    let lvl := Qred (refill (bsize c) (rate c) (level s) (utime s) (tnow s)) in
    let d := release (rate c) (tnow s) lvl (sz p) in
    (lvl < sz p /\ outs = [OHead p] /\ exists dl, dl == d /\
       s' = {| tnow := tnow s; tq := q; tstarted := true; level := lvl; utime := tnow s; phase := PTok p dl;
               nrecv := nrecv s; nsent := nsent s |})
    \/ (exists lv' o2, d == tnow s /\ lv' == post lvl (sz p) /\ outs = OHead p :: ODebit p :: o2 /\
          tb_after_debit c {| tnow := tnow s; tq := q; tstarted := true; level := lv'; utime := tnow s; phase := PIdle;
                              nrecv := nrecv s; nsent := nsent s |} p = Some (s', o2)).
Proof.
  destruct s as [nw q0 st lv ut ph nr ns]. cbn [tb_act phase tq tstarted level utime tnow nrecv nsent]. intros H.
  destruct ph; try discriminate. destruct (sq_take q0) as [[[a p] q]|]; [|discriminate].
  destruct st; [|discriminate]. cbn [negb] in H. exists a, p, q. repeat (split; [reflexivity|]).
  unfold release, post. destruct (Qlt_le_dec (Qred (refill (bsize c) (rate c) lv ut nw)) (sz p)) as [Hw|Hw].
  - left. apply some_pair_inv in H as [<- <-]. split; [exact Hw|]. split; [reflexivity|].
    eexists. split; [apply Qred_correct|reflexivity].
  - right. destruct (tb_after_debit _ _ _) as [[s2 o2]|] eqn:E; [|discriminate]. apply some_pair_inv in H as [<- <-].
    eexists _, o2. split; [reflexivity|]. split; [apply Qred_correct|]. split; [reflexivity|exact E].
Qed.

Lemma tb_after_debit_now c s p s' o : tb_after_debit c s p = Some (s', o) -> tnow s' = tnow s.
Proof.
  intros H. apply tb_after_debit_inv in H as [(k & _ & _ & _ & ->)|(_ & H)]; [reflexivity|].
  apply tb_forward_inv in H as (q & _ & _ & ->). reflexivity.
Qed.

Lemma tb_act_now_mono c s a s' outs : tb_act c s a = Some (s', outs) -> tnow s <= tnow s'.
Proof.
  destruct a as [p| | | | |t]; cbn [tb_act]; intros H.
  - injection H as <- _. apply Qle_refl.
  - destruct (tstarted s); [discriminate|]. destruct (sq_get fifo_pop (tq s)); [|discriminate].
    injection H as <- _. apply Qle_refl.
  - destruct (sq_cb fifo_pop (tq s)); [|discriminate]. injection H as <- _. apply Qle_refl.
  - destruct (phase s); try discriminate. destruct (sq_take (tq s)) as [[[a0 p] q]|]; [|discriminate].
    destruct (negb (tstarted s)); [discriminate|].
    destruct (Qlt_le_dec _ _); [injection H as <- _; apply Qle_refl|].
    destruct (tb_after_debit _ _ _) as [[s2 o]|] eqn:E; [|discriminate]. injection H as <- _.
    rewrite (tb_after_debit_now _ _ _ _ _ E). apply Qle_refl.
  - destruct (phase s) as [|p dl|p dl]; [discriminate| |]; (destruct (Qeq_bool dl (tnow s)); [|discriminate]).
    + destruct (tb_after_debit _ _ _) as [[s2 o]|] eqn:E; [|discriminate]. injection H as <- _.
      rewrite (tb_after_debit_now _ _ _ _ _ E). apply Qle_refl.
    + apply tb_forward_inv in H as (q & _ & _ & ->). apply Qle_refl.
  - destruct (tb_urgent s); [discriminate|]. destruct (Qlt_le_dec (tnow s) t) as [Hlt|]; [|discriminate].
    destruct (phase s) as [|p dl|p dl]; [|destruct (Qle_bool t dl); [|discriminate]..]; injection H as <- _; cbn; lra.
Qed.

(* ---------------------------------------------------------------------------------------------- *)
(* the invariant                                                                                    *)

Definition tb_busy (s : tb) : option (pkt * Q) :=
  match phase s with PIdle => None | PTok p dl => Some (p, dl) | PPeak p dl => Some (p, dl) end.

Definition tb_view (s : tb) : srv :=
  {| s_now := tnow s; s_q := tq s; s_started := tstarted s; s_busy := tb_busy s; s_recv := nrecv s; s_sent := nsent s |}.

Section Invariant.
  Variable c : tbcfg.
  Variable t0 : Q.
  Hypothesis Hr : 0 < rate c.

  Notation LL := (lastof vpost (bsize c)).
  Notation UU := (lastof v_debit t0).

  (* the bucket's own part: level and update_time are what the recurrence hands on; the debits seen are those
     of the services done and of a packet waiting out its peak spacing *)
  Definition lvl_inv (s : tb) (D : list (Q * pkt)) (Rd : list svc) (cur : option svc) : Prop :=
    match phase s, cur with
    | PIdle, None => level s == LL Rd /\ utime s == UU Rd /\ tpe D (sv_debit Rd)
    | PTok _ dl, Some o =>
        v_debit o == dl /\ v_lvl o < vsize o /\ level s == v_lvl o /\ utime s == v_head o /\ tpe D (sv_debit Rd)
    | PPeak _ dl, Some o =>
        v_dep o == dl /\ level s == vpost o /\ utime s == v_debit o /\ tpe D (sv_debit (Rd ++ [o]))
    | _, _ => False
    end.

  (* [P H D F]: the timed put() calls, head instants, debits and departures so far *)
  Record Inv (s : tb) (P H D F : list (Q * pkt)) (Rd : list svc) (cur : option svc) : Prop := {
    inv_srv : SInv v_pkt v_arr v_head v_dep t0 (tb_view s) P H F Rd cur;
    inv_chain : chain c (bsize c) t0 t0 (Rd ++ olist cur);      (* the recurrence, one service per TGet *)
    inv_ut : utime s <= tnow s;
    inv_lvl : lvl_inv s D Rd cur
  }.

  Definition Inv_tr (s : tb) (h : list tev) : list svc -> option svc -> Prop :=
    Inv s (puts h) (heads h) (debits h) (fwds h).

  Lemma Inv_init : Inv_tr (tb0 true c t0) [] [] None.
  Proof.
    constructor; cbn.
    - apply SInv_init.
    - exact I.
    - lra.
    - repeat split; try reflexivity. constructor.
  Qed.

  Ltac trace_snoc :=
    unfold Inv_tr; rewrite puts_snoc, heads_snoc, debits_snoc, fwds_snoc;
    cbn [flat_map map app is_head is_debit is_fwd tnow]; rewrite ?app_nil_r.

  Lemma Inv_forward s p dl o q' P H D F Rd :
    SInv v_pkt v_arr v_head v_dep t0
         {| s_now := tnow s; s_q := tq s; s_started := tstarted s; s_busy := Some (p, dl); s_recv := nrecv s;
            s_sent := nsent s |} P H F Rd (Some o) ->
    chain c (bsize c) t0 t0 (Rd ++ [o]) -> utime s <= tnow s -> tpe D (sv_debit (Rd ++ [o])) ->
    v_dep o == tnow s -> sq_get fifo_pop (tq s) = Some q' -> level s == vpost o -> utime s == v_debit o ->
    Inv {| tnow := tnow s; tq := q'; tstarted := tstarted s; level := level s; utime := utime s; phase := PIdle;
           nrecv := nrecv s; nsent := (nsent s + 1)%Z |} P H D (F ++ [(tnow s, p)]) (Rd ++ [o]) None.
  Proof.
    intros S C U HD Ed Hq El Eu. constructor.
    - exact (SInv_forward _ p dl o q' S eq_refl Ed Hq).
    - cbn [olist]. rewrite app_nil_r. exact C.
    - exact U.
    - unfold lvl_inv. cbn [phase level utime]. rewrite !lastof_snoc. auto.
  Qed.

  (* the tokens of [p] have just been taken: the spacing timeout starts, or the packet leaves at once *)
  Lemma Inv_debited s p dl0 P H D F Rd o s' outs :
    tb_after_debit c s p = Some (s', outs) ->
    SInv v_pkt v_arr v_head v_dep t0
         {| s_now := tnow s; s_q := tq s; s_started := tstarted s; s_busy := Some (p, dl0); s_recv := nrecv s;
            s_sent := nsent s |} P H F Rd (Some o) ->
    chain c (bsize c) t0 t0 (Rd ++ [o]) -> tpe D (sv_debit Rd) ->
    level s == vpost o -> utime s == tnow s -> tnow s == v_debit o ->
    flat_map is_head outs = [] /\ flat_map is_debit outs = [] /\
    exists Rd' cur', Inv s' P H (D ++ [(tnow s, p)]) (F ++ map (fun x => (tnow s, x)) (flat_map is_fwd outs)) Rd' cur'.
  Proof.
    intros E S C HD El Eu Ed. destruct (chain_last _ _ _ _ _ _ C) as (_ & _ & _ & _ & K5).
    destruct (SInv_busy S eq_refl) as (o' & [= <-] & Hp & _). unfold gap, vsize in K5. rewrite Hp in K5.
    assert (HD' : tpe (D ++ [(tnow s, p)]) (sv_debit (Rd ++ [o]))).
    { rewrite <- Hp. apply (teq_timed_snoc v_pkt v_debit); assumption. }
    apply tb_after_debit_inv in E as [(k & Ek & Hk & -> & ->)|(Ek & E)]; rewrite Ek in K5.
    - split; [reflexivity|]. split; [reflexivity|]. exists Rd, (Some o). cbn [flat_map map]. rewrite app_nil_r.
      assert (Edl : v_dep o == Qred (tnow s + spacing k (sz p))) by (rewrite Qred_correct, K5, Ed; reflexivity).
      constructor.
      + refine (SInv_rearm _ p dl0 _ S eq_refl _). cbn [s_now]. rewrite <- Edl, K5. lra.
      + exact C.
      + cbn. lra.
      + unfold lvl_inv. cbn [phase level utime]. rewrite Eu. auto.
    - apply tb_forward_inv in E as (q & Hq & -> & ->). split; [reflexivity|]. split; [reflexivity|].
      exists (Rd ++ [o]), None. refine (Inv_forward s p dl0 o q _ _ _ _ _ S C _ HD' _ Hq El _); lra.
  Qed.

  Lemma step_timer s h Rd cur s' outs :
    Inv_tr s h Rd cur -> tb_act c s TTimer = Some (s', outs) ->
    exists Rd' cur', Inv_tr s' (h ++ [(tnow s', TTimer, outs)]) Rd' cur'.
  Proof.
    intros [S C U L] H. destruct s as [nw q st lv ut ph nr ns]. cbn [tb_act phase tnow tq tstarted level utime nrecv nsent] in H.
    unfold lvl_inv in L. cbn [phase level utime tnow] in *.
    destruct ph as [|p dl|p dl]; [discriminate| |]; (destruct (Qeq_bool dl nw) eqn:Edl; [|discriminate]);
      apply Qeq_bool_eq in Edl; destruct (SInv_busy S eq_refl) as (o & -> & _).
    - (* the token wait ends: the bucket is empty, the tokens are taken now *)
      destruct L as (Pd & Pw & _ & _ & PD).
      destruct (tb_after_debit _ _ _) as [[s2 o2]|] eqn:E; [|discriminate]. injection H as <- <-.
      rewrite (tb_after_debit_now _ _ _ _ _ E).
      destruct (Inv_debited _ _ dl _ _ _ _ _ _ _ _ E S C PD) as (E1 & E2 & Rd' & cur' & HI); cbn.
      + rewrite (post_wait _ _ Pw). reflexivity.
      + reflexivity.
      + lra.
      + exists Rd', cur'. trace_snoc. rewrite E1, E2. cbn [map]. rewrite ?app_nil_r. exact HI.
    - (* the peak spacing ends *)
      destruct L as (Pd & Pl & Pu & PD). apply tb_forward_inv in H as (q' & Hq & -> & ->).
      exists (Rd ++ [o]), None. trace_snoc.
      refine (Inv_forward {| tnow := nw; tq := q; tstarted := st; level := lv; utime := ut; phase := PIdle; nrecv := nr;
                             nsent := ns |} p dl o q' _ _ _ _ _ S C U PD _ Hq Pl Pu). cbn. lra.
  Qed.

  Lemma step_get s h Rd cur s' outs :
    Inv_tr s h Rd cur -> tb_act c s TGet = Some (s', outs) ->
    exists Rd' cur', Inv_tr s' (h ++ [(tnow s', TGet, outs)]) Rd' cur'.
  Proof.
    intros [S C U L] H. apply tb_get_spec in H as (a0 & p & q1 & Eph & Et & Es & H).
    destruct s as [nw q st lv ut ph nr ns]. unfold lvl_inv in L. cbn [phase level utime tnow tq tstarted nrecv nsent] in *.
    subst ph st.
    destruct (SInv_take _ a0 p q1 S eq_refl eq_refl Et) as (-> & _ & _ & Hs & _ & K). cbn [s_now tb_view tnow] in Hs, K.
    destruct L as (Pl & Pu & PD). cbn [olist] in C. rewrite app_nil_r in C.
    (* the service: head instant and level as the code has them, debit and departure as the recurrence says *)
    set (lvl := Qred (refill (bsize c) (rate c) lv ut nw)) in *.
    set (o := {| v_pkt := p; v_arr := a0; v_head := nw; v_lvl := lvl; v_debit := release (rate c) nw lvl (sz p);
                 v_dep := release (rate c) nw lvl (sz p) + gap c (sz p) |}).
    assert (HC : chain c (bsize c) t0 t0 (Rd ++ [o])).
    { apply chain_app. split; [exact C|]. split; [|exact I].
      split; [exact Hs|]. split; [rewrite <- Pu; exact U|].
      split; [unfold o, lvl; cbn [v_lvl v_head]; rewrite Qred_correct, Pl, Pu; reflexivity|]. split; reflexivity. }
    destruct H as [(Hw & -> & dl & Edl & ->)|(lv' & o2 & Ed & El & -> & E)].
    - (* wait for the missing tokens *)
      exists Rd, (Some o). trace_snoc. pose proof (release_ge (rate c) nw lvl (sz p) Hr).
      constructor; [apply (K o dl); try reflexivity; lra|exact HC|apply Qle_refl|].
      unfold lvl_inv, o. cbn [phase level utime v_debit v_lvl v_head]. repeat split; auto; try reflexivity. symmetry. exact Edl.
    - (* enough tokens: debit at once *)
      rewrite (tb_after_debit_now _ _ _ _ _ E).
      destruct (Inv_debited _ _ nw _ _ _ _ _ _ _ _ E (K o nw eq_refl eq_refl (Qeq_refl _) (Qle_refl _)) HC PD)
        as (E1 & E2 & Rd' & cur' & HI); cbn [level utime tnow v_debit o]; [exact El|reflexivity|symmetry; exact Ed|].
      exists Rd', cur'. trace_snoc. rewrite E1, E2. cbn [map]. rewrite ?app_nil_r. exact HI.
  Qed.

  Lemma step_inv s h Rd cur a s' outs :
    Inv_tr s h Rd cur -> tb_act c s a = Some (s', outs) -> exists Rd' cur', Inv_tr s' (h ++ [(tnow s', a, outs)]) Rd' cur'.
  Proof.
    intros HI H. destruct a as [p| | | | |t]; [| | |eapply step_get; eauto|eapply step_timer; eauto|];
      exists Rd, cur; destruct HI as [S C U L]; destruct s as [nw q st lv ut ph nr ns]; cbn [tb_act] in H;
      cbn [phase level utime tnow tq tstarted nrecv nsent] in *.
    - injection H as <- <-. trace_snoc. constructor; [exact (SInv_put _ p S)|exact C|exact U|exact L].
    - destruct st; [discriminate|]. destruct (sq_get fifo_pop q) as [q'|] eqn:E; [|discriminate]. injection H as <- <-.
      trace_snoc. constructor; [exact (SInv_start _ q' S eq_refl E)|exact C|exact U|exact L].
    - destruct (sq_cb fifo_pop q) as [q'|] eqn:E; [|discriminate]. injection H as <- <-.
      trace_snoc. constructor; [exact (SInv_cb _ q' S E)|exact C|exact U|exact L].
    - destruct (tb_urgent _) eqn:Ug; [discriminate|]. destruct (Qlt_le_dec nw t) as [Hlt|]; [|discriminate].
      unfold tb_urgent in Ug. cbn [tstarted tq] in Ug.
      apply orb_false_iff in Ug as [Ug _]. apply orb_false_iff in Ug as [Us Uq]. apply negb_false_iff in Us.
      assert (Hdl : match tb_busy {| tnow := nw; tq := q; tstarted := st; level := lv; utime := ut; phase := ph;
                                     nrecv := nr; nsent := ns |} with Some (_, dl) => t <= dl | None => True end
                    /\ s' = {| tnow := t; tq := q; tstarted := st; level := lv; utime := ut; phase := ph;
                               nrecv := nr; nsent := ns |} /\ outs = []).
      { destruct ph as [|p dl|p dl]; [|destruct (Qle_bool t dl) eqn:El; [apply Qle_bool_iff in El|discriminate]..];
          injection H as <- <-; cbn; auto. }
      destruct Hdl as (Hdl & -> & ->). trace_snoc.
      constructor; [exact (SInv_advance _ t S Us Uq (Qlt_le_weak _ _ Hlt) Hdl)|exact C|cbn; lra|exact L].
  Qed.

  Lemma run_inv : forall acts s h Rd cur s' tr,
    Inv_tr s h Rd cur -> tb_run c s acts = Some (s', tr) -> exists Rd' cur', Inv_tr s' (h ++ tr) Rd' cur'.
  Proof.
    induction acts as [|a acts IH]; intros s h Rd cur s' tr HI H; cbn [tb_run] in H.
    - injection H as <- <-. rewrite app_nil_r. eauto.
    - destruct (tb_act c s a) as [[s1 outs]|] eqn:Ea; [|discriminate].
      destruct (tb_run c s1 acts) as [[s2 tr1]|] eqn:Er; [|discriminate].
      injection H as <- <-.
      destruct (step_inv _ _ _ _ _ _ _ HI Ea) as (R1 & c1 & HI1).
      destruct (IH _ _ _ _ _ _ HI1 Er) as (R2 & c2 & HI2).
      exists R2, c2. rewrite <- app_assoc in HI2. exact HI2.
  Qed.

  Theorem reachable_inv acts s tr :
    tb_run c (tb0 true c t0) acts = Some (s, tr) -> exists Rd cur, Inv_tr s tr Rd cur.
  Proof. intros H. apply (run_inv acts (tb0 true c t0) [] [] None s tr Inv_init H). Qed.
End Invariant.

Arguments inv_srv {c t0 s P H D F Rd cur}.
Arguments inv_chain {c t0 s P H D F Rd cur}.
Arguments inv_lvl {c t0 s P H D F Rd cur}.

(* ---------------------------------------------------------------------------------------------- *)
(* the theorems                                                                                     *)

(* the timed events of the trace are the recurrence's, in order, minus at most the debit and/or the
   departure of the packet in service, whose stored deadline is the recurrence's instant *)
Definition tb_matches (s : tb) (tr : list tev) (R : list svc) : Prop :=
  tpe (heads tr) (sv_head R) /\
  match phase s with
  | PIdle => tpe (debits tr) (sv_debit R) /\ tpe (fwds tr) (sv_dep R)
  | PTok p dl =>
      exists R' o, R = R' ++ [o] /\ v_pkt o = p /\ v_debit o == dl /\ tnow s <= dl /\
                   tpe (debits tr) (sv_debit R') /\ tpe (fwds tr) (sv_dep R')
  | PPeak p dl =>
      exists R' o, R = R' ++ [o] /\ v_pkt o = p /\ v_dep o == dl /\ tnow s <= dl /\
                   tpe (debits tr) (sv_debit R) /\ tpe (fwds tr) (sv_dep R')
  end.

Lemma Inv_matches c t0 s tr Rd cur : Inv_tr c t0 s tr Rd cur -> tb_matches s tr (Rd ++ olist cur).
Proof.
  intros [S _ _ L]. split; [exact (si_heads S)|].
  pose proof (si_fwds S) as HF. unfold lvl_inv in L.
  assert (B : s_busy (tb_view s) = tb_busy s) by reflexivity. unfold tb_busy in B.
  destruct (phase s) as [|p dl|p dl].
  - destruct cur; [contradiction|]. cbn [olist]. rewrite app_nil_r. tauto.
  - destruct (SInv_busy S B) as (o & -> & Hp & _ & _ & Hn). exists Rd, o. tauto.
  - destruct (SInv_busy S B) as (o & -> & Hp & _ & _ & Hn). exists Rd, o. tauto.
Qed.

(* THE RECURRENCE: every admissible execution is an instance of the property's recurrence *)
Theorem tb_spec c t0 acts s tr :
  0 < rate c -> tb_run c (tb0 true c t0) acts = Some (s, tr) ->
  exists R, chain c (bsize c) t0 t0 R              (* h_k, lvl_k, debit_k, departure_k follow the recurrence *)
    /\ puts tr = sv_arr R ++ sq_held (tq s)         (* the k-th service concerns the k-th arrival; the rest is held *)
    /\ tb_matches s tr R.
Proof.
  intros Hr H. destruct (reachable_inv c t0 Hr _ _ _ H) as (Rd & cur & HI). exists (Rd ++ olist cur).
  split; [exact (inv_chain HI)|]. split; [exact (si_fifo (inv_srv HI))|].
  apply (Inv_matches _ _ _ _ _ _ HI).
Qed.

(* the debits seen are those of a prefix of the services that contains every service done *)
Lemma Inv_debits c t0 s P H D F Rd cur : Inv c t0 s P H D F Rd cur ->
  exists R1 R2, olist cur = R1 ++ R2 /\ tpe D (sv_debit (Rd ++ R1)).
Proof.
  intros HI. pose proof (inv_lvl HI) as L. unfold lvl_inv in L.
  destruct (phase s), cur as [o|]; try contradiction.
  - exists [], []. split; [reflexivity|]. rewrite app_nil_r. tauto.
  - exists [], [o]. split; [reflexivity|]. rewrite app_nil_r. tauto.
  - exists [o], []. split; [reflexivity|]. tauto.
Qed.

Lemma Inv_debit_nth c t0 s P H D F Rd cur k t p : Inv c t0 s P H D F Rd cur -> nth_error D k = Some (t, p) ->
  exists R1 R2 o, olist cur = R1 ++ R2 /\ tpe D (sv_debit (Rd ++ R1)) /\
    nth_error (Rd ++ R1) k = Some o /\ nth_error (Rd ++ olist cur) k = Some o /\ v_pkt o = p /\ t == v_debit o.
Proof.
  intros HI Hk. destruct (Inv_debits _ _ _ _ _ _ _ _ _ HI) as (R1 & R2 & E & HD).
  destruct (teq_nth _ _ HD _ _ _ Hk) as (T & Hk' & Et).
  destruct (timed_nth_inv v_pkt _ _ _ _ _ Hk') as (o & Ho & <- & <-). exists R1, R2, o.
  repeat (split; [assumption|]). split; [|auto]. rewrite E, app_assoc. apply nth_error_app_l. exact Ho.
Qed.

Definition pbytes (l : list pkt) : Q := fold_right (fun p acc => sz p + acc) 0 l.
(* bytes carried by timed packets *)
Definition bytes (l : list (Q * pkt)) : Q := pbytes (map snd l).
(* elements i..j (inclusive) *)
Definition slice {A : Type} (i j : nat) (l : list A) : list A := firstn (S j - i) (skipn i l).

Lemma slice_map {A B} (f : A -> B) i j l : slice i j (map f l) = map f (slice i j l).
Proof. unfold slice. rewrite skipn_map, firstn_map. reflexivity. Qed.

Lemma slice_app_l {A} i j (l1 l2 : list A) : (j < length l1)%nat -> slice i j (l1 ++ l2) = slice i j l1.
Proof.
  intros Hj. unfold slice. rewrite skipn_app, firstn_app.
  replace (S j - i - length (skipn i l1))%nat with 0%nat by (rewrite skipn_length; lia).
  cbn [firstn]. rewrite app_nil_r. reflexivity.
Qed.

Definition qsum (l : list Q) : Q := fold_right Qplus 0 l.

Lemma pbytes_qsum (l : list pkt) : pbytes l = qsum (map sz l).
Proof.
  induction l as [|x l IH]; [reflexivity|].
  change (sz x + pbytes l = sz x + qsum (map sz l)). rewrite IH. reflexivity.
Qed.

Lemma bytes_slice {X} (xp : X -> pkt) (f : X -> Q) l R i j :
  teq l (timed xp f R) -> bytes (slice i j l) = qsum (map (fun o => sz (xp o)) (slice i j R)).
Proof.
  intros HD. unfold bytes. rewrite <- slice_map, (teq_pkts _ _ HD), timed_pkts, slice_map, pbytes_qsum, map_map.
  reflexivity.
Qed.

(* ---------------------------------------------------------------------------------------------- *)
(* a token budget: items (weight taken, instant, tokens left), each paid out of what was left plus what
   arrived since at rate r                                                                          *)
Definition bitem := (Q * Q * Q)%type.
Fixpoint bchain (r L U : Q) (l : list bitem) : Prop :=
  match l with
  | [] => True
  | (w, t, q) :: l' => w + q <= L + fill r (t - U) /\ 0 <= q /\ U <= t /\ bchain r q t l'
  end.
Definition wsum (l : list bitem) : Q := fold_right (fun x acc => fst (fst x) + acc) 0 l.

Lemma wsum_map {A} (f g k : A -> Q) (l : list A) : wsum (map (fun o => (f o, g o, k o)) l) = qsum (map f l).
Proof.
  induction l as [|x l IH]; [reflexivity|].
  change (fst (fst (f x, g x, k x)) + wsum (map (fun o => (f o, g o, k o)) l) = f x + qsum (map f l)).
  rewrite IH. reflexivity.
Qed.

Lemma bchain_app_r r : forall l1 l2 L U, bchain r L U (l1 ++ l2) -> exists L' U', bchain r L' U' l2.
Proof.
  induction l1 as [|[[w t] q] l1 IH]; intros l2 L U H; cbn [app bchain] in H; [eauto|].
  destruct H as (_ & _ & _ & H). eapply IH; eauto.
Qed.

Lemma bchain_budget r : forall l L U j w t q,
  bchain r L U l -> nth_error l j = Some (w, t, q) ->
  wsum (firstn (S j) l) + q <= L + fill r (t - U) /\ U <= t /\ 0 <= q.
Proof.
  induction l as [|[[w0 t0] q0] l IH]; intros L U j w t q HC Hj; [destruct j; discriminate|].
  cbn [bchain] in HC. destruct HC as (K & Kq & Kt & HC).
  destruct j as [|j]; cbn [nth_error] in Hj.
  - injection Hj as <- <- <-. change (wsum (firstn 1 ((w0, t0, q0) :: l))) with (w0 + 0). repeat split; lra.
  - destruct (IH _ _ _ _ _ _ HC Hj) as (IH1 & IH2 & IH3).
    change (wsum (firstn (S (S j)) ((w0, t0, q0) :: l))) with (w0 + wsum (firstn (S j) l)).
    rewrite (fill_split r U t0 t). repeat split; lra.
Qed.

Lemma bchain_window r l L U i j wi ti qi wj tj qj :
  bchain r L U l -> (i <= j)%nat -> nth_error l i = Some (wi, ti, qi) -> nth_error l j = Some (wj, tj, qj) ->
  wsum (slice i j l) <= wi + qi + fill r (tj - ti) /\ ti <= tj.
Proof.
  intros HC Hij Hi Hj.
  destruct (nth_error_split _ _ Hi) as (l1 & l2 & -> & Hlen).
  apply bchain_app_r in HC as (L' & U' & HC). cbn [bchain] in HC. destruct HC as (K & Kq & Kt & HC).
  unfold slice. rewrite skipn_app. replace (i - length l1)%nat with 0%nat by lia.
  rewrite skipn_all2 by lia. cbn [app skipn].
  rewrite nth_error_app2 in Hj by lia. destruct (j - length l1)%nat as [|m] eqn:Em; cbn [nth_error] in Hj.
  - injection Hj as <- <- <-.
    replace (S j - i)%nat with 1%nat by lia. change (wsum (firstn 1 ((wi, ti, qi) :: l2))) with (wi + 0).
    setoid_replace (ti - ti) with 0 by ring. rewrite fill_0. split; lra.
  - replace (S j - i)%nat with (S (S m)) by lia.
    change (wsum (firstn (S (S m)) ((wi, ti, qi) :: l2))) with (wi + wsum (firstn (S m) l2)).
    destruct (bchain_budget r _ _ _ _ _ _ _ HC Hj) as (Kb & Kb2 & Hq). split; lra.
Qed.

(* ---- conformance on the recurrence ---- *)
Section Conformance.
  Variable c : tbcfg.
  Hypothesis Hr : 0 < rate c.

  Lemma step_debit_ge L U F o : step_ok c L U F o -> U <= v_debit o /\ v_head o <= v_debit o.
  Proof.
    intros (K1 & K2 & K3 & K4 & K5). pose proof (release_ge (rate c) (v_head o) (v_lvl o) (vsize o) Hr). lra.
  Qed.

  Lemma step_lvl_le_B L U F o : step_ok c L U F o -> v_lvl o <= bsize c.
  Proof. intros (K1 & K2 & K3 & K4 & K5). rewrite K3. apply refill_le_B. Qed.

  (* what a service takes from the bucket, when, and what it leaves *)
  Definition tb_item (o : svc) : bitem := (vsize o, v_debit o, vpost o).

  Lemma tb_bchain : forall R L U F, chain c L U F R -> bchain (rate c) L U (map tb_item R).
  Proof.
    induction R as [|o R IH]; intros L U F HC; cbn [map bchain]; [exact I|].
    destruct HC as [H0 HC]. pose proof (step_debit_ge _ _ _ _ H0) as [Hd _]. destruct H0 as (K1 & K2 & K3 & K4 & K5).
    unfold tb_item at 1. split; [|split; [apply post_nonneg|split; [exact Hd|exact (IH _ _ _ HC)]]].
    apply (wait_budget _ _ _ (v_head o) _ _ _ Hr); [rewrite K3; apply refill_le_fill|exact K4].
  Qed.

  (* departures are at least the peak-rate transmission time of the later packet apart *)
  Lemma chain_spacing R L U F k o1 o2 :
    chain c L U F R -> nth_error R k = Some o1 -> nth_error R (S k) = Some o2 ->
    v_dep o1 + gap c (vsize o2) <= v_dep o2.
  Proof.
    intros HC H1 H2. pose proof (chain_nth c _ _ _ _ _ _ HC H2) as H0. rewrite (lastof_firstn_S v_dep _ _ _ _ H1) in H0.
    pose proof (step_debit_ge _ _ _ _ H0) as [_ Hd]. destruct H0 as (K1 & K2 & K3 & K4 & K5).
    pose proof (Q.le_max_r (v_arr o2) (v_dep o1)). lra.
  Qed.
End Conformance.

(* for debit instants t_i <= t_j of departures i <= j:
   size_i + ... + size_j <= max(B, size_i) + rate * (t_j - t_i) / 8 *)
Theorem tb_conformance c t0 acts s tr :
  0 < rate c -> tb_run c (tb0 true c t0) acts = Some (s, tr) ->
  forall i j ti pi tj pj, (i <= j)%nat ->
    nth_error (debits tr) i = Some (ti, pi) -> nth_error (debits tr) j = Some (tj, pj) ->
    ti <= tj /\
    bytes (slice i j (debits tr)) <= Qmax (bsize c) (sz pi) + fill (rate c) (tj - ti).
Proof.
  intros Hr Hrun i j ti pi tj pj Hij Hi Hj. destruct (reachable_inv c t0 Hr _ _ _ Hrun) as (Rd & cur & HI).
  destruct (Inv_debit_nth _ _ _ _ _ _ _ _ _ _ _ _ HI Hi) as (R1 & R2 & oi & E & HD & Hoi & _ & <- & Ei).
  destruct (teq_nth _ _ HD _ _ _ Hj) as (Tj & Hj' & Ej). destruct (timed_nth_inv v_pkt _ _ _ _ _ Hj') as (oj & Hoj & <- & _).
  pose proof (inv_chain HI) as HC. rewrite E, app_assoc in HC. apply chain_app in HC as [HC _].
  (* each service pays out of what the bucket can have got (wait_budget, in tb_bchain); the payments of a window
     telescope (bchain_window); what the first service took and left is within max(B, its size) (post_cap) *)
  pose proof (tb_bchain c Hr _ _ _ _ HC) as HB.
  destruct (bchain_window _ _ _ _ i j _ _ _ _ _ _ HB Hij (map_nth_error tb_item _ _ Hoi) (map_nth_error tb_item _ _ Hoj))
    as [W Wt].
  pose proof (post_cap _ _ (vsize oi) (step_lvl_le_B c _ _ _ _ (chain_nth c _ _ _ _ _ _ HC Hoi))) as Hcap.
  rewrite slice_map in W. unfold tb_item in W. rewrite wsum_map in W.
  rewrite (bytes_slice v_pkt v_debit _ _ _ _ HD), Ei, Ej. unfold vpost, vsize in *. split; lra.
Qed.

Theorem tb_peak_spacing c t0 acts s tr :
  0 < rate c -> tb_run c (tb0 true c t0) acts = Some (s, tr) ->
  forall k t1 p1 t2 p2,
    nth_error (fwds tr) k = Some (t1, p1) -> nth_error (fwds tr) (S k) = Some (t2, p2) ->
    (peak_on c = None -> t1 <= t2) /\ forall pk, peak_on c = Some pk -> t1 + spacing pk (sz p2) <= t2.
Proof.
  intros Hr Hrun k t1 p1 t2 p2 H1 H2. destruct (reachable_inv c t0 Hr _ _ _ Hrun) as (Rd & cur & HI).
  destruct (SInv_nth_fwd (inv_srv HI) H1) as (o1 & Ho1 & _ & E1).
  destruct (SInv_nth_fwd (inv_srv HI) H2) as (o2 & Ho2 & <- & E2).
  pose proof (proj1 (proj1 (chain_app c _ _ _ _ _) (inv_chain HI))) as HC.
  pose proof (chain_spacing c Hr _ _ _ _ _ _ _ HC Ho1 Ho2) as K. unfold gap, vsize in K.
  split; [intros E|intros pk E]; rewrite E in K; lra.
Qed.

(* the tokens of the k-th packet are debited at the earliest instant t >= h (the instant it reached the
   head with the server free) at which the bucket - lvl tokens at h, filled at rate, capped at B; growing
   past the cap only for a packet larger than B - holds the packet's size; a pending wait is never
   overslept *)
Theorem tb_release_instant c t0 acts s tr :
  0 < rate c -> tb_run c (tb0 true c t0) acts = Some (s, tr) ->
  (forall k t p, nth_error (debits tr) k = Some (t, p) ->
     exists h lvl,
       (exists h', nth_error (heads tr) k = Some (h', p) /\ h' == h) /\
       lvl <= bsize c /\ (k = 0%nat -> lvl == refill (bsize c) (rate c) (bsize c) t0 h) /\
       h <= t /\ t == release (rate c) h lvl (sz p) /\
       sz p <= tokens_at (bsize c) (rate c) h lvl (sz p) t /\
       (forall t', h <= t' -> t' < t -> tokens_at (bsize c) (rate c) h lvl (sz p) t' < sz p)) /\
  (forall p dl, phase s = PTok p dl \/ phase s = PPeak p dl -> tnow s <= dl).
Proof.
  intros Hr Hrun. destruct (reachable_inv c t0 Hr _ _ _ Hrun) as (Rd & cur & HI). split.
  - intros k t p Hk.
    destruct (Inv_debit_nth _ _ _ _ _ _ _ _ _ _ _ _ HI Hk) as (_ & _ & o & _ & _ & _ & Ho & <- & Et).
    pose proof (chain_nth c _ _ _ _ _ _ (inv_chain HI) Ho) as Hok.
    pose proof (step_lvl_le_B _ _ _ _ _ Hok) as HB. destruct Hok as (K1 & K2 & K3 & K4 & K5).
    exists (v_head o), (v_lvl o). split; [exact (proj2 (SInv_nth_svc (inv_srv HI) Ho))|].
    pose proof (release_least (bsize c) (rate c) (v_head o) (v_lvl o) (vsize o) Hr HB) as (G1 & G2 & G3).
    unfold vsize in *. split; [exact HB|]. split; [intros ->; exact K3|].
    split; [lra|]. split; [lra|]. split.
    + rewrite (tokens_at_compat _ _ _ _ _ t (release (rate c) (v_head o) (v_lvl o) (sz (v_pkt o)))); [exact G2|lra].
    + intros t' Ht1 Ht2. apply G3; lra.
  - intros p dl Hp. assert (B : s_busy (tb_view s) = Some (p, dl)) by (cbn; unfold tb_busy; destruct Hp as [-> | ->]; reflexivity).
    destruct (SInv_busy (inv_srv HI) B) as (_ & _ & _ & _ & _ & Hn). exact Hn.
Qed.

(* packet k reaches the head, with the server free, at max(its arrival, departure of packet k-1) *)
Theorem tb_head_instant c t0 acts s tr :
  0 < rate c -> tb_run c (tb0 true c t0) acts = Some (s, tr) ->
  forall k h p, nth_error (heads tr) k = Some (h, p) ->
    exists a, nth_error (puts tr) k = Some (a, p) /\ a <= h /\
      match k with
      | O => h == Qmax a t0
      | S k' => exists d p', nth_error (fwds tr) k' = Some (d, p') /\ h == Qmax a d
      end.
Proof.
  intros Hr Hrun k h p Hk. destruct (reachable_inv c t0 Hr _ _ _ Hrun) as (Rd & cur & HI).
  pose proof (inv_srv HI) as SI.
  destruct (teq_nth _ _ (si_heads SI) _ _ _ Hk) as (T & Hk' & Et).
  destruct (timed_nth_inv v_pkt _ _ _ _ _ Hk') as (o & Ho & <- & <-).
  destruct (chain_nth c _ _ _ _ _ _ (inv_chain HI) Ho) as (K1 & _).
  exists (v_arr o). split; [exact (proj1 (SInv_nth_svc SI Ho))|split].
  - rewrite Et, K1. apply Q.le_max_l.
  - destruct k as [|k']; [rewrite Et; exact K1|].
    (* service k' is done: at most the last service is not, and that is service k or later *)
    assert (Hk1 : (k' < length Rd)%nat).
    { assert (Hlt : (S k' < length (Rd ++ olist cur))%nat) by (apply nth_error_Some; congruence).
      rewrite app_length in Hlt. destruct cur; cbn in Hlt; lia. }
    destruct (nth_error Rd k') as [o'|] eqn:Eo'; [|apply nth_error_None in Eo'; lia].
    rewrite (lastof_firstn_S v_dep _ _ _ _ (nth_error_app_l _ (olist cur) _ _ Eo')) in K1.
    destruct (teq_nth_r _ _ (si_fwds SI) k' (v_dep o') (v_pkt o')) as (d & Hd & Ed).
    { rewrite (timed_nth v_pkt), Eo'. reflexivity. }
    exists d, (v_pkt o'). split; [exact Hd|]. rewrite Et, K1, Ed. reflexivity.
Qed.

Theorem tb_initially_full c t0 acts s tr :
  0 < rate c -> tb_run c (tb0 true c t0) acts = Some (s, tr) ->
  forall t p, nth_error (debits tr) 0 = Some (t, p) -> sz p <= bsize c ->
    exists a, nth_error (puts tr) 0 = Some (a, p) /\ t == Qmax a t0.
Proof.
  intros Hr Hrun t p Hk Hsz. destruct (reachable_inv c t0 Hr _ _ _ Hrun) as (Rd & cur & HI).
  destruct (Inv_debit_nth _ _ _ _ _ _ _ _ _ _ _ _ HI Hk) as (_ & _ & o & _ & _ & _ & Ho & <- & Et).
  destruct (chain_nth c _ _ _ _ _ _ (inv_chain HI) Ho) as (K1 & K2 & K3 & K4 & K5). cbn [firstn lastof fold_left] in *.
  exists (v_arr o). split; [exact (proj1 (SInv_nth_svc (inv_srv HI) Ho))|].
  assert (El : v_lvl o == bsize c).
  { rewrite K3. unfold refill. pose proof (fill_nonneg (rate c) (v_head o - t0) Hr). apply Q.min_l. lra. }
  unfold vsize in *. rewrite (release_nowait _ _ _ _) in K4 by lra. lra.
Qed.

(* the constructor of the code as found (update_time = 0.0): with a negative initial time the first
   packet, although covered by the full bucket, is held back *)
Theorem tb_initially_full_refuted_before_fix :
  exists c t0 acts s tr t p a,
    0 < rate c /\ tb_run c (tb0 false c t0) acts = Some (s, tr) /\
    nth_error (debits tr) 0 = Some (t, p) /\ sz p <= bsize c /\
    nth_error (puts tr) 0 = Some (a, p) /\ ~ t == Qmax a t0.
Proof.
  set (p := mkp 3 4 0 128 2). set (c := {| rate := 512; bsize := 2048; peak := None |}).
  set (acts := [TInit; TAdvance (-62); TPut p; TStoreCb; TGet; TAdvance (-30); TTimer]).
  destruct (run_facts (tb_run c (tb0 false c (-64)) acts) (fun _ _ => True)) as (s & tr & E & _); [vm_compute; exact I|].
  exists c, (-64), acts, s, tr, (-30), p, (-62).
  split; [reflexivity|]. split; [exact E|].
  split; [pattern s, tr; apply (run_elim _ _ _ _ E); vm_compute; reflexivity|]. split; [vm_compute; discriminate|].
  split; [pattern s, tr; apply (run_elim _ _ _ _ E); vm_compute; reflexivity|]. intros H. vm_compute in H. discriminate.
Qed.

(* ---- departure = debit + 8*size/peak ---- *)
Theorem tb_departure_instant c t0 acts s tr :
  0 < rate c -> tb_run c (tb0 true c t0) acts = Some (s, tr) ->
  forall k t p, nth_error (fwds tr) k = Some (t, p) ->
    exists d, nth_error (debits tr) k = Some (d, p) /\
      (peak_on c = None -> t == d) /\ (forall pk, peak_on c = Some pk -> t == d + spacing pk (sz p)).
Proof.
  intros Hr Hrun k t p Hk. destruct (reachable_inv c t0 Hr _ _ _ Hrun) as (Rd & cur & HI).
  destruct (SInv_nth_fwd (inv_srv HI) Hk) as (o & Ho & <- & Et).
  destruct (Inv_debits _ _ _ _ _ _ _ _ _ HI) as (R1 & R2 & _ & HD).
  destruct (teq_nth_r _ _ HD k (v_debit o) (v_pkt o)) as (d & Hd & Ed).
  { unfold sv_debit. rewrite nth_error_map, (nth_error_app_l _ R1 _ _ Ho). reflexivity. }
  exists d. split; [exact Hd|].
  destruct (chain_nth c _ _ _ _ _ _ (inv_chain HI) (nth_error_app_l _ (olist cur) _ _ Ho)) as (_ & _ & _ & _ & K5).
  unfold gap, vsize in K5. split; [intros E|intros pk E]; rewrite E in K5; lra.
Qed.

(* ---- conservation, FIFO, losslessness ---- *)
Definition in_service (s : tb) : list pkt :=
  match phase s with PIdle => [] | PTok p _ => [p] | PPeak p _ => [p] end.

(* what the element holds: the packet in service and the store (incl. a granted get) *)
Definition tb_held (s : tb) : list pkt := in_service s ++ map snd (sq_held (tq s)).

Lemma tb_in_service s : in_service s = match s_busy (tb_view s) with Some (p, _) => [p] | None => [] end.
Proof. unfold in_service. cbn. unfold tb_busy. destruct (phase s); reflexivity. Qed.

Theorem tb_conserves c t0 acts s tr :
  0 < rate c -> tb_run c (tb0 true c t0) acts = Some (s, tr) ->
  map snd (puts tr) = map snd (fwds tr) ++ tb_held s.
Proof.
  intros Hr Hrun. destruct (reachable_inv c t0 Hr _ _ _ Hrun) as (Rd & cur & HI).
  rewrite (SInv_conserves (inv_srv HI)), (SInv_cur (inv_srv HI)), <- tb_in_service.
  reflexivity.
Qed.

Theorem tb_fifo c t0 acts s tr :
  0 < rate c -> tb_run c (tb0 true c t0) acts = Some (s, tr) ->
  exists rest, map snd (puts tr) = map snd (fwds tr) ++ rest.
Proof. intros Hr Hrun. exists (tb_held s). eapply tb_conserves; eauto. Qed.

Theorem tb_counters c t0 acts s tr :
  0 < rate c -> tb_run c (tb0 true c t0) acts = Some (s, tr) ->
  nrecv s = Z.of_nat (length (puts tr)) /\ nsent s = Z.of_nat (length (fwds tr)).
Proof.
  intros Hr Hrun. destruct (reachable_inv c t0 Hr _ _ _ Hrun) as (Rd & cur & HI).
  split; [apply (si_recv (inv_srv HI))|apply (si_sent (inv_srv HI))].
Qed.

(* nothing of the element is due now and no timeout is pending *)
Definition tb_quiescent (s : tb) : Prop := tb_urgent s = false /\ phase s = PIdle.

Lemma quiescent_held_empty c t0 s P H D F Rd cur : Inv c t0 s P H D F Rd cur -> tb_quiescent s -> tb_held s = [].
Proof.
  intros HI [U Hp]. unfold tb_urgent in U. apply orb_false_iff in U as [U _]. apply orb_false_iff in U as [Us Uq].
  apply negb_false_iff in Us.
  assert (B : s_busy (tb_view s) = None) by (cbn; unfold tb_busy; rewrite Hp; reflexivity).
  destruct (SInv_quiet_held (inv_srv HI) B Us Uq) as [_ Hh]. cbn [tb_view s_q] in Hh.
  unfold tb_held, in_service. rewrite Hp, Hh. reflexivity.
Qed.

Lemma tb_quiescent_empty c t0 acts s tr :
  0 < rate c -> tb_run c (tb0 true c t0) acts = Some (s, tr) -> tb_quiescent s -> tb_held s = [].
Proof.
  intros Hr Hrun HQ. destruct (reachable_inv c t0 Hr _ _ _ Hrun) as (Rd & cur & HI).
  exact (quiescent_held_empty _ _ _ _ _ _ _ _ _ HI HQ).
Qed.

(* when the bucket has nothing left to do, every packet put in has been forwarded, in order *)
Theorem tb_lossless c t0 acts s tr :
  0 < rate c -> tb_run c (tb0 true c t0) acts = Some (s, tr) -> tb_quiescent s ->
  map snd (fwds tr) = map snd (puts tr).
Proof.
  intros Hr Hrun HQ.
  rewrite (tb_conserves _ _ _ _ _ Hr Hrun), (tb_quiescent_empty _ _ _ _ _ Hr Hrun HQ), app_nil_r. reflexivity.
Qed.

(* ---------------------------------------------------------------------------------------------- *)
(* non-vacuity: rate 1024 bit/s (128 B/s), bucket 256 B, peak 4096 bit/s (512 B/s); a burst of a 256-byte and
   a 128-byte packet at 0.  p0 finds the bucket full: debit at 0, departure 256/512 = 1/2 later.  p1 reaches
   the head at 1/2 with 64 tokens, waits 64/128 = 1/2 for the missing 64: debit at 1, departure at 1 + 1/4. *)
Definition ex_c : tbcfg := {| rate := 1024; bsize := 256; peak := Some 4096 |}.
Definition ex_p0 : pkt := mkp 0 1 0 256 0.
Definition ex_p1 : pkt := mkp 1 2 1 128 0.
Definition ex_acts : list taction :=
  [TInit; TPut ex_p0; TPut ex_p1; TStoreCb; TStoreCb; TGet; TAdvance (1 # 2); TTimer; TGet; TAdvance 1; TTimer;
   TAdvance (5 # 4); TTimer].

Example tb_example :
  exists s tr, tb_run ex_c (tb0 true ex_c 0) ex_acts = Some (s, tr) /\
    puts tr = [(0, ex_p0); (0, ex_p1)] /\ heads tr = [(0, ex_p0); (1 # 2, ex_p1)] /\
    debits tr = [(0, ex_p0); (1, ex_p1)] /\ fwds tr = [(1 # 2, ex_p0); (5 # 4, ex_p1)] /\
    tb_quiescent s /\ 0 < rate ex_c.
Proof.
  apply run_facts. vm_compute. repeat split.
Qed.

(* ---------------------------------------------------------------------------------------------- *)
(* C08 share: per-flow order, and "drained"                                                        *)

Definition of_flow (f : Z) (l : list pkt) : list pkt := filter (fun p => Z.eqb (flow p) f) l.

Theorem tb_flow_fifo c t0 acts s tr :
  0 < rate c -> tb_run c (tb0 true c t0) acts = Some (s, tr) ->
  forall f, exists rest, of_flow f (map snd (puts tr)) = of_flow f (map snd (fwds tr)) ++ rest.
Proof.
  intros Hr Hrun f. rewrite (tb_conserves _ _ _ _ _ Hr Hrun). unfold of_flow. rewrite filter_app. eauto.
Qed.

(* when no internal step of the bucket is enabled (and no timeout is pending), nothing of it is due now *)
Lemma tb_no_internal_step_quiet c t0 s P H D F Rd cur :
  Inv c t0 s P H D F Rd cur ->
  (forall k, peak_on c = Some k -> 0 < k) -> Forall (fun x => 0 <= sz (snd x)) P ->
  phase s = PIdle ->
  (forall a, (forall p, a <> TPut p) -> (forall t, a <> TAdvance t) -> tb_act c s a = None) ->
  tb_urgent s = false.
Proof.
  intros HI Hk Hsz Hph Hno. pose proof (inv_srv HI) as S.
  assert (B : s_busy (tb_view s) = None) by (cbn; unfold tb_busy; rewrite Hph; reflexivity).
  destruct (SInv_stuck S B) as [Hs Uq]; cbn [tb_view s_started s_q] in *.
  - intros Es. assert (X : tb_act c s TInit = None) by (apply Hno; intros; discriminate).
    cbn [tb_act] in X. rewrite Es in X. destruct (sq_get fifo_pop (tq s)); [discriminate|reflexivity].
  - assert (X : tb_act c s TStoreCb = None) by (apply Hno; intros; discriminate).
    cbn [tb_act] in X. destruct (sq_cb fifo_pop (tq s)); [discriminate|reflexivity].
  - (* a granted packet could be taken: the token test passes or a wait starts, and the debit's sequel is admissible *)
    intros [a0 p] Gx.
    assert (X : tb_act c s TGet = None) by (apply Hno; intros; discriminate).
    unfold tb_act in X. rewrite Hph in X. destruct (sq_take_enabled _ _ _ Gx) as [q Hq]. rewrite Hq in X.
    destruct (negb (tstarted s)) eqn:Es.
    + destruct (SInv_idle S B) as [_ Bi]. unfold idle_ok in Bi. cbn [tb_view s_started s_q] in Bi.
      apply negb_true_iff in Es. rewrite Es in Bi. destruct Bi as (Pg & _). congruence.
    + destruct (Qlt_le_dec _ _); [discriminate|].
      pose proof (sq_take_inv _ _ _ _ Hq) as (_ & _ & _ & Gn).
      assert (Hp0 : 0 <= sz p).
      { apply (proj1 (Forall_forall _ _) Hsz (a0, p)). rewrite (si_fifo S). apply in_or_app. right.
        cbn [tb_view s_q]. rewrite (sq_held_granted _ _ _ Gx). left. reflexivity. }
      match type of X with match tb_after_debit _ ?s0 _ with _ => _ end = _ =>
        destruct (tb_after_debit_enabled c s0 p Hk Hp0 Gn) as [[s2 o] E] end.
      rewrite E in X. discriminate.
  - unfold tb_urgent, tb_due. rewrite Hs, Hph, Uq. reflexivity.
Qed.

(* the bucket's share of "the simulation ran out of events": nothing enabled but puts and the passing of
   time, no timeout pending  =>  nothing is held, everything put in has been forwarded *)
Theorem tb_drained c t0 acts s tr :
  0 < rate c -> tb_run c (tb0 true c t0) acts = Some (s, tr) ->
  (forall k, peak_on c = Some k -> 0 < k) -> Forall (fun x => 0 <= sz (snd x)) (puts tr) ->
  phase s = PIdle ->
  (forall a, (forall p, a <> TPut p) -> (forall t, a <> TAdvance t) -> tb_act c s a = None) ->
  tb_held s = [] /\ map snd (fwds tr) = map snd (puts tr).
Proof.
  intros Hr Hrun Hk Hsz Hph Hno. destruct (reachable_inv c t0 Hr _ _ _ Hrun) as (Rd & cur & HI).
  assert (HQ : tb_quiescent s) by (split; [eapply tb_no_internal_step_quiet; eauto|exact Hph]).
  split; [eapply quiescent_held_empty; eauto|eapply tb_lossless; eauto].
Qed.

(* while a packet is in service its timeout is pending and, when due, the server's step is enabled *)
Theorem tb_timer_enabled c t0 acts s tr :
  0 < rate c -> tb_run c (tb0 true c t0) acts = Some (s, tr) ->
  (forall k, peak_on c = Some k -> 0 < k) -> Forall (fun x => 0 <= sz (snd x)) (puts tr) ->
  forall p dl, phase s = PTok p dl \/ phase s = PPeak p dl ->
    tnow s <= dl /\ (dl == tnow s -> exists s' o, tb_act c s TTimer = Some (s', o)).
Proof.
  intros Hr Hrun Hk Hsz p dl Hph. destruct (reachable_inv c t0 Hr _ _ _ Hrun) as (Rd & cur & HI).
  pose proof (inv_srv HI) as S.
  assert (B : s_busy (tb_view s) = Some (p, dl)) by (cbn; unfold tb_busy; destruct Hph as [-> | ->]; reflexivity).
  destruct (SInv_busy S B) as (o & -> & Po & _ & Pg & Pn). cbn [tb_view s_q] in Pg.
  split; [exact Pn|]. intros Ed. apply Qeq_bool_iff in Ed. unfold tb_act.
  destruct Hph as [Hph|Hph]; rewrite Hph, Ed.
  - assert (Hp0 : 0 <= sz p).
    { apply (proj1 (Forall_forall _ _) Hsz (v_arr o, p)). rewrite (si_fifo S). apply in_or_app. left.
      cbn [olist]. rewrite (timed_snoc v_pkt), Po. apply in_or_app. right. left. reflexivity. }
    match goal with |- context [tb_after_debit _ ?s0 _] =>
      destruct (tb_after_debit_enabled c s0 p Hk Hp0 Pg) as [[s2 o2] ->] end. eauto.
  - unfold tb_forward. cbn [tq]. destruct (sq_get_enabled _ fifo_pop _ Pg) as [q' ->]. eauto.
Qed.
