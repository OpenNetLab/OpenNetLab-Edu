(* Bridging lemmas (DESIGN 2.6, second tie) for REDPort.put: the body as translated from the tree under test on
   every run (Gen/Extracted_red.v) is the PPut step of the hand-written automaton with [red_policy] (Elem/Red.v):
   same counters, same average (as a rational: the model stores it Qred-normalised), a uniform draw consumed exactly
   in the two curve regions, the stamp first, store.put exactly when the model accepts. *)
From Coq Require Import ZArith QArith Qminmax Qreduction List Bool Lia.
From ONL Require Import Elem.Packet Elem.StoreQ Elem.Port Elem.Red Gen.Extracted_red.
Import ListNotations.

Definition red_fields (s : port) : red_st :=
  {| r_packets_received := precv s; r_byte_size := pbytes s; r_packets_dropped := pdrop s; r_average_queue_size := pavg s |}.

Definition red_with_fields (s : port) (f : red_st) : port :=
  {| pnow := pnow s; pq := pq s; pstarted := pstarted s; psvc := psvc s; pbytes := r_byte_size f;
     precv := r_packets_received f; pdrop := r_packets_dropped f; pavg := r_average_queue_size f |}.

(* what one effect of put(packet) means in the model; the draw itself changes nothing (its value is an input) *)
Definition red_fx_apply (p : pkt) (acc : port * list pout) (e : red_fx) : port * list pout :=
  match e with
  | FxStamp k t => (fst acc, snd acc ++ [OStamp k t])
  | FxDraw => acc
  | FxStorePut => (with_q (fst acc) (sq_put fifo_push (pnow (fst acc)) p (pq (fst acc))), snd acc)
  end.

Definition red_fx_run (p : pkt) (s : port) (f : red_st) (fx : list red_fx) : port * list pout :=
  fold_left (red_fx_apply p) fx (red_with_fields s f, []).

Definition is_red_store_put (e : red_fx) : bool := match e with FxStorePut => true | _ => false end.
Definition is_red_draw (e : red_fx) : bool := match e with FxDraw => true | _ => false end.

(* the generated put() run on the abstract state; u = the value random.uniform(0, 1) returns if it is called *)
Definition red_gen_put (rc : redcfg) (eid : option Z) (dbg : bool) (s : port) (p : pkt) (u : Q) : red_st * list red_fx :=
  gen_REDPort_put (red_fields s) eid (r_lb rc) dbg (pnow s) (psize p) (Z.of_nat (length (items (pq s))))
                  (r_w rc) (r_qlimit rc) (r_max rc) (r_min rc) (r_maxp rc) u.

(* equal port states, the average as a rational number *)
Definition port_eqv (a b : port) : Prop :=
  pnow a = pnow b /\ pq a = pq b /\ pstarted a = pstarted b /\ psvc a = psvc b /\ pbytes a = pbytes b /\
  precv a = precv b /\ pdrop a = pdrop b /\ pavg a == pavg b.

Lemma Qle_bool_Qred_r a x : Qle_bool a (Qred x) = Qle_bool a x.
Proof. apply Qleb_comp; [reflexivity | apply Qred_correct]. Qed.

Lemma red_prob_Qred rc u x : Qle_bool u (red_prob rc (Qred x)) = Qle_bool u (red_prob rc x).
Proof.
  unfold red_prob. rewrite Qle_bool_Qred_r. destruct (Qle_bool (r_max rc) x); [reflexivity|].
  apply Qleb_comp; [reflexivity|]. rewrite Qred_correct. reflexivity.
Qed.

(* the decision of REDPort.put by the region of the NEW average: is a uniform draw made, is the packet refused *)
Definition red_draws (rc : redcfg) (s : port) : bool :=
  let a := red_avg_next rc s in
  negb (Qle_bool (r_qlimit rc) a) && (Qle_bool (r_max rc) a || Qle_bool (r_min rc) a).
Definition red_refuses (rc : redcfg) (s : port) (u : Q) : bool :=
  let a := red_avg_next rc s in
  Qle_bool (r_qlimit rc) a || red_draws rc s && Qle_bool u (red_prob rc a).

Definition red_stamp_fx (eid : option Z) (s : port) : list red_fx :=
  match eid with Some _ => [FxStamp eid (pnow s)] | None => [] end.

Lemma red_policy_decision rc s p u :
  red_policy rc s p (if red_draws rc s then Some u else None) = Some (red_refuses rc s u, red_avg_next rc s).
Proof.
  unfold red_policy, red_refuses, red_draws.
  destruct (Qle_bool (r_qlimit rc) (red_avg_next rc s)); [reflexivity|].
  destruct (Qle_bool (r_max rc) (red_avg_next rc s) || Qle_bool (r_min rc) (red_avg_next rc s)); reflexivity.
Qed.

Lemma red_gen_put_decision rc eid dbg s p u :
  red_gen_put rc eid dbg s p u =
  ({| r_packets_received := precv s + 1;
      r_byte_size := if red_refuses rc s u then pbytes s else pbytes s + psize p;
      r_packets_dropped := if red_refuses rc s u then pdrop s + 1 else pdrop s;
      r_average_queue_size := pavg s * (1 - red_alpha rc) + red_cur rc s * red_alpha rc |},
   red_stamp_fx eid s ++ (if red_draws rc s then [FxDraw] else []) ++ (if red_refuses rc s u then [] else [FxStorePut])).
Proof.
  unfold red_refuses, red_draws, red_avg_next. rewrite !Qle_bool_Qred_r, red_prob_Qred.
  unfold red_gen_put, gen_REDPort_put, red_fields, red_prob, red_alpha, red_cur, red_stamp_fx.
  cbn [r_packets_received r_byte_size r_packets_dropped r_average_queue_size].
  destruct eid;
    repeat match goal with |- context [Qle_bool ?a ?b] => destruct (Qle_bool a b) end; reflexivity.
Qed.

(* the effects, in program order, in the words of the property: stamp; then by the region of the NEW average *)
Definition red_put_effects (rc : redcfg) (eid : option Z) (s : port) (u : Q) : list red_fx :=
  red_stamp_fx eid s ++
  (let a := red_avg_next rc s in
   if Qle_bool (r_qlimit rc) a then []
   else if Qle_bool (r_max rc) a || Qle_bool (r_min rc) a
        then FxDraw :: (if Qle_bool u (red_prob rc a) then [] else [FxStorePut])
        else [FxStorePut]).

Lemma bridge_red_put_effects : forall rc eid dbg s p u,
  snd (red_gen_put rc eid dbg s p u) = red_put_effects rc eid s u.
Proof.
  intros. rewrite red_gen_put_decision. unfold red_put_effects, red_refuses, red_draws, snd. f_equal.
  destruct (Qle_bool (r_qlimit rc) (red_avg_next rc s)); [reflexivity|].
  destruct (Qle_bool (r_max rc) (red_avg_next rc s) || Qle_bool (r_min rc) (red_avg_next rc s)); reflexivity.
Qed.

Lemma bridge_red_put_avg : forall rc eid dbg s p u,
  r_average_queue_size (fst (red_gen_put rc eid dbg s p u)) == red_avg_next rc s.
Proof. intros. rewrite red_gen_put_decision. unfold red_avg_next. rewrite Qred_correct. reflexivity. Qed.

(* REDPort.put = the model's PPut step; the call consumed a draw iff the generated body says so *)
Lemma bridge_red_put : forall rate rc eid dbg s p u,
  let g := red_gen_put rc eid dbg s p u in
  let r := red_fx_run p s (fst g) (snd g) in
  exists s',
    port_act (red_cfg all_fixed rate rc eid) s (PPut p (if existsb is_red_draw (snd g) then Some u else None)) =
      Some (s', snd r ++ (if existsb is_red_store_put (snd g) then [] else [ODrop p])) /\
    port_eqv s' (fst r).
Proof.
  intros rate rc eid dbg s p u. cbv zeta. rewrite red_gen_put_decision.
  pose proof (red_policy_decision rc s p u) as D.
  assert (A : red_avg_next rc s == pavg s * (1 - red_alpha rc) + red_cur rc s * red_alpha rc) by apply Qred_correct.
  unfold port_act, port_put, red_cfg, c_policy, c_stamp, stamp_outs, stamp_key, all_fixed, fx_stamp,
    red_fx_run, red_stamp_fx, fst, snd.
  (* from here on only the two booleans of the decision matter *)
  revert D A. generalize (red_avg_next rc s) (pavg s * (1 - red_alpha rc) + red_cur rc s * red_alpha rc).
  generalize (red_draws rc s) (red_refuses rc s u). intros d r a a0 D A.
  destruct eid, d, r; cbn [existsb app is_red_draw is_red_store_put orb fold_left red_fx_apply fst snd];
    rewrite D; (eexists; split; [reflexivity|]); unfold port_eqv; cbn; repeat split; exact A.
Qed.
