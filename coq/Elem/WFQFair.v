(* C14, last clause: WFQ with a static backlog serves any two still-backlogged classes fairly.
   If every packet is put before the first transmission starts, then at every later state, for classes i, j
   that still hold a packet,   | W_i/w_i - W_j/w_j | <= Lmax/w_i + Lmax/w_j,
   W_c = bytes of class c whose transmission has started, Lmax = a bound on the packet sizes.

   Proof: an invariant over (state, ghost) where the ghost records W and whether a transmission has started.
   Before the first start V = 0 and the stamps are K*(prefix sums of the class)/w_c (K = 8/rate) (F1, F2);
   afterwards no put happens, every selection takes the least stamp of a fixed set, hence the normalised
   service K*W_c/w_c of every class is below every unstarted stamp (F3) -- except that the very first
   selection may have happened before the last puts, which is absorbed by "or W_c <= Lmax".
   The other clauses of FI: sizes within [0, Lmax] (F0) and W >= 0 (F6); the class in transmission is the most served,
   up to Lmax (F4); a selected entry is the oldest of its class and, after the first start, carries the least stamp
   (F5); arrival counters are distinct and bounded by seq (F7). *)
From Coq Require Import ZArith QArith Qminmax Qabs List Bool Lia Lqa Permutation.
From ONL Require Import Base.Tools Elem.Packet Elem.StoreQ Elem.StoreQProofs Elem.HeapList Elem.WFQServer Elem.WFQServerProofs
  Elem.WFQServerTrace Elem.WFQ Elem.WFQProofs Elem.WFQInst.
Import ListNotations.

Section Fair.
  Variable cfg : wcfg.
  Hypothesis Hok : wcfg_ok cfg.
  Hypothesis Hfix : wfix_first cfg = true.
  Variable Lmax : Z.
  Hypothesis Lmax_nonneg : (0 <= Lmax)%Z.
  Let rp : 0 < wrate cfg := proj1 Hok.
  Let wp := proj2 Hok.
  Notation S := (wfq_stamper cfg).
  Notation D := (wfq_disc cfg rp wp).

  Definition esize (e : entry) : Z := psize (epkt e).
  Definition eseq (e : entry) : nat := iseq (snd e).
  Definition ecls (e : entry) : Z := wcls cfg (epkt e).
  Definition wof (c : Z) : Z := match zlookup c (wweights cfg) with Some w => w | None => 1%Z end.
  Definition K : Q := 8 / wrate cfg.
  (* x bytes of class c, normalised: K * x / w_c *)
  Definition nrm (c : Z) (x : Z) : Q := K * inject_Z x / inject_Z (wof c).

  Lemma wof_pos c : (0 < wof c)%Z.
  Proof. unfold wof. destruct (zlookup c (wweights cfg)) eqn:E; [eapply wp; eauto|lia]. Qed.

  Lemma wof_nz c : ~ inject_Z (wof c) == 0.
  Proof. pose proof (wof_pos c). unfold Qeq; cbn; lia. Qed.

  Lemma K_pos : 0 < K.
  Proof. unfold K. apply Qlt_shift_div_l; [exact rp|]. rewrite Qmult_0_l. reflexivity. Qed.

  Lemma nrm_plus c x y : nrm c (x + y) == nrm c x + nrm c y.
  Proof.
    unfold nrm. rewrite inject_Z_plus. field. apply wof_nz.
  Qed.

  Lemma nrm_mono c x y : (x <= y)%Z -> nrm c x <= nrm c y.
  Proof.
    intros H. unfold nrm. pose proof (wof_pos c) as W. pose proof K_pos as Kp.
    apply Qle_shift_div_l; [unfold Qlt; cbn; lia|].
    setoid_replace (K * inject_Z x / inject_Z (wof c) * inject_Z (wof c)) with (K * inject_Z x) by (field; apply wof_nz).
    apply Qmult_le_l; [exact Kp|]. rewrite <- Zle_Qle. exact H.
  Qed.

  Lemma nrm_0 c : nrm c 0 == 0.
  Proof. unfold nrm. field. apply wof_nz. Qed.

  Lemma nrm_nonneg c x : (0 <= x)%Z -> 0 <= nrm c x.
  Proof. intros H. rewrite <- (nrm_0 c). apply nrm_mono. exact H. Qed.

  (* the increment put() adds to the stamp *)
  Lemma inc_nrm p w : zlookup (wcls cfg p) (wweights cfg) = Some w -> wstamp_inc cfg p w == nrm (wcls cfg p) (psize p).
  Proof.
    intros E. unfold wstamp_inc, nrm, K, wof. rewrite E. pose proof (wp _ _ E) as W.
    assert (N : ~ inject_Z w == 0) by (unfold Qeq; cbn; lia).
    assert (N2 : ~ wrate cfg == 0) by (intros C; rewrite C in rp; apply (Qlt_irrefl 0); exact rp).
    field. split; assumption.
  Qed.

  (* ---- sums over lists of entries ---- *)
  Definition csum (c : Z) (l : list entry) : Z :=
    fold_right (fun v a => ((if Z.eqb (ecls v) c then esize v else 0) + a)%Z) 0%Z l.
  Definition pre_in (u v : entry) : bool := Z.eqb (ecls v) (ecls u) && Nat.leb (eseq v) (eseq u).
  Definition presum (l : list entry) (u : entry) : Z :=
    fold_right (fun v a => ((if pre_in u v then esize v else 0) + a)%Z) 0%Z l.

  Lemma presum_cons a l u : presum (a :: l) u = ((if pre_in u a then esize a else 0) + presum l u)%Z.
  Proof. reflexivity. Qed.
  Lemma pre_in_refl u : pre_in u u = true.
  Proof. unfold pre_in. rewrite Z.eqb_refl, Nat.leb_refl. reflexivity. Qed.
  Lemma csum_perm c l l' : Permutation l l' -> csum c l = csum c l'.
  Proof. intros P. unfold csum. induction P; cbn; lia. Qed.
  Lemma presum_perm u l l' : Permutation l l' -> presum l u = presum l' u.
  Proof. intros P. unfold presum. induction P; cbn; lia. Qed.
  Lemma csum_app c l1 l2 : csum c (l1 ++ l2) = (csum c l1 + csum c l2)%Z.
  Proof. unfold csum. induction l1; cbn; lia. Qed.
  Lemma csum_nonneg c l : (forall u, In u l -> (0 <= esize u)%Z) -> (0 <= csum c l)%Z.
  Proof.
    induction l as [|a l IH]; intros H; cbn [csum fold_right]; [lia|]. fold (csum c l).
    pose proof (H a (or_introl eq_refl)). pose proof (IH (fun u Hu => H u (or_intror Hu))).
    destruct (Z.eqb (ecls a) c); lia.
  Qed.
  Lemma presum_app u l1 l2 : presum (l1 ++ l2) u = (presum l1 u + presum l2 u)%Z.
  Proof. unfold presum. induction l1; cbn; lia. Qed.

  (* ---- the unstarted entries of a state ---- *)
  Definition sel (s : wfq cfg) : list entry :=
    (match chl s with CInit e => [e] | _ => [] end) ++ (match get (store s) with GGranted x => [x] | _ => [] end).
  Definition Ul (s : wfq cfg) : list entry := sel s ++ items (store s).

  Lemma asked_idle s : InvA S s -> get (store s) <> GNone -> chl s = CNone.
  Proof.
    intros I G. destruct (chl s) eqn:Ec; [reflexivity| | |]; exfalso; apply G, (child_busy_get_none S s I); rewrite Ec; discriminate.
  Qed.

  Lemma quiet_Ul_nil s : InvA S s -> urgent s = false -> (chl s = CNone \/ exists e, chl s = CInit e) -> Ul s = [].
  Proof.
    intros I U [C0|(e0 & C0)].
    - destruct (quiet_idle S s I U C0) as (W & E). unfold Ul, sel. rewrite C0, W, E. reflexivity.
    - apply (urgent_false S) in U as (_ & _ & Uc & _). unfold child_urgent in Uc. rewrite C0 in Uc. discriminate.
  Qed.

  Record ghost := { gW : Z -> Z; gst : bool }.
  Definition g0 : ghost := {| gW := fun _ => 0%Z; gst := false |}.
  Definition gstep (g : ghost) (a : faction) (s' : wfq cfg) : ghost :=
    match a, chl s' with
    | FChildInit, CTx e _ => {| gW := fupd (gW g) (ecls e) (gW g (ecls e) + esize e); gst := true |}
    | _, _ => g
    end.

  Definition FI (s : wfq cfg) (g : ghost) : Prop :=
    (* F0 *) (forall u, In u (Ul s) -> (0 <= esize u <= Lmax)%Z) /\
    (* F6 *) (forall c, 0 <= gW g c)%Z /\
    (* F1 *) (gst g = false ->
               (forall c, gW g c = 0%Z) /\ vtime (stm s) == 0 /\ (Ul s <> [] -> last_time (stm s) = now s) /\
               (forall c, fin (stm s) c == nrm c (csum c (Ul s))) /\
               (chl s = CNone \/ exists e, chl s = CInit e)) /\
    (* F2 *) (forall u, In u (Ul s) -> istamp (snd u) == nrm (ecls u) (gW g (ecls u) + presum (Ul s) u)) /\
    (* F3 *) (forall c u, In u (Ul s) -> nrm c (gW g c) <= istamp (snd u) \/ (gW g c <= Lmax)%Z) /\
    (* F4 *) (forall e dl, chl s = CTx e dl -> forall c, nrm c (gW g c) <= nrm (ecls e) (gW g (ecls e)) \/ (gW g c <= Lmax)%Z) /\
    (* F5 *) (forall x y, In x (sel s) -> In y (items (store s)) ->
               (ecls y = ecls x -> (eseq x < eseq y)%nat) /\
               (gst g = true -> istamp (snd x) <= istamp (snd y))) /\
    (* F7 *) NoDup (map eseq (Ul s)) /\ (forall u, In u (Ul s) -> (eseq u <= seq s)%nat).

  (* ---- the bound follows from the invariant ---- *)
  Lemma presum_zero l u :
    (forall v, In v l -> ecls v = ecls u -> (eseq u < eseq v)%nat) -> presum l u = 0%Z.
  Proof.
    induction l as [|b l IH]; intros H; [reflexivity|]. rewrite presum_cons.
    rewrite IH by (intros v Hv; apply H; right; exact Hv).
    unfold pre_in. destruct (Z.eqb_spec (ecls b) (ecls u)) as [E|E]; [|reflexivity]. cbn [andb].
    assert (L : (eseq u < eseq b)%nat) by (apply H; [left; reflexivity|exact E]).
    destruct (Nat.leb_spec (eseq b) (eseq u)); [lia|reflexivity].
  Qed.

  Lemma presum_min l u :
    NoDup (map eseq l) -> In u l -> (forall v, In v l -> ecls v = ecls u -> (eseq u <= eseq v)%nat) ->
    presum l u = esize u.
  Proof.
    induction l as [|a l IH]; intros ND Hu Hmin; [destruct Hu|].
    cbn [map] in ND. inversion ND as [|? ? Hna ND']; subst. rewrite presum_cons.
    destruct Hu as [->|Hu].
    - rewrite pre_in_refl, presum_zero; [lia|]. intros v Hv Ec.
      assert (L : (eseq u <= eseq v)%nat) by (apply Hmin; [right; exact Hv|exact Ec]).
      assert (N : eseq v <> eseq u) by (intros C; apply Hna; rewrite <- C; apply in_map; exact Hv). lia.
    - assert (Ea : pre_in u a = false).
      { unfold pre_in. destruct (Z.eqb_spec (ecls a) (ecls u)) as [E|E]; [|reflexivity]. cbn [andb].
        assert (L : (eseq u <= eseq a)%nat) by (apply Hmin; [left; reflexivity|exact E]).
        assert (N : eseq a <> eseq u) by (intros C; apply Hna; rewrite C; apply in_map; exact Hu).
        destruct (Nat.leb_spec (eseq a) (eseq u)); [lia|reflexivity]. }
      rewrite Ea. rewrite IH; [lia|exact ND'|exact Hu|]. intros v Hv. apply Hmin. right. exact Hv.
  Qed.

  Lemma class_min (l : list entry) j :
    (forall v, In v l -> ecls v <> j) \/
    exists u, In u l /\ ecls u = j /\ forall v, In v l -> ecls v = j -> (eseq u <= eseq v)%nat.
  Proof.
    induction l as [|a l [None|(m & Hm & Hmc & Hmin)]]; [left; intros v []| |];
      destruct (Z.eq_dec (ecls a) j) as [Ea|Ea].
    - right. exists a. split; [left; reflexivity|]. split; [exact Ea|].
      intros v [<-|Hv] Hvc; [lia|]. destruct (None v Hv Hvc).
    - left. intros v [<-|Hv]; [exact Ea|apply None, Hv].
    - right. destruct (le_lt_dec (eseq a) (eseq m)) as [L|L].
      + exists a. split; [left; reflexivity|]. split; [exact Ea|].
        intros v [<-|Hv] Hvc; [lia|]. specialize (Hmin v Hv Hvc). lia.
      + exists m. split; [right; exact Hm|]. split; [exact Hmc|].
        intros v [<-|Hv] Hvc; [lia|]. apply Hmin; assumption.
    - right. exists m. split; [right; exact Hm|]. split; [exact Hmc|].
      intros v [<-|Hv] Hvc; [contradiction|]. apply Hmin; assumption.
  Qed.

  (* class j holds a packet in state s *)
  Definition holds (j : Z) (s : wfq cfg) : Prop := exists p, In p (held S s) /\ wcls cfg p = j.

  Lemma holds_cases s j : holds j s ->
    (exists u, In u (Ul s) /\ ecls u = j) \/ (exists e dl, chl s = CTx e dl /\ ecls e = j).
  Proof.
    intros (p & Hp & Hc). unfold held in Hp. apply in_app_or in Hp as [Hp|Hp].
    - destruct (chl s) as [|e|e dl|e] eqn:Ec; cbn in Hp; try (destruct Hp; fail).
      + destruct Hp as [<-|[]]. left. exists e. split; [|exact Hc]. unfold Ul, sel. rewrite Ec. left. reflexivity.
      + destruct Hp as [<-|[]]. right. exists e, dl. auto.
    - apply in_map_iff in Hp as (u & <- & Hu). left. exists u. split; [|exact Hc].
      unfold Ul, sel. apply in_or_app. unfold sq_held in Hu. destruct (get (store s)) as [| |y] eqn:G.
      + right. exact Hu.
      + right. exact Hu.
      + destruct Hu as [<-|Hu]; [left; apply in_or_app; right; left; reflexivity|right; exact Hu].
  Qed.

  Lemma one_side s g i j :
    FI s g -> holds j s -> nrm i (gW g i) <= nrm j (gW g j) + nrm j Lmax \/ (gW g i <= Lmax)%Z.
  Proof.
    intros (F0 & F6 & F1 & F2 & F3 & F4 & F5 & F7 & F7b) Hj.
    destruct (holds_cases s j Hj) as [Hu|(e & dl & Ec & Ee)].
    - destruct (class_min (Ul s) j) as [None|(u & Hin & Hc & Hmin)]; [destruct Hu as (u & Hin & Hc); destruct (None u Hin Hc)|].
      assert (Ps : presum (Ul s) u = esize u).
      { apply presum_min; [exact F7|exact Hin|]. intros v Hv Ev. apply Hmin; [exact Hv|congruence]. }
      destruct (F3 i u Hin) as [L|L]; [left|right; exact L].
      rewrite (F2 u Hin), Ps, Hc, nrm_plus in L. destruct (F0 u Hin) as (_ & Hs).
      pose proof (nrm_mono j _ _ Hs). lra.
    - destruct (F4 e dl Ec i) as [L|L]; [left|right; exact L]. rewrite Ee in L.
      pose proof (nrm_nonneg j Lmax Lmax_nonneg). lra.
  Qed.

  Theorem fair_from_FI s g i j :
    FI s g -> holds i s -> holds j s ->
    Qabs (nrm i (gW g i) - nrm j (gW g j)) <= nrm i Lmax + nrm j Lmax.
  Proof.
    intros HF Hi Hj. pose proof HF as (_ & F6 & _).
    pose proof (nrm_nonneg i _ (F6 i)) as Ni. pose proof (nrm_nonneg j _ (F6 j)) as Nj.
    pose proof (nrm_nonneg i Lmax Lmax_nonneg) as Li. pose proof (nrm_nonneg j Lmax Lmax_nonneg) as Lj.
    assert (A : nrm i (gW g i) - nrm j (gW g j) <= nrm i Lmax + nrm j Lmax).
    { destruct (one_side s g i j HF Hj) as [L|L]; [lra|]. pose proof (nrm_mono i _ _ L). lra. }
    assert (B : nrm j (gW g j) - nrm i (gW g i) <= nrm i Lmax + nrm j Lmax).
    { destruct (one_side s g j i HF Hi) as [L|L]; [lra|]. pose proof (nrm_mono j _ _ L). lra. }
    apply Qabs_case; intros _; lra.
  Qed.

  (* ---- preservation ---- *)
  Notation R := (wreach cfg).

  Lemma presum_all l u : (forall v, In v l -> (eseq v <= eseq u)%nat) -> presum l u = csum (ecls u) l.
  Proof.
    induction l as [|a l IH]; intros H; [reflexivity|]. cbn [presum csum fold_right]. fold (presum l u). fold (csum (ecls u) l).
    rewrite IH by (intros v Hv; apply H; right; exact Hv). unfold pre_in.
    assert (L : (eseq a <= eseq u)%nat) by (apply H; left; reflexivity).
    destruct (Nat.leb_spec (eseq a) (eseq u)); [|lia]. rewrite andb_true_r. reflexivity.
  Qed.

  Lemma presum_later l u : (forall v, In v l -> (eseq u < eseq v)%nat) -> presum l u = 0%Z.
  Proof. intros H. apply presum_zero. intros v Hv _. apply H. exact Hv. Qed.

  (* before any transmission started, the packets in the system are exactly the unstarted entries *)
  Lemma insys_Ul s : (chl s = CNone \/ exists e, chl s = CInit e) -> insys S s = map epkt (Ul s).
  Proof.
    intros Hc. unfold insys, Ul, sel, sq_held. rewrite !map_app.
    destruct Hc as [->|(e & ->)]; cbn [child_all app map]; destruct (get (store s)); reflexivity.
  Qed.

  Lemma Ul_nil_insys s : (chl s = CNone \/ exists e, chl s = CInit e) -> (insys S s = [] <-> Ul s = []).
  Proof.
    intros Hc. rewrite (insys_Ul s Hc). split; [|intros ->; reflexivity].
    destruct (Ul s); [reflexivity|discriminate].
  Qed.

  Lemma FI_put s g p s' o :
    R s -> FI s g -> gst g = false -> wconf cfg p -> (psize p <= Lmax)%Z ->
    wfq_act cfg s (FPut p) = Ok (s', o) -> FI s' g.
  Proof.
    intros HR (F0 & F6 & F1 & F2 & F3 & F4 & F5 & F7 & F7b) Gs Hc Hsz A.
    destruct (F1 Gs) as (W0 & V0 & Lt & Fin & Hchl).
    destruct (wfq_stamp cfg Hok Hfix s p HR Hc) as (s1 & w & F & A1 & Ew & EF & EFc & Eoth & (F' & EF' & Eit)).
    rewrite A1 in A. apply Ok_inj in A as [-> ->].
    assert (Hcp : forall q, FPut p = FPut q -> wconf cfg q) by (intros q Eq; injection Eq as <-; exact Hc).
    pose proof (wfq_vtime cfg Hok s (FPut p) s1 [] HR Hcp A1) as (Lt' & V1 & V2).
    set (n := (now s, {| istamp := F'; iseq := Datatypes.S (seq s); ipkt := p |}) : entry) in *.
    assert (Est : exists st' F0, wfq_put cfg (now s) (stm s) p = Some (st', F0) /\ stm s1 = st' /\
                    sel s1 = sel s /\ chl s1 = chl s /\ seq s1 = Datatypes.S (seq s) /\ now s1 = now s).
    { pose proof A1 as A2. unfold wfq_act, act in A2. cbn [st_put wfq_stamper] in A2.
      destruct (wfq_put cfg (now s) (stm s) p) as [[st' F0']|]; [|discriminate].
      apply Ok_inj in A2 as [-> _]. exists st', F0'. unfold sel. cbn [chl store get sq_put seq now stm]. auto 6. }
    destruct Est as (st' & F0' & P & Estm & Esel & Echl & Eseq & Enow).
    assert (EU : Ul s1 = Ul s ++ [n]).
    { unfold Ul. rewrite Esel, Eit, app_assoc. reflexivity. }
    assert (Hn : esize n = psize p /\ ecls n = wcls cfg p /\ eseq n = Datatypes.S (seq s)) by (cbn; auto).
    destruct Hn as (Hn1 & Hn2 & Hn3).
    assert (Hvt : vtime (stm s1) == 0).
    { destruct (Ul s) as [|u0 U0] eqn:EUl.
      - apply V1. apply (Ul_nil_insys s Hchl). exact EUl.
      - destruct V2 as (W & _ & Wp & Ev); [intros C; apply (Ul_nil_insys s Hchl) in C; rewrite EUl in C; discriminate|].
        rewrite Ev, V0. rewrite Lt by discriminate.
        assert (N : ~ inject_Z W == 0) by (unfold Qeq; cbn; lia). field. exact N. }
    assert (Hcs : forall c, csum c (Ul s ++ [n]) = (csum c (Ul s) + (if Z.eqb (wcls cfg p) c then psize p else 0))%Z).
    { intros c. rewrite csum_app. cbn [csum fold_right]. rewrite Hn1, Hn2. lia. }
    assert (HF : F == nrm (wcls cfg p) (csum (wcls cfg p) (Ul s) + psize p)).
    { rewrite EF, Hvt, (inc_nrm p w Ew), nrm_plus, (Fin (wcls cfg p)).
      assert (G0 : 0 <= nrm (wcls cfg p) (csum (wcls cfg p) (Ul s))) by (apply nrm_nonneg, csum_nonneg; intros u Hu; apply F0, Hu).
      rewrite (Q.max_l _ _ G0). reflexivity. }
    unfold FI. rewrite EU.
    split; [|split; [|split; [|split; [|split; [|split; [|split; [|split]]]]]]].
    - (* F0 *) intros u Hu. apply in_app_or in Hu as [Hu|[<-|[]]]; [apply F0; exact Hu|]. rewrite Hn1. destruct Hc. lia.
    - exact F6.
    - (* F1 *) intros _. split; [exact W0|]. split; [exact Hvt|]. split; [intros _; rewrite Lt', Enow; reflexivity|].
      split; [|rewrite Echl; exact Hchl].
      intros c. rewrite Hcs. destruct (Z.eqb_spec (wcls cfg p) c) as [<-|Nc].
      + rewrite EFc. exact HF.
      + rewrite Z.add_0_r. destruct (Ul s) as [|u0 U0] eqn:EUl.
        * assert (Ea : active (stm s) = []).
          { apply (WJ_active_nil cfg (stm s) (insys S s) (wreach_J cfg rp wp s HR)). apply (Ul_nil_insys s Hchl). exact EUl. }
          rewrite Estm, (wfq_put_empty_others cfg _ _ _ _ _ c Ea P); [|congruence].
          cbn [csum fold_right]. rewrite nrm_0. reflexivity.
        * rewrite Eoth; [apply Fin|congruence|].
          intros C. apply (Ul_nil_insys s Hchl) in C. rewrite EUl in C. discriminate.
    - (* F2 *) intros u Hu. rewrite presum_app. apply in_app_or in Hu as [Hu|[<-|[]]].
      + assert (Pn : presum [n] u = 0%Z).
        { apply presum_later. intros v [<-|[]]. rewrite Hn3. specialize (F7b u Hu). lia. }
        rewrite Pn, Z.add_0_r. apply F2. exact Hu.
      + rewrite Hn2, W0, Z.add_0_l.
        assert (P1 : presum (Ul s) n = csum (wcls cfg p) (Ul s)).
        { rewrite presum_all; [rewrite Hn2; reflexivity|]. intros v Hv. rewrite Hn3. specialize (F7b v Hv). lia. }
        assert (P2 : presum [n] n = psize p).
        { rewrite presum_cons, pre_in_refl. cbn. lia. }
        rewrite P1, P2. cbn [snd istamp n]. rewrite EF'. exact HF.
    - (* F3 *) intros c u _. right. rewrite W0. exact Lmax_nonneg.
    - (* F4 *) intros e dl Ec. rewrite Echl in Ec. destruct Hchl as [C|(e0 & C)]; rewrite C in Ec; discriminate.
    - (* F5 *) intros x y Hx Hy. rewrite Esel in Hx. rewrite Eit in Hy. apply in_app_or in Hy as [Hy|[<-|[]]].
      + apply F5; assumption.
      + split; [|intros C; congruence]. intros _. rewrite Hn3.
        assert (Hxu : In x (Ul s)) by (unfold Ul; apply in_or_app; left; exact Hx). specialize (F7b x Hxu). lia.
    - (* F7 *) rewrite map_app. cbn [map]. rewrite Hn3.
      eapply Permutation_NoDup; [apply Permutation_cons_append|]. constructor; [|exact F7].
      intros C. apply in_map_iff in C as (v & Ev & Hv). specialize (F7b v Hv). lia.
    - intros u Hu. rewrite Eseq. apply in_app_or in Hu as [Hu|[<-|[]]]; [specialize (F7b u Hu); lia|rewrite Hn3; lia].
  Qed.

  Lemma klt_stamp_le (x y : entry) : entry_ltb x y = true -> istamp (snd x) <= istamp (snd y).
  Proof.
    unfold entry_ltb. rewrite key_ltb_true. unfold ekey, klt. intros [H|[H _]]; lra.
  Qed.

  (* the transmission of the selected entry x starts *)
  Lemma FI_start s g s' o :
    R s -> FI s g -> wfq_act cfg s FChildInit = Ok (s', o) -> FI s' (gstep g FChildInit s').
  Proof.
    intros HR (F0 & F6 & F1 & F2 & F3 & F4 & F5 & F7 & F7b) A.
    destruct (wreach_inv cfg rp wp s HR) as (IA & _).
    unfold wfq_act, act in A. destruct (chl s) as [|x|x dl|x] eqn:Ec; try discriminate A.
    apply Ok_inj in A as [-> ->].
    assert (G : get (store s) = GNone) by (apply (child_busy_get_none S s IA); rewrite Ec; discriminate).
    assert (EU : Ul s = x :: items (store s)) by (unfold Ul, sel; rewrite Ec, G; reflexivity).
    assert (Esel : In x (sel s)) by (unfold sel; rewrite Ec; left; reflexivity).
    unfold gstep. cbn [chl with_child]. set (k := ecls x).
    set (g' := {| gW := fupd (gW g) k (gW g k + esize x); gst := true |}).
    assert (EU' : Ul (with_child S s (CTx x (Qred (now s + tx_time (wrate cfg) (epkt x))))) = items (store s)).
    { unfold Ul, sel. cbn [chl store with_child]. rewrite G. reflexivity. }
    assert (Hx : In x (Ul s)) by (rewrite EU; left; reflexivity).
    assert (Psx : presum (Ul s) x = esize x).
    { rewrite EU, presum_cons, pre_in_refl, presum_zero; [lia|].
      intros v Hv Ev. apply (F5 x v Esel Hv). exact Ev. }
    assert (Sx : istamp (snd x) == nrm k (gW g k + esize x)).
    { rewrite (F2 x Hx), Psx. reflexivity. }
    assert (Wk : gW g' k = (gW g k + esize x)%Z) by (cbn [gW g']; unfold fupd; rewrite Z.eqb_refl; reflexivity).
    assert (Wo : forall c, c <> k -> gW g' c = gW g c).
    { intros c Nc. cbn [gW g']. unfold fupd. destruct (Z.eqb_spec c k); [contradiction|reflexivity]. }
    unfold FI. rewrite EU'. cbn [chl with_child store seq].
    split; [|split; [|split; [|split; [|split; [|split; [|split; [|split]]]]]]].
    - intros u Hu. apply F0. rewrite EU. right. exact Hu.
    - intros c. destruct (Z.eq_dec c k) as [->|Nc]; [rewrite Wk|rewrite (Wo c Nc); apply F6].
      specialize (F6 k). destruct (F0 x Hx). lia.
    - intros C. discriminate C.
    - (* F2 *) intros u Hu. assert (Hu' : In u (Ul s)) by (rewrite EU; right; exact Hu).
      rewrite (F2 u Hu'), EU, presum_cons. unfold pre_in.
      destruct (Z.eq_dec (ecls u) k) as [Ek|Nk].
      + rewrite Ek, Wk. fold k. rewrite Z.eqb_refl.
        assert (L : (eseq x < eseq u)%nat) by (apply (F5 x u Esel Hu); exact Ek).
        destruct (Nat.leb_spec (eseq x) (eseq u)); [|lia]. cbn [andb].
        replace (gW g k + (esize x + presum (items (store s)) u))%Z with (gW g k + esize x + presum (items (store s)) u)%Z by lia.
        reflexivity.
      + rewrite (Wo _ Nk). fold k. destruct (Z.eqb_spec k (ecls u)); [congruence|]. cbn [andb]. reflexivity.
    - (* F3 *) intros c u Hu. assert (Hu' : In u (Ul s)) by (rewrite EU; right; exact Hu).
      destruct (Z.eq_dec c k) as [->|Nc]; [|rewrite (Wo c Nc); apply F3; exact Hu'].
      rewrite Wk. destruct (gst g) eqn:Gs.
      + left. rewrite <- Sx. apply (F5 x u Esel Hu). reflexivity.
      + right. destruct (F1 eq_refl) as (W0 & _). rewrite W0. destruct (F0 x Hx). lia.
    - (* F4 *) intros e dl E c. apply CTx_inj in E as [-> _]. fold k.
      destruct (Z.eq_dec c k) as [->|Nc]; [left; apply Qle_refl|]. rewrite (Wo c Nc), Wk.
      destruct (F3 c x Hx) as [L|L]; [left; rewrite <- Sx; exact L|right; exact L].
    - intros y z Hy. unfold sel in Hy. cbn [chl store with_child] in Hy. rewrite G in Hy. destruct Hy.
    - rewrite EU in F7. cbn [map] in F7. inversion F7; assumption.
    - intros u Hu. apply F7b. rewrite EU. right. exact Hu.
  Qed.

  (* steps that neither put nor start: the unstarted entries are permuted, the ghost is unchanged *)
  Definition phaseA_ok (s s' : wfq cfg) : Prop :=
    vtime (stm s') == vtime (stm s) /\ (Ul s' <> [] -> last_time (stm s') = now s') /\
    (forall c, fin (stm s') c == fin (stm s) c) /\ (chl s' = CNone \/ exists e, chl s' = CInit e).

  Lemma FI_perm s s' g :
    FI s g -> Permutation (Ul s') (Ul s) -> seq s' = seq s ->
    (gst g = false -> phaseA_ok s s') ->
    (forall e dl, chl s' = CTx e dl -> chl s = CTx e dl) ->
    (forall x y, In x (sel s') -> In y (items (store s')) ->
        (ecls y = ecls x -> (eseq x < eseq y)%nat) /\ (gst g = true -> istamp (snd x) <= istamp (snd y))) ->
    FI s' g.
  Proof.
    intros (F0 & F6 & F1 & F2 & F3 & F4 & F5 & F7 & F7b) P Es HA H4 H5.
    assert (In' : forall u, In u (Ul s') -> In u (Ul s)) by (intros u Hu; eapply Permutation_in; eauto).
    unfold FI. split; [|split; [|split; [|split; [|split; [|split; [|split; [|split]]]]]]].
    - intros u Hu. apply F0, In', Hu.
    - exact F6.
    - intros Gs. destruct (F1 Gs) as (W0 & V0 & Lt & Fin & Hc). destruct (HA Gs) as (V' & Lt' & Fin' & Hc').
      split; [exact W0|]. split; [rewrite V'; exact V0|]. split; [exact Lt'|]. split; [|exact Hc'].
      intros c. rewrite Fin', (csum_perm c _ _ P). apply Fin.
    - intros u Hu. rewrite (presum_perm u _ _ P). apply F2, In', Hu.
    - intros c u Hu. apply F3, In', Hu.
    - intros e dl Ec. apply (F4 e dl). apply H4. exact Ec.
    - exact H5.
    - eapply Permutation_NoDup; [apply Permutation_map; symmetry; exact P|exact F7].
    - intros u Hu. rewrite Es. apply F7b, In', Hu.
  Qed.

  Inductive moved (s s' : wfq cfg) : Prop :=
  | mv_same : sel s' = sel s -> items (store s') = items (store s) -> moved s s'
  | mv_select x l1 l2 : sel s = [] -> sel s' = [x] -> items (store s) = l1 ++ x :: l2 -> items (store s') = l1 ++ l2 ->
      strictly_least (wcls cfg) x l1 l2 -> moved s s'.

  Lemma moved_perm s s' : moved s s' -> Permutation (Ul s') (Ul s).
  Proof.
    intros [Es Ei|x l1 l2 Es Es' Ei Ei' _]; unfold Ul.
    - rewrite Es, Ei. apply Permutation_refl.
    - rewrite Es, Es', Ei, Ei'. cbn [app]. apply Permutation_middle.
  Qed.

  Lemma FI_moved s s' g :
    R s -> FI s g -> moved s s' -> seq s' = seq s -> (gst g = false -> phaseA_ok s s') ->
    (forall e dl, chl s' = CTx e dl -> chl s = CTx e dl) -> FI s' g.
  Proof.
    intros HR HF M Eq HA H4. pose proof HF as (_ & _ & _ & _ & _ & _ & F5 & _).
    apply (FI_perm s s' g HF (moved_perm s s' M) Eq HA H4).
    destruct M as [Es Ei|x l1 l2 Es Es' Ei Ei' (SL1 & SL2)].
    - intros x y Hx Hy. rewrite Es in Hx. rewrite Ei in Hy. apply F5; assumption.
    - destruct (wreach_inv cfg rp wp s HR) as (_ & _ & _ & HO & _). rewrite Ei in HO.
      intros y z Hy Hz. rewrite Es' in Hy. destruct Hy as [<-|[]]. rewrite Ei' in Hz. split.
      + intros Ec. apply in_app_or in Hz as [Hz|Hz].
        * exfalso. apply (SL2 z Hz). exact Ec.
        * apply (proj1 (ordl_split_after (wcls cfg) l1 x l2 HO z Hz)).
      + intros _. apply klt_stamp_le. apply SL1. exact Hz.
  Qed.

  Lemma phaseA_quiet s s' g :
    FI s g -> stm s' = stm s -> now s' = now s \/ Ul s = [] ->
    chl s' = chl s \/ (chl s = CNone /\ exists e, chl s' = CInit e) ->
    Permutation (Ul s') (Ul s) -> gst g = false -> phaseA_ok s s'.
  Proof.
    intros (_ & _ & F1 & _) Est En Ec P Gs. destruct (F1 Gs) as (_ & _ & Lt & _ & Hc).
    unfold phaseA_ok. rewrite Est. split; [reflexivity|]. split; [|split; [intros c; reflexivity|]].
    - intros Hne. assert (Hn : Ul s <> []) by (intros E; apply Hne; rewrite E in P; apply Permutation_nil; symmetry; exact P).
      destruct En as [->|En]; [apply Lt, Hn|contradiction].
    - destruct Ec as [->|(_ & e & ->)]; [exact Hc|right; eauto].
  Qed.

  Lemma step_moved s a s' o :
    R s -> wfq_act cfg s a = Ok (s', o) -> (forall p, a <> FPut p) -> a <> FChildInit ->
    moved s s' /\ seq s' = seq s /\ (forall e dl, chl s' = CTx e dl -> chl s = CTx e dl) /\
    ((chl s = CNone \/ exists e, chl s = CInit e) ->
       stm s' = stm s /\ (now s' = now s \/ Ul s = []) /\ (chl s' = chl s \/ (chl s = CNone /\ exists e, chl s' = CInit e))).
  Proof.
    intros HR A NP NS. pose proof (wreach_inv cfg rp wp s HR) as HI. pose proof HI as (IA & _). pose proof IA as (_ & I0 & _).
    unfold wfq_act in A. destruct a; [destruct (NP p eq_refl)| | | |destruct (NS eq_refl)| | |].
    - (* FInit *) act_inv A. destruct (I0 eq_refl) as (G0 & C0).
      match goal with E : sq_get _ _ = Some _ |- _ => rename E into G end.
      assert (Es : sel s = []) by (unfold sel; rewrite C0, G0; reflexivity).
      split; [|split; [reflexivity|split; [intros e dl Ec; exact Ec|intros _; split; [reflexivity|split; left; reflexivity]]]].
      apply pq_get_inv in G as (_ & _ & [(E1 & E2 & G')|(x & Hs)]).
      + apply mv_same; [unfold sel; cbn [chl store]; rewrite C0, G', G0; reflexivity|cbn [store]; congruence].
      + destruct (selects_strict S wst0 (wconf cfg) (wcls cfg) D s _ x HI Hs) as (l1 & l2 & E1 & E2 & G' & SL).
        apply (mv_select _ _ x l1 l2 Es); [unfold sel; cbn [chl store]; rewrite C0, G'; reflexivity|exact E1|exact E2|exact SL].
    - (* FStoreCb *) act_inv A.
      match goal with E : sq_cb _ _ = Some _ |- _ => rename E into G end.
      split; [|split; [reflexivity|split; [intros e dl Ec; exact Ec|intros _; split; [reflexivity|split; left; reflexivity]]]].
      apply pq_cb_inv in G as (_ & [(Gw & x & Hs)|(_ & E1 & G')]).
      + assert (C0 : chl s = CNone) by (apply (asked_idle s IA); rewrite Gw; discriminate).
        assert (Es : sel s = []) by (unfold sel; rewrite C0, Gw; reflexivity).
        destruct (selects_strict S wst0 (wconf cfg) (wcls cfg) D s _ x HI Hs) as (l1 & l2 & E1 & E2 & G' & SL).
        apply (mv_select _ _ x l1 l2 Es); [unfold sel; cbn [chl store with_store]; rewrite C0, G'; reflexivity|exact E1|exact E2|exact SL].
      + apply mv_same; [unfold sel; cbn [chl store with_store]; rewrite G'; reflexivity|exact E1].
    - (* FGetDone *) act_inv A.
      match goal with E : sq_take _ = Some _ |- _ => apply sq_take_inv in E as (Gg & Ei & _ & Gn) end.
      match goal with E : chl s = CNone |- _ => rename E into C0 end.
      split; [apply mv_same; [unfold sel; cbn [chl store with_store with_child]; rewrite C0, Gg, Gn; reflexivity|exact Ei]|].
      split; [reflexivity|]. split; [intros e dl Ec; discriminate Ec|]. intros _. split; [reflexivity|].
      split; [left; reflexivity|right; split; [reflexivity|eexists; reflexivity]].
    - (* FChildTimer *) act_inv A.
      match goal with E : chl s = CTx _ _ |- _ => rename E into C0 end.
      split; [apply mv_same; [unfold sel; cbn [chl store]; rewrite C0; reflexivity|reflexivity]|].
      split; [reflexivity|]. split; [intros e0 dl0 Ec; discriminate Ec|]. intros [C|(e0 & C)]; congruence.
    - (* FChildEnd *) act_inv A.
      match goal with E : sq_get _ _ = Some _ |- _ => rename E into G end.
      match goal with E : chl s = CEnded _ |- _ => rename E into C0 end.
      assert (G0 : get (store s) = GNone) by (apply (child_busy_get_none S s IA); rewrite C0; discriminate).
      assert (Es : sel s = []) by (unfold sel; rewrite C0, G0; reflexivity).
      split; [|split; [reflexivity|split; [intros e0 dl Ec; discriminate Ec|intros [C|(e0 & C)]; congruence]]].
      apply pq_get_inv in G as (_ & _ & [(E1 & E2 & G')|(x & Hs)]).
      + apply mv_same; [rewrite Es; unfold sel; cbn [chl store]; rewrite G'; reflexivity|cbn [store]; congruence].
      + destruct (selects_strict S wst0 (wconf cfg) (wcls cfg) D s _ x HI Hs) as (l1 & l2 & E1 & E2 & G' & SL).
        apply (mv_select _ _ x l1 l2 Es); [unfold sel; cbn [chl store]; rewrite G'; reflexivity|exact E1|exact E2|exact SL].
    - (* FAdvance *)
      assert (U : urgent s = false) by (unfold act in A; destruct (urgent s); [discriminate A|reflexivity]).
      assert (Hs1 : sel s' = sel s /\ items (store s') = items (store s) /\ seq s' = seq s /\ stm s' = stm s /\ chl s' = chl s).
      { act_inv A; unfold sel; cbn [chl store seq stm]; match goal with E : chl s = _ |- _ => rewrite E end; auto. }
      destruct Hs1 as (Esel & Ei & Eq & Est & Ec).
      split; [apply mv_same; assumption|]. split; [exact Eq|]. split; [intros e dl E; rewrite <- Ec; exact E|].
      intros Hc. split; [exact Est|]. split; [right; exact (quiet_Ul_nil s IA U Hc)|left; exact Ec].
  Qed.

  Lemma FI_step s g a s' o :
    R s -> FI s g ->
    (forall p, a = FPut p -> gst g = false /\ wconf cfg p /\ (psize p <= Lmax)%Z) ->
    wfq_act cfg s a = Ok (s', o) -> FI s' (gstep g a s').
  Proof.
    intros HR HF Hput A.
    assert (Other : (forall p, a <> FPut p) -> a <> FChildInit -> FI s' g).
    { intros NP NS. destruct (step_moved s a s' o HR A NP NS) as (M & Eq & H4 & HA).
      apply (FI_moved s s' g HR HF M Eq); [|exact H4]. intros Gs.
      pose proof HF as (_ & _ & F1 & _). destruct (F1 Gs) as (_ & _ & _ & _ & Hc). destruct (HA Hc) as (Est & En & Ec).
      exact (phaseA_quiet s s' g HF Est En Ec (moved_perm s s' M) Gs). }
    destruct a; try (cbn [gstep]; apply Other; [intros p0; discriminate|discriminate]).
    - destruct (Hput p eq_refl) as (Gs & Hc & Hs). exact (FI_put s g p s' o HR HF Gs Hc Hs A).
    - exact (FI_start s g s' o HR HF A).
  Qed.

  (* ---- along a run ---- *)
  Fixpoint grun (g : ghost) (tr : list (tev S)) : ghost :=
    match tr with
    | [] => g
    | (a, _, s1) :: t => grun (gstep g a s1) t
    end.

  (* no put after a transmission start: b = "a transmission has started" *)
  Fixpoint static_from (b : bool) (acts : list faction) : Prop :=
    match acts with
    | [] => True
    | FPut _ :: t => b = false /\ static_from b t
    | FChildInit :: t => static_from true t
    | _ :: t => static_from b t
    end.

  (* bytes of class c whose transmission started along the trace *)
  Fixpoint started_bytes (c : Z) (tr : list (tev S)) : Z :=
    match tr with
    | [] => 0%Z
    | (FChildInit, _, s1) :: t =>
        ((match chl s1 with CTx e _ => if Z.eqb (ecls e) c then esize e else 0 | _ => 0 end) + started_bytes c t)%Z
    | _ :: t => started_bytes c t
    end.

  Lemma grun_W g tr c : gW (grun g tr) c = (gW g c + started_bytes c tr)%Z.
  Proof.
    revert g. induction tr as [|[[a o] s1] t IH]; intros g; cbn [grun started_bytes]; [lia|].
    rewrite IH. destruct a; cbn [gstep]; try lia.
    destruct (chl s1) as [| |e dl|]; cbn [gW]; try lia. unfold fupd.
    destruct (Z.eqb_spec c (ecls e)) as [->|Nc]; [rewrite Z.eqb_refl; lia|].
    destruct (Z.eqb_spec (ecls e) c); [congruence|lia].
  Qed.

  Lemma FI_init : FI (wfq0 cfg) g0.
  Proof.
    unfold FI, wfq0, srv0, Ul, sel, g0; cbn.
    split; [intros u []|]. split; [intros c; lia|]. split.
    - intros _. split; [reflexivity|]. split; [reflexivity|]. split; [intros C; contradiction|].
      split; [intros c; rewrite nrm_0; reflexivity|left; reflexivity].
    - split; [intros u []|]. split; [intros c u []|]. split; [discriminate|]. split; [intros x y []|].
      split; [constructor|intros u []].
  Qed.

  Theorem FI_run acts : forall s g s' tr,
    R s -> FI s g -> wadm cfg acts -> (forall p, In (FPut p) acts -> (psize p <= Lmax)%Z) ->
    static_from (gst g) acts -> wfq_run cfg s acts = Some (s', tr) -> FI s' (grun g tr).
  Proof.
    induction acts as [|a rest IH]; intros s g s' tr HR HF C Hs St H.
    - cbn in H. injection H as <- <-. exact HF.
    - unfold wfq_run in H. apply run_cons in H as (s1 & o & tr' & A & H & ->).
      apply puts_conf_cons in C as (Ca & Cr). cbn [grun].
      assert (R1 : R s1) by (eapply reachS; eauto).
      assert (F1 : FI s1 (gstep g a s1)).
      { apply (FI_step s g a s1 o HR HF); [|exact A].
        intros p ->. cbn [static_from] in St. destruct St as (Gs & _). split; [exact Gs|]. split; [apply Ca; reflexivity|].
        apply Hs. left. reflexivity. }
      apply (IH s1 (gstep g a s1) s' tr' R1 F1 Cr); [intros p Hp; apply Hs; right; exact Hp| |exact H].
      destruct a; cbn [static_from gstep] in St |- *; try exact St.
      + apply St.
      + unfold wfq_act, act in A. destruct (chl s) as [|x|x dl|x]; try discriminate A.
        apply Ok_inj in A as [-> _]. cbn [chl with_child gst]. exact St.
  Qed.

  Lemma nrm_K c x : nrm c x == K * (inject_Z x / inject_Z (wof c)).
  Proof.
    unfold nrm. field. apply wof_nz.
  Qed.

  (* C14: with a static backlog, any two classes that still hold a packet have received, normalised by weight,
     service that differs by at most one maximum-size packet each *)
  Theorem wfq_static_fairness_thm acts s' tr i j wi wj :
    wadm cfg acts -> (forall p, In (FPut p) acts -> (psize p <= Lmax)%Z) -> static_from false acts ->
    wfq_run cfg (wfq0 cfg) acts = Some (s', tr) ->
    zlookup i (wweights cfg) = Some wi -> zlookup j (wweights cfg) = Some wj ->
    holds i s' -> holds j s' ->
    Qabs (inject_Z (started_bytes i tr) / inject_Z wi - inject_Z (started_bytes j tr) / inject_Z wj)
      <= inject_Z Lmax / inject_Z wi + inject_Z Lmax / inject_Z wj.
  Proof.
    intros C Hs St H Ei Ej Hi Hj.
    pose proof (FI_run acts (wfq0 cfg) g0 s' tr (reach0 _ _ _ _) FI_init C Hs St H) as HF.
    pose proof (fair_from_FI s' (grun g0 tr) i j HF Hi Hj) as B.
    rewrite !grun_W in B. cbn [gW g0] in B. rewrite !Z.add_0_l in B.
    assert (Wi : wof i = wi) by (unfold wof; rewrite Ei; reflexivity).
    assert (Wj : wof j = wj) by (unfold wof; rewrite Ej; reflexivity).
    rewrite !nrm_K, Wi, Wj in B.
    set (a := inject_Z (started_bytes i tr) / inject_Z wi) in *.
    set (b := inject_Z (started_bytes j tr) / inject_Z wj) in *.
    set (c := inject_Z Lmax / inject_Z wi) in *. set (d := inject_Z Lmax / inject_Z wj) in *.
    pose proof K_pos as Kp.
    assert (E : K * a - K * b == K * (a - b)) by ring. rewrite E in B.
    rewrite Qabs_Qmult, (Qabs_pos K) in B by lra.
    assert (E2 : K * c + K * d == K * (c + d)) by ring. rewrite E2 in B.
    apply (Qmult_le_l _ _ K Kp). exact B.
  Qed.
End Fair.

(* non-vacuity: the run of WFQInst.wfq_example stopped right after the first transmission start: class 1 is in
   transmission (96 bytes started), class 0 still waits with two packets, all puts came before that start *)
Definition ex_fair_acts : list faction := firstn 9 ex_wacts.

Example wfq_fair_example :
  static_from false ex_fair_acts /\ wadm ex_wcfg ex_fair_acts /\
  exists s' tr, wfq_run ex_wcfg (wfq0 ex_wcfg) ex_fair_acts = Some (s', tr) /\
                holds ex_wcfg 0%Z s' /\ holds ex_wcfg 1%Z s' /\
                started_bytes ex_wcfg 1%Z tr = 96%Z /\ started_bytes ex_wcfg 0%Z tr = 0%Z.
Proof.
  split; [cbn; auto 10|]. split.
  - intros p Hp. apply ex_wadm. unfold ex_fair_acts in Hp. rewrite <- (firstn_skipn 9 ex_wacts). apply in_or_app. left. exact Hp.
  - apply run_facts. vm_compute. split; [|split; [|split; reflexivity]].
    + exists ex_p0. split; [right; left; reflexivity|reflexivity].
    + exists ex_p1. split; [left; reflexivity|reflexivity].
Qed.
