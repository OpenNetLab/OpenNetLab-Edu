(* FAN-IN.  `par sel A B` puts two interface elements side by side: a packet p put into it goes to A when sel p, to B
   otherwise (two upstream branches, each fed by its own sources: sel says which branch a packet was injected into); both
   forward to the same place.  The two automata are coupled only by the clock (Advance must be admissible for both), exactly
   like the two directions of a Cable.  Fan-in into a downstream element C is then `par sel A B >> C`.  Executable; the
   projection and the compositional C08 laws are proved here. *)
From Coq Require Import ZArith QArith Qminmax List Bool Permutation Lia Arith.
From ONL Require Import Elem.Packet Elem.Iface Elem.Compose.
Import ListNotations.

(* c is an interleaving of a and b (both keep their order) *)
Inductive interleave {X : Type} : list X -> list X -> list X -> Prop :=
| il_nil : interleave [] [] []
| il_l x a b c : interleave a b c -> interleave (x :: a) b (x :: c)
| il_r x a b c : interleave a b c -> interleave a (x :: b) (x :: c).

Lemma interleave_left {X} (a : list X) : interleave a [] a.
Proof. induction a; constructor; auto. Qed.
Lemma interleave_right {X} (b : list X) : interleave [] b b.
Proof. induction b; constructor; auto. Qed.
Lemma interleave_app {X} (a b c a' b' c' : list X) :
  interleave a b c -> interleave a' b' c' -> interleave (a ++ a') (b ++ b') (c ++ c').
Proof. induction 1; cbn; intros H'; [exact H'|constructor; auto|constructor; auto]. Qed.
Lemma interleave_pre {X} (x y a b c : list X) : interleave a b c -> interleave (x ++ a) (y ++ b) (x ++ y ++ c).
Proof. intros H. induction x as [|x0 x IHx]; cbn; [induction y as [|y0 y IHy]; cbn; [exact H|constructor; exact IHy]|constructor; exact IHx]. Qed.
Lemma interleave_perm {X} (a b c : list X) : interleave a b c -> Permutation c (a ++ b).
Proof.
  induction 1 as [|x a b c H IH|x a b c H IH]; cbn; [constructor|constructor; exact IH|].
  apply Permutation_trans with (x :: a ++ b); [constructor; exact IH|]. apply Permutation_middle.
Qed.
Lemma interleave_filter {X} (f : X -> bool) (a b c : list X) :
  interleave a b c -> interleave (filter f a) (filter f b) (filter f c).
Proof. induction 1 as [|x a b c H IH|x a b c H IH]; cbn; [constructor| |]; destruct (f x); try constructor; exact IH. Qed.
Lemma interleave_nil_r {X} (a c : list X) : interleave a [] c -> c = a.
Proof. intros H. remember [] as b eqn:E. induction H; [reflexivity|f_equal; auto|discriminate]. Qed.
Lemma interleave_nil_l {X} (b c : list X) : interleave [] b c -> c = b.
Proof. intros H. remember [] as a eqn:E. induction H; [reflexivity|discriminate|f_equal; auto]. Qed.

Section Par.
  Variable sel : pkt -> bool.
  Variables A B : elem.

  Definition onA (s : st A * st B) (r : option (st A * list eout)) : option ((st A * st B) * list eout) :=
    match r with Some (a', o) => Some ((a', snd s), o) | None => None end.
  Definition onB (s : st A * st B) (r : option (st B * list eout)) : option ((st A * st B) * list eout) :=
    match r with Some (b', o) => Some ((fst s, b'), map (shift A) o) | None => None end.

  Definition par : elem := {|
    st := (st A * st B)%type;
    lab := (lab A + lab B)%type;
    init := (init A, init B);
    now := fun s => now A (fst s);
    put := fun p s => if sel p then onA s (put A p (fst s)) else onB s (put B p (snd s));
    step := fun l s => match l with inl x => onA s (step A x (fst s)) | inr y => onB s (step B y (snd s)) end;
    advance := fun t s =>
      match advance A t (fst s), advance B t (snd s) with
      | Some a', Some b' => Some (a', b')
      | _, _ => None
      end;
    urgent := fun s => urgent A (fst s) || urgent B (snd s);
    deadline := fun s => omin (deadline A (fst s)) (deadline B (snd s));
    held := fun s => held A (fst s) ++ held B (snd s);
    accepts := fun p => if sel p then accepts A p else accepts B p;
    width := width A + width B
  |}.

  (* what each branch sees: purely syntactic, the branches do not feed each other *)
  Definition pactA (a : iact (lab par)) : list (iact (lab A)) :=
    match a with
    | IPut p => if sel p then [IPut p] else []
    | IStep (inl x) => [IStep x]
    | IStep (inr _) => []
    | IAdv t => [IAdv t]
    end.
  Definition pactB (a : iact (lab par)) : list (iact (lab B)) :=
    match a with
    | IPut p => if sel p then [] else [IPut p]
    | IStep (inl _) => []
    | IStep (inr y) => [IStep y]
    | IAdv t => [IAdv t]
    end.
  Definition pactsA (acts : list (iact (lab par))) := flat_map pactA acts.
  Definition pactsB (acts : list (iact (lab par))) := flat_map pactB acts.

  Definition par_seen (a : iact (lab par)) sA sB sA1 sB1 (o : list eout) : Prop :=
    exists tA tB, run A sA (pactA a) = Some (sA1, tA) /\ run B sB (pactB a) = Some (sB1, tB) /\
      interleave (puts tA) (puts tB) (a_puts a) /\ interleave (fwds tA) (fwds tB) (o_fwds o) /\
      interleave (drops tA) (drops tB) (o_drops o) /\
      Forall (fun p => sel p = true) (puts tA) /\ Forall (fun p => sel p = false) (puts tB).

  Lemma par_act_projection sA sB a sA1 sB1 o : act par (sA, sB) a = Some ((sA1, sB1), o) -> par_seen a sA sB sA1 sB1 o.
  Proof.
    assert (OnA : forall a', pactA a = [a'] -> pactB a = [] -> a_puts a' = a_puts a -> Forall (fun p => sel p = true) (a_puts a') ->
              onA (sA, sB) (act A sA a') = Some ((sA1, sB1), o) -> par_seen a sA sB sA1 sB1 o).
    { unfold par_seen. intros a' -> -> Hp Hs H. unfold onA in H. destruct (act A sA a') as [[a1 oA]|] eqn:E; [|discriminate]. injection H as <- <- <-.
      destruct (run_one A _ _ _ _ E) as (tA & R & P & F & D). exists tA, []. rewrite R, P, F, D, Hp in *.
      repeat split; try apply interleave_left; auto; constructor. }
    assert (OnB : forall b', pactA a = [] -> pactB a = [b'] -> a_puts b' = a_puts a -> Forall (fun p => sel p = false) (a_puts b') ->
              onB (sA, sB) (act B sB b') = Some ((sA1, sB1), o) -> par_seen a sA sB sA1 sB1 o).
    { unfold par_seen. intros b' -> -> Hp Hs H. unfold onB in H. destruct (act B sB b') as [[b1 oB]|] eqn:E; [|discriminate]. injection H as <- <- <-.
      destruct (run_one B _ _ _ _ E) as (tB & R & P & F & D). exists [], tB. rewrite R, P, F, D, Hp, (o_fwds_shift A), (o_drops_shift A) in *.
      repeat split; try apply interleave_right; auto; constructor. }
    intros H. destruct a as [p|[x|y]|t].
    - cbn [act par put] in H. destruct (sel p) eqn:Es.
      + apply (OnA (IPut p)); cbn [pactA pactB a_puts act]; rewrite ?Es; auto.
      + apply (OnB (IPut p)); cbn [pactA pactB a_puts act]; rewrite ?Es; auto.
    - apply (OnA (IStep x)); cbn [pactA pactB a_puts act]; auto.
    - apply (OnB (IStep y)); cbn [pactA pactB a_puts act]; auto.
    - cbn [act par advance fst snd] in H.
      destruct (advance A t sA) as [a1|] eqn:EA; [|discriminate]. destruct (advance B t sB) as [b1|] eqn:EB; [|discriminate].
      injection H as <- <- <-. exists [(now A a1, IAdv t, [])], [(now B b1, IAdv t, [])]. cbn [pactA pactB run act]. rewrite EA, EB.
      repeat split; constructor.
  Qed.

  (* PROJECTION: each branch of any execution of par is an admissible execution of that element alone; the packets put in,
     forwarded and dropped by par are interleavings of the branches' *)
  Theorem par_projection : forall acts sA sB sA' sB' tr,
    run par (sA, sB) acts = Some ((sA', sB'), tr) ->
    exists trA trB,
      run A sA (pactsA acts) = Some (sA', trA) /\ run B sB (pactsB acts) = Some (sB', trB) /\
      interleave (puts trA) (puts trB) (puts tr) /\ interleave (fwds trA) (fwds trB) (fwds tr) /\
      interleave (drops trA) (drops trB) (drops tr) /\
      Forall (fun p => sel p = true) (puts trA) /\ Forall (fun p => sel p = false) (puts trB).
  Proof.
    induction acts as [|a acts IH]; intros sA sB sA' sB' tr H.
    - cbn in H. injection H as <- <- <-. exists [], []. cbn. repeat split; constructor.
    - cbn [run] in H.
      destruct (act par (sA, sB) a) as [[[sA1 sB1] o]|] eqn:Ea; [|discriminate].
      destruct (run par (sA1, sB1) acts) as [[[sA2 sB2] tr1]|] eqn:Er; [|discriminate].
      injection H as <- <- <-.
      destruct (IH _ _ _ _ _ Er) as (trA1 & trB1 & RA & RB & I1 & I2 & I3 & F1 & F2).
      destruct (par_act_projection _ _ _ _ _ _ Ea) as (tA & tB & RA0 & RB0 & J1 & J2 & J3 & G1 & G2).
      exists (tA ++ trA1), (tB ++ trB1). unfold pactsA, pactsB. cbn [flat_map]. rewrite !run_app, RA0, RB0. fold (pactsA acts) (pactsB acts).
      rewrite RA, RB, puts_cons, fwds_cons, drops_cons, !puts_app, !fwds_app, !drops_app.
      repeat split; try (apply interleave_app; assumption); apply Forall_app; split; assumption.
  Qed.

  Corollary par_projection_init : forall acts s tr,
    run par (init par) acts = Some (s, tr) ->
    exists trA trB,
      run A (init A) (pactsA acts) = Some (fst s, trA) /\ run B (init B) (pactsB acts) = Some (snd s, trB) /\
      interleave (puts trA) (puts trB) (puts tr) /\ interleave (fwds trA) (fwds trB) (fwds tr) /\
      interleave (drops trA) (drops trB) (drops tr) /\
      Forall (fun p => sel p = true) (puts trA) /\ Forall (fun p => sel p = false) (puts trB).
  Proof. intros acts [sA sB] tr H. exact (par_projection _ _ _ _ _ _ H). Qed.

  (* ---- the C08 laws ---------------------------------------------------------------------------------------- *)
  Theorem par_conserves : conserves A -> conserves B -> conserves par.
  Proof.
    intros CA CB acts s tr H.
    destruct (par_projection_init _ _ _ H) as (trA & trB & RA & RB & I1 & I2 & I3 & _).
    pose proof (CA _ _ _ RA) as HA. pose proof (CB _ _ _ RB) as HB.
    apply occ_perm. intros q. pose proof (perm_occ _ _ HA q). pose proof (perm_occ _ _ HB q).
    pose proof (perm_occ _ _ (interleave_perm _ _ _ I1) q). pose proof (perm_occ _ _ (interleave_perm _ _ _ I2) q).
    pose proof (perm_occ _ _ (interleave_perm _ _ _ I3) q). cbn [held par]. rewrite !occ_app in *. lia.
  Qed.

  Lemma filter_none {X} (f : X -> bool) l : (forall x, In x l -> f x = false) -> filter f l = [].
  Proof. induction l as [|x l IH]; intros H; cbn; [reflexivity|]. rewrite (H x (or_introl eq_refl)). apply IH. intros; apply H; right; auto. Qed.

  (* a flow that is injected into branch A only keeps its order (the other branch never carries it) *)
  Theorem par_flow_fifo_A f : (forall p, on_flow f p = true -> sel p = true) -> conserves B -> flow_fifo A f -> flow_fifo par f.
  Proof.
    intros Hsel CB FA acts s tr H.
    destruct (par_projection_init _ _ _ H) as (trA & trB & RA & RB & I1 & I2 & _ & _ & SB).
    assert (NB : forall p, In p (puts trB) -> on_flow f p = false).
    { intros p Hp. rewrite Forall_forall in SB. specialize (SB p Hp). destruct (on_flow f p) eqn:E; [|reflexivity].
      rewrite (Hsel p E) in SB. discriminate. }
    pose proof (interleave_filter (on_flow f) _ _ _ I1) as J1. pose proof (interleave_filter (on_flow f) _ _ _ I2) as J2.
    rewrite (filter_none _ _ NB) in J1.
    rewrite (filter_none (on_flow f) (fwds trB)) in J2 by (intros p Hp; apply NB; eapply conserves_fwd_in; eauto).
    rewrite (interleave_nil_r _ _ J1), (interleave_nil_r _ _ J2). exact (FA _ _ _ RA).
  Qed.
  Theorem par_flow_fifo_B f : (forall p, on_flow f p = true -> sel p = false) -> conserves A -> flow_fifo B f -> flow_fifo par f.
  Proof.
    intros Hsel CA FB acts s tr H.
    destruct (par_projection_init _ _ _ H) as (trA & trB & RA & RB & I1 & I2 & _ & SA & _).
    assert (NA : forall p, In p (puts trA) -> on_flow f p = false).
    { intros p Hp. rewrite Forall_forall in SA. specialize (SA p Hp). destruct (on_flow f p) eqn:E; [|reflexivity].
      rewrite (Hsel p E) in SA. discriminate. }
    pose proof (interleave_filter (on_flow f) _ _ _ I1) as J1. pose proof (interleave_filter (on_flow f) _ _ _ I2) as J2.
    rewrite (filter_none _ _ NA) in J1.
    rewrite (filter_none (on_flow f) (fwds trA)) in J2 by (intros p Hp; apply NA; eapply conserves_fwd_in; eauto).
    rewrite (interleave_nil_l _ _ J1), (interleave_nil_l _ _ J2). exact (FB _ _ _ RB).
  Qed.

  Lemma interleave_in_l {X} (a b c : list X) x : interleave a b c -> In x a -> In x c.
  Proof. induction 1; cbn; intuition. Qed.
  Lemma interleave_in_r {X} (a b c : list X) x : interleave a b c -> In x b -> In x c.
  Proof. induction 1; cbn; intuition. Qed.

  Theorem par_drained : drained A -> drained B -> drained par.
  Proof.
    intros DA DB acts s tr H Acc U Dl.
    destruct (par_projection_init _ _ _ H) as (trA & trB & RA & RB & I1 & _ & _ & SA & SB).
    cbn [urgent par] in U. apply orb_false_elim in U as [UA UB].
    cbn [deadline par] in Dl. apply omin_none in Dl as [DlA DlB].
    rewrite Forall_forall in Acc, SA, SB. cbn [held par].
    rewrite (DA _ _ _ RA), (DB _ _ _ RB); auto; apply Forall_forall; intros p Hp.
    - specialize (Acc p (interleave_in_r _ _ _ _ I1 Hp)). cbn [accepts par] in Acc. rewrite (SB p Hp) in Acc. exact Acc.
    - specialize (Acc p (interleave_in_l _ _ _ _ I1 Hp)). cbn [accepts par] in Acc. rewrite (SA p Hp) in Acc. exact Acc.
  Qed.
End Par.

(* ---- fan-in: two upstream elements into one downstream element ---------------------------------------------- *)
Definition fanin (sel : pkt -> bool) (A B C : elem) : elem := par sel A B >> C.

(* injected into A and into B = forwarded by C ++ dropped by A, B, C ++ held by A, B, C *)
Theorem fanin_conserves sel A B C : conserves A -> conserves B -> conserves C -> forall acts s tr,
  run (fanin sel A B C) (init (fanin sel A B C)) acts = Some (s, tr) ->
  Permutation (puts tr) (fwds tr ++ drops tr ++ (held A (fst (fst s)) ++ held B (snd (fst s))) ++ held C (snd s)).
Proof. intros CA CB CC. exact (series_conserves _ _ (par_conserves sel A B CA CB) CC). Qed.

Theorem fanin_flow_fifo sel A B C f :
  conserves A -> conserves B ->
  ((forall p, on_flow f p = true -> sel p = true) /\ flow_fifo A f \/ (forall p, on_flow f p = true -> sel p = false) /\ flow_fifo B f) ->
  flow_fifo C f -> flow_fifo (fanin sel A B C) f.
Proof.
  intros CA CB Hside FC. apply compose_flow_fifo; [|exact FC].
  destruct Hside as [[Hs FA]|[Hs FB]]; [apply par_flow_fifo_A|apply par_flow_fifo_B]; assumption.
Qed.

Theorem fanin_drained sel A B C : conserves A -> conserves B -> drained A -> drained B -> drained C -> drained (fanin sel A B C).
Proof.
  intros CA CB DA DB DC. apply compose_drained; [apply par_conserves; assumption|apply par_drained; assumption|exact DC].
Qed.
