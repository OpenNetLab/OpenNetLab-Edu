(* The Port (Elem/Port.v; any drop policy that needs no random draw, in particular Port's tail drop `port_cfg`) as an
   interface element (Elem/Iface.v).  The adapter's labels are the port's own actions; its executions are exactly the
   executions of port_run whose puts carry no draw, so the theorems of PortProofs.v transfer.  OForward p is the forward,
   ODrop p the counted refusal; OStamp / OSample are not packet events and have no counterpart. *)
From Coq Require Import ZArith QArith List Bool Permutation Lia.
From ONL Require Import Elem.Packet Elem.StoreQ Elem.Port Elem.PortProofs Elem.Iface Elem.Compose Elem.ComposeHands Elem.AdaptCommon.
Import ListNotations.

Definition pout_e (o : pout) : list eout :=
  match o with OForward p => [EForward p] | ODrop p => [EDrop p] | _ => [] end.
Definition port_internal (a : paction) : bool := match a with PPut _ _ | PAdvance _ => false | _ => true end.
Definition plift (r : option (port * list pout)) : option (port * list eout) :=
  match r with Some (s', o) => Some (s', flat_map pout_e o) | None => None end.

Definition port_elem (c : pcfg) (t0 : Q) : elem := {|
  st := port;
  lab := paction;
  init := port0 t0;
  now := pnow;
  put := fun p s => plift (port_act c s (PPut p None));
  step := fun a s => if port_internal a then plift (port_act c s a) else None;
  advance := fun t s => match port_act c s (PAdvance t) with Some (s', _) => Some s' | None => None end;
  urgent := purgent;
  deadline := fun s => match psvc s with Some (_, dl) => Some dl | None => None end;
  held := port_held;
  accepts := fun _ => true;
  width := 1
|}.

Definition p_to (a : iact paction) : paction := match a with IPut p => PPut p None | IStep l => l | IAdv t => PAdvance t end.
Definition p_of (a : paction) : iact paction := match a with PPut p _ => IPut p | PAdvance t => IAdv t | _ => IStep a end.
Definition p_ev (e : pev) : Q * iact paction * list eout := (fst (fst e), p_of (snd (fst e)), flat_map pout_e (snd e)).
(* the model executions the adapter covers: no put consumes a random draw (Port; REDPort's puts do) *)
Definition no_draw (a : paction) : Prop := match a with PPut _ (Some _) => False | _ => True end.

Definition port_adapter (c : pcfg) (t0 : Q) : adapter (port_elem c t0) := {|
  m_act := port_act c; m_run := port_run c; m_mk := fun s a o => (pnow s, a, o); m_iev := p_ev; m_oe := flat_map pout_e;
  m_put := fun p => PPut p None; m_adv := PAdvance; m_int := port_internal; m_acc := fun _ => true; m_of := p_of; m_ok := no_draw
|}.

Lemma port_advance_inv c s t s' o : port_act c s (PAdvance t) = Some (s', o) ->
  o = [] /\ pnow s' = t /\ pnow s < t /\ purgent s = false /\
  forall d, match psvc s with Some (_, dl) => Some dl | None => None end = Some d -> t <= d.
Proof.
  intros H. apply port_act_step in H. inversion H; subst. repeat split; auto.
  intros d Hd. destruct (psvc s) as [[p dl]|]; [|discriminate]. injection Hd as <-. eauto.
Qed.

Lemma pstep_now c s a s' o : pstep c s a s' o -> (forall t, a <> PAdvance t) -> pnow s' = pnow s.
Proof.
  intros H Nt. inversion H; subst; try reflexivity.
  - unfold leave_now. destruct (c_fix_rate0 c); reflexivity.
  - exfalso. eapply Nt. reflexivity.
Qed.

Lemma port_adapter_ok c t0 : adapter_ok (port_adapter c t0).
Proof.
  split; try reflexivity.
  - (* ok_no_hand *) intros o. induction o as [|[] o IH]; cbn; repeat constructor; exact IH.
  - (* ok_of_int *) intros [] H; reflexivity || discriminate H.
  - (* ok_cover *) intros [p|[p [u|]| | | | | |]|t] H; try exact I; discriminate H.
  - (* ok_view *) intros [p [u|]| | | | | |] K; try destruct K; repeat split.
  - (* ok_act_now *) intros s a s' o H. exact (pstep_now _ _ _ _ _ (port_act_step _ _ _ _ _ H)).
  - (* ok_adv_inv *) intros s t s' o. apply port_advance_inv.
Qed.

(* every execution of the model without draws is an execution of the adapter ... *)
Theorem port_run_elem c t0 : forall acts s s' tr,
  Forall no_draw acts -> port_run c s acts = Some (s', tr) -> run (port_elem c t0) s (map p_of acts) = Some (s', map p_ev tr).
Proof. exact (adapter_run_elem _ _ (port_adapter_ok c t0)). Qed.

(* ... and conversely: the adapter has no other executions *)
Theorem port_elem_run c t0 : forall acts s s' tr,
  run (port_elem c t0) s acts = Some (s', tr) ->
  exists tr0, port_run c s (map p_to acts) = Some (s', tr0) /\ tr = map p_ev tr0 /\
              map p_of (map p_to acts) = acts /\ Forall no_draw (map p_to acts).
Proof. exact (adapter_elem_run _ _ (port_adapter_ok c t0)). Qed.

(* what the interface trace functions are on a model trace *)
Lemma port_puts tr : Iface.puts (map p_ev tr) = PortProofs.puts tr.
Proof. apply flat_map_link_id. intros [[t []] o]; reflexivity. Qed.
Lemma port_o_fwds o : o_fwds (flat_map pout_e o) = flat_map out_forward o.
Proof. induction o as [|x o IH]; [reflexivity|]. cbn [flat_map]. rewrite o_fwds_app, IH. destruct x; reflexivity. Qed.
Lemma port_o_drops o : o_drops (flat_map pout_e o) = flat_map out_drop o.
Proof. induction o as [|x o IH]; [reflexivity|]. cbn [flat_map]. rewrite o_drops_app, IH. destruct x; reflexivity. Qed.
Lemma port_fwds tr : fwds (map p_ev tr) = forwarded tr.
Proof.
  apply flat_map_link. intros [[t a] o]. cbn [p_ev ev_departures fst snd]. rewrite map_map, map_id. apply port_o_fwds.
Qed.
Lemma port_drops tr : drops (map p_ev tr) = dropped tr.
Proof. apply flat_map_link_id. intros [[t a] o]. apply port_o_drops. Qed.

Lemma psubseq_sublist {X} (a b : list X) : PortProofs.subseq a b -> sublist a b.
Proof. induction 1; constructor; auto. Qed.

Theorem port_elem_laws c t0 : laws (port_elem c t0).
Proof.
  apply (adapter_laws _ _ (port_adapter_ok c t0) _ _ _ port_puts port_fwds port_drops). intros acts s tr _ R. split; [|split].
  - exact (proj1 (port_conserves _ _ _ _ _ R)).
  - intros f. apply psubseq_sublist. exact (proj1 (port_flow_fifo _ _ _ _ _ (on_flow f) R)).
  - intros _ U Dl. cbn [urgent deadline port_elem] in U, Dl.
    assert (Hh : psvc s = None) by (destruct (psvc s) as [[p dl]|]; [discriminate|reflexivity]).
    exact (port_drained _ _ _ _ _ R U Hh).
Qed.

Theorem port_elem_timed c t0 : timed (port_elem c t0).
Proof. exact (adapter_timed _ _ (port_adapter_ok c t0)). Qed.

Theorem port_elem_tagged c t0 : tagged (port_elem c t0).
Proof. exact (adapter_tagged _ _ (port_adapter_ok c t0)). Qed.
