(* FAN-IN hand-overs and FAN-OUT.
   - `par sel A B` numbers its stages consistently (tagged), so in `fanin sel A B C = par sel A B >> C` the hand-overs shown at
     the boundary in front of C are exactly what the two branches forwarded (an interleaving of A's and B's forwards).
   - when the classifier is a function of the flow id, `par` keeps per-flow order for EVERY flow: it satisfies all three laws.
   - a demultiplexer (onl/netdev/demux.py: FlowDemux / FIBDemux, decision functions of Route/Demux.v) as a stateless
     interface element: put(p) hands p on at once when the decision is an output, discards it when the decision is
     "nowhere" (no route and no default: the documented discard of C08), and is not admissible when the decision raises.
   - FAN-OUT: `fanout route t0 A B C = A >> (demux_elem route t0 >> par (branch0 route) B C)`: what A forwards goes through the
     demux to B (decision OOut 0) or to C (any other output).  All laws follow from the series / par theorems. *)
From Coq Require Import ZArith QArith List Bool Permutation Lia Arith.
From ONL Require Import Elem.Packet Elem.Iface Elem.Compose Elem.ComposePar Elem.ComposeHands Route.Demux Route.DemuxProofs.
Import ListNotations.

(* ---- par is tagged; the hand-overs of a fan-in ------------------------------------------------------------------- *)
Section ParTagged.
  Variable sel : pkt -> bool.
  Variables A B : elem.
  Local Close Scope Q_scope.

  Lemma mono_tag_ok o : Forall (tag_ok (width A)) o -> Forall (tag_ok (width A + width B)) o.
  Proof. intros H. eapply Forall_impl; [|exact H]. intros x Hx. apply (tag_ok_mono A (width A)); [lia|exact Hx]. Qed.

  Theorem par_tagged : tagged A -> tagged B -> tagged (par sel A B).
  Proof.
    intros (WA & TPA & TSA) (WB & TPB & TSB). split; [cbn; lia|]. split.
    - intros p [sA sB] s' o H. cbn [put par] in H. destruct (sel p).
      + unfold onA in H. cbn [fst] in H. destruct (put A p sA) as [[a' oA]|] eqn:E; [|discriminate]. injection H as _ <-.
        apply mono_tag_ok. eapply TPA; eauto.
      + unfold onB in H. cbn [snd] in H. destruct (put B p sB) as [[b' oB]|] eqn:E; [|discriminate]. injection H as _ <-.
        apply (shift_tag_ok A B). eapply TPB; eauto.
    - intros [x|y] [sA sB] s' o H; cbn [step par] in H.
      + unfold onA in H. cbn [fst] in H. destruct (step A x sA) as [[a' oA]|] eqn:E; [|discriminate]. injection H as _ <-.
        apply mono_tag_ok. eapply TSA; eauto.
      + unfold onB in H. cbn [snd] in H. destruct (step B y sB) as [[b' oB]|] eqn:E; [|discriminate]. injection H as _ <-.
        apply (shift_tag_ok A B). eapply TSB; eauto.
  Qed.
End ParTagged.

(* what a fan-in shows in front of C is, in order, an interleaving of what A forwarded and what B forwarded *)
Theorem fanin_hands sel A B C : tagged A -> tagged B -> forall acts s tr,
  run (fanin sel A B C) (init (fanin sel A B C)) acts = Some (s, tr) ->
  exists trA trB,
    run A (init A) (pactsA sel A B (actsA (par sel A B) C acts)) = Some (fst (fst s), trA) /\
    run B (init B) (pactsB sel A B (actsA (par sel A B) C acts)) = Some (snd (fst s), trB) /\
    interleave (fwds trA) (fwds trB) (hands (pred (width A + width B)) tr).
Proof.
  intros TA TB acts [[sA sB] sC] tr H.
  destruct (series_projection (par sel A B) C _ _ _ _ _ _ H) as (trP & trC & RP & _).
  pose proof (series_hands (par sel A B) C (par_tagged sel A B TA TB) _ _ _ _ _ _ _ H RP) as Hh.
  destruct (par_projection sel A B _ _ _ _ _ _ RP) as (trA & trB & RA & RB & _ & I2 & _).
  exists trA, trB. cbn [fst snd]. repeat split; auto. rewrite <- Hh in I2. exact I2.
Qed.

(* ---- a classifier that looks at the flow id only: every flow stays on one branch ------------------------------- *)
Theorem par_laws_by_flow sel (g : Z -> bool) A B :
  (forall p, sel p = g (flow p)) -> laws A -> laws B -> laws (par sel A B).
Proof.
  intros Hg [CA FA DA] [CB FB DB]. split.
  - apply par_conserves; assumption.
  - intros f. destruct (g f) eqn:Eg.
    + apply par_flow_fifo_A; auto. intros p Hp. unfold on_flow in Hp. apply Z.eqb_eq in Hp. rewrite Hg, Hp. exact Eg.
    + apply par_flow_fifo_B; auto. intros p Hp. unfold on_flow in Hp. apply Z.eqb_eq in Hp. rewrite Hg, Hp. exact Eg.
  - apply par_drained; assumption.
Qed.

Theorem par_timed sel A B : timed A -> timed B -> timed (par sel A B).
Proof.
  intros TA TB. pose proof TA as (PA & SA & _). split; [|split].
  - intros p [sA sB] [sA1 sB1] o H. cbn [put par] in H. destruct (sel p).
    + unfold onA in H. cbn [fst snd] in H. destruct (put A p sA) as [[a' oA]|] eqn:E; [|discriminate]. injection H as <- _ _.
      cbn. eapply PA; eauto.
    + unfold onB in H. cbn [fst snd] in H. destruct (put B p sB) as [[b' oB]|] eqn:E; [|discriminate]. injection H as <- _ _. reflexivity.
  - intros [x|y] [sA sB] [sA1 sB1] o H; cbn [step par] in H.
    + unfold onA in H. cbn [fst snd] in H. destruct (step A x sA) as [[a' oA]|] eqn:E; [|discriminate]. injection H as <- _ _.
      cbn. eapply SA; eauto.
    + unfold onB in H. cbn [fst snd] in H. destruct (step B y sB) as [[b' oB]|] eqn:E; [|discriminate]. injection H as <- _ _. reflexivity.
  - intros t [sA sB] s' H. cbn [advance par fst snd] in H.
    destruct (advance A t sA) as [a1|] eqn:EA; [|discriminate]. destruct (advance B t sB) as [b1|] eqn:EB; [|discriminate].
    injection H as <-. exact (pair_advance_timed A B TA TB _ _ _ _ _ EA EB).
Qed.

(* ---- the demultiplexer as an element ------------------------------------------------------------------------------ *)
Definition demux_put (route : Z -> output) (p : pkt) (s : Q) : option (Q * list eout) :=
  match route (flow p) with
  | OOut _ | OEnd _ | ODefault => Some (s, [EForward p])       (* handed to exactly one device *)
  | ONowhere => Some (s, [EDrop p])                             (* no route, no default: discarded *)
  | OError _ => None                                            (* put() raises: not an admissible input *)
  end.

Definition demux_elem (route : Z -> output) (t0 : Q) : elem := {|
  st := Q;                                   (* stateless: only the clock *)
  lab := Empty_set;
  init := t0;
  now := fun s => s;
  put := demux_put route;
  step := fun l _ => match l with end;
  advance := fun t s => if Qlt_le_dec s t then Some t else None;
  urgent := fun _ => false;
  deadline := fun _ => None;
  held := fun _ => [];
  accepts := fun _ => true;
  width := 1
|}.

Definition routed (route : Z -> output) (p : pkt) : bool :=
  match route (flow p) with OOut _ | OEnd _ | ODefault => true | _ => false end.

Lemma demux_run route t0 : forall acts s s' tr,
  run (demux_elem route t0) s acts = Some (s', tr) ->
  fwds tr = filter (routed route) (puts tr) /\ drops tr = filter (fun p => negb (routed route p)) (puts tr).
Proof.
  apply (run_ind (demux_elem route t0) (fun _ _ _ tr =>
    fwds tr = filter (routed route) (puts tr) /\ drops tr = filter (fun p => negb (routed route p)) (puts tr))).
  - split; reflexivity.
  - intros s a s1 o acts s2 tr Ea _ [F D]. rewrite puts_cons, fwds_cons, drops_cons, F, D. destruct a as [p|[]|t].
    + cbn [act demux_elem put] in Ea. unfold demux_put in Ea. cbn [a_puts app filter].
      assert (Rp : routed route p = match route (flow p) with OOut _ | OEnd _ | ODefault => true | _ => false end) by reflexivity.
      destruct (route (flow p)) eqn:E0; try discriminate; injection Ea as _ <-; rewrite Rp; cbn; split; reflexivity.
    + cbn [act demux_elem advance] in Ea. destruct (Qlt_le_dec s t); [|discriminate]. injection Ea as _ <-. split; reflexivity.
Qed.

Lemma filter_split_perm {X} (f : X -> bool) l : Permutation l (filter f l ++ filter (fun x => negb (f x)) l).
Proof.
  induction l as [|x l IH]; cbn; [constructor|]. destruct (f x); cbn.
  - constructor. exact IH.
  - apply Permutation_trans with (x :: filter f l ++ filter (fun x => negb (f x)) l); [constructor; exact IH|].
    apply Permutation_middle.
Qed.
Lemma filter_sublist {X} (f : X -> bool) l : sublist (filter f l) l.
Proof. induction l as [|x l IH]; cbn; [constructor|]. destruct (f x); [constructor|apply sl_skip]; exact IH. Qed.

Theorem demux_elem_laws route t0 : laws (demux_elem route t0).
Proof.
  split.
  - intros acts s tr H. destruct (demux_run _ _ _ _ _ _ H) as [-> ->]. cbn [held demux_elem]. rewrite app_nil_r. apply filter_split_perm.
  - intros f acts s tr H. destruct (demux_run _ _ _ _ _ _ H) as [-> _]. apply sublist_filter. apply filter_sublist.
  - intros acts s tr H _ _ _. reflexivity.
Qed.

Theorem demux_elem_timed route t0 : timed (demux_elem route t0).
Proof.
  repeat split.
  - intros p s s' o H. cbn [put demux_elem] in H. unfold demux_put in H. destruct (route (flow p)); try discriminate; injection H as <- _; reflexivity.
  - intros [].
  - cbn [advance demux_elem] in H. destruct (Qlt_le_dec s t); [|discriminate]. injection H as <-. reflexivity.
  - cbn [advance demux_elem] in H. destruct (Qlt_le_dec s t); [|discriminate]. assumption.
  - intros d Hd. discriminate.
Qed.

Theorem demux_elem_tagged route t0 : tagged (demux_elem route t0).
Proof.
  apply atomic_tagged; [cbn; lia| |].
  - intros p s s' o H. cbn [put demux_elem] in H. unfold demux_put in H.
    destruct (route (flow p)); try discriminate; injection H as _ <-; repeat constructor.
  - intros [].
Qed.

(* ---- fan-out ------------------------------------------------------------------------------------------------------- *)
Definition branch0 (route : Z -> output) (p : pkt) : bool := match route (flow p) with OOut O => true | _ => false end.

Definition fanout (route : Z -> output) (t0 : Q) (A B C : elem) : elem := A >> (demux_elem route t0 >> par (branch0 route) B C).

Theorem fanout_laws route t0 A B C : laws A -> laws B -> laws C -> laws (fanout route t0 A B C).
Proof.
  intros LA LB LC. apply series_laws; [exact LA|]. apply series_laws; [apply demux_elem_laws|].
  apply (par_laws_by_flow _ (fun f => match route f with OOut O => true | _ => false end)); auto.
Qed.

Theorem fanout_timed route t0 A B C : timed A -> timed B -> timed C -> timed (fanout route t0 A B C).
Proof. intros TA TB TC. apply series_timed; [exact TA|]. apply series_timed; [apply demux_elem_timed|]. apply par_timed; assumption. Qed.

Theorem fanout_tagged route t0 A B C : tagged A -> tagged B -> tagged C -> tagged (fanout route t0 A B C).
Proof. intros TA TB TC. apply series_tagged; [exact TA|]. apply series_tagged; [apply demux_elem_tagged|]. apply par_tagged; assumption. Qed.

(* injected into A = delivered by B ++ delivered by C (interleaved) ++ dropped (by A, by the demux: no route, by B, by C) ++ held *)
Theorem fanout_conserves route t0 A B C : conserves A -> conserves B -> conserves C -> forall acts s tr,
  run (fanout route t0 A B C) (init (fanout route t0 A B C)) acts = Some (s, tr) ->
  Permutation (puts tr) (fwds tr ++ drops tr ++ held A (fst s) ++ held B (fst (snd (snd s))) ++ held C (snd (snd (snd s)))).
Proof.
  intros CA CB CC acts s tr H.
  exact (series_conserves A _ CA (series_conserves _ _ (l_conserves _ (demux_elem_laws route t0)) (par_conserves _ B C CB CC)) _ _ _ H).
Qed.

(* ---- the selector is the routing model of Route/Demux.v: what C18 proves about it feeds the composition -------------- *)
(* every packet put into the demux element leaves it exactly once: handed on (to exactly one device: as many hand-overs as
   C18_exactly_one_output's delivery list has entries, i.e. one) or discarded by the no-route rule; never both, never twice *)
Theorem demux_put_once route p s s' o : demux_put route p s = Some (s', o) ->
  s' = s /\ o_fwds o ++ o_drops o = [p] /\ (o_fwds o = [p] <-> deliverable (route (flow p)) = true).
Proof.
  unfold demux_put. destruct (route (flow p)) eqn:E; try discriminate; intros H; injection H as <- <-; cbn;
    (split; [reflexivity|split; [reflexivity|split; congruence]]).
Qed.

Theorem fibdemux_put_deliveries c p s s' o : demux_put (fibdemux true true c) p s = Some (s', o) ->
  length (o_fwds o) = length (fst (fib_deliveries true true true c [] (flow p))).
Proof.
  intros H. destruct (demux_put_once _ _ _ _ _ H) as (_ & _ & Hd).
  destruct (exactly_one_output c [] (flow p)) as (D1 & D0 & _).
  destruct (deliverable (fibdemux true true c (flow p))) eqn:Ed.
  - rewrite (D1 eq_refl), (proj2 Hd eq_refl). reflexivity.
  - rewrite (D0 eq_refl). unfold demux_put in H. destruct (fibdemux true true c (flow p)); try discriminate;
      injection H as _ <-; reflexivity.
Qed.

(* FlowDemux with two outputs and no default (C18_flowdemux_rule): flow 0 goes to the first branch, flow 1 to the second,
   every other flow is discarded *)
Theorem flowdemux2_routes : let route := flowdemux true {| fd_nouts := 2; fd_default := false |} in
  forall p, (branch0 route p = true <-> flow p = 0%Z) /\ (routed route p = true <-> (0 <= flow p < 2)%Z) /\
            (routed route p = false -> route (flow p) = ONowhere).
Proof.
  intros route p. unfold route.
  destruct (flowdemux_rule {| fd_nouts := 2; fd_default := false |} (flow p)) as (R1 & _ & R3). cbn [fd_nouts fd_default] in *.
  destruct (Z_le_dec 0 (flow p)) as [L|L]; [destruct (Z_lt_dec (flow p) 2) as [U|U]|].
  - rewrite (fun H => R1 H) by (cbn; lia). unfold branch0, routed. rewrite (R1 ltac:(cbn; lia)). cbn.
    repeat split; intros; try lia; try discriminate; auto.
    + destruct (Z.to_nat (flow p)) eqn:E; [lia|discriminate].
    + subst. rewrite H. reflexivity.
  - unfold branch0, routed. rewrite (R3 ltac:(cbn; lia) eq_refl). repeat split; intros; try discriminate; try lia; auto.
  - unfold branch0, routed. rewrite (R3 ltac:(cbn; lia) eq_refl). repeat split; intros; try discriminate; try lia; auto.
Qed.
