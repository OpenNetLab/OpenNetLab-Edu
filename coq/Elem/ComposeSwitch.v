(* SWITCHES: a demultiplexer in front of a BANK of n elements (n arbitrary).
     bank t0 idx [E0; ..; En-1]   the elements side by side; a packet p put into the bank goes to E(idx p).  Built from `par`
                                  (ComposePar.v): par (idx = 0) E0 (par (idx = 1) E1 (.. nil_elem)).
     switch route t0 nouts Es     demux_elem route t0 >> bank t0 (bidx nouts route) Es, where route is a decision function of
                                  Route/Demux.v and the bank is laid out as the demux's devices: outs[0..nouts-1], then the
                                  default output, then the end devices.
   onl/netdev/switch.py: SimplePacketSwitch = switch (simple_switch true n) over n Ports; FairPacketSwitch = switch
   (fair_switch true true c) over n branches `egress Port(rate 0) >> scheduler`.  All C08 laws follow from the series / par
   theorems; [switch_branch_exists] projects any execution of a switch onto the execution of any one of its branches. *)
From Coq Require Import ZArith QArith List Bool Permutation Lia Arith.
From ONL Require Import Elem.Packet Elem.Iface Elem.Compose Elem.ComposePar Elem.ComposeHands Elem.ComposeFan Route.Demux.
Import ListNotations.
Local Open Scope Q_scope.

(* ---- the empty bank: nothing can be put into it ------------------------------------------------------------------- *)
Definition nil_elem (t0 : Q) : elem := {|
  st := Q;
  lab := Empty_set;
  init := t0;
  now := fun s => s;
  put := fun _ _ => None;
  step := fun l _ => match l with end;
  advance := fun t s => if Qlt_le_dec s t then Some t else None;
  urgent := fun _ => false;
  deadline := fun _ => None;
  held := fun _ => [];
  accepts := fun _ => true;
  width := 1
|}.

Lemma nil_elem_demux t0 : nil_elem t0 = demux_elem (fun _ => OError IndexError) t0.
Proof. reflexivity. Qed.

Theorem nil_elem_laws t0 : laws (nil_elem t0).
Proof. rewrite nil_elem_demux. apply demux_elem_laws. Qed.
Theorem nil_elem_timed t0 : timed (nil_elem t0).
Proof. rewrite nil_elem_demux. apply demux_elem_timed. Qed.
Theorem nil_elem_tagged t0 : tagged (nil_elem t0).
Proof. rewrite nil_elem_demux. apply demux_elem_tagged. Qed.

(* ---- the bank -------------------------------------------------------------------------------------------------------- *)
Fixpoint bank (t0 : Q) (idx : pkt -> nat) (Es : list elem) : elem :=
  match Es with
  | [] => nil_elem t0
  | E :: r => par (fun p => Nat.eqb (idx p) 0) E (bank t0 (fun p => pred (idx p)) r)
  end.

Theorem bank_laws t0 : forall Es idx (g : Z -> nat), (forall p, idx p = g (flow p)) -> Forall laws Es -> laws (bank t0 idx Es).
Proof.
  induction Es as [|E r IH]; intros idx g Hg HL; cbn [bank]; [apply nil_elem_laws|].
  inversion HL; subst. apply (par_laws_by_flow _ (fun f => Nat.eqb (g f) 0)); [intros p; rewrite Hg; reflexivity|assumption|].
  apply (IH _ (fun f => pred (g f))); [intros p; rewrite Hg; reflexivity|assumption].
Qed.
Lemma bank_lift (P : elem -> Prop) t0 : P (nil_elem t0) -> (forall sel A B, P A -> P B -> P (par sel A B)) ->
  forall Es idx, Forall P Es -> P (bank t0 idx Es).
Proof.
  intros HN HP. induction Es as [|E r IH]; intros idx HL; cbn [bank]; [exact HN|]. inversion HL; subst. apply HP; auto.
Qed.
Theorem bank_timed t0 : forall Es idx, Forall timed Es -> timed (bank t0 idx Es).
Proof. exact (bank_lift timed t0 (nil_elem_timed t0) par_timed). Qed.
Theorem bank_tagged t0 : forall Es idx, Forall tagged Es -> tagged (bank t0 idx Es).
Proof. exact (bank_lift tagged t0 (nil_elem_tagged t0) par_tagged). Qed.
Theorem bank_conserves t0 : forall Es idx, Forall conserves Es -> conserves (bank t0 idx Es).
Proof. exact (bank_lift conserves t0 (l_conserves _ (nil_elem_laws t0)) par_conserves). Qed.
Theorem bank_drained t0 : forall Es idx, Forall drained Es -> drained (bank t0 idx Es).
Proof. exact (bank_lift drained t0 (l_drained _ (nil_elem_laws t0)) par_drained). Qed.

(* the state of branch i inside the state of a bank *)
Inductive bank_has (t0 : Q) : forall (Es : list elem) (idx : pkt -> nat), st (bank t0 idx Es) -> nat -> forall E : elem, st E -> Prop :=
| bh_here E r idx (s : st (bank t0 idx (E :: r))) : bank_has t0 (E :: r) idx s 0 E (fst s)
| bh_there E r idx (s : st (bank t0 idx (E :: r))) i F sF :
    bank_has t0 r (fun p => pred (idx p)) (snd s) i F sF -> bank_has t0 (E :: r) idx s (S i) F sF.

Lemma bank_has_total t0 : forall Es idx s i E, nth_error Es i = Some E -> exists sE, bank_has t0 Es idx s i E sE.
Proof.
  induction Es as [|E0 r IH]; intros idx s i E H; [destruct i; discriminate|].
  destruct i as [|i]; cbn [nth_error] in H.
  - injection H as <-. exists (fst s). constructor.
  - destruct (IH (fun p => pred (idx p)) (snd s) i E H) as [sE HsE]. exists sE. constructor. exact HsE.
Qed.

Lemma interleave_sub_l {X} (a b c : list X) : interleave a b c -> sublist a c.
Proof. induction 1; [constructor|constructor; auto|apply sl_skip; auto]. Qed.
Lemma interleave_sub_r {X} (a b c : list X) : interleave a b c -> sublist b c.
Proof. induction 1; [constructor|apply sl_skip; auto|constructor; auto]. Qed.
Lemma interleave_filter_split {X} (f : X -> bool) (a b c : list X) :
  interleave a b c -> Forall (fun x => f x = true) a -> Forall (fun x => f x = false) b ->
  filter f c = a /\ filter (fun x => negb (f x)) c = b.
Proof.
  induction 1 as [|x a b c H IH|x a b c H IH]; intros Fa Fb; [split; reflexivity| |].
  - inversion Fa; subst. destruct (IH H3 Fb) as [E1 E2]. cbn [filter]. rewrite H2. cbn [negb]. rewrite E1, E2. split; reflexivity.
  - inversion Fb; subst. destruct (IH Fa H3) as [E1 E2]. cbn [filter]. rewrite H2. cbn [negb]. rewrite E1, E2. split; reflexivity.
Qed.
Lemma filter_filter {X} (f g : X -> bool) l : filter f (filter g l) = filter (fun x => g x && f x) l.
Proof. induction l as [|x l IH]; [reflexivity|]. cbn [filter]. destruct (g x); cbn [filter andb]; [destruct (f x)|]; rewrite IH; reflexivity. Qed.

(* PROJECTION onto one branch: branch i of any execution of a bank is an admissible execution of that element alone; it was
   given exactly the packets with index i, in order; what it forwards / drops is part of what the bank forwards / drops *)
Theorem bank_projection t0 : forall Es idx s i E sE, bank_has t0 Es idx s i E sE -> forall acts tr,
  run (bank t0 idx Es) (init (bank t0 idx Es)) acts = Some (s, tr) ->
  exists acts_i tr_i, run E (init E) acts_i = Some (sE, tr_i) /\
    puts tr_i = filter (fun p => Nat.eqb (idx p) i) (puts tr) /\ sublist (fwds tr_i) (fwds tr) /\ sublist (drops tr_i) (drops tr).
Proof.
  intros Es idx s i E sE Hh. induction Hh as [E r idx s|E r idx s i F sF Hh IH]; intros acts tr H; cbn [bank] in H.
  - destruct (par_projection_init _ _ _ _ _ _ H) as (trA & trB & RA & _ & I1 & I2 & I3 & SA & SB).
    exists (pactsA (fun p => Nat.eqb (idx p) 0) E (bank t0 (fun p => pred (idx p)) r) acts), trA.
    split; [exact RA|]. split; [|split; [eapply interleave_sub_l; eauto|eapply interleave_sub_l; eauto]].
    symmetry. exact (proj1 (interleave_filter_split (fun p => Nat.eqb (idx p) 0) _ _ _ I1 SA SB)).
  - destruct (par_projection_init _ _ _ _ _ _ H) as (trA & trB & _ & RB & I1 & I2 & I3 & SA & SB).
    destruct (IH _ _ RB) as (acts_i & tr_i & R & P & Fw & Dr).
    exists acts_i, tr_i. split; [exact R|]. split; [|split; (eapply sublist_trans; [eassumption|eapply interleave_sub_r; eauto])].
    rewrite P, <- (proj2 (interleave_filter_split (fun p => Nat.eqb (idx p) 0) _ _ _ I1 SA SB)), filter_filter.
    apply filter_ext. intros p. destruct (idx p) as [|k]; reflexivity.
Qed.

(* ---- the switch --------------------------------------------------------------------------------------------------------- *)
(* the slot of the bank a decision of the demux leads to: outs, then the default output, then the end devices *)
Definition out_slot (nouts : nat) (o : output) : nat :=
  match o with OOut i => i | ODefault => nouts | OEnd d => S nouts + d | _ => O end.
Definition bidx (nouts : nat) (route : Z -> output) (p : pkt) : nat := out_slot nouts (route (flow p)).

Definition switch (route : Z -> output) (t0 : Q) (nouts : nat) (Es : list elem) : elem :=
  demux_elem route t0 >> bank t0 (bidx nouts route) Es.

Theorem switch_laws route t0 nouts Es : Forall laws Es -> laws (switch route t0 nouts Es).
Proof.
  intros HL. apply series_laws; [apply demux_elem_laws|].
  apply (bank_laws t0 Es _ (fun f => out_slot nouts (route f))); auto.
Qed.
Theorem switch_timed route t0 nouts Es : Forall timed Es -> timed (switch route t0 nouts Es).
Proof. intros HL. apply series_timed; [apply demux_elem_timed|apply bank_timed; exact HL]. Qed.
Theorem switch_tagged route t0 nouts Es : Forall tagged Es -> tagged (switch route t0 nouts Es).
Proof. intros HL. apply series_tagged; [apply demux_elem_tagged|apply bank_tagged; exact HL]. Qed.

(* conservation spelled out: put into the switch = delivered at its outputs ++ discarded (by the demux: no route; by the branches:
   their own documented rules, e.g. counted tail drops) ++ held inside the branches *)
Theorem switch_conserves route t0 nouts Es : Forall laws Es -> forall acts s tr,
  run (switch route t0 nouts Es) (init (switch route t0 nouts Es)) acts = Some (s, tr) ->
  Permutation (puts tr) (fwds tr ++ drops tr ++ held (bank t0 (bidx nouts route) Es) (snd s)).
Proof. intros HL acts s tr H. exact (l_conserves _ (switch_laws route t0 nouts Es HL) _ _ _ H). Qed.

(* PROJECTION onto one branch of a switch: the branch in slot i of any execution of a switch is an admissible execution of that
   element alone; it was given exactly the packets the demux rule routes to slot i, in order; what it delivers is part of what
   the switch delivers; what it discards is discarded by the switch *)
Theorem switch_branch_exists route t0 nouts Es : forall acts s tr,
  run (switch route t0 nouts Es) (init (switch route t0 nouts Es)) acts = Some (s, tr) ->
  forall i E, nth_error Es i = Some E ->
  exists sE acts_i tr_i, bank_has t0 Es (bidx nouts route) (snd s) i E sE /\ run E (init E) acts_i = Some (sE, tr_i) /\
    puts tr_i = filter (fun p => routed route p && Nat.eqb (bidx nouts route p) i) (puts tr) /\
    sublist (fwds tr_i) (fwds tr) /\ (forall p, In p (drops tr_i) -> In p (drops tr)).
Proof.
  intros acts s tr H i E Hn. destruct (bank_has_total t0 Es (bidx nouts route) (snd s) i E Hn) as [sE Hh]. unfold switch in H.
  destruct (series_projection_init _ _ _ _ _ H) as (trD & trB & RD & RB & P1 & P2 & P3 & P4).
  destruct (demux_run _ _ _ _ _ _ RD) as [FD _].
  destruct (bank_projection t0 _ _ _ _ _ _ Hh _ _ RB) as (acts_i & tr_i & R & P & Fw & Dr).
  exists sE, acts_i, tr_i. rewrite P3 in Fw. repeat split; auto.
  - rewrite P, P2, FD, P1, filter_filter. reflexivity.
  - intros p Hp. apply (Permutation_in p (Permutation_sym P4)). apply in_or_app. right. eapply sublist_In; eauto.
Qed.

(* what the demux has no route for is discarded by the switch (the documented no-route discard of C08) *)
Theorem switch_unrouted_dropped route t0 nouts Es : forall acts s tr,
  run (switch route t0 nouts Es) (init (switch route t0 nouts Es)) acts = Some (s, tr) ->
  forall p, In p (puts tr) -> routed route p = false -> In p (drops tr).
Proof.
  intros acts s tr H p Hp Hr. unfold switch in H.
  destruct (series_projection_init _ _ _ _ _ H) as (trD & trB & RD & RB & P1 & P2 & P3 & P4).
  destruct (demux_run _ _ _ _ _ _ RD) as [FD DD].
  apply (Permutation_in p (Permutation_sym P4)). apply in_or_app. left. rewrite DD, P1.
  apply filter_In. split; [exact Hp|]. rewrite Hr. reflexivity.
Qed.
