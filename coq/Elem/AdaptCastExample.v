(* Concrete executions of the splitter / hub models, OBSERVED on the real onl.netdev.splitter.NSplitter and onl.netdev.hub.Hub
   (props/part_route.py prints them): non-vacuity of Elem/ComposeCast.v / AdaptCast.v. *)
From Coq Require Import ZArith QArith List Bool.
From ONL Require Import Base.Tools Elem.Packet Elem.StoreQ Elem.Port Route.Hub Elem.Iface Elem.Compose Elem.ComposePar Elem.ComposeSwitch Elem.ComposeCast
  Elem.AdaptPort Elem.AdaptCast.
Import ListNotations.
Local Open Scope Z_scope.

Definition nsp_E : elem := (mcast ((0)%Z # 1) (fun _ _ => true) [(port_elem (port_cfg all_fixed ((1024)%Z # 1) (Some (2)%Z) false (Some (300)%Z)) ((0)%Z # 1)); (port_elem (port_cfg all_fixed ((0)%Z # 1) None false (Some (301)%Z)) ((0)%Z # 1))]).
Definition nsp_acts : list (iact (lab nsp_E)) :=
  [IStep (inl (PInit));
   IStep (inr (inl (PInit)));
   IPut (mkp 0%nat (1)%Z (0)%Z (128)%Z ((0)%Z # 1));
   IPut (mkp 1%nat (2)%Z (1)%Z (128)%Z ((0)%Z # 1));
   IPut (mkp 2%nat (3)%Z (0)%Z (128)%Z ((0)%Z # 1));
   IStep (inl (PStoreCb));
   IStep (inr (inl (PStoreCb)));
   IStep (inr (inl (PStoreCb)));
   IStep (inr (inl (PStoreCb)));
   IStep (inl (PGet));
   IStep (inr (inl (PGet)));
   IStep (inr (inl (PGet)));
   IStep (inr (inl (PGet)));
   IAdv ((1)%Z # 1);
   IStep (inl (PTimer))].
Definition hub_E : elem := (mcast ((0)%Z # 1) (fun i p => existsb (fun e => Nat.eqb (fst e) i) (hub_put [{| ep_id := (0)%Z; ep_port := true |}; {| ep_id := (1)%Z; ep_port := true |}; {| ep_id := (2)%Z; ep_port := true |}] (flow p))) [(port_elem (port_cfg all_fixed ((0)%Z # 1) None false (Some (300)%Z)) ((0)%Z # 1)); (port_elem (port_cfg all_fixed ((1024)%Z # 1) (Some (2)%Z) false (Some (301)%Z)) ((0)%Z # 1)); (port_elem (port_cfg all_fixed ((0)%Z # 1) None false (Some (302)%Z)) ((0)%Z # 1))]).
Definition hub_acts : list (iact (lab hub_E)) :=
  [IStep (inl (PInit));
   IStep (inr (inl (PInit)));
   IStep (inr (inr (inl (PInit))));
   IPut (mkp 0%nat (1)%Z (0)%Z (128)%Z ((0)%Z # 1));
   IPut (mkp 1%nat (2)%Z (1)%Z (128)%Z ((0)%Z # 1));
   IPut (mkp 2%nat (3)%Z (3)%Z (128)%Z ((0)%Z # 1));
   IPut (mkp 3%nat (4)%Z (1)%Z (128)%Z ((0)%Z # 1));
   IStep (inr (inl (PStoreCb)));
   IStep (inr (inr (inl (PStoreCb))));
   IStep (inl (PStoreCb));
   IStep (inr (inr (inl (PStoreCb))));
   IStep (inl (PStoreCb));
   IStep (inr (inr (inl (PStoreCb))));
   IStep (inl (PStoreCb));
   IStep (inr (inr (inl (PStoreCb))));
   IStep (inr (inl (PGet)));
   IStep (inr (inr (inl (PGet))));
   IStep (inl (PGet));
   IStep (inr (inr (inl (PGet))));
   IStep (inl (PGet));
   IStep (inr (inr (inl (PGet))));
   IStep (inl (PGet));
   IStep (inr (inr (inl (PGet))));
   IAdv ((1)%Z # 1);
   IStep (inr (inl (PTimer)))].

Definition cuids (l : list pkt) : list nat := map uid l.

(* NSplitter(2), output 0 -> Port(1024 bit/s, limit 2), output 1 -> Port(rate 0): three packets at t = 0.  Both ports are given
   all three; the second port forwards all of them at once, the first refuses two (counted) and forwards one at t = 1 *)
Example nsp_run :
  exists s tr, Iface.run nsp_E (init nsp_E) nsp_acts = Some (s, tr) /\
    cuids (puts tr) = [0; 1; 2]%nat /\ cuids (fwds tr) = [0; 1; 2; 0]%nat /\ cuids (drops tr) = [1; 2]%nat /\
    precv (fst s) = 3 /\ pdrop (fst s) = 2 /\ precv (fst (snd s)) = 3 /\ pdrop (fst (snd s)) = 0 /\
    held nsp_E s = [] /\ Iface.urgent nsp_E s = false /\ deadline nsp_E s = None.
Proof. apply run_facts. vm_compute. repeat split. Qed.

(* Hub with three endpoints behind ports (endpoint 1 behind Port(1024 bit/s, limit 2), the others behind rate-0 ports): packets
   from endpoints 0, 1, from outside (3) and from 1 again.  Endpoint 0 is given 3 packets, endpoint 1 two (one refused by its
   port), endpoint 2 all four; nobody gets its own packet *)
Example hub_run :
  exists s tr, Iface.run hub_E (init hub_E) hub_acts = Some (s, tr) /\
    cuids (puts tr) = [0; 1; 2; 3]%nat /\ cuids (fwds tr) = [0; 1; 1; 2; 2; 3; 3; 0]%nat /\ cuids (drops tr) = [2]%nat /\
    precv (fst s) = 3 /\ precv (fst (snd s)) = 2 /\ pdrop (fst (snd s)) = 1 /\ precv (fst (snd (snd s))) = 4 /\
    held hub_E s = [] /\ Iface.urgent hub_E s = false /\ deadline hub_E s = None.
Proof. apply run_facts. vm_compute. repeat split. Qed.
