(* Long-run fairness of DRR (C15): over any sub-execution throughout which classes i and j both hold a packet,
   |S_i/Q_i - S_j/Q_j| < 4 + 3*Lmax*(1/Q_i + 1/Q_j), S = bytes forwarded in the sub-execution.
   Proof: accounting over the events of the visit automaton (DRRVisit.v):
     credit:   credit_c(end) - credit_c(start) = Q_c * V_c - D_c      (V_c quantum additions, D_c bytes debited; no reset)
     rounds:   V_c = psi_c(end) - psi_c(start) + R                   (R rounds begun; psi_c = 1 iff c was already visited in the current round)
     pending:  S_c - D_c = pend_c(end) - pend_c(start)               (the packet forwarded but not yet debited)
   and the credit bounds. *)
From Coq Require Import ZArith QArith Qminmax Qabs List Bool Lia Lqa.
From ONL Require Import Elem.Packet Elem.StoreQ Elem.StoreQProofs Elem.DRR Elem.DRRInv Elem.DRRProofs Elem.DRRVisit.
Import ListNotations.
Opaque Qred.

Definition dchd_ns (d : drr) : Prop := dchd d = DCNone \/ exists p, dchd d = DCStart p.

Lemma dchd_ns_none d : dchd_ns d -> forall d', dchd d' = dchd d -> dchd_ns d'.
Proof. intros [H|(p & H)] d' E; [left|right; exists p]; congruence. Qed.

Definition dnq (c : Z) (x : dout) : Z := match x with DOQuantum k => if Z.eqb k c then 1%Z else 0%Z | _ => 0%Z end.
Definition dnpass (x : dout) : Z := match x with DOPass => 1%Z | _ => 0%Z end.
Definition ddeb (c : Z) (x : dout) : Z := match x with DODebit k p _ => if Z.eqb k c then psize p else 0%Z | _ => 0%Z end.
Definition dfwdb (cfg : dcfg) (c : Z) (x : dout) : Z :=
  match x with DOForward p => if Z.eqb (dcls cfg p) c then psize p else 0%Z | _ => 0%Z end.
Fixpoint dsumev (g : dout -> Z) (ev : list dout) : Z := match ev with [] => 0%Z | x :: t => (g x + dsumev g t)%Z end.

Lemma dsumev_app g a b : dsumev g (a ++ b) = (dsumev g a + dsumev g b)%Z.
Proof. induction a as [|x t IH]; cbn [dsumev app]; [reflexivity|]. rewrite IH. lia. Qed.

Lemma dsumev_internal g ev : (forall x, dinternal x = true -> g x = 0%Z) -> forallb dinternal ev = true -> dsumev g ev = 0%Z.
Proof.
  intros Hg. induction ev as [|x t IH]; cbn [forallb dsumev]; [reflexivity|]. intros H.
  apply andb_true_iff in H as [H1 H2]. rewrite (Hg x H1), (IH H2). reflexivity.
Qed.

Lemma dsumev_nonneg g ev : (forall x, (0 <= g x)%Z) -> (0 <= dsumev g ev)%Z.
Proof. intros Hg. induction ev as [|x t IH]; cbn [dsumev]; [lia|]. specialize (Hg x). lia. Qed.

Definition dpsi (c : Z) (todo : list Z) : Z := if dmemZ c todo then 0%Z else 1%Z.

Lemma dpsi_cons_neq c k rest : k <> c -> dpsi c (k :: rest) = dpsi c rest.
Proof. intros Hne. unfold dpsi. cbn [dmemZ existsb]. destruct (Z.eqb_spec c k); [congruence|reflexivity]. Qed.

Lemma dpsi_head c rest : NoDup (c :: rest) -> dpsi c (c :: rest) = 0%Z /\ dpsi c rest = 1%Z.
Proof.
  intros Hnd. inversion Hnd as [|? ? Hnot _]; subst. unfold dpsi. cbn [dmemZ existsb]. rewrite Z.eqb_refl. split; [reflexivity|].
  fold (dmemZ c rest). destruct (dmemZ c rest) eqn:E; [|reflexivity]. exfalso. apply Hnot. apply dmemZ_In. exact E.
Qed.

(* writes inject_Z 0 and inject_Z 1 as the constants 0 and 1 so that lra sees them *)
Ltac qz := change (inject_Z 0) with 0 in *; change (inject_Z 1) with 1 in *.

(* one step of the automaton, for a configured class that holds a packet *)
Lemma dspec_count cfg H c s x s' :
  dspec cfg H s x s' -> H c <> [] -> In c (dclasses cfg) -> NoDup (dclasses cfg) -> NoDup (ss_todo s) ->
  ss_cr s' c - ss_cr s c == dquantum cfg c * inject_Z (dnq c x) - inject_Z (ddeb c x)
  /\ dnq c x = (dpsi c (ss_todo s') - dpsi c (ss_todo s) + dnpass x)%Z
  /\ NoDup (ss_todo s').
Proof.
  intros Hs Hc Hin Hnd Ht.
  destruct Hs as [s p|cr cr' Hex Hcr|cr cr' k rest Hk Hcr|cr cr' k rest Hk Hcr|cr cr' k rest p Hhd Hp Ha Hcr
                  |cr cr' k rest p Hhd Hp Ha Hcr|cr cr' k rest Hend Hcr|cr cr' k rest p reset Hr Hcr];
    cbn [ss_cr ss_todo dnq ddeb dnpass] in *; change (inject_Z 0) with 0.
  - (* sp_fwd *) split; [(qz; lra)|split; [lia|exact Ht]].
  - (* sp_pass *) split; [rewrite (Hcr c); (qz; lra)|split; [|exact Hnd]].
    unfold dpsi. apply dmemZ_In in Hin. rewrite Hin. cbn. lia.
  - (* sp_quantum *) specialize (Hcr c). destruct (Z.eqb_spec k c) as [->|Hne].
    + rewrite Z.eqb_refl in Hcr. destruct (dpsi_head c rest Ht) as [P1 P2]. rewrite P1, P2.
      split; [rewrite Hcr; (qz; lra)|split; [lia|inversion Ht; assumption]].
    + destruct (Z.eqb_spec c k); [congruence|]. rewrite (dpsi_cons_neq c k rest Hne).
      split; [rewrite Hcr; (qz; lra)|split; [lia|inversion Ht; assumption]].
  - (* sp_skip *) assert (Hne : k <> c) by (intros ->; contradiction). rewrite (dpsi_cons_neq c k rest Hne).
    split; [rewrite (Hcr c); (qz; lra)|split; [lia|inversion Ht; assumption]].
  - (* sp_send *) split; [rewrite (Hcr c); (qz; lra)|split; [lia|exact Ht]].
  - (* sp_park *) split; [rewrite (Hcr c); (qz; lra)|split; [lia|exact Ht]].
  - (* sp_end *) split; [rewrite (Hcr c); (qz; lra)|split; [lia|exact Ht]].
  - (* sp_debit *) specialize (Hcr c). split; [|split; [lia|exact Ht]].
    destruct (Z.eqb_spec k c) as [->|Hne].
    + rewrite Z.eqb_refl in Hcr. destruct reset.
      * exfalso. apply Hc. apply Hr. reflexivity.
      * rewrite Hcr. (qz; lra).
    + destruct (Z.eqb_spec c k); [congruence|]. rewrite Hcr. (qz; lra).
Qed.

Lemma dspecs_count cfg H c s ev s' :
  dspecs cfg H s ev s' -> H c <> [] -> In c (dclasses cfg) -> NoDup (dclasses cfg) -> NoDup (ss_todo s) ->
  ss_cr s' c - ss_cr s c == dquantum cfg c * inject_Z (dsumev (dnq c) ev) - inject_Z (dsumev (ddeb c) ev)
  /\ dsumev (dnq c) ev = (dpsi c (ss_todo s') - dpsi c (ss_todo s) + dsumev dnpass ev)%Z
  /\ NoDup (ss_todo s').
Proof.
  intros Hs Hc Hin Hnd. induction Hs as [s|s x s1 e s2 Hx Hs IH]; intros Ht; cbn [dsumev].
  - change (inject_Z 0) with 0. split; [lra|split; [lia|exact Ht]].
  - destruct (dspec_count cfg H c s x s1 Hx Hc Hin Hnd Ht) as (A1 & A2 & A3).
    destruct (IH A3) as (B1 & B2 & B3). split; [|split; [lia|exact B3]].
    rewrite !inject_Z_plus. lra.
Qed.

(* bytes of class c forwarded but not yet debited *)
Definition dpend (cfg : dcfg) (d : drr) (c : Z) : Z :=
  match dchd d with DCDone p => if Z.eqb (dcls cfg p) c then psize p else 0%Z | _ => 0%Z end.

Lemma dpend_ns cfg d c : dchd_ns d -> dpend cfg d c = 0%Z.
Proof. unfold dpend. intros [E|(p & E)]; rewrite E; reflexivity. Qed.

Lemma dpend_bounds cfg d c : dinv cfg d -> (0 <= dpend cfg d c <= dlmax d)%Z.
Proof.
  intros I. pose proof (b_lmax (i_base I)) as L0. unfold dpend. destruct (dchd d) as [| | |p] eqn:Ch; try lia.
  destruct (dchild_class cfg d p I) as (rest & _ & Hs); [unfold dtxp; rewrite Ch; reflexivity|].
  destruct (Z.eqb (dcls cfg p) c); lia.
Qed.

Lemma dnodup_app_r {A} (a b : list A) : NoDup (a ++ b) -> NoDup b.
Proof. induction a as [|x t IH]; cbn [app]; [auto|]. intros H. inversion H; auto. Qed.

Lemma dtodo_nodup cfg d : dwf cfg -> dinv cfg d -> NoDup (dtodo d).
Proof.
  intros (_ & _ & Hnd & _) I. pose proof (i_ctl I) as C. unfold dctl_ok in C. unfold dtodo.
  assert (Hs : forall c rest, dsuffix cfg (c :: rest) -> NoDup rest).
  { intros c rest (pre & E). rewrite E in Hnd. apply dnodup_app_r in Hnd. inversion Hnd; assumption. }
  destruct (dctrl d) as [| |c rest|c rest]; try constructor.
  - destruct C as (_ & _ & _ & _ & _ & Hsuf & _). apply (Hs c rest Hsuf).
  - destruct C as (_ & _ & _ & _ & Hsuf). apply (Hs c rest Hsuf).
Qed.

Lemma dstep_pending cfg d a d' ev c :
  dwf cfg -> dinv cfg d -> drr_act cfg d a = Some (d', ev) ->
  (dsumev (dfwdb cfg c) ev - dsumev (ddeb c) ev = dpend cfg d' c - dpend cfg d c)%Z.
Proof.
  intros Hwf I A. pose proof (st_child (dstep cfg d a d' ev Hwf I A)) as Hc.
  assert (Hint : forall e, forallb dinternal e = true -> dsumev (dfwdb cfg c) e = 0%Z /\ dsumev (ddeb c) e = 0%Z).
  { intros e He. split; apply dsumev_internal; auto; intros x Hx; destruct x; try discriminate; reflexivity. }
  destruct a as [q| |w|w| | | |t]; cbn [dchild_step] in Hc.
  - destruct Hc as [E ->]. unfold dpend. rewrite E. cbn. lia.
  - destruct Hc as (E & Int & Ns). destruct (Hint _ Int) as [-> ->]. rewrite (dpend_ns cfg d' c Ns). unfold dpend. rewrite E. lia.
  - destruct Hc as [E ->]. unfold dpend. rewrite E. cbn. lia.
  - destruct Hc as (E & Int & Ns). destruct (Hint _ Int) as [-> ->]. rewrite (dpend_ns cfg d' c Ns). unfold dpend. rewrite E. lia.
  - destruct Hc as (p & E & E' & ->). unfold dpend. rewrite E, E'. cbn. lia.
  - destruct Hc as (p & dl & E & _ & E' & ->). unfold dpend. rewrite E, E'. cbn [dsumev dfwdb ddeb]. lia.
  - destruct Hc as (k & p & e & E & Hk & -> & Int & Ns). destruct (Hint _ Int) as [E1 E2].
    cbn [dsumev dfwdb ddeb]. rewrite E1, E2, (dpend_ns cfg d' c Ns). unfold dpend. rewrite E, Hk. lia.
  - destruct Hc as (E & -> & _). unfold dpend. rewrite E. cbn. lia.
Qed.

Lemma dstep_account cfg d a d' ev c :
  dwf cfg -> dinv cfg d -> drr_act cfg d a = Some (d', ev) -> In c (dclasses cfg) -> dheld cfg d' c <> [] ->
  ddef d' c - ddef d c == dquantum cfg c * inject_Z (dsumev (dnq c) ev) - inject_Z (dsumev (ddeb c) ev)
  /\ dsumev (dnq c) ev = (dpsi c (dtodo d') - dpsi c (dtodo d) + dsumev dnpass ev)%Z
  /\ (dsumev (dfwdb cfg c) ev - dsumev (ddeb c) ev = dpend cfg d' c - dpend cfg d c)%Z.
Proof.
  intros Hwf I A Hc Hh. pose proof (st_visit (dstep cfg d a d' ev Hwf I A)) as V.
  assert (Hnd : NoDup (dclasses cfg)) by (destruct Hwf as (_ & _ & Hnd & _); exact Hnd).
  destruct (dspecs_count cfg (dheld cfg d') c (dabs d) ev (dabs d') V Hh Hc Hnd (dtodo_nodup cfg d Hwf I)) as (A1 & A2 & _).
  cbn [dabs ss_cr ss_todo] in A1, A2. split; [exact A1|split; [exact A2|]].
  apply (dstep_pending cfg d a d' ev c Hwf I A).
Qed.

Fixpoint dalways (cfg : dcfg) (P : drr -> Prop) (d : drr) (acts : list daction) : Prop :=
  P d /\ match acts with
         | [] => True
         | a :: r => match drr_act cfg d a with Some (d', _) => dalways cfg P d' r | None => True end
         end.

Lemma dalways_mono cfg (P Q : drr -> Prop) : (forall d, P d -> Q d) -> forall acts d, dalways cfg P d acts -> dalways cfg Q d acts.
Proof.
  intros HPQ. induction acts as [|a r IH]; intros d [H1 H2]; cbn [dalways]; (split; [apply HPQ; exact H1|]); [exact I|].
  destruct (drr_act cfg d a) as [[d' o]|]; [apply IH; exact H2|exact I].
Qed.

Lemma dalways_head cfg P d acts : dalways cfg P d acts -> P d.
Proof. destruct acts; intros [H _]; exact H. Qed.

Definition devents (tr : list dtev) : list dout := flat_map (fun e => snd e) tr.

Lemma drun_account cfg c : forall acts d d' tr,
  dwf cfg -> dinv cfg d -> In c (dclasses cfg) -> drr_run cfg d acts = Some (d', tr) ->
  dalways cfg (fun x => dheld cfg x c <> []) d acts ->
  ddef d' c - ddef d c == dquantum cfg c * inject_Z (dsumev (dnq c) (devents tr)) - inject_Z (dsumev (ddeb c) (devents tr))
  /\ dsumev (dnq c) (devents tr) = (dpsi c (dtodo d') - dpsi c (dtodo d) + dsumev dnpass (devents tr))%Z
  /\ (dsumev (dfwdb cfg c) (devents tr) - dsumev (ddeb c) (devents tr) = dpend cfg d' c - dpend cfg d c)%Z.
Proof.
  intros acts d d' tr Hwf I Hc H. revert acts d d' tr I H.
  apply (drun_ind cfg (fun d acts d' tr => dalways cfg (fun x => dheld cfg x c <> []) d acts ->
           ddef d' c - ddef d c == dquantum cfg c * inject_Z (dsumev (dnq c) (devents tr)) - inject_Z (dsumev (ddeb c) (devents tr))
           /\ dsumev (dnq c) (devents tr) = (dpsi c (dtodo d') - dpsi c (dtodo d) + dsumev dnpass (devents tr))%Z
           /\ (dsumev (dfwdb cfg c) (devents tr) - dsumev (ddeb c) (devents tr) = dpend cfg d' c - dpend cfg d c)%Z) Hwf).
  - intros d _ _. cbn [devents flat_map dsumev]. qz. split; [lra|split; lia].
  - intros d a d1 o acts d2 tr2 I A _ _ IH [_ Hal]. cbn [dalways] in Hal. rewrite A in Hal.
    destruct (dstep_account cfg d a d1 o c Hwf I A Hc (dalways_head _ _ _ _ Hal)) as (A1 & A2 & A3).
    destruct (IH Hal) as (B1 & B2 & B3).
    cbn [devents flat_map snd]. fold (devents tr2). rewrite !dsumev_app. split; [|split; lia].
    rewrite !inject_Z_plus. lra.
Qed.

Lemma dfair_arith (Qi Qj L Si Sj Vi Vj xi xj : Q) :
  0 < Qi -> 0 < Qj -> 0 <= L ->
  Si == Qi * Vi + xi -> Sj == Qj * Vj + xj ->
  - (Qi + 2 * L) < xi -> xi < Qi + 2 * L -> - (Qj + 2 * L) < xj -> xj < Qj + 2 * L ->
  -2 <= Vi - Vj -> Vi - Vj <= 2 ->
  Qabs (Si / Qi - Sj / Qj) < 4 + 2 * L * (1 / Qi + 1 / Qj).
Proof.
  intros Hi Hj HL HSi HSj Hx1 Hx2 Hy1 Hy2 Hv1 Hv2. unfold Qdiv.
  set (ri := / Qi). set (rj := / Qj).
  assert (Hri : Qi * ri == 1) by (apply Qmult_inv_r; lra).
  assert (Hrj : Qj * rj == 1) by (apply Qmult_inv_r; lra).
  assert (Pri : 0 < ri) by (apply Qinv_lt_0_compat; exact Hi).
  assert (Prj : 0 < rj) by (apply Qinv_lt_0_compat; exact Hj).
  assert (Ei : Si * ri == Vi + xi * ri).
  { rewrite HSi. setoid_replace ((Qi * Vi + xi) * ri) with (Vi * (Qi * ri) + xi * ri) by ring. rewrite Hri. ring. }
  assert (Ej : Sj * rj == Vj + xj * rj).
  { rewrite HSj. setoid_replace ((Qj * Vj + xj) * rj) with (Vj * (Qj * rj) + xj * rj) by ring. rewrite Hrj. ring. }
  assert (Bi1 : xi * ri < 1 + 2 * (L * ri)) by nra.
  assert (Bi2 : - (1 + 2 * (L * ri)) < xi * ri) by nra.
  assert (Bj1 : xj * rj < 1 + 2 * (L * rj)) by nra.
  assert (Bj2 : - (1 + 2 * (L * rj)) < xj * rj) by nra.
  assert (Li : 0 <= L * ri) by nra.
  assert (Lj : 0 <= L * rj) by nra.
  apply Qabs_Qlt_condition. rewrite Ei, Ej. split; lra.
Qed.

Lemma dinject_Z_minus a b : inject_Z (a - b) == inject_Z a - inject_Z b.
Proof. unfold Z.sub. rewrite inject_Z_plus, inject_Z_opp. reflexivity. Qed.

Lemma dpsi_01 c l : (0 <= dpsi c l <= 1)%Z.
Proof. unfold dpsi. destruct (dmemZ c l); lia. Qed.

(* bytes of class c forwarded in a trace *)
Definition dsent (cfg : dcfg) (c : Z) (tr : list dtev) : Z := dsumev (dfwdb cfg c) (devents tr).

Lemma dsent_ev cfg c l : dsumev (dfwdb cfg c) l = dbytes (dof_cls cfg c (dforwards l)).
Proof.
  induction l as [|x l IH]; [reflexivity|]. cbn [dsumev]. rewrite IH.
  change (dforwards (x :: l)) with ((match x with DOForward p => [p] | _ => [] end) ++ dforwards l).
  rewrite dof_cls_app, dbytes_app. destruct x; cbn [dfwdb]; try (cbn; lia).
  unfold dof_cls. cbn [filter]. destruct (Z.eqb (dcls cfg p) c); cbn [dbytes]; lia.
Qed.

Lemma dsent_bytes cfg c tr : dsent cfg c tr = dbytes (dof_cls cfg c (dfwds tr)).
Proof.
  unfold dsent, devents, dfwds. induction tr as [|e t IH]; [reflexivity|]. cbn [flat_map].
  rewrite dsumev_app, dof_cls_app, dbytes_app, IH, dsent_ev. reflexivity.
Qed.

(* one class backlogged throughout a sub-execution: its service is its quantum times the number of its visits, up to the
   credit and the pending bytes at the two ends; and it is visited once per round, up to the round under way at either end *)
Lemma dclass_service cfg c acts d1 d2 tr :
  dwf cfg -> dinv cfg d1 -> In c (dclasses cfg) -> drr_run cfg d1 acts = Some (d2, tr) ->
  dalways cfg (fun x => dheld cfg x c <> []) d1 acts ->
  exists x, inject_Z (dsent cfg c tr) == dquantum cfg c * inject_Z (dsumev (dnq c) (devents tr)) + x
    /\ - (dquantum cfg c + 2 * inject_Z (dlmax d2)) < x /\ x < dquantum cfg c + 2 * inject_Z (dlmax d2)
    /\ (-1 <= dsumev (dnq c) (devents tr) - dsumev dnpass (devents tr) <= 1)%Z.
Proof.
  intros Hwf I1 Hc H2 Hal. pose proof (dinv_run cfg acts d1 d2 tr Hwf I1 H2) as I2.
  destruct (drun_frame cfg acts d1 d2 tr Hwf I1 H2) as (_ & Hl & _).
  destruct (drun_account cfg c acts d1 d2 tr Hwf I1 Hc H2 Hal) as (A1 & A2 & A3).
  destruct (b_def (i_base I1) c) as [c1 c1']. specialize (c1' Hc).
  destruct (b_def (i_base I2) c) as [c2 c2']. specialize (c2' Hc).
  pose proof (dpend_bounds cfg d1 c I1) as p1. pose proof (dpend_bounds cfg d2 c I2) as p2.
  pose proof (dpsi_01 c (dtodo d1)). pose proof (dpsi_01 c (dtodo d2)).
  set (L := inject_Z (dlmax d2)) in *.
  assert (HL1 : inject_Z (dlmax d1) <= L) by (unfold L; rewrite <- Zle_Qle; lia).
  assert (P : inject_Z (dsent cfg c tr) - inject_Z (dsumev (ddeb c) (devents tr)) == inject_Z (dpend cfg d2 c) - inject_Z (dpend cfg d1 c)).
  { rewrite <- !dinject_Z_minus. unfold dsent. rewrite A3. reflexivity. }
  assert (b1 : 0 <= inject_Z (dpend cfg d1 c) <= L).
  { split; [change 0 with (inject_Z 0); rewrite <- Zle_Qle; lia|]. eapply Qle_trans; [|exact HL1]. rewrite <- Zle_Qle. lia. }
  assert (b2 : 0 <= inject_Z (dpend cfg d2 c) <= L).
  { split; [change 0 with (inject_Z 0); rewrite <- Zle_Qle; lia|]. unfold L. rewrite <- Zle_Qle. lia. }
  exists (ddef d1 c - ddef d2 c + (inject_Z (dpend cfg d2 c) - inject_Z (dpend cfg d1 c))).
  split; [lra|]. split; [lra|]. split; [lra|lia].
Qed.

Theorem drr_fairness_tight cfg t0 acts1 d1 tr1 acts2 d2 tr2 i j :
  dwf cfg -> drr_run cfg (drr0 t0) acts1 = Some (d1, tr1) -> drr_run cfg d1 acts2 = Some (d2, tr2) ->
  In i (dclasses cfg) -> In j (dclasses cfg) ->
  dalways cfg (fun x => dheld cfg x i <> [] /\ dheld cfg x j <> []) d1 acts2 ->
  Qabs (inject_Z (dsent cfg i tr2) / dquantum cfg i - inject_Z (dsent cfg j tr2) / dquantum cfg j)
    < 4 + 2 * inject_Z (dlmax d2) * (1 / dquantum cfg i + 1 / dquantum cfg j).
Proof.
  intros Hwf H1 H2 Hi Hj Hal. pose proof (dreach_inv _ _ _ _ _ Hwf H1) as I1.
  destruct (dclass_service cfg i acts2 d1 d2 tr2 Hwf I1 Hi H2 (dalways_mono cfg _ _ (fun d H => proj1 H) _ _ Hal))
    as (xi & Ei & Li & Ui & Vi).
  destruct (dclass_service cfg j acts2 d1 d2 tr2 Hwf I1 Hj H2 (dalways_mono cfg _ _ (fun d H => proj2 H) _ _ Hal))
    as (xj & Ej & Lj & Uj & Vj).
  pose proof (b_lmax (i_base (dinv_run cfg acts2 d1 d2 tr2 Hwf I1 H2))) as L2.
  (* both classes are visited once per round: their numbers of visits differ by at most 2 *)
  apply (dfair_arith (dquantum cfg i) (dquantum cfg j) (inject_Z (dlmax d2)) _ _
           (inject_Z (dsumev (dnq i) (devents tr2))) (inject_Z (dsumev (dnq j) (devents tr2))) xi xj);
    try assumption; try (apply dquantum_pos; assumption).
  - change 0 with (inject_Z 0). rewrite <- Zle_Qle. exact L2.
  - rewrite <- dinject_Z_minus. change (-2) with (inject_Z (-2)). rewrite <- Zle_Qle. lia.
  - rewrite <- dinject_Z_minus. change 2 with (inject_Z 2). rewrite <- Zle_Qle. lia.
Qed.

Theorem drr_fairness_l cfg t0 acts1 d1 tr1 acts2 d2 tr2 i j :
  dwf cfg -> drr_run cfg (drr0 t0) acts1 = Some (d1, tr1) -> drr_run cfg d1 acts2 = Some (d2, tr2) ->
  In i (dclasses cfg) -> In j (dclasses cfg) ->
  dalways cfg (fun x => dheld cfg x i <> [] /\ dheld cfg x j <> []) d1 acts2 ->
  Qabs (inject_Z (dsent cfg i tr2) / dquantum cfg i - inject_Z (dsent cfg j tr2) / dquantum cfg j)
    < 4 + 3 * inject_Z (dlmax d2) * (1 / dquantum cfg i + 1 / dquantum cfg j).
Proof.
  intros Hwf H1 H2 Hi Hj Hal. eapply Qlt_le_trans; [apply (drr_fairness_tight cfg t0 acts1 d1 tr1 acts2 d2 tr2 i j); assumption|].
  pose proof (b_lmax (i_base (dinv_run cfg acts2 d1 d2 tr2 Hwf (dreach_inv _ _ _ _ _ Hwf H1) H2))) as L2.
  assert (HL : 0 <= inject_Z (dlmax d2)) by (change 0 with (inject_Z 0); rewrite <- Zle_Qle; exact L2).
  pose proof (Qinv_lt_0_compat _ (dquantum_pos cfg i Hwf Hi)). pose proof (Qinv_lt_0_compat _ (dquantum_pos cfg j Hwf Hj)).
  unfold Qdiv. nra.
Qed.

