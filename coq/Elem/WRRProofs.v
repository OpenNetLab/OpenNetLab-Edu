(* Elem/WRR.v (onl/scheduler/wrr.py; identity class map) is an instance of the automaton of SchedBaseProofs.v: its configuration is well-formed for every rate > 0 (and has positive allowances when all weights are positive);
   the theorems there apply to ALL admissible executions (wrr_run ... acts = Some (s, tr)) and all weight tables. *)
From Coq Require Import ZArith QArith List Bool Lia Lqa.
From ONL Require Import Elem.Packet Elem.StoreQ Elem.StoreQProofs Elem.SchedBase Elem.SchedBaseProofs Elem.WRR.
Import ListNotations.

Lemma wrr_wf r ws : 0 < r -> wf (wrr_cfg r ws).
Proof. intros R. split; [exact R|]. intros _ f. reflexivity. Qed.

Lemma wrr_cfg_ok r ws : 0 < r -> (forall f w, In (f, w) ws -> (0 < w)%Z) -> cfg_ok (wrr_cfg r ws).
Proof.
  intros R Pos. split; [apply wrr_wf; exact R|]. intros f n Hin. cbn in Hin. apply in_map_iff in Hin as ([g w] & E & Hw).
  unfold wrr_slot in E; cbn in E. injection E as _ <-. specialize (Pos g w Hw). lia.
Qed.

Lemma wrr_visit : forall (r : Q) (ws : list (Z * Z)) acts s tr,
  0 < r ->
  wrr_run r ws acts = Some (s, tr) ->
  exists k, walk (pass (wrr_cfg r ws)) (pass (wrr_cfg r ws)) (tr_visits tr) = Some k /\
            norm (pass (wrr_cfg r ws)) k = norm (pass (wrr_cfg r ws)) (cursor (wrr_cfg r ws) s).
Proof. intros r ws acts s tr R H. exact (visits_run0 (wrr_cfg r ws) acts s tr (wrr_wf r ws R) eq_refl H). Qed.

(* non-vacuity: a concrete admissible execution (observed on the real WRR: four packets put at t = 0 before the wake-up
   token is processed, 128 B at 1024 bit/s = 1 s each), its departure order, its visits, and the drained final state *)
Definition wrr_ex_acts : list saction :=
  [SInit;
   SPut (mkp 0 1 0 128 0);
   SPut (mkp 1 2 0 128 0);
   SPut (mkp 2 3 1 128 0);
   SPut (mkp 3 4 0 128 0);
   SStoreCb None;
   SStoreCb (Some 0%Z);
   SStoreCb (Some 0%Z);
   SStoreCb (Some 1%Z);
   SStoreCb (Some 0%Z);
   SGetDone None;
   SGetDone (Some 0%Z);
   SChildInit;
   SAdvance (1 # 1);
   SChildTimer;
   SChildEnd;
   SGetDone (Some 0%Z);
   SChildInit;
   SAdvance (2 # 1);
   SChildTimer;
   SChildEnd;
   SGetDone (Some 1%Z);
   SChildInit;
   SAdvance (3 # 1);
   SChildTimer;
   SChildEnd;
   SGetDone (Some 0%Z);
   SChildInit;
   SAdvance (4 # 1);
   SChildTimer;
   SChildEnd].

Example wrr_example :
  match wrr_run (1024 # 1) [(0, 2); (1, 1)]%Z wrr_ex_acts with
  | Some (s, tr) => map uid (tr_fwds tr) = [0; 1; 2; 3]%nat /\ tr_visits tr = [(0, false); (1, false); (0, true); (0, true); (1, true); (0, true); (0, false); (1, false)]%Z /\
                    map (fun e => fst (fst e)) (filter (fun e => negb (nilb (forwards (snd e)))) tr) = [1; 2; 3; 4] /\
                    urgent (wrr_cfg (1024 # 1) [(0, 2); (1, 1)]%Z) s = false /\ mpc s = PTok
  | None => False
  end.
Proof. vm_compute. repeat split; reflexivity. Qed.
