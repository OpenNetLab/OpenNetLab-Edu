(* The visit rule of C15 as a specification automaton over the internal events of run(), and the proof that run(), from
   wherever it resumes to its next yield, keeps the invariant, keeps what is held, and emits an event sequence the
   automaton accepts (refinement).
   The automaton state: the credits, the classes still to be visited in the current pass, the class whose visit is in
   progress, the packet whose transmission was started and is not yet debited.  [H c] is the list of packets class c
   holds (waiting or in transmission, oldest first); it does not change while run() executes between two yields. *)
From Coq Require Import ZArith QArith Qminmax List Bool Lia Lqa.
From ONL Require Import Base.QTools Elem.Packet Elem.StoreQ Elem.StoreQProofs Elem.DRR Elem.DRRInv.
Import ListNotations.
Opaque Qred.

Record dss := dmk { ss_cr : Z -> Q; ss_todo : list Z; ss_cur : option Z; ss_tx : option pkt }.

Definition dcr_same (cr cr' : Z -> Q) : Prop := forall k, cr' k == cr k.
Definition dcr_set (cr cr' : Z -> Q) (c : Z) (v : Q) : Prop := forall k, cr' k == if Z.eqb k c then v else cr k.

Inductive dspec (cfg : dcfg) (H : Z -> list pkt) : dss -> dout -> dss -> Prop :=
| sp_fwd s p :                       (* forwarding is not part of the visit rule *)
    dspec cfg H s (DOForward p) s
| sp_pass cr cr' :                   (* a new round begins: the previous one is over, somebody holds a packet *)
    (exists c, In c (dclasses cfg) /\ H c <> []) -> dcr_same cr cr' ->
    dspec cfg H (dmk cr [] None None) DOPass (dmk cr' (dclasses cfg) None None)
| sp_quantum cr cr' c rest :         (* next class in declaration order holds a packet: it gets its quantum *)
    H c <> [] -> dcr_set cr cr' c (cr c + dquantum cfg c) ->
    dspec cfg H (dmk cr (c :: rest) None None) (DOQuantum c) (dmk cr' rest (Some c) None)
| sp_skip cr cr' c rest :            (* next class holds nothing: no quantum (its visit ends at once: sp_end) *)
    H c = [] -> dcr_same cr cr' ->
    dspec cfg H (dmk cr (c :: rest) None None) (DOSkip c) (dmk cr' rest (Some c) None)
| sp_send cr cr' c rest p :          (* the head packet is covered by the credit: it is sent *)
    hd_error (H c) = Some p -> 0 < cr c -> inject_Z (psize p) <= cr c -> dcr_same cr cr' ->
    dspec cfg H (dmk cr rest (Some c) None) (DOSend c p) (dmk cr' rest (Some c) (Some p))
| sp_park cr cr' c rest p :          (* the head packet is not covered: it waits for the next visit, the credit is kept *)
    hd_error (H c) = Some p -> 0 < cr c -> cr c < inject_Z (psize p) -> dcr_same cr cr' ->
    dspec cfg H (dmk cr rest (Some c) None) (DOPark c p) (dmk cr' rest None None)
| sp_end cr cr' c rest :             (* the credit is used up or the class is empty: the visit is over *)
    (cr c <= 0 \/ H c = []) -> dcr_same cr cr' ->
    dspec cfg H (dmk cr rest (Some c) None) (DOEnd c) (dmk cr' rest None None)
| sp_debit cr cr' c rest p reset :   (* the sent packet's size is subtracted; the credit is forgotten iff the class is now empty *)
    (reset = true <-> H c = []) ->
    dcr_set cr cr' c (if reset then 0 else cr c - inject_Z (psize p)) ->
    dspec cfg H (dmk cr rest (Some c) (Some p)) (DODebit c p reset) (dmk cr' rest (Some c) None).

Inductive dspecs (cfg : dcfg) (H : Z -> list pkt) : dss -> list dout -> dss -> Prop :=
| sps_nil s : dspecs cfg H s [] s
| sps_cons s x s1 e s2 : dspec cfg H s x s1 -> dspecs cfg H s1 e s2 -> dspecs cfg H s (x :: e) s2.

Lemma dspecs_app cfg H s e1 s1 e2 s2 : dspecs cfg H s e1 s1 -> dspecs cfg H s1 e2 s2 -> dspecs cfg H s (e1 ++ e2) s2.
Proof. induction 1; cbn [app]; [auto|]. intros. econstructor; eauto. Qed.

Lemma dspecs_one cfg H s x s1 : dspec cfg H s x s1 -> dspecs cfg H s [x] s1.
Proof. intros. econstructor; [eassumption|constructor]. Qed.

(* the automaton state a model state stands for *)
Definition dtodo (d : drr) : list Z := match dctrl d with DKGet _ r | DKChild _ r => r | _ => [] end.
Definition dtxp (d : drr) : option pkt :=
  match dchd d with DCNone => None | DCStart p | DCTx p _ | DCDone p => Some p end.
Definition dabs (d : drr) : dss := dmk (ddef d) (dtodo d) (dvisiting d) (dtxp d).

Lemma dcr_same_refl cr : dcr_same cr cr.
Proof. intros k. reflexivity. Qed.

Lemma dspecs_ext cfg H H' s e s' : (forall k, H k = H' k) -> dspecs cfg H s e s' -> dspecs cfg H' s e s'.
Proof.
  intros E Hs. induction Hs as [s|s x s1 e s2 Hx _ IH]; [constructor|]. refine (sps_cons _ _ _ _ _ _ _ _ IH).
  destruct Hx as [s p|cr cr' (c & Hc & Hn) Hcr| | | | | |]; [apply sp_fwd|apply sp_pass; [exists c; rewrite <- E; auto|exact Hcr]|..];
    constructor; rewrite <- ?E; assumption.
Qed.

(* the events run() emits itself: everything but the forwarding (the transmission timeout) and the debit (which opens the
   action that resumes run() after a transmission) *)
Definition dinternal (x : dout) : bool := match x with DOForward _ | DODebit _ _ _ => false | _ => true end.

(* run() goes from d to d' emitting e while the automaton goes from s to s' *)
Record dtrans (cfg : dcfg) (H : Z -> list pkt) (d : drr) (s : dss) (e : list dout) (d' : drr) (s' : dss) : Prop := {
  t_same : dsame cfg d d';
  t_int : forallb dinternal e = true;
  t_ev : dspecs cfg H s e s'
}.

Lemma dtrans_refl cfg H d s : dtrans cfg H d s [] d s.
Proof. constructor; [apply dsame_refl|reflexivity|constructor]. Qed.

Lemma dtrans_app cfg H d s e1 d1 s1 e2 d2 s2 :
  dtrans cfg H d s e1 d1 s1 -> dtrans cfg H d1 s1 e2 d2 s2 -> dtrans cfg H d s (e1 ++ e2) d2 s2.
Proof.
  intros [S1 I1 E1] [S2 I2 E2].
  constructor; [eapply dsame_trans; eauto|rewrite forallb_app, I1, I2; reflexivity|eapply dspecs_app; eauto].
Qed.
Arguments dtrans_app {cfg H d s e1 d1 s1 e2 d2 s2}.

Lemma dtrans_one cfg H d s x d' s' : dsame cfg d d' -> dinternal x = true -> dspec cfg H s x s' -> dtrans cfg H d s [x] d' s'.
Proof. intros S I E. constructor; [exact S|cbn; rewrite I; reflexivity|apply dspecs_one; exact E]. Qed.

Lemma dtrans_pre cfg H d0 d s e d' s' : dsame cfg d0 d -> dtrans cfg H d s e d' s' -> dtrans cfg H d0 s e d' s'.
Proof. intros S0 [S I E]. constructor; [eapply dsame_trans; eauto|exact I|exact E]. Qed.
Arguments dtrans_pre {cfg H d0 d s e d' s'}.

Lemma dtrans_held cfg H d s e d' s' : (forall k, H k = dheld cfg d k) -> dtrans cfg H d s e d' s' -> forall k, H k = dheld cfg d' k.
Proof. intros HH [S _ _] k. rewrite HH. symmetry. apply (s_held S). Qed.
Arguments dtrans_held {cfg H d s e d' s'}.

(* what a construct of run() started in d (automaton state s) achieves: at a yield the full invariant holds again and the
   only child there can be is one just spawned; where the construct falls through run() is still in the middle, with
   [rest] left of the pass *)
Definition dpost (cfg : dcfg) (H : Z -> list pkt) (d : drr) (s : dss) (rest : list Z) (r : dres) : Prop :=
  match r with
  | DYield d' e => dinv cfg d' /\ (dchd d' = DCNone \/ exists p, dchd d' = DCStart p) /\ dtrans cfg H d s e d' (dabs d')
  | DFall d' e => dmid cfg d' None /\ dtrans cfg H d s e d' (dmk (ddef d') rest None None)
  | DErr => False
  end.

Lemma dpost_app cfg H d s e1 d1 s1 rest r :
  dtrans cfg H d s e1 d1 s1 -> dpost cfg H d1 s1 rest r ->
  dpost cfg H d s rest (match r with DYield d' e => DYield d' (e1 ++ e) | DFall d' e => DFall d' (e1 ++ e) | DErr => DErr end).
Proof.
  intros T. destruct r as [d' e|d' e|]; cbn [dpost]; [|intros (M & T2); split; [exact M|eapply dtrans_app; eauto]|auto].
  intros (I & Ch & T2). split; [exact I|]. split; [exact Ch|eapply dtrans_app; eauto].
Qed.
Arguments dpost_app {cfg H d s e1 d1 s1 rest r}.

Lemma dpost_pre cfg H d0 d s rest r : dsame cfg d0 d -> dpost cfg H d s rest r -> dpost cfg H d0 s rest r.
Proof.
  intros S. destruct r as [d' e|d' e|]; cbn [dpost];
    [intros (I & Ch & T); split; [exact I|split; [exact Ch|]]|intros (M & T); split; [exact M|]|auto];
    apply (dtrans_pre S T).
Qed.
Arguments dpost_pre {cfg H d0 d s rest r}.

Lemma dmid_leave cfg d c : dmid cfg d (Some c) -> dparked_or_zero d c -> dmid cfg d None.
Proof.
  intros [B Ch T G R V] P. constructor; auto.
  - intros k _. destruct (Z.eq_dec k c) as [->|Hne]; [exact P|apply R; congruence].
  - intros k Hk. discriminate.
Qed.

Lemma dtry_head_post cfg H d c rest p :
  dwf cfg -> dmid cfg (dset_hol d c (Some p)) (Some c) -> dsuffix cfg (c :: rest) ->
  (forall k, H k = dheld cfg (dset_hol d c (Some p)) k) -> 0 < ddef d c ->
  dpost cfg H (dset_hol d c (Some p)) (dmk (ddef d) rest (Some c) None) rest (dtry_head c rest d p).
Proof.
  intros Hwf M Hsuf HH Hpos. set (d1 := dset_hol d c (Some p)) in *.
  pose proof (m_base M) as B.
  assert (Hh1 : dhol d1 c = Some p) by (cbn; apply dupd_eq).
  destruct (b_cls B c p (dhol_in_held cfg d1 c p Hh1)) as (Hcls & Hin & Hsz).
  pose proof (m_chd M) as Hch. cbn in Hch.
  assert (Hhd : hd_error (H c) = Some p).
  { rewrite HH. unfold dheld. rewrite (dmid_tx_nil _ _ _ c M). unfold dhol_l. rewrite Hh1. reflexivity. }
  unfold dtry_head. destruct (Qle_bool (inject_Z (psize p)) (ddef d c)) eqn:E.
  - apply Qle_bool_iff in E.
    match goal with |- dpost _ _ _ _ _ (DYield ?X _) => set (d' := X) end.
    assert (S : dsame cfg d1 d').
    { constructor; try reflexivity. intros k. unfold dheld, dtx_l, dhol_l, dsth. cbn. rewrite Hch.
      unfold dcls in *. rewrite Hcls. unfold dupd. destruct (Z.eqb_spec k c) as [->|Hne].
      - rewrite Z.eqb_refl. reflexivity.
      - destruct (Z.eqb_spec c k); [congruence|]. reflexivity. }
    split; [|split; [right; exists p; reflexivity|]].
    + constructor.
      * apply (dbase_transfer cfg d1 d' B S); [|apply (b_nostrand B)|apply (b_def B)].
        intros k. unfold ddone. cbn. rewrite Hch. reflexivity.
      * unfold dctl_ok, dchild_ok. cbn. split; [split; [exact Hcls|split; [exact E|exact Hsz]]|].
        split; [apply (m_tok M)|]. split; [apply (m_get M)|]. split; [apply dupd_eq|exact Hsuf].
      * cbn. discriminate.
      * intros k Hk. cbn in Hk. assert (k <> c) by congruence.
        unfold dparked_or_zero. cbn. rewrite dupd_neq by assumption.
        assert (R : dparked_or_zero d1 k) by (apply (m_rest M); congruence).
        unfold dparked_or_zero in R. cbn in R. rewrite dupd_neq in R by assumption. exact R.
    + apply dtrans_one; [exact S|reflexivity|]. unfold dabs. cbn [d' ddef dtodo dvisiting dtxp dctrl dchd].
      apply sp_send; auto. apply dcr_same_refl.
  - apply Qle_bool_false in E. fold d1. split.
    + apply (dmid_leave cfg d1 c M). unfold dparked_or_zero. rewrite Hh1. exact E.
    + apply dtrans_one; [apply dsame_refl|reflexivity|]. apply sp_park; auto. apply dcr_same_refl.
Qed.

(* a head already parked: writing it into head_of_line again changes nothing *)
Lemma dmid_rehol cfg d v c p :
  dmid cfg d v -> dhol d c = Some p -> dmid cfg (dset_hol d c (Some p)) v /\ dsame cfg d (dset_hol d c (Some p)).
Proof.
  intros M Eh.
  assert (Hhol : forall k, dhol (dset_hol d c (Some p)) k = dhol d k).
  { intros k. cbn. unfold dupd. destruct (Z.eqb_spec k c) as [->|]; [symmetry; exact Eh|reflexivity]. }
  assert (S : dsame cfg d (dset_hol d c (Some p))).
  { constructor; try reflexivity. intros k. unfold dheld, dhol_l. rewrite Hhol. reflexivity. }
  split; [|exact S]. pose proof (m_base M) as B.
  constructor; try (first [apply (m_chd M)|apply (m_tok M)|apply (m_get M)]).
  - apply (dbase_transfer cfg d _ B S); [intros k; reflexivity|apply (b_nostrand B)|apply (b_def B)].
  - intros k Hk. unfold dparked_or_zero. rewrite Hhol. apply (m_rest M k Hk).
  - intros k Hk. rewrite Hhol. apply (m_vis M k Hk).
Qed.

Lemma dinner_post cfg H d c rest :
  dwf cfg -> dmid cfg d (Some c) -> dsuffix cfg (c :: rest) -> (forall k, H k = dheld cfg d k) ->
  dpost cfg H d (dmk (ddef d) rest (Some c) None) rest (dinner c rest d).
Proof.
  intros Hwf M Hsuf HH. pose proof (m_base M) as B.
  destruct (m_vis M c eq_refl) as (Hin & Hvis).
  unfold dinner. destruct (negb (Qle_bool (ddef d c) 0) && (0 <? dccnt d c)%Z) eqn:T.
  - apply andb_true_iff in T as [T1 T2]. apply negb_true_iff, Qle_bool_false in T1. apply Z.ltb_lt in T2.
    destruct (dhol d c) as [p|] eqn:Eh.
    + destruct (dmid_rehol cfg d (Some c) c p M Eh) as [M1 S1].
      apply (dpost_pre S1). apply (dtry_head_post cfg H d c rest p Hwf M1 Hsuf); [|exact T1].
      intros k. rewrite HH. symmetry. apply (s_held S1).
    + pose proof (m_get M c) as G.
      rewrite (dmid_ccnt _ _ _ c M) in T2. apply dlen_pos in T2.
      assert (Hne : items (dst d c) <> []).
      { intros E0. apply T2. unfold dheld. rewrite (dmid_tx_nil _ _ _ c M). unfold dhol_l, dsth, sq_held. rewrite Eh, G, E0. reflexivity. }
      destruct (sq_get_enabled pkt fifo_pop (dst d c) G) as (q & Hq). rewrite Hq.
      pose proof (fifo_held_get pkt _ _ Hq) as Hheld.
      apply fifo_get_inv in Hq as (_ & Hpend & [(E0 & _)|(x & Hx & Gx)]); [contradiction|].
      set (d' := dset_ctl (dset_st d c q) (DKGet c rest)).
      assert (S : dsame cfg d d').
      { constructor; try reflexivity. intros k. unfold dheld, dsth. cbn. unfold dupd.
        destruct (Z.eqb_spec k c) as [->|]; [rewrite Hheld|]; reflexivity. }
      split; [|split; [left; apply (m_chd M)|]].
      * constructor.
        -- apply (dbase_transfer cfg d d' B S); [intros k; reflexivity|apply (b_nostrand B)|apply (b_def B)].
        -- unfold dctl_ok. cbn. split; [apply (m_chd M)|]. split; [apply (m_tok M)|].
           split; [exists x; rewrite dupd_eq; exact Gx|]. split; [intros k Hk; rewrite dupd_neq by exact Hk; apply (m_get M)|].
           split; [exact Eh|]. split; [exact Hsuf|exact T1].
        -- cbn. discriminate.
        -- intros k Hk. cbn in Hk. apply (m_rest M). congruence.
      * constructor; [exact S|reflexivity|].
        change (dabs d') with (dmk (ddef d) rest (Some c) (dtxp d)). unfold dtxp. rewrite (m_chd M). constructor.
  - assert (Hpre : dccnt d c = 0%Z \/ ddef d c <= 0).
    { apply andb_false_iff in T as [T|T].
      - right. apply negb_false_iff, Qle_bool_iff in T. exact T.
      - left. apply Z.ltb_ge in T. rewrite (dmid_ccnt _ _ _ c M) in *. pose proof (dlen_nonneg cfg d c). lia. }
    split.
    + apply (dmid_leave cfg d c M). destruct (Hvis Hpre) as [H0 Hh]. unfold dparked_or_zero. rewrite Hh. exact H0.
    + apply dtrans_one; [apply dsame_refl|reflexivity|]. apply sp_end; [|apply dcr_same_refl].
      destruct Hpre as [Hz|Hz]; [right|left; exact Hz].
      rewrite (dmid_ccnt _ _ _ c M) in Hz. rewrite HH. destruct (dheld cfg d c) eqn:Eh; [reflexivity|].
      assert (0 < dlen cfg d c)%Z by (apply dlen_pos; rewrite Eh; discriminate). lia.
Qed.

Lemma dvisit_start_post cfg H d c rest :
  dwf cfg -> dmid cfg d None -> In c (dclasses cfg) -> (forall k, H k = dheld cfg d k) ->
  dmid cfg (fst (dvisit_start cfg c d)) (Some c)
  /\ dtrans cfg H d (dmk (ddef d) (c :: rest) None None) (snd (dvisit_start cfg c d))
            (fst (dvisit_start cfg c d)) (dmk (ddef (fst (dvisit_start cfg c d))) rest (Some c) None).
Proof.
  intros Hwf M Hc HH. unfold dvisit_start.
  pose proof (m_base M) as B.
  assert (Hrest : dparked_or_zero d c) by (apply (m_rest M); discriminate).
  destruct (0 <? dccnt d c)%Z eqn:E; cbn [fst snd].
  - apply Z.ltb_lt in E. rewrite (dmid_ccnt _ _ _ c M) in E. apply dlen_pos in E.
    pose proof (dparked_lt_lmax _ _ _ B Hrest (dlmax_pos_of_held _ _ _ B E)) as Hlt.
    pose proof (dquantum_pos cfg c Hwf Hc) as HQ. destruct (b_def B c) as [H0 _].
    assert (S : dsame cfg d (dset_def d c (Qred (ddef d c + dquantum cfg c)))) by (constructor; reflexivity).
    split.
    + constructor; try (cbn; first [apply (m_chd M)|apply (m_tok M)|apply (m_get M)]).
      * apply (dbase_transfer cfg d _ B S); [intros k; reflexivity|apply (b_nostrand B)|].
        intros k. cbn [dset_def ddef dlmax]. unfold dupd. destruct (Z.eqb_spec k c) as [->|Hne]; [|apply (b_def B)].
        rewrite Qred_correct. split; [lra|intros _; lra].
      * intros k Hk. assert (k <> c) by congruence.
        unfold dparked_or_zero. cbn [dset_def dhol ddef]. rewrite dupd_neq by assumption.
        apply (m_rest M). discriminate.
      * intros k Hk. injection Hk as <-. split; [exact Hc|].
        cbn [dset_def dccnt ddef dhol]. rewrite dupd_eq, Qred_correct.
        intros [Hz|Hz]; [|lra]. rewrite (dmid_ccnt _ _ _ c M) in Hz. apply dlen_pos in E. lia.
    + apply dtrans_one; [exact S|reflexivity|]. apply sp_quantum; [rewrite HH; exact E|].
      intros k. cbn [dset_def ddef]. unfold dupd. destruct (Z.eqb k c); [apply Qred_correct|reflexivity].
  - apply Z.ltb_ge in E. rewrite (dmid_ccnt _ _ _ c M) in E.
    assert (Hl : dheld cfg d c = []).
    { destruct (dheld cfg d c) eqn:Eh; [reflexivity|]. assert (0 < dlen cfg d c)%Z by (apply dlen_pos; rewrite Eh; discriminate). lia. }
    split.
    + constructor; try (first [apply (m_base M)|apply (m_chd M)|apply (m_tok M)|apply (m_get M)]).
      * intros k Hk. apply (m_rest M). discriminate.
      * intros k Hk. injection Hk as <-. split; [exact Hc|]. intros _.
        assert (Hh : dhol d c = None).
        { destruct (dhol d c) as [p|] eqn:Eh; [|reflexivity]. pose proof (dhol_in_held cfg d c p Eh) as Hi. rewrite Hl in Hi. destruct Hi. }
        split; [|exact Hh]. unfold dparked_or_zero in Hrest. rewrite Hh in Hrest. exact Hrest.
    + apply dtrans_one; [apply dsame_refl|reflexivity|]. apply sp_skip; [rewrite HH; exact Hl|apply dcr_same_refl].
Qed.

Lemma dscan_post cfg H cs : forall d,
  dwf cfg -> dmid cfg d None -> dsuffix cfg cs -> (forall k, H k = dheld cfg d k) ->
  dpost cfg H d (dmk (ddef d) cs None None) [] (dscan cfg cs d).
Proof.
  induction cs as [|c rest IH]; intros d Hwf M Hsuf HH; cbn [dscan]; [split; [exact M|apply dtrans_refl]|].
  destruct (dvisit_start_post cfg H d c rest Hwf M (dsuffix_head _ _ _ Hsuf) HH) as (M1 & T1).
  destruct (dvisit_start cfg c d) as [d1 e1]. cbn [fst snd] in *.
  pose proof (dinner_post cfg H d1 c rest Hwf M1 Hsuf (dtrans_held HH T1)) as P2.
  destruct (dinner c rest d1) as [d2 e2|d2 e2|]; [exact (dpost_app T1 P2)| |exact P2].
  destruct P2 as (M2 & T2). pose proof (dtrans_app T1 T2) as T12.
  specialize (IH d2 Hwf M2 (dsuffix_tail _ _ _ Hsuf) (dtrans_held HH T12)).
  destruct (dscan cfg rest d2); exact (dpost_app T1 (dpost_app T2 IH)).
Qed.

Lemma dpasses_tok fuel cfg d : (0 <? dtotal d)%Z = false ->
  dpasses fuel cfg d = match sq_get fifo_pop (dtok d) with Some q => Some (dset_ctl (dset_tok d q) DKTok, []) | None => None end.
Proof. intros T. destruct fuel; cbn [dpasses]; rewrite T; reflexivity. Qed.

Lemma dpasses_post cfg H fuel : forall d d' e,
  dwf cfg -> dmid cfg d None -> (forall k, H k = dheld cfg d k) -> dpasses fuel cfg d = Some (d', e) ->
  dpost cfg H d (dmk (ddef d) [] None None) [] (DYield d' e).
Proof.
  (* nothing is held: run() blocks on the token store *)
  assert (Htok : forall n d d' e, dmid cfg d None -> (0 <? dtotal d)%Z = false -> dpasses n cfg d = Some (d', e) ->
                 dpost cfg H d (dmk (ddef d) [] None None) [] (DYield d' e)).
  { intros n d d' e M T P. rewrite (dpasses_tok _ _ _ T) in P. apply Z.ltb_ge in T.
    destruct (sq_get fifo_pop (dtok d)) as [q|] eqn:G; [|discriminate]. injection P as <- <-.
    pose proof (m_base M) as B. pose proof (dbase_total_nonneg _ _ B) as T0.
    assert (S : dsame cfg d (dset_ctl (dset_tok d q) DKTok)) by (constructor; reflexivity).
    split; [|split; [left; apply (m_chd M)|]].
    - constructor.
      + apply (dbase_transfer cfg d _ B S); [intros k; reflexivity|cbn; apply (fifo_nostrand_get unit _ _ G)|apply (b_def B)].
      + unfold dctl_ok. cbn. split; [apply (m_chd M)|]. split; [|apply (m_get M)].
        apply (sq_get_not_none unit fifo_pop _ _ G).
      + cbn. intros _ _ Hpos. lia.
      + intros k _. apply (m_rest M). discriminate.
    - constructor; [exact S|reflexivity|].
      change (dabs (dset_ctl (dset_tok d q) DKTok)) with (dmk (ddef d) [] None (dtxp d)).
      unfold dtxp. rewrite (m_chd M). constructor. }
  induction fuel as [|n IH]; intros d d' e Hwf M HH P; destruct (0 <? dtotal d)%Z eqn:T; try exact (Htok _ _ _ _ M T P);
    cbn [dpasses] in P; rewrite T in P; [discriminate|].
  apply Z.ltb_lt in T.
  assert (Tp : dtrans cfg H d (dmk (ddef d) [] None None) [DOPass] d (dmk (ddef d) (dclasses cfg) None None)).
  { apply dtrans_one; [apply dsame_refl|reflexivity|]. apply sp_pass; [|apply dcr_same_refl].
    destruct (dtotal_pos cfg d (m_base M) T) as (c & Hc & Hne). exists c. split; [exact Hc|]. rewrite HH. exact Hne. }
  pose proof (dscan_post cfg H (dclasses cfg) d Hwf M (dsuffix_all cfg) HH) as P1.
  destruct (dscan cfg (dclasses cfg) d) as [d1 e1|d1 e1|]; [| |discriminate].
  - injection P as <- <-. exact (dpost_app Tp P1).
  - destruct P1 as (M1 & T1). destruct (dpasses n cfg d1) as [[d2 e2]|] eqn:P2; [|discriminate]. injection P as <- <-.
    exact (dpost_app Tp
             (dpost_app T1 (IH d1 d2 e2 Hwf M1 (dtrans_held HH T1) P2))).
Qed.

Lemma dcontinue_post cfg H rest r d0 s0 d' e :
  dwf cfg -> dsuffix cfg rest -> (forall k, H k = dheld cfg d0 k) -> dpost cfg H d0 s0 rest r ->
  dcontinue cfg rest r = Some (d', e) -> dpost cfg H d0 s0 [] (DYield d' e).
Proof.
  intros Hwf Hsuf HH Pr C. destruct r as [d e0|d e0|]; cbn [dcontinue] in C; [injection C as <- <-; exact Pr| |destruct Pr].
  destruct Pr as (M & T0).
  pose proof (dscan_post cfg H rest d Hwf M Hsuf (dtrans_held HH T0)) as P1.
  destruct (dscan cfg rest d) as [d1 e1|d1 e1|]; [| |discriminate].
  - injection C as <- <-. exact (dpost_app T0 P1).
  - destruct P1 as (M1 & T1). pose proof (dtrans_app T0 T1) as T01.
    destruct (dpasses (dfuel d1) cfg d1) as [[d2 e2]|] eqn:P2; [|discriminate]. injection C as <- <-.
    exact (dpost_app T0
             (dpost_app T1 (dpasses_post cfg H _ d1 d2 e2 Hwf M1 (dtrans_held HH T01) P2))).
Qed.

(* the outer loops entered from the top are the continuation after an empty rest of a pass *)
Lemma dcontinue_nil cfg d : dcontinue cfg [] (DFall d []) = dpasses (dfuel d) cfg d.
Proof. cbn [dcontinue dscan]. destruct (dpasses (dfuel d) cfg d) as [[d2 e2]|]; reflexivity. Qed.

Lemma dtok_mid cfg d x q :
  dinv cfg d -> dctrl d = DKTok -> sq_take (dtok d) = Some (x, q) ->
  dmid cfg (dset_tok d q) None /\ dsame cfg d (dset_tok d q) /\ dchd d = DCNone.
Proof.
  intros I K Tk. pose proof (i_ctl I) as C. unfold dctl_ok in C. rewrite K in C. destruct C as (C1 & C2 & C3).
  pose proof (sq_take_inv unit _ _ _ Tk) as (_ & _ & _ & Gq).
  assert (S : dsame cfg d (dset_tok d q)) by (constructor; reflexivity).
  split; [|split; [exact S|exact C1]]. constructor; cbn; auto.
  - apply (dbase_transfer cfg d _ (i_base I) S); [intros k; reflexivity| |apply (b_def (i_base I))].
    cbn. apply (fifo_nostrand_take unit _ _ _ Tk).
  - intros c _. apply (i_rest I). unfold dvisiting. rewrite K. discriminate.
  - intros c Hc. discriminate.
Qed.

Lemma dget_mid cfg d c rest t p q :
  dinv cfg d -> dctrl d = DKGet c rest -> sq_take (dst d c) = Some ((t, p), q) ->
  dmid cfg (dset_hol (dset_st d c q) c (Some p)) (Some c)
  /\ dsame cfg d (dset_hol (dset_st d c q) c (Some p)) /\ 0 < ddef d c /\ dsuffix cfg (c :: rest) /\ dchd d = DCNone.
Proof.
  intros I K Tk.
  pose proof (i_ctl I) as C. unfold dctl_ok in C. rewrite K in C.
  destruct C as (C1 & C2 & (x & Gx) & C4 & C5 & C6 & C7).
  pose proof (i_base I) as B.
  pose proof (sq_take_inv pkt _ _ _ Tk) as (G & Ei & Ep & Gq).
  pose proof (fifo_held_take pkt _ _ _ Tk) as Hh.
  set (d2 := dset_hol (dset_st d c q) c (Some p)).
  assert (Hheld : forall k, dheld cfg d2 k = dheld cfg d k).
  { intros k. unfold dheld, dtx_l, dhol_l, dsth. cbn. rewrite C1. unfold dupd.
    destruct (Z.eqb_spec k c) as [->|]; [|reflexivity]. rewrite C5, Hh. reflexivity. }
  assert (S : dsame cfg d d2) by (constructor; try reflexivity; exact Hheld).
  split; [|auto].
  constructor; cbn; auto.
  - apply (dbase_transfer cfg d _ B S); [intros k; reflexivity|apply (b_nostrand B)|apply (b_def B)].
  - intros k. unfold dupd. destruct (Z.eqb_spec k c) as [->|Hne]; [exact Gq|apply C4; exact Hne].
  - intros k Hk. assert (k <> c) by congruence. unfold dparked_or_zero. cbn. rewrite dupd_neq by assumption.
    apply (i_rest I). unfold dvisiting. rewrite K. congruence.
  - intros k Hk. injection Hk as <-. split; [apply (dsuffix_head _ _ _ C6)|].
    intros [Hc|Hd]; [|exfalso; lra]. exfalso.
    assert (Hpos : (0 < dlen cfg d c)%Z).
    { apply dlen_pos. rewrite <- (Hheld c). unfold dheld, dhol_l. cbn. rewrite dupd_eq. intros E. apply app_eq_nil in E as [_ E]. discriminate. }
    rewrite (b_ccnt B c) in Hc. unfold ddone in Hc. rewrite C1 in Hc. lia.
Qed.

Lemma dchildend_mid cfg d c rest p :
  dwf cfg -> dinv cfg d -> dchd d = DCDone p -> dctrl d = DKChild c rest ->
  dmid cfg (ddebit d c rest p) (Some c) /\ dsame cfg d (ddebit d c rest p) /\ dsuffix cfg (c :: rest)
  /\ dcls cfg p = c /\ (ddebit_reset d c = true <-> dheld cfg d c = []).
Proof.
  intros Hwf I Ch K.
  pose proof (i_base I) as B. pose proof (i_ctl I) as C. unfold dctl_ok in C. rewrite K, Ch in C.
  destruct C as ((Hc & A2 & A3) & C2 & C3 & C4 & C5). pose proof (dsuffix_head _ _ _ C5) as C6.
  set (d1 := ddebit d c rest p).
  assert (S : dsame cfg d d1).
  { constructor; try reflexivity. intros k. unfold dheld, dtx_l, d1, ddebit. cbn [dchd dhol dst]. rewrite Ch. reflexivity. }
  assert (Hdone : forall k, ddone cfg d k = if Z.eqb c k then 1%Z else 0%Z).
  { intros k. unfold ddone. rewrite Ch, Hc. reflexivity. }
  pose proof (Qred_correct (ddef d c - inject_Z (psize p))) as HR.
  pose proof (dquantum_pos cfg c Hwf C6) as HQ.
  assert (HL : 0 <= inject_Z (dlmax d)) by (change 0 with (inject_Z 0); rewrite <- Zle_Qle; apply (b_lmax B)).
  assert (HS : 0 < inject_Z (psize p)) by (change 0 with (inject_Z 0); rewrite <- Zlt_Qlt; lia).
  destruct (b_def B c) as [D1 D2]. specialize (D2 C6).
  split; [|split; [exact S|split; [exact C5|split; [exact Hc|]]]].
  - constructor.
    + apply (dbase_transfer cfg d d1 B S).
      * intros k. rewrite Hdone. unfold d1, ddebit, ddone. cbn [dccnt dchd]. unfold dupd.
        destruct (Z.eqb_spec k c) as [->|Hne]; [rewrite Z.eqb_refl; lia|]. destruct (Z.eqb_spec c k); [congruence|lia].
      * apply (b_nostrand B).
      * intros k. unfold d1, ddebit. cbn [ddef dlmax]. unfold dupd. destruct (Z.eqb_spec k c) as [->|]; [|apply (b_def B)].
        destruct (ddebit_reset d c); (split; [lra|intros _; lra]).
    + reflexivity.
    + exact C2.
    + exact C3.
    + intros k Hk. assert (k <> c) by congruence. unfold dparked_or_zero, d1, ddebit. cbn [dhol ddef]. rewrite dupd_neq by assumption.
      apply (i_rest I). unfold dvisiting. rewrite K. congruence.
    + intros k Hk. injection Hk as <-. split; [exact C6|]. unfold d1, ddebit. cbn [dccnt ddef dhol]. rewrite !dupd_eq.
      intros Hpre. split; [|exact C4].
      destruct (ddebit_reset d c) eqn:R; [reflexivity|]. unfold ddebit_reset in R. apply Z.eqb_neq in R.
      destruct Hpre as [Hz|Hz]; [contradiction|]. lra.
  - pose proof (b_ccnt B c) as Hk. rewrite Hdone, Z.eqb_refl in Hk. unfold ddebit_reset. rewrite Z.eqb_eq. split.
    + intros E. destruct (dheld cfg d c) eqn:Eh; [reflexivity|]. assert (0 < dlen cfg d c)%Z by (apply dlen_pos; rewrite Eh; discriminate). lia.
    + intros E. unfold dlen in Hk. rewrite E in Hk. cbn in Hk. lia.
Qed.

Definition dresumes (a : daction) : bool := match a with DInit | DGetDone _ | DChildEnd => true | _ => false end.

Theorem dresume_post cfg d a d' ev :
  dwf cfg -> dinv cfg d -> dresumes a = true -> drr_act cfg d a = Some (d', ev) ->
  dinv cfg d' /\ (dchd d' = DCNone \/ exists p, dchd d' = DCStart p) /\ dsame cfg d d'
  /\ dspecs cfg (dheld cfg d') (dabs d) ev (dabs d')
  /\ match a with
     | DChildEnd => exists c p e, dchd d = DCDone p /\ dcls cfg p = c /\ ev = DODebit c p (ddebit_reset d c) :: e
                                  /\ forallb dinternal e = true
     | _ => dchd d = DCNone /\ forallb dinternal ev = true
     end.
Proof.
  intros Hwf I Ha A.
  (* every case ends in [dcontinue] from a state d1 with the same packets held as d *)
  assert (Hend : forall d1 s0 rest r e, dsame cfg d d1 -> dsuffix cfg rest -> dpost cfg (dheld cfg d1) d1 s0 rest r ->
            dcontinue cfg rest r = Some (d', e) ->
            dinv cfg d' /\ (dchd d' = DCNone \/ exists p, dchd d' = DCStart p) /\ dsame cfg d d'
            /\ dspecs cfg (dheld cfg d') s0 e (dabs d') /\ forallb dinternal e = true).
  { intros d1 s0 rest r e S1 Hsuf Pr C.
    destruct (dcontinue_post cfg (dheld cfg d1) rest r d1 s0 d' e Hwf Hsuf (fun k => eq_refl) Pr C) as (I' & Ch' & [S' Int Ev]).
    split; [exact I'|]. split; [exact Ch'|]. split; [eapply dsame_trans; eauto|]. split; [|exact Int].
    apply (dspecs_ext cfg (dheld cfg d1)); [|exact Ev]. intros k. symmetry. apply (s_held S'). }
  pose proof (i_ctl I) as C. unfold dctl_ok in C. unfold drr_act in A.
  destruct a as [p| |w|[c|]| | | |t]; try discriminate Ha.
  - (* Initialize of run() *)
    destruct (dctrl d) eqn:K; try discriminate. destruct C as (C1 & C2 & C3).
    assert (M : dmid cfg d None) by (apply dinv_mid; auto; unfold dvisiting; rewrite K; reflexivity).
    rewrite <- dcontinue_nil in A.
    destruct (Hend d (dmk (ddef d) [] None None) [] (DFall d []) ev (dsame_refl cfg d) (dsuffix_nil cfg) (conj M (dtrans_refl _ _ _ _)) A) as (R1 & R2 & R3 & R4 & R5).
    assert (E : dabs d = dmk (ddef d) [] None None) by (unfold dabs, dtodo, dvisiting, dtxp; rewrite K, C1; reflexivity).
    rewrite E. exact (conj R1 (conj R2 (conj R3 (conj R4 (conj C1 R5))))).
  - (* the granted get on the store of class c *)
    destruct (dctrl d) as [| |c0 rest|] eqn:K; try discriminate.
    destruct (Z.eqb_spec c c0) as [<-|]; [|discriminate].
    destruct (sq_take (dst d c)) as [[[t0 p] q]|] eqn:Tk; [|discriminate].
    destruct (dget_mid cfg d c rest t0 p q I K Tk) as (M & S2 & Hpos & Hsuf & Ch).
    pose proof (dtry_head_post cfg _ (dset_st d c q) c rest p Hwf M Hsuf (fun k => eq_refl) Hpos) as Pr.
    destruct (Hend _ _ rest _ _ S2 (dsuffix_tail _ _ _ Hsuf) Pr A) as (R1 & R2 & R3 & R4 & R5).
    assert (E : dabs d = dmk (ddef d) rest (Some c) None) by (unfold dabs, dtodo, dvisiting, dtxp; rewrite K, Ch; reflexivity).
    rewrite E. exact (conj R1 (conj R2 (conj R3 (conj R4 (conj Ch R5))))).
  - (* the granted get on the token store *)
    destruct (dctrl d) eqn:K; try discriminate. destruct (sq_take (dtok d)) as [[x q]|] eqn:Tk; [|discriminate].
    destruct (dtok_mid cfg d x q I K Tk) as (M & S1 & Ch).
    rewrite <- dcontinue_nil in A.
    destruct (Hend _ (dmk (ddef (dset_tok d q)) [] None None) [] (DFall (dset_tok d q) []) ev S1 (dsuffix_nil cfg) (conj M (dtrans_refl _ _ _ _)) A) as (R1 & R2 & R3 & R4 & R5).
    assert (E : dabs d = dmk (ddef (dset_tok d q)) [] None None) by (unfold dabs, dtodo, dvisiting, dtxp; rewrite K, Ch; reflexivity).
    rewrite E. exact (conj R1 (conj R2 (conj R3 (conj R4 (conj Ch R5))))).
  - (* the child has ended *)
    destruct (dchd d) as [| | |p] eqn:Ch; try discriminate. destruct (dctrl d) as [| | |c rest] eqn:K; try discriminate.
    destruct (dchildend_mid cfg d c rest p Hwf I Ch K) as (M & S1 & Hsuf & Hc & Hreset).
    destruct (dcontinue cfg rest (dinner c rest (ddebit d c rest p))) as [[d2 e2]|] eqn:Dc; [|discriminate]. injection A as <- <-.
    pose proof (dinner_post cfg _ (ddebit d c rest p) c rest Hwf M Hsuf (fun k => eq_refl)) as Pr.
    destruct (Hend _ _ rest _ _ S1 (dsuffix_tail _ _ _ Hsuf) Pr Dc) as (R1 & R2 & R3 & R4 & R5).
    split; [exact R1|]. split; [exact R2|]. split; [exact R3|]. split; [|exists c, p, e2; repeat split; assumption].
    assert (E : dabs d = dmk (ddef d) rest (Some c) (Some p)) by (unfold dabs, dtodo, dvisiting, dtxp; rewrite K, Ch; reflexivity).
    rewrite E. refine (sps_cons _ _ _ _ _ _ _ _ R4).
    apply (sp_debit cfg (dheld cfg d2) (ddef d) (ddef (ddebit d c rest p)) c rest p).
    + rewrite (s_held R3). exact Hreset.
    + intros k. unfold ddebit. cbn [ddef]. unfold dupd. destruct (Z.eqb k c); [|reflexivity].
      destruct (ddebit_reset d c); [reflexivity|apply Qred_correct].
Qed.
