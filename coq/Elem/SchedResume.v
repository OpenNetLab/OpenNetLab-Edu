(* run() between two yields (Elem/SchedBase.v: [resume]) read as a decision taken on the state as it is -- the visits
   made and what run() does next ([decide]) -- followed by its effect on the state ([settle]).  The proofs about the
   automaton (SchedBaseProofs.v) and the comparisons with the generated run() bodies (the *ScanBridge.v files) both go
   through this reading: by [resume_decide] / [resume_state], then by the facts about [scan], [decide] and [settle] below. *)
From Coq Require Import ZArith QArith List Bool.
From ONL Require Import Elem.Packet Elem.StoreQ Elem.SchedBase.
Import ListNotations.

Inductive outcome := OCommit (f : Z) (rem : list (Z * nat)) | OTok | OSpin.

Definition settle (s : mq) (o : outcome) : option mq :=
  match o with
  | OCommit f rem => commit s f rem
  | OTok => match sq_get fifo_pop (mtok s) with Some q => Some (with_pc (with_tok s q) PTok) | None => None end
  | OSpin => Some (with_pc s PSpin)
  end.

Definition decide (c : mq_cfg) (s : mq) (rem : list (Z * nat)) : list sout * outcome :=
  match scan (nonempty c s) rem with
  | (vs, Some (f, rem')) => (vs, OCommit f (after c rem'))
  | (vs, None) =>
      if Z.eqb (mtotal s) 0 then (vs, OTok)
      else match scan (nonempty c s) (pass c) with
           | (vs', Some (f, rem')) => (vs ++ vs', OCommit f (after c rem'))
           | (vs', None) => (vs ++ vs', OSpin)
           end
  end.

Lemma resume_decide c s rem :
  resume c s rem = let (vs, o) := decide c s rem in option_map (fun s' => (s', vs)) (settle s o).
Proof.
  unfold resume, end_pass, decide, settle.
  destruct (scan (nonempty c s) rem) as [vs0 [[f r]|]].
  - destruct (commit s f (after c r)); reflexivity.
  - destruct (mtotal s =? 0)%Z.
    + destruct (sq_get fifo_pop (mtok s)); [rewrite app_nil_r|]; reflexivity.
    + destruct (scan (nonempty c s) (pass c)) as [vs1 [[f r]|]]; [destruct (commit s f (after c r))|]; reflexivity.
Qed.

Lemma resume_state c s rem : option_map fst (resume c s rem) = settle s (snd (decide c s rem)).
Proof. rewrite resume_decide. destruct (decide c s rem) as [vs o]. cbn [snd]. destruct (settle s o); reflexivity. Qed.

Lemma decide_outcome_eq c s rem :
  snd (decide c s rem) =
  match snd (scan (nonempty c s) rem) with
  | Some (f, r) => OCommit f (after c r)
  | None => if Z.eqb (mtotal s) 0 then OTok
            else match snd (scan (nonempty c s) (pass c)) with Some (f, r) => OCommit f (after c r) | None => OSpin end
  end.
Proof.
  unfold decide. destruct (scan (nonempty c s) rem) as [vs [[f r]|]]; [reflexivity|]. cbn [snd].
  destruct (mtotal s =? 0)%Z; [reflexivity|]. destruct (scan (nonempty c s) (pass c)) as [vs' [[f r]|]]; reflexivity.
Qed.

(* the head slot of the cursor: used up, it is passed over; otherwise its class is served if it holds a packet *)
Lemma resume_skip0 c s f t : resume c s ((f, 0%nat) :: t) = resume c s t.
Proof. reflexivity. Qed.

Lemma resume_head c s f n t :
  option_map fst (resume c s ((f, S n) :: t)) =
  if nonempty c s f then commit s f (after c ((f, n) :: t)) else option_map fst (resume c s t).
Proof.
  unfold resume. cbn [scan]. destruct (nonempty c s f); [destruct (commit s f (after c ((f, n) :: t))); reflexivity|].
  destruct (scan (nonempty c s) t) as [vs [[k r]|]]; [destruct (commit s k (after c r))|destruct (end_pass c s) as [[s' vs']|]];
    reflexivity.
Qed.

Lemma scan_some test rem vs f rem' :
  scan test rem = (vs, Some (f, rem')) ->
  test f = true /\ exists l1 n l2, rem = l1 ++ (f, S n) :: l2 /\ rem' = (f, n) :: l2 /\
     (forall g m, In (g, m) l1 -> m = 0%nat \/ test g = false).
Proof.
  revert vs. induction rem as [|[g m] t IH]; intros vs H; cbn in H; [discriminate|].
  destruct m as [|m].
  - destruct (IH _ H) as (T & l1 & n & l2 & E & E' & F). split; [exact T|].
    exists ((g, 0%nat) :: l1), n, l2. split; [rewrite E; reflexivity|split; [exact E'|]].
    intros g' m' [Eq|Hin]; [injection Eq as <- <-; left; reflexivity|eauto].
  - destruct (test g) eqn:T.
    + injection H as <- <- <-. split; [exact T|]. exists [], m, t. split; [reflexivity|split; [reflexivity|]]. intros ? ? [].
    + destruct (scan test t) as [vs' r] eqn:Sc. injection H as <- ->.
      destruct (IH _ eq_refl) as (T' & l1 & n & l2 & E & E' & F). split; [exact T'|].
      exists ((g, S m) :: l1), n, l2. split; [rewrite E; reflexivity|split; [exact E'|]].
      intros g' m' [Eq|Hin]; [injection Eq as <- <-; right; exact T|eauto].
Qed.

Lemma scan_none test rem vs :
  scan test rem = (vs, None) -> forall g m, In (g, m) rem -> m = 0%nat \/ test g = false.
Proof.
  revert vs. induction rem as [|[g m] t IH]; intros vs H g' m' Hin; [destruct Hin|]. cbn in H.
  destruct m as [|m].
  - destruct Hin as [Eq|Hin]; [injection Eq as <- <-; left; reflexivity|eauto].
  - destruct (test g) eqn:T; [discriminate|].
    destruct (scan test t) as [vs' r] eqn:Sc. injection H as <- ->.
    destruct Hin as [Eq|Hin]; [injection Eq as <- <-; right; exact T|eauto].
Qed.

Lemma scan_visits test rem vs r :
  scan test rem = (vs, r) ->
  exists sk, vs = map (fun g => OVisit g false) sk ++ match r with Some (f, _) => [OVisit f true] | None => [] end
             /\ forall g, In g sk -> test g = false.
Proof.
  revert vs. induction rem as [|[g m] t IH]; intros vs H; cbn in H.
  - injection H as <- <-. exists []. split; [reflexivity|intros g []].
  - destruct m as [|m]; [eauto|]. destruct (test g) eqn:T.
    + injection H as <- <-. exists []. split; [reflexivity|intros g' []].
    + destruct (scan test t) as [vs' r'] eqn:Sc. injection H as <- <-.
      destruct (IH _ eq_refl) as (sk & -> & F). exists (g :: sk). split; [reflexivity|].
      intros g' [<-|Hin]; auto.
Qed.


Definition pc_of (o : outcome) : pc_st :=
  match o with OCommit f rem => PGet f rem | OTok => PTok | OSpin => PSpin end.

Lemma resume_decided c s rem s' vs :
  resume c s rem = Some (s', vs) -> exists o, decide c s rem = (vs, o) /\ settle s o = Some s'.
Proof.
  rewrite resume_decide. destruct (decide c s rem) as [vs0 o]. destruct (settle s o) as [s1|] eqn:E; [|discriminate].
  intros H; injection H as <- <-. eauto.
Qed.

Lemma settle_frame s o s' :
  settle s o = Some s' ->
  mpc s' = pc_of o /\ mnow s' = mnow s /\ mchild s' = mchild s /\ mrecv s' = mrecv s.
Proof.
  destruct o as [f rem| |]; cbn; unfold commit.
  - destruct (sq_get fifo_pop (mstores s f)); [|discriminate]. intros H; injection H as <-. repeat split.
  - destruct (sq_get fifo_pop (mtok s)); [|discriminate]. intros H; injection H as <-. repeat split.
  - intros H; injection H as <-. repeat split.
Qed.

Lemma resume_frame c s rem s' vs :
  resume c s rem = Some (s', vs) -> mnow s' = mnow s /\ mchild s' = mchild s /\ mrecv s' = mrecv s.
Proof. intros H. apply resume_decided in H as (o & _ & H). apply (settle_frame s o s' H). Qed.

Lemma decide_outcome c s rem vs o :
  decide c s rem = (vs, o) ->
  match o with
  | OCommit f _ => nonempty c s f = true
  | OTok => mtotal s = 0%Z
  | OSpin => mtotal s <> 0%Z /\ forall g m, In (g, m) (pass c) -> m = 0%nat \/ nonempty c s g = false
  end.
Proof.
  unfold decide. destruct (scan (nonempty c s) rem) as [vs0 [[f r]|]] eqn:S1.
  - intros H; injection H as <- <-. apply (scan_some _ _ _ _ _ S1).
  - destruct (Z.eqb_spec (mtotal s) 0) as [T|T]; [intros H; injection H as <- <-; exact T|].
    destruct (scan (nonempty c s) (pass c)) as [vs1 [[f r]|]] eqn:S2; intros H; injection H as <- <-.
    + apply (scan_some _ _ _ _ _ S2).
    + split; [exact T|]. apply (scan_none _ _ _ S2).
Qed.

Definition hit (o : outcome) : list sout := match o with OCommit f _ => [OVisit f true] | _ => [] end.

Lemma decide_visits c s rem vs o :
  decide c s rem = (vs, o) ->
  exists sk, vs = map (fun g => OVisit g false) sk ++ hit o /\ forall g, In g sk -> nonempty c s g = false.
Proof.
  unfold decide. destruct (scan (nonempty c s) rem) as [vs0 [[f r]|]] eqn:S1.
  - intros H; injection H as <- <-. apply (scan_visits _ _ _ _ S1).
  - destruct (scan_visits _ _ _ _ S1) as (sk1 & -> & F1). rewrite app_nil_r.
    destruct (mtotal s =? 0)%Z; [intros H; injection H as <- <-; exists sk1; rewrite app_nil_r; auto|].
    destruct (scan (nonempty c s) (pass c)) as [vs1 r1] eqn:S2. destruct (scan_visits _ _ _ _ S2) as (sk2 & -> & F2).
    intros H. exists (sk1 ++ sk2). rewrite map_app, <- app_assoc.
    split; [destruct r1 as [[f r]|]; injection H as <- <-; reflexivity|].
    intros g Hg. apply in_app_or in Hg as [Hg|Hg]; auto.
Qed.

Lemma decide_visit c s rem vs o f b :
  decide c s rem = (vs, o) -> In (OVisit f b) vs ->
  if b then exists r, o = OCommit f r else nonempty c s f = false.
Proof.
  intros D Hin. destruct (decide_visits _ _ _ _ _ D) as (sk & -> & Sk). apply in_app_or in Hin as [Hin|Hin].
  - apply in_map_iff in Hin as (g & E & Hg). injection E as -> <-. auto.
  - destruct o as [g r| |]; [|destruct Hin|destruct Hin]. destruct Hin as [E|[]]. injection E as -> <-. eauto.
Qed.

Lemma decide_commit c s rem vs f r :
  decide c s rem = (vs, OCommit f r) ->
  exists vs0 rem0 r', scan (nonempty c s) rem0 = (vs0, Some (f, r')) /\ r = after c r' /\ (rem0 = rem \/ rem0 = pass c).
Proof.
  unfold decide. destruct (scan (nonempty c s) rem) as [vs0 [[g r0]|]] eqn:S1.
  - intros H; injection H as _ <- <-. eauto 7.
  - destruct (mtotal s =? 0)%Z; [discriminate|].
    destruct (scan (nonempty c s) (pass c)) as [vs1 [[g r1]|]] eqn:S2; [|discriminate]. intros H; injection H as _ <- <-. eauto 7.
Qed.
