(* Elements whose put() consumes a random draw, as interface elements: the Port of Elem/Port.v with ANY drop policy, in
   particular REDPort (Elem/Red.v).

   In a composition the put of a downstream element happens INSIDE an action of its upstream element, so the draw cannot be
   carried by the action that makes the put.  The adapter therefore keeps an ORACLE TAPE in its state: the internal step
   `OLoad u` appends the next value of random.uniform(0,1) to the tape; put(p) consumes the head of the tape exactly when the
   policy asks for a draw (it does not when the policy decides without one).  An execution of the adapter is an execution of
   port_run in which `OLoad u ... put p` reads `PPut p (Some u)`; conversely every execution of port_run is one of the adapter
   (load each draw right before the put that consumes it).  The theorems of PortProofs.v (any policy) transfer. *)
From Coq Require Import ZArith QArith List Bool Permutation Lia.
From ONL Require Import Elem.Packet Elem.StoreQ Elem.Port Elem.PortProofs Elem.Red Elem.Iface Elem.Compose Elem.ComposeHands Elem.AdaptCommon Elem.AdaptPort.
Import ListNotations.

Inductive olabel := OAct (a : paction) | OLoad (u : Q).

(* the model action a put stands for, and the tape it leaves *)
Definition o_put_act (c : pcfg) (s : port) (tape : list Q) (p : pkt) : paction * list Q :=
  match c_policy c s p None with
  | Some _ => (PPut p None, tape)
  | None => match tape with u :: rest => (PPut p (Some u), rest) | [] => (PPut p None, tape) end
  end.

Definition with_tape (tape : list Q) (r : option (port * list eout)) : option ((port * list Q) * list eout) :=
  match r with Some (s', o) => Some ((s', tape), o) | None => None end.

Definition oport_elem (c : pcfg) (t0 : Q) : elem := {|
  st := (port * list Q)%type;
  lab := olabel;
  init := (port0 t0, []);
  now := fun s => pnow (fst s);
  put := fun p s => let '(a, tape) := o_put_act c (fst s) (snd s) p in with_tape tape (plift (port_act c (fst s) a));
  step := fun l s =>
    match l with
    | OLoad u => Some ((fst s, snd s ++ [u]), [])
    | OAct a => if port_internal a then with_tape (snd s) (plift (port_act c (fst s) a)) else None
    end;
  advance := fun t s => match port_act c (fst s) (PAdvance t) with Some (s', _) => Some (s', snd s) | None => None end;
  urgent := fun s => purgent (fst s);
  deadline := fun s => match psvc (fst s) with Some (_, dl) => Some dl | None => None end;
  held := fun s => port_held (fst s);
  accepts := fun _ => true;
  width := 1
|}.

Definition red_elem (rate : Q) (rc : redcfg) (eid : ekey) (t0 : Q) : elem := oport_elem (red_cfg all_fixed rate rc eid) t0.

(* ---- adapter -> model: the model actions of an adapter execution (read along the execution: the tape is state) ---- *)
Fixpoint o_model (c : pcfg) (s : port) (tape : list Q) (acts : list (iact olabel)) : list paction :=
  match acts with
  | [] => []
  | IStep (OLoad u) :: r => o_model c s (tape ++ [u]) r
  | a :: r =>
      let '(ma, tape') := match a with
                          | IPut p => o_put_act c s tape p
                          | IStep (OAct l) => (l, tape)
                          | IStep (OLoad _) => (PInit, tape)
                          | IAdv t => (PAdvance t, tape)
                          end in
      ma :: match port_act c s ma with Some (s', _) => o_model c s' tape' r | None => [] end
  end.

Theorem oport_elem_run c t0 : forall acts s tape s' tape' tr,
  run (oport_elem c t0) (s, tape) acts = Some ((s', tape'), tr) ->
  exists tr0, port_run c s (o_model c s tape acts) = Some (s', tr0) /\
              Iface.puts tr = PortProofs.puts tr0 /\ fwds tr = forwarded tr0 /\ drops tr = dropped tr0.
Proof.
  induction acts as [|a acts IH]; intros s tape s' tape' tr H; cbn [run] in H.
  - injection H as <- _ <-. exists []. repeat split.
  - destruct (act (oport_elem c t0) (s, tape) a) as [[[s1 tape1] o]|] eqn:Ea; [|discriminate].
    destruct (run (oport_elem c t0) (s1, tape1) acts) as [[[s2 tape2] tr1]|] eqn:Er; [|discriminate].
    injection H as <- _ <-. destruct (IH _ _ _ _ _ Er) as (tr0 & R0 & P & F & D).
    assert (Hmodel : forall ma tp, with_tape tp (plift (port_act c s ma)) = Some ((s1, tape1), o) ->
              (forall p, a_puts a = [p] -> exists u, ma = PPut p u) -> (a_puts a = [] -> forall p u, ma <> PPut p u) ->
              o_model c s tape (a :: acts) = ma :: match port_act c s ma with Some (s', _) => o_model c s' tp acts | None => [] end ->
              exists tr0', port_run c s (o_model c s tape (a :: acts)) = Some (s2, tr0') /\
                Iface.puts ((pnow s1, a, o) :: tr1) = PortProofs.puts tr0' /\ fwds ((pnow s1, a, o) :: tr1) = forwarded tr0' /\
                drops ((pnow s1, a, o) :: tr1) = dropped tr0').
    { intros ma tp Hw Hp Hnp Hm. unfold with_tape, plift in Hw.
      destruct (port_act c s ma) as [[s1' o']|] eqn:E0; [|discriminate]. injection Hw as -> -> <-.
      exists ((pnow s1, ma, o') :: tr0). rewrite Hm. cbn [port_run]. rewrite E0, R0.
      rewrite puts_cons, fwds_cons, drops_cons, P, F, D, port_o_fwds, port_o_drops. repeat split.
      - unfold PortProofs.puts. cbn [flat_map ev_puts]. f_equal.
        destruct (a_puts a) as [|p [|q l]] eqn:Ap.
        + specialize (Hnp eq_refl). destruct ma; try reflexivity. exfalso. eapply Hnp. reflexivity.
        + destruct (Hp p eq_refl) as [u ->]. reflexivity.
        + destruct a; discriminate.
      - unfold forwarded, departures. cbn [flat_map ev_departures]. rewrite map_app, map_map. cbn [snd]. rewrite map_id. reflexivity. }
    destruct a as [p|[l|u]|t].
    + cbn [act oport_elem put fst snd] in Ea. destruct (o_put_act c s tape p) as [ma tp] eqn:Eo.
      apply (Hmodel ma tp Ea).
      * intros q E. injection E as <-. unfold o_put_act in Eo. destruct (c_policy c s p None); [injection Eo as <- _; eauto|].
        destruct tape; injection Eo as <- _; eauto.
      * discriminate.
      * cbn [o_model]. rewrite Eo. reflexivity.
    + cbn [act oport_elem step fst snd] in Ea. destruct (port_internal l) eqn:El; [|discriminate].
      apply (Hmodel l tape Ea).
      * discriminate.
      * intros _ p u ->. discriminate.
      * reflexivity.
    + cbn [act oport_elem step fst snd] in Ea. injection Ea as <- <- <-.
      exists tr0. cbn [o_model]. rewrite R0, puts_cons, fwds_cons, drops_cons. cbn [a_puts o_fwds o_drops flat_map app]. auto.
    + cbn [act oport_elem advance fst snd] in Ea. destruct (port_act c s (PAdvance t)) as [[s1' o']|] eqn:E0; [|discriminate].
      injection Ea as <- <- <-. destruct (port_advance_inv _ _ _ _ _ E0) as [-> _].
      exists ((pnow s1', PAdvance t, []) :: tr0). cbn [o_model port_run]. rewrite E0, R0.
      rewrite puts_cons, fwds_cons, drops_cons, P, F, D. repeat split.
Qed.

(* ---- model -> adapter: load each draw right before the put that consumes it ------------------------------------- *)
Definition o_of (a : paction) : list (iact olabel) :=
  match a with
  | PPut p (Some u) => [IStep (OLoad u); IPut p]
  | PPut p None => [IPut p]
  | PAdvance t => [IAdv t]
  | _ => [IStep (OAct a)]
  end.
(* the policy asks for a determinate number of draws *)
Definition draw_det (c : pcfg) : Prop := forall s p u r, c_policy c s p (Some u) = Some r -> c_policy c s p None = None.

Lemma red_draw_det f rate rc eid : draw_det (red_cfg f rate rc eid).
Proof.
  intros s p u r. cbn [c_policy red_cfg]. unfold red_policy.
  destruct (Qle_bool (r_qlimit rc) (red_avg_next rc s)); [discriminate|].
  destruct (Qle_bool (r_max rc) (red_avg_next rc s) || Qle_bool (r_min rc) (red_avg_next rc s)); [reflexivity|discriminate].
Qed.
Lemma tail_draw_det f rate ql lb eid : draw_det (port_cfg f rate ql lb eid).
Proof. intros s p u r. cbn [c_policy port_cfg]. unfold tail_policy. discriminate. Qed.

Theorem port_run_oelem c t0 : draw_det c -> forall acts s s' tr0,
  port_run c s acts = Some (s', tr0) ->
  exists tr, run (oport_elem c t0) (s, []) (flat_map o_of acts) = Some ((s', []), tr) /\
             Iface.puts tr = PortProofs.puts tr0 /\ fwds tr = forwarded tr0 /\ drops tr = dropped tr0.
Proof.
  intros Dd. induction acts as [|a acts IH]; intros s s' tr0 H; cbn [port_run] in H.
  - injection H as <- <-. exists []. repeat split.
  - destruct (port_act c s a) as [[s1 o]|] eqn:Ea; [|discriminate].
    destruct (port_run c s1 acts) as [[s2 tr1]|] eqn:Er; [|discriminate]. injection H as <- <-.
    destruct (IH _ _ _ Er) as (tr & R & P & F & D). cbn [flat_map]. rewrite run_app.
    assert (Hone : forall ia, o_of a = [ia] -> act (oport_elem c t0) (s, []) ia = Some ((s1, []), flat_map pout_e o) ->
               a_puts ia = ev_puts (pnow s1, a, o) ->
               exists tr', match run (oport_elem c t0) (s, []) (o_of a) with
                           | Some (s1', t1) => match run (oport_elem c t0) s1' (flat_map o_of acts) with
                                               | Some (s2', t2) => Some (s2', t1 ++ t2) | None => None end
                           | None => None end = Some ((s2, []), tr') /\
                 Iface.puts tr' = PortProofs.puts ((pnow s1, a, o) :: tr1) /\ fwds tr' = forwarded ((pnow s1, a, o) :: tr1) /\
                 drops tr' = dropped ((pnow s1, a, o) :: tr1)).
    { intros ia Eo Eact Ep. rewrite Eo. cbn [run]. rewrite Eact, R. eexists. split; [reflexivity|].
      unfold Iface.puts, fwds, drops in *. cbn [app flat_map fst snd lab oport_elem] in *. rewrite P, F, D, port_o_fwds, port_o_drops, Ep. repeat split.
      unfold forwarded, departures. cbn [flat_map ev_departures]. rewrite map_app, map_map. cbn [snd]. rewrite map_id. reflexivity. }
    destruct (port_internal a) eqn:Ei.
    { apply (Hone (IStep (OAct a))); [destruct a; try reflexivity; discriminate Ei| |destruct a; try reflexivity; discriminate Ei].
      cbn [act oport_elem step fst snd]. rewrite Ei, Ea. reflexivity. }
    destruct a as [p [u|]| | | | |t|incl]; try discriminate Ei.
    + (* a put that consumes a draw *)
      cbn [o_of run act oport_elem step put fst snd app]. unfold o_put_act.
      assert (Epol : c_policy c s p None = None).
      { cbn [port_act] in Ea. unfold port_put in Ea. destruct (c_policy c s p (Some u)) as [r|] eqn:E; [|discriminate]. eapply Dd; eauto. }
      rewrite Epol. cbn [fst snd]. rewrite Ea. cbn [plift with_tape]. rewrite R. eexists. split; [reflexivity|].
      unfold Iface.puts, fwds, drops in *. cbn [app flat_map fst snd a_puts o_fwds o_drops lab oport_elem] in *. rewrite P, F, D.
      fold (o_fwds (flat_map pout_e o)) (o_drops (flat_map pout_e o)). rewrite port_o_fwds, port_o_drops.
      repeat split. unfold forwarded, departures. cbn [flat_map ev_departures]. rewrite map_app, map_map. cbn [snd]. rewrite map_id. reflexivity.
    + apply (Hone (IPut p)); [reflexivity| |reflexivity].
      cbn [act oport_elem put fst snd]. unfold o_put_act.
      assert (Epol : exists r, c_policy c s p None = Some r).
      { cbn [port_act] in Ea. unfold port_put in Ea. destruct (c_policy c s p None) as [r|]; [eauto|discriminate]. }
      destruct Epol as [r ->]. rewrite Ea. reflexivity.
    + apply (Hone (IAdv t)); [reflexivity| |reflexivity]. cbn [act oport_elem advance fst snd]. rewrite Ea.
      destruct (port_advance_inv _ _ _ _ _ Ea) as [-> _]. reflexivity.
Qed.

(* ---- the laws ------------------------------------------------------------------------------------------------ *)
Lemma oport_init_run c t0 acts s tr :
  run (oport_elem c t0) (init (oport_elem c t0)) acts = Some (s, tr) ->
  exists tr0, port_run c (port0 t0) (o_model c (port0 t0) [] acts) = Some (fst s, tr0) /\
              Iface.puts tr = PortProofs.puts tr0 /\ fwds tr = forwarded tr0 /\ drops tr = dropped tr0.
Proof. destruct s as [s tape]. apply oport_elem_run. Qed.

Theorem oport_elem_conserves c t0 : conserves (oport_elem c t0).
Proof.
  intros acts s tr H. destruct (oport_init_run _ _ _ _ _ H) as (tr0 & R0 & -> & -> & ->).
  exact (proj1 (port_conserves _ _ _ _ _ R0)).
Qed.
Theorem oport_elem_flow_fifo c t0 f : flow_fifo (oport_elem c t0) f.
Proof.
  intros acts s tr H. destruct (oport_init_run _ _ _ _ _ H) as (tr0 & R0 & -> & -> & _).
  apply psubseq_sublist. exact (proj1 (port_flow_fifo _ _ _ _ _ (on_flow f) R0)).
Qed.
Theorem oport_elem_drained c t0 : drained (oport_elem c t0).
Proof.
  intros acts s tr H _ U Dl. destruct (oport_init_run _ _ _ _ _ H) as (tr0 & R0 & _).
  cbn [urgent deadline oport_elem] in U, Dl.
  assert (Hh : psvc (fst s) = None) by (destruct (psvc (fst s)) as [[p dl]|]; [discriminate|reflexivity]).
  exact (port_drained _ _ _ _ _ R0 U Hh).
Qed.
Theorem oport_elem_laws c t0 : laws (oport_elem c t0).
Proof. split; [apply oport_elem_conserves|intros f; apply oport_elem_flow_fifo|apply oport_elem_drained]. Qed.

Lemma o_put_act_put c s tape p ma tp : o_put_act c s tape p = (ma, tp) -> exists u, ma = PPut p u.
Proof.
  unfold o_put_act. destruct (c_policy c s p None); [intros H; injection H as <- _; eauto|].
  destruct tape; intros H; injection H as <- _; eauto.
Qed.

Theorem oport_elem_timed c t0 : timed (oport_elem c t0).
Proof.
  assert (Hnow : forall s ma tp s' tape' o, with_tape tp (plift (port_act c s ma)) = Some ((s', tape'), o) ->
            (forall t, ma <> PAdvance t) -> pnow s' = pnow s).
  { intros s ma tp s' tape' o H Nt. unfold with_tape, plift in H. destruct (port_act c s ma) as [[w' o']|] eqn:E; [|discriminate].
    injection H as <- _ _. exact (pstep_now _ _ _ _ _ (port_act_step _ _ _ _ _ E) Nt). }
  split; [|split].
  - intros p [s tape] [s' tape'] o H. cbn [put oport_elem fst snd] in H. destruct (o_put_act c s tape p) as [ma tp] eqn:Eo.
    apply (Hnow _ _ _ _ _ _ H). destruct (o_put_act_put _ _ _ _ _ _ Eo) as [u ->]. discriminate.
  - intros [a|u] [s tape] [s' tape'] o H; cbn [step oport_elem fst snd] in H.
    + destruct (port_internal a) eqn:El; [|discriminate]. apply (Hnow _ _ _ _ _ _ H). intros t ->. discriminate.
    + injection H as <- _ _. reflexivity.
  - intros t [s tape] s' H. cbn [advance oport_elem fst snd] in H.
    destruct (port_act c s (PAdvance t)) as [[s1 o1]|] eqn:E; [|discriminate]. injection H as <-.
    exact (proj2 (port_advance_inv _ _ _ _ _ E)).
Qed.

Theorem oport_elem_tagged c t0 : tagged (oport_elem c t0).
Proof.
  assert (NH : forall tp r s o, with_tape tp (plift r) = Some (s, o) -> Forall no_hand o).
  { intros tp [[s1 o1]|] s o H; [|discriminate]. injection H as _ <-. apply (ok_no_hand _ (port_adapter_ok c t0)). }
  apply atomic_tagged; [constructor| |].
  - intros p s s' o H. cbn [put oport_elem] in H. destruct (o_put_act c (fst s) (snd s) p) as [ma tp]. exact (NH _ _ _ _ H).
  - intros [a|u] s s' o H; cbn [step oport_elem] in H.
    + destruct (port_internal a); [|discriminate]. exact (NH _ _ _ _ H).
    + injection H as _ <-. constructor.
Qed.
