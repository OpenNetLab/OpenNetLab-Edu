(* Proofs about Elem/WFQ.v (the WFQ stamping discipline):
   - [wfq_disc]: WFQ satisfies the interface of WFQServerProofs.disc (class counters = packets in the system,
     active set = classes with a positive counter, no KeyError / ZeroDivisionError, stamps never decrease
     within a class during a busy period),
   - what put / done do to the virtual time, for wfq_stamp and wfq_vtime (C14, WFQInst.v). *)
From Coq Require Import ZArith QArith Qminmax Qabs List Bool Lia Lqa Permutation.
From ONL Require Import Elem.Packet Elem.StoreQ Elem.StoreQProofs Elem.HeapList Elem.WFQServer Elem.WFQServerProofs Elem.WFQ.
Import ListNotations.

(* ---- small facts about the list sets and tables of WFQ.v ---- *)
Lemma zmem_In k l : zmem k l = true <-> In k l.
Proof.
  unfold zmem. rewrite existsb_exists. split.
  - intros (x & Hx & E). apply Z.eqb_eq in E. subst. exact Hx.
  - intros H. exists k. split; [exact H|apply Z.eqb_refl].
Qed.

Lemma zadd_In k l x : In x (zadd k l) <-> x = k \/ In x l.
Proof.
  unfold zadd. destruct (zmem k l) eqn:E.
  - apply zmem_In in E. split; [auto|]. intros [->|H]; auto.
  - rewrite in_app_iff. cbn. intuition.
Qed.

Lemma zadd_NoDup k l : NoDup l -> NoDup (zadd k l).
Proof.
  intros H. unfold zadd. destruct (zmem k l) eqn:E; [exact H|].
  assert (N : ~ In k l) by (intros C; apply zmem_In in C; congruence).
  clear E. induction l as [|a l IH]; cbn.
  - constructor; [intros []|constructor].
  - inversion H; subst. constructor.
    + rewrite in_app_iff. cbn. intros [C|[C|[]]]; [contradiction|]. subst. apply N. left. reflexivity.
    + apply IH; [assumption|]. intros C. apply N. right. exact C.
Qed.

Lemma zremove_In k l x : In x (zremove k l) <-> In x l /\ x <> k.
Proof.
  unfold zremove. rewrite filter_In, negb_true_iff, Z.eqb_neq. tauto.
Qed.

Lemma zremove_NoDup k l : NoDup l -> NoDup (zremove k l).
Proof. apply NoDup_filter. Qed.

Lemma Some_pair_inj (X Y : Type) (a c : X) (b d : Y) : Some (a, b) = Some (c, d) -> c = a /\ d = b.
Proof. intros H. inversion H. auto. Qed.
Lemma Some_inj (X : Type) (a c : X) : Some a = Some c -> c = a.
Proof. intros H. inversion H. auto. Qed.

Section WFQ.
  Variable cfg : wcfg.
  Hypothesis rate_pos : 0 < wrate cfg.
  Hypothesis weights_pos : forall c w, zlookup c (wweights cfg) = Some w -> (0 < w)%Z.

  Definition wcls (p : pkt) : Z := wf2c cfg (flow p).
  (* packets the upstream may put: configured class (C12: "configured flow"), non-negative size *)
  Definition wconf (p : pkt) : Prop := zlookup (wcls p) (wweights cfg) <> None /\ (0 <= psize p)%Z.
  Definition wconf_b (p : pkt) : bool := if zlookup (wcls p) (wweights cfg) then Z.leb 0 (psize p) else false.
  Lemma wconf_b_ok p : wconf_b p = true -> wconf p.
  Proof.
    unfold wconf_b, wconf. destruct (zlookup (wcls p) (wweights cfg)); [|discriminate].
    intros H. split; [discriminate|apply Z.leb_le; exact H].
  Qed.

  Definition ccnt (c : Z) (l : list pkt) : Z := Z.of_nat (length (filter (fun p => Z.eqb (wcls p) c) l)).

  Lemma ccnt_perm c l l' : Permutation l l' -> ccnt c l = ccnt c l'.
  Proof. intros P. unfold ccnt. f_equal. apply Permutation_length, filter_perm, P. Qed.

  Lemma ccnt_cons c p l : ccnt c (p :: l) = ((if Z.eqb (wcls p) c then 1 else 0) + ccnt c l)%Z.
  Proof. unfold ccnt. cbn [filter]. destruct (Z.eqb (wcls p) c); cbn [length]; lia. Qed.

  Lemma ccnt_nonneg c l : (0 <= ccnt c l)%Z.
  Proof. unfold ccnt. lia. Qed.

  Lemma ccnt_nil_all l : (forall c, ccnt c l = 0%Z) -> l = [].
  Proof.
    destruct l as [|p l]; [reflexivity|]. intros H. specialize (H (wcls p)). rewrite ccnt_cons, Z.eqb_refl in H.
    pose proof (ccnt_nonneg (wcls p) l). lia.
  Qed.

  Definition WJ (st : wst) (l : list pkt) : Prop :=
    (forall c, ccount st c = ccnt c l) /\
    NoDup (active st) /\
    (forall c, In c (active st) <-> (0 < ccount st c)%Z) /\
    (forall c, In c (active st) -> zlookup c (wweights cfg) <> None) /\
    (l = [] -> vtime st == 0 /\ forall c, fin st c == 0).

  Lemma WJ_active_nil st l : WJ st l -> (active st = [] <-> l = []).
  Proof.
    intros (C & _ & A & _ & _). split.
    - intros E. apply ccnt_nil_all. intros c. rewrite <- C.
      pose proof (ccnt_nonneg c l) as N. rewrite <- C in N.
      destruct (Z.eq_dec (ccount st c) 0) as [Z0|Z0]; [exact Z0|].
      exfalso. assert (In c (active st)) by (apply A; lia). rewrite E in H. destruct H.
    - intros ->. destruct (active st) as [|c t] eqn:E; [reflexivity|].
      exfalso. assert (H : In c (c :: t)) by (left; reflexivity).
      apply A in H. rewrite C in H. cbn in H. lia.
  Qed.

  Lemma WJ_busy st l a t : WJ st l -> active st = a :: t -> l <> [].
  Proof. intros HJ Ea El. apply (WJ_active_nil st l HJ) in El. congruence. Qed.

  Lemma weight_sum_ok act :
    (forall c, In c act -> zlookup c (wweights cfg) <> None) ->
    exists w, weight_sum (wweights cfg) act = Some w /\ (0 <= w)%Z /\ (act <> [] -> 0 < w)%Z.
  Proof.
    induction act as [|c t IH]; intros H; cbn [weight_sum].
    - exists 0%Z. split; [reflexivity|]. split; [lia|]. intros C. contradiction.
    - destruct (zlookup c (wweights cfg)) as [w|] eqn:E; [|exfalso; apply (H c); [left; reflexivity|exact E]].
      destruct IH as (r & Er & R0 & _); [intros x Hx; apply H; right; exact Hx|].
      rewrite Er. exists (w + r)%Z. split; [reflexivity|]. pose proof (weights_pos _ _ E). split; [lia|]. intros _. lia.
  Qed.

  Lemma update_vtime_ok nw st l : WJ st l -> l <> [] -> exists v, update_vtime cfg nw st = Some v.
  Proof.
    intros HJ Hl. pose proof HJ as (_ & _ & _ & L & _).
    destruct (weight_sum_ok (active st) L) as (w & Ew & _ & Wp). unfold update_vtime. rewrite Ew.
    assert (Hne : active st <> []) by (intros E; apply Hl, (WJ_active_nil st l HJ), E).
    specialize (Wp Hne). destruct (Z.eqb_spec w 0); [lia|]. eauto.
  Qed.

  Lemma wstamp_inc_nonneg p w : (0 <= psize p)%Z -> (0 < w)%Z -> 0 <= wstamp_inc cfg p w.
  Proof.
    intros Hs Hw. unfold wstamp_inc. apply Qle_shift_div_l.
    - apply Qmult_lt_0_compat; [exact rate_pos|]. unfold Qlt; cbn. lia.
    - rewrite Qmult_0_l. apply Qmult_le_0_compat; [|discriminate]. unfold Qle; cbn. lia.
  Qed.

  Lemma WJ_perm st l l' : Permutation l l' -> WJ st l -> WJ st l'.
  Proof.
    intros P (C & ND & A & L & R). split; [intros c; rewrite C; apply ccnt_perm; exact P|].
    split; [exact ND|]. split; [exact A|]. split; [exact L|].
    intros E. subst l'. apply Permutation_sym, Permutation_nil in P. apply R. exact P.
  Qed.

  Lemma WJ_init : WJ wst0 [].
  Proof.
    unfold WJ, wst0; cbn. split; [reflexivity|]. split; [constructor|]. split; [intros c; split; [intros []|lia]|].
    split; [intros c []|]. intros _. split; [reflexivity|intros c; reflexivity].
  Qed.

  Lemma WJ_put_ok nw st l p : WJ st l -> wconf p -> wfq_put cfg nw st p <> None.
  Proof.
    intros HJ (Hc & _). unfold wfq_put. fold (wcls p).
    destruct (zlookup (wcls p) (wweights cfg)) as [w|]; [|contradiction].
    destruct (active st) as [|a t] eqn:Ea; [discriminate|].
    destruct (update_vtime_ok nw st l HJ (WJ_busy _ _ _ _ HJ Ea)) as (v & Ev). rewrite Ev. discriminate.
  Qed.

  Lemma ccount_nonneg st l c : WJ st l -> (0 <= ccount st c)%Z.
  Proof. intros (C & _). rewrite C. apply ccnt_nonneg. Qed.

  Lemma WJ_put nw st l p st' F :
    WJ st l -> wconf p -> wfq_put cfg nw st p = Some (st', F) ->
    WJ st' (p :: l) /\ fin st' (wcls p) == F /\
    (l = [] \/ (fin st (wcls p) <= F /\ forall c, c <> wcls p -> fin st' c == fin st c)).
  Proof.
    intros HJ (Hc & Hsz) H. pose proof HJ as (C & ND & A & L & R). unfold wfq_put in H. fold (wcls p) in H.
    destruct (zlookup (wcls p) (wweights cfg)) as [w|] eqn:Ew; [|contradiction].
    pose proof (weights_pos _ _ Ew) as Wp.
    set (c := wcls p) in *.
    (* whatever V and the finish times become, the books are those of p :: l *)
    assert (Books : forall v f F0,
              WJ {| vtime := v; last_time := nw; active := zadd c (active st); fin := qupd f c F0;
                    ccount := fupd (ccount st) c (ccount st c + 1)%Z |} (p :: l)).
    { intros v f F0. unfold WJ; cbn [vtime last_time active fin ccount]. split; [|split; [|split; [|split]]].
      - intros x. unfold fupd. rewrite ccnt_cons. fold c. destruct (Z.eqb_spec x c) as [->|Nx].
        + rewrite Z.eqb_refl, C. lia.
        + destruct (Z.eqb_spec c x); [congruence|]. rewrite C. lia.
      - apply zadd_NoDup. exact ND.
      - intros x. rewrite zadd_In. unfold fupd. destruct (Z.eqb_spec x c) as [->|Nx].
        + pose proof (ccount_nonneg st l c HJ). split; [lia|auto].
        + rewrite A. split; [intros [E|E]; [congruence|exact E]|auto].
      - intros x Hx. apply zadd_In in Hx as [->|Hx]; [rewrite Ew; discriminate|]. apply L. exact Hx.
      - discriminate. }
    assert (Own : forall f F0, qupd f c F0 c == F0) by (intros f F0; unfold qupd; rewrite Z.eqb_refl; reflexivity).
    destruct (active st) as [|a t] eqn:Ea.
    - (* first packet of a busy period *)
      cbn [andb] in H. apply Some_pair_inj in H as [-> ->].
      split; [apply Books|]. split; [apply Own|]. left. apply (WJ_active_nil st l HJ). exact Ea.
    - (* busy *)
      destruct (update_vtime cfg nw st) as [v|] eqn:Ev; [|discriminate].
      cbn [andb] in H. apply Some_pair_inj in H as [-> ->].
      split; [apply Books|]. split; [apply Own|]. right. split.
      + rewrite Qred_correct. pose proof (Q.le_max_l (fin st c) v). pose proof (wstamp_inc_nonneg p w Hsz Wp). lra.
      + intros x Nx. cbn [fin]. unfold qupd. destruct (Z.eqb_spec x c); [contradiction|reflexivity].
  Qed.

  Lemma WJ_head_active st p l : WJ st (p :: l) -> In (wcls p) (active st) /\ ccount st (wcls p) = (1 + ccnt (wcls p) l)%Z.
  Proof.
    intros (C & _ & A & _ & _). assert (E : ccount st (wcls p) = (1 + ccnt (wcls p) l)%Z).
    { rewrite C, ccnt_cons, Z.eqb_refl. reflexivity. }
    split; [|exact E]. apply A. pose proof (ccnt_nonneg (wcls p) l). lia.
  Qed.

  Lemma WJ_done_ok nw st l p : WJ st (p :: l) -> wfq_done cfg nw st p <> None.
  Proof.
    intros HJ. destruct (WJ_head_active st p l HJ) as (Hin & Hc). unfold wfq_done. fold (wcls p).
    destruct (update_vtime_ok nw st (p :: l) HJ) as (v & Ev); [discriminate|]. rewrite Ev.
    destruct (Z.eqb (ccount st (wcls p) - 1) 0).
    - apply zmem_In in Hin. rewrite Hin. destruct (zremove (wcls p) (active st)); discriminate.
    - destruct (active st); discriminate.
  Qed.

  Lemma WJ_done nw st l p st' :
    WJ st (p :: l) -> wfq_done cfg nw st p = Some st' ->
    WJ st' l /\ (l = [] \/ forall c, fin st' c == fin st c).
  Proof.
    intros HJ H. pose proof HJ as (C & ND & A & L & R).
    destruct (WJ_head_active st p l HJ) as (Hin & Hc). unfold wfq_done in H. fold (wcls p) in H.
    set (c := wcls p) in *.
    destruct (update_vtime cfg nw st) as [v|] eqn:Ev; [|discriminate].
    set (n := (ccount st c - 1)%Z) in *.
    assert (Hn : n = ccnt c l) by (unfold n; lia).
    assert (Cnt : forall x, fupd (ccount st) c n x = ccnt x l).
    { intros x. unfold fupd. destruct (Z.eqb_spec x c) as [->|Nx]; [exact Hn|].
      rewrite C, ccnt_cons. fold c. destruct (Z.eqb_spec c x); [congruence|]. lia. }
    (* the new active set *)
    assert (Ha : exists a, (if Z.eqb n 0 then (if zmem c (active st) then Some (zremove c (active st)) else None) else Some (active st)) = Some a
                 /\ NoDup a /\ (forall x, In x a <-> (0 < ccnt x l)%Z) /\ (forall x, In x a -> In x (active st))).
    { destruct (Z.eqb_spec n 0) as [N0|N0].
      - apply zmem_In in Hin. rewrite Hin. eexists. split; [reflexivity|]. split; [apply zremove_NoDup; exact ND|].
        split; [|intros x Hx; apply zremove_In in Hx; tauto].
        intros x. rewrite zremove_In, A, <- Cnt. unfold fupd. destruct (Z.eqb_spec x c) as [->|Nx].
        + rewrite N0. split; [intros [_ F]; contradiction|lia].
        + tauto.
      - eexists. split; [reflexivity|]. split; [exact ND|]. split; [|auto].
        intros x. rewrite A, <- Cnt. unfold fupd. destruct (Z.eqb_spec x c) as [->|Nx]; [|tauto].
        pose proof (ccnt_nonneg c l). unfold n in *. lia. }
    destruct Ha as (a & Ea & NDa & Aa & Sub). rewrite Ea in H.
    destruct a as [|y t].
    - apply Some_inj in H as ->.
      assert (El : l = []).
      { apply ccnt_nil_all. intros x. pose proof (ccnt_nonneg x l). destruct (Z.eq_dec (ccnt x l) 0); [assumption|].
        exfalso. assert (In x []) by (apply Aa; lia). contradiction. }
      split; [|left; exact El].
      unfold WJ; cbn [vtime last_time active fin ccount]. split; [exact Cnt|]. split; [constructor|].
      split; [intros x; rewrite Cnt; apply Aa|]. split; [intros x []|].
      intros _. split; [reflexivity|intros x; reflexivity].
    - apply Some_inj in H as ->. split; [|right; intros x; reflexivity].
      unfold WJ; cbn [vtime last_time active fin ccount]. split; [exact Cnt|]. split; [exact NDa|].
      split; [intros x; rewrite Cnt; apply Aa|]. split; [intros x Hx; apply L, Sub, Hx|].
      intros El. exfalso. assert (H0 : (0 < ccnt y l)%Z) by (apply Aa; left; reflexivity). rewrite El in H0. cbn in H0. lia.
  Qed.

  (* WFQ satisfies the interface of the generic server proofs; the last stamp of a class is finish_times[c] *)
  Definition wfq_disc : disc (wfq_stamper cfg) (wst0 : ST (wfq_stamper cfg)) wconf wcls.
  Proof.
    refine {| dJ := (WJ : ST (wfq_stamper cfg) -> list pkt -> Prop);
              dbound := (fin : ST (wfq_stamper cfg) -> Z -> Q) |}.
    - intros p (_ & H). exact H.
    - intros p q E. unfold wcls. rewrite E. reflexivity.
    - exact WJ_perm.
    - exact WJ_init.
    - exact WJ_put_ok.
    - exact WJ_put.
    - exact WJ_done_ok.
    - exact WJ_done.
  Defined.

  (* ---- C14: stamps and virtual time ---------------------------------------------------------------- *)
  Notation S := (wfq_stamper cfg).
  Definition wreach : wfq cfg -> Prop := reach S (wrate cfg) (wst0 : ST S) wconf.

  Lemma wreach_inv s : wreach s -> Inv S wst0 wconf wcls wfq_disc s.
  Proof. apply Inv_reach. exact rate_pos. Qed.

  Lemma wreach_J s : wreach s -> WJ (stm s) (insys S s).
  Proof. intros R. destruct (wreach_inv s R) as (_ & HJ & _). exact HJ. Qed.

  Lemma update_vtime_spec nw (st : wst) v :
    update_vtime cfg nw st = Some v ->
    exists W, weight_sum (wweights cfg) (active st) = Some W /\ W <> 0%Z /\
              v == vtime st + (nw - last_time st) / inject_Z W.
  Proof.
    unfold update_vtime. destruct (weight_sum (wweights cfg) (active st)) as [W|]; [|discriminate].
    destruct (Z.eqb_spec W 0); [discriminate|]. intros H. apply Some_inj in H as ->.
    exists W. split; [reflexivity|]. split; [assumption|]. apply Qred_correct.
  Qed.

  Lemma Qmax_zero a : a == 0 -> Qmax a 0 == 0.
  Proof. intros H. apply Q.max_r. lra. Qed.

  (* V and all F are 0 whenever nothing is in the system (initially and after the scheduler emptied) *)
  Theorem wfq_reset_thm s : wreach s -> insys S s = [] -> vtime (stm s) == 0 /\ forall c, fin (stm s) c == 0.
  Proof. intros R E. destruct (wreach_J s R) as (_ & _ & _ & _ & Rz). apply Rz. exact E. Qed.

  (* the active set is the set of classes with a packet in the system *)
  Theorem wfq_active_thm s c : wreach s -> (In c (active (stm s)) <-> exists p, In p (insys S s) /\ wcls p = c).
  Proof.
    intros R. destruct (wreach_J s R) as (C & _ & A & _ & _). rewrite A, C. unfold ccnt. split.
    - intros H. destruct (filter (fun p => Z.eqb (wcls p) c) (insys S s)) as [|p t] eqn:E; [cbn in H; lia|].
      assert (Hp : In p (filter (fun p => Z.eqb (wcls p) c) (insys S s))) by (rewrite E; left; reflexivity).
      apply filter_In in Hp as (Hp & Hc). apply Z.eqb_eq in Hc. eauto.
    - intros (p & Hp & Hc).
      assert (Hf : In p (filter (fun p => Z.eqb (wcls p) c) (insys S s))) by (apply filter_In; split; [exact Hp|apply Z.eqb_eq; exact Hc]).
      destruct (filter (fun p => Z.eqb (wcls p) c) (insys S s)); [destruct Hf|cbn; lia].
  Qed.

  Lemma wfq_put_empty_others nw st p st' F c :
    active st = [] -> wfq_put cfg nw st p = Some (st', F) -> c <> wcls p -> fin st' c = 0.
  Proof.
    intros Ea H Nc. unfold wfq_put in H. fold (wcls p) in H. destruct (zlookup _ _); [|discriminate].
    rewrite Ea in H. cbn [andb] in H. apply Some_pair_inj in H as [-> _]. cbn [fin]. unfold qupd.
    destruct (Z.eqb_spec c (wcls p)); [contradiction|reflexivity].
  Qed.

  Lemma wfq_put_last nw st p st' F : wfq_put cfg nw st p = Some (st', F) -> last_time st' = nw.
  Proof.
    unfold wfq_put. destruct (zlookup _ _); [|discriminate].
    destruct (active st).
    - cbn. intros H. apply Some_pair_inj in H as [-> _]. reflexivity.
    - destruct (update_vtime cfg nw st); [|discriminate]. intros H. apply Some_pair_inj in H as [-> _]. reflexivity.
  Qed.

  Lemma wfq_done_last nw st p st' : wfq_done cfg nw st p = Some st' -> last_time st' = nw.
  Proof.
    unfold wfq_done. destruct (update_vtime cfg nw st); [|discriminate].
    destruct (if Z.eqb _ 0 then _ else _) as [a|]; [|discriminate].
    destruct a; intros H; apply Some_inj in H as ->; reflexivity.
  Qed.

  Lemma weight_sum_pos (st : wst) l : WJ st l -> l <> [] ->
    exists W, weight_sum (wweights cfg) (active st) = Some W /\ (0 < W)%Z.
  Proof.
    intros HJ Hl. pose proof HJ as (_ & _ & _ & L & _).
    destruct (weight_sum_ok (active st) L) as (W & E & _ & P). exists W. split; [exact E|]. apply P.
    intros Ea. apply Hl. apply (WJ_active_nil st l HJ). exact Ea.
  Qed.

  Lemma wfq_put_vtime nw st l p st' F :
    WJ st l -> wfq_put cfg nw st p = Some (st', F) ->
    (l = [] -> vtime st' == 0) /\
    (l <> [] -> exists W, weight_sum (wweights cfg) (active st) = Some W /\ (0 < W)%Z /\
                          vtime st' == vtime st + (nw - last_time st) / inject_Z W).
  Proof.
    intros HJ H. unfold wfq_put in H. destruct (zlookup _ _); [|discriminate].
    destruct (active st) as [|a t] eqn:Ea.
    - cbn [andb] in H. apply Some_pair_inj in H as [-> _]. split; [reflexivity|].
      intros Hl. exfalso. apply Hl. apply (WJ_active_nil st l HJ). exact Ea.
    - destruct (update_vtime cfg nw st) as [v|] eqn:Ev; [|discriminate].
      apply Some_pair_inj in H as [-> _]. cbn [vtime].
      pose proof (WJ_busy _ _ _ _ HJ Ea) as Hl.
      split; [intros E; contradiction|]. intros _.
      destruct (update_vtime_spec _ _ _ Ev) as (W & EW & _ & Ve).
      destruct (weight_sum_pos st l HJ Hl) as (W' & EW' & Wp).
      rewrite Ea in EW'. rewrite Ea in EW. rewrite EW in EW'. injection EW' as <-. exists W. auto.
  Qed.

  Lemma wfq_done_vtime nw st l p st' :
    WJ st (p :: l) -> wfq_done cfg nw st p = Some st' ->
    exists W, weight_sum (wweights cfg) (active st) = Some W /\ (0 < W)%Z /\
      (l <> [] -> vtime st' == vtime st + (nw - last_time st) / inject_Z W /\ forall c, fin st' c == fin st c) /\
      (l = [] -> vtime st' == 0 /\ forall c, fin st' c == 0).
  Proof.
    intros HJ H. destruct (WJ_done _ _ _ _ _ HJ H) as (HJ' & _).
    destruct (weight_sum_pos st (p :: l) HJ) as (W & EW & Wp); [discriminate|].
    exists W. split; [exact EW|]. split; [exact Wp|]. split.
    - intros Hl. unfold wfq_done in H. destruct (update_vtime cfg nw st) as [v|] eqn:Ev; [|discriminate].
      destruct (update_vtime_spec _ _ _ Ev) as (W' & EW' & _ & Ve). rewrite EW in EW'. injection EW' as <-.
      destruct (if Z.eqb _ 0 then _ else _) as [a|]; [|discriminate].
      destruct a as [|y t]; apply Some_inj in H as ->.
      + exfalso. apply Hl. apply (WJ_active_nil _ l HJ'). reflexivity.
      + cbn [vtime fin]. split; [exact Ve|intros c; reflexivity].
    - intros El. destruct HJ' as (_ & _ & _ & _ & Rz). apply Rz. exact El.
  Qed.

End WFQ.
