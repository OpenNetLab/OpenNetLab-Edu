(* Elem/RR.v (onl/scheduler/rr.py; identity class map) is an instance of the automaton of SchedBaseProofs.v: its configuration is well-formed for every rate > 0;
   the theorems there apply to ALL admissible executions (rr_run ... acts = Some (s, tr)) and all flow lists. *)
From Coq Require Import ZArith QArith List Bool Lia Lqa.
From ONL Require Import Elem.Packet Elem.StoreQ Elem.StoreQProofs Elem.SchedBase Elem.SchedBaseProofs Elem.RR.
Import ListNotations.

Lemma rr_wf r fl : 0 < r -> wf (rr_cfg r fl).
Proof. intros R. split; [exact R|]. intros _ f. reflexivity. Qed.

Lemma rr_cfg_ok r fl : 0 < r -> cfg_ok (rr_cfg r fl).
Proof.
  intros R. split; [apply rr_wf; exact R|]. intros f n Hin. cbn in Hin. apply in_map_iff in Hin as (g & E & _). injection E as _ <-. lia.
Qed.

Lemma rr_visit : forall (r : Q) (fl : list Z) acts s tr,
  0 < r ->
  rr_run r fl acts = Some (s, tr) ->
  exists k, walk (pass (rr_cfg r fl)) (pass (rr_cfg r fl)) (tr_visits tr) = Some k /\
            norm (pass (rr_cfg r fl)) k = norm (pass (rr_cfg r fl)) (cursor (rr_cfg r fl) s).
Proof. intros r fl acts s tr R H. exact (visits_run0 (rr_cfg r fl) acts s tr (rr_wf r fl R) eq_refl H). Qed.

(* non-vacuity: a concrete admissible execution (observed on the real RR: four packets put at t = 0 before the wake-up
   token is processed, 128 B at 1024 bit/s = 1 s each), its departure order, its visits, and the drained final state *)
Definition rr_ex_acts : list saction :=
  [SInit;
   SPut (mkp 0 1 0 128 0);
   SPut (mkp 1 2 0 128 0);
   SPut (mkp 2 3 1 128 0);
   SPut (mkp 3 4 0 128 0);
   SStoreCb None;
   SStoreCb (Some 0%Z);
   SStoreCb (Some 0%Z);
   SStoreCb (Some 1%Z);
   SStoreCb (Some 0%Z);
   SGetDone None;
   SGetDone (Some 0%Z);
   SChildInit;
   SAdvance (1 # 1);
   SChildTimer;
   SChildEnd;
   SGetDone (Some 1%Z);
   SChildInit;
   SAdvance (2 # 1);
   SChildTimer;
   SChildEnd;
   SGetDone (Some 0%Z);
   SChildInit;
   SAdvance (3 # 1);
   SChildTimer;
   SChildEnd;
   SGetDone (Some 0%Z);
   SChildInit;
   SAdvance (4 # 1);
   SChildTimer;
   SChildEnd].

Example rr_example :
  match rr_run (1024 # 1) [0; 1]%Z rr_ex_acts with
  | Some (s, tr) => map uid (tr_fwds tr) = [0; 2; 1; 3]%nat /\ tr_visits tr = [(0, false); (1, false); (0, true); (1, true); (0, true); (1, false); (0, true); (1, false)]%Z /\
                    map (fun e => fst (fst e)) (filter (fun e => negb (nilb (forwards (snd e)))) tr) = [1; 2; 3; 4] /\
                    urgent (rr_cfg (1024 # 1) [0; 1]%Z) s = false /\ mpc s = PTok
  | None => False
  end.
Proof. vm_compute. repeat split; reflexivity. Qed.
