(* Proofs about Elem/WFQServer.v, for every stamping discipline that satisfies the interface [disc]
   (instantiated by WFQProofs.v and VCProofs.v).

   Part 1  the key order (Python's tuple comparison on (stamp, now, arrivals)) is a strict weak order, strict
           and total on keys with different arrival counters; hence the list model of the PriorityStore pops
           exactly what CPython's heapq pops (HeapProofs.heap_sim_pop).
   Part 2  reachable states; the control invariant (no stranded consumer, who waits for what, deadline not
           passed); shape of every step.
   Part 3  the order invariant of the store (arrival counters increasing, per-class stamps non-decreasing and
           bounded by the discipline's last stamp, keys pairwise distinct), the discipline never raises,
           the selection takes the strictly least key, work conservation, a drained server holds nothing. *)
From Coq Require Import ZArith QArith Qminmax Qabs List Bool Lia Lqa Permutation.
From ONL Require Import Elem.Packet Elem.StoreQ Elem.StoreQProofs Elem.HeapList Elem.Heap Elem.HeapProofs Elem.WFQServer.
Import ListNotations.

(* ---- Part 1: the key order ---- *)

Lemma Qltb_true a b : Qltb a b = true <-> a < b.
Proof.
  unfold Qltb. rewrite negb_true_iff. split.
  - intros H. apply Qnot_le_lt. intros L. apply Qle_bool_iff in L. congruence.
  - intros H. destruct (Qle_bool b a) eqn:E; [|reflexivity]. apply Qle_bool_iff in E. apply Qlt_not_le in H. contradiction.
Qed.

Lemma Qltb_false a b : Qltb a b = false <-> b <= a.
Proof.
  unfold Qltb. rewrite negb_false_iff. apply Qle_bool_iff.
Qed.

Definition klt (a b : Q * Q * nat) : Prop :=
  match a, b with
  | (s1, t1, n1), (s2, t2, n2) => s1 < s2 \/ (s1 == s2 /\ (t1 < t2 \/ (t1 == t2 /\ (n1 < n2)%nat)))
  end.

Lemma key_ltb_true a b : key_ltb a b = true <-> klt a b.
Proof.
  destruct a as [[s1 t1] n1], b as [[s2 t2] n2]. unfold key_ltb, klt.
  destruct (Qeq_bool s1 s2) eqn:Es.
  - apply Qeq_bool_iff in Es. destruct (Qeq_bool t1 t2) eqn:Et.
    + apply Qeq_bool_iff in Et. rewrite Nat.ltb_lt. split.
      * intros H. right. split; [exact Es|]. right. split; [exact Et|exact H].
      * intros [H|[_ [H|[_ H]]]]; [lra|lra|exact H].
    + assert (Hn : ~ t1 == t2) by (intros H; apply Qeq_bool_iff in H; congruence).
      rewrite Qltb_true. split.
      * intros H. right. split; [exact Es|]. left. exact H.
      * intros [H|[_ [H|[H _]]]]; [lra|exact H|contradiction].
  - assert (Hn : ~ s1 == s2) by (intros H; apply Qeq_bool_iff in H; congruence).
    rewrite Qltb_true. split.
    + intros H. left. exact H.
    + intros [H|[H _]]; [exact H|contradiction].
Qed.

Lemma klt_irrefl a : ~ klt a a.
Proof.
  destruct a as [[s t] n]. unfold klt. intros [H|[_ [H|[_ H]]]]; [lra|lra|lia].
Qed.

Lemma klt_trans a b c : klt a b -> klt b c -> klt a c.
Proof.
  destruct a as [[s1 t1] n1], b as [[s2 t2] n2], c as [[s3 t3] n3]. unfold klt.
  intros [H|[H1 [H|[H2 H3]]]] [G|[G1 [G|[G2 G3]]]];
    first [ left; lra
          | right; split; [lra|]; first [ left; lra | right; split; [lra|lia] ] ].
Qed.

(* a key between two others is above the smaller or below the larger: with irreflexivity and transitivity this
   makes "neither is less" an equivalence, which is all heapq needs *)
Lemma klt_cotrans a b c : klt a c -> klt a b \/ klt b c.
Proof.
  destruct a as [[s1 t1] n1], b as [[s2 t2] n2], c as [[s3 t3] n3]. unfold klt. intros H.
  destruct (Q_dec s1 s2) as [[L|G]|E]; [left; left; exact L|right; left; destruct H as [H|[H _]]; lra|].
  destruct H as [H|[H1 H]]; [right; left; lra|].
  destruct (Q_dec t1 t2) as [[L|G]|E'];
    [left; right; split; [exact E|left; exact L]|right; right; split; [lra|left; destruct H as [H|[H _]]; lra]|].
  destruct H as [H|[H2 H3]]; [right; right; split; [lra|left; lra]|].
  destruct (lt_dec n1 n2) as [L|G]; [left; right; split; [exact E|right; split; [exact E'|exact L]]|].
  right. right. split; [lra|]. right. split; [lra|lia].
Qed.

Lemma klt_seq_total a b : snd a <> snd b -> klt a b \/ klt b a.
Proof.
  destruct a as [[s1 t1] n1], b as [[s2 t2] n2]. cbn [snd]. unfold klt. intros Hn.
  destruct (Q_dec s1 s2) as [[H|H]|H]; [left; left; exact H|right; left; exact H|].
  destruct (Q_dec t1 t2) as [[G|G]|G]; [left; right; split; [exact H|left; exact G]|right; right; split; [lra|left; exact G]|].
  destruct (lt_eq_lt_dec n1 n2) as [[L|L]|L]; [left|contradiction|right]; right; split; try lra; right; split; try lra; exact L.
Qed.

Lemma key_ltb_irrefl a : key_ltb a a = false.
Proof. destruct (key_ltb a a) eqn:E; [|reflexivity]. apply key_ltb_true in E. exfalso. eapply klt_irrefl; eauto. Qed.

Lemma key_ltb_trans a b c : key_ltb a b = true -> key_ltb b c = true -> key_ltb a c = true.
Proof. rewrite !key_ltb_true. apply klt_trans. Qed.

Lemma key_ltb_negtrans a b c : key_ltb a b = false -> key_ltb b c = false -> key_ltb a c = false.
Proof.
  intros H G. destruct (key_ltb a c) eqn:E; [|reflexivity].
  apply key_ltb_true, (klt_cotrans a b c) in E. destruct E as [E|E]; apply key_ltb_true in E; congruence.
Qed.

Lemma entry_ltb_irrefl (a : entry) : entry_ltb a a = false.
Proof. apply key_ltb_irrefl. Qed.
Lemma entry_ltb_trans (a b c : entry) : entry_ltb a b = true -> entry_ltb b c = true -> entry_ltb a c = true.
Proof. apply key_ltb_trans. Qed.
Lemma entry_ltb_negtrans (a b c : entry) : entry_ltb a b = false -> entry_ltb b c = false -> entry_ltb a c = false.
Proof. apply key_ltb_negtrans. Qed.

(* keys with different arrival counters are strictly comparable *)
Lemma entry_ltb_seq_total (a b : entry) : iseq (snd a) <> iseq (snd b) -> entry_ltb a b = true \/ entry_ltb b a = true.
Proof. intros Hn. unfold entry_ltb. rewrite !key_ltb_true. apply klt_seq_total. exact Hn. Qed.

(* what pop does *)
Definition least (x : entry) (l : list entry) : Prop := forall y, In y l -> entry_ltb y x = false.

Lemma pq_pop_total : pop_total pq_pop.
Proof. intros l H. apply (lpop_none _ _ _ H). Qed.

Lemma pq_pop_some l x l' :
  pq_pop l = Some (x, l') -> exists l1 l2, l = l1 ++ x :: l2 /\ l' = l1 ++ l2 /\ least x l.
Proof.
  intros H. destruct l as [|e t]; [discriminate|].
  destruct (lpop_spec entry entry_ltb entry_ltb_irrefl entry_ltb_trans entry_ltb_negtrans (e :: t)) as (m & l1 & l2 & P & E & L);
    [discriminate|].
  unfold pq_pop in H. rewrite P in H. injection H as <- <-. exists l1, l2. auto.
Qed.

Lemma pq_pop_nonempty l : l <> [] -> exists x l', pq_pop l = Some (x, l').
Proof.
  intros H. destruct (pq_pop l) as [[x l']|] eqn:E; [eauto|]. apply pq_pop_total in E. contradiction.
Qed.

(* the list model against CPython's heap: a heap holding the same entries (as a multiset) gives, on every
   push and pop, the same answer as the list, as long as the keys held are pairwise distinct *)
Theorem pq_refines_heapq_push h l x :
  heap_inv entry_ltb h -> Permutation h l ->
  exists h', heappush entry_ltb h x = Some h' /\ heap_inv entry_ltb h' /\ Permutation h' (pq_push x l).
Proof. apply (heap_sim_push entry entry_ltb entry_ltb_irrefl entry_ltb_trans entry_ltb_negtrans). Qed.

Theorem pq_refines_heapq_pop h l :
  heap_inv entry_ltb h -> Permutation h l -> distinct_keys entry_ltb l ->
  forall m l', pq_pop l = Some (m, l') ->
  exists h', heappop entry_ltb h = Some (m, h') /\ heap_inv entry_ltb h' /\ Permutation h' l' /\ distinct_keys entry_ltb l'.
Proof. apply (heap_sim_pop entry entry_ltb entry_ltb_irrefl entry_ltb_trans entry_ltb_negtrans). Qed.

Theorem pq_refines_heapq_pop_none h l : Permutation h l -> pq_pop l = None -> heappop entry_ltb h = None.
Proof. apply heap_sim_pop_none. Qed.

Lemma filter_perm {A} (f : A -> bool) l l' : Permutation l l' -> Permutation (filter f l) (filter f l').
Proof.
  induction 1 as [|x l l' P IH|x y l|l l' l'' P IH P' IH']; cbn.
  - constructor.
  - destruct (f x); [constructor|]; exact IH.
  - destruct (f x), (f y); try apply Permutation_refl. apply perm_swap.
  - eapply Permutation_trans; eauto.
Qed.

(* ---- Part 2: reachable states, control invariant ---- *)

(* injectivity without letting [injection] simplify the rational terms inside *)
Lemma Ok_inj (X Y : Type) (a c : X) (b d : Y) : Ok (a, b) = Ok (c, d) -> c = a /\ d = b.
Proof. intros H. inversion H. auto. Qed.
Lemma CTx_inj p d q e : CTx p d = CTx q e -> q = p /\ e = d.
Proof. intros H. inversion H. auto. Qed.

Ltac act_inv H :=
  unfold act in H;
  repeat match type of H with
  | context [match ?x with _ => _ end] => destruct x eqn:?; try discriminate H
  end;
  apply Ok_inj in H; destruct H as [-> ->].

Definition with_now {S} (s : srv S) (t : Q) : srv S :=
  {| now := t; started := started s; store := store s; stm := stm s; seq := seq s; qcount := qcount s;
     qbytes := qbytes s; nrecv := nrecv s; chl := chl s |}.

Lemma act_advance S rate (s : srv S) t s' o :
  act S rate s (FAdvance t) = Ok (s', o) ->
  urgent s = false /\ now s < t /\ (forall e dl, chl s = CTx e dl -> t <= dl) /\ s' = with_now s t /\ o = [].
Proof.
  unfold act. destruct (urgent s); [discriminate|]. destruct (Qlt_le_dec (now s) t) as [L|]; [|discriminate].
  intros H. split; [reflexivity|]. split; [exact L|].
  destruct (chl s) as [|e|e dl|e] eqn:Ec; [| |destruct (Qle_bool t dl) eqn:E; [|discriminate]|];
    apply Ok_inj in H as [-> ->]; unfold with_now; rewrite Ec; (split; [|split; reflexivity]); intros e' dl' E'; try discriminate E'.
  apply CTx_inj in E' as [-> ->]. apply Qle_bool_iff. exact E.
Qed.

Lemma act_raises S rate (s : srv S) a :
  act S rate s a = Raises ->
  (exists p, a = FPut p /\ st_put S (now s) (stm s) p = None) \/
  (exists e, a = FChildEnd /\ chl s = CEnded e /\ st_done S (now s) (stm s) (epkt e) = None).
Proof.
  destruct a; unfold act;
    repeat match goal with |- context [match ?x with _ => _ end] => destruct x eqn:? end; try discriminate; eauto 6.
Qed.

Lemma act_shape S rate (s : srv S) a s' o :
  act S rate s a = Ok (s', o) ->
  match a with
  | FPut p => exists st' F, st_put S (now s) (stm s) p = Some (st', F) /\ o = [] /\
      s' = {| now := now s; started := started s;
              store := sq_put pq_push (now s) {| istamp := Qred F; iseq := Datatypes.S (seq s); ipkt := p |} (store s);
              stm := st'; seq := Datatypes.S (seq s);
              qcount := fupd (qcount s) (flow p) (qcount s (flow p) + 1)%Z;
              qbytes := fupd (qbytes s) (flow p) (qbytes s (flow p) + psize p)%Z;
              nrecv := (nrecv s + 1)%Z; chl := chl s |}
  | FInit => started s = false /\ exists q, sq_get pq_pop (store s) = Some q /\ o = [] /\
      s' = {| now := now s; started := true; store := q; stm := stm s; seq := seq s; qcount := qcount s;
              qbytes := qbytes s; nrecv := nrecv s; chl := chl s |}
  | FStoreCb => exists q, sq_cb pq_pop (store s) = Some q /\ o = [] /\ s' = with_store S s q
  | FGetDone => exists e q, chl s = CNone /\ sq_take (store s) = Some (e, q) /\ started s = true /\ o = [] /\
      s' = with_child S (with_store S s q) (CInit e)
  | FChildInit => exists e, chl s = CInit e /\ o = [] /\
      s' = with_child S s (CTx e (Qred (now s + tx_time rate (epkt e))))
  | FChildTimer => exists e dl, chl s = CTx e dl /\ Qeq_bool dl (now s) = true /\ o = [OForward (epkt e)] /\
      s' = {| now := now s; started := started s; store := store s; stm := stm s; seq := seq s;
              qcount := fupd (qcount s) (flow (epkt e)) (qcount s (flow (epkt e)) - 1)%Z;
              qbytes := fupd (qbytes s) (flow (epkt e)) (qbytes s (flow (epkt e)) - psize (epkt e))%Z;
              nrecv := nrecv s; chl := CEnded e |}
  | FChildEnd => exists e st' q, chl s = CEnded e /\ st_done S (now s) (stm s) (epkt e) = Some st' /\
      sq_get pq_pop (store s) = Some q /\ o = [] /\
      s' = {| now := now s; started := started s; store := q; stm := st'; seq := seq s; qcount := qcount s;
              qbytes := qbytes s; nrecv := nrecv s; chl := CNone |}
  | FAdvance t => urgent s = false /\ now s < t /\ (forall e dl, chl s = CTx e dl -> t <= dl) /\ o = [] /\ s' = with_now s t
  end.
Proof.
  intros H. destruct a; [..|apply act_advance in H; tauto]; act_inv H; eauto 10.
Qed.

(* one goal per action, the hypotheses of the step under fixed names: G the store's micro-step (get, cb or take),
   Ec the child before, P / Dn the discipline's put / done *)
Ltac step_inv H :=
  lazymatch type of H with
  | act _ _ _ (FPut _) = _ => apply act_shape in H as (?st' & ?F & ?P & -> & ->)
  | act _ _ _ FInit = _ => apply act_shape in H as (?St & ?q & ?G & -> & ->)
  | act _ _ _ FStoreCb = _ => apply act_shape in H as (?q & ?G & -> & ->)
  | act _ _ _ FGetDone = _ => apply act_shape in H as (?e & ?q & ?Ec & ?G & ?St & -> & ->)
  | act _ _ _ FChildInit = _ => apply act_shape in H as (?e & ?Ec & -> & ->)
  | act _ _ _ FChildTimer = _ => apply act_shape in H as (?e & ?dl & ?Ec & ?Et & -> & ->)
  | act _ _ _ FChildEnd = _ => apply act_shape in H as (?e & ?st' & ?q & ?Ec & ?Dn & ?G & -> & ->)
  | act _ _ _ (FAdvance _) = _ => apply act_shape in H as (?U & ?Lt & ?Dl & -> & ->)
  end.

Definition child_pkts (c : child) : list pkt := match c with CInit e | CTx e _ => [epkt e] | _ => [] end.
Definition child_all (c : child) : list pkt := match c with CNone => [] | CInit e | CTx e _ | CEnded e => [epkt e] end.

Section Gen.
  Variable S : stamper.
  Variable rate : Q.
  Variable st0 : ST S.
  Variable conf : pkt -> Prop.          (* packets the upstream may put: configured class, size >= 0 *)
  Notation srvS := (srv S).
  Notation actS := (act S rate).

  (* states reachable by admissible executions: every action is enabled and does not raise; the upstream
     element puts only configured packets *)
  Inductive reach : srvS -> Prop :=
  | reach0 : reach (srv0 0 st0)
  | reachS s a s' o : reach s -> (forall p, a = FPut p -> conf p) -> actS s a = Ok (s', o) -> reach s'.

  (* packets held: in the store, travelling in a granted get, handed to the child, in transmission *)
  Definition held (s : srvS) : list pkt := child_pkts (chl s) ++ map epkt (sq_held (store s)).
  (* packets put and not yet noticed as done by run() (the discipline's view of the system) *)
  Definition insys (s : srvS) : list pkt := child_all (chl s) ++ map epkt (sq_held (store s)).

  Definition InvA (s : srvS) : Prop :=
    sq_nostrand (store s) /\
    (started s = false -> get (store s) = GNone /\ chl s = CNone) /\
    (started s = true -> (chl s = CNone -> get (store s) <> GNone) /\ (chl s <> CNone -> get (store s) = GNone)) /\
    (forall p dl, chl s = CTx p dl -> now s <= dl).

  Lemma InvA_init : InvA (srv0 0 st0).
  Proof.
    unfold InvA, srv0; cbn. split; [apply sq_nostrand_init|]. split; [auto|]. split; [discriminate|]. discriminate.
  Qed.

  Hypothesis rate_pos : 0 < rate.

  Lemma tx_time_nonneg p : (0 <= psize p)%Z -> 0 <= tx_time rate p.
  Proof.
    intros H. unfold tx_time. apply Qle_shift_div_l; [exact rate_pos|].
    rewrite Qmult_0_l. apply Qmult_le_0_compat; [discriminate|].
    unfold Qle; cbn. lia.
  Qed.

  (* the first hypothesis (a non-negative size, supplied by InvB through d_conf_size) is what keeps now <= deadline
     when a transmission starts *)
  Lemma InvA_step s a s' o :
    (forall e, a = FChildInit -> chl s = CInit e -> (0 <= psize (epkt e))%Z) ->
    InvA s -> actS s a = Ok (s', o) -> InvA s'.
  Proof.
    intros Hsz (N & I0 & I1 & D) H. destruct a; step_inv H; unfold InvA; cbn [now started store stm seq qcount qbytes nrecv chl with_store with_child with_now].
    - (* FPut *)
      split; [apply sq_nostrand_put|]. split; [exact I0|]. split; [exact I1|exact D].
    - (* FInit *)
      split; [eapply sq_nostrand_get; [apply pq_pop_total|exact G]|].
      split; [discriminate|]. split; [|exact D].
      intros _. destruct (I0 St) as (_ & C). split.
      + intros _. apply (sq_get_not_none _ _ _ _ G).
      + intros C'. contradiction.
    - (* FStoreCb *)
      split; [eapply sq_nostrand_cb; [apply pq_pop_total|exact G]|].
      pose proof (sq_cb_get_none _ _ _ _ G) as GN.
      split; [|split; [|exact D]].
      + intros St. destruct (I0 St) as (G0 & C). split; [apply GN; exact G0|exact C].
      + intros St. destruct (I1 St) as (A & B). split.
        * intros C G'. apply GN in G'. apply (A C G').
        * intros C. apply GN. apply (B C).
    - (* FGetDone *)
      split; [eapply sq_nostrand_take; exact G|].
      apply sq_take_inv in G as (_ & _ & _ & G').
      split; [intros St'; congruence|]. split; [|discriminate].
      intros _. split; [discriminate|]. intros _. exact G'.
    - (* FChildInit *)
      split; [exact N|]. split; [intros St; destruct (I0 St) as (_ & C); congruence|].
      split.
      + intros St. destruct (I1 St) as (_ & B). split; [discriminate|]. intros _. apply B. congruence.
      + intros q dl E. apply CTx_inj in E as [-> ->]. rewrite Qred_correct.
        match goal with |- _ <= _ + tx_time rate ?pp => assert (0 <= tx_time rate pp) by (apply tx_time_nonneg; eapply Hsz; eauto) end. lra.
    - (* FChildTimer *)
      split; [exact N|]. split; [intros St; destruct (I0 St) as (_ & C); congruence|].
      split; [|discriminate].
      intros St. destruct (I1 St) as (_ & B). split; [discriminate|]. intros _. apply B. congruence.
    - (* FChildEnd *)
      split; [eapply sq_nostrand_get; [apply pq_pop_total|exact G]|].
      split; [intros St; destruct (I0 St) as (_ & C); congruence|].
      split; [|discriminate].
      intros _. split; [|intros C; contradiction]. intros _. apply (sq_get_not_none _ _ _ _ G).
    - (* FAdvance *) split; [exact N|]. split; [exact I0|]. split; [exact I1|exact Dl].
  Qed.

  Lemma child_busy_get_none s : InvA s -> chl s <> CNone -> get (store s) = GNone.
  Proof.
    intros (_ & I0 & I1 & _) Hc. destruct (started s); [apply (I1 eq_refl), Hc|].
    destruct (I0 eq_refl) as (_ & C). contradiction.
  Qed.

  Lemma urgent_false (s : srvS) :
    urgent s = false -> started s = true /\ sq_urgent (store s) = false /\ child_urgent S s = false /\ timer_due S s = false.
  Proof.
    unfold urgent. intros U. apply orb_false_iff in U as (U & Ut). apply orb_false_iff in U as (U & Uc).
    apply orb_false_iff in U as (Us & Uq). apply negb_false_iff in Us. auto.
  Qed.

  Lemma quiet_idle s : InvA s -> urgent s = false -> chl s = CNone -> get (store s) = GWaiting /\ items (store s) = [].
  Proof.
    intros (N & _ & I1 & _) U C. apply urgent_false in U as (Us & Uq & _). destruct (I1 Us) as (A & _).
    assert (W : get (store s) = GWaiting).
    { apply sq_urgent_false in Uq as (_ & NG). destruct (get (store s)) as [| |y] eqn:G; [|reflexivity|].
      - exfalso. apply (A C). reflexivity.
      - exfalso. apply (NG y). reflexivity. }
    split; [exact W|]. apply sq_urgent_false in Uq as Uq'. exact (sq_waiting_quiet_empty _ _ Uq N W).
  Qed.
End Gen.

(* ---- the priority discipline inside StoreQ: what the micro-steps do to the store ---- *)

Lemma pq_held_put now (x : item) (s : sq item) : sq_held (sq_put pq_push now x s) = sq_held s ++ [(now, x)].
Proof. unfold sq_held, sq_put, pq_push, lpush; cbn. destruct (get s); reflexivity. Qed.

(* a selection: x leaves the items (l1 ++ x :: l2 -> l1 ++ l2) into the granted get, and x is least *)
Definition selects (s s' : sq item) (x : entry) : Prop :=
  exists l1 l2, items s = l1 ++ x :: l2 /\ items s' = l1 ++ l2 /\ get s' = GGranted x /\ least x (items s).

Lemma pq_cb_inv (s s' : sq item) :
  sq_cb pq_pop s = Some s' ->
  pend s = Datatypes.S (pend s') /\
  ((get s = GWaiting /\ exists x, selects s s' x)
   \/ ((get s <> GWaiting \/ items s = []) /\ items s' = items s /\ get s' = get s)).
Proof.
  unfold sq_cb. destruct (pend s) as [|n]; [discriminate|].
  destruct (get s) eqn:G.
  - intros H; injection H as <-. cbn. split; [reflexivity|]. right. split; [left; discriminate|auto].
  - destruct (pq_pop (items s)) as [[x rest]|] eqn:P; intros H; injection H as <-; cbn; (split; [reflexivity|]).
    + left. split; [reflexivity|]. exists x. apply pq_pop_some in P as (l1 & l2 & E1 & E2 & L).
      exists l1, l2. cbn. auto.
    + right. apply pq_pop_total in P. auto.
  - intros H; injection H as <-. cbn. split; [reflexivity|]. right. split; [left; discriminate|auto].
Qed.

Lemma pq_get_inv (s s' : sq item) :
  sq_get pq_pop s = Some s' ->
  get s = GNone /\ pend s' = pend s /\
  ((items s = [] /\ items s' = [] /\ get s' = GWaiting) \/ (exists x, selects s s' x)).
Proof.
  unfold sq_get. destruct (get s); try discriminate.
  destruct (pq_pop (items s)) as [[x rest]|] eqn:P; intros H; injection H as <-; cbn.
  - split; [reflexivity|split; [reflexivity|right]]. exists x. apply pq_pop_some in P as (l1 & l2 & E1 & E2 & L).
    exists l1, l2. cbn. auto.
  - apply pq_pop_total in P. split; [reflexivity|split; [reflexivity|left; auto]].
Qed.

Lemma pq_micro (s s' : sq item) :
  sq_cb pq_pop s = Some s' \/ sq_get pq_pop s = Some s' ->
  (items s' = items s /\ sq_held s' = sq_held s /\ (get s' = get s \/ get s = GNone /\ get s' = GWaiting)) \/
  (exists x, selects s s' x /\ forall y, get s <> GGranted y).
Proof.
  intros [H|H].
  - apply pq_cb_inv in H as (_ & [(G & x & Hs)|(_ & E & G')]).
    + right. exists x. split; [exact Hs|]. intros y; rewrite G; discriminate.
    + left. unfold sq_held. rewrite G', E. auto.
  - apply pq_get_inv in H as (G & _ & [(E & E' & G')|(x & Hs)]).
    + left. unfold sq_held. rewrite G, G', E, E'. auto.
    + right. exists x. split; [exact Hs|]. intros y; rewrite G; discriminate.
Qed.

Lemma pq_micro_held (s s' : sq item) :
  sq_cb pq_pop s = Some s' \/ sq_get pq_pop s = Some s' -> Permutation (sq_held s') (sq_held s).
Proof.
  intros H. destruct (pq_micro _ _ H) as [(_ & -> & _)|(x & (l1 & l2 & E1 & E2 & G' & _) & NG)]; [apply Permutation_refl|].
  unfold sq_held. rewrite G', E1, E2. destruct (get s) as [| |y]; try apply Permutation_middle. destruct (NG y eq_refl).
Qed.

Lemma sq_take_held (s : sq item) x s' : sq_take s = Some (x, s') -> sq_held s = x :: sq_held s'.
Proof. intros H. apply sq_take_inv in H as (G & E & _ & G'). unfold sq_held. rewrite G, G', E. reflexivity. Qed.

(* ---- Part 3: the discipline interface, the order invariant, selection of the least key ---- *)

(* what the generic proofs need from a stamping discipline: an invariant [dJ] tying its state to the packets
   put and not yet noticed as done, under which put/done never raise, and the last stamp per class [dbound],
   under which stamps never decrease within a class while anything is in the system 
   The alternative l = [] in d_J_put / d_J_done is WFQ's reset: stamps may drop (to 0) only when nothing is left in
   the system, so within a busy period they never decrease. *)
Record disc (S : stamper) (st0 : ST S) (conf : pkt -> Prop) (cls : pkt -> Z) : Type := {
  dJ : ST S -> list pkt -> Prop;
  dbound : ST S -> Z -> Q;
  d_conf_size : forall p, conf p -> (0 <= psize p)%Z;
  d_cls_flow : forall p q, flow p = flow q -> cls p = cls q;
  d_J_perm : forall st l l', Permutation l l' -> dJ st l -> dJ st l';
  d_J_init : dJ st0 [];
  d_J_put_ok : forall nw st l p, dJ st l -> conf p -> st_put S nw st p <> None;
  d_J_put : forall nw st l p st' F, dJ st l -> conf p -> st_put S nw st p = Some (st', F) ->
      dJ st' (p :: l) /\ dbound st' (cls p) == F /\
      (l = [] \/ (dbound st (cls p) <= F /\ forall c, c <> cls p -> dbound st' c == dbound st c));
  d_J_done_ok : forall nw st l p, dJ st (p :: l) -> st_done S nw st p <> None;
  d_J_done : forall nw st l p st', dJ st (p :: l) -> st_done S nw st p = Some st' ->
      dJ st' l /\ (l = [] \/ forall c, dbound st' c == dbound st c)
}.

Section GenB.
  Variable S : stamper.
  Variable rate : Q.
  Hypothesis rate_pos : 0 < rate.
  Variable st0 : ST S.
  Variable conf : pkt -> Prop.
  Variable cls : pkt -> Z.                          (* the class of a packet (flow2class of its flow) *)
  Variable D : disc S st0 conf cls.
  Notation srvS := (srv S).
  Notation actS := (act S rate).
  Notation reachS := (reach S rate st0 conf).

  Notation J := (dJ S st0 conf cls D).
  Notation bound := (dbound S st0 conf cls D).
  Notation J_perm := (d_J_perm S st0 conf cls D).

  (* e was put before y: smaller arrival counter, not later, and within a class not a larger stamp *)
  Definition before (e y : entry) : Prop :=
    (iseq (snd e) < iseq (snd y))%nat /\ fst e <= fst y /\
    (cls (epkt e) = cls (epkt y) -> istamp (snd e) <= istamp (snd y)).

  Fixpoint ordl (l : list entry) : Prop :=
    match l with
    | [] => True
    | e :: t => (forall y, In y t -> before e y) /\ ordl t
    end.

  Lemma ordl_app_one l x : ordl l -> (forall y, In y l -> before y x) -> ordl (l ++ [x]).
  Proof.
    induction l as [|a l IH]; intros H Hx; cbn [ordl app] in *.
    - split; [intros y []|exact I].
    - destruct H as [H1 H2]. split.
      + intros y Hy. apply in_app_or in Hy as [Hy|[<-|[]]]; [apply H1; exact Hy|apply Hx; left; reflexivity].
      + apply IH; [exact H2|]. intros y Hy. apply Hx. right. exact Hy.
  Qed.

  Lemma ordl_remove l1 m l2 : ordl (l1 ++ m :: l2) -> ordl (l1 ++ l2).
  Proof.
    induction l1 as [|a l1 IH]; intros H; cbn [ordl app] in *.
    - apply H.
    - destruct H as [H1 H2]. split; [|apply IH; exact H2].
      intros y Hy. apply H1. apply in_app_or in Hy. apply in_or_app. destruct Hy as [Hy|Hy]; [left|right; right]; exact Hy.
  Qed.

  Lemma ordl_split_before l1 m l2 : ordl (l1 ++ m :: l2) -> forall y, In y l1 -> before y m.
  Proof.
    induction l1 as [|a l1 IH]; intros H y Hy; [destruct Hy|].
    cbn [ordl app] in H. destruct H as [H1 H2]. destruct Hy as [<-|Hy].
    - apply H1. apply in_or_app. right. left. reflexivity.
    - apply IH; assumption.
  Qed.

  Lemma ordl_split_after l1 m l2 : ordl (l1 ++ m :: l2) -> forall y, In y l2 -> before m y.
  Proof.
    induction l1 as [|a l1 IH]; intros H y Hy; cbn [ordl app] in H; destruct H as [H1 H2].
    - apply H1. exact Hy.
    - apply IH; assumption.
  Qed.

  Lemma before_seq_neq e y : before e y -> iseq (snd e) <> iseq (snd y).
  Proof. intros (H & _). lia. Qed.

  Lemma ordl_dkeys l : ordl l -> dkeys entry_ltb l.
  Proof.
    induction l as [|a l IH]; cbn [ordl dkeys]; [auto|].
    intros [H1 H2]. split; [|apply IH; exact H2].
    intros b Hb. apply entry_ltb_seq_total. apply before_seq_neq. apply H1. exact Hb.
  Qed.

  Lemma ordl_distinct l : ordl l -> distinct_keys entry_ltb l.
  Proof. intros H. apply distinct_keys_dkeys. apply ordl_dkeys. exact H. Qed.

  (* within a class, an earlier arrival has the strictly smaller key *)
  Lemma before_same_class_lt e y : before e y -> cls (epkt e) = cls (epkt y) -> entry_ltb e y = true.
  Proof.
    intros (Hn & Ht & Hs) C. specialize (Hs C). unfold entry_ltb. apply key_ltb_true. unfold ekey, klt.
    destruct (Qlt_le_dec (istamp (snd e)) (istamp (snd y))) as [L|L]; [left; exact L|].
    right. split; [lra|].
    destruct (Qlt_le_dec (fst e) (fst y)) as [L'|L']; [left; exact L'|].
    right. split; [lra|exact Hn].
  Qed.

  (* the least element of an ordered list is strictly least, and no earlier arrival of its class precedes it *)
  Lemma least_strict l1 x l2 :
    ordl (l1 ++ x :: l2) -> least x (l1 ++ x :: l2) ->
    (forall y, In y (l1 ++ l2) -> entry_ltb x y = true) /\ (forall y, In y l1 -> cls (epkt y) <> cls (epkt x)).
  Proof.
    intros O L. split.
    - intros y Hy.
      assert (Hin : In y (l1 ++ x :: l2)) by (apply in_app_or in Hy; apply in_or_app; destruct Hy; [left|right; right]; assumption).
      specialize (L y Hin).
      assert (Hne : iseq (snd y) <> iseq (snd x)).
      { apply in_app_or in Hy as [Hy|Hy].
        - apply before_seq_neq. eapply ordl_split_before; eauto.
        - intros E. symmetry in E. revert E. apply before_seq_neq. eapply ordl_split_after; eauto. }
      destruct (entry_ltb_seq_total y x Hne) as [C|C]; [congruence|exact C].
    - intros y Hy C.
      assert (B : before y x) by (eapply ordl_split_before; eauto).
      assert (Hin : In y (l1 ++ x :: l2)) by (apply in_or_app; left; exact Hy).
      specialize (L y Hin). rewrite (before_same_class_lt y x B C) in L. discriminate.
  Qed.

  (* ---- the invariant ---- *)
  Definition InvB (s : srvS) : Prop :=
    J (stm s) (insys S s) /\
    Forall conf (insys S s) /\
    ordl (items (store s)) /\
    (forall e, In e (items (store s)) ->
       fst e <= now s /\ (iseq (snd e) <= seq s)%nat /\ istamp (snd e) <= bound (stm s) (cls (epkt e))).

  Definition Inv (s : srvS) : Prop := InvA S s /\ InvB s.

  Lemma InvB_init : InvB (srv0 0 st0).
  Proof.
    unfold InvB, insys, srv0; cbn. split; [exact (d_J_init _ _ _ _ D)|]. split; [constructor|]. split; [exact I|]. intros e [].
  Qed.

  (* how one step changes what is held / in the system, and what it emits *)
  Lemma step_held s a s' o :
    actS s a = Ok (s', o) ->
    match a with
    | FPut p => held S s' = held S s ++ [p] /\ insys S s' = insys S s ++ [p] /\ o = []
    | FChildTimer => exists e dl, chl s = CTx e dl /\ o = [OForward (epkt e)] /\ held S s = epkt e :: held S s' /\ insys S s' = insys S s
    | FChildEnd => exists e, chl s = CEnded e /\ Permutation (insys S s) (epkt e :: insys S s') /\ Permutation (held S s') (held S s) /\ o = []
    | _ => Permutation (held S s') (held S s) /\ Permutation (insys S s') (insys S s) /\ o = []
    end.
  Proof.
    intros H. destruct a; step_inv H; unfold held, insys;
      cbn [now started store stm seq qcount qbytes nrecv chl with_store with_child with_now];
      rewrite ?Ec; cbn [child_pkts child_all app].
    - rewrite pq_held_put, map_app. cbn [map epkt snd ipkt]. rewrite !app_assoc. auto.
    - pose proof (pq_micro_held _ _ (or_intror G)) as P.
      split; [|split; [|reflexivity]]; apply Permutation_app_head, Permutation_map, P.
    - pose proof (pq_micro_held _ _ (or_introl G)) as P.
      split; [|split; [|reflexivity]]; apply Permutation_app_head, Permutation_map, P.
    - apply sq_take_held in G.
      rewrite G. cbn [map epkt snd]. split; [|split; [|reflexivity]]; apply Permutation_refl.
    - split; [|split; [|reflexivity]]; apply Permutation_refl.
    - eexists _, _. split; [reflexivity|]. split; [reflexivity|]. split; reflexivity.
    - pose proof (pq_micro_held _ _ (or_intror G)) as P.
      eexists. split; [reflexivity|]. split; [|split; [|reflexivity]].
      + cbn [app]. apply perm_skip. apply Permutation_map. symmetry. exact P.
      + apply Permutation_map. exact P.
    - split; [|split; [|reflexivity]]; apply Permutation_refl.
  Qed.

  Lemma act_now s a s' o : actS s a = Ok (s', o) -> (forall t, a <> FAdvance t) -> now s' = now s.
  Proof. intros H Na. destruct a; try (act_inv H; reflexivity). destruct (Na t eq_refl). Qed.

  Lemma act_chl_tx s a s' o e dl : actS s a = Ok (s', o) -> chl s' = CTx e dl -> a = FChildInit \/ chl s = CTx e dl.
  Proof.
    intros H. destruct a; step_inv H; cbn [chl with_store with_child with_now]; intros E;
      try discriminate E; auto; right; congruence.
  Qed.

  Lemma held_stays s a s' o : actS s a = Ok (s', o) -> a <> FChildTimer -> held S s <> [] -> held S s' <> [].
  Proof.
    intros A Na Hh. pose proof (step_held _ _ _ _ A) as SH.
    assert (Pn : Permutation (held S s') (held S s) -> held S s' <> []).
    { intros P E. rewrite E in P. apply Hh. apply Permutation_nil. exact P. }
    destruct a; try (apply Pn, SH).
    - destruct SH as (E & _). rewrite E. intros F. apply app_eq_nil in F as (_ & F). discriminate.
    - destruct (Na eq_refl).
    - destruct SH as (e & _ & _ & P & _). exact (Pn P).
  Qed.

  Lemma items_in_held (q : sq item) e : In e (items q) -> In e (sq_held q).
  Proof. unfold sq_held. destruct (get q); auto. intros H. right. exact H. Qed.

  Lemma pq_micro_sub (q q' : sq item) :
    sq_cb pq_pop q = Some q' \/ sq_get pq_pop q = Some q' ->
    (forall e, In e (items q') -> In e (items q)) /\ (ordl (items q) -> ordl (items q')).
  Proof.
    intros H. destruct (pq_micro _ _ H) as [(-> & _)|(x & (l1 & l2 & E1 & E2 & _) & _)]; [auto|].
    rewrite E1, E2. split; [|apply ordl_remove].
    intros e He. apply in_app_or in He. apply in_or_app. destruct He; [left|right; right]; assumption.
  Qed.

  Lemma in_items_insys s e : In e (items (store s)) -> In (epkt e) (insys S s).
  Proof.
    intros H. unfold insys. apply in_or_app. right. apply in_map. apply items_in_held. exact H.
  Qed.

  Lemma InvB_frame s s' :
    InvB s -> stm s' = stm s -> seq s' = seq s -> now s <= now s' -> Permutation (insys S s') (insys S s) ->
    (forall e, In e (items (store s')) -> In e (items (store s))) -> (ordl (items (store s)) -> ordl (items (store s'))) ->
    InvB s'.
  Proof.
    intros (HJ & HC & HO & HB) Es Eq Ln P Sub Ord. unfold InvB. rewrite Es, Eq.
    split; [eapply J_perm; [symmetry; exact P|exact HJ]|].
    split; [eapply Permutation_Forall; [symmetry; exact P|exact HC]|]. split; [exact (Ord HO)|].
    intros e He. destruct (HB e (Sub e He)) as (B1 & B2 & B3). split; [lra|]. split; [exact B2|exact B3].
  Qed.

  Lemma step_other s a s' o :
    actS s a = Ok (s', o) -> (forall p, a <> FPut p) ->
    seq s' = seq s /\ now s <= now s' /\ (a <> FChildEnd -> stm s' = stm s) /\
    (forall e, In e (items (store s')) -> In e (items (store s))) /\ (ordl (items (store s)) -> ordl (items (store s'))).
  Proof.
    intros H NP. destruct a; [destruct (NP p eq_refl)|..]; step_inv H;
      cbn [now started store stm seq qcount qbytes nrecv chl with_store with_child with_now];
      (split; [reflexivity|]); (split; [first [apply Qle_refl|apply Qlt_le_weak; assumption]|]);
      (split; [intros C; first [reflexivity|destruct (C eq_refl)]|]); auto.
    - exact (pq_micro_sub _ _ (or_intror G)).
    - exact (pq_micro_sub _ _ (or_introl G)).
    - apply sq_take_inv in G as (_ & -> & _). auto.
    - exact (pq_micro_sub _ _ (or_intror G)).
  Qed.

  Lemma InvB_step s a s' o :
    InvB s -> (forall p, a = FPut p -> conf p) -> actS s a = Ok (s', o) -> InvB s'.
  Proof.
    intros HI Hconf H. pose proof (step_held _ _ _ _ H) as SH.
    assert (Fr : (forall p, a <> FPut p) -> a <> FChildEnd -> Permutation (insys S s') (insys S s) -> InvB s').
    { intros NP NE P. destruct (step_other _ _ _ _ H NP) as (Eq & Ln & Es & Sub & Ord). apply (InvB_frame s); auto. }
    destruct a; try (apply Fr; [discriminate|discriminate|exact (proj1 (proj2 SH))]); clear Fr;
      destruct HI as (HJ & HC & HO & HB).
    all: step_inv H; unfold InvB; cbn [now started store stm seq qcount qbytes nrecv chl with_store with_child] in *.
    - (* FPut *)
      destruct SH as (_ & SI & _). rewrite SI.
      destruct (d_J_put _ _ _ _ D _ _ _ _ _ _ HJ (Hconf p eq_refl) P) as (J' & Bq & Hrest).
      assert (Qr : Qred F == F) by apply Qred_correct.
      split; [eapply J_perm; [|exact J']; apply Permutation_cons_append|].
      split; [apply Forall_app; split; [exact HC|constructor; [apply Hconf; reflexivity|constructor]]|].
      assert (Hold : forall y, In y (items (store s)) ->
                fst y <= now s /\ (iseq (snd y) <= seq s)%nat /\
                istamp (snd y) <= bound st' (cls (epkt y)) /\ (cls (epkt y) = cls p -> istamp (snd y) <= F)).
      { intros y Hy. destruct (HB y Hy) as (B1 & B2 & B3). split; [exact B1|]. split; [exact B2|].
        destruct Hrest as [Hnil|(Hle & Hoth)].
        - exfalso. pose proof (in_items_insys _ _ Hy) as Hin. rewrite Hnil in Hin. destruct Hin.
        - destruct (Z.eq_dec (cls (epkt y)) (cls p)) as [C|C].
          + rewrite C in *. split; [rewrite Bq; lra|intros _; lra].
          + split; [rewrite (Hoth _ C); exact B3|intros C'; contradiction]. }
      split.
      + cbn [items sq_put]. unfold pq_push, lpush. apply ordl_app_one; [exact HO|].
        intros y Hy. destruct (Hold y Hy) as (B1 & B2 & _ & B4). unfold before. cbn [fst snd iseq istamp epkt ipkt].
        split; [lia|]. split; [exact B1|]. intros C. rewrite Qr. apply B4. exact C.
      + cbn [items sq_put]. unfold pq_push, lpush. intros e He. apply in_app_or in He as [He|[<-|[]]].
        * destruct (Hold e He) as (B1 & B2 & B3 & _). split; [exact B1|]. split; [lia|exact B3].
        * cbn [fst snd iseq istamp epkt ipkt]. split; [apply Qle_refl|]. split; [lia|]. rewrite Qr, Bq. apply Qle_refl.
    - (* FChildTimer *)
      destruct SH as (p' & dl' & _ & _ & _ & SI). rewrite SI. split; [exact HJ|]. split; [exact HC|]. split; [exact HO|exact HB].
    - (* FChildEnd *)
      destruct SH as (e' & Ec' & SI & _ & _). rewrite Ec in Ec'. injection Ec' as <-. set (p := epkt e) in *.
      assert (J1 : J (stm s) (p :: map epkt (sq_held q))).
      { eapply J_perm; [exact SI|exact HJ]. }
      unfold insys. cbn [now started store stm seq qcount qbytes nrecv chl child_all app].
      destruct (d_J_done _ _ _ _ D _ _ _ _ _ J1 Dn) as (J' & Hb).
      destruct (pq_micro_sub _ _ (or_intror G)) as (Sub & Ord).
      split; [exact J'|].
      split.
      { assert (F1 : Forall conf (p :: map epkt (sq_held q))).
        { eapply Permutation_Forall; [exact SI|exact HC]. }
        inversion F1; assumption. }
      split; [apply Ord; exact HO|].
      intros y He. destruct (HB y (Sub y He)) as (B1 & B2 & B3). split; [exact B1|]. split; [exact B2|].
      destruct Hb as [Hnil|Hb].
      + exfalso. assert (Hin : In (epkt y) (map epkt (sq_held q))) by (apply in_map, items_in_held; exact He).
        rewrite Hnil in Hin. destruct Hin.
      + rewrite Hb. exact B3.
  Qed.

  Lemma Inv_init : Inv (srv0 0 st0).
  Proof. split; [apply InvA_init|apply InvB_init]. Qed.

  Lemma Inv_step s a s' o :
    Inv s -> (forall p, a = FPut p -> conf p) -> actS s a = Ok (s', o) -> Inv s'.
  Proof.
    intros (HA & HB) Hc H. split; [|eapply InvB_step; eauto].
    eapply InvA_step; [exact rate_pos| |exact HA|exact H].
    intros e _ Ec. apply (d_conf_size _ _ _ _ D). destruct HB as (_ & HC & _).
    rewrite Forall_forall in HC. apply HC. unfold insys. rewrite Ec. left. reflexivity.
  Qed.

  Theorem Inv_reach s : reachS s -> Inv s.
  Proof.
    induction 1 as [|s a s' o R IH Hc H]; [apply Inv_init|eapply Inv_step; eauto].
  Qed.

  (* ---- the Python code never raises (KeyError, ZeroDivisionError) on configured packets ---- *)
  Theorem srv_never_raises s a :
    reachS s -> (forall p, a = FPut p -> conf p) -> actS s a <> Raises.
  Proof.
    intros R Hc E. destruct (Inv_reach _ R) as (_ & HJ & _).
    destruct (act_raises _ _ _ _ E) as [(p & -> & E')|(e & -> & Ec & E')].
    - exact (d_J_put_ok _ _ _ _ D _ _ _ _ HJ (Hc p eq_refl) E').
    - unfold insys in HJ. rewrite Ec in HJ. exact (d_J_done_ok _ _ _ _ D _ _ _ _ HJ E').
  Qed.

  (* ---- the selection takes the strictly least key; no earlier packet of the same class is overtaken ---- *)
  Definition strictly_least (x : entry) (l1 l2 : list entry) : Prop :=
    (forall y, In y (l1 ++ l2) -> entry_ltb x y = true) /\ (forall y, In y l1 -> cls (epkt y) <> cls (epkt x)).

  Lemma selects_strict s (q' : sq item) x :
    Inv s -> selects (store s) q' x ->
    exists l1 l2, items (store s) = l1 ++ x :: l2 /\ items q' = l1 ++ l2 /\ get q' = GGranted x /\ strictly_least x l1 l2.
  Proof.
    intros (_ & _ & _ & HO & _) (l1 & l2 & E1 & E2 & G & L). exists l1, l2.
    rewrite E1 in HO, L. repeat split; auto; apply (least_strict l1 x l2 HO L).
  Qed.

  Theorem srv_select_min s a s' o x :
    reachS s -> actS s a = Ok (s', o) ->
    get (store s') = GGranted x -> get (store s) <> GGranted x ->
    exists l1 l2, items (store s) = l1 ++ x :: l2 /\ items (store s') = l1 ++ l2 /\ strictly_least x l1 l2.
  Proof.
    intros R H Hg' Hg. pose proof (Inv_reach _ R) as HI.
    assert (Sel : forall q, sq_cb pq_pop (store s) = Some q \/ sq_get pq_pop (store s) = Some q -> get q = GGranted x ->
              exists l1 l2, items (store s) = l1 ++ x :: l2 /\ items q = l1 ++ l2 /\ strictly_least x l1 l2).
    { intros q Hq Gq. destruct (pq_micro _ _ Hq) as [(_ & _ & [Eg|(_ & W)])|(y & Hs & _)].
      - exfalso. apply Hg. rewrite <- Eg. exact Gq.
      - rewrite W in Gq. discriminate.
      - destruct (selects_strict _ _ _ HI Hs) as (l1 & l2 & E1 & E2 & Gy & SL).
        rewrite Gy in Gq. injection Gq as <-. exists l1, l2. auto. }
    destruct a; step_inv H; cbn [now started store stm seq qcount qbytes nrecv chl with_store with_child with_now] in *;
      try (exfalso; apply Hg; exact Hg'); try (apply Sel; [auto|exact Hg']).
    apply sq_take_inv in G as (_ & _ & _ & Gn).
    rewrite Gn in Hg'. discriminate.
  Qed.

  (* ---- work conservation: the clock may move only during a transmission or when nothing is held ---- *)
  Theorem srv_work_conserving s :
    reachS s -> urgent s = false -> (exists p dl, chl s = CTx p dl /\ now s < dl) \/ held S s = [].
  Proof.
    intros R U. destruct (Inv_reach _ R) as (HA & _). pose proof HA as (_ & _ & _ & Dl).
    destruct (urgent_false _ _ U) as (_ & _ & Uc & Ut). unfold held, child_urgent, timer_due in *.
    destruct (chl s) as [|e|e dl|e] eqn:Ec; try discriminate.
    - right. destruct (quiet_idle _ _ HA U Ec) as (W & E). unfold sq_held. rewrite W, E. reflexivity.
    - left. exists e, dl. split; [reflexivity|].
      specialize (Dl e dl eq_refl). destruct (Qlt_le_dec (now s) dl) as [L|L]; [exact L|].
      exfalso. assert (E : dl == now s) by lra. apply Qeq_bool_iff in E. congruence.
  Qed.

  (* nothing enabled and no deadline: nothing is held *)
  Corollary srv_drained s :
    reachS s -> urgent s = false -> (forall p dl, chl s <> CTx p dl) -> held S s = [] /\ insys S s = [].
  Proof.
    intros R U NT. destruct (srv_work_conserving s R U) as [(p & dl & E & _)|H]; [exfalso; eapply NT; eauto|].
    split; [exact H|]. unfold held, insys in *.
    destruct (chl s) as [|p|p dl|p] eqn:Ec; cbn [child_pkts child_all app] in *; try discriminate; auto.
    exfalso. unfold urgent, child_urgent in U. rewrite Ec in U.
    destruct (negb (started s)), (sq_urgent (store s)); discriminate.
  Qed.

  (* the keys held in the store of a reachable state are pairwise distinct (the arrival counter differs), which is
     the hypothesis under which the list model pops exactly what heapq pops (pq_refines_heapq_pop) *)
  Theorem srv_store_distinct_keys s : reachS s -> distinct_keys entry_ltb (items (store s)).
  Proof. intros R. destruct (Inv_reach _ R) as (_ & _ & _ & HO & _). apply ordl_distinct. exact HO. Qed.
End GenB.
