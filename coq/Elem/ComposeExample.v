(* Concrete pipelines of adapted elements (non-vacuity of Elem/Compose.v) and the laws of one concrete family,
   Port >> Wire >> TokenBucket, spelled out in the vocabulary of the three models. *)
From Coq Require Import ZArith QArith List Bool Permutation.
From ONL Require Import Base.Tools Elem.Packet Elem.StoreQ Elem.Wire Elem.Port Elem.Bucket Elem.BucketProofs Elem.SchedBase Elem.SP
  Elem.Iface Elem.Compose Elem.AdaptWire Elem.AdaptPort Elem.AdaptBucket Elem.AdaptSched.
Import ListNotations.

Theorem port_wire_tb_conserves : forall (pc : pcfg) (loss : option Q) (tc : tbcfg) (t0 : Q),
  0 < Bucket.rate tc -> (forall k, peak_on tc = Some k -> 0 < k) ->
  let E := pipeline (port_elem pc t0) [wire_elem loss t0; tb_elem tc t0] in
  forall acts s tr, run E (init E) acts = Some (s, tr) ->
    Permutation (puts tr) (fwds tr ++ drops tr ++ port_held (fst s) ++ wheld (fst (snd s)) ++ tb_held (snd (snd s)))
    /\ (forall f, sublist (filter (on_flow f) (fwds tr)) (filter (on_flow f) (puts tr)))
    /\ (Forall (fun p => (0 <= psize p)%Z) (puts tr) -> urgent E s = false -> deadline E s = None ->
        Permutation (puts tr) (fwds tr ++ drops tr)).
Proof.
  intros pc loss tc t0 R K E acts s tr H.
  assert (L : laws E).
  { apply pipeline_laws; [apply port_elem_laws|]. constructor; [apply wire_elem_laws|].
    constructor; [apply tb_elem_laws; assumption|constructor]. }
  destruct L as [C F D]. split; [exact (C _ _ _ H)|]. split; [intros f; exact (F f _ _ _ H)|].
  intros Sz U Dl. pose proof (C _ _ _ H) as HC. rewrite (D _ _ _ H) in HC; auto.
  - rewrite app_nil_r in HC. exact HC.
  - eapply Forall_impl; [|exact Sz]. intros p Hp. cbn. apply Z.leb_le. exact Hp.
Qed.

(* ---- Port(1024 bit/s, limit 2 packets) >> Wire(delay 1/2) >> TokenBucket(512 bit/s, 128 B) ------------------- *)
Definition ex_port : pcfg := port_cfg all_fixed 1024 (Some 2%Z) false (Some 1%Z).
Definition ex_tb : tbcfg := {| Bucket.rate := 512; bsize := 128; peak := None |}.
Definition ex_pipe : elem := pipeline (port_elem ex_port 0) [wire_elem None 0; tb_elem ex_tb 0].
Definition xp (i : nat) : pkt := mkp i (Z.of_nat i + 1) 0 128 0.
Definition XP (a : paction) : iact (lab ex_pipe) := IStep (inl a).
Definition XW (a : waction) : iact (lab ex_pipe) := IStep (inr (inl a)).
Definition XT (a : taction) : iact (lab ex_pipe) := IStep (inr (inr a)).
Definition ex_acts : list (iact (lab ex_pipe)) :=
  [XP PInit; XW WInit; XT TInit; IPut (xp 0); XP PStoreCb; IPut (xp 1); IPut (xp 2); XP Port.PGet; XP PStoreCb; IAdv 1;
   XP PTimer; XW WStoreCb; XP Port.PGet; XW (WGet None (Some (1#2))); IAdv (3#2); XW WTimer; XT TStoreCb; XT TGet;
   IAdv 2; XP PTimer; XW WStoreCb; XW (WGet None (Some (1#2))); IAdv (5#2); XW WTimer; XT TStoreCb; XT TGet; IAdv (7#2);
   XT TTimer].

Example ex_pipe_run :
  exists s tr, run ex_pipe (init ex_pipe) ex_acts = Some (s, tr) /\
    puts tr = [xp 0; xp 1; xp 2] /\ fwds tr = [xp 0; xp 1] /\ drops tr = [xp 2] /\
    hands 0 tr = [xp 0; xp 1] /\ hands 1 tr = [xp 0; xp 1] /\
    tfwds tr = [(3 # 2, xp 0); (7 # 2, xp 1)] /\
    held ex_pipe s = [] /\ urgent ex_pipe s = false /\ deadline ex_pipe s = None.
Proof. apply run_facts. vm_compute. repeat split. Qed.

Example ex_pipe_held :
  exists s tr, run ex_pipe (init ex_pipe) (firstn 14 ex_acts) = Some (s, tr) /\
    puts tr = [xp 0; xp 1; xp 2] /\ fwds tr = [] /\ drops tr = [xp 2] /\
    port_held (fst s) = [xp 1] /\ wheld (fst (snd s)) = [xp 0] /\ tb_held (snd (snd s)) = [] /\
    deadline ex_pipe s = Some (3 # 2).
Proof. apply run_facts. vm_compute. repeat split. Qed.

(* ---- Wire(delay 0) >> SP(flow 1 before flow 0, 1024 bit/s) >> Port(rate 0, no limit) ------------------------- *)
Definition ex2_port : pcfg := port_cfg all_fixed 0 None false None.
Definition ex2_pipe : elem :=
  pipeline (wire_elem None 0) [sp_elem 1024 (fun f => f) [0%Z; 1%Z] [(0%Z, 1%Z); (1%Z, 2%Z)]; port_elem ex2_port 0].
Definition yp (i : nat) (f : Z) : pkt := mkp i (Z.of_nat i + 1) f 128 0.
Definition YW (a : waction) : iact (lab ex2_pipe) := IStep (inl a).
Definition YS (a : saction) : iact (lab ex2_pipe) := IStep (inr (inl a)).
Definition YP (a : paction) : iact (lab ex2_pipe) := IStep (inr (inr a)).
Definition ex2_acts : list (iact (lab ex2_pipe)) :=
  [YW WInit; YS SInit; YP PInit; IPut (yp 0 0); IPut (yp 1 1); IPut (yp 2 0);
   YW WStoreCb; YW (WGet None (Some 0)); YW WStoreCb; YW WStoreCb; YW (WGet None (Some 0)); YW (WGet None (Some 0));
   YS (SStoreCb None); YS (SStoreCb (Some 0%Z)); YS (SStoreCb (Some 1%Z)); YS (SStoreCb (Some 0%Z));
   YS (SGetDone None); YS (SGetDone (Some 1%Z)); YS SChildInit; IAdv 1; YS SChildTimer; YS SChildEnd;
   YP PStoreCb; YP Port.PGet;
   YS (SGetDone (Some 0%Z)); YS SChildInit; IAdv 2; YS SChildTimer; YS SChildEnd; YP PStoreCb; YP Port.PGet;
   YS (SGetDone (Some 0%Z)); YS SChildInit; IAdv 3; YS SChildTimer; YS SChildEnd; YP PStoreCb; YP Port.PGet].

Example ex2_pipe_run :
  exists s tr, run ex2_pipe (init ex2_pipe) ex2_acts = Some (s, tr) /\
    puts tr = [yp 0 0; yp 1 1; yp 2 0] /\ fwds tr = [yp 1 1; yp 0 0; yp 2 0] /\ drops tr = [] /\ held ex2_pipe s = [].
Proof. apply run_facts. vm_compute. repeat split. Qed.

(* ---- fan-in: two rate-0 ports (flow 0 into the first, the other flows into the second) into one SP ------------- *)
From ONL Require Import Elem.ComposePar Elem.ComposeHands.

Definition ex3_sel (p : pkt) : bool := Z.eqb (flow p) 0.
Definition ex3_net : elem :=
  fanin ex3_sel (port_elem ex2_port 0) (port_elem ex2_port 0) (sp_elem 1024 (fun f => f) [0%Z; 1%Z] [(0%Z, 1%Z); (1%Z, 2%Z)]).
Definition ZA (a : paction) : iact (lab ex3_net) := IStep (inl (inl a)).
Definition ZB (a : paction) : iact (lab ex3_net) := IStep (inl (inr a)).
Definition ZS (a : saction) : iact (lab ex3_net) := IStep (inr a).
Definition ex3_acts : list (iact (lab ex3_net)) :=
  [ZA PInit; ZB PInit; ZS SInit; IPut (yp 0 0); IPut (yp 1 1); ZA PStoreCb; ZA Port.PGet; ZB PStoreCb; ZB Port.PGet;
   ZS (SStoreCb None); ZS (SStoreCb (Some 0%Z)); ZS (SStoreCb (Some 1%Z)); ZS (SGetDone None); ZS (SGetDone (Some 1%Z));
   ZS SChildInit; IAdv 1; ZS SChildTimer; ZS SChildEnd; ZS (SGetDone (Some 0%Z)); ZS SChildInit; IAdv 2; ZS SChildTimer; ZS SChildEnd].

Example ex3_fanin_run :
  exists s tr, run ex3_net (init ex3_net) ex3_acts = Some (s, tr) /\
    puts tr = [yp 0 0; yp 1 1] /\ fwds tr = [yp 1 1; yp 0 0] /\ drops tr = [] /\
    hands 1 tr = [yp 0 0; yp 1 1] /\ held ex3_net s = [] /\ urgent ex3_net s = false /\ deadline ex3_net s = None.
Proof. apply run_facts. vm_compute. repeat split. Qed.

(* ---- fan-out: Wire(delay 0) -> FlowDemux(two outputs, no default) -> two rate-0 ports; flow 2 has no route ------ *)
From ONL Require Import Route.Demux Elem.ComposeFan.
Local Open Scope Q_scope.

Definition ex4_route : Z -> Demux.output := flowdemux true {| fd_nouts := 2%nat; fd_default := false |}.
Definition ex4_net : elem := fanout ex4_route 0 (wire_elem None 0) (port_elem ex2_port 0) (port_elem ex2_port 0).
Definition VW (a : waction) : iact (lab ex4_net) := IStep (inl a).
Definition VB (a : paction) : iact (lab ex4_net) := IStep (inr (inr (inl a))).
Definition VC (a : paction) : iact (lab ex4_net) := IStep (inr (inr (inr a))).
Definition ex4_acts : list (iact (lab ex4_net)) :=
  [VW WInit; VB PInit; VC PInit; IPut (yp 0 0); IPut (yp 1 1); IPut (yp 2 2); VW WStoreCb; VW (WGet None (Some 0));
   VW WStoreCb; VW WStoreCb; VW (WGet None (Some 0)); VW (WGet None (Some 0));
   VC PStoreCb; VC Port.PGet; VB PStoreCb; VB Port.PGet].

Example ex4_fanout_run :
  exists s tr, run ex4_net (init ex4_net) ex4_acts = Some (s, tr) /\
    puts tr = [yp 0 0; yp 1 1; yp 2 2] /\ fwds tr = [yp 1 1; yp 0 0] /\ drops tr = [yp 2 2] /\
    hands 0 tr = [yp 0 0; yp 1 1; yp 2 2] /\ hands 1 tr = [yp 0 0; yp 1 1] /\
    held ex4_net s = [] /\ urgent ex4_net s = false /\ deadline ex4_net s = None.
Proof. apply run_facts. vm_compute. repeat split. Qed.

(* ---- the stage-by-stage views of the three-stage example (non-vacuity of Elem/ComposeNet.v) ---------------------- *)
From ONL Require Import Elem.ComposeNet.

Example ex_pipe_views :
  pviews [wire_elem None 0; tb_elem ex_tb 0] (port_elem ex_port 0) ex_acts =
  Some [ {| v_puts := [xp 0; xp 1; xp 2]; v_fwds := [xp 0; xp 1]; v_drops := [xp 2]; v_held := [] |};
         {| v_puts := [xp 0; xp 1]; v_fwds := [xp 0; xp 1]; v_drops := []; v_held := [] |};
         {| v_puts := [xp 0; xp 1]; v_fwds := [xp 0; xp 1]; v_drops := []; v_held := [] |} ].
Proof. vm_compute. reflexivity. Qed.
