(* Model of onl/scheduler/base.py (Scheduler, MultiQueueScheduler) together with the shape shared by the run()
   loops of SP, RR and WRR, as ONE timed automaton with urgent internal micro-steps (DESIGN.md 2.4).
   Executable; proofs are in SchedBaseProofs.v.  SP.v / RR.v / WRR.v instantiate the configuration.

   What the code does.  put(p): if total_packets == 0 a token is put into the `packets_available` Store; then
   packets_received, queue_count[flow], queue_byte_size[flow] are incremented and p is put into the Store of its class
   (a kernel Store: the item is appended at once, the StorePut event is processed later).  run() walks over its
   classes; for a class whose test succeeds it does `yield store.get()` (granted at once, but run() resumes only
   when the StoreGet event is processed), then `yield env.process(self.send_packet(packet))`:
   Initialize(send_packet) sets current_packet and starts the timeout 8*size/rate; when it fires the counters are
   decremented, the packet is forwarded, current_packet is cleared and the child ends; its Process event resumes
   run() INSIDE its for-loop.  After a pass: `if total_packets == 0: yield packets_available.get()`.

   The three run() loops differ only in the list of (class, allowance) slots of a pass, in the emptiness test
   (SP: store.size(); RR/WRR: queue_count[flow] > 0) and in whether the pass is left after a transmission (the
   repaired SP: `break`).  The position inside the pass -- the remaining slots, the head slot carrying the number of
   packets its class may still send in this visit -- is part of the state: it persists across yields in the code.

   Actions (one per put() call or kernel step that belongs to the scheduler; what the harness observes):
     SPut p           scheduler.put(p), p of a flow whose class is configured
     SInit            Initialize of run(): the first scan
     SStoreCb o       a StorePut event processed: of the token store (None) or of the store of class k (Some k)
     SGetDone o       a granted StoreGet processed: run() resumes with the token (None) / with a packet of class f
     SChildInit       Initialize of send_packet: the transmission starts
     SChildTimer      the transmission timeout fires: counters decremented, packet forwarded
     SChildEnd        the Process event of send_packet: run() resumes inside its loop
     SAdvance t       the clock moves to t (only when nothing of the scheduler is due now; never past the deadline)
     SSample incl     the Monitor samples size()/byte_size() of every flow (service_included = incl)

   Outputs: OForward p (out.put), OStart p (transmission of p starts), OVisit f b (run() tested class f: b = it took
   a packet of f, otherwise it skipped the empty class), OSample (what the Monitor appends).  Only OForward and
   OSample are visible from outside; the others make the trace-level theorems readable. *)
From Coq Require Import ZArith QArith List Bool.
From ONL Require Import Elem.Packet Elem.StoreQ.
Import ListNotations.

Record mq_cfg := {
  rate : Q;                      (* bit/s *)
  pass : list (Z * nat);         (* one pass of run(): (class, packets it may send per visit) in scan order *)
  by_count : bool;               (* emptiness test: queue_count[class] > 0 (RR, WRR) or store.size() != 0 (SP) *)
  brk : bool;                    (* leave the pass after a transmission (repaired SP) *)
  cls : Z -> Z;                  (* flow id -> class id = key of the per-class Store (SP: flow2class; RR, WRR: identity) *)
  sflows : list Z                (* the flows whose counters the Monitor model reports *)
}.

(* the class ids: keys of the stores run() scans *)
Definition classes (c : mq_cfg) : list Z := map fst (pass c).
Definition dclasses (c : mq_cfg) : list Z := nodup Z.eq_dec (classes c).
(* a finite flow -> class table; flows not listed are their own class *)
Definition cls_of (m : list (Z * Z)) (f : Z) : Z :=
  match find (fun x => Z.eqb (fst x) f) m with Some (_, k) => k | None => f end.
Definition memZ (f : Z) (l : list Z) : bool := existsb (Z.eqb f) l.

Inductive child_st := CNone | CInit (p : pkt) | CTx (p : pkt) (dl : Q) | CEnded.

Inductive pc_st :=
| PNotStarted                               (* Initialize of run() pending *)
| PGet (f : Z) (rem : list (Z * nat))       (* waiting for the granted get on the store of f; rem = rest of the pass *)
| PChild (rem : list (Z * nat))             (* waiting for send_packet *)
| PTok                                      (* yield packets_available.get() *)
| PSpin.                                    (* `while True` without a yield: the simulation hangs (proved unreachable) *)

Record mq := {
  mnow : Q;
  mstores : Z -> sq pkt;         (* self.stores *)
  mtok : sq unit;                (* self.packets_available *)
  mqc : Z -> Z;                  (* queue_count *)
  mqb : Z -> Z;                  (* queue_byte_size *)
  mtotal : Z;                    (* total_packets = sum(queue_count.values()) *)
  mcur : option pkt;             (* current_packet *)
  mrecv : Z;                     (* packets_received *)
  mchild : child_st;
  mpc : pc_st
}.

Definition upd {A : Type} (m : Z -> A) (f : Z) (v : A) : Z -> A := fun g => if Z.eqb g f then v else m g.

Definition mq0 (c : mq_cfg) : mq :=
  {| mnow := 0; mstores := fun _ => sq0; mtok := sq0; mqc := fun _ => 0%Z; mqb := fun _ => 0%Z; mtotal := 0%Z;
     mcur := None; mrecv := 0%Z; mchild := CNone; mpc := PNotStarted |}.

Inductive saction :=
| SPut (p : pkt) | SInit | SStoreCb (o : option Z) | SGetDone (o : option Z)
| SChildInit | SChildTimer | SChildEnd | SAdvance (t : Q) | SSample (incl : bool).

Inductive sout := OForward (p : pkt) | OStart (p : pkt) | OVisit (f : Z) (served : bool) | OSample (l : list (Z * Z * Z)).

Definition with_pc (s : mq) (p : pc_st) : mq :=
  {| mnow := mnow s; mstores := mstores s; mtok := mtok s; mqc := mqc s; mqb := mqb s; mtotal := mtotal s;
     mcur := mcur s; mrecv := mrecv s; mchild := mchild s; mpc := p |}.
Definition with_store (s : mq) (f : Z) (q : sq pkt) : mq :=
  {| mnow := mnow s; mstores := upd (mstores s) f q; mtok := mtok s; mqc := mqc s; mqb := mqb s; mtotal := mtotal s;
     mcur := mcur s; mrecv := mrecv s; mchild := mchild s; mpc := mpc s |}.
Definition with_tok (s : mq) (q : sq unit) : mq :=
  {| mnow := mnow s; mstores := mstores s; mtok := q; mqc := mqc s; mqb := mqb s; mtotal := mtotal s;
     mcur := mcur s; mrecv := mrecv s; mchild := mchild s; mpc := mpc s |}.
Definition with_child (s : mq) (ch : child_st) (p : pc_st) : mq :=
  {| mnow := mnow s; mstores := mstores s; mtok := mtok s; mqc := mqc s; mqb := mqb s; mtotal := mtotal s;
     mcur := mcur s; mrecv := mrecv s; mchild := ch; mpc := p |}.

Definition nilb {A : Type} (l : list A) : bool := match l with [] => true | _ => false end.

(* the test run() makes before it takes a packet of class f *)
Definition nonempty (c : mq_cfg) (s : mq) (f : Z) : bool :=
  if by_count c then Z.ltb 0 (mqc s f) else negb (nilb (items (mstores s f))).

(* continue the for-loop over the remaining slots: the visits made, and the class to serve with the new position *)
Fixpoint scan (test : Z -> bool) (rem : list (Z * nat)) : list sout * option (Z * list (Z * nat)) :=
  match rem with
  | [] => ([], None)
  | (f, O) :: t => scan test t
  | (f, S n) :: t =>
      if test f then ([OVisit f true], Some (f, (f, n) :: t))
      else let '(vs, r) := scan test t in (OVisit f false :: vs, r)
  end.

Definition after (c : mq_cfg) (rem : list (Z * nat)) : list (Z * nat) := if brk c then [] else rem.

(* `packet = yield store.get()` on the store of f *)
Definition commit (s : mq) (f : Z) (rem : list (Z * nat)) : option mq :=
  match sq_get fifo_pop (mstores s f) with
  | Some q => Some (with_pc (with_store s f q) (PGet f rem))
  | None => None
  end.

(* after the for-loop: `if self.total_packets == 0: yield self.packets_available.get()`, else the next pass *)
Definition end_pass (c : mq_cfg) (s : mq) : option (mq * list sout) :=
  if Z.eqb (mtotal s) 0 then
    match sq_get fifo_pop (mtok s) with
    | Some q => Some (with_pc (with_tok s q) PTok, [])
    | None => None
    end
  else
    match scan (nonempty c s) (pass c) with
    | (vs, Some (f, rem)) =>
        match commit s f (after c rem) with Some s' => Some (s', vs) | None => None end
    | (vs, None) => Some (with_pc s PSpin, vs)      (* a whole pass found nothing although packets are counted *)
    end.

(* run() executes from loop position rem until its next yield *)
Definition resume (c : mq_cfg) (s : mq) (rem : list (Z * nat)) : option (mq * list sout) :=
  match scan (nonempty c s) rem with
  | (vs, Some (f, rem')) =>
      match commit s f (after c rem') with Some s' => Some (s', vs) | None => None end
  | (vs, None) =>
      match end_pass c s with Some (s', vs') => Some (s', vs ++ vs') | None => None end
  end.

Definition tx_time (c : mq_cfg) (p : pkt) : Q := inject_Z (8 * psize p) / rate c.

Definition child_urgent (s : mq) : bool :=
  match mchild s with
  | CNone => false
  | CInit _ => true
  | CTx _ dl => Qeq_bool dl (mnow s)
  | CEnded => true
  end.

Definition urgent (c : mq_cfg) (s : mq) : bool :=
  match mpc s with PNotStarted => true | _ => false end
  || sq_urgent (mtok s) || existsb (fun f => sq_urgent (mstores s f)) (classes c) || child_urgent s.

(* what the Monitor appends for flow f *)
Definition sample_of (s : mq) (incl : bool) (f : Z) : Z * Z * Z :=
  match mcur s with
  | Some p => if negb incl && Z.eqb (flow p) f then (f, mqc s f - 1, mqb s f - psize p)%Z else (f, mqc s f, mqb s f)
  | None => (f, mqc s f, mqb s f)
  end.

Definition mq_act (c : mq_cfg) (s : mq) (a : saction) : option (mq * list sout) :=
  match a with
  | SPut p =>
      if memZ (cls c (flow p)) (classes c) && Z.leb 0 (psize p) then
        let f := flow p in
        let k := cls c f in
        Some ({| mnow := mnow s;
                 mstores := upd (mstores s) k (sq_put fifo_push (mnow s) p (mstores s k));
                 mtok := if Z.eqb (mtotal s) 0 then sq_put fifo_push (mnow s) tt (mtok s) else mtok s;
                 mqc := upd (mqc s) f (mqc s f + 1)%Z;
                 mqb := upd (mqb s) f (mqb s f + psize p)%Z;
                 mtotal := (mtotal s + 1)%Z;
                 mcur := mcur s; mrecv := (mrecv s + 1)%Z; mchild := mchild s; mpc := mpc s |}, [])
      else None
  | SInit =>
      match mpc s with
      | PNotStarted => resume c s (pass c)
      | _ => None
      end
  | SStoreCb None =>
      match sq_cb fifo_pop (mtok s) with Some q => Some (with_tok s q, []) | None => None end
  | SStoreCb (Some f) =>
      match sq_cb fifo_pop (mstores s f) with Some q => Some (with_store s f q, []) | None => None end
  | SGetDone None =>
      match mpc s with
      | PTok =>
          match sq_take (mtok s) with
          | Some (_, q) => resume c (with_tok s q) (pass c)
          | None => None
          end
      | _ => None
      end
  | SGetDone (Some f) =>
      match mpc s, mchild s with
      | PGet g rem, CNone =>
          if Z.eqb f g then
            match sq_take (mstores s f) with
            | Some ((_, p), q) => Some (with_child (with_store s f q) (CInit p) (PChild rem), [])
            | None => None
            end
          else None
      | _, _ => None
      end
  | SChildInit =>
      match mchild s with
      | CInit p =>
          Some ({| mnow := mnow s; mstores := mstores s; mtok := mtok s; mqc := mqc s; mqb := mqb s; mtotal := mtotal s;
                   mcur := Some p; mrecv := mrecv s; mchild := CTx p (mnow s + tx_time c p); mpc := mpc s |}, [OStart p])
      | _ => None
      end
  | SChildTimer =>
      match mchild s with
      | CTx p dl =>
          if Qeq_bool dl (mnow s) then
            let f := flow p in
            Some ({| mnow := mnow s; mstores := mstores s; mtok := mtok s;
                     mqc := upd (mqc s) f (mqc s f - 1)%Z; mqb := upd (mqb s) f (mqb s f - psize p)%Z;
                     mtotal := (mtotal s - 1)%Z; mcur := None; mrecv := mrecv s; mchild := CEnded; mpc := mpc s |},
                  [OForward p])
          else None
      | _ => None
      end
  | SChildEnd =>
      match mchild s, mpc s with
      | CEnded, PChild rem => resume c (with_child s CNone (PChild rem)) rem
      | _, _ => None
      end
  | SAdvance t =>
      if urgent c s then None
      else if Qlt_le_dec (mnow s) t then
        let s' := {| mnow := t; mstores := mstores s; mtok := mtok s; mqc := mqc s; mqb := mqb s; mtotal := mtotal s;
                     mcur := mcur s; mrecv := mrecv s; mchild := mchild s; mpc := mpc s |} in
        match mchild s with
        | CTx _ dl => if Qle_bool t dl then Some (s', []) else None
        | _ => Some (s', [])
        end
      else None
  | SSample incl => Some (s, [OSample (map (sample_of s incl) (sflows c))])
  end.

(* an execution: every action must be enabled (admissible); the trace pairs each action with the instant at which
   it happened and with what it emitted *)
Definition tev := (Q * saction * list sout)%type.

Fixpoint mq_run (c : mq_cfg) (s : mq) (acts : list saction) : option (mq * list tev) :=
  match acts with
  | [] => Some (s, [])
  | a :: rest =>
      match mq_act c s a with
      | None => None
      | Some (s', outs) =>
          match mq_run c s' rest with
          | None => None
          | Some (s'', tr) => Some (s'', (mnow s', a, outs) :: tr)
          end
      end
  end.

(* index of the first action that is not admissible (diagnosis), or None *)
Fixpoint mq_stuck (c : mq_cfg) (s : mq) (acts : list saction) (i : nat) : option nat :=
  match acts with
  | [] => None
  | a :: rest =>
      match mq_act c s a with
      | None => Some i
      | Some (s', _) => mq_stuck c s' rest (S i)
      end
  end.

(* ---- comparison with an observed execution (correspondence) -------------------------------------------- *)
Record obs := mkobs {
  o_q : list (Z * Z * Z);         (* per observed flow: queue_count, queue_byte_size *)
  o_st : list (Z * nat);          (* per class: len(stores[class].items) *)
  o_cur : option nat;             (* uid of current_packet *)
  o_rec : Z;                      (* packets_received *)
  o_tok : nat;                    (* len(packets_available.items) *)
  o_tot : Z;                      (* total_packets *)
  o_mon : list (Z * Z * Z)        (* what the Monitor appended in this step: flow, size sample, byte sample *)
}.

Definition forwards (l : list sout) : list pkt :=
  flat_map (fun o => match o with OForward p => [p] | _ => [] end) l.
Definition samples (l : list sout) : option (list (Z * Z * Z)) :=
  match filter (fun o => match o with OSample _ => true | _ => false end) l with
  | [OSample x] => Some x
  | _ => None
  end.

Fixpoint pkts_eqb (a b : list pkt) : bool :=
  match a, b with
  | [], [] => true
  | x :: s, y :: t => pkt_eqb x y && pkts_eqb s t
  | _, _ => false
  end.

Definition lookup3 (f : Z) (l : list (Z * Z * Z)) : option (Z * Z) :=
  match find (fun x => Z.eqb (fst (fst x)) f) l with Some (_, a, b) => Some (a, b) | None => None end.

(* the Monitor only knows the flows the scheduler has seen so far: the others must be 0 in the model *)
Definition sample_ok (c : mq_cfg) (model : option (list (Z * Z * Z))) (seen : list (Z * Z * Z)) : bool :=
  match model with
  | None => nilb seen
  | Some l =>
      forallb (fun x => match x with (f, a, b) =>
                 match lookup3 f seen with
                 | Some (a', b') => Z.eqb a a' && Z.eqb b b'
                 | None => Z.eqb a 0 && Z.eqb b 0
                 end end) l
      && forallb (fun x => memZ (fst (fst x)) (sflows c)) seen
  end.

Definition obs_ok (c : mq_cfg) (s : mq) (o : obs) : bool :=
  forallb (fun x => match x with (f, qc, qb) => Z.eqb (mqc s f) qc && Z.eqb (mqb s f) qb end) (o_q o)
  && forallb (fun x => match x with (k, n) => Nat.eqb (length (items (mstores s k))) n end) (o_st o)
  && match mcur s, o_cur o with
     | Some p, Some u => Nat.eqb (uid p) u
     | None, None => true
     | _, _ => false
     end
  && Z.eqb (mrecv s) (o_rec o) && Nat.eqb (length (items (mtok s))) (o_tok o) && Z.eqb (mtotal s) (o_tot o).

(* tap = false: the scheduler has no next hop (out = None); the model still emits OForward when a transmission ends, but
   nothing can be observed downstream: only counters, current_packet and Monitor samples are compared *)
Fixpoint mq_agree' (tap : bool) (c : mq_cfg) (s : mq) (l : list (saction * list sout * obs)) : bool :=
  match l with
  | [] => true
  | (a, outs, o) :: rest =>
      match mq_act c s a with
      | None => false
      | Some (s', outs') =>
          (if tap then pkts_eqb (forwards outs') (forwards outs) else nilb (forwards outs))
          && sample_ok c (samples outs') (o_mon o) && obs_ok c s' o
          && mq_agree' tap c s' rest
      end
  end.

Definition mq_agree := mq_agree' true.
