(* Bridging lemmas (DESIGN 2.6, second tie) for Timer.__init__: the body as translated from the tree under test on
   every run (Gen/Extracted_timer_init.v: the timeout check, the first arming, and -- as effects in program order --
   the rebinding of the local `args`, the store into self.args / self.kwargs, the creation of the timer process)
   yields the initial state [timer0] of the automaton (Elem/Timer.v) and stores [py_stored_args] (Elem/TimerArgs.v). *)
From Coq Require Import ZArith QArith List Bool Lqa.
From ONL Require Import Elem.Timer Elem.TimerArgs Elem.TimerBridge Gen.Extracted_timer_init.
Import ListNotations.

(* what the effects on `args` mean: the local variable, and what has been stored into self.args *)
Record init_env := { loc_args : pyval; stored_args : option pyval; nprocs : nat; raised : bool }.

Definition init_fx_apply (e : init_env) (x : timer_init_fx) : init_env :=
  match x with
  | IxArgsEmpty => {| loc_args := VList []; stored_args := stored_args e; nprocs := nprocs e; raised := raised e |}
  | IxArgsWrap => {| loc_args := VList [loc_args e]; stored_args := stored_args e; nprocs := nprocs e; raised := raised e |}
  | IxStoreArgs => {| loc_args := loc_args e; stored_args := Some (loc_args e); nprocs := nprocs e; raised := raised e |}
  | IxStoreKwargs => e
  | IxNewProc => {| loc_args := loc_args e; stored_args := stored_args e; nprocs := S (nprocs e); raised := raised e |}
  | IxRaiseValueError => {| loc_args := loc_args e; stored_args := stored_args e; nprocs := nprocs e; raised := true |}
  end.

Definition init_run (v : pyval) (fx : list timer_init_fx) : init_env :=
  fold_left init_fx_apply fx {| loc_args := v; stored_args := None; nprocs := 0; raised := false |}.

(* the two observations of `args` *)
Definition is_none (v : pyval) : bool := match v with VNone => true | _ => false end.

Definition timer_gen_init (s : timer_init_st) (now tau nx : Q) (v : pyval) :=
  gen_Timer_init s now tau nx (is_none v) (is_list_or_tuple v).

Lemma positive_not_le0 tau : 0 < tau -> Qle_bool tau (0 # 1) = false.
Proof. intros Ht. destruct (Qle_bool tau (0 # 1)) eqn:E; [|reflexivity]. apply Qle_bool_iff in E. lra. Qed.

(* a positive timeout: self.args holds py_stored_args of the object given, one timer process is created, nothing is raised
   -- whatever the previous field values and the nextafter observation are *)
Lemma bridge_timer_init_args s now tau nx v :
  0 < tau ->
  let e := init_run v (snd (timer_gen_init s now tau nx v)) in
  stored_args e = Some (py_stored_args v) /\ nprocs e = 1%nat /\ raised e = false.
Proof.
  intros Ht. unfold timer_gen_init, gen_Timer_init.
  cbv zeta. rewrite arm_guard_dead, (positive_not_le0 tau Ht).
  destruct v; cbn; repeat split; reflexivity.
Qed.

(* ... and the fields are those of timer0 (for every argument shape `a` of the automaton and every auto_restart flag) *)
Lemma bridge_timer_init_fields s now tau nx v au a :
  0 < tau ->
  let f := fst (timer_gen_init s now tau nx v) in
  let st := timer0 fixed now tau au a in
  ti_start_time f = tstart st /\ ti_timeout f = tmo st /\ ti_expire_time f = expire st /\ ti_stopped f = stopped st /\
  length (procs st) = 1%nat.
Proof.
  intros Ht. unfold timer_gen_init, gen_Timer_init.
  cbv zeta. rewrite arm_guard_dead, (positive_not_le0 tau Ht). destruct (is_none v), (is_list_or_tuple v); cbn; repeat split; reflexivity.
Qed.

(* a non-positive timeout: ValueError before anything is stored or created *)
Lemma bridge_timer_init_rejects s now tau nx v :
  tau <= 0 ->
  timer_gen_init s now tau nx v = (s, [IxRaiseValueError]).
Proof.
  intros Ht. unfold timer_gen_init, gen_Timer_init.
  assert (E : Qle_bool tau (0 # 1) = true) by (apply Qle_bool_iff; lra).
  rewrite E. destruct s; reflexivity.
Qed.

Example ex_init_scalar_string :
  stored_args (init_run (VStr [115; 101; 103]%Z)
                 (snd (timer_gen_init {| ti_start_time := 0; ti_timeout := 0; ti_expire_time := 0; ti_stopped := true |}
                         2 3 7 (VStr [115; 101; 103]%Z))))
  = Some (VList [VStr [115; 101; 103]%Z]).
Proof. vm_compute. reflexivity. Qed.
