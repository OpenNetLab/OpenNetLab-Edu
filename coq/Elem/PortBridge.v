(* Bridging lemmas (DESIGN 2.6, second tie) for Port.put: the body of put() as translated from the tree under
   test on every run (Gen/Extracted_port.v: new counters + the list of effects in program order) is the PPut step
   of the hand-written automaton (Elem/Port.v, [port_put] with [tail_policy] / [stamp_key]) the C09 theorems are
   about.  The code's effects are given their meaning in the model by [port_fx_apply]; the generated function is
   run on the fields of the abstract state ([port_fields], observations read off the state) and the result is
   compared with the model's step: same counters, same store, same stamps in the same order, same accept/refuse
   decision.  One script: unfold, case split on None-ness and on every comparison, reflexivity / lia. *)
From Coq Require Import ZArith QArith Qminmax List Bool Lia.
From ONL Require Import Elem.Packet Elem.StoreQ Elem.Port Gen.Extracted_port.
Import ListNotations.

(* the fields of the code, read off the abstract state *)
Definition port_fields (s : port) : port_st :=
  {| g_packets_received := precv s; g_byte_size := pbytes s; g_packets_dropped := pdrop s |}.

Definition with_fields (s : port) (f : port_st) : port :=
  {| pnow := pnow s; pq := pq s; pstarted := pstarted s; psvc := psvc s; pbytes := g_byte_size f;
     precv := g_packets_received f; pdrop := g_packets_dropped f; pavg := pavg s |}.

(* what one effect of put(packet) means in the model: a stamp is an output, store.put enqueues at the current instant *)
Definition port_fx_apply (p : pkt) (acc : port * list pout) (e : port_fx) : port * list pout :=
  match e with
  | FxStamp k t => (fst acc, snd acc ++ [OStamp k t])
  | FxStorePut => (with_q (fst acc) (sq_put fifo_push (pnow (fst acc)) p (pq (fst acc))), snd acc)
  end.

Definition port_fx_run (p : pkt) (s : port) (f : port_st) (fx : list port_fx) : port * list pout :=
  fold_left (port_fx_apply p) fx (with_fields s f, []).

Definition is_store_put (e : port_fx) : bool := match e with FxStorePut => true | _ => false end.

(* the generated put() run on the abstract state *)
Definition port_gen_put (eid qlimit : option Z) (lb dbg : bool) (s : port) (p : pkt) : port_st * list port_fx :=
  gen_Port_put (port_fields s) eid qlimit lb dbg (pnow s) (psize p) (Z.of_nat (length (items (pq s)))).

Ltac cmp_cases :=
  repeat match goal with
         | |- context [Z.ltb ?a ?b] => destruct (Z.ltb_spec a b)
         | |- context [Z.leb ?a ?b] => destruct (Z.leb_spec a b)
         | |- context [Z.eqb ?a ?b] => destruct (Z.eqb_spec a b)
         end.

(* Port.put = the model's PPut step (no uniform draw): the state after the step is the old state with the generated
   counters and the effects applied; the outputs are the stamps, followed by the ghost output ODrop exactly when the
   code did not call store.put *)
Lemma bridge_port_put : forall rate qlimit lb eid dbg s p,
  let g := port_gen_put eid qlimit lb dbg s p in
  let r := port_fx_run p s (fst g) (snd g) in
  port_act (port_cfg all_fixed rate qlimit lb eid) s (PPut p None) =
    Some (fst r, snd r ++ (if existsb is_store_put (snd g) then [] else [ODrop p])).
Proof.
  intros rate qlimit lb eid dbg s p.
  unfold port_gen_put, gen_Port_put, port_fx_run, port_fields; cbn.
  unfold port_put, port_cfg, tail_policy, stamp_key, over_limit, stamp_outs, put_refuse, put_accept, with_fields, with_q; cbn.
  destruct eid as [k|], qlimit as [q|], lb; cbn; cmp_cases; cbn;
    first [ reflexivity | exfalso; lia ].
Qed.

(* the effects themselves, in program order: the per-hop stamp (iff the element id is not None, under that id, with the
   current instant) BEFORE store.put(packet), which happens iff there is no limit or the property's tail-drop rule
   admits the packet *)
Definition port_put_effects (eid qlimit : option Z) (lb : bool) (s : port) (p : pkt) : list port_fx :=
  (match eid with Some _ => [FxStamp eid (pnow s)] | None => [] end) ++
  (match qlimit with
   | None => [FxStorePut]
   | Some q => if over_limit lb q s p then [] else [FxStorePut]
   end).

Lemma bridge_port_put_effects : forall eid qlimit lb dbg s p,
  snd (port_gen_put eid qlimit lb dbg s p) = port_put_effects eid qlimit lb s p.
Proof.
  intros eid qlimit lb dbg s p.
  unfold port_gen_put, gen_Port_put, port_fields, port_put_effects, over_limit; cbn.
  destruct eid as [k|], qlimit as [q|], lb; cbn; cmp_cases; cbn;
    first [ reflexivity | exfalso; lia ].
Qed.
