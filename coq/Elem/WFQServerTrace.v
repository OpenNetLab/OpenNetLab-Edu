(* Trace-level theorems about Elem/WFQServer.v for every discipline satisfying WFQServerProofs.disc:
   conservation, per-flow FIFO, exactly-once, counters, one transmission at a time lasting exactly
   8*size/rate, each transmission start = the entry selected in that instant with the least key,
   back-to-back service.  All statements are about the trace returned by [run] for ALL action lists. *)
From Coq Require Import ZArith QArith Qminmax Qabs List Bool Lia Lqa Permutation.
From ONL Require Import Elem.Packet Elem.StoreQ Elem.StoreQProofs Elem.HeapList Elem.WFQServer Elem.WFQServerProofs.
Import ListNotations.

Definition out_pkts (o : list fout) : list pkt := map (fun x => match x with OForward p => p end) o.

Definition only (f : Z) (l : list pkt) : list pkt := filter (fun p => Z.eqb (flow p) f) l.
Definition cnt (f : Z) (l : list pkt) : Z := Z.of_nat (length (only f l)).
Definition byt (f : Z) (l : list pkt) : Z := fold_right (fun p a => (psize p + a)%Z) 0%Z (only f l).

Lemma only_app f l1 l2 : only f (l1 ++ l2) = only f l1 ++ only f l2.
Proof. apply filter_app. Qed.

Lemma only_perm f l l' : Permutation l l' -> Permutation (only f l) (only f l').
Proof. apply filter_perm. Qed.

Lemma cnt_perm f l l' : Permutation l l' -> cnt f l = cnt f l'.
Proof. intros P. unfold cnt. f_equal. apply Permutation_length, only_perm, P. Qed.

Lemma sum_perm (l l' : list pkt) : Permutation l l' ->
  fold_right (fun p a => (psize p + a)%Z) 0%Z l = fold_right (fun p a => (psize p + a)%Z) 0%Z l'.
Proof. intros P. induction P; cbn; lia. Qed.

Lemma byt_perm f l l' : Permutation l l' -> byt f l = byt f l'.
Proof. intros P. unfold byt. apply sum_perm, only_perm, P. Qed.

(* the test is written as [fupd] writes it *)
Lemma cnt_cons f p l : cnt f (p :: l) = ((if Z.eqb f (flow p) then 1 else 0) + cnt f l)%Z.
Proof. unfold cnt, only. cbn [filter]. rewrite (Z.eqb_sym f). destruct (Z.eqb (flow p) f); cbn [length]; lia. Qed.

Lemma byt_cons f p l : byt f (p :: l) = ((if Z.eqb f (flow p) then psize p else 0) + byt f l)%Z.
Proof. unfold byt, only. cbn [filter]. rewrite (Z.eqb_sym f). destruct (Z.eqb (flow p) f); cbn [fold_right]; lia. Qed.

(* moving x to the front does not change the subsequence of a flow if no earlier element has x's flow *)
Lemma only_move f (l1 : list pkt) x l2 :
  (forall y, In y l1 -> flow y <> flow x) -> only f (x :: l1 ++ l2) = only f (l1 ++ x :: l2).
Proof.
  intros H. unfold only. cbn [filter]. rewrite !filter_app. cbn [filter].
  destruct (Z.eqb_spec (flow x) f) as [E|E]; [|reflexivity].
  assert (N : filter (fun p => Z.eqb (flow p) f) l1 = []).
  { clear -H E. induction l1 as [|y t IH]; [reflexivity|]. cbn [filter].
    destruct (Z.eqb_spec (flow y) f) as [Ey|Ey].
    - exfalso. apply (H y); [left; reflexivity|congruence].
    - apply IH. intros z Hz. apply H. right. exact Hz. }
  rewrite N. reflexivity.
Qed.

Lemma NoDup_app_l (A : Type) (l1 l2 : list A) : NoDup (l1 ++ l2) -> NoDup l1.
Proof.
  induction l1 as [|a t IH]; cbn; intros H; [constructor|].
  inversion H; subst. constructor; [|apply IH; assumption].
  intros C. match goal with N : ~ In a (t ++ l2) |- _ => apply N end. apply in_or_app. left. exact C.
Qed.

Section Trace.
  Variable S : stamper.
  Variable rate : Q.
  Hypothesis rate_pos : 0 < rate.
  Variable st0 : ST S.
  Variable conf : pkt -> Prop.
  Variable cls : pkt -> Z.
  Variable D : disc S st0 conf cls.
  Notation srvS := (srv S).
  Notation actS := (act S rate).
  Notation runS := (run S rate).
  Notation Reach := (reach S rate st0 conf).
  Notation InvS := (Inv S st0 conf cls D).

  Fixpoint puts (tr : list (tev S)) : list pkt :=
    match tr with
    | [] => []
    | (FPut p, _, _) :: t => p :: puts t
    | _ :: t => puts t
    end.

  Fixpoint fwds (tr : list (tev S)) : list pkt :=
    match tr with
    | [] => []
    | (_, o, _) :: t => out_pkts o ++ fwds t
    end.

  Definition puts_conf (acts : list faction) : Prop := forall p, In (FPut p) acts -> conf p.

  Lemma run_cons s a rest s'' tr :
    runS s (a :: rest) = Some (s'', tr) ->
    exists s' o tr', actS s a = Ok (s', o) /\ runS s' rest = Some (s'', tr') /\ tr = (a, o, s') :: tr'.
  Proof.
    cbn [run]. destruct (actS s a) as [[s' o]| |] eqn:E; try discriminate.
    destruct (runS s' rest) as [[s2 tr']|] eqn:R; [|discriminate].
    intros H. inversion H; subst. eauto 6.
  Qed.

  Definition state_at (s : srvS) (acts : list faction) (n : nat) : srvS :=
    match runS s (firstn n acts) with Some (s', _) => s' | None => s end.
  Definition trace_at (s : srvS) (acts : list faction) (n : nat) : list (tev S) :=
    match runS s (firstn n acts) with Some (_, tr) => tr | None => [] end.
  Definition outs_of (r : res (srvS * list fout)) : option (list fout) :=
    match r with Ok (_, o) => Some o | _ => None end.

  Lemma run_prefix acts : forall s s' tr n,
    runS s acts = Some (s', tr) -> exists s1, runS s (firstn n acts) = Some (s1, firstn n tr).
  Proof.
    induction acts as [|a rest IH]; intros s s' tr [|n] H; try (exists s; reflexivity).
    - cbn in H. injection H as _ <-. exists s. reflexivity.
    - apply run_cons in H as (s1 & o & tr' & A & H & ->). destruct (IH _ _ _ n H) as (s2 & E).
      exists s2. cbn [firstn run]. rewrite A, E. reflexivity.
  Qed.

  Lemma run_state_at s acts s' tr n :
    runS s acts = Some (s', tr) -> runS s (firstn n acts) = Some (state_at s acts n, trace_at s acts n).
  Proof.
    intros H. destruct (run_prefix _ _ _ _ n H) as (s1 & E). unfold state_at, trace_at. rewrite E. reflexivity.
  Qed.

  Lemma run_at acts : forall s s' tr n a s1 tr1 s2 tr2,
    runS s acts = Some (s', tr) -> nth_error acts n = Some a ->
    runS s (firstn n acts) = Some (s1, tr1) -> runS s (firstn (Datatypes.S n) acts) = Some (s2, tr2) ->
    exists o, actS s1 a = Ok (s2, o) /\ nth_error tr n = Some (a, o, s2).
  Proof.
    induction acts as [|a0 rest IH]; intros s s' tr [|n] a s1 tr1 s2 tr2 H Ha H1 H2; try discriminate Ha;
      apply run_cons in H as (sx & o & tr' & A & H & ->); cbn [firstn] in H1, H2;
      apply run_cons in H2 as (sy & oy & ty & A2 & H2 & _); rewrite A in A2; apply Ok_inj in A2 as [-> ->].
    - injection Ha as <-. cbn in H1, H2. injection H1 as <- _. injection H2 as <- _. exists o. auto.
    - apply run_cons in H1 as (sz & oz & tz & A1 & H1 & _). rewrite A in A1. apply Ok_inj in A1 as [-> _].
      exact (IH _ _ _ _ _ _ _ _ _ H Ha H1 H2).
  Qed.

  (* the outputs are the only part of a step's result read off the step itself: the state it leads to is the
     next prefix's.  N = the length of acts, given as firstn N acts = acts *)
  Lemma step_at s acts s' tr N n a o :
    runS s acts = Some (s', tr) -> firstn N acts = acts ->
    nth_error acts n = Some a -> outs_of (actS (state_at s acts n) a) = Some o ->
    actS (state_at s acts n) a = Ok (state_at s acts (Datatypes.S n), o) /\
    nth_error (trace_at s acts N) n = Some (a, o, state_at s acts (Datatypes.S n)).
  Proof.
    intros H HN Ha Ho. pose proof (run_state_at _ _ _ _ n H) as E1. pose proof (run_state_at _ _ _ _ (Datatypes.S n) H) as E2.
    destruct (run_at _ _ _ _ _ _ _ _ _ _ H Ha E1 E2) as (o' & A & Nt). rewrite A in Ho. injection Ho as ->.
    pose proof (run_state_at _ _ _ _ N H) as EN. rewrite HN, H in EN. injection EN as _ <-. auto.
  Qed.

  Definition puts_all (confb : pkt -> bool) (acts : list faction) : bool :=
    forallb (fun a => match a with FPut p => confb p | _ => true end) acts.

  Lemma puts_conf_check confb acts : (forall p, confb p = true -> conf p) -> puts_all confb acts = true -> puts_conf acts.
  Proof. intros Hb H p Hp. apply Hb. unfold puts_all in H. rewrite forallb_forall in H. exact (H _ Hp). Qed.

  Lemma puts_conf_firstn acts n : puts_conf acts -> puts_conf (firstn n acts).
  Proof. intros H p Hp. apply H. rewrite <- (firstn_skipn n acts). apply in_or_app. left. exact Hp. Qed.

  Lemma puts_conf_cons a rest : puts_conf (a :: rest) -> (forall p, a = FPut p -> conf p) /\ puts_conf rest.
  Proof.
    intros H. split.
    - intros p ->. apply H. left. reflexivity.
    - intros p Hp. apply H. right. exact Hp.
  Qed.

  (* every property of single steps from reachable states holds along every run *)
  Fixpoint steps_ok (P : srvS -> faction -> list fout -> srvS -> Prop) (pre : srvS) (tr : list (tev S)) : Prop :=
    match tr with
    | [] => True
    | (a, o, s') :: t => P pre a o s' /\ steps_ok P s' t
    end.

  Inductive exec : srvS -> list (tev S) -> srvS -> Prop :=
  | exec_nil s : exec s [] s
  | exec_cons s a o s1 tr s' :
      (forall p, a = FPut p -> conf p) -> actS s a = Ok (s1, o) -> exec s1 tr s' -> exec s ((a, o, s1) :: tr) s'.

  Lemma run_exec acts : forall s s' tr, puts_conf acts -> runS s acts = Some (s', tr) -> exec s tr s'.
  Proof.
    induction acts as [|a rest IH]; intros s s' tr C H.
    - cbn in H. injection H as <- <-. constructor.
    - apply run_cons in H as (s1 & o & tr' & A & H & ->). apply puts_conf_cons in C as (Ca & Cr).
      econstructor; eauto.
  Qed.

  Lemma exec_reach s tr s' : exec s tr s' -> Reach s -> Reach s'.
  Proof. induction 1 as [s|s a o s1 tr s' Ca A H IH]; intros R; [exact R|]. apply IH. eapply reachS; eauto. Qed.

  Lemma run_reach acts s s' tr : Reach s -> puts_conf acts -> runS s acts = Some (s', tr) -> Reach s'.
  Proof. intros R C H. exact (exec_reach _ _ _ (run_exec _ _ _ _ C H) R). Qed.

  Lemma exec_split tr1 : forall s a o s1 tr2 s',
    exec s (tr1 ++ (a, o, s1) :: tr2) s' -> Reach s -> exists s0, actS s0 a = Ok (s1, o) /\ Reach s1 /\ exec s1 tr2 s'.
  Proof.
    induction tr1 as [|ev tr1 IH]; intros s a o s1 tr2 s' H R; inversion H; subst.
    - exists s. split; [assumption|]. split; [eapply reachS; eauto|assumption].
    - eapply IH; [eassumption|]. eapply reachS; eauto.
  Qed.

  Lemma run_steps (P : srvS -> faction -> list fout -> srvS -> Prop) :
    (forall s a o s', Reach s -> (forall p, a = FPut p -> conf p) -> actS s a = Ok (s', o) -> P s a o s') ->
    forall acts s s' tr, Reach s -> puts_conf acts -> runS s acts = Some (s', tr) -> steps_ok P s tr.
  Proof.
    intros HP acts s s' tr R C H. apply run_exec in H; [|exact C]. revert R.
    induction H as [s|s a o s1 tr s' Ca A H IH]; intros R; [exact I|].
    split; [apply HP; assumption|]. apply IH. eapply reachS; eauto.
  Qed.

  (* ---- conservation ---- *)
  Theorem srv_conserves_gen acts : forall s s' tr,
    runS s acts = Some (s', tr) -> Permutation (held S s ++ puts tr) (fwds tr ++ held S s').
  Proof.
    induction acts as [|a rest IH]; intros s s' tr H.
    - cbn in H. injection H as <- <-. cbn. rewrite app_nil_r. apply Permutation_refl.
    - apply run_cons in H as (s1 & o & tr' & A & H & ->). specialize (IH _ _ _ H).
      pose proof (step_held S rate _ _ _ _ A) as SH.
      destruct a; cbn [puts fwds];
        try (destruct SH as (P & _ & ->); cbn [out_pkts map app];
             eapply Permutation_trans; [apply Permutation_app_tail; symmetry; exact P|exact IH]).
      + destruct SH as (E & _ & ->). cbn [out_pkts map app]. rewrite E in IH. rewrite <- app_assoc in IH. exact IH.
      + destruct SH as (e & dl & _ & -> & E & _). rewrite E. cbn [out_pkts map app]. apply perm_skip. exact IH.
      + destruct SH as (e & _ & _ & P & ->). cbn [out_pkts map app].
        eapply Permutation_trans; [apply Permutation_app_tail; symmetry; exact P|exact IH].
  Qed.

  Theorem srv_conserves acts s' tr :
    runS (srv0 0 st0) acts = Some (s', tr) -> Permutation (puts tr) (fwds tr ++ held S s').
  Proof. intros H. apply srv_conserves_gen in H. exact H. Qed.

  (* ---- per-flow FIFO ---- *)
  Lemma selection_only s (q' : sq item) f :
    InvS s ->
    (sq_cb pq_pop (store s) = Some q' \/ sq_get pq_pop (store s) = Some q') ->
    only f (map epkt (sq_held q')) = only f (map epkt (sq_held (store s))).
  Proof.
    intros HI H. destruct (pq_micro _ _ H) as [(_ & E & _)|(x & Hs & NG)]; [rewrite E; reflexivity|].
    destruct (selects_strict S st0 conf cls D s q' x HI Hs) as (l1 & l2 & E1 & E2 & G' & (_ & SL)).
    assert (Hs1 : sq_held (store s) = l1 ++ x :: l2).
    { unfold sq_held. destruct (get (store s)) as [| |y] eqn:G; try exact E1. exfalso. apply (NG y). reflexivity. }
    assert (Hs2 : sq_held q' = x :: l1 ++ l2).
    { unfold sq_held. rewrite G', E2. reflexivity. }
    rewrite Hs1, Hs2. cbn [map]. rewrite !map_app. cbn [map]. apply only_move.
    intros y Hy. apply in_map_iff in Hy as (e & <- & He). intros Ef.
    apply (SL e He). apply (d_cls_flow _ _ _ _ D). exact Ef.
  Qed.

  (* what one step does to the pipeline-ordered list of held packets, per flow *)
  Lemma step_only s a s' o f :
    InvS s -> actS s a = Ok (s', o) ->
    only f (out_pkts o) ++ only f (held S s') =
    only f (held S s) ++ only f (match a with FPut p => [p] | _ => [] end).
  Proof.
    intros HI H. pose proof HI as ((N & I0 & I1 & Dl) & _).
    destruct a; step_inv H; unfold held;
      cbn [now started store stm seq qcount qbytes nrecv chl with_store with_child with_now out_pkts map app only filter];
      rewrite ?app_nil_r.
    - (* FPut *) rewrite pq_held_put, map_app, !only_app. cbn [map epkt snd ipkt]. rewrite app_assoc. reflexivity.
    - (* FInit *) rewrite !only_app. f_equal. apply selection_only; [exact HI|right; exact G].
    - (* FStoreCb *) rewrite !only_app. f_equal. apply selection_only; [exact HI|left; exact G].
    - (* FGetDone *) apply sq_take_held in G. rewrite G, Ec. reflexivity.
    - (* FChildInit *) rewrite Ec. reflexivity.
    - (* FChildTimer *) rewrite Ec.
      cbn [child_pkts app only filter]. unfold only. cbn [filter]. destruct (Z.eqb (flow (epkt e)) f); reflexivity.
    - (* FChildEnd *) rewrite Ec. cbn [child_pkts app]. apply selection_only; [exact HI|right; exact G].
    - reflexivity.
  Qed.

  Theorem srv_flow_fifo_gen s tr s' f :
    exec s tr s' -> Reach s -> only f (fwds tr) ++ only f (held S s') = only f (held S s) ++ only f (puts tr).
  Proof.
    induction 1 as [s|s a o s1 tr s' Ca A H IH]; intros R.
    - cbn. rewrite app_nil_r. reflexivity.
    - specialize (IH (reachS _ _ _ _ _ _ _ _ R Ca A)).
      pose proof (step_only _ _ _ _ f (Inv_reach S rate rate_pos st0 conf cls D s R) A) as SO.
      cbn [fwds]. rewrite only_app, <- app_assoc, IH, app_assoc, SO, <- app_assoc. f_equal.
      destruct a; cbn [puts only filter app]; try reflexivity.
      unfold only. cbn [filter]. destruct (Z.eqb (flow p) f); reflexivity.
  Qed.

  (* the packets of a flow forwarded so far, followed by those of it still held (in pipeline order), are
     the packets of that flow put in, in the order they were put *)
  Theorem srv_flow_fifo acts s' tr f :
    puts_conf acts -> runS (srv0 0 st0) acts = Some (s', tr) ->
    only f (fwds tr) ++ only f (held S s') = only f (puts tr).
  Proof. intros C H. exact (srv_flow_fifo_gen _ _ _ f (run_exec _ _ _ _ C H) (reach0 _ _ _ _)). Qed.

  (* ---- exactly once ---- *)
  Theorem srv_exactly_once acts s' tr :
    puts_conf acts -> runS (srv0 0 st0) acts = Some (s', tr) -> NoDup (map uid (puts tr)) ->
    NoDup (map uid (fwds tr)) /\ (forall p, In p (fwds tr) -> In p (puts tr)) /\
    (urgent s' = false -> (forall e dl, chl s' <> CTx e dl) -> Permutation (puts tr) (fwds tr)).
  Proof.
    intros C H ND. pose proof (srv_conserves _ _ _ H) as P. split; [|split].
    - assert (ND' : NoDup (map uid (fwds tr ++ held S s'))).
      { eapply Permutation_NoDup; [apply Permutation_map; exact P|exact ND]. }
      rewrite map_app in ND'. apply NoDup_app_l in ND'. exact ND'.
    - intros p Hp. eapply Permutation_in; [symmetry; exact P|]. apply in_or_app. left. exact Hp.
    - intros U NT. assert (R : Reach s') by (eapply run_reach; [apply reach0|exact C|exact H]).
      destruct (srv_drained S rate rate_pos st0 conf cls D s' R U NT) as (Hh & _).
      rewrite Hh, app_nil_r in P. exact P.
  Qed.

  (* ---- counters ---- *)
  Theorem srv_counters s : Reach s ->
    (forall f, qcount s f = cnt f (held S s) /\ qbytes s f = byt f (held S s)) /\ nrecv s = Z.of_nat (seq s).
  Proof.
    induction 1 as [|s a s' o R IH Hc H].
    - split; [intros f; split; reflexivity|reflexivity].
    - destruct IH as (IHf & IHn). pose proof (step_held S rate _ _ _ _ H) as SH.
      destruct a; step_inv H; cbn [now started store stm seq qcount qbytes nrecv chl with_store with_child with_now] in *;
        try (destruct SH as (P & _ & _); split; [intros f; rewrite (cnt_perm f _ _ P), (byt_perm f _ _ P); apply IHf|exact IHn]).
      + (* FPut *)
        destruct SH as (E & _ & _). split; [|lia]. intros f. rewrite E.
        rewrite (cnt_perm f _ (p :: held S s)), (byt_perm f _ (p :: held S s))
          by (symmetry; apply Permutation_cons_append).
        rewrite cnt_cons, byt_cons. unfold fupd. destruct (IHf f) as (A & B). destruct (IHf (flow p)) as (A' & B').
        destruct (Z.eqb_spec f (flow p)) as [->|Nf]; lia.
      + (* FChildTimer *)
        destruct SH as (e' & dl' & Ee & _ & E & _). rewrite Ec in Ee. injection Ee as <- <-. split; [|exact IHn]. intros f.
        match type of E with _ = _ :: ?hh => set (h := hh) in * end.
        destruct (IHf f) as (A & B). destruct (IHf (flow (epkt e))) as (A' & B'). rewrite E in A, B, A', B'.
        rewrite cnt_cons in A, A'. rewrite byt_cons in B, B'. unfold fupd.
        rewrite Z.eqb_refl in A', B'. destruct (Z.eqb_spec f (flow (epkt e))) as [Ef|Nf]; [rewrite Ef in A, B |- *|]; lia.
      + (* FChildEnd *)
        destruct SH as (e' & _ & _ & P & _). split; [intros f; rewrite (cnt_perm f _ _ P), (byt_perm f _ _ P); apply IHf|exact IHn].
  Qed.

  Theorem srv_drained_trace acts s' tr :
    puts_conf acts -> runS (srv0 0 st0) acts = Some (s', tr) ->
    urgent s' = false -> (forall e dl, chl s' <> CTx e dl) ->
    held S s' = [] /\ (forall f, qcount s' f = 0%Z /\ qbytes s' f = 0%Z).
  Proof.
    intros C H U NT. assert (R : Reach s') by (eapply run_reach; [apply reach0|exact C|exact H]).
    destruct (srv_drained S rate rate_pos st0 conf cls D s' R U NT) as (Hh & _). split; [exact Hh|].
    intros f. destruct (srv_counters s' R) as (Cf & _). destruct (Cf f) as (A & B). rewrite Hh in A, B. exact (conj A B).
  Qed.

  (* ---- one transmission at a time, lasting exactly 8*size/rate, never aborted ---- *)
  (* [cur] = the transmission in progress: (instant at which it must end, packet) *)
  Fixpoint tx_ok (cur : option (Q * pkt)) (tr : list (tev S)) : Prop :=
    match tr with
    | [] => True
    | (a, o, s') :: t =>
        match a with
        | FChildInit =>       (* a transmission starts: none may be in progress *)
            cur = None /\ o = [] /\
            exists e dl, chl s' = CTx e dl /\ dl == now s' + tx_time rate (epkt e) /\ tx_ok (Some (dl, epkt e)) t
        | FChildTimer =>      (* a packet is forwarded: it is the one in transmission, at exactly its end instant *)
            exists dl p, cur = Some (dl, p) /\ o = [OForward p] /\ now s' == dl /\ tx_ok None t
        | _ =>                (* nothing else forwards, aborts or lets the end instant pass *)
            o = [] /\ (forall dl p, cur = Some (dl, p) -> now s' <= dl) /\ tx_ok cur t
        end
    end.

  Definition cur_of (s : srvS) : option (Q * pkt) :=
    match chl s with CTx e dl => Some (dl, epkt e) | _ => None end.

  Theorem srv_tx_time_gen s tr s' : exec s tr s' -> Reach s -> tx_ok (cur_of s) tr.
  Proof.
    induction 1 as [s|s a o s1 tr' s' Ca A H IH]; intros R; [exact I|].
    specialize (IH (reachS _ _ _ _ _ _ _ _ R Ca A)).
    destruct (Inv_reach S rate rate_pos st0 conf cls D s R) as ((_ & _ & _ & Dn) & _).
    assert (K : forall dl p, cur_of s = Some (dl, p) -> now s <= dl).
    { unfold cur_of. intros dl p E. destruct (chl s) as [| |e0 d0|]; try discriminate. injection E as <- _. apply (Dn e0 d0 eq_refl). }
    unfold cur_of in *. cbn [tx_ok].
    destruct a; step_inv A; cbn [now started store stm seq qcount qbytes nrecv chl with_store with_child with_now] in *;
      try rewrite Ec in *; try (split; [reflexivity|]; split; [first [exact K|discriminate]|exact IH]).
    - (* FChildInit *) split; [reflexivity|]. split; [reflexivity|]. eexists _, _. split; [reflexivity|].
      split; [apply Qred_correct|exact IH].
    - (* FChildTimer *) eexists _, _. split; [reflexivity|]. split; [reflexivity|]. split; [|exact IH].
      apply Qeq_bool_iff in Et. symmetry. exact Et.
    - (* FAdvance: not past the end of the transmission *) split; [reflexivity|]. split; [|exact IH].
      intros dl p E. destruct (chl s) as [| |e0 d0|]; try discriminate. injection E as <- _. apply (Dl e0 d0 eq_refl).
  Qed.

  Theorem srv_tx_time acts s' tr :
    puts_conf acts -> runS (srv0 0 st0) acts = Some (s', tr) -> tx_ok None tr.
  Proof. intros C H. exact (srv_tx_time_gen _ _ _ (run_exec _ _ _ _ C H) (reach0 _ _ _ _)). Qed.

  (* ---- each transmission starts the entry selected in that very instant, which had the least key ---- *)
  Definition newly_granted (pre post : srvS) : option entry :=
    match get (store post), get (store pre) with
    | GGranted _, GGranted _ => None
    | GGranted x, _ => Some x
    | _, _ => None
    end.

  (* [cur] = the entry selected (popped from the PriorityStore) and not yet in transmission, with the instant
     of its selection *)
  Fixpoint sel_ok (pre : srvS) (cur : option (Q * entry)) (tr : list (tev S)) : Prop :=
    match tr with
    | [] => True
    | (a, o, s') :: t =>
        match newly_granted pre s' with
        | Some x =>        (* a selection: nothing else is selected and pending; x has strictly the least key *)
            cur = None /\
            (exists l1 l2, items (store pre) = l1 ++ x :: l2 /\ items (store s') = l1 ++ l2 /\ strictly_least cls x l1 l2) /\
            sel_ok s' (Some (now s', x)) t
        | None =>
            match a with
            | FChildInit =>  (* a transmission starts: it is the selected entry, selected at this very instant *)
                exists x dl, cur = Some (now s', x) /\ chl s' = CTx x dl /\ sel_ok s' None t
            | _ =>           (* no time passes while a selected entry waits for its transmission to start *)
                (forall t0 x, cur = Some (t0, x) -> now s' = t0) /\ sel_ok s' cur t
            end
        end
    end.

  Definition cinit (c : child) : option entry := match c with CInit x => Some x | _ => None end.

  Definition pending (s : srvS) : option (Q * entry) :=
    match get (store s) with
    | GGranted x => Some (now s, x)
    | _ => option_map (pair (now s)) (cinit (chl s))
    end.

  Lemma newly_granted_same (s s' : srvS) : get (store s') = get (store s) -> newly_granted s s' = None.
  Proof. unfold newly_granted. intros ->. destruct (get (store s)); reflexivity. Qed.

  Lemma pending_now s t0 x : pending s = Some (t0, x) -> now s = t0.
  Proof.
    unfold pending. destruct (get (store s)); [destruct (cinit (chl s))|destruct (cinit (chl s))|]; cbn;
      intros E; try discriminate E; injection E as <- _; reflexivity.
  Qed.

  Lemma pending_not_urgent s : urgent s = false -> pending s = None.
  Proof.
    intros U. apply urgent_false in U as (_ & Uq & Uc & _). apply sq_urgent_false in Uq as (_ & NG).
    unfold pending, child_urgent in *. destruct (get (store s)) as [| |y]; [| |destruct (NG y eq_refl)];
      destruct (chl s); try discriminate Uc; reflexivity.
  Qed.

  (* what one step does to the selected-and-not-yet-started entry: exactly the clauses of [sel_ok], with the
     entry read off the state before and after *)
  Definition pstep (s : srvS) (a : faction) (s' : srvS) : Prop :=
    match newly_granted s s' with
    | Some x => pending s = None /\ pending s' = Some (now s', x) /\
                exists l1 l2, items (store s) = l1 ++ x :: l2 /\ items (store s') = l1 ++ l2 /\ strictly_least cls x l1 l2
    | None => match a with
              | FChildInit => exists x dl, pending s = Some (now s', x) /\ chl s' = CTx x dl /\ pending s' = None
              | _ => pending s' = pending s /\ forall t0 x, pending s = Some (t0, x) -> now s' = t0
              end
    end.

  Lemma sel_ok_cons s a o s' t : pstep s a s' -> sel_ok s' (pending s') t -> sel_ok s (pending s) ((a, o, s') :: t).
  Proof.
    unfold pstep. cbn [sel_ok]. destruct (newly_granted s s') as [x|].
    - intros (P & -> & L) IH. auto.
    - destruct a; try (intros (-> & P) IH; auto). intros (x & dl & -> & C & ->) IH. eauto.
  Qed.

  Lemma pstep_unchanged s a s' :
    a <> FChildInit -> now s' = now s ->
    get (store s') = get (store s) \/ get (store s) = GNone /\ get (store s') = GWaiting ->
    cinit (chl s') = cinit (chl s) -> pstep s a s'.
  Proof.
    intros Na En Hg Hc.
    assert (Hn : newly_granted s s' = None).
    { unfold newly_granted. destruct Hg as [->|(-> & ->)]; [destruct (get (store s))|]; reflexivity. }
    assert (Ep : pending s' = pending s).
    { unfold pending. rewrite En, Hc. destruct Hg as [->|(-> & ->)]; reflexivity. }
    unfold pstep. rewrite Hn.
    destruct a; try (split; [exact Ep|intros t0 x E; rewrite En; exact (pending_now _ _ _ E)]). destruct (Na eq_refl).
  Qed.

  Lemma pstep_selected s a o s' x :
    Reach s -> actS s a = Ok (s', o) -> selects (store s) (store s') x -> (forall y, get (store s) <> GGranted y) ->
    cinit (chl s) = None -> pstep s a s'.
  Proof.
    intros R A (l1 & l2 & _ & _ & Gx & _) NG Hc.
    assert (Hn : newly_granted s s' = Some x).
    { unfold newly_granted. rewrite Gx. destruct (get (store s)) as [| |y] eqn:G; try reflexivity. destruct (NG y eq_refl). }
    unfold pstep. rewrite Hn. split; [|split].
    - unfold pending. rewrite Hc. destruct (get (store s)) as [| |y]; try reflexivity. destruct (NG y eq_refl).
    - unfold pending. rewrite Gx. reflexivity.
    - apply (srv_select_min S rate rate_pos st0 conf cls D s a s' o x R A Gx). apply NG.
  Qed.

  Lemma pstep_micro s a o s' :
    Reach s -> actS s a = Ok (s', o) -> a <> FChildInit -> now s' = now s -> cinit (chl s') = cinit (chl s) ->
    sq_cb pq_pop (store s) = Some (store s') \/ sq_get pq_pop (store s) = Some (store s') ->
    (forall x, selects (store s) (store s') x -> cinit (chl s) = None) -> pstep s a s'.
  Proof.
    intros R A Na En Hc Hq Hsel. destruct (pq_micro _ _ Hq) as [(_ & _ & Hg)|(x & Hs & NG)].
    - exact (pstep_unchanged s a s' Na En Hg Hc).
    - exact (pstep_selected s a o s' x R A Hs NG (Hsel x Hs)).
  Qed.

  Lemma srv_pstep s a o s' : Reach s -> actS s a = Ok (s', o) -> pstep s a s'.
  Proof.
    intros R A. pose proof A as A0. destruct (Inv_reach S rate rate_pos st0 conf cls D s R) as (HA & _).
    pose proof HA as (_ & I0 & _).
    destruct a; step_inv A.
    - apply pstep_unchanged; [discriminate|reflexivity|left; reflexivity|reflexivity].
    - destruct (I0 St) as (_ & C0).
      apply (pstep_micro _ _ _ _ R A0); [discriminate|reflexivity|reflexivity|right; exact G|].
      intros x _. rewrite C0. reflexivity.
    - (* FStoreCb: a selection means run() was waiting, so it has no child *)
      apply (pstep_micro _ _ _ _ R A0); [discriminate|reflexivity|reflexivity|left; exact G|].
      cbn [store with_store]. intros x (l1 & l2 & _ & _ & Gx & _). destruct (chl s) eqn:Ec; try reflexivity. exfalso.
      assert (Gn : get (store s) = GNone) by (apply (child_busy_get_none _ _ HA); rewrite Ec; discriminate).
      destruct (sq_cb_not_waiting _ _ _ _ G) as (_ & G'); [rewrite Gn; discriminate|].
      rewrite G', Gn in Gx. discriminate.
    - (* FGetDone: the granted entry becomes the child's *)
      apply sq_take_inv in G as (G & _ & _ & G').
      unfold pstep, newly_granted, pending. cbn [store chl now with_child with_store]. rewrite G, G'. cbn.
      split; [reflexivity|]. intros t0 x E. injection E as <- _. reflexivity.
    - assert (G : get (store s) = GNone) by (apply (child_busy_get_none _ _ HA); congruence).
      unfold pstep. rewrite newly_granted_same by reflexivity. eexists _, _. unfold pending.
      cbn [store chl now with_child]. rewrite G, Ec. cbn. auto.
    - apply pstep_unchanged; [discriminate|reflexivity|left; reflexivity|]. cbn [chl]. rewrite Ec. reflexivity.
    - assert (Hc : cinit (chl s) = None) by (rewrite Ec; reflexivity).
      apply (pstep_micro _ _ _ _ R A0); [discriminate|reflexivity|rewrite Hc; reflexivity|right; exact G|]. intros x _. exact Hc.
    - (* FAdvance: nothing is pending *)
      pose proof (pending_not_urgent s U) as P. unfold pstep. rewrite newly_granted_same by reflexivity.
      split; [|rewrite P; discriminate]. rewrite P. unfold pending in *. cbn [store chl with_now].
      destruct (get (store s)); try discriminate P; destruct (cinit (chl s)); try discriminate P; reflexivity.
  Qed.

  Theorem srv_stamp_order_gen s tr s' : exec s tr s' -> Reach s -> sel_ok s (pending s) tr.
  Proof.
    induction 1 as [s|s a o s1 tr s' Ca A H IH]; intros R; [exact I|].
    apply sel_ok_cons; [exact (srv_pstep _ _ _ _ R A)|]. apply IH. eapply reachS; eauto.
  Qed.

  Theorem srv_stamp_order acts s' tr :
    puts_conf acts -> runS (srv0 0 st0) acts = Some (s', tr) -> sel_ok (srv0 0 st0) None tr.
  Proof. intros C H. exact (srv_stamp_order_gen _ _ _ (run_exec _ _ _ _ C H) (reach0 _ _ _ _)). Qed.

  (* ---- never idle with a backlog; back-to-back transmissions ---- *)
  (* scanning forward: the clock does not move before the next transmission starts, and it starts at t0 *)
  Fixpoint starts_at (t0 : Q) (tr : list (tev S)) : Prop :=
    match tr with
    | [] => True
    | (a, _, s1) :: t =>
        match a with
        | FChildInit => now s1 = t0
        | FAdvance _ => False
        | _ => starts_at t0 t
        end
    end.

  Theorem srv_no_idle_backlog_gen s tr s' :
    exec s tr s' -> Reach s -> held S s <> [] -> (forall e dl, chl s <> CTx e dl) -> starts_at (now s) tr.
  Proof.
    induction 1 as [s|s a o s1 tr s' Ca A H IH]; intros R Hh NT; [exact I|].
    cbn [starts_at].
    (* any step but a start, a timeout or a move of the clock keeps the instant, the backlog and the idle line *)
    assert (Next : (forall t, a <> FAdvance t) -> a <> FChildInit -> a <> FChildTimer -> starts_at (now s) tr).
    { intros N1 N2 N3. rewrite <- (act_now _ _ _ _ _ _ A N1). apply IH; [eapply reachS; eauto|eapply held_stays; eauto|].
      intros e dl E. destruct (act_chl_tx _ _ _ _ _ _ _ _ A E) as [F|F]; [exact (N2 F)|exact (NT _ _ F)]. }
    destruct a; try (apply Next; discriminate).
    - apply (act_now _ _ _ _ _ _ A). discriminate.
    - exfalso. destruct (step_held S rate _ _ _ _ A) as (e & dl & Ec & _). exact (NT _ _ Ec).
    - apply act_advance in A as (U & _).
      destruct (srv_work_conserving S rate rate_pos st0 conf cls D s R U) as [(e & dl & Ec & _)|E]; [exact (NT _ _ Ec)|exact (Hh E)].
  Qed.

  (* if a packet is held right after any step of a run and no transmission is in progress, the next
     transmission starts before the clock moves, i.e. in that very instant *)
  Theorem srv_no_idle_backlog acts s' tr :
    puts_conf acts -> runS (srv0 0 st0) acts = Some (s', tr) ->
    forall tr1 a o s1 tr2, tr = tr1 ++ (a, o, s1) :: tr2 ->
    held S s1 <> [] -> (forall e dl, chl s1 <> CTx e dl) -> starts_at (now s1) tr2.
  Proof.
    intros C H tr1 a o s1 tr2 -> Hh NT.
    destruct (exec_split _ _ _ _ _ _ _ (run_exec _ _ _ _ C H) (reach0 _ _ _ _)) as (s0 & _ & R1 & H2).
    exact (srv_no_idle_backlog_gen _ _ _ H2 R1 Hh NT).
  Qed.

  (* in particular after the end of a transmission: back-to-back service *)
  Corollary srv_back_to_back acts s' tr :
    puts_conf acts -> runS (srv0 0 st0) acts = Some (s', tr) ->
    forall tr1 o s1 tr2, tr = tr1 ++ (FChildTimer, o, s1) :: tr2 -> held S s1 <> [] -> starts_at (now s1) tr2.
  Proof.
    intros C H tr1 o s1 tr2 E Hh. eapply srv_no_idle_backlog; eauto. subst tr.
    destruct (exec_split _ _ _ _ _ _ _ (run_exec _ _ _ _ C H) (reach0 _ _ _ _)) as (s0 & A & _).
    act_inv A. discriminate.
  Qed.

  (* ---- one at a time, as properties of single steps: a transmission starts only when none is in progress;
          while one is in progress no step aborts it or forwards anything, and it ends only at its end
          instant with its own packet; nothing but the end of a transmission forwards ---- *)
  Theorem srv_start_when_free s s' o :
    actS s FChildInit = Ok (s', o) ->
    current_packet s = None /\
    exists e, chl s = CInit e /\ chl s' = CTx e (Qred (now s + tx_time rate (epkt e))) /\ current_packet s' = Some (epkt e).
  Proof.
    intros A. unfold act in A. unfold current_packet. destruct (chl s) as [|e|e dl|e] eqn:Ec; try discriminate A.
    apply Ok_inj in A as [-> ->]. split; [reflexivity|]. exists e. cbn [chl with_child]. auto.
  Qed.

  Theorem srv_never_aborts s a s' o e dl :
    Reach s -> chl s = CTx e dl -> actS s a = Ok (s', o) ->
    (a = FChildTimer /\ o = [OForward (epkt e)] /\ dl == now s /\ chl s' = CEnded e /\ current_packet s' = None) \/
    (a <> FChildTimer /\ chl s' = CTx e dl /\ o = [] /\ now s' <= dl).
  Proof.
    intros R Hc A. destruct (Inv_reach S rate rate_pos st0 conf cls D s R) as ((_ & _ & _ & Dn) & _).
    specialize (Dn e dl Hc).
    destruct a; step_inv A; cbn [chl now with_store with_child with_now]; try congruence;
      try (right; split; [discriminate|]; split; [exact Hc|]; split; [reflexivity|exact Dn]).
    - rewrite Hc in Ec. apply CTx_inj in Ec as [-> ->].
      left. apply Qeq_bool_iff in Et. unfold current_packet. cbn [chl]. auto 6.
    - right. split; [discriminate|]. split; [exact Hc|]. split; [reflexivity|exact (Dl e dl Hc)].
  Qed.

  Theorem srv_only_end_forwards s a s' o : actS s a = Ok (s', o) -> o <> [] -> a = FChildTimer.
  Proof.
    intros A Ho. destruct a; try reflexivity; act_inv A; exfalso; apply Ho; reflexivity.
  Qed.
  Theorem srv_one_at_a_time s a s' o :
    Reach s -> actS s a = Ok (s', o) ->
    (a = FChildInit -> current_packet s = None /\
       exists e, chl s = CInit e /\ chl s' = CTx e (Qred (now s + tx_time rate (epkt e))) /\ current_packet s' = Some (epkt e)) /\
    (forall e dl, chl s = CTx e dl ->
       (a = FChildTimer /\ o = [OForward (epkt e)] /\ dl == now s /\ chl s' = CEnded e /\ current_packet s' = None) \/
       (a <> FChildTimer /\ chl s' = CTx e dl /\ o = [] /\ now s' <= dl)) /\
    (o <> [] -> a = FChildTimer).
  Proof.
    intros HR A. split; [|split].
    - intros ->. exact (srv_start_when_free _ _ _ A).
    - intros e dl Ec. exact (srv_never_aborts s a s' o e dl HR Ec A).
    - exact (srv_only_end_forwards _ _ _ _ A).
  Qed.
End Trace.
