(* A common interface for network elements (C08, "any pipeline built from them").

   Every element model of layer E (Wire.v, Port.v, Bucket.v, SchedBase.v, WFQServer.v ...) is a timed automaton
   `X_act : cfg -> state -> action -> option (state * list out)` with a Put action, internal micro-step actions and an
   Advance action.  [elem] is that shape with the element-specific parts abstracted: a state type, a type of labels for
   the internal micro-steps, the three kinds of action, and what the C08 statements speak about (what is held, whether
   something is still due in the current instant, the pending deadline).  The adapters (Elem/Adapt*.v) instantiate it
   from the existing models and show that the adapter's executions are exactly the model's executions.

   Outputs: EForward p (out.put(p)), EDrop p (discarded by the element's documented rule), EHand k p (a hand-over
   INSIDE a composed element: stage k passed p to stage k+1; atomic elements never emit it).  Executable; the generic
   lemmas used by Compose.v are proved here. *)
From Coq Require Import ZArith QArith List Bool Permutation Lia.
From ONL Require Import Elem.Packet.
Import ListNotations.

Inductive eout := EForward (p : pkt) | EDrop (p : pkt) | EHand (k : nat) (p : pkt).

Inductive iact (L : Type) := IPut (p : pkt) | IStep (l : L) | IAdv (t : Q).
Arguments IPut {L} p.
Arguments IStep {L} l.
Arguments IAdv {L} t.

Record elem := mkElem {
  st : Type;                                         (* the element's state (carries its clock) *)
  lab : Type;                                        (* labels of its internal micro-steps (kernel steps that belong to it) *)
  init : st;
  now : st -> Q;
  put : pkt -> st -> option (st * list eout);        (* put(p) called by the upstream element; None = not admissible *)
  step : lab -> st -> option (st * list eout);       (* one internal micro-step; None = not enabled *)
  advance : Q -> st -> option st;                    (* the clock moves; None = something is still due / a deadline would be passed *)
  urgent : st -> bool;                               (* something of the element is still due in the current instant *)
  deadline : st -> option Q;                         (* the pending timeout, if any *)
  held : st -> list pkt;                             (* the packets inside the element *)
  accepts : pkt -> bool;                             (* the packets the element is specified for (drained clause only) *)
  width : nat                                        (* number of atomic stages (1 for an atomic element) *)
}.

Definition act (E : elem) (s : st E) (a : iact (lab E)) : option (st E * list eout) :=
  match a with
  | IPut p => put E p s
  | IStep l => step E l s
  | IAdv t => match advance E t s with Some s' => Some (s', []) | None => None end
  end.

(* an execution: every action must be admissible; the trace pairs each action with the instant at which it happened
   and with what it emitted *)
Definition tev (L : Type) := (Q * iact L * list eout)%type.

Fixpoint run (E : elem) (s : st E) (acts : list (iact (lab E))) : option (st E * list (tev (lab E))) :=
  match acts with
  | [] => Some (s, [])
  | a :: rest =>
      match act E s a with
      | None => None
      | Some (s', outs) =>
          match run E s' rest with
          | None => None
          | Some (s'', tr) => Some (s'', (now E s', a, outs) :: tr)
          end
      end
  end.

(* index of the first action that is not admissible (diagnosis), or None *)
Fixpoint stuck (E : elem) (s : st E) (acts : list (iact (lab E))) (i : nat) : option nat :=
  match acts with
  | [] => None
  | a :: rest => match act E s a with None => Some i | Some (s', _) => stuck E s' rest (S i) end
  end.

(* ---- what a trace says ----------------------------------------------------------------------------------- *)
Definition a_puts {L : Type} (a : iact L) : list pkt := match a with IPut p => [p] | _ => [] end.
Definition o_fwds (l : list eout) : list pkt := flat_map (fun o => match o with EForward p => [p] | _ => [] end) l.
Definition o_drops (l : list eout) : list pkt := flat_map (fun o => match o with EDrop p => [p] | _ => [] end) l.
Definition o_hands (k : nat) (l : list eout) : list pkt :=
  flat_map (fun o => match o with EHand j p => if Nat.eqb j k then [p] else [] | _ => [] end) l.

Definition puts {L : Type} (tr : list (tev L)) : list pkt := flat_map (fun e : tev L => a_puts (snd (fst e))) tr.
Definition fwds {L : Type} (tr : list (tev L)) : list pkt := flat_map (fun e : tev L => o_fwds (snd e)) tr.
Definition drops {L : Type} (tr : list (tev L)) : list pkt := flat_map (fun e : tev L => o_drops (snd e)) tr.
Definition hands {L : Type} (k : nat) (tr : list (tev L)) : list pkt := flat_map (fun e : tev L => o_hands k (snd e)) tr.
(* the timed versions: (instant, packet) *)
Definition tputs {L : Type} (tr : list (tev L)) : list (Q * pkt) :=
  flat_map (fun e : tev L => map (fun p => (fst (fst e), p)) (a_puts (snd (fst e)))) tr.
Definition tfwds {L : Type} (tr : list (tev L)) : list (Q * pkt) :=
  flat_map (fun e : tev L => map (fun p => (fst (fst e), p)) (o_fwds (snd e))) tr.

Definition on_flow (f : Z) (p : pkt) : bool := Z.eqb (flow p) f.

(* l1 is a subsequence of l2 (same relative order) *)
Inductive sublist {A : Type} : list A -> list A -> Prop :=
| sl_nil l : sublist [] l
| sl_take x l1 l2 : sublist l1 l2 -> sublist (x :: l1) (x :: l2)
| sl_skip x l1 l2 : sublist l1 l2 -> sublist l1 (x :: l2).

(* ---- the C08 laws in interface form ------------------------------------------------------------------------ *)
(* for every admissible execution: the packets put in are, as a multiset of packet RECORDS (uid and header fields: a
   forwarded packet IS a packet that was put in), the packets forwarded, those dropped by the rule and those held *)
Definition conserves (E : elem) : Prop := forall acts s tr,
  run E (init E) acts = Some (s, tr) -> Permutation (puts tr) (fwds tr ++ drops tr ++ held E s).
(* the forwarded packets of flow f leave in the order in which they entered *)
Definition flow_fifo (E : elem) (f : Z) : Prop := forall acts s tr,
  run E (init E) acts = Some (s, tr) -> sublist (filter (on_flow f) (fwds tr)) (filter (on_flow f) (puts tr)).
(* nothing due now and no deadline pending (the element's share of "the simulation ran out of events"): nothing held *)
Definition drained (E : elem) : Prop := forall acts s tr,
  run E (init E) acts = Some (s, tr) -> Forall (fun p => accepts E p = true) (puts tr) ->
  urgent E s = false -> deadline E s = None -> held E s = [].
(* the clock: only Advance moves it, to the instant it names; Advance is admissible only when nothing is due now and no
   pending deadline is passed *)
Definition timed (E : elem) : Prop :=
  (forall p s s' o, put E p s = Some (s', o) -> now E s' = now E s) /\
  (forall l s s' o, step E l s = Some (s', o) -> now E s' = now E s) /\
  (forall t s s', advance E t s = Some s' ->
     now E s' = t /\ now E s < t /\ urgent E s = false /\ (forall d, deadline E s = Some d -> t <= d)).

Record laws (E : elem) : Prop := {
  l_conserves : conserves E;
  l_fifo : forall f, flow_fifo E f;
  l_drained : drained E
}.

(* ---- generic lemmas ---------------------------------------------------------------------------------------- *)
Lemma sublist_refl {A} (l : list A) : sublist l l.
Proof. induction l; constructor; auto. Qed.

Lemma sublist_trans {A} (l1 l2 l3 : list A) : sublist l1 l2 -> sublist l2 l3 -> sublist l1 l3.
Proof.
  intros H12 H23. revert l1 H12. induction H23 as [l|x l2 l3 H IH|x l2 l3 H IH]; intros l1 H12.
  - inversion H12; subst. constructor.
  - inversion H12; subst.
    + constructor.
    + constructor. apply IH; assumption.
    + apply sl_skip. apply IH; assumption.
  - apply sl_skip. apply IH; assumption.
Qed.

Lemma sublist_app_r {A} (l r : list A) : sublist l (l ++ r).
Proof. induction l; cbn; constructor; auto. Qed.

Lemma sublist_filter {A} (f : A -> bool) (l1 l2 : list A) : sublist l1 l2 -> sublist (filter f l1) (filter f l2).
Proof.
  induction 1 as [l|x l1 l2 H IH|x l1 l2 H IH]; cbn.
  - constructor.
  - destruct (f x); [constructor|]; assumption.
  - destruct (f x); [apply sl_skip|]; assumption.
Qed.

Lemma sublist_In {A} (l1 l2 : list A) x : sublist l1 l2 -> In x l1 -> In x l2.
Proof. induction 1; cbn; intuition. Qed.

Lemma sublist_app {A} (a b c d : list A) : sublist a b -> sublist c d -> sublist (a ++ c) (b ++ d).
Proof.
  induction 1 as [l|x l1 l2 H IH|x l1 l2 H IH]; intros Hcd; cbn.
  - induction l; cbn; [assumption|apply sl_skip; assumption].
  - constructor; auto.
  - apply sl_skip; auto.
Qed.

Lemma Q_eq_dec (a b : Q) : {a = b} + {a <> b}.
Proof. decide equality; [apply Pos.eq_dec|apply Z.eq_dec]. Qed.
Lemma pk_eq_dec (a b : pkt) : {a = b} + {a <> b}.
Proof. decide equality; auto using Q_eq_dec, Z.eq_dec, Nat.eq_dec. Qed.
(* multisets of packets by counting: an equation between concatenations is then arithmetic *)
Definition occ (p : pkt) (l : list pkt) : nat := count_occ pk_eq_dec l p.
Lemma occ_app p a b : occ p (a ++ b) = (occ p a + occ p b)%nat.
Proof. apply count_occ_app. Qed.
Lemma perm_occ l l' : Permutation l l' -> forall p, occ p l = occ p l'.
Proof. apply Permutation_count_occ. Qed.
Lemma occ_perm l l' : (forall p, occ p l = occ p l') -> Permutation l l'.
Proof. apply Permutation_count_occ. Qed.

(* the trace functions of an adapter are those of its model: both are flat_maps, event by event and output by output *)
Lemma flat_map_link {X Y Z W} (g : X -> Y) (f : Y -> list Z) (k : X -> list W) (pr : W -> Z) :
  (forall x, f (g x) = map pr (k x)) -> forall l, flat_map f (map g l) = map pr (flat_map k l).
Proof. intros H. induction l as [|x l IH]; [reflexivity|]. cbn [map flat_map]. rewrite map_app, H, IH. reflexivity. Qed.
Lemma flat_map_link_id {X Y Z} (g : X -> Y) (f : Y -> list Z) (k : X -> list Z) :
  (forall x, f (g x) = k x) -> forall l, flat_map f (map g l) = flat_map k l.
Proof. intros H. induction l as [|x l IH]; [reflexivity|]. cbn [map flat_map]. rewrite H, IH. reflexivity. Qed.

Lemma flat_map_comp {X Y Z} (f : Y -> list Z) (g : X -> list Y) (h : X -> list Z) :
  (forall x, flat_map f (g x) = h x) -> forall l, flat_map f (flat_map g l) = flat_map h l.
Proof. intros H. induction l as [|x l IH]; [reflexivity|]. cbn [flat_map]. rewrite flat_map_app, H, IH. reflexivity. Qed.
Lemma flat_map_none {X Y} (l : list X) : flat_map (fun _ => @nil Y) l = [].
Proof. induction l; auto. Qed.

Lemma run_ind E (P : st E -> list (iact (lab E)) -> st E -> list (tev (lab E)) -> Prop) :
  (forall s, P s [] s []) ->
  (forall s a s1 o acts s2 tr, act E s a = Some (s1, o) -> run E s1 acts = Some (s2, tr) -> P s1 acts s2 tr ->
     P s (a :: acts) s2 ((now E s1, a, o) :: tr)) ->
  forall acts s s' tr, run E s acts = Some (s', tr) -> P s acts s' tr.
Proof.
  intros P0 PS. induction acts as [|a acts IH]; intros s s' tr H; cbn [run] in H.
  - injection H as <- <-. apply P0.
  - destruct (act E s a) as [[s1 o]|] eqn:Ea; [|discriminate].
    destruct (run E s1 acts) as [[s2 tr1]|] eqn:Er; [|discriminate]. injection H as <- <-. eauto.
Qed.

Lemma run_app E : forall a1 a2 s,
  run E s (a1 ++ a2) =
  match run E s a1 with
  | Some (s1, t1) => match run E s1 a2 with Some (s2, t2) => Some (s2, t1 ++ t2) | None => None end
  | None => None
  end.
Proof.
  induction a1 as [|a a1 IH]; intros a2 s; cbn [app run].
  - destruct (run E s a2) as [[s2 t2]|]; reflexivity.
  - destruct (act E s a) as [[s' o]|]; [|reflexivity]. rewrite IH.
    destruct (run E s' a1) as [[s1 t1]|]; [|reflexivity].
    destruct (run E s1 a2) as [[s2 t2]|]; reflexivity.
Qed.

Lemma run_one E s a s' o : act E s a = Some (s', o) ->
  exists tr, run E s [a] = Some (s', tr) /\ puts tr = a_puts a /\ fwds tr = o_fwds o /\ drops tr = o_drops o.
Proof.
  intros H. exists [(now E s', a, o)]. cbn [run]. rewrite H. unfold puts, fwds, drops. cbn [flat_map fst snd]. rewrite !app_nil_r.
  repeat split.
Qed.

Lemma puts_app {L} (a b : list (tev L)) : puts (a ++ b) = puts a ++ puts b.
Proof. apply flat_map_app. Qed.
Lemma fwds_app {L} (a b : list (tev L)) : fwds (a ++ b) = fwds a ++ fwds b.
Proof. apply flat_map_app. Qed.
Lemma drops_app {L} (a b : list (tev L)) : drops (a ++ b) = drops a ++ drops b.
Proof. apply flat_map_app. Qed.
Lemma hands_app {L} k (a b : list (tev L)) : hands k (a ++ b) = hands k a ++ hands k b.
Proof. apply flat_map_app. Qed.
Lemma puts_cons {L} t (a : iact L) o (tr : list (tev L)) : puts ((t, a, o) :: tr) = a_puts a ++ puts tr.
Proof. reflexivity. Qed.
Lemma fwds_cons {L} t (a : iact L) o (tr : list (tev L)) : fwds ((t, a, o) :: tr) = o_fwds o ++ fwds tr.
Proof. reflexivity. Qed.
Lemma drops_cons {L} t (a : iact L) o (tr : list (tev L)) : drops ((t, a, o) :: tr) = o_drops o ++ drops tr.
Proof. reflexivity. Qed.
Lemma hands_cons {L} k t (a : iact L) o (tr : list (tev L)) : hands k ((t, a, o) :: tr) = o_hands k o ++ hands k tr.
Proof. reflexivity. Qed.
Lemma o_fwds_cons x l : o_fwds (x :: l) = match x with EForward p => [p] | _ => [] end ++ o_fwds l.
Proof. reflexivity. Qed.
Lemma o_drops_cons x l : o_drops (x :: l) = match x with EDrop p => [p] | _ => [] end ++ o_drops l.
Proof. reflexivity. Qed.
Lemma o_hands_cons k x l :
  o_hands k (x :: l) = match x with EHand j p => if Nat.eqb j k then [p] else [] | _ => [] end ++ o_hands k l.
Proof. reflexivity. Qed.
Lemma o_fwds_app a b : o_fwds (a ++ b) = o_fwds a ++ o_fwds b.
Proof. apply flat_map_app. Qed.
Lemma o_drops_app a b : o_drops (a ++ b) = o_drops a ++ o_drops b.
Proof. apply flat_map_app. Qed.
Lemma o_hands_app k a b : o_hands k (a ++ b) = o_hands k a ++ o_hands k b.
Proof. apply flat_map_app. Qed.

Lemma drops_map_none {X Y L} (g : X -> tev L) (outs : X -> list Y) (oe : Y -> list eout) :
  (forall x, snd (g x) = flat_map oe (outs x)) -> (forall y, o_drops (oe y) = []) -> forall l, drops (map g l) = [].
Proof.
  intros Hg Hn l. unfold drops. rewrite (flat_map_link_id g _ (fun _ => [])); [apply flat_map_none|].
  intros x. rewrite Hg. unfold o_drops. rewrite (flat_map_comp _ oe (fun _ => [])); [apply flat_map_none|exact Hn].
Qed.

(* a forwarded packet is one of the packets put in (same record) *)
Lemma conserves_fwd_in E : conserves E -> forall acts s tr p,
  run E (init E) acts = Some (s, tr) -> In p (fwds tr) -> In p (puts tr).
Proof.
  intros C acts s tr p R H. apply (Permutation_in p (Permutation_sym (C _ _ _ R))).
  apply in_or_app. left. exact H.
Qed.

(* ---- comparison with an observed execution (correspondence) ------------------------------------------------ *)
Definition eout_eqb (a b : eout) : bool :=
  match a, b with
  | EForward p, EForward q => pkt_eqb p q
  | EDrop p, EDrop q => pkt_eqb p q
  | EHand j p, EHand k q => Nat.eqb j k && pkt_eqb p q
  | _, _ => false
  end.
Fixpoint eouts_eqb (a b : list eout) : bool :=
  match a, b with
  | [], [] => true
  | x :: s, y :: t => eout_eqb x y && eouts_eqb s t
  | _, _ => false
  end.
(* a drop is not an event seen from outside (it shows in counters only): hand-overs and deliveries are compared *)
Definition visible (l : list eout) : list eout :=
  filter (fun o => match o with EDrop _ => false | _ => true end) l.

(* observed: per global action, the hand-overs between the stages and the deliveries, in order *)
Fixpoint agree (E : elem) (s : st E) (obs : list (iact (lab E) * list eout)) : bool :=
  match obs with
  | [] => true
  | (a, outs) :: rest =>
      match act E s a with
      | None => false
      | Some (s', outs') => eouts_eqb (visible outs') outs && agree E s' rest
      end
  end.
Fixpoint first_diff (E : elem) (s : st E) (obs : list (iact (lab E) * list eout)) (i : nat) : option (nat * option (list eout)) :=
  match obs with
  | [] => None
  | (a, outs) :: rest =>
      match act E s a with
      | None => Some (i, None)
      | Some (s', outs') => if eouts_eqb (visible outs') outs then first_diff E s' rest (S i) else Some (i, Some outs')
      end
  end.
