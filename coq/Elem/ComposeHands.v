(* The hand-overs a composite shows are the hand-overs that happened: in `A >> B` the outputs `EHand (width A - 1) p` of
   any execution are, in order, exactly the packets A forwarded (= the packets put into B).  This is what the correspondence
   compares at every stage boundary of a real pipeline.  It needs the stage numbering to be consistent ([tagged]): an element
   of width w only emits hand-overs numbered below w - 1; atomic elements (the adapters) emit none. *)
From Coq Require Import ZArith QArith List Bool Lia Arith.
From ONL Require Import Elem.Packet Elem.Iface Elem.Compose.
Import ListNotations.
Local Close Scope Q_scope.

Definition tag_ok (w : nat) (x : eout) : Prop := match x with EHand k _ => S k < w | _ => True end.
Definition tagged (E : elem) : Prop :=
  0 < width E /\
  (forall p s s' o, put E p s = Some (s', o) -> Forall (tag_ok (width E)) o) /\
  (forall l s s' o, step E l s = Some (s', o) -> Forall (tag_ok (width E)) o).

(* an element that never emits a hand-over (every adapter) *)
Definition no_hand (x : eout) : Prop := match x with EHand _ _ => False | _ => True end.
Lemma atomic_tagged E :
  0 < width E ->
  (forall p s s' o, put E p s = Some (s', o) -> Forall no_hand o) ->
  (forall l s s' o, step E l s = Some (s', o) -> Forall no_hand o) -> tagged E.
Proof.
  intros W P S. split; [exact W|]. split; intros ? s s' o H; [apply P in H|apply S in H];
    (eapply Forall_impl; [|exact H]); intros []; cbn; tauto.
Qed.

Section Hands.
  Variables A B : elem.
  Let b := pred (width A).

  Lemma hands_shift o : 0 < width A -> o_hands b (map (shift A) o) = [].
  Proof.
    intros W. induction o as [|x o IH]; [reflexivity|]. cbn [map]. rewrite o_hands_cons, IH.
    destruct x as [p|p|k p]; cbn [shift]; try reflexivity.
    destruct (Nat.eqb (width A + k) b) eqn:E; [|reflexivity]. apply Nat.eqb_eq in E. unfold b in E. lia.
  Qed.

  Lemma feed_hands : 0 < width A -> forall oA sB sB1 o,
    Forall (tag_ok (width A)) oA -> feed A B oA sB = Some (sB1, o) -> o_hands b o = o_fwds oA.
  Proof.
    intros W. induction oA as [|x oA IH]; intros sB sB1 o T H; cbn [feed] in H.
    - injection H as _ <-. reflexivity.
    - inversion T as [|? ? Tx Tr]; subst. destruct x as [p|p|k p].
      + destruct (put B p sB) as [[s1 o1]|] eqn:Ep; [|discriminate].
        destruct (feed A B oA s1) as [[s2 o2]|] eqn:Ef; [|discriminate]. injection H as _ <-.
        rewrite o_hands_cons, o_hands_app, (hands_shift _ W), (IH _ _ _ Tr Ef), o_fwds_cons. fold b. rewrite Nat.eqb_refl. reflexivity.
      + destruct (feed A B oA sB) as [[s2 o2]|] eqn:Ef; [|discriminate]. injection H as _ <-.
        rewrite o_hands_cons, (IH _ _ _ Tr Ef), o_fwds_cons. reflexivity.
      + destruct (feed A B oA sB) as [[s2 o2]|] eqn:Ef; [|discriminate]. injection H as _ <-.
        rewrite o_hands_cons, (IH _ _ _ Tr Ef), o_fwds_cons. cbn [tag_ok] in Tx.
        destruct (Nat.eqb k b) eqn:E; [|reflexivity]. apply Nat.eqb_eq in E. unfold b in E. lia.
  Qed.

  (* what the composite shows at the boundary between A and B is what A forwarded *)
  Theorem series_hands : tagged A -> forall acts sA sB s' tr sA' trA,
    run (A >> B) (sA, sB) acts = Some (s', tr) -> run A sA (actsA A B acts) = Some (sA', trA) ->
    hands b tr = fwds trA.
  Proof.
    intros (W & TP & TS). induction acts as [|a acts IH]; intros sA sB s' tr sA' trA H HA.
    - cbn in H, HA. injection H as _ <-. injection HA as _ <-. reflexivity.
    - cbn [run] in H. destruct (act (A >> B) (sA, sB) a) as [[[sA1 sB1] o]|] eqn:Ea; [|discriminate].
      destruct (run (A >> B) (sA1, sB1) acts) as [[s2 tr1]|] eqn:Er; [|discriminate]. injection H as _ <-.
      rewrite hands_cons.
      destruct a as [p|[x|y]|t]; cbn [act series put step advance fst snd] in Ea.
      + apply via_spec in Ea as (oA & E1 & E2). cbn [snd] in E2.
        unfold actsA in HA. cbn [flat_map actA app run act] in HA. fold (actsA A B acts) in HA. rewrite E1 in HA.
        destruct (run A sA1 (actsA A B acts)) as [[sA2 trA1]|] eqn:RA; [|discriminate]. injection HA as _ <-.
        rewrite fwds_cons, (IH _ _ _ _ _ _ Er RA), (feed_hands W _ _ _ _ (TP _ _ _ _ E1) E2). reflexivity.
      + apply via_spec in Ea as (oA & E1 & E2). cbn [snd] in E2.
        unfold actsA in HA. cbn [flat_map actA app run act] in HA. fold (actsA A B acts) in HA. rewrite E1 in HA.
        destruct (run A sA1 (actsA A B acts)) as [[sA2 trA1]|] eqn:RA; [|discriminate]. injection HA as _ <-.
        rewrite fwds_cons, (IH _ _ _ _ _ _ Er RA), (feed_hands W _ _ _ _ (TS _ _ _ _ E1) E2). reflexivity.
      + destruct (step B y sB) as [[b' oB]|] eqn:Es; [|discriminate]. injection Ea as <- _ <-.
        unfold actsA in HA. cbn [flat_map actA app] in HA. fold (actsA A B acts) in HA.
        rewrite (hands_shift _ W). cbn [app]. exact (IH _ _ _ _ _ _ Er HA).
      + destruct (advance A t sA) as [a1|] eqn:EA; [|discriminate].
        destruct (advance B t sB) as [b1|] eqn:EB; [|discriminate]. injection Ea as <- _ <-.
        unfold actsA in HA. cbn [flat_map actA app run act] in HA. fold (actsA A B acts) in HA. rewrite EA in HA.
        destruct (run A a1 (actsA A B acts)) as [[sA2 trA1]|] eqn:RA; [|discriminate]. injection HA as _ <-.
        rewrite fwds_cons. cbn [o_hands o_fwds flat_map app]. exact (IH _ _ _ _ _ _ Er RA).
  Qed.

  Lemma tag_ok_mono w w' x : w <= w' -> tag_ok w x -> tag_ok w' x.
  Proof. destruct x; cbn; intros; auto; lia. Qed.

  Lemma shift_tag_ok o : Forall (tag_ok (width B)) o -> Forall (tag_ok (width A + width B)) (map (shift A) o).
  Proof.
    intros H. apply Forall_forall. intros z Hz. apply in_map_iff in Hz as (z0 & <- & Hz0).
    pose proof (proj1 (Forall_forall _ _) H z0 Hz0) as Tz. destruct z0; cbn in *; auto; lia.
  Qed.

  Lemma feed_tagged : 0 < width A -> tagged B -> forall oA sB sB1 o,
    Forall (tag_ok (width A)) oA -> feed A B oA sB = Some (sB1, o) -> Forall (tag_ok (width A + width B)) o.
  Proof.
    intros WA (WB & TPB & _). induction oA as [|x oA IH]; intros sB sB1 o T H; cbn [feed] in H.
    - injection H as _ <-. constructor.
    - inversion T as [|? ? Tx Tr]; subst. destruct x as [p|p|k p].
      + destruct (put B p sB) as [[s1 o1]|] eqn:Ep; [|discriminate].
        destruct (feed A B oA s1) as [[s2 o2]|] eqn:Ef; [|discriminate]. injection H as _ <-.
        constructor; [cbn; lia|]. apply Forall_app. split; [apply shift_tag_ok; eapply TPB; eauto|eapply IH; eauto].
      + destruct (feed A B oA sB) as [[s2 o2]|] eqn:Ef; [|discriminate]. injection H as _ <-.
        constructor; [exact I|eapply IH; eauto].
      + destruct (feed A B oA sB) as [[s2 o2]|] eqn:Ef; [|discriminate]. injection H as _ <-.
        constructor; [cbn in *; lia|eapply IH; eauto].
  Qed.

  Theorem series_tagged : tagged A -> tagged B -> tagged (A >> B).
  Proof.
    intros TA TB. pose proof TA as (WA & TPA & TSA). pose proof TB as (WB & TPB & TSB).
    split; [cbn; lia|]. split.
    - intros p [sA sB] [sA1 sB1] o H. cbn [put series] in H. apply via_spec in H as (oA & E1 & E2). cbn [fst snd] in *.
      exact (feed_tagged WA TB oA sB sB1 o (TPA _ _ _ _ E1) E2).
    - intros [x|y] [sA sB] [sA1 sB1] o H; cbn [step series] in H.
      + apply via_spec in H as (oA & E1 & E2). cbn [fst snd] in *. exact (feed_tagged WA TB oA sB sB1 o (TSA _ _ _ _ E1) E2).
      + cbn [fst snd] in H. destruct (step B y sB) as [[b' oB]|] eqn:Es; [|discriminate]. injection H as _ _ <-.
        apply shift_tag_ok. eapply TSB; eauto.
  Qed.
End Hands.

Theorem pipeline_tagged : forall es E, tagged E -> Forall tagged es -> tagged (pipeline E es).
Proof. exact (pipeline_lift tagged series_tagged). Qed.
