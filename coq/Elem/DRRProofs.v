(* What one enabled action of the DRR model (Elem/DRR.v) does -- to the invariant, to the visit automaton, to the packets
   held, to the child process -- and the theorems about reachable states and traces that follow: credit, counters,
   transmissions, work conservation, conservation of packets. *)
From Coq Require Import ZArith QArith Qminmax List Bool Lia Lqa.
From ONL Require Import Elem.Packet Elem.StoreQ Elem.StoreQProofs Elem.DRR Elem.DRRInv Elem.DRRVisit.
Import ListNotations.
Opaque Qred.

Definition dall_held (cfg : dcfg) (d : drr) : list pkt := flat_map (dheld cfg d) (dclasses cfg).

Definition daput (a : daction) : list pkt := match a with DPut p => [p] | _ => [] end.
Definition dputs (tr : list dtev) : list pkt := flat_map (fun e => daput (snd (fst e))) tr.
Definition dfwds (tr : list dtev) : list pkt := flat_map (fun e => dforwards (snd e)) tr.
Definition dof_cls (cfg : dcfg) (c : Z) (l : list pkt) : list pkt := filter (fun p => Z.eqb (dcls cfg p) c) l.
Fixpoint dmaxsize (l : list pkt) : Z := match l with [] => 0%Z | p :: t => Z.max (psize p) (dmaxsize t) end.

Lemma dforwards_app a b : dforwards (a ++ b) = dforwards a ++ dforwards b.
Proof. unfold dforwards. apply flat_map_app. Qed.

Lemma dof_cls_app cfg c a b : dof_cls cfg c (a ++ b) = dof_cls cfg c a ++ dof_cls cfg c b.
Proof. unfold dof_cls. apply filter_app. Qed.

Lemma dmaxsize_app a b : dmaxsize (a ++ b) = Z.max (dmaxsize a) (dmaxsize b).
Proof. induction a as [|p t IH]; cbn [dmaxsize app]; [|rewrite IH; lia]. induction b; cbn [dmaxsize]; lia. Qed.

Lemma dmaxsize_nonneg l : (0 <= dmaxsize l)%Z.
Proof. induction l; cbn [dmaxsize]; lia. Qed.

(* run() itself forwards nothing: only the transmission timeout does *)
Lemma dinternal_nofwd e : forallb dinternal e = true -> dforwards e = [].
Proof.
  induction e as [|x e IH]; [reflexivity|]. cbn [forallb]. intros H. apply andb_true_iff in H as [Hx He].
  destruct x; try discriminate Hx; exact (IH He).
Qed.

(* the child process send_packet: spawned by run() (DCStart), transmitting until its timeout (DCTx), ended and waiting for
   run() to resume and debit (DCDone); what each action does to it and which events go with that *)
Definition dchild_step (cfg : dcfg) (d : drr) (a : daction) (d' : drr) (ev : list dout) : Prop :=
  match a with
  | DChildInit => exists p, dchd d = DCStart p /\ dchd d' = DCTx p (Qred (dnow d + dtx_time cfg p)) /\ ev = []
  | DChildTimer => exists p dl, dchd d = DCTx p dl /\ dl == dnow d /\ dchd d' = DCDone p /\ ev = [DOForward p]
  | DChildEnd =>
      exists c p e, dchd d = DCDone p /\ dcls cfg p = c /\ ev = DODebit c p (ddebit_reset d c) :: e
                    /\ forallb dinternal e = true /\ (dchd d' = DCNone \/ exists q, dchd d' = DCStart q)
  | DInit | DGetDone _ => dchd d = DCNone /\ forallb dinternal ev = true /\ (dchd d' = DCNone \/ exists q, dchd d' = DCStart q)
  | DPut _ | DStoreCb _ => dchd d' = dchd d /\ ev = []
  | DAdvance t => dchd d' = dchd d /\ ev = [] /\ dnow d' = t /\ forall p dl, dchd d = DCTx p dl -> t <= dl
  end.

Record dstep_post (cfg : dcfg) (d : drr) (a : daction) (d' : drr) (ev : list dout) : Prop := {
  st_inv : dinv cfg d';
  st_visit : dspecs cfg (dheld cfg d') (dabs d) ev (dabs d');
  st_held : forall c, dheld cfg d c ++ dof_cls cfg c (daput a) = dof_cls cfg c (dforwards ev) ++ dheld cfg d' c;
  st_lmax : dlmax d' = Z.max (dlmax d) (dmaxsize (daput a));
  st_put : forall p, In p (daput a) -> In (dcls cfg p) (dclasses cfg) /\ (0 < psize p)%Z;
  st_now : (forall t, a <> DAdvance t) -> dnow d' = dnow d;
  st_child : dchild_step cfg d a d' ev
}.
Arguments st_inv {cfg d a d' ev}.
Arguments st_visit {cfg d a d' ev}.
Arguments st_held {cfg d a d' ev}.
Arguments st_lmax {cfg d a d' ev}.
Arguments st_put {cfg d a d' ev}.
Arguments st_now {cfg d a d' ev}.
Arguments st_child {cfg d a d' ev}.

Lemma dstep_silent cfg d a d' ev :
  dinv cfg d -> dinv cfg d' -> dspecs cfg (dheld cfg d') (dabs d) ev (dabs d') -> dsame cfg d d' -> dforwards ev = [] ->
  daput a = [] -> dchild_step cfg d a d' ev -> dstep_post cfg d a d' ev.
Proof.
  intros I I' V S F P Ch. pose proof (b_lmax (i_base I)).
  constructor; try assumption; rewrite ?F, ?P; cbn [dof_cls filter dmaxsize].
  - intros c. rewrite app_nil_r. symmetry. apply (s_held S).
  - rewrite (s_lmax S). lia.
  - intros p [].
  - intros _. apply (s_now S).
Qed.

Lemma dstep_resume cfg d a d' ev :
  dwf cfg -> dinv cfg d -> dresumes a = true -> drr_act cfg d a = Some (d', ev) -> dstep_post cfg d a d' ev.
Proof.
  intros Hwf I Ha A. destruct (dresume_post cfg d a d' ev Hwf I Ha A) as (I' & Ch' & S & V & E).
  apply dstep_silent; try assumption.
  - destruct a; try discriminate Ha; [apply dinternal_nofwd, E|apply dinternal_nofwd, E|].
    destruct E as (c & p & e & _ & _ & -> & Int). apply (dinternal_nofwd e Int).
  - destruct a; try discriminate Ha; reflexivity.
  - destruct a; try discriminate Ha; cbn [dchild_step].
    + destruct E as [E1 E2]. auto.
    + destruct E as [E1 E2]. auto.
    + destruct E as (c & p & e & E1 & E2 & E3 & E4). exists c, p, e. auto 6.
Qed.

Lemma dstep_put cfg d p d' ev : dwf cfg -> dinv cfg d -> drr_act cfg d (DPut p) = Some (d', ev) -> dstep_post cfg d (DPut p) d' ev.
Proof.
  intros Hwf I H. unfold drr_act in H. cbv zeta in H.
  set (c0 := df2c cfg (flow p)) in *.
  destruct (dmemZ c0 (dclasses cfg) && (0 <? psize p)%Z) eqn:G; [|discriminate].
  apply andb_true_iff in G as [G1 G2]. apply dmemZ_In in G1. apply Z.ltb_lt in G2.
  injection H as <- <-.
  match goal with |- dstep_post _ _ _ ?X _ => set (d' := X) end.
  pose proof (i_base I) as B. destruct Hwf as (Hr & Hne & Hnd & Hpos).
  assert (Hheld : forall k, dheld cfg d' k = if Z.eqb k c0 then dheld cfg d k ++ [p] else dheld cfg d k).
  { intros k. unfold dheld, dtx_l, dhol_l, dsth, d'. cbn [dchd dhol dst]. unfold dupd.
    destruct (Z.eqb_spec k c0) as [->|]; [|reflexivity].
    rewrite fifo_held_put, map_app. cbn [map snd]. rewrite !app_assoc. reflexivity. }
  assert (Hm : forall w f, dmeas w (dof_flow f (dheld cfg d' (df2c cfg f)))
                           = (dmeas w (dof_flow f (dheld cfg d (df2c cfg f))) + if Z.eqb f (flow p) then w p else 0)%Z).
  { intros w f. apply (dmeas_ins w (df2c cfg)); intros E; rewrite Hheld; fold c0 in E.
    - rewrite E, Z.eqb_refl. left. reflexivity.
    - destruct (Z.eqb_spec (df2c cfg f) c0); [contradiction|reflexivity]. }
  assert (Hgt : get (dtok d') = get (dtok d)) by (unfold d'; cbn [dtok]; destruct (dtotal d =? 0)%Z; reflexivity).
  assert (Hgs : forall k, get (dst d' k) = get (dst d k)).
  { intros k. unfold d'. cbn [dst]. unfold dupd. destruct (Z.eqb_spec k c0) as [->|]; reflexivity. }
  assert (Hl : (dlmax d <= dlmax d')%Z) by (unfold d'; cbn [dlmax]; lia).
  constructor.
  - constructor.
    + constructor.
      * intros k q Hq. rewrite Hheld in Hq.
        assert (Hold : In q (dheld cfg d k) -> dcls cfg q = k /\ In k (dclasses cfg) /\ (0 < psize q <= dlmax d')%Z).
        { intros Hq'. destruct (b_cls B k q Hq') as (A1 & A2 & A3). repeat split; auto; lia. }
        destruct (Z.eqb_spec k c0) as [->|]; [|auto].
        apply in_app_or in Hq as [Hq|[<-|[]]]; [auto|].
        split; [reflexivity|]. split; [exact G1|]. unfold d'. cbn [dlmax]. lia.
      * intros k. unfold dlen. rewrite Hheld. change (ddone cfg d' k) with (ddone cfg d k). unfold d'. cbn [dccnt]. unfold dupd.
        pose proof (b_ccnt B k) as Hk. unfold dlen in Hk.
        destruct (Z.eqb_spec k c0) as [->|]; [|exact Hk]. rewrite app_length. cbn [length]. lia.
      * intros f. rewrite Hm, <- (b_qcnt B f). unfold d'. cbn [dqcnt]. unfold dupd. destruct (Z.eqb_spec f (flow p)) as [->|]; lia.
      * intros f. rewrite Hm, <- (b_qbytes B f). unfold d'. cbn [dqbytes]. unfold dupd. destruct (Z.eqb_spec f (flow p)) as [->|]; lia.
      * unfold d' at 1. cbn [dtotal]. rewrite (b_total B).
        rewrite (dsum_change (dlen cfg d) (dlen cfg d') (dclasses cfg) c0 Hnd G1).
        -- unfold dlen. rewrite Hheld, Z.eqb_refl, app_length. cbn [length]. lia.
        -- intros k Hk. unfold dlen. rewrite Hheld. destruct (Z.eqb_spec k c0); [contradiction|reflexivity].
      * pose proof (b_lmax B). lia.
      * unfold d'. cbn [dtok]. destruct (dtotal d =? 0)%Z; [apply sq_nostrand_put|apply (b_nostrand B)].
      * intros k. destruct (b_def B k) as [D1 D2]. split; [exact D1|]. intros Hin. specialize (D2 Hin).
        assert (inject_Z (dlmax d) <= inject_Z (dlmax d')) by (rewrite <- Zle_Qle; exact Hl).
        change (ddef d' k) with (ddef d k). lra.
    + apply (dctl_ok_ext cfg d d' (i_ctl I)); try reflexivity; [rewrite Hgt; reflexivity|exact Hgs|exact Hl].
    + change (dctrl d') with (dctrl d). rewrite Hgt. intros K Gw _.
      unfold d'. cbn [dtok]. destruct (dtotal d =? 0)%Z eqn:T0.
      * cbn. unfold fifo_push. destruct (items (dtok d)); discriminate.
      * apply Z.eqb_neq in T0. pose proof (dbase_total_nonneg _ _ B). apply (i_tok I K Gw). lia.
    + intros k Hk. apply (i_rest I k Hk).
  - apply sps_nil.
  - intros k. cbn [daput dforwards flat_map dof_cls filter]. rewrite Hheld. unfold dcls. fold c0.
    destruct (Z.eqb_spec k c0) as [->|Hk]; [rewrite Z.eqb_refl; reflexivity|].
    destruct (Z.eqb_spec c0 k); [congruence|apply app_nil_r].
  - cbn [daput dmaxsize]. unfold d'. cbn [dlmax]. lia.
  - intros q [<-|[]]. split; [exact G1|exact G2].
  - reflexivity.
  - split; reflexivity.
Qed.

Lemma dstep_cb_tok cfg d d' ev :
  dinv cfg d -> drr_act cfg d (DStoreCb None) = Some (d', ev) -> dstep_post cfg d (DStoreCb None) d' ev.
Proof.
  intros I H. unfold drr_act in H. destruct (sq_cb fifo_pop (dtok d)) as [q|] eqn:Cb; [|discriminate]. injection H as <- <-.
  pose proof (i_base I) as B.
  assert (S : dsame cfg d (dset_tok d q)) by (constructor; reflexivity).
  apply dstep_silent; try assumption; try reflexivity; [|apply sps_nil|split; reflexivity].
  constructor.
  - apply (dbase_transfer cfg d _ B S); [intros k; reflexivity| |apply (b_def B)].
    cbn. apply (fifo_nostrand_cb unit _ _ Cb).
  - apply (dctl_ok_ext cfg d _ (i_ctl I)); try reflexivity.
    cbn. symmetry. apply (sq_cb_get_none unit fifo_pop _ _ Cb).
  - cbn. intros K Gw Tp. apply fifo_cb_inv in Cb as (_ & [(_ & x & _ & Gx)|(_ & Ei & Eg)]).
    + rewrite Gx in Gw. discriminate.
    + rewrite Ei. apply (i_tok I K); [rewrite <- Eg; exact Gw|exact Tp].
  - intros k Hk. apply (i_rest I k). exact Hk.
Qed.

Lemma dstep_cb_cls cfg d c d' ev :
  dinv cfg d -> drr_act cfg d (DStoreCb (Some c)) = Some (d', ev) -> dstep_post cfg d (DStoreCb (Some c)) d' ev.
Proof.
  intros I H. unfold drr_act in H. destruct (dmemZ c (dclasses cfg)); [|discriminate].
  destruct (sq_cb fifo_pop (dst d c)) as [q|] eqn:Cb; [|discriminate]. injection H as <- <-.
  pose proof (i_base I) as B.
  (* nobody waits on a class store when a StorePut event is processed: run() only asks for a packet that is there *)
  destruct (sq_cb_not_waiting pkt fifo_pop _ _ Cb (dctl_get_not_waiting cfg d c (i_ctl I))) as (Ei & Eg).
  assert (Hst : forall k, get (dupd (dst d) c q k) = get (dst d k) /\ sq_held (dupd (dst d) c q k) = sq_held (dst d k)).
  { intros k. unfold dupd. destruct (Z.eqb_spec k c) as [->|]; [|auto]. split; [exact Eg|]. unfold sq_held. rewrite Eg, Ei. reflexivity. }
  assert (S : dsame cfg d (dset_st d c q)).
  { constructor; try reflexivity. intros k. unfold dheld, dsth. cbn. rewrite (proj2 (Hst k)). reflexivity. }
  apply dstep_silent; try assumption; try reflexivity; [|apply sps_nil|split; reflexivity].
  constructor.
  - apply (dbase_transfer cfg d _ B S); [intros k; reflexivity|apply (b_nostrand B)|apply (b_def B)].
  - apply (dctl_ok_ext cfg d _ (i_ctl I)); try reflexivity. intros k. apply (Hst k).
  - cbn. apply (i_tok I).
  - intros k Hk. apply (i_rest I k). exact Hk.
Qed.

Lemma dstep_childinit cfg d d' ev :
  dwf cfg -> dinv cfg d -> drr_act cfg d DChildInit = Some (d', ev) -> dstep_post cfg d DChildInit d' ev.
Proof.
  intros Hwf I H. unfold drr_act in H. destruct (dchd d) as [|p| |] eqn:Ch; try discriminate. injection H as <- <-.
  pose proof (i_base I) as B.
  match goal with |- dstep_post _ _ _ ?X _ => set (d' := X) end.
  assert (S : dsame cfg d d').
  { constructor; try reflexivity. intros k. unfold dheld, dtx_l. cbn. rewrite Ch. reflexivity. }
  destruct (dctl_child cfg d (i_ctl I) ltac:(congruence)) as (c & rest & K & Hp & C2 & C3 & C4 & C5). rewrite Ch in Hp.
  apply dstep_silent; try assumption; try reflexivity.
  - constructor.
    + apply (dbase_transfer cfg d _ B S); [|apply (b_nostrand B)|apply (b_def B)].
      intros k. unfold ddone. cbn. rewrite Ch. reflexivity.
    + unfold dctl_ok, d'. cbn [dctrl dchd dtok dst dhol ddef dnow dlmax]. rewrite K. split; [|auto]. split; [|exact Hp].
      pose proof (Qred_correct (dnow d + dtx_time cfg p)) as HR. destruct Hp as (_ & _ & Hs).
      pose proof (dtx_time_pos cfg p Hwf ltac:(lia)). lra.
    + cbn. rewrite K. discriminate.
    + intros k Hk. apply (i_rest I k). exact Hk.
  - replace (dabs d') with (dabs d) by (unfold dabs, dtxp; cbn; rewrite Ch; reflexivity). apply sps_nil.
  - exists p. auto.
Qed.

Lemma dstep_childtimer cfg d d' ev :
  dwf cfg -> dinv cfg d -> drr_act cfg d DChildTimer = Some (d', ev) -> dstep_post cfg d DChildTimer d' ev.
Proof.
  intros Hwf I H. unfold drr_act in H. destruct (dchd d) as [| |p dl|] eqn:Ch; try discriminate.
  destruct (Qeq_bool dl (dnow d)) eqn:Edl; [|discriminate]. cbv zeta in H. injection H as <- <-.
  match goal with |- dstep_post _ _ _ ?X _ => set (d' := X) end.
  pose proof (i_base I) as B.
  destruct (dctl_child cfg d (i_ctl I) ltac:(congruence)) as (c & rest & K & Hp & C2 & C3 & C4 & C5). rewrite Ch in Hp.
  destruct Hp as (Hle & Hc & A2 & A3). pose proof (dsuffix_head _ _ _ C5) as C6.
  destruct Hwf as (Hr & Hne & Hnd & Hpos).
  assert (Hheld : forall k, dheld cfg d k = (if Z.eqb (dcls cfg p) k then [p] else []) ++ dheld cfg d' k).
  { intros k. unfold dheld, dtx_l, d'. cbn [dchd dhol dst]. rewrite Ch. reflexivity. }
  assert (Hm : forall w f, dmeas w (dof_flow f (dheld cfg d (df2c cfg f)))
                           = (dmeas w (dof_flow f (dheld cfg d' (df2c cfg f))) + if Z.eqb f (flow p) then w p else 0)%Z).
  { intros w f. apply (dmeas_ins w (df2c cfg)); intros E; rewrite Hheld; unfold dcls.
    - rewrite <- E, Z.eqb_refl. right. reflexivity.
    - destruct (Z.eqb_spec (df2c cfg (flow p)) (df2c cfg f)); [congruence|reflexivity]. }
  assert (Hdone : forall k, ddone cfg d' k = if Z.eqb (dcls cfg p) k then 1%Z else 0%Z) by (intros k; reflexivity).
  assert (Hdone0 : forall k, ddone cfg d k = 0%Z) by (intros k; unfold ddone; rewrite Ch; reflexivity).
  constructor.
  - constructor.
    + constructor.
      * intros k q Hq. apply (b_cls B k q). rewrite Hheld. apply in_or_app. right. exact Hq.
      * intros k. change (dccnt d' k) with (dccnt d k). rewrite (b_ccnt B k), Hdone, Hdone0. unfold dlen. rewrite (Hheld k).
        rewrite app_length. destruct (Z.eqb (dcls cfg p) k); cbn [length]; lia.
      * intros f. pose proof (b_qcnt B f) as Hf. rewrite Hm in Hf. unfold d' at 1. cbn [dqcnt]. unfold dupd.
        destruct (Z.eqb_spec f (flow p)) as [E|E]; [rewrite <- E|]; lia.
      * intros f. pose proof (b_qbytes B f) as Hf. rewrite Hm in Hf. unfold d' at 1. cbn [dqbytes]. unfold dupd.
        destruct (Z.eqb_spec f (flow p)) as [E|E]; [rewrite <- E|]; lia.
      * unfold d' at 1. cbn [dtotal]. rewrite (b_total B).
        rewrite (dsum_change (dlen cfg d) (dlen cfg d') (dclasses cfg) c Hnd C6).
        -- unfold dlen. rewrite (Hheld c), Hc, Z.eqb_refl, app_length. cbn [length]. lia.
        -- intros k Hk. unfold dlen. rewrite (Hheld k), Hc. destruct (Z.eqb_spec c k); [congruence|reflexivity].
      * apply (b_lmax B).
      * apply (b_nostrand B).
      * apply (b_def B).
    + unfold dctl_ok, d'. cbn [dctrl dchd dtok dst dhol ddef dnow dlmax]. rewrite K. split; [exact (conj Hc (conj A2 A3))|auto].
    + unfold d'. cbn [dctrl]. rewrite K. discriminate.
    + intros k Hk. apply (i_rest I k). exact Hk.
  - replace (dabs d') with (dabs d) by (unfold dabs, dtxp; cbn; rewrite Ch; reflexivity). apply dspecs_one, sp_fwd.
  - intros k. cbn [daput dforwards flat_map dof_cls filter app]. rewrite app_nil_r, Hheld. destruct (Z.eqb (dcls cfg p) k); reflexivity.
  - pose proof (b_lmax B). cbn [daput dmaxsize]. change (dlmax d') with (dlmax d). lia.
  - intros q [].
  - reflexivity.
  - exists p, dl. apply Qeq_bool_iff in Edl. auto.
Qed.

Definition dset_now (d : drr) (t : Q) : drr :=
  {| dnow := t; dtok := dtok d; dst := dst d; dqcnt := dqcnt d; dqbytes := dqbytes d; dtotal := dtotal d;
     dccnt := dccnt d; ddef := ddef d; dhol := dhol d; dcur := dcur d; dnrecv := dnrecv d; dlmax := dlmax d;
     dchd := dchd d; dctrl := dctrl d |}.

Lemma dadvance_inv cfg d t d' ev :
  drr_act cfg d (DAdvance t) = Some (d', ev) ->
  ev = [] /\ d' = dset_now d t /\ durgent cfg d = false /\ dnow d < t /\ (forall p dl, dchd d = DCTx p dl -> t <= dl).
Proof.
  unfold drr_act. destruct (durgent cfg d); [discriminate|]. destruct (Qlt_le_dec (dnow d) t) as [Lt|]; [|discriminate]. cbv zeta. unfold dset_now.
  destruct (dchd d) as [|p|p dl|p]; try (intros H; injection H as <- <-; repeat split; auto; discriminate).
  destruct (Qle_bool t dl) eqn:Le; [|discriminate]. intros H; injection H as <- <-. repeat split; auto.
  intros p0 dl0 E. injection E as _ <-. apply Qle_bool_iff. exact Le.
Qed.

Lemma dstep_advance cfg d t d' ev :
  dinv cfg d -> drr_act cfg d (DAdvance t) = Some (d', ev) -> dstep_post cfg d (DAdvance t) d' ev.
Proof.
  intros I H. destruct (dadvance_inv cfg d t d' ev H) as (-> & -> & U & Lt & Hdl).
  pose proof (i_base I) as B. pose proof (i_ctl I) as C.
  constructor; try reflexivity.
  - constructor.
    + destruct B as [b1 b2 b3 b4 b5 b6 b7 b8]. constructor; assumption.
    + unfold dctl_ok in *. cbn [dset_now dctrl dchd dtok dst dhol ddef dnow dlmax].
      destruct (dctrl d) as [| |c rest|c rest]; auto.
      destruct C as (Hp & C'). split; [|exact C']. destruct (dchd d) as [|p|p dl|p]; auto.
      split; [apply (Hdl p dl eq_refl)|apply Hp].
    + apply (i_tok I).
    + intros k Hk. apply (i_rest I k). exact Hk.
  - apply sps_nil.
  - intros c. cbn [daput dforwards flat_map dof_cls filter]. apply app_nil_r.
  - pose proof (b_lmax B). cbn [daput dmaxsize dset_now dlmax]. lia.
  - intros p [].
  - intros Ht. exfalso. apply (Ht t). reflexivity.
  - cbn [dchild_step]. auto.
Qed.

Theorem dstep cfg d a d' ev : dwf cfg -> dinv cfg d -> drr_act cfg d a = Some (d', ev) -> dstep_post cfg d a d' ev.
Proof.
  intros Hwf I H. destruct a as [p| |[c|]|w| | | |t].
  - apply dstep_put; assumption.
  - apply dstep_resume; auto.
  - apply dstep_cb_cls; assumption.
  - apply dstep_cb_tok; assumption.
  - apply dstep_resume; auto.
  - apply dstep_childinit; assumption.
  - apply dstep_childtimer; assumption.
  - apply dstep_resume; auto.
  - apply dstep_advance; assumption.
Qed.

Lemma drun_ind cfg (P : drr -> list daction -> drr -> list dtev -> Prop) :
  dwf cfg ->
  (forall d, dinv cfg d -> P d [] d []) ->
  (forall d a d1 o acts d2 tr, dinv cfg d -> drr_act cfg d a = Some (d1, o) -> dstep_post cfg d a d1 o ->
     drr_run cfg d1 acts = Some (d2, tr) -> P d1 acts d2 tr -> P d (a :: acts) d2 ((dnow d1, a, o) :: tr)) ->
  forall acts d d' tr, dinv cfg d -> drr_run cfg d acts = Some (d', tr) -> P d acts d' tr.
Proof.
  intros Hwf H0 HS. induction acts as [|a rest IH]; intros d d' tr I H; cbn [drr_run] in H.
  - injection H as <- <-. apply H0, I.
  - destruct (drr_act cfg d a) as [[d1 o]|] eqn:A; [|discriminate].
    destruct (drr_run cfg d1 rest) as [[d2 tr2]|] eqn:R; [|discriminate]. injection H as <- <-.
    pose proof (dstep cfg d a d1 o Hwf I A) as St.
    apply (HS d a d1 o rest d2 tr2 I A St R), (IH d1 d2 tr2 (st_inv St) R).
Qed.

Lemma dinv_run cfg : forall acts d d' tr,
  dwf cfg -> dinv cfg d -> drr_run cfg d acts = Some (d', tr) -> dinv cfg d'.
Proof. intros acts d d' tr Hwf. apply (drun_ind cfg (fun _ _ d' _ => dinv cfg d') Hwf); auto. Qed.

Lemma dreach_inv cfg t0 acts d tr : dwf cfg -> drr_run cfg (drr0 t0) acts = Some (d, tr) -> dinv cfg d.
Proof. intros Hwf H. eapply dinv_run; eauto. apply dinv_init. exact Hwf. Qed.

Theorem drr_visit_l cfg t0 acts d tr a d' ev :
  dwf cfg -> drr_run cfg (drr0 t0) acts = Some (d, tr) -> drr_act cfg d a = Some (d', ev) ->
  dspecs cfg (dheld cfg d') (dabs d) ev (dabs d').
Proof. intros Hwf H A. apply (st_visit (dstep cfg d a d' ev Hwf (dreach_inv cfg t0 acts d tr Hwf H) A)). Qed.

(* C15: quantum *)
(* Q_c = 1500 * w_c / min w; min w is the least weight of the table *)
Lemma drr_quantum_l cfg c w :
  dwf cfg -> In (c, w) (dweights cfg) ->
  dquantum cfg c == inject_Z (1500 * w) / inject_Z (dminw (dweights cfg))
  /\ (exists x, In x (dweights cfg) /\ snd x = dminw (dweights cfg))
  /\ (forall x, In x (dweights cfg) -> (dminw (dweights cfg) <= snd x)%Z).
Proof.
  intros Hwf Hin. split; [|split].
  - rewrite dquantum_eq. assert (E : dweight cfg c = w); [|rewrite E; reflexivity].
    destruct Hwf as (_ & _ & Hnd & _). unfold dweight, dclasses in *.
    induction (dweights cfg) as [|y t IH]; [destruct Hin|]. cbn [find map] in *.
    inversion Hnd as [|? ? Hnot Hnd']; subst.
    destruct Hin as [->|Hin].
    + cbn [fst]. rewrite Z.eqb_refl. reflexivity.
    + destruct (Z.eqb_spec (fst y) c) as [E|E].
      * exfalso. apply Hnot. rewrite E. change c with (fst (c, w)). apply in_map. exact Hin.
      * apply IH; assumption.
  - apply dminw_spec, Hwf.
  - apply dminw_spec, Hwf.
Qed.

(* C15: credit bounds *)
Lemma drr_credit_bounds_l cfg t0 acts d tr :
  dwf cfg -> drr_run cfg (drr0 t0) acts = Some (d, tr) ->
  forall c, In c (dclasses cfg) -> 0 <= ddef d c /\ ddef d c < dquantum cfg c + inject_Z (dlmax d).
Proof.
  intros Hwf H c Hc. pose proof (dreach_inv _ _ _ _ _ Hwf H) as I.
  destruct (b_def (i_base I) c) as [H1 H2]. split; auto.
Qed.

Lemma dchild_class cfg d p :
  dinv cfg d -> dtxp d = Some p -> exists rest, dctrl d = DKChild (dcls cfg p) rest /\ (0 < psize p <= dlmax d)%Z.
Proof.
  intros I E. unfold dtxp in E.
  destruct (dctl_child cfg d (i_ctl I)) as (c & rest & K & Hp & _); [intros Ch; rewrite Ch in E; discriminate|].
  exists rest. destruct (dchd d) as [|q|q dl|q]; try discriminate; injection E as ->; [|destruct Hp as [_ Hp]|];
    destruct Hp as (<- & _ & Hs); auto.
Qed.

Lemma dtx_deadline cfg d p dl : dinv cfg d -> dchd d = DCTx p dl -> dnow d <= dl.
Proof.
  intros I Ch. destruct (dctl_child cfg d (i_ctl I) ltac:(congruence)) as (c & rest & _ & Hp & _). rewrite Ch in Hp. apply Hp.
Qed.

(* C15: a visit ends only when the credit is used up or the head packet is not affordable *)
Lemma dtx_nil_not_visiting cfg d c : dinv cfg d -> dvisiting d <> Some c -> dtx_l cfg d c = [].
Proof.
  intros I Hv. unfold dtx_l. destruct (dchd d) as [|p|p dl|p] eqn:Ch; try reflexivity;
    (destruct (dchild_class cfg d p I) as (rest & K & _); [unfold dtxp; rewrite Ch; reflexivity|];
     unfold dvisiting in Hv; rewrite K in Hv; destruct (Z.eqb_spec (dcls cfg p) c); [congruence|reflexivity]).
Qed.

Lemma drr_visit_complete_l cfg t0 acts d tr :
  dwf cfg -> drr_run cfg (drr0 t0) acts = Some (d, tr) ->
  forall c, dvisiting d <> Some c ->
  match dhol d c with
  | Some p => hd_error (dheld cfg d c) = Some p /\ ddef d c < inject_Z (psize p)
  | None => ddef d c == 0
  end.
Proof.
  intros Hwf H c Hv. pose proof (dreach_inv _ _ _ _ _ Hwf H) as I.
  pose proof (i_rest I c Hv) as R. unfold dparked_or_zero in R.
  destruct (dhol d c) as [p|] eqn:Eh; [|exact R]. split; [|exact R].
  unfold dheld. rewrite (dtx_nil_not_visiting cfg d c I Hv). unfold dhol_l. rewrite Eh. reflexivity.
Qed.

(* C15: the credit is forgotten when the class's queue empties *)
Lemma drr_credit_forgotten_l cfg t0 acts d tr :
  dwf cfg -> drr_run cfg (drr0 t0) acts = Some (d, tr) ->
  forall c, dheld cfg d c = [] -> ddone cfg d c = 0%Z -> ddef d c == 0.
Proof.
  intros Hwf H c Hh Hd. pose proof (dreach_inv _ _ _ _ _ Hwf H) as I.
  (* a class being visited holds the packet run() waits for, or the one in transmission, or awaits its debit *)
  assert (Hv : dvisiting d <> Some c).
  { intros Hv. pose proof (i_ctl I) as C. unfold dvisiting in Hv. unfold dctl_ok in C.
    destruct (dctrl d) as [| |c0 rest|c0 rest]; try discriminate; injection Hv as ->.
    - destruct C as (_ & _ & (x & Gx) & _). unfold dheld, dsth, sq_held in Hh. rewrite Gx in Hh.
      apply app_eq_nil in Hh as [_ Hh]. apply app_eq_nil in Hh as [_ Hh]. discriminate.
    - destruct C as (Hp & _). unfold dheld, dtx_l in Hh. unfold ddone in Hd.
      destruct (dchd d) as [|p|p dl|p]; [destruct Hp|destruct Hp as (Hc & _)|destruct Hp as (_ & Hc & _)|destruct Hp as (Hc & _)];
        rewrite Hc, Z.eqb_refl in *; discriminate. }
  pose proof (i_rest I c Hv) as R. unfold dparked_or_zero in R.
  destruct (dhol d c) as [p|] eqn:Eh; [|exact R].
  pose proof (dhol_in_held cfg d c p Eh) as Hin. rewrite Hh in Hin. destruct Hin.
Qed.

(* C12: counters *)
Lemma dof_flow_none f l : (forall p, In p l -> flow p <> f) -> dof_flow f l = [].
Proof.
  induction l as [|p t IH]; intros H; [reflexivity|]. rewrite dof_flow_cons.
  destruct (Z.eqb_spec (flow p) f) as [E|_]; [exfalso; apply (H p); [left; reflexivity|exact E]|].
  apply IH. intros q Hq. apply H. right. exact Hq.
Qed.

Lemma dof_flow_all_held cfg d f : dwf cfg -> dbase cfg d ->
  dof_flow f (dall_held cfg d) = dof_flow f (dheld cfg d (df2c cfg f)).
Proof.
  intros (_ & _ & Hnd & _) B. unfold dall_held.
  destruct (in_dec Z.eq_dec (df2c cfg f) (dclasses cfg)) as [Hin|Hout].
  - induction (dclasses cfg) as [|c t IH]; [destruct Hin|]. cbn [flat_map]. rewrite dof_flow_app.
    inversion Hnd as [|? ? Hnot Hnd']; subst.
    destruct (Z.eq_dec c (df2c cfg f)) as [->|Hne].
    + rewrite (dof_flow_none f (flat_map (dheld cfg d) t)); [apply app_nil_r|].
      intros p Hp E. apply in_flat_map in Hp as (k & Hk & Hpk).
      destruct (b_cls B k p Hpk) as (Hc & _). unfold dcls in Hc. rewrite E in Hc. subst k. contradiction.
    + destruct Hin as [E|Hin]; [contradiction|].
      rewrite (dof_flow_none f (dheld cfg d c)); [apply IH; auto|].
      intros p Hp E. destruct (b_cls B c p Hp) as (Hc & _). unfold dcls in Hc. rewrite E in Hc. congruence.
  - rewrite (dheld_outside cfg d _ B Hout). cbn. apply dof_flow_none.
    intros p Hp E. apply in_flat_map in Hp as (k & Hk & Hpk).
    destruct (b_cls B k p Hpk) as (Hc & _). unfold dcls in Hc. rewrite E in Hc. subst k. contradiction.
Qed.

(* queue_count[f] / queue_byte_size[f] = packets / bytes of flow f waiting or in transmission; total_packets = all of them *)
Lemma drr_counters_l cfg t0 acts d tr :
  dwf cfg -> drr_run cfg (drr0 t0) acts = Some (d, tr) ->
  (forall f, dqcnt d f = Z.of_nat (length (dof_flow f (dall_held cfg d)))
             /\ dqbytes d f = dbytes (dof_flow f (dall_held cfg d)))
  /\ dtotal d = Z.of_nat (length (dall_held cfg d)).
Proof.
  intros Hwf H. pose proof (dreach_inv _ _ _ _ _ Hwf H) as I. pose proof (i_base I) as B. split.
  - intros f. rewrite (dof_flow_all_held cfg d f Hwf B), <- dmeas_length, <- dmeas_bytes.
    split; [apply (b_qcnt B)|apply (b_qbytes B)].
  - rewrite (b_total B). unfold dall_held, dlen. induction (dclasses cfg) as [|c t IH]; cbn [dsum flat_map]; [reflexivity|].
    rewrite app_length, IH. lia.
Qed.

(* C12: one transmission at a time, never aborted, exactly 8*size/rate *)
Lemma drr_one_at_a_time_l cfg t0 acts d tr a d' ev p dl :
  dwf cfg -> drr_run cfg (drr0 t0) acts = Some (d, tr) -> drr_act cfg d a = Some (d', ev) ->
  dchd d = DCTx p dl ->
  dnow d <= dl /\
  ((a = DChildTimer /\ dnow d == dl /\ ev = [DOForward p] /\ dchd d' = DCDone p /\ dnow d' = dnow d)
   \/ (a <> DChildTimer /\ a <> DChildInit /\ dchd d' = DCTx p dl /\ dforwards ev = [] /\ dnow d' <= dl)).
Proof.
  intros Hwf H A Ch. pose proof (dreach_inv _ _ _ _ _ Hwf H) as I.
  pose proof (dstep cfg d a d' ev Hwf I A) as St. pose proof (st_now St) as Hnow. pose proof (st_child St) as Hc.
  pose proof (dtx_deadline cfg d p dl I Ch) as Hle. split; [exact Hle|].
  destruct a as [q| |w|w| | | |t]; cbn [dchild_step] in Hc.
  - destruct Hc as [E ->]. right. rewrite E, (Hnow ltac:(discriminate)). repeat split; try discriminate; auto.
  - destruct Hc as (E & _). congruence.
  - destruct Hc as [E ->]. right. rewrite E, (Hnow ltac:(discriminate)). repeat split; try discriminate; auto.
  - destruct Hc as (E & _). congruence.
  - destruct Hc as (p0 & E & _). congruence.
  - destruct Hc as (p0 & dl0 & E & Edl & E' & ->). rewrite Ch in E. injection E as <- <-. left.
    rewrite (Hnow ltac:(discriminate)). repeat split; auto. symmetry. exact Edl.
  - destruct Hc as (c & p0 & e & E & _). congruence.
  - destruct Hc as (E & -> & En & Hdl). right. rewrite E, En. repeat split; try discriminate; auto. apply (Hdl p dl Ch).
Qed.

Lemma drr_tx_start_l cfg t0 acts d tr d' ev :
  dwf cfg -> drr_run cfg (drr0 t0) acts = Some (d, tr) -> drr_act cfg d DChildInit = Some (d', ev) ->
  exists p dl, dchd d = DCStart p /\ dchd d' = DCTx p dl /\ dl == dnow d + inject_Z (8 * psize p) / drate cfg
               /\ dnow d' = dnow d /\ ev = [].
Proof.
  intros Hwf H A. unfold drr_act in A. destruct (dchd d) as [|p| |] eqn:Ch; try discriminate. injection A as <- <-.
  exists p, (Qred (dnow d + dtx_time cfg p)). cbn. repeat split; auto.
  rewrite Qred_correct. unfold dtx_time. rewrite (Z.mul_comm (psize p) 8). reflexivity.
Qed.

(* C12: work conservation *)
Lemma drr_work_conserving_l cfg t0 acts d tr :
  dwf cfg -> drr_run cfg (drr0 t0) acts = Some (d, tr) -> durgent cfg d = false ->
  (exists p dl, dchd d = DCTx p dl /\ dnow d < dl) \/ (forall c, dheld cfg d c = []).
Proof.
  intros Hwf H U. pose proof (dreach_inv _ _ _ _ _ Hwf H) as I. pose proof (i_base I) as B.
  destruct (durgent_false _ _ U) as (U1 & U2 & U3 & U4).
  pose proof (i_ctl I) as C. unfold dctl_ok in C. unfold dchild_urgent in U2.
  destruct (dchd d) as [|p|p dl|p] eqn:Ch; try discriminate U2.
  - right. unfold dctl_fresh in U1. destruct (dctrl d) as [| |c rest|c rest] eqn:K; try discriminate.
    + (* run() waits for the token with nothing pending: the token store is empty, so nothing is held *)
      destruct C as (_ & Gn & _). apply sq_urgent_false in U3 as (Pz & Ng).
      assert (Gw : get (dtok d) = GWaiting).
      { destruct (get (dtok d)) as [| |x] eqn:G; [contradiction|reflexivity|exfalso; apply (Ng x); reflexivity]. }
      assert (Hi : items (dtok d) = []).
      { destruct (items (dtok d)) eqn:E; [reflexivity|]. exfalso.
        assert (pend (dtok d) > 0)%nat by (apply (b_nostrand B Gw); rewrite E; discriminate). lia. }
      apply (dtotal_zero cfg d B). pose proof (dbase_total_nonneg _ _ B).
      destruct (Z_lt_dec 0 (dtotal d)) as [Hp|]; [|lia]. exfalso. apply (i_tok I K Gw Hp). exact Hi.
    + exfalso. destruct C as (_ & _ & (x & Gx) & _ & _ & Hs & _).
      pose proof (U4 c (dsuffix_head _ _ _ Hs)) as Uc. apply sq_urgent_false in Uc as (_ & Ng). apply (Ng x). exact Gx.
    + destruct C as ([] & _).
  - left. exists p, dl. split; [reflexivity|].
    pose proof (dtx_deadline cfg d p dl I Ch) as Hle. apply Qle_lt_or_eq in Hle as [Hlt|Heq]; [exact Hlt|]. exfalso.
    assert (Qeq_bool dl (dnow d) = true) by (apply Qeq_bool_iff; symmetry; exact Heq). congruence.
Qed.

(* C08: nothing is held when nothing is enabled and no deadline is pending *)
Lemma drr_drained_l cfg t0 acts d tr :
  dwf cfg -> drr_run cfg (drr0 t0) acts = Some (d, tr) -> durgent cfg d = false ->
  (forall p dl, dchd d <> DCTx p dl) -> forall c, dheld cfg d c = [].
Proof.
  intros Hwf H U Hn. destruct (drr_work_conserving_l cfg t0 acts d tr Hwf H U) as [(p & dl & E & _)|Hall]; [|exact Hall].
  exfalso. apply (Hn p dl). exact E.
Qed.

Lemma drun_frame cfg : forall acts d d' tr,
  dwf cfg -> dinv cfg d -> drr_run cfg d acts = Some (d', tr) ->
  (forall c, dheld cfg d c ++ dof_cls cfg c (dputs tr) = dof_cls cfg c (dfwds tr) ++ dheld cfg d' c)
  /\ dlmax d' = Z.max (dlmax d) (dmaxsize (dputs tr))
  /\ (forall p, In p (dputs tr) -> In (dcls cfg p) (dclasses cfg) /\ (0 < psize p)%Z).
Proof.
  intros acts d d' tr Hwf. revert acts d d' tr.
  apply (drun_ind cfg (fun d _ d' tr =>
           (forall c, dheld cfg d c ++ dof_cls cfg c (dputs tr) = dof_cls cfg c (dfwds tr) ++ dheld cfg d' c)
           /\ dlmax d' = Z.max (dlmax d) (dmaxsize (dputs tr))
           /\ (forall p, In p (dputs tr) -> In (dcls cfg p) (dclasses cfg) /\ (0 < psize p)%Z)) Hwf).
  - intros d I. cbn. repeat split; try contradiction.
    + intros c. apply app_nil_r.
    + pose proof (b_lmax (i_base I)). lia.
  - intros d a d1 o acts d2 tr2 I _ St _ (G1 & G2 & G3).
    pose proof (st_held St) as F1. pose proof (st_lmax St) as F2. pose proof (st_put St) as F3.
    cbn [dputs dfwds flat_map fst snd]. fold (dputs tr2). fold (dfwds tr2). split; [|split].
    + intros c. rewrite !dof_cls_app, app_assoc, F1, <- app_assoc, G1, app_assoc. reflexivity.
    + rewrite dmaxsize_app, G2, F2. lia.
    + intros p H. apply in_app_or in H as [H|H]; [apply (F3 p H)|apply (G3 p H)].
Qed.

(* C08: per class, the packets put in are exactly the packets forwarded followed by the packets still held, as lists *)
Lemma drr_conserves_l cfg t0 acts d tr :
  dwf cfg -> drr_run cfg (drr0 t0) acts = Some (d, tr) ->
  (forall c, dof_cls cfg c (dputs tr) = dof_cls cfg c (dfwds tr) ++ dheld cfg d c)
  /\ (forall p, In p (dputs tr) -> In (dcls cfg p) (dclasses cfg))
  /\ dlmax d = dmaxsize (dputs tr).
Proof.
  intros Hwf H. destruct (drun_frame cfg acts _ _ _ Hwf (dinv_init cfg t0 Hwf) H) as (F1 & F2 & F3).
  split; [|split].
  - intros c. apply (F1 c).
  - intros p Hp. apply (F3 p Hp).
  - rewrite F2. cbn. pose proof (dmaxsize_nonneg (dputs tr)). lia.
Qed.

Lemma dof_flow_of_cls cfg f l : dof_flow f (dof_cls cfg (df2c cfg f) l) = dof_flow f l.
Proof.
  induction l as [|p t IH]; [reflexivity|]. unfold dof_cls in *. cbn [filter]. unfold dcls at 1.
  destruct (Z.eqb_spec (df2c cfg (flow p)) (df2c cfg f)) as [E|E].
  - rewrite !dof_flow_cons, IH. reflexivity.
  - rewrite dof_flow_cons, IH. destruct (Z.eqb_spec (flow p) f) as [E'|]; [|reflexivity]. exfalso. apply E. rewrite E'. reflexivity.
Qed.

(* per flow: forwarded ++ held = put in, in arrival order *)
Lemma drr_flow_fifo_l cfg t0 acts d tr :
  dwf cfg -> drr_run cfg (drr0 t0) acts = Some (d, tr) ->
  forall f, dof_flow f (dputs tr) = dof_flow f (dfwds tr) ++ dof_flow f (dheld cfg d (df2c cfg f)).
Proof.
  intros Hwf H f. destruct (drr_conserves_l cfg t0 acts d tr Hwf H) as (F & _).
  rewrite <- (dof_flow_of_cls cfg f (dputs tr)), (F (df2c cfg f)), dof_flow_app, dof_flow_of_cls. reflexivity.
Qed.

(* C12: at a state where nothing is held, every packet put in has been transmitted exactly once, per flow in arrival order *)
Lemma drr_exactly_once_l cfg t0 acts d tr :
  dwf cfg -> drr_run cfg (drr0 t0) acts = Some (d, tr) -> (forall c, dheld cfg d c = []) ->
  (forall f, dof_flow f (dfwds tr) = dof_flow f (dputs tr)) /\ (forall c, dof_cls cfg c (dfwds tr) = dof_cls cfg c (dputs tr)).
Proof.
  intros Hwf H Hh. split.
  - intros f. rewrite (drr_flow_fifo_l cfg t0 acts d tr Hwf H f), Hh. cbn. rewrite app_nil_r. reflexivity.
  - intros c. destruct (drr_conserves_l cfg t0 acts d tr Hwf H) as (F & _). rewrite (F c), Hh, app_nil_r. reflexivity.
Qed.
