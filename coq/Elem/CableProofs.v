(* Proofs about Elem/Cable.v: the two directions of a cable are independent wires. *)
From Coq Require Import ZArith QArith List Bool Lia.
From ONL Require Import Base.Tools Elem.Packet Elem.StoreQ Elem.Wire Elem.WireProofs Elem.Cable.
Import ListNotations.

Lemma cget_cset_same c d w : cget (cset c d w) d = w.
Proof. destruct d; reflexivity. Qed.
Lemma cget_cset_other c d w : cget (cset c d w) (other d) = cget c (other d).
Proof. destruct d; reflexivity. Qed.
Lemma dir_eqb_refl d : dir_eqb d d = true.
Proof. destruct d; reflexivity. Qed.
Lemma dir_eqb_other d : dir_eqb (other d) d = false.
Proof. destruct d; reflexivity. Qed.
Lemma dir_eqb_eq d d' : dir_eqb d d' = true -> d = d'.
Proof. destruct d, d'; cbn; congruence. Qed.
Lemma dir_eqb_neq d d' : dir_eqb d d' = false -> d = other d'.
Proof. destruct d, d'; cbn; congruence. Qed.

(* what a non-Advance action of one direction does: exactly the wire action on that direction *)
Lemma cable_act_dir loss c d a c' outs :
  cable_act loss c (CA d a) = Some (c', outs) ->
  exists w' wouts, wire_act loss (cget c d) a = Some (w', wouts) /\ c' = cset c d w' /\
                   outs = map (fun o => (dir_dest d, o)) wouts /\ (forall t, a <> WAdvance t).
Proof.
  intros H. assert (Hn : forall t, a <> WAdvance t) by (intros t ->; discriminate).
  (* cable_act tests for WAdvance before it runs the wire: for every other action it is the wire's step *)
  assert (H' : match wire_act loss (cget c d) a with
               | Some (w', outs) => Some (cset c d w', map (fun o => (dir_dest d, o)) outs)
               | None => None end = Some (c', outs)).
  { destruct a; try exact H. discriminate. }
  destruct (wire_act loss (cget c d) a) as [[w' wouts]|]; [|discriminate].
  injection H' as <- <-. exists w', wouts. auto.
Qed.

(* (1) frame: an action of direction d leaves the state of the other direction untouched, hands packets
       only to the device at the far end of direction d, and is the wire's own action *)
Theorem cable_frame loss c d a c' outs :
  cable_act loss c (CA d a) = Some (c', outs) ->
  cget c' (other d) = cget c (other d) /\
  Forall (fun o : cout => fst o = dir_dest d) outs /\
  wire_act loss (cget c d) a = Some (cget c' d, map snd outs).
Proof.
  intros H. apply cable_act_dir in H as (w' & wouts & Hw & -> & -> & _).
  split; [apply cget_cset_other|]. split.
  - apply Forall_forall. intros o Ho. apply in_map_iff in Ho as (x & <- & _). reflexivity.
  - rewrite cget_cset_same, map_map. cbn. rewrite map_id. exact Hw.
Qed.

(* (2) actions of different directions commute: same final state, same outputs per action *)
Theorem cable_commute loss c a b c1 o1 c2 o2 :
  cable_act loss c (CA D1 a) = Some (c1, o1) -> cable_act loss c1 (CA D2 b) = Some (c2, o2) ->
  exists c1', cable_act loss c (CA D2 b) = Some (c1', o2) /\ cable_act loss c1' (CA D1 a) = Some (c2, o1).
Proof.
  intros H1 H2.
  apply cable_act_dir in H1 as (w1 & wo1 & Hw1 & -> & -> & Na).
  apply cable_act_dir in H2 as (w2 & wo2 & Hw2 & -> & -> & Nb).
  cbn [cget cset cw1 cw2] in *.
  exists {| cw1 := cw1 c; cw2 := w2 |}. split.
  - destruct b; try (cbn [cable_act cget]; rewrite Hw2; reflexivity). exfalso. eapply Nb. reflexivity.
  - destruct a; try (cbn [cable_act cget cw1]; rewrite Hw1; reflexivity). exfalso. eapply Na. reflexivity.
Qed.

Lemma cable_adv_inv loss c t c' outs :
  cable_act loss c (CAdvance t) = Some (c', outs) ->
  outs = [] /\ forall d, wire_act loss (cget c d) (WAdvance t) = Some (cget c' d, []) /\ wnow (cget c' d) = t.
Proof.
  cbn [cable_act].
  destruct (wire_act loss (cw1 c) (WAdvance t)) as [[w1 o1]|] eqn:E1; [|discriminate].
  destruct (wire_act loss (cw2 c) (WAdvance t)) as [[w2 o2]|] eqn:E2; [|discriminate].
  intros H. injection H as <- <-. split; [reflexivity|].
  destruct (wire_adv_inv _ _ _ _ _ E1) as (_ & _ & _ & -> & N1). destruct (wire_adv_inv _ _ _ _ _ E2) as (_ & _ & _ & -> & N2).
  intros [|]; cbn [cget cw1 cw2]; (split; [assumption|subst; reflexivity]).
Qed.

(* (3) projection: what direction d sees of any cable execution is an admissible execution of a single
       wire, with the same state, instants and outputs -- whatever the other direction does.  Hence
       every theorem about wires (Props/C10.v) holds for each direction of a cable. *)
Theorem cable_projection loss d : forall acts c c' tr,
  cable_run loss c acts = Some (c', tr) ->
  wire_run loss (cget c d) (proj_acts d acts) = Some (cget c' d, proj_tr d tr).
Proof.
  induction acts as [|a acts IH]; intros c c' tr H; cbn [cable_run] in H.
  - injection H as <- <-. reflexivity.
  - destruct (cable_act loss c a) as [[c1 outs]|] eqn:Ea; [|discriminate].
    destruct (cable_run loss c1 acts) as [[c2 tr1]|] eqn:Er; [|discriminate].
    injection H as <- <-. specialize (IH _ _ _ Er).
    unfold proj_acts, proj_tr. cbn [flat_map]. fold (proj_acts d acts) (proj_tr d tr1).
    destruct a as [d' a|t].
    + cbn [proj_act proj_tev cnow_after]. destruct (dir_eqb d d') eqn:Ed.
      * apply dir_eqb_eq in Ed. subst d'. destruct (cable_frame _ _ _ _ _ _ Ea) as (_ & _ & Hw).
        cbn [app wire_run]. rewrite Hw, IH. reflexivity.
      * apply dir_eqb_neq in Ed. subst d. destruct (cable_frame _ _ _ _ _ _ Ea) as (Hf & _ & _).
        cbn [app]. rewrite <- Hf. exact IH.
    + destruct (cable_adv_inv _ _ _ _ _ Ea) as (-> & Hd). destruct (Hd d) as (Hw & Hn).
      destruct (Hd D1) as (_ & H1). cbn [cget] in H1.
      cbn [proj_act proj_tev cnow_after app wire_run]. rewrite Hw, IH, Hn, H1. reflexivity.
Qed.

(* (4) the wiring made by set_endpoints: dev1 -> wire1 -> dev2 and dev2 -> wire2 -> dev1 *)
Theorem cable_wiring :
  cable_out Dev1 = NW1 /\ cable_out NW1 = Dev2 /\ cable_out Dev2 = NW2 /\ cable_out NW2 = Dev1 /\
  dir_dest D1 = Dev2 /\ dir_dest D2 = Dev1 /\
  (forall d, cable_out (dir_source d) = wire_node d /\ dir_dest d = dir_source (other d)).
Proof. repeat split; try reflexivity; destruct d; reflexivity. Qed.

(* what dev1 sends can only come out at dev2 (and conversely): every output of a cable execution that
   belongs to direction d is handed to dir_dest d *)
Theorem cable_outputs_go_across loss : forall acts c c' tr,
  cable_run loss c acts = Some (c', tr) ->
  Forall (fun e : ctev => match e with
                          | (_, CA d _, outs) => Forall (fun o : cout => fst o = dir_dest d) outs
                          | (_, CAdvance _, outs) => outs = []
                          end) tr.
Proof.
  induction acts as [|a acts IH]; intros c c' tr H; cbn [cable_run] in H.
  - injection H as <- <-. constructor.
  - destruct (cable_act loss c a) as [[c1 outs]|] eqn:Ea; [|discriminate].
    destruct (cable_run loss c1 acts) as [[c2 tr1]|] eqn:Er; [|discriminate].
    injection H as <- <-. constructor; [|eapply IH; eauto].
    destruct a as [d a|t].
    + apply (cable_frame _ _ _ _ _ _ Ea).
    + apply (cable_adv_inv _ _ _ _ _ Ea).
Qed.

(* non-vacuity: traffic in both directions at once; each direction delivers only its own packets at the
   far end, at its own instants *)
Definition cx_p (i : nat) : pkt := mkp i (Z.of_nat i + 1) 0 1000 0.
Definition cx_acts : list caction :=
  [ CA D1 WInit; CA D2 WInit; CA D1 (WPut (cx_p 0)); CA D2 (WPut (cx_p 1)); CA D1 WStoreCb; CA D2 WStoreCb;
    CA D2 (WGet None (Some 1)); CA D1 (WGet None (Some 2)); CAdvance 1; CA D2 WTimer; CAdvance 2; CA D1 WTimer ].

Example cx_run :
  exists c tr, cable_run None (cable0 0) cx_acts = Some (c, tr) /\
    tdeliv (proj_tr D1 tr) = [(2, cx_p 0)] /\ tdeliv (proj_tr D2 tr) = [(1, cx_p 1)] /\
    flat_map (fun e : ctev => map fst (snd e)) tr = [Dev1; Dev2].
Proof. apply run_facts. vm_compute. repeat split. Qed.
