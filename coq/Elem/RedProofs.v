(* Proofs about Elem/Red.v: the EWMA recurrence and the three regions of REDPort.put.  Everything PortProofs.v
   proves for an arbitrary drop policy (departure recurrence, conservation, counters, byte occupancy, stamps,
   samples, never late) holds for a REDPort as it stands, because [red_cfg] is a [pcfg]. *)
From Coq Require Import ZArith QArith Qminmax List Bool Lia Lqa.
From ONL Require Import Base.QTools Elem.Packet Elem.StoreQ Elem.StoreQProofs Elem.Port Elem.PortProofs Elem.Red.
Import ListNotations.

(* the RED curve of the property: linear from 0 at min_threshold to max_probability at max_threshold,
   max_probability from there up to qlimit *)
Definition red_curve (rc : redcfg) (a : Q) : Q :=
  if Qlt_le_dec a (r_max rc) then r_maxp rc * ((a - r_min rc) / (r_max rc - r_min rc)) else r_maxp rc.

Lemma red_prob_curve rc a : red_prob rc a == red_curve rc a.
Proof.
  unfold red_prob, red_curve. destruct (Qle_bool (r_max rc) a) eqn:E.
  - apply Qle_bool_iff in E. destruct (Qlt_le_dec a (r_max rc)) as [L|L]; [lra|reflexivity].
  - apply Qle_bool_false in E. destruct (Qlt_le_dec a (r_max rc)) as [L|L]; [|lra].
    rewrite Qmult_comm. reflexivity.
Qed.

(* what REDPort.put decides, by region of the NEW average *)
Lemma red_policy_inv rc s p u r a :
  red_policy rc s p u = Some (r, a) ->
  a = red_avg_next rc s /\
  ((r_qlimit rc <= a /\ u = None /\ r = true)
   \/ (a < r_qlimit rc /\ (r_max rc <= a \/ r_min rc <= a) /\ exists x, u = Some x /\ r = Qle_bool x (red_prob rc a))
   \/ (a < r_qlimit rc /\ a < r_max rc /\ a < r_min rc /\ u = None /\ r = false)).
Proof.
  unfold red_policy. set (a0 := red_avg_next rc s).
  destruct (Qle_bool (r_qlimit rc) a0) eqn:EQ.
  - destruct u; [discriminate|]. intros H; injection H as <- <-. split; [reflexivity|]. left.
    apply Qle_bool_iff in EQ. auto.
  - apply Qle_bool_false in EQ.
    destruct (Qle_bool (r_max rc) a0) eqn:EX; cbn [orb].
    + destruct u as [x|]; [|discriminate]. intros H; injection H as <- <-. split; [reflexivity|]. right; left.
      apply Qle_bool_iff in EX. split; [exact EQ|]. split; [left; exact EX|]. exists x. auto.
    + apply Qle_bool_false in EX. destruct (Qle_bool (r_min rc) a0) eqn:EN.
      * destruct u as [x|]; [|discriminate]. intros H; injection H as <- <-. split; [reflexivity|]. right; left.
        apply Qle_bool_iff in EN. split; [exact EQ|]. split; [right; exact EN|]. exists x. auto.
      * apply Qle_bool_false in EN. destruct u; [discriminate|]. intros H; injection H as <- <-.
        split; [reflexivity|]. right; right. auto.
Qed.

(* a put() of a REDPort: the decision taken, the new average stored, refusal visible as ODrop *)
Lemma red_put_inv f rate rc eid s p u s' outs :
  port_act (red_cfg f rate rc eid) s (PPut p u) = Some (s', outs) ->
  exists r, red_policy rc s p u = Some (r, pavg s') /\ (In (ODrop p) outs <-> r = true).
Proof.
  intros A. apply port_act_step, put_step_inv in A as (r & a & Hpol & D & ->).
  exists r. split; [|exact D]. destruct r; exact Hpol.
Qed.

(* red_avg: on every arrival (accepted or refused) the average moves by the EWMA recurrence with gain 2^-w
   towards the queue measure found by the arrival; nothing else changes it *)
Theorem red_avg f rate rc eid s p u s' outs :
  port_act (red_cfg f rate rc eid) s (PPut p u) = Some (s', outs) ->
  pavg s' == pavg s * (1 - Qpower 2 (- r_w rc)) + red_cur rc s * Qpower 2 (- r_w rc).
Proof.
  intros A. destruct (red_put_inv _ _ _ _ _ _ _ _ _ A) as (r & Hpol & _).
  apply red_policy_inv in Hpol as (E & _). rewrite E. unfold red_avg_next. rewrite Qred_correct. reflexivity.
Qed.

Theorem red_avg_unchanged c s a s' outs :
  port_act c s a = Some (s', outs) -> (forall p u, a <> PPut p u) -> pavg s' = pavg s.
Proof.
  intros A NP. apply port_act_step in A. destruct A; try reflexivity; try (exfalso; eapply NP; reflexivity).
  destruct (leave_now_fields c (with_q s q) p) as (_ & _ & _ & _ & _ & E). cbn. exact E.
Qed.

Definition red_wf (rc : redcfg) : Prop := r_min rc <= r_max rc /\ r_max rc <= r_qlimit rc.

(* never refused while the average is below min_threshold (and no draw is made) *)
Theorem red_no_drop_below_min f rate rc eid s p u s' outs :
  red_wf rc -> port_act (red_cfg f rate rc eid) s (PPut p u) = Some (s', outs) ->
  pavg s' < r_min rc -> ~ In (ODrop p) outs /\ u = None.
Proof.
  intros [W1 W2] A L. destruct (red_put_inv _ _ _ _ _ _ _ _ _ A) as (r & Hpol & D).
  apply red_policy_inv in Hpol as (_ & [(Q1 & _)|[(_ & [X|N] & _)|(_ & _ & _ & U & R)]]); try lra.
  split; [|exact U]. intros HD. apply D in HD. congruence.
Qed.

(* always refused when the average is at or above qlimit (no draw) *)
Theorem red_drop_at_limit f rate rc eid s p u s' outs :
  port_act (red_cfg f rate rc eid) s (PPut p u) = Some (s', outs) ->
  r_qlimit rc <= pavg s' -> In (ODrop p) outs /\ u = None.
Proof.
  intros A L. destruct (red_put_inv _ _ _ _ _ _ _ _ _ A) as (r & Hpol & D).
  apply red_policy_inv in Hpol as (_ & [(_ & U & R)|[(Q1 & _)|(Q1 & _)]]); try lra.
  split; [apply D; exact R|exact U].
Qed.

(* in between: exactly one uniform draw u is consumed and the packet is refused iff u <= p(avg), p the RED curve *)
Theorem red_curve_rule f rate rc eid s p u s' outs :
  red_wf rc -> port_act (red_cfg f rate rc eid) s (PPut p u) = Some (s', outs) ->
  r_min rc <= pavg s' -> pavg s' < r_qlimit rc ->
  exists x, u = Some x /\ (In (ODrop p) outs <-> x <= red_curve rc (pavg s')).
Proof.
  intros [W1 W2] A L1 L2. destruct (red_put_inv _ _ _ _ _ _ _ _ _ A) as (r & Hpol & D).
  apply red_policy_inv in Hpol as (_ & [(Q1 & _)|[(_ & _ & x & U & R)|(_ & _ & N & _)]]); try lra.
  exists x. split; [exact U|]. rewrite D, R. rewrite <- red_prob_curve. apply Qle_bool_iff.
Qed.

(* the curve is what the property says: 0 at min, max_probability at and above max, linear in between *)
Lemma red_curve_values rc :
  r_min rc < r_max rc ->
  red_curve rc (r_min rc) == 0 /\ red_curve rc (r_max rc) == r_maxp rc /\
  (forall a, r_min rc <= a -> a < r_max rc -> 0 <= r_maxp rc ->
     0 <= red_curve rc a /\ red_curve rc a <= r_maxp rc).
Proof.
  intros L. unfold red_curve. split; [|split].
  - destruct (Qlt_le_dec (r_min rc) (r_max rc)) as [H|H]; [|lra]. field. lra.
  - destruct (Qlt_le_dec (r_max rc) (r_max rc)) as [H|H]; [lra|reflexivity].
  - intros a L1 L2 P. destruct (Qlt_le_dec a (r_max rc)) as [H|H]; [|lra].
    assert (D : 0 < r_max rc - r_min rc) by lra.
    assert (F0 : 0 <= (a - r_min rc) / (r_max rc - r_min rc)).
    { apply Qle_shift_div_l; [exact D|]. lra. }
    assert (F1 : (a - r_min rc) / (r_max rc - r_min rc) <= 1).
    { apply Qle_shift_div_r; [exact D|]. lra. }
    set (k := (a - r_min rc) / (r_max rc - r_min rc)) in *.
    split; [apply Qmult_le_0_compat; assumption|]. nra.
Qed.

(* stamps of the repaired REDPort *)
Theorem red_perhop_stamp_eid rate rc eid s0 acts s tr :
  port_run (red_cfg all_fixed rate rc eid) s0 acts = Some (s, tr) -> Forall (stamped_as eid) tr.
Proof. apply stamped_as_eid. reflexivity. Qed.

Lemma red_perhop_stamp_refuted_unfixed :
  exists acts s tr,
    port_run (red_cfg without_stamp_fix 64 {| r_min := 1; r_max := 3; r_maxp := 1 # 2; r_qlimit := 4; r_w := 0; r_lb := false |}
                (Some 1%Z)) (port0 0) acts = Some (s, tr) /\
    ~ Forall (stamped_as (Some 1%Z)) tr.
Proof.
  exists [PPut (exP 0 0 8 0) None]. eexists. eexists. split; [lazy; reflexivity|].
  intros H. inversion H as [|e l He Hl]; subst. cbn in He. discriminate.
Qed.

(* non-vacuity: six packets in one burst into a REDPort (packet mode, w = 0 so avg = queue length found):
   avg 0 accept (no draw); avg 1, p = 0, u = 1/4: accept; avg 2, p = 1/4, u = 3/8: accept;
   avg 3 >= max, p = 1/2, u = 1/2: refused (u = p); avg 3, u = 0: refused twice *)
Definition red_ex_cfg : pcfg :=
  red_cfg all_fixed 64 {| r_min := 1; r_max := 3; r_maxp := 1 # 2; r_qlimit := 4; r_w := 0; r_lb := false |} (Some 1%Z).
Definition red_ex_acts : list paction :=
  [PInit; PPut (exP 0 0 8 0) None; PPut (exP 1 0 8 0) (Some (1 # 4)); PPut (exP 2 0 8 0) (Some (3 # 8));
   PPut (exP 3 0 8 0) (Some (1 # 2)); PPut (exP 4 0 8 0) (Some 0); PPut (exP 5 0 8 0) (Some 0);
   PStoreCb; PStoreCb; PStoreCb; PGet; PAdvance 1; PTimer; PGet; PAdvance 2; PTimer; PGet; PAdvance 3; PTimer].

Example red_example :
  option_map (fun r => (summary r, pavg (fst r))) (port_run red_ex_cfg (port0 0) red_ex_acts)
  = Some (([(1, 0%nat); (2, 1%nat); (3, 2%nat)], [3%nat; 4%nat; 5%nat], [(0, 0%nat); (0, 1%nat); (0, 2%nat)], (6, 3, 0)%Z, []), 3).
Proof. vm_compute. reflexivity. Qed.

(* a weighted average: w = 1, byte mode, two arrivals finding 0 then 100 bytes: avg 0, then 50 *)
Example red_example_ewma :
  option_map (fun r => pavg (fst r))
    (port_run (red_cfg all_fixed 0 {| r_min := 50; r_max := 306; r_maxp := 1 # 4; r_qlimit := 506; r_w := 1; r_lb := true |} None)
       (port0 0) [PInit; PPut (exP 0 0 100 0) None; PPut (exP 1 0 512 0) (Some (1 # 8))])
  = Some 50.
Proof. vm_compute. reflexivity. Qed.

(* The step configuration min_threshold = max_threshold (a legal RED parameterisation: no linear part).  The rule
   of [red_curve_rule] needs only min <= max, so it covers this case; spelled out: between the common threshold and
   qlimit one draw is made and the packet is refused iff u <= max_probability.  No quotient by max - min = 0 is
   involved: [red_policy] takes the linear branch only when min <= avg < max, which forces min < max (Coq's total
   division x / 0 = 0 is never evaluated on a reachable path, exactly as the code never divides there). *)
Corollary red_step_rule f rate rc eid s p u s' outs :
  r_min rc == r_max rc -> r_max rc <= r_qlimit rc ->
  port_act (red_cfg f rate rc eid) s (PPut p u) = Some (s', outs) ->
  r_min rc <= pavg s' -> pavg s' < r_qlimit rc ->
  exists x, u = Some x /\ (In (ODrop p) outs <-> x <= r_maxp rc).
Proof.
  intros E W2 A L1 L2.
  assert (WF : red_wf rc) by (split; [rewrite E; apply Qle_refl|exact W2]).
  destruct (red_curve_rule f rate rc eid s p u s' outs WF A L1 L2) as (x & U & D).
  exists x. split; [exact U|]. unfold red_curve in D.
  destruct (Qlt_le_dec (pavg s') (r_max rc)) as [H|H]; [exfalso; lra|exact D].
Qed.

(* the linear branch of the model is taken only with min < max *)
Lemma red_linear_branch_needs_gap rc s p x r a :
  red_policy rc s p (Some x) = Some (r, a) -> a < r_max rc -> r_min rc < r_max rc.
Proof.
  intros H L. apply red_policy_inv in H as (_ & [(_ & U & _)|[(_ & [X|N] & _)|(_ & _ & _ & U & _)]]); try discriminate; lra.
Qed.

(* non-vacuity: step RED min = max = 1, qlimit 3, gain 1, max_probability 1/2: avg 0 accept without draw;
   avg 1 with u = 1/2 refused (u = p), avg 1 with u = 3/4 accepted, avg 2 with u = 0 refused *)
Example red_step_example :
  option_map (fun r => (map uid (dropped (snd r)), map (fun x => uid (snd x)) (accepted (snd r)), pavg (fst r)))
    (port_run (red_cfg all_fixed 64 {| r_min := 1; r_max := 1; r_maxp := 1 # 2; r_qlimit := 3; r_w := 0; r_lb := false |} None)
       (port0 0) [PInit; PPut (exP 0 0 8 0) None; PPut (exP 1 0 8 0) (Some (1 # 2)); PPut (exP 2 0 8 0) (Some (3 # 4));
                  PPut (exP 3 0 8 0) (Some 0)])
  = Some ([1%nat; 3%nat], [0%nat; 2%nat], 2).
Proof. vm_compute. reflexivity. Qed.

(* the hypotheses of [red_step_rule] are met by a reachable state: second arrival of [red_step_example] *)
Definition step_rc : redcfg := {| r_min := 1; r_max := 1; r_maxp := 1 # 2; r_qlimit := 3; r_w := 0; r_lb := false |}.

Lemma red_step_witness :
  exists s tr s' outs,
    port_run (red_cfg all_fixed 64 step_rc None) (port0 0) [PInit; PPut (exP 0 0 8 0) None] = Some (s, tr) /\
    port_act (red_cfg all_fixed 64 step_rc None) s (PPut (exP 1 0 8 0) (Some (1 # 2))) = Some (s', outs) /\
    r_min step_rc == r_max step_rc /\ r_max step_rc <= r_qlimit step_rc /\
    r_min step_rc <= pavg s' /\ pavg s' < r_qlimit step_rc /\ In (ODrop (exP 1 0 8 0)) outs.
Proof.
  eexists. eexists. eexists. eexists.
  split; [lazy; reflexivity|]. split; [lazy; reflexivity|].
  split; [reflexivity|]. split; [vm_compute; discriminate|]. split; [vm_compute; discriminate|].
  split; [vm_compute; reflexivity|]. left. reflexivity.
Qed.
