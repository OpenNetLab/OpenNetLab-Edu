(* Back-to-back transmissions and progress of the DRR model: the fuel of [dpasses] always suffices, every action whose
   kernel-level guard holds is accepted by the model (no error state is reachable). *)
From Coq Require Import ZArith QArith Qminmax List Bool Lia Lqa.
From ONL Require Import Elem.Packet Elem.StoreQ Elem.StoreQProofs Elem.DRR Elem.DRRInv Elem.DRRProofs Elem.DRRVisit Elem.DRRFair.
Import ListNotations.
Opaque Qred.

Lemma drr_run_app cfg : forall a1 d d1 t1 a2 d2 t2,
  drr_run cfg d a1 = Some (d1, t1) -> drr_run cfg d1 a2 = Some (d2, t2) -> drr_run cfg d (a1 ++ a2) = Some (d2, t1 ++ t2).
Proof.
  induction a1 as [|a r IH]; intros d d1 t1 a2 d2 t2 H1 H2; cbn [drr_run app] in *.
  - injection H1 as <- <-. exact H2.
  - destruct (drr_act cfg d a) as [[d' o]|]; [|discriminate].
    destruct (drr_run cfg d' r) as [[d'' tr]|] eqn:R; [|discriminate]. injection H1 as <- <-.
    rewrite (IH _ _ _ _ _ _ R H2). reflexivity.
Qed.

(* only DChildInit starts a transmission *)
Definition dnot_tx (d : drr) : Prop := forall p dl, dchd d <> DCTx p dl.

Lemma dstep_not_tx cfg d a d' ev :
  dwf cfg -> dinv cfg d -> drr_act cfg d a = Some (d', ev) -> a <> DChildInit -> dnot_tx d -> dnot_tx d'.
Proof.
  intros Hwf I A Ha Hn. pose proof (st_child (dstep cfg d a d' ev Hwf I A)) as Hc. intros p dl E.
  destruct a as [q| |w|w| | | |t]; cbn [dchild_step] in Hc.
  - destruct Hc as [E' _]. rewrite E' in E. apply (Hn _ _ E).
  - destruct Hc as (_ & _ & [E'|(q & E')]); congruence.
  - destruct Hc as [E' _]. rewrite E' in E. apply (Hn _ _ E).
  - destruct Hc as (_ & _ & [E'|(q & E')]); congruence.
  - contradiction.
  - destruct Hc as (p0 & dl0 & _ & _ & E' & _). congruence.
  - destruct Hc as (k & p0 & e & _ & _ & _ & _ & [E'|(q & E')]); congruence.
  - destruct Hc as (E' & _). rewrite E' in E. apply (Hn _ _ E).
Qed.

Lemma daction_eq_init (a : daction) : {a = DChildInit} + {a <> DChildInit}.
Proof. destruct a; try (right; discriminate). left. reflexivity. Qed.

Lemma drun_now cfg : forall acts d d' tr,
  dwf cfg -> dinv cfg d -> drr_run cfg d acts = Some (d', tr) -> (forall t, ~ In (DAdvance t) acts) -> dnow d' = dnow d.
Proof.
  intros acts d d' tr Hwf I H. revert acts d d' tr I H.
  apply (drun_ind cfg (fun d acts d' _ => (forall t, ~ In (DAdvance t) acts) -> dnow d' = dnow d) Hwf).
  - reflexivity.
  - intros d a d1 o acts d2 tr2 _ _ St _ IH Hadv.
    rewrite IH by (intros t Ht; apply (Hadv t); right; exact Ht).
    apply (st_now St). intros t E. apply (Hadv t). left. exact E.
Qed.

Lemma drun_not_tx cfg : forall acts d d' tr,
  dwf cfg -> dinv cfg d -> drr_run cfg d acts = Some (d', tr) -> dnot_tx d -> In DChildInit acts \/ dnot_tx d'.
Proof.
  intros acts d d' tr Hwf I H. revert acts d d' tr I H.
  apply (drun_ind cfg (fun d acts d' _ => dnot_tx d -> In DChildInit acts \/ dnot_tx d') Hwf).
  - auto.
  - intros d a d1 o acts d2 tr2 I A _ _ IH Hn.
    destruct (daction_eq_init a) as [->|Hne]; [left; left; reflexivity|].
    destruct (IH (dstep_not_tx cfg d a d1 o Hwf I A Hne Hn)) as [Hin|Hn2]; [left; right; exact Hin|right; exact Hn2].
Qed.

(* C12: if a packet is held when a transmission ends, the next transmission starts at that very instant:
   d0 is a state in which a transmission has just ended (DCDone); whatever happens next without the clock moving
   (acts1), when the clock may move on again (d1 not urgent) and a packet is still held, a transmission is in
   progress and it was started within acts1, i.e. at the instant the previous one ended *)
Lemma drr_back_to_back_l cfg t0 acts0 d0 tr0 acts1 d1 tr1 p0 :
  dwf cfg -> drr_run cfg (drr0 t0) acts0 = Some (d0, tr0) -> dchd d0 = DCDone p0 ->
  drr_run cfg d0 acts1 = Some (d1, tr1) -> (forall t, ~ In (DAdvance t) acts1) ->
  durgent cfg d1 = false -> (exists c, dheld cfg d1 c <> []) ->
  exists p dl, dchd d1 = DCTx p dl /\ In DChildInit acts1 /\ dnow d1 = dnow d0 /\ dnow d1 < dl.
Proof.
  intros Hwf H0 Ch H1 Hadv U (c & Hc).
  pose proof (dreach_inv _ _ _ _ _ Hwf H0) as I0.
  pose proof (drr_run_app cfg _ _ _ _ _ _ _ H0 H1) as H01.
  destruct (drr_work_conserving_l cfg t0 _ d1 _ Hwf H01 U) as [(p & dl & E & Hlt)|Hall]; [|exfalso; apply Hc; apply Hall].
  exists p, dl. split; [exact E|]. split; [|split; [apply (drun_now cfg acts1 d0 d1 tr1 Hwf I0 H1 Hadv)|exact Hlt]].
  assert (Hn0 : dnot_tx d0) by (intros q dl0; rewrite Ch; discriminate).
  destruct (drun_not_tx cfg acts1 d0 d1 tr1 Hwf I0 H1 Hn0) as [Hin|Hn1]; [exact Hin|].
  exfalso. apply (Hn1 p dl). exact E.
Qed.

Lemma dpasses_fuel cfg fuel : forall d,
  dwf cfg -> dmid cfg d None ->
  ((0 < dtotal d)%Z -> exists c, In c (dclasses cfg) /\ (0 < dlen cfg d c)%Z
                                /\ inject_Z (dlmax d) < ddef d c + 1500 * inject_Z (Z.of_nat fuel)) ->
  exists r, dpasses fuel cfg d = Some r.
Proof.
  induction fuel as [|n IH]; intros d Hwf M Hf.
  - cbn [dpasses]. destruct (0 <? dtotal d)%Z eqn:T.
    + exfalso. apply Z.ltb_lt in T. destruct (Hf T) as (c & Hc & Hl & Hb).
      pose proof (dlmax_pos_of_held _ _ _ (m_base M) (proj1 (dlen_pos _ _ _) Hl)) as HL.
      assert (R : dparked_or_zero d c) by (apply (m_rest M); discriminate).
      pose proof (dparked_lt_lmax _ _ _ (m_base M) R HL). cbn in Hb. qz. lra.
    + destruct (sq_get_enabled unit fifo_pop (dtok d) (m_tok M)) as (q & Hq). rewrite Hq. eauto.
  - cbn [dpasses]. destruct (0 <? dtotal d)%Z eqn:T.
    + apply Z.ltb_lt in T. destruct (Hf T) as (c & Hc & Hl & Hb).
      pose proof (dscan_post cfg (dheld cfg d) (dclasses cfg) d Hwf M (dsuffix_all cfg) (fun k => eq_refl)) as HS.
      destruct (dscan cfg (dclasses cfg) d) as [d1 e1|d1 e1|] eqn:Es; [eauto| |contradiction].
      destruct HS as (M1 & [S1 Int Ev]).
      (* a pass that sends nothing visits c once and debits nothing: the credit of c has grown by at least a quantum *)
      destruct (dspecs_count cfg (dheld cfg d) c _ e1 _ Ev (proj1 (dlen_pos _ _ _) Hl) Hc
                  (proj1 (proj2 (proj2 Hwf))) (proj1 (proj2 (proj2 Hwf)))) as (A1 & A2 & _).
      cbn [ss_cr ss_todo] in A1, A2. unfold dpsi in A2. rewrite (proj2 (dmemZ_In c (dclasses cfg)) Hc) in A2. cbn [dmemZ existsb] in A2.
      rewrite (dsumev_internal (ddeb c) e1) in A1 by (try exact Int; intros x Hx; destruct x; try discriminate; reflexivity).
      pose proof (dsumev_nonneg dnpass e1 ltac:(intros x; destruct x; cbn; lia)) as Np.
      assert (Nq : 1 <= inject_Z (dsumev (dnq c) e1)) by (change 1 with (inject_Z 1); rewrite <- Zle_Qle; lia).
      destruct (IH d1 Hwf M1) as (r & Hr).
      * intros _. exists c. split; [exact Hc|]. unfold dlen. rewrite (s_held S1). split; [exact Hl|].
        rewrite (s_lmax S1). pose proof (dquantum_ge cfg c Hwf Hc) as HQ.
        rewrite Nat2Z.inj_succ in Hb. unfold Z.succ in Hb. rewrite inject_Z_plus in Hb. qz. nra.
      * rewrite Hr. destruct r as [d2 e2]. eauto.
    + destruct (sq_get_enabled unit fifo_pop (dtok d) (m_tok M)) as (q & Hq). rewrite Hq. eauto.
Qed.

Lemma dpasses_total cfg d : dwf cfg -> dmid cfg d None -> exists r, dpasses (dfuel d) cfg d = Some r.
Proof.
  intros Hwf M. apply (dpasses_fuel cfg (dfuel d) d Hwf M). intros T.
  destruct (dtotal_pos cfg d (m_base M) T) as (c & Hc & Hne). exists c. split; [exact Hc|]. split.
  - apply dlen_pos. exact Hne.
  - destruct (b_def (m_base M) c) as [D0 _]. pose proof (b_lmax (m_base M)) as L0.
    assert (Hz : (dlmax d < 1500 * Z.of_nat (dfuel d))%Z).
    { unfold dfuel. rewrite !Nat2Z.inj_succ, Z2Nat.id by (apply Z.div_pos; lia).
      pose proof (Z.div_mod (dlmax d) 1024 ltac:(lia)). pose proof (Z.mod_pos_bound (dlmax d) 1024 ltac:(lia)). lia. }
    rewrite Zlt_Qlt in Hz. rewrite inject_Z_mult in Hz. change (inject_Z 1500) with 1500 in Hz. lra.
Qed.

Lemma dcontinue_total cfg rest r d0 s0 :
  dwf cfg -> dsuffix cfg rest -> dpost cfg (dheld cfg d0) d0 s0 rest r -> exists res, dcontinue cfg rest r = Some res.
Proof.
  intros Hwf Hsuf Pr. destruct r as [d e|d e|]; cbn [dcontinue]; [eauto| |destruct Pr].
  destruct Pr as (M & T0).
  pose proof (dscan_post cfg _ rest d Hwf M Hsuf (dtrans_held (fun k => eq_refl) T0)) as P1.
  destruct (dscan cfg rest d) as [d1 e1|d1 e1|]; [eauto| |destruct P1].
  destruct P1 as (M1 & _). destruct (dpasses_total cfg d1 Hwf M1) as ([d2 e2] & P). rewrite P. eauto.
Qed.

(* C08/C12: no admissible execution reaches an error state: in every reachable state every action whose guard (as the
   kernel sees it) holds is accepted by the model -- in particular run() never spins through [dpasses] without reaching
   a yield *)
Theorem drr_progress_l cfg t0 acts d tr :
  dwf cfg -> drr_run cfg (drr0 t0) acts = Some (d, tr) ->
  (dctrl d = DKFresh -> exists r, drr_act cfg d DInit = Some r)
  /\ (forall x, get (dtok d) = GGranted x -> exists r, drr_act cfg d (DGetDone None) = Some r)
  /\ (forall c x, get (dst d c) = GGranted x -> exists r, drr_act cfg d (DGetDone (Some c)) = Some r)
  /\ (forall p, dchd d = DCStart p -> exists r, drr_act cfg d DChildInit = Some r)
  /\ (forall p dl, dchd d = DCTx p dl -> dl == dnow d -> exists r, drr_act cfg d DChildTimer = Some r)
  /\ (forall p, dchd d = DCDone p -> exists r, drr_act cfg d DChildEnd = Some r)
  /\ ((pend (dtok d) > 0)%nat -> exists r, drr_act cfg d (DStoreCb None) = Some r)
  /\ (forall c, In c (dclasses cfg) -> (pend (dst d c) > 0)%nat -> exists r, drr_act cfg d (DStoreCb (Some c)) = Some r)
  /\ (forall p, In (dcls cfg p) (dclasses cfg) -> (0 < psize p)%Z -> exists r, drr_act cfg d (DPut p) = Some r)
  /\ (forall t, durgent cfg d = false -> dnow d < t -> (forall p dl, dchd d = DCTx p dl -> t <= dl) ->
      exists r, drr_act cfg d (DAdvance t) = Some r).
Proof.
  intros Hwf H. pose proof (dreach_inv _ _ _ _ _ Hwf H) as I. pose proof (i_ctl I) as C. pose proof (i_base I) as B.
  unfold dctl_ok in C. repeat split.
  - intros K. unfold drr_act. rewrite K in *. destruct C as (C1 & C2 & C3).
    apply dpasses_total; [exact Hwf|]. apply dinv_mid; auto. unfold dvisiting. rewrite K. reflexivity.
  - intros x G. unfold drr_act. destruct (dctrl d) as [| |c rest|c rest] eqn:K.
    + destruct C as (_ & C2 & _). congruence.
    + destruct C as (C1 & C2 & C3). destruct (sq_take_enabled unit (dtok d) x G) as (q & Tk). rewrite Tk.
      apply dpasses_total; [exact Hwf|]. apply (dtok_mid cfg d x q I K Tk).
    + destruct C as (_ & C2 & _). congruence.
    + destruct C as (_ & C2 & _). congruence.
  - intros c x G. unfold drr_act. destruct (dctrl d) as [| |c0 rest|c0 rest] eqn:K.
    + destruct C as (_ & _ & C3). rewrite C3 in G. discriminate.
    + destruct C as (_ & _ & C3). rewrite C3 in G. discriminate.
    + destruct (Z.eqb_spec c c0) as [->|Hne].
      * destruct (sq_take_enabled pkt (dst d c0) x G) as (q & Tk). rewrite Tk. destruct x as [t p].
        destruct (dget_mid cfg d c0 rest t p q I K Tk) as (M & S2 & Hpos & Hsuf & Ch).
        apply (dcontinue_total cfg rest _ _ _ Hwf (dsuffix_tail _ _ _ Hsuf)
                 (dtry_head_post cfg _ (dset_st d c0 q) c0 rest p Hwf M Hsuf (fun k => eq_refl) Hpos)).
      * destruct C as (_ & _ & _ & C4 & _). rewrite (C4 c Hne) in G. discriminate.
    + destruct C as (_ & _ & C3 & _). rewrite C3 in G. discriminate.
  - intros p Ch. unfold drr_act. rewrite Ch. eauto.
  - intros p dl Ch E. unfold drr_act. rewrite Ch.
    assert (Eb : Qeq_bool dl (dnow d) = true) by (apply Qeq_bool_iff; exact E). rewrite Eb. eauto.
  - intros p Ch. unfold drr_act. rewrite Ch.
    destruct (dctl_child cfg d (i_ctl I) ltac:(congruence)) as (c & rest & K & _). rewrite K.
    destruct (dchildend_mid cfg d c rest p Hwf I Ch K) as (M & S1 & Hsuf & _).
    destruct (dcontinue_total cfg rest _ _ _ Hwf (dsuffix_tail _ _ _ Hsuf)
                (dinner_post cfg _ (ddebit d c rest p) c rest Hwf M Hsuf (fun k => eq_refl))) as ([d2 e2] & Dc).
    rewrite Dc. eauto.
  - intros Hp. unfold drr_act. destruct (proj1 (sq_cb_enabled unit fifo_pop (dtok d)) Hp) as (q & Hq). rewrite Hq. eauto.
  - intros c Hc Hp. unfold drr_act. apply dmemZ_In in Hc. rewrite Hc.
    destruct (proj1 (sq_cb_enabled pkt fifo_pop (dst d c)) Hp) as (q & Hq). rewrite Hq. eauto.
  - intros p Hc Hp. unfold drr_act. cbv zeta. unfold dcls in Hc. apply dmemZ_In in Hc. rewrite Hc.
    assert (E : (0 <? psize p)%Z = true) by (apply Z.ltb_lt; exact Hp). rewrite E. cbn [andb]. eauto.
  - intros t U Lt Hdl. unfold drr_act. rewrite U. destruct (Qlt_le_dec (dnow d) t) as [_|Hle]; [|exfalso; lra].
    cbv zeta. destruct (dchd d) as [|p|p dl|p] eqn:Ch; eauto.
    assert (E : Qle_bool t dl = true) by (apply Qle_bool_iff; apply (Hdl p dl eq_refl)). rewrite E. eauto.
Qed.
