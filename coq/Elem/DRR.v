(* Model of onl/scheduler/drr.py : DRR (as repaired by the fix: commit "DRR files packets and counts backlog
   per class") on top of the parts of onl/scheduler/base.py it uses (Scheduler.send_packet,
   add_packet_to_queue, total_packets, the packets_available token Store).  Standalone and executable;
   proofs are in DRRInv.v, DRRVisit.v, DRRProofs.v, DRRFair.v, DRRLive.v.  All global names carry a d/D prefix: case files import several scheduler models.

   Actions (what the harness observes of the real execution, one per kernel step or put() call):
     DPut p           drr.put(p) called by the upstream element
     DInit            Initialize of run(): the server enters `while True`
     DStoreCb w       a StorePut event of the token store (w = None) / of stores[c] (w = Some c) is processed
     DGetDone w       the granted StoreGet of the token store / of stores[c] is processed: run() resumes
     DChildInit       Initialize of send_packet(p): current_packet := p, the transmission timeout starts
     DChildTimer      the transmission timeout: per-flow counters decremented, p forwarded, current_packet := None
     DChildEnd        the Process event of the child: run() resumes after `yield env.process(...)`,
                      class_count -= 1, the credit is debited (and forgotten if the class is now empty)
     DAdvance t       the clock moves to t (only when nothing is due at the current instant)

   Between two yields run() executes without the kernel; that stretch is computed by [dinner]/[dscan]/[dpasses].
   A pass of the `for` that sends nothing (every backlogged class has an unaffordable parked head) does not
   yield, so [dpasses] carries fuel; running out of fuel is an explicit failure (None) which
   DRRLive.drr_progress_l shows unreachable.

   Besides the forwarded packets an action emits the internal events of run() in program order
   (DOPass, DOQuantum, DOSkip, DOSend, DOPark, DOEnd, DODebit): the visit rule of C15 is stated on them.
   Only DOForward is visible from outside; the correspondence compares it and, after every action, the
   public fields of the object. *)
From Coq Require Import ZArith QArith Qminmax List Bool.
From ONL Require Import Elem.Packet Elem.StoreQ.
Import ListNotations.

Record dcfg := {
  drate : Q;                         (* rate, bit/s *)
  dweights : list (Z * Z);           (* weights: (class id, weight) in declaration order *)
  df2c : Z -> Z                      (* flow2class *)
}.

Definition dclasses (c : dcfg) : list Z := map fst (dweights c).
Definition dmemZ (x : Z) (l : list Z) : bool := existsb (Z.eqb x) l.

(* flow2class given by a finite table, identity elsewhere *)
Definition dtbl (t : list (Z * Z)) (f : Z) : Z :=
  match find (fun x => Z.eqb (fst x) f) t with Some x => snd x | None => f end.

Definition dminw (l : list (Z * Z)) : Z :=
  match l with
  | [] => 1%Z
  | x :: t => fold_right (fun y m => Z.min (snd y) m) (snd x) t
  end.

Definition dweight (c : dcfg) (k : Z) : Z :=
  match find (fun x => Z.eqb (fst x) k) (dweights c) with Some x => snd x | None => 0%Z end.

(* self.quantum[class_id] = MIN_QUANTUM * weight / min_weight *)
Definition dquantum (c : dcfg) (k : Z) : Q :=
  Qred (inject_Z (1500 * dweight c k)%Z / inject_Z (dminw (dweights c))).

(* packet.size * 8.0 / self.rate *)
Definition dtx_time (c : dcfg) (p : pkt) : Q := inject_Z (psize p * 8)%Z / drate c.

Inductive dchild :=
| DCNone
| DCStart (p : pkt)                  (* env.process(send_packet(p)) created, its Initialize pending *)
| DCTx (p : pkt) (dl : Q)            (* transmitting, timeout due at dl *)
| DCDone (p : pkt).                  (* send_packet returned, its Process event pending *)

Inductive dctl :=
| DKFresh                            (* Initialize of run() pending *)
| DKTok                              (* in `yield self.packets_available.get()` *)
| DKGet (c : Z) (rest : list Z)      (* visiting class c, in `yield store.get()`; rest = classes still to visit in this pass *)
| DKChild (c : Z) (rest : list Z).   (* visiting class c, in `yield env.process(self.send_packet(packet))` *)

Record drr := {
  dnow : Q;
  dtok : sq unit;                    (* packets_available *)
  dst : Z -> sq pkt;                 (* stores[class]; an absent key is the empty store *)
  dqcnt : Z -> Z;                    (* queue_count[flow] *)
  dqbytes : Z -> Z;                  (* queue_byte_size[flow] *)
  dtotal : Z;                        (* total_packets = sum(queue_count.values()) *)
  dccnt : Z -> Z;                    (* class_count[class] *)
  ddef : Z -> Q;                     (* deficit[class] *)
  dhol : Z -> option pkt;            (* head_of_line *)
  dcur : option pkt;                 (* current_packet *)
  dnrecv : Z;                        (* packets_received *)
  dlmax : Z;                         (* largest packet size put in so far (not a field of the object) *)
  dchd : dchild;
  dctrl : dctl
}.

Definition dupd {A : Type} (m : Z -> A) (k : Z) (v : A) : Z -> A := fun g => if Z.eqb g k then v else m g.

Definition drr0 (t0 : Q) : drr :=
  {| dnow := t0; dtok := sq0; dst := fun _ => sq0; dqcnt := fun _ => 0%Z; dqbytes := fun _ => 0%Z; dtotal := 0%Z;
     dccnt := fun _ => 0%Z; ddef := fun _ => 0; dhol := fun _ => None; dcur := None; dnrecv := 0%Z; dlmax := 0%Z;
     dchd := DCNone; dctrl := DKFresh |}.

Inductive daction :=
| DPut (p : pkt) | DInit | DStoreCb (w : option Z) | DGetDone (w : option Z)
| DChildInit | DChildTimer | DChildEnd | DAdvance (t : Q).

Inductive dout :=
| DOForward (p : pkt)                (* out.put(p) *)
| DOPass                             (* a pass of the `for` over the classes begins *)
| DOQuantum (c : Z)                  (* visit of c: class_count[c] > 0, deficit[c] += quantum[c] *)
| DOSkip (c : Z)                     (* visit of c: class_count[c] = 0, no quantum *)
| DOSend (c : Z) (p : pkt)           (* head p is affordable: send_packet(p) spawned *)
| DOPark (c : Z) (p : pkt)           (* head p is not affordable: parked in head_of_line, visit ends *)
| DOEnd (c : Z)                      (* the inner while of the visit of c falls through: credit used up or class empty *)
| DODebit (c : Z) (p : pkt) (reset : bool).   (* after the transmission of p: class_count[c] -= 1, deficit[c] -= size;
                                                reset = the class is now empty and deficit[c] := 0 *)

(* ---- field updates ------------------------------------------------------------------------------ *)
Definition dset_ctl (d : drr) (k : dctl) : drr :=
  {| dnow := dnow d; dtok := dtok d; dst := dst d; dqcnt := dqcnt d; dqbytes := dqbytes d; dtotal := dtotal d;
     dccnt := dccnt d; ddef := ddef d; dhol := dhol d; dcur := dcur d; dnrecv := dnrecv d; dlmax := dlmax d;
     dchd := dchd d; dctrl := k |}.

Definition dset_tok (d : drr) (q : sq unit) : drr :=
  {| dnow := dnow d; dtok := q; dst := dst d; dqcnt := dqcnt d; dqbytes := dqbytes d; dtotal := dtotal d;
     dccnt := dccnt d; ddef := ddef d; dhol := dhol d; dcur := dcur d; dnrecv := dnrecv d; dlmax := dlmax d;
     dchd := dchd d; dctrl := dctrl d |}.

Definition dset_st (d : drr) (c : Z) (q : sq pkt) : drr :=
  {| dnow := dnow d; dtok := dtok d; dst := dupd (dst d) c q; dqcnt := dqcnt d; dqbytes := dqbytes d; dtotal := dtotal d;
     dccnt := dccnt d; ddef := ddef d; dhol := dhol d; dcur := dcur d; dnrecv := dnrecv d; dlmax := dlmax d;
     dchd := dchd d; dctrl := dctrl d |}.

Definition dset_def (d : drr) (c : Z) (v : Q) : drr :=
  {| dnow := dnow d; dtok := dtok d; dst := dst d; dqcnt := dqcnt d; dqbytes := dqbytes d; dtotal := dtotal d;
     dccnt := dccnt d; ddef := dupd (ddef d) c v; dhol := dhol d; dcur := dcur d; dnrecv := dnrecv d; dlmax := dlmax d;
     dchd := dchd d; dctrl := dctrl d |}.

Definition dset_hol (d : drr) (c : Z) (h : option pkt) : drr :=
  {| dnow := dnow d; dtok := dtok d; dst := dst d; dqcnt := dqcnt d; dqbytes := dqbytes d; dtotal := dtotal d;
     dccnt := dccnt d; ddef := ddef d; dhol := dupd (dhol d) c h; dcur := dcur d; dnrecv := dnrecv d; dlmax := dlmax d;
     dchd := dchd d; dctrl := dctrl d |}.

(* ---- run() between two yields ---------------------------------------------------------------------- *)
Inductive dres :=
| DYield (d : drr) (ev : list dout)      (* run() reached a yield *)
| DFall (d : drr) (ev : list dout)       (* the construct fell through (end of inner while / of the for) *)
| DErr.

(* run() holds packet p of class c (taken from head_of_line or received from the store) *)
Definition dtry_head (c : Z) (rest : list Z) (d : drr) (p : pkt) : dres :=
  if Qle_bool (inject_Z (psize p)) (ddef d c) then
    (* self.current_packet = packet; yield env.process(self.send_packet(packet)) *)
    DYield {| dnow := dnow d; dtok := dtok d; dst := dst d; dqcnt := dqcnt d; dqbytes := dqbytes d; dtotal := dtotal d;
              dccnt := dccnt d; ddef := ddef d; dhol := dupd (dhol d) c None; dcur := Some p; dnrecv := dnrecv d;
              dlmax := dlmax d; dchd := DCStart p; dctrl := DKChild c rest |} [DOSend c p]
  else
    (* self.head_of_line[class_id] = packet; break *)
    DFall (dset_hol d c (Some p)) [DOPark c p].

(* `while self.deficit[c] > 0 and self.class_count[c] > 0:` -- one iteration always ends in a yield or a break *)
Definition dinner (c : Z) (rest : list Z) (d : drr) : dres :=
  if negb (Qle_bool (ddef d c) 0) && (0 <? dccnt d c)%Z then
    match dhol d c with
    | Some p => dtry_head c rest d p             (* del self.head_of_line[class_id] *)
    | None =>
        match sq_get fifo_pop (dst d c) with
        | Some q => DYield (dset_ctl (dset_st d c q) (DKGet c rest)) []
        | None => DErr
        end
    end
  else DFall d [DOEnd c].

(* the visit of class c begins: `if self.class_count[c] > 0: self.deficit[c] += self.quantum[c]` *)
Definition dvisit_start (cfg : dcfg) (c : Z) (d : drr) : drr * list dout :=
  if (0 <? dccnt d c)%Z then (dset_def d c (Qred (ddef d c + dquantum cfg c)), [DOQuantum c])
  else (d, [DOSkip c]).

(* the rest of the `for class_id in self.quantum:` *)
Fixpoint dscan (cfg : dcfg) (cs : list Z) (d : drr) : dres :=
  match cs with
  | [] => DFall d []
  | c :: rest =>
      let (d1, e1) := dvisit_start cfg c d in
      match dinner c rest d1 with
      | DYield d2 e2 => DYield d2 (e1 ++ e2)
      | DFall d2 e2 =>
          match dscan cfg rest d2 with
          | DYield d3 e3 => DYield d3 (e1 ++ e2 ++ e3)
          | DFall d3 e3 => DFall d3 (e1 ++ e2 ++ e3)
          | DErr => DErr
          end
      | DErr => DErr
      end
  end.

(* `while True: while self.total_packets > 0: <for>` then `if self.total_packets == 0: yield packets_available.get()` *)
Fixpoint dpasses (fuel : nat) (cfg : dcfg) (d : drr) : option (drr * list dout) :=
  if (0 <? dtotal d)%Z then
    match fuel with
    | O => None
    | S n =>
        match dscan cfg (dclasses cfg) d with
        | DYield d' e => Some (d', DOPass :: e)
        | DFall d' e =>
            match dpasses n cfg d' with
            | Some (d'', e') => Some (d'', DOPass :: e ++ e')
            | None => None
            end
        | DErr => None
        end
    end
  else
    match sq_get fifo_pop (dtok d) with
    | Some q => Some (dset_ctl (dset_tok d q) DKTok, [])
    | None => None
    end.

(* consecutive passes without a yield each add at least 1500 to the credit of a class whose parked head (<= dlmax)
   stays unaffordable *)
Definition dfuel (d : drr) : nat := S (S (Z.to_nat (dlmax d / 1024)%Z)).

(* run() continues after something fell through inside the visit of a class: rest of the for, then the outer loops *)
Definition dcontinue (cfg : dcfg) (rest : list Z) (r : dres) : option (drr * list dout) :=
  match r with
  | DYield d e => Some (d, e)
  | DFall d e =>
      match dscan cfg rest d with
      | DYield d' e' => Some (d', e ++ e')
      | DFall d' e' =>
          match dpasses (dfuel d') cfg d' with
          | Some (d'', e'') => Some (d'', e ++ e' ++ e'')
          | None => None
          end
      | DErr => None
      end
  | DErr => None
  end.

(* run() resumes after the transmission of p (class c): class_count[c] -= 1; deficit[c] -= size;
   if class_count[c] == 0: deficit[c] = 0.0 *)
Definition ddebit_reset (d : drr) (c : Z) : bool := (dccnt d c - 1 =? 0)%Z.
Definition ddebit (d : drr) (c : Z) (rest : list Z) (p : pkt) : drr :=
  {| dnow := dnow d; dtok := dtok d; dst := dst d; dqcnt := dqcnt d; dqbytes := dqbytes d; dtotal := dtotal d;
     dccnt := dupd (dccnt d) c (dccnt d c - 1)%Z;
     ddef := dupd (ddef d) c (if ddebit_reset d c then 0 else Qred (ddef d c - inject_Z (psize p)));
     dhol := dhol d; dcur := dcur d; dnrecv := dnrecv d; dlmax := dlmax d;
     dchd := DCNone; dctrl := DKChild c rest |}.

(* ---- urgency -------------------------------------------------------------------------------------------- *)
Definition dchild_urgent (d : drr) : bool :=
  match dchd d with
  | DCNone => false
  | DCStart _ => true
  | DCTx _ dl => Qeq_bool dl (dnow d)
  | DCDone _ => true
  end.

Definition dctl_fresh (d : drr) : bool := match dctrl d with DKFresh => true | _ => false end.

Definition durgent (cfg : dcfg) (d : drr) : bool :=
  dctl_fresh d || dchild_urgent d || sq_urgent (dtok d) || existsb (fun c => sq_urgent (dst d c)) (dclasses cfg).

(* ---- the automaton ---------------------------------------------------------------------------------------- *)
Definition drr_act (cfg : dcfg) (d : drr) (a : daction) : option (drr * list dout) :=
  match a with
  | DPut p =>
      let c := df2c cfg (flow p) in
      if dmemZ c (dclasses cfg) && (0 <? psize p)%Z then
        let f := flow p in
        Some ({| dnow := dnow d;
                 dtok := if (dtotal d =? 0)%Z then sq_put fifo_push (dnow d) tt (dtok d) else dtok d;
                 dst := dupd (dst d) c (sq_put fifo_push (dnow d) p (dst d c));
                 dqcnt := dupd (dqcnt d) f (dqcnt d f + 1)%Z;
                 dqbytes := dupd (dqbytes d) f (dqbytes d f + psize p)%Z;
                 dtotal := (dtotal d + 1)%Z;
                 dccnt := dupd (dccnt d) c (dccnt d c + 1)%Z;
                 ddef := ddef d; dhol := dhol d; dcur := dcur d; dnrecv := (dnrecv d + 1)%Z;
                 dlmax := Z.max (dlmax d) (psize p);
                 dchd := dchd d; dctrl := dctrl d |}, [])
      else None                                  (* class_count[class_id] raises KeyError: unconfigured class *)
  | DInit =>
      match dctrl d with
      | DKFresh => dpasses (dfuel d) cfg d
      | _ => None
      end
  | DStoreCb None =>
      match sq_cb fifo_pop (dtok d) with Some q => Some (dset_tok d q, []) | None => None end
  | DStoreCb (Some c) =>
      if dmemZ c (dclasses cfg) then
        match sq_cb fifo_pop (dst d c) with Some q => Some (dset_st d c q, []) | None => None end
      else None
  | DGetDone None =>
      match dctrl d, sq_take (dtok d) with
      | DKTok, Some (_, q) => let d1 := dset_tok d q in dpasses (dfuel d1) cfg d1
      | _, _ => None
      end
  | DGetDone (Some c) =>
      match dctrl d with
      | DKGet c' rest =>
          if Z.eqb c c' then
            match sq_take (dst d c) with
            | Some ((_, p), q) => dcontinue cfg rest (dtry_head c rest (dset_st d c q) p)
            | None => None
            end
          else None
      | _ => None
      end
  | DChildInit =>
      match dchd d with
      | DCStart p =>
          Some ({| dnow := dnow d; dtok := dtok d; dst := dst d; dqcnt := dqcnt d; dqbytes := dqbytes d; dtotal := dtotal d;
                   dccnt := dccnt d; ddef := ddef d; dhol := dhol d; dcur := Some p; dnrecv := dnrecv d; dlmax := dlmax d;
                   dchd := DCTx p (Qred (dnow d + dtx_time cfg p)); dctrl := dctrl d |}, [])
      | _ => None
      end
  | DChildTimer =>
      match dchd d with
      | DCTx p dl =>
          if Qeq_bool dl (dnow d) then
            let f := flow p in
            Some ({| dnow := dnow d; dtok := dtok d; dst := dst d;
                     dqcnt := dupd (dqcnt d) f (dqcnt d f - 1)%Z;
                     dqbytes := dupd (dqbytes d) f (dqbytes d f - psize p)%Z;
                     dtotal := (dtotal d - 1)%Z;
                     dccnt := dccnt d; ddef := ddef d; dhol := dhol d; dcur := None; dnrecv := dnrecv d; dlmax := dlmax d;
                     dchd := DCDone p; dctrl := dctrl d |}, [DOForward p])
          else None
      | _ => None
      end
  | DChildEnd =>
      match dchd d, dctrl d with
      | DCDone p, DKChild c rest =>
          match dcontinue cfg rest (dinner c rest (ddebit d c rest p)) with
          | Some (d2, e2) => Some (d2, DODebit c p (ddebit_reset d c) :: e2)
          | None => None
          end
      | _, _ => None
      end
  | DAdvance t =>
      if durgent cfg d then None
      else if Qlt_le_dec (dnow d) t then
        let d' := {| dnow := t; dtok := dtok d; dst := dst d; dqcnt := dqcnt d; dqbytes := dqbytes d; dtotal := dtotal d;
                     dccnt := dccnt d; ddef := ddef d; dhol := dhol d; dcur := dcur d; dnrecv := dnrecv d; dlmax := dlmax d;
                     dchd := dchd d; dctrl := dctrl d |} in
        match dchd d with
        | DCTx _ dl => if Qle_bool t dl then Some (d', []) else None
        | _ => Some (d', [])
        end
      else None
  end.

(* an execution: every action must be enabled; the trace pairs each action with the instant at which it happened
   and with what it emitted *)
Definition dtev := (Q * daction * list dout)%type.

Fixpoint drr_run (cfg : dcfg) (d : drr) (acts : list daction) : option (drr * list dtev) :=
  match acts with
  | [] => Some (d, [])
  | a :: rest =>
      match drr_act cfg d a with
      | None => None
      | Some (d', outs) =>
          match drr_run cfg d' rest with
          | None => None
          | Some (d'', tr) => Some (d'', (dnow d', a, outs) :: tr)
          end
      end
  end.

(* index of the first action that is not admissible (diagnosis), or None *)
Fixpoint drr_stuck (cfg : dcfg) (d : drr) (acts : list daction) (i : nat) : option nat :=
  match acts with
  | [] => None
  | a :: rest =>
      match drr_act cfg d a with
      | None => Some i
      | Some (d', _) => drr_stuck cfg d' rest (S i)
      end
  end.

(* ---- comparison with an observed execution (correspondence) ---------------------------------------------------- *)
Definition dforwards (l : list dout) : list pkt :=
  flat_map (fun o => match o with DOForward p => [p] | _ => [] end) l.

Fixpoint dpkts_eqb (a b : list pkt) : bool :=
  match a, b with
  | [], [] => true
  | x :: s, y :: t => pkt_eqb x y && dpkts_eqb s t
  | _, _ => false
  end.

Definition dopt_uid_eqb (a : option pkt) (b : option nat) : bool :=
  match a, b with
  | None, None => true
  | Some p, Some u => Nat.eqb (uid p) u
  | _, _ => false
  end.

(* the public fields sampled after every action *)
Record dobs := mkdobs {
  o_def : list (Z * Q);                (* deficit[c] per class *)
  o_flows : list (Z * (Z * Z));        (* (flow, (queue_count, queue_byte_size)) per configured flow *)
  o_hol : list (Z * option nat);       (* uid parked in head_of_line[c] *)
  o_cur : option nat;                  (* uid of current_packet *)
  o_len : list (Z * nat);              (* len(stores[c].items) *)
  o_tok : nat;                         (* len(packets_available.items) *)
  o_recv : Z;                          (* packets_received *)
  o_total : Z;                         (* total_packets *)
  o_fwd : option (list (Z * (Z * Z)) * Z * list (Z * Z))
                                       (* what the next hop reads inside its put() at the moment the packet is handed on:
                                          (flow, (queue_count, queue_byte_size)) per flow, total_packets, class_count per class *)
}.

(* the counters a next hop sees while out.put(p) runs are those of the state after the transmission-end action: the
   departing packet is already released from queue_count / queue_byte_size / total_packets (class_count follows when
   run() resumes) *)
Definition dfwd_ok (d : drr) (o : dobs) : bool :=
  match o_fwd o with
  | None => true
  | Some (fl, tot, cc) =>
      forallb (fun x => Z.eqb (dqcnt d (fst x)) (fst (snd x)) && Z.eqb (dqbytes d (fst x)) (snd (snd x))) fl
      && Z.eqb (dtotal d) tot && forallb (fun x => Z.eqb (dccnt d (fst x)) (snd x)) cc
  end.

Definition dobs_ok (d : drr) (o : dobs) : bool :=
  forallb (fun x => Qeq_bool (ddef d (fst x)) (snd x)) (o_def o)
  && forallb (fun x => Z.eqb (dqcnt d (fst x)) (fst (snd x)) && Z.eqb (dqbytes d (fst x)) (snd (snd x))) (o_flows o)
  && forallb (fun x => dopt_uid_eqb (dhol d (fst x)) (snd x)) (o_hol o)
  && dopt_uid_eqb (dcur d) (o_cur o)
  && forallb (fun x => Nat.eqb (length (items (dst d (fst x)))) (snd x)) (o_len o)
  && Nat.eqb (length (items (dtok d))) (o_tok o)
  && Z.eqb (dnrecv d) (o_recv o) && Z.eqb (dtotal d) (o_total o) && dfwd_ok d o.

Fixpoint drr_agree (cfg : dcfg) (d : drr) (l : list (daction * list pkt * dobs)) : bool :=
  match l with
  | [] => true
  | (a, outs, o) :: rest =>
      match drr_act cfg d a with
      | None => false
      | Some (d', outs') => dpkts_eqb (dforwards outs') outs && dobs_ok d' o && drr_agree cfg d' rest
      end
  end.

(* diagnosis: index of the first observed action on which model and implementation differ, with the reason *)
Fixpoint drr_diff (cfg : dcfg) (d : drr) (l : list (daction * list pkt * dobs)) (i : nat) : option (nat * nat) :=
  match l with
  | [] => None
  | (a, outs, o) :: rest =>
      match drr_act cfg d a with
      | None => Some (i, 0%nat)
      | Some (d', outs') =>
          if negb (dpkts_eqb (dforwards outs') outs) then Some (i, 1%nat)
          else if negb (dobs_ok d' o) then Some (i, 2%nat)
          else drr_diff cfg d' rest (S i)
      end
  end.

(* the observed quantum table: quantum[c] for every configured class *)
Definition dquantum_ok (cfg : dcfg) (l : list (Z * Q)) : bool :=
  Nat.eqb (length l) (length (dclasses cfg))
  && forallb (fun x => dmemZ (fst x) (dclasses cfg) && Qeq_bool (dquantum cfg (fst x)) (snd x)) l.
