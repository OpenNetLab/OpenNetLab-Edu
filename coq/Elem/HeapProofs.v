(* Proofs about the heapq transcription Elem/Heap.v: for a strict weak order [ltb], heappush/heappop
   never run out of fuel, keep the heap invariant, permute the contents, and heappop returns a least
   element.  Simulation with the plain-list priority queue Elem/HeapList.v (lpop) when all keys held
   are pairwise strictly comparable (heap_sim_push / heap_sim_pop / heap_sim_pop_none). *)
From Coq Require Import List Bool Arith Lia Permutation.
From ONL Require Import Elem.Heap Elem.HeapList.
Import ListNotations.

(* array facts: upd, par *)
Section Upd.
  Variable A : Type.

  Lemma upd_length : forall (h : list A) i x, length (upd h i x) = length h.
  Proof. induction h as [|y t IH]; intros [|i] x; simpl; auto. Qed.

  Lemma nth_upd_eq : forall (h : list A) i x, i < length h -> nth_error (upd h i x) i = Some x.
  Proof.
    induction h as [|y t IH]; intros [|i] x Hi; simpl in *; try lia; auto.
    apply IH; lia.
  Qed.

  Lemma nth_upd_neq : forall (h : list A) i j x, i <> j -> nth_error (upd h i x) j = nth_error h j.
  Proof.
    induction h as [|y t IH]; intros [|i] [|j] x Hij; simpl; auto; try lia.
    all: try (apply IH; lia).
  Qed.

  Lemma nth_upd : forall (h : list A) i j x a,
      nth_error (upd h i x) j = Some a ->
      (i = j /\ a = x) \/ (i <> j /\ nth_error h j = Some a).
  Proof.
    intros h i j x a H. destruct (Nat.eq_dec i j) as [E|E].
    - left. split; [assumption|]. subst j.
      assert (Hi : i < length h).
      { rewrite <- (upd_length h i x). apply nth_error_Some. congruence. }
      rewrite nth_upd_eq in H by assumption. congruence.
    - right. split; [assumption|]. rewrite nth_upd_neq in H by assumption. assumption.
  Qed.

  Lemma upd_upd : forall (h : list A) i x y, upd (upd h i x) i y = upd h i y.
  Proof. induction h as [|z t IH]; intros [|i] x y; simpl; auto. f_equal. apply IH. Qed.

  Lemma upd_perm : forall (h : list A) i x a,
      nth_error h i = Some a -> Permutation (a :: upd h i x) (x :: h).
  Proof.
    induction h as [|y t IH]; intros [|i] x a H; simpl in *; try discriminate.
    - injection H as ->. apply perm_swap.
    - eapply perm_trans; [apply perm_swap|].
      eapply perm_trans; [apply perm_skip; apply IH; eassumption|]. apply perm_swap.
  Qed.

  (* moving the hole from i to j (whose content p is copied into i) does not change the contents *)
  Lemma perm_upd_swap : forall (h : list A) i j x a p,
      i <> j -> nth_error h i = Some a -> nth_error h j = Some p ->
      Permutation (upd (upd h i p) j x) (upd h i x).
  Proof.
    intros h i j x a p Hij Ha Hp.
    assert (Hp' : nth_error (upd h i p) j = Some p) by (rewrite nth_upd_neq; assumption).
    pose proof (upd_perm (upd h i p) j x p Hp') as P1.
    pose proof (upd_perm h i p a Ha) as P2.
    pose proof (upd_perm h i x a Ha) as P3.
    apply (Permutation_cons_inv (a := a)). apply (Permutation_cons_inv (a := p)).
    eapply perm_trans; [apply perm_swap|].
    eapply perm_trans; [apply perm_skip; exact P1|].
    eapply perm_trans; [apply perm_swap|].
    eapply perm_trans; [apply perm_skip; exact P2|].
    eapply perm_trans; [apply perm_swap|].
    apply perm_skip. apply Permutation_sym. exact P3.
  Qed.

  Lemma nth_error_lt : forall (h : list A) i a, nth_error h i = Some a -> i < length h.
  Proof. intros h i a H. apply nth_error_Some. congruence. Qed.

  Lemma nth_error_ex : forall (h : list A) i, i < length h -> exists a, nth_error h i = Some a.
  Proof.
    intros h i Hi. destruct (nth_error h i) as [a|] eqn:E; [eauto|].
    apply nth_error_None in E. lia.
  Qed.
End Upd.

Lemma par_spec : forall i, 0 < i -> i = 2 * par i + 1 \/ i = 2 * par i + 2.
Proof.
  intros i Hi. unfold par. pose proof (Nat.div2_odd (i - 1)) as H.
  destruct (Nat.odd (i - 1)); simpl Nat.b2n in H; lia.
Qed.

Lemma siftdown_S : forall A ltb f (h : list A) s x pos,
    siftdown ltb (S f) h s x pos =
    if Nat.ltb s pos then
      match nth_error h (par pos) with
      | None => None
      | Some parent =>
          if ltb x parent then siftdown ltb f (upd h pos parent) s x (par pos)
          else Some (upd h pos x)
      end
    else Some (upd h pos x).
Proof. reflexivity. Qed.

Lemma siftup_loop_S : forall A ltb f (h : list A) pos,
    siftup_loop ltb (S f) h pos =
    if Nat.ltb (2 * pos + 1) (length h) then
      match nth_error h (2 * pos + 1) with
      | None => None
      | Some cl =>
          match (if Nat.ltb (2 * pos + 1 + 1) (length h) then
                   match nth_error h (2 * pos + 1 + 1) with
                   | None => None
                   | Some cr => Some (if negb (ltb cl cr) then 2 * pos + 1 + 1 else 2 * pos + 1)
                   end
                 else Some (2 * pos + 1)) with
          | None => None
          | Some cp =>
              match nth_error h cp with
              | None => None
              | Some c => siftup_loop ltb f (upd h pos c) cp
              end
          end
      end
    else Some (h, pos).
Proof. reflexivity. Qed.

Section HeapProofs.
  Variable A : Type.
  Variable ltb : A -> A -> bool.
  Hypothesis ltb_irrefl : forall a, ltb a a = false.
  Hypothesis ltb_trans : forall a b c, ltb a b = true -> ltb b c = true -> ltb a c = true.
  Hypothesis ltb_negtrans : forall a b c, ltb a b = false -> ltb b c = false -> ltb a c = false.

  Lemma ltb_asym : forall a b, ltb a b = true -> ltb b a = false.
  Proof.
    intros a b H. destruct (ltb b a) eqn:E; [|reflexivity].
    rewrite <- (ltb_irrefl a). symmetry. eapply ltb_trans; eassumption.
  Qed.

  (* a < b, not (c < b)  ==>  a < c *)
  Lemma ltb_lt_nlt : forall a b c, ltb a b = true -> ltb c b = false -> ltb a c = true.
  Proof.
    intros a b c H1 H2. destruct (ltb a c) eqn:E; [reflexivity|].
    rewrite (ltb_negtrans a c b E H2) in H1. discriminate.
  Qed.

  (* the item at the parent position is not greater than the item at i *)
  Definition heap_inv (h : list A) : Prop :=
    forall i a p, 0 < i -> nth_error h i = Some a -> nth_error h (par i) = Some p -> ltb a p = false.

  Lemma heap_inv_nil : heap_inv [].
  Proof. intros i a p _ H. destruct i; discriminate. Qed.

  (* heap_inv with a hole at pos: all parent/child relations not involving pos, and the children of
     pos are not less than the parent of pos *)
  Definition hole_inv (h : list A) (pos : nat) : Prop :=
    (forall i a p, 0 < i -> i <> pos -> par i <> pos ->
                   nth_error h i = Some a -> nth_error h (par i) = Some p -> ltb a p = false) /\
    (forall c a g, 0 < pos -> 0 < c -> par c = pos ->
                   nth_error h c = Some a -> nth_error h (par pos) = Some g -> ltb a g = false).

  (* the children of pos are not less than x *)
  Definition kids_ge (h : list A) (pos : nat) (x : A) : Prop :=
    forall c a, 0 < c -> par c = pos -> nth_error h c = Some a -> ltb a x = false.

  Lemma hole_inv_upd : forall h pos y, hole_inv h pos -> hole_inv (upd h pos y) pos.
  Proof.
    intros h pos y [HA HC]. split.
    - intros i a p Hi N1 N2 Ha Hp.
      apply nth_upd in Ha. apply nth_upd in Hp.
      destruct Ha as [[E _]|[_ Ha]]; [congruence|].
      destruct Hp as [[E _]|[_ Hp]]; [congruence|].
      eapply HA; eassumption.
    - intros c a g Hpos Hc Hpc Ha Hg.
      pose proof (par_spec c Hc). pose proof (par_spec pos Hpos).
      apply nth_upd in Ha. apply nth_upd in Hg.
      destruct Ha as [[E _]|[_ Ha]]; [lia|].
      destruct Hg as [[E _]|[_ Hg]]; [lia|].
      eapply HC; eassumption.
  Qed.

  Lemma kids_ge_upd : forall h pos y x, kids_ge h pos x -> kids_ge (upd h pos y) pos x.
  Proof.
    intros h pos y x HK c a Hc Hpc Ha. pose proof (par_spec c Hc).
    apply nth_upd in Ha. destruct Ha as [[E _]|[_ Ha]]; [lia|]. eapply HK; eassumption.
  Qed.

  Lemma heap_inv_hole : forall h pos, heap_inv h -> hole_inv h pos.
  Proof.
    intros h pos H. split.
    - intros i a p Hi _ _ Ha Hp. eapply H; eassumption.
    - intros c a g Hpos Hc Hpc Ha Hg. subst pos.
      destruct (nth_error_ex _ h (par c)) as [m Hm].
      { pose proof (par_spec c Hc). apply nth_error_lt in Ha. lia. }
      eapply ltb_negtrans; [eapply H; [exact Hc|exact Ha|exact Hm]|].
      eapply H; [exact Hpos|exact Hm|exact Hg].
  Qed.

  (* the loop of _siftdown stops: store newitem *)
  Lemma bubble_stop : forall h pos x,
      pos < length h -> hole_inv h pos -> kids_ge h pos x ->
      (0 < pos -> forall p, nth_error h (par pos) = Some p -> ltb x p = false) ->
      heap_inv (upd h pos x).
  Proof.
    intros h pos x Hlen [HA HC] HK HP i a p Hi Ha Hp.
    pose proof (par_spec i Hi) as Si.
    apply nth_upd in Ha. apply nth_upd in Hp.
    destruct Ha as [[E1 E2]|[E1 Ha]]; destruct Hp as [[E3 E4]|[E3 Hp]].
    - lia.
    - subst i a. eapply HP; eassumption.
    - subst p. eapply HK; [exact Hi| |exact Ha]. congruence.
    - eapply HA; try eassumption; congruence.
  Qed.

  (* the loop of _siftdown continues: newitem < parent, the parent moves down *)
  Lemma bubble_step : forall h pos x parent,
      0 < pos -> nth_error h (par pos) = Some parent -> ltb x parent = true ->
      hole_inv h pos -> kids_ge h pos x ->
      hole_inv (upd h pos parent) (par pos) /\ kids_ge (upd h pos parent) (par pos) x.
  Proof.
    intros h pos x parent Hpos Hpar Hlt [HA HC] HK.
    pose proof (par_spec pos Hpos) as Sp.
    split; [split|].
    - intros i a p Hi N1 N2 Ha Hp. pose proof (par_spec i Hi) as Si.
      apply nth_upd in Ha. apply nth_upd in Hp.
      destruct Ha as [[E1 E2]|[E1 Ha]]; destruct Hp as [[E3 E4]|[E3 Hp]].
      + lia.
      + subst i. congruence.
      + subst p. eapply HC; try eassumption. congruence.
      + eapply HA; try eassumption; congruence.
    - intros c a g Hpp Hc Hpc Ha Hg. pose proof (par_spec c Hc) as Sc.
      pose proof (par_spec (par pos) Hpp) as Spp.
      apply nth_upd in Ha. apply nth_upd in Hg.
      destruct Hg as [[E3 E4]|[E3 Hg]]; [lia|].
      assert (Hpg : ltb parent g = false).
      { eapply (HA (par pos)); try eassumption; lia. }
      destruct Ha as [[E1 E2]|[E1 Ha]].
      + subst a. exact Hpg.
      + eapply ltb_negtrans; [|exact Hpg].
        eapply (HA c); try eassumption; try lia. congruence.
    - intros c a Hc Hpc Ha. pose proof (par_spec c Hc) as Sc.
      apply nth_upd in Ha. destruct Ha as [[E1 E2]|[E1 Ha]].
      + subst a. apply ltb_asym. exact Hlt.
      + apply ltb_asym. eapply ltb_lt_nlt; [exact Hlt|].
        eapply (HA c); try eassumption; try lia. congruence.
  Qed.

  Lemma siftdown_ok : forall f h pos x,
      pos < f -> pos < length h -> hole_inv h pos -> kids_ge h pos x ->
      exists h', siftdown ltb f h 0 x pos = Some h' /\ heap_inv h' /\ Permutation h' (upd h pos x).
  Proof.
    induction f as [|f IH]; intros h pos x Hf Hlen HI HK; [lia|].
    rewrite siftdown_S. destruct (Nat.ltb_spec 0 pos) as [Hpos|Hpos].
    - pose proof (par_spec pos Hpos) as Sp.
      destruct (nth_error_ex _ h (par pos)) as [parent Hpar]; [lia|]. rewrite Hpar.
      destruct (nth_error_ex _ h pos Hlen) as [old Hold].
      destruct (ltb x parent) eqn:Hlt.
      + destruct (bubble_step h pos x parent Hpos Hpar Hlt HI HK) as [HI' HK'].
        destruct (IH (upd h pos parent) (par pos) x) as [h' [E [Hh' P]]]; try assumption; try lia.
        { rewrite upd_length. lia. }
        exists h'. split; [exact E|]. split; [exact Hh'|].
        eapply perm_trans; [exact P|].
        eapply perm_upd_swap; try eassumption. lia.
      + eexists. split; [reflexivity|]. split; [|apply Permutation_refl].
        apply bubble_stop; try assumption. intros _ p Hp. congruence.
    - eexists. split; [reflexivity|]. split; [|apply Permutation_refl].
      apply bubble_stop; try assumption. intros Hp. lia.
  Qed.

  Theorem heappush_spec : forall h x,
      heap_inv h -> exists h', heappush ltb h x = Some h' /\ heap_inv h' /\ Permutation h' (x :: h).
  Proof.
    intros h x Hh. unfold heappush.
    assert (Hlen : length (h ++ [x]) = S (length h)) by (rewrite app_length; simpl; lia).
    rewrite Hlen. replace (S (length h) - 1) with (length h) by lia.
    destruct (siftdown_ok (S (length h)) (h ++ [x]) (length h) x) as [h' [E [Hh' P]]]; try lia.
    - split.
      + intros i a p Hi N1 N2 Ha Hp. pose proof (par_spec i Hi) as Si.
        pose proof (nth_error_lt _ _ _ _ Ha) as Li. rewrite Hlen in Li.
        rewrite nth_error_app1 in Ha by lia. rewrite nth_error_app1 in Hp by lia.
        eapply Hh; eassumption.
      + intros c a g _ Hc Hpc Ha Hg. pose proof (par_spec c Hc) as Sc.
        apply nth_error_lt in Ha. rewrite Hlen in Ha. lia.
    - intros c a Hc Hpc Ha. pose proof (par_spec c Hc) as Sc.
      apply nth_error_lt in Ha. rewrite Hlen in Ha. lia.
    - exists h'. split; [exact E|]. split; [exact Hh'|].
      eapply perm_trans; [exact P|].
      assert (Hl : nth_error (h ++ [x]) (length h) = Some x).
      { rewrite nth_error_app2 by lia. rewrite Nat.sub_diag. reflexivity. }
      apply (Permutation_cons_inv (a := x)).
      eapply perm_trans; [apply upd_perm; exact Hl|].
      apply perm_skip. apply Permutation_sym. apply Permutation_cons_append.
  Qed.

  (* one iteration of the loop of _siftup: the smaller child cp moves up into the hole *)
  Lemma down_step : forall h pos cp c,
      0 < cp -> par cp = pos -> nth_error h cp = Some c ->
      (forall c' a, 0 < c' -> par c' = pos -> c' <> cp -> nth_error h c' = Some a -> ltb a c = false) ->
      hole_inv h pos -> hole_inv (upd h pos c) cp.
  Proof.
    intros h pos cp c Hcp Hpcp Hc Hsib [HA HC].
    pose proof (par_spec cp Hcp) as Scp. split.
    - intros i a p Hi N1 N2 Ha Hp. pose proof (par_spec i Hi) as Si.
      apply nth_upd in Ha. apply nth_upd in Hp.
      destruct Ha as [[E1 E2]|[E1 Ha]]; destruct Hp as [[E3 E4]|[E3 Hp]].
      + lia.
      + subst i a. eapply (HC cp); eassumption.
      + subst p. eapply Hsib; try eassumption. congruence.
      + eapply HA; try eassumption; congruence.
    - intros k a g _ Hk Hpk Ha Hg. pose proof (par_spec k Hk) as Sk.
      apply nth_upd in Ha. apply nth_upd in Hg.
      destruct Ha as [[E1 E2]|[E1 Ha]]; [lia|].
      destruct Hg as [[E3 E4]|[E3 Hg]]; [|congruence].
      subst g. eapply (HA k); try eassumption; try lia. congruence.
  Qed.

  Lemma siftup_loop_ok : forall f h pos,
      length h - pos <= f -> pos < length h -> hole_inv h pos ->
      exists h1 leaf, siftup_loop ltb f h pos = Some (h1, leaf) /\
                      length h1 = length h /\ leaf < length h /\ hole_inv h1 leaf /\
                      length h <= 2 * leaf + 1 /\
                      (forall x, Permutation (upd h1 leaf x) (upd h pos x)).
  Proof.
    induction f as [|f IH]; intros h pos Hf Hlen HI; [lia|].
    rewrite siftup_loop_S.
    destruct (Nat.ltb_spec (2 * pos + 1) (length h)) as [Hl|Hl].
    2:{ exists h, pos. split; [reflexivity|]. split; [reflexivity|]. split; [exact Hlen|].
        split; [exact HI|]. split; [lia|]. intros x. apply Permutation_refl. }
    destruct (nth_error_ex _ h (2 * pos + 1) Hl) as [cl Hcl]. rewrite Hcl.
    destruct (nth_error_ex _ h pos Hlen) as [old Hold].
    (* the chosen child and the sibling property *)
    assert (Hpick : exists cp c,
               (if Nat.ltb (2 * pos + 1 + 1) (length h) then
                  match nth_error h (2 * pos + 1 + 1) with
                  | None => None
                  | Some cr => Some (if negb (ltb cl cr) then 2 * pos + 1 + 1 else 2 * pos + 1)
                  end
                else Some (2 * pos + 1)) = Some cp /\
               nth_error h cp = Some c /\ (cp = 2 * pos + 1 \/ cp = 2 * pos + 2) /\
               (forall c' a, 0 < c' -> par c' = pos -> c' <> cp -> nth_error h c' = Some a ->
                             ltb a c = false)).
    { destruct (Nat.ltb_spec (2 * pos + 1 + 1) (length h)) as [Hr|Hr].
      - destruct (nth_error_ex _ h (2 * pos + 1 + 1) Hr) as [cr Hcr]. rewrite Hcr.
        destruct (ltb cl cr) eqn:Hlt; simpl.
        + exists (2 * pos + 1), cl. split; [reflexivity|]. split; [exact Hcl|]. split; [lia|].
          intros c' a Hc' Hpc' Hne Ha. pose proof (par_spec c' Hc') as Sc.
          replace c' with (2 * pos + 1 + 1) in Ha by lia.
          rewrite Hcr in Ha. injection Ha as <-. apply ltb_asym. exact Hlt.
        + exists (2 * pos + 1 + 1), cr. split; [reflexivity|]. split; [exact Hcr|]. split; [lia|].
          intros c' a Hc' Hpc' Hne Ha. pose proof (par_spec c' Hc') as Sc.
          replace c' with (2 * pos + 1) in Ha by lia.
          rewrite Hcl in Ha. injection Ha as <-. exact Hlt.
      - exists (2 * pos + 1), cl. split; [reflexivity|]. split; [exact Hcl|]. split; [lia|].
        intros c' a Hc' Hpc' Hne Ha. pose proof (par_spec c' Hc') as Sc.
        apply nth_error_lt in Ha. lia. }
    destruct Hpick as [cp [c [-> [Hc [Hcp Hsib]]]]]. rewrite Hc.
    assert (Hcp0 : 0 < cp) by lia.
    pose proof (par_spec cp Hcp0) as Scp.
    assert (Hpcp : par cp = pos) by lia.
    pose proof (nth_error_lt _ _ _ _ Hc) as Lcp.
    destruct (IH (upd h pos c) cp) as [h1 [leaf [E [L1 [L2 [HI1 [L3 P]]]]]]].
    - rewrite upd_length. lia.
    - rewrite upd_length. exact Lcp.
    - eapply down_step; eassumption.
    - rewrite upd_length in *. exists h1, leaf.
      split; [exact E|]. split; [exact L1|]. split; [exact L2|]. split; [exact HI1|]. split; [exact L3|].
      intros x. eapply perm_trans; [apply P|].
      eapply perm_upd_swap; try eassumption. lia.
  Qed.

  Lemma heap_root_min : forall h r,
      heap_inv h -> nth_error h 0 = Some r -> forall i a, nth_error h i = Some a -> ltb a r = false.
  Proof.
    intros h r Hh Hr i. induction i as [i IH] using lt_wf_ind. intros a Ha.
    destruct (Nat.eq_dec i 0) as [->|Hi].
    - rewrite Hr in Ha. injection Ha as <-. apply ltb_irrefl.
    - assert (Hi' : 0 < i) by lia. pose proof (par_spec i Hi') as Si.
      pose proof (nth_error_lt _ _ _ _ Ha) as Li.
      destruct (nth_error_ex _ h (par i)) as [p Hp]; [lia|].
      eapply ltb_negtrans; [eapply Hh; eassumption|]. apply (IH (par i)); [lia|exact Hp].
  Qed.

  Lemma heap_inv_prefix : forall h t, heap_inv (h ++ t) -> heap_inv h.
  Proof.
    intros h t H i a p Hi Ha Hp.
    pose proof (nth_error_lt _ _ _ _ Ha). pose proof (nth_error_lt _ _ _ _ Hp).
    eapply H; [exact Hi| |]; rewrite nth_error_app1; eassumption.
  Qed.

  Lemma heappop_nil : heappop ltb [] = None.
  Proof. reflexivity. Qed.

  Theorem heappop_spec : forall h,
      heap_inv h -> h <> [] ->
      exists x h', heappop ltb h = Some (x, h') /\ heap_inv h' /\ Permutation h (x :: h') /\
                   (forall y, In y h -> ltb y x = false).
  Proof.
    intros h Hh Hne. destruct (exists_last Hne) as [h0 [lastelt ->]].
    unfold heappop.
    assert (Hlen : length (h0 ++ [lastelt]) - 1 = length h0) by (rewrite app_length; simpl; lia).
    rewrite Hlen. rewrite nth_error_app2 by lia. rewrite Nat.sub_diag. simpl nth_error.
    rewrite firstn_app, firstn_all, Nat.sub_diag. simpl firstn. rewrite app_nil_r.
    cbv zeta.
    destruct h0 as [|r t] eqn:Eh0.
    - exists lastelt, []. split; [reflexivity|]. split; [apply heap_inv_nil|].
      split; [apply Permutation_refl|].
      intros y [<-|[]]. apply ltb_irrefl.
    - rewrite <- Eh0 in *.
      assert (Hr : nth_error h0 0 = Some r) by (rewrite Eh0; reflexivity).
      assert (L0 : 0 < length h0) by (rewrite Eh0; simpl; lia).
      pose proof (heap_inv_prefix _ _ Hh) as Hh0.
      unfold siftup.
      rewrite nth_upd_eq by assumption. rewrite upd_length.
      destruct (siftup_loop_ok (length h0) (upd h0 0 lastelt) 0)
        as [h1 [leaf [E [L1 [L2 [HI1 [L3 P]]]]]]].
      + rewrite upd_length. lia.
      + rewrite upd_length. exact L0.
      + apply hole_inv_upd. apply heap_inv_hole. exact Hh0.
      + rewrite E. rewrite upd_length in *.
        destruct (siftdown_ok (S leaf) (upd h1 leaf lastelt) leaf lastelt) as [h2 [E2 [Hh2 P2]]].
        * lia.
        * rewrite upd_length. lia.
        * apply hole_inv_upd. exact HI1.
        * intros c a Hc Hpc Ha. pose proof (par_spec c Hc) as Sc.
          apply nth_error_lt in Ha. rewrite upd_length in Ha. lia.
        * rewrite E2. exists r, h2. split; [reflexivity|]. split; [exact Hh2|]. split.
          -- rewrite upd_upd in P2.
             eapply perm_trans; [apply Permutation_sym; apply Permutation_cons_append|].
             eapply perm_trans; [apply Permutation_sym; apply (upd_perm _ h0 0 lastelt r Hr)|].
             apply perm_skip. apply Permutation_sym.
             eapply perm_trans; [exact P2|].
             eapply perm_trans; [apply P|]. rewrite upd_upd. apply Permutation_refl.
          -- intros y Hy. apply In_nth_error in Hy. destruct Hy as [i Hy].
             eapply heap_root_min; [exact Hh| |exact Hy].
             rewrite nth_error_app1 by assumption. exact Hr.
  Qed.

  Corollary heappop_some_inv : forall h x h',
      heap_inv h -> heappop ltb h = Some (x, h') ->
      heap_inv h' /\ Permutation h (x :: h') /\ (forall y, In y h -> ltb y x = false).
  Proof.
    intros h x h' Hh E. destruct h as [|a t].
    - rewrite heappop_nil in E. discriminate.
    - destruct (heappop_spec (a :: t) Hh) as [x' [h'' [E' R]]]; [discriminate|].
      rewrite E in E'. injection E' as <- <-. exact R.
  Qed.

  (* the plain-list priority queue Elem/HeapList.v *)

  Definition list_min : A -> list A -> A := lmin ltb.

  Lemma lmin_split_gen : forall t p x s,
      (forall y, In y p -> ltb x y = true) -> (forall y, In y s -> ltb y x = false) ->
      exists l1 l2, p ++ x :: s ++ t = l1 ++ lmin ltb x t :: l2 /\
                    (forall y, In y l1 -> ltb (lmin ltb x t) y = true) /\
                    (forall y, In y l2 -> ltb y (lmin ltb x t) = false).
  Proof.
    induction t as [|y t IH]; intros p x s Hp Hs.
    - exists p, s. rewrite app_nil_r. simpl. auto.
    - simpl lmin. destruct (ltb y x) eqn:Hyx.
      + destruct (IH (p ++ x :: s) y []) as [l1 [l2 [E R]]].
        * intros z Hz. apply in_app_or in Hz. destruct Hz as [Hz|[<-|Hz]].
          -- eapply ltb_trans; [exact Hyx|]. apply Hp. exact Hz.
          -- exact Hyx.
          -- eapply ltb_lt_nlt; [exact Hyx|]. apply Hs. exact Hz.
        * intros z [].
        * exists l1, l2. split; [|exact R]. rewrite <- E. simpl.
          rewrite <- app_assoc. reflexivity.
      + destruct (IH p x (s ++ [y])) as [l1 [l2 [E R]]].
        * exact Hp.
        * intros z Hz. apply in_app_or in Hz. destruct Hz as [Hz|[<-|[]]]; [apply Hs; exact Hz|exact Hyx].
        * exists l1, l2. split; [|exact R]. rewrite <- E.
          rewrite <- app_assoc. reflexivity.
  Qed.

  Lemma lremove_split : forall l1 m l2,
      (forall y, In y l1 -> ltb m y = true) -> lremove ltb m (l1 ++ m :: l2) = l1 ++ l2.
  Proof.
    induction l1 as [|y l1 IH]; intros m l2 H; simpl.
    - rewrite ltb_irrefl. reflexivity.
    - rewrite (H y) by (left; reflexivity). f_equal. apply IH. intros z Hz. apply H. right. exact Hz.
  Qed.

  Lemma lpop_nil : lpop ltb [] = None.
  Proof. reflexivity. Qed.

  Theorem lpop_spec : forall l,
      l <> [] ->
      exists m l1 l2, lpop ltb l = Some (m, l1 ++ l2) /\ l = l1 ++ m :: l2 /\
                      (forall y, In y l -> ltb y m = false).
  Proof.
    intros [|x t] Hne; [congruence|].
    destruct (lmin_split_gen t [] x []) as [l1 [l2 [E [H1 H2]]]]; try (intros y []).
    simpl in E. exists (lmin ltb x t), l1, l2. split; [|split].
    - unfold lpop. f_equal. f_equal.
      transitivity (lremove ltb (lmin ltb x t) (l1 ++ lmin ltb x t :: l2)).
      + rewrite <- E. reflexivity.
      + apply lremove_split. exact H1.
    - exact E.
    - intros y Hy. rewrite E in Hy. apply in_app_or in Hy. destruct Hy as [Hy|[<-|Hy]].
      + apply ltb_asym. apply H1. exact Hy.
      + apply ltb_irrefl.
      + apply H2. exact Hy.
  Qed.

  Lemma lpop_none : forall l, lpop ltb l = None -> l = [].
  Proof. intros [|x t] H; [reflexivity|discriminate]. Qed.

  Lemma lpop_list_min : forall x t m l', lpop ltb (x :: t) = Some (m, l') -> m = list_min x t.
  Proof. intros x t m l' H. simpl in H. injection H as <- _. reflexivity. Qed.

  (* recursive formulation of distinct_keys *)
  Definition kcmp (a b : A) : Prop := ltb a b = true \/ ltb b a = true.

  Fixpoint dkeys (l : list A) : Prop :=
    match l with
    | [] => True
    | a :: t => (forall b, In b t -> kcmp a b) /\ dkeys t
    end.

  Lemma kcmp_sym : forall a b, kcmp a b -> kcmp b a.
  Proof. intros a b [H|H]; [right|left]; exact H. Qed.

  Lemma distinct_keys_dkeys : forall l, distinct_keys ltb l <-> dkeys l.
  Proof.
    induction l as [|a t IH]; simpl.
    - split; [trivial|]. intros _ l1 a l2 b l3 E. destruct l1; discriminate.
    - split.
      + intros H. split.
        * intros b Hb. apply in_split in Hb. destruct Hb as [t1 [t2 ->]].
          apply (H [] a t1 b t2). reflexivity.
        * apply IH. intros l1 x l2 y l3 E. apply (H (a :: l1) x l2 y l3). rewrite E. reflexivity.
      + intros [H1 H2] l1 x l2 y l3 E. destruct l1 as [|z l1]; simpl in E.
        * injection E as -> ->. apply H1. apply in_or_app. right. left. reflexivity.
        * injection E as -> ->. apply IH in H2. eapply H2. reflexivity.
  Qed.

  Lemma dkeys_remove : forall l1 m l2, dkeys (l1 ++ m :: l2) -> dkeys (l1 ++ l2).
  Proof.
    induction l1 as [|a l1 IH]; intros m l2 H; simpl in *.
    - apply H.
    - destruct H as [H1 H2]. split; [|eapply IH; exact H2].
      intros b Hb. apply H1. apply in_app_or in Hb. apply in_or_app.
      destruct Hb as [Hb|Hb]; [left|right; right]; exact Hb.
  Qed.

  Lemma dkeys_app_one : forall l x, dkeys l -> (forall y, In y l -> kcmp y x) -> dkeys (l ++ [x]).
  Proof.
    induction l as [|a l IH]; intros x H Hx; simpl in *.
    - split; [intros b []|trivial].
    - destruct H as [H1 H2]. split.
      + intros b Hb. apply in_app_or in Hb. destruct Hb as [Hb|[<-|[]]].
        * apply H1. exact Hb.
        * apply Hx. left. reflexivity.
      + apply IH; [exact H2|]. intros y Hy. apply Hx. right. exact Hy.
  Qed.

  (* under dkeys, two elements neither of which is less than the other are the same element *)
  Lemma dkeys_unique : forall l x m,
      dkeys l -> In x l -> In m l -> ltb x m = false -> ltb m x = false -> x = m.
  Proof.
    induction l as [|a l IH]; intros x m H Hx Hm N1 N2; simpl in *; [contradiction|].
    destruct H as [H1 H2]. destruct Hx as [<-|Hx]; destruct Hm as [<-|Hm].
    - reflexivity.
    - destruct (H1 m Hm) as [C|C]; congruence.
    - destruct (H1 x Hx) as [C|C]; congruence.
    - eapply IH; eassumption.
  Qed.

  Lemma distinct_keys_app_one : forall l x,
      distinct_keys ltb l -> (forall y, In y l -> ltb y x = true \/ ltb x y = true) ->
      distinct_keys ltb (l ++ [x]).
  Proof.
    intros l x H Hx. apply distinct_keys_dkeys. apply dkeys_app_one.
    - apply distinct_keys_dkeys. exact H.
    - exact Hx.
  Qed.

  Lemma distinct_keys_remove : forall l1 m l2,
      distinct_keys ltb (l1 ++ m :: l2) -> distinct_keys ltb (l1 ++ l2).
  Proof.
    intros l1 m l2 H. apply distinct_keys_dkeys. eapply dkeys_remove.
    apply distinct_keys_dkeys. exact H.
  Qed.

  (* the least element of a list with distinct keys is unique *)
  Lemma distinct_keys_min_unique : forall l x m,
      distinct_keys ltb l -> In x l -> In m l ->
      (forall y, In y l -> ltb y x = false) -> (forall y, In y l -> ltb y m = false) -> x = m.
  Proof.
    intros l x m H Hx Hm Mx Mm. apply distinct_keys_dkeys in H.
    eapply dkeys_unique; try eassumption; auto.
  Qed.

  Theorem heap_sim_push : forall h l x,
      heap_inv h -> Permutation h l ->
      exists h', heappush ltb h x = Some h' /\ heap_inv h' /\ Permutation h' (l ++ [x]).
  Proof.
    intros h l x Hh P. destruct (heappush_spec h x Hh) as [h' [E [Hh' P']]].
    exists h'. split; [exact E|]. split; [exact Hh'|].
    eapply perm_trans; [exact P'|].
    eapply perm_trans; [apply perm_skip; exact P|]. apply Permutation_cons_append.
  Qed.

  Theorem heap_sim_pop : forall h l,
      heap_inv h -> Permutation h l -> distinct_keys ltb l ->
      forall m l', lpop ltb l = Some (m, l') ->
      exists h', heappop ltb h = Some (m, h') /\ heap_inv h' /\ Permutation h' l' /\
                 distinct_keys ltb l'.
  Proof.
    intros h l Hh P D m l' E.
    assert (Hl : l <> []) by (intros ->; discriminate).
    assert (Hne : h <> []).
    { intros ->. apply Permutation_nil in P. congruence. }
    destruct (lpop_spec l Hl) as [m0 [l1 [l2 [E0 [Es Mm]]]]].
    rewrite E in E0. injection E0 as <- ->.
    destruct (heappop_spec h Hh Hne) as [x [h' [Ep [Hh' [Pp Mx]]]]].
    assert (Hxm : x = m).
    { apply (distinct_keys_min_unique l x m D).
      - eapply Permutation_in; [exact P|]. eapply Permutation_in; [apply Permutation_sym; exact Pp|].
        left. reflexivity.
      - rewrite Es. apply in_or_app. right. left. reflexivity.
      - intros y Hy. apply Mx. eapply Permutation_in; [apply Permutation_sym; exact P|exact Hy].
      - exact Mm. }
    subst x. exists h'. split; [exact Ep|]. split; [exact Hh'|]. split.
    - apply (Permutation_cons_inv (a := m)).
      eapply perm_trans; [apply Permutation_sym; exact Pp|].
      eapply perm_trans; [exact P|]. rewrite Es. apply Permutation_sym. apply Permutation_middle.
    - rewrite Es in D. eapply distinct_keys_remove. exact D.
  Qed.

  Theorem heap_sim_pop_none : forall h l,
      Permutation h l -> lpop ltb l = None -> heappop ltb h = None.
  Proof.
    intros h l P E. apply lpop_none in E. subst l.
    apply Permutation_sym in P. apply Permutation_nil in P. subst h. reflexivity.
  Qed.

End HeapProofs.

Arguments heap_inv {A} ltb h.
Arguments hole_inv {A} ltb h pos.
Arguments kids_ge {A} ltb h pos x.
Arguments list_min {A} ltb x l.
Arguments kcmp {A} ltb a b.
Arguments dkeys {A} ltb l.

(* non-vacuity: the functions compute what CPython computes *)
Fixpoint heap_pushall {A} (ltb : A -> A -> bool) (h : list A) (xs : list A) : option (list A) :=
  match xs with
  | [] => Some h
  | x :: t => match heappush ltb h x with Some h' => heap_pushall ltb h' t | None => None end
  end.

Fixpoint heap_popall {A} (ltb : A -> A -> bool) (n : nat) (h : list A) : option (list A) :=
  match n with
  | O => Some []
  | S k =>
      match heappop ltb h with
      | Some (x, h') => match heap_popall ltb k h' with Some r => Some (x :: r) | None => None end
      | None => None
      end
  end.

Definition heap_key_ltb (a b : nat * nat) : bool := Nat.ltb (fst a) (fst b).

(* six items with equal keys, tagged 0..5 in push order, leave in the order CPython's heapq gives:
   >>> h = []; [heapq.heappush(h, K(7, i)) for i in range(6)]; [heapq.heappop(h).tag for _ in range(6)]
   [0, 2, 5, 4, 1, 3] *)
Example heapq_tie_order :
  match heap_pushall heap_key_ltb [] [(7,0); (7,1); (7,2); (7,3); (7,4); (7,5)] with
  | Some h => heap_popall heap_key_ltb 6 h
  | None => None
  end = Some [(7,0); (7,2); (7,5); (7,4); (7,1); (7,3)].
Proof. vm_compute; reflexivity. Qed.

Example heapq_sorts :
  match heap_pushall Nat.ltb [] [5; 3; 8; 1; 9; 2] with
  | Some h => heap_popall Nat.ltb 6 h
  | None => None
  end = Some [1; 2; 3; 5; 8; 9].
Proof. vm_compute; reflexivity. Qed.

Example heapq_array : heap_pushall Nat.ltb [] [5; 3; 8; 1; 9; 2] = Some [1; 3; 2; 5; 9; 8].
Proof. vm_compute; reflexivity. Qed.

Example lpop_example : lpop heap_key_ltb [(7,0); (3,1); (9,2); (3,3)] = Some ((3,1), [(7,0); (9,2); (3,3)]).
Proof. vm_compute; reflexivity. Qed.

Print Assumptions heappush_spec.
Print Assumptions heappop_spec.
Print Assumptions heap_sim_pop.
