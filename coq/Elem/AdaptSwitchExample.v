(* Concrete executions of the switch models, OBSERVED on the real onl.netdev.switch classes (props/part_route.py prints them):
   non-vacuity of Elem/ComposeSwitch.v / AdaptSwitch.v. *)
From Coq Require Import ZArith QArith List Bool.
From ONL Require Import Base.Tools Elem.Packet Elem.StoreQ Elem.HeapList Elem.WFQServer Elem.WFQ Elem.VC Elem.DRR Elem.SchedBase Elem.SP Elem.Port
  Route.Demux Elem.Iface Elem.Compose Elem.ComposePar Elem.ComposeFan Elem.ComposeSwitch Elem.AdaptPort Elem.AdaptSched Elem.AdaptSwitch.
Import ListNotations.
Local Open Scope Z_scope.

Definition ssw_E : elem := (sswitch_elem 2%nat ((1024)%Z # 1) (Some (2)%Z) (fun i : nat => Some (Z.of_nat i + 100)%Z) ((0)%Z # 1)).
Definition ssw_acts : list (iact (lab ssw_E)) :=
  [IStep (inr (inl (PInit)));
   IStep (inr (inr (inl (PInit))));
   IPut (mkp 0%nat (1)%Z (0)%Z (128)%Z ((0)%Z # 1));
   IPut (mkp 1%nat (2)%Z (0)%Z (128)%Z ((0)%Z # 1));
   IPut (mkp 2%nat (3)%Z (1)%Z (128)%Z ((0)%Z # 1));
   IPut (mkp 3%nat (4)%Z (2)%Z (128)%Z ((0)%Z # 1));
   IStep (inr (inl (PStoreCb)));
   IStep (inr (inr (inl (PStoreCb))));
   IStep (inr (inl (PGet)));
   IStep (inr (inr (inl (PGet))));
   IAdv ((1)%Z # 1);
   IStep (inr (inl (PTimer)));
   IStep (inr (inr (inl (PTimer))))].
Definition fsw_E : elem := (fswitch_elem {| fs_nports := 2%nat; fs_fib := Some [((0)%Z, (0)%Z); ((1)%Z, (1)%Z); ((2)%Z, (0)%Z)]; fs_ends := []; fs_class := SchedBase.cls_of [((0)%Z, (10)%Z); ((1)%Z, (11)%Z); ((2)%Z, (10)%Z); ((3)%Z, (11)%Z)] |} (Some (2)%Z) (fun i : nat => Some (Z.of_nat i + 200)%Z) (mq_elem (SP.sp_cfg true ((1024)%Z # 1) (SchedBase.cls_of [((0)%Z, (10)%Z); ((1)%Z, (11)%Z); ((2)%Z, (10)%Z); ((3)%Z, (11)%Z)]) [(0)%Z; (1)%Z; (2)%Z; (3)%Z] [((10)%Z, (1)%Z); ((11)%Z, (2)%Z)])) [] ((0)%Z # 1)).
Definition fsw_acts : list (iact (lab fsw_E)) :=
  [IStep (inr (inl (inl (PInit))));
   IStep (inr (inl (inr (SchedBase.SInit))));
   IStep (inr (inr (inl (inl (PInit)))));
   IStep (inr (inr (inl (inr (SchedBase.SInit)))));
   IPut (mkp 0%nat (1)%Z (0)%Z (128)%Z ((0)%Z # 1));
   IPut (mkp 1%nat (2)%Z (2)%Z (128)%Z ((0)%Z # 1));
   IPut (mkp 2%nat (3)%Z (1)%Z (128)%Z ((0)%Z # 1));
   IPut (mkp 3%nat (4)%Z (3)%Z (128)%Z ((0)%Z # 1));
   IStep (inr (inl (inl (PStoreCb))));
   IStep (inr (inr (inl (inl (PStoreCb)))));
   IStep (inr (inl (inl (PGet))));
   IStep (inr (inr (inl (inl (PGet)))));
   IStep (inr (inl (inr (SchedBase.SStoreCb None))));
   IStep (inr (inl (inr (SchedBase.SStoreCb (Some (10)%Z)))));
   IStep (inr (inr (inl (inr (SchedBase.SStoreCb None)))));
   IStep (inr (inr (inl (inr (SchedBase.SStoreCb (Some (11)%Z))))));
   IStep (inr (inl (inr (SchedBase.SGetDone None))));
   IStep (inr (inr (inl (inr (SchedBase.SGetDone None)))));
   IStep (inr (inl (inr (SchedBase.SGetDone (Some (10)%Z)))));
   IStep (inr (inl (inr (SchedBase.SChildInit))));
   IStep (inr (inr (inl (inr (SchedBase.SGetDone (Some (11)%Z))))));
   IStep (inr (inr (inl (inr (SchedBase.SChildInit)))));
   IAdv ((1)%Z # 2);
   IPut (mkp 4%nat (5)%Z (2)%Z (128)%Z ((0)%Z # 1));
   IStep (inr (inl (inl (PStoreCb))));
   IStep (inr (inl (inl (PGet))));
   IStep (inr (inl (inr (SchedBase.SStoreCb (Some (10)%Z)))));
   IAdv ((1)%Z # 1);
   IStep (inr (inl (inr (SchedBase.SChildTimer))));
   IStep (inr (inr (inl (inr (SchedBase.SChildTimer)))));
   IStep (inr (inl (inr (SchedBase.SChildEnd))));
   IStep (inr (inr (inl (inr (SchedBase.SChildEnd)))));
   IStep (inr (inl (inr (SchedBase.SGetDone (Some (10)%Z)))));
   IStep (inr (inl (inr (SchedBase.SChildInit))));
   IAdv ((2)%Z # 1);
   IStep (inr (inl (inr (SchedBase.SChildTimer))));
   IStep (inr (inl (inr (SchedBase.SChildEnd))))].

Definition uids_of (l : list pkt) : list nat := map uid l.

(* SimplePacketSwitch(2 ports, 1024 bit/s, buffer 2): four packets at t = 0 of flows 0, 0, 1, 2: the second is refused by port 0
   (counted), the fourth has no port (discarded by the demux), the other two leave their ports at t = 1 *)
Example ssw_run :
  exists s tr, Iface.run ssw_E (init ssw_E) ssw_acts = Some (s, tr) /\
    uids_of (puts tr) = [0; 1; 2; 3]%nat /\ uids_of (fwds tr) = [0; 2]%nat /\ uids_of (drops tr) = [1; 3]%nat /\
    uids_of (hands 0 tr) = [0; 1; 2]%nat /\
    map (fun x => (fst x, uid (snd x))) (tfwds tr) = [(1%Q, 0%nat); (1%Q, 2%nat)] /\
    pdrop (fst (snd s)) = 1 /\ pdrop (fst (snd (snd s))) = 0 /\
    held ssw_E s = [] /\ Iface.urgent ssw_E s = false /\ deadline ssw_E s = None.
Proof. apply run_facts. vm_compute. repeat split. Qed.

(* FairPacketSwitch(2 ports, SP, buffer 2, flows 0,2 -> class 10, flows 1,3 -> class 11; fib 0->0, 1->1, 2->0): packets of flows
   0, 2, 1, 3 at t = 0 and of flow 2 at t = 1/2: the second is refused by egress port 0 (counted), the packet of flow 3 has no
   route, the others cross their egress port at once and are served by the port's SP *)
Example fsw_run :
  exists s tr, Iface.run fsw_E (init fsw_E) fsw_acts = Some (s, tr) /\
    uids_of (puts tr) = [0; 1; 2; 3; 4]%nat /\ uids_of (fwds tr) = [0; 2; 4]%nat /\ uids_of (drops tr) = [1; 3]%nat /\
    uids_of (hands 0 tr) = [0; 1; 2; 4]%nat /\ uids_of (hands 1 tr) = [0; 4]%nat /\ uids_of (hands 3 tr) = [2]%nat /\
    map (fun x => (fst x, uid (snd x))) (tfwds tr) = [(1%Q, 0%nat); (1%Q, 2%nat); (2%Q, 4%nat)] /\
    pdrop (fst (fst (snd s))) = 1 /\
    held fsw_E s = [] /\ Iface.urgent fsw_E s = false /\ deadline fsw_E s = None.
Proof. apply run_facts. vm_compute. repeat split. Qed.
