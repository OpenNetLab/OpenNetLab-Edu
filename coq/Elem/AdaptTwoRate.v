(* The TwoRateTokenBucket (Elem/TwoRate.v, repaired code) as an interface element (Elem/Iface.v).  The adapter's labels are
   the element's own actions; its executions are exactly the executions of tr_run, so the theorems of TwoRateProofs.v
   transfer.  No drop rule (the colour marked on a forwarded packet is not a packet event of the interface). *)
From Coq Require Import ZArith QArith List Bool Permutation Lia.
From ONL Require Import Elem.Packet Elem.StoreQ Elem.Bucket Elem.BucketProofs Elem.TwoRate Elem.TwoRateProofs Elem.Iface Elem.Compose Elem.ComposeHands Elem.AdaptCommon.
Import ListNotations.

Definition rout_e (o : rout) : list eout := match o with RFwd p _ => [EForward p] | _ => [] end.
Definition tr_internal (a : raction) : bool := match a with RPut _ | RAdvance _ => false | _ => true end.
Definition rlift (r : option (trtb * list rout)) : option (trtb * list eout) :=
  match r with Some (s', o) => Some (s', flat_map rout_e o) | None => None end.

Definition trtb_elem (c : trcfg) (t0 : Q) : elem := {|
  st := trtb;
  lab := raction;
  init := tr0 true c t0;
  now := rnow;
  put := fun p s => rlift (tr_act true true c s (RPut p));
  step := fun a s => if tr_internal a then rlift (tr_act true true c s a) else None;
  advance := fun t s => match tr_act true true c s (RAdvance t) with Some (s', _) => Some s' | None => None end;
  urgent := tr_urgent;
  deadline := fun s => match rphase_ s with RIdle => None | RWaitPeak _ dl => Some dl | RWaitCommit _ dl => Some dl end;
  held := tr_held;
  accepts := fun _ => true;
  width := 1
|}.

Definition r_to (a : iact raction) : raction := match a with IPut p => RPut p | IStep l => l | IAdv t => RAdvance t end.
Definition r_of (a : raction) : iact raction := match a with RPut p => IPut p | RAdvance t => IAdv t | _ => IStep a end.
Definition r_ev (e : rev) : Q * iact raction * list eout := (fst (fst e), r_of (snd (fst e)), flat_map rout_e (snd e)).

Definition trtb_adapter (c : trcfg) (t0 : Q) : adapter (trtb_elem c t0) := {|
  m_act := tr_act true true c; m_run := tr_run true true c; m_mk := fun s a o => (rnow s, a, o); m_iev := r_ev;
  m_oe := flat_map rout_e; m_put := RPut; m_adv := RAdvance; m_int := tr_internal; m_acc := fun _ => true; m_of := r_of;
  m_ok := fun _ => True
|}.

Lemma tr_advance_inv c s t s' o : tr_act true true c s (RAdvance t) = Some (s', o) ->
  o = [] /\ rnow s' = t /\ rnow s < t /\ tr_urgent s = false /\
  forall d, match rphase_ s with RIdle => None | RWaitPeak _ dl => Some dl | RWaitCommit _ dl => Some dl end = Some d -> t <= d.
Proof.
  cbn [tr_act]. destruct (tr_urgent s); [discriminate|]. destruct (Qlt_le_dec (rnow s) t) as [L|]; [|discriminate].
  destruct (rphase_ s) as [|p dl|p dl]; [|destruct (Qle_bool t dl) eqn:El; [|discriminate]..]; intros H; injection H as <- <-;
    repeat split; auto; intros d Hd; [discriminate|injection Hd as <-; apply Qle_bool_iff; exact El..].
Qed.

Lemma tr_act_now c s a s' o : tr_act true true c s a = Some (s', o) -> (forall t, a <> RAdvance t) -> rnow s' = rnow s.
Proof.
  intros H Nt. destruct a as [p| | | | |t]; cbn [tr_act] in H; unfold tr_forward in H;
    try (case_tests H; injection H as <- _; reflexivity).
  exfalso. eapply Nt. reflexivity.
Qed.

Lemma trtb_adapter_ok c t0 : adapter_ok (trtb_adapter c t0).
Proof.
  split; try reflexivity.
  - (* ok_no_hand *) intros o. induction o as [|[] o IH]; cbn; repeat constructor; exact IH.
  - (* ok_of_int *) intros [] H; reflexivity || discriminate H.
  - (* ok_view *) intros [] _; repeat split.
  - (* ok_act_now *) intros s a s' o. apply tr_act_now.
  - (* ok_adv_inv *) intros s t s' o. apply tr_advance_inv.
Qed.

Theorem tr_run_elem c t0 : forall acts s s' tr,
  tr_run true true c s acts = Some (s', tr) -> run (trtb_elem c t0) s (map r_of acts) = Some (s', map r_ev tr).
Proof. exact (adapter_run_elem_all _ _ (trtb_adapter_ok c t0) (fun _ => I)). Qed.

Theorem trtb_elem_run c t0 : forall acts s s' tr,
  run (trtb_elem c t0) s acts = Some (s', tr) ->
  exists tr0, tr_run true true c s (map r_to acts) = Some (s', tr0) /\ tr = map r_ev tr0 /\ map r_of (map r_to acts) = acts.
Proof. exact (adapter_elem_run_all _ _ (trtb_adapter_ok c t0)). Qed.

Lemma trtb_puts tr : Iface.puts (map r_ev tr) = map snd (rputs tr).
Proof. apply flat_map_link. intros [[t []] o]; reflexivity. Qed.
Lemma trtb_fwds tr : Iface.fwds (map r_ev tr) = map snd (rfwds tr).
Proof.
  apply flat_map_link. intros [[t a] o]. cbn [r_ev rev_outs fst snd]. rewrite map_map, map_id.
  apply flat_map_comp. intros []; reflexivity.
Qed.
Lemma trtb_drops tr : drops (map r_ev tr) = [].
Proof. apply (drops_map_none _ snd rout_e); [reflexivity|intros []; reflexivity]. Qed.

Theorem trtb_elem_laws c t0 : trwf c -> laws (trtb_elem c t0).
Proof.
  intros Hw. apply (adapter_laws _ _ (trtb_adapter_ok c t0) _ _ (fun _ => []) trtb_puts trtb_fwds trtb_drops). intros acts s tr _ R.
  split; [|split].
  - cbn [app]. rewrite (trtb_conserves _ _ _ _ _ Hw R). apply Permutation_refl.
  - intros f. destruct (trtb_flow_fifo _ _ _ _ _ Hw R f) as [rest E]. unfold of_flow in E. unfold on_flow. rewrite E. apply sublist_app_r.
  - intros _ U Dl. cbn [urgent deadline trtb_elem] in U, Dl.
    assert (Hh : rphase_ s = RIdle) by (destruct (rphase_ s); [reflexivity|discriminate|discriminate]).
    exact (trtb_quiescent_empty c t0 _ _ _ Hw R (conj U Hh)).
Qed.

Theorem trtb_elem_timed c t0 : timed (trtb_elem c t0).
Proof. exact (adapter_timed _ _ (trtb_adapter_ok c t0)). Qed.

Theorem trtb_elem_tagged c t0 : tagged (trtb_elem c t0).
Proof. exact (adapter_tagged _ _ (trtb_adapter_ok c t0)). Qed.
