(* A concrete execution of the RandomDemux model, OBSERVED on the real onl.netdev.demux.RandomDemux with scripted draws
   (props/part_route.py prints it): non-vacuity of Elem/ComposeRandom.v. *)
From Coq Require Import ZArith QArith List Bool.
From ONL Require Import Base.Tools Elem.Packet Elem.StoreQ Elem.Port Route.Demux Elem.Iface Elem.Compose Elem.ComposePar Elem.ComposeFan Elem.ComposeSwitch
  Elem.ComposeRandom Elem.AdaptPort.
Import ListNotations.
Local Open Scope Z_scope.

Definition rdx_E : elem := (rdemux_elem (fun p => nth (uid p) [(choices_index [((1)%Z # 4); ((1)%Z # 4)] ((7)%Z # 8)); (choices_index [((1)%Z # 4); ((1)%Z # 4)] ((1)%Z # 8)); (choices_index [((1)%Z # 4); ((1)%Z # 4)] ((1)%Z # 2)); (choices_index [((0)%Z # 1); ((1)%Z # 1)] ((3)%Z # 8))] 0%nat) ((0)%Z # 1) [(port_elem (port_cfg all_fixed ((1024)%Z # 1) (Some (2)%Z) false (Some (300)%Z)) ((0)%Z # 1)); (port_elem (port_cfg all_fixed ((0)%Z # 1) None false (Some (301)%Z)) ((0)%Z # 1))]).
Definition rdx_acts : list (iact (lab rdx_E)) :=
  [IStep (inr (inl (PInit)));
   IStep (inr (inr (inl (PInit))));
   IPut (mkp 0%nat (1)%Z (0)%Z (128)%Z ((0)%Z # 1));
   IPut (mkp 1%nat (2)%Z (0)%Z (128)%Z ((0)%Z # 1));
   IPut (mkp 2%nat (3)%Z (1)%Z (128)%Z ((0)%Z # 1));
   IPut (mkp 3%nat (4)%Z (0)%Z (128)%Z ((0)%Z # 1));
   IStep (inr (inr (inl (PStoreCb))));
   IStep (inr (inl (PStoreCb)));
   IStep (inr (inr (inl (PStoreCb))));
   IStep (inr (inr (inl (PStoreCb))));
   IStep (inr (inr (inl (PGet))));
   IStep (inr (inl (PGet)));
   IStep (inr (inr (inl (PGet))));
   IStep (inr (inr (inl (PGet))));
   IAdv ((1)%Z # 1);
   IStep (inr (inl (PTimer)))].

Definition ruids (l : list pkt) : list nat := map uid l.

(* RandomDemux over Port(1024 bit/s, limit 2) and Port(rate 0) with RELATIVE weights [1/4, 1/4] (sum 1/2) and draws 7/8, 1/8, 1/2:
   random.choices scales the draw by the total, so the outputs chosen are 1, 0, 1; then probs := [0, 1] and the draw 3/8 gives
   output 1.  Every packet leaves by exactly one output; output 0 is given one packet, output 1 three *)
Example rdx_run :
  map (choices_index [1 # 4; 1 # 4]%Q) [7 # 8; 1 # 8; 1 # 2]%Q = [1; 0; 1]%nat /\ choices_index [0; 1]%Q (3 # 8)%Q = 1%nat /\
  exists s tr, Iface.run rdx_E (init rdx_E) rdx_acts = Some (s, tr) /\
    ruids (puts tr) = [0; 1; 2; 3]%nat /\ ruids (fwds tr) = [0; 2; 3; 1]%nat /\ ruids (drops tr) = [] /\
    ruids (hands 0 tr) = [0; 1; 2; 3]%nat /\ precv (fst (snd s)) = 1 /\ precv (fst (snd (snd s))) = 3 /\
    held rdx_E s = [] /\ Iface.urgent rdx_E s = false /\ deadline rdx_E s = None.
Proof. split; [vm_compute; reflexivity|]. split; [vm_compute; reflexivity|]. apply run_facts. vm_compute. repeat split. Qed.
