(* A concrete admissible execution of the DRR model, taken from a run of the real scheduler (the action list the
   harness logged): two classes with weights 1 and 2 (quanta 1500 and 3000), flows 1 and 7 share class 1, a 2000-byte
   head that must be parked for one round, a class that empties and refills.  Used by the non-vacuity Examples. *)
From Coq Require Import ZArith QArith List Bool.
From ONL Require Import Base.Tools Elem.Packet Elem.StoreQ Elem.DRR Elem.DRRInv Elem.DRRProofs Elem.DRRVisit Elem.DRRFair Elem.DRRLive.
Import ListNotations.

Definition dex_cfg : dcfg := {| drate := ((8192)%Z # 1); dweights := [((0)%Z, (1)%Z); ((1)%Z, (2)%Z)]; df2c := dtbl [((0)%Z, (0)%Z); ((1)%Z, (1)%Z); ((7)%Z, (1)%Z)] |}.
Definition dex_acts : list daction :=
  [DInit;
   DPut (mkp 0%nat (1)%Z (0)%Z (2000)%Z ((0)%Z # 1));
   DPut (mkp 1%nat (2)%Z (1)%Z (1000)%Z ((0)%Z # 1));
   DPut (mkp 2%nat (3)%Z (7)%Z (1000)%Z ((0)%Z # 1));
   DPut (mkp 3%nat (4)%Z (0)%Z (500)%Z ((0)%Z # 1));
   DStoreCb None;
   DStoreCb (Some (0)%Z);
   DStoreCb (Some (1)%Z);
   DStoreCb (Some (1)%Z);
   DStoreCb (Some (0)%Z);
   DGetDone None;
   DGetDone (Some (0)%Z);
   DGetDone (Some (1)%Z);
   DChildInit;
   DAdvance ((125)%Z # 128);
   DChildTimer;
   DChildEnd;
   DGetDone (Some (1)%Z);
   DChildInit;
   DAdvance ((125)%Z # 64);
   DChildTimer;
   DChildEnd;
   DChildInit;
   DAdvance ((125)%Z # 32);
   DChildTimer;
   DChildEnd;
   DGetDone (Some (0)%Z);
   DChildInit;
   DAdvance ((4)%Z # 1);
   DPut (mkp 4%nat (5)%Z (1)%Z (256)%Z ((4)%Z # 1));
   DStoreCb (Some (1)%Z);
   DAdvance ((1125)%Z # 256);
   DChildTimer;
   DChildEnd;
   DGetDone (Some (1)%Z);
   DChildInit;
   DAdvance ((1189)%Z # 256);
   DChildTimer;
   DChildEnd].
(* forwarded uids: [1, 2, 0, 3, 4] *)

Lemma dex_wf : dwf dex_cfg.
Proof.
  unfold dwf, dex_cfg; cbn. split; [reflexivity|]. split; [discriminate|]. split.
  - repeat constructor; cbn; intuition discriminate.
  - intros x [<-|[<-|[]]]; reflexivity.
Qed.

(* a prefix of the execution that runs ends in the state and trace read off its own result; the two matches are the
   bodies of dex_state / dex_trace (Elem/DRRWitness.v, which imports this file).  Only the fact that the prefix runs is
   evaluated; the state is not written out *)
Lemma dex_prefix_runs n :
  (if drr_run dex_cfg (drr0 0) (firstn n dex_acts) then True else False) ->
  drr_run dex_cfg (drr0 0) (firstn n dex_acts)
  = Some (match drr_run dex_cfg (drr0 0) (firstn n dex_acts) with Some (d, _) => d | None => drr0 0 end,
          match drr_run dex_cfg (drr0 0) (firstn n dex_acts) with Some (_, tr) => tr | None => [] end).
Proof. destruct (drr_run dex_cfg (drr0 0) (firstn n dex_acts)) as [[d tr]|]; [reflexivity|intros []]. Qed.

Definition dex_final : option (drr * list dtev) := drr_run dex_cfg (drr0 0) dex_acts.

(* the execution is admissible; packets leave in the order 1,2,0,3,4 (uid 0 is parked in the first round); at the end
   nothing is held, nothing is urgent, no credit is left *)
Example dex_runs :
  exists d tr, dex_final = Some (d, tr)
    /\ map uid (dfwds tr) = [1; 2; 0; 3; 4]%nat
    /\ map uid (dputs tr) = [0; 1; 2; 3; 4]%nat
    /\ durgent dex_cfg d = false /\ dchd d = DCNone
    /\ dheld dex_cfg d 0 = [] /\ dheld dex_cfg d 1 = []
    /\ Qeq_bool (ddef d 0) 0 = true /\ Qeq_bool (ddef d 1) 0 = true /\ dlmax d = 2000%Z.
Proof. apply run_facts. vm_compute. repeat split; reflexivity. Qed.

(* a state in the middle: after the first round the 2000-byte head of class 0 is parked with credit 1500 *)
Example dex_parked :
  exists d tr, drr_run dex_cfg (drr0 0) (firstn 13 dex_acts) = Some (d, tr)
    /\ option_map uid (dhol d 0) = Some 0%nat /\ Qeq_bool (ddef d 0) 1500 = true /\ Qeq_bool (ddef d 1) 3000 = true
    /\ dvisiting d = Some 1%Z /\ map uid (dheld dex_cfg d 1) = [1; 2]%nat.
Proof. apply run_facts. vm_compute. repeat split; reflexivity. Qed.

(* the hypothesis of the fairness theorem is satisfiable: after the first 13 actions both classes hold packets, and
   they keep holding packets throughout the next 4 actions (one transmission of class 1 from start to debit) *)
Example dex_both_backlogged :
  exists d1 tr1, drr_run dex_cfg (drr0 0) (firstn 13 dex_acts) = Some (d1, tr1)
    /\ dalways dex_cfg (fun x => dheld dex_cfg x 0 <> [] /\ dheld dex_cfg x 1 <> []) d1 (firstn 4 (skipn 13 dex_acts))
    /\ exists d2 tr2, drr_run dex_cfg d1 (firstn 4 (skipn 13 dex_acts)) = Some (d2, tr2)
         /\ dsent dex_cfg 1 tr2 = 1000%Z /\ dsent dex_cfg 0 tr2 = 0%Z.
Proof.
  apply run_facts.
  assert (H : match drr_run dex_cfg (drr0 0) (firstn 13 dex_acts) with
              | Some (d1, _) =>
                  dalways dex_cfg (fun x => dheld dex_cfg x 0 <> [] /\ dheld dex_cfg x 1 <> []) d1 (firstn 4 (skipn 13 dex_acts))
                  /\ match drr_run dex_cfg d1 (firstn 4 (skipn 13 dex_acts)) with
                     | Some (_, tr2) => dsent dex_cfg 1 tr2 = 1000%Z /\ dsent dex_cfg 0 tr2 = 0%Z
                     | None => False
                     end
              | None => False
              end)
    by (vm_compute; repeat split; first [discriminate|reflexivity]).
  destruct (drr_run dex_cfg (drr0 0) (firstn 13 dex_acts)) as [[d1 tr1]|]; [|exact H].
  split; [apply H|apply run_facts, H].
Qed.

(* the visit automaton accepts the events of the action that parks the 2000-byte head and moves on to class 1 *)
Example dex_park_events :
  exists d tr d' ev, drr_run dex_cfg (drr0 0) (firstn 11 dex_acts) = Some (d, tr)
    /\ drr_act dex_cfg d (DGetDone (Some 0%Z)) = Some (d', ev)
    /\ match ev with [DOPark 0%Z p; DOQuantum 1%Z] => uid p = 0%nat | _ => False end.
Proof.
  assert (H : match drr_run dex_cfg (drr0 0) (firstn 11 dex_acts) with
              | Some (d, _) =>
                  match drr_act dex_cfg d (DGetDone (Some 0%Z)) with
                  | Some (_, [DOPark 0%Z p; DOQuantum 1%Z]) => uid p = 0%nat
                  | _ => False
                  end
              | None => False
              end) by (vm_compute; reflexivity).
  destruct (drr_run dex_cfg (drr0 0) (firstn 11 dex_acts)) as [[d tr]|]; [|destruct H].
  destruct (drr_act dex_cfg d (DGetDone (Some 0%Z))) as [[d' ev]|] eqn:A; [|destruct H].
  exists d, tr, d', ev. split; [reflexivity|split; [exact A|exact H]].
Qed.
