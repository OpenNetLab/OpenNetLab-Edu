(* The switches of onl/netdev/switch.py as composed interface elements (Elem/ComposeSwitch.v over the adapters):
     SimplePacketSwitch(env, n, rate, buffer)            = FlowDemux over n Ports (packet limit `buffer`)
     FairPacketSwitch(env, n, rate, buffer, weights, server, flow2class)
                                                         = FIBDemux over n branches `egress Port(rate 0, limit buffer) >> scheduler`,
                                                           scheduler = SP | WFQ | VirtualClock | DRR with the given flow2class;
                                                           the application sets demux.fib (and demux.ends) afterwards.
   The decision functions are Route/Demux.v's simple_switch / fair_switch (C18). *)
From Coq Require Import ZArith QArith List Bool Permutation Lia Arith.
From ONL Require Import Elem.Packet Elem.StoreQ Elem.Port Elem.PortProofs Elem.Iface Elem.Compose Elem.ComposePar Elem.ComposeHands
  Elem.ComposeFan Elem.ComposeSwitch Elem.AdaptPort Route.Demux Route.DemuxProofs.
Import ListNotations.
Local Open Scope Q_scope.

(* ---- SimplePacketSwitch ---------------------------------------------------------------------------------------------- *)
Definition sswitch_port (rate : Q) (buf : option Z) (eid : nat -> ekey) (t0 : Q) (i : nat) : elem :=
  port_elem (port_cfg all_fixed rate buf false (eid i)) t0.
Definition sswitch_elem (n : nat) (rate : Q) (buf : option Z) (eid : nat -> ekey) (t0 : Q) : elem :=
  switch (simple_switch true n) t0 n (map (sswitch_port rate buf eid t0) (seq 0 n)).

Lemma nth_error_seq a : forall n i, (i < n)%nat -> nth_error (seq a n) i = Some (a + i)%nat.
Proof.
  intros n. revert a. induction n as [|n IH]; intros a i Hi; [lia|]. destruct i as [|i]; cbn [seq nth_error].
  - f_equal. lia.
  - rewrite IH by lia. f_equal. lia.
Qed.
Lemma nth_error_map_seq {X} (f : nat -> X) n i : (i < n)%nat -> nth_error (map f (seq 0 n)) i = Some (f i).
Proof. intros Hi. rewrite nth_error_map, nth_error_seq by exact Hi. reflexivity. Qed.

Lemma Forall_map_seq {P : elem -> Prop} (f : nat -> elem) a n : (forall i, P (f i)) -> Forall P (map f (seq a n)).
Proof. intros H. apply Forall_forall. intros x Hx. apply in_map_iff in Hx as (i & <- & _). apply H. Qed.

Theorem sswitch_laws n rate buf eid t0 :
  laws (sswitch_elem n rate buf eid t0) /\ timed (sswitch_elem n rate buf eid t0) /\ tagged (sswitch_elem n rate buf eid t0).
Proof.
  split; [|split].
  - apply switch_laws. apply Forall_map_seq. intros i. apply port_elem_laws.
  - apply switch_timed. apply Forall_map_seq. intros i. apply port_elem_timed.
  - apply switch_tagged. apply Forall_map_seq. intros i. apply port_elem_tagged.
Qed.

(* the slot a packet is routed to: port i gets exactly flow i (C18_simple_switch_rule) *)
Lemma sswitch_slot n i p : (i < n)%nat ->
  routed (simple_switch true n) p && Nat.eqb (bidx n (simple_switch true n) p) i = Z.eqb (flow p) (Z.of_nat i).
Proof.
  intros Hi. unfold routed, bidx. destruct (simple_switch_rule n (flow p)) as [R1 R2].
  destruct (Z_le_dec 0 (flow p)) as [L|L]; [destruct (Z_lt_dec (flow p) (Z.of_nat n)) as [U|U]|].
  - rewrite (R1 (conj L U)). cbn [out_slot andb]. destruct (Nat.eqb_spec (Z.to_nat (flow p)) i), (Z.eqb_spec (flow p) (Z.of_nat i)); try reflexivity; lia.
  - rewrite R2 by lia. cbn [andb]. symmetry. apply Z.eqb_neq. lia.
  - rewrite R2 by lia. cbn [andb]. symmetry. apply Z.eqb_neq. lia.
Qed.
Lemma sswitch_unrouted n p : routed (simple_switch true n) p = false <-> ~ (0 <= flow p < Z.of_nat n)%Z.
Proof.
  unfold routed. destruct (simple_switch_rule n (flow p)) as [R1 R2]. split.
  - intros H C. rewrite (R1 C) in H. discriminate.
  - intros C. rewrite (R2 C). reflexivity.
Qed.

(* every port of the switch, inside ANY execution of the switch: it runs as a Port alone would (so all of C09 / C08_Port holds
   for it), it was given exactly the packets of its flow, in order; its counted drops are its refusals; what it forwards is
   delivered by the switch; flows without a port are discarded by the demux *)
Theorem sswitch_port_view n rate buf eid t0 : forall acts s tr,
  run (sswitch_elem n rate buf eid t0) (init (sswitch_elem n rate buf eid t0)) acts = Some (s, tr) ->
  (forall i, (i < n)%nat ->
     exists (sP : port) pacts ptr,
       bank_has t0 (map (sswitch_port rate buf eid t0) (seq 0 n)) (bidx n (simple_switch true n)) (snd s) i (sswitch_port rate buf eid t0 i) sP /\
       port_run (port_cfg all_fixed rate buf false (eid i)) (port0 t0) pacts = Some (sP, ptr) /\
       PortProofs.puts ptr = filter (fun p => Z.eqb (flow p) (Z.of_nat i)) (Iface.puts tr) /\
       sublist (forwarded ptr) (fwds tr) /\ (forall p, In p (dropped ptr) -> In p (drops tr)) /\
       pdrop sP = Z.of_nat (length (dropped ptr)) /\
       Permutation (PortProofs.puts ptr) (forwarded ptr ++ dropped ptr ++ port_held sP)) /\
  (forall p, In p (Iface.puts tr) -> ~ (0 <= flow p < Z.of_nat n)%Z -> In p (drops tr)).
Proof.
  intros acts s tr H. split.
  - intros i Hi.
    assert (Hn : nth_error (map (sswitch_port rate buf eid t0) (seq 0 n)) i = Some (sswitch_port rate buf eid t0 i)).
    { apply nth_error_map_seq. exact Hi. }
    destruct (switch_branch_exists _ _ _ _ _ _ _ H i _ Hn) as (sE & acts_i & tr_i & Hh & R & P & Fw & Dr).
    unfold sswitch_port in R.
    destruct (port_elem_run _ _ _ _ _ _ R) as (ptr & PR & -> & _).
    rewrite port_puts in P. rewrite port_fwds in Fw. rewrite port_drops in Dr.
    exists sE, (map p_to acts_i), ptr. split; [exact Hh|]. split; [exact PR|].
    destruct (port_conserves _ _ _ _ _ PR) as (C1 & C2 & _).
    repeat split; auto. rewrite P. apply filter_ext. intros p. apply sswitch_slot. exact Hi.
  - intros p Hp Hr. apply (switch_unrouted_dropped _ _ _ _ _ _ _ H p Hp). apply sswitch_unrouted. exact Hr.
Qed.

(* ---- FairPacketSwitch -------------------------------------------------------------------------------------------------- *)
From ONL Require Import Elem.SchedBase Elem.SchedBaseProofs Elem.SP Elem.HeapList Elem.WFQServer Elem.WFQ Elem.VC Elem.WFQInst Elem.DRR Elem.DRRInv
  Elem.AdaptSched Elem.AdaptSrv Elem.AdaptDRR.
Import ONL.Elem.Iface.

(* branch i: the egress port (rate 0, packet limit `buf`, element id eid i) handing every packet at once to its scheduler *)
Definition fbranch (buf : option Z) (eid : nat -> Port.ekey) (sched : elem) (t0 : Q) (i : nat) : elem :=
  port_elem (port_cfg all_fixed 0 buf false (eid i)) t0 >> sched.
(* ends: the end devices registered in demux.ends afterwards (fs_ends c maps a flow to an index into this list) *)
Definition fswitch_elem (c : fair_cfg) (buf : option Z) (eid : nat -> Port.ekey) (sched : elem) (ends : list elem) (t0 : Q) : elem :=
  switch (fair_switch true true c) t0 (fs_nports c)
         (map (fbranch buf eid sched t0) (List.seq 0 (fs_nports c)) ++ nil_elem t0 :: ends).

Theorem fswitch_laws c buf eid sched ends t0 :
  (laws sched -> Forall laws ends -> laws (fswitch_elem c buf eid sched ends t0)) /\
  (timed sched -> Forall timed ends -> timed (fswitch_elem c buf eid sched ends t0)) /\
  (tagged sched -> Forall tagged ends -> tagged (fswitch_elem c buf eid sched ends t0)).
Proof.
  split; [|split]; intros Hs He.
  - apply switch_laws. apply Forall_app. split; [|constructor; [apply nil_elem_laws|exact He]].
    apply Forall_map_seq. intros i. apply series_laws; [apply port_elem_laws|exact Hs].
  - apply switch_timed. apply Forall_app. split; [|constructor; [apply nil_elem_timed|exact He]].
    apply Forall_map_seq. intros i. apply series_timed; [apply port_elem_timed|exact Hs].
  - apply switch_tagged. apply Forall_app. split; [|constructor; [apply nil_elem_tagged|exact He]].
    apply Forall_map_seq. intros i. apply series_tagged; [apply port_elem_tagged|exact Hs].
Qed.

(* for ANY decision function: slot i < nouts is reached exactly by the decision OOut i *)
Lemma slot_out route nouts i p : (i < nouts)%nat ->
  routed route p && Nat.eqb (bidx nouts route p) i = output_eqb (route (flow p)) (OOut i).
Proof.
  intros Hi. unfold routed, bidx. destruct (route (flow p)) as [d|j| | |e]; cbn [out_slot andb output_eqb]; try reflexivity.
  - apply Nat.eqb_neq. lia.
  - apply Nat.eqb_neq. lia.
Qed.

(* every branch of the switch, inside ANY execution of the switch: the egress port and the scheduler run as they would alone;
   the egress port was given exactly the packets the FIB rule sends to output i (C18_fair_switch_rule), the scheduler exactly what
   the egress port forwarded, and what the scheduler forwards is delivered by the switch *)
Theorem fswitch_branch_view c buf eid sched ends t0 : forall acts s tr,
  run (fswitch_elem c buf eid sched ends t0) (init (fswitch_elem c buf eid sched ends t0)) acts = Some (s, tr) ->
  forall i, (i < fs_nports c)%nat ->
  exists (sP : port) (sS : st sched) pacts ptr sacts str,
    port_run (port_cfg all_fixed 0 buf false (eid i)) (port0 t0) pacts = Some (sP, ptr) /\
    run sched (init sched) sacts = Some (sS, str) /\
    PortProofs.puts ptr = filter (fun p => output_eqb (fair_switch true true c (flow p)) (OOut i)) (Iface.puts tr) /\
    Iface.puts str = forwarded ptr /\ sublist (fwds str) (fwds tr) /\
    pdrop sP = Z.of_nat (length (dropped ptr)) /\ (forall p, In p (dropped ptr) -> In p (drops tr)).
Proof.
  intros acts s tr H i Hi.
  assert (Hn : nth_error (map (fbranch buf eid sched t0) (List.seq 0 (fs_nports c)) ++ nil_elem t0 :: ends) i = Some (fbranch buf eid sched t0 i)).
  { rewrite nth_error_app1 by (rewrite map_length, seq_length; exact Hi). apply nth_error_map_seq. exact Hi. }
  destruct (switch_branch_exists _ _ _ _ _ _ _ H i _ Hn) as ([sP sS] & acts_i & tr_i & Hh & R & P & Fw & Dr).
  unfold fbranch in R.
  destruct (series_projection_init _ _ _ _ _ R) as (trP & trS & RP & RS & P1 & P2 & P3 & P4). cbn [fst snd] in RP, RS.
  destruct (port_elem_run _ _ _ _ _ _ RP) as (ptr & PR & -> & _).
  rewrite port_puts in P1. rewrite port_fwds in P2. rewrite port_drops in P4.
  exists sP, sS, (map p_to (actsA (port_elem (port_cfg all_fixed 0 buf false (eid i)) t0) sched acts_i)), ptr,
         (actsB (port_elem (port_cfg all_fixed 0 buf false (eid i)) t0) sched (init (port_elem (port_cfg all_fixed 0 buf false (eid i)) t0)) acts_i), trS.
  destruct (port_conserves _ _ _ _ _ PR) as (_ & C2 & _).
  repeat split; auto.
  - rewrite P1. etransitivity; [exact P|]. apply filter_ext. intros p. apply slot_out. exact Hi.
  - rewrite P3. exact Fw.
  - intros p Hp. apply Dr. apply (Permutation_in p (Permutation_sym P4)). apply in_or_app. left. exact Hp.
Qed.

(* the four servers FairPacketSwitch offers, each with the switch's flow2class (any function; several flows per class) *)
Definition fs_sp (c : fair_cfg) (r : Q) (fl : list Z) (tbl : list (Z * Z)) : elem := sp_elem r (fs_class c) fl tbl.
Definition fs_wfq (c : fair_cfg) (r : Q) (ws : list (Z * Z)) : elem :=
  wfq_elem {| wrate := r; wweights := ws; wf2c := fs_class c; wfix_first := true |}.
Definition fs_vc (c : fair_cfg) (r : Q) (vt : list (Z * Q)) : elem := vc_elem {| vrate := r; vticks := vt; vf2c := fs_class c |}.
Definition fs_drr (c : fair_cfg) (r : Q) (ws : list (Z * Z)) (t0 : Q) : elem := drr_elem {| drate := r; dweights := ws; df2c := fs_class c |} t0.

Theorem fswitch_servers_laws c buf eid t0 :
  (forall r fl tbl, 0 < r -> (forall k p, In (k, p) tbl -> (0 < p)%Z) -> laws (fswitch_elem c buf eid (fs_sp c r fl tbl) [] t0)) /\
  (forall r ws, wcfg_ok {| wrate := r; wweights := ws; wf2c := fs_class c; wfix_first := true |} ->
                laws (fswitch_elem c buf eid (fs_wfq c r ws) [] t0)) /\
  (forall r vt, vcfg_ok {| vrate := r; vticks := vt; vf2c := fs_class c |} -> laws (fswitch_elem c buf eid (fs_vc c r vt) [] t0)) /\
  (forall r ws, dwf {| drate := r; dweights := ws; df2c := fs_class c |} -> laws (fswitch_elem c buf eid (fs_drr c r ws t0) [] t0)).
Proof.
  split; [|split; [|split]]; intros.
  - apply (proj1 (fswitch_laws _ _ _ _ _ _)); [apply sp_elem_laws; assumption|constructor].
  - apply (proj1 (fswitch_laws _ _ _ _ _ _)); [apply wfq_elem_laws; assumption|constructor].
  - apply (proj1 (fswitch_laws _ _ _ _ _ _)); [apply vc_elem_laws; assumption|constructor].
  - apply (proj1 (fswitch_laws _ _ _ _ _ _)); [apply drr_elem_laws; assumption|constructor].
Qed.
