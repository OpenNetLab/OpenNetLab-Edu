(* Proofs about Elem/Wire.v: for every loss configuration, every admissible execution (any action
   list accepted by wire_run from wire0 t0) and all draws, the timed outputs of the wire are what the
   property's recurrence (wire_rec) gives.  The invariant is not an instance of TokenServer.SInv: a wire's outcome
   may be Lost, which ends the service at the dequeue instant without a departure, and its deadline depends on the
   draws; only the timed-list lemmas of TokenServer are used. *)
From Coq Require Import ZArith QArith Qminmax List Bool Lia Lqa Permutation Sorted.
From ONL Require Import Base.Tools Elem.Packet Elem.StoreQ Elem.StoreQProofs Elem.TokenServer Elem.Wire.
Import ListNotations.

(* small tools                                                                                     *)

(* same packets (Leibniz), same instants (==) *)
Definition tp_equiv : list (Q * pkt) -> list (Q * pkt) -> Prop :=
  Forall2 (fun x y : Q * pkt => fst x == fst y /\ snd x = snd y).

Lemma tp_equiv_length l1 l2 : tp_equiv l1 l2 -> length l1 = length l2.
Proof. apply Forall2_len. Qed.

Lemma deliver_at_compat s s' a dd : s == s' -> deliver_at s a dd == deliver_at s' a dd.
Proof. intros E. unfold deliver_at. destruct (Qlt_le_dec (s - a) dd), (Qlt_le_dec (s' - a) dd); lra. Qed.

(* the delivery-time law: never before a + d, never before the dequeue instant; for d >= 0 exactly
   max(a + d, instant the server became free) *)
Lemma deliver_at_ge s a dd : a <= s -> a + dd <= deliver_at s a dd /\ s <= deliver_at s a dd.
Proof. intros Ha. unfold deliver_at. destruct (Qlt_le_dec (s - a) dd); split; lra. Qed.

Lemma deliver_at_max a F dd : 0 <= dd -> deliver_at (Qmax a F) a dd == Qmax (a + dd) F.
Proof.
  intros Hd. unfold deliver_at.
  destruct (Q.max_spec a F) as [[H1 E1]|[H1 E1]]; destruct (Q.max_spec (a + dd) F) as [[H2 E2]|[H2 E2]];
    destruct (Qlt_le_dec (Qmax a F - a) dd); rewrite ?E1, ?E2 in *; lra.
Qed.

Lemma lost_dec_true loss u :
  lost_dec loss u = Some true <-> exists r x, loss = Some r /\ ~ r == 0 /\ u = Some x /\ x < r.
Proof.
  unfold lost_dec, loss_on. split.
  - destruct loss as [r|]; [|destruct u; discriminate].
    destruct (Qeq_bool r 0) eqn:E0; [destruct u; discriminate|].
    destruct u as [x|]; [|discriminate]. intros H. injection H as H.
    exists r, x. repeat split; auto.
    + apply Qeq_bool_neq. exact E0.
    + apply negb_true_iff in H. apply Qnot_le_lt. intros Hle. apply Qle_bool_iff in Hle. congruence.
  - intros (r & x & -> & Hr & -> & Hx).
    destruct (Qeq_bool r 0) eqn:E0; [apply Qeq_bool_eq in E0; contradiction|].
    f_equal. apply negb_true_iff. destruct (Qle_bool r x) eqn:E; [|reflexivity].
    apply Qle_bool_iff in E. lra.
Qed.

Lemma lost_dec_none_off loss u : loss_on loss = None -> lost_dec loss u <> Some true.
Proof. unfold lost_dec. intros ->. destruct u; discriminate. Qed.

(* the recurrence as a chain (snoc-friendly form of wire_rec)                                       *)

Fixpoint rec_chain (loss : option Q) (F : Q) (R : list outcome) (dr : list (option Q * option Q)) : Prop :=
  match R, dr with
  | [], [] => True
  | o :: R', (u, d) :: dr' =>
      rec_step loss F (o_arr o) u d = Some (o_start o, o_fate o) /\ rec_chain loss (o_fin o) R' dr'
  | _, _ => False
  end.

(* completion instant of the last outcome (F when there is none) *)
Definition last_fin (F : Q) (R : list outcome) : Q := fold_left (fun _ o => o_fin o) R F.

Lemma last_fin_snoc F R o : last_fin F (R ++ [o]) = o_fin o.
Proof. unfold last_fin. rewrite fold_left_app. reflexivity. Qed.

Lemma last_fin_cons F o R : last_fin F (o :: R) = last_fin (o_fin o) R.
Proof. reflexivity. Qed.

Lemma rec_chain_snoc loss : forall R F dr o u d,
  rec_chain loss F R dr ->
  rec_step loss (last_fin F R) (o_arr o) u d = Some (o_start o, o_fate o) ->
  rec_chain loss F (R ++ [o]) (dr ++ [(u, d)]).
Proof.
  induction R as [|o1 R IH]; intros F dr o u d H S.
  - destruct dr; [|destruct H]. cbn. split; [exact S|exact I].
  - destruct dr as [|[u1 d1] dr]; [destruct H|]. cbn in H |- *. destruct H as [H1 H2].
    split; [exact H1|]. apply IH; [exact H2|exact S].
Qed.

Lemma rec_chain_length loss : forall R F dr, rec_chain loss F R dr -> length R = length dr.
Proof.
  induction R as [|o R IH]; intros F [|[u d] dr] H; cbn in *; try tauto.
  f_equal. eapply IH. apply H.
Qed.

Lemma rec_chain_wire_rec loss : forall R F dr rest,
  rec_chain loss F R dr -> wire_rec loss F (map o_ap R ++ rest) dr = Some R.
Proof.
  induction R as [|o R IH]; intros F dr rest H.
  - destruct dr; [|destruct H]. reflexivity.
  - destruct dr as [|[u d] dr]; [destruct H|]. cbn in H. destruct H as [H1 H2].
    cbn [map app]. change (o_ap o) with (o_arr o, o_pkt o). cbn [wire_rec]. rewrite H1.
    assert (E : {| o_pkt := o_pkt o; o_arr := o_arr o; o_start := o_start o; o_fate := o_fate o |} = o)
      by (destruct o; reflexivity).
    rewrite E. rewrite (IH _ _ rest H2). reflexivity.
Qed.

Lemma wire_rec_chain loss : forall dr F arr R,
  wire_rec loss F arr dr = Some R -> rec_chain loss F R dr /\ exists rest, arr = map o_ap R ++ rest.
Proof.
  induction dr as [|[u d] dr IH]; intros F arr R H.
  - cbn in H. injection H as <-. split; [exact I|]. exists arr. reflexivity.
  - destruct arr as [|[a p] arr]; [discriminate|]. cbn [wire_rec] in H.
    destruct (rec_step loss F a u d) as [[s f]|] eqn:S; [|discriminate].
    destruct (wire_rec loss _ arr dr) as [R'|] eqn:W; [|discriminate].
    injection H as <-. apply IH in W as [C (rest & ->)].
    split; [cbn; split; [exact S|exact C]|]. exists rest. reflexivity.
Qed.

(* the i-th outcome is one step of the recurrence from the completion instant of the (i-1)-th *)
Lemma rec_chain_nth loss : forall R F dr i o,
  rec_chain loss F R dr -> nth_error R i = Some o ->
  exists u d, nth_error dr i = Some (u, d) /\
              rec_step loss (last_fin F (firstn i R)) (o_arr o) u d = Some (o_start o, o_fate o).
Proof.
  induction R as [|o1 R IH]; intros F dr i o H Hi.
  - destruct i; discriminate.
  - destruct dr as [|[u1 d1] dr]; [destruct H|]. cbn in H. destruct H as [H1 H2].
    destruct i as [|i]; cbn in Hi.
    + injection Hi as <-. exists u1, d1. split; [reflexivity|exact H1].
    + cbn [firstn]. rewrite last_fin_cons. cbn [nth_error]. eapply IH; eauto.
Qed.

Lemma rec_step_start loss F a u d s f : rec_step loss F a u d = Some (s, f) -> s = Qmax a F.
Proof.
  unfold rec_step. destruct (lost_dec loss u) as [[|]|]; destruct d; intros H; try discriminate; injection H as <- _;
    reflexivity.
Qed.

Lemma rec_step_kept loss F a u dd :
  lost_dec loss u = Some false -> rec_step loss F a u (Some dd) = Some (Qmax a F, Deliv (deliver_at (Qmax a F) a dd)).
Proof. unfold rec_step. intros ->. reflexivity. Qed.

Lemma rec_step_lost loss F a u : lost_dec loss u = Some true -> rec_step loss F a u None = Some (Qmax a F, Lost).
Proof. unfold rec_step. intros ->. reflexivity. Qed.

(* completion instants never decrease along the chain *)
Lemma rec_step_fin_ge loss F a u d s f :
  rec_step loss F a u d = Some (s, f) -> F <= s /\ a <= s /\ s <= match f with Lost => s | Deliv T => T end.
Proof.
  unfold rec_step. destruct (lost_dec loss u) as [[|]|]; destruct d as [dd|]; intros H; try discriminate;
    injection H as <- <-; (split; [apply Q.le_max_r|split; [apply Q.le_max_l|]]).
  - apply Qle_refl.
  - apply deliver_at_ge, Q.le_max_l.
Qed.


Definition wset (w : wire) (q : sq pkt) (h : option (pkt * Q)) : wire :=
  {| wnow := wnow w; wq := q; started := started w; hold := h; nrec := nrec w |}.

Inductive wstep (loss : option Q) (w : wire) : waction -> wire -> list wout -> Prop :=
| ws_put p :
    wstep loss w (WPut p) {| wnow := wnow w; wq := sq_put fifo_push (wnow w) p (wq w); started := started w;
                             hold := hold w; nrec := (nrec w + 1)%Z |} []
| ws_init q (Hs : started w = false) (Hg : sq_get fifo_pop (wq w) = Some q) :
    wstep loss w WInit {| wnow := wnow w; wq := q; started := true; hold := hold w; nrec := nrec w |} []
| ws_cb q (Hc : sq_cb fifo_pop (wq w) = Some q) : wstep loss w WStoreCb (with_q w q) []
| ws_hold a0 p q u dd (Hh : hold w = None) (Hs : started w = true) (Ht : sq_take (wq w) = Some ((a0, p), q))
    (Hl : lost_dec loss u = Some false) (Hd : wnow w - a0 < dd) :
    wstep loss w (WGet u (Some dd)) (wset w q (Some (p, wnow w + (dd - (wnow w - a0))))) []
| ws_now a0 p q q' u dd (Hh : hold w = None) (Hs : started w = true) (Ht : sq_take (wq w) = Some ((a0, p), q))
    (Hl : lost_dec loss u = Some false) (Hd : dd <= wnow w - a0) (Hg : sq_get fifo_pop q = Some q') :
    wstep loss w (WGet u (Some dd)) (wset w q' None) [ODeliver p]
| ws_lost a0 p q q' u (Hh : hold w = None) (Hs : started w = true) (Ht : sq_take (wq w) = Some ((a0, p), q))
    (Hl : lost_dec loss u = Some true) (Hg : sq_get fifo_pop q = Some q') :
    wstep loss w (WGet u None) (wset w q' None) [OLost p]
| ws_timer p dl q' (Hh : hold w = Some (p, dl)) (Hdl : dl == wnow w) (Hg : sq_get fifo_pop (wq w) = Some q') :
    wstep loss w WTimer (wset w q' None) [ODeliver p]
| ws_adv t (Hu : wurgent w = false) (Hlt : wnow w < t) (Hdl : forall p dl, hold w = Some (p, dl) -> t <= dl) :
    wstep loss w (WAdvance t) {| wnow := t; wq := wq w; started := started w; hold := hold w; nrec := nrec w |} [].

Lemma wire_act_step loss w a w' outs : wire_act loss w a = Some (w', outs) -> wstep loss w a w' outs.
Proof.
  destruct a as [p| | |u d| |t]; cbn [wire_act]; unfold server_get; cbn [wq with_q].
  - intros H. injection H as <- <-. constructor.
  - destruct (started w) eqn:Es; [discriminate|]. destruct (sq_get fifo_pop (wq w)) as [q|] eqn:G; [|discriminate].
    intros H. injection H as <- <-. exact (ws_init loss w q Es G).
  - destruct (sq_cb fifo_pop (wq w)) as [q|] eqn:G; [|discriminate]. intros H. injection H as <- <-. apply ws_cb, G.
  - destruct (hold w) as [[p0 dl0]|] eqn:Eh; [discriminate|].
    destruct (sq_take (wq w)) as [[[a0 p] q]|] eqn:Et; [|discriminate].
    destruct (started w) eqn:Es; [|discriminate]. cbn [negb].
    destruct (lost_dec loss u) as [[|]|] eqn:El; destruct d as [dd|]; try discriminate.
    + destruct (sq_get fifo_pop q) as [q'|] eqn:G; [|discriminate]. intros H. injection H as <- <-.
      unfold with_q. cbn [wnow started hold nrec]. rewrite Eh. eapply ws_lost; eassumption.
    + destruct (Qlt_le_dec (wnow w - a0) dd) as [Hd|Hd].
      * intros H. injection H as <- <-. eapply ws_hold; eassumption.
      * destruct (sq_get fifo_pop q) as [q'|] eqn:G; [|discriminate]. intros H. injection H as <- <-.
        unfold with_q. cbn [wnow started hold nrec]. rewrite Eh. eapply ws_now; eassumption.
  - destruct (hold w) as [[p dl]|] eqn:Eh; [|discriminate].
    destruct (Qeq_bool dl (wnow w)) eqn:Ed; [|discriminate]. apply Qeq_bool_eq in Ed.
    destruct (sq_get fifo_pop (wq w)) as [q'|] eqn:G; [|discriminate]. intros H. injection H as <- <-.
    exact (ws_timer loss w p dl q' Eh Ed G).
  - destruct (wurgent w) eqn:U; [discriminate|]. destruct (Qlt_le_dec (wnow w) t) as [Hlt|]; [|discriminate].
    destruct (hold w) as [[p dl]|] eqn:Eh.
    + destruct (Qle_bool t dl) eqn:El; [|discriminate]. apply Qle_bool_iff in El.
      intros H. injection H as <- <-. rewrite <- Eh. apply ws_adv; auto. rewrite Eh. intros p' dl' E.
      injection E as _ <-. exact El.
    + intros H. injection H as <- <-. rewrite <- Eh. apply ws_adv; auto. rewrite Eh. discriminate.
Qed.

Lemma wire_adv_inv loss w t w' outs :
  wire_act loss w (WAdvance t) = Some (w', outs) ->
  wurgent w = false /\ wnow w < t /\ (forall p dl, hold w = Some (p, dl) -> t <= dl) /\ outs = [] /\
  w' = {| wnow := t; wq := wq w; started := started w; hold := hold w; nrec := nrec w |}.
Proof. intros H. apply wire_act_step in H. inversion H; subst. auto. Qed.

Lemma wstep_now_mono loss w a w' outs : wstep loss w a w' outs -> wnow w <= wnow w'.
Proof. intros H. destruct H; cbn; try apply Qle_refl. apply Qlt_le_weak. assumption. Qed.

Lemma wire_run_ind loss (P : wire -> list tev -> wire -> Prop) :
  (forall w, P w [] w) ->
  (forall w a w1 outs w' tr, wstep loss w a w1 outs -> P w1 tr w' -> P w ((wnow w1, a, outs) :: tr) w') ->
  forall acts w w' tr, wire_run loss w acts = Some (w', tr) -> P w tr w'.
Proof.
  intros H0 HS. induction acts as [|a acts IH]; intros w w' tr H; cbn [wire_run] in H.
  - injection H as <- <-. apply H0.
  - destruct (wire_act loss w a) as [[w1 outs]|] eqn:Ea; [|discriminate].
    destruct (wire_run loss w1 acts) as [[w2 tr1]|] eqn:Er; [|discriminate].
    injection H as <- <-. apply HS; [apply wire_act_step, Ea|apply IH, Er].
Qed.


(* the timed deliveries of the trace are the recurrence's deliveries, in order, minus at most the
   packet still propagating, whose stored deadline is its T_k *)
Definition deliveries_match (w : wire) (tr : list tev) (R : list outcome) : Prop :=
  match hold w with
  | None => tp_equiv (tdeliv tr) (exp_deliv R)
  | Some (p, dl) =>
      exists R' o T, R = R' ++ [o] /\ o_pkt o = p /\ o_fate o = Deliv T /\ T == dl /\
                     tp_equiv (tdeliv tr) (exp_deliv R')
  end.

Section Invariant.
  Variable loss : option Q.
  Variable t0 : Q.

  (* what the server process is doing.  Idle and started: it became free no later than now, and the packet it
     will take next (the head of what the store holds) arrived now or found it free only now *)
  Definition phase (w : wire) (R : list outcome) : Prop :=
    match hold w with
    | Some (_, dl) => started w = true /\ get (wq w) = GNone /\ wnow w <= dl
    | None =>
        if started w then
          last_fin t0 R <= wnow w /\ get (wq w) <> GNone /\
          (forall a p rest, sq_held (wq w) = (a, p) :: rest -> wnow w <= Qmax a (last_fin t0 R))
        else get (wq w) = GNone /\ R = [] /\ wnow w == t0
    end.

  Record Inv (w : wire) (h : list tev) (R : list outcome) : Prop := {
    inv_chain : rec_chain loss t0 R (draws h);                       (* the recurrence, one outcome per WGet *)
    inv_fifo : arrivals h = map o_ap R ++ sq_held (wq w);           (* taken ++ held = put, in order *)
    inv_nostrand : sq_nostrand (wq w);
    inv_stamped : sq_stamped (wnow w) (wq w);
    inv_starts : Forall2 Qeq (tgets h) (map o_start R);             (* k-th dequeue instant is s_k *)
    inv_lost : tp_equiv (tlost h) (exp_lost R);
    inv_deliv : deliveries_match w h R;
    inv_phase : phase w R
  }.

  Lemma Inv_init : Inv (wire0 t0) [] [].
  Proof.
    constructor; cbn;
      [exact I|reflexivity|apply sq_nostrand_init|constructor|constructor|constructor|constructor|repeat split; reflexivity].
  Qed.

  Lemma phase_back w' q R :
    hold w' = None -> started w' = true -> sq_get fifo_pop q = Some (wq w') -> last_fin t0 R == wnow w' -> phase w' R.
  Proof.
    intros Hh Hs Hg HF. unfold phase. rewrite Hh, Hs. split; [lra|]. split; [apply (sq_get_not_none _ _ _ _ Hg)|].
    intros a p rest _. pose proof (Q.le_max_r a (last_fin t0 R)). lra.
  Qed.

  (* the projections of a trace are flat_maps: unfolded, a snoc becomes an append *)
  Ltac trace_snoc :=
    unfold deliveries_match, arrivals, draws, tgets, tdeliv, tlost in *; rewrite ?flat_map_app;
    cbn [flat_map app hold wset with_q]; rewrite ?app_nil_r.

  Lemma take_books w h R a0 p q u d f :
    Inv w h R -> hold w = None -> started w = true -> sq_take (wq w) = Some ((a0, p), q) ->
    rec_step loss (last_fin t0 R) a0 u d = Some (Qmax a0 (last_fin t0 R), f) ->
    let o := {| o_pkt := p; o_arr := a0; o_start := Qmax a0 (last_fin t0 R); o_fate := f |} in
    wnow w == o_start o /\
    rec_chain loss t0 (R ++ [o]) (draws h ++ [(u, d)]) /\
    arrivals h = map o_ap (R ++ [o]) ++ sq_held q /\
    Forall2 Qeq (tgets h ++ [wnow w]) (map o_start (R ++ [o])) /\
    sq_nostrand q /\ sq_stamped (wnow w) q /\ get q = GNone.
  Proof.
    intros [C Ff N S St L D P] Hh Hs Ht Hstep o. unfold phase in P. rewrite Hh, Hs in P. destruct P as (PF & _ & Ph).
    pose proof (fifo_held_take _ _ _ _ Ht) as Hheld. destruct (sq_stamped_take _ _ _ _ _ Ht S) as [Ha Sq]. cbn [fst] in Ha.
    assert (Hnow : wnow w == Qmax a0 (last_fin t0 R)).
    { apply Qle_antisym; [exact (Ph _ _ _ Hheld)|apply Q.max_lub; assumption]. }
    split; [exact Hnow|]. split; [apply rec_chain_snoc; assumption|].
    split; [rewrite Ff, Hheld, map_app, <- app_assoc; reflexivity|].
    split; [rewrite map_app; apply Forall2_app; [exact St|constructor; [exact Hnow|constructor]]|].
    split; [eapply fifo_nostrand_take; eassumption|]. split; [exact Sq|]. apply (sq_take_inv _ _ _ _ Ht).
  Qed.

  Lemma step_inv w h R a w' outs :
    Inv w h R -> wstep loss w a w' outs -> exists R', Inv w' (h ++ [(wnow w', a, outs)]) R'.
  Proof.
    intros HI H.
    destruct H.
    - (* put: the new item goes to the end of what the store holds *)
      destruct HI as [C Ff N S St L D P]. exists R. constructor; cbn [wq wnow]; trace_snoc; auto.
      + rewrite Ff, fifo_held_put, app_assoc. reflexivity.
      + apply sq_nostrand_put.
      + apply sq_stamped_put, S.
      + unfold phase in *. cbn [hold started wq wnow]. destruct (hold w) as [[q dl]|]; [exact P|].
        destruct (started w); [|exact P]. destruct P as (P1 & P2 & P3). split; [exact P1|]. split; [exact P2|].
        intros a p1 rest E. rewrite fifo_held_put in E. destruct (sq_held (wq w)) as [|x r]; cbn in E.
        * injection E as <- _ _. apply Q.le_max_l.
        * injection E as -> _. eapply P3. reflexivity.
    - (* Initialize *)
      destruct HI as [C Ff N S St L D P]. destruct (sq_get_ok _ (wnow w) _ _ Hg) as (Eh & N' & S' & G').
      unfold phase in P. unfold deliveries_match in D. rewrite Hs in P.
      destruct (hold w) as [[p dl]|] eqn:Hh; [destruct P as (P & _); discriminate|]. destruct P as (_ & -> & Pn).
      exists []. constructor; cbn [wq wnow]; trace_snoc; rewrite ?Eh, ?Hh; auto.
      eapply phase_back; cbn; eauto. lra.
    - (* a StorePut event processed *)
      destruct HI as [C Ff N S St L D P]. exists R. constructor; cbn [wq wnow with_q]; trace_snoc; auto.
      + rewrite (fifo_held_cb _ _ _ Hc). exact Ff.
      + eapply fifo_nostrand_cb, Hc.
      + eapply sq_stamped_cb; eassumption.
      + pose proof (sq_cb_get_none _ _ _ _ Hc) as G. unfold phase in *. cbn [hold started wq wnow with_q].
        rewrite (fifo_held_cb _ _ _ Hc). destruct (hold w) as [[p dl]|]; [|destruct (started w)]; tauto.
    - (* the server takes a packet that has to propagate further *)
      destruct (take_books _ _ _ _ _ _ _ _ _ HI Hh Hs Ht (rec_step_kept _ _ _ _ dd Hl)) as (Hnow & C' & Ff' & St' & N' & S' & G').
      destruct HI as [C Ff N S St L D P]. unfold deliveries_match in D. rewrite Hh in D. eexists.
      assert (HT : deliver_at (Qmax a0 (last_fin t0 R)) a0 dd == wnow w + (dd - (wnow w - a0))).
      { rewrite <- (deliver_at_compat _ _ a0 dd Hnow). unfold deliver_at. destruct (Qlt_le_dec (wnow w - a0) dd); lra. }
      constructor; cbn [wq wnow wset]; trace_snoc; eauto.
      + unfold exp_lost. rewrite flat_map_app. cbn. rewrite app_nil_r. exact L.
      + unfold deliveries_match. cbn [hold wset]. eexists R, _, _. repeat split; [exact HT|exact D].
      + unfold phase. cbn [hold started wq wnow wset]. split; [exact Hs|]. split; [exact G'|]. lra.
    - (* ... or that has waited its delay in the store already: delivered at once *)
      destruct (take_books _ _ _ _ _ _ _ _ _ HI Hh Hs Ht (rec_step_kept _ _ _ _ dd Hl)) as (Hnow & C' & Ff' & St' & N' & S' & G').
      destruct HI as [C Ff N S St L D P]. unfold deliveries_match in D. rewrite Hh in D. eexists.
      destruct (sq_get_ok _ (wnow w) _ _ Hg) as (Eh & N'' & S'' & G'').
      assert (HT : deliver_at (Qmax a0 (last_fin t0 R)) a0 dd == wnow w).
      { rewrite <- (deliver_at_compat _ _ a0 dd Hnow). unfold deliver_at. destruct (Qlt_le_dec (wnow w - a0) dd); lra. }
      constructor; cbn [wq wnow wset]; trace_snoc; rewrite ?Eh; eauto.
      + unfold exp_lost. rewrite flat_map_app. cbn. rewrite app_nil_r. exact L.
      + unfold deliveries_match, exp_deliv. cbn [hold wset]. rewrite flat_map_app. apply teq_snoc; [exact D|].
      rewrite HT. reflexivity.
      + eapply phase_back; cbn; eauto. rewrite last_fin_snoc. exact HT.
    - (* ... or that is lost *)
      destruct (take_books _ _ _ _ _ _ _ _ _ HI Hh Hs Ht (rec_step_lost _ _ _ _ Hl)) as (Hnow & C' & Ff' & St' & N' & S' & G').
      destruct HI as [C Ff N S St L D P]. unfold deliveries_match in D. rewrite Hh in D. eexists.
      destruct (sq_get_ok _ (wnow w) _ _ Hg) as (Eh & N'' & S'' & G'').
      constructor; cbn [wq wnow wset]; trace_snoc; rewrite ?Eh; eauto.
      + unfold exp_lost. rewrite flat_map_app. apply teq_snoc; [exact L|exact Hnow].
      + unfold deliveries_match, exp_deliv. cbn [hold wset]. rewrite flat_map_app. cbn. rewrite app_nil_r. exact D.
      + eapply phase_back; cbn; eauto. rewrite last_fin_snoc. symmetry. exact Hnow.
    - (* the propagation timeout: the held packet is delivered at its T *)
      destruct HI as [C Ff N S St L D P]. destruct (sq_get_ok _ (wnow w) _ _ Hg) as (Eh & N' & S' & G').
      unfold deliveries_match in D. unfold phase in P. rewrite Hh in D, P.
      destruct D as (R' & o & T & -> & Po & Pf & PT & Pd). destruct P as (Ps & _).
      eexists. constructor; cbn [wq wnow wset]; trace_snoc; rewrite ?Eh; eauto.
      + unfold deliveries_match, exp_deliv. cbn [hold wset]. rewrite flat_map_app. cbn. rewrite Pf, <- Po.
        apply teq_snoc; [exact Pd|]. lra.
      + eapply phase_back; cbn; eauto. rewrite last_fin_snoc. unfold o_fin. rewrite Pf. lra.
    - (* the clock advances: a waiting consumer of a quiet store sees an empty store *)
      destruct HI as [C Ff N S St L D P]. exists R. constructor; cbn [wq wnow]; trace_snoc; auto.
      + eapply sq_stamped_mono; [|exact S]. lra.
      + unfold wurgent in Hu. apply orb_false_iff in Hu as [Hu _]. apply orb_false_iff in Hu as [Us Uq].
        apply negb_false_iff in Us. unfold phase in *. cbn [hold started wq wnow]. rewrite Us in *.
        destruct (hold w) as [[p dl]|] eqn:Hh.
        * destruct P as (P1 & P2 & _). split; [exact P1|]. split; [exact P2|]. eapply Hdl. reflexivity.
        * destruct P as (P1 & P2 & _). split; [lra|]. split; [exact P2|].
          rewrite (sq_quiet_held_empty _ _ Uq N P2). discriminate.
  Qed.

  Lemma run_inv acts w h R w' tr :
    Inv w h R -> wire_run loss w acts = Some (w', tr) -> exists R', Inv w' (h ++ tr) R'.
  Proof.
    intros HI H. revert h R HI. pattern w, tr, w'. eapply wire_run_ind; [| |exact H].
    - intros w0 h R HI. rewrite app_nil_r. eauto.
    - intros w0 a w1 outs w2 tr0 Hst IH h R HI. destruct (step_inv _ _ _ _ _ _ HI Hst) as [R1 HI1].
      destruct (IH _ _ HI1) as [R2 HI2]. rewrite <- app_assoc in HI2. eauto.
  Qed.

  Theorem reachable_inv acts w tr :
    wire_run loss (wire0 t0) acts = Some (w, tr) -> exists R, Inv w tr R.
  Proof. apply (run_inv acts (wire0 t0) [] [] w tr Inv_init). Qed.
End Invariant.

Arguments inv_chain {loss t0 w h R}.
Arguments inv_fifo {loss t0 w h R}.
Arguments inv_nostrand {loss t0 w h R}.
Arguments inv_stamped {loss t0 w h R}.
Arguments inv_starts {loss t0 w h R}.
Arguments inv_lost {loss t0 w h R}.
Arguments inv_deliv {loss t0 w h R}.
Arguments inv_phase {loss t0 w h R}.


(* the outcome list of an execution is the value of the recurrence on its arrivals and draws *)
Lemma run_outcomes loss t0 acts w tr R :
  wire_run loss (wire0 t0) acts = Some (w, tr) ->
  wire_rec loss t0 (arrivals tr) (draws tr) = Some R -> Inv loss t0 w tr R.
Proof.
  intros Hr HR. destruct (reachable_inv _ _ _ _ _ Hr) as [R0 HI].
  pose proof (rec_chain_wire_rec loss R0 t0 (draws tr) (sq_held (wq w)) (inv_chain HI)) as E.
  rewrite <- (inv_fifo HI) in E. rewrite E in HR. injection HR as <-. exact HI.
Qed.

Theorem wire_spec loss t0 acts w tr :
  wire_run loss (wire0 t0) acts = Some (w, tr) ->
  exists R, wire_rec loss t0 (arrivals tr) (draws tr) = Some R
    /\ arrivals tr = map o_ap R ++ sq_held (wq w)          (* the k-th WGet concerns the k-th arrival *)
    /\ Forall2 Qeq (tgets tr) (map o_start R)               (* it happens at s_k = max(a_k, F_(k-1)) *)
    /\ tp_equiv (tlost tr) (exp_lost R)                     (* losses reported = losses of the recurrence *)
    /\ deliveries_match w tr R.
Proof.
  intros Hr. destruct (reachable_inv _ _ _ _ _ Hr) as [R HI]. exists R.
  split; [|split; [|split; [|split]]].
  - rewrite (inv_fifo HI). apply rec_chain_wire_rec. apply (inv_chain HI).
  - apply (inv_fifo HI).
  - apply (inv_starts HI).
  - apply (inv_lost HI).
  - apply (inv_deliv HI).
Qed.

(* ---- from positions in the flattened delivery list back to outcomes ---- *)
Lemma exp_deliv_nth : forall R k T p,
  nth_error (exp_deliv R) k = Some (T, p) ->
  exists i o, nth_error R i = Some o /\ o_fate o = Deliv T /\ o_pkt o = p.
Proof.
  induction R as [|o R IH]; intros k T p H.
  - destruct k; discriminate.
  - unfold exp_deliv in H. cbn [flat_map] in H. fold (exp_deliv R) in H.
    destruct (o_fate o) as [|T0] eqn:Ef.
    + cbn [app] in H. destruct (IH _ _ _ H) as (i & o' & Hi & Hf & Hp). exists (S i), o'. auto.
    + destruct k as [|k]; cbn in H.
      * injection H as <- <-. exists 0%nat, o. auto.
      * destruct (IH _ _ _ H) as (i & o' & Hi & Hf & Hp). exists (S i), o'. auto.
Qed.

Lemma deliveries_match_nth w tr R k t p :
  deliveries_match w tr R -> nth_error (tdeliv tr) k = Some (t, p) ->
  exists i o T, nth_error R i = Some o /\ o_fate o = Deliv T /\ o_pkt o = p /\ t == T.
Proof.
  unfold deliveries_match. intros M Hk. destruct (hold w) as [[q dl]|].
  - destruct M as (R' & o' & T' & -> & _ & _ & _ & M).
    destruct (teq_nth _ _ M _ _ _ Hk) as (T & HT & Et).
    destruct (exp_deliv_nth _ _ _ _ HT) as (i & o & Hi & Hf & Hp).
    exists i, o, T. repeat split; auto.
    rewrite nth_error_app1; [exact Hi|]. apply nth_error_Some. congruence.
  - destruct (teq_nth _ _ M _ _ _ Hk) as (T & HT & Et).
    destruct (exp_deliv_nth _ _ _ _ HT) as (i & o & Hi & Hf & Hp).
    exists i, o, T. repeat split; auto.
Qed.

Lemma nth_map_o_ap R i o rest : nth_error R i = Some o -> nth_error (map o_ap R ++ rest) i = Some (o_arr o, o_pkt o).
Proof.
  intros H. rewrite nth_error_app1.
  - rewrite nth_error_map, H. reflexivity.
  - rewrite map_length. apply nth_error_Some. congruence.
Qed.

(* ---- wire_delivery_time ---- *)
(* every delivery observed in the trace, at instant t, of packet p: p is the i-th arrival (at a), the
   i-th pair of draws gave delay dd; t is never before a + dd, and for dd >= 0 it is
   max(a + dd, instant the server finished packet i-1) *)
Theorem wire_delivery_time loss t0 acts w tr :
  wire_run loss (wire0 t0) acts = Some (w, tr) ->
  forall R, wire_rec loss t0 (arrivals tr) (draws tr) = Some R ->
  forall k t p, nth_error (tdeliv tr) k = Some (t, p) ->
  exists i a u dd,
    nth_error (arrivals tr) i = Some (a, p) /\ nth_error (draws tr) i = Some (u, Some dd) /\
    a + dd <= t /\
    (0 <= dd -> t == Qmax (a + dd) (last_fin t0 (firstn i R))) /\
    t == deliver_at (Qmax a (last_fin t0 (firstn i R))) a dd.
Proof.
  intros Hr R HR k t p Hk. pose proof (run_outcomes _ _ _ _ _ _ Hr HR) as HI.
  destruct (deliveries_match_nth _ _ _ _ _ _ (inv_deliv HI) Hk) as (i & o & T & Hi & Hf & Hp & Et).
  destruct (rec_chain_nth _ _ _ _ _ _ (inv_chain HI) Hi) as (u & d & Hd & Hs).
  rewrite Hf in Hs. unfold rec_step in Hs.
  destruct (lost_dec loss u) as [[|]|]; destruct d as [dd|]; try discriminate.
  injection Hs as Hs1 Hs2.
  exists i, (o_arr o), u, dd. split; [|split; [exact Hd|]].
  - rewrite (inv_fifo HI), <- Hp. apply nth_map_o_ap. exact Hi.
  - set (F := last_fin t0 (firstn i R)) in *. set (a := o_arr o) in *.
    pose proof (deliver_at_ge (Qmax a F) a dd (Q.le_max_l a F)) as [G1 G2].
    split; [rewrite Et, <- Hs2; exact G1|]. split.
    + intros Hdd. rewrite Et, <- Hs2. apply deliver_at_max. exact Hdd.
    + rewrite Et, <- Hs2. reflexivity.
Qed.

(* ---- wire_fifo ---- *)
Inductive subseq {A : Type} : list A -> list A -> Prop :=
| sub_nil l : subseq [] l
| sub_take x l1 l2 : subseq l1 l2 -> subseq (x :: l1) (x :: l2)
| sub_skip x l1 l2 : subseq l1 l2 -> subseq l1 (x :: l2).

Lemma subseq_refl {A} (l : list A) : subseq l l.
Proof. induction l; constructor; auto. Qed.

Lemma subseq_app_r {A} (l1 l2 l3 : list A) : subseq l1 l2 -> subseq l1 (l2 ++ l3).
Proof. induction 1; cbn; constructor; auto. Qed.

Lemma subseq_app {A} (l1 l2 m1 m2 : list A) : subseq l1 l2 -> subseq m1 m2 -> subseq (l1 ++ m1) (l2 ++ m2).
Proof.
  induction 1; cbn; intros Hm.
  - induction l as [|x l IH]; cbn; [exact Hm|]. apply sub_skip. exact IH.
  - apply sub_take. auto.
  - apply sub_skip. auto.
Qed.

Lemma subseq_filter {A} (f : A -> bool) (l1 l2 : list A) : subseq l1 l2 -> subseq (filter f l1) (filter f l2).
Proof.
  induction 1; cbn.
  - constructor.
  - destruct (f x); [apply sub_take|]; auto.
  - destruct (f x); [apply sub_skip|]; auto.
Qed.

Lemma exp_deliv_subseq R : subseq (map snd (exp_deliv R)) (map o_pkt R).
Proof.
  induction R as [|o R IH]; [constructor|].
  unfold exp_deliv. cbn [flat_map]. fold (exp_deliv R). destruct (o_fate o); cbn.
  - apply sub_skip. exact IH.
  - apply sub_take. exact IH.
Qed.

Lemma map_snd_o_ap R : map snd (map o_ap R) = map o_pkt R.
Proof. rewrite map_map. reflexivity. Qed.

Lemma subseq_app_l {A} (l1 l2 l : list A) : subseq (l1 ++ l2) l -> subseq l1 l.
Proof.
  intros H. remember (l1 ++ l2) as m eqn:E. revert l1 E. induction H as [l|x m l H IH|x m l H IH]; intros l1 E.
  - destruct l1; [constructor|discriminate].
  - destruct l1 as [|y l1]; [constructor|]. injection E as -> ->. apply sub_take, IH. reflexivity.
  - apply sub_skip, IH, E.
Qed.

Definition holdpkt (w : wire) : list pkt := match hold w with Some (p, _) => [p] | None => [] end.

Lemma deliveries_packets w tr R :
  deliveries_match w tr R -> map snd (tdeliv tr) ++ holdpkt w = map snd (exp_deliv R).
Proof.
  unfold deliveries_match, holdpkt. destruct (hold w) as [[p dl]|].
  - intros (R' & o & T & -> & <- & Hf & _ & M). rewrite (teq_pkts _ _ M). unfold exp_deliv.
    rewrite flat_map_app, map_app. cbn. rewrite Hf. reflexivity.
  - intros M. rewrite app_nil_r. apply teq_pkts, M.
Qed.

(* deliveries happen in arrival order: the delivered packets are, in order, a subsequence of the
   packets put in (position-wise statement: wire_spec) *)
Theorem wire_fifo loss t0 acts w tr :
  wire_run loss (wire0 t0) acts = Some (w, tr) ->
  subseq (map snd (tdeliv tr)) (map snd (arrivals tr)).
Proof.
  intros Hr. destruct (reachable_inv _ _ _ _ _ Hr) as [R HI].
  rewrite (inv_fifo HI), map_app, map_snd_o_ap. apply subseq_app_r, (subseq_app_l _ (holdpkt w)).
  rewrite (deliveries_packets _ _ _ (inv_deliv HI)). apply exp_deliv_subseq.
Qed.

(* every step happens at or after the instant of the state it starts from, and emits at most one delivery *)
Theorem wire_delivery_instants_sorted loss t0 acts w tr :
  wire_run loss (wire0 t0) acts = Some (w, tr) ->
  StronglySorted (fun x y : Q * pkt => fst x <= fst y) (tdeliv tr).
Proof.
  intros Hr.
  enough (H : Forall (fun x => wnow (wire0 t0) <= fst x) (tdeliv tr) /\
              StronglySorted (fun x y : Q * pkt => fst x <= fst y) (tdeliv tr)) by apply H.
  pattern (wire0 t0), tr, w. eapply wire_run_ind; [| |exact Hr].
  - split; constructor.
  - intros w0 a w1 outs w2 tr0 Hst [F S]. pose proof (wstep_now_mono _ _ _ _ _ Hst) as Hm.
    assert (F0 : Forall (fun x : Q * pkt => wnow w0 <= fst x) (tdeliv tr0))
      by (eapply Forall_impl; [|exact F]; cbn; intros x Hx; lra).
    (* only ws_now and ws_timer emit a delivery; the other rules leave tdeliv alone *)
    destruct Hst; cbn [tdeliv flat_map app]; fold (tdeliv tr0);
      try (split; [exact F0|exact S]); (split; constructor; [exact Hm|exact F0|exact S|exact F]).
Qed.

(* ---- wire_no_loss_exactly_once ---- *)
Definition loss_off (loss : option Q) : Prop := loss = None \/ exists r, loss = Some r /\ r == 0.

Lemma loss_off_on loss : loss_off loss -> loss_on loss = None.
Proof.
  intros [->|(r & -> & Hr)]; [reflexivity|]. unfold loss_on.
  destruct (Qeq_bool r 0) eqn:E; [reflexivity|]. apply Qeq_bool_neq in E. contradiction.
Qed.

Lemma chain_no_loss loss : loss_on loss = None -> forall R F dr,
  rec_chain loss F R dr -> exp_lost R = [] /\ map snd (exp_deliv R) = map o_pkt R.
Proof.
  intros Hl. induction R as [|o R IH]; intros F dr H; [split; reflexivity|].
  destruct dr as [|[u d] dr]; [destruct H|]. cbn in H. destruct H as [H1 H2]. destruct (IH _ _ H2) as [IH1 IH2].
  unfold rec_step in H1. pose proof (lost_dec_none_off loss u Hl) as Hn.
  destruct (lost_dec loss u) as [[|]|]; [congruence| |discriminate]. destruct d; [|discriminate]. injection H1 as _ HT.
  unfold exp_lost, exp_deliv. cbn [flat_map]. fold (exp_lost R) (exp_deliv R). rewrite <- HT. cbn.
  split; [exact IH1|rewrite IH2; reflexivity].
Qed.

(* loss rate None or 0: nothing is ever lost, and every packet put in is, in arrival order, either
   delivered (exactly once: list equality) or still inside (propagating, then in the store) *)
Theorem wire_no_loss_exactly_once loss t0 acts w tr :
  loss_off loss -> wire_run loss (wire0 t0) acts = Some (w, tr) ->
  tlost tr = [] /\ map snd (arrivals tr) = map snd (tdeliv tr) ++ wheld w.
Proof.
  intros Hl Hr. apply loss_off_on in Hl. destruct (reachable_inv _ _ _ _ _ Hr) as [R HI].
  destruct (chain_no_loss loss Hl _ _ _ (inv_chain HI)) as [EL ED]. split.
  - pose proof (inv_lost HI) as L. rewrite EL in L. inversion L. reflexivity.
  - rewrite (inv_fifo HI), map_app, map_snd_o_ap, <- ED, <- (deliveries_packets _ _ _ (inv_deliv HI)).
    symmetry. apply app_assoc.
Qed.

(* ---- conservation (C08) ---- *)
Lemma outcomes_partition R : Permutation (map o_pkt R) (map snd (exp_deliv R) ++ map snd (exp_lost R)).
Proof.
  induction R as [|o R IH]; [constructor|].
  unfold exp_deliv, exp_lost. cbn [flat_map map]. fold (exp_deliv R) (exp_lost R).
  destruct (o_fate o); cbn [app map snd].
  - apply Permutation_cons_app. exact IH.
  - constructor. exact IH.
Qed.

Theorem wire_conserves loss t0 acts w tr :
  wire_run loss (wire0 t0) acts = Some (w, tr) ->
  Permutation (map snd (arrivals tr)) (map snd (tdeliv tr) ++ map snd (tlost tr) ++ wheld w).
Proof.
  intros Hr. destruct (reachable_inv _ _ _ _ _ Hr) as [R HI].
  rewrite (inv_fifo HI), map_app, map_snd_o_ap, (teq_pkts _ _ (inv_lost HI)).
  rewrite (outcomes_partition R), <- (deliveries_packets _ _ _ (inv_deliv HI)).
  unfold wheld. fold (holdpkt w). rewrite <- !app_assoc. apply Permutation_app_head.
  rewrite !app_assoc. apply Permutation_app_tail, Permutation_app_comm.
Qed.

Theorem wire_conserves_uids loss t0 acts w tr :
  wire_run loss (wire0 t0) acts = Some (w, tr) ->
  Permutation (map uid (map snd (arrivals tr)))
              (map uid (map snd (tdeliv tr)) ++ map uid (map snd (tlost tr)) ++ map uid (wheld w)).
Proof.
  intros H. rewrite <- !map_app. apply Permutation_map. exact (wire_conserves _ _ _ _ _ H).
Qed.

(* every delivered packet IS a packet put in (the same record, all header fields), at an earlier or
   equal instant *)
Theorem wire_delivers_what_was_put loss t0 acts w tr :
  wire_run loss (wire0 t0) acts = Some (w, tr) ->
  forall k t p, nth_error (tdeliv tr) k = Some (t, p) -> exists i a, nth_error (arrivals tr) i = Some (a, p) /\ a <= t.
Proof.
  intros Hr k t p Hk. destruct (wire_spec _ _ _ _ _ Hr) as (R & HR & _).
  destruct (wire_delivery_time _ _ _ _ _ Hr R HR k t p Hk) as (i & a & u & dd & Ha & _ & _ & _ & Et).
  exists i, a. split; [exact Ha|]. rewrite Et.
  pose proof (deliver_at_ge (Qmax a (last_fin t0 (firstn i R))) a dd (Q.le_max_l _ _)) as [_ G].
  pose proof (Q.le_max_l a (last_fin t0 (firstn i R))). lra.
Qed.

Theorem wire_flow_fifo loss t0 acts w tr :
  wire_run loss (wire0 t0) acts = Some (w, tr) ->
  forall f, subseq (filter (fun p => Z.eqb (flow p) f) (map snd (tdeliv tr)))
                   (filter (fun p => Z.eqb (flow p) f) (map snd (arrivals tr))).
Proof. intros Hr f. apply subseq_filter. eapply wire_fifo; eauto. Qed.

(* ---- wire_lost_never_delivered ---- *)
Lemma NoDup_map_inj {A B} (f : A -> B) l x y : NoDup (map f l) -> In x l -> In y l -> f x = f y -> x = y.
Proof.
  induction l as [|z l IH]; cbn; intros N Hx Hy E; [destruct Hx|].
  inversion N as [|? ? Hn N']; subst.
  destruct Hx as [->|Hx], Hy as [->|Hy]; auto.
  - exfalso. apply Hn. rewrite E. apply in_map. exact Hy.
  - exfalso. apply Hn. rewrite <- E. apply in_map. exact Hx.
Qed.

Lemma NoDup_app_l {A} (l1 l2 : list A) : NoDup (l1 ++ l2) -> NoDup l1 /\ (forall x, In x l1 -> ~ In x l2).
Proof.
  induction l1 as [|y l1 IH]; cbn; intros N; [split; [constructor|intros x []]|].
  inversion N as [|? ? Hn N']; subst. destruct (IH N') as [N1 Hd]. split.
  - constructor; [|exact N1]. intros Hy. apply Hn. apply in_or_app. left. exact Hy.
  - intros x [->|Hx]; [|auto]. intros H2. apply Hn. apply in_or_app. right. exact H2.
Qed.

Lemma exp_lost_in R t p : In (t, p) (exp_lost R) -> exists o, In o R /\ o_fate o = Lost /\ o_pkt o = p.
Proof.
  unfold exp_lost. rewrite in_flat_map. intros (o & Ho & Hi). exists o.
  destruct (o_fate o); [|destruct Hi]. destruct Hi as [Hi|[]]. injection Hi as _ <-. auto.
Qed.

Lemma exp_deliv_in R p : In p (map snd (exp_deliv R)) -> exists o T, In o R /\ o_fate o = Deliv T /\ o_pkt o = p.
Proof.
  rewrite in_map_iff. intros ([T q] & Eq & Hi). cbn in Eq. subst q.
  unfold exp_deliv in Hi. rewrite in_flat_map in Hi. destruct Hi as (o & Ho & Hi). exists o.
  destruct (o_fate o) as [|T']; [destruct Hi|]. destruct Hi as [Hi|[]]. injection Hi as <- <-. eauto.
Qed.

Lemma tp_equiv_in l1 l2 t p : tp_equiv l1 l2 -> In (t, p) l1 -> exists T, In (T, p) l2.
Proof.
  induction 1 as [|x y l l' [E1 E2] _ IH]; intros Hi; [destruct Hi|].
  destruct Hi as [->|Hi].
  - destruct y as [T q]. cbn in E2. subst q. exists T. left. reflexivity.
  - destruct (IH Hi) as [T HT]. exists T. right. exact HT.
Qed.

(* distinct packets (uids) put in: a packet reported lost is never delivered and is not inside *)
Theorem wire_lost_never_delivered loss t0 acts w tr :
  wire_run loss (wire0 t0) acts = Some (w, tr) ->
  NoDup (map uid (map snd (arrivals tr))) ->
  forall t p, In (t, p) (tlost tr) -> ~ In p (map snd (tdeliv tr)) /\ ~ In p (wheld w).
Proof.
  intros Hr Hnd t p Hl. destruct (reachable_inv _ _ _ _ _ Hr) as [R HI].
  destruct (tp_equiv_in _ _ _ _ (inv_lost HI) Hl) as [T0 Hl'].
  apply exp_lost_in in Hl' as (o & Ho & Hf & Hp).
  rewrite (inv_fifo HI), map_app, map_snd_o_ap, map_app in Hnd.
  destruct (NoDup_app_l _ _ Hnd) as [NR Hdisj]. rewrite map_map in NR.
  (* the lost outcome is the only outcome with p's uid, so p is not among the packets the recurrence delivers *)
  assert (Hdel : ~ In p (map snd (tdeliv tr) ++ holdpkt w)).
  { rewrite (deliveries_packets _ _ _ (inv_deliv HI)). intros Hd.
    apply exp_deliv_in in Hd as (o' & T & Ho' & Hf' & Hp').
    assert (o' = o) by (eapply (NoDup_map_inj (fun o => uid (o_pkt o))); eauto; cbn; congruence).
    subst o'. congruence. }
  assert (Hst : ~ In p (map snd (sq_held (wq w)))).
  { intros Hs. apply (Hdisj (uid p)); [rewrite <- Hp; apply in_map, in_map, Ho|apply in_map, Hs]. }
  split; [intros H; apply Hdel, in_or_app; left; exact H|].
  unfold wheld. fold (holdpkt w). intros H. apply in_app_or in H as [H|H]; [apply Hdel, in_or_app; right;
    exact H|exact (Hst H)].
Qed.

(* ---- wire_lost_delays_nobody / wire_loss_iff ---- *)
Lemma firstn_S_snoc {A} (l : list A) i x : nth_error l i = Some x -> firstn (S i) l = firstn i l ++ [x].
Proof.
  revert i. induction l as [|y l IH]; intros [|i] H; try discriminate; cbn in *.
  - injection H as ->. reflexivity.
  - f_equal. apply IH. exact H.
Qed.

(* a lost packet occupies the server for no time: the next packet is dequeued at
   max(its own arrival, the lost packet's dequeue instant) -- in the recurrence and in the trace *)
Theorem wire_lost_delays_nobody loss t0 acts w tr :
  wire_run loss (wire0 t0) acts = Some (w, tr) ->
  forall R, wire_rec loss t0 (arrivals tr) (draws tr) = Some R ->
  forall i o o', nth_error R i = Some o -> o_fate o = Lost -> nth_error R (S i) = Some o' ->
    o_start o' = Qmax (o_arr o') (o_start o) /\
    exists ti ti', nth_error (tgets tr) i = Some ti /\ nth_error (tgets tr) (S i) = Some ti' /\
                   ti == o_start o /\ ti' == Qmax (o_arr o') ti.
Proof.
  intros Hr R HR i o o' Hi Hf Hi'. pose proof (run_outcomes _ _ _ _ _ _ Hr HR) as HI.
  destruct (rec_chain_nth _ _ _ _ _ _ (inv_chain HI) Hi') as (u & d & _ & Hs).
  apply rec_step_start in Hs. rewrite (firstn_S_snoc _ _ _ Hi), last_fin_snoc in Hs.
  unfold o_fin in Hs. rewrite Hf in Hs. split; [exact Hs|].
  pose proof (inv_starts HI) as St.
  assert (Hnth : forall j oj, nth_error R j = Some oj -> exists tj, nth_error (tgets tr) j = Some tj /\ tj == o_start oj).
  { clear - St. revert St. generalize (tgets tr). induction R as [|o1 R IH]; intros l St j oj Hj; [destruct j;
    discriminate|].
    inversion St as [|x y l' l'' E St']; subst. destruct j as [|j]; cbn in Hj.
    - injection Hj as <-. exists x. split; [reflexivity|exact E].
    - apply (IH _ St' _ _ Hj). }
  destruct (Hnth _ _ Hi) as (ti & Hti & Eti). destruct (Hnth _ _ Hi') as (ti' & Hti' & Eti').
  exists ti, ti'. repeat split; auto. rewrite Eti', Hs.
  destruct (Q.max_spec (o_arr o') (o_start o)) as [[? E1]|[? E1]];
    destruct (Q.max_spec (o_arr o') ti) as [[? E2]|[? E2]]; rewrite E1, E2; lra.
Qed.

Theorem wire_loss_iff loss t0 acts w tr :
  wire_run loss (wire0 t0) acts = Some (w, tr) ->
  forall R, wire_rec loss t0 (arrivals tr) (draws tr) = Some R ->
  tp_equiv (tlost tr) (exp_lost R) /\
  forall i o, nth_error R i = Some o ->
    exists u d, nth_error (draws tr) i = Some (u, d) /\
      (o_fate o = Lost <-> exists r x, loss = Some r /\ ~ r == 0 /\ u = Some x /\ x < r).
Proof.
  intros Hr R HR. pose proof (run_outcomes _ _ _ _ _ _ Hr HR) as HI.
  split; [apply (inv_lost HI)|].
  intros i o Hi. destruct (rec_chain_nth _ _ _ _ _ _ (inv_chain HI) Hi) as (u & d & Hd & Hs).
  exists u, d. split; [exact Hd|]. rewrite <- lost_dec_true. unfold rec_step in Hs.
  destruct (lost_dec loss u) as [[|]|]; destruct d as [dd|]; try discriminate; injection Hs as _ <-; split; congruence.
Qed.

(* ---- wire_never_late ---- *)
Lemma quiet_held_empty loss t0 w tr R :
  Inv loss t0 w tr R -> wurgent w = false -> hold w = None -> wheld w = [].
Proof.
  intros HI U Hh. unfold wurgent in U. apply orb_false_iff in U as [U _]. apply orb_false_iff in U as [Us Uq].
  apply negb_false_iff in Us. pose proof (inv_phase HI) as P. unfold phase in P.
  rewrite Hh, Us in P. destruct P as (_ & Pg & _).
  unfold wheld. rewrite Hh, (sq_quiet_held_empty _ _ Uq (inv_nostrand HI) Pg). reflexivity.
Qed.

Lemma wire_quiescent_empty loss t0 acts w tr :
  wire_run loss (wire0 t0) acts = Some (w, tr) -> wurgent w = false -> hold w = None -> wheld w = [].
Proof. intros Hr. destruct (reachable_inv _ _ _ _ _ Hr) as [R HI]. exact (quiet_held_empty _ _ _ _ _ HI). Qed.

(* a pending deadline is never passed, and the server never idles while it holds work *)
Theorem wire_never_late loss t0 w :
  (exists acts tr, wire_run loss (wire0 t0) acts = Some (w, tr)) ->
  (forall p dl, hold w = Some (p, dl) -> wnow w <= dl) /\
  (forall t w' outs, wire_act loss w (WAdvance t) = Some (w', outs) ->
     wnow w < t /\ (forall p dl, hold w = Some (p, dl) -> t <= dl) /\ (hold w <> None \/ wheld w = [])) /\
  (forall p dl t, hold w = Some (p, dl) -> dl < t -> wire_act loss w (WAdvance t) = None).
Proof.
  intros (acts & tr & Hr). destruct (reachable_inv _ _ _ _ _ Hr) as [R HI].
  split; [|split].
  - intros p dl Hh. pose proof (inv_phase HI) as P. unfold phase in P. rewrite Hh in P. apply P.
  - intros t w' outs H. apply wire_adv_inv in H as (U & Hlt & Hdl & _). split; [exact Hlt|]. split; [exact Hdl|].
    destruct (hold w) eqn:Hh; [left; discriminate|right; exact (quiet_held_empty _ _ _ _ _ HI U Hh)].
  - intros p dl t Hh Hlt. destruct (wire_act loss w (WAdvance t)) as [[w' outs]|] eqn:H; [|reflexivity].
    apply wire_adv_inv in H as (_ & _ & Hdl & _). specialize (Hdl _ _ Hh). lra.
Qed.

(* ---- wire_drained ---- *)
(* when no internal step of the wire is enabled, nothing of the wire is due in the current instant *)
Lemma no_internal_step_quiet loss t0 w tr R :
  Inv loss t0 w tr R -> hold w = None ->
  (forall a, (forall p, a <> WPut p) -> (forall t, a <> WAdvance t) -> wire_act loss w a = None) ->
  wurgent w = false.
Proof.
  intros HI Hh Hno. pose proof (inv_phase HI) as P. unfold phase in P. rewrite Hh in P.
  assert (Hs : started w = true).
  { destruct (started w) eqn:Es; [reflexivity|]. exfalso. destruct P as (Pg & _ & _).
    assert (H : wire_act loss w WInit = None) by (apply Hno; intros; discriminate).
    cbn [wire_act] in H. rewrite Es in H. unfold server_get in H. cbn [wq] in H.
    destruct (sq_get_enabled _ fifo_pop _ Pg) as [q Hq]. rewrite Hq in H. discriminate. }
  assert (Hp : pend (wq w) = 0%nat).
  { destruct (pend (wq w)) as [|n] eqn:Ep; [reflexivity|]. exfalso.
    assert (H : wire_act loss w WStoreCb = None) by (apply Hno; intros; discriminate).
    cbn [wire_act] in H. destruct (proj1 (sq_cb_enabled _ fifo_pop (wq w))) as [q Hq]; [lia|].
    rewrite Hq in H. discriminate. }
  assert (Hg : forall x, get (wq w) <> GGranted x).
  { intros [a0 p] Gx.
    (* draws that keep the packet whatever the rate (uniform = the rate itself, not below it) and a delay of 0:
       WGet is then enabled, by the timeout or by the return to get *)
    set (u := loss_on loss).
    assert (H : wire_act loss w (WGet u (Some 0)) = None) by (apply Hno; intros; discriminate).
    cbn [wire_act] in H. rewrite Hh in H. destruct (sq_take_enabled _ _ _ Gx) as [q Hq]. rewrite Hq in H.
    rewrite Hs in H. cbn [negb] in H.
    assert (El : lost_dec loss u = Some false).
    { unfold lost_dec, u. destruct (loss_on loss) as [r|]; [|reflexivity].
      f_equal. apply negb_false_iff. apply Qle_bool_iff. apply Qle_refl. }
    rewrite El in H. destruct (Qlt_le_dec (wnow w - a0) 0); [discriminate|].
    apply sq_take_inv in Hq as (_ & _ & _ & Gn).
    unfold server_get in H. cbn [wq with_q] in H.
    destruct (sq_get_enabled _ fifo_pop _ Gn) as [q' Hq']. rewrite Hq' in H. discriminate. }
  unfold wurgent, timer_due. rewrite Hs, Hh. cbn [negb orb]. rewrite orb_false_r.
  apply sq_urgent_false. split; assumption.
Qed.

(* the wire's share of "the simulation ran out of events": nothing enabled but puts and the passing
   of time, no deadline pending  =>  nothing is held *)
Theorem wire_drained loss t0 w :
  (exists acts tr, wire_run loss (wire0 t0) acts = Some (w, tr)) -> hold w = None ->
  (forall a, (forall p, a <> WPut p) -> (forall t, a <> WAdvance t) -> wire_act loss w a = None) ->
  wheld w = [].
Proof.
  intros (acts & tr & Hr) Hh Hno. destruct (reachable_inv _ _ _ _ _ Hr) as [R HI].
  exact (quiet_held_empty _ _ _ _ _ HI (no_internal_step_quiet _ _ _ _ _ HI Hh Hno) Hh).
Qed.

(* non-vacuity: a concrete admissible execution with loss rate 1/4: four packets; p0 propagates until 2;
   p1 (arrived at 1, delay 1/2) would be due at 3/2 but cannot overtake p0: delivered at 2, right after
   p0; p2 is lost (u = 0 < 1/4) at its dequeue instant 2 and delays nobody; p3 arrives at 3 to an idle
   wire and is delivered at 3 + 1 = 4 *)
Definition ex_p (i : nat) : pkt := mkp i (Z.of_nat i + 1) (Z.of_nat (i mod 2)) 1000 0.
Definition ex_loss : option Q := Some (1 # 4).
Definition ex_acts : list waction :=
  [ WInit; WPut (ex_p 0); WStoreCb; WGet (Some (1 # 2)) (Some 2);
    WAdvance 1; WPut (ex_p 1); WPut (ex_p 2); WStoreCb; WStoreCb;
    WAdvance 2; WTimer; WGet (Some (1 # 2)) (Some (1 # 2)); WGet (Some 0) None;
    WAdvance 3; WPut (ex_p 3); WStoreCb; WGet (Some 1) (Some 1);
    WAdvance 4; WTimer ].

Example ex_run :
  exists w tr R,
    wire_run ex_loss (wire0 0) ex_acts = Some (w, tr) /\
    wire_rec ex_loss 0 (arrivals tr) (draws tr) = Some R /\
    map snd (arrivals tr) = [ex_p 0; ex_p 1; ex_p 2; ex_p 3] /\
    map snd (tdeliv tr) = [ex_p 0; ex_p 1; ex_p 3] /\
    Forall2 Qeq (map fst (tdeliv tr)) [2; 2; 4] /\
    map snd (tlost tr) = [ex_p 2] /\
    Forall2 Qeq (tgets tr) [0; 2; 2; 3] /\
    map o_fate R = [Deliv (0 + 2); Deliv 2; Lost; Deliv (3 + 1)] /\
    hold w = None /\ wheld w = [] /\ wurgent w = false.
Proof.
  destruct (run_facts (wire_run ex_loss (wire0 0) ex_acts) (fun _ _ => True)) as (w & tr & E & _); [vm_compute; exact I|].
  destruct (wire_spec _ _ _ _ _ E) as (R & HR & _). exists w, tr, R. split; [exact E|]. split; [exact HR|].
  revert HR. pattern w, tr. apply (run_elim _ _ _ _ E). vm_compute. intros HR. injection HR as <-.
  repeat split; repeat constructor.
Qed.

(* the same execution stopped while p3 is propagating: its stored deadline is its T, and advancing the
   clock beyond the deadline is refused *)
Example ex_run_pending :
  exists w tr, wire_run ex_loss (wire0 0) (firstn 17 ex_acts) = Some (w, tr) /\
    (exists dl, hold w = Some (ex_p 3, dl) /\ dl == 4) /\ wheld w = [ex_p 3] /\
    wire_act ex_loss w (WAdvance 5) = None /\
    (exists w', wire_act ex_loss w (WAdvance 4) = Some (w', [])).
Proof.
  apply run_facts. vm_compute. split; [eexists; split; reflexivity|]. split; [reflexivity|]. split; [reflexivity|].
  eexists. reflexivity.
Qed.
