(* Proofs about Elem/TwoRate.v (the repaired TwoRateTokenBucket, tr_act true true): every admissible
   execution is an instance of the two-rate recurrence: packet k reaches the head at
   h_k = max(arrival_k, departure_(k-1)); both buckets are refilled to c_k = min(CBS, C + CIR*(h_k-U)/8),
   p_k = min(PBS, P + PIR*(h_k-U)/8); colour and departure follow from (c_k, p_k, size_k) alone. *)
From Coq Require Import ZArith QArith Qminmax List Bool Lia Lqa Morphisms.
From ONL Require Import Base.Tools Elem.Packet Elem.StoreQ Elem.StoreQProofs Elem.TokenServer Elem.Bucket Elem.BucketProofs Elem.TwoRate.
Import ListNotations.

(* ---------------------------------------------------------------------------------------------- *)
(* the recurrence of the property                                                                  *)

(* colour of a packet of [size] bytes that finds c committed and p peak tokens at the head *)
Definition tr_colour (c : trcfg) (c1 p1 size : Q) : colour :=
  match pk c with
  | Some _ => if Qlt_le_dec p1 size then Red else if Qlt_le_dec c1 size then Yellow else Green
  | None => if Qlt_le_dec c1 size then Yellow else Green
  end.

(* its departure instant: at once, or after the wait for the shaping bucket's missing tokens *)
Definition tr_dep (c : trcfg) (h c1 p1 size : Q) : Q :=
  match pk c with
  | Some (pir, _) => release pir h p1 size
  | None => release (cir c) h c1 size
  end.

(* committed / peak tokens right after the departure at [d] *)
Definition tr_postC (c : trcfg) (h c1 p1 size d : Q) : Q :=
  match pk c with
  | Some _ => if Qlt_le_dec p1 size then refill (cbs c) (cir c) c1 h d      (* red: keeps filling, nothing taken *)
              else if Qlt_le_dec c1 size then c1                              (* yellow: left alone *)
              else c1 - size                                                  (* green *)
  | None => post c1 size
  end.

Definition tr_postP (c : trcfg) (p1 size : Q) : Q :=
  match pk c with
  | Some _ => post p1 size
  | None => p1
  end.

Record rsvc := { w_pkt : pkt; w_arr : Q; w_head : Q; w_c : Q; w_p : Q; w_dep : Q; w_col : colour }.

Definition wsize (o : rsvc) : Q := sz (w_pkt o).
Definition wpostC (c : trcfg) (o : rsvc) : Q := tr_postC c (w_head o) (w_c o) (w_p o) (wsize o) (w_dep o).
Definition wpostP (c : trcfg) (o : rsvc) : Q := tr_postP c (w_p o) (wsize o).

(* [C] committed and [P] peak tokens at instant [U] = the last departure (server free since then) *)
Definition rstep_ok (c : trcfg) (C P U : Q) (o : rsvc) : Prop :=
  w_head o == Qmax (w_arr o) U /\
  w_c o == refill (cbs c) (cir c) C U (w_head o) /\
  w_p o == (match pk c with Some (pir, pbs) => refill pbs pir P U (w_head o) | None => P end) /\
  w_col o = tr_colour c (w_c o) (w_p o) (wsize o) /\
  w_dep o == tr_dep c (w_head o) (w_c o) (w_p o) (wsize o).

Fixpoint rchain (c : trcfg) (C P U : Q) (R : list rsvc) : Prop :=
  match R with
  | [] => True
  | o :: R' => rstep_ok c C P U o /\ rchain c (wpostC c o) (wpostP c o) (w_dep o) R'
  end.

Lemma rchain_app c : forall R1 R2 C P U,
  rchain c C P U (R1 ++ R2) <->
  rchain c C P U R1 /\ rchain c (lastof (wpostC c) C R1) (lastof (wpostP c) P R1) (lastof w_dep U R1) R2.
Proof.
  induction R1 as [|x R1 IH]; intros R2 C P U; cbn [app rchain]; [tauto|].
  rewrite IH. unfold lastof. cbn [fold_left]. tauto.
Qed.

Lemma rchain_last c R C P U o :
  rchain c C P U (R ++ [o]) -> rstep_ok c (lastof (wpostC c) C R) (lastof (wpostP c) P R) (lastof w_dep U R) o.
Proof. intros H. apply rchain_app in H as [_ [H _]]. exact H. Qed.

Lemma rchain_nth c : forall R C P U k o, rchain c C P U R -> nth_error R k = Some o ->
  rstep_ok c (lastof (wpostC c) C (firstn k R)) (lastof (wpostP c) P (firstn k R)) (lastof w_dep U (firstn k R)) o.
Proof.
  induction R as [|x R IH]; intros C P U k o HC Hk; [destruct k; discriminate|].
  destruct HC as [H0 HC]. destruct k as [|k]; cbn in Hk.
  - injection Hk as <-. exact H0.
  - apply (IH _ _ _ k o HC Hk).
Qed.

Definition rv_arr (R : list rsvc) : list (Q * pkt) := map (fun o => (w_arr o, w_pkt o)) R.
Definition rv_head (R : list rsvc) : list (Q * pkt) := map (fun o => (w_head o, w_pkt o)) R.
Definition rv_dep (R : list rsvc) : list (Q * pkt) := map (fun o => (w_dep o, w_pkt o)) R.
Definition rv_col (R : list rsvc) : list colour := map w_col R.

(* ---------------------------------------------------------------------------------------------- *)
(* traces                                                                                          *)
Definition rev_puts (e : rev) : list (Q * pkt) :=
  match e with (t, RPut p, _) => [(t, p)] | _ => [] end.
Definition r_is_head (o : rout) : list pkt := match o with RHead p => [p] | _ => [] end.
Definition r_is_fwd (o : rout) : list pkt := match o with RFwd p _ => [p] | _ => [] end.
Definition r_is_col (o : rout) : list colour := match o with RFwd _ col => [col] | _ => [] end.
Definition rev_outs (f : rout -> list pkt) (e : rev) : list (Q * pkt) :=
  let '(t, _, outs) := e in map (fun p => (t, p)) (flat_map f outs).
Definition rev_cols (e : rev) : list colour := let '(_, _, outs) := e in flat_map r_is_col outs.

(* timed arrivals, head instants, departures of a trace, and the colours of the departures in order *)
Definition rputs (h : list rev) : list (Q * pkt) := flat_map rev_puts h.
Definition rheads (h : list rev) : list (Q * pkt) := flat_map (rev_outs r_is_head) h.
Definition rfwds (h : list rev) : list (Q * pkt) := flat_map (rev_outs r_is_fwd) h.
Definition rcols (h : list rev) : list colour := flat_map rev_cols h.

Lemma rputs_snoc h t a outs : rputs (h ++ [(t, a, outs)]) = rputs h ++ match a with RPut p => [(t, p)] | _ => [] end.
Proof. unfold rputs. rewrite flat_map_snoc. reflexivity. Qed.
Lemma rheads_snoc h t (a : raction) outs : rheads (h ++ [(t, a, outs)]) = rheads h ++ map (fun p => (t, p)) (flat_map r_is_head outs).
Proof. unfold rheads. rewrite flat_map_snoc. reflexivity. Qed.
Lemma rfwds_snoc h t (a : raction) outs : rfwds (h ++ [(t, a, outs)]) = rfwds h ++ map (fun p => (t, p)) (flat_map r_is_fwd outs).
Proof. unfold rfwds. rewrite flat_map_snoc. reflexivity. Qed.
Lemma rcols_snoc h (t : Q) (a : raction) outs : rcols (h ++ [(t, a, outs)]) = rcols h ++ flat_map r_is_col outs.
Proof. unfold rcols. rewrite flat_map_snoc. reflexivity. Qed.

Lemma tr_forward_inv s p col s' o :
  tr_forward s p col = Some (s', o) ->
  exists q, sq_get fifo_pop (rq s) = Some q /\ o = [RFwd p col] /\
    s' = {| rnow := rnow s; rq := q; rstarted := rstarted s; lc := lc s; lp := lp s; rut := rut s;
            rphase_ := RIdle; rrecv := rrecv s; rsent := (rsent s + 1)%Z |}.
Proof.
  unfold tr_forward. destruct (sq_get fifo_pop (rq s)) as [q|]; [|discriminate].
  intros H. injection H as <- <-. eauto.
Qed.

(* the packet has to wait: for peak tokens (red), or without PIR for committed tokens (yellow) *)
Definition tr_waits (c : trcfg) (c1 p1 size : Q) : Prop :=
  match pk c with Some _ => p1 < size | None => c1 < size end.

Lemma tr_waited c h c1 p1 size d : tr_waits c c1 p1 size ->
  tr_colour c c1 p1 size = match pk c with Some _ => Red | None => Yellow end /\
  tr_postC c h c1 p1 size d == match pk c with Some _ => refill (cbs c) (cir c) c1 h d | None => 0 end /\
  tr_postP c p1 size == match pk c with Some _ => 0 | None => p1 end.
Proof.
  unfold tr_waits, tr_colour, tr_postC, tr_postP, post. destruct (pk c) as [[pir pbs]|]; intros Hw.
  - destruct (Qlt_le_dec p1 size); [|lra]. repeat split; reflexivity.
  - destruct (Qlt_le_dec c1 size); [|lra]. repeat split; reflexivity.
Qed.

Lemma tr_get_spec c s s' outs :
  tr_act true true c s RGet = Some (s', outs) ->
  exists a p q, rphase_ s = RIdle /\ sq_take (rq s) = Some ((a, p), q) /\ rstarted s = true /\
    let c1 := Qred (refill (cbs c) (cir c) (lc s) (rut s) (rnow s)) in
    let p1 := match pk c with Some (pir, pbs) => Qred (refill pbs pir (lp s) (rut s) (rnow s)) | None => lp s end in
    let d := tr_dep c (rnow s) c1 p1 (sz p) in
    (tr_waits c c1 p1 (sz p) /\ outs = [RHead p] /\ exists dl, dl == d /\
       s' = {| rnow := rnow s; rq := q; rstarted := true; lc := c1; lp := p1; rut := rnow s;
               rphase_ := match pk c with Some _ => RWaitPeak p dl | None => RWaitCommit p dl end;
               rrecv := rrecv s; rsent := rsent s |})
    \/ (exists q' lc' lp', sq_get fifo_pop q = Some q' /\ outs = [RHead p; RFwd p (tr_colour c c1 p1 (sz p))] /\
          s' = {| rnow := rnow s; rq := q'; rstarted := true; lc := lc'; lp := lp'; rut := rnow s;
                  rphase_ := RIdle; rrecv := rrecv s; rsent := (rsent s + 1)%Z |} /\
          d == rnow s /\ lc' == tr_postC c (rnow s) c1 p1 (sz p) d /\ lp' == tr_postP c p1 (sz p)).
Proof.
  destruct s as [nw q0 st lc_ lp_ ut ph nr ns]. cbn [tr_act rphase_ rq rstarted lc lp rut rnow rrecv rsent]. intros H.
  destruct ph; try discriminate. destruct (sq_take q0) as [[[a p] q]|]; [|discriminate].
  destruct st; [|discriminate]. cbn [negb] in H. exists a, p, q. repeat (split; [reflexivity|]).
  unfold tr_waits, tr_dep, tr_colour, tr_postC, tr_postP, release, post, tr_forward in *. cbn [rq] in H.
  destruct (pk c) as [[pir pbs]|].
  - destruct (Qlt_le_dec (Qred (refill pbs pir lp_ ut nw)) (sz p)) as [Hr|Hr].
    + left. apply some_pair_inv in H as [<- <-]. split; [exact Hr|]. split; [reflexivity|].
      eexists. split; [apply Qred_correct|reflexivity].
    + right. destruct (Qlt_le_dec (Qred (refill (cbs c) (cir c) lc_ ut nw)) (sz p)) as [Hy|Hy];
        (destruct (sq_get fifo_pop q) as [q'|]; [|discriminate]); apply some_pair_inv in H as [<- <-];
        eexists _, _, _; do 4 (split; [reflexivity|]); split; cbn [lc lp]; rewrite ?Qred_correct; reflexivity.
  - destruct (Qlt_le_dec (Qred (refill (cbs c) (cir c) lc_ ut nw)) (sz p)) as [Hy|Hy].
    + left. apply some_pair_inv in H as [<- <-]. split; [exact Hy|]. split; [reflexivity|].
      eexists. split; [apply Qred_correct|reflexivity].
    + right. destruct (sq_get fifo_pop q) as [q'|]; [|discriminate]. apply some_pair_inv in H as [<- <-].
      eexists _, _, _. do 4 (split; [reflexivity|]). split; cbn [lc lp]; rewrite ?Qred_correct; reflexivity.
Qed.

Definition tr_busy (s : trtb) : option (pkt * Q) :=
  match rphase_ s with RIdle => None | RWaitPeak p dl => Some (p, dl) | RWaitCommit p dl => Some (p, dl) end.

Definition tr_view (s : trtb) : srv :=
  {| s_now := rnow s; s_q := rq s; s_started := rstarted s; s_busy := tr_busy s; s_recv := rrecv s; s_sent := rsent s |}.

Definition tr_P0 (c : trcfg) : Q := match pk c with Some (_, pbs) => pbs | None => 0 end.

Section Invariant.
  Variable c : trcfg.
  Variable t0 : Q.
  Hypothesis Hcir : 0 < cir c.
  Hypothesis Hpir : forall pir pbs, pk c = Some (pir, pbs) -> 0 < pir.

  Notation CC := (lastof (wpostC c) (cbs c)).
  Notation PP := (lastof (wpostP c) (tr_P0 c)).
  Notation UU := (lastof w_dep t0).

  Lemma dep_pir pir pbs h c1 p1 size : pk c = Some (pir, pbs) -> tr_dep c h c1 p1 size = release pir h p1 size.
  Proof. intros E. unfold tr_dep. rewrite E. reflexivity. Qed.
  Lemma dep_nopir h c1 p1 size : pk c = None -> tr_dep c h c1 p1 size = release (cir c) h c1 size.
  Proof. intros E. unfold tr_dep. rewrite E. reflexivity. Qed.

  Lemma tr_dep_ge h c1 p1 size : h <= tr_dep c h c1 p1 size.
  Proof. unfold tr_dep. destruct (pk c) as [[pir pbs]|] eqn:E; apply release_ge; eauto. Qed.

  (* the buckets' own part: between packets the levels are what the recurrence hands on; during a wait (for
     peak tokens with PIR, for committed tokens without) they are the levels found at the head *)
  Definition rwait_inv (s : trtb) (dl : Q) (o : rsvc) : Prop :=
    w_dep o == dl /\ tr_waits c (w_c o) (w_p o) (wsize o) /\ lc s == w_c o /\ lp s == w_p o /\ rut s == w_head o.

  Definition rlvl_inv (s : trtb) (Rd : list rsvc) (cur : option rsvc) : Prop :=
    match rphase_ s, cur with
    | RIdle, None => lc s == CC Rd /\ lp s == PP Rd /\ rut s == UU Rd
    | RWaitPeak _ dl, Some o => pk c <> None /\ rwait_inv s dl o
    | RWaitCommit _ dl, Some o => pk c = None /\ rwait_inv s dl o
    | _, _ => False
    end.

  (* [P H Cs F]: the timed put() calls and head instants, the colours and the timed departures so far *)
  Record RInv (s : trtb) (P H : list (Q * pkt)) (Cs : list colour) (F : list (Q * pkt))
              (Rd : list rsvc) (cur : option rsvc) : Prop := {
    rinv_srv : SInv w_pkt w_arr w_head w_dep t0 (tr_view s) P H F Rd cur;
    rinv_chain : rchain c (cbs c) (tr_P0 c) t0 (Rd ++ olist cur);
    rinv_ut : rut s <= rnow s;
    rinv_cols : Cs = rv_col Rd;
    rinv_lvl : rlvl_inv s Rd cur
  }.

  Definition RInv_tr (s : trtb) (h : list rev) : list rsvc -> option rsvc -> Prop :=
    RInv s (rputs h) (rheads h) (rcols h) (rfwds h).

  Lemma RInv_init : RInv_tr (tr0 true c t0) [] [] None.
  Proof.
    constructor; cbn.
    - apply SInv_init.
    - exact I.
    - lra.
    - reflexivity.
    - repeat split; reflexivity.
  Qed.

  Ltac trace_snoc :=
    unfold RInv_tr; rewrite rputs_snoc, rheads_snoc, rfwds_snoc, rcols_snoc;
    cbn [flat_map map app r_is_head r_is_fwd r_is_col rnow]; rewrite ?app_nil_r.

  Lemma RInv_forward s p dl o q' lc' lp' P H Cs F Rd :
    SInv w_pkt w_arr w_head w_dep t0
         {| s_now := rnow s; s_q := rq s; s_started := rstarted s; s_busy := Some (p, dl); s_recv := rrecv s;
            s_sent := rsent s |} P H F Rd (Some o) ->
    rchain c (cbs c) (tr_P0 c) t0 (Rd ++ [o]) -> Cs = rv_col Rd ->
    w_dep o == rnow s -> sq_get fifo_pop (rq s) = Some q' -> lc' == wpostC c o -> lp' == wpostP c o ->
    RInv {| rnow := rnow s; rq := q'; rstarted := rstarted s; lc := lc'; lp := lp'; rut := rnow s; rphase_ := RIdle;
            rrecv := rrecv s; rsent := (rsent s + 1)%Z |}
         P H (Cs ++ [w_col o]) (F ++ [(rnow s, p)]) (Rd ++ [o]) None.
  Proof.
    intros S C Cl Ed Hq Elc Elp. constructor.
    - exact (SInv_forward _ p dl o q' S eq_refl Ed Hq).
    - cbn [olist]. rewrite app_nil_r. exact C.
    - apply Qle_refl.
    - rewrite Cl. unfold rv_col. rewrite map_app. reflexivity.
    - unfold rlvl_inv. cbn [rphase_ lc lp rut]. rewrite !lastof_snoc. repeat split; [exact Elc|exact Elp|symmetry; exact Ed].
  Qed.

  Lemma rstep_timer s h Rd cur s' outs :
    RInv_tr s h Rd cur -> tr_act true true c s RTimer = Some (s', outs) ->
    exists Rd' cur', RInv_tr s' (h ++ [(rnow s', RTimer, outs)]) Rd' cur'.
  Proof.
    intros [S C U Cl L] H. destruct s as [nw q st lc_ lp_ ut ph nr ns].
    cbn [tr_act rphase_ rq rstarted lc lp rut rnow rrecv rsent] in H.
    unfold rlvl_inv, rwait_inv in L. cbn [rphase_ lc lp rut rnow] in *.
    destruct ph as [|p dl|p dl]; [discriminate| |]; (destruct (Qeq_bool dl nw) eqn:Edl; [|discriminate]);
      apply Qeq_bool_eq in Edl; destruct (SInv_busy S eq_refl) as (o & -> & _);
      destruct L as (Pk & Pd & Pw & Pl & Pp & Pu); apply tr_forward_inv in H as (q' & Hq & -> & ->);
      destruct (tr_waited c (w_head o) _ _ _ (w_dep o) Pw) as (Ec & EC & EP);
      pose proof (rchain_last _ _ _ _ _ _ C) as (_ & _ & _ & K4 & _);
      exists (Rd ++ [o]), None; trace_snoc.
    - destruct (pk c) as [[pir pbs]|]; [|congruence]. rewrite <- Ec, <- K4.
      refine (RInv_forward _ p dl o q' _ _ _ _ _ _ _ S C Cl _ Hq _ _); cbn [rnow lc lp rut];
        unfold wpostC, wpostP; rewrite ?EC, ?EP; [lra| |reflexivity].
      rewrite Qred_correct, Pl, Pu, Pd, Edl. reflexivity.
    - rewrite Pk in *. rewrite <- Ec, <- K4.
      refine (RInv_forward _ p dl o q' _ _ _ _ _ _ _ S C Cl _ Hq _ _); cbn [rnow lc lp rut];
        unfold wpostC, wpostP; rewrite ?EC, ?EP; [lra|reflexivity|exact Pp].
  Qed.

  Lemma rstep_get s h Rd cur s' outs :
    RInv_tr s h Rd cur -> tr_act true true c s RGet = Some (s', outs) ->
    exists Rd' cur', RInv_tr s' (h ++ [(rnow s', RGet, outs)]) Rd' cur'.
  Proof.
    intros [S C U Cl L] H. apply tr_get_spec in H as (a & p & q & Eph & Et & Es & H).
    destruct s as [nw q0 st lc_ lp_ ut ph nr ns]. unfold rlvl_inv in L. cbn [rphase_ rq rstarted lc lp rut rnow rrecv rsent] in *.
    subst ph st.
    destruct (SInv_take _ a p q S eq_refl eq_refl Et) as (-> & _ & _ & Hs & _ & K). cbn [s_now tr_view rnow] in Hs, K.
    destruct L as (Pl & Pp & Pu). cbn [olist] in C. rewrite app_nil_r in C.
    set (c1 := Qred (refill (cbs c) (cir c) lc_ ut nw)) in *.
    set (p1 := match pk c with Some (pir, pbs) => Qred (refill pbs pir lp_ ut nw) | None => lp_ end) in *.
    (* the service: head instant and levels as the code has them, colour and departure as the recurrence says *)
    set (o := {| w_pkt := p; w_arr := a; w_head := nw; w_c := c1; w_p := p1; w_dep := tr_dep c nw c1 p1 (sz p);
                 w_col := tr_colour c c1 p1 (sz p) |}).
    assert (HC : rchain c (cbs c) (tr_P0 c) t0 (Rd ++ [o])).
    { apply rchain_app. split; [exact C|]. split; [|exact I]. split; [exact Hs|].
      split; [unfold o, c1; cbn [w_c w_head]; rewrite Qred_correct, Pl, Pu; reflexivity|].
      split; [|split; reflexivity].
      unfold o, p1. cbn [w_p w_head]. destruct (pk c) as [[pir pbs]|]; [rewrite Qred_correct, Pp, Pu; reflexivity|exact Pp]. }
    destruct H as [(Hw & -> & dl & Edl & ->)|(q' & lc' & lp' & Hq & -> & -> & Ed & Elc & Elp)]; trace_snoc.
    - exists Rd, (Some o). pose proof (tr_dep_ge nw c1 p1 (sz p)) as Hge.
      constructor; [|exact HC|apply Qle_refl|exact Cl|].
      + pose proof (K o dl eq_refl eq_refl (Qeq_refl _)) as K'. destruct (pk c); apply K'; lra.
      + assert (X : forall s0, lc s0 = c1 -> lp s0 = p1 -> rut s0 = nw -> rwait_inv s0 dl o).
        { intros s0 E1 E2 E3. unfold rwait_inv. rewrite E1, E2, E3. split; [symmetry; exact Edl|]. split; [exact Hw|]. repeat split; reflexivity. }
        unfold rlvl_inv. cbn [rphase_]. destruct (pk c); (split; [|apply X; reflexivity]); [discriminate|reflexivity].
    - exists (Rd ++ [o]), None.
      exact (RInv_forward {| rnow := nw; rq := q; rstarted := true; lc := c1; lp := p1; rut := nw; rphase_ := RIdle; rrecv := nr;
                             rsent := ns |} p nw o q' lc' lp' _ _ _ _ _ (K o nw eq_refl eq_refl (Qeq_refl _) (Qle_refl _)) HC Cl Ed Hq Elc Elp).
  Qed.

  Lemma rstep_inv s h Rd cur a s' outs :
    RInv_tr s h Rd cur -> tr_act true true c s a = Some (s', outs) ->
    exists Rd' cur', RInv_tr s' (h ++ [(rnow s', a, outs)]) Rd' cur'.
  Proof.
    intros HI H. destruct a as [p| | | | |t]; [| | |eapply rstep_get; eauto|eapply rstep_timer; eauto|];
      exists Rd, cur; destruct HI as [S C U Cl L]; destruct s as [nw q st lc_ lp_ ut ph nr ns]; cbn [tr_act] in H;
      cbn [rphase_ rq rstarted lc lp rut rnow rrecv rsent] in *.
    - injection H as <- <-. trace_snoc. constructor; [exact (SInv_put _ p S)|exact C|exact U|exact Cl|exact L].
    - destruct st; [discriminate|]. destruct (sq_get fifo_pop q) as [q'|] eqn:E; [|discriminate]. injection H as <- <-.
      trace_snoc. constructor; [exact (SInv_start _ q' S eq_refl E)|exact C|exact U|exact Cl|exact L].
    - destruct (sq_cb fifo_pop q) as [q'|] eqn:E; [|discriminate]. injection H as <- <-.
      trace_snoc. constructor; [exact (SInv_cb _ q' S E)|exact C|exact U|exact Cl|exact L].
    - destruct (tr_urgent _) eqn:Ug; [discriminate|]. destruct (Qlt_le_dec nw t) as [Hlt|]; [|discriminate].
      unfold tr_urgent in Ug. cbn [rstarted rq] in Ug.
      apply orb_false_iff in Ug as [Ug _]. apply orb_false_iff in Ug as [Us Uq]. apply negb_false_iff in Us.
      assert (Hdl : match tr_busy {| rnow := nw; rq := q; rstarted := st; lc := lc_; lp := lp_; rut := ut; rphase_ := ph;
                                     rrecv := nr; rsent := ns |} with Some (_, dl) => t <= dl | None => True end
                    /\ s' = {| rnow := t; rq := q; rstarted := st; lc := lc_; lp := lp_; rut := ut; rphase_ := ph;
                               rrecv := nr; rsent := ns |} /\ outs = []).
      { destruct ph as [|p dl|p dl]; [|destruct (Qle_bool t dl) eqn:El; [apply Qle_bool_iff in El|discriminate]..];
          injection H as <- <-; cbn; auto. }
      destruct Hdl as (Hdl & -> & ->). trace_snoc.
      constructor; [exact (SInv_advance _ t S Us Uq (Qlt_le_weak _ _ Hlt) Hdl)|exact C|cbn; lra|exact Cl|exact L].
  Qed.

  Lemma rrun_inv : forall acts s h Rd cur s' tr,
    RInv_tr s h Rd cur -> tr_run true true c s acts = Some (s', tr) -> exists Rd' cur', RInv_tr s' (h ++ tr) Rd' cur'.
  Proof.
    induction acts as [|a acts IH]; intros s h Rd cur s' tr HI H; cbn [tr_run] in H.
    - injection H as <- <-. rewrite app_nil_r. eauto.
    - destruct (tr_act true true c s a) as [[s1 outs]|] eqn:Ea; [|discriminate].
      destruct (tr_run true true c s1 acts) as [[s2 tr1]|] eqn:Er; [|discriminate].
      injection H as <- <-.
      destruct (rstep_inv _ _ _ _ _ _ _ HI Ea) as (R1 & c1 & HI1).
      destruct (IH _ _ _ _ _ _ HI1 Er) as (R2 & c2 & HI2).
      exists R2, c2. rewrite <- app_assoc in HI2. exact HI2.
  Qed.

  Theorem rreachable_inv acts s tr :
    tr_run true true c (tr0 true c t0) acts = Some (s, tr) -> exists Rd cur, RInv_tr s tr Rd cur.
  Proof. intros H. apply (rrun_inv acts (tr0 true c t0) [] [] None s tr RInv_init H). Qed.
End Invariant.

Arguments rinv_srv {c t0 s P H Cs F Rd cur}.
Arguments rinv_chain {c t0 s P H Cs F Rd cur}.
Arguments rinv_cols {c t0 s P H Cs F Rd cur}.
Arguments rinv_lvl {c t0 s P H Cs F Rd cur}.

(* ---------------------------------------------------------------------------------------------- *)
(* the theorems                                                                                     *)

Definition tr_matches (s : trtb) (tr : list rev) (R : list rsvc) : Prop :=
  tpe (rheads tr) (rv_head R) /\
  match rphase_ s with
  | RIdle => tpe (rfwds tr) (rv_dep R) /\ rcols tr = rv_col R
  | RWaitPeak p dl =>
      exists R' o, R = R' ++ [o] /\ w_pkt o = p /\ w_dep o == dl /\ rnow s <= dl /\
                   tpe (rfwds tr) (rv_dep R') /\ rcols tr = rv_col R'
  | RWaitCommit p dl =>
      exists R' o, R = R' ++ [o] /\ w_pkt o = p /\ w_dep o == dl /\ rnow s <= dl /\
                   tpe (rfwds tr) (rv_dep R') /\ rcols tr = rv_col R'
  end.

Lemma RInv_matches c t0 s tr Rd cur : RInv_tr c t0 s tr Rd cur -> tr_matches s tr (Rd ++ olist cur).
Proof.
  intros [S _ _ Cl L]. split; [exact (si_heads S)|]. pose proof (si_fwds S) as HF. unfold rlvl_inv, rwait_inv in L.
  assert (B : s_busy (tr_view s) = tr_busy s) by reflexivity. unfold tr_busy in B.
  destruct (rphase_ s) as [|p dl|p dl].
  - destruct cur; [contradiction|]. cbn [olist]. rewrite app_nil_r. auto.
  - destruct (SInv_busy S B) as (o & -> & Hp & _ & _ & Hn). exists Rd, o. tauto.
  - destruct (SInv_busy S B) as (o & -> & Hp & _ & _ & Hn). exists Rd, o. tauto.
Qed.

Definition trwf (c : trcfg) : Prop := 0 < cir c /\ forall pir pbs, pk c = Some (pir, pbs) -> 0 < pir.

Lemma trtb_reach c t0 acts s tr :
  trwf c -> tr_run true true c (tr0 true c t0) acts = Some (s, tr) -> exists Rd cur, RInv_tr c t0 s tr Rd cur.
Proof. intros [Hc Hp]. apply rreachable_inv; assumption. Qed.

(* THE RECURRENCE: every admissible execution of the repaired two-rate bucket is an instance of it *)
Theorem trtb_spec c t0 acts s tr :
  trwf c -> tr_run true true c (tr0 true c t0) acts = Some (s, tr) ->
  exists R, rchain c (cbs c) (tr_P0 c) t0 R
    /\ rputs tr = rv_arr R ++ sq_held (rq s)
    /\ tr_matches s tr R.
Proof.
  intros Hwf H. destruct (trtb_reach _ _ _ _ _ Hwf H) as (Rd & cur & HI). exists (Rd ++ olist cur).
  split; [exact (rinv_chain HI)|]. split; [exact (si_fifo (rinv_srv HI))|]. apply (RInv_matches _ _ _ _ _ _ HI).
Qed.

Lemma RInv_fwd_nth c t0 s tr Rd cur k t p : RInv_tr c t0 s tr Rd cur -> nth_error (rfwds tr) k = Some (t, p) ->
  exists o, nth_error Rd k = Some o /\ w_pkt o = p /\ t == w_dep o /\ nth_error (rcols tr) k = Some (w_col o) /\
    rstep_ok c (lastof (wpostC c) (cbs c) (firstn k Rd)) (lastof (wpostP c) (tr_P0 c) (firstn k Rd))
             (lastof w_dep t0 (firstn k Rd)) o.
Proof.
  intros HI Hk. destruct (SInv_nth_fwd (rinv_srv HI) Hk) as (o & Ho & Hp & Et). exists o.
  repeat (split; [assumption|]). split.
  - rewrite (rinv_cols HI). unfold rv_col. rewrite nth_error_map, Ho. reflexivity.
  - exact (rchain_nth c _ _ _ _ _ _ (proj1 (proj1 (rchain_app c _ _ _ _ _) (rinv_chain HI))) Ho).
Qed.

(* ---- the colour rule ---- *)
Lemma tr_colour_iff c c1 p1 size :
  (tr_colour c c1 p1 size = Green <-> size <= c1 /\ (pk c <> None -> size <= p1)) /\
  (tr_colour c c1 p1 size = Yellow <-> c1 < size /\ (pk c <> None -> size <= p1)) /\
  (tr_colour c c1 p1 size = Red <-> pk c <> None /\ p1 < size).
Proof.
  unfold tr_colour. destruct (pk c) as [[pir pbs]|].
  - assert (NN : Some (pir, pbs) <> @None (Q * Q)) by discriminate.
    destruct (Qlt_le_dec p1 size); [|destruct (Qlt_le_dec c1 size)]; intuition (discriminate || lra).
  - destruct (Qlt_le_dec c1 size); intuition (discriminate || lra || congruence).
Qed.

(* the k-th departure: its colour is decided by the two bucket levels (c1, p1) found on arrival at the head,
   green iff all configured buckets cover it, yellow iff only the committed tokens are short, red iff the
   peak tokens are short; it leaves at the head instant unless it has to wait for the shaping bucket *)
Theorem trtb_colour_iff c t0 acts s tr :
  trwf c -> tr_run true true c (tr0 true c t0) acts = Some (s, tr) ->
  forall k t p, nth_error (rfwds tr) k = Some (t, p) ->
    exists col h c1 p1,
      nth_error (rcols tr) k = Some col /\
      (exists h', nth_error (rheads tr) k = Some (h', p) /\ h' == h) /\
      c1 <= cbs c /\
      (k = 0%nat -> c1 == refill (cbs c) (cir c) (cbs c) t0 h /\
                   forall pir pbs, pk c = Some (pir, pbs) -> p1 == refill pbs pir pbs t0 h) /\
      (col = Green <-> sz p <= c1 /\ (pk c <> None -> sz p <= p1)) /\
      (col = Yellow <-> c1 < sz p /\ (pk c <> None -> sz p <= p1)) /\
      (col = Red <-> pk c <> None /\ p1 < sz p) /\
      t == tr_dep c h c1 p1 (sz p) /\ h <= t /\
      (pk c <> None -> col <> Red -> t == h) /\ (col = Red -> h < t).
Proof.
  intros Hwf Hrun k t p Hk. pose proof Hwf as [Hc Hp].
  destruct (trtb_reach _ _ _ _ _ Hwf Hrun) as (Rd & cur & HI).
  destruct (RInv_fwd_nth _ _ _ _ _ _ _ _ _ HI Hk) as (o & Ho & <- & Et & Hcol & K1 & K2 & K3 & K4 & K5).
  exists (w_col o), (w_head o), (w_c o), (w_p o).
  split; [exact Hcol|]. split; [exact (proj2 (SInv_nth_svc (rinv_srv HI) (nth_error_app_l _ (olist cur) _ _ Ho)))|].
  split; [rewrite K2; apply refill_le_B|]. split.
  { intros ->. cbn [firstn lastof fold_left] in K2, K3. split; [exact K2|].
    intros pir pbs E. unfold tr_P0 in K3. rewrite E in K3. exact K3. }
  unfold wsize in *. rewrite K4.
  destruct (tr_colour_iff c (w_c o) (w_p o) (sz (w_pkt o))) as (G & Y & Rd').
  split; [exact G|]. split; [exact Y|]. split; [exact Rd'|]. split; [lra|].
  pose proof (tr_dep_ge c Hc Hp (w_head o) (w_c o) (w_p o) (sz (w_pkt o))) as Hge.
  split; [lra|]. unfold tr_dep in *. split.
  - intros Hpk Hnr. destruct (pk c) as [[pir pbs]|] eqn:E; [|congruence]. rewrite Et, K5.
    apply release_nowait. destruct (Qlt_le_dec (w_p o) (sz (w_pkt o))) as [Hlt|Hle]; [|exact Hle].
    exfalso. apply Hnr. apply Rd'. split; [discriminate|exact Hlt].
  - intros Hred. apply Rd' in Hred as [Hpk Hlt]. destruct (pk c) as [[pir pbs]|] eqn:E; [|congruence].
    rewrite (release_wait _ _ _ _ Hlt) in K5. pose proof (tokwait_pos pir _ _ (Hp _ _ eq_refl) Hlt). lra.
Qed.

(* ---- conformance against the shaping bucket, and of the green traffic against (CIR, CBS) ---- *)
Section Budgets.
  Variable c : trcfg.
  Hypothesis Hc : 0 < cir c.
  Hypothesis Hp : forall pir pbs, pk c = Some (pir, pbs) -> 0 < pir.

  Lemma rstep_dep_ge C P U o : rstep_ok c C P U o -> U <= w_head o /\ w_head o <= w_dep o.
  Proof.
    intros (K1 & K2 & K3 & K4 & K5). split.
    - rewrite K1. apply Q.le_max_r.
    - rewrite K5. apply tr_dep_ge; assumption.
  Qed.

  (* what one service takes from the bucket it is shaped against *)
  Definition shape_rate : Q := match pk c with Some (pir, _) => pir | None => cir c end.
  Definition shape_size : Q := match pk c with Some (_, pbs) => pbs | None => cbs c end.
  Definition shape_left (o : rsvc) : Q := match pk c with Some _ => wpostP c o | None => wpostC c o end.
  Definition shape_item (o : rsvc) : bitem := (wsize o, w_dep o, shape_left o).
  Definition shape_L (C P : Q) : Q := match pk c with Some _ => P | None => C end.

  Lemma shape_rate_pos : 0 < shape_rate.
  Proof. unfold shape_rate. destruct (pk c) as [[pir pbs]|] eqn:E; eauto. Qed.

  (* the shaping bucket is an ordinary token bucket: the service waits for its tokens and takes them *)
  Lemma shape_step C P U o : rstep_ok c C P U o ->
    wsize o + shape_left o <= shape_L C P + fill shape_rate (w_dep o - U) /\ 0 <= shape_left o /\ U <= w_dep o /\
    wsize o + shape_left o <= Qmax shape_size (wsize o).
  Proof.
    intros Hok. pose proof (rstep_dep_ge _ _ _ _ Hok) as [Hd1 Hd2]. destruct Hok as (K1 & K2 & K3 & K4 & K5).
    unfold shape_left, shape_L, shape_rate, shape_size, wpostP, wpostC, tr_postP, tr_postC, tr_dep in *.
    destruct (pk c) as [[pir pbs]|] eqn:E.
    - split; [|split; [apply post_nonneg|split; [lra|apply post_cap; rewrite K3; apply refill_le_B]]].
      apply (wait_budget _ _ _ (w_head o) _ _ _ (Hp _ _ eq_refl)); [rewrite K3; apply refill_le_fill|exact K5].
    - split; [|split; [apply post_nonneg|split; [lra|apply post_cap; rewrite K2; apply refill_le_B]]].
      apply (wait_budget _ _ _ (w_head o) _ _ _ Hc); [rewrite K2; apply refill_le_fill|exact K5].
  Qed.

  Lemma shape_bchain : forall R C P U, rchain c C P U R -> bchain shape_rate (shape_L C P) U (map shape_item R).
  Proof.
    induction R as [|o R IH]; intros C P U HC; cbn [map bchain]; [exact I|].
    cbn [rchain] in HC. destruct HC as [H0 HC]. destruct (shape_step _ _ _ _ H0) as (S1 & S2 & S3 & _).
    unfold shape_item at 1. split; [exact S1|]. split; [exact S2|]. split; [exact S3|].
    replace (shape_left o) with (shape_L (wpostC c o) (wpostP c o)) by (unfold shape_L, shape_left; destruct (pk c); reflexivity).
    apply IH. exact HC.
  Qed.

  (* green bytes against the committed bucket *)
  Hypothesis Hcbs : 0 <= cbs c.

  Definition gsize (o : rsvc) : Q := match w_col o with Green => wsize o | _ => 0 end.
  Definition green_item (o : rsvc) : bitem := (gsize o, w_dep o, wpostC c o).

  (* only a green packet takes committed tokens; the bucket never holds more than CBS, and fills on while a red
     packet waits *)
  Lemma green_step C P U o : 0 <= C -> rstep_ok c C P U o ->
    gsize o + wpostC c o <= C + fill (cir c) (w_dep o - U) /\ 0 <= wpostC c o /\ U <= w_dep o /\
    gsize o + wpostC c o <= cbs c.
  Proof.
    intros HC0 Hok. pose proof (rstep_dep_ge _ _ _ _ Hok) as [Hd1 Hd2]. destruct Hok as (K1 & K2 & K3 & K4 & K5).
    pose proof (refill_le_fill (cbs c) (cir c) C U (w_head o)) as Hf. rewrite <- K2 in Hf.
    pose proof (refill_le_B (cbs c) (cir c) C U (w_head o)) as Hb. rewrite <- K2 in Hb.
    assert (Hc1 : 0 <= w_c o) by (rewrite K2; apply refill_nonneg; auto).
    pose proof (fill_nonneg (cir c) (w_dep o - w_head o) Hc) as Hfn.
    rewrite (fill_split (cir c) U (w_head o) (w_dep o)).
    unfold gsize, wpostC, tr_postC. rewrite K4. unfold tr_colour.
    destruct (pk c) as [[pir pbs]|] eqn:Epk.
    - destruct (Qlt_le_dec (w_p o) (wsize o)) as [Hr|Hr].
      + (* red *)
        pose proof (refill_le_fill (cbs c) (cir c) (w_c o) (w_head o) (w_dep o)) as Hf2.
        pose proof (refill_le_B (cbs c) (cir c) (w_c o) (w_head o) (w_dep o)) as Hb2.
        pose proof (refill_nonneg (cbs c) (cir c) (w_c o) (w_head o) (w_dep o) Hc Hcbs Hc1 Hd2) as Hn2.
        repeat split; lra.
      + destruct (Qlt_le_dec (w_c o) (wsize o)) as [Hy|Hy]; repeat split; lra.
    - unfold post. destruct (Qlt_le_dec (w_c o) (wsize o)) as [Hy|Hy]; repeat split; lra.
  Qed.

  Lemma green_bchain : forall R C P U, 0 <= C -> rchain c C P U R -> bchain (cir c) C U (map green_item R).
  Proof.
    induction R as [|o R IH]; intros C P U HC0 HC; cbn [map bchain]; [exact I|].
    cbn [rchain] in HC. destruct HC as [H0 HC]. destruct (green_step _ _ _ _ HC0 H0) as (S1 & S2 & S3 & _).
    unfold green_item at 1. split; [exact S1|]. split; [exact S2|]. split; [exact S3|].
    eapply IH; eauto.
  Qed.

  Lemma rchain_nonneg : forall R C P U o, 0 <= C -> rchain c C P U R -> In o R ->
    exists C' P' U', 0 <= C' /\ rstep_ok c C' P' U' o.
  Proof.
    induction R as [|o0 R IH]; intros C P U o HC0 HC Hin; [destruct Hin|].
    cbn [rchain] in HC. destruct HC as [H0 HC]. destruct Hin as [<-|Hin]; [eauto 6|].
    destruct (green_step _ _ _ _ HC0 H0) as (_ & S2 & _). eapply IH; eauto.
  Qed.
End Budgets.

(* all departures conform to the shaping bucket: (PIR, PBS), or (CIR, CBS) when no PIR is given *)
Theorem trtb_shapes_against c t0 acts s tr :
  trwf c -> tr_run true true c (tr0 true c t0) acts = Some (s, tr) ->
  forall i j ti pi tj pj, (i <= j)%nat ->
    nth_error (rfwds tr) i = Some (ti, pi) -> nth_error (rfwds tr) j = Some (tj, pj) ->
    ti <= tj /\
    bytes (slice i j (rfwds tr)) <= Qmax (shape_size c) (sz pi) + fill (shape_rate c) (tj - ti).
Proof.
  intros Hwf Hrun i j ti pi tj pj Hij Hi Hj. pose proof Hwf as [Hc Hp].
  destruct (trtb_reach _ _ _ _ _ Hwf Hrun) as (Rd & cur & HI).
  destruct (RInv_fwd_nth _ _ _ _ _ _ _ _ _ HI Hi) as (oi & Hoi & <- & Ei & _ & Hok).
  destruct (RInv_fwd_nth _ _ _ _ _ _ _ _ _ HI Hj) as (oj & Hoj & _ & Ej & _).
  pose proof (shape_bchain c Hc Hp _ _ _ _ (proj1 (proj1 (rchain_app c _ _ _ _ _) (rinv_chain HI)))) as HB.
  destruct (bchain_window _ _ _ _ i j _ _ _ _ _ _ HB Hij (map_nth_error (shape_item c) _ _ Hoi)
              (map_nth_error (shape_item c) _ _ Hoj)) as [W Wt].
  destruct (shape_step c Hc Hp _ _ _ _ Hok) as (_ & _ & _ & Hcap).
  rewrite slice_map in W. unfold shape_item in W. rewrite wsum_map in W.
  rewrite (bytes_slice w_pkt w_dep _ _ _ _ (si_fwds (rinv_srv HI))), Ei, Ej. unfold wsize in *. split; lra.
Qed.

(* green bytes among timed departures and their colours *)
Fixpoint gbytes (l : list (Q * pkt)) (cs : list colour) : Q :=
  match l, cs with
  | x :: l', Green :: cs' => sz (snd x) + gbytes l' cs'
  | _ :: l', _ :: cs' => gbytes l' cs'
  | _, _ => 0
  end.

Lemma gbytes_services : forall R l, map snd l = map w_pkt R -> gbytes l (map w_col R) == qsum (map gsize R).
Proof.
  induction R as [|o R IH]; intros l Hl; destruct l as [|x l]; try discriminate; [reflexivity|].
  cbn [map] in Hl. injection Hl as Hx Hl. specialize (IH _ Hl).
  change (qsum (map gsize (o :: R))) with (gsize o + qsum (map gsize R)).
  unfold gsize at 1, wsize. rewrite <- Hx. cbn [map gbytes]. destruct (w_col o); rewrite IH; lra.
Qed.

(* over any window of departures i..j the green bytes are within CBS + CIR * (t_j - t_i) / 8 *)
Theorem trtb_green_conforms c t0 acts s tr :
  trwf c -> 0 <= cbs c -> tr_run true true c (tr0 true c t0) acts = Some (s, tr) ->
  forall i j ti pi tj pj, (i <= j)%nat ->
    nth_error (rfwds tr) i = Some (ti, pi) -> nth_error (rfwds tr) j = Some (tj, pj) ->
    gbytes (slice i j (rfwds tr)) (slice i j (rcols tr)) <= cbs c + fill (cir c) (tj - ti).
Proof.
  intros Hwf Hcbs Hrun i j ti pi tj pj Hij Hi Hj. pose proof Hwf as [Hc Hp].
  destruct (trtb_reach _ _ _ _ _ Hwf Hrun) as (Rd & cur & HI).
  destruct (RInv_fwd_nth _ _ _ _ _ _ _ _ _ HI Hi) as (oi & Hoi & _ & Ei & _).
  destruct (RInv_fwd_nth _ _ _ _ _ _ _ _ _ HI Hj) as (oj & Hoj & _ & Ej & _).
  pose proof (proj1 (proj1 (rchain_app c _ _ _ _ _) (rinv_chain HI))) as HC.
  pose proof (green_bchain c Hc Hp Hcbs _ _ _ _ Hcbs HC) as HB.
  destruct (bchain_window _ _ _ _ i j _ _ _ _ _ _ HB Hij (map_nth_error (green_item c) _ _ Hoi)
              (map_nth_error (green_item c) _ _ Hoj)) as [W Wt].
  destruct (rchain_nonneg c Hc Hp Hcbs _ _ _ _ oi Hcbs HC (nth_error_In _ _ Hoi)) as (C' & P' & U' & HC0 & Hok).
  destruct (green_step c Hc Hp Hcbs _ _ _ _ HC0 Hok) as (_ & _ & _ & Hcap).
  assert (Eg : gbytes (slice i j (rfwds tr)) (slice i j (rcols tr)) == qsum (map gsize (slice i j Rd))).
  { rewrite (rinv_cols HI). unfold rv_col. rewrite slice_map. apply gbytes_services.
    rewrite <- slice_map, (teq_pkts _ _ (si_fwds (rinv_srv HI))), (timed_pkts w_pkt), slice_map. reflexivity. }
  rewrite Eg. rewrite slice_map in W. unfold green_item in W. rewrite wsum_map in W.
  rewrite Ei, Ej. lra.
Qed.

(* ---- conservation, FIFO, losslessness ---- *)
Definition tr_in_service (s : trtb) : list pkt :=
  match rphase_ s with RIdle => [] | RWaitPeak p _ => [p] | RWaitCommit p _ => [p] end.
Definition tr_held (s : trtb) : list pkt := tr_in_service s ++ map snd (sq_held (rq s)).

Lemma tr_in_service_view s : tr_in_service s = match s_busy (tr_view s) with Some (p, _) => [p] | None => [] end.
Proof. unfold tr_in_service. cbn. unfold tr_busy. destruct (rphase_ s); reflexivity. Qed.

Theorem trtb_conserves c t0 acts s tr :
  trwf c -> tr_run true true c (tr0 true c t0) acts = Some (s, tr) ->
  map snd (rputs tr) = map snd (rfwds tr) ++ tr_held s.
Proof.
  intros Hwf Hrun. destruct (trtb_reach _ _ _ _ _ Hwf Hrun) as (Rd & cur & HI).
  rewrite (SInv_conserves (rinv_srv HI)), (SInv_cur (rinv_srv HI)), <- tr_in_service_view. reflexivity.
Qed.

Theorem trtb_fifo c t0 acts s tr :
  trwf c -> tr_run true true c (tr0 true c t0) acts = Some (s, tr) ->
  exists rest, map snd (rputs tr) = map snd (rfwds tr) ++ rest.
Proof. intros Hwf Hrun. exists (tr_held s). eapply trtb_conserves; eauto. Qed.

Theorem trtb_counters c t0 acts s tr :
  trwf c -> tr_run true true c (tr0 true c t0) acts = Some (s, tr) ->
  rrecv s = Z.of_nat (length (rputs tr)) /\ rsent s = Z.of_nat (length (rfwds tr)) /\
  length (rcols tr) = length (rfwds tr).
Proof.
  intros Hwf Hrun. destruct (trtb_reach _ _ _ _ _ Hwf Hrun) as (Rd & cur & HI).
  split; [apply (si_recv (rinv_srv HI))|]. split; [apply (si_sent (rinv_srv HI))|].
  rewrite (rinv_cols HI), (Forall2_len _ _ _ (si_fwds (rinv_srv HI))), (timed_length w_pkt). apply map_length.
Qed.

Definition tr_quiescent (s : trtb) : Prop := tr_urgent s = false /\ rphase_ s = RIdle.

Lemma tr_quiescent_idle c t0 s P H Cs F Rd cur : RInv c t0 s P H Cs F Rd cur -> tr_quiescent s ->
  cur = None /\ sq_held (rq s) = [].
Proof.
  intros HI [U Hp]. unfold tr_urgent in U. apply orb_false_iff in U as [U _]. apply orb_false_iff in U as [Us Uq].
  apply negb_false_iff in Us.
  assert (B : s_busy (tr_view s) = None) by (cbn; unfold tr_busy; rewrite Hp; reflexivity).
  exact (SInv_quiet_held (rinv_srv HI) B Us Uq).
Qed.

Lemma tr_quiescent_held_empty c t0 s P H Cs F Rd cur : RInv c t0 s P H Cs F Rd cur -> tr_quiescent s -> tr_held s = [].
Proof.
  intros HI HQ. destruct (tr_quiescent_idle _ _ _ _ _ _ _ _ _ HI HQ) as [_ Hh]. destruct HQ as [_ Hp].
  unfold tr_held, tr_in_service. rewrite Hp, Hh. reflexivity.
Qed.

Lemma trtb_quiescent_empty c t0 acts s tr :
  trwf c -> tr_run true true c (tr0 true c t0) acts = Some (s, tr) -> tr_quiescent s -> tr_held s = [].
Proof.
  intros Hwf Hrun HQ. destruct (trtb_reach _ _ _ _ _ Hwf Hrun) as (Rd & cur & HI).
  exact (tr_quiescent_held_empty _ _ _ _ _ _ _ _ _ HI HQ).
Qed.

Theorem trtb_lossless c t0 acts s tr :
  trwf c -> tr_run true true c (tr0 true c t0) acts = Some (s, tr) -> tr_quiescent s ->
  map snd (rfwds tr) = map snd (rputs tr).
Proof.
  intros Hwf Hrun HQ.
  rewrite (trtb_conserves _ _ _ _ _ Hwf Hrun), (trtb_quiescent_empty _ _ _ _ _ Hwf Hrun HQ), app_nil_r. reflexivity.
Qed.

(* ---------------------------------------------------------------------------------------------- *)
(* the recurrence as a function of the arrivals (what ref_trtb of props/part_bucket.py computes) *)
Fixpoint tr_rec (c : trcfg) (C P U : Q) (arr : list (Q * pkt)) : list rsvc :=
  match arr with
  | [] => []
  | (a, p) :: rest =>
      let h := Qmax a U in
      let c1 := refill (cbs c) (cir c) C U h in
      let p1 := match pk c with Some (pir, pbs) => refill pbs pir P U h | None => P end in
      let o := {| w_pkt := p; w_arr := a; w_head := h; w_c := c1; w_p := p1;
                  w_dep := tr_dep c h c1 p1 (sz p); w_col := tr_colour c c1 p1 (sz p) |} in
      o :: tr_rec c (wpostC c o) (wpostP c o) (w_dep o) rest
  end.

Definition rec_cols (c : trcfg) (t0 : Q) (arr : list (Q * pkt)) : list colour :=
  map w_col (tr_rec c (cbs c) (tr_P0 c) t0 arr).
Definition rec_deps (c : trcfg) (t0 : Q) (arr : list (Q * pkt)) : list (Q * pkt) :=
  rv_dep (tr_rec c (cbs c) (tr_P0 c) t0 arr).

Lemma tr_colour_compat c c1 c1' p1 p1' size : c1 == c1' -> p1 == p1' -> tr_colour c c1 p1 size = tr_colour c c1' p1' size.
Proof.
  intros Ec Ep. unfold tr_colour. destruct (pk c).
  - destruct (Qlt_le_dec p1 size), (Qlt_le_dec p1' size); try lra; [reflexivity|].
    destruct (Qlt_le_dec c1 size), (Qlt_le_dec c1' size); try lra; reflexivity.
  - destruct (Qlt_le_dec c1 size), (Qlt_le_dec c1' size); try lra; reflexivity.
Qed.

Lemma tr_dep_compat c h h' c1 c1' p1 p1' size :
  h == h' -> c1 == c1' -> p1 == p1' -> tr_dep c h c1 p1 size == tr_dep c h' c1' p1' size.
Proof. intros Eh Ec Ep. unfold tr_dep. destruct (pk c) as [[pir pbs]|]; apply release_compat; assumption. Qed.

Lemma tr_postC_compat c h h' c1 c1' p1 p1' size d d' :
  h == h' -> c1 == c1' -> p1 == p1' -> d == d' -> tr_postC c h c1 p1 size d == tr_postC c h' c1' p1' size d'.
Proof.
  intros Eh Ec Ep Ed. unfold tr_postC. destruct (pk c).
  - destruct (Qlt_le_dec p1 size), (Qlt_le_dec p1' size); try lra; [rewrite Eh, Ec, Ed; reflexivity|].
    destruct (Qlt_le_dec c1 size), (Qlt_le_dec c1' size); lra.
  - apply post_compat. exact Ec.
Qed.

Lemma tr_postP_compat c p1 p1' size : p1 == p1' -> tr_postP c p1 size == tr_postP c p1' size.
Proof. intros Ep. unfold tr_postP. destruct (pk c); [apply post_compat|]; exact Ep. Qed.

(* a chain IS the recurrence on its own arrivals: same packets and colours, same instants and levels (==) *)
Definition rsvc_eq (o o' : rsvc) : Prop :=
  w_pkt o = w_pkt o' /\ w_arr o == w_arr o' /\ w_head o == w_head o' /\ w_c o == w_c o' /\ w_p o == w_p o' /\
  w_dep o == w_dep o' /\ w_col o = w_col o'.

Lemma rchain_rec c : forall R C P U C' P' U',
  rchain c C P U R -> C == C' -> P == P' -> U == U' -> Forall2 rsvc_eq R (tr_rec c C' P' U' (rv_arr R)).
Proof.
  induction R as [|o R IH]; intros C P U C' P' U' HC EC EP EU; cbn [rv_arr map tr_rec]; [constructor|].
  cbn [rchain] in HC. destruct HC as [(K1 & K2 & K3 & K4 & K5) HC].
  set (h' := Qmax (w_arr o) U'). set (c1' := refill (cbs c) (cir c) C' U' h').
  set (p1' := match pk c with Some (pir, pbs) => refill pbs pir P' U' h' | None => P' end).
  assert (Eh : w_head o == h') by (rewrite K1, EU; reflexivity).
  assert (Ec1 : w_c o == c1') by (rewrite K2, EC, EU, Eh; reflexivity).
  assert (Ep1 : w_p o == p1').
  { rewrite K3. unfold p1'. destruct (pk c) as [[pir pbs]|]; [rewrite EP, EU, Eh; reflexivity|exact EP]. }
  assert (Ed : w_dep o == tr_dep c h' c1' p1' (sz (w_pkt o))) by (rewrite K5; apply tr_dep_compat; assumption).
  constructor.
  - unfold rsvc_eq. cbn [w_pkt w_arr w_head w_c w_p w_dep w_col]. repeat split; try assumption; try reflexivity.
    rewrite K4. apply tr_colour_compat; assumption.
  - apply (IH _ _ _ _ _ _ HC); unfold wpostC, wpostP, wsize; cbn [w_pkt w_arr w_head w_c w_p w_dep w_col].
    + apply tr_postC_compat; assumption.
    + apply tr_postP_compat; assumption.
    + exact Ed.
Qed.

Lemma tr_rec_app c : forall l1 l2 C P U,
  exists C' P' U', tr_rec c C P U (l1 ++ l2) = tr_rec c C P U l1 ++ tr_rec c C' P' U' l2.
Proof.
  induction l1 as [|[a p] l1 IH]; intros l2 C P U; cbn [app tr_rec]; [eauto|].
  edestruct IH as (C' & P' & U' & E). exists C', P', U'. rewrite E. reflexivity.
Qed.

Lemma Forall2_rsvc_cols R R' : Forall2 rsvc_eq R R' -> map w_col R = map w_col R'.
Proof. induction 1 as [|o o' R R' (_ & _ & _ & _ & _ & _ & E) _ IH]; cbn; [reflexivity|]. rewrite E, IH. reflexivity. Qed.

Lemma Forall2_rsvc_deps R R' : Forall2 rsvc_eq R R' -> teq (rv_dep R) (rv_dep R').
Proof.
  induction 1 as [|o o' R R' (E1 & _ & _ & _ & _ & E6 & _) _ IH]; cbn; [constructor|].
  constructor; [cbn; split; assumption|exact IH].
Qed.

(* the colours and departures observed are, in order, those the recurrence computes from the arrivals *)
Theorem trtb_is_recurrence c t0 acts s tr :
  trwf c -> tr_run true true c (tr0 true c t0) acts = Some (s, tr) ->
  exists n, rcols tr = firstn n (rec_cols c t0 (rputs tr)) /\ tpe (rfwds tr) (firstn n (rec_deps c t0 (rputs tr))) /\
            n = length (rfwds tr) /\ (tr_quiescent s -> n = length (rputs tr)).
Proof.
  intros Hwf Hrun. destruct (trtb_reach _ _ _ _ _ Hwf Hrun) as (Rd & cur & HI).
  pose proof (si_fwds (rinv_srv HI)) as HD. pose proof (si_fifo (rinv_srv HI)) as Hf.
  exists (length Rd).
  pose proof (rchain_rec c _ _ _ _ _ _ _ (proj1 (proj1 (rchain_app c _ _ _ _ _) (rinv_chain HI)))
                (Qeq_refl _) (Qeq_refl _) (Qeq_refl _)) as HF.
  (* the recurrence on all the arrivals starts with the recurrence on those of the services done *)
  assert (Hf' : rputs tr = rv_arr Rd ++ (rv_arr (olist cur) ++ sq_held (rq s))).
  { rewrite Hf. unfold timed, rv_arr. rewrite map_app, <- app_assoc. reflexivity. }
  destruct (tr_rec_app c (rv_arr Rd) (rv_arr (olist cur) ++ sq_held (rq s)) (cbs c) (tr_P0 c) t0) as (C' & P' & U' & Erec).
  rewrite <- Hf' in Erec.
  assert (Hlen : length (tr_rec c (cbs c) (tr_P0 c) t0 (rv_arr Rd)) = length Rd).
  { symmetry. eapply Forall2_len; eauto. }
  split; [|split; [|split]].
  - unfold rec_cols. rewrite Erec, map_app, firstn_app, map_length, Hlen, Nat.sub_diag. cbn [firstn].
    rewrite app_nil_r, firstn_all2 by (rewrite map_length; lia).
    rewrite (rinv_cols HI). apply Forall2_rsvc_cols. exact HF.
  - unfold rec_deps, rv_dep. rewrite Erec, map_app, firstn_app, map_length, Hlen, Nat.sub_diag. cbn [firstn].
    rewrite app_nil_r, firstn_all2 by (rewrite map_length; lia).
    exact (teq_trans _ _ _ HD (Forall2_rsvc_deps _ _ HF)).
  - rewrite (Forall2_len _ _ _ HD). symmetry. apply (timed_length w_pkt).
  - intros HQ. destruct (tr_quiescent_idle _ _ _ _ _ _ _ _ _ HI HQ) as [-> Hh].
    rewrite Hf', Hh, !app_nil_r. symmetry. apply map_length.
Qed.

(* ---------------------------------------------------------------------------------------------- *)
(* the code as found, replayed inside Coq                                                          *)

Lemma trwf_pir cir0 cbs0 pir pbs : 0 < cir0 -> 0 < pir -> trwf {| cir := cir0; cbs := cbs0; pk := Some (pir, pbs) |}.
Proof. intros H1 H2. split; [exact H1|]. cbn. intros a b E. injection E as <- _. exact H2. Qed.

(* as found, a yellow packet emptied the committed bucket: CIR 1024 / CBS 256 / PIR 1024 / PBS 2048, 256-byte
   packets at 10, 11 and 25/2: the third is marked yellow although both buckets cover it *)
Definition ry_c : trcfg := {| cir := 1024; cbs := 256; pk := Some (1024, 2048) |}.
Definition ry_p (i : nat) : pkt := mkp i (Z.of_nat i + 1) 0 256 0.
Definition ry_acts : list raction :=
  [RInit; RAdvance 10; RPut (ry_p 0); RStoreCb; RGet; RAdvance 11; RPut (ry_p 1); RStoreCb; RGet;
   RAdvance (25 # 2); RPut (ry_p 2); RStoreCb; RGet].

Theorem trtb_yellow_refuted_before_fix :
  exists c t0 acts s tr, trwf c /\ tr_run false true c (tr0 true c t0) acts = Some (s, tr) /\ tr_quiescent s /\
    rcols tr = [Green; Yellow; Yellow] /\ rec_cols c t0 (rputs tr) = [Green; Yellow; Green].
Proof.
  destruct (run_facts (tr_run false true ry_c (tr0 true ry_c 0) ry_acts) (fun _ _ => True)) as (s & tr & E & _); [vm_compute; exact I|].
  exists ry_c, 0, ry_acts, s, tr. split; [apply trwf_pir; reflexivity|]. split; [exact E|].
  repeat split; pattern s, tr; apply (run_elim _ _ _ _ E); vm_compute; reflexivity.
Qed.

(* as found, the committed bucket lost the tokens of a red packet's wait: CIR 4096 / CBS 2048 / PIR 16384 /
   PBS 2048, burst 100, 100, 1500, 1500 at 2 (the last one red, waiting 9/16 s), then 1500 at 19/4: marked
   yellow (1468 committed tokens) instead of green (1756) *)
Definition rr_c : trcfg := {| cir := 4096; cbs := 2048; pk := Some (16384, 2048) |}.
Definition rr_p (i : nat) (size : Z) : pkt := mkp i (Z.of_nat i + 1) 0 size 0.
Definition rr_acts : list raction :=
  [RInit; RAdvance 2; RPut (rr_p 0 100); RPut (rr_p 1 100); RPut (rr_p 2 1500); RPut (rr_p 3 1500);
   RStoreCb; RStoreCb; RStoreCb; RStoreCb; RGet; RGet; RGet; RGet; RAdvance (41 # 16); RTimer;
   RAdvance (19 # 4); RPut (rr_p 4 1500); RStoreCb; RGet].

Theorem trtb_red_refuted_before_fix :
  exists c t0 acts s tr, trwf c /\ tr_run true false c (tr0 true c t0) acts = Some (s, tr) /\ tr_quiescent s /\
    rcols tr = [Green; Green; Green; Red; Yellow] /\ rec_cols c t0 (rputs tr) = [Green; Green; Green; Red; Green].
Proof.
  destruct (run_facts (tr_run true false rr_c (tr0 true rr_c 0) rr_acts) (fun _ _ => True)) as (s & tr & E & _); [vm_compute; exact I|].
  exists rr_c, 0, rr_acts, s, tr. split; [apply trwf_pir; reflexivity|]. split; [exact E|].
  repeat split; pattern s, tr; apply (run_elim _ _ _ _ E); vm_compute; reflexivity.
Qed.

(* as found, update_time started at 0.0: with a negative initial time the full buckets are drained by the
   first refill and the first packet, which both buckets cover, waits *)
Theorem trtb_initially_full_refuted_before_fix :
  exists c t0 acts s tr p, trwf c /\ tr_run true true c (tr0 false c t0) acts = Some (s, tr) /\
    rputs tr = [(-1 # 2, p)] /\ sz p <= cbs c /\ sz p <= tr_P0 c /\ rfwds tr = [(-7 # 64, p)] /\ rcols tr = [Red].
Proof.
  set (p := mkp 2 3 0 100 (3 # 2)). set (c := {| cir := 1024; cbs := 100; pk := Some (2048, 128) |}).
  set (acts := [RInit; RAdvance (-1 # 2); RPut p; RStoreCb; RGet; RAdvance (-7 # 64); RTimer]).
  destruct (run_facts (tr_run true true c (tr0 false c (-2)) acts) (fun _ _ => True)) as (s & tr & E & _); [vm_compute; exact I|].
  exists c, (-2), acts, s, tr, p. split; [apply trwf_pir; reflexivity|]. split; [exact E|].
  split; [pattern s, tr; apply (run_elim _ _ _ _ E); vm_compute; reflexivity|].
  split; [vm_compute; discriminate|]. split; [vm_compute; discriminate|].
  split; pattern s, tr; apply (run_elim _ _ _ _ E); vm_compute; reflexivity.
Qed.

(* ---------------------------------------------------------------------------------------------- *)
(* non-vacuity: CIR 1024 (128 B/s) / CBS 256 / PIR 2048 (256 B/s) / PBS 512; three 256-byte packets at 0:
   green (both buckets cover it), yellow (committed bucket empty, peak bucket covers it), red (peak bucket
   empty: waits 256/256 = 1 s); a 128-byte packet at 2 finds 256 committed and 256 peak tokens: green *)
Definition rx_c : trcfg := {| cir := 1024; cbs := 256; pk := Some (2048, 512) |}.
Definition rx_p (i : nat) (size : Z) : pkt := mkp i (Z.of_nat i + 1) 0 size 0.
Definition rx_acts : list raction :=
  [RInit; RPut (rx_p 0 256); RPut (rx_p 1 256); RPut (rx_p 2 256); RStoreCb; RStoreCb; RStoreCb; RGet; RGet; RGet;
   RAdvance 1; RTimer; RAdvance 2; RPut (rx_p 3 128); RStoreCb; RGet].

Example trtb_example :
  exists s tr, tr_run true true rx_c (tr0 true rx_c 0) rx_acts = Some (s, tr) /\
    rcols tr = [Green; Yellow; Red; Green] /\
    rfwds tr = [(0, rx_p 0 256); (0, rx_p 1 256); (1, rx_p 2 256); (2, rx_p 3 128)] /\
    rec_cols rx_c 0 (rputs tr) = [Green; Yellow; Red; Green] /\
    tr_quiescent s /\ trwf rx_c /\ 0 <= cbs rx_c.
Proof.
  destruct (run_facts (tr_run true true rx_c (tr0 true rx_c 0) rx_acts) (fun _ _ => True)) as (s & tr & E & _); [vm_compute; exact I|].
  exists s, tr. split; [exact E|].
  do 4 (split; [pattern s, tr; apply (run_elim _ _ _ _ E); vm_compute; try split; reflexivity|]).
  split; [apply trwf_pir; reflexivity|]. vm_compute. discriminate.
Qed.

(* ---------------------------------------------------------------------------------------------- *)
(* C08 share: per-flow order, and "drained"                                                        *)

Theorem trtb_flow_fifo c t0 acts s tr :
  trwf c -> tr_run true true c (tr0 true c t0) acts = Some (s, tr) ->
  forall f, exists rest, of_flow f (map snd (rputs tr)) = of_flow f (map snd (rfwds tr)) ++ rest.
Proof.
  intros Hwf Hrun f. rewrite (trtb_conserves _ _ _ _ _ Hwf Hrun). unfold of_flow. rewrite filter_app. eauto.
Qed.

Lemma tr_no_internal_step_quiet c t0 s P H Cs F Rd cur :
  RInv c t0 s P H Cs F Rd cur -> rphase_ s = RIdle ->
  (forall a, (forall p, a <> RPut p) -> (forall t, a <> RAdvance t) -> tr_act true true c s a = None) ->
  tr_urgent s = false.
Proof.
  intros HI Hph Hno. pose proof (rinv_srv HI) as S.
  assert (B : s_busy (tr_view s) = None) by (cbn; unfold tr_busy; rewrite Hph; reflexivity).
  destruct (SInv_stuck S B) as [Hs Uq]; cbn [tr_view s_started s_q] in *.
  - intros Es. assert (X : tr_act true true c s RInit = None) by (apply Hno; intros; discriminate).
    cbn [tr_act] in X. rewrite Es in X. destruct (sq_get fifo_pop (rq s)); [discriminate|reflexivity].
  - assert (X : tr_act true true c s RStoreCb = None) by (apply Hno; intros; discriminate).
    cbn [tr_act] in X. destruct (sq_cb fifo_pop (rq s)); [discriminate|reflexivity].
  - (* a granted packet could be taken: every branch of RGet is admissible once the get can be reissued *)
    intros [a0 p] Gx.
    assert (X : tr_act true true c s RGet = None) by (apply Hno; intros; discriminate).
    unfold tr_act in X. rewrite Hph in X. destruct (sq_take_enabled _ _ _ Gx) as [q Hq]. rewrite Hq in X.
    destruct (negb (rstarted s)) eqn:Es.
    + destruct (SInv_idle S B) as [_ Bi]. unfold idle_ok in Bi. cbn [tr_view s_started s_q] in Bi.
      apply negb_true_iff in Es. rewrite Es in Bi. destruct Bi as (Pg & _). congruence.
    + pose proof (sq_take_inv _ _ _ _ Hq) as (_ & _ & _ & Gn).
      destruct (sq_get_enabled _ fifo_pop _ Gn) as [q' Hq'].
      unfold tr_forward in X. cbn [rq] in X. rewrite Hq' in X.
      destruct (pk c) as [[pir pbs]|].
      * destruct (Qlt_le_dec _ _); [discriminate|]. destruct (Qlt_le_dec _ _); discriminate.
      * destruct (Qlt_le_dec _ _); discriminate.
  - unfold tr_urgent, tr_due. rewrite Hs, Hph, Uq. reflexivity.
Qed.

Theorem trtb_drained c t0 acts s tr :
  trwf c -> tr_run true true c (tr0 true c t0) acts = Some (s, tr) ->
  rphase_ s = RIdle ->
  (forall a, (forall p, a <> RPut p) -> (forall t, a <> RAdvance t) -> tr_act true true c s a = None) ->
  tr_held s = [] /\ map snd (rfwds tr) = map snd (rputs tr).
Proof.
  intros Hwf Hrun Hph Hno. destruct (trtb_reach _ _ _ _ _ Hwf Hrun) as (Rd & cur & HI).
  assert (HQ : tr_quiescent s) by (split; [eapply tr_no_internal_step_quiet; eauto|exact Hph]).
  split; [eapply tr_quiescent_held_empty; eauto|eapply trtb_lossless; eauto].
Qed.

(* while a packet waits for tokens its timeout is pending and, when due, the server's step is enabled *)
Theorem trtb_timer_enabled c t0 acts s tr :
  trwf c -> tr_run true true c (tr0 true c t0) acts = Some (s, tr) ->
  forall p dl, rphase_ s = RWaitPeak p dl \/ rphase_ s = RWaitCommit p dl ->
    rnow s <= dl /\ (dl == rnow s -> exists s' o, tr_act true true c s RTimer = Some (s', o)).
Proof.
  intros Hwf Hrun p dl Hph. destruct (trtb_reach _ _ _ _ _ Hwf Hrun) as (Rd & cur & HI).
  assert (B : s_busy (tr_view s) = Some (p, dl)) by (cbn; unfold tr_busy; destruct Hph as [-> | ->]; reflexivity).
  destruct (SInv_busy (rinv_srv HI) B) as (o & _ & _ & _ & Pg & Pn). cbn [tr_view s_q] in Pg.
  split; [exact Pn|]. intros Ed. apply Qeq_bool_iff in Ed. unfold tr_act, tr_forward.
  destruct (sq_get_enabled _ fifo_pop _ Pg) as [q' Hq']. destruct Hph as [Hph|Hph]; rewrite Hph, Ed; cbn [rq]; rewrite Hq'; eauto.
Qed.
