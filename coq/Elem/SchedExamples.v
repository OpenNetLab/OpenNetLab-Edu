(* Concrete admissible executions of the multi-queue schedulers SP, RR and WRR (Elem/SchedBase.v), used by the
   non-vacuity witnesses Props/C12_Examples_MQ.v, Props/C13_Examples.v and Props/C15_Examples_RR.v.  Definitions only (plus
   the generic accessors [mq_state] / [mq_trace]); every packet is 128 bytes at 1024 bit/s, i.e. 1 s per transmission.

   SP  ([spx_acts]): flow2class {0 -> 10, 1 -> 10, 2 -> 11}, priorities {10: 1, 11: 2} (class 11 is the urgent one).
       a0 (flow 0) and a1 (flow 1) arrive at 0; a0 is transmitted 0..1; b0 (flow 2) arrives at 1/2 DURING that
       transmission (not preempted) and overtakes a1 at 1; b1 (flow 2) arrives at 2, exactly when b0 ends, before run()
       resumes: served 2..3; at 3 run() finds class 11 empty and commits to a1; b2 (flow 2) arrives at 3 AFTER that commit
       and before the transmission timer of a1 starts: it is not allowed to displace a1 (3..4) and leaves 4..5.
       Departure order a0 b0 b1 a1 b2.
   RR  ([rrx_acts]): flows [0; 1; 2].  x0, x1 (flow 0), y0 (flow 2) at 0; z0 (flow 1) at 1/2 (class 1 becomes backlogged
       mid-round).  Order x0 z0 y0 x1; the last pass finds classes 1 and 2 empty.
   WRR ([wrx_acts]): weights {0: 3, 1: 1, 2: 1}, same arrivals.  Class 0 may send 3 per visit but holds only 2: the visit
       ends early.  Order x0 x1 z0 y0. *)
From Coq Require Import ZArith QArith List Bool.
From ONL Require Import Elem.Packet Elem.StoreQ Elem.SchedBase Elem.SP Elem.RR Elem.WRR.
Import ListNotations.

Definition mq_state (c : mq_cfg) (acts : list saction) : mq :=
  match mq_run c (mq0 c) acts with Some (s, _) => s | None => mq0 c end.
Definition mq_trace (c : mq_cfg) (acts : list saction) : list tev :=
  match mq_run c (mq0 c) acts with Some (_, tr) => tr | None => [] end.

(* ---------------------------------------------------------------- SP *)
Definition spx_r : Q := 1024.
Definition spx_cm : Z -> Z := cls_of [(0, 10); (1, 10); (2, 11)]%Z.
Definition spx_fl : list Z := [0; 1; 2]%Z.
Definition spx_tbl : list (Z * Z) := [(10, 1); (11, 2)]%Z.
Definition spx_cfg : mq_cfg := sp_cfg true spx_r spx_cm spx_fl spx_tbl.
Definition spx_a0 : pkt := mkp 0 1 0 128 0.
Definition spx_a1 : pkt := mkp 1 2 1 128 0.
Definition spx_b0 : pkt := mkp 2 3 2 128 (1 # 2).
Definition spx_b1 : pkt := mkp 3 4 2 128 2.
Definition spx_b2 : pkt := mkp 4 5 2 128 3.
Definition spx_acts : list saction :=
  [SInit; SPut spx_a0; SPut spx_a1; SStoreCb None; SStoreCb (Some 10%Z); SStoreCb (Some 10%Z);
   SGetDone None; SGetDone (Some 10%Z); SChildInit;                                        (*  0 ..  8 *)
   SAdvance (1 # 2); SPut spx_b0; SStoreCb (Some 11%Z); SAdvance 1;                        (*  9 .. 12 *)
   SChildTimer;                                                                            (* 13 *)
   SChildEnd; SGetDone (Some 11%Z); SChildInit;                                            (* 14 .. 16 *)
   SAdvance 2; SChildTimer; SPut spx_b1; SChildEnd; SStoreCb (Some 11%Z);
   SGetDone (Some 11%Z); SChildInit; SAdvance 3; SChildTimer;                              (* 17 .. 25 *)
   SChildEnd;                                                                              (* 26 *)
   SPut spx_b2; SGetDone (Some 10%Z);                                                      (* 27 .. 28 *)
   SChildInit;                                                                             (* 29 *)
   SStoreCb (Some 11%Z);                                                                   (* 30 *)
   SAdvance 4; SChildTimer; SChildEnd; SGetDone (Some 11%Z); SChildInit; SAdvance 5;
   SChildTimer; SChildEnd].                                                                (* 31 .. 38 *)
Definition spx_state (n : nat) : mq := mq_state spx_cfg (firstn n spx_acts).
Definition spx_trace (n : nat) : list tev := mq_trace spx_cfg (firstn n spx_acts).

(* ---------------------------------------------------------------- RR / WRR *)
Definition rrx_r : Q := 1024.
Definition rrx_fl : list Z := [0; 1; 2]%Z.
Definition rrx_cfg : mq_cfg := rr_cfg rrx_r rrx_fl.
Definition rrx_x0 : pkt := mkp 0 1 0 128 0.
Definition rrx_x1 : pkt := mkp 1 2 0 128 0.
Definition rrx_y0 : pkt := mkp 2 3 2 128 0.
Definition rrx_z0 : pkt := mkp 3 4 1 128 (1 # 2).
Definition rrx_head : list saction :=
  [SInit; SPut rrx_x0; SPut rrx_x1; SPut rrx_y0; SStoreCb None; SStoreCb (Some 0%Z); SStoreCb (Some 0%Z);
   SStoreCb (Some 2%Z); SGetDone None; SGetDone (Some 0%Z); SChildInit;                    (*  0 .. 10 *)
   SAdvance (1 # 2); SPut rrx_z0; SStoreCb (Some 1%Z); SAdvance 1;                         (* 11 .. 14 *)
   SChildTimer].                                                                           (* 15 *)
Definition rrx_acts : list saction :=
  rrx_head ++
  [SChildEnd; SGetDone (Some 1%Z); SChildInit;                                             (* 16 .. 18 *)
   SAdvance 2; SChildTimer; SChildEnd; SGetDone (Some 2%Z); SChildInit;                    (* 19 .. 23 *)
   SAdvance 3; SChildTimer; SChildEnd; SGetDone (Some 0%Z); SChildInit; SAdvance 4; SChildTimer;   (* 24 .. 30 *)
   SChildEnd].                                                                             (* 31 *)
Definition rrx_state (n : nat) : mq := mq_state rrx_cfg (firstn n rrx_acts).
Definition rrx_trace (n : nat) : list tev := mq_trace rrx_cfg (firstn n rrx_acts).

Definition wrx_r : Q := 1024.
Definition wrx_ws : list (Z * Z) := [(0, 3); (1, 1); (2, 1)]%Z.
Definition wrx_cfg : mq_cfg := wrr_cfg wrx_r wrx_ws.
Definition wrx_acts : list saction :=
  rrx_head ++
  [SChildEnd; SGetDone (Some 0%Z); SChildInit;                                             (* 16 .. 18 *)
   SAdvance 2; SChildTimer; SChildEnd; SGetDone (Some 1%Z); SChildInit;                    (* 19 .. 23 *)
   SAdvance 3; SChildTimer; SChildEnd; SGetDone (Some 2%Z); SChildInit; SAdvance 4; SChildTimer;   (* 24 .. 30 *)
   SChildEnd].                                                                             (* 31 *)
Definition wrx_state (n : nat) : mq := mq_state wrx_cfg (firstn n wrx_acts).
Definition wrx_trace (n : nat) : list tev := mq_trace wrx_cfg (firstn n wrx_acts).
