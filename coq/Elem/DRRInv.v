(* Invariants of the DRR model (Elem/DRR.v): what is held per class, the counters, the control state of
   run(), the wake-up token, the credit; the facts about them that do not depend on a particular action. *)
From Coq Require Import ZArith QArith Qminmax List Bool Lia Lqa.
From ONL Require Import Base.QTools Elem.Packet Elem.StoreQ Elem.StoreQProofs Elem.DRR.
Import ListNotations.
Opaque Qred.

Definition dwf (cfg : dcfg) : Prop :=
  0 < drate cfg /\ dweights cfg <> [] /\ NoDup (dclasses cfg) /\ (forall x, In x (dweights cfg) -> (0 < snd x)%Z).

Definition dcls (cfg : dcfg) (p : pkt) : Z := df2c cfg (flow p).

Definition dtx_l (cfg : dcfg) (d : drr) (c : Z) : list pkt :=
  match dchd d with
  | DCStart p | DCTx p _ => if Z.eqb (dcls cfg p) c then [p] else []
  | _ => []
  end.
Definition dhol_l (d : drr) (c : Z) : list pkt := match dhol d c with Some p => [p] | None => [] end.
Definition dsth (d : drr) (c : Z) : list pkt := map snd (sq_held (dst d c)).
(* packets of class c waiting or in transmission, oldest first *)
Definition dheld (cfg : dcfg) (d : drr) (c : Z) : list pkt := dtx_l cfg d c ++ dhol_l d c ++ dsth d c.
(* the packet already forwarded whose debit is still to come *)
Definition ddone (cfg : dcfg) (d : drr) (c : Z) : Z :=
  match dchd d with DCDone p => if Z.eqb (dcls cfg p) c then 1%Z else 0%Z | _ => 0%Z end.

Definition dvisiting (d : drr) : option Z :=
  match dctrl d with DKGet c _ | DKChild c _ => Some c | _ => None end.

Fixpoint dsum (g : Z -> Z) (l : list Z) : Z := match l with [] => 0%Z | c :: t => (g c + dsum g t)%Z end.
Definition dlen (cfg : dcfg) (d : drr) (c : Z) : Z := Z.of_nat (length (dheld cfg d c)).
Fixpoint dbytes (l : list pkt) : Z := match l with [] => 0%Z | p :: t => (psize p + dbytes t)%Z end.
Definition dof_flow (f : Z) (l : list pkt) : list pkt := filter (fun p => Z.eqb (flow p) f) l.
(* queue_count and queue_byte_size are the same additive measure of the packets of a flow, with weights 1 and size *)
Fixpoint dmeas (w : pkt -> Z) (l : list pkt) : Z := match l with [] => 0%Z | p :: t => (w p + dmeas w t)%Z end.

(* the credit of a class that is not being visited: nothing left, or its parked head is unaffordable *)
Definition dparked_or_zero (d : drr) (c : Z) : Prop :=
  match dhol d c with Some p => ddef d c < inject_Z (psize p) | None => ddef d c == 0 end.

(* the part of the invariant that does not depend on where run() is *)
Record dbase (cfg : dcfg) (d : drr) : Prop := {
  b_cls : forall c p, In p (dheld cfg d c) -> dcls cfg p = c /\ In c (dclasses cfg) /\ (0 < psize p <= dlmax d)%Z;
  b_ccnt : forall c, dccnt d c = (dlen cfg d c + ddone cfg d c)%Z;
  b_qcnt : forall f, dqcnt d f = dmeas (fun _ => 1%Z) (dof_flow f (dheld cfg d (df2c cfg f)));
  b_qbytes : forall f, dqbytes d f = dmeas psize (dof_flow f (dheld cfg d (df2c cfg f)));
  b_total : dtotal d = dsum (dlen cfg d) (dclasses cfg);
  b_lmax : (0 <= dlmax d)%Z;
  b_nostrand : sq_nostrand (dtok d);
  b_def : forall c, 0 <= ddef d c /\ (In c (dclasses cfg) -> ddef d c < dquantum cfg c + inject_Z (dlmax d))
}.
Arguments b_cls {cfg d}.
Arguments b_ccnt {cfg d}.
Arguments b_qcnt {cfg d}.
Arguments b_qbytes {cfg d}.
Arguments b_total {cfg d}.
Arguments b_lmax {cfg d}.
Arguments b_nostrand {cfg d}.
Arguments b_def {cfg d}.

(* the full invariant at action boundaries *)
Definition dsuffix (cfg : dcfg) (l : list Z) : Prop := exists pre, dclasses cfg = pre ++ l.

Definition dchild_ok (cfg : dcfg) (d : drr) (c : Z) (p : pkt) : Prop :=
  dcls cfg p = c /\ inject_Z (psize p) <= ddef d c /\ (0 < psize p <= dlmax d)%Z.

Definition dctl_ok (cfg : dcfg) (d : drr) : Prop :=
  match dctrl d with
  | DKFresh => dchd d = DCNone /\ get (dtok d) = GNone /\ (forall c, get (dst d c) = GNone)
  | DKTok => dchd d = DCNone /\ get (dtok d) <> GNone /\ (forall c, get (dst d c) = GNone)
  | DKGet c rest =>
      dchd d = DCNone /\ get (dtok d) = GNone /\ (exists x, get (dst d c) = GGranted x)
      /\ (forall c', c' <> c -> get (dst d c') = GNone) /\ dhol d c = None /\ dsuffix cfg (c :: rest) /\ 0 < ddef d c
  | DKChild c rest =>
      match dchd d with
      | DCNone => False
      | DCStart p | DCDone p => dchild_ok cfg d c p
      | DCTx p dl => dnow d <= dl /\ dchild_ok cfg d c p
      end
      /\ get (dtok d) = GNone /\ (forall c', get (dst d c') = GNone) /\ dhol d c = None /\ dsuffix cfg (c :: rest)
  end.

Record dinv (cfg : dcfg) (d : drr) : Prop := {
  i_base : dbase cfg d;
  i_ctl : dctl_ok cfg d;
  i_tok : dctrl d = DKTok -> get (dtok d) = GWaiting -> (0 < dtotal d)%Z -> items (dtok d) <> [];
  i_rest : forall c, dvisiting d <> Some c -> dparked_or_zero d c
}.
Arguments i_base {cfg d}.
Arguments i_ctl {cfg d}.
Arguments i_tok {cfg d}.
Arguments i_rest {cfg d}.

(* in the middle of run(): no child, no outstanding get; [vis] = class whose visit is in progress *)
Record dmid (cfg : dcfg) (d : drr) (vis : option Z) : Prop := {
  m_base : dbase cfg d;
  m_chd : dchd d = DCNone;
  m_tok : get (dtok d) = GNone;
  m_get : forall c, get (dst d c) = GNone;
  m_rest : forall c, vis <> Some c -> dparked_or_zero d c;
  m_vis : forall c, vis = Some c ->
          In c (dclasses cfg) /\ ((dccnt d c = 0%Z \/ ddef d c <= 0) -> ddef d c == 0 /\ dhol d c = None)
}.
Arguments m_base {cfg d vis}.
Arguments m_chd {cfg d vis}.
Arguments m_tok {cfg d vis}.
Arguments m_get {cfg d vis}.
Arguments m_rest {cfg d vis}.
Arguments m_vis {cfg d vis}.

Lemma dupd_eq {A} (m : Z -> A) k v : dupd m k v k = v.
Proof. unfold dupd. rewrite Z.eqb_refl. reflexivity. Qed.
Lemma dupd_neq {A} (m : Z -> A) k v g : g <> k -> dupd m k v g = m g.
Proof. unfold dupd. intros H. destruct (Z.eqb_spec g k); [contradiction|reflexivity]. Qed.

Lemma dmemZ_In x l : dmemZ x l = true <-> In x l.
Proof.
  unfold dmemZ. rewrite existsb_exists. split.
  - intros (y & Hy & E). apply Z.eqb_eq in E. subst. exact Hy.
  - intros H. exists x. split; [exact H|apply Z.eqb_refl].
Qed.

Lemma dsum_ext g h l : (forall c, In c l -> g c = h c) -> dsum g l = dsum h l.
Proof.
  induction l as [|c t IH]; cbn; intros H; [reflexivity|].
  rewrite (H c) by (left; reflexivity). rewrite IH; [reflexivity|]. intros x Hx. apply H. right. exact Hx.
Qed.

Lemma dsum_change g h l k :
  NoDup l -> In k l -> (forall c, c <> k -> g c = h c) -> dsum h l = (dsum g l + (h k - g k))%Z.
Proof.
  induction l as [|c t IH]; cbn; intros ND Hin Hext; [destruct Hin|].
  inversion ND as [|? ? Hnot ND']; subst.
  destruct (Z.eq_dec c k) as [->|Hne].
  - rewrite (dsum_ext h g t); [lia|]. intros x Hx. symmetry. apply Hext. intros ->. contradiction.
  - destruct Hin as [E|Hin]; [contradiction|]. rewrite (IH ND' Hin Hext). rewrite (Hext c Hne). lia.
Qed.

Lemma dsum_nonneg g l : (forall c, (0 <= g c)%Z) -> (0 <= dsum g l)%Z.
Proof. induction l; cbn; intros H; [lia|]. specialize (H a) as Ha. specialize (IHl H). lia. Qed.

Lemma dsum_pos_ex g l : (forall c, (0 <= g c)%Z) -> (0 < dsum g l)%Z -> exists c, In c l /\ (0 < g c)%Z.
Proof.
  induction l as [|c t IH]; cbn; intros H Hp; [lia|].
  destruct (Z_lt_dec 0 (g c)) as [Hc|Hc]; [exists c; auto|].
  destruct IH as (x & Hx & Hgx); auto. { specialize (H c). lia. } exists x; auto.
Qed.

Lemma dsum_zero_all g l : (forall c, (0 <= g c)%Z) -> dsum g l = 0%Z -> forall c, In c l -> g c = 0%Z.
Proof.
  induction l as [|x t IH]; cbn; intros H Hs c Hc; [destruct Hc|].
  pose proof (H x). pose proof (dsum_nonneg g t H).
  destruct Hc as [<-|Hc]; [lia|]. apply IH; auto. lia.
Qed.

Lemma dbytes_app a b : dbytes (a ++ b) = (dbytes a + dbytes b)%Z.
Proof. induction a; cbn; [reflexivity|]. rewrite IHa. lia. Qed.

Lemma dof_flow_app f a b : dof_flow f (a ++ b) = dof_flow f a ++ dof_flow f b.
Proof. unfold dof_flow. apply filter_app. Qed.

Lemma dquantum_eq cfg c : dquantum cfg c == inject_Z (1500 * dweight cfg c) / inject_Z (dminw (dweights cfg)).
Proof. unfold dquantum. apply Qred_correct. Qed.

Lemma dfind_weight cfg c : In c (dclasses cfg) ->
  exists x, find (fun x => Z.eqb (fst x) c) (dweights cfg) = Some x /\ In x (dweights cfg) /\ fst x = c.
Proof.
  unfold dclasses. induction (dweights cfg) as [|y t IH]; cbn; intros H; [destruct H|].
  destruct (Z.eqb_spec (fst y) c) as [E|E].
  - exists y. auto.
  - destruct H as [H|H]; [contradiction|]. destruct (IH H) as (x & Hf & Hin & Hx). exists x. auto.
Qed.

Lemma dminw_spec (l : list (Z * Z)) :
  l <> [] -> (exists x, In x l /\ snd x = dminw l) /\ (forall x, In x l -> (dminw l <= snd x)%Z).
Proof.
  destruct l as [|y t]; [contradiction|intros _]. unfold dminw. revert y.
  induction t as [|z t IH]; intros y; cbn [fold_right].
  - split; [exists y; split; [left|]; reflexivity|]. intros x [<-|[]]. lia.
  - destruct (IH y) as ((x & Hx & Ex) & Hle). set (m := fold_right (fun y0 m0 => Z.min (snd y0) m0) (snd y) t) in *. split.
    + destruct (Z.min_spec (snd z) m) as [[_ E]|[_ E]]; rewrite E.
      * exists z. split; [right; left; reflexivity|reflexivity].
      * exists x. split; [|exact Ex]. destruct Hx as [<-|Hx]; [left; reflexivity|right; right; exact Hx].
    + intros w [E|[E|Hw]]; [specialize (Hle w (or_introl E))|subst w|specialize (Hle w (or_intror Hw))]; lia.
Qed.

Lemma dminw_pos cfg : dwf cfg -> (0 < dminw (dweights cfg))%Z.
Proof. intros (_ & Hne & _ & Hpos). destruct (dminw_spec _ Hne) as ((x & Hx & <-) & _). apply Hpos. exact Hx. Qed.

Lemma dminw_le cfg x : In x (dweights cfg) -> (dminw (dweights cfg) <= snd x)%Z.
Proof. intros Hx. apply dminw_spec; [intros E; rewrite E in Hx; destruct Hx|exact Hx]. Qed.

Lemma dweight_pos cfg c : dwf cfg -> In c (dclasses cfg) -> (dminw (dweights cfg) <= dweight cfg c)%Z /\ (0 < dweight cfg c)%Z.
Proof.
  intros Hwf Hc. destruct (dfind_weight cfg c Hc) as (x & Hf & Hin & _).
  unfold dweight. rewrite Hf. split; [apply dminw_le; exact Hin|]. destruct Hwf as (_ & _ & _ & Hpos). apply Hpos. exact Hin.
Qed.

(* every quantum is at least MIN_QUANTUM *)
Lemma dquantum_ge cfg c : dwf cfg -> In c (dclasses cfg) -> 1500 <= dquantum cfg c.
Proof.
  intros Hwf Hc. rewrite dquantum_eq.
  pose proof (dminw_pos cfg Hwf) as Hm. destruct (dweight_pos cfg c Hwf Hc) as [Hle Hw].
  apply Qle_shift_div_l.
  - change 0 with (inject_Z 0). rewrite <- Zlt_Qlt. lia.
  - change 1500 with (inject_Z 1500). rewrite <- inject_Z_mult, <- Zle_Qle. nia.
Qed.

Lemma dquantum_pos cfg c : dwf cfg -> In c (dclasses cfg) -> 0 < dquantum cfg c.
Proof. intros Hwf Hc. pose proof (dquantum_ge cfg c Hwf Hc). lra. Qed.

Lemma dof_flow_cons f p l : dof_flow f (p :: l) = if Z.eqb (flow p) f then p :: dof_flow f l else dof_flow f l.
Proof. reflexivity. Qed.

Lemma dmeas_app w a b : dmeas w (a ++ b) = (dmeas w a + dmeas w b)%Z.
Proof. induction a as [|p a IH]; cbn [dmeas app]; [reflexivity|]. rewrite IH. lia. Qed.

Lemma dmeas_length l : dmeas (fun _ => 1%Z) l = Z.of_nat (length l).
Proof. induction l as [|p l IH]; cbn [dmeas length]; [reflexivity|]. rewrite IH. lia. Qed.

Lemma dmeas_bytes l : dmeas psize l = dbytes l.
Proof. induction l as [|p l IH]; cbn [dmeas dbytes]; [reflexivity|]. rewrite IH. reflexivity. Qed.

(* packet p joins or leaves the list of its class, at either end: the measure of flow f over the list of f's class
   moves by the weight of p iff p is of flow f *)
Lemma dmeas_ins w (f2c : Z -> Z) f p (l l' : list pkt) :
  (f2c f = f2c (flow p) -> l' = l ++ [p] \/ l' = p :: l) -> (f2c f <> f2c (flow p) -> l' = l) ->
  dmeas w (dof_flow f l') = (dmeas w (dof_flow f l) + if Z.eqb f (flow p) then w p else 0)%Z.
Proof.
  intros Hin Hout. destruct (Z.eq_dec (f2c f) (f2c (flow p))) as [E|E].
  - destruct (Hin E) as [-> | ->]; [rewrite dof_flow_app, dmeas_app|]; rewrite dof_flow_cons;
      destruct (Z.eqb_spec (flow p) f), (Z.eqb_spec f (flow p)); try congruence; cbn; lia.
  - rewrite (Hout E). destruct (Z.eqb_spec f (flow p)) as [->|]; [congruence|lia].
Qed.

(* internal moves keep what is held *)
Record dsame (cfg : dcfg) (d d' : drr) : Prop := {
  s_held : forall c, dheld cfg d' c = dheld cfg d c;
  s_qcnt : forall f, dqcnt d' f = dqcnt d f;
  s_qbytes : forall f, dqbytes d' f = dqbytes d f;
  s_total : dtotal d' = dtotal d;
  s_lmax : dlmax d' = dlmax d;
  s_now : dnow d' = dnow d
}.
Arguments s_held {cfg d d'}.
Arguments s_qcnt {cfg d d'}.
Arguments s_qbytes {cfg d d'}.
Arguments s_total {cfg d d'}.
Arguments s_lmax {cfg d d'}.
Arguments s_now {cfg d d'}.

Lemma dsame_refl cfg d : dsame cfg d d.
Proof. constructor; auto. Qed.

Lemma dsame_trans cfg a b c : dsame cfg a b -> dsame cfg b c -> dsame cfg a c.
Proof.
  intros [h1 q1 y1 t1 l1 n1] [h2 q2 y2 t2 l2 n2]. constructor; intros;
    [rewrite h2; apply h1|rewrite q2; apply q1|rewrite y2; apply y1|congruence|congruence|congruence].
Qed.

(* dbase moves along when what is held and the flow counters stay, class_count moves with the packet awaiting its debit
   (both stay, or both lose one when run() resumes after a transmission), and the new credits are within bounds *)
Lemma dbase_transfer cfg d d' :
  dbase cfg d -> dsame cfg d d' -> (forall c, (dccnt d' c - ddone cfg d' c = dccnt d c - ddone cfg d c)%Z) ->
  sq_nostrand (dtok d') ->
  (forall c, 0 <= ddef d' c /\ (In c (dclasses cfg) -> ddef d' c < dquantum cfg c + inject_Z (dlmax d'))) -> dbase cfg d'.
Proof.
  intros [b1 b2 b3 b4 b5 b6 b7 b8] [h q y t l n] Hc Hns Hdef. constructor; auto.
  - intros k p Hp. rewrite h in Hp. rewrite l. apply b1. exact Hp.
  - intros k. unfold dlen. rewrite h. specialize (Hc k). specialize (b2 k). unfold dlen in b2. lia.
  - intros f. rewrite q, h. apply b3.
  - intros f. rewrite y, h. apply b4.
  - rewrite t, b5. apply dsum_ext. intros k _. unfold dlen. rewrite h. reflexivity.
  - rewrite l. exact b6.
Qed.

Lemma dlen_nonneg cfg d c : (0 <= dlen cfg d c)%Z.
Proof. unfold dlen. lia. Qed.

Lemma dlen_pos cfg d c : (0 < dlen cfg d c)%Z <-> dheld cfg d c <> [].
Proof. unfold dlen. destruct (dheld cfg d c); cbn [length]; split; intros H; try discriminate; try lia. contradiction. Qed.

Lemma dbase_total_nonneg cfg d : dbase cfg d -> (0 <= dtotal d)%Z.
Proof. intros B. rewrite (b_total B). apply dsum_nonneg. intros c. apply dlen_nonneg. Qed.

Lemma dheld_outside cfg d c : dbase cfg d -> ~ In c (dclasses cfg) -> dheld cfg d c = [].
Proof.
  intros B Hc. destruct (dheld cfg d c) as [|p t] eqn:E; [reflexivity|].
  exfalso. apply Hc. apply (b_cls B c p). rewrite E. left. reflexivity.
Qed.

Lemma dtotal_pos cfg d : dbase cfg d -> (0 < dtotal d)%Z -> exists c, In c (dclasses cfg) /\ dheld cfg d c <> [].
Proof.
  intros B T. rewrite (b_total B) in T.
  destruct (dsum_pos_ex _ _ (dlen_nonneg cfg d) T) as (c & Hc & Hl). exists c. split; [exact Hc|apply dlen_pos; exact Hl].
Qed.

Lemma dtotal_zero cfg d : dbase cfg d -> dtotal d = 0%Z -> forall c, dheld cfg d c = [].
Proof.
  intros B T c. destruct (in_dec Z.eq_dec c (dclasses cfg)) as [Hin|Hout]; [|apply (dheld_outside cfg d c B Hout)].
  rewrite (b_total B) in T. pose proof (dsum_zero_all _ _ (dlen_nonneg cfg d) T c Hin) as Hz.
  destruct (dheld cfg d c) eqn:E; [reflexivity|]. exfalso. assert (0 < dlen cfg d c)%Z by (apply dlen_pos; rewrite E; discriminate). lia.
Qed.

Lemma dhol_in_held cfg d c p : dhol d c = Some p -> In p (dheld cfg d c).
Proof. intros H. unfold dheld, dhol_l. rewrite H. apply in_or_app. right. left. reflexivity. Qed.

Lemma dmid_ccnt cfg d v c : dmid cfg d v -> dccnt d c = dlen cfg d c.
Proof. intros M. rewrite (b_ccnt (m_base M)). unfold ddone. rewrite (m_chd M). lia. Qed.

Lemma dmid_tx_nil cfg d v c : dmid cfg d v -> dtx_l cfg d c = [].
Proof. intros M. unfold dtx_l. rewrite (m_chd M). reflexivity. Qed.

Lemma dlmax_pos_of_held cfg d c : dbase cfg d -> dheld cfg d c <> [] -> (0 < dlmax d)%Z.
Proof.
  intros B H. destruct (dheld cfg d c) as [|p t] eqn:E; [contradiction|].
  destruct (b_cls B c p) as (_ & _ & H1); [rewrite E; left; reflexivity|lia].
Qed.

Lemma dparked_lt_lmax cfg d c : dbase cfg d -> dparked_or_zero d c -> (0 < dlmax d)%Z -> ddef d c < inject_Z (dlmax d).
Proof.
  intros B P L. unfold dparked_or_zero in P. destruct (dhol d c) as [p|] eqn:E.
  - destruct (b_cls B c p (dhol_in_held cfg d c p E)) as (_ & _ & H1).
    assert (inject_Z (psize p) <= inject_Z (dlmax d)) by (rewrite <- Zle_Qle; lia). lra.
  - rewrite P. change 0 with (inject_Z 0). rewrite <- Zlt_Qlt. exact L.
Qed.

Lemma dsuffix_head cfg c rest : dsuffix cfg (c :: rest) -> In c (dclasses cfg).
Proof. intros (pre & E). rewrite E. apply in_or_app. right. left. reflexivity. Qed.

Lemma dsuffix_tail cfg c rest : dsuffix cfg (c :: rest) -> dsuffix cfg rest.
Proof. intros (pre & E). exists (pre ++ [c]). rewrite <- app_assoc. exact E. Qed.

Lemma dsuffix_all cfg : dsuffix cfg (dclasses cfg).
Proof. exists []. reflexivity. Qed.

Lemma dsuffix_nil cfg : dsuffix cfg [].
Proof. exists (dclasses cfg). symmetry. apply app_nil_r. Qed.

Lemma dctl_get_not_waiting cfg d c : dctl_ok cfg d -> get (dst d c) <> GWaiting.
Proof.
  unfold dctl_ok. destruct (dctrl d) as [| |c0 rest|c0 rest].
  - intros (_ & _ & H). rewrite H. discriminate.
  - intros (_ & _ & H). rewrite H. discriminate.
  - intros (_ & _ & (x & Hx) & Ho & _). destruct (Z.eq_dec c c0) as [->|Hne]; [rewrite Hx|rewrite Ho by exact Hne]; discriminate.
  - intros (_ & _ & H & _). rewrite H. discriminate.
Qed.

Lemma dctl_child cfg d : dctl_ok cfg d -> dchd d <> DCNone ->
  exists c rest, dctrl d = DKChild c rest /\
    match dchd d with
    | DCNone => False
    | DCStart p | DCDone p => dchild_ok cfg d c p
    | DCTx p dl => dnow d <= dl /\ dchild_ok cfg d c p
    end
    /\ get (dtok d) = GNone /\ (forall c', get (dst d c') = GNone) /\ dhol d c = None /\ dsuffix cfg (c :: rest).
Proof.
  unfold dctl_ok. intros C Hn. destruct (dctrl d) as [| |c rest|c rest]; try (destruct C as (C1 & _); contradiction).
  exists c, rest. split; [reflexivity|exact C].
Qed.

Lemma dctl_ok_ext cfg d d' :
  dctl_ok cfg d -> dctrl d' = dctrl d -> dchd d' = dchd d -> (get (dtok d') = GNone <-> get (dtok d) = GNone) ->
  (forall c, get (dst d' c) = get (dst d c)) -> (forall c, dhol d' c = dhol d c) -> (forall c, ddef d' c = ddef d c) ->
  dnow d' = dnow d -> (dlmax d <= dlmax d')%Z -> dctl_ok cfg d'.
Proof.
  unfold dctl_ok, dchild_ok. intros C -> -> Gt Gs Hh Hd -> Hl.
  assert (Gt' : get (dtok d) = GNone -> get (dtok d') = GNone) by apply Gt.
  destruct (dctrl d) as [| |c rest|c rest].
  - destruct C as (C1 & C2 & C3). repeat split; auto. intros k. rewrite Gs. apply C3.
  - destruct C as (C1 & C2 & C3). split; [exact C1|]. split; [intros E; apply C2, Gt, E|]. intros k. rewrite Gs. apply C3.
  - destruct C as (C1 & C2 & (x & Gx) & C4 & C5 & C6 & C7). rewrite Hh, Hd. repeat split; auto.
    + exists x. rewrite Gs. exact Gx.
    + intros k Hk. rewrite Gs. apply C4. exact Hk.
  - destruct C as (C1 & C2 & C3 & C4 & C5). rewrite Hh, Hd. repeat split; auto.
    + destruct (dchd d) as [|p|p dl|p]; [exact C1| | |]; repeat split; try apply C1; lia.
    + intros k. rewrite Gs. apply C3.
Qed.

Lemma dinv_mid cfg d : dinv cfg d -> dchd d = DCNone -> get (dtok d) = GNone -> (forall c, get (dst d c) = GNone) ->
  dvisiting d = None -> dmid cfg d None.
Proof.
  intros I H1 H2 H3 H4. constructor; auto.
  - apply (i_base I).
  - intros c _. apply (i_rest I). rewrite H4. discriminate.
  - intros c Hc. discriminate.
Qed.

Lemma dtx_time_pos cfg p : dwf cfg -> (0 < psize p)%Z -> 0 < dtx_time cfg p.
Proof.
  intros (Hr & _) Hp. unfold dtx_time. apply Qlt_shift_div_l; [exact Hr|].
  rewrite Qmult_0_l. change 0 with (inject_Z 0). rewrite <- Zlt_Qlt. lia.
Qed.

Lemma durgent_false cfg d : durgent cfg d = false ->
  dctl_fresh d = false /\ dchild_urgent d = false /\ sq_urgent (dtok d) = false
  /\ (forall c, In c (dclasses cfg) -> sq_urgent (dst d c) = false).
Proof.
  unfold durgent. intros H. apply orb_false_iff in H as [H H4]. apply orb_false_iff in H as [H H3].
  apply orb_false_iff in H as [H1 H2]. repeat split; auto.
  intros c Hc. destruct (sq_urgent (dst d c)) eqn:E; [|reflexivity].
  assert (existsb (fun c => sq_urgent (dst d c)) (dclasses cfg) = true) by (apply existsb_exists; exists c; auto). congruence.
Qed.

Lemma dinv_init cfg t0 : dwf cfg -> dinv cfg (drr0 t0).
Proof.
  intros Hwf. constructor.
  - constructor.
    + intros c p Hp. cbn in Hp. destruct Hp.
    + intros c. reflexivity.
    + intros f. reflexivity.
    + intros f. reflexivity.
    + cbn [drr0 dtotal]. induction (dclasses cfg) as [|x l IHl]; cbn [dsum]; [reflexivity|]. rewrite <- IHl. reflexivity.
    + cbn. lia.
    + apply sq_nostrand_init.
    + intros c. cbn [drr0 ddef dlmax]. split; [lra|]. intros Hc. pose proof (dquantum_pos cfg c Hwf Hc). change (inject_Z 0) with 0. lra.
  - cbn. auto.
  - cbn. discriminate.
  - intros c _. reflexivity.
Qed.
