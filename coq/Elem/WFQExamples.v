(* Concrete admissible executions of the WFQ and VirtualClock models (Elem/WFQ.v, Elem/VC.v over Elem/WFQServer.v),
   used by the non-vacuity witnesses Props/C12_Examples_WFQ.v and Props/C14_Examples.v.  One action list serves both
   schedulers (same packets, rate 1024 bit/s: 256 B = 2 s, 128 B = 1 s); flows 1 and 5 share class 1.

     instant 0: p0 (flow 0, 256 B), p1 (flow 1, 256 B), p2 (flow 5 -> class 1, 256 B), p3 (flow 0, 128 B) -- a static backlog
     instant 3: p5 (flow 0, 128 B) arrives during a transmission
     instant 9: p4 (flow 1, 128 B) arrives after the scheduler has emptied (instant 8)

   WFQ, weights {0: 1, 1: 2}: stamps p0 = 2, p1 = 1, p2 = 2 (EQUAL to p0's: the arrival counter decides), p3 = 3,
     p5 = max(3, V(3)) + 1 = 4; after the reset at 8: p4 = 0 + 1/2.  Service order p1 p0 p2 p3 p5 | p4.
   VC, vticks {0: 2, 1: 1}: auxVC stamps p0 = 2, p1 = 1, p2 = 2 (equal to p0's), p3 = 4, p5 = max(3, 4) + 2 = 6,
     p4 = max(9, 2) + 1 = 10.  Same service order.
   Transmissions: p1 0..2, p0 2..4, p2 4..6, p3 6..7, p5 7..8, p4 9..10. *)
From Coq Require Import ZArith QArith Qminmax Qabs List Bool Lia.
From ONL Require Import Base.Tools Elem.Packet Elem.StoreQ Elem.HeapList Elem.WFQServer Elem.WFQServerProofs Elem.WFQServerTrace
  Elem.WFQ Elem.WFQProofs Elem.VC Elem.VCProofs Elem.WFQInst.
Import ListNotations.

Lemma split_nth {A : Type} (l : list A) (k : nat) (x : A) :
  nth_error l k = Some x -> l = firstn k l ++ x :: skipn (S k) l.
Proof.
  revert k. induction l as [|y t IH]; intros [|k] H; cbn in *; try discriminate.
  - injection H as ->. reflexivity.
  - f_equal. exact (IH k H).
Qed.

Definition fx_p0 : pkt := mkp 0 1 0 256 0.
Definition fx_p1 : pkt := mkp 1 2 1 256 0.
Definition fx_p2 : pkt := mkp 2 3 5 256 0.
Definition fx_p3 : pkt := mkp 3 4 0 128 0.
Definition fx_p4 : pkt := mkp 4 5 1 128 9.
Definition fx_p5 : pkt := mkp 5 6 0 128 3.

Definition fx_acts : list faction :=
  [FInit; FPut fx_p0; FPut fx_p1; FPut fx_p2; FPut fx_p3; FStoreCb; FStoreCb; FStoreCb; FStoreCb;        (*  0 ..  8 *)
   FGetDone; FChildInit; FAdvance 2; FChildTimer; FChildEnd; FGetDone; FChildInit;                       (*  9 .. 15 *)
   FAdvance 3; FPut fx_p5; FStoreCb; FAdvance 4; FChildTimer; FChildEnd; FGetDone; FChildInit;            (* 16 .. 23 *)
   FAdvance 6; FChildTimer; FChildEnd; FGetDone; FChildInit; FAdvance 7; FChildTimer; FChildEnd;          (* 24 .. 31 *)
   FGetDone; FChildInit; FAdvance 8; FChildTimer; FChildEnd;                                              (* 32 .. 36 *)
   FAdvance 9; FPut fx_p4; FStoreCb; FGetDone; FChildInit; FAdvance 10; FChildTimer; FChildEnd].          (* 37 .. 44 *)

(* ---------------------------------------------------------------- WFQ *)
Definition wfx_cfg : wcfg :=
  {| wrate := 1024; wweights := [(0, 1); (1, 2)]%Z; wf2c := f2c_of [(5, 1)]%Z; wfix_first := true |}.
Definition wfx_state (n : nat) : wfq wfx_cfg :=
  match wfq_run wfx_cfg (wfq0 wfx_cfg) (firstn n fx_acts) with Some (s, _) => s | None => wfq0 wfx_cfg end.
Definition wfx_trace (n : nat) : list (tev (wfq_stamper wfx_cfg)) :=
  match wfq_run wfx_cfg (wfq0 wfx_cfg) (firstn n fx_acts) with Some (_, tr) => tr | None => [] end.

(* the whole run is accepted: evaluated once; the states and traces of its prefixes and its single steps are then
   read off it (WFQServerTrace.run_state_at, step_at) without the end state ever being printed.  Stated on [run], the
   form those lemmas take: converting a closed [wfq_run ... fx_acts] into it at Qed makes the kernel evaluate the run
   on both sides; below, the prefix length is a variable and the conversion is immediate *)
Lemma wfx_accepted :
  exists s tr, run (wfq_stamper wfx_cfg) (wrate wfx_cfg) (wfq0 wfx_cfg) fx_acts = Some (s, tr) /\ True.
Proof. apply run_facts. vm_compute. exact I. Qed.

Lemma wfx_run n : wfq_run wfx_cfg (wfq0 wfx_cfg) (firstn n fx_acts) = Some (wfx_state n, wfx_trace n).
Proof. destruct wfx_accepted as (s & tr & H & _). exact (run_state_at _ _ _ _ _ _ n H). Qed.

Lemma wfx_full : wfq_run wfx_cfg (wfq0 wfx_cfg) fx_acts = Some (wfx_state 45, wfx_trace 45).
Proof. exact (wfx_run 45). Qed.

Lemma wfx_step_at n a o :
  nth_error fx_acts n = Some a -> outs_of _ (wfq_act wfx_cfg (wfx_state n) a) = Some o ->
  wfq_act wfx_cfg (wfx_state n) a = Ok (wfx_state (S n), o) /\
  forall N, firstn N fx_acts = fx_acts -> nth_error (wfx_trace N) n = Some (a, o, wfx_state (S n)).
Proof.
  intros Ha Ho. destruct wfx_accepted as (s & tr & H & _). split.
  - exact (proj1 (step_at _ _ _ _ _ _ 45 n a o H eq_refl Ha Ho)).
  - intros N HN. exact (proj2 (step_at _ _ _ _ _ _ N n a o H HN Ha Ho)).
Qed.

Lemma wfx_step n a o :
  nth_error fx_acts n = Some a -> outs_of _ (wfq_act wfx_cfg (wfx_state n) a) = Some o ->
  wfq_act wfx_cfg (wfx_state n) a = Ok (wfx_state (S n), o).
Proof. intros Ha Ho. exact (proj1 (wfx_step_at n a o Ha Ho)). Qed.

Lemma wfx_trace_nth n a o :
  nth_error fx_acts n = Some a -> outs_of _ (wfq_act wfx_cfg (wfx_state n) a) = Some o ->
  nth_error (wfx_trace 45) n = Some (a, o, wfx_state (S n)).
Proof. intros Ha Ho. exact (proj2 (wfx_step_at n a o Ha Ho) 45%nat eq_refl). Qed.

Lemma wfx_cfg_ok : wcfg_ok wfx_cfg.
Proof.
  split; [reflexivity|]. intros c w H. cbn in H.
  destruct (Z.eqb c 0); [injection H as <-; lia|]. destruct (Z.eqb c 1); [injection H as <-; lia|discriminate].
Qed.

Lemma wfx_adm n : wadm wfx_cfg (firstn n fx_acts).
Proof. apply puts_conf_firstn, (puts_conf_check _ (wconf_b wfx_cfg)); [apply wconf_b_ok|reflexivity]. Qed.

Lemma wfx_reach n : wreach wfx_cfg (wfx_state n).
Proof.
  eapply run_reach; [apply reach0|exact (wfx_adm n)|exact (wfx_run n)].
Qed.

(* ---------------------------------------------------------------- VirtualClock *)
Definition vcx_cfg : vcfg := {| vrate := 1024; vticks := [(0%Z, 2%Q); (1%Z, 1%Q)]; vf2c := f2c_of [(5, 1)]%Z |}.
Definition vcx_state (n : nat) : vc vcx_cfg :=
  match vc_run vcx_cfg (vc0 vcx_cfg) (firstn n fx_acts) with Some (s, _) => s | None => vc0 vcx_cfg end.
Definition vcx_trace (n : nat) : list (tev (vc_stamper vcx_cfg)) :=
  match vc_run vcx_cfg (vc0 vcx_cfg) (firstn n fx_acts) with Some (_, tr) => tr | None => [] end.

Lemma vcx_accepted :
  exists s tr, run (vc_stamper vcx_cfg) (vrate vcx_cfg) (vc0 vcx_cfg) fx_acts = Some (s, tr) /\ True.
Proof. apply run_facts. vm_compute. exact I. Qed.

Lemma vcx_run n : vc_run vcx_cfg (vc0 vcx_cfg) (firstn n fx_acts) = Some (vcx_state n, vcx_trace n).
Proof. destruct vcx_accepted as (s & tr & H & _). exact (run_state_at _ _ _ _ _ _ n H). Qed.

Lemma vcx_full : vc_run vcx_cfg (vc0 vcx_cfg) fx_acts = Some (vcx_state 45, vcx_trace 45).
Proof. exact (vcx_run 45). Qed.

Lemma vcx_step_at n a o :
  nth_error fx_acts n = Some a -> outs_of _ (vc_act vcx_cfg (vcx_state n) a) = Some o ->
  vc_act vcx_cfg (vcx_state n) a = Ok (vcx_state (S n), o) /\
  forall N, firstn N fx_acts = fx_acts -> nth_error (vcx_trace N) n = Some (a, o, vcx_state (S n)).
Proof.
  intros Ha Ho. destruct vcx_accepted as (s & tr & H & _). split.
  - exact (proj1 (step_at _ _ _ _ _ _ 45 n a o H eq_refl Ha Ho)).
  - intros N HN. exact (proj2 (step_at _ _ _ _ _ _ N n a o H HN Ha Ho)).
Qed.

Lemma vcx_step n a o :
  nth_error fx_acts n = Some a -> outs_of _ (vc_act vcx_cfg (vcx_state n) a) = Some o ->
  vc_act vcx_cfg (vcx_state n) a = Ok (vcx_state (S n), o).
Proof. intros Ha Ho. exact (proj1 (vcx_step_at n a o Ha Ho)). Qed.

Lemma vcx_trace_nth n a o :
  nth_error fx_acts n = Some a -> outs_of _ (vc_act vcx_cfg (vcx_state n) a) = Some o ->
  nth_error (vcx_trace 45) n = Some (a, o, vcx_state (S n)).
Proof. intros Ha Ho. exact (proj2 (vcx_step_at n a o Ha Ho) 45%nat eq_refl). Qed.

Lemma vcx_cfg_ok : vcfg_ok vcx_cfg.
Proof.
  split; [reflexivity|]. intros c v H. cbn in H.
  repeat (match type of H with (if ?b then _ else _) = _ => destruct b; [injection H as <-; reflexivity|] end). discriminate.
Qed.

Lemma vcx_adm n : vadm vcx_cfg (firstn n fx_acts).
Proof. apply puts_conf_firstn, (puts_conf_check _ (vconf_b vcx_cfg)); [apply vconf_b_ok|reflexivity]. Qed.

Lemma vcx_reach n : vreach vcx_cfg (vcx_state n).
Proof.
  eapply run_reach; [apply reach0|exact (vcx_adm n)|exact (vcx_run n)].
Qed.
