(* What the bridges between the generated generator bodies of the token buckets and their automata share beyond
   Base/QTools.v: the automata store levels and deadlines reduced (Qred) and decide with Qlt_le_dec, the code computes
   the same rationals in another form and decides with Qle_bool. *)
From Coq Require Import ZArith QArith Qminmax Qreduction List Bool Lqa.
From ONL Require Export Base.QTools.
From ONL Require Import Elem.Bucket.

(* a == b for the expressions the code builds: no side conditions (division is multiplication by the inverse).
   Tried in turn: the two sides are the same; a ring identity; the two arguments of a Qmin separately, in either
   order (the refill line); a sum with the same first summand (a deadline now + d) *)
Ltac qeq :=
  unfold refill, fill, tokwait, spacing, sz in *; rewrite ?Qred_correct;
  first [ reflexivity
        | unfold Qdiv; ring
        | apply Q.min_compat; [first [reflexivity | ring] | first [reflexivity | unfold Qdiv; ring]]
        | rewrite Q.min_comm; apply Q.min_compat; [first [reflexivity | ring] | first [reflexivity | unfold Qdiv; ring]]
        | apply Qplus_comp; [reflexivity|]; unfold Qdiv; ring ].

Lemma size_test (lvl cb1 : Q) (size : Z) (A : Type) (x y : A) :
  lvl == cb1 ->
  (if negb (Qle_bool (inject_Z size) cb1) then x else y) = (if Qlt_le_dec lvl (inject_Z size) then x else y).
Proof.
  intros E. destruct (Qlt_le_dec lvl (inject_Z size)) as [H|H]; rewrite E in H;
    destruct (Qle_bool (inject_Z size) cb1) eqn:E2; qb; try reflexivity; exfalso; lra.
Qed.
