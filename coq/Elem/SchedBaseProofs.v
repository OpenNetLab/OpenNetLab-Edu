(* Proofs about Elem/SchedBase.v: the invariant of the multi-queue scheduler automaton and what follows from it for
   EVERY admissible execution, every configuration with positive allowances and every rate > 0:
   conservation / per-flow FIFO / counters, one transmission at a time of exactly 8*size/rate, no lost wake-up
   (work conservation), the visiting order of the run() loop.  SPProofs.v / RRProofs.v / WRRProofs.v show the three
   configurations well-formed; Props/C12_MQ.v, C08_MQ.v, C15_RR.v apply the theorems at them. *)
From Coq Require Import ZArith QArith List Bool Lia Lqa.
From ONL Require Import Elem.Packet Elem.StoreQ Elem.StoreQProofs Elem.SchedBase Elem.SchedResume.
Import ListNotations.

(* ---------------------------------------------------------------------------------------------- *)
(* small list / map facts *)

Definition is_flow (f : Z) (p : pkt) : bool := Z.eqb (flow p) f.
(* p belongs to class k (its flow is mapped onto k) *)
Definition is_class (c : mq_cfg) (k : Z) (p : pkt) : bool := Z.eqb (cls c (flow p)) k.
Fixpoint sumsz (l : list pkt) : Z := match l with [] => 0%Z | p :: t => (psize p + sumsz t)%Z end.
Fixpoint zsum (g : Z -> Z) (l : list Z) : Z := match l with [] => 0%Z | f :: t => (g f + zsum g t)%Z end.

Lemma sumsz_app a b : sumsz (a ++ b) = (sumsz a + sumsz b)%Z.
Proof. induction a as [|x a IH]; cbn; [reflexivity|]. rewrite IH. lia. Qed.

Lemma upd_same {A} (m : Z -> A) f v : upd m f v f = v.
Proof. unfold upd. rewrite Z.eqb_refl. reflexivity. Qed.

Lemma upd_other {A} (m : Z -> A) f v g : g <> f -> upd m f v g = m g.
Proof. intros H. unfold upd. destruct (Z.eqb_spec g f); [contradiction|reflexivity]. Qed.

Lemma zsum_upd_notin g f v l : ~ In f l -> zsum (upd g f v) l = zsum g l.
Proof.
  induction l as [|x t IH]; cbn; [reflexivity|]. intros H.
  rewrite upd_other by (intros E; apply H; left; auto). rewrite IH by (intros E; apply H; right; auto). reflexivity.
Qed.
Lemma zsum_upd g f v l : NoDup l -> In f l -> zsum (upd g f v) l = (zsum g l - g f + v)%Z.
Proof.
  induction l as [|x t IH]; cbn; [tauto|]. intros ND [->|Hin].
  - inversion ND; subst. rewrite upd_same, zsum_upd_notin by assumption. lia.
  - inversion ND; subst. assert (x <> f) by (intros ->; contradiction).
    rewrite upd_other by assumption. rewrite IH by assumption. lia.
Qed.

Lemma zsum_ext g g' l : (forall f, g' f = g f) -> zsum g' l = zsum g l.
Proof. intros H. induction l as [|x t IH]; cbn; [reflexivity|]. rewrite H, IH. reflexivity. Qed.

Lemma zsum_change g g' k l :
  NoDup l -> In k l -> (forall j, j <> k -> g' j = g j) -> zsum g' l = (zsum g l - g k + g' k)%Z.
Proof.
  intros ND Hk Hj. rewrite <- (zsum_upd g k (g' k) l ND Hk). apply zsum_ext. intros f.
  destruct (Z.eq_dec f k) as [->|N]; [rewrite upd_same; reflexivity|rewrite upd_other by exact N; auto].
Qed.

Lemma zsum_nonneg g l : (forall f, In f l -> (0 <= g f)%Z) -> (0 <= zsum g l)%Z.
Proof.
  induction l as [|x t IH]; cbn; intros H; [lia|].
  assert (0 <= g x)%Z by (apply H; left; auto). assert (0 <= zsum g t)%Z by (apply IH; intros; apply H; right; auto). lia.
Qed.

Lemma zsum_zero g l : (forall f, In f l -> (0 <= g f)%Z) -> zsum g l = 0%Z -> forall f, In f l -> g f = 0%Z.
Proof.
  induction l as [|x t IH]; cbn; intros H E f Hf; [destruct Hf|].
  assert (0 <= g x)%Z by (apply H; left; auto).
  assert (0 <= zsum g t)%Z by (apply zsum_nonneg; intros; apply H; right; auto).
  destruct Hf as [<-|Hf]; [lia|]. apply IH; auto. lia.
Qed.

Lemma zsum_pos g l : (forall f, In f l -> (0 <= g f)%Z) -> (0 < zsum g l)%Z -> exists f, In f l /\ (0 < g f)%Z.
Proof.
  induction l as [|x t IH]; cbn; intros H E; [lia|].
  destruct (Z_lt_le_dec 0 (g x)) as [P|P]; [exists x; auto|].
  assert (0 <= g x)%Z by (apply H; left; auto).
  destruct IH as (f & Hf & Pf); [intros; apply H; right; auto|lia|]. exists f; auto.
Qed.

Lemma memZ_In f l : memZ f l = true <-> In f l.
Proof.
  unfold memZ. rewrite existsb_exists. split.
  - intros (x & Hx & E). apply Z.eqb_eq in E. subst. exact Hx.
  - intros H. exists f. split; [exact H|apply Z.eqb_refl].
Qed.

Lemma filter_is_class_in c f p l : In p (filter (is_class c f) l) -> cls c (flow p) = f /\ In p l.
Proof. intros H. apply filter_In in H as [H1 H2]. unfold is_class in H2. apply Z.eqb_eq in H2. auto. Qed.

(* ---------------------------------------------------------------------------------------------- *)
(* what the scheduler holds *)

Definition child_pkts (s : mq) : list pkt :=
  match mchild s with CInit p => [p] | CTx p _ => [p] | _ => [] end.

(* packets of class k inside the scheduler, oldest first: in transmission, travelling in the granted get, in the store *)
Definition held_class (c : mq_cfg) (s : mq) (k : Z) : list pkt :=
  filter (is_class c k) (child_pkts s) ++ map snd (sq_held (mstores s k)).
(* packets of flow f inside the scheduler, oldest first (they sit in the queue of the class of f) *)
Definition held_flow (c : mq_cfg) (s : mq) (f : Z) : list pkt := filter (is_flow f) (held_class c s (cls c f)).

(* rate positive; the schedulers that test queue_count[class] (RR, WRR) use the identity class map *)
Definition wf (c : mq_cfg) : Prop := 0 < rate c /\ (by_count c = true -> forall f, cls c f = f).

Definition puts (a : saction) : list pkt := match a with SPut p => [p] | _ => [] end.

(* pc-independent part of the invariant; ins / outs = packets put so far / forwarded so far *)
Record Core (c : mq_cfg) (ins outs : list pkt) (s : mq) : Prop := {
  i_cur : mcur s = match mchild s with CTx p _ => Some p | _ => None end;
  i_cons : forall f, filter (is_class c f) ins = filter (is_class c f) outs ++ held_class c s f;
  i_qc : forall f, mqc s f = Z.of_nat (length (held_flow c s f));
  i_qb : forall f, mqb s f = sumsz (held_flow c s f);
  i_tot : mtotal s = zsum (fun k => Z.of_nat (length (held_class c s k))) (dclasses c);
  i_ins : forall p, In p ins -> In (cls c (flow p)) (classes c) /\ (0 <= psize p)%Z;
  i_tokns : sq_nostrand (mtok s);
  i_tokwake : get (mtok s) = GWaiting -> (0 < mtotal s)%Z -> items (mtok s) <> [];
  i_dl : forall p dl, mchild s = CTx p dl -> mnow s <= dl
}.

(* how the program counter, the child and the outstanding gets fit together *)
Record Shape (s : mq) : Prop := {
  i_child : match mpc s with PChild _ => mchild s <> CNone | _ => mchild s = CNone end;
  i_getf : forall g, match get (mstores s g) with
                     | GNone => True
                     | GWaiting => False
                     | GGranted _ => exists rem, mpc s = PGet g rem
                     end;
  i_pget : forall f rem, mpc s = PGet f rem -> exists x, get (mstores s f) = GGranted x;
  i_tokpc : get (mtok s) = GNone <-> mpc s <> PTok
}.

Definition Inv (c : mq_cfg) (ins outs : list pkt) (s : mq) : Prop := Core c ins outs s /\ Shape s.

(* run() is executing (between two yields): no child, no outstanding get *)
Record Mid (s : mq) : Prop := {
  m_child : mchild s = CNone;
  m_getf : forall g, get (mstores s g) = GNone;
  m_tok : get (mtok s) = GNone
}.

Lemma held_in_ins c ins outs s f p : Core c ins outs s -> In p (held_class c s f) -> cls c (flow p) = f /\ In p ins.
Proof.
  intros C H. apply (filter_is_class_in c f p ins). rewrite (i_cons _ _ _ _ C f). apply in_or_app. right. exact H.
Qed.

Lemma held_configured c ins outs s f p : Core c ins outs s -> In p (held_class c s f) -> In f (classes c).
Proof. intros C H. destruct (held_in_ins c ins outs s f p C H) as [<- Hin]. apply (i_ins _ _ _ _ C p Hin). Qed.

Lemma qc_nonneg c ins outs s f : Core c ins outs s -> (0 <= mqc s f)%Z.
Proof. intros C. rewrite (i_qc _ _ _ _ C f). lia. Qed.

Lemma total_nonneg c ins outs s : Core c ins outs s -> (0 <= mtotal s)%Z.
Proof. intros C. rewrite (i_tot _ _ _ _ C). apply zsum_nonneg. intros f _. lia. Qed.

Lemma filter_flow_class c f l : filter (is_flow f) (filter (is_class c (cls c f)) l) = filter (is_flow f) l.
Proof.
  induction l as [|x t IH]; cbn; [reflexivity|]. unfold is_class at 1, is_flow at 2.
  destruct (Z.eqb_spec (flow x) f) as [E|N].
  - rewrite E, Z.eqb_refl. cbn. unfold is_flow at 1. rewrite E, Z.eqb_refl, IH. reflexivity.
  - destruct (cls c (flow x) =? cls c f)%Z; [cbn; unfold is_flow at 1; destruct (Z.eqb_spec (flow x) f); [contradiction|]|]; exact IH.
Qed.

Lemma held_flow_in c s f p : In p (held_flow c s f) -> flow p = f /\ In p (held_class c s (cls c f)).
Proof. unfold held_flow. intros H. apply filter_In in H as [H1 H2]. unfold is_flow in H2. apply Z.eqb_eq in H2. auto. Qed.

Lemma held_flow_ext c s s' f : (forall k, held_class c s' k = held_class c s k) -> held_flow c s' f = held_flow c s f.
Proof. intros H. unfold held_flow. rewrite H. reflexivity. Qed.

Lemma filter_all {A} (P : A -> bool) l : (forall x, In x l -> P x = true) -> filter P l = l.
Proof.
  induction l as [|x t IH]; intros H; cbn; [reflexivity|]. rewrite (H x (or_introl eq_refl)), IH; [reflexivity|].
  intros y Hy. apply H. right. exact Hy.
Qed.

(* under the identity class map the queue of class f holds exactly the packets of flow f *)
Lemma held_flow_id c ins outs s f :
  Core c ins outs s -> (forall g, cls c g = g) -> held_flow c s f = held_class c s f.
Proof.
  intros C Id. unfold held_flow. rewrite Id. apply filter_all. intros p Hp.
  destruct (held_in_ins c ins outs s f p C Hp) as [E _]. rewrite Id in E. unfold is_flow. apply Z.eqb_eq. exact E.
Qed.

Lemma dclasses_in c f : In f (dclasses c) <-> In f (classes c).
Proof. unfold dclasses. apply nodup_In. Qed.

Lemma dclasses_nodup c : NoDup (dclasses c).
Proof. apply NoDup_nodup. Qed.

(* with nothing in flight, what is held of f is what the store of f contains *)
Lemma mid_held c s f : Mid s -> held_class c s f = map snd (items (mstores s f)).
Proof.
  intros M. unfold held_class, child_pkts. rewrite (m_child _ M). cbn.
  unfold sq_held. rewrite (m_getf _ M f). reflexivity.
Qed.

Lemma nonempty_spec c ins outs s f :
  wf c -> Core c ins outs s -> Mid s -> nonempty c s f = negb (nilb (items (mstores s f))).
Proof.
  intros [_ Id] C M. unfold nonempty. destruct (by_count c); [|reflexivity].
  rewrite (i_qc _ _ _ _ C f), (held_flow_id c ins outs s f C (Id eq_refl)), (mid_held c s f M), map_length.
  destruct (items (mstores s f)); reflexivity.
Qed.

Lemma nonempty_items c ins outs s f :
  wf c -> Core c ins outs s -> Mid s -> nonempty c s f = true -> items (mstores s f) <> [].
Proof.
  intros W C M H. rewrite (nonempty_spec c ins outs s f W C M) in H. destruct (items (mstores s f)); discriminate.
Qed.

(* ---------------------------------------------------------------------------------------------- *)
(* the invariant through a stretch of run() *)

Lemma held_class_eq c s s' f :
  mchild s' = mchild s -> sq_held (mstores s' f) = sq_held (mstores s f) -> held_class c s' f = held_class c s f.
Proof. intros H1 H2. unfold held_class, child_pkts. rewrite H1, H2. reflexivity. Qed.

(* states that hold the same things *)
Lemma core_ext c ins outs s s' :
  Core c ins outs s ->
  mcur s' = match mchild s' with CTx p _ => Some p | _ => None end ->
  (forall g, held_class c s' g = held_class c s g) ->
  (forall g, mqc s' g = mqc s g) -> (forall g, mqb s' g = mqb s g) -> mtotal s' = mtotal s ->
  mtok s' = mtok s ->
  (forall p dl, mchild s' = CTx p dl -> mnow s' <= dl) ->
  Core c ins outs s'.
Proof.
  intros C Hcur Hh Hqc Hqb Htot Htok Hdl. constructor.
  - exact Hcur.
  - intros f. rewrite Hh. apply (i_cons _ _ _ _ C).
  - intros f. rewrite Hqc, (held_flow_ext c s s' f Hh). apply (i_qc _ _ _ _ C).
  - intros f. rewrite Hqb, (held_flow_ext c s s' f Hh). apply (i_qb _ _ _ _ C).
  - rewrite Htot, (i_tot _ _ _ _ C). symmetry. apply zsum_ext. intros k. rewrite Hh. reflexivity.
  - apply (i_ins _ _ _ _ C).
  - rewrite Htok. apply (i_tokns _ _ _ _ C).
  - rewrite Htok, Htot. apply (i_tokwake _ _ _ _ C).
  - exact Hdl.
Qed.

Lemma core_with_pc c ins outs s p : Core c ins outs s -> Core c ins outs (with_pc s p).
Proof.
  intros C. apply (core_ext c ins outs s _ C); try reflexivity.
  - apply (i_cur _ _ _ _ C).
  - apply (i_dl _ _ _ _ C).
Qed.

Lemma core_tok c ins outs s q :
  Core c ins outs s -> sq_nostrand q ->
  (get q = GWaiting -> (0 < mtotal s)%Z -> items q <> []) ->
  Core c ins outs (with_tok s q).
Proof.
  intros C N W. constructor; try (destruct C; assumption). (* N is i_tokns, W is i_tokwake; the other fields do not see the token store *)
Qed.

Lemma held_class_with_store c s f q g :
  sq_held q = sq_held (mstores s f) -> held_class c (with_store s f q) g = held_class c s g.
Proof.
  intros H. apply held_class_eq; [reflexivity|]. cbn. unfold upd.
  destruct (Z.eqb_spec g f); [subst; exact H|reflexivity].
Qed.

Lemma core_with_store c ins outs s f q :
  Core c ins outs s -> sq_held q = sq_held (mstores s f) -> Core c ins outs (with_store s f q).
Proof.
  intros C H. apply (core_ext c ins outs s _ C); try reflexivity.
  - apply (i_cur _ _ _ _ C).
  - intros g. apply held_class_with_store. exact H.
  - apply (i_dl _ _ _ _ C).
Qed.

Lemma commit_inv c ins outs s f rem s' :
  Core c ins outs s -> Mid s -> items (mstores s f) <> [] -> commit s f rem = Some s' -> Inv c ins outs s'.
Proof.
  intros C M NE H. unfold commit in H.
  destruct (sq_get fifo_pop (mstores s f)) as [q|] eqn:G; [|discriminate]. injection H as <-.
  pose proof (fifo_held_get _ _ _ G) as Hh.
  apply fifo_get_inv in G as (G0 & _ & [(E & _)|(x & E & Gx)]); [contradiction|].
  split.
  - apply core_with_pc, core_with_store; assumption.
  - constructor; cbn.
    + apply (m_child _ M).
    + intros g. unfold upd. destruct (Z.eqb_spec g f).
      * subst. rewrite Gx. eauto.
      * rewrite (m_getf _ M g). exact I.
    + intros f0 rem0 E0. injection E0 as <- <-. rewrite upd_same. eauto.
    + split; [discriminate|]. intros _. apply (m_tok _ M).
Qed.

Lemma commit_stores s f rem s' :
  commit s f rem = Some s' ->
  (forall g, g <> f -> mstores s' g = mstores s g) /\
  (forall x rest, items (mstores s f) = x :: rest -> get (mstores s' f) = GGranted x /\ items (mstores s' f) = rest).
Proof.
  unfold commit. destruct (sq_get fifo_pop (mstores s f)) as [q|] eqn:G; [|discriminate]. intros H; injection H as <-.
  split; [intros g N; apply upd_other; exact N|]. intros x rest E. cbn. rewrite upd_same.
  apply fifo_get_inv in G as (_ & _ & [(E0 & _)|(y & Ey & Gy)]); [congruence|].
  rewrite E in Ey. injection Ey as <- <-. auto.
Qed.

Lemma tokget_inv c ins outs s q :
  Core c ins outs s -> Mid s -> mtotal s = 0%Z -> sq_get fifo_pop (mtok s) = Some q ->
  Inv c ins outs (with_pc (with_tok s q) PTok).
Proof.
  intros C M T G. split.
  - apply core_with_pc, core_tok; [assumption|eapply fifo_nostrand_get; eauto|].
    intros _ H. lia.
  - constructor; cbn.
    + apply (m_child _ M).
    + intros g. rewrite (m_getf _ M g). exact I.
    + discriminate.
    + apply sq_get_not_none in G as [G _]. split; [intros E; contradiction|intros E; exfalso; apply E; reflexivity].
Qed.

Lemma spin_inv c ins outs s : Core c ins outs s -> Mid s -> Inv c ins outs (with_pc s PSpin).
Proof.
  intros C M. split; [apply core_with_pc; assumption|]. constructor; cbn.
  - apply (m_child _ M).
  - intros g. rewrite (m_getf _ M g). exact I.
  - discriminate.
  - split; [discriminate|]. intros _. apply (m_tok _ M).
Qed.

Lemma settle_keeps c ins outs s rem vs o s' :
  wf c -> Core c ins outs s -> Mid s -> decide c s rem = (vs, o) -> settle s o = Some s' -> Inv c ins outs s'.
Proof.
  intros W C M D S. pose proof (decide_outcome _ _ _ _ _ D) as O.
  destruct o as [f r| |]; cbn in S.
  - eapply commit_inv; eauto. eapply nonempty_items; eauto.
  - destruct (sq_get fifo_pop (mtok s)) as [q|] eqn:G; [|discriminate]. injection S as <-. eapply tokget_inv; eauto.
  - injection S as <-. apply spin_inv; assumption.
Qed.

Lemma visits_flat {B} (F : sout -> list B) sk o :
  (forall g b, F (OVisit g b) = []) -> flat_map F (map (fun g => OVisit g false) sk ++ hit o) = [].
Proof.
  intros HF. rewrite flat_map_app. induction sk as [|g t IH]; cbn; [|rewrite HF; exact IH].
  destruct o; cbn; rewrite ?HF; reflexivity.
Qed.

Definition starts (l : list sout) : list pkt := flat_map (fun o => match o with OStart p => [p] | _ => [] end) l.

Lemma decide_silent c s rem vs o : decide c s rem = (vs, o) -> forwards vs = [] /\ starts vs = [].
Proof.
  intros D. destruct (decide_visits _ _ _ _ _ D) as (sk & -> & _).
  split; apply visits_flat; reflexivity.
Qed.

(* ---------------------------------------------------------------------------------------------- *)
(* every action preserves the invariant *)

Lemma tx_time_nonneg c p : 0 < rate c -> (0 <= psize p)%Z -> 0 <= tx_time c p.
Proof.
  intros R P. unfold tx_time. apply Qle_shift_div_l; [exact R|]. rewrite Qmult_0_l.
  change 0 with (inject_Z 0). rewrite <- Zle_Qle. lia.
Qed.

Lemma filter_one c f p : filter (is_class c f) [p] = if is_class c f p then [p] else [].
Proof. reflexivity. Qed.

(* a packet joins / leaves the things held: what it means per flow *)
Lemma filter_flow_one c g p : filter (is_flow g) (if is_class c (cls c g) p then [p] else []) = if is_flow g p then [p] else [].
Proof.
  unfold is_class. destruct (Z.eqb_spec (cls c (flow p)) (cls c g)) as [E|N]; cbn; unfold is_flow.
  - destruct (flow p =? g)%Z; reflexivity.
  - destruct (Z.eqb_spec (flow p) g) as [E|N']; [exfalso; apply N; rewrite E; reflexivity|reflexivity].
Qed.

Lemma counters_insert c sA sB p :
  In (cls c (flow p)) (classes c) ->
  (forall g, exists l1 l2, held_class c sA g = l1 ++ l2 /\
                           held_class c sB g = l1 ++ (if is_class c g p then [p] else []) ++ l2) ->
  (forall f, Z.of_nat (length (held_flow c sB f)) = (Z.of_nat (length (held_flow c sA f)) + if Z.eqb f (flow p) then 1 else 0)%Z) /\
  (forall f, sumsz (held_flow c sB f) = (sumsz (held_flow c sA f) + if Z.eqb f (flow p) then psize p else 0)%Z) /\
  zsum (fun k => Z.of_nat (length (held_class c sB k))) (dclasses c)
  = (zsum (fun k => Z.of_nat (length (held_class c sA k))) (dclasses c) + 1)%Z.
Proof.
  intros Hk H.
  assert (Hf : forall f, exists l1 l2, held_flow c sA f = l1 ++ l2 /\
                                       held_flow c sB f = l1 ++ (if Z.eqb f (flow p) then [p] else []) ++ l2).
  { intros f. destruct (H (cls c f)) as (l1 & l2 & EA & EB). exists (filter (is_flow f) l1), (filter (is_flow f) l2).
    unfold held_flow. rewrite EA, EB, !filter_app, filter_flow_one. unfold is_flow. rewrite (Z.eqb_sym f). auto. }
  split; [|split].
  - intros f. destruct (Hf f) as (l1 & l2 & -> & ->). rewrite !app_length. destruct (f =? flow p)%Z; cbn [length]; lia.
  - intros f. destruct (Hf f) as (l1 & l2 & -> & ->). rewrite !sumsz_app. destruct (f =? flow p)%Z; cbn [sumsz]; lia.
  - rewrite (zsum_change (fun k => Z.of_nat (length (held_class c sA k))) (fun k => Z.of_nat (length (held_class c sB k))) (cls c (flow p)));
      [|apply dclasses_nodup|apply dclasses_in; exact Hk|].
    + destruct (H (cls c (flow p))) as (l1 & l2 & -> & ->). unfold is_class. rewrite Z.eqb_refl, !app_length. cbn [length]. lia.
    + intros j Hj. destruct (H j) as (l1 & l2 & -> & ->). unfold is_class.
      destruct (Z.eqb_spec (cls c (flow p)) j); [congruence|reflexivity].
Qed.

(* ---- SPut ---- *)
Lemma put_inv c ins outs s p s' o :
  Inv c ins outs s -> mq_act c s (SPut p) = Some (s', o) -> Inv c (ins ++ [p]) (outs ++ forwards o) s'.
Proof.
  intros [C Sh] H. cbn in H.
  destruct (memZ (cls c (flow p)) (classes c) && (0 <=? psize p)%Z) eqn:Cond; [|discriminate].
  apply andb_true_iff in Cond as [Hf Hs]. apply memZ_In in Hf. apply Z.leb_le in Hs.
  injection H as <- <-. cbn [forwards flat_map]. rewrite app_nil_r.
  match goal with |- Inv _ _ _ ?x => set (s1 := x) end.
  assert (Hheld : forall g, held_class c s1 g = held_class c s g ++ (if is_class c g p then [p] else [])).
  { intros g. unfold held_class, child_pkts, s1. cbn. unfold upd, is_class.
    destruct (Z.eqb_spec g (cls c (flow p))) as [->|N].
    - rewrite Z.eqb_refl. rewrite fifo_held_put, map_app. cbn. rewrite app_assoc. reflexivity.
    - destruct (Z.eqb_spec (cls c (flow p)) g); [congruence|]. rewrite app_nil_r. reflexivity. }
  destruct (counters_insert c s s1 p Hf) as (Hqc & Hqb & Htot).
  { intros g. exists (held_class c s g), []. rewrite (Hheld g), !app_nil_r. auto. }
  split.
  - constructor.
    + apply (i_cur _ _ _ _ C).
    + intros g. rewrite (Hheld g), filter_app, (i_cons _ _ _ _ C g), filter_one, app_assoc. reflexivity.
    + intros g. rewrite (Hqc g), <- (i_qc _ _ _ _ C g). unfold s1; cbn [mqc]. unfold upd.
      destruct (Z.eqb_spec g (flow p)) as [->|]; lia.
    + intros g. rewrite (Hqb g), <- (i_qb _ _ _ _ C g). unfold s1; cbn [mqb]. unfold upd.
      destruct (Z.eqb_spec g (flow p)) as [->|]; lia.
    + rewrite Htot, <- (i_tot _ _ _ _ C). reflexivity.
    + intros p0 Hin. apply in_app_or in Hin as [Hin|[<-|[]]]; [apply (i_ins _ _ _ _ C); exact Hin|]. split; assumption.
    + unfold s1; cbn. destruct (mtotal s =? 0)%Z; [apply fifo_nostrand_put|apply (i_tokns _ _ _ _ C)].
    + unfold s1; cbn. destruct (Z.eqb_spec (mtotal s) 0) as [T|T].
      * intros _ _. cbn. unfold fifo_push. intros E. apply app_eq_nil in E as [_ E]. discriminate.
      * intros G _. apply (i_tokwake _ _ _ _ C); [exact G|]. pose proof (total_nonneg _ _ _ _ C). lia.
    + apply (i_dl _ _ _ _ C).
  - constructor; unfold s1; cbn.
    + apply (i_child _ Sh).
    + intros g. unfold upd. destruct (Z.eqb_spec g (cls c (flow p))) as [->|N]; [cbn|]; apply (i_getf _ Sh).
    + intros f0 rem E. unfold upd. destruct (Z.eqb_spec f0 (cls c (flow p))) as [->|N]; [cbn|]; eapply (i_pget _ Sh); eauto.
    + destruct (mtotal s =? 0)%Z; [cbn|]; apply (i_tokpc _ Sh).
Qed.

(* ---- StorePut events ---- *)
Lemma cbtok_inv c ins outs s s' o :
  Inv c ins outs s -> mq_act c s (SStoreCb None) = Some (s', o) -> Inv c ins (outs ++ forwards o) s'.
Proof.
  intros [C Sh] H. cbn in H. destruct (sq_cb fifo_pop (mtok s)) as [q|] eqn:G; [|discriminate].
  injection H as <- <-. cbn [forwards flat_map]. rewrite app_nil_r. split.
  - apply core_tok; [assumption|eapply fifo_nostrand_cb; eauto|].
    intros W T. apply fifo_cb_inv in G as (_ & [(_ & x & _ & Gx)|(_ & Ei & Eg)]); [congruence|].
    rewrite Ei. apply (i_tokwake _ _ _ _ C); [congruence|exact T].
  - constructor; cbn; try apply Sh.
    rewrite <- (sq_cb_get_none _ _ _ _ G). apply (i_tokpc _ Sh).
Qed.

Lemma cbclass_inv c ins outs s f s' o :
  Inv c ins outs s -> mq_act c s (SStoreCb (Some f)) = Some (s', o) -> Inv c ins (outs ++ forwards o) s'.
Proof.
  intros [C Sh] H. cbn in H. destruct (sq_cb fifo_pop (mstores s f)) as [q|] eqn:G; [|discriminate].
  injection H as <- <-. cbn [forwards flat_map]. rewrite app_nil_r.
  assert (NW : get (mstores s f) <> GWaiting).
  { intros E. pose proof (i_getf _ Sh f) as H. rewrite E in H. exact H. }
  destruct (sq_cb_not_waiting _ _ _ _ G NW) as [Ei Eg].
  split.
  - apply core_with_store; [assumption|eapply fifo_held_cb; eauto].
  - constructor; cbn.
    + apply (i_child _ Sh).
    + intros g. unfold upd. destruct (Z.eqb_spec g f) as [->|N]; [rewrite Eg|]; apply (i_getf _ Sh).
    + intros f0 rem E. unfold upd. destruct (Z.eqb_spec f0 f) as [->|N]; [rewrite Eg|]; eapply (i_pget _ Sh); eauto.
    + apply (i_tokpc _ Sh).
Qed.

Lemma getclass_inv c ins outs s f s' o :
  Inv c ins outs s -> mq_act c s (SGetDone (Some f)) = Some (s', o) -> Inv c ins (outs ++ forwards o) s'.
Proof.
  intros [C Sh] H. cbn in H. destruct (mpc s) as [|g rem|rem| |] eqn:P; try discriminate.
  destruct (mchild s) eqn:Ch; try discriminate.
  destruct (Z.eqb_spec f g) as [<-|N]; [|discriminate].
  destruct (sq_take (mstores s f)) as [[[a p] q]|] eqn:T; [|discriminate].
  injection H as <- <-. cbn [forwards flat_map]. rewrite app_nil_r.
  pose proof (fifo_held_take _ _ _ _ T) as Hh.
  apply sq_take_inv in T as (Gx & Ei & Ep & Gq).
  assert (Fp : cls c (flow p) = f).
  { apply (held_in_ins c ins outs s f p C). unfold held_class. apply in_or_app. right. rewrite Hh. left. reflexivity. }
  split.
  - apply (core_ext c ins outs s _ C); try reflexivity.
    + cbn. rewrite (i_cur _ _ _ _ C), Ch. reflexivity.
    + intros g. unfold held_class, child_pkts. cbn. rewrite Ch. cbn. unfold upd, is_class. rewrite Fp.
      destruct (Z.eqb_spec g f) as [->|Ng].
      * rewrite Z.eqb_refl, Hh. reflexivity.
      * destruct (Z.eqb_spec f g); [congruence|]. reflexivity.
    + intros p0 dl E. cbn in E. discriminate.
  - constructor; cbn.
    + discriminate.
    + intros g. unfold upd. destruct (Z.eqb_spec g f) as [->|Ng]; [rewrite Gq; exact I|].
      pose proof (i_getf _ Sh g) as Hg. destruct (get (mstores s g)); [exact I|exact Hg|].
      destruct Hg as (rem' & E). rewrite P in E. injection E as E _. congruence.
    + discriminate.
    + split; [discriminate|]. intros _. apply (i_tokpc _ Sh). rewrite P. discriminate.
Qed.

Lemma childinit_inv c ins outs s s' o :
  wf c -> Inv c ins outs s -> mq_act c s SChildInit = Some (s', o) -> Inv c ins (outs ++ forwards o) s'.
Proof.
  intros R [C Sh] H. cbn in H. destruct (mchild s) as [|p| |] eqn:Ch; try discriminate.
  injection H as <- <-. cbn [forwards flat_map]. rewrite app_nil_r.
  assert (Hp : (0 <= psize p)%Z).
  { destruct (held_in_ins c ins outs s (cls c (flow p)) p C) as [_ Hin].
    - unfold held_class, child_pkts. rewrite Ch. apply in_or_app. left. cbn. unfold is_class. rewrite Z.eqb_refl. left. reflexivity.
    - apply (i_ins _ _ _ _ C p Hin). }
  split.
  - apply (core_ext c ins outs s _ C); try reflexivity.
    + intros g. unfold held_class, child_pkts. cbn. rewrite Ch. reflexivity.
    + intros p0 dl E. cbn in E. injection E as _ <-. cbn. pose proof (tx_time_nonneg c p (proj1 R) Hp). lra.
  - constructor; cbn; try apply Sh.
    pose proof (i_child _ Sh) as Hc. rewrite Ch in Hc. destruct (mpc s); try discriminate.
Qed.

Lemma childtimer_inv c ins outs s s' o :
  Inv c ins outs s -> mq_act c s SChildTimer = Some (s', o) -> Inv c ins (outs ++ forwards o) s'.
Proof.
  intros [C Sh] H. cbn in H. destruct (mchild s) as [| |p dl|] eqn:Ch; try discriminate.
  destruct (Qeq_bool dl (mnow s)); [|discriminate]. injection H as <- <-. cbn [forwards flat_map app].
  assert (Hpc : exists rem, mpc s = PChild rem).
  { pose proof (i_child _ Sh) as Hc. rewrite Ch in Hc. destruct (mpc s); try discriminate. eauto. }
  destruct Hpc as (rem & P).
  assert (Hold : forall g, held_class c s g = (if is_class c g p then [p] else []) ++ map snd (sq_held (mstores s g))).
  { intros g. unfold held_class, child_pkts. rewrite Ch. reflexivity. }
  assert (Hf : In (cls c (flow p)) (classes c)).
  { apply (held_configured c ins outs s _ p C). rewrite Hold. unfold is_class. rewrite Z.eqb_refl. left. reflexivity. }
  match goal with |- Inv _ _ _ ?x => set (s1 := x) end.
  assert (Hnew : forall g, held_class c s1 g = map snd (sq_held (mstores s g))) by reflexivity.
  destruct (counters_insert c s1 s p Hf) as (Hqc & Hqb & Htot).
  { intros g. exists [], (held_class c s1 g). rewrite (Hold g), (Hnew g). auto. }
  split.
  - constructor.
    + reflexivity.
    + intros g. rewrite filter_app, filter_one, (i_cons _ _ _ _ C g), Hold, Hnew.
      rewrite <- app_assoc. reflexivity.
    + intros g. pose proof (Hqc g) as E. rewrite <- (i_qc _ _ _ _ C g) in E. unfold s1 at 1; cbn [mqc]. unfold upd.
      destruct (Z.eqb_spec g (flow p)) as [Eg|]; [rewrite <- Eg|]; lia.
    + intros g. pose proof (Hqb g) as E. rewrite <- (i_qb _ _ _ _ C g) in E. unfold s1 at 1; cbn [mqb]. unfold upd.
      destruct (Z.eqb_spec g (flow p)) as [Eg|]; [rewrite <- Eg|]; lia.
    + rewrite <- (i_tot _ _ _ _ C) in Htot. unfold s1 at 1; cbn [mtotal]. lia.
    + apply (i_ins _ _ _ _ C).
    + apply (i_tokns _ _ _ _ C).
    + intros W. exfalso. assert (E : get (mtok s) = GNone) by (apply (i_tokpc _ Sh); rewrite P; discriminate). unfold s1 in W; cbn in W. congruence.
    + discriminate.
  - constructor; unfold s1; cbn; try apply Sh. rewrite P. discriminate.
Qed.

Lemma advance_inv c ins outs s t s' o :
  Inv c ins outs s -> mq_act c s (SAdvance t) = Some (s', o) -> Inv c ins (outs ++ forwards o) s'.
Proof.
  intros [C Sh] H. cbn in H. destruct (urgent c s); [discriminate|].
  destruct (Qlt_le_dec (mnow s) t) as [Lt|]; [|discriminate].
  assert (E : s' = {| mnow := t; mstores := mstores s; mtok := mtok s; mqc := mqc s; mqb := mqb s; mtotal := mtotal s;
                     mcur := mcur s; mrecv := mrecv s; mchild := mchild s; mpc := mpc s |} /\ o = [] /\
              (forall p dl, mchild s = CTx p dl -> t <= dl)).
  { destruct (mchild s) as [| |p dl|] eqn:Ch; try (injection H as <- <-; repeat split; intros; discriminate).
    destruct (Qle_bool t dl) eqn:L; [|discriminate]. injection H as <- <-. repeat split.
    intros p0 dl0 E0. injection E0 as _ <-. apply Qle_bool_iff. exact L. }
  destruct E as (-> & -> & Hdl). cbn [forwards flat_map]. rewrite app_nil_r. split.
  - apply (core_ext c ins outs s _ C); try reflexivity.
    + apply (i_cur _ _ _ _ C).
    + exact Hdl.
  - constructor; cbn; apply Sh.
Qed.

(* the three actions in which run() executes: it resumes on a state [s0] in which nothing is in flight *)
Definition runs_loop (a : saction) : bool :=
  match a with SInit | SGetDone None | SChildEnd => true | _ => false end.

Definition cursor (c : mq_cfg) (s : mq) : list (Z * nat) :=
  match mpc s with PGet _ rem => rem | PChild rem => rem | _ => pass c end.

Lemma mid_of s s' :
  Shape s -> mstores s' = mstores s -> get (mtok s') = GNone -> mchild s' = CNone ->
  (forall f rem, mpc s <> PGet f rem) -> Mid s'.
Proof.
  intros Sh Es Et Ec Hg. constructor; [exact Ec| |exact Et].
  intros g. rewrite Es. pose proof (i_getf _ Sh g) as H. destruct (get (mstores s g)); [reflexivity|destruct H|].
  destruct H as (rem & E). exfalso. eapply Hg; eauto.
Qed.

Lemma resume_site c ins outs s a s' o :
  Inv c ins outs s -> mq_act c s a = Some (s', o) -> runs_loop a = true ->
  exists s0 out, Core c ins outs s0 /\ Mid s0 /\ decide c s0 (cursor c s) = (o, out) /\ settle s0 out = Some s' /\
             mstores s0 = mstores s /\ mnow s0 = mnow s /\
             (mchild s = CNone \/ mchild s = CEnded) /\ (forall g rem, mpc s <> PGet g rem).
Proof.
  intros [C Sh] H Ra. pose proof (i_child _ Sh) as Hc. pose proof (i_tokpc _ Sh) as Ht.
  destruct a as [p| |[f|]|[f|]| | | |t|incl]; try discriminate; cbn in H.
  - destruct (mpc s) eqn:P; try discriminate. apply resume_decided in H as (out & D & St). exists s, out. unfold cursor. rewrite P.
    split; [exact C|]. split; [apply (mid_of s s Sh); auto; [apply Ht|rewrite P]; discriminate|].
    split; [exact D|]. split; [exact St|]. do 2 (split; [reflexivity|]). split; [auto|discriminate].
  - destruct (mpc s) eqn:P; try discriminate.
    destruct (sq_take (mtok s)) as [[x q]|] eqn:T; [|discriminate].
    apply sq_take_inv in T as (Gx & Ei & Ep & Gq).
    apply resume_decided in H as (out & D & St). exists (with_tok s q), out. unfold cursor. rewrite P.
    split. { apply core_tok; [assumption| |]; intros W; congruence. }
    split; [apply (mid_of s _ Sh); auto; rewrite P; discriminate|].
    split; [exact D|]. split; [exact St|]. do 2 (split; [reflexivity|]). split; [auto|discriminate].
  - destruct (mchild s) eqn:Ch; try discriminate.
    destruct (mpc s) as [| |rem| |] eqn:P; try discriminate.
    apply resume_decided in H as (out & D & St). exists (with_child s CNone (PChild rem)), out. unfold cursor. rewrite P.
    split.
    { apply (core_ext c ins outs s _ C); try reflexivity.
      * cbn. rewrite (i_cur _ _ _ _ C), Ch. reflexivity.
      * intros g. unfold held_class, child_pkts. cbn. rewrite Ch. reflexivity.
      * intros p0 dl E. cbn in E. discriminate. }
    split; [apply (mid_of s _ Sh); auto; [apply Ht|rewrite P]; discriminate|].
    split; [exact D|]. split; [exact St|]. do 2 (split; [reflexivity|]). split; [auto|discriminate].
Qed.

Lemma loop_inv c ins outs s a s' o :
  wf c -> Inv c ins outs s -> mq_act c s a = Some (s', o) -> runs_loop a = true -> Inv c ins (outs ++ forwards o) s'.
Proof.
  intros W I H Ra. destruct (resume_site c ins outs s a s' o I H Ra) as (s0 & out & C0 & M0 & D & St & _).
  rewrite (proj1 (decide_silent _ _ _ _ _ D)), app_nil_r. eapply settle_keeps; eauto.
Qed.

Theorem inv_step c ins outs s a s' o :
  wf c -> Inv c ins outs s -> mq_act c s a = Some (s', o) -> Inv c (ins ++ puts a) (outs ++ forwards o) s'.
Proof.
  intros R I H. destruct a as [p| |[f|]|[f|]| | | |t|incl]; cbn [puts]; rewrite ?app_nil_r.
  - (* SPut *) eapply put_inv; eauto.
  - (* SInit *) eapply loop_inv; eauto.
  - (* SStoreCb (Some f) *) eapply cbclass_inv; eauto.
  - (* SStoreCb None *) eapply cbtok_inv; eauto.
  - (* SGetDone (Some f) *) eapply getclass_inv; eauto.
  - (* SGetDone None *) eapply loop_inv; eauto.
  - (* SChildInit *) eapply childinit_inv; eauto.
  - (* SChildTimer *) eapply childtimer_inv; eauto.
  - (* SChildEnd *) eapply loop_inv; eauto.
  - (* SAdvance *) eapply advance_inv; eauto.
  - (* SSample *) cbn in H. injection H as <- <-. cbn. rewrite app_nil_r. exact I.
Qed.

Definition quiet (a : saction) : bool :=
  match a with SPut _ | SStoreCb _ | SAdvance _ | SSample _ => true | _ => false end.

Definition arrival (c : mq_cfg) (s : mq) (a : saction) (g : Z) : list (Q * pkt) :=
  match a with SPut p => if Z.eqb g (cls c (flow p)) then [(mnow s, p)] else [] | _ => [] end.

Definition visits_of (o : list sout) : list (Z * bool) :=
  flat_map (fun x => match x with OVisit f b => [(f, b)] | _ => [] end) o.

(* taken apart everywhere with the names [a o Q P Ch Hst S F V | f rem tm p P Ch P' Ch' Hh Oth | p Ch Ch' P St | p dl Ch Due Ch' P St]:
   P, Ch speak of the program counter and the child, primed of those of s' *)
Inductive effect (c : mq_cfg) (s s' : mq) : saction -> list sout -> Prop :=
| E_quiet a o :
    quiet a = true -> mpc s' = mpc s -> mchild s' = mchild s ->
    (forall g, sq_held (mstores s' g) = sq_held (mstores s g) ++ arrival c s a g) ->
    starts o = [] -> forwards o = [] -> visits_of o = [] ->
    effect c s s' a o
| E_get f rem tm p :
    mpc s = PGet f rem -> mchild s = CNone -> mpc s' = PChild rem -> mchild s' = CInit p ->
    sq_held (mstores s f) = (tm, p) :: sq_held (mstores s' f) -> (forall g, g <> f -> mstores s' g = mstores s g) ->
    effect c s s' (SGetDone (Some f)) []
| E_start p :
    mchild s = CInit p -> mchild s' = CTx p (mnow s + tx_time c p) -> mpc s' = mpc s -> mstores s' = mstores s ->
    effect c s s' SChildInit [OStart p]
| E_end p dl :
    mchild s = CTx p dl -> dl == mnow s -> mchild s' = CEnded -> mpc s' = mpc s -> mstores s' = mstores s ->
    effect c s s' SChildTimer [OForward p].

Lemma act_effect c s a s' o : mq_act c s a = Some (s', o) -> runs_loop a = false -> effect c s s' a o.
Proof.
  intros H Ra. destruct a as [p| |[f|]|[f|]| | | |t|incl]; try discriminate; cbn in H.
  - destruct (memZ (cls c (flow p)) (classes c) && (0 <=? psize p)%Z); [|discriminate]. injection H as <- <-.
    apply E_quiet; try reflexivity. intros g. cbn. unfold upd.
    destruct (Z.eqb_spec g (cls c (flow p))) as [->|]; [apply fifo_held_put|symmetry; apply app_nil_r].
  - destruct (sq_cb fifo_pop (mstores s f)) as [q|] eqn:G; [|discriminate]. injection H as <- <-.
    apply E_quiet; try reflexivity. intros g. cbn. unfold upd. rewrite app_nil_r.
    destruct (Z.eqb_spec g f) as [->|]; [apply (fifo_held_cb _ _ _ G)|reflexivity].
  - destruct (sq_cb fifo_pop (mtok s)); [|discriminate]. injection H as <- <-.
    apply E_quiet; try reflexivity. intros g. symmetry. apply app_nil_r.
  - destruct (mpc s) as [|g rem|rem| |] eqn:P; try discriminate. destruct (mchild s) eqn:Ch; try discriminate.
    destruct (Z.eqb_spec f g) as [<-|]; [|discriminate].
    destruct (sq_take (mstores s f)) as [[[tm p] q]|] eqn:T; [|discriminate]. injection H as <- <-.
    apply (E_get c s _ f rem tm p); try reflexivity; try assumption.
    + cbn -[upd]. rewrite upd_same. apply (fifo_held_take _ _ _ _ T).
    + intros g N. apply upd_other. exact N.
  - destruct (mchild s) eqn:Ch; try discriminate. injection H as <- <-. apply E_start; reflexivity || assumption.
  - destruct (mchild s) eqn:Ch; try discriminate. destruct (Qeq_bool dl (mnow s)) eqn:E; [|discriminate]. injection H as <- <-.
    apply (E_end c s _ p dl); try reflexivity; try assumption. apply Qeq_bool_iff. exact E.
  - destruct (urgent c s); [discriminate|]. destruct (Qlt_le_dec (mnow s) t); [|discriminate].
    destruct (mchild s) eqn:Ch; try (destruct (Qle_bool t dl); [|discriminate]); injection H as <- <-;
      (apply E_quiet; try reflexivity; [symmetry; exact Ch|intros g; symmetry; apply app_nil_r]).
  - injection H as <- <-. apply E_quiet; try reflexivity. intros g. symmetry. apply app_nil_r.
Qed.

Lemma act_frame c s a s' o :
  mq_act c s a = Some (s', o) ->
  mrecv s' = (mrecv s + Z.of_nat (length (puts a)))%Z /\ ((forall t, a <> SAdvance t) -> mnow s' = mnow s).
Proof.
  intros H.
  assert (Rs : forall s0 rem, resume c s0 rem = Some (s', o) -> mrecv s0 = mrecv s -> mnow s0 = mnow s ->
                 mrecv s' = (mrecv s + 0)%Z /\ ((forall t, a <> SAdvance t) -> mnow s' = mnow s)).
  { intros s0 rem R E1 E2. destruct (resume_frame _ _ _ _ _ R) as (N & _ & V). rewrite Z.add_0_r. split; congruence. }
  destruct a as [p| |[f|]|[f|]| | | |t|incl]; cbn in H; cbn [puts length Z.of_nat].
  - destruct (memZ (cls c (flow p)) (classes c) && (0 <=? psize p)%Z); [|discriminate]. injection H as <- <-. auto.
  - destruct (mpc s); try discriminate. eapply Rs; eauto.
  - destruct (sq_cb fifo_pop (mstores s f)); [|discriminate]. injection H as <- <-. cbn. split; [lia|auto].
  - destruct (sq_cb fifo_pop (mtok s)); [|discriminate]. injection H as <- <-. cbn. split; [lia|auto].
  - destruct (mpc s); try discriminate. destruct (mchild s); try discriminate. destruct (f =? f0)%Z; [|discriminate].
    destruct (sq_take (mstores s f)) as [[[tm p] q]|]; [|discriminate]. injection H as <- <-. cbn. split; [lia|auto].
  - destruct (mpc s); try discriminate. destruct (sq_take (mtok s)) as [[x q]|]; [|discriminate]. eapply Rs; eauto.
  - destruct (mchild s); try discriminate. injection H as <- <-. cbn. split; [lia|auto].
  - destruct (mchild s); try discriminate. destruct (Qeq_bool dl (mnow s)); [|discriminate]. injection H as <- <-. cbn. split; [lia|auto].
  - destruct (mchild s); try discriminate. destruct (mpc s); try discriminate. eapply Rs; eauto.
  - split; [|intros NA; exfalso; eapply NA; eauto].
    destruct (urgent c s); [discriminate|]. destruct (Qlt_le_dec (mnow s) t); [|discriminate].
    destruct (mchild s); try (destruct (Qle_bool t dl); [|discriminate]); injection H as <- <-; cbn; lia.
  - injection H as <- <-. split; [lia|auto].
Qed.

Lemma act_now c s a s' o : mq_act c s a = Some (s', o) -> (forall t, a <> SAdvance t) -> mnow s' = mnow s.
Proof. intros H. apply (act_frame c s a s' o H). Qed.

(* the actions that do not run the loop leave the cursor alone and visit nothing *)
Lemma other_site c s a s' o :
  mq_act c s a = Some (s', o) -> runs_loop a = false ->
  cursor c s' = cursor c s /\ visits_of o = [] /\ (mpc s' = PSpin -> mpc s = PSpin).
Proof.
  intros H Ra. unfold cursor.
  destruct (act_effect c s a s' o H Ra) as [a o Q P Ch Hst S F V|f rem tm p P Ch P' Ch' Hh Oth|p Ch Ch' P St|p dl Ch Due Ch' P St];
    rewrite ?P; auto. rewrite P'. repeat split. discriminate.
Qed.

Lemma visit_loop c s a s' o f b : mq_act c s a = Some (s', o) -> In (OVisit f b) o -> runs_loop a = true.
Proof.
  intros A Hin. destruct (runs_loop a) eqn:Ra; [reflexivity|]. exfalso.
  assert (Hv : In (f, b) (visits_of o)) by (apply in_flat_map; exists (OVisit f b); split; [exact Hin|left; reflexivity]).
  rewrite (proj1 (proj2 (other_site c s a s' o A Ra))) in Hv. exact Hv.
Qed.

(* ---------------------------------------------------------------------------------------------- *)
(* executions *)

Definition tr_puts (tr : list tev) : list pkt := flat_map (fun e => puts (snd (fst e))) tr.
Definition tr_fwds (tr : list tev) : list pkt := flat_map (fun e => forwards (snd e)) tr.
Definition reachable (c : mq_cfg) (s : mq) : Prop := exists acts tr, mq_run c (mq0 c) acts = Some (s, tr).

(* every allowance positive (SP: all priorities > 0; WRR: all weights > 0), rate positive *)
Definition cfg_ok (c : mq_cfg) : Prop := wf c /\ forall f n, In (f, n) (pass c) -> (0 < n)%nat.

Lemma inv0 c : Inv c [] [] (mq0 c).
Proof.
  split.
  - constructor.
    + reflexivity.
    + intros f. reflexivity.
    + intros f. reflexivity.
    + intros f. reflexivity.
    + cbn. induction (dclasses c) as [|x l IH]; cbn; [reflexivity|exact IH].
    + intros p [].
    + apply sq_nostrand_init.
    + intros H. discriminate.
    + intros p dl H. discriminate.
  - constructor.
    + reflexivity.
    + intros g. exact I.
    + intros f rem H. discriminate.
    + split; [discriminate|reflexivity].
Qed.

Lemma mq_run_cons c s a rest s2 tr :
  mq_run c s (a :: rest) = Some (s2, tr) ->
  exists s1 o tr', mq_act c s a = Some (s1, o) /\ mq_run c s1 rest = Some (s2, tr') /\ tr = (mnow s1, a, o) :: tr'.
Proof.
  cbn. destruct (mq_act c s a) as [[s1 o]|]; [|discriminate].
  destruct (mq_run c s1 rest) as [[s2' tr']|] eqn:Rn; [|discriminate]. intros H; injection H as <- <-. exists s1, o, tr'. auto.
Qed.

Lemma inv_run c : wf c -> forall acts s ins outs s' tr,
  Inv c ins outs s -> mq_run c s acts = Some (s', tr) -> Inv c (ins ++ tr_puts tr) (outs ++ tr_fwds tr) s'.
Proof.
  intros R. induction acts as [|a rest IH]; intros s ins outs s' tr I H.
  - injection H as <- <-. cbn. rewrite !app_nil_r. exact I.
  - apply mq_run_cons in H as (s1 & o & tr' & A & Rn & ->).
    unfold tr_puts, tr_fwds. cbn [flat_map fst snd]. rewrite !app_assoc.
    apply (IH s1); [|exact Rn]. eapply inv_step; eauto.
Qed.

Lemma run_invariant c (P : mq -> Prop) :
  wf c -> (forall s ins outs a s' o, Inv c ins outs s -> P s -> mq_act c s a = Some (s', o) -> P s') ->
  forall acts s ins outs s' tr, Inv c ins outs s -> P s -> mq_run c s acts = Some (s', tr) -> P s'.
Proof.
  intros R St. induction acts as [|a rest IH]; intros s ins outs s' tr I Ps H.
  - injection H as <- _. exact Ps.
  - apply mq_run_cons in H as (s1 & o & tr' & A & Rn & _).
    eapply (IH s1); [eapply inv_step; eauto|eapply St; eauto|exact Rn].
Qed.

Lemma run_reachable c acts s tr : mq_run c (mq0 c) acts = Some (s, tr) -> reachable c s.
Proof. intros H. exists acts, tr. exact H. Qed.

Lemma reachable_inv c s : wf c -> reachable c s -> exists ins outs, Inv c ins outs s.
Proof.
  intros R (acts & tr & H). exists (tr_puts tr), (tr_fwds tr).
  apply (inv_run c R acts (mq0 c) [] [] s tr (inv0 c) H).
Qed.

Lemma reachable_invariant c (P : mq -> Prop) :
  wf c -> P (mq0 c) -> (forall s ins outs a s' o, Inv c ins outs s -> P s -> mq_act c s a = Some (s', o) -> P s') ->
  forall s, reachable c s -> P s.
Proof. intros R P0 St s (acts & tr & H). eapply (run_invariant c P R St acts); eauto using inv0. Qed.

(* ---------------------------------------------------------------------------------------------- *)
(* the loop never spins: with positive allowances a pass started with packets counted finds one *)

Lemma spin_step c ins outs s a s' o :
  cfg_ok c -> Inv c ins outs s -> mpc s <> PSpin -> mq_act c s a = Some (s', o) -> mpc s' <> PSpin.
Proof.
  intros [R Pos] I NS A. destruct (runs_loop a) eqn:Ra; [|intros E; apply NS, (other_site c s a s' o A Ra), E].
  destruct (resume_site c ins outs s a s' o I A Ra) as (s0 & out & C & M & D & St & _). rewrite (proj1 (settle_frame _ _ _ St)).
  pose proof (decide_outcome _ _ _ _ _ D) as O. destruct out; try discriminate. destruct O as [T Sk]. exfalso.
  pose proof (total_nonneg _ _ _ _ C) as T0.
  destruct (zsum_pos (fun k => Z.of_nat (length (held_class c s0 k))) (dclasses c)) as (f & Hf & Pf).
  { intros g _. lia. }
  { rewrite <- (i_tot _ _ _ _ C). lia. }
  apply dclasses_in in Hf. unfold classes in Hf. apply in_map_iff in Hf as ([f' n] & E1 & Hin). cbn in E1. subst f'.
  destruct (Sk f n Hin) as [N0|Tf].
  - specialize (Pos f n Hin). lia.
  - rewrite (nonempty_spec c ins outs s0 f R C M) in Tf. rewrite (mid_held c s0 f M), map_length in Pf.
    destruct (items (mstores s0 f)); [cbn in Pf; lia|discriminate].
Qed.

Theorem never_spins c s : cfg_ok c -> reachable c s -> mpc s <> PSpin.
Proof.
  intros Ok. apply (reachable_invariant c (fun s => mpc s <> PSpin) (proj1 Ok)); [discriminate|].
  intros s0 ins outs a s' o I. apply (spin_step c ins outs s0 a s' o Ok I).
Qed.

(* ---------------------------------------------------------------------------------------------- *)
(* work conservation: whenever the clock may move, a transmission is in progress or nothing is held *)

(* between the moment run() takes a packet of class k out of its queue and the start of the transmission timer *)
Definition committed (c : mq_cfg) (s : mq) (k : Z) : Prop :=
  (exists rem, mpc s = PGet k rem) \/ (exists p, mchild s = CInit p /\ cls c (flow p) = k).

Lemma committed_core_urgent c ins outs s f : Inv c ins outs s -> committed c s f -> urgent c s = true.
Proof.
  intros [C Sh] Cm. unfold urgent. destruct Cm as [(rem & P)|(p & Ch & _)].
  - destruct (i_pget _ Sh f rem P) as (x & Gx).
    assert (Hh : In (snd x) (held_class c s f)).
    { unfold held_class. apply in_or_app. right. unfold sq_held. rewrite Gx. left. reflexivity. }
    assert (Ex : existsb (fun f0 => sq_urgent (mstores s f0)) (classes c) = true).
    { apply existsb_exists. exists f. split; [eapply held_configured; eauto|]. unfold sq_urgent. rewrite Gx. apply orb_true_r. }
    rewrite Ex, orb_true_r. reflexivity.
  - unfold child_urgent. rewrite Ch. apply orb_true_r.
Qed.

Lemma committed_urgent c s f : wf c -> reachable c s -> committed c s f -> urgent c s = true.
Proof. intros R Rs. destruct (reachable_inv c s R Rs) as (ins & outs & I). apply (committed_core_urgent c ins outs s f I). Qed.

Lemma quiet_transmitting_or_empty c ins outs s :
  Inv c ins outs s -> mpc s <> PSpin -> urgent c s = false ->
  (exists p dl, mchild s = CTx p dl /\ mcur s = Some p /\ mnow s < dl) \/ (forall f, held_class c s f = []).
Proof.
  intros I NS U. pose proof I as [C Sh]. destruct (mpc s) as [|f rem|rem| |] eqn:P.
  - unfold urgent in U. rewrite P in U. discriminate.
  - rewrite (committed_core_urgent c ins outs s f I) in U; [discriminate|]. left. eauto.
  - (* PChild *)
    pose proof (i_child _ Sh) as Hc. rewrite P in Hc. destruct (mchild s) as [|p|p dl|] eqn:Ch; [contradiction| | |].
    + rewrite (committed_core_urgent c ins outs s (cls c (flow p)) I) in U; [discriminate|]. right. eauto.
    + left. exists p, dl. split; [reflexivity|]. split; [rewrite (i_cur _ _ _ _ C), Ch; reflexivity|].
      pose proof (i_dl _ _ _ _ C p dl Ch) as Le.
      destruct (Qlt_le_dec (mnow s) dl) as [Lt|Ge]; [exact Lt|].
      exfalso. assert (Eq : dl == mnow s) by (apply Qle_antisym; assumption).
      apply Qeq_bool_iff in Eq. unfold urgent, child_urgent in U. rewrite Ch, Eq, orb_true_r in U. discriminate.
    + unfold urgent, child_urgent in U. rewrite Ch, orb_true_r in U. discriminate.
  - (* PTok: a waiting token get with packets counted would have a token in the store, hence (sq_nostrand) a pending
       StorePut event, which is urgent; so nothing is counted *)
    right. unfold urgent in U. apply orb_false_iff in U as [U _]. apply orb_false_iff in U as [U _].
    apply orb_false_iff in U as [_ Utok]. pose proof (i_child _ Sh) as Hc. rewrite P in Hc.
    apply sq_urgent_false in Utok as [Pz Ng].
    assert (T0 : mtotal s = 0%Z).
    { pose proof (total_nonneg _ _ _ _ C) as T0. destruct (Z.eq_dec (mtotal s) 0) as [|N]; [assumption|]. exfalso.
      destruct (get (mtok s)) as [| |x] eqn:G.
      - apply (i_tokpc _ Sh) in G. apply G. exact P.
      - assert (Hi : items (mtok s) <> []) by (apply (i_tokwake _ _ _ _ C); [exact G|lia]).
        pose proof (i_tokns _ _ _ _ C G Hi). lia.
      - apply (Ng x). reflexivity. }
    intros f. destruct (held_class c s f) as [|p l] eqn:Hh; [reflexivity|]. exfalso.
    assert (Hf : In f (classes c)) by (eapply (held_configured c ins outs s f p C); rewrite Hh; left; reflexivity).
    assert (Q0 : Z.of_nat (length (held_class c s f)) = 0%Z).
    { apply (zsum_zero (fun k => Z.of_nat (length (held_class c s k))) (dclasses c)); [intros g _; lia|rewrite <- (i_tot _ _ _ _ C); exact T0|apply dclasses_in; exact Hf]. }
    rewrite Hh in Q0. cbn in Q0. lia.
  - contradiction.
Qed.

Theorem work_conserving c s t r :
  cfg_ok c -> reachable c s -> mq_act c s (SAdvance t) = Some r ->
  (exists p dl, mchild s = CTx p dl /\ mcur s = Some p /\ mnow s < dl) \/ (forall f, held_class c s f = []).
Proof.
  intros Ok Rs A. destruct (reachable_inv c s (proj1 Ok) Rs) as (ins & outs & I).
  apply (quiet_transmitting_or_empty c ins outs s I (never_spins c s Ok Rs)).
  cbn in A. destruct (urgent c s); [discriminate|reflexivity].
Qed.

(* a state in which nothing of the scheduler is enabled and no deadline is pending holds nothing *)
Theorem drained c s :
  cfg_ok c -> reachable c s -> urgent c s = false -> (forall p dl, mchild s <> CTx p dl) ->
  (forall f, held_class c s f = []) /\ (forall f, mqc s f = 0%Z /\ mqb s f = 0%Z) /\ mcur s = None.
Proof.
  intros Ok Rs U Nd. destruct (reachable_inv c s (proj1 Ok) Rs) as (ins & outs & I).
  destruct (quiet_transmitting_or_empty c ins outs s I (never_spins c s Ok Rs) U) as [(p & dl & E & _)|He].
  - exfalso. eapply Nd; eauto.
  - destruct I as [C Sh]. split; [exact He|]. split.
    + intros f. rewrite (i_qc _ _ _ _ C f), (i_qb _ _ _ _ C f). unfold held_flow. rewrite He. split; reflexivity.
    + rewrite (i_cur _ _ _ _ C). destruct (mchild s) eqn:Ch; try reflexivity. exfalso. eapply Nd; eauto.
Qed.

(* ---------------------------------------------------------------------------------------------- *)
(* one transmission at a time, of exactly 8*size/rate, never aborted *)

Definition child_tx (s : mq) : option (pkt * Q) := match mchild s with CTx p dl => Some (p, dl) | _ => None end.

(* every entry of a timed trace either starts a transmission (only when none is in progress), or ends the one in
   progress -- the very packet that was started, exactly at start + 8*size/rate --, or does neither, and then the
   clock has not passed the end of the transmission in progress *)
Fixpoint tx_wf (c : mq_cfg) (cur : option (pkt * Q)) (tr : list tev) : Prop :=
  match tr with
  | [] => True
  | (t, a, outs) :: r =>
      match starts outs, forwards outs with
      | [p], [] => cur = None /\ tx_wf c (Some (p, t + tx_time c p)) r
      | [], [p] => (exists dl, cur = Some (p, dl) /\ dl == t) /\ tx_wf c None r
      | [], [] => match cur with Some (_, dl) => t <= dl | None => True end /\ tx_wf c cur r
      | _, _ => False
      end
  end.

Lemma tx_step c ins outs s a s' o :
  wf c -> Inv c ins outs s -> mq_act c s a = Some (s', o) ->
  (exists p, starts o = [p] /\ forwards o = [] /\ child_tx s = None /\ child_tx s' = Some (p, mnow s' + tx_time c p))
  \/ (exists p dl, starts o = [] /\ forwards o = [p] /\ child_tx s = Some (p, dl) /\ dl == mnow s' /\ child_tx s' = None)
  \/ (starts o = [] /\ forwards o = [] /\ child_tx s' = child_tx s /\
      match child_tx s with Some (_, dl) => mnow s' <= dl | None => True end).
Proof.
  intros R I H. pose proof (inv_step c ins outs s a s' o R I H) as [C' _].
  assert (Same : starts o = [] -> forwards o = [] -> child_tx s' = child_tx s ->
                 starts o = [] /\ forwards o = [] /\ child_tx s' = child_tx s /\
                 match child_tx s with Some (_, dl) => mnow s' <= dl | None => True end).
  { intros S0 F0 E. repeat (split; [assumption|]). rewrite <- E. unfold child_tx.
    destruct (mchild s') eqn:Ch; auto. apply (i_dl _ _ _ _ C' _ _ Ch). }
  unfold child_tx in *. destruct (runs_loop a) eqn:Ra.
  - right. right. destruct (resume_site c ins outs s a s' o I H Ra) as (s0 & out & _ & M0 & D & St & _ & _ & Ch & _).
    destruct (decide_silent _ _ _ _ _ D) as [F S]. destruct (settle_frame _ _ _ St) as (_ & _ & Ch' & _).
    apply Same; auto. rewrite Ch', (m_child _ M0). destruct Ch as [-> | ->]; reflexivity.
  - pose proof (act_now c s a s' o H) as N.
    destruct (act_effect c s a s' o H Ra) as [a o Q P Ch Hst S F V|f rem tm p P Ch P' Ch' Hh Oth|p Ch Ch' P St|p dl Ch Due Ch' P St].
    + right. right. apply Same; auto. rewrite Ch. reflexivity.
    + right. right. apply Same; auto. rewrite Ch, Ch'. reflexivity.
    + left. exists p. rewrite Ch, Ch', N by discriminate. auto.
    + right. left. exists p, dl. rewrite Ch, Ch', N by discriminate. auto 6.
Qed.

Theorem tx_wf_run c : wf c -> forall acts s ins outs s' tr,
  Inv c ins outs s -> mq_run c s acts = Some (s', tr) -> tx_wf c (child_tx s) tr.
Proof.
  intros R. induction acts as [|a rest IH]; intros s ins outs s' tr I H.
  - injection H as <- <-. exact Logic.I.
  - apply mq_run_cons in H as (s1 & o & tr' & A & Rn & ->).
    specialize (IH s1 _ _ _ _ (inv_step c ins outs s a s1 o R I A) Rn). cbn [tx_wf].
    destruct (tx_step c ins outs s a s1 o R I A) as [(p & Es & Ef & E0 & E1)|[(p & dl & Es & Ef & E0 & Ed & E1)|(Es & Ef & E1 & Hb)]];
      rewrite Es, Ef.
    + split; [exact E0|]. rewrite <- E1. exact IH.
    + split; [exists dl; auto|]. rewrite <- E1. exact IH.
    + split; [exact Hb|]. rewrite <- E1. exact IH.
Qed.

(* ---------------------------------------------------------------------------------------------- *)
(* conservation, per-flow FIFO, counters: statements on executions from the initial state *)

Theorem run_conserves c acts s tr :
  wf c -> mq_run c (mq0 c) acts = Some (s, tr) ->
  (forall k, filter (is_class c k) (tr_puts tr) = filter (is_class c k) (tr_fwds tr) ++ held_class c s k)
  /\ (forall f, filter (is_flow f) (tr_puts tr) = filter (is_flow f) (tr_fwds tr) ++ held_flow c s f)
  /\ (forall p, In p (tr_puts tr) -> In (cls c (flow p)) (classes c)).
Proof.
  intros R H. destruct (inv_run c R acts (mq0 c) [] [] s tr (inv0 c) H) as [C _]. cbn in C. split; [|split].
  - apply (i_cons _ _ _ _ C).
  - intros f. rewrite <- (filter_flow_class c f (tr_puts tr)), (i_cons _ _ _ _ C (cls c f)), filter_app, filter_flow_class.
    reflexivity.
  - intros p Hp. apply (i_ins _ _ _ _ C p Hp).
Qed.

Lemma recv_run c : forall acts s0 s tr, mq_run c s0 acts = Some (s, tr) ->
  mrecv s = (mrecv s0 + Z.of_nat (length (tr_puts tr)))%Z.
Proof.
  induction acts as [|a rest IH]; intros s0 s tr H.
  - injection H as <- <-. cbn. lia.
  - apply mq_run_cons in H as (s1 & o & tr' & A & Rn & ->).
    rewrite (IH _ _ _ Rn), (proj1 (act_frame c s0 a s1 o A)). unfold tr_puts. cbn [flat_map fst snd]. rewrite app_length. lia.
Qed.

Theorem run_counters c acts s tr :
  wf c -> mq_run c (mq0 c) acts = Some (s, tr) ->
  (forall f, mqc s f = Z.of_nat (length (held_flow c s f)) /\ mqb s f = sumsz (held_flow c s f))
  /\ mtotal s = zsum (fun k => Z.of_nat (length (held_class c s k))) (dclasses c)
  /\ mcur s = match mchild s with CTx p _ => Some p | _ => None end
  /\ mrecv s = Z.of_nat (length (tr_puts tr)).
Proof.
  intros R H. destruct (inv_run c R acts (mq0 c) [] [] s tr (inv0 c) H) as [C _]. cbn in C.
  split; [intros f; split; [apply (i_qc _ _ _ _ C)|apply (i_qb _ _ _ _ C)]|].
  split; [apply (i_tot _ _ _ _ C)|].
  split; [apply (i_cur _ _ _ _ C)|].
  rewrite (recv_run c _ _ _ _ H). cbn. lia.
Qed.

(* ---------------------------------------------------------------------------------------------- *)
(* per-flow FIFO, exactly once *)

Theorem run_flow_fifo c acts s tr f :
  wf c -> mq_run c (mq0 c) acts = Some (s, tr) ->
  exists rest, filter (is_flow f) (tr_puts tr) = filter (is_flow f) (tr_fwds tr) ++ rest.
Proof. intros R H. exists (held_flow c s f). apply (run_conserves c acts s tr R H). Qed.

Lemma Q_eq_dec (a b : Q) : {a = b} + {a <> b}.
Proof. decide equality; [apply Pos.eq_dec|apply Z.eq_dec]. Qed.
Lemma pkt_eq_dec (a b : pkt) : {a = b} + {a <> b}.
Proof. decide equality; auto using Q_eq_dec, Z.eq_dec, Nat.eq_dec. Qed.

Lemma count_filter_class c p l :
  count_occ pkt_eq_dec (filter (is_class c (cls c (flow p))) l) p = count_occ pkt_eq_dec l p.
Proof.
  induction l as [|x t IH]; cbn; [reflexivity|].
  destruct (pkt_eq_dec x p) as [->|N].
  - unfold is_class at 1. rewrite Z.eqb_refl. cbn. destruct (pkt_eq_dec p p); [|contradiction]. rewrite IH. reflexivity.
  - destruct (is_class c (cls c (flow p)) x); [cbn; destruct (pkt_eq_dec x p); [contradiction|]|]; exact IH.
Qed.

(* every packet handed in is accounted for exactly once: forwarded or held (in the queue of its class) *)
Theorem run_exactly_once c acts s tr p :
  wf c -> mq_run c (mq0 c) acts = Some (s, tr) ->
  count_occ pkt_eq_dec (tr_puts tr) p
  = (count_occ pkt_eq_dec (tr_fwds tr) p + count_occ pkt_eq_dec (held_class c s (cls c (flow p))) p)%nat.
Proof.
  intros R H. destruct (run_conserves c acts s tr R H) as [Hc _].
  rewrite <- (count_filter_class c p (tr_puts tr)), <- (count_filter_class c p (tr_fwds tr)), (Hc (cls c (flow p))), count_occ_app.
  reflexivity.
Qed.

(* ---------------------------------------------------------------------------------------------- *)
(* what the Monitor samples *)

(* packets of flow f held but not (yet) in transmission *)
Definition waiting_flow (c : mq_cfg) (s : mq) (f : Z) : list pkt :=
  filter (is_flow f) (filter (is_class c (cls c f)) (match mchild s with CInit p => [p] | _ => [] end)
                      ++ map snd (sq_held (mstores s (cls c f)))).

Theorem monitor_samples c s incl f :
  wf c -> reachable c s ->
  sample_of s incl f =
    let l := if incl then held_flow c s f else waiting_flow c s f in (f, Z.of_nat (length l), sumsz l).
Proof.
  intros R Rs. destruct (reachable_inv c s R Rs) as (ins & outs & [C Sh]).
  unfold sample_of. rewrite (i_cur _ _ _ _ C), (i_qc _ _ _ _ C f), (i_qb _ _ _ _ C f).
  unfold held_flow, held_class, waiting_flow, child_pkts.
  destruct (mchild s) as [|p|p dl|]; destruct incl; cbn [negb andb]; try reflexivity.
  rewrite !filter_app, filter_one, filter_flow_one. cbn [filter app].
  change (flow p =? f)%Z with (is_flow f p). destruct (is_flow f p); [|reflexivity].
  cbn [app length sumsz]. f_equal; [f_equal|]; lia.
Qed.

(* ---------------------------------------------------------------------------------------------- *)
(* the visiting order of run(): cyclic in declaration order, allowance per visit *)

Definition tr_visits (tr : list tev) : list (Z * bool) := flat_map (fun e => visits_of (snd e)) tr.

Fixpoint drop0 (l : list (Z * nat)) : list (Z * nat) :=
  match l with (_, O) :: t => drop0 t | _ => l end.
(* the slot the loop looks at next: exhausted slots are passed over, after the last slot the pass starts again *)
Definition norm (pass rem : list (Z * nat)) : list (Z * nat) :=
  match drop0 rem with [] => drop0 pass | l => l end.

(* the specification of cyclic visiting: a visit is always to the class of the next slot; a visit that takes a
   packet uses up one unit of the slot's allowance, a visit that finds the class empty ends the slot *)
Fixpoint walk (pass rem : list (Z * nat)) (vs : list (Z * bool)) : option (list (Z * nat)) :=
  match vs with
  | [] => Some rem
  | (f, b) :: r =>
      match norm pass rem with
      | (g, S n) :: t => if Z.eqb f g then walk pass (if b then (g, n) :: t else t) r else None
      | _ => None
      end
  end.

Lemma walk_app pass vs1 : forall rem vs2 k,
  walk pass rem vs1 = Some k -> walk pass rem (vs1 ++ vs2) = walk pass k vs2.
Proof.
  induction vs1 as [|[f b] r IH]; intros rem vs2 k H; cbn in *.
  - injection H as <-. reflexivity.
  - destruct (norm pass rem) as [|[g [|n]] t]; try discriminate. destruct (f =? g)%Z; [|discriminate]. eauto.
Qed.

Lemma drop0_idem l : drop0 (drop0 l) = drop0 l.
Proof. induction l as [|[f [|n]] t IH]; cbn; auto. Qed.

Lemma drop0_head l : match drop0 l with (_, O) :: _ => False | _ => True end.
Proof. induction l as [|[f [|n]] t IH]; cbn; auto. Qed.

Lemma visits_of_app a b : visits_of (a ++ b) = visits_of a ++ visits_of b.
Proof. unfold visits_of. apply flat_map_app. Qed.

(* a scan over rem, started with the cursor at k (same next slot), walks to the cursor it leaves *)
Lemma scan_walk pass test rem : forall vs r k,
  scan test rem = (vs, r) ->
  (drop0 rem <> [] -> norm pass k = drop0 rem) -> (drop0 rem = [] -> drop0 k = []) ->
  exists k', walk pass k (visits_of vs) = Some k' /\
             match r with Some (f, rem') => k' = rem' | None => drop0 k' = [] end.
Proof.
  induction rem as [|[g m] t IH]; intros vs r k H Hk Hk0; cbn in H.
  - injection H as <- <-. exists k. split; [reflexivity|]. apply Hk0. reflexivity.
  - destruct m as [|m].
    + apply (IH vs r k H); cbn in Hk, Hk0; assumption.
    + cbn in Hk. destruct (test g) eqn:T.
      * injection H as <- <-. exists ((g, m) :: t). split; [|reflexivity].
        cbn. rewrite Hk by discriminate. rewrite Z.eqb_refl. reflexivity.
      * destruct (scan test t) as [vs' r'] eqn:Sc. injection H as <- <-.
        destruct (IH vs' r' t eq_refl) as (k' & W & E).
        { intros NE. unfold norm. destruct (drop0 t); [contradiction|reflexivity]. }
        { auto. }
        exists k'. split; [|exact E]. cbn. rewrite Hk by discriminate. rewrite Z.eqb_refl. exact W.
Qed.

Lemma norm_of_drop0 pass k rem : drop0 k = drop0 rem -> norm pass k = norm pass rem.
Proof. unfold norm. intros ->. reflexivity. Qed.

(* [walk] looks at its cursor through [norm] only *)
Lemma walk_equiv pass k k' vs a :
  norm pass k = norm pass k' -> walk pass k vs = Some a -> exists b, walk pass k' vs = Some b /\ norm pass b = norm pass a.
Proof.
  intros E. destruct vs as [|[f b] r]; cbn.
  - intros H; injection H as <-. exists k'. auto.
  - rewrite E. intros H. exists a. auto.
Qed.

Lemma norm_end pass k : drop0 k = [] -> norm pass k = norm pass pass.
Proof. unfold norm. intros ->. destruct (drop0 pass); reflexivity. Qed.

Lemma scan_walk_self pass test rem vs r :
  scan test rem = (vs, r) ->
  exists k', walk pass rem (visits_of vs) = Some k' /\ match r with Some (f, rem') => k' = rem' | None => drop0 k' = [] end.
Proof.
  intros H. apply (scan_walk pass test rem vs r rem H); [|auto].
  intros NE. unfold norm. destruct (drop0 rem); [contradiction|reflexivity].
Qed.

Definition cursor_of (c : mq_cfg) (o : outcome) : list (Z * nat) := match o with OCommit _ r => r | _ => pass c end.

Lemma decide_walk c s rem vs o :
  brk c = false -> decide c s rem = (vs, o) ->
  exists k, walk (pass c) rem (visits_of vs) = Some k /\ norm (pass c) k = norm (pass c) (cursor_of c o).
Proof.
  intros B. assert (Af : forall r, after c r = r) by (intros r; unfold after; rewrite B; reflexivity). unfold decide.
  destruct (scan (nonempty c s) rem) as [vs0 r0] eqn:S1. destruct (scan_walk_self (pass c) _ _ _ _ S1) as (k1 & W1 & E1).
  destruct r0 as [[f r]|]; [intros H; injection H as <- <-; cbn; rewrite Af; subst k1; eauto|].
  pose proof (norm_end (pass c) k1 E1) as N1.
  destruct (mtotal s =? 0)%Z; [intros H; injection H as <- <-; eauto|].
  destruct (scan (nonempty c s) (pass c)) as [vs1 r1] eqn:S2. destruct (scan_walk_self (pass c) _ _ _ _ S2) as (k2 & W2 & E2).
  destruct (walk_equiv _ _ _ _ _ (eq_sym N1) W2) as (k3 & W3 & N3).
  intros H. exists k3. rewrite N3. destruct r1 as [[f r]|]; injection H as <- <-; cbn; rewrite ?Af;
    (split; [rewrite visits_of_app, (walk_app _ _ _ _ _ W1); exact W3|]); [subst k2; reflexivity|apply norm_end; exact E2].
Qed.

Theorem visits_run c : wf c -> brk c = false -> forall acts s ins outs s' tr k,
  Inv c ins outs s -> mq_run c s acts = Some (s', tr) -> norm (pass c) k = norm (pass c) (cursor c s) ->
  exists k', walk (pass c) k (tr_visits tr) = Some k' /\ norm (pass c) k' = norm (pass c) (cursor c s').
Proof.
  intros R B. induction acts as [|a rest IH]; intros s ins outs s' tr k Iv H Hk.
  - injection H as <- <-. exists k. split; [reflexivity|exact Hk].
  - apply mq_run_cons in H as (s1 & o & tr' & A & Rn & ->).
    unfold tr_visits. cbn [flat_map snd]. fold (tr_visits tr').
    assert (St : exists k1, walk (pass c) k (visits_of o) = Some k1 /\ norm (pass c) k1 = norm (pass c) (cursor c s1)).
    { destruct (runs_loop a) eqn:Ra.
      - destruct (resume_site c ins outs s a s1 o Iv A Ra) as (s0 & out & _ & _ & D & St & _).
        destruct (decide_walk c s0 _ _ _ B D) as (k0 & W0 & N0).
        destruct (walk_equiv _ _ _ _ _ (eq_sym Hk) W0) as (k1 & W1 & N1). exists k1. split; [exact W1|].
        rewrite N1, N0. unfold cursor. rewrite (proj1 (settle_frame _ _ _ St)). destruct out; reflexivity.
      - destruct (other_site c s a s1 o A Ra) as (Ec & Nv & _). rewrite Nv, Ec. exists k. auto. }
    destruct St as (k1 & W1 & N1).
    destruct (IH s1 _ _ s' tr' k1 (inv_step c ins outs s a s1 o R Iv A) Rn N1) as (k2 & W2 & N2).
    exists k2. split; [|exact N2]. rewrite (walk_app _ _ _ _ _ W1). exact W2.
Qed.

(* what a visit means for the queues: a class is skipped only when it holds nothing, a class that is served gives
   the head of its queue *)
Theorem visit_meaning c s a s' o f b :
  wf c -> reachable c s -> mq_act c s a = Some (s', o) -> In (OVisit f b) o ->
  if b then exists x rest, items (mstores s f) = x :: rest /\ get (mstores s' f) = GGranted x /\ items (mstores s' f) = rest
  else items (mstores s f) = [] /\ held_class c s f = [].
Proof.
  intros R Rs A Hin. destruct (reachable_inv c s R Rs) as (ins & outs & Iv).
  destruct (resume_site c ins outs s a s' o Iv A (visit_loop c s a s' o f b A Hin)) as (s0 & out & C0 & M0 & D & St & Est & _ & Ch & _).
  pose proof (decide_outcome _ _ _ _ _ D) as O.
  pose proof (decide_visit _ _ _ _ _ _ _ D Hin) as V. rewrite <- Est. destruct b.
  - destruct V as (r & ->). rewrite (nonempty_spec c ins outs s0 f R C0 M0) in O.
    destruct (items (mstores s0 f)) as [|x rest] eqn:E; [discriminate|].
    exists x, rest. split; [reflexivity|]. apply (commit_stores s0 f r s' St). exact E.
  - rewrite (nonempty_spec c ins outs s0 f R C0 M0) in V.
    assert (E : items (mstores s0 f) = []) by (destruct (items (mstores s0 f)); [reflexivity|discriminate]).
    unfold held_class, child_pkts, sq_held. rewrite <- Est, (m_getf _ M0 f), E. destruct Ch as [-> | ->]; auto.
Qed.

(* ---------------------------------------------------------------------------------------------- *)
(* back to back: when a transmission ends with a packet held, the next one starts before the clock moves *)

Lemma run_same_instant c : forall acts s s' tr,
  mq_run c s acts = Some (s', tr) -> (forall t, ~ In (SAdvance t) acts) ->
  mnow s' = mnow s /\ forall e, In e tr -> fst (fst e) = mnow s.
Proof.
  induction acts as [|a rest IH]; intros s s' tr H NA.
  - injection H as <- <-. split; [reflexivity|intros e []].
  - apply mq_run_cons in H as (s1 & o & tr' & A & Rn & ->).
    assert (N1 : mnow s1 = mnow s) by (eapply act_now; eauto; intros t E; apply (NA t); left; auto).
    destruct (IH s1 s' tr' Rn) as [N2 Ht]; [intros t Hin; apply (NA t); right; exact Hin|].
    split; [congruence|]. intros e [<-|Hin]; [exact N1|]. rewrite (Ht e Hin). exact N1.
Qed.

Definition tr_starts (tr : list tev) : list pkt := flat_map (fun e => starts (snd e)) tr.

Lemma no_start_no_tx c : wf c -> forall acts s ins outs s' tr,
  Inv c ins outs s -> mq_run c s acts = Some (s', tr) -> child_tx s = None -> tr_starts tr = [] ->
  child_tx s' = None /\ tr_fwds tr = [].
Proof.
  intros R. induction acts as [|a rest IH]; intros s ins outs s' tr Iv H C0 Ns.
  - injection H as <- <-. auto.
  - apply mq_run_cons in H as (s1 & o & tr' & A & Rn & ->).
    apply app_eq_nil in Ns as [So Ns]. cbn [snd] in So.
    destruct (tx_step c ins outs s a s1 o R Iv A) as [(p & Es & _)|[(p & dl & _ & _ & E0 & _)|(_ & Ef & E1 & _)]];
      [congruence|congruence|].
    destruct (IH s1 _ _ s' tr' (inv_step c ins outs s a s1 o R Iv A) Rn) as [Cn Fn]; [congruence|exact Ns|].
    split; [exact Cn|]. unfold tr_fwds in *. cbn [flat_map snd]. rewrite Ef, Fn. reflexivity.
Qed.

Theorem back_to_back c acts1 s1 tr1 s2 o acts2 s3 tr2 t r :
  cfg_ok c ->
  mq_run c (mq0 c) acts1 = Some (s1, tr1) ->
  mq_act c s1 SChildTimer = Some (s2, o) ->
  (exists f, held_class c s2 f <> []) ->
  mq_run c s2 acts2 = Some (s3, tr2) -> (forall t', ~ In (SAdvance t') acts2) ->
  mq_act c s3 (SAdvance t) = Some r ->
  exists e p, In e tr2 /\ In (OStart p) (snd e) /\ fst (fst e) = mnow s2.
Proof.
  (* if no transmission started along acts2, nothing was forwarded and none is in progress at s3; the clock may move
     there, so s3 holds nothing; but what s2 held of f is still held or was forwarded *)
  intros Ok R1 A2 (f & Hf) R2 NA A3. pose proof (proj1 Ok) as R.
  pose proof (inv_run c R acts1 (mq0 c) [] [] s1 tr1 (inv0 c) R1) as Iv1.
  pose proof (inv_step c _ _ s1 _ s2 o R Iv1 A2) as Iv2.
  match type of Iv2 with Inv _ ?i ?o _ => set (ins2 := i) in *; set (outs2 := o) in * end.
  pose proof (inv_run c R acts2 s2 _ _ s3 tr2 Iv2 R2) as Iv3.
  destruct (run_same_instant c acts2 s2 s3 tr2 R2 NA) as [_ Ht].
  pose proof (spin_step c _ _ s1 _ s2 o Ok Iv1 (never_spins c s1 Ok (run_reachable c acts1 s1 tr1 R1)) A2) as NS2.
  pose proof (run_invariant c (fun s => mpc s <> PSpin) R (fun s ins outs a s' o' I => spin_step c ins outs s a s' o' Ok I)
                acts2 s2 _ _ s3 tr2 Iv2 NS2 R2) as NS3.
  destruct (tr_starts tr2) as [|p l] eqn:Es.
  2:{ assert (Hp : In p (tr_starts tr2)) by (rewrite Es; left; reflexivity).
      apply in_flat_map in Hp as (e & He & Hp). apply in_flat_map in Hp as (x & Hx & Hp).
      destruct x; try contradiction. destruct Hp as [<-|[]]. exists e, p0. auto. }
  exfalso.
  assert (C2 : child_tx s2 = None).
  { cbn in A2. destruct (mchild s1); try discriminate. destruct (Qeq_bool dl (mnow s1)); [|discriminate]. injection A2 as <- <-. reflexivity. }
  destruct (no_start_no_tx c R acts2 s2 _ _ s3 tr2 Iv2 R2 C2 Es) as [C3 F3].
  pose proof (i_cons _ _ _ _ (proj1 Iv2) f) as E2. pose proof (i_cons _ _ _ _ (proj1 Iv3) f) as E3.
  rewrite F3, app_nil_r, filter_app, E2, <- app_assoc in E3. apply app_inv_head in E3.
  destruct (quiet_transmitting_or_empty c _ _ s3 Iv3 NS3) as [(p & dl & Ch & _)|He].
  - cbn in A3. destruct (urgent c s3); [discriminate|reflexivity].
  - unfold child_tx in C3. rewrite Ch in C3. discriminate.
  - rewrite (He f) in E3. destruct (held_class c s2 f); [apply Hf; reflexivity|discriminate].
Qed.

(* ---------------------------------------------------------------------------------------------- *)
(* the sequence of transmission starts is the sequence of visits that took a packet *)

Definition served (vs : list (Z * bool)) : list Z := map fst (filter snd vs).
(* the class run() has committed to and whose transmission has not started yet *)
Definition pending (c : mq_cfg) (s : mq) : list Z :=
  match mpc s, mchild s with
  | PGet f _, _ => [f]
  | _, CInit p => [cls c (flow p)]
  | _, _ => []
  end.
Definition pclass (c : mq_cfg) (p : pkt) : Z := cls c (flow p).

Lemma served_app a b : served (a ++ b) = served a ++ served b.
Proof. unfold served. rewrite filter_app, map_app. reflexivity. Qed.

Lemma served_visits sk o :
  served (visits_of (map (fun g => OVisit g false) sk ++ hit o)) = match o with OCommit f _ => [f] | _ => [] end.
Proof. induction sk as [|g t IH]; [destruct o; reflexivity|exact IH]. Qed.

Lemma starts_step c ins outs s a s' o :
  Inv c ins outs s -> mq_act c s a = Some (s', o) ->
  pending c s ++ served (visits_of o) = map (pclass c) (starts o) ++ pending c s'.
Proof.
  intros Iv A. pose proof Iv as [C Sh]. pose proof (i_child _ Sh) as Hc. unfold pending.
  destruct (runs_loop a) eqn:Ra.
  - destruct (resume_site c ins outs s a s' o Iv A Ra) as (s0 & out & _ & M0 & D & St & _ & _ & Ch & Ng).
    rewrite (proj2 (decide_silent _ _ _ _ _ D)). destruct (settle_frame _ _ _ St) as (_ & _ & Ch' & _).
    destruct (decide_visits _ _ _ _ _ D) as (sk & -> & _).
    rewrite served_visits, Ch', (m_child _ M0), (proj1 (settle_frame _ _ _ St)).
    destruct (mpc s) as [|g rem|rem| |]; [|exfalso; eapply Ng; eauto|..]; destruct Ch as [-> | ->]; destruct out; reflexivity.
  - destruct (act_effect c s a s' o A Ra) as [a o Q P Ch Hst S F V|f rem tm p P Ch P' Ch' Hh Oth|p Ch Ch' P St|p dl Ch Due Ch' P St].
    + rewrite V, S, P, Ch. apply app_nil_r.
    + rewrite P, P', Ch'. cbn. f_equal. symmetry. apply (held_in_ins c ins outs s f p C).
      unfold held_class. apply in_or_app. right. rewrite Hh. left. reflexivity.
    + rewrite P, Ch' , Ch in *. destruct (mpc s); try discriminate; reflexivity.
    + rewrite P, Ch', Ch in *. destruct (mpc s); try discriminate; reflexivity.
Qed.

Theorem starts_follow_visits c : wf c -> forall acts s ins outs s' tr,
  Inv c ins outs s -> mq_run c s acts = Some (s', tr) ->
  pending c s ++ served (tr_visits tr) = map (pclass c) (tr_starts tr) ++ pending c s'.
Proof.
  intros R. induction acts as [|a rest IH]; intros s ins outs s' tr Iv H.
  - injection H as <- <-. cbn. rewrite app_nil_r. reflexivity.
  - apply mq_run_cons in H as (s1 & o & tr' & A & Rn & ->).
    unfold tr_visits, tr_starts. cbn [flat_map snd]. fold (tr_visits tr'). fold (tr_starts tr').
    rewrite served_app, map_app, app_assoc, (starts_step c ins outs s a s1 o Iv A), <- !app_assoc.
    f_equal. apply (IH s1 _ _ s' tr' (inv_step c ins outs s a s1 o R Iv A) Rn).
Qed.

(* ---------------------------------------------------------------------------------------------- *)
(* statements for executions from the initial state *)

Theorem tx_wf_run0 c acts s tr : wf c -> mq_run c (mq0 c) acts = Some (s, tr) -> tx_wf c None tr.
Proof. intros R H. apply (tx_wf_run c R acts (mq0 c) [] [] s tr (inv0 c) H). Qed.

Theorem visits_run0 c acts s tr :
  wf c -> brk c = false -> mq_run c (mq0 c) acts = Some (s, tr) ->
  exists k, walk (pass c) (pass c) (tr_visits tr) = Some k /\ norm (pass c) k = norm (pass c) (cursor c s).
Proof. intros R B H. apply (visits_run c R B acts (mq0 c) [] [] s tr (pass c) (inv0 c) H). reflexivity. Qed.

Theorem starts_follow_visits0 c acts s tr :
  wf c -> mq_run c (mq0 c) acts = Some (s, tr) ->
  served (tr_visits tr) = map (pclass c) (tr_starts tr) ++ pending c s.
Proof. intros R H. apply (starts_follow_visits c R acts (mq0 c) [] [] s tr (inv0 c) H). Qed.

Theorem drained0 c acts s tr :
  cfg_ok c -> mq_run c (mq0 c) acts = Some (s, tr) -> urgent c s = false -> (forall p dl, mchild s <> CTx p dl) ->
  (forall f, held_class c s f = []) /\ (forall f, mqc s f = 0%Z /\ mqb s f = 0%Z) /\ mcur s = None /\
  (forall f, filter (is_flow f) (tr_puts tr) = filter (is_flow f) (tr_fwds tr)) /\ mpc s <> PSpin.
Proof.
  intros Ok H U Nd. pose proof (run_reachable c acts s tr H) as Rs.
  destruct (drained c s Ok Rs U Nd) as (He & Hq & Hc). split; [exact He|]. split; [exact Hq|]. split; [exact Hc|].
  split; [|apply (never_spins c s Ok Rs)].
  intros f. destruct (run_conserves c acts s tr (proj1 Ok) H) as (_ & Hcv & _). rewrite (Hcv f). unfold held_flow. rewrite (He (cls c f)).
  cbn. rewrite app_nil_r. reflexivity.
Qed.

Theorem monitor_samples0 c acts s tr incl :
  wf c -> mq_run c (mq0 c) acts = Some (s, tr) ->
  mq_act c s (SSample incl) =
    Some (s, [OSample (map (fun f => let l := if incl then held_flow c s f else waiting_flow c s f in
                                     (f, Z.of_nat (length l), sumsz l)) (sflows c))]).
Proof.
  intros R H. cbn [mq_act]. do 4 f_equal. apply map_ext. intros f.
  apply (monitor_samples c s incl f R (run_reachable c acts s tr H)).
Qed.
