(* RandomDemux (onl/netdev/demux.py): every packet is handed to ONE output, chosen by random.choices(outs, weights=probs).

   1. [choices_index]: a transcription of what CPython's random.choices does with one draw u = random():
        cum = accumulate(weights); total = cum[-1]; index = bisect_right(cum, u * total, 0, n - 1)
      (bisect on a non-decreasing list = the number of leading entries <= x; the search stops at n - 1: the index is clamped).
      For every weight list and every draw the index is < n; for non-negative weights with a positive total and 0 <= u < 1 the
      chosen output has a POSITIVE weight.  The correspondence computes the index of every packet with this function from the
      scripted draws and the weights in force, and compares it with what the real random.choices did, on every run.
   2. [rdemux_elem c t0 Es]: the demux as a fan-out element whose route comes from an ORACLE c (the choice made for each
      packet; any function of the packet -- for pairwise distinct packets every tape of choices is such a function, [tape_choice]).
      It is `pass >> bank t0 c Es` over Elem/ComposeSwitch.v, so conservation, exactly-one-output, per-output order and
      drained-at-quiescence hold for EVERY oracle. *)
From Coq Require Import ZArith QArith List Bool Permutation Lia Lqa Arith.
From ONL Require Import Elem.Packet Elem.Iface Elem.Compose Elem.ComposePar Elem.ComposeHands Elem.ComposeFan Elem.ComposeSwitch Route.Demux.
Import ListNotations.
Local Open Scope Q_scope.

(* ---- random.choices with one draw ------------------------------------------------------------------------------------ *)
Fixpoint cums (acc : Q) (ws : list Q) : list Q :=
  match ws with [] => [] | w :: r => (acc + w) :: cums (acc + w) r end.
(* bisect_right on a non-decreasing list: how many leading entries are <= x *)
Fixpoint count_le (x : Q) (l : list Q) : nat :=
  match l with [] => O | c :: r => if Qle_bool c x then S (count_le x r) else O end.
Definition choices_index (ws : list Q) (u : Q) : nat :=
  let cum := cums 0 ws in
  count_le (u * last cum 0) (firstn (pred (length ws)) cum).

Lemma count_le_len x l : (count_le x l <= length l)%nat.
Proof. induction l as [|c r IH]; cbn; [lia|]. destruct (Qle_bool c x); lia. Qed.
Lemma cums_len acc ws : length (cums acc ws) = length ws.
Proof. revert acc. induction ws as [|w r IH]; intros acc; cbn; [reflexivity|]. rewrite IH. reflexivity. Qed.

(* never out of range: random.choices cannot raise IndexError, whatever the weights sum to *)
Theorem choices_index_lt ws u : ws <> [] -> (choices_index ws u < length ws)%nat.
Proof.
  intros Hn. unfold choices_index. pose proof (count_le_len (u * last (cums 0 ws) 0) (firstn (pred (length ws)) (cums 0 ws))) as H.
  rewrite firstn_length, cums_len in H. destruct ws; [contradiction|]. cbn [length] in *. lia.
Qed.

Lemma count_le_firstn x : forall l k, count_le x (firstn k l) = Nat.min k (count_le x l).
Proof.
  induction l as [|c r IH]; intros k; [destruct k; reflexivity|]. destruct k as [|k]; [reflexivity|].
  cbn [firstn count_le]. destruct (Qle_bool c x); [rewrite IH; reflexivity|reflexivity].
Qed.

Fixpoint qsum (ws : list Q) : Q := match ws with [] => 0 | w :: r => w + qsum r end.
Lemma last_cums : forall ws acc, last (cums acc ws) acc == acc + qsum ws.
Proof.
  induction ws as [|w r IH]; intros acc; cbn [cums qsum]; [cbn; lra|].
  destruct r as [|w2 r2]; [cbn; lra|]. specialize (IH (acc + w)). cbn [cums] in *.
  change (last ((acc + w) :: (acc + w + w2) :: cums (acc + w + w2) r2) acc) with (last ((acc + w + w2) :: cums (acc + w + w2) r2) acc).
  assert (E : forall (l : list Q) a b c, last (c :: l) a = last (c :: l) b) by (induction l; intros; cbn; [reflexivity|apply IHl]).
  rewrite (E _ acc (acc + w)). rewrite IH. lra.
Qed.

(* the chosen slot of the cumulative list: its own weight is positive *)
Lemma count_le_pos : forall ws acc x, Forall (fun w => 0 <= w) ws -> acc <= x -> x < acc + qsum ws ->
  (count_le x (cums acc ws) < length ws)%nat /\ 0 < nth (count_le x (cums acc ws)) ws 0.
Proof.
  induction ws as [|w r IH]; intros acc x Hw Ha Hx; cbn [qsum] in Hx; [lra|].
  inversion Hw as [|? ? Hw0 Hwr]; subst. cbn [cums count_le length].
  destruct (Qle_bool (acc + w) x) eqn:E.
  - apply Qle_bool_iff in E. destruct (IH (acc + w) x Hwr E ltac:(lra)) as [L P]. split; [lia|exact P].
  - assert (N : ~ acc + w <= x) by (intros C; apply Qle_bool_iff in C; congruence). split; [lia|]. cbn [nth]. lra.
Qed.

(* with non-negative weights, a positive total and a draw in [0, 1) the chosen output has a positive weight (an output of weight 0
   is never chosen) *)
Theorem choices_index_weight ws u : Forall (fun w => 0 <= w) ws -> 0 < qsum ws -> 0 <= u -> u < 1 ->
  0 < nth (choices_index ws u) ws 0.
Proof.
  intros Hw Ht U0 U1. unfold choices_index. rewrite count_le_firstn.
  assert (Hl : last (cums 0 ws) 0 == qsum ws) by (rewrite last_cums; lra).
  assert (Hx : 0 <= u * last (cums 0 ws) 0 /\ u * last (cums 0 ws) 0 < 0 + qsum ws).
  { rewrite Hl. split; [apply Qmult_le_0_compat; lra|]. assert (u * qsum ws < 1 * qsum ws) by (apply Qmult_lt_compat_r; assumption). lra. }
  destruct (count_le_pos ws 0 _ Hw (proj1 Hx) (proj2 Hx)) as [L P].
  rewrite Nat.min_r by lia. exact P.
Qed.

(* ---- the demux as an element with an oracle --------------------------------------------------------------------------- *)
Definition pass_route : Z -> output := fun _ => ODefault.        (* RandomDemux has no discard rule: every packet is handed on *)
Definition rdemux_elem (c : pkt -> nat) (t0 : Q) (Es : list elem) : elem := demux_elem pass_route t0 >> bank t0 c Es.

Lemma filter_pass (l : list pkt) : filter (routed pass_route) l = l.
Proof. induction l as [|p l IH]; [reflexivity|]. cbn [filter]. assert (E : routed pass_route p = true) by reflexivity. rewrite E, IH. reflexivity. Qed.

(* for EVERY oracle: put in = delivered at the outputs ++ discarded by the devices behind them (the demux itself discards
   nothing) ++ held there; and nothing is held at quiescence *)
Theorem rdemux_conserves c t0 Es : Forall conserves Es -> conserves (rdemux_elem c t0 Es).
Proof. intros HL. apply series_conserves; [apply (l_conserves _ (demux_elem_laws pass_route t0))|apply bank_conserves; exact HL]. Qed.
Theorem rdemux_drained c t0 Es : Forall conserves Es -> Forall drained Es -> drained (rdemux_elem c t0 Es).
Proof.
  intros HC HD. apply compose_drained; [apply (l_conserves _ (demux_elem_laws pass_route t0))|apply (l_drained _ (demux_elem_laws pass_route t0))|].
  apply bank_drained; exact HD.
Qed.
Theorem rdemux_timed c t0 Es : Forall timed Es -> timed (rdemux_elem c t0 Es).
Proof. intros HL. apply series_timed; [apply demux_elem_timed|apply bank_timed; exact HL]. Qed.
Theorem rdemux_tagged c t0 Es : Forall tagged Es -> tagged (rdemux_elem c t0 Es).
Proof. intros HL. apply series_tagged; [apply demux_elem_tagged|apply bank_tagged; exact HL]. Qed.

(* EXACTLY ONE OUTPUT, for every oracle: the device behind output i, inside ANY execution, runs as it would alone and was given
   exactly the packets the oracle sent to i, in the order in which they were put in (no packet twice, no packet of another output);
   what it delivers is delivered by the demux element; hence per-flow order holds per output whenever the device keeps it *)
Theorem rdemux_output c t0 Es : forall acts s tr,
  run (rdemux_elem c t0 Es) (init (rdemux_elem c t0 Es)) acts = Some (s, tr) ->
  forall i E, nth_error Es i = Some E ->
  exists sE acts_i tr_i, bank_has t0 Es c (snd s) i E sE /\ run E (init E) acts_i = Some (sE, tr_i) /\
    puts tr_i = filter (fun p => Nat.eqb (c p) i) (puts tr) /\ sublist (fwds tr_i) (fwds tr) /\
    (forall f, flow_fifo E f ->
       sublist (filter (on_flow f) (fwds tr_i)) (filter (on_flow f) (filter (fun p => Nat.eqb (c p) i) (puts tr)))).
Proof.
  intros acts s tr H i E Hn. unfold rdemux_elem in H.
  destruct (series_projection_init _ _ _ _ _ H) as (trD & trB & RD & RB & P1 & P2 & P3 & _).
  destruct (demux_run _ _ _ _ _ _ RD) as [FD _].
  destruct (bank_has_total t0 Es c (snd s) i E Hn) as [sE Hh].
  destruct (bank_projection t0 _ _ _ _ _ _ Hh _ _ RB) as (acts_i & tr_i & R & P & Fw & _).
  assert (Hp : puts trB = puts tr).
  { rewrite P2, FD, P1. apply filter_pass. }
  exists sE, acts_i, tr_i. split; [exact Hh|]. split; [exact R|]. rewrite Hp in P. rewrite P3 in Fw. repeat split; auto.
  intros f FF. rewrite <- P. exact (FF _ _ _ R).
Qed.

(* every tape of choices over pairwise distinct packets is an oracle *)
Fixpoint tape_fun (ps : list pkt) (tape : list nat) (p : pkt) : nat :=
  match ps, tape with
  | q :: ps', i :: tape' => if Nat.eqb (uid q) (uid p) then i else tape_fun ps' tape' p
  | _, _ => O
  end.
Theorem tape_choice : forall ps tape, NoDup (map uid ps) -> length tape = length ps -> map (tape_fun ps tape) ps = tape.
Proof.
  induction ps as [|q ps IH]; intros tape ND Hl; destruct tape as [|i tape]; try discriminate; [reflexivity|].
  cbn [map tape_fun]. rewrite Nat.eqb_refl. f_equal. inversion ND as [|? ? Nq NDr]; subst.
  transitivity (map (tape_fun ps tape) ps); [|apply IH; [exact NDr|cbn in Hl; lia]]. apply map_ext_in. intros p Hp. cbn [tape_fun].
  destruct (Nat.eqb_spec (uid q) (uid p)) as [E|_]; [|reflexivity]. exfalso. apply Nq. rewrite E. apply in_map. exact Hp.
Qed.
