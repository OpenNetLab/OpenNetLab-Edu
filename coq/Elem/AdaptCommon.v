(* What the adapters (Elem/Adapt*.v) share.
   1. An adapter presents a layer-E automaton `m_act : state -> action -> option (state * outputs)` as an interface element
      whose labels are the automaton's own actions.  [adapter] names the pieces, [adapter_ok] says how the element's put /
      step / advance are made from m_act, and from that alone: the element's executions are exactly the automaton's (both
      directions), the clock laws ([timed]) and the stage numbering ([tagged]).
   2. For elements that keep one queue per class: from "per class, puts = forwards ++ held" to one multiset equation. *)
From Coq Require Import ZArith QArith List Bool Permutation Lia.
From ONL Require Import Elem.Packet Elem.Iface Elem.Compose Elem.ComposeHands.
Import ListNotations.

Set Implicit Arguments.

Record adapter (E : elem) := {
  m_out : Type;
  m_ev : Type;
  m_act : st E -> lab E -> option (st E * list m_out);
  m_run : st E -> list (lab E) -> option (st E * list m_ev);
  m_mk : st E -> lab E -> list m_out -> m_ev;                (* the event of an action that led to the given state *)
  m_iev : m_ev -> tev (lab E);
  m_oe : list m_out -> list eout;
  m_put : pkt -> lab E;
  m_adv : Q -> lab E;
  m_int : lab E -> bool;
  m_acc : pkt -> bool;                                       (* the packets put() admits at all *)
  m_of : lab E -> iact (lab E);
  m_ok : lab E -> Prop                                       (* the automaton's actions the element covers *)
}.
(* without this the record literals of Adapt*.v do not typecheck: st E and lab E are not known yet when the field m_act
   is elaborated, so the element has to be read off the expected type `adapter (X_elem ..)` first *)
Arguments Build_adapter E & _ _ _ _ _ _ _ _ _ _ _ _ _.

Definition m_to E (M : adapter E) (a : iact (lab E)) : lab E :=
  match a with IPut p => m_put M p | IStep l => l | IAdv t => m_adv M t end.
Definition m_adm E (M : adapter E) (a : iact (lab E)) : bool :=
  match a with IPut p => m_acc M p | IStep l => m_int M l | IAdv _ => true end.
Definition m_lift E (M : adapter E) (r : option (st E * list (m_out M))) : option (st E * list eout) :=
  match r with Some (s', o) => Some (s', m_oe M o) | None => None end.

Unset Implicit Arguments.

Record adapter_ok {E} (M : adapter E) : Prop := {
  ok_put : forall p s, put E p s = if m_acc M p then m_lift M (m_act M s (m_put M p)) else None;
  ok_step : forall a s, step E a s = if m_int M a then m_lift M (m_act M s a) else None;
  ok_advance : forall t s, advance E t s = match m_act M s (m_adv M t) with Some (s', _) => Some s' | None => None end;
  ok_run_nil : forall s, m_run M s [] = Some (s, []);
  ok_run_cons : forall s a r, m_run M s (a :: r) =
    match m_act M s a with
    | None => None
    | Some (s', o) => match m_run M s' r with None => None | Some (s'', tr) => Some (s'', m_mk M s' a o :: tr) end
    end;
  ok_iev : forall s a o, m_iev M (m_mk M s a o) = (now E s, m_of M a, m_oe M o);
  ok_oe_nil : m_oe M [] = [];
  ok_no_hand : forall o, Forall no_hand (m_oe M o);
  ok_width : width E = 1%nat;
  ok_of_put : forall p, m_of M (m_put M p) = IPut p;
  ok_of_adv : forall t, m_of M (m_adv M t) = IAdv t;
  ok_of_int : forall a, m_int M a = true -> m_of M a = IStep a;
  ok_cover : forall a, m_adm M a = true -> m_ok M (m_to M a);
  ok_view : forall a, m_ok M a ->
    match m_of M a with
    | IPut p => a = m_put M p /\ m_acc M p = true
    | IStep l => a = l /\ m_int M l = true
    | IAdv t => a = m_adv M t
    end;
  ok_act_now : forall s a s' o, m_act M s a = Some (s', o) -> (forall t, a <> m_adv M t) -> now E s' = now E s;
  ok_adv_inv : forall s t s' o, m_act M s (m_adv M t) = Some (s', o) ->
    o = [] /\ now E s' = t /\ now E s < t /\ urgent E s = false /\ forall d, deadline E s = Some d -> t <= d
}.

(* [case_tests H]: case analysis on every test the computation in H makes, innermost scrutinee first, dropping the branches
   that return nothing.  Used to see that no branch of an action other than Advance touches the clock. *)
Ltac case_tests H := repeat match type of H with
  | context [match ?x with _ => _ end] =>
      lazymatch x with
      | context [match _ with _ => _ end] => fail
      | _ => destruct x eqn:?; try discriminate
      end
  end.

Section Adapter.
  Variable E : elem.
  Variable M : adapter E.
  Hypothesis W : adapter_ok M.

  Lemma adapter_act s a : act E s a =
    if m_adm M a then m_lift M (m_act M s (m_to M a)) else None.
  Proof.
    destruct a as [p|l|t]; cbn [act m_to m_adm]; [apply (ok_put M W)|apply (ok_step M W)|]. rewrite (ok_advance M W).
    destruct (m_act M s (m_adv M t)) as [[s' o]|] eqn:Ea; [|reflexivity].
    destruct (ok_adv_inv M W _ _ _ _ Ea) as [-> _]. cbn [m_lift]. rewrite (ok_oe_nil M W). reflexivity.
  Qed.

  Lemma adapter_of_to a : m_adm M a = true -> m_of M (m_to M a) = a.
  Proof. destruct a; cbn [m_to m_adm]; intros H; [apply (ok_of_put M W)|apply (ok_of_int M W); exact H|apply (ok_of_adv M W)]. Qed.

  Lemma adapter_act_of s a : m_ok M a -> act E s (m_of M a) = m_lift M (m_act M s a).
  Proof.
    intros K. rewrite adapter_act. pose proof (ok_view M W a K) as V.
    destruct (m_of M a) as [p|l|t]; cbn [m_to m_adm]; [destruct V as [<- ->]|destruct V as [<- ->]|subst a]; reflexivity.
  Qed.

  Theorem adapter_run_elem : forall acts s s' tr, Forall (m_ok M) acts -> m_run M s acts = Some (s', tr) ->
    run E s (map (m_of M) acts) = Some (s', map (m_iev M) tr).
  Proof.
    induction acts as [|a acts IH]; intros s s' tr K H.
    - rewrite (ok_run_nil M W) in H. injection H as <- <-. reflexivity.
    - rewrite (ok_run_cons M W) in H. inversion K as [|? ? Ka Kr]; subst.
      destruct (m_act M s a) as [[s1 o]|] eqn:Ea; [|discriminate].
      destruct (m_run M s1 acts) as [[s2 tr1]|] eqn:Er; [|discriminate]. injection H as <- <-.
      cbn [map run]. rewrite (adapter_act_of _ _ Ka), Ea. cbn [m_lift]. rewrite (IH _ _ _ Kr Er), (ok_iev M W). reflexivity.
  Qed.

  Theorem adapter_elem_run : forall acts s s' tr, run E s acts = Some (s', tr) ->
    exists tr0, m_run M s (map (m_to M) acts) = Some (s', tr0) /\ tr = map (m_iev M) tr0 /\
                map (m_of M) (map (m_to M) acts) = acts /\ Forall (m_ok M) (map (m_to M) acts).
  Proof.
    apply (run_ind E (fun s acts s' tr => exists tr0, m_run M s (map (m_to M) acts) = Some (s', tr0) /\ tr = map (m_iev M) tr0 /\
                        map (m_of M) (map (m_to M) acts) = acts /\ Forall (m_ok M) (map (m_to M) acts))).
    - intros s. exists []. rewrite (ok_run_nil M W). repeat split. constructor.
    - intros s a s1 o acts s2 tr Ea _ (tr0 & R0 & -> & Hm & Hf). rewrite adapter_act in Ea.
      destruct (m_adm M a) eqn:G; [|discriminate].
      destruct (m_act M s (m_to M a)) as [[s1' o']|] eqn:E0; [|discriminate]. injection Ea as -> <-.
      exists (m_mk M s1 (m_to M a) o' :: tr0). cbn [map]. rewrite (ok_run_cons M W), E0, R0, (ok_iev M W), (adapter_of_to _ G), Hm.
      repeat split. constructor; [apply (ok_cover M W); exact G|exact Hf].
  Qed.

  Corollary adapter_run_elem_all : (forall a, m_ok M a) -> forall acts s s' tr, m_run M s acts = Some (s', tr) ->
    run E s (map (m_of M) acts) = Some (s', map (m_iev M) tr).
  Proof. intros K acts s s' tr. apply adapter_run_elem, Forall_forall. intros a _. apply K. Qed.
  Corollary adapter_elem_run_all : forall acts s s' tr, run E s acts = Some (s', tr) ->
    exists tr0, m_run M s (map (m_to M) acts) = Some (s', tr0) /\ tr = map (m_iev M) tr0 /\ map (m_of M) (map (m_to M) acts) = acts.
  Proof. intros acts s s' tr H. destruct (adapter_elem_run _ _ _ _ H) as (tr0 & R & T & A & _). eauto. Qed.

  Theorem adapter_laws (mp mf md : list (m_ev M) -> list pkt) :
    (forall tr, puts (map (m_iev M) tr) = mp tr) -> (forall tr, fwds (map (m_iev M) tr) = mf tr) ->
    (forall tr, drops (map (m_iev M) tr) = md tr) ->
    (forall acts s tr, Forall (m_ok M) acts -> m_run M (init E) acts = Some (s, tr) ->
       Permutation (mp tr) (mf tr ++ md tr ++ held E s) /\
       (forall f, sublist (filter (on_flow f) (mf tr)) (filter (on_flow f) (mp tr))) /\
       (Forall (fun p => accepts E p = true) (mp tr) -> urgent E s = false -> deadline E s = None -> held E s = [])) ->
    laws E.
  Proof.
    intros Hp Hf Hd HL.
    split; [|intros f|]; intros acts s tr H; destruct (adapter_elem_run _ _ _ _ H) as (tr0 & R0 & -> & _ & K);
      destruct (HL _ _ _ K R0) as (C & F & D).
    - rewrite Hp, Hf, Hd. exact C.
    - rewrite Hp, Hf. apply F.
    - rewrite Hp. exact D.
  Qed.

  Theorem adapter_timed : timed E.
  Proof.
    assert (Hnow : forall s a s' o, act E s a = Some (s', o) -> (forall t, a <> IAdv t) -> now E s' = now E s).
    { intros s a s' o H Na. rewrite adapter_act in H.
      destruct (m_adm M a) eqn:G; [|discriminate].
      destruct (m_act M s (m_to M a)) as [[s1 o1]|] eqn:Ea; [|discriminate]. injection H as <- _.
      apply (ok_act_now M W _ _ _ _ Ea). intros t Et. apply (Na t). rewrite <- (adapter_of_to _ G), Et. apply (ok_of_adv M W). }
    split; [|split].
    - intros p s s' o H. apply (Hnow s (IPut p) s' o H). discriminate.
    - intros l s s' o H. apply (Hnow s (IStep l) s' o H). discriminate.
    - intros t s s' H. rewrite (ok_advance M W) in H. destruct (m_act M s (m_adv M t)) as [[s1 o]|] eqn:Ea; [|discriminate].
      injection H as <-. exact (proj2 (ok_adv_inv M W _ _ _ _ Ea)).
  Qed.

  Theorem adapter_tagged : tagged E.
  Proof.
    apply atomic_tagged; [rewrite (ok_width M W); constructor| |].
    - intros p s s' o H. rewrite (ok_put M W) in H. destruct (m_acc M p); [|discriminate].
      destruct (m_act M s (m_put M p)) as [[s1 o1]|]; [|discriminate]. injection H as _ <-. apply (ok_no_hand M W).
    - intros l s s' o H. rewrite (ok_step M W) in H. destruct (m_int M l); [|discriminate].
      destruct (m_act M s l) as [[s1 o1]|]; [|discriminate]. injection H as _ <-. apply (ok_no_hand M W).
  Qed.
End Adapter.

Lemma count_filter_key (key : pkt -> Z) p l :
  count_occ pk_eq_dec (filter (fun q => Z.eqb (key q) (key p)) l) p = count_occ pk_eq_dec l p.
Proof.
  induction l as [|x t IH]; cbn; [reflexivity|].
  destruct (pk_eq_dec x p) as [->|N].
  - rewrite Z.eqb_refl. cbn. destruct (pk_eq_dec p p); [|contradiction]. rewrite IH. reflexivity.
  - destruct (Z.eqb (key x) (key p)); [cbn; destruct (pk_eq_dec x p); [contradiction|]|]; exact IH.
Qed.

Lemma count_flat_map_key {K} (g : K -> list pkt) (p : pkt) (k0 : K) (dec : forall a b : K, {a = b} + {a <> b}) :
  (forall k, In p (g k) -> k = k0) -> forall ks, NoDup ks ->
  count_occ pk_eq_dec (flat_map g ks) p = if in_dec dec k0 ks then count_occ pk_eq_dec (g k0) p else 0%nat.
Proof.
  intros Hu. induction ks as [|k ks IH]; intros ND; [reflexivity|].
  inversion ND as [|? ? Nk NDr]; subst. cbn [flat_map]. rewrite count_occ_app, (IH NDr).
  destruct (dec k k0) as [->|Ne].
  - destruct (in_dec dec k0 (k0 :: ks)) as [_|N]; [|exfalso; apply N; left; reflexivity].
    destruct (in_dec dec k0 ks) as [I|_]; [contradiction|]. lia.
  - assert (Z0 : count_occ pk_eq_dec (g k) p = 0%nat).
    { apply count_occ_not_In. intros I. apply Ne. apply Hu. exact I. }
    rewrite Z0. destruct (in_dec dec k0 ks) as [I|N]; destruct (in_dec dec k0 (k :: ks)) as [I'|N']; try reflexivity.
    + exfalso. apply N'. right. exact I.
    + exfalso. destruct I' as [E|I']; [apply Ne; exact E|contradiction].
Qed.

Lemma flat_map_all_nil {K X} (g : K -> list X) ks : (forall k, g k = []) -> flat_map g ks = [].
Proof. intros H. induction ks as [|k ks IH]; [reflexivity|]. cbn [flat_map]. rewrite H, IH. reflexivity. Qed.

(* P = packets put, F = forwarded, H k = held in the queue of class k *)
Lemma class_partition_perm (key : pkt -> Z) (ks : list Z) (P F : list pkt) (H : Z -> list pkt) :
  NoDup ks ->
  (forall k, filter (fun p => Z.eqb (key p) k) P = filter (fun p => Z.eqb (key p) k) F ++ H k) ->
  (forall p, In p P -> In (key p) ks) ->
  Permutation P (F ++ flat_map H ks).
Proof.
  intros ND Hc Hin. apply (Permutation_count_occ pk_eq_dec). intros p. rewrite count_occ_app.
  rewrite <- (count_filter_key key p P), <- (count_filter_key key p F), (Hc (key p)), count_occ_app. f_equal.
  assert (Hk : forall k, In p (H k) -> k = key p).
  { intros k I. assert (I2 : In p (filter (fun q => Z.eqb (key q) k) P)) by (rewrite (Hc k); apply in_or_app; right; exact I).
    apply filter_In in I2 as [_ E]. apply Z.eqb_eq in E. symmetry. exact E. }
  rewrite (count_flat_map_key H p (key p) Z.eq_dec Hk ks ND).
  destruct (in_dec Z.eq_dec (key p) ks) as [_|N]; [reflexivity|].
  apply count_occ_not_In. intros I. apply N. apply Hin.
  assert (I2 : In p (filter (fun q => Z.eqb (key q) (key p)) P)) by (rewrite (Hc _); apply in_or_app; right; exact I).
  apply filter_In in I2 as [I2 _]. exact I2.
Qed.
