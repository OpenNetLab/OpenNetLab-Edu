(* Proofs about Elem/SP.v: the repaired SP scheduler is strictly prioritised in EVERY admissible execution, for
   every priority table; the loop of the pinned commit is not. *)
From Coq Require Import ZArith QArith List Bool Lia Lqa Sorted.
From ONL Require Import Base.Tools Elem.Packet Elem.StoreQ Elem.StoreQProofs Elem.SchedBase Elem.SchedResume Elem.SchedBaseProofs Elem.SP.
Import ListNotations.

(* ---- the sort ---- *)
Lemma ins_desc_in x l y : In y (ins_desc x l) <-> y = x \/ In y l.
Proof.
  induction l as [|z t IH]; cbn; [intuition|].
  destruct (snd z <=? snd x)%Z; cbn; rewrite ?IH; intuition.
Qed.

Lemma sort_desc_in l y : In y (sort_desc l) <-> In y l.
Proof.
  induction l as [|x t IH]; cbn; [tauto|]. rewrite ins_desc_in, IH. intuition.
Qed.

Definition ge_prio (x y : Z * Z) : Prop := (snd y <= snd x)%Z.

Lemma ins_desc_sorted x l : StronglySorted ge_prio l -> StronglySorted ge_prio (ins_desc x l).
Proof.
  induction l as [|z t IH]; cbn; intros S.
  - constructor; constructor.
  - inversion S as [|? ? St Hall]; subst. destruct (Z.leb_spec (snd z) (snd x)).
    + constructor; [exact S|]. constructor; [exact H|].
      eapply Forall_impl; [|exact Hall]. intros a Ha. unfold ge_prio in *. lia.
    + constructor; [apply IH; exact St|].
      apply Forall_forall. intros y Hy. apply ins_desc_in in Hy as [->|Hy].
      * unfold ge_prio. lia.
      * rewrite Forall_forall in Hall. apply Hall. exact Hy.
Qed.

Lemma sort_desc_sorted l : StronglySorted ge_prio (sort_desc l).
Proof. induction l as [|x t IH]; cbn; [constructor|apply ins_desc_sorted; exact IH]. Qed.

Lemma nodup_key (l : list (Z * Z)) k a b : NoDup (map fst l) -> In (k, a) l -> In (k, b) l -> a = b.
Proof.
  induction l as [|[k' v] t IH]; cbn; intros ND Ha Hb; [destruct Ha|].
  inversion ND as [|? ? Nin ND']; subst.
  destruct Ha as [Ea|Ha], Hb as [Eb|Hb].
  - congruence.
  - injection Ea as -> ->. exfalso. apply Nin. apply in_map_iff. exists (k, b). auto.
  - injection Eb as -> ->. exfalso. apply Nin. apply in_map_iff. exists (k, a). auto.
  - eauto.
Qed.

(* ---- the configuration ---- *)
Lemma sp_flows fixed r cm fl tbl f : In f (classes (sp_cfg fixed r cm fl tbl)) <-> In f (map fst tbl).
Proof.
  unfold classes, sp_cfg; cbn. rewrite map_map. cbn. rewrite !in_map_iff. split.
  - intros (x & <- & Hx). exists x. split; [reflexivity|]. apply sort_desc_in. exact Hx.
  - intros (x & <- & Hx). exists x. split; [reflexivity|]. apply sort_desc_in. exact Hx.
Qed.

Lemma sp_wf fixed r cm fl tbl : 0 < r -> wf (sp_cfg fixed r cm fl tbl).
Proof. intros R. split; [exact R|]. cbn. discriminate. Qed.

Lemma sp_cfg_ok fixed r cm fl tbl : 0 < r -> (forall f p, In (f, p) tbl -> (0 < p)%Z) -> cfg_ok (sp_cfg fixed r cm fl tbl).
Proof.
  intros R Pos. split; [apply sp_wf; exact R|]. intros f n Hin. unfold sp_cfg in Hin; cbn in Hin.
  apply in_map_iff in Hin as ([f' p] & E & Hx). rewrite sort_desc_in in Hx. unfold sp_slot in E; cbn in E.
  injection E as <- <-. specialize (Pos _ _ Hx). apply Z.ltb_lt in Pos. rewrite Pos. lia.
Qed.

(* ---- the repaired loop always scans from the top: the position it keeps is [] (the pass was left by `break`), so the
   next scan goes over the whole pass ---- *)
Definition top_cursor (c : mq_cfg) (s : mq) : Prop :=
  match mpc s with PGet _ rem => rem = [] | PChild rem => rem = [] | _ => True end.

Lemma top_step c ins outs s a s' o :
  brk c = true -> Inv c ins outs s -> top_cursor c s -> mq_act c s a = Some (s', o) -> top_cursor c s'.
Proof.
  intros B I T A. unfold top_cursor in *. destruct (runs_loop a) eqn:Ra.
  - destruct (resume_site c ins outs s a s' o I A Ra) as (s0 & out & _ & _ & D & St & _). rewrite (proj1 (settle_frame _ _ _ St)).
    destruct out as [f r| |]; cbn; auto. destruct (decide_commit _ _ _ _ _ _ D) as (vs0 & rem0 & r' & _ & -> & _).
    unfold after. rewrite B. reflexivity.
  - destruct (act_effect c s a s' o A Ra) as [a o Q P Ch Hst S F V|f rem tm p P Ch P' Ch' Hh Oth|p Ch Ch' P St|p dl Ch Due Ch' P St];
      rewrite ?P'; rewrite ?P in *; exact T.
Qed.

Lemma brk_top c s : wf c -> brk c = true -> reachable c s -> top_cursor c s.
Proof.
  intros R B. apply (reachable_invariant c (top_cursor c) R); [exact I|].
  intros s0 ins outs a s' o Iv. apply (top_step c ins outs s0 a s' o B Iv).
Qed.

Lemma decide_from_top c s cur vs f r :
  (cur = [] \/ cur = pass c) -> decide c s cur = (vs, OCommit f r) ->
  exists vs0 r', scan (nonempty c s) (pass c) = (vs0, Some (f, r')).
Proof.
  intros Hc D. destruct (decide_commit _ _ _ _ _ _ D) as (vs0 & rem0 & r' & Sc & _ & [->| ->]); [|eauto].
  destruct Hc as [->| ->]; [discriminate Sc|eauto].
Qed.

Lemma top_cursor_cases c s : top_cursor c s -> cursor c s = [] \/ cursor c s = pass c.
Proof. unfold top_cursor, cursor. destruct (mpc s); auto. Qed.

Definition higher (tbl : list (Z * Z)) (f g : Z) : Prop :=
  exists pf pg, In (f, pf) tbl /\ In (g, pg) tbl /\ (pf < pg)%Z.

Lemma scan_sorted test (L : list (Z * Z)) vs f rem' :
  StronglySorted ge_prio L -> scan test (map sp_slot L) = (vs, Some (f, rem')) ->
  exists pf, In (f, pf) L /\ (0 < pf)%Z /\ forall g pg, In (g, pg) L -> (pf < pg)%Z -> test g = false.
Proof.
  intros Srt. revert vs. induction Srt as [|[k pk] L Srt IH Hall]; intros vs Sc; [discriminate|].
  rewrite Forall_forall in Hall. cbn [map] in Sc. unfold sp_slot at 1 in Sc. cbn [fst snd] in Sc.
  destruct (Z.ltb_spec 0 pk) as [Pk|Pk]; cbn [scan] in Sc.
  - destruct (test k) eqn:T.
    + injection Sc as _ <- _. exists pk. split; [left; reflexivity|]. split; [exact Pk|].
      intros g pg [E|Hg] Lt; [injection E as <- <-; lia|]. specialize (Hall _ Hg). unfold ge_prio in Hall; cbn in Hall. lia.
    + destruct (scan test (map sp_slot L)) as [vs' r'] eqn:Sc'. injection Sc as _ ->.
      destruct (IH _ eq_refl) as (pf & Hin & Pf & Hi). exists pf. split; [right; exact Hin|]. split; [exact Pf|].
      intros g pg [E|Hg] Lt; [injection E as <- <-; exact T|eauto].
  - destruct (IH _ Sc) as (pf & Hin & Pf & Hi). exists pf. split; [right; exact Hin|]. split; [exact Pf|].
    intros g pg [E|Hg] Lt; [injection E as <- <-; lia|eauto].
Qed.

(* the scan of the whole pass that finds f found every class of higher priority empty *)
Lemma sp_scan_strict r cm fl tbl s vs f rem' g :
  NoDup (map fst tbl) ->
  scan (nonempty (sp_cfg true r cm fl tbl) s) (pass (sp_cfg true r cm fl tbl)) = (vs, Some (f, rem')) ->
  higher tbl f g -> items (mstores s g) = [] /\ g <> f.
Proof.
  intros ND Sc (pf & pg & Hf & Hg & Lt). unfold sp_cfg in Sc; cbn [pass] in Sc.
  destruct (scan_sorted _ _ _ _ _ (sort_desc_sorted tbl) Sc) as (pf' & Hin & _ & Hi).
  apply (proj1 (sort_desc_in tbl _)) in Hin. pose proof (nodup_key tbl f pf' pf ND Hin Hf). subst pf'.
  split; [|intros ->; pose proof (nodup_key tbl f pg pf ND Hg Hf); lia].
  specialize (Hi g pg (proj2 (sort_desc_in tbl (g, pg)) Hg) Lt). unfold nonempty in Hi; cbn in Hi.
  destruct (items (mstores s g)); [reflexivity|discriminate].
Qed.

(* C13, at the commit: whenever run() takes a packet of flow f, no class of higher priority holds a packet *)
Theorem sp_strict_commit r cm fl tbl s a s' o f g :
  0 < r -> NoDup (map fst tbl) -> reachable (sp_cfg true r cm fl tbl) s -> sp_act r cm fl tbl s a = Some (s', o) ->
  In (OVisit f true) o -> higher tbl f g ->
  sq_held (mstores s' g) = [] /\ items (mstores s g) = [] /\ (exists rem, mpc s' = PGet f rem) /\ mnow s' = mnow s.
Proof.
  intros R ND Rs A Hin Hi. pose proof (sp_wf true r cm fl tbl R) as W. unfold sp_act in A.
  set (c := sp_cfg true r cm fl tbl) in *.
  destruct (reachable_inv c s W Rs) as (ins & outs & Iv).
  destruct (resume_site c ins outs s a s' o Iv A (visit_loop c s a s' o f true A Hin)) as (s0 & out & C0 & M0 & D & St & Est & Enow & _).
  destruct (decide_visit _ _ _ _ _ _ _ D Hin) as (r0 & ->).
  destruct (decide_from_top c s0 _ _ f r0 (top_cursor_cases c s (brk_top c s W eq_refl Rs)) D) as (vs0 & r' & Sc).
  destruct (sp_scan_strict r cm fl tbl s0 vs0 f r' g ND Sc Hi) as [Eg Ng].
  destruct (settle_frame _ _ _ St) as (P & N & _). destruct (commit_stores s0 f r0 s' St) as [Oth _].
  split; [|split; [rewrite <- Est; exact Eg|split; [rewrite P; cbn; eauto|congruence]]].
  rewrite (Oth g Ng). unfold sq_held. rewrite (m_getf _ M0 g). exact Eg.
Qed.

(* ---- from the commit to the start of the timer: same instant; what a higher class holds then arrived meanwhile ---- *)
Definition fresh_above (c : mq_cfg) (tbl : list (Z * Z)) (s : mq) : Prop :=
  forall f g, committed c s f -> higher tbl f g -> Forall (fun x => fst x = mnow s) (sq_held (mstores s g)).

Lemma resume_pc_visit c s rem s' o f rem1 : resume c s rem = Some (s', o) -> mpc s' = PGet f rem1 -> mchild s' = mchild s.
Proof. intros H _. apply (resume_frame _ _ _ _ _ H). Qed.

Lemma fresh_step r cm fl tbl ins outs s a s' o :
  NoDup (map fst tbl) -> let c := sp_cfg true r cm fl tbl in
  Inv c ins outs s -> top_cursor c s -> fresh_above c tbl s -> mq_act c s a = Some (s', o) -> fresh_above c tbl s'.
Proof.
  intros ND c Iv T IH A f g Cm Hi. pose proof Iv as [C Sh]. destruct (runs_loop a) eqn:Ra.
  - (* run() scans: a commit finds the higher classes empty *)
    destruct (resume_site c ins outs s a s' o Iv A Ra) as (s0 & out & C0 & M0 & D & St & _). destruct (settle_frame _ _ _ St) as (P & _ & Ch & _).
    destruct Cm as [(rem & E)|(p & E & _)]; [|rewrite Ch, (m_child _ M0) in E; discriminate].
    rewrite P in E. destruct out as [f0 r0| |]; try discriminate. injection E as -> ->.
    destruct (decide_from_top c s0 _ _ f rem (top_cursor_cases c s T) D) as (vs0 & r' & Sc).
    destruct (sp_scan_strict r cm fl tbl s0 vs0 f r' g ND Sc Hi) as [Eg Ng].
    rewrite (proj1 (commit_stores s0 f rem s' St) g Ng). unfold sq_held. rewrite (m_getf _ M0 g), Eg. constructor.
  - pose proof (i_child _ Sh) as Hc.
    destruct (act_effect c s a s' o A Ra) as [a o Q P Ch Hst S F V|f0 rem tm p P Ch P' Ch' Hh Oth|p Ch Ch' P St|p dl Ch Due Ch' P St].
    + (* a put, a StorePut event, a sample; the clock cannot move while something is committed *)
      assert (Cm0 : committed c s f) by (unfold committed in *; rewrite <- P, <- Ch; exact Cm).
      assert (N : mnow s' = mnow s).
      { apply (act_now c s a s' o A). intros t ->. cbn in A. rewrite (committed_core_urgent c ins outs s f Iv Cm0) in A. discriminate. }
      rewrite (Hst g), N. apply Forall_app. split; [exact (IH f g Cm0 Hi)|].
      unfold arrival. destruct a; try constructor. destruct (g =? cls c (flow p))%Z; repeat constructor.
    + destruct Cm as [(rem' & E)|(p' & E & Fp')]; [rewrite P' in E; discriminate|]. rewrite Ch' in E. injection E as <-.
      assert (Fp : cls c (flow p) = f0).
      { apply (held_in_ins c ins outs s f0 p C). unfold held_class. apply in_or_app. right. rewrite Hh. left. reflexivity. }
      assert (Cm0 : committed c s f) by (left; exists rem; congruence).
      rewrite (act_now c s _ s' _ A) by discriminate. specialize (IH f g Cm0 Hi).
      destruct (Z.eq_dec g f0) as [->|Ng]; [|rewrite (Oth g Ng); exact IH]. rewrite Hh in IH. inversion IH; assumption.
    + exfalso. destruct Cm as [(rem & E)|(p' & E & _)]; [|congruence].
      rewrite P in E. rewrite E, Ch in Hc. discriminate.
    + exfalso. destruct Cm as [(rem & E)|(p' & E & _)]; [|congruence].
      rewrite P in E. rewrite E, Ch in Hc. discriminate.
Qed.

Lemma sp_fresh_above r cm fl tbl s :
  0 < r -> NoDup (map fst tbl) -> reachable (sp_cfg true r cm fl tbl) s -> fresh_above (sp_cfg true r cm fl tbl) tbl s.
Proof.
  intros R ND Rs. pose proof (sp_wf true r cm fl tbl R) as W. set (c := sp_cfg true r cm fl tbl) in *.
  apply (reachable_invariant c (fun s => top_cursor c s /\ fresh_above c tbl s) W); [| |exact Rs].
  - split; [exact I|]. intros f g [(rem & E)|(p & E & _)]; discriminate.
  - intros s0 ins outs a s' o Iv [T F] A. split; [apply (top_step c ins outs s0 a s' o eq_refl Iv T A)|].
    apply (fresh_step r cm fl tbl ins outs s0 a s' o ND Iv T F A).
Qed.

(* C13, at the start of the transmission timer: the commit was made at this very instant, and a packet of a higher
   class that is present now was put at this instant (after the commit) *)
Theorem sp_strict_at_start r cm fl tbl s s' o p g :
  0 < r -> NoDup (map fst tbl) -> reachable (sp_cfg true r cm fl tbl) s -> sp_act r cm fl tbl s SChildInit = Some (s', o) ->
  In (OStart p) o -> higher tbl (cm (flow p)) g -> Forall (fun x => fst x = mnow s) (sq_held (mstores s g)).
Proof.
  intros R ND Rs A Hin Hi. apply (sp_fresh_above r cm fl tbl s R ND Rs (cm (flow p)) g); [|exact Hi].
  right. unfold sp_act in A. cbn in A. destruct (mchild s) as [|p0| |]; try discriminate. injection A as <- <-.
  destruct Hin as [E|[]]. injection E as ->. eauto.
Qed.

(* the run() loop of the pinned commit serves a lower class while a higher one is backlogged *)
Definition sp_w1 : list saction :=
  [SPut (mkp 0 1 0 128 0); SPut (mkp 1 2 1 128 0); SPut (mkp 2 3 0 128 0); SPut (mkp 3 4 1 128 0);
   SInit; SStoreCb None; SStoreCb (Some 0%Z); SStoreCb (Some 1%Z); SStoreCb (Some 0%Z); SStoreCb (Some 1%Z);
   SGetDone (Some 1%Z); SChildInit; SAdvance 1; SChildTimer].

Theorem sp_strict_refuted_unfixed :
  exists r cm fl tbl acts s tr a s' o f g,
    0 < r /\ NoDup (map fst tbl) /\ (forall f p, In (f, p) tbl -> (0 < p)%Z) /\
    sp_run_unfixed r cm fl tbl acts = Some (s, tr) /\ mq_act (sp_cfg false r cm fl tbl) s a = Some (s', o) /\
    In (OVisit f true) o /\ higher tbl f g /\ items (mstores s g) <> [].
Proof.
  exists (1024 # 1), (fun f => f), [0; 1]%Z, [(0, 1); (1, 2)]%Z, sp_w1.
  destruct (run_facts (sp_run_unfixed (1024 # 1) (fun f => f) [0; 1]%Z [(0, 1); (1, 2)]%Z sp_w1)
              (fun s _ => match mq_act (sp_cfg false (1024 # 1) (fun f => f) [0; 1]%Z [(0, 1); (1, 2)]%Z) s SChildEnd with
                          | Some (_, o) => In (OVisit 0 true) o /\ items (mstores s 1) <> []
                          | None => False
                          end)) as (s & tr & E & P).
  { vm_compute. split; [left; reflexivity|discriminate]. }
  exists s, tr, SChildEnd.
  destruct (mq_act (sp_cfg false (1024 # 1) (fun f => f) [0; 1]%Z [(0, 1); (1, 2)]%Z) s SChildEnd) as [[s' o]|]; [|destruct P].
  exists s', o, 0%Z, 1%Z. split; [reflexivity|]. split; [repeat constructor; cbn; intuition discriminate|].
  split; [intros f p [H|[H|[]]]; injection H as <- <-; lia|]. split; [exact E|]. split; [reflexivity|].
  split; [apply P|]. split; [exists 1%Z, 2%Z; cbn; intuition lia|apply P].
Qed.

(* the repaired loop on the same execution: the higher class is drained first *)
Example sp_fixed_on_witness :
  match sp_run (1024 # 1) (fun f => f) [0; 1]%Z [(0, 1); (1, 2)]%Z (sp_w1 ++ [SChildEnd]) with
  | Some (s, tr) => mpc s = PGet 1%Z [] /\ length (items (mstores s 0%Z)) = 2%nat
  | None => False
  end.
Proof. vm_compute. split; reflexivity. Qed.

Theorem sp_commit_same_instant r cm fl tbl s f t :
  0 < r -> reachable (sp_cfg true r cm fl tbl) s -> committed (sp_cfg true r cm fl tbl) s f -> sp_act r cm fl tbl s (SAdvance t) = None.
Proof.
  intros R Rs Cm. unfold sp_act. cbn [mq_act]. rewrite (committed_urgent (sp_cfg true r cm fl tbl) s f (sp_wf true r cm fl tbl R) Rs Cm). reflexivity.
Qed.

Theorem sp_non_preemptive r cm fl tbl acts s tr :
  0 < r -> sp_run r cm fl tbl acts = Some (s, tr) -> tx_wf (sp_cfg true r cm fl tbl) None tr.
Proof.
  intros R H. apply (tx_wf_run (sp_cfg true r cm fl tbl) (sp_wf true r cm fl tbl R) acts (mq0 _) [] [] s tr (inv0 _) H).
Qed.

(* non-vacuity: a concrete admissible execution (observed on the real SP: four packets put at t = 0 before the wake-up
   token is processed, 128 B at 1024 bit/s = 1 s each; flows 0 and 1 share class 10 (priority 1), flow 2 is class 11 (priority 2)), its departure order, its visits, and the drained final state *)
Definition sp_ex_acts : list saction :=
  [SInit;
   SPut (mkp 0 1 0 128 0);
   SPut (mkp 1 2 1 128 0);
   SPut (mkp 2 3 2 128 0);
   SPut (mkp 3 4 0 128 0);
   SStoreCb None;
   SStoreCb (Some 10%Z);
   SStoreCb (Some 10%Z);
   SStoreCb (Some 11%Z);
   SStoreCb (Some 10%Z);
   SGetDone None;
   SGetDone (Some 11%Z);
   SChildInit;
   SAdvance (1 # 1);
   SChildTimer;
   SChildEnd;
   SGetDone (Some 10%Z);
   SChildInit;
   SAdvance (2 # 1);
   SChildTimer;
   SChildEnd;
   SGetDone (Some 10%Z);
   SChildInit;
   SAdvance (3 # 1);
   SChildTimer;
   SChildEnd;
   SGetDone (Some 10%Z);
   SChildInit;
   SAdvance (4 # 1);
   SChildTimer;
   SChildEnd].

Example sp_example :
  match sp_run (1024 # 1) (cls_of [(0, 10); (1, 10); (2, 11)]%Z) [0; 1; 2]%Z [(10, 1); (11, 2)]%Z sp_ex_acts with
  | Some (s, tr) => map uid (tr_fwds tr) = [2; 0; 1; 3]%nat /\ tr_visits tr = [(11, false); (10, false); (11, true); (11, false); (10, true); (11, false); (10, true); (11, false); (10, true)]%Z /\
                    map (fun e => fst (fst e)) (filter (fun e => negb (nilb (forwards (snd e)))) tr) = [1; 2; 3; 4] /\
                    urgent (sp_cfg true (1024 # 1) (cls_of [(0, 10); (1, 10); (2, 11)]%Z) [0; 1; 2]%Z [(10, 1); (11, 2)]%Z) s = false /\ mpc s = PTok
  | None => False
  end.
Proof. vm_compute. repeat split; reflexivity. Qed.
