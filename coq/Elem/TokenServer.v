(* What TokenBucket.run and TwoRateTokenBucket.run have in common: a server process that takes the packets of
   a FIFO Store one at a time (`packet = yield self.store.get()`), holds each until a deadline of its own
   making, forwards it and asks for the next.  The state of such an element is seen through [srv]; the
   invariant [SInv] ties the store, the counters and the timed traces (put() calls, head instants, departures)
   to a list of services, and is kept by each of the moves such a server makes.  What a service is, and when
   its packet leaves, is the element's business: here a service has a packet, an arrival, a head instant and a
   departure. *)
From Coq Require Import ZArith QArith Qminmax List Bool Lia Lqa.
From ONL Require Import Elem.Packet Elem.StoreQ Elem.StoreQProofs.
Import ListNotations.

Lemma flat_map_snoc {A B} (f : A -> list B) l x : flat_map f (l ++ [x]) = flat_map f l ++ f x.
Proof. rewrite flat_map_app. cbn. rewrite app_nil_r. reflexivity. Qed.

Lemma nth_error_app_l {A} (l1 l2 : list A) k x : nth_error l1 k = Some x -> nth_error (l1 ++ l2) k = Some x.
Proof. intros H. rewrite nth_error_app1; [exact H|]. apply nth_error_Some. congruence. Qed.

(* [injection] would unfold the [Qred] a state carries *)
Lemma some_pair_inv {A B : Type} (a a' : A) (b b' : B) : Some (a, b) = Some (a', b') -> a = a' /\ b = b'.
Proof. intros H. inversion H. auto. Qed.

Definition olist {A} (o : option A) : list A := match o with Some x => [x] | None => [] end.

(* the value a chain of services hands on: [f] of the last one, [d] before the first *)
Definition lastof {X} (f : X -> Q) (d : Q) (R : list X) : Q := fold_left (fun _ o => f o) R d.

Lemma lastof_snoc {X} (f : X -> Q) d R o : lastof f d (R ++ [o]) = f o.
Proof. unfold lastof. rewrite fold_left_app. reflexivity. Qed.

Lemma lastof_firstn_S {X} (f : X -> Q) : forall R d k o, nth_error R k = Some o -> lastof f d (firstn (S k) R) = f o.
Proof.
  induction R as [|x R IH]; intros d [|k] o Hk; try discriminate; cbn in Hk.
  - injection Hk as ->. reflexivity.
  - apply (IH (f x) k o Hk).
Qed.

(* timed packets: same packets (Leibniz), same instants (==) *)
Definition teq : list (Q * pkt) -> list (Q * pkt) -> Prop :=
  Forall2 (fun x y : Q * pkt => fst x == fst y /\ snd x = snd y).

Lemma teq_snoc l1 l2 t T p : teq l1 l2 -> t == T -> teq (l1 ++ [(t, p)]) (l2 ++ [(T, p)]).
Proof.
  intros H E. apply Forall2_app; [exact H|]. constructor; [|constructor]. cbn. split; [exact E|reflexivity].
Qed.

Lemma teq_sym l1 l2 : teq l1 l2 -> teq l2 l1.
Proof. induction 1 as [|x y l l' [E1 E2] _ IH]; constructor; [split; [symmetry|]|]; auto. Qed.

Lemma teq_trans l1 l2 l3 : teq l1 l2 -> teq l2 l3 -> teq l1 l3.
Proof.
  intros H. revert l3. induction H as [|x y l l' [E1 E2] _ IH]; intros l3 H3; inversion H3 as [|? z ? ? [F1 F2]]; subst;
    constructor.
  - split; [rewrite E1; exact F1|congruence].
  - apply IH. assumption.
Qed.

Lemma teq_pkts l1 l2 : teq l1 l2 -> map snd l1 = map snd l2.
Proof. induction 1 as [|x y l l' [_ E] _ IH]; cbn; [reflexivity|]. rewrite E, IH. reflexivity. Qed.

Lemma Forall2_len {A B} (R : A -> B -> Prop) l l' : Forall2 R l l' -> length l = length l'.
Proof. induction 1; cbn; auto. Qed.

Lemma teq_nth l1 l2 : teq l1 l2 -> forall k t p, nth_error l1 k = Some (t, p) ->
  exists T, nth_error l2 k = Some (T, p) /\ t == T.
Proof.
  induction 1 as [|x y l l' [E1 E2] _ IH]; intros k t p Hk.
  - destruct k; discriminate.
  - destruct k as [|k]; cbn in Hk |- *.
    + injection Hk as ->. destruct y as [T q]. cbn in *. subst q. exists T. split; [reflexivity|exact E1].
    + apply IH. exact Hk.
Qed.

Lemma teq_nth_r l1 l2 : teq l1 l2 -> forall k T p, nth_error l2 k = Some (T, p) ->
  exists t, nth_error l1 k = Some (t, p) /\ t == T.
Proof.
  intros H k T p Hk. destruct (teq_nth _ _ (teq_sym _ _ H) _ _ _ Hk) as (t & Ht & E).
  exists t. split; [exact Ht|symmetry; exact E].
Qed.

Record srv := {
  s_now : Q;
  s_q : sq pkt;                      (* the Store *)
  s_started : bool;                  (* the process has reached its first store.get() *)
  s_busy : option (pkt * Q);         (* the packet in service and the instant its timeout is due *)
  s_recv : Z;                        (* packets_received *)
  s_sent : Z                         (* packets_sent *)
}.

Section Server.
  Context {X : Type}.
  Variables (xpkt : X -> pkt) (xarr xhead xdep : X -> Q).
  Variable t0 : Q.

  Definition timed (f : X -> Q) (R : list X) : list (Q * pkt) := map (fun o => (f o, xpkt o)) R.

  Lemma timed_snoc f R o : timed f (R ++ [o]) = timed f R ++ [(f o, xpkt o)].
  Proof. unfold timed. rewrite map_app. reflexivity. Qed.

  Lemma teq_timed_snoc f D R o t : teq D (timed f R) -> t == f o -> teq (D ++ [(t, xpkt o)]) (timed f (R ++ [o])).
  Proof. intros HD E. rewrite timed_snoc. apply teq_snoc; assumption. Qed.

  Lemma timed_pkts f R : map snd (timed f R) = map xpkt R.
  Proof. unfold timed. rewrite map_map. reflexivity. Qed.

  Lemma timed_length f R : length (timed f R) = length R.
  Proof. apply map_length. Qed.

  Lemma timed_nth f R k : nth_error (timed f R) k = option_map (fun o => (f o, xpkt o)) (nth_error R k).
  Proof. apply nth_error_map. Qed.

  Lemma timed_nth_inv f R k t p : nth_error (timed f R) k = Some (t, p) ->
    exists o, nth_error R k = Some o /\ f o = t /\ xpkt o = p.
  Proof.
    rewrite timed_nth. destruct (nth_error R k) as [o|]; [|discriminate].
    cbn. intros H. injection H as <- <-. eauto.
  Qed.

  (* between packets, [F] being the last departure: the store is fresh, and a granted packet is taken in the
     instant it was granted, which is the instant it was put or the instant the server became free *)
  Definition idle_ok (v : srv) (F : Q) : Prop :=
    if s_started v then
      F <= s_now v /\ sq_fresh (s_now v) (s_q v) /\ get (s_q v) <> GNone /\
      (forall x, get (s_q v) = GGranted x -> fst x == s_now v \/ F == s_now v)
    else get (s_q v) = GNone /\ F == s_now v.

  (* [Rd] the services done, [cur] the one whose packet the server holds; [P H F] the timed put() calls,
     head instants and departures so far *)
  Record SInv (v : srv) (P H F : list (Q * pkt)) (Rd : list X) (cur : option X) : Prop := {
    si_fifo : P = timed xarr (Rd ++ olist cur) ++ sq_held (s_q v);     (* taken ++ held = put, in order *)
    si_nostrand : sq_nostrand (s_q v);
    si_stamped : sq_stamped (s_now v) (s_q v);
    si_heads : teq H (timed xhead (Rd ++ olist cur));
    si_fwds : teq F (timed xdep Rd);
    si_recv : s_recv v = Z.of_nat (length P);
    si_sent : s_sent v = Z.of_nat (length F);
    si_busy : match s_busy v, cur with
              | None, None => idle_ok v (lastof xdep t0 Rd)
              | Some (p, dl), Some o => s_started v = true /\ get (s_q v) = GNone /\ s_now v <= dl /\ xpkt o = p
              | _, _ => False
              end
  }.

  Lemma SInv_init : SInv {| s_now := t0; s_q := sq0; s_started := false; s_busy := None; s_recv := 0; s_sent := 0 |}
                           [] [] [] [] None.
  Proof.
    constructor; cbn; try reflexivity; try constructor.
    - apply sq_nostrand_init.
    - reflexivity.
    - reflexivity.
  Qed.

  Lemma SInv_idle v P H F Rd cur : SInv v P H F Rd cur -> s_busy v = None -> cur = None /\ idle_ok v (lastof xdep t0 Rd).
  Proof. intros [_ _ _ _ _ _ _ B] E. rewrite E in B. destruct cur; [contradiction|auto]. Qed.

  Lemma SInv_busy v P H F Rd cur p dl : SInv v P H F Rd cur -> s_busy v = Some (p, dl) ->
    exists o, cur = Some o /\ xpkt o = p /\ s_started v = true /\ get (s_q v) = GNone /\ s_now v <= dl.
  Proof. intros [_ _ _ _ _ _ _ B] E. rewrite E in B. destruct cur as [o|]; [|contradiction]. exists o. tauto. Qed.

  Lemma SInv_cur v P H F Rd cur : SInv v P H F Rd cur ->
    map xpkt (olist cur) = match s_busy v with Some (p, _) => [p] | None => [] end.
  Proof.
    intros [_ _ _ _ _ _ _ B]. destruct (s_busy v) as [[p dl]|], cur as [o|]; try contradiction; [|reflexivity].
    destruct B as (_ & _ & _ & <-). reflexivity.
  Qed.

  (* put(p): packets_received += 1; store.put(p) *)
  Lemma SInv_put v p P H F Rd cur : SInv v P H F Rd cur ->
    SInv {| s_now := s_now v; s_q := sq_put fifo_push (s_now v) p (s_q v); s_started := s_started v;
            s_busy := s_busy v; s_recv := (s_recv v + 1)%Z; s_sent := s_sent v |}
         (P ++ [(s_now v, p)]) H F Rd cur.
  Proof.
    intros [Ff N S Hh Hf Rc Sn B]. constructor; cbn [s_now s_q s_started s_busy s_recv s_sent]; auto.
    - rewrite Ff, fifo_held_put, app_assoc. reflexivity.
    - apply fifo_nostrand_put.
    - apply sq_stamped_put. exact S.
    - rewrite app_length, Nat2Z.inj_add, <- Rc. reflexivity.
    - destruct (s_busy v) as [[p0 dl]|], cur; try exact B. unfold idle_ok in *. cbn [s_now s_q s_started].
      destruct (s_started v); [|exact B].
      destruct B as (Q1 & Q2 & Q3 & Q4). repeat split; auto. apply sq_fresh_put. exact Q2.
  Qed.

  (* the kernel processes a StorePut event of the store *)
  Lemma SInv_cb v q' P H F Rd cur : SInv v P H F Rd cur -> sq_cb fifo_pop (s_q v) = Some q' ->
    SInv {| s_now := s_now v; s_q := q'; s_started := s_started v; s_busy := s_busy v; s_recv := s_recv v;
            s_sent := s_sent v |} P H F Rd cur.
  Proof.
    intros [Ff N S Hh Hf Rc Sn B] E. constructor; cbn [s_now s_q s_started s_busy s_recv s_sent]; auto.
    - rewrite (fifo_held_cb _ _ _ E). exact Ff.
    - eapply fifo_nostrand_cb; eauto.
    - eapply sq_stamped_cb; eauto.
    - pose proof (sq_cb_get_none _ _ _ _ E) as GN.
      destruct (s_busy v) as [[p0 dl]|], cur; try exact B.
      + destruct B as (B1 & B2 & B3). split; [exact B1|]. split; [apply GN; exact B2|exact B3].
      + unfold idle_ok in *. cbn [s_now s_q s_started]. destruct (s_started v).
        * destruct B as (Q1 & Q2 & Q3 & Q4). split; [exact Q1|]. split; [eapply sq_fresh_cb; eauto|]. split.
          -- intros G. apply Q3, GN, G.
          -- intros x Gx. destruct (fifo_cb_inv _ _ _ E) as (_ & [(W & y & Ei & Gy)|(_ & _ & Gs)]).
             ++ left. rewrite (sq_cb_grants_fresh _ _ _ _ x E Q2 W Gx). reflexivity.
             ++ apply Q4. rewrite <- Gs. exact Gx.
        * destruct B as (Q1 & Q2). split; [apply GN; exact Q1|exact Q2].
  Qed.

  (* the process starts: it reaches its first store.get() *)
  Lemma SInv_start v q' P H F Rd cur : SInv v P H F Rd cur -> s_started v = false -> sq_get fifo_pop (s_q v) = Some q' ->
    SInv {| s_now := s_now v; s_q := q'; s_started := true; s_busy := s_busy v; s_recv := s_recv v;
            s_sent := s_sent v |} P H F Rd cur.
  Proof.
    intros [Ff N S Hh Hf Rc Sn B] Es E. constructor; cbn [s_now s_q s_started s_busy s_recv s_sent]; auto.
    - rewrite (fifo_held_get _ _ _ E). exact Ff.
    - eapply fifo_nostrand_get; eauto.
    - eapply sq_stamped_get; eauto.
    - destruct (s_busy v) as [[p0 dl]|], cur; try exact B; [destruct B as (B1 & _); congruence|].
      unfold idle_ok in *. cbn [s_now s_q s_started]. rewrite Es in B. destruct B as (_ & Q2).
      split; [lra|]. split; [eapply sq_fresh_get; eauto|].
      split; [eapply sq_get_not_none; eauto|]. intros x _. right. exact Q2.
  Qed.

  (* the clock moves, which it may only when nothing is due now *)
  Lemma SInv_advance v t P H F Rd cur : SInv v P H F Rd cur ->
    s_started v = true -> sq_urgent (s_q v) = false -> s_now v <= t ->
    match s_busy v with Some (_, dl) => t <= dl | None => True end ->
    SInv {| s_now := t; s_q := s_q v; s_started := s_started v; s_busy := s_busy v; s_recv := s_recv v;
            s_sent := s_sent v |} P H F Rd cur.
  Proof.
    intros [Ff N S Hh Hf Rc Sn B] Es Uq Hlt Hdl. constructor; cbn [s_now s_q s_started s_busy s_recv s_sent]; auto.
    - eapply sq_stamped_mono; [|exact S]. exact Hlt.
    - destruct (s_busy v) as [[p0 dl]|], cur; try exact B.
      + destruct B as (B1 & B2 & _ & B4). auto.
      + unfold idle_ok in *. cbn [s_now s_q s_started]. rewrite Es in *.
        destruct B as (Q1 & Q2 & Q3 & Q4). split; [lra|]. split; [apply sq_fresh_advance; auto|].
        split; [exact Q3|]. intros x Gx. exfalso.
        apply sq_urgent_false in Uq as [_ Ug]. apply (Ug x). exact Gx.
  Qed.

  Lemma Qmax_now a F n : a <= n -> F <= n -> (a == n \/ F == n) -> n == Qmax a F.
  Proof.
    intros Ha HF H. destruct (Q.max_spec a F) as [[Hlt E]|[Hle E]]; rewrite E; destruct H as [H|H]; lra.
  Qed.

  (* the process resumes with the packet its get was granted: that happens at max(arrival, last departure);
     the element then says what service [o] this is and until when it holds the packet *)
  Lemma SInv_take v a p q' P H F Rd cur :
    SInv v P H F Rd cur -> s_busy v = None -> s_started v = true -> sq_take (s_q v) = Some ((a, p), q') ->
    cur = None /\ a <= s_now v /\ lastof xdep t0 Rd <= s_now v /\ s_now v == Qmax a (lastof xdep t0 Rd) /\
    get q' = GNone /\
    forall o dl, xpkt o = p -> xarr o = a -> s_now v == xhead o -> s_now v <= dl ->
      SInv {| s_now := s_now v; s_q := q'; s_started := true; s_busy := Some (p, dl); s_recv := s_recv v;
              s_sent := s_sent v |} P (H ++ [(s_now v, p)]) F Rd (Some o).
  Proof.
    intros HI Eb Es Et. destruct (SInv_idle _ _ _ _ _ _ HI Eb) as [-> Bi]. destruct HI as [Ff N S Hh Hf Rc Sn _].
    unfold idle_ok in Bi. rewrite Es in Bi. destruct Bi as (PF & _ & _ & Px).
    pose proof (sq_take_inv _ _ _ _ Et) as (Gx & _ & _ & Gn).
    pose proof (sq_stamped_take _ _ _ _ _ Et S) as [Ha Sq]. cbn [fst] in Ha.
    split; [reflexivity|]. split; [exact Ha|]. split; [exact PF|].
    split; [apply Qmax_now; auto; destruct (Px _ Gx) as [E|E]; [left|right]; exact E|].
    split; [exact Gn|]. intros o dl Ep Ea Eh Hdl.
    constructor; cbn [s_now s_q s_started s_busy s_recv s_sent olist]; auto.
    - rewrite Ff, (fifo_held_take _ _ _ _ Et), timed_snoc, Ep, Ea, <- app_assoc. cbn [olist]. rewrite app_nil_r. reflexivity.
    - eapply fifo_nostrand_take; eauto.
    - rewrite timed_snoc, Ep. apply teq_snoc; [|exact Eh]. cbn [olist] in Hh. rewrite app_nil_r in Hh. exact Hh.
  Qed.

  Lemma SInv_rearm v p dl dl' P H F Rd cur : SInv v P H F Rd cur -> s_busy v = Some (p, dl) -> s_now v <= dl' ->
    SInv {| s_now := s_now v; s_q := s_q v; s_started := s_started v; s_busy := Some (p, dl'); s_recv := s_recv v;
            s_sent := s_sent v |} P H F Rd cur.
  Proof.
    intros [Ff N S Hh Hf Rc Sn B] Eb Hdl. constructor; cbn [s_now s_q s_started s_busy s_recv s_sent]; auto.
    rewrite Eb in B. destruct cur; [|exact B]. tauto.
  Qed.

  (* out.put(p); packets_sent += 1; back to `packet = yield self.store.get()`: the service is done, and the
     instant is its departure *)
  Lemma SInv_forward v p dl o q' P H F Rd :
    SInv v P H F Rd (Some o) -> s_busy v = Some (p, dl) -> xdep o == s_now v -> sq_get fifo_pop (s_q v) = Some q' ->
    SInv {| s_now := s_now v; s_q := q'; s_started := s_started v; s_busy := None; s_recv := s_recv v;
            s_sent := (s_sent v + 1)%Z |} P H (F ++ [(s_now v, p)]) (Rd ++ [o]) None.
  Proof.
    intros [Ff N S Hh Hf Rc Sn B] Eb Ed E. rewrite Eb in B. destruct B as (Bs & _ & _ & Ep).
    constructor; cbn [s_now s_q s_started s_busy s_recv s_sent olist] in *; rewrite ?app_nil_r; auto.
    - rewrite (fifo_held_get _ _ _ E). exact Ff.
    - eapply fifo_nostrand_get; eauto.
    - eapply sq_stamped_get; eauto.
    - rewrite timed_snoc, Ep. apply teq_snoc; [exact Hf|symmetry; exact Ed].
    - rewrite app_length, Nat2Z.inj_add, <- Sn. reflexivity.
    - unfold idle_ok. cbn [s_now s_q s_started]. rewrite Bs, lastof_snoc.
      split; [lra|]. split; [eapply sq_fresh_get; eauto|].
      split; [eapply sq_get_not_none; eauto|]. intros x _. right. exact Ed.
  Qed.

  Lemma SInv_conserves v P H F Rd cur : SInv v P H F Rd cur ->
    map snd P = map snd F ++ map xpkt (olist cur) ++ map snd (sq_held (s_q v)).
  Proof.
    intros HI. rewrite (si_fifo _ _ _ _ _ _ HI), map_app, timed_pkts, map_app, (teq_pkts _ _ (si_fwds _ _ _ _ _ _ HI)),
      timed_pkts, app_assoc. reflexivity.
  Qed.

  Lemma SInv_quiet_held v P H F Rd cur : SInv v P H F Rd cur ->
    s_busy v = None -> s_started v = true -> sq_urgent (s_q v) = false -> cur = None /\ sq_held (s_q v) = [].
  Proof.
    intros HI Eb Es Uq. destruct (SInv_idle _ _ _ _ _ _ HI Eb) as [-> Bi]. split; [reflexivity|].
    unfold idle_ok in Bi. rewrite Es in Bi. destruct Bi as (_ & _ & Pg & _).
    apply (sq_waiting_quiet_held _ _ Uq (si_nostrand _ _ _ _ _ _ HI)).
    pose proof (proj1 (sq_urgent_false _ _) Uq) as [_ Ug].
    destruct (get (s_q v)) as [| |x]; [contradiction|reflexivity|exfalso; apply (Ug x); reflexivity].
  Qed.

  Lemma SInv_stuck v P H F Rd cur : SInv v P H F Rd cur -> s_busy v = None ->
    (s_started v = false -> sq_get fifo_pop (s_q v) = None) -> sq_cb fifo_pop (s_q v) = None ->
    (forall x, get (s_q v) <> GGranted x) ->
    s_started v = true /\ sq_urgent (s_q v) = false.
  Proof.
    intros HI Eb Hi Hc Hg. destruct (SInv_idle _ _ _ _ _ _ HI Eb) as [_ Bi]. unfold idle_ok in Bi.
    assert (Hs : s_started v = true).
    { destruct (s_started v); [reflexivity|]. destruct Bi as (Pg & _).
      destruct (sq_get_enabled _ fifo_pop _ Pg) as [q Hq]. rewrite (Hi eq_refl) in Hq. discriminate. }
    split; [exact Hs|]. apply sq_urgent_false. split; [|exact Hg].
    destruct (pend (s_q v)) as [|n] eqn:Ep; [reflexivity|].
    destruct (proj1 (sq_cb_enabled _ fifo_pop (s_q v))) as [q Hq]; [lia|congruence].
  Qed.

  Lemma SInv_nth_svc v P H F Rd cur k o : SInv v P H F Rd cur -> nth_error (Rd ++ olist cur) k = Some o ->
    nth_error P k = Some (xarr o, xpkt o) /\ exists h, nth_error H k = Some (h, xpkt o) /\ h == xhead o.
  Proof.
    intros HI Ho. split.
    - rewrite (si_fifo _ _ _ _ _ _ HI). apply nth_error_app_l. rewrite timed_nth, Ho. reflexivity.
    - apply (teq_nth_r _ _ (si_heads _ _ _ _ _ _ HI)). rewrite timed_nth, Ho. reflexivity.
  Qed.

  Lemma SInv_nth_fwd v P H F Rd cur k t p : SInv v P H F Rd cur -> nth_error F k = Some (t, p) ->
    exists o, nth_error Rd k = Some o /\ xpkt o = p /\ t == xdep o.
  Proof.
    intros HI Hk. destruct (teq_nth _ _ (si_fwds _ _ _ _ _ _ HI) _ _ _ Hk) as (T & Hk' & Et).
    destruct (timed_nth_inv _ _ _ _ _ Hk') as (o & Ho & <- & <-). eauto.
  Qed.
End Server.

Arguments SInv_put {X xpkt xarr xhead xdep t0} v p {P H F Rd cur}.
Arguments SInv_cb {X xpkt xarr xhead xdep t0} v q' {P H F Rd cur}.
Arguments SInv_start {X xpkt xarr xhead xdep t0} v q' {P H F Rd cur}.
Arguments SInv_advance {X xpkt xarr xhead xdep t0} v t {P H F Rd cur}.
Arguments SInv_take {X xpkt xarr xhead xdep t0} v a p q' {P H F Rd cur}.
Arguments SInv_rearm {X xpkt xarr xhead xdep t0} v p dl dl' {P H F Rd cur}.
Arguments SInv_forward {X xpkt xarr xhead xdep t0} v p dl o q' {P H F Rd}.
Arguments si_fifo {X xpkt xarr xhead xdep t0 v P H F Rd cur}.
Arguments si_nostrand {X xpkt xarr xhead xdep t0 v P H F Rd cur}.
Arguments si_heads {X xpkt xarr xhead xdep t0 v P H F Rd cur}.
Arguments si_fwds {X xpkt xarr xhead xdep t0 v P H F Rd cur}.
Arguments si_recv {X xpkt xarr xhead xdep t0 v P H F Rd cur}.
Arguments si_sent {X xpkt xarr xhead xdep t0 v P H F Rd cur}.
Arguments SInv_idle {X xpkt xarr xhead xdep t0 v P H F Rd cur}.
Arguments SInv_busy {X xpkt xarr xhead xdep t0 v P H F Rd cur p dl}.
Arguments SInv_cur {X xpkt xarr xhead xdep t0 v P H F Rd cur}.
Arguments SInv_conserves {X xpkt xarr xhead xdep t0 v P H F Rd cur}.
Arguments SInv_quiet_held {X xpkt xarr xhead xdep t0 v P H F Rd cur}.
Arguments SInv_nth_fwd {X xpkt xarr xhead xdep t0 v P H F Rd cur k t p}.
Arguments SInv_stuck {X xpkt xarr xhead xdep t0 v P H F Rd cur}.
Arguments SInv_nth_svc {X xpkt xarr xhead xdep t0 v P H F Rd cur k o}.
