(* Kernel/IntrStep.v -- the invariant of Kernel/IntrInv.v through Process._resume, Interruption._interrupt, the
   callback loop and Environment.step; reachable states.

   Main statements
     inv_resume_loop      a resumption that ends normally (the process waits again or has ended) re-establishes the
                          invariant with nobody running
     inv_pop              popping the minimum entry: its callbacks become the pending list
     inv_do_interruption  Interruption._interrupt
     inv_run_callbacks    the callback loop, when it is not cut short by an escaping exception ([loop_clean])
     good_step            [good] is preserved by every clean step
     reach / reach_good   states reachable from init_state by module-level code, run() preludes and clean steps *)
From Coq Require Import ZArith QArith List Bool Lia Lqa.
From ONL Require Import Kernel.Model Kernel.Keys Kernel.Prims Kernel.IntrBase Kernel.IntrInv.
Import ListNotations.

Lemma invA_frame s s' :
  events s' = events s -> agenda s' = agenda s -> now s' = now s -> next_eid s' = next_eid s -> invA s -> invA s'.
Proof. destruct s, s'. cbn. intros -> -> -> ->. intros [A B C D E F G]. constructor; assumption. Qed.

(* ------------------------------------------------------------------------------------------------ *)
(* process records: only pev and ptarget matter *)

Definition pr_relS (s : state) (a b : option procrec) : Prop :=
  match a, b with
  | Some x, Some y => pev y = pev x /\ (ptarget y = ptarget x \/ forall t, ptarget y = Some t -> exists tev, get_event t s = Some tev)
  | None, None => True
  | _, _ => False
  end.

Lemma invS_procs s s' :
  events s' = events s -> (forall q, pr_relS s (get_proc q s) (get_proc q s')) -> invS s -> invS s'.
Proof.
  intros He HP [A B C D E F0].
  assert (GE : forall e, get_event e s' = get_event e s) by (intros e; unfold get_event; rewrite He; reflexivity).
  assert (FW : forall q pr, get_proc q s = Some pr -> exists pr', get_proc q s' = Some pr' /\ pev pr' = pev pr).
  { intros q pr H. specialize (HP q). rewrite H in HP. destruct (get_proc q s') as [pr'|]; [|contradiction]. exists pr'. split; [reflexivity|apply HP]. }
  assert (BW : forall q pr', get_proc q s' = Some pr' -> exists pr, get_proc q s = Some pr /\ pev pr' = pev pr /\
               forall t, ptarget pr' = Some t -> exists tev, get_event t s = Some tev).
  { intros q pr' H. specialize (HP q). rewrite H in HP. destruct (get_proc q s) as [pr|] eqn:H0; [|contradiction]. exists pr.
    destruct HP as (P1 & [P2|P2]); repeat split; auto. intros t T. rewrite P2 in T. exact (E _ _ _ H0 T). }
  constructor.
  - intros p pr' H. destruct (BW _ _ H) as (pr & H0 & P1 & _). rewrite GE, P1. apply (A _ _ H0).
  - intros e ev p H K. rewrite GE in H. destruct (B _ _ _ H K) as (pr & H0 & P0).
    destruct (FW _ _ H0) as (pr' & H1 & P1). exists pr'. split; [exact H1|congruence].
  - intros i ev p H K. rewrite GE in H. destruct (C _ _ _ H K) as ((pr & C1) & C2). split; [|exact C2].
    destruct (FW _ _ C1) as (pr' & H1 & _). exists pr'. exact H1.
  - intros i ev p H K. rewrite GE in H. destruct (D _ _ _ H K) as ((pr & C1) & C2). split; [|exact C2].
    destruct (FW _ _ C1) as (pr' & H1 & _). exists pr'. exact H1.
  - intros p pr' t H T. destruct (BW _ _ H) as (pr & _ & _ & P2). rewrite GE. exact (P2 _ T).
  - intros p pr' H. destruct (BW _ _ H) as (pr & H0 & P1 & _). rewrite GE, P1. apply (F0 _ _ H0).
Qed.

Lemma invS_set_target p tg s :
  (forall t, tg = Some t -> exists tev, get_event t s = Some tev) ->
  invS s -> invS (upd_proc p (proc_set_target tg) s).
Proof.
  intros Ht. apply invS_procs; [reflexivity|]. intros q. rewrite get_proc_upd.
  destruct (Nat.eqb q p); destruct (get_proc q s) as [x|]; cbn; auto.
Qed.

Definition pr_rel (a b : option procrec) : Prop :=
  match a, b with
  | Some x, Some y => pev y = pev x /\ ptarget y = ptarget x
  | None, None => True
  | _, _ => False
  end.

Lemma inv_procs_rel run pe pend s s' :
  events s' = events s -> agenda s' = agenda s -> now s' = now s -> next_eid s' = next_eid s ->
  (forall q, pr_rel (get_proc q s) (get_proc q s')) ->
  inv run pe pend s -> inv run pe pend s'.
Proof.
  intros He Ha Hn Hi HP (HS & HC & HA).
  assert (GE : forall e, get_event e s' = get_event e s) by (intros e; unfold get_event; rewrite He; reflexivity).
  assert (FW : forall q pr, get_proc q s = Some pr -> exists pr', get_proc q s' = Some pr' /\ pev pr' = pev pr /\ ptarget pr' = ptarget pr).
  { intros q pr H. specialize (HP q). unfold pr_rel in HP. rewrite H in HP. destruct (get_proc q s') as [pr'|]; [|contradiction]. exists pr'. split; [reflexivity|exact HP]. }
  assert (BW : forall q pr', get_proc q s' = Some pr' -> exists pr, get_proc q s = Some pr /\ pev pr' = pev pr /\ ptarget pr' = ptarget pr).
  { intros q pr' H. specialize (HP q). unfold pr_rel in HP. rewrite H in HP. destruct (get_proc q s) as [pr|]; [|contradiction]. exists pr. split; [reflexivity|exact HP]. }
  split; [|split].
  - apply (invS_procs s); [exact He| |exact HS]. intros q. specialize (HP q).
    destruct (get_proc q s), (get_proc q s'); try exact HP. destruct HP as [P1 P2]. cbn. auto.
  - destruct HC as [A B C D E R0]. constructor.
    + intros e ev l i H. rewrite GE in H. apply A, H.
    + intros i Hin. rewrite GE. apply B, Hin.
    + intros e ev l p H Cl Hin. rewrite GE in H. destruct (C _ _ _ _ H Cl Hin) as ((pr & C1 & C2) & C3).
      split; [|exact C3]. destruct (FW _ _ C1) as (pr' & H1 & _ & P2). exists pr'. split; [exact H1|congruence].
    + intros p Hin. rewrite GE. destruct (D _ Hin) as ((pr & C1 & C2) & C3).
      split; [|exact C3]. destruct (FW _ _ C1) as (pr' & H1 & _ & P2). exists pr'. split; [exact H1|congruence].
    + intros p pr' ev Hp H O R. destruct (BW _ _ Hp) as (pr & H0 & P1 & P2). rewrite GE, P1 in H.
      destruct (E _ _ _ H0 H O R) as [E1|(t & tev & l & E1 & E2 & E3 & E4)]; [left; exact E1|right].
      exists t, tev, l. rewrite GE. split; [congruence|auto].
    + intros r Hr. destruct (R0 _ Hr) as (pr & H0). destruct (FW _ _ H0) as (pr' & H1 & _). exists pr'. exact H1.
  - eapply invA_frame; eassumption.
Qed.

Lemma inv_put_proc run pe pend p pr' s pr0 :
  get_proc p s = Some pr0 -> pev pr' = pev pr0 -> ptarget pr' = ptarget pr0 ->
  inv run pe pend s -> inv run pe pend (put_proc p pr' s).
Proof.
  intros H P1 P2. apply inv_procs_rel; try reflexivity.
  intros q. unfold put_proc. rewrite get_proc_upd. destruct (Nat.eqb q p) eqn:E.
  - apply Nat.eqb_eq in E. subst q. rewrite H. cbn. auto.
  - destruct (get_proc q s); cbn; auto.
Qed.

(* ------------------------------------------------------------------------------------------------ *)
(* the process ends *)

Lemma invC_finish pe pend p s :
  (forall pr ev, get_proc p s = Some pr -> get_event (pev pr) s = Some ev -> out ev <> None) ->
  invC (Some p) pe pend s -> invC None pe pend (upd_proc p (proc_set_target None) s).
Proof.
  intros Dead [A B C D E R0].
  assert (OTH : forall q, q <> p -> get_proc q (upd_proc p (proc_set_target None) s) = get_proc q s).
  { intros q N. rewrite get_proc_upd. apply Nat.eqb_neq in N. rewrite N. reflexivity. }
  constructor.
  - exact A.
  - exact B.
  - intros e ev l q H Cl Hin. destruct (C _ _ _ _ H Cl Hin) as (C1 & C2 & C3 & C4).
    assert (N : q <> p) by congruence. rewrite (OTH _ N). repeat split; auto. discriminate.
  - intros q Hin. destruct (D _ Hin) as (D1 & D2 & D3 & D4).
    assert (N : q <> p) by congruence. rewrite (OTH _ N). repeat split; auto. discriminate.
  - intros q pr' ev Hq H O _. destruct (Nat.eq_dec q p) as [->|N].
    + exfalso. rewrite get_proc_upd, Nat.eqb_refl in Hq. destruct (get_proc p s) as [pr|] eqn:Hp; [|discriminate].
      cbn in Hq. injection Hq as <-. cbn [proc_set_target pev] in H. exact (Dead _ _ eq_refl H O).
    + rewrite (OTH _ N) in Hq. apply (E _ _ _ Hq H O). congruence.
  - discriminate.
Qed.

Lemma inv_proc_finish pe pend p pr o s :
  get_proc p s = Some pr -> inv (Some p) pe pend s -> inv None pe pend (proc_finish p pr o s).
Proof.
  intros Hp I. unfold proc_finish. apply inv_set_active.
  destruct (iS_pev _ (proj1 I) _ _ Hp) as (pev0 & Hev & Kev).
  assert (I1 : inv (Some p) pe pend (trigger_event (pev pr) o s)).
  { eapply inv_trigger; [exact Hev| |exact I]. rewrite Kev. reflexivity. }
  destruct I1 as (HS & HC & HA). split; [|split].
  - apply invS_set_target; [discriminate|exact HS].
  - apply invC_finish; [|exact HC]. intros pr' ev H H'.
    change (get_proc p s = Some pr') in H. rewrite Hp in H. injection H as <-.
    unfold trigger_event in H'. change (get_event (pev pr) (upd_event (pev pr) (ev_set_out (Some o)) s) = Some ev) in H'.
    rewrite (get_event_upd_same _ _ _ _ Hev) in H'. injection H' as <-. cbn. discriminate.
  - eapply invA_frame; [| | | |exact HA]; reflexivity.
Qed.

(* ------------------------------------------------------------------------------------------------ *)
(* the process waits for a pending event *)

Lemma ev_step0_set_cbs ev l l' :
  cbs ev = Some l ->
  (urgent_kind (kind ev) = true -> forall c r, l = c :: r -> is_core c = true -> exists r', l' = c :: r') ->
  ev_step0 ev (ev_set_cbs (Some l') ev).
Proof.
  intros C H. split; [reflexivity|]. split; [auto|]. split.
  - intros U. split; [reflexivity|]. split; [auto|]. intros c r Hc Ic. rewrite C in Hc. injection Hc as ->.
    destruct (H U _ _ eq_refl Ic) as (r' & ->). exists r'. reflexivity.
  - cbn. rewrite C. split; discriminate.
Qed.

(* the callback list of event tg goes from l to l', which differ only in occurrences of [CbResume p]; who runs changes
   at most between p and nobody.  Whatever the invariant says of another process or of an interruption is kept; what
   it says of p is asked for. *)
Lemma invC_edit run run' pe pend p tg tev l l' s s' :
  invC run pe pend s ->
  get_event tg s = Some tev -> cbs tev = Some l ->
  (forall e, get_event e s' = if Nat.eqb e tg then Some (ev_set_cbs (Some l') tev) else get_event e s) ->
  (forall q, q <> p -> get_proc q s' = get_proc q s) ->
  (forall c, c <> CbResume p -> cnt c l' = cnt c l) ->
  ~ In (CbResume p) pend ->
  (forall q, q <> p -> (run' = Some q <-> run = Some q)) ->
  (forall e ev l0, get_event e s' = Some ev -> cbs ev = Some l0 -> In (CbResume p) l0 ->
     (exists pr, get_proc p s' = Some pr /\ ptarget pr = Some e) /\ cnt (CbResume p) l0 = 1%nat /\ run' <> Some p) ->
  (forall pr ev, get_proc p s' = Some pr -> get_event (pev pr) s' = Some ev -> out ev = None -> run' <> Some p ->
     exists t tev0 l0, ptarget pr = Some t /\ get_event t s' = Some tev0 /\ cbs tev0 = Some l0 /\ In (CbResume p) l0) ->
  (forall r, run' = Some r -> exists pr, get_proc r s' = Some pr) ->
  invC run' pe pend s'.
Proof.
  intros [A B C D E R0] Ht Cl GE GP CNT NPEND RUN Pres Pwait Prun.
  assert (INO : forall c, c <> CbResume p -> In c l' <-> In c l) by (intros c N; rewrite !cnt_pos, (CNT c N); tauto).
  assert (GEpe : forall ev, get_event pe s = Some ev -> exists ev', get_event pe s' = Some ev' /\ kind ev' = kind ev /\
                                                             (cbs ev = None -> cbs ev' = None)).
  { intros ev H. rewrite GE. destruct (Nat.eqb pe tg) eqn:Ee; [|exists ev; auto].
    apply Nat.eqb_eq in Ee. rewrite Ee, Ht in H. injection H as <-. eexists. split; [reflexivity|]. split; [reflexivity|congruence]. }
  constructor.
  - intros e ev l0 i H C0 Hi. rewrite GE in H. destruct (Nat.eqb e tg) eqn:Ee; [|eapply A; eassumption].
    apply Nat.eqb_eq in Ee. subst e. injection H as <-. cbn in C0. injection C0 as <-.
    apply INO in Hi; [|discriminate]. destruct (A _ _ _ _ Ht Cl Hi) as (A1 & A2 & A3).
    split; [exact A1|]. split; [rewrite CNT by discriminate; exact A2|exact A3].
  - intros i Hi. destruct (B _ Hi) as (B1 & B2 & (ev & q & B3 & B4)). split; [exact B1|]. split; [exact B2|].
    destruct (GEpe _ B3) as (ev' & H' & K' & _). exists ev', q. split; [exact H'|congruence].
  - intros e ev l0 q H C0 Hq. destruct (Nat.eq_dec q p) as [->|N].
    { destruct (Pres _ _ _ H C0 Hq) as (P1 & P2 & P3). auto. }
    assert (OLD : exists ev1 l1, get_event e s = Some ev1 /\ cbs ev1 = Some l1 /\ In (CbResume q) l1 /\
                                 cnt (CbResume q) l0 = cnt (CbResume q) l1).
    { rewrite GE in H. destruct (Nat.eqb e tg) eqn:Ee; [|exists ev, l0; auto].
      apply Nat.eqb_eq in Ee. subst e. injection H as <-. cbn in C0. injection C0 as <-.
      exists tev, l. split; [exact Ht|]. split; [exact Cl|]. split; [apply INO; congruence|apply CNT; congruence]. }
    destruct OLD as (ev1 & l1 & H1 & C1 & Hq1 & Cq). destruct (C _ _ _ _ H1 C1 Hq1) as (C2 & C3 & C4 & C5).
    rewrite (GP _ N), Cq. split; [exact C2|]. split; [exact C3|]. split; [|exact C5]. intros X. apply C4, (RUN q N), X.
  - intros q Hq. assert (N : q <> p) by (intros ->; contradiction).
    destruct (D _ Hq) as (D1 & D2 & D3 & (ev & D4 & D5)). rewrite (GP _ N).
    split; [exact D1|]. split; [exact D2|]. split; [intros X; apply D3, (RUN q N), X|].
    destruct (GEpe _ D4) as (ev' & H' & _ & N'). exists ev'. auto.
  - intros q pr' ev Hq H O R. destruct (Nat.eq_dec q p) as [->|N]; [right; eapply Pwait; eassumption|].
    rewrite (GP _ N) in Hq.
    assert (H' : exists ev0, get_event (pev pr') s = Some ev0 /\ out ev0 = None).
    { rewrite GE in H. destruct (Nat.eqb (pev pr') tg) eqn:Ee; [|exists ev; auto].
      apply Nat.eqb_eq in Ee. rewrite Ee. injection H as <-. exists tev. split; [exact Ht|exact O]. }
    destruct H' as (ev0 & H0 & O0).
    destruct (E _ _ _ Hq H0 O0) as [E1|(t & tev0 & l0 & E1 & E2 & E3 & E4)]; [intros X; apply R, (RUN q N), X|left; exact E1|right].
    destruct (Nat.eqb t tg) eqn:Et.
    + apply Nat.eqb_eq in Et. subst t. rewrite Ht in E2. injection E2 as <-. rewrite Cl in E3. injection E3 as <-.
      exists tg, (ev_set_cbs (Some l') tev), l'. split; [exact E1|]. split; [rewrite GE, Nat.eqb_refl; reflexivity|].
      split; [reflexivity|]. apply INO; [congruence|exact E4].
    + exists t, tev0, l0. split; [exact E1|]. split; [rewrite GE, Et; exact E2|]. auto.
  - exact Prun.
Qed.

Lemma inv_proc_wait pe pend p e' s pr ev' l :
  get_proc p s = Some pr -> get_event e' s = Some ev' -> cbs ev' = Some l ->
  inv (Some p) pe pend s -> inv None pe pend (proc_wait p e' s).
Proof.
  intros Hp He Cl (HS & HC & HA). unfold proc_wait. apply inv_set_active.
  set (sa := add_callback e' (CbResume p) s).
  assert (AC : ev_add_cb (CbResume p) ev' = ev_set_cbs (Some (l ++ [CbResume p])) ev') by (unfold ev_add_cb; rewrite Cl; reflexivity).
  assert (X0 : evs_step0 s sa).
  { apply es_upd_event; [exact ev_step0_refl|]. intros ev H. rewrite He in H. injection H as <-. rewrite AC.
    apply (ev_step0_set_cbs _ l); [exact Cl|]. intros _ c r -> _. exists (r ++ [CbResume p]). reflexivity. }
  assert (GE : forall e, get_event e sa = if Nat.eqb e e' then Some (ev_set_cbs (Some (l ++ [CbResume p])) ev') else get_event e s).
  { intros e. unfold sa, add_callback. rewrite get_event_upd. destruct (Nat.eqb e e') eqn:E; [|reflexivity].
    apply Nat.eqb_eq in E. subst e. rewrite He. cbn [option_map]. rewrite AC. reflexivity. }
  assert (NOP : forall e ev l0, get_event e s = Some ev -> cbs ev = Some l0 -> ~ In (CbResume p) l0).
  { intros e ev l0 H C Hin. destruct (iC_res _ _ _ _ HC _ _ _ _ H C Hin) as (_ & _ & R & _). congruence. }
  assert (NOPP : ~ In (CbResume p) pend).
  { intros Hin. destruct (iC_res_pend _ _ _ _ HC _ Hin) as (_ & _ & R & _). congruence. }
  split; [|split].
  - apply invS_set_target; [|eapply invS_es0; eassumption].
    intros t Ht. injection Ht as <-. rewrite GE, Nat.eqb_refl. eexists. reflexivity.
  - set (l' := l ++ [CbResume p]) in *. set (s' := upd_proc p (proc_set_target (Some e')) sa).
    assert (GPp : get_proc p s' = Some (proc_set_target (Some e') pr)) by (apply get_proc_upd_same, Hp).
    apply (invC_edit (Some p) None pe pend p e' ev' l l' s s' HC He Cl GE).
    + intros q N. unfold s'. rewrite get_proc_upd. apply Nat.eqb_neq in N. rewrite N. reflexivity.
    + intros c N. unfold l'. rewrite cnt_app, cnt_single.
      assert (cb_eqb (CbResume p) c = false) as -> by (apply cb_eqb_neq; congruence). lia.
    + exact NOPP.
    + intros q N. split; intros X; [discriminate|congruence].
    + intros e ev l0 H C0 Hq. change (get_event e sa = Some ev) in H. rewrite GE in H. destruct (Nat.eqb e e') eqn:Ee.
      * apply Nat.eqb_eq in Ee. subst e. injection H as <-. cbn in C0. injection C0 as <-.
        split; [eexists; split; [exact GPp|reflexivity]|]. split; [|discriminate].
        unfold l'. rewrite cnt_app, cnt_single, cb_eqb_refl. apply (NOP _ _ _ He) in Cl. apply cnt_zero in Cl. lia.
      * destruct (NOP _ _ _ H C0 Hq).
    + intros pr0 ev Hq _ _ _. rewrite GPp in Hq. injection Hq as <-.
      exists e', (ev_set_cbs (Some l') ev'), l'. split; [reflexivity|].
      split; [change (get_event e' sa = Some (ev_set_cbs (Some l') ev')); rewrite GE, Nat.eqb_refl; reflexivity|].
      split; [reflexivity|]. apply in_snoc. right. reflexivity.
    + discriminate.
  - eapply invA_frame; [| | | |eapply invA_es0; [exact X0|exact HA]]; reflexivity.
Qed.

(* ------------------------------------------------------------------------------------------------ *)
(* Process._resume *)

Lemma resume_loop_not_stop codes fuel : forall p e s v, snd (resume_loop fuel codes p e s) <> RStop v.
Proof.
  induction fuel as [|f IH]; intros p e s v; cbn [resume_loop]; [discriminate|].
  destruct (get_event e s) as [ev|]; [|discriminate].
  destruct (get_proc p s) as [pr|]; [|discriminate].
  destruct (out ev) as [o|]; [|discriminate].
  destruct (run_frag codes (resume (pcode pr) (pst pr) o) _) as [s2 fr].
  destruct fr as [v0 a|v0|x]; try discriminate.
  destruct v0; try discriminate.
  destruct (get_event e0 _) as [ev'|]; [|discriminate].
  destruct (is_processed ev'); [apply IH|discriminate].
Qed.

Lemma inv_resume_loop codes pe pend fuel : forall p e s s' r,
  inv (Some p) pe pend s -> resume_loop fuel codes p e s = (s', r) -> r = ROk -> inv None pe pend s'.
Proof.
  induction fuel as [|f IH]; intros p e s s' r I; cbn [resume_loop].
  - intros H; injection H as <- <-. discriminate.
  - destruct (get_event e s) as [ev|]; [|intros H; injection H as <- <-; discriminate].
    destruct (get_proc p s) as [pr|] eqn:Hp; [|intros H; injection H as <- <-; discriminate].
    destruct (out ev) as [o|]; [|intros H; injection H as <- <-; discriminate].
    set (s1 := match o with Fail _ => upd_event e ev_set_defused s | Ok _ => s end).
    assert (I1 : inv (Some p) pe pend s1) by (subst s1; destruct o; [exact I|apply inv_set_defused, I]).
    assert (Hp1 : get_proc p s1 = Some pr) by (subst s1; destruct o; exact Hp).
    pose proof (inv_run_frag (Some p) pe pend codes (resume (pcode pr) (pst pr) o) s1 I1) as I2.
    pose proof (mono_run_frag Tnone codes (resume (pcode pr) (pst pr) o) s1 (iS_pev _ (proj1 I1))) as M2.
    destruct (run_frag codes (resume (pcode pr) (pst pr) o) s1) as [s2 fr]. cbn [fst] in *.
    assert (Hp2 : get_proc p s2 = Some pr).
    { destruct (m_pr _ _ _ M2 _ _ Hp1) as (pr' & H1 & _ & H2). rewrite H1. f_equal. apply H2. intros []. }
    destruct fr as [v a|v|x].
    + set (s3 := put_proc p (proc_set_st pr a) s2).
      assert (I3 : inv (Some p) pe pend s3) by (apply (inv_put_proc _ _ _ _ _ _ pr); [exact Hp2|reflexivity|reflexivity|exact I2]).
      assert (Hp3 : get_proc p s3 = Some (proc_set_st pr a)).
      { unfold s3, put_proc. rewrite get_proc_upd, Nat.eqb_refl, Hp2. reflexivity. }
      destruct v; try (intros H; injection H as <- <-; discriminate).
      destruct (get_event e0 s3) as [ev'|] eqn:He'; [|intros H; injection H as <- <-; discriminate].
      destruct (is_processed ev') eqn:P.
      * apply IH, I3.
      * intros H; injection H as <- <-. intros _. unfold is_processed in P. destruct (cbs ev') as [l|] eqn:Cl; [|discriminate].
        eapply inv_proc_wait; eassumption.
    + intros H; injection H as <- <-. intros _. apply inv_proc_finish; assumption.
    + intros H; injection H as <- <-. intros _. apply inv_proc_finish; assumption.
Qed.

(* ------------------------------------------------------------------------------------------------ *)
(* the pending list *)

Lemma invC_start pe p t s : invC None pe (CbResume p :: t) s -> invC (Some p) pe t s.
Proof.
  intros [A B C D E R0].
  assert (NP : ~ In (CbResume p) t).
  { destruct (D p (or_introl eq_refl)) as (_ & D2 & _). cbn [cnt] in D2. rewrite cb_eqb_refl in D2.
    apply cnt_zero. lia. }
  constructor.
  - exact A.
  - intros i Hin. destruct (B i (or_intror Hin)) as (B1 & B2 & B3). split; [exact B1|]. split; [|exact B3].
    cbn [cnt] in B2. cbn in B2. exact B2.
  - intros e ev l q H Cl Hin. destruct (C _ _ _ _ H Cl Hin) as (C1 & C2 & C3 & C4). repeat split; auto.
    + intros X. injection X as ->. apply C4. left. reflexivity.
    + intros X. apply C4. right. exact X.
  - intros q Hin. destruct (D q (or_intror Hin)) as (D1 & D2 & D3 & D4).
    assert (N : q <> p) by (intros ->; contradiction).
    split; [exact D1|]. split; [|split; [congruence|exact D4]].
    cbn [cnt] in D2. assert (cb_eqb (CbResume p) (CbResume q) = false) as X by (apply cb_eqb_neq; congruence).
    rewrite X in D2. exact D2.
  - intros q pr ev Hq H O R. destruct (E _ _ _ Hq H O) as [E1|E1]; [discriminate| |right; exact E1].
    destruct E1 as [E1|E1]; [injection E1 as ->; congruence|left; exact E1].
  - intros r Hr. injection Hr as <-. destruct (D p (or_introl eq_refl)) as ((pr & D1 & _) & _). exists pr. exact D1.
Qed.

Lemma invC_drop run pe c t s : (forall p, c <> CbResume p) -> invC run pe (c :: t) s -> invC run pe t s.
Proof.
  intros NC [A B C D E R0]. constructor.
  - exact A.
  - intros i Hin. destruct (B i (or_intror Hin)) as (B1 & B2 & B3). split; [exact B1|]. split; [|exact B3].
    cbn [cnt] in B2. destruct (cb_eqb c (CbInterrupt i)) eqn:X; [|exact B2].
    apply cnt_pos in Hin. lia.
  - intros e ev l q H Cl Hin. destruct (C _ _ _ _ H Cl Hin) as (C1 & C2 & C3 & C4). repeat split; auto.
    intros X. apply C4. right. exact X.
  - intros q Hin. destruct (D q (or_intror Hin)) as (D1 & D2 & D3 & D4). repeat split; auto.
    cbn [cnt] in D2. assert (cb_eqb c (CbResume q) = false) as X by (apply cb_eqb_neq, NC). rewrite X in D2. exact D2.
  - intros q pr ev Hq H O R. destruct (E _ _ _ Hq H O R) as [E1|E1]; [|right; exact E1].
    destruct E1 as [E1|E1]; [exfalso; exact (NC _ E1)|left; exact E1].
  - exact R0.
Qed.

Lemma invC_drop_all run pe t s : (forall p, ~ In (CbResume p) t) -> invC run pe t s -> invC run 0%nat [] s.
Proof.
  intros NC [A B C D E R0]. constructor.
  - exact A.
  - intros i [].
  - intros e ev l q H Cl Hin. destruct (C _ _ _ _ H Cl Hin) as (C1 & C2 & C3 & C4). repeat split; auto.
  - intros q [].
  - intros q pr ev Hq H O R. destruct (E _ _ _ Hq H O R) as [E1|E1]; [exfalso; exact (NC _ E1)|right; exact E1].
  - exact R0.
Qed.

Lemma inv_drop run pe c t s : (forall p, c <> CbResume p) -> inv run pe (c :: t) s -> inv run pe t s.
Proof. intros NC (HS & HC & HA). split; [exact HS|]. split; [eapply invC_drop; eassumption|exact HA]. Qed.

Lemma inv_drop_all run pe t s : (forall p, ~ In (CbResume p) t) -> inv run pe t s -> inv run 0%nat [] s.
Proof. intros NC (HS & HC & HA). split; [exact HS|]. split; [eapply invC_drop_all; eassumption|exact HA]. Qed.

(* ------------------------------------------------------------------------------------------------ *)
(* popping the minimum entry *)

Lemma key_le_time a b : key_le a b -> e_time a <= e_time b.
Proof. unfold key_le. intros [H|[H _]]; lra. Qed.

Lemma inv_pop s m rest ev l :
  good s -> pop_min (agenda s) = Some (m, rest) -> get_event (e_ev m) s = Some ev -> cbs ev = Some l ->
  inv None (e_ev m) l (upd_event (e_ev m) (ev_set_cbs None) (pop_state m rest s)).
Proof.
  intros (HS & HC & HA) HP Hev Cl.
  destruct (pop_min_spec _ _ _ HP) as (Hm & Hrest & Hmin).
  set (e := e_ev m) in *. set (s1 := upd_event e (ev_set_cbs None) (pop_state m rest s)).
  assert (GE : forall e0, get_event e0 s1 = if Nat.eqb e0 e then Some (ev_set_cbs None ev) else get_event e0 s).
  { intros e0. unfold s1. rewrite get_event_upd. change (get_event e0 (pop_state m rest s)) with (get_event e0 s).
    destruct (Nat.eqb e0 e) eqn:E; [|reflexivity]. apply Nat.eqb_eq in E. subst e0. rewrite Hev. reflexivity. }
  assert (BW : forall e0 ev0, get_event e0 s1 = Some ev0 ->
            exists ev1, get_event e0 s = Some ev1 /\ kind ev0 = kind ev1 /\ out ev0 = out ev1 /\ defused ev0 = defused ev1 /\
                        ((e0 = e /\ cbs ev0 = None /\ ev1 = ev) \/ (e0 <> e /\ ev0 = ev1))).
  { intros e0 ev0. rewrite GE. destruct (Nat.eqb e0 e) eqn:E.
    - apply Nat.eqb_eq in E. subst e0. intros H; injection H as <-. exists ev. repeat split; auto.
    - apply Nat.eqb_neq in E. intros H. exists ev0. repeat split; auto. }
  assert (FW : forall e0 ev1, get_event e0 s = Some ev1 ->
            exists ev0, get_event e0 s1 = Some ev0 /\ kind ev0 = kind ev1 /\ (e0 <> e -> ev0 = ev1) /\ (e0 = e -> cbs ev0 = None)).
  { intros e0 ev1 H. rewrite GE. destruct (Nat.eqb e0 e) eqn:E.
    - apply Nat.eqb_eq in E. subst e0. rewrite Hev in H. injection H as <-. eexists. repeat split; auto. intros N; contradiction.
    - apply Nat.eqb_neq in E. exists ev1. repeat split; auto. intros N; contradiction. }
  assert (GP : forall q, get_proc q s1 = get_proc q s) by reflexivity.
  split; [|split].
  - destruct HS as [A B C D E F0]. constructor.
    + intros p pr H. rewrite GP in H. destruct (A _ _ H) as (ev1 & H1 & K1). destruct (FW _ _ H1) as (ev0 & H0 & K0 & _).
      exists ev0. split; [exact H0|congruence].
    + intros e0 ev0 p H K. destruct (BW _ _ H) as (ev1 & H1 & K1 & _). rewrite GP. apply (B _ _ _ H1). congruence.
    + intros i ev0 p H K. destruct (BW _ _ H) as (ev1 & H1 & K1 & O1 & D1 & X). rewrite K1 in K.
      destruct (C _ _ _ H1 K) as (C1 & (c & C2) & C3 & C4). split; [exact C1|]. split; [exists c; congruence|].
      split; [congruence|]. destruct X as [(_ & X & _)|(_ & ->)]; [left; exact X|exact C4].
    + intros i ev0 p H K. destruct (BW _ _ H) as (ev1 & H1 & K1 & O1 & D1 & X). rewrite K1 in K.
      destruct (D _ _ _ H1 K) as (C1 & C2 & C4). split; [exact C1|]. split; [congruence|].
      destruct X as [(_ & X & _)|(_ & ->)]; [left; exact X|exact C4].
    + intros p pr t H T. rewrite GP in H. destruct (E _ _ _ H T) as (tev & H1). destruct (FW _ _ H1) as (ev0 & H0 & _).
      exists ev0. exact H0.
    + intros p pr H. rewrite GP in H. destruct (F0 _ _ H) as (iev & H1 & K1). destruct (FW _ _ H1) as (ev0 & H0 & K0 & _).
      exists ev0. split; [exact H0|congruence].
  - destruct HC as [A B C D E R0]. constructor.
    + intros e0 ev0 l0 i H C0 Hin. destruct (BW _ _ H) as (ev1 & H1 & K1 & _ & _ & [(_ & X & _)|(_ & ->)]); [congruence|].
      eapply A; eassumption.
    + intros i Hin. destruct (A _ _ _ _ Hev Cl Hin) as (A1 & A2 & (p & A3)). split; [auto|]. split; [exact A2|].
      destruct (FW _ _ Hev) as (ev0 & H0 & K0 & _). exists ev0, p. split; [exact H0|congruence].
    + intros e0 ev0 l0 p H C0 Hin. destruct (BW _ _ H) as (ev1 & H1 & K1 & _ & _ & [(_ & X & _)|(N & ->)]); [congruence|].
      destruct (C _ _ _ _ H1 C0 Hin) as ((pr & C1 & C2) & C3 & C4 & C5). rewrite GP.
      split; [exists pr; auto|]. split; [exact C3|]. split; [exact C4|].
      intros Hin'. destruct (C _ _ _ _ Hev Cl Hin') as ((pr' & C1' & C2') & _). congruence.
    + intros p Hin. destruct (C _ _ _ _ Hev Cl Hin) as ((pr & C1 & C2) & C3 & C4 & C5). rewrite GP.
      split; [exists pr; auto|]. split; [exact C3|]. split; [exact C4|].
      destruct (FW _ _ Hev) as (ev0 & H0 & _ & _ & X). exists ev0. auto.
    + intros p pr ev0 Hp H O R. rewrite GP in Hp. destruct (BW _ _ H) as (ev1 & H1 & _ & O1 & _).
      destruct (E _ _ _ Hp H1) as [[]|(t & tev & l0 & E1 & E2 & E3 & E4)]; [congruence|exact R|].
      destruct (Nat.eq_dec t e) as [->|N].
      * left. rewrite Hev in E2. injection E2 as <-. congruence.
      * right. destruct (FW _ _ E2) as (ev2 & H2 & _ & X & _). rewrite (X N) in H2. exists t, tev, l0. auto.
    + discriminate.
  - destruct HA as [A B C D E F G].
    assert (SUB : forall x, In x rest -> In x (agenda s)) by (intros x Hx; rewrite Hrest in Hx; eapply remove_eid_subset, Hx).
    assert (NEQ : forall x, In x rest -> e_eid x <> e_eid m) by (intros x Hx; rewrite Hrest in Hx; eapply remove_eid_not_in; eassumption).
    assert (Ag : agenda s1 = rest) by reflexivity. assert (Nw : now s1 = e_time m) by reflexivity.
    assert (Ne : next_eid s1 = next_eid s) by reflexivity.
    assert (NE : forall x, In x rest -> forall evx, get_event (e_ev x) s = Some evx -> urgent_kind (kind evx) = true -> e_ev x <> e).
    { intros x Hx evx H U Ee. destruct (E _ _ (SUB _ Hx) H U) as (_ & _ & _ & E4).
      assert (m = x) by (apply E4; [exact Hm|symmetry; exact Ee]). subst x. apply (NEQ _ Hx). reflexivity. }
    constructor; rewrite ?Ag, ?Nw, ?Ne.
    + intros x Hx. destruct (A _ (SUB _ Hx)) as (ev1 & H1). destruct (FW _ _ H1) as (ev0 & H0 & _). exists ev0. exact H0.
    + rewrite Hrest. apply remove_eid_nodup, B.
    + intros x Hx. apply C, SUB, Hx.
    + intros x Hx. apply key_le_time, Hmin, SUB, Hx.
    + intros x ev0 Hx H U. destruct (BW _ _ H) as (ev1 & H1 & K1 & _ & _ & X). rewrite K1 in U.
      destruct (E _ _ (SUB _ Hx) H1 U) as (E1 & E2 & E3 & E4).
      pose proof (key_le_time _ _ (Hmin _ (SUB _ Hx))) as T1. pose proof (D _ Hm) as T2.
      split; [lra|]. split; [exact E2|]. split.
      * destruct X as [(X & _)|(_ & ->)]; [|exact E3]. exfalso. exact (NE _ Hx _ H1 U X).
      * intros y Hy Ey. apply E4; [apply SUB, Hy|exact Ey].
    + intros e0 ev0 H U N. destruct (BW _ _ H) as (ev1 & H1 & K1 & _ & _ & [(_ & X & _)|(N0 & ->)]); [congruence|].
      destruct (F _ _ H1 U N) as (x & Hx & Ex). exists x. split; [|exact Ex].
      rewrite Hrest. apply remove_eid_keeps; [exact Hx|]. intros Eq.
      assert (x = m) by (eapply nodup_eid_inj; eassumption). subst x. apply N0. symmetry. exact Ex.
    + intros x y evx evy p Hx Hy H1 H2 K1 K2.
      destruct (BW _ _ H1) as (ex1 & X1 & KK1 & _). destruct (BW _ _ H2) as (ey1 & Y1 & KK2 & _).
      apply (G x y ex1 ey1 p); auto; congruence.
Qed.

(* ------------------------------------------------------------------------------------------------ *)
(* Interruption._interrupt: detaching the victim from its target *)

Lemma inv_detach pe pend p pr tg tev l s :
  get_proc p s = Some pr -> ptarget pr = Some tg -> get_event tg s = Some tev -> cbs tev = Some l ->
  In (CbResume p) l -> kind tev <> KInit p ->
  inv None pe pend s ->
  inv (Some p) pe pend (upd_event tg (ev_set_cbs (Some (remove_first (CbResume p) l))) s).
Proof.
  intros Hp Tg Ht Cl Hin NK (HS & HC & HA).
  set (l' := remove_first (CbResume p) l). set (s' := upd_event tg (ev_set_cbs (Some l')) s).
  assert (X0 : evs_step0 s s').
  { apply es_upd_event; [exact ev_step0_refl|]. intros ev H. rewrite Ht in H. injection H as <-.
    apply (ev_step0_set_cbs _ l); [exact Cl|]. intros U c r -> Ic. unfold l'. cbn [remove_first].
    assert (cb_eqb c (CbResume p) = false) as ->; [|eexists; reflexivity].
    apply cb_eqb_neq. intros ->. destruct (urgent_kind_cases _ U) as [(q & K)|(q & K)].
    - destruct (iS_kinit _ HS _ _ _ Ht K) as (_ & _ & [X|(r0 & X)]); [congruence|].
      rewrite Cl in X. injection X as X _. congruence.
    - destruct (iS_kintr _ HS _ _ _ Ht K) as (_ & _ & _ & [X|(r0 & X)]); [congruence|].
      rewrite Cl in X. injection X as X _. discriminate. }
  assert (GE : forall e, get_event e s' = if Nat.eqb e tg then Some (ev_set_cbs (Some l') tev) else get_event e s).
  { intros e. unfold s'. rewrite get_event_upd. destruct (Nat.eqb e tg) eqn:E; [|reflexivity].
    apply Nat.eqb_eq in E. subst e. rewrite Ht. reflexivity. }
  split; [eapply invS_es0; eassumption|]. split; [|eapply invA_es0; eassumption].
  destruct (iC_res _ _ _ _ HC _ _ _ _ Ht Cl Hin) as (_ & CNT & _ & NPEND).
  apply (invC_edit None (Some p) pe pend p tg tev l l' s s' HC Ht Cl GE (fun _ _ => eq_refl)).
  - intros c N. apply cnt_remove_first_other, N.
  - exact NPEND.
  - intros q N. split; intros X; [congruence|discriminate].
  - (* the victim's _resume is nowhere any more *)
    intros e ev l0 H C0 Hq. exfalso. rewrite GE in H. destruct (Nat.eqb e tg) eqn:Ee.
    + injection H as <-. cbn in C0. injection C0 as <-.
      apply cnt_pos in Hq. unfold l' in Hq. rewrite cnt_remove_first_same, CNT in Hq. cbn in Hq. lia.
    + destruct (iC_res _ _ _ _ HC _ _ _ _ H C0 Hq) as ((pr0 & C1 & C2) & _).
      rewrite Hp in C1. injection C1 as <-. apply Nat.eqb_neq in Ee. congruence.
  - intros pr0 ev _ _ _ R. congruence.
  - intros r Hr. injection Hr as <-. exists pr. exact Hp.
Qed.

Definition init_done (s : state) (p : pid) : Prop :=
  forall ie iev, get_event ie s = Some iev -> kind iev = KInit p -> cbs iev = None.

Lemma inv_do_interruption fuel codes pe pend i s s' r p iev :
  get_event i s = Some iev -> kind iev = KInterruption p -> init_done s p ->
  inv None pe pend s -> do_interruption fuel codes i s = (s', r) -> r = ROk -> inv None pe pend s'.
Proof.
  intros Hi Ki ID I. unfold do_interruption. rewrite Hi, Ki.
  destruct (get_proc p s) as [pr|] eqn:Hp; [|intros H; injection H as <- <-; discriminate].
  destruct (get_event (pev pr) s) as [pev0|]; [|intros H; injection H as <- <-; discriminate].
  destruct (is_triggered pev0); [intros H; injection H as <- <-; auto|].
  destruct (ptarget pr) as [t|] eqn:Tg; [|intros H; injection H as <- <-; discriminate].
  destruct (get_event t s) as [tev|] eqn:Ht; [|intros H; injection H as <- <-; discriminate].
  destruct (cbs tev) as [l|] eqn:Cl; [|intros H; injection H as <- <-; discriminate].
  destruct (mem_cb (CbResume p) l) eqn:M; [|intros H; injection H as <- <-; discriminate].
  apply mem_cb_in in M. unfold resume_proc. intros H R.
  eapply inv_resume_loop; [|exact H|exact R]. apply inv_set_active.
  eapply inv_detach; try eassumption. intros K. pose proof (ID _ _ Ht K). congruence.
Qed.

Lemma do_interruption_not_stop fuel codes i s v : snd (do_interruption fuel codes i s) <> RStop v.
Proof.
  unfold do_interruption.
  destruct (get_event i s) as [iev|]; [|discriminate].
  destruct (kind iev); try discriminate.
  destruct (get_proc p s) as [pr|]; [|discriminate].
  destruct (get_event (pev pr) s) as [pev0|]; [|discriminate].
  destruct (is_triggered pev0); [discriminate|].
  destruct (ptarget pr) as [t|]; [|discriminate].
  destruct (get_event t s) as [tev|]; [|discriminate].
  destruct (cbs tev) as [l|]; [|discriminate].
  destruct (mem_cb (CbResume p) l); [|discriminate].
  apply resume_loop_not_stop.
Qed.

(* ------------------------------------------------------------------------------------------------ *)
(* the callback loop *)

(* the loop is not cut short: every callback returns normally -- except that the stop callback of run(until=...)
   may raise StopSimulation / the failure of the until-event, which the (repaired) kernel defers to the end of the
   loop.  Any other exception, out-of-fuel or RBroken ends the loop and loses the remaining callbacks. *)
Fixpoint loop_clean (fuel : nat) (codes : list prog) (e : evid) (l : list cb) (s : state) : Prop :=
  match l with
  | [] => True
  | c :: t => match run_cb fuel codes e c s with
              | (s1, ROk) => loop_clean fuel codes e t s1
              | (s1, r) => if is_stop_cb c && is_exit r then loop_clean fuel codes e t s1 else False
              end
  end.

Lemma inv_pe_nil run pe pe' s : inv run pe [] s -> inv run pe' [] s.
Proof.
  intros (HS & [A B C D E R0] & HA). split; [exact HS|]. split; [|exact HA].
  constructor; auto.
  - intros i [].
  - intros p [].
Qed.

Lemma inv_run_callbacks fuel codes pe : forall l s,
  (forall i, ~ In (CbInterrupt i) l) ->
  inv None pe l s -> loop_clean fuel codes pe l s -> inv None 0%nat [] (fst (run_callbacks fuel codes pe l s)).
Proof.
  induction l as [|c t IH]; intros s NI I LC; cbn [run_callbacks fst].
  - eapply inv_pe_nil, I.
  - assert (NI' : forall i, ~ In (CbInterrupt i) t) by (intros i H; apply (NI i); right; exact H).
    cbn [loop_clean] in LC. destruct c as [p|c0|c0|i| |n].
    + (* _resume of p *)
      cbn [run_cb] in *. unfold resume_proc in *.
      assert (I1 : inv (Some p) pe t (set_active (Some p) s)).
      { apply inv_set_active. destruct I as (HS & HC & HA). split; [exact HS|]. split; [apply invC_start, HC|exact HA]. }
      destruct (resume_loop fuel codes p pe (set_active (Some p) s)) as [s1 r] eqn:RL.
      destruct r; cbn [is_stop_cb andb] in LC; try contradiction.
      apply IH; [exact NI'| |exact LC]. eapply inv_resume_loop; [exact I1|exact RL|reflexivity].
    + cbn [run_cb] in *. apply IH; [exact NI'| |exact LC]. apply inv_cond_check. eapply inv_drop; [|exact I]. discriminate.
    + cbn [run_cb] in *. pose proof (inv_cond_build None pe t c0 s) as CB.
      destruct (cond_build c0 s) as [s1 r]. cbn [fst] in CB.
      assert (I1 : inv None pe t s1) by (apply CB; eapply inv_drop; [|exact I]; discriminate).
      destruct r; cbn [is_stop_cb andb] in LC; try contradiction.
      apply IH; [exact NI'|exact I1|exact LC].
    + exfalso. apply (NI i). left. reflexivity.
    + cbn [run_cb] in *. pose proof (stop_cb_state pe s) as ST. destruct (stop_cb pe s) as [s1 r]. cbn [fst] in ST. subst s1.
      assert (I1 : inv None pe t s) by (eapply inv_drop; [|exact I]; discriminate).
      destruct r; cbn [is_stop_cb is_exit andb] in *; try contradiction;
        try (apply IH; [exact NI'|exact I1|exact LC]);
        (pose proof (IH s NI' I1 LC) as FIN; destruct (run_callbacks fuel codes pe t s) as [s2 r2]; cbn [fst] in FIN;
         destruct r2; exact FIN).
    + cbn [run_cb] in *. apply IH; [exact NI'| |exact LC].
      eapply inv_frame; [| | | | |eapply inv_drop; [|exact I]; discriminate]; reflexivity.
Qed.

(* ------------------------------------------------------------------------------------------------ *)
(* Environment.step *)

Definition step_clean (fuel : nat) (codes : list prog) (s : state) : Prop :=
  match pop_min (agenda s) with
  | None => True
  | Some (m, rest) =>
      match get_event (e_ev m) s with
      | None => False
      | Some ev => match cbs ev with
                   | None => False
                   | Some l => loop_clean fuel codes (e_ev m) l
                                 (upd_event (e_ev m) (ev_set_cbs None) (pop_state m rest s))
                   end
      end
  end.

(* when an Interruption aimed at p is the minimum of the agenda, p's Initialize has been processed *)
Lemma init_done_at_pop s m rest ev p :
  good s -> pop_min (agenda s) = Some (m, rest) -> get_event (e_ev m) s = Some ev -> kind ev = KInterruption p ->
  init_done s p.
Proof.
  intros (HS & HC & HA) HP Hev K ie iev Hie Kie.
  destruct (cbs iev) eqn:Ci; [|reflexivity]. exfalso.
  destruct (pop_min_spec _ _ _ HP) as (Hm & _ & Hmin).
  destruct (iA_has _ HA ie iev Hie) as (x & Hx & Ex); [rewrite Kie; reflexivity|congruence|].
  rewrite <- Ex in Hie.
  pose proof (iA_init_first _ HA x m iev ev p Hx Hm Hie Hev Kie K) as LT.
  destruct (iA_urg _ HA x iev Hx Hie) as (T1 & P1 & _); [rewrite Kie; reflexivity|].
  destruct (iA_urg _ HA m ev Hm Hev) as (T2 & P2 & _); [rewrite K; reflexivity|].
  apply (key_le_not_lt _ _ (Hmin _ Hx)). right. split; [lra|]. right. split; [congruence|exact LT].
Qed.

Lemma good_step fuel codes s : good s -> step_clean fuel codes s -> good (fst (step fuel codes s)).
Proof.
  intros G SC. unfold step, step_clean in *. destruct (pop_min (agenda s)) as [[m rest]|] eqn:HP; [|exact G].
  change (get_event (e_ev m) (pop_state m rest s)) with (get_event (e_ev m) s).
  destruct (get_event (e_ev m) s) as [ev|] eqn:Hev; [|contradiction].
  destruct (cbs ev) as [l|] eqn:Cl; [|contradiction].
  set (e := e_ev m) in *. set (s1 := upd_event e (ev_set_cbs None) (pop_state m rest s)) in *.
  pose proof (inv_pop _ _ _ _ _ G HP Hev Cl) as I1. fold e in I1. fold s1 in I1.
  assert (FIN : good (fst (run_callbacks fuel codes e l s1))).
  { destruct G as (HS & HC & HA).
    destruct (kind ev) eqn:K;
      try (apply inv_run_callbacks; [|exact I1|exact SC];
           intros i Hi; destruct (iC_intr _ _ _ _ HC _ _ _ _ Hev Cl Hi) as (_ & _ & (q & X)); congruence).
    (* an Interruption event: its own callback comes first *)
    destruct (iS_kintr _ HS _ _ _ Hev K) as (_ & _ & _ & [X|(r & X)]); [congruence|].
    rewrite Cl in X. injection X as ->.
    assert (NI : forall i, ~ In (CbInterrupt i) r).
    { intros i Hi. destruct (iC_intr _ _ _ _ HC e ev _ i Hev Cl (or_intror Hi)) as (<- & CNT & _).
      cbn [cnt] in CNT. rewrite cb_eqb_refl in CNT. apply cnt_pos in Hi. lia. }
    cbn [run_callbacks loop_clean run_cb] in *.
    assert (ID : init_done s1 p).
    { intros ie iev Hie Kie. unfold s1 in Hie. rewrite get_event_upd in Hie.
      change (get_event ie (pop_state m rest s)) with (get_event ie s) in Hie.
      destruct (Nat.eqb ie e) eqn:Ee.
      - apply Nat.eqb_eq in Ee. subst ie. rewrite Hev in Hie. injection Hie as <-. reflexivity.
      - exact (init_done_at_pop s m rest ev p (conj HS (conj HC HA)) HP Hev K ie iev Hie Kie). }
    assert (Hi1 : get_event e s1 = Some (ev_set_cbs None ev)).
    { unfold s1. rewrite get_event_upd, Nat.eqb_refl. change (get_event e (pop_state m rest s)) with (get_event e s).
      rewrite Hev. reflexivity. }
    destruct (do_interruption fuel codes e s1) as [s2 r2] eqn:DI.
    destruct r2; cbn [is_stop_cb andb] in SC; try contradiction.
    apply inv_run_callbacks; [exact NI| |exact SC].
    eapply inv_do_interruption; [exact Hi1|exact K|exact ID| |exact DI|reflexivity].
    eapply inv_drop; [|exact I1]. discriminate. }
  destruct (run_callbacks fuel codes e l s1) as [s2 r2]. cbn [fst] in FIN. destruct r2; exact FIN.
Qed.

(* ------------------------------------------------------------------------------------------------ *)
(* reachable states *)

Lemma good_init t0 : good (init_state t0).
Proof.
  assert (NE : forall e, get_event e (init_state t0) = None) by (intros [|e]; reflexivity).
  assert (NP : forall p, get_proc p (init_state t0) = None) by (intros [|p]; reflexivity).
  split; [|split].
  - constructor.
    + intros p pr H. rewrite NP in H. discriminate.
    + intros e ev p H. rewrite NE in H. discriminate.
    + intros e ev p H. rewrite NE in H. discriminate.
    + intros e ev p H. rewrite NE in H. discriminate.
    + intros p pr t H. rewrite NP in H. discriminate.
    + intros p pr H. rewrite NP in H. discriminate.
  - constructor.
    + intros e ev l i H. rewrite NE in H. discriminate.
    + intros i [].
    + intros e ev l p H. rewrite NE in H. discriminate.
    + intros p [].
    + intros p pr ev H. rewrite NP in H. discriminate.
    + discriminate.
  - constructor.
    + intros x [].
    + apply NoDup_nil.
    + intros x [].
    + intros x [].
    + intros x ev [].
    + intros e ev H. rewrite NE in H. discriminate.
    + intros x y evx evy p [].
Qed.

Inductive reach (codes : list prog) : state -> Prop :=
| reach_init t0 : reach codes (init_state t0)
| reach_top A (f : frag A) s : reach codes s -> reach codes (fst (exec_top codes f s))
| reach_prelude u s s1 : reach codes s -> run_prelude u s = inr s1 -> reach codes s1
| reach_step fuel s : reach codes s -> step_clean fuel codes s -> reach codes (fst (step fuel codes s)).

Theorem reach_good codes s : reach codes s -> good s.
Proof.
  induction 1 as [t0|A f s _ IH|u s s1 _ IH HP|fuel s _ IH SC].
  - apply good_init.
  - unfold exec_top. apply inv_run_frag, IH.
  - eapply inv_run_prelude; eassumption.
  - apply good_step; assumption.
Qed.

(* run() = prelude + steps: its final state is reachable when every step it takes is clean *)
Fixpoint steps_clean (n fuel : nat) (codes : list prog) (s : state) : Prop :=
  match n with
  | O => True
  | S m => step_clean fuel codes s /\
           match step fuel codes s with (s1, ROk) => steps_clean m fuel codes s1 | _ => True end
  end.

Lemma reach_run_loop codes fuel u : forall n s,
  reach codes s -> steps_clean n fuel codes s -> reach codes (fst (run_loop n fuel codes u s)).
Proof.
  induction n as [|n IH]; intros s R SC; cbn [run_loop fst]; [exact R|].
  destruct SC as [SC1 SC2]. pose proof (reach_step codes fuel s R SC1) as R1.
  destruct (step fuel codes s) as [s1 r]. cbn [fst] in R1.
  destruct r; try exact R1. apply IH; assumption.
Qed.

Theorem reach_run codes fuel u s :
  reach codes s ->
  (forall s1, run_prelude u s = inr s1 -> steps_clean fuel fuel codes s1) ->
  reach codes (fst (run fuel codes u s)).
Proof.
  intros R SC. unfold run. destruct (run_prelude u s) as [[s0 r0]|s1] eqn:HP.
  - apply run_prelude_inl in HP. subst s0. exact R.
  - apply reach_run_loop; [eapply reach_prelude; eassumption|apply SC; reflexivity].
Qed.
