(* Kernel/StopSpec.v -- C03: what run(until=number) and run(until=event) do, for every program and every calm state.

     run_num_past            until <= now: ValueError, nothing changes
     run_until_number_spec   until > now: the loop processes entries due strictly before the horizon, then the sentinel --
                             the first entry processed at the horizon -- and returns None with now == horizon; nothing due
                             at the horizon or later has been touched, nothing due earlier is left, the state is calm again
     run_event_processed     until-event already processed: its value at once, no step
     run_until_event_spec    otherwise: returns the value the stop callback read, in the step that processes the event (the
                             first entry of the event that is popped), after ALL callbacks of the event were invoked
                             (cb_chain: the repaired step()); agenda exhausted first: RuntimeError, and the event is
                             untriggered; the AssertionError of run() is unreachable
     calm_run_split          a plan of stop points whose run(until=...) calls all return leaves a calm state: calm is an
                             invariant (DESIGN.md section 4, (iii)) *)
From Coq Require Import ZArith QArith List Bool Lia Lqa.
From ONL Require Import Kernel.Model Kernel.Keys Kernel.Inv Kernel.Order Kernel.Deliver Kernel.DeliverWf Kernel.DeliverVal
  Kernel.StopFrame Kernel.StopInv Kernel.Stop.
Import ListNotations.

(* ------------------------------------------------------------------------------------------------ *)
(* only the stop callback answers "stop" *)

Lemma resume_loop_not_stop codes fuel : forall p e s v, snd (resume_loop fuel codes p e s) <> RStop v.
Proof.
  induction fuel as [|f IH]; intros p e s v; cbn [resume_loop]; [cbn; discriminate|].
  destruct (get_event e s) as [ev|]; [|cbn; discriminate].
  destruct (get_proc p s) as [pr|]; [|cbn; discriminate].
  destruct (out ev) as [o|]; [|cbn; discriminate].
  destruct (run_frag codes (resume (pcode pr) (pst pr) o) _) as [s2 r].
  destruct r as [w a|w|x]; try (cbn; discriminate).
  destruct w; try (cbn; discriminate).
  destruct (get_event e0 _) as [ev'|]; [|cbn; discriminate].
  destruct (is_processed ev'); [apply IH|cbn; discriminate].
Qed.

Lemma is_stop_cb_eq c : is_stop_cb c = true -> c = CbStop.
Proof. destruct c; cbn; try discriminate. reflexivity. Qed.

Lemma stop_cb_result e s ev :
  get_event e s = Some ev ->
  stop_cb e s = (s, match out ev with Some (Ok v) => RStop v | Some (Fail x) => RRaise x | None => RBroken end).
Proof. intros H. unfold stop_cb. rewrite H. destruct (out ev) as [[v|x]|]; reflexivity. Qed.

Lemma run_cb_stop_inv fuel codes e c s s1 v :
  run_cb fuel codes e c s = (s1, RStop v) -> c = CbStop /\ s1 = s /\ exists ev, get_event e s = Some ev /\ out ev = Some (Ok v).
Proof.
  intros H. pose proof (f_equal snd H) as E. cbn [snd] in E.
  destruct c; cbn [run_cb] in *; try discriminate E; [exfalso; revert E..|clear E].
  - apply resume_loop_not_stop.
  - unfold cond_build. destruct (remove_checks _ _ _) as [s0|]; [|cbn; discriminate].
    destruct (get_event c s0) as [cev|]; [|cbn; discriminate].
    destruct (out cev) as [[?|?]|]; try (cbn; discriminate).
    destruct (kind cev); try (cbn; discriminate).
    destruct (populate _ _ _); cbn; discriminate.
  - unfold do_interruption.
    destruct (get_event i s) as [iev|]; [|cbn; discriminate].
    destruct (kind iev); try (cbn; discriminate).
    destruct (get_proc p s) as [pr|]; [|cbn; discriminate].
    destruct (get_event (pev pr) s) as [pe|]; [|cbn; discriminate].
    destruct (is_triggered pe); [cbn; discriminate|].
    destruct (ptarget pr) as [t|]; [|cbn; discriminate].
    destruct (get_event t s) as [tev|]; [|cbn; discriminate].
    destruct (cbs tev) as [l|]; [|cbn; discriminate].
    destruct (mem_cb (CbResume p) l); [|cbn; discriminate].
    apply resume_loop_not_stop.
  - unfold stop_cb in H. destruct (get_event e s) as [ev|]; [|discriminate H].
    destruct (out ev) as [[w|x]|] eqn:O; try discriminate H. injection H as <- <-. eauto.
Qed.

(* a loop without stop callback never answers "stop" *)
Lemma run_callbacks_no_stop fuel codes e : forall l s v,
  existsb is_stop_cb l = false -> snd (run_callbacks fuel codes e l s) <> RStop v.
Proof.
  induction l as [|c t IH]; intros s v; cbn [existsb run_callbacks]; [cbn; discriminate|].
  intros H. apply orb_false_iff in H. destruct H as [Hc Ht].
  destruct (run_cb fuel codes e c s) as [s1 r] eqn:R. rewrite Hc. cbn [andb].
  destruct r; try (cbn; discriminate); [apply IH, Ht|].
  cbn. intros E. injection E as ->. destruct (run_cb_stop_inv _ _ _ _ _ _ _ R) as (-> & _). discriminate Hc.
Qed.

(* a loop with a stop callback, for a triggered event, does not return normally *)
Lemma run_callbacks_has_stop fuel codes e : forall l s,
  existsb is_stop_cb l = true -> (exists ev, get_event e s = Some ev /\ out ev <> None) ->
  snd (run_callbacks fuel codes e l s) <> ROk.
Proof.
  induction l as [|c t IH]; intros s; cbn [existsb run_callbacks]; [discriminate|].
  intros H (ev & G & O).
  destruct (is_stop_cb c) eqn:Sc.
  - rewrite (is_stop_cb_eq _ Sc). cbn [run_cb]. rewrite (stop_cb_result _ _ _ G).
    destruct (out ev) as [[v|x]|]; [| |contradiction]; cbn [is_stop_cb is_exit andb];
      destruct (run_callbacks fuel codes e t s) as [s2 r2]; destruct r2; cbn; discriminate.
  - cbn [orb] in H. pose proof (grows_run_cb fuel codes e c s) as Gr.
    destruct (run_cb fuel codes e c s) as [s1 r] eqn:R. cbn [fst] in Gr. cbn [andb].
    destruct r; try (cbn; discriminate).
    apply IH; [exact H|]. destruct (Gr _ _ G) as (ev' & G' & Le). exists ev'. split; [exact G'|apply (le_out _ _ Le), O].
Qed.

(* the value a loop answers "stop" with was the until-event's outcome when the stop callback ran *)
Lemma run_callbacks_stop_value fuel codes e (I : state -> Prop) :
  (forall c s, I s -> I (fst (run_cb fuel codes e c s))) ->
  forall l s s' v, I s -> run_callbacks fuel codes e l s = (s', RStop v) ->
  exists sm evm, I sm /\ get_event e sm = Some evm /\ out evm = Some (Ok v).
Proof.
  intros HI. induction l as [|c t IH]; intros s s' v Is; [discriminate|].
  pose proof (HI c s Is) as I1. destruct (run_cb fuel codes e c s) as [s1 r] eqn:R. cbn [fst] in I1.
  destruct (not_ok_cases r) as [->|N]; [cbn [run_callbacks]; rewrite R; apply IH, I1|].
  rewrite (run_callbacks_cons_not_ok _ _ _ _ t _ _ _ R N).
  assert (Here : r = RStop v -> exists sm evm, I sm /\ get_event e sm = Some evm /\ out evm = Some (Ok v)).
  { intros ->. destruct (run_cb_stop_inv _ _ _ _ _ _ _ R) as (_ & _ & ev & G & O). exists s, ev. auto. }
  destruct (is_stop_cb c && is_exit r); [|intros E; injection E as _ E; exact (Here E)].
  destruct (run_callbacks fuel codes e t s1) as [s2 r2] eqn:R2. destruct (not_ok_cases r2) as [->|N2].
  - intros E; injection E as _ E. exact (Here E).
  - rewrite (match_not_ok r2 _ _ N2). intros E; injection E as <- ->. exact (IH _ _ _ I1 R2).
Qed.

(* ---- the same for step() ---- *)

Lemma check_failure_not_stop e s v : check_failure e s <> RStop v.
Proof.
  unfold check_failure. destruct (get_event e s) as [ev|]; [|discriminate].
  destruct (out ev) as [[w|x]|]; try discriminate. destruct (defused ev); discriminate.
Qed.

Lemma after_loop_stop e s2 r2 s' v : after_loop e (s2, r2) = (s', RStop v) -> (s2, r2) = (s', RStop v).
Proof. destruct r2; cbn; intros H; try exact H. injection H as _ H. destruct (check_failure_not_stop _ _ _ H). Qed.

Lemma step_no_stop (Q : evid -> Prop) fuel codes s s' r m rest :
  step fuel codes s = (s', r) -> pop_min (agenda s) = Some (m, rest) ->
  stops_within Q s -> ~ Q (e_ev m) -> forall v, r <> RStop v.
Proof.
  intros St P Sw Nq v ->. rewrite (step_eq _ _ _ _ _ P) in St.
  destruct (get_event (e_ev m) s) as [ev|] eqn:G; [|discriminate].
  assert (N : has_stop ev = false) by (destruct (has_stop ev) eqn:T; [destruct (Nq (Sw _ _ G T))|reflexivity]).
  unfold has_stop in N. destruct (cbs ev) as [l|]; [|discriminate].
  destruct (run_callbacks fuel codes (e_ev m) l (loop_start m rest s)) as [s2 r2] eqn:R. apply after_loop_stop in St.
  apply (run_callbacks_no_stop fuel codes (e_ev m) l (loop_start m rest s) v N). rewrite R. injection St as _ ->. reflexivity.
Qed.

Lemma step_with_stop fuel codes s s' r m rest ev :
  step fuel codes s = (s', r) -> pop_min (agenda s) = Some (m, rest) ->
  get_event (e_ev m) s = Some ev -> has_stop ev = true -> out ev <> None -> r <> ROk /\ r <> REmpty.
Proof.
  intros St P G Hs O. rewrite (step_eq _ _ _ _ _ P), G in St. unfold has_stop in Hs.
  destruct (cbs ev) as [l|]; [|discriminate].
  assert (X : snd (run_callbacks fuel codes (e_ev m) l (loop_start m rest s)) <> ROk).
  { apply run_callbacks_has_stop; [exact Hs|]. exists (ev_set_cbs None ev). split; [apply loop_start_processed, G|exact O]. }
  pose proof (run_callbacks_not_empty fuel codes (e_ev m) l (loop_start m rest s)) as Y.
  destruct (run_callbacks fuel codes (e_ev m) l (loop_start m rest s)) as [s2 r2]. cbn [snd after_loop] in X, Y, St.
  destruct r2; injection St as _ <-; try contradiction; split; discriminate.
Qed.

Lemma step_stop_value fuel codes (I : state -> Prop) s s' m rest v :
  (forall c s, I s -> I (fst (run_cb fuel codes (e_ev m) c s))) -> I (loop_start m rest s) ->
  step fuel codes s = (s', RStop v) -> pop_min (agenda s) = Some (m, rest) ->
  exists sm evm, I sm /\ get_event (e_ev m) sm = Some evm /\ out evm = Some (Ok v).
Proof.
  intros HI I0 St P. rewrite (step_eq _ _ _ _ _ P) in St.
  destruct (get_event (e_ev m) s) as [ev|]; [|discriminate]. destruct (cbs ev) as [l|]; [|discriminate].
  destruct (run_callbacks fuel codes (e_ev m) l (loop_start m rest s)) as [s2 r2] eqn:R. apply after_loop_stop in St.
  rewrite St in R. exact (run_callbacks_stop_value fuel codes (e_ev m) I HI _ _ _ _ I0 R).
Qed.

(* the step that answers "stop" invoked every callback of its event: nothing is dropped *)
Lemma step_stop_chain fuel codes s s' m rest ev l v :
  step fuel codes s = (s', RStop v) -> pop_min (agenda s) = Some (m, rest) ->
  get_event (e_ev m) s = Some ev -> cbs ev = Some l -> cb_chain fuel codes (e_ev m) l (loop_start m rest s) s'.
Proof.
  intros St P G C.
  destruct (step_invokes _ _ _ _ _ _ _ _ _ St P G C) as [(Ch & _)|(pre & c & post & smid & _ & _ & R & N)]; [exact Ch|].
  exfalso. apply N. right. destruct (run_cb_stop_inv _ _ _ _ _ _ _ R) as (-> & _). split; reflexivity.
Qed.

(* ------------------------------------------------------------------------------------------------ *)
(* run(until = number) *)

Lemma run_num_past fuel codes hz s : hz <= now s -> run fuel codes (UNum hz) s = (s, RRaise (kexn EValue M_until_past)).
Proof. intros H. unfold run. cbn [run_prelude]. apply Qle_bool_iff in H. rewrite H. reflexivity. Qed.

Definition sentinel_ev : event := mkEvent (Some [CbStop]) (Some (Ok VNone)) false KSentinel.

Definition num_entry (hz : Q) (s : state) : entry :=
  mkEntry (Qred (now s + (hz - now s))) URGENT (next_eid s) (length (events s)).

Definition num_start (hz : Q) (s : state) : state :=
  mkState (now s) (agenda s ++ [num_entry hz s]) (S (next_eid s)) (events s ++ [sentinel_ev]) (procs s) (active s) (glob s) (obs s).

Lemma upd_nth_app_last {A} (f : A -> A) l a : upd_nth (length l) f (l ++ [a]) = l ++ [f a].
Proof. induction l as [|x t IH]; cbn; [reflexivity|]. now rewrite IH. Qed.

Lemma run_prelude_num hz s : now s < hz -> run_prelude (UNum hz) s = inr (num_start hz s).
Proof.
  intros H. cbn [run_prelude]. destruct (Qle_bool hz (now s)) eqn:L; [apply Qle_bool_iff in L; lra|].
  cbn [new_event]. f_equal. unfold add_callback, upd_event, schedule, set_events, num_start. cbn.
  rewrite upd_nth_app_last. reflexivity.
Qed.

Lemma num_entry_time hz s : e_time (num_entry hz s) == hz.
Proof. unfold num_entry. cbn [e_time]. rewrite Qred_correct. lra. Qed.

Lemma get_num_start_old hz s e : (e < length (events s))%nat -> get_event e (num_start hz s) = get_event e s.
Proof. intros H. unfold get_event. cbn. now rewrite nth_error_app1. Qed.

Lemma get_num_start_new hz s : get_event (length (events s)) (num_start hz s) = Some sentinel_ev.
Proof. unfold get_event. cbn. rewrite nth_error_app2 by lia. now rewrite Nat.sub_diag. Qed.

Lemma get_num_start_cases hz s e ev :
  get_event e (num_start hz s) = Some ev -> get_event e s = Some ev \/ (e = length (events s) /\ ev = sentinel_ev).
Proof. unfold get_event. cbn. apply nth_error_snoc_inv. Qed.

Lemma entry_eq_dec (a b : entry) : {a = b} + {a <> b}.
Proof.
  decide equality; try apply Nat.eq_dec. decide equality; [apply Pos.eq_dec|apply Z.eq_dec].
Qed.

(* the invariant of the loop of run(until = at), entered in state s0 *)
Definition jn (hz : Q) (s0 s : state) : Prop :=
  wk (fun e => e = length (events s0)) (Some (num_entry hz s0)) s /\
  now s < hz /\ In (num_entry hz s0) (agenda s) /\
  (forall y, In y (agenda s) -> e_ev y = length (events s0) -> y = num_entry hz s0) /\
  (exists ev, get_event (length (events s0)) s = Some ev /\ has_stop ev = true /\ out ev = Some (Ok VNone) /\
              kind ev = KSentinel).

Lemma jn_start hz s : calm s -> now s < hz -> jn hz s (num_start hz s).
Proof.
  intros (G & U & Pk & Sw & Ub) Lt. pose proof (run_prelude_num hz s Lt) as Pre.
  split; [|split; [exact Lt|split; [cbn; apply in_or_app; right; left; reflexivity|split]]].
  - split; [eapply ext_good; [exact G|eapply ext_run_prelude, Pre]|].
    split; [eapply uinv_run_prelude; [exact Pre|exact U]|]. split; [|split].
    + intros e ev H O C. destruct (get_num_start_cases _ _ _ _ H) as [H0|[-> ->]].
      * destruct (Pk _ _ H0 O C) as (y & Hy & E). exists y. split; [cbn; apply in_or_app; left; exact Hy|exact E].
      * exists (num_entry hz s). split; [cbn; apply in_or_app; right; left; reflexivity|reflexivity].
    + intros e ev H T. destruct (get_num_start_cases _ _ _ _ H) as [H0|[-> _]]; [destruct (Sw _ _ H0 T)|reflexivity].
    + intros y Hy P. cbn [num_start agenda now] in *. apply in_app_or in Hy. destruct Hy as [Hy|[<-|[]]].
      * destruct (Ub _ Hy P) as [X|X]; [discriminate|right; exact X].
      * left. reflexivity.
  - intros y Hy E. cbn [num_start agenda] in Hy. apply in_app_or in Hy. destruct Hy as [Hy|[<-|[]]]; [|reflexivity].
    exfalso. destruct (proj1 U _ Hy) as (ev & H & _). apply get_event_lt in H. lia.
  - exists sentinel_ev. split; [apply get_num_start_new|]. repeat split.
Qed.

Lemma key_le_urgent_time m x :
  key_le m x -> e_prio x = URGENT -> e_time m < e_time x \/ (e_time m == e_time x /\ e_prio m = URGENT).
Proof.
  unfold key_le, URGENT. intros [H|[H [H'|[H' _]]]] P; [left; exact H|lia|right; split; [exact H|congruence]].
Qed.

(* one turn of the loop, the popped entry is not the sentinel *)
Lemma jn_step_other hz s0 fuel codes s s' r m rest :
  jn hz s0 s -> step fuel codes s = (s', r) -> pop_min (agenda s) = Some (m, rest) -> m <> num_entry hz s0 ->
  e_time m < hz /\ now s' = e_time m /\ (forall v, r <> RStop v) /\ (r = ROk -> jn hz s0 s').
Proof.
  set (x := num_entry hz s0). set (sent := length (events s0)).
  intros (W & Lt & Hx & Only & (sev & Gs & Ss & Os & Ks)) St P Ne.
  pose proof W as (G & U & Pk & Sw & Ub).
  destruct (pop_min_spec _ _ _ P) as (Hm & Er & Hle).
  assert (Tm : e_time m < hz).
  { destruct (key_le_urgent_time _ _ (Hle _ Hx) eq_refl) as [T|[T Pm]].
    - rewrite <- (num_entry_time hz s0). exact T.
    - destruct (Ub _ Hm Pm) as [X|X]; [injection X as X; contradiction|]. rewrite X. exact Lt. }
  assert (Em : e_ev m <> sent) by (intros E; apply Ne, Only; assumption).
  destruct (wk_step_gen _ _ _ _ _ _ _ W St) as [(N & _)|(m' & rest' & P' & W' & _ & Nw)]; [congruence|].
  rewrite P in P'. injection P' as <- <-.
  split; [exact Tm|]. split; [exact Nw|]. split.
  - exact (step_no_stop _ _ _ _ _ _ _ _ St P Sw Em).
  - intros ->. pose proof (step_below_mid _ _ _ _ _ _ _ St P) as (E & F & Gr & _).
    destruct F as (Nn & (l & Al & Ul & _) & _ & Kl).
    split; [eapply wk_weaken; [|exact W']; intros e [H _]; exact H|].
    split; [rewrite Nw; exact Tm|]. split; [|split].
    + rewrite Al, mid_agenda. apply in_or_app. left. eapply pop_rest_in; try eassumption. intros X. apply Ne. symmetry. exact X.
    + intros y Hy Ey. rewrite Al, mid_agenda in Hy. apply in_app_or in Hy. destruct Hy as [Hy|Hy].
      * apply Only; [|exact Ey]. rewrite Er in Hy. eapply remove_eid_subset, Hy.
      * exfalso.
        assert (Km : kinv (mid m rest s)) by (apply (good_mid _ _ _ G P)).
        destruct (E Km) as [_ _ _ (l' & Al' & _ & _ & Cl)]. rewrite Al in Al'. apply app_inv_head in Al'. subst l'.
        destruct (Cl _ Hy) as (ev' & H' & Kc). rewrite Ey in H'.
        (* the event named by the new entry is the sentinel event: its class is URGENT *)
        assert (Gm : get_event sent (mid m rest s) = Some sev) by (rewrite mid_get_other by (intros X; apply Em; symmetry; exact X); exact Gs).
        destruct (Gr _ _ Gm) as (ev2 & H2 & Le). unfold get_event, sent in H2. unfold sent in H'. rewrite H' in H2. injection H2 as <-.
        pose proof (le_kind _ _ Le) as Ksame. rewrite Ks in Ksame. cbn in Ksame. rewrite <- Ksame in Kc. cbn in Kc.
        destruct (Ul _ Hy (eq_sym Kc)) as [_ Len]. rewrite mid_length, Ey in Len.
        apply get_event_lt in Gs. unfold sent in *. lia.
    + assert (Gm : get_event sent (mid m rest s) = Some sev) by (rewrite mid_get_other by (intros X; apply Em; symmetry; exact X); exact Gs).
      destruct (Kl _ _ Gm) as (ev' & H' & Ts). exists ev'. split; [exact H'|]. split; [exact (Ts Ss)|].
      pose proof (vgrows_step fuel codes s U) as V. rewrite St in V. cbn [fst] in V.
      destruct (V _ _ Gs) as (ev2 & H2 & Vl). fold sent in H2. rewrite H' in H2. injection H2 as <-.
      pose proof (v_kind _ _ Vl) as Ksame. rewrite Ks in Ksame. cbn in Ksame. split; [|symmetry; exact Ksame].
      rewrite (v_out _ _ Vl); [exact Os|rewrite Ks; reflexivity|congruence].
Qed.

(* the turn that pops the sentinel *)
Lemma jn_step_sentinel hz s0 fuel codes s s' r rest :
  jn hz s0 s -> step fuel codes s = (s', r) -> pop_min (agenda s) = Some (num_entry hz s0, rest) ->
  now s' == hz /\ r <> ROk /\ r <> REmpty /\
  (forall v, r = RStop v -> v = VNone /\ calm s' /\ forall y, In y (agenda s') -> hz <= e_time y).
Proof.
  set (x := num_entry hz s0). set (sent := length (events s0)).
  intros (W & Lt & Hx & Only & (sev & Gs & Ss & Os & Ks)) St P.
  pose proof W as (G & U & Pk & Sw & Ub).
  destruct (wk_step_gen _ _ _ _ _ _ _ W St) as [(N & _)|(m' & rest' & P' & W' & Un & Nw)]; [congruence|].
  rewrite P in P'. injection P' as <- <-.
  assert (Nat : now s' == hz) by (rewrite Nw; apply num_entry_time).
  split; [exact Nat|].
  destruct (step_with_stop _ _ _ _ _ _ _ _ St P Gs Ss) as [R1 R2]; [rewrite Os; discriminate|].
  split; [exact R1|]. split; [exact R2|]. intros v ->. split; [|split].
  - (* the value: the sentinel's outcome does not change while the loop runs *)
    set (I := fun sm : state => uinv sm /\ exists ev, get_event sent sm = Some ev /\ out ev = Some (Ok VNone) /\ kind ev = KSentinel).
    destruct (step_stop_value fuel codes I s s' x rest v) as (sm & evm & (_ & ev & Ge & Oe & _) & Gm & Om); try assumption.
    + intros c s1 (U1 & ev & Ge & Oe & Ke). split; [apply uinv_run_cb, U1|].
      destruct (vx_run_cb fuel codes (e_ev x) c s1 U1) as [_ V]. destruct (V _ _ Ge) as (ev' & Ge' & Vl).
      exists ev'. split; [exact Ge'|]. pose proof (v_kind _ _ Vl) as Ksame. rewrite Ke in Ksame. cbn in Ksame.
      split; [|symmetry; exact Ksame]. rewrite (v_out _ _ Vl); [exact Oe|rewrite Ke; reflexivity|congruence].
    + split; [apply uinv_loop_start; assumption|]. exists (ev_set_cbs None sev).
      split; [apply (loop_start_processed x rest s sev Gs)|]. split; [exact Os|exact Ks].
    + change (e_ev x) with sent in Gm. rewrite Ge in Gm. injection Gm as <-. congruence.
  - split; [apply W'|]. split; [apply W'|]. split; [apply W'|]. split; [|exact (Un eq_refl)].
    destruct W' as (_ & _ & _ & Sw' & _). intros e ev H T. destruct (Sw' _ _ H T) as [A B]. apply B. exact A.
  - intros y Hy. destruct W' as ((A & _) & _). rewrite <- Nat. apply (ok_time _ A), Hy.
Qed.

Definition popped_before (hz : Q) (x : entry) (l : list (option entry)) : Prop :=
  forall o, In o l -> exists m, o = Some m /\ (m = x \/ e_time m < hz).

(* what the loop of run(until = hz) with sentinel x achieves from s: the specification is this at the start state *)
Definition num_loop_spec (codes : list prog) (hz : Q) (x : entry) (s s' : state) (r : result) : Prop :=
  exists l, exec codes s l s' /\ popped_before hz x l /\ now s' <= hz /\
    match r with
    | RStop v => v = VNone /\ now s' == hz /\ (exists l0, l = l0 ++ [Some x] /\ ~ In (Some x) l0) /\
                 (forall y, In y (agenda s') -> hz <= e_time y) /\ calm s'
    | RRaise _ | RFuel | RBroken => True
    | ROk | REmpty => False
    end.

Lemma run_loop_num hz s0 fuel codes : forall n s s' r,
  jn hz s0 s -> run_loop n fuel codes (UNum hz) s = (s', r) -> num_loop_spec codes hz (num_entry hz s0) s s' r.
Proof.
  set (x := num_entry hz s0). unfold num_loop_spec.
  induction n as [|n IH]; intros s s' r J; cbn [run_loop].
  - intros H; injection H as <- <-. exists []. split; [constructor|]. split; [intros o []|]. split; [|exact I].
    destruct J as (_ & Lt & _). lra.
  - destruct (step fuel codes s) as [s1 r1] eqn:St.
    destruct (pop_min (agenda s)) as [[m rest]|] eqn:P.
    2:{ exfalso. apply pop_min_none in P. destruct J as (_ & _ & Hx & _). rewrite P in Hx. destruct Hx. }
    assert (T : ktrans codes s (Some m) s1) by (eapply KStep; eassumption).
    destruct (entry_eq_dec m x) as [->|Ne].
    + (* the sentinel *)
      destruct (jn_step_sentinel _ _ _ _ _ _ _ _ J St P) as (Nat & R1 & R2 & Hv).
      assert (L1 : exec codes s [Some x] s1) by (econstructor; [exact T|constructor]).
      assert (B1 : popped_before hz x [Some x]) by (intros o [<-|[]]; exists x; auto).
      destruct r1; try contradiction; intros H; injection H as <- <-; exists [Some x];
        (split; [exact L1|]; split; [exact B1|]; split; [lra|]); try exact I.
      destruct (Hv _ eq_refl) as (-> & Cm & Ag). split; [reflexivity|]. split; [exact Nat|].
      split; [exists []; split; [reflexivity|intros []]|]. split; [exact Ag|exact Cm].
    + destruct (jn_step_other _ _ _ _ _ _ _ _ _ J St P Ne) as (Tm & Nw & Ns & Jk).
      assert (L1 : exec codes s [Some m] s1) by (econstructor; [exact T|constructor]).
      assert (B1 : popped_before hz x [Some m]) by (intros o [<-|[]]; exists m; auto).
      destruct r1; try (intros H; injection H as <- <-; exists [Some m];
        (split; [exact L1|]; split; [exact B1|]; split; [rewrite Nw; lra|]); exact I).
      * intros H. destruct (IH _ _ _ (Jk eq_refl) H) as (l & E & B & Nl & Rr).
        exists (Some m :: l). split; [econstructor; eassumption|]. split.
        -- intros o [<-|Ho]; [exists m; auto|exact (B _ Ho)].
        -- split; [exact Nl|]. destruct r; try exact Rr.
           destruct Rr as (Ev & Na & (l0 & -> & Nin) & Ag & Cm). split; [exact Ev|]. split; [exact Na|].
           split; [|split; assumption]. exists (Some m :: l0). split; [reflexivity|].
           intros [X|X]; [injection X as X; contradiction|contradiction].
      * exfalso. exact (Ns v eq_refl).
Qed.

(* run(until = hz), hz > now, from a calm state: the sentinel x is appended URGENT at hz; the loop pops only entries due
   strictly before hz until it pops x; it answers None in the step that pops x, with now == hz, nothing due before hz left
   on the agenda, and the state calm again; it never returns by EmptySchedule or normally.  The other answers are an
   exception escaping from one of those steps (RRaise), or the explicit fuel / internal-error answers. *)
Theorem run_until_number_spec fuel codes hz s s' r :
  calm s -> now s < hz -> run fuel codes (UNum hz) s = (s', r) ->
  let x := num_entry hz s in
  run_prelude (UNum hz) s = inr (num_start hz s) /\ agenda (num_start hz s) = agenda s ++ [x] /\
  e_time x == hz /\ e_prio x = URGENT /\ e_eid x = next_eid s /\
  exists l, exec codes (num_start hz s) l s' /\ popped_before hz x l /\ now s' <= hz /\
    match r with
    | RStop v => v = VNone /\ now s' == hz /\ (exists l0, l = l0 ++ [Some x] /\ ~ In (Some x) l0) /\
                 (forall y, In y (agenda s') -> hz <= e_time y) /\ calm s'
    | RRaise _ | RFuel | RBroken => True
    | ROk | REmpty => False
    end.
Proof.
  intros C Lt R. cbn zeta. pose proof (run_prelude_num hz s Lt) as Pre.
  split; [exact Pre|]. split; [reflexivity|]. split; [apply num_entry_time|]. split; [reflexivity|]. split; [reflexivity|].
  unfold run in R. rewrite Pre in R. eapply run_loop_num; [apply jn_start; assumption|exact R].
Qed.

(* ------------------------------------------------------------------------------------------------ *)
(* run(until = event) *)

Lemma run_event_processed fuel codes e s ev :
  get_event e s = Some ev -> cbs ev = None ->
  run fuel codes (UEv e) s =
  (s, match raw_value ev with Some v => RStop v | None => RRaise (kexn EAttribute M_value_pending) end).
Proof. intros H C. unfold run. cbn [run_prelude]. rewrite H. unfold is_processed. rewrite C. reflexivity. Qed.

Lemma run_event_pending_prelude e s ev l :
  get_event e s = Some ev -> cbs ev = Some l -> run_prelude (UEv e) s = inr (add_callback e CbStop s).
Proof. intros H C. cbn [run_prelude]. rewrite H. unfold is_processed. rewrite C. reflexivity. Qed.

(* the invariant of the loop of run(until = e) *)
Definition je (e : evid) (s : state) : Prop :=
  wk (fun e' => e' = e) None s /\ exists ev, get_event e s = Some ev /\ has_stop ev = true.

Lemma je_start e s ev l : calm s -> get_event e s = Some ev -> cbs ev = Some l -> je e (add_callback e CbStop s).
Proof.
  intros (G & U & Pk & Sw & Ub) H C. pose proof (run_event_pending_prelude e s ev l H C) as Pre.
  assert (Ge : forall x, get_event x (add_callback e CbStop s) =
                         if Nat.eqb x e then option_map (ev_add_cb CbStop) (get_event x s) else get_event x s)
    by (intros x; apply get_event_upd).
  split.
  - split; [eapply ext_good; [exact G|eapply ext_run_prelude, Pre]|].
    split; [eapply uinv_run_prelude; [exact Pre|exact U]|]. split; [|split].
    + intros x xev. rewrite Ge. destruct (Nat.eqb x e) eqn:E.
      * apply Nat.eqb_eq in E. subst x. rewrite H. cbn. intros X; injection X as <-. unfold ev_add_cb. rewrite C. cbn.
        intros O _. apply (Pk _ _ H O). congruence.
      * intros X O Cx. exact (Pk _ _ X O Cx).
    + intros x xev. rewrite Ge. destruct (Nat.eqb x e) eqn:E; [intros _ _; apply Nat.eqb_eq, E|].
      intros X T. destruct (Sw _ _ X T).
    + exact Ub.
  - rewrite Ge, Nat.eqb_refl, H. cbn. eexists. split; [reflexivity|]. unfold ev_add_cb, has_stop. rewrite C. cbn.
    rewrite existsb_app. cbn. apply orb_true_r.
Qed.

Lemma je_step_other e fuel codes s s' r m rest :
  je e s -> step fuel codes s = (s', r) -> pop_min (agenda s) = Some (m, rest) -> e_ev m <> e ->
  (forall v, r <> RStop v) /\ (r = ROk -> je e s').
Proof.
  intros (W & (ev & Ge & Se)) St P Ne. pose proof W as (G & U & Pk & Sw & Ub).
  destruct (wk_step_gen _ _ _ _ _ _ _ W St) as [(N & _)|(m' & rest' & P' & W' & _ & Nw)]; [congruence|].
  rewrite P in P'. injection P' as <- <-. split.
  - exact (step_no_stop _ _ _ _ _ _ _ _ St P Sw Ne).
  - intros _. split; [eapply wk_weaken; [|exact W']; intros x [X _]; exact X|].
    pose proof (step_below_mid _ _ _ _ _ _ _ St P) as (_ & (_ & _ & _ & Kl) & _).
    assert (Gm : get_event e (mid m rest s) = Some ev) by (rewrite mid_get_other by (intros X; apply Ne; symmetry; exact X); exact Ge).
    destruct (Kl _ _ Gm) as (ev' & H' & Ts). exists ev'. split; [exact H'|exact (Ts Se)].
Qed.

Lemma je_step_event e fuel codes s s' r m rest :
  je e s -> step fuel codes s = (s', r) -> pop_min (agenda s) = Some (m, rest) -> e_ev m = e ->
  r <> ROk /\ r <> REmpty /\ calm s' /\
  (exists ev', get_event e s' = Some ev' /\ cbs ev' = None) /\
  (forall v, r = RStop v ->
     (exists evk lk, get_event e s = Some evk /\ cbs evk = Some lk /\ cb_chain fuel codes e lk (loop_start m rest s) s') /\
     (exists sm evm, vgrows (loop_start m rest s) sm /\ get_event e sm = Some evm /\ out evm = Some (Ok v)) /\
     (forall ev', get_event e s' = Some ev' -> stable_kind (kind ev') = true -> out ev' = Some (Ok v))).
Proof.
  intros (W & (ev & Ge & Se)) St P Em. pose proof W as (G & U & Pk & Sw & Ub).
  destruct (wk_step_gen _ _ _ _ _ _ _ W St) as [(N & _)|(m' & rest' & P' & W' & _ & Nw)]; [congruence|].
  rewrite P in P'. injection P' as <- <-.
  destruct (pop_min_spec _ _ _ P) as (Hm & _ & _).
  assert (O : out ev <> None).
  { destruct (proj1 U _ Hm) as (ev0 & H0 & O0). rewrite Em, Ge in H0. injection H0 as <-. exact O0. }
  rewrite <- Em in Ge.
  destruct (step_with_stop _ _ _ _ _ _ _ _ St P Ge Se O) as [R1 R2].
  split; [exact R1|]. split; [exact R2|]. split; [|split].
  - destruct W' as (A & B & C & D & E). split; [exact A|]. split; [exact B|]. split; [exact C|]. split; [|exact E].
    intros x xev H T. destruct (D _ _ H T) as [X Y]. apply Y. rewrite X. symmetry. exact Em.
  - pose proof (step_below_mid _ _ _ _ _ _ _ St P) as (_ & _ & Gr & _).
    assert (Gm : get_event (e_ev m) (mid m rest s) = Some (ev_set_cbs None ev)) by (rewrite mid_get, Nat.eqb_refl, Ge; reflexivity).
    destruct (Gr _ _ Gm) as (ev' & H' & Le). exists ev'. rewrite <- Em. split; [exact H'|apply (le_cbs _ _ Le); reflexivity].
  - intros v ->. unfold has_stop in Se. destruct (cbs ev) as [lk|] eqn:Ck; [|discriminate].
    pose proof (uinv_loop_start m rest s P U) as U1.
    set (I := fun sm : state => uinv sm /\ vgrows (loop_start m rest s) sm).
    destruct (step_stop_value fuel codes I s s' m rest v) as (sm & evm & (_ & Vg) & Gm & Om); try assumption.
    { intros c s1 (Ua & Va). split; [apply uinv_run_cb, Ua|]. eapply vgrows_trans; [exact Va|apply (vx_run_cb fuel codes (e_ev m) c s1 Ua)]. }
    { split; [exact U1|apply vgrows_refl]. }
    pose proof (step_stop_chain _ _ _ _ _ _ _ _ _ St P Ge Ck) as Ch.
    rewrite <- Em. split; [exists ev, lk; auto|]. split; [exists sm, evm; auto|].
    intros ev' H' Sk.
    pose proof (loop_start_processed m rest s ev Ge) as Gl.
    destruct (Vg _ _ Gl) as (evm' & Gm' & Vm). rewrite Gm in Gm'. injection Gm' as <-.
    destruct (vx_cb_chain _ _ _ _ _ _ Ch U1) as [_ Vs]. destruct (Vs _ _ Gl) as (ev2 & G2 & V2). rewrite H' in G2. injection G2 as <-.
    assert (Sk0 : stable_kind (kind (ev_set_cbs None ev)) = true) by (rewrite <- (ksame_stable _ _ (v_kind _ _ V2)); exact Sk).
    rewrite (v_out _ _ V2 Sk0 O). rewrite <- (v_out _ _ Vm Sk0 O). exact Om.
Qed.

Lemma je_empty e s : je e s -> agenda s = [] ->
  run_empty (UEv e) s = RRaise (kexn ERuntime M_until_not_triggered) /\ exists ev, get_event e s = Some ev /\ out ev = None.
Proof.
  intros ((_ & _ & Pk & _) & (ev & Ge & Se)) A. unfold run_empty. rewrite Ge. unfold is_triggered.
  destruct (out ev) eqn:O.
  - exfalso. assert (C : cbs ev <> None) by (unfold has_stop in Se; destruct (cbs ev); [discriminate|discriminate]).
    destruct (Pk _ _ Ge ltac:(congruence) C) as (y & Hy & _). rewrite A in Hy. destruct Hy.
  - split; [reflexivity|]. exists ev. auto.
Qed.

Definition not_for (e : evid) (l : list (option entry)) : Prop :=
  forall o, In o l -> exists m, o = Some m /\ e_ev m <> e.

Definition ev_loop_spec (fuel : nat) (codes : list prog) (e : evid) (s s' : state) (r : result) : Prop :=
  exists l, exec codes s l s' /\
    match r with
    | RStop v =>
        exists l0 m sk rest, l = l0 ++ [Some m] /\ not_for e l0 /\ e_ev m = e /\ exec codes s l0 sk /\
          pop_min (agenda sk) = Some (m, rest) /\ step fuel codes sk = (s', RStop v) /\
          (exists evk lk, get_event e sk = Some evk /\ cbs evk = Some lk /\ cb_chain fuel codes e lk (loop_start m rest sk) s') /\
          (exists sm evm, vgrows (loop_start m rest sk) sm /\ get_event e sm = Some evm /\ out evm = Some (Ok v)) /\
          (exists ev', get_event e s' = Some ev' /\ cbs ev' = None /\ (stable_kind (kind ev') = true -> out ev' = Some (Ok v))) /\
          calm s'
    | RRaise x =>
        (x = kexn ERuntime M_until_not_triggered /\ agenda s' = [] /\ not_for e l /\
         exists ev', get_event e s' = Some ev' /\ out ev' = None) \/
        (exists l0 m, l = l0 ++ [Some m] /\ not_for e l0 /\
                      (e_ev m = e -> calm s' /\ exists ev', get_event e s' = Some ev' /\ cbs ev' = None))
    | RFuel | RBroken => True
    | ROk | REmpty => False
    end.

Lemma run_loop_ev e fuel codes : forall n s s' r,
  je e s -> run_loop n fuel codes (UEv e) s = (s', r) -> ev_loop_spec fuel codes e s s' r.
Proof.
  unfold ev_loop_spec.
  induction n as [|n IH]; intros s s' r J; cbn [run_loop].
  - intros H; injection H as <- <-. exists []. split; [constructor|exact I].
  - destruct (pop_min (agenda s)) as [[m rest]|] eqn:P.
    2:{ (* agenda exhausted *)
        rewrite (Deliver.step_empty _ _ _ P). apply pop_min_none in P.
        destruct (je_empty _ _ J P) as (Er & X). rewrite Er.
        intros H; injection H as <- <-. exists []. split; [constructor|].
        left. split; [reflexivity|]. split; [exact P|]. split; [intros o []|exact X]. }
    destruct (step fuel codes s) as [s1 r1] eqn:St.
    assert (T : ktrans codes s (Some m) s1) by (eapply KStep; eassumption).
    assert (L1 : exec codes s [Some m] s1) by (econstructor; [exact T|constructor]).
    destruct (Nat.eq_dec (e_ev m) e) as [Em|Ne].
    + destruct (je_step_event _ _ _ _ _ _ _ _ J St P Em) as (R1 & R2 & Cm & Pr & Hv).
      destruct r1; try contradiction; intros H; injection H as <- <-; exists [Some m]; (split; [exact L1|]); try exact I.
      * destruct (Hv _ eq_refl) as (Ch & Vm & Vs). exists [], m, s, rest. split; [reflexivity|]. split; [intros o []|].
        split; [exact Em|]. split; [constructor|]. split; [exact P|]. split; [exact St|]. split; [exact Ch|]. split; [exact Vm|].
        split; [|exact Cm]. destruct Pr as (ev' & H' & C'). exists ev'. split; [exact H'|]. split; [exact C'|]. apply Vs, H'.
      * right. exists [], m. split; [reflexivity|]. split; [intros o []|]. intros _. split; [exact Cm|exact Pr].
    + destruct (je_step_other _ _ _ _ _ _ _ _ J St P Ne) as (Ns & Jk).
      destruct r1; try (intros H; injection H as <- <-; exists [Some m]; (split; [exact L1|]); exact I).
      * intros H. destruct (IH _ _ _ (Jk eq_refl) H) as (l & E & Rr).
        exists (Some m :: l). split; [econstructor; eassumption|].
        assert (Nf : forall l0, not_for e l0 -> not_for e (Some m :: l0))
          by (intros l0 N o [<-|Ho]; [exists m; auto|exact (N _ Ho)]).
        destruct r; try exact Rr.
        -- destruct Rr as (l0 & mk & sk & restk & -> & N0 & Ek & Ex & Pk & Sk & Rest).
           exists (Some m :: l0), mk, sk, restk. split; [reflexivity|]. split; [apply Nf, N0|]. split; [exact Ek|].
           split; [econstructor; eassumption|]. split; [exact Pk|]. split; [exact Sk|exact Rest].
        -- destruct Rr as [(Ex & Ag & N0 & X)|(l0 & mk & -> & N0 & X)].
           ++ left. split; [exact Ex|]. split; [exact Ag|]. split; [apply Nf, N0|exact X].
           ++ right. exists (Some m :: l0), mk. split; [reflexivity|]. split; [apply Nf, N0|exact X].
      * intros H; injection H as <- <-. exfalso. destruct (Order.step_empty _ _ _ _ St) as [_ E]. rewrite E in P. discriminate.
      * exfalso. exact (Ns v eq_refl).
      * intros H; injection H as <- <-. exists [Some m]. split; [exact L1|].
        right. exists [], m. split; [reflexivity|]. split; [intros o []|]. intros X. contradiction.
Qed.

(* run(until = e) on a pending (unprocessed) event, from a calm state.  "stop": the value is what the stop callback read from
   the event (its outcome, for every kind of event whose outcome cannot change: all but Process events triggered by hand and
   conditions before _build_value), returned by the step that pops the FIRST entry of e, after every callback of e has been
   invoked (cb_chain over the whole list: the repaired step()), and the state is calm again.  RuntimeError "until event was not
   triggered" exactly when the agenda ran dry, e is then untriggered; the AssertionError of run() does not occur. *)
Theorem run_until_event_spec fuel codes e s s' r ev l0 :
  calm s -> get_event e s = Some ev -> cbs ev = Some l0 -> run fuel codes (UEv e) s = (s', r) ->
  run_prelude (UEv e) s = inr (add_callback e CbStop s) /\
  exists l, exec codes (add_callback e CbStop s) l s' /\
    match r with
    | RStop v =>
        exists l0 m sk rest, l = l0 ++ [Some m] /\ not_for e l0 /\ e_ev m = e /\ exec codes (add_callback e CbStop s) l0 sk /\
          pop_min (agenda sk) = Some (m, rest) /\ step fuel codes sk = (s', RStop v) /\
          (exists evk lk, get_event e sk = Some evk /\ cbs evk = Some lk /\ cb_chain fuel codes e lk (loop_start m rest sk) s') /\
          (exists sm evm, vgrows (loop_start m rest sk) sm /\ get_event e sm = Some evm /\ out evm = Some (Ok v)) /\
          (exists ev', get_event e s' = Some ev' /\ cbs ev' = None /\ (stable_kind (kind ev') = true -> out ev' = Some (Ok v))) /\
          calm s'
    | RRaise x =>
        (x = kexn ERuntime M_until_not_triggered /\ agenda s' = [] /\ not_for e l /\
         exists ev', get_event e s' = Some ev' /\ out ev' = None) \/
        (exists l0 m, l = l0 ++ [Some m] /\ not_for e l0 /\
                      (e_ev m = e -> calm s' /\ exists ev', get_event e s' = Some ev' /\ cbs ev' = None))
    | RFuel | RBroken => True
    | ROk | REmpty => False
    end.
Proof.
  intros C H Cb R. pose proof (run_event_pending_prelude e s ev l0 H Cb) as Pre. split; [exact Pre|].
  unfold run in R. rewrite Pre in R. eapply run_loop_ev; [eapply je_start; eassumption|exact R].
Qed.

Lemma je_ok_steps e fuel codes s sk : je e s -> ok_steps fuel codes s sk -> je e sk.
Proof.
  intros J Ok. induction Ok as [s|s s1 sk St _ IH]; [exact J|]. apply IH.
  destruct (pop_min (agenda s)) as [[m rest]|] eqn:P; [|rewrite (Deliver.step_empty _ _ _ P) in St; discriminate].
  destruct (Nat.eq_dec (e_ev m) e) as [Em|Ne].
  - destruct (je_step_event _ _ _ _ _ _ _ _ J St P Em) as (R1 & _). contradiction.
  - apply (je_step_other _ _ _ _ _ _ _ _ J St P Ne). reflexivity.
Qed.

Lemma run_loop_ev_empty e fuel codes n s : je e s -> agenda s = [] ->
  run_loop (S n) fuel codes (UEv e) s = (s, RRaise (kexn ERuntime M_until_not_triggered)).
Proof.
  intros J A. cbn [run_loop]. rewrite (Deliver.step_empty fuel codes s) by (rewrite A; reflexivity). f_equal. apply (je_empty _ _ J A).
Qed.

Lemma run_loop_nsteps fuel codes u : forall k s sk, nsteps k fuel codes s = (sk, ROk) ->
  forall n, run_loop (k + n) fuel codes u s = run_loop n fuel codes u sk.
Proof.
  induction k as [|k IH]; intros s sk H n; cbn in H; [injection H as <-; reflexivity|].
  change (step_sel true) with step in H. cbn [Nat.add run_loop]. destruct (step fuel codes s) as [s1 r].
  destruct r; try discriminate H. apply IH, H.
Qed.

Lemma run_loop_ok_steps_prefix fuel codes u s sk : ok_steps fuel codes s sk ->
  exists k, forall n, run_loop (k + n) fuel codes u s = run_loop n fuel codes u sk.
Proof.
  induction 1 as [s|s s1 sk St _ [k IH]]; [exists 0%nat; reflexivity|].
  exists (S k). intros n. cbn [Nat.add run_loop]. rewrite St. apply IH.
Qed.

(* agenda exhausted before the until-event is triggered: RuntimeError, whenever the loop gets that far *)
Theorem run_until_event_exhausted fuel codes e s sk :
  je e s -> ok_steps fuel codes s sk -> agenda sk = [] ->
  exists k, forall n, (k <= n)%nat -> run_loop n fuel codes (UEv e) s = (sk, RRaise (kexn ERuntime M_until_not_triggered)).
Proof.
  intros J Ok A. destruct (run_loop_ok_steps_prefix fuel codes (UEv e) s sk Ok) as (k & Hk). exists (S k). intros n L.
  replace n with (k + S (n - S k))%nat by lia. rewrite Hk. apply run_loop_ev_empty; [eapply je_ok_steps; eassumption|exact A].
Qed.

(* ------------------------------------------------------------------------------------------------ *)
(* calm is an invariant (DESIGN.md section 4, (iii)): a plan of stop points in which every run(until=...) returns leaves a calm state *)

Definition returned (st : stop) (s : state) (r : result) : Prop :=
  match st with
  | SNum hz => hz <= now s \/ exists v, r = RStop v
  | SEv e => get_event e s = None \/ exists v, r = RStop v
  | SRun | SStep _ => True
  end.

Lemma nsteps_calm fuel codes n s : calm s -> calm (fst (nsteps n fuel codes s)).
Proof. rewrite nsteps_steps. apply free_run_inv. intros s0. apply calm_step. Qed.

Lemma calm_run_num fuel codes hz s v :
  calm s -> snd (run fuel codes (UNum hz) s) = RStop v -> calm (fst (run fuel codes (UNum hz) s)).
Proof.
  intros C E. destruct (Qlt_le_dec (now s) hz) as [Lt|Ge]; [|now rewrite (run_num_past _ _ _ _ Ge)].
  destruct (run fuel codes (UNum hz) s) as [s' r] eqn:R. cbn [fst snd] in *. subst r.
  destruct (run_until_number_spec _ _ _ _ _ _ C Lt R) as (_ & _ & _ & _ & _ & l & _ & _ & _ & Rr). apply Rr.
Qed.

Lemma calm_run_ev fuel codes e s v :
  calm s -> snd (run fuel codes (UEv e) s) = RStop v -> calm (fst (run fuel codes (UEv e) s)).
Proof.
  intros C E. destruct (get_event e s) as [ev|] eqn:H; [|unfold run; cbn [run_prelude]; now rewrite H].
  destruct (cbs ev) as [l0|] eqn:Cb; [|now rewrite (run_event_processed _ _ _ _ _ H Cb)].
  destruct (run fuel codes (UEv e) s) as [s' r] eqn:R. cbn [fst snd] in *. subst r.
  destruct (run_until_event_spec _ _ _ _ _ _ _ _ C H Cb R) as (_ & l & _ & ? & ? & ? & ? & Rr). apply Rr.
Qed.

Lemma calm_run_stop fuel codes st s :
  calm s -> returned st s (snd (run_stop fuel codes st s)) -> calm (fst (run_stop fuel codes st s)).
Proof.
  intros C. destruct st as [|hz|e|n]; cbn [run_stop run_stop_sel run_sel returned].
  - intros _. apply calm_run_none, C.
  - intros [X|(v & E)]; [now rewrite (run_num_past _ _ _ _ X)|eapply calm_run_num; eassumption].
  - intros [X|(v & E)]; [unfold run; cbn [run_prelude]; now rewrite X|eapply calm_run_ev; eassumption].
  - intros _. apply nsteps_calm, C.
Qed.

Fixpoint plan_returned (fuel : nat) (codes : list prog) (plan : list stop) (s : state) : Prop :=
  match plan with
  | [] => True
  | st :: t => returned st s (snd (run_stop fuel codes st s)) /\ plan_returned fuel codes t (fst (run_stop fuel codes st s))
  end.

Theorem calm_run_split fuel codes : forall plan s,
  calm s -> plan_returned fuel codes plan s -> calm (fst (run_split fuel codes plan s)).
Proof.
  induction plan as [|st t IH]; intros s C; cbn [plan_returned]; [intros _; exact C|].
  intros [R Rt]. unfold run_split. cbn [run_split_sel]. fold (run_stop fuel codes st s).
  pose proof (calm_run_stop _ _ _ _ C R) as C1. destruct (run_stop fuel codes st s) as [s1 r]. cbn [fst snd] in *.
  specialize (IH _ C1 Rt). unfold run_split in IH. destruct (run_split_sel true fuel codes t s1) as [s2 rs]. exact IH.
Qed.
