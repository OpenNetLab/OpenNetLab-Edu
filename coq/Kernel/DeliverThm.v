(* Kernel/DeliverThm.v -- C02, part 4: clean executions, and the theorems of the property.

     creach codes s          s is reached from an initial state by module-level code, run() preludes and CLEAN steps
                             (step_clean, DeliverInv.v: no exception escaped from the middle of a callback loop)
     creach_inv              creach s -> winv None None s /\ uinv s
     run_loop_clean / creach_run     run() as a sequence of steps
     waiter_unique, waiter_registered, resumed_exactly_once, callbacks_exactly_once, resume_gets_outcome,
     yield_processed_continues, process_event_outcome, failure_never_lost, failure_propagates_from_run *)
From Coq Require Import ZArith QArith List Bool Lia.
From ONL Require Import Kernel.Model Kernel.Keys Kernel.Prims Kernel.Deliver Kernel.DeliverInv Kernel.DeliverWf.
Import ListNotations.
Local Open Scope nat_scope.

(* ------------------------------------------------------------------------------------------------ *)
(* clean executions *)

Lemma winv_init t0 : winv None None (init_state t0).
Proof.
  constructor.
  - intros x l p H. cbn in H. unfold cbs_of, get_event in H. cbn in H. destruct x; discriminate.
  - intros p t H. unfold tgt, get_proc in H. cbn in H. destruct p; discriminate.
  - intros e t H. discriminate.
  - intros q H. discriminate.
Qed.

Lemma winv_run_prelude u s s1 : run_prelude u s = inr s1 -> winv None None s -> winv None None s1.
Proof.
  destruct u as [|t|e]; cbn [run_prelude].
  - intros H; injection H as <-. auto.
  - destruct (Qle_bool t (now s)); [discriminate|]. unfold new_event.
    intros H; injection H as <-. intros W.
    eapply winv_sim; [apply sim_add_callback; reflexivity|]. eapply winv_sim; [apply sim_schedule|].
    apply (winv_new_event None None s (mkEvent (Some []) (Some (Ok VNone)) false KSentinel)); [apply cnt0_nil|exact W].
  - destruct (get_event e s) as [ev|]; [|discriminate].
    destruct (is_processed ev); [discriminate|]. intros H; injection H as <-. intros W.
    eapply winv_sim; [apply sim_add_callback; reflexivity|exact W].
Qed.

Inductive creach (codes : list prog) : state -> Prop :=
| cr_init t0 : creach codes (init_state t0)
| cr_top s A (f : frag A) : creach codes s -> creach codes (fst (exec_top codes f s))
| cr_prelude s u s1 : creach codes s -> run_prelude u s = inr s1 -> creach codes s1
| cr_step s fuel : creach codes s -> step_clean fuel codes s -> creach codes (fst (step fuel codes s)).

Lemma creach_inv codes s : creach codes s -> winv None None s /\ uinv s.
Proof.
  induction 1 as [t0|s A f _ [W U]|s u s1 _ [W U] P|s fuel _ [W U] Cl].
  - split; [apply winv_init|apply uinv_init].
  - split; [apply winv_run_frag, W|apply uinv_run_frag, U].
  - split; [eapply winv_run_prelude; eauto|eapply uinv_run_prelude; eauto].
  - split; [apply winv_step; assumption|apply uinv_step, U].
Qed.

(* a step whose callback loop ran to its end is clean: in particular every step that returns normally, and every step
   that raises the undefused failure of its event AFTER the loop *)
Lemma chain_clean fuel codes s m rest ev l s' :
  pop_min (agenda s) = Some (m, rest) -> get_event (e_ev m) s = Some ev -> cbs ev = Some l ->
  cb_chain fuel codes (e_ev m) l (loop_start m rest s) s' -> step_clean fuel codes s.
Proof. intros P G C Ch. unfold step_clean. rewrite P, G, C. eauto. Qed.

Lemma step_ok_clean fuel codes s s' : step fuel codes s = (s', ROk) -> step_clean fuel codes s.
Proof.
  intros St. unfold step_clean. destruct (pop_min (agenda s)) as [[m rest]|] eqn:P; [|exact I].
  destruct (get_event (e_ev m) s) as [ev|] eqn:G.
  - destruct (cbs ev) as [l|] eqn:C; [|exact I].
    destruct (step_invokes _ _ _ _ _ _ _ _ _ St P G C) as [[Ch _]|(pre & c & post & smid & _ & _ & _ & N)]; [eauto|].
    exfalso. apply N. left. reflexivity.
  - unfold step in St. rewrite P, get_event_pop_state, G in St. discriminate.
Qed.

Lemma creach_ok_steps fuel codes s s' : ok_steps fuel codes s s' -> creach codes s -> creach codes s'.
Proof.
  induction 1 as [s|s s1 s' St _ IH]; intros R; [exact R|]. apply IH.
  pose proof (cr_step codes s fuel R (step_ok_clean _ _ _ _ St)) as X. now rewrite St in X.
Qed.

(* the next n steps all return normally *)
Fixpoint all_ok (fuel : nat) (codes : list prog) (n : nat) (s : state) : bool :=
  match n with
  | O => true
  | S k => match step fuel codes s with (s1, ROk) => all_ok fuel codes k s1 | _ => false end
  end.

(* [it] is any function that iterates [step]: on a closed state only the boolean is evaluated *)
Lemma all_ok_steps fuel codes (it : nat -> state -> state) :
  (forall s, it 0 s = s) -> (forall k s, it (S k) s = it k (fst (step fuel codes s))) ->
  forall n s, all_ok fuel codes n s = true -> ok_steps fuel codes s (it n s).
Proof.
  intros H0 HS. induction n as [|n IH]; intros s A; [rewrite H0; constructor|].
  rewrite HS. cbn [all_ok] in A. destruct (step fuel codes s) as [s1 r] eqn:St.
  destruct r; try discriminate. econstructor; [exact St|apply IH, A].
Qed.

(* run(): every step it takes is clean *)
Fixpoint run_loop_clean (n fuel : nat) (codes : list prog) (s : state) : Prop :=
  match n with
  | O => True
  | S k => step_clean fuel codes s /\
           match step fuel codes s with
           | (s1, ROk) => run_loop_clean k fuel codes s1
           | _ => True
           end
  end.

Definition run_clean (fuel : nat) (codes : list prog) (u : until) (s : state) : Prop :=
  match run_prelude u s with inl _ => True | inr s1 => run_loop_clean fuel fuel codes s1 end.

Lemma creach_run_loop codes fuel u : forall n s,
  creach codes s -> run_loop_clean n fuel codes s -> creach codes (fst (run_loop n fuel codes u s)).
Proof.
  induction n as [|n IH]; intros s R Cl; cbn [run_loop]; [exact R|].
  destruct Cl as [C1 C2]. pose proof (cr_step codes s fuel R C1) as R1.
  destruct (step fuel codes s) as [s1 r]. cbn [fst] in R1.
  destruct r; try exact R1. apply IH; assumption.
Qed.

Lemma creach_run codes fuel u s : creach codes s -> run_clean fuel codes u s -> creach codes (fst (run fuel codes u s)).
Proof.
  intros R Cl. unfold run, run_clean in *. destruct (run_prelude u s) as [[s' r]|s1] eqn:P.
  - apply run_prelude_inl in P. subst s'. exact R.
  - apply creach_run_loop; [eapply cr_prelude; eauto|exact Cl].
Qed.

(* ------------------------------------------------------------------------------------------------ *)
(* waiter_unique *)

Lemma tgt_get s p pr : get_proc p s = Some pr -> tgt s p = Some (ptarget pr).
Proof. unfold tgt. now intros ->. Qed.

Theorem waiter_unique codes s p pr t :
  creach codes s -> get_proc p s = Some pr -> ptarget pr = Some t ->
  exists tev l, get_event t s = Some tev /\ cbs tev = Some l /\ cnt p l = 1 /\
    forall x xev xl, x <> t -> get_event x s = Some xev -> cbs xev = Some xl -> cnt p xl = 0.
Proof.
  intros R P T. destruct (creach_inv _ _ R) as [W _].
  assert (TG : tgt s p = Some (Some t)) by (rewrite (tgt_get _ _ _ P), T; reflexivity).
  destruct (w_tg _ _ _ W p t TG ltac:(discriminate)) as (l & H & C).
  destruct (w_in _ _ _ W t l p H C) as (_ & C1 & _).
  cbn [ocbs] in H. unfold cbs_of in H. destruct (get_event t s) as [tev|] eqn:G; [|discriminate].
  exists tev, l. split; [reflexivity|]. split; [exact H|]. split; [exact C1|].
  intros x xev xl N Gx Cx. destruct (cnt p xl) eqn:K; [reflexivity|]. exfalso.
  assert (Hx : ocbs None s x = Some xl) by (cbn; unfold cbs_of; now rewrite Gx).
  destruct (w_in _ _ _ W x xl p Hx ltac:(lia)) as (_ & _ & D). rewrite TG in D. injection D as ->. contradiction.
Qed.

(* ... and only suspended processes are registered: a callback CbResume p sits only in the list of p's target *)
Theorem waiter_registered codes s x xev xl p :
  creach codes s -> get_event x s = Some xev -> cbs xev = Some xl -> In (CbResume p) xl ->
  exists pr, get_proc p s = Some pr /\ ptarget pr = Some x /\ cnt p xl = 1.
Proof.
  intros R G C I. destruct (creach_inv _ _ R) as [W _].
  assert (Hx : ocbs None s x = Some xl) by (cbn; unfold cbs_of; now rewrite G).
  destruct (w_in _ _ _ W x xl p Hx (proj2 (cnt_In p xl) I)) as (_ & C1 & D).
  unfold tgt in D. destruct (get_proc p s) as [pr|]; [|discriminate]. cbn in D. injection D as D.
  exists pr. auto.
Qed.

(* exactly-once resumption per wait: the step that processes p's target invokes CbResume p once; a step that
   processes any other event does not invoke it *)
Theorem resumed_exactly_once codes s p pr t m rest ev l :
  creach codes s -> get_proc p s = Some pr -> ptarget pr = Some t ->
  pop_min (agenda s) = Some (m, rest) -> get_event (e_ev m) s = Some ev -> cbs ev = Some l ->
  cnt p l = if Nat.eqb (e_ev m) t then 1 else 0.
Proof.
  intros R P T _ G C. destruct (waiter_unique _ _ _ _ _ R P T) as (tev & lt & Gt & Ct & C1 & Oth).
  destruct (Nat.eqb (e_ev m) t) eqn:E.
  - apply Nat.eqb_eq in E. rewrite E in G. rewrite G in Gt. injection Gt as <-. rewrite C in Ct. injection Ct as <-. exact C1.
  - apply Nat.eqb_neq in E. eapply Oth; eauto.
Qed.

(* ------------------------------------------------------------------------------------------------ *)
(* callbacks_exactly_once *)

Lemma cb_chain_processed fuel codes e l s s' ev :
  cb_chain fuel codes e l s s' -> get_event e s = Some ev -> cbs ev = None ->
  exists ev', get_event e s' = Some ev' /\ cbs ev' = None.
Proof.
  intros Ch G C. destruct (cb_chain_grows _ _ _ _ _ _ Ch _ _ G) as (ev' & G' & Le). exists ev'. split; [exact G'|apply (le_cbs _ _ Le), C].
Qed.

Theorem callbacks_exactly_once fuel codes s s' r m rest ev l :
  step fuel codes s = (s', r) -> pop_min (agenda s) = Some (m, rest) ->
  get_event (e_ev m) s = Some ev -> cbs ev = Some l ->
  (* the list is taken away before the first callback runs *)
  get_event (e_ev m) (loop_start m rest s) = Some (ev_set_cbs None ev) /\
  (* its elements are invoked in order, each once: all of them (then step() answers as the event's outcome says, or raises
     what the stop callback of run(until) raised), or up to the first one that lets something escape *)
  ((cb_chain fuel codes (e_ev m) l (loop_start m rest s) s' /\
    (r = check_failure (e_ev m) s' \/ is_exit r = true) /\
    ((forall c, In c l -> is_stop_cb c = false) -> r = check_failure (e_ev m) s')) \/
   (exists pre c post smid, l = pre ++ c :: post /\ cb_chain fuel codes (e_ev m) pre (loop_start m rest s) smid /\
                            run_cb fuel codes (e_ev m) c smid = (s', r) /\ ~ cb_ok c r)) /\
  (* and the event stays processed in every later state: nothing is invoked again, nothing can be appended *)
  (forall s'', later codes s' s'' -> exists ev'', get_event (e_ev m) s'' = Some ev'' /\ cbs ev'' = None).
Proof.
  intros St P G C. pose proof (loop_start_processed m rest s ev G) as G0.
  split; [exact G0|]. pose proof (step_invokes _ _ _ _ _ _ _ _ _ St P G C) as Inv. split; [exact Inv|].
  assert (Pr : exists ev', get_event (e_ev m) s' = Some ev' /\ cbs ev' = None).
  { destruct Inv as [[Ch _]|(pre & c & post & smid & _ & Ch & Rc & _)].
    - eapply cb_chain_processed; [exact Ch|exact G0|reflexivity].
    - destruct (cb_chain_processed _ _ _ _ _ _ _ Ch G0 eq_refl) as (ev1 & G1 & C1).
      pose proof (grows_run_cb fuel codes (e_ev m) c smid) as Gr. rewrite Rc in Gr. cbn [fst] in Gr.
      destruct (Gr _ _ G1) as (ev2 & G2 & Le). exists ev2. split; [exact G2|apply (le_cbs _ _ Le), C1]. }
  destruct Pr as (ev' & G' & C'). intros s'' L. eapply processed_forever; eauto.
Qed.

(* ------------------------------------------------------------------------------------------------ *)
(* resume_gets_outcome *)

Lemma loop_outcome fuel codes s m rest ev pre smid :
  uinv s -> pop_min (agenda s) = Some (m, rest) -> get_event (e_ev m) s = Some ev ->
  cb_chain fuel codes (e_ev m) pre (loop_start m rest s) smid ->
  exists ev', get_event (e_ev m) smid = Some ev' /\ out ev' <> None.
Proof.
  intros U P G Ch. destruct (pop_min_spec _ _ _ P) as (In_m & _ & _).
  destruct (proj1 U m In_m) as (ev0 & G0 & O0). rewrite G in G0. injection G0 as <-.
  destruct (cb_chain_grows _ _ _ _ _ _ Ch _ _ (loop_start_processed m rest s ev G)) as (ev' & G' & Le).
  exists ev'. split; [exact G'|apply (le_out _ _ Le), O0].
Qed.

Theorem resume_gets_outcome fuel codes s m rest ev pre p post smid :
  creach codes s -> pop_min (agenda s) = Some (m, rest) -> get_event (e_ev m) s = Some ev ->
  cbs ev = Some (pre ++ CbResume p :: post) ->
  cb_chain (S fuel) codes (e_ev m) pre (loop_start m rest s) smid ->
  exists ev' o pr,
    get_event (e_ev m) smid = Some ev' /\ out ev' = Some o /\
    get_proc p smid = Some pr /\ ptarget pr = Some (e_ev m) /\
    run_cb (S fuel) codes (e_ev m) (CbResume p) smid =
      after_frag fuel codes p pr
        (run_frag codes (resume (pcode pr) (pst pr) o) (feed_state (e_ev m) o (set_active (Some p) smid))) /\
    (forall x, o = Fail x ->
       exists ev1, get_event (e_ev m) (feed_state (e_ev m) o (set_active (Some p) smid)) = Some ev1 /\
                   defused ev1 = true /\ out ev1 = Some (Fail x)).
Proof.
  intros R P G C Ch. destruct (creach_inv _ _ R) as [W U].
  pose proof (winv_loop_start m rest s ev _ W G C) as W0.
  pose proof (winv_chain codes (S fuel) (e_ev m) pre _ _ _ W0 Ch) as W1.
  assert (OE : ocbs (Some (e_ev m, CbResume p :: post)) smid (e_ev m) = Some (CbResume p :: post)) by (cbn; now rewrite Nat.eqb_refl).
  assert (CP : cnt p (CbResume p :: post) <> 0) by (cbn; rewrite Nat.eqb_refl; lia).
  destruct (w_in _ _ _ W1 _ _ p OE CP) as (_ & _ & D).
  unfold tgt in D. destruct (get_proc p smid) as [pr|] eqn:Pp; [|discriminate]. cbn in D. injection D as D.
  destruct (loop_outcome _ _ _ _ _ _ _ _ U P G Ch) as (ev' & G' & O').
  destruct (out ev') as [o|] eqn:Oe; [|contradiction].
  exists ev', o, pr. split; [exact G'|]. split; [exact Oe|]. split; [reflexivity|]. split; [exact D|]. split.
  - cbn [run_cb]. eapply resume_proc_eq; eauto.
  - intros x ->. destruct (feed_state_defused (e_ev m) x (set_active (Some p) smid) ev' G') as (ev1 & G1 & D1 & O1).
    exists ev1. split; [exact G1|]. split; [exact D1|]. now rewrite O1.
Qed.

(* ------------------------------------------------------------------------------------------------ *)
(* yield_processed_continues: the next turn of the loop, with what it feeds *)

Lemma get_proc_run_frag {A} codes (f : frag A) p pr s :
  get_proc p s = Some pr -> get_proc p (fst (run_frag codes f s)) = Some pr.
Proof. exact (kchain_proc_keep _ _ _ _ p pr (kc_run_frag true Tnone codes f s) (fun F => F)). Qed.

Lemma get_proc_feed_state e o s p : get_proc p (feed_state e o s) = get_proc p s.
Proof. destruct o; reflexivity. Qed.

Theorem yield_processed_continues f codes p e s ev pr o s2 e' a ev' o' :
  get_event e s = Some ev -> get_proc p s = Some pr -> out ev = Some o ->
  run_frag codes (resume (pcode pr) (pst pr) o) (feed_state e o s) = (s2, FrYield (VEv e') a) ->
  let s3 := put_proc p (proc_set_st pr a) s2 in
  get_event e' s3 = Some ev' -> cbs ev' = None -> out ev' = Some o' ->
  (* no callback is registered, _resume does not return: the loop goes round *)
  resume_loop (S (S f)) codes p e s = resume_loop (S f) codes p e' s3 /\
  (* and that turn feeds the automaton, in the state it yielded in, the outcome of e' (defused first if it failed) *)
  resume_loop (S f) codes p e' s3 =
    after_frag f codes p (proc_set_st pr a) (run_frag codes (resume (pcode pr) a o') (feed_state e' o' s3)).
Proof.
  intros G P O Rf s3 G' C' O'. split.
  - eapply resume_yield_processed; eauto.
  - assert (P3 : get_proc p s3 = Some (proc_set_st pr a)).
    { unfold s3, put_proc. rewrite get_proc_upd, Nat.eqb_refl.
      pose proof (get_proc_run_frag codes (resume (pcode pr) (pst pr) o) p pr (feed_state e o s)) as X.
      rewrite get_proc_feed_state, Rf in X. cbn [fst] in X. rewrite (X P). reflexivity. }
    exact (resume_loop_eq f codes p e' s3 ev' (proc_set_st pr a) o' G' P3 O').
Qed.

(* ------------------------------------------------------------------------------------------------ *)
(* process_event_outcome *)

Definition fres_outcome {A} (r : fres A) : option outcome :=
  match r with FrRet v => Some (Ok v) | FrRaise x => Some (Fail x) | FrYield _ _ => None end.

Theorem process_event_outcome f codes p e s ev pr o s2 res oc :
  uinv s -> get_event e s = Some ev -> get_proc p s = Some pr -> out ev = Some o ->
  run_frag codes (resume (pcode pr) (pst pr) o) (feed_state e o s) = (s2, res) -> fres_outcome res = Some oc ->
  exists pe,
    resume_loop (S f) codes p e s = (proc_finish p pr oc s2, ROk) /\
    get_event (pev pr) s2 = Some pe /\
    let s' := proc_finish p pr oc s2 in
    get_event (pev pr) s' = Some (ev_set_out (Some oc) pe) /\
    agenda s' = agenda s2 ++ [mkEntry (Qred (now s2 + 0)%Q) NORMAL (next_eid s2) (pev pr)] /\
    get_proc p s' = Some (proc_set_target None pr) /\ active s' = None.
Proof.
  intros U G P O Rf Oc.
  pose proof (proj2 U p pr P) as L.
  pose proof (grows_run_frag codes (resume (pcode pr) (pst pr) o) (feed_state e o s)) as G2. rewrite Rf in G2. cbn [fst] in G2.
  assert (L2 : pev_ok s2 pr).
  { eapply pev_ok_grows; [exact G2|]. eapply pev_ok_grows; [apply grows_feed_state|exact L]. }
  destruct L2 as (pe & Gpe & _). exists pe.
  assert (P2 : get_proc p s2 = Some pr).
  { pose proof (get_proc_run_frag codes (resume (pcode pr) (pst pr) o) p pr (feed_state e o s)) as X.
    rewrite get_proc_feed_state, Rf in X. exact (X P). }
  split.
  - destruct res as [v a|v|x]; cbn in Oc; [discriminate| |]; injection Oc as <-.
    + eapply resume_returns; eauto.
    + eapply resume_raises; eauto.
  - split; [exact Gpe|]. destruct (proc_finish_spec p pr oc s2 pe pr Gpe P2) as (A & B & C & D & _). auto.
Qed.

(* ------------------------------------------------------------------------------------------------ *)
(* failure_never_lost *)

Theorem failure_never_lost fuel codes t0 s s' r m rest ev l :
  later codes (init_state t0) s ->
  step fuel codes s = (s', r) -> pop_min (agenda s) = Some (m, rest) ->
  get_event (e_ev m) s = Some ev -> cbs ev = Some l ->
  cb_chain fuel codes (e_ev m) l (loop_start m rest s) s' ->           (* every callback was invoked *)
  (forall c, In c l -> is_stop_cb c = false) ->                        (* e is not the until-event of the running run() *)
  exists ev', get_event (e_ev m) s' = Some ev' /\
    match out ev' with
    | Some (Fail x) => if defused ev' then r = ROk else r = RRaise x
    | Some (Ok _) => r = ROk
    | None => False
    end.
Proof.
  intros L St P G C Ch NS.
  destruct (loop_outcome _ _ _ _ _ _ _ _ (uinv_later _ _ _ L (uinv_init t0)) P G Ch) as (ev' & G' & O').
  exists ev'. split; [exact G'|].
  assert (Rr : r = check_failure (e_ev m) s').
  { rewrite (step_loop _ _ _ _ _ _ _ P G C), (cb_chain_run_nostop _ _ _ _ _ _ Ch NS) in St. injection St as <-. reflexivity. }
  rewrite Rr. unfold check_failure. rewrite G'. destruct (out ev') as [[v|x]|]; [reflexivity| |contradiction].
  destruct (defused ev'); reflexivity.
Qed.

(* the state after such a step is again a clean state: execution may go on *)
Theorem failure_leaves_clean_state fuel codes s m rest ev l s' :
  creach codes s -> pop_min (agenda s) = Some (m, rest) -> get_event (e_ev m) s = Some ev -> cbs ev = Some l ->
  cb_chain fuel codes (e_ev m) l (loop_start m rest s) s' ->
  fst (step fuel codes s) = s' /\ creach codes s'.
Proof.
  intros R P G C Ch.
  assert (E : fst (step fuel codes s) = s') by (eapply step_fst_chain; eauto).
  split; [exact E|]. rewrite <- E. apply cr_step; [exact R|]. eapply chain_clean; eauto.
Qed.

(* run() returns exactly that: whatever the until argument, after any number of normal steps *)
Theorem failure_propagates_from_run fuel codes u s s1 sk s' x :
  run_prelude u s = inr s1 -> ok_steps fuel codes s1 sk -> step fuel codes sk = (s', RRaise x) ->
  exists k, forall n, k <= n -> run_loop n fuel codes u s1 = (s', RRaise x).
Proof. intros _ Ok St. eapply run_loop_ok_steps; eauto. Qed.
