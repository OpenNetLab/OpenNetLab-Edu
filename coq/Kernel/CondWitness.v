(* Kernel/CondWitness.v -- C05: closed witness terms and decision lemmas used by Props/C05_Examples.v (non-vacuity of the hypotheses
   of the theorems of Props/C05.v).  Module-level code only (no processes: [codes] = []); the event ids are creation indices.

   Family M   0: a = timeout(1, 11)   1: b = timeout(2, 22)   2: d = timeout(3, 33)   3: x = event(); x.succeed(44)   (explicit: X = [3])
              4: call = all_of [a; b]   5: cany = any_of [a; b]   6: cn = all_of [call; d; x]   (nested)
     [m_at k] = k steps later:  1: x processed at t = 0 (cn counts 1)   2: a processed at t = 1 (cany TRIGGERS, call counts 1)
       3: cany processed, value {a: 11} (b is not processed yet)   4: b processed at t = 2 (call TRIGGERS)   5: call processed, value
       {a: 11, b: 22} (cn counts 2)   6: d processed at t = 3 (cn TRIGGERS)   7: cn processed, value {a: 11, b: 22, d: 33, x: 44}
   Family N   0: a = timeout(1, 11)   1: x = event(); x.fail(E)   2: cf = all_of [a; x]   3: ca = any_of [a; x]
     [n_at 1]: x processed at t = 0: cf and ca FAIL with E, x is defused
   Family L   0: a = timeout(0, 11)   1: x = event()   2: cl = any_of [a; x];   x.fail(E)
     [l_at 1]: a processed at t = 0, cl triggered and scheduled BEHIND x: the next step processes the failed x, whose only callback
     is the late _check of cl: the failure surfaces *)
From Coq Require Import ZArith QArith List Bool Lia.
From ONL Require Import Kernel.Model Kernel.Prims Kernel.Cond Kernel.CondInv Kernel.CondProofs.
Import ListNotations.

Definition w_exn : val := VExn (EUser 1) [VInt 5].

Definition m_code : frag unit :=
  FCall (CTimeout 1 (VInt 11)) (fun _ => FCall (CTimeout 2 (VInt 22)) (fun _ => FCall (CTimeout 3 (VInt 33)) (fun _ =>
  FCall CEvent (fun _ => FCall (CSucceed 3%nat (VInt 44)) (fun _ =>
  FCall (CAllOf [0; 1]%nat) (fun _ => FCall (CAnyOf [0; 1]%nat) (fun _ => FCall (CAllOf [4; 2; 3]%nat) (fun _ => FRet VNone)))))))).
Definition n_code : frag unit :=
  FCall (CTimeout 1 (VInt 11)) (fun _ => FCall CEvent (fun _ => FCall (CFail 1%nat w_exn) (fun _ =>
  FCall (CAllOf [0; 1]%nat) (fun _ => FCall (CAnyOf [0; 1]%nat) (fun _ => FRet VNone))))).
Definition l_code : frag unit :=
  FCall (CTimeout 0 (VInt 11)) (fun _ => FCall CEvent (fun _ => FCall (CAnyOf [0; 1]%nat) (fun _ =>
  FCall (CFail 1%nat w_exn) (fun _ => FRet VNone)))).

(* n steps from s *)
Fixpoint c_run (n : nat) (s : state) : state := match n with O => s | S j => c_run j (fst (step 50 [] s)) end.
Fixpoint ok_run (n : nat) (s : state) : bool :=
  match n with
  | O => true
  | S j => match snd (step 50 [] s) with ROk => ok_run j (fst (step 50 [] s)) | _ => false end
  end.

Definition m_at (k : nat) : state := c_run k (fst (exec_top [] m_code (init_state 0))).
Definition n_at (k : nat) : state := c_run k (fst (exec_top [] n_code (init_state 0))).
Definition l_at (k : nat) : state := c_run k (fst (exec_top [] l_code (init_state 0))).

Lemma c_run_add : forall a b s, c_run (a + b) s = c_run b (c_run a s).
Proof. induction a as [|a IH]; intros b s; cbn [c_run Nat.add]; [reflexivity|apply IH]. Qed.

Lemma step_pair s : snd (step 50 [] s) = ROk -> step 50 [] s = (fst (step 50 [] s), ROk).
Proof. intros H. rewrite <- H. destruct (step 50 [] s); reflexivity. Qed.

Lemma creach_c_run : forall n X s, creach [] X s -> ok_run n s = true -> exists X', creach [] (X ++ X') (c_run n s).
Proof.
  induction n as [|n IH]; intros X s C H; cbn [c_run].
  - exists []. rewrite app_nil_r. exact C.
  - cbn [ok_run] in H. destruct (snd (step 50 [] s)) eqn:R; try discriminate H.
    destruct (creach_step_ok [] X 50 s _ C (step_pair s R)) as (X1 & C1).
    destruct (IH _ _ C1 H) as (X2 & C2). exists (X1 ++ X2). rewrite app_assoc. exact C2.
Qed.

Lemma creach_family {A} (f : frag A) n : ok_run n (fst (exec_top [] f (init_state 0))) = true ->
  exists X, creach [] X (c_run n (fst (exec_top [] f (init_state 0)))).
Proof.
  intros H. destruct (creach_exec_top [] [] f (init_state 0) (cr_init [] 0)) as (X1 & C1).
  destruct (creach_c_run n _ _ C1 H) as (X2 & C2). eexists. exact C2.
Qed.

(* the clean step that pops a given entry *)
Lemma clean_step_of_ok s m rest : snd (step 50 [] s) = ROk -> pop_min (agenda s) = Some (m, rest) ->
  clean_step 50 [] s (fst (step 50 [] s)) (e_ev m).
Proof.
  intros R P. destruct (step_ok_clean _ _ _ _ (step_pair s R)) as (e & m' & rest' & ev & l & P' & -> & H).
  rewrite P in P'. injection P' as <- <-. exists m, rest, ev, l. split; [exact P|]. split; [reflexivity|exact H].
Qed.

(* one clean step as a trace of primitives *)
Lemma clean_step_ptrace X s s' e : creach [] X s -> clean_step 50 [] s s' e -> exists X', ptrace X' s s'.
Proof.
  intros C CS. pose proof (creach_reach _ _ _ C) as R.
  destruct (clean_step_etrace [] 50 X s s' e (reach_cinv _ _ _ R) (reach_procs_wf _ _ _ R) CS) as (X' & T & _).
  exists X'. eapply etrace_ptrace, T.
Qed.

(* ---- deciding "not detached": no processed condition above c ---- *)
Definition is_parent (s : state) (c p : evid) : bool :=
  match get_event p s with
  | Some pev => match kind pev with KCond _ ops _ => existsb (Nat.eqb c) ops | _ => false end
  | None => false
  end.
Definition parents (s : state) (c : evid) : list evid := filter (is_parent s c) (seq 0 (length (events s))).

Fixpoint anc_free (fuel : nat) (s : state) (c : evid) : bool :=
  match fuel with
  | O => false
  | S f => forallb (fun p => negb (is_proc s p) && anc_free f s p) (parents s c)
  end.

Lemma parents_in s c p pev all ops n :
  get_event p s = Some pev -> kind pev = KCond all ops n -> In c ops -> In p (parents s c).
Proof.
  intros H K I. unfold parents. apply filter_In. split.
  - apply in_seq. pose proof (get_event_lt _ _ _ H). lia.
  - unfold is_parent. rewrite H, K. apply existsb_exists. exists c. split; [exact I|apply Nat.eqb_refl].
Qed.

Lemma anc_free_desc s d : forall c, desc s d c -> forall f, anc_free f s c = true -> d <> c -> is_proc s d = false.
Proof.
  induction 1 as [|p pev all ops n c H IH Hp Kp Ic]; intros f A N; [congruence|].
  destruct f as [|f]; [discriminate A|]. cbn [anc_free] in A. rewrite forallb_forall in A.
  specialize (A p (parents_in _ _ _ _ _ _ _ Hp Kp Ic)). apply andb_prop in A. destruct A as [A1 A2].
  destruct (Nat.eq_dec d p) as [->|Ne]; [apply negb_true_iff, A1|exact (IH f A2 Ne)].
Qed.

Lemma anc_free_not_detached f s c : anc_free f s c = true -> ~ detached s c.
Proof. intros A (d & D & N & P). rewrite (anc_free_desc s d c D f A N) in P. discriminate. Qed.

(* ---- the specification of _populate_value, decided ---- *)
Lemma leaves_of fuel evs ops items : populate fuel evs ops = Some items -> leaves evs ops items.
Proof. apply populate_sound. Qed.

Lemma c_run_S k s : c_run (S k) s = fst (step 50 [] (c_run k s)).
Proof. replace (S k) with (k + 1)%nat by lia. rewrite c_run_add. reflexivity. Qed.
Lemma m_at_S k : m_at (S k) = fst (step 50 [] (m_at k)). Proof. apply c_run_S. Qed.
Lemma n_at_S k : n_at (S k) = fst (step 50 [] (n_at k)). Proof. apply c_run_S. Qed.
Lemma l_at_S k : l_at (S k) = fst (step 50 [] (l_at k)). Proof. apply c_run_S. Qed.

(* several clean steps as one trace of primitives *)
Lemma ptrace_c_run : forall n X s, creach [] X s -> ok_run n s = true -> exists X', ptrace X' s (c_run n s).
Proof.
  induction n as [|n IH]; intros X s C H; cbn [c_run]; [exists []; constructor|].
  cbn [ok_run] in H. destruct (snd (step 50 [] s)) eqn:R; try discriminate H.
  destruct (step_ok_clean _ _ _ _ (step_pair s R)) as (e & CS).
  destruct (clean_step_ptrace X s _ e C CS) as (X1 & T1).
  destruct (creach_step_ok [] X 50 s _ C (step_pair s R)) as (Xc & C1).
  destruct (IH _ _ C1 H) as (X2 & T2). exists (X1 ++ X2). eapply pt_app; eassumption.
Qed.

Lemma m_creach k : ok_run k (m_at 0) = true -> exists X, creach [] X (m_at k).
Proof. apply (creach_family m_code k). Qed.
Lemma n_creach k : ok_run k (n_at 0) = true -> exists X, creach [] X (n_at k).
Proof. apply (creach_family n_code k). Qed.
Lemma l_creach k : ok_run k (l_at 0) = true -> exists X, creach [] X (l_at k).
Proof. apply (creach_family l_code k). Qed.

(* agenda entries *)
Definition m_e0 : entry := mkEntry 1 NORMAL 0%nat 0%nat.     (* a *)
Definition m_e1 : entry := mkEntry 2 NORMAL 1%nat 1%nat.     (* b *)
Definition m_e2 : entry := mkEntry 3 NORMAL 2%nat 2%nat.     (* d *)
Definition m_e5 : entry := mkEntry 1 NORMAL 4%nat 5%nat.     (* cany, triggered at 1 *)
Definition m_e6 : entry := mkEntry 3 NORMAL 6%nat 6%nat.     (* cn, triggered at 3 *)
Definition n_e0 : entry := mkEntry 1 NORMAL 0%nat 0%nat.
Definition n_e1 : entry := mkEntry 0 NORMAL 1%nat 1%nat.     (* the failed x *)
Definition l_e1 : entry := mkEntry 0 NORMAL 1%nat 1%nat.     (* the failed x *)
Definition l_e2 : entry := mkEntry 0 NORMAL 2%nat 2%nat.     (* cl, triggered *)
