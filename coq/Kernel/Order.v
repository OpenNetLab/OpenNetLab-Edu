(* Kernel/Order.v -- C01: events take effect in time order, urgent first, then in trigger order.
   Theorems about the real [step]/[run]/[do_call] of Kernel/Model.v, for every code table (all automata, any
   number of processes) and every execution; by the invariant [good] and the frame relation of Kernel/Inv.v.

   Executions: [ktrans codes s lbl s'] is one kernel transition -- a [step] that pops entry m (lbl = Some m), a
   module-level API call or the prelude of run() (lbl = None); [exec codes s l s'] is a sequence of them with the
   list of labels.  [run_exec]/[step_exec]/[run_frag_exec] show that whatever [run], [step] and module-level code
   do is such an execution, so every theorem below applies to them. *)
From Coq Require Import ZArith QArith List Bool Lia Lqa.
From ONL Require Import Kernel.Model Kernel.Keys Kernel.Inv.
Import ListNotations.

(* ------------------------------------------------------------------------------------------------ *)
(* the invariant *)

Record agenda_ok (s : state) : Prop := mkAgendaOk {
  ok_time : forall x, In x (agenda s) -> now s <= e_time x;            (* nothing pending is in the past *)
  ok_eid : forall x, In x (agenda s) -> (e_eid x < next_eid s)%nat;    (* insertion ids come from the counter *)
  ok_nodup : NoDup (map e_eid (agenda s)) }.                           (* hence keys are pairwise distinct *)

(* every pending entry carries the priority class of its event: URGENT for Initialize / Interruption / the
   numeric-until sentinel, NORMAL for everything else *)
Definition prio_ok (s : state) : Prop :=
  forall x, In x (agenda s) -> exists ev, nth_error (events s) (e_ev x) = Some ev /\ e_prio x = kclass (kind ev).

Definition good (s : state) : Prop := agenda_ok s /\ kinv s /\ prio_ok s.

Lemma good_init t0 : good (init_state t0).
Proof.
  split; [|split].
  - constructor; cbn; [intros x []|intros x []|constructor].
  - split; cbn; intros [|?] ?; discriminate.
  - intros x [].
Qed.

Lemma new_ok_in t n l x : new_ok t n l -> In x l -> (n <= e_eid x < n + length l)%nat /\ t <= e_time x.
Proof.
  revert n. induction l as [|y r IH]; cbn [new_ok In length]; intros n H Hx; [destruct Hx|].
  destruct H as (A & B & C). destruct Hx as [<-|Hx].
  - split; [lia|exact B].
  - destruct (IH _ C Hx) as [D E]. split; [lia|exact E].
Qed.

Lemma new_ok_nodup t n l : new_ok t n l -> NoDup (map e_eid l).
Proof.
  revert n. induction l as [|y r IH]; cbn [new_ok map]; intros n H; [constructor|].
  destruct H as (A & B & C). constructor; [|eapply IH, C].
  intros Hin. apply in_map_iff in Hin. destruct Hin as (z & Hz & Hin).
  destruct (new_ok_in _ _ _ _ C Hin) as [D _]. lia.
Qed.

(* [ext] preserves the invariant *)
Lemma ext_good s s' : good s -> ext s s' -> good s'.
Proof.
  intros (A & K & P) E. destruct (E K) as [K' N C (l & Ha & He & Ho & Hp)].
  split; [|split; [exact K'|]].
  - constructor.
    + intros x Hx. rewrite Ha in Hx. rewrite N. apply in_app_or in Hx. destruct Hx as [Hx|Hx].
      * apply (ok_time _ A), Hx.
      * apply (new_ok_in _ _ _ _ Ho Hx).
    + intros x Hx. rewrite Ha in Hx. rewrite He. apply in_app_or in Hx. destruct Hx as [Hx|Hx].
      * pose proof (ok_eid _ A _ Hx). lia.
      * destruct (new_ok_in _ _ _ _ Ho Hx) as [D _]. lia.
    + rewrite Ha, map_app. apply nodup_app; [apply (ok_nodup _ A)|eapply new_ok_nodup, Ho|].
      intros i Hi1 Hi2. apply in_map_iff in Hi1. destruct Hi1 as (x & <- & Hx).
      apply in_map_iff in Hi2. destruct Hi2 as (y & Hy & Hyl).
      pose proof (ok_eid _ A _ Hx). destruct (new_ok_in _ _ _ _ Ho Hyl) as [D _]. lia.
  - intros x Hx. rewrite Ha in Hx. apply in_app_or in Hx. destruct Hx as [Hx|Hx].
    + destruct (P _ Hx) as (ev & H1 & H2). destruct (C (e_ev x) (e_prio x)) as (ev' & H3 & H4).
      * exists ev. split; [exact H1|symmetry; exact H2].
      * exists ev'. split; [exact H3|symmetry; exact H4].
    + destruct (Hp _ Hx) as (ev & H1 & H2). exists ev. split; [exact H1|symmetry; exact H2].
Qed.

(* popping the minimum preserves the invariant *)
Lemma pop_good s m rest : good s -> pop_min (agenda s) = Some (m, rest) -> good (pop_state m rest s).
Proof.
  intros (A & K & P) H. destruct (pop_min_spec _ _ _ H) as (Hm & -> & Hle).
  split; [|split; [exact K|]].
  - constructor; cbn [pop_state add_obs set_agenda set_now now agenda next_eid].
    + intros x Hx. apply key_le_time, Hle. eapply remove_eid_subset, Hx.
    + intros x Hx. apply (ok_eid _ A). eapply remove_eid_subset, Hx.
    + apply remove_eid_nodup, (ok_nodup _ A).
  - intros x Hx. cbn [pop_state add_obs set_agenda set_now agenda] in Hx. apply (P x). eapply remove_eid_subset, Hx.
Qed.

(* ------------------------------------------------------------------------------------------------ *)
(* transitions and executions *)

Inductive ktrans (codes : list prog) : state -> option entry -> state -> Prop :=
| KStep fuel s s' r m rest :
    step fuel codes s = (s', r) -> pop_min (agenda s) = Some (m, rest) -> ktrans codes s (Some m) s'
| KCall c s s' o : do_call codes c s = (s', o) -> ktrans codes s None s'
| KPrelude u s s' : run_prelude u s = inr s' -> ktrans codes s None s'.

Inductive exec (codes : list prog) : state -> list (option entry) -> state -> Prop :=
| exec_nil s : exec codes s [] s
| exec_cons s lbl s1 l s' : ktrans codes s lbl s1 -> exec codes s1 l s' -> exec codes s (lbl :: l) s'.

Lemma exec_app codes s l1 s1 l2 s2 : exec codes s l1 s1 -> exec codes s1 l2 s2 -> exec codes s (l1 ++ l2) s2.
Proof. induction 1; cbn [app]; [auto|]. intros H2. econstructor; [eassumption|auto]. Qed.

(* what a transition is, in terms of the agenda *)
Definition tr_spec (s : state) (lbl : option entry) (s' : state) : Prop :=
  match lbl with
  | Some m => exists rest, pop_min (agenda s) = Some (m, rest) /\ ext (pop_state m rest s) s'
  | None => ext s s'
  end.

Lemma ktrans_spec codes s lbl s' : ktrans codes s lbl s' -> tr_spec s lbl s'.
Proof.
  intros [fuel s0 s1 r m rest Hs Hp|c s0 s1 o Hc|u s0 s1 Hu]; cbn [tr_spec].
  - destruct (step_spec _ _ _ _ _ Hs) as [(Hn & _)|(m' & rest' & Hp' & E)]; [congruence|].
    rewrite Hp in Hp'. injection Hp' as <- <-. exists rest. split; [exact Hp|exact E].
  - pose proof (ext_do_call codes c s0) as E. rewrite Hc in E. exact E.
  - eapply ext_run_prelude, Hu.
Qed.

Lemma tr_shape s lbl s' : good s -> tr_spec s lbl s' ->
  exists l, agenda s' = match lbl with Some m => remove_eid (e_eid m) (agenda s) | None => agenda s end ++ l /\
            now s' = match lbl with Some m => e_time m | None => now s end /\
            next_eid s' = (next_eid s + length l)%nat /\ new_ok (now s') (next_eid s) l /\
            forall m, lbl = Some m -> In m (agenda s) /\ forall x, In x (agenda s) -> key_le m x.
Proof.
  intros (_ & K & _) T. destruct lbl as [m|]; cbn [tr_spec] in T.
  - destruct T as (rest & Hp & E). destruct (pop_min_spec _ _ _ Hp) as (Hm & -> & Hle).
    destruct (E K) as [_ N _ (l & Ha & He & Ho & _)]. exists l. rewrite N.
    split; [exact Ha|]. split; [reflexivity|]. split; [exact He|]. split; [exact Ho|].
    intros m0 [= <-]. split; assumption.
  - destruct (T K) as [_ N _ (l & Ha & He & Ho & _)]. exists l. rewrite N.
    split; [exact Ha|]. split; [reflexivity|]. split; [exact He|]. split; [exact Ho|discriminate].
Qed.

Section Trans.
  Variables (s : state) (lbl : option entry) (s' : state).
  Hypothesis G : good s.
  Hypothesis T : tr_spec s lbl s'.

  Lemma tr_good : good s'.
  Proof.
    destruct lbl as [m|]; cbn [tr_spec] in T.
    - destruct T as (rest & Hp & E). eapply ext_good; [eapply pop_good; eassumption|exact E].
    - eapply ext_good; eassumption.
  Qed.

  (* the clock never goes back; a step sets it to the time of the entry it pops *)
  Lemma tr_now : now s <= now s' /\ (forall m, lbl = Some m -> now s' = e_time m).
  Proof.
    destruct (tr_shape _ _ _ G T) as (l & _ & N & _ & _ & M). destruct G as (A & _). destruct lbl as [m|].
    - split; [rewrite N; apply (ok_time _ A), (M m eq_refl)|intros m0 [= <-]; exact N].
    - split; [rewrite N; apply Qle_refl|discriminate].
  Qed.

  Lemma tr_next_eid : (next_eid s <= next_eid s')%nat.
  Proof. destruct (tr_shape _ _ _ G T) as (l & _ & _ & E & _). lia. Qed.

  (* a pending entry stays on the agenda, unchanged, until the step that pops it *)
  Lemma tr_persist x : In x (agenda s) -> lbl <> Some x -> In x (agenda s').
  Proof.
    intros Hx Hl. destruct (tr_shape _ _ _ G T) as (l & -> & _ & _ & _ & M). apply in_or_app. left.
    destruct lbl as [m|]; [|exact Hx]. apply remove_eid_keeps; [exact Hx|]. intros E. apply Hl. f_equal.
    destruct G as (A & _). exact (nodup_eid_inj _ _ _ (ok_nodup _ A) (proj1 (M m eq_refl)) Hx (eq_sym E)).
  Qed.

  (* whatever is pending afterwards was pending before or has just been inserted, with a fresh id *)
  Lemma tr_origin x : In x (agenda s') -> In x (agenda s) \/ (next_eid s <= e_eid x)%nat.
  Proof.
    destruct (tr_shape _ _ _ G T) as (l & -> & _ & _ & Ho & _). intros Hx. apply in_app_or in Hx. destruct Hx as [Hx|Hx].
    - left. destruct lbl; [eapply remove_eid_subset|]; exact Hx.
    - right. apply (new_ok_in _ _ _ _ Ho Hx).
  Qed.

  (* the popped entry was pending and is the minimum of the agenda *)
  Lemma tr_min m : lbl = Some m ->
    In m (agenda s) /\ (forall x, In x (agenda s) -> key_le m x) /\
    (forall x, In x (agenda s) -> e_eid x <> e_eid m -> key_lt m x).
  Proof.
    intros E. destruct (tr_shape _ _ _ G T) as (_ & _ & _ & _ & _ & M). destruct (M m E) as [Hm Hle].
    split; [exact Hm|]. split; [exact Hle|]. intros x Hx Hn. apply key_le_neq_lt; [apply Hle, Hx|auto].
  Qed.
End Trans.

Lemma exec_good codes s l s' : good s -> exec codes s l s' -> good s'.
Proof. intros G H. induction H as [|s lbl s1 l s' Ht He IH]; [exact G|]. apply IH. eapply tr_good; [exact G|eapply ktrans_spec, Ht]. Qed.

Lemma exec_now_mono codes s l s' : good s -> exec codes s l s' -> now s <= now s'.
Proof.
  intros G H. induction H as [|s lbl s1 l s' Ht He IH]; [lra|].
  pose proof (ktrans_spec _ _ _ _ Ht) as T. destruct (tr_now _ _ _ G T) as [N _].
  pose proof (IH (tr_good _ _ _ G T)). lra.
Qed.

Lemma exec_next_eid codes s l s' : good s -> exec codes s l s' -> (next_eid s <= next_eid s')%nat.
Proof.
  intros G H. induction H as [|s lbl s1 l s' Ht He IH]; [lia|].
  pose proof (ktrans_spec _ _ _ _ Ht) as T. pose proof (tr_next_eid _ _ _ G T).
  pose proof (IH (tr_good _ _ _ G T)). lia.
Qed.

(* a pending entry is either still pending (same entry, same time) or has been popped *)
Lemma exec_fate codes s l s' x : good s -> exec codes s l s' -> In x (agenda s) -> In x (agenda s') \/ In (Some x) l.
Proof.
  intros G H. induction H as [|s lbl s1 l s' Ht He IH]; intros Hx; [left; exact Hx|].
  pose proof (ktrans_spec _ _ _ _ Ht) as T.
  (* the label pops x or not: the insertion id decides, since ids are pairwise distinct *)
  assert (D : lbl = Some x \/ lbl <> Some x).
  { destruct lbl as [m|]; [|right; discriminate]. destruct (Nat.eq_dec (e_eid m) (e_eid x)) as [E|E].
    - left. f_equal. exact (nodup_eid_inj _ _ _ (ok_nodup _ (proj1 G)) (proj1 (tr_min _ _ _ G T m eq_refl)) Hx E).
    - right. intros [= ->]. exact (E eq_refl). }
  destruct D as [->|D]; [right; left; reflexivity|].
  destruct (IH (tr_good _ _ _ G T) (tr_persist _ _ _ G T x Hx D)) as [?|?]; [left|right; right]; assumption.
Qed.

(* an entry pending at the end was pending at the start or was inserted on the way (with a fresh id) *)
Lemma exec_origin codes s l s' x : good s -> exec codes s l s' -> In x (agenda s') -> In x (agenda s) \/ (next_eid s <= e_eid x)%nat.
Proof.
  intros G H. induction H as [|s lbl s1 l s' Ht He IH]; intros Hx; [left; exact Hx|].
  pose proof (ktrans_spec _ _ _ _ Ht) as T.
  destruct (IH (tr_good _ _ _ G T) Hx) as [H1|H1].
  - exact (tr_origin _ _ _ G T _ H1).
  - right. pose proof (tr_next_eid _ _ _ G T). lia.
Qed.

(* splitting an execution at a label *)
Lemma exec_at codes s l1 lbl l2 s' :
  exec codes s (l1 ++ lbl :: l2) s' ->
  exists sa sb, exec codes s l1 sa /\ ktrans codes sa lbl sb /\ exec codes sb l2 s'.
Proof.
  revert s. induction l1 as [|a t IH]; cbn [app]; intros s H; inversion H as [|? ? s1 ? ? Ht He]; subst.
  - exists s, s1. split; [constructor|split; assumption].
  - destruct (IH _ He) as (sa & sb & H1 & T & H2). exists sa, sb. split; [econstructor; eassumption|split; assumption].
Qed.

(* ------------------------------------------------------------------------------------------------ *)
(* what step / run / module-level code do is an execution *)

Lemma kstep_trans fuel codes s m rest :
  pop_min (agenda s) = Some (m, rest) -> ktrans codes s (Some m) (fst (step fuel codes s)).
Proof. intros H. eapply KStep; [apply surjective_pairing|exact H]. Qed.

Lemma step_exec fuel codes s s' r : step fuel codes s = (s', r) -> exists l, exec codes s l s'.
Proof.
  intros H. destruct (pop_min (agenda s)) as [[m rest]|] eqn:P.
  - exists [Some m]. econstructor; [eapply KStep; eassumption|constructor].
  - unfold step in H. rewrite P in H. injection H as <- _. exists []. constructor.
Qed.

Lemma run_loop_exec n fuel codes u : forall s s' r, run_loop n fuel codes u s = (s', r) -> exists l, exec codes s l s'.
Proof.
  induction n as [|n IH]; intros s s' r; cbn [run_loop].
  - intros H; injection H as <- _. exists []. constructor.
  - destruct (step fuel codes s) as [s1 r1] eqn:S. destruct (step_exec _ _ _ _ _ S) as (l1 & E1).
    destruct r1; intros H; try (injection H as <- _; exists l1; exact E1).
    destruct (IH _ _ _ H) as (l2 & E2). exists (l1 ++ l2). eapply exec_app; eassumption.
Qed.

Theorem run_exec fuel codes u s s' r : run fuel codes u s = (s', r) -> exists l, exec codes s l s'.
Proof.
  unfold run. destruct (run_prelude u s) as [[s0 r0]|s1] eqn:P.
  - intros H; injection H as <- <-. rewrite (run_prelude_inl _ _ _ _ P). exists []. constructor.
  - intros H. destruct (run_loop_exec _ _ _ _ _ _ _ H) as (l & E).
    exists (None :: l). econstructor; [eapply KPrelude, P|exact E].
Qed.

Lemma run_frag_exec {A} codes (f : frag A) : forall s s' r, run_frag codes f s = (s', r) -> exists l, exec codes s l s'.
Proof.
  induction f as [v a|v|x|c k IH]; intros s s' r; cbn [run_frag];
    try (intros H; injection H as <- _; exists []; constructor).
  destruct (do_call codes c s) as [s1 o] eqn:C. intros H. destruct (IH _ _ _ _ H) as (l & E).
  exists (None :: l). econstructor; [eapply KCall, C|exact E].
Qed.

(* ------------------------------------------------------------------------------------------------ *)
(* C01 theorems *)

(* the agenda invariant holds in every state of every execution *)
Theorem agenda_invariant codes t0 l s :
  exec codes (init_state t0) l s ->
  (forall x, In x (agenda s) -> now s <= e_time x) /\
  (forall x, In x (agenda s) -> (e_eid x < next_eid s)%nat) /\
  NoDup (map e_eid (agenda s)) /\
  (forall x y, In x (agenda s) -> In y (agenda s) -> x <> y -> key_lt x y \/ key_lt y x).
Proof.
  intros H. pose proof (exec_good _ _ _ _ (good_init t0) H) as (A & _ & _).
  split; [apply (ok_time _ A)|]. split; [apply (ok_eid _ A)|]. split; [apply (ok_nodup _ A)|].
  intros x y Hx Hy Hn. assert (e_eid x <> e_eid y) by (intros E; exact (Hn (nodup_eid_inj _ _ _ (ok_nodup _ A) Hx Hy E))).
  destruct (key_ltb x y) eqn:K; [left; apply key_ltb_iff, K|].
  right. apply key_le_neq_lt; [apply key_ltb_false, K|auto].
Qed.

(* simulated time never decreases: between any two states of an execution *)
Theorem now_monotone codes s l1 s1 l2 s2 :
  good s -> exec codes s l1 s1 -> exec codes s1 l2 s2 -> now s1 <= now s2.
Proof. intros G H1 H2. eapply exec_now_mono; [eapply exec_good; eassumption|exact H2]. Qed.

Theorem run_now_monotone fuel codes u s s' r :
  good s -> run fuel codes u s = (s', r) -> now s <= now s' /\ good s'.
Proof.
  intros G H. destruct (run_exec _ _ _ _ _ _ H) as (l & E).
  split; [eapply exec_now_mono; eassumption|eapply exec_good; eassumption].
Qed.

Theorem step_now_monotone fuel codes s s' r :
  good s -> step fuel codes s = (s', r) -> now s <= now s' /\ good s'.
Proof.
  intros G H. destruct (step_exec _ _ _ _ _ H) as (l & E).
  split; [eapply exec_now_mono; eassumption|eapply exec_good; eassumption].
Qed.

(* an entry pending in some state takes effect -- if at all -- in a step that sets the clock to exactly its
   time; as long as it is pending the clock has not passed its time (nothing takes effect late) *)
Theorem pending_takes_effect_exactly codes s x l s' :
  good s -> In x (agenda s) -> exec codes s l s' ->
  (In x (agenda s') /\ now s' <= e_time x) \/
  (exists l1 l2 sa sb, l = l1 ++ Some x :: l2 /\ exec codes s l1 sa /\ In x (agenda sa) /\
                       ktrans codes sa (Some x) sb /\ now sb = e_time x /\ exec codes sb l2 s').
Proof.
  intros G Hx E. destruct (exec_fate _ _ _ _ _ G E Hx) as [H|H].
  - left. split; [exact H|]. pose proof (exec_good _ _ _ _ G E) as (A & _). apply (ok_time _ A), H.
  - right. apply in_split in H. destruct H as (l1 & l2 & ->).
    destruct (exec_at _ _ _ _ _ _ E) as (sa & sb & E1 & T & E2).
    exists l1, l2, sa, sb. pose proof (exec_good _ _ _ _ G E1) as Ga. pose proof (ktrans_spec _ _ _ _ T) as Ts.
    repeat split; try assumption.
    + apply (tr_min _ _ _ Ga Ts x eq_refl).
    + apply (tr_now _ _ _ Ga Ts). reflexivity.
Qed.

(* Environment.schedule inserts at now + delay, with the given priority and the next insertion id *)
Theorem schedule_inserts e pr d s :
  exists x, agenda (schedule e pr d s) = agenda s ++ [x] /\
            e_time x == now s + d /\ e_prio x = pr /\ e_eid x = next_eid s /\ e_ev x = e /\
            next_eid (schedule e pr d s) = S (next_eid s) /\ now (schedule e pr d s) = now s.
Proof.
  exists (mkEntry (Qred (now s + d)) pr (next_eid s) e). split; [reflexivity|].
  cbn [e_time e_prio e_eid e_ev]. split; [apply Qred_correct|]. repeat split.
Qed.

(* a timeout created at t0 = now with delay d >= 0 is due at exactly t0 + d, NORMAL; it takes effect in a step
   that sets now == t0 + d and, until then, now <= t0 + d *)
Theorem timeout_takes_effect_exactly codes s d v s1 e l s' :
  good s -> do_call codes (CTimeout d v) s = (s1, Ok (VEv e)) -> exec codes s1 l s' ->
  0 <= d /\
  exists x, e_ev x = e /\ e_prio x = NORMAL /\ e_eid x = next_eid s /\ e_time x == now s + d /\
            agenda s1 = agenda s ++ [x] /\
    ((In x (agenda s') /\ now s' <= now s + d) \/
     (exists l1 l2 sa sb, l = l1 ++ Some x :: l2 /\ exec codes s1 l1 sa /\ ktrans codes sa (Some x) sb /\
                          now sb == now s + d /\ exec codes sb l2 s')).
Proof.
  intros G C E.
  assert (G1 : good s1) by (eapply tr_good; [exact G|eapply ktrans_spec, KCall, C]).
  cbn [do_call] in C. unfold call_timeout in C. destruct (neg_delay d) eqn:N; [discriminate|].
  split; [apply neg_delay_false, N|].
  cbn [new_event] in C. injection C as <- <-.
  set (x := mkEntry (Qred (now s + d)) NORMAL (next_eid s) (length (events s))).
  assert (Tx : e_time x == now s + d) by (apply Qred_correct).
  exists x. repeat split; try reflexivity; [exact Tx|].
  assert (Hx : In x (agenda (schedule (length (events s)) NORMAL d
                 (set_events (events s ++ [mkEvent (Some []) (Some (Ok v)) false KTimeout]) s))))
    by (cbn; apply in_or_app; right; left; reflexivity).
  destruct (pending_takes_effect_exactly _ _ _ _ _ G1 Hx E) as [[H1 H2]|(l1 & l2 & sa & sb & -> & E1 & _ & T & Hn & E2)].
  - left. split; [exact H1|]. rewrite <- Tx. exact H2.
  - right. exists l1, l2, sa, sb. repeat split; try assumption. rewrite Hn. exact Tx.
Qed.

(* when a step moves the clock to the time of the entry it pops, nothing that was pending is due earlier, and
   nothing that is pending afterwards is due earlier: no occurrence is skipped *)
Theorem nothing_skipped codes s m s' :
  good s -> ktrans codes s (Some m) s' ->
  now s' = e_time m /\ now s <= now s' /\
  (forall x, In x (agenda s) -> e_time m <= e_time x) /\
  (forall x, In x (agenda s') -> now s' <= e_time x).
Proof.
  intros G T. pose proof (ktrans_spec _ _ _ _ T) as Ts.
  destruct (tr_now _ _ _ G Ts) as [N1 N2]. split; [apply N2; reflexivity|]. split; [exact N1|]. split.
  - intros x Hx. apply key_le_time. apply (tr_min _ _ _ G Ts m eq_refl), Hx.
  - pose proof (tr_good _ _ _ G Ts) as (A & _). apply (ok_time _ A).
Qed.

(* pop order = key order: if b is pending in some state and a is processed while b has not been processed
   yet, then key a < key b *)
Theorem pop_order codes s l1 a l2 s' b :
  good s -> exec codes s (l1 ++ Some a :: l2) s' ->
  In b (agenda s) -> ~ In (Some b) l1 -> b <> a -> key_lt a b.
Proof.
  intros G E Hb Hn Hne. destruct (exec_at _ _ _ _ _ _ E) as (sa & sb & E1 & T & E2).
  destruct (exec_fate _ _ _ _ _ G E1 Hb) as [Hb'|Hb']; [|contradiction].
  pose proof (exec_good _ _ _ _ G E1) as Ga. pose proof (ktrans_spec _ _ _ _ T) as Ts.
  destruct (tr_min _ _ _ Ga Ts a eq_refl) as (Ha & Hle & Hlt).
  apply Hlt; [exact Hb'|]. intros Heq. exact (Hne (nodup_eid_inj _ _ _ (ok_nodup _ (proj1 Ga)) Hb' Ha Heq)).
Qed.

(* same instant, same class: processed in insertion (= trigger) order, wherever in the execution the two
   entries were inserted *)
Theorem same_class_fifo codes s l1 b l2 s' a :
  good s -> exec codes s (l1 ++ Some b :: l2) s' -> In (Some a) (l1 ++ Some b :: l2) ->
  e_time a == e_time b -> e_prio a = e_prio b -> (e_eid a < e_eid b)%nat ->
  In (Some a) l1.
Proof.
  intros G E Ha Ht Hp He.
  assert (Kab : key_lt a b) by (right; split; [exact Ht|right; split; [exact Hp|exact He]]).
  apply in_app_or in Ha. destruct Ha as [Ha|[Ha|Ha]]; [exact Ha|injection Ha as ->; lia|].
  exfalso.
  destruct (exec_at _ _ _ _ _ _ E) as (sb & sb' & E1 & T & E2).
  pose proof (exec_good _ _ _ _ G E1) as Gb. pose proof (ktrans_spec _ _ _ _ T) as Ts.
  pose proof (tr_good _ _ _ Gb Ts) as Gb'.
  destruct (tr_min _ _ _ Gb Ts b eq_refl) as (Hb & Hle & Hlt).
  apply in_split in Ha. destruct Ha as (l3 & l4 & ->).
  destruct (exec_at _ _ _ _ _ _ E2) as (sa & sa' & E3 & T' & E4).
  pose proof (exec_good _ _ _ _ Gb' E3) as Ga. pose proof (ktrans_spec _ _ _ _ T') as Ts'.
  destruct (tr_min _ _ _ Ga Ts' a eq_refl) as (Hain & _ & _).
  destruct Gb as (Ab & Kb & Pb).
  pose proof (ok_eid _ Ab _ Hb) as Hbe.
  destruct (exec_origin _ _ _ _ _ Gb' E3 Hain) as [H1|H1].
  - destruct (tr_origin _ _ _ (conj Ab (conj Kb Pb)) Ts _ H1) as [H2|H2]; [|lia].
    apply (key_lt_asym _ _ Kab). apply Hlt; [exact H2|lia].
  - pose proof (tr_next_eid _ _ _ (conj Ab (conj Kb Pb)) Ts). lia.
Qed.

(* urgent before normal at one instant: an urgent entry pending together with a normal entry due at the same
   time is processed before it *)
Theorem urgent_first codes s a b l1 l2 s' :
  good s -> In a (agenda s) -> In b (agenda s) ->
  e_time a == e_time b -> (e_prio a < e_prio b)%nat ->
  exec codes s (l1 ++ Some b :: l2) s' -> In (Some a) l1.
Proof.
  intros G Ha Hb Ht Hp E.
  assert (Kab : key_lt a b) by (right; split; [exact Ht|left; exact Hp]).
  destruct (exec_at _ _ _ _ _ _ E) as (sb & sb' & E1 & T & E2).
  destruct (exec_fate _ _ _ _ _ G E1 Ha) as [Ha'|Ha']; [|exact Ha'].
  exfalso. pose proof (exec_good _ _ _ _ G E1) as Gb. pose proof (ktrans_spec _ _ _ _ T) as Ts.
  destruct (tr_min _ _ _ Gb Ts b eq_refl) as (_ & Hle & _).
  exact (key_le_not_lt _ _ (Hle _ Ha') Kab).
Qed.

(* priority classes: in every reachable state each pending entry has the class of its event *)
Definition urgent_kind (k : ekind) : Prop :=
  match k with KInit _ | KInterruption _ | KSentinel => True | _ => False end.

Theorem priority_classes codes t0 l s x :
  exec codes (init_state t0) l s -> In x (agenda s) ->
  exists ev, nth_error (events s) (e_ev x) = Some ev /\
             (urgent_kind (kind ev) -> e_prio x = URGENT) /\ (~ urgent_kind (kind ev) -> e_prio x = NORMAL).
Proof.
  intros E Hx. pose proof (exec_good _ _ _ _ (good_init t0) E) as (_ & _ & P).
  destruct (P _ Hx) as (ev & H1 & H2). exists ev. split; [exact H1|]. rewrite H2.
  destruct (kind ev); cbn; split; intros H; try reflexivity; try contradiction; exfalso; apply H; exact I.
Qed.

(* what creates the urgent entries *)
Theorem spawn_schedules_initialize_urgent codes code arg s pr :
  nth_error codes code = Some pr ->
  let s' := fst (call_spawn codes code arg s) in
  exists x ev, agenda s' = agenda s ++ [x] /\ e_prio x = URGENT /\ e_time x == now s /\ e_eid x = next_eid s /\
               nth_error (events s') (e_ev x) = Some ev /\ kind ev = KInit (length (procs s)).
Proof.
  intros H. unfold call_spawn. rewrite H. cbn [new_event fst snd].
  eexists. eexists. split; [reflexivity|]. cbn [e_prio e_time e_eid e_ev now next_eid events set_procs set_events schedule].
  split; [reflexivity|]. split; [rewrite Qred_correct; lra|]. split; [reflexivity|].
  split.
  - apply nth_error_last.
  - reflexivity.
Qed.

Theorem interrupt_schedules_urgent e cause s s' :
  call_interrupt e cause s = (s', Ok VNone) ->
  exists x ev p, agenda s' = agenda s ++ [x] /\ e_prio x = URGENT /\ e_time x == now s /\ e_eid x = next_eid s /\
                 nth_error (events s') (e_ev x) = Some ev /\ kind ev = KInterruption p.
Proof.
  unfold call_interrupt. destruct (get_event e s) as [ev0|]; [|discriminate].
  destruct (kind ev0) as [| | | |p| |]; try discriminate.
  destruct (is_triggered ev0); [discriminate|].
  destruct (match active s with Some a => Nat.eqb a p | None => false end); [discriminate|].
  cbn [new_event]. intros H; injection H as <-.
  eexists. eexists. exists p. split; [reflexivity|].
  cbn [e_prio e_time e_eid e_ev now next_eid events set_events schedule].
  split; [reflexivity|]. split; [rewrite Qred_correct; lra|]. split; [reflexivity|]. split.
  - apply nth_error_last.
  - reflexivity.
Qed.

Theorem until_sentinel_urgent t s s1 :
  run_prelude (UNum t) s = inr s1 ->
  now s < t /\
  exists x ev, agenda s1 = agenda s ++ [x] /\ e_prio x = URGENT /\ e_time x == t /\ e_eid x = next_eid s /\
               nth_error (events s1) (e_ev x) = Some ev /\ kind ev = KSentinel.
Proof.
  cbn [run_prelude]. destruct (Qle_bool t (now s)) eqn:L; [discriminate|]. apply Qle_bool_false in L.
  cbn [new_event]. intros H0; injection H0 as <-. split; [exact L|].
  eexists. eexists. split; [reflexivity|].
  cbn [e_prio e_time e_eid e_ev]. split; [reflexivity|]. split; [rewrite Qred_correct; cbn [now set_events]; lra|]. split; [reflexivity|].
  split.
  - cbn [events add_callback upd_event set_events schedule].
    rewrite nth_error_upd_nth, Nat.eqb_refl, nth_error_last. reflexivity.
  - reflexivity.
Qed.

(* succeed / fail / process termination / conditions go through [trigger_event]: NORMAL, delay 0 *)
Theorem trigger_schedules_normal e o s :
  exists x, agenda (trigger_event e o s) = agenda s ++ [x] /\ e_prio x = NORMAL /\ e_time x == now s /\
            e_eid x = next_eid s /\ e_ev x = e.
Proof.
  exists (mkEntry (Qred (now s + 0)) NORMAL (next_eid s) e). split; [reflexivity|].
  cbn [e_prio e_time e_eid e_ev]. split; [reflexivity|]. split; [rewrite Qred_correct; lra|].
  split; reflexivity.
Qed.

(* a negative delay is refused with ValueError and nothing changes *)
Theorem negative_delay_refused codes d v s :
  d < 0 -> do_call codes (CTimeout d v) s = (s, Fail (kexn EValue M_negative_delay)).
Proof.
  intros H. cbn [do_call]. unfold call_timeout, neg_delay.
  destruct (d ?= 0) eqn:C; [apply Qeq_alt in C; lra|reflexivity|apply Qgt_alt in C; lra].
Qed.

Theorem nonnegative_delay_accepted codes d v s :
  0 <= d -> exists e s', do_call codes (CTimeout d v) s = (s', Ok (VEv e)).
Proof.
  intros H. cbn [do_call]. unfold call_timeout, neg_delay.
  destruct (d ?= 0) eqn:C; [| |]; try (eexists; eexists; reflexivity).
  apply Qlt_alt in C. lra.
Qed.

(* no callback raises EmptySchedule *)
Lemma resume_loop_not_empty codes fuel : forall p e s, snd (resume_loop fuel codes p e s) <> REmpty.
Proof.
  induction fuel as [|f IH]; intros p e s; cbn [resume_loop]; [cbn; discriminate|].
  destruct (get_event e s) as [ev|]; [|cbn; discriminate].
  destruct (get_proc p s) as [pr|]; [|cbn; discriminate].
  destruct (out ev) as [o|]; [|cbn; discriminate].
  destruct (run_frag codes (resume (pcode pr) (pst pr) o) _) as [s2 r].
  destruct r as [v a|v|x]; try (cbn; discriminate).
  destruct v; try (cbn; discriminate).
  destruct (get_event e0 _) as [ev'|]; [|cbn; discriminate].
  destruct (is_processed ev'); [apply IH|cbn; discriminate].
Qed.

Lemma run_cb_not_empty fuel codes e c s : snd (run_cb fuel codes e c s) <> REmpty.
Proof.
  destruct c; cbn [run_cb]; try (cbn; discriminate).
  - apply resume_loop_not_empty.
  - unfold cond_build. destruct (remove_checks _ _ _) as [s1|]; [|cbn; discriminate].
    destruct (get_event c s1) as [cev|]; [|cbn; discriminate].
    destruct (out cev) as [[?|?]|]; try (cbn; discriminate).
    destruct (kind cev); try (cbn; discriminate).
    destruct (populate _ _ _); cbn; discriminate.
  - unfold do_interruption.
    destruct (get_event i s) as [iev|]; [|cbn; discriminate].
    destruct (kind iev); try (cbn; discriminate).
    destruct (get_proc p s) as [pr|]; [|cbn; discriminate].
    destruct (get_event (pev pr) s) as [pe|]; [|cbn; discriminate].
    destruct (is_triggered pe); [cbn; discriminate|].
    destruct (ptarget pr) as [t|]; [|cbn; discriminate].
    destruct (get_event t s) as [tev|]; [|cbn; discriminate].
    destruct (cbs tev) as [l|]; [|cbn; discriminate].
    destruct (mem_cb (CbResume p) l); [|cbn; discriminate].
    apply resume_loop_not_empty.
  - unfold stop_cb. destruct (get_event e s) as [ev|]; [|cbn; discriminate].
    destruct (out ev) as [[?|?]|]; cbn; discriminate.
Qed.

Lemma run_callbacks_not_empty fuel codes e l : forall s, snd (run_callbacks fuel codes e l s) <> REmpty.
Proof.
  induction l as [|c t IH]; intros s; cbn [run_callbacks]; [cbn; discriminate|].
  pose proof (run_cb_not_empty fuel codes e c s) as N.
  destruct (run_cb fuel codes e c s) as [s1 r]. cbn [snd] in N.
  pose proof (IH s1) as Y.
  destruct r; try congruence; try apply IH;
    (destruct (is_stop_cb c && is_exit _);
     [destruct (run_callbacks fuel codes e t s1) as [s2 r2]; cbn [snd] in Y; destruct r2; cbn; congruence
     |cbn; congruence]).
Qed.

(* step answers REmpty only on an empty agenda *)
Lemma step_empty fuel codes s s' : step fuel codes s = (s', REmpty) -> s' = s /\ agenda s = [].
Proof.
  unfold step. destruct (pop_min (agenda s)) as [[m rest]|] eqn:P.
  - destruct (get_event (e_ev m) (pop_state m rest s)) as [ev|]; [|discriminate].
    destruct (cbs ev) as [l|]; [|discriminate].
    pose proof (run_callbacks_not_empty fuel codes (e_ev m) l (upd_event (e_ev m) (ev_set_cbs None) (pop_state m rest s))) as N.
    destruct (run_callbacks fuel codes (e_ev m) l _) as [s2 r2]. cbn [snd] in N.
    destruct r2; try discriminate; try congruence.
    intros S. injection S as _ S. unfold check_failure in S. destruct (get_event (e_ev m) s2) as [ev2|]; [|discriminate].
    destruct (out ev2) as [[?|?]|]; try discriminate. destruct (defused ev2); discriminate.
  - intros S. injection S as <-. split; [reflexivity|apply pop_min_none, P].
Qed.

Lemma step_drained fuel codes s : agenda s = [] -> step fuel codes s = (s, REmpty).
Proof. intros A. unfold step. rewrite A. reflexivity. Qed.

(* run() returning normally has emptied the agenda: with [pending_takes_effect_exactly], every entry that was
   ever pending has been processed, each at its own time *)
Lemma run_loop_drains n fuel codes : forall s s', run_loop n fuel codes UNone s = (s', ROk) -> agenda s' = [].
Proof.
  induction n as [|n IH]; intros s s'; cbn [run_loop]; [discriminate|].
  destruct (step fuel codes s) as [s1 r1] eqn:S. destruct r1; try discriminate.
  - apply IH.
  - intros H; injection H as <-. destruct (step_empty _ _ _ _ S) as [-> E]. exact E.
Qed.

Theorem run_all_drains fuel codes s s' : run fuel codes UNone s = (s', ROk) -> agenda s' = [].
Proof. unfold run. cbn [run_prelude]. apply run_loop_drains. Qed.

(* ------------------------------------------------------------------------------------------------ *)
(* Examples: the hypotheses of the theorems are satisfiable on a concrete non-trivial state *)

(* one process: wait for timeout(1), then end *)
Definition ex_prog : prog :=
  mkProg nat (fun _ => 0%nat)
    (fun st o => match st with
                 | O => FCall (CTimeout 1 VNone)
                          (fun r => match r with Ok v => FYield v 1%nat | Fail x => FRaise x end)
                 | _ => FRet VNone
                 end).
Definition ex_codes : list prog := [ex_prog].

(* module level: two timeouts with delay 0, then a process start: three entries due at time 0 *)
Definition ex_s1 : state :=
  fst (do_call ex_codes (CSpawn 0 VNone)
    (fst (do_call ex_codes (CTimeout 0 (VInt 8))
      (fst (do_call ex_codes (CTimeout 0 (VInt 7)) (init_state 0)))))).

Definition ex_b1 : entry := mkEntry 0 NORMAL 0%nat 0%nat.
Definition ex_b2 : entry := mkEntry 0 NORMAL 1%nat 1%nat.
Definition ex_a : entry := mkEntry 0 URGENT 2%nat 3%nat.

Example ex_reachable : exec ex_codes (init_state 0) [None; None; None] ex_s1.
Proof.
  econstructor; [eapply KCall, surjective_pairing|].
  econstructor; [eapply KCall, surjective_pairing|].
  econstructor; [eapply KCall, surjective_pairing|]. constructor.
Qed.

Example ex_good : good ex_s1.
Proof. eapply exec_good; [apply good_init|apply ex_reachable]. Qed.

Example ex_pending :
  In ex_a (agenda ex_s1) /\ In ex_b1 (agenda ex_s1) /\ In ex_b2 (agenda ex_s1) /\
  e_time ex_a == e_time ex_b1 /\ (e_prio ex_a < e_prio ex_b1)%nat /\
  e_time ex_b1 == e_time ex_b2 /\ e_prio ex_b1 = e_prio ex_b2 /\ (e_eid ex_b1 < e_eid ex_b2)%nat.
Proof. vm_compute. repeat split; auto. Qed.

Definition ex_s2 := fst (step 10 ex_codes ex_s1).
Definition ex_s3 := fst (step 10 ex_codes ex_s2).
Definition ex_s4 := fst (step 10 ex_codes ex_s3).

(* the urgent process start is processed first although it was inserted last, then the two timeouts in
   insertion order: an execution to which urgent_first, same_class_fifo and pop_order apply *)
Example ex_exec : exec ex_codes ex_s1 ([] ++ Some ex_a :: [Some ex_b1; Some ex_b2]) ex_s4.
Proof.
  cbn [app].
  apply exec_cons with (s1 := ex_s2); [unfold ex_s2; eapply kstep_trans; vm_compute; reflexivity|].
  apply exec_cons with (s1 := ex_s3); [unfold ex_s3; eapply kstep_trans; vm_compute; reflexivity|].
  apply exec_cons with (s1 := ex_s4); [unfold ex_s4; eapply kstep_trans; vm_compute; reflexivity|].
  constructor.
Qed.

Example ex_urgent_first : In (Some ex_a) [Some ex_a].
Proof.
  destruct ex_pending as (Ha & Hb1 & _ & Ht & Hp & _).
  exact (urgent_first ex_codes ex_s1 ex_a ex_b1 [Some ex_a] [Some ex_b2] ex_s4 ex_good Ha Hb1 Ht Hp ex_exec).
Qed.

Example ex_timeout_due :
  exists s1 e, do_call ex_codes (CTimeout (3 # 2) VNone) ex_s4 = (s1, Ok (VEv e)) /\ good ex_s4.
Proof.
  eexists. eexists. split; [reflexivity|]. eapply exec_good; [apply ex_good|apply ex_exec].
Qed.

Example ex_negative : do_call ex_codes (CTimeout (-1 # 2) VNone) ex_s1 = (ex_s1, Fail (kexn EValue M_negative_delay)).
Proof. apply negative_delay_refused. reflexivity. Qed.

Example ex_run_drains :
  snd (run 50 ex_codes UNone ex_s1) = ROk /\ now (fst (run 50 ex_codes UNone ex_s1)) == 1 /\
  agenda (fst (run 50 ex_codes UNone ex_s1)) = [].
Proof. split; [vm_compute; reflexivity|split; vm_compute; reflexivity]. Qed.
