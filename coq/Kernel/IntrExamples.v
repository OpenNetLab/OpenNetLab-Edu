(* Kernel/IntrExamples.v -- concrete instances showing that the hypotheses of the C04 theorems (Kernel/Intr.v) are
   satisfiable on non-trivial reachable states.  Programs are written in the script language of Kernel/Script.v
   only for convenience.

   Family A: a victim sleeping 5 and an interrupter sleeping 1 that then interrupts it with cause 7.
   Family B: two processes sleeping the same delay 1; the first ends at t = 1, the second interrupts it at t = 1,
             before the termination event of the first has been processed (scenario "dead at the same instant"). *)
From Coq Require Import ZArith QArith List Bool Lia.
From ONL Require Import Kernel.Model Kernel.Keys Kernel.Script Kernel.IntrBase Kernel.IntrInv Kernel.IntrStep Kernel.Intr Kernel.IntrView.
Import ListNotations.

Definition exA_victim : list instr :=
  [ITimeout (L 1) 5 XNone; IYield 1 (XReg (L 1)) (L 2) YCatch; IReturn XNone].
Definition exA_interrupter : list instr :=
  [ITimeout (L 1) 1 XNone; IYield 2 (XReg (L 1)) (L 2) YCatch; IInterrupt (G 0) (XInt 7)].
Definition ex_setup : list instr := [ISpawn (G 0) 0 XNone; ISpawn (G 1) 1 XNone].

Definition exA_codes : list prog := map compile [exA_victim; exA_interrupter].
Definition exA_s1 : state := fst (exec_top exA_codes (exec ex_setup []) (init_state 0)).
Definition exA_s2 : state := fst (step 10 exA_codes exA_s1).     (* Initialize of the victim *)
Definition exA_s3 : state := fst (step 10 exA_codes exA_s2).     (* Initialize of the interrupter *)
Definition exA_s4 : state := fst (step 10 exA_codes exA_s3).     (* timeout(1): the interrupter interrupts the victim *)
Definition exA_s5 : state := fst (step 10 exA_codes exA_s4).     (* the interruption is processed *)

Lemma exA_reach1 : reach exA_codes exA_s1.
Proof. apply reach_top, reach_init. Qed.
Lemma exA_reach2 : reach exA_codes exA_s2.
Proof. apply reach_step; [apply exA_reach1|]. vm_compute. exact I. Qed.
Lemma exA_reach3 : reach exA_codes exA_s3.
Proof. apply reach_step; [apply exA_reach2|]. vm_compute. exact I. Qed.
Lemma exA_reach4 : reach exA_codes exA_s4.
Proof. apply reach_step; [apply exA_reach3|]. vm_compute. exact I. Qed.
Lemma exA_reach5 : reach exA_codes exA_s5.
Proof. apply reach_step; [apply exA_reach4|]. vm_compute. exact I. Qed.

Definition exA_vs : list sview := Eval vm_compute in map view [exA_s1; exA_s2; exA_s3; exA_s4; exA_s5].
Lemma exA_views : map view [exA_s1; exA_s2; exA_s3; exA_s4; exA_s5] = exA_vs.
Proof. vm_compute. reflexivity. Qed.
Definition exA_view k : nth k (map view [exA_s1; exA_s2; exA_s3; exA_s4; exA_s5]) v0 = nth k exA_vs v0 :=
  f_equal (fun l => nth k l v0) exA_views.

(* hypotheses of interrupt_accepted / later_issue_later_eid: in exA_s3 (a state between steps; module-level code
   interrupts the victim, event 0 = its Process event) *)
Example ex_interrupt_accepted :
  exists ev, get_event 0%nat exA_s3 = Some ev /\ kind ev = KProcess 0%nat /\ out ev = None /\ active exA_s3 <> Some 0%nat /\
             exists x, In x (agenda exA_s3).
Proof.
  destruct (view_reads _ _ (exA_view 2 : view exA_s3 = _)) as (Ve & Va & _ & _ & Vc & _). rewrite Ve, Va, Vc.
  eexists. split; [reflexivity|]. split; [reflexivity|]. split; [reflexivity|]. split; [discriminate|].
  eexists. left. reflexivity.
Qed.

(* hypotheses of interruption_entry, interrupt_step, interrupt_delivery, init_before_interrupt, interrupt_before_normal:
   in exA_s4 the interruption (event 6) is the minimum of the agenda, the victim (process 0) is alive and waits for
   its timeout (event 4), whose entry is NORMAL and pending *)
Example ex_interrupt_delivery :
  exists m rest iev pr y,
    reach exA_codes exA_s4 /\ pop_min (agenda exA_s4) = Some (m, rest) /\ get_event (e_ev m) exA_s4 = Some iev /\
    kind iev = KInterruption 0%nat /\ get_proc 0%nat exA_s4 = Some pr /\ live exA_s4 0%nat /\
    ptarget pr <> Some (e_ev m) /\ out iev = Some (Fail (EInterrupt, [VInt 7])) /\
    In y (agenda exA_s4) /\ e_prio y = NORMAL /\ ptarget pr = Some (e_ev y).
Proof.
  pose proof (exA_view 3 : view exA_s4 = _) as V. destruct (view_reads _ _ V) as (Ve & Va & _).
  destruct (view_proc _ _ 0%nat _ _ V eq_refl) as (pr & Hp & _ & Pt).
  eexists _, _, _, pr, _. rewrite Ve, Va, Pt. split; [apply exA_reach4|]. split; [vm_compute; reflexivity|].
  split; [reflexivity|]. split; [reflexivity|]. split; [exact Hp|].
  split; [eapply view_live; [exact V|reflexivity|reflexivity|reflexivity]|].
  split; [discriminate|]. split; [reflexivity|]. split; [left; reflexivity|]. split; reflexivity.
Qed.

(* ... and what the delivery did: in exA_s5 the victim has ended (it caught the Interrupt and returned), its old
   target (event 4) is still pending, has lost the _resume and keeps its outcome; processing it later resumes nobody *)
Example ex_after_delivery :
  dead exA_s5 0%nat /\
  exists tev, get_event 4%nat exA_s5 = Some tev /\ cbs tev = Some [] /\ out tev = Some (Ok VNone).
Proof.
  pose proof (exA_view 4 : view exA_s5 = _) as V. rewrite (proj1 (view_reads _ _ V)). split.
  - eapply view_dead; [exact V|reflexivity|reflexivity|discriminate].
  - eexists. split; [reflexivity|]. split; reflexivity.
Qed.

(* hypotheses of not_started / first_resumption_is_none / process_has_initialize: in exA_s1 nothing has run yet *)
Example ex_not_started :
  exists m rest ev, reach exA_codes exA_s1 /\ pop_min (agenda exA_s1) = Some (m, rest) /\
                    get_event (e_ev m) exA_s1 = Some ev /\ kind ev = KInit 0%nat /\ cbs ev <> None.
Proof.
  destruct (view_reads _ _ (exA_view 0 : view exA_s1 = _)) as (Ve & Va & _).
  eexists _, _, _. rewrite Ve, Va. split; [apply exA_reach1|]. split; [vm_compute; reflexivity|].
  split; [reflexivity|]. split; [reflexivity|discriminate].
Qed.

(* ---- family B ---- *)

Definition exB_first : list instr := [ITimeout (L 1) 1 XNone; IYield 1 (XReg (L 1)) (L 2) YCatch].
Definition exB_second : list instr :=
  [ITimeout (L 1) 1 XNone; IYield 2 (XReg (L 1)) (L 2) YCatch; IInterrupt (G 0) (XInt 9); ILog XNone].
Definition exB_codes : list prog := map compile [exB_first; exB_second].
Definition exB_s1 : state := fst (exec_top exB_codes (exec ex_setup []) (init_state 0)).
Definition exB_s2 : state := fst (step 10 exB_codes exB_s1).
Definition exB_s3 : state := fst (step 10 exB_codes exB_s2).
Definition exB_s4 : state := fst (step 10 exB_codes exB_s3).     (* t = 1: the first process ends *)
Definition exB_s5 : state := fst (step 10 exB_codes exB_s4).     (* t = 1: the second interrupts it: refused *)

Lemma exB_reach4 : reach exB_codes exB_s4.
Proof.
  apply reach_step; [apply reach_step; [apply reach_step; [apply reach_top, reach_init|]|]|]; vm_compute; exact I.
Qed.

Definition exB_vs : list sview := Eval vm_compute in map view [exB_s4; exB_s5].
Lemma exB_views : map view [exB_s4; exB_s5] = exB_vs.
Proof. vm_compute. reflexivity. Qed.
Definition exB_view k : nth k (map view [exB_s4; exB_s5]) v0 = nth k exB_vs v0 := f_equal (fun l => nth k l v0) exB_views.

(* hypotheses of interrupt_refused_dead / interrupt_refused_after_end: in exB_s4 process 0 has ended, its Process
   event (event 0) is triggered but NOT processed (its entry is still on the agenda) *)
Example ex_refused_dead :
  reach exB_codes exB_s4 /\ dead exB_s4 0%nat /\
  exists ev x, get_event 0%nat exB_s4 = Some ev /\ kind ev = KProcess 0%nat /\ out ev <> None /\ cbs ev <> None /\
               In x (agenda exB_s4) /\ e_ev x = 0%nat.
Proof.
  pose proof (exB_view 0 : view exB_s4 = _) as V. destruct (view_reads _ _ V) as (Ve & Va & _). rewrite Ve, Va.
  split; [apply exB_reach4|]. split; [eapply view_dead; [exact V|reflexivity|reflexivity|discriminate]|].
  eexists _, _. split; [reflexivity|]. split; [reflexivity|]. split; [discriminate|]. split; [discriminate|].
  split; [right; left; reflexivity|reflexivity].
Qed.

(* the model's answer in that situation: the step in which the second process interrupts logs the RuntimeError
   (tag 2, code M_terminated) and schedules no Interruption: agenda = the termination entry of process 0 only,
   plus the termination entry of process 1 *)
Example ex_refused_dead_run :
  map e_ev (agenda exB_s5) = [0%nat; 2%nat] /\
  hd_error (tl (obs exB_s5)) = Some (OLog (Some 1%nat) 1 (VList [VInt 2; VExn ERuntime [VInt M_terminated]])).
Proof.
  destruct (view_reads _ _ (exB_view 1 : view exB_s5 = _)) as (_ & Va & _ & _ & _ & Vo). rewrite Va, Vo.
  split; reflexivity.
Qed.

(* hypotheses of interrupt_refused_self: a process interrupting itself *)
Definition exC_codes : list prog := map compile [[IInterrupt (G 0) XNone]].
Definition exC_s1 : state := fst (exec_top exC_codes (exec [ISpawn (G 0) 0 XNone] []) (init_state 0)).
Example ex_refused_self :
  let s := set_active (Some 0%nat) (popped (mkEntry 0 URGENT 0%nat 1%nat) [] exC_s1) in
  exists ev, get_event 0%nat s = Some ev /\ kind ev = KProcess 0%nat /\ out ev = None /\ active s = Some 0%nat.
Proof. eexists. split; [vm_compute; reflexivity|]. repeat split. Qed.
