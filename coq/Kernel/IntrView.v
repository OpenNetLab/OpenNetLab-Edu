(* Kernel/IntrView.v -- reading concrete runs.  The normal form of a state holds, in its process table, the compiled
   programs and their suspended generators; the examples therefore never evaluate a state, but its [view]: the state
   with the process table emptied, and of every process its event and its target.  The views of the states of a run
   are evaluated once, to a list; every fact about one of these states is then read off that list. *)
From Coq Require Import ZArith QArith List Bool.
From ONL Require Import Kernel.Model Kernel.IntrBase Kernel.IntrInv Kernel.IntrStep Kernel.Intr.
Import ListNotations.

Definition sview : Type := state * list (evid * option evid).
Definition pview (pr : procrec) : evid * option evid := (pev pr, ptarget pr).
Definition view (s : state) : sview := (set_procs [] s, map pview (procs s)).
Definition v0 : sview := (init_state 0, []).

Lemma view_reads s v : view s = v ->
  (forall e, get_event e s = get_event e (fst v)) /\ agenda s = agenda (fst v) /\ now s = now (fst v) /\
  next_eid s = next_eid (fst v) /\ active s = active (fst v) /\ obs s = obs (fst v).
Proof. intros <-. repeat split. Qed.

Lemma view_proc s v p e t : view s = v -> nth_error (snd v) p = Some (e, t) ->
  exists pr, get_proc p s = Some pr /\ pev pr = e /\ ptarget pr = t.
Proof.
  intros <-. cbn [view snd]. rewrite nth_error_map. unfold get_proc. destruct (nth_error (procs s) p) as [pr|]; [|discriminate].
  intros H. injection H as <- <-. exists pr. auto.
Qed.

Lemma view_live s v p e t ev : view s = v -> nth_error (snd v) p = Some (e, t) -> get_event e (fst v) = Some ev -> out ev = None -> live s p.
Proof.
  intros V Hp He O. destruct (view_proc _ _ _ _ _ V Hp) as (pr & H & <- & _).
  rewrite <- (proj1 (view_reads _ _ V)) in He. exists pr, ev. auto.
Qed.

Lemma view_dead s v p e t ev : view s = v -> nth_error (snd v) p = Some (e, t) -> get_event e (fst v) = Some ev -> out ev <> None -> dead s p.
Proof.
  intros V Hp He O. destruct (view_proc _ _ _ _ _ V Hp) as (pr & H & <- & _).
  rewrite <- (proj1 (view_reads _ _ V)) in He. exists pr, ev. auto.
Qed.
