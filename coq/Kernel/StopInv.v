(* Kernel/StopInv.v -- C03: the state invariants behind the run(until=...) specifications.

     stops_within P s    every pending event that carries a stop callback satisfies P      (no_stop = stops_within (fun _ => False))
     urgent_but x s      every pending urgent entry is due now -- except the entry x (the sentinel of the running
                         run(until=number), due at its horizon)                               (urgent_now = urgent_but None)
     pend_ok s           a triggered, unprocessed event has an agenda entry
     wk P x s            good /\ uinv /\ pend_ok /\ stops_within P /\ urgent_but x
     calm s              wk (fun _ => False) None s

   [wk P x] is kept by every API call, process body and step() (any answer); the step that processes event e removes e from P;
   the step that pops x re-establishes urgent_now.  Hence [calm] holds in every state an execution reaches between two calls
   of run()/step(), as long as no run(until=...) ended with an exception: calm is an invariant (DESIGN.md section 4,
   (iii)) ([calm_init], [calm_call], [calm_step], [calm_run_none]; StopSpec.v: a run(until=...)
   that returns leaves a calm state). *)
From Coq Require Import ZArith QArith List Bool Lia Lqa.
From ONL Require Import Kernel.Model Kernel.Keys Kernel.Inv Kernel.Order Kernel.Deliver Kernel.DeliverWf Kernel.StopFrame Kernel.Stop.
Import ListNotations.

Definition stops_within (P : evid -> Prop) (s : state) : Prop :=
  forall e ev, get_event e s = Some ev -> has_stop ev = true -> P e.
Definition no_stop := stops_within (fun _ => False).

Definition urgent_but (x : option entry) (s : state) : Prop :=
  forall y, In y (agenda s) -> e_prio y = URGENT -> Some y = x \/ e_time y == now s.
Definition urgent_now := urgent_but None.

Definition pend_ok (s : state) : Prop :=
  forall e ev, get_event e s = Some ev -> out ev <> None -> cbs ev <> None -> exists y, In y (agenda s) /\ e_ev y = e.

Definition wk (P : evid -> Prop) (x : option entry) (s : state) : Prop :=
  good s /\ uinv s /\ pend_ok s /\ stops_within P s /\ urgent_but x s.

Definition calm := wk (fun _ => False) None.

Lemma stops_within_weaken (P Q : evid -> Prop) s : (forall e, P e -> Q e) -> stops_within P s -> stops_within Q s.
Proof. intros H S e ev G T. apply H, (S _ _ G T). Qed.

Lemma wk_weaken (P Q : evid -> Prop) x s : (forall e, P e -> Q e) -> wk P x s -> wk Q x s.
Proof.
  intros H (A & B & C & D & E). split; [exact A|]. split; [exact B|]. split; [exact C|]. split; [|exact E].
  eapply stops_within_weaken; eassumption.
Qed.

Lemma calm_init t0 : calm (init_state t0).
Proof.
  split; [apply good_init|]. split; [apply uinv_init|]. split; [|split].
  - intros e ev H. destruct e; discriminate.
  - intros e ev H. destruct e; discriminate.
  - intros y [].
Qed.

(* ---- the frame keeps them ---- *)

Lemma stops_within_sfr P s s' : sfr s s' -> stops_within P s -> stops_within P s'.
Proof. intros (_ & _ & F & _) S e ev' H T. destruct (F _ _ H T) as (ev & H0 & T0). exact (S _ _ H0 T0). Qed.

Lemma urgent_but_sfr x s s' : sfr s s' -> urgent_but x s -> urgent_but x s'.
Proof.
  intros (N & (l & A & U & _) & _) Ux y Hy P. rewrite A in Hy. rewrite N. apply in_app_or in Hy. destruct Hy as [Hy|Hy].
  - exact (Ux _ Hy P).
  - right. exact (proj1 (U _ Hy P)).
Qed.

Lemma pend_ok_sfr s s' : sfr s s' -> grows s s' -> pend_ok s -> pend_ok s'.
Proof.
  intros (_ & (l & A & _ & T) & _) G Pk e ev' H O C. rewrite A.
  destruct (T _ _ H O) as [(ev & H0 & O0)|(y & Hy & E)].
  - destruct (G _ _ H0) as (ev2 & H2 & Le). rewrite H in H2. injection H2 as <-.
    assert (C0 : cbs ev <> None) by (intros N; apply C, (le_cbs _ _ Le), N).
    destruct (Pk _ _ H0 O0 C0) as (y & Hy & E). exists y. split; [apply in_or_app; left; exact Hy|exact E].
  - exists y. split; [apply in_or_app; right; exact Hy|exact E].
Qed.

(* everything below step(): a state transformer that is a frame step in all four senses *)
Definition below (s s' : state) : Prop := ext s s' /\ sfr s s' /\ grows s s' /\ (uinv s -> uinv s').

Lemma wk_below P x s s' : below s s' -> wk P x s -> wk P x s'.
Proof.
  intros (E & F & G & U) (A & B & C & D & K). split; [eapply ext_good; eassumption|]. split; [exact (U B)|].
  split; [eapply pend_ok_sfr; eassumption|]. split; [eapply stops_within_sfr; eassumption|eapply urgent_but_sfr; eassumption].
Qed.

Lemma below_kchain T s s' : kchain true T s s' -> below s s'.
Proof.
  intros C. split; [exact (ext_kchain _ _ _ _ C)|]. split; [exact (sfr_kchain _ _ _ C)|].
  split; [exact (grows_kchain _ _ _ _ C)|exact (uinv_kchain _ _ _ _ C)].
Qed.

Lemma below_do_call codes c s : below s (fst (do_call codes c s)).
Proof. exact (below_kchain _ _ _ (kc_do_call true Tall codes c s)). Qed.

Lemma below_run_frag {A} codes (f : frag A) s : below s (fst (run_frag codes f s)).
Proof. exact (below_kchain _ _ _ (kc_run_frag true Tall codes f s)). Qed.

(* ---- the pop ---- *)

Lemma pop_rest_in s m rest y :
  good s -> pop_min (agenda s) = Some (m, rest) -> In y (agenda s) -> y <> m -> In y rest.
Proof.
  intros (A & _) P Hy N. destruct (pop_min_spec _ _ _ P) as (Hm & -> & _).
  apply remove_eid_keeps; [exact Hy|]. intros E. apply N. eapply nodup_eid_inj; [apply (ok_nodup _ A)|exact Hy|exact Hm|exact E].
Qed.

Lemma pop_rest_not_in s m rest : good s -> pop_min (agenda s) = Some (m, rest) -> ~ In m rest.
Proof.
  intros (A & _) P Hin. destruct (pop_min_spec _ _ _ P) as (Hm & -> & _).
  exact (remove_eid_not_in _ _ (ok_nodup _ A) _ Hin eq_refl).
Qed.

Lemma urgent_but_pop x s m rest :
  good s -> pop_min (agenda s) = Some (m, rest) -> urgent_but x s -> urgent_but x (pop_state m rest s).
Proof.
  intros G P U y Hy Pr. cbn [pop_state add_obs set_agenda set_now agenda now] in *.
  destruct (pop_min_spec _ _ _ P) as (Hm & E & Hle). subst rest.
  pose proof (remove_eid_subset _ _ _ Hy) as Hy0. destruct (U _ Hy0 Pr) as [L|T]; [left; exact L|right].
  destruct G as (A & _). pose proof (ok_time _ A _ Hm) as T1. pose proof (key_le_time _ _ (Hle _ Hy0)) as T2. lra.
Qed.

(* popping the excepted entry itself: nothing urgent is left that is not due at the new instant *)
Lemma urgent_now_pop_x s x rest :
  good s -> pop_min (agenda s) = Some (x, rest) -> urgent_but (Some x) s -> urgent_now (pop_state x rest s).
Proof.
  intros G P U y Hy Pr. right. cbn [pop_state add_obs set_agenda set_now agenda now] in *.
  pose proof (pop_rest_not_in _ _ _ G P) as Nx.
  destruct (pop_min_spec _ _ _ P) as (Hm & E & Hle). subst rest.
  pose proof (remove_eid_subset _ _ _ Hy) as Hy0. destruct (U _ Hy0 Pr) as [L|T].
  - injection L as ->. contradiction.
  - destruct G as (A & _). pose proof (ok_time _ A _ Hm) as T1. pose proof (key_le_time _ _ (Hle _ Hy0)) as T2. lra.
Qed.

Lemma stops_within_events P s s' : events s' = events s -> stops_within P s -> stops_within P s'.
Proof. intros E S e ev H. unfold get_event in H. rewrite E in H. exact (S e ev H). Qed.

(* ---- the middle state of a step: popped, event marked processed ---- *)

Lemma ev_set_cbs_none_id ev : cbs ev = None -> ev_set_cbs None ev = ev.
Proof. destruct ev as [c o d k]. cbn. intros ->. reflexivity. Qed.

(* where step() gives up at once (no event, or one that is processed already) detaching the callbacks changes nothing: the
   middle state is always the state in which the callback loop would start *)
Lemma mid_eq m rest s : mid m rest s = loop_start m rest s.
Proof.
  unfold mid. destruct (get_event (e_ev m) s) as [ev|] eqn:H; [destruct (cbs ev) eqn:C; [reflexivity|]|];
    symmetry; unfold loop_start, upd_event, set_events; (rewrite upd_nth_id; [apply state_eta|]);
    intros ev0 H0; change (get_event (e_ev m) s = Some ev0) in H0; rewrite H in H0; [|discriminate].
  injection H0 as <-. apply ev_set_cbs_none_id, C.
Qed.

Lemma mid_get m rest s e :
  get_event e (mid m rest s) = if Nat.eqb e (e_ev m) then option_map (ev_set_cbs None) (get_event e s) else get_event e s.
Proof. rewrite mid_eq. unfold loop_start. now rewrite get_event_upd, get_event_pop_state. Qed.

Lemma mid_get_other m rest s e : e <> e_ev m -> get_event e (mid m rest s) = get_event e s.
Proof. intros H. rewrite mid_get. apply Nat.eqb_neq in H. now rewrite H. Qed.

Lemma mid_get_popped m rest s ev : get_event (e_ev m) (mid m rest s) = Some ev -> cbs ev = None.
Proof. rewrite mid_get, Nat.eqb_refl. destruct (get_event (e_ev m) s); cbn; [|discriminate]. intros H; injection H as <-. reflexivity. Qed.

Lemma mid_agenda m rest s : agenda (mid m rest s) = rest.
Proof. now rewrite mid_eq. Qed.

Lemma mid_now m rest s : now (mid m rest s) = e_time m.
Proof. now rewrite mid_eq. Qed.

Lemma mid_next_eid m rest s : next_eid (mid m rest s) = next_eid s.
Proof. now rewrite mid_eq. Qed.

Lemma mid_length m rest s : length (events (mid m rest s)) = length (events s).
Proof. rewrite mid_eq. apply upd_nth_length. Qed.

Lemma good_mid m rest s : good s -> pop_min (agenda s) = Some (m, rest) -> good (mid m rest s).
Proof. intros G P. rewrite mid_eq. eapply ext_good; [exact (pop_good _ _ _ G P)|apply ext_set_cbs]. Qed.

Lemma uinv_mid m rest s : uinv s -> pop_min (agenda s) = Some (m, rest) -> uinv (mid m rest s).
Proof. intros U P. rewrite mid_eq. apply uinv_loop_start; assumption. Qed.

Lemma pend_ok_mid m rest s : good s -> pop_min (agenda s) = Some (m, rest) -> pend_ok s -> pend_ok (mid m rest s).
Proof.
  intros G P Pk e ev. rewrite mid_get, mid_agenda. destruct (Nat.eqb e (e_ev m)) eqn:E.
  - destruct (get_event e s) as [ev0|]; cbn; [|discriminate]. intros H; injection H as <-. cbn. intros _ C. contradiction.
  - apply Nat.eqb_neq in E. intros H O C. destruct (Pk _ _ H O C) as (y & Hy & Ey). exists y. split; [|exact Ey].
    eapply pop_rest_in; try eassumption. intros ->. congruence.
Qed.

Lemma stops_within_mid P m rest s : stops_within P s -> stops_within (fun e => P e /\ e <> e_ev m) (mid m rest s).
Proof.
  intros S e ev. rewrite mid_get. destruct (Nat.eqb e (e_ev m)) eqn:E.
  - destruct (get_event e s); cbn; [|discriminate]. intros H; injection H as <-. unfold has_stop. cbn. discriminate.
  - apply Nat.eqb_neq in E. intros H T. split; [exact (S _ _ H T)|exact E].
Qed.

Lemma urgent_but_mid x m rest s :
  good s -> pop_min (agenda s) = Some (m, rest) -> urgent_but x s ->
  urgent_but x (mid m rest s) /\ (x = Some m -> urgent_now (mid m rest s)).
Proof.
  intros G P U. split.
  - pose proof (urgent_but_pop _ _ _ _ G P U) as U1. intros y. rewrite mid_agenda, mid_now. exact (U1 y).
  - intros ->. pose proof (urgent_now_pop_x _ _ _ G P U) as U1. intros y. rewrite mid_agenda, mid_now. exact (U1 y).
Qed.

Lemma wk_mid P x m rest s :
  wk P x s -> pop_min (agenda s) = Some (m, rest) ->
  wk (fun e => P e /\ e <> e_ev m) x (mid m rest s) /\ (x = Some m -> urgent_now (mid m rest s)).
Proof.
  intros (G & U & Pk & Sw & Ub) Pm. destruct (urgent_but_mid _ _ _ _ G Pm Ub) as [U1 U2]. split; [|exact U2].
  split; [apply good_mid; assumption|]. split; [apply uinv_mid; assumption|]. split; [apply pend_ok_mid; assumption|].
  split; [apply stops_within_mid; assumption|exact U1].
Qed.

Lemma below_loop_body fuel codes e l s : below s (fst (run_callbacks fuel codes e l s)).
Proof. exact (below_kchain _ _ _ (kc_run_callbacks true fuel codes e l s)). Qed.

(* after the middle state a step only does things of the frame *)
Lemma step_below_mid fuel codes s s' r m rest :
  step fuel codes s = (s', r) -> pop_min (agenda s) = Some (m, rest) -> below (mid m rest s) s'.
Proof.
  intros H P. destruct (step_fst_mid fuel codes s m rest P) as (l & E). rewrite H in E. cbn [fst] in E. rewrite E. apply below_loop_body.
Qed.

(* what a step does to the invariant: kept, whatever step() answers; the processed event leaves P *)
Lemma wk_step_gen P x fuel codes s s' r :
  wk P x s -> step fuel codes s = (s', r) ->
  (pop_min (agenda s) = None /\ s' = s /\ r = REmpty) \/
  (exists m rest, pop_min (agenda s) = Some (m, rest) /\
     wk (fun e => P e /\ e <> e_ev m) x s' /\
     (x = Some m -> urgent_now s') /\ now s' = e_time m).
Proof.
  intros W St. destruct (pop_min (agenda s)) as [[m rest]|] eqn:Pm.
  2:{ left. rewrite (Deliver.step_empty _ _ _ Pm) in St. injection St as <- <-. auto. }
  right. exists m, rest. split; [reflexivity|].
  destruct (wk_mid _ _ _ _ _ W Pm) as [W1 U1]. pose proof (step_below_mid _ _ _ _ _ _ _ St Pm) as B.
  split; [eapply wk_below; eassumption|]. split.
  - intros E. destruct B as (_ & F & _). eapply urgent_but_sfr; [exact F|exact (U1 E)].
  - destruct B as (_ & (N & _) & _). rewrite N. apply mid_now.
Qed.

Lemma wk_step P x fuel codes s : wk P x s -> wk P x (fst (step fuel codes s)).
Proof.
  intros W. destruct (step fuel codes s) as [s' r] eqn:St. cbn [fst].
  destruct (wk_step_gen _ _ _ _ _ _ _ W St) as [(_ & -> & _)|(m & rest & _ & W' & _)]; [exact W|].
  eapply wk_weaken; [|exact W']. intros e [H _]. exact H.
Qed.

Lemma calm_call codes c s : calm s -> calm (fst (do_call codes c s)).
Proof. apply wk_below, below_do_call. Qed.

Lemma calm_exec_top {A} codes (f : frag A) s : calm s -> calm (fst (exec_top codes f s)).
Proof. apply wk_below, below_run_frag. Qed.

Lemma calm_step fuel codes s : calm s -> calm (fst (step fuel codes s)).
Proof. apply wk_step. Qed.

(* the number of entries a loop of at most n turns pops: it ends with the first step that does not answer ROk; a step
   that finds the agenda empty changes nothing *)
Fixpoint loop_steps (n fuel : nat) (codes : list prog) (s : state) : nat :=
  match n with
  | O => O
  | S m => let '(s1, r) := step fuel codes s in
           match r with ROk => S (loop_steps m fuel codes s1) | REmpty => 0%nat | _ => 1%nat end
  end.

Lemma run_loop_steps fuel codes u : forall n s, fst (run_loop n fuel codes u s) = free_run (loop_steps n fuel codes s) fuel codes s.
Proof.
  induction n as [|n IH]; intros s; cbn [run_loop loop_steps]; [reflexivity|].
  destruct (step fuel codes s) as [s1 r] eqn:St.
  assert (E : forall k, free_run (S k) fuel codes s = free_run k fuel codes s1) by (intros k; now rewrite free_run_S, St).
  destruct r; rewrite ?E; [apply IH|now destruct (Order.step_empty _ _ _ _ St) as [-> _]|reflexivity..].
Qed.

Lemma nsteps_steps fuel codes : forall n s, fst (nsteps n fuel codes s) = free_run (loop_steps n fuel codes s) fuel codes s.
Proof.
  induction n as [|n IH]; intros s; [reflexivity|]. unfold nsteps in *. cbn [nsteps_sel loop_steps]. change (step_sel true) with step.
  destruct (step fuel codes s) as [s1 r] eqn:St.
  assert (E : forall k, free_run (S k) fuel codes s = free_run k fuel codes s1) by (intros k; now rewrite free_run_S, St).
  destruct r; rewrite ?E; [apply IH|now destruct (Order.step_empty _ _ _ _ St) as [-> _]|reflexivity..].
Qed.

Lemma wk_run_loop P x fuel codes u n s : wk P x s -> wk P x (fst (run_loop n fuel codes u s)).
Proof. rewrite run_loop_steps. apply free_run_inv. intros s0. apply wk_step. Qed.

(* run() without until: calm before, calm after, whatever it answers *)
Lemma calm_run_none fuel codes s : calm s -> calm (fst (run fuel codes UNone s)).
Proof. intros C. unfold run. cbn [run_prelude]. apply wk_run_loop, C. Qed.
