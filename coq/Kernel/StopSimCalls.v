(* Kernel/StopSimCalls.v -- C03: every function of Kernel/Model.v below step() keeps the simulation relation of
   StopSim.v: the API calls and conditions (process bodies, callbacks and step(): Kernel/StopSimStep.v).

     simn_<function>      the function applied to a and, with renamed arguments, to b gives related states and related answers *)
From Coq Require Import ZArith QArith List Bool Lia.
From ONL Require Import Kernel.Model Kernel.Keys Kernel.Prims Kernel.Deliver Kernel.StopFrame Kernel.StopRen Kernel.StopSim.
Import ListNotations.
Local Open Scope nat_scope.

(* ---- renaming commutes with the operations on event records ---- *)

Lemma cb_eqb_ren f x y : smono f -> cb_eqb (ren_cb f x) (ren_cb f y) = cb_eqb x y.
Proof. intros M. destruct x, y; cbn; try reflexivity; apply eqb_smono, M. Qed.

Lemma mem_cb_ren f c l : smono f -> mem_cb (ren_cb f c) (map (ren_cb f) l) = mem_cb c l.
Proof.
  intros M. unfold mem_cb. induction l as [|x t IH]; cbn [map existsb]; [reflexivity|]. now rewrite (cb_eqb_ren _ _ _ M), IH.
Qed.

Lemma remove_first_ren f c l : smono f -> remove_first (ren_cb f c) (map (ren_cb f) l) = map (ren_cb f) (remove_first c l).
Proof.
  intros M. induction l as [|x t IH]; cbn [map remove_first]; [reflexivity|]. rewrite (cb_eqb_ren _ _ _ M).
  destruct (cb_eqb x c); [reflexivity|]. cbn [map]. now rewrite IH.
Qed.

Lemma forallb_remove_first n c l : forallb (cbdom n) l = true -> forallb (cbdom n) (remove_first c l) = true.
Proof.
  induction l as [|x t IH]; cbn [forallb remove_first]; [auto|]. rewrite andb_true_iff. intros [A B].
  destruct (cb_eqb x c); [exact B|]. cbn [forallb]. now rewrite A, IH.
Qed.

Lemma exn_val_ren f x : exn_val (ren_exn f x) = ren_val f (exn_val x).
Proof. destruct x as [c l]. reflexivity. Qed.

Lemma raw_value_ren f ev : raw_value (ren_ev f ev) = option_map (ren_val f) (raw_value ev).
Proof. unfold raw_value. cbn [ren_ev out]. destruct (out ev) as [[v|[c l]]|]; reflexivity. Qed.

Lemma evdom_parts n ev :
  evdom n ev = true <->
  (forall l, cbs ev = Some l -> forallb (cbdom n) l = true) /\ (forall o, out ev = Some o -> odom n o = true) /\ kdom n (kind ev) = true.
Proof.
  unfold evdom. rewrite !andb_true_iff. split.
  - intros [[A B] C]. split; [intros l E; now rewrite E in A|]. split; [intros o E; now rewrite E in B|exact C].
  - intros (A & B & C). split; [split|exact C].
    + destruct (cbs ev) as [l|]; [apply A; reflexivity|reflexivity].
    + destruct (out ev) as [o|]; [apply B; reflexivity|reflexivity].
Qed.

(* the record updates *)
Lemma upd_set_out f n o ev :
  odom n o = true -> evdom n ev = true ->
  evdom n (ev_set_out (Some o) ev) = true /\ ren_ev f (ev_set_out (Some o) ev) = ev_set_out (Some (ren_outcome f o)) (ren_ev f ev).
Proof.
  intros O D. split; [|reflexivity]. apply evdom_parts in D. destruct D as (A & B & C). apply evdom_parts. cbn.
  split; [exact A|]. split; [intros o' E; injection E as <-; exact O|exact C].
Qed.

Lemma upd_set_defused f n ev :
  evdom n ev = true -> evdom n (ev_set_defused ev) = true /\ ren_ev f (ev_set_defused ev) = ev_set_defused (ren_ev f ev).
Proof. intros D. split; [exact D|reflexivity]. Qed.

Lemma upd_set_kind f n k ev :
  kdom n k = true -> evdom n ev = true ->
  evdom n (ev_set_kind k ev) = true /\ ren_ev f (ev_set_kind k ev) = ev_set_kind (ren_kind f k) (ren_ev f ev).
Proof.
  intros K D. split; [|reflexivity]. apply evdom_parts in D. destruct D as (A & B & C). apply evdom_parts. cbn. auto.
Qed.

Lemma upd_set_cbs f n l ev :
  (forall l0, l = Some l0 -> forallb (cbdom n) l0 = true) -> evdom n ev = true ->
  evdom n (ev_set_cbs l ev) = true /\ ren_ev f (ev_set_cbs l ev) = ev_set_cbs (option_map (map (ren_cb f)) l) (ren_ev f ev).
Proof.
  intros L D. split; [|reflexivity]. apply evdom_parts in D. destruct D as (A & B & C). apply evdom_parts. cbn. auto.
Qed.

Lemma upd_add_cb f n c ev :
  cbdom n c = true -> evdom n ev = true ->
  evdom n (ev_add_cb c ev) = true /\ ren_ev f (ev_add_cb c ev) = ev_add_cb (ren_cb f c) (ren_ev f ev).
Proof.
  intros Cd D. unfold ev_add_cb. cbn [ren_ev cbs]. destruct (cbs ev) as [l|] eqn:E; cbn [option_map].
  - split.
    + apply evdom_parts in D. destruct D as (A & B & C). apply evdom_parts. cbn. split; [|auto].
      intros l0 X; injection X as <-. rewrite forallb_app. cbn. rewrite (A _ E), Cd. reflexivity.
    + unfold ren_ev, ev_set_cbs. cbn. rewrite map_app. reflexivity.
  - split; [exact D|reflexivity].
Qed.

Lemma simn_get f g a b i : simn f g a b -> get_event (f i) b = option_map (ren_ev f) (get_event i a).
Proof. intros [S _]. apply (sim_get f g a b S). Qed.

Lemma simn_evdom f g a b i ev : simn f g a b -> get_event i a = Some ev -> evdom (length (events a)) ev = true.
Proof. intros [S _]. apply (sim_evdom f g a b S). Qed.

Lemma simn_smono f g a b : simn f g a b -> smono f.
Proof. intros [S _]. apply (sm_f _ _ _ _ S). Qed.

Lemma simn_add_callback f g a b e c :
  simn f g a b -> cbdom (length (events a)) c = true -> simn f g (add_callback e c a) (add_callback (f e) (ren_cb f c) b).
Proof. intros S Cd. unfold add_callback. apply simn_upd_event; [exact S|]. intros ev _ D. apply upd_add_cb; assumption. Qed.

Lemma simn_trigger f g a b e o :
  simn f g a b -> e < length (events a) -> odom (length (events a)) o = true ->
  simn f g (trigger_event e o a) (trigger_event (f e) (ren_outcome f o) b).
Proof.
  intros S L O. unfold trigger_event.
  assert (S1 : simn f g (upd_event e (ev_set_out (Some o)) a) (upd_event (f e) (ev_set_out (Some (ren_outcome f o))) b)).
  { apply simn_upd_event; [exact S|]. intros ev _ D. apply upd_set_out; assumption. }
  apply simn_schedule; [exact S1|]. cbn. rewrite upd_nth_length. exact L.
Qed.

(* ---- the number of events ---- *)
Lemma len_trigger e o s : length (events (trigger_event e o s)) = length (events s).
Proof. unfold trigger_event. cbn. apply upd_nth_length. Qed.
Lemma len_add_callback e c s : length (events (add_callback e c s)) = length (events s).
Proof. apply upd_event_length. Qed.

(* ---- conditions ---- *)

Lemma cond_check_len c op s : length (events (cond_check c op s)) = length (events s).
Proof.
  unfold cond_check. destruct (get_event c s) as [cev|]; [|reflexivity]. destruct (get_event op s) as [oev|]; [|reflexivity].
  destruct (out cev); [reflexivity|]. destruct (kind cev); try reflexivity.
  destruct (out oev) as [[v|x]|]; try destruct (cond_evaluate all (length ops) (Datatypes.S count));
    rewrite ?len_trigger, ?upd_event_length; reflexivity.
Qed.

Lemma simn_cond_check f g a b c op :
  simn f g a b -> c < length (events a) -> simn f g (cond_check c op a) (cond_check (f c) (f op) b).
Proof.
  intros S Lc. unfold cond_check. rewrite !(simn_get _ _ _ _ _ S).
  destruct (get_event c a) as [cev|] eqn:Hc; cbn [option_map]; [|exact S].
  destruct (get_event op a) as [oev|] eqn:Ho; cbn [option_map]; [|exact S].
  cbn [ren_ev out kind]. destruct (out cev); cbn [option_map]; [exact S|].
  pose proof (simn_evdom _ _ _ _ _ _ S Hc) as Dc. pose proof (simn_evdom _ _ _ _ _ _ S Ho) as Do.
  destruct (kind cev) as [| | | | |all ops count|] eqn:Kc; cbn [ren_kind]; try exact S.
  assert (Kd : kdom (length (events a)) (KCond all ops (Datatypes.S count)) = true).
  { apply evdom_parts in Dc. destruct Dc as (_ & _ & K). rewrite Kc in K. exact K. }
  assert (S1 : simn f g (upd_event c (ev_set_kind (KCond all ops (Datatypes.S count))) a)
                        (upd_event (f c) (ev_set_kind (KCond all (map f ops) (Datatypes.S count))) b)).
  { apply simn_upd_event; [exact S|]. intros ev _ D. apply (upd_set_kind f _ (KCond all ops (Datatypes.S count))); assumption. }
  rewrite map_length. unfold evid in *.
  destruct (out oev) as [[v|x]|] eqn:Oo; cbn [option_map ren_outcome].
  - destruct (cond_evaluate all (length ops) (Datatypes.S count)); [|exact S1].
    apply (simn_trigger f g _ _ c (Ok VNone)); [exact S1|rewrite upd_event_length; exact Lc|reflexivity].
  - assert (S2 : simn f g (upd_event op ev_set_defused (upd_event c (ev_set_kind (KCond all ops (Datatypes.S count))) a))
                          (upd_event (f op) ev_set_defused (upd_event (f c) (ev_set_kind (KCond all (map f ops) (Datatypes.S count))) b))).
    { apply simn_upd_event; [exact S1|]. intros ev _ D. apply upd_set_defused, D. }
    apply (simn_trigger f g _ _ c (Fail x)); [exact S2|rewrite !upd_event_length; exact Lc|].
    rewrite !upd_event_length. apply evdom_parts in Do. destruct Do as (_ & B & _). exact (B _ Oo).
  - destruct (cond_evaluate all (length ops) (Datatypes.S count)); [|exact S1].
    apply (simn_trigger f g _ _ c (Ok VNone)); [exact S1|rewrite upd_event_length; exact Lc|reflexivity].
Qed.

Lemma simn_remove_check_from f g a b c o :
  simn f g a b -> simn f g (remove_check_from c o a) (remove_check_from (f c) (f o) b).
Proof.
  intros S. unfold remove_check_from. rewrite (simn_get _ _ _ _ _ S).
  destruct (get_event o a) as [oev|] eqn:Ho; cbn [option_map]; [|exact S].
  cbn [ren_ev cbs]. destruct (cbs oev) as [l|] eqn:C; cbn [option_map]; [|exact S].
  change (CbCheck (f c)) with (ren_cb f (CbCheck c)). rewrite (mem_cb_ren _ _ _ (simn_smono _ _ _ _ S)).
  destruct (mem_cb (CbCheck c) l); [|exact S]. rewrite (remove_first_ren _ _ _ (simn_smono _ _ _ _ S)).
  apply simn_upd_event; [exact S|]. intros ev H D. rewrite Ho in H. injection H as <-.
  apply (upd_set_cbs f _ (Some (remove_first (CbCheck c) l))); [|exact D].
  intros l0 E; injection E as <-. apply forallb_remove_first. apply evdom_parts in D. apply D, C.
Qed.

Lemma remove_check_from_len c o s : length (events (remove_check_from c o s)) = length (events s).
Proof.
  unfold remove_check_from. destruct (get_event o s) as [oev|]; [|reflexivity]. destruct (cbs oev) as [l|]; [|reflexivity].
  destruct (mem_cb (CbCheck c) l); [apply upd_event_length|reflexivity].
Qed.

Definition rc_ok f g (rec rec' : evid -> state -> option state) : Prop :=
  forall o a b a1, simn f g a b -> rec o a = Some a1 ->
    exists b1, rec' (f o) b = Some b1 /\ simn f g a1 b1 /\ length (events a1) = length (events a).

Lemma simn_remove_ops f g rec rec' c : rc_ok f g rec rec' ->
  forall l a b a1, simn f g a b -> remove_ops rec c l a = Some a1 ->
    exists b1, remove_ops rec' (f c) (map f l) b = Some b1 /\ simn f g a1 b1 /\ length (events a1) = length (events a).
Proof.
  intros Hrec. induction l as [|o t IH]; intros a b a1 S; cbn [remove_ops map].
  - intros H; injection H as <-. exists b. auto.
  - rewrite (simn_get _ _ _ _ _ S). destruct (get_event o a) as [oev|]; cbn [option_map]; [|discriminate].
    change (is_cond (ren_ev f oev)) with (match ren_kind f (kind oev) with KCond _ _ _ => true | _ => false end).
    assert (Ec : match ren_kind f (kind oev) with KCond _ _ _ => true | _ => false end = is_cond oev)
      by (unfold is_cond; destruct (kind oev); reflexivity).
    rewrite Ec. pose proof (simn_remove_check_from f g a b c o S) as S1. pose proof (remove_check_from_len c o a) as L1.
    destruct (is_cond oev).
    + destruct (rec o (remove_check_from c o a)) as [a2|] eqn:R; [|discriminate]. intros H.
      destruct (Hrec _ _ _ _ S1 R) as (b2 & R' & S2 & L2). rewrite R'.
      destruct (IH _ _ _ S2 H) as (b1 & H' & S3 & L3). exists b1. split; [exact H'|]. split; [exact S3|congruence].
    + intros H. destruct (IH _ _ _ S1 H) as (b1 & H' & S3 & L3). exists b1. split; [exact H'|]. split; [exact S3|congruence].
Qed.

Lemma simn_remove_checks f g : forall fu fu', fu <= fu' -> rc_ok f g (remove_checks fu) (remove_checks fu').
Proof.
  induction fu as [|k IH]; intros fu' L c a b a1 S; cbn [remove_checks]; [discriminate|].
  destruct fu' as [|k']; [lia|]. cbn [remove_checks]. rewrite (simn_get _ _ _ _ _ S).
  destruct (get_event c a) as [cev|]; cbn [option_map]; [|discriminate].
  cbn [ren_ev kind]. destruct (kind cev); cbn [ren_kind]; try (intros H; injection H as <-; exists b; auto).
  apply simn_remove_ops; [apply IH; lia|exact S].
Qed.

Lemma raw_value_dom n ev v : evdom n ev = true -> raw_value ev = Some v -> vdom n v = true.
Proof.
  intros D R. apply evdom_parts in D. destruct D as (_ & B & _). unfold raw_value in R.
  destruct (out ev) as [[w|[c l]]|]; try discriminate; injection R as <-; exact (B _ eq_refl).
Qed.

(* Condition._populate_value *)
Definition pop_ok f n (rec rec' : list evid -> option (list (evid * val))) : Prop :=
  forall l items, rec l = Some items -> rec' (map f l) = Some (ren_items f items) /\ idom n items = true.

Lemma idom_app n l1 l2 : idom n (l1 ++ l2) = idom n l1 && idom n l2.
Proof. unfold idom. apply forallb_app. Qed.

Lemma sim_populate_ops f g a b rec rec' :
  sim f g a b -> pop_ok f (length (events a)) rec rec' ->
  pop_ok f (length (events a)) (populate_ops rec (events a)) (populate_ops rec' (events b)).
Proof.
  intros S Hrec l. unfold pop_ok, evid in *. induction l as [|o t IH]; intros items; cbn [populate_ops map].
  - intros H; injection H as <-. split; reflexivity.
  - pose proof (sim_get f g a b S o) as G. unfold get_event in G. rewrite G.
    destruct (nth_error (events a) o) as [oev|] eqn:Ho; cbn [option_map]; [|discriminate].
    pose proof (sim_evdom f g a b S o oev Ho) as D.
    cbn [ren_ev kind cbs]. destruct (kind oev) as [| | | | |all ops' count|] eqn:K; cbn [ren_kind].
    6:{ destruct (rec ops') as [inner|] eqn:R; [|discriminate]. destruct (populate_ops rec (events a) t) as [rest|] eqn:Rt; [|discriminate].
        intros H; injection H as <-. destruct (Hrec _ _ R) as [R' D1]. destruct (IH _ eq_refl) as [Rt' D2]. rewrite R', Rt'.
        split; [unfold ren_items; now rewrite map_app|rewrite idom_app, D1, D2; reflexivity]. }
    all: destruct (cbs oev) as [l0|]; cbn [option_map]; [apply IH|]; rewrite raw_value_ren;
      destruct (raw_value oev) as [v|] eqn:Rv; cbn [option_map]; [|discriminate];
      destruct (populate_ops rec (events a) t) as [rest|] eqn:Rt; [|discriminate];
      intros H; injection H as <-; destruct (IH _ eq_refl) as [Rt' D2]; rewrite Rt';
      (split; [reflexivity|]); unfold idom; cbn [forallb fst snd]; fold (idom (length (events a)) rest); rewrite D2;
      assert (Lo : o < length (events a)) by (apply nth_error_Some; congruence); apply Nat.ltb_lt in Lo; rewrite Lo;
      rewrite (raw_value_dom _ _ _ D Rv); reflexivity.
Qed.

Lemma sim_populate f g a b : sim f g a b ->
  forall fu fu', fu <= fu' -> pop_ok f (length (events a)) (populate fu (events a)) (populate fu' (events b)).
Proof.
  intros S. induction fu as [|k IH]; intros fu' L l items; cbn [populate]; [discriminate|].
  destruct fu' as [|k']; [lia|]. cbn [populate]. apply (sim_populate_ops f g a b _ _ S). apply IH. lia.
Qed.

Definition ren_result (f : nat -> nat) (r : result) : result :=
  match r with RStop v => RStop (ren_val f v) | RRaise x => RRaise (ren_exn f x) | _ => r end.
Definition rdom (n : nat) (r : result) : bool :=
  match r with RStop v => vdom n v | RRaise x => xdom n x | _ => true end.

(* what a callback / a step on both sides gives, unless a's answer is the explicit internal-error answer *)
Definition res_sim f g (ra rb : state * result) : Prop :=
  snd ra <> RBroken ->
  simn f g (fst ra) (fst rb) /\ snd rb = ren_result f (snd ra) /\ rdom (length (events (fst ra))) (snd ra) = true.

Lemma remove_checks_len fu : forall c s s1, remove_checks fu c s = Some s1 -> length (events s1) = length (events s).
Proof.
  induction fu as [|k IH]; intros c s s1; cbn [remove_checks]; [discriminate|].
  destruct (get_event c s) as [cev|]; [|discriminate]. destruct (kind cev); try (intros H; injection H as <-; reflexivity).
  revert s s1. induction ops as [|o t IHo]; intros s s1; cbn [remove_ops]; [intros H; injection H as <-; reflexivity|].
  destruct (get_event o s) as [oev|]; [|discriminate]. destruct (is_cond oev).
  - destruct (remove_checks k o (remove_check_from c o s)) as [s2|] eqn:R; [|discriminate]. intros H.
    rewrite (IHo _ _ H), (IH _ _ _ R). apply remove_check_from_len.
  - intros H. rewrite (IHo _ _ H). apply remove_check_from_len.
Qed.

Lemma simn_cond_build f g a b c :
  simn f g a b -> c < length (events a) -> res_sim f g (cond_build c a) (cond_build (f c) b).
Proof.
  intros S Lc. unfold cond_build, evid in *.
  destruct (remove_checks (Datatypes.S c) c a) as [a1|] eqn:R; [|intros X; destruct (X eq_refl)].
  assert (Lf : Datatypes.S c <= Datatypes.S (f c)) by (pose proof (smono_le f (simn_smono _ _ _ _ S) c); lia).
  destruct (simn_remove_checks f g _ _ Lf c a b a1 S R) as (b1 & R' & S1 & L1). rewrite R'.
  rewrite (simn_get _ _ _ _ _ S1). destruct (get_event c a1) as [cev|] eqn:Hc; cbn [option_map]; [|intros X; destruct (X eq_refl)].
  cbn [ren_ev out kind]. destruct (out cev) as [[v|x]|] eqn:Oc; cbn [option_map ren_outcome].
  - destruct (kind cev) as [| | | | |all ops count|]; cbn [ren_kind]; try (intros X; destruct (X eq_refl)).
    destruct (populate (Datatypes.S c) (events a1) ops) as [items|] eqn:P; [|intros X; destruct (X eq_refl)].
    destruct (sim_populate f g a1 b1 (proj1 S1) _ _ Lf _ _ P) as [P' Di]. unfold evid in *. rewrite P'. intros _. cbn [fst snd].
    split; [|split; reflexivity].
    rewrite <- ren_val_cond. change (Some (Ok (ren_val f (VCond items)))) with (Some (ren_outcome f (Ok (VCond items)))).
    apply simn_upd_event; [exact S1|]. intros ev _ D. apply (upd_set_out f _ (Ok (VCond items))); [|exact D].
    cbn [odom]. rewrite vdom_cond. exact Di.
  - intros _. cbn [fst snd]. split; [exact S1|split; reflexivity].
  - intros X; destruct (X eq_refl).
Qed.

(* ---- the API calls ---- *)

Lemma simn_alloc f g a b ev : simn f g a b -> evdom (S (length (events a))) ev = true ->
  simn f g (set_events (events a ++ [ev]) a) (set_events (events b ++ [ren_ev f ev]) b) /\
  length (events b) = f (length (events a)) /\ length (events a) < length (events (set_events (events a ++ [ev]) a)).
Proof.
  intros Sm D. split; [exact (simn_new_event f g a b ev Sm D)|]. split; [|cbn; rewrite app_length; cbn; lia].
  pose proof (sm_ffut _ _ _ _ (proj1 Sm) 0) as F. now rewrite !Nat.add_0_r in F.
Qed.

Definition call_sim f g (ra rb : state * outcome) : Prop :=
  simn f g (fst ra) (fst rb) /\ snd rb = ren_outcome f (snd ra) /\ odom (length (events (fst ra))) (snd ra) = true.

Lemma call_sim_same f g a b o : simn f g a b -> odom (length (events a)) o = true -> call_sim f g (a, o) (b, ren_outcome f o).
Proof. intros S D. split; [exact S|]. split; [reflexivity|exact D]. Qed.

Lemma call_sim_fail f g a b c m : simn f g a b -> call_sim f g (a, Fail (kexn c m)) (b, Fail (kexn c m)).
Proof. intros S. apply (call_sim_same f g a b (Fail (kexn c m)) S). reflexivity. Qed.

Lemma ltb_S n : Nat.ltb n (Datatypes.S n) = true.
Proof. apply Nat.ltb_lt. lia. Qed.

Lemma simn_call_timeout f g a b d v :
  simn f g a b -> vdom (length (events a)) v = true -> call_sim f g (call_timeout d v a) (call_timeout d (ren_val f v) b).
Proof.
  intros S D. unfold call_timeout. destruct (neg_delay d); [apply call_sim_fail, S|].
  cbn [new_event]. destruct (simn_alloc f g a b (mkEvent (Some []) (Some (Ok v)) false KTimeout) S) as (S1 & -> & L).
  { unfold evdom. cbn. rewrite andb_true_r. eapply vdom_mono; [|exact D]. lia. }
  split; [apply simn_schedule; [exact S1|exact L]|]. split; [reflexivity|apply Nat.ltb_lt, L].
Qed.

Lemma simn_call_event f g a b : simn f g a b -> call_sim f g (call_event a) (call_event b).
Proof.
  intros S. unfold call_event. cbn [new_event].
  destruct (simn_alloc f g a b (mkEvent (Some []) None false KPlain) S eq_refl) as (S1 & -> & L).
  split; [exact S1|]. split; [reflexivity|apply Nat.ltb_lt, L].
Qed.

Lemma ltb_true_lt i n : Nat.ltb i n = true -> i < n. Proof. apply Nat.ltb_lt. Qed.

Lemma simn_call_succeed f g a b e v :
  simn f g a b -> Nat.ltb e (length (events a)) && vdom (length (events a)) v = true ->
  call_sim f g (call_succeed e v a) (call_succeed (f e) (ren_val f v) b).
Proof.
  intros S D. apply andb_true_iff in D. destruct D as [Le Dv]. apply ltb_true_lt in Le.
  unfold call_succeed. rewrite (simn_get _ _ _ _ _ S). destruct (get_event e a) as [ev|]; cbn [option_map].
  2:{ apply call_sim_fail, S. }
  change (is_triggered (ren_ev f ev)) with (match option_map (ren_outcome f) (out ev) with Some _ => true | None => false end).
  unfold is_triggered. destruct (out ev); cbn [option_map].
  - apply call_sim_fail, S.
  - split; [apply (simn_trigger f g a b e (Ok v)); assumption|]. split; [reflexivity|].
    cbn [fst snd odom vdom]. rewrite len_trigger. apply Nat.ltb_lt, Le.
Qed.

Lemma simn_call_fail f g a b e x :
  simn f g a b -> Nat.ltb e (length (events a)) && vdom (length (events a)) x = true ->
  call_sim f g (call_fail e x a) (call_fail (f e) (ren_val f x) b).
Proof.
  intros S D. apply andb_true_iff in D. destruct D as [Le Dv]. apply ltb_true_lt in Le.
  unfold call_fail. rewrite (simn_get _ _ _ _ _ S). destruct (get_event e a) as [ev|]; cbn [option_map].
  2:{ apply call_sim_fail, S. }
  change (is_triggered (ren_ev f ev)) with (match option_map (ren_outcome f) (out ev) with Some _ => true | None => false end).
  unfold is_triggered. destruct (out ev); cbn [option_map].
  - apply call_sim_fail, S.
  - destruct x; try (apply call_sim_fail, S).
    rewrite ren_val_exn. split; [apply (simn_trigger f g a b e (Fail (c, args))); [exact S|exact Le|]|].
    + cbn [odom]. unfold xdom. cbn [snd]. rewrite vdom_exn in Dv. exact Dv.
    + split; [reflexivity|]. cbn [fst snd odom vdom]. rewrite len_trigger. apply Nat.ltb_lt, Le.
Qed.

Lemma len_new_event ev s : length (events (snd (new_event ev s))) = Datatypes.S (length (events s)).
Proof. cbn. rewrite app_length. cbn. lia. Qed.

Lemma fst_new_event ev s : fst (new_event ev s) = length (events s).
Proof. reflexivity. Qed.

Lemma simn_procs_len f g a b : simn f g a b -> length (procs b) = length (procs a).
Proof. intros [S _]. apply (sm_procs _ _ _ _ S). Qed.

Lemma simn_active f g a b : simn f g a b -> active b = active a.
Proof. intros [S _]. apply (sm_active _ _ _ _ S). Qed.

Lemma simn_call_spawn codes f g a b code arg :
  parametric_codes codes -> simn f g a b -> vdom (length (events a)) arg = true ->
  call_sim f g (call_spawn codes code arg a) (call_spawn codes code (ren_val f arg) b).
Proof.
  intros PC Sm D. unfold call_spawn. destruct (nth_error codes code) as [pr|] eqn:Hc.
  2:{ apply call_sim_fail, Sm. }
  rewrite (simn_procs_len _ _ _ _ Sm). set (p := length (procs a)). cbn [new_event].
  set (EV1 := mkEvent (Some []) None false (KProcess p)). set (EV2 := mkEvent (Some [CbResume p]) (Some (Ok VNone)) false (KInit p)).
  destruct (simn_alloc f g a b EV1 Sm eq_refl) as (S1 & F0 & L1). destruct (simn_alloc f g _ _ EV2 S1 eq_refl) as (S2 & F1 & L2).
  change (ren_ev f EV1) with EV1 in *. change (ren_ev f EV2) with EV2 in *. rewrite F0, F1.
  set (a1 := set_events _ a) in *. set (a2 := set_events _ a1) in *.
  pose proof (simn_schedule f g _ _ (length (events a1)) URGENT 0 S2 L2) as [S3 N3].
  split; [|split; [reflexivity|apply Nat.ltb_lt; change (length (events a) < length (events a2)); lia]].
  split; [|exact N3]. apply (sim_add_proc f g _ _ _ _ S3).
  eexists pr, _, _, _, (Some _). split; [reflexivity|]. split; [reflexivity|]. cbn [schedule events].
  split; [lia|]. split; [intros t E; injection E as <-; change (length (events a1) < length (events a2)); lia|].
  apply PC; [eapply nth_error_In, Hc|apply smono_inj, (simn_smono _ _ _ _ Sm)|]. eapply vdom_mono; [|exact D]. lia.
Qed.

Lemma simn_call_interrupt f g a b e cause :
  simn f g a b -> Nat.ltb e (length (events a)) && vdom (length (events a)) cause = true ->
  call_sim f g (call_interrupt e cause a) (call_interrupt (f e) (ren_val f cause) b).
Proof.
  intros Sm D. apply andb_true_iff in D. destruct D as [Le Dv]. apply ltb_true_lt in Le.
  unfold call_interrupt. rewrite (simn_get _ _ _ _ _ Sm). destruct (get_event e a) as [ev|]; cbn [option_map].
  2:{ apply call_sim_fail, Sm. }
  cbn [ren_ev kind]. destruct (kind ev); cbn [ren_kind];
    try (apply call_sim_fail, Sm).
  unfold is_triggered. cbn [ren_ev out]. destruct (out ev); cbn [option_map].
  { apply call_sim_fail, Sm. }
  rewrite (simn_active _ _ _ _ Sm).
  destruct (match active a with Some a0 => Nat.eqb a0 p | None => false end).
  { apply call_sim_fail, Sm. }
  cbn [new_event].
  set (EV := mkEvent (Some [CbInterrupt (length (events a))]) (Some (Fail (EInterrupt, [cause]))) true (KInterruption p)).
  destruct (simn_alloc f g a b EV Sm) as (S1 & F0 & L).
  { unfold evdom, EV. cbn [cbs out kind forallb cbdom odom kdom]. unfold xdom. cbn [snd vsdom forallb]. rewrite ltb_S.
    rewrite (vdom_mono _ (S (length (events a))) _ (Nat.le_succ_diag_r _) Dv). reflexivity. }
  rewrite F0. split; [apply simn_schedule; [exact S1|exact L]|]. split; reflexivity.
Qed.

Lemma cond_subscribe_len c ops : forall s, length (events (cond_subscribe c ops s)) = length (events s).
Proof.
  induction ops as [|o t IH]; intros s; cbn [cond_subscribe]; [reflexivity|]. rewrite IH.
  destruct (get_event o s) as [oev|]; [|reflexivity]. destruct (is_processed oev); [apply cond_check_len|apply len_add_callback].
Qed.

Lemma simn_cond_subscribe f g c ops : forall a b,
  simn f g a b -> c < length (events a) -> simn f g (cond_subscribe c ops a) (cond_subscribe (f c) (map f ops) b).
Proof.
  induction ops as [|o t IH]; intros a b S Lc; cbn [cond_subscribe map]; [exact S|].
  rewrite (simn_get _ _ _ _ _ S). destruct (get_event o a) as [oev|]; cbn [option_map]; [|apply IH; assumption].
  unfold is_processed. cbn [ren_ev cbs]. destruct (cbs oev); cbn [option_map].
  - apply IH; [|rewrite len_add_callback; exact Lc].
    apply (simn_add_callback f g a b o (CbCheck c)); [exact S|]. cbn [cbdom]. apply Nat.ltb_lt, Lc.
  - apply IH; [apply simn_cond_check; assumption|rewrite cond_check_len; exact Lc].
Qed.

Lemma all_valid_ren f g a b es : simn f g a b -> all_valid (map f es) b = all_valid es a.
Proof.
  intros S. unfold all_valid. induction es as [|e t IH]; cbn [map forallb]; [reflexivity|].
  rewrite IH, (simn_get _ _ _ _ _ S). destruct (get_event e a); reflexivity.
Qed.

Lemma simn_call_cond f g a b all es :
  simn f g a b -> esdom (length (events a)) es = true -> call_sim f g (call_cond all es a) (call_cond all (map f es) b).
Proof.
  intros Sm D. unfold call_cond. rewrite (all_valid_ren _ _ _ _ _ Sm). destruct (negb (all_valid es a)).
  { apply call_sim_fail, Sm. }
  cbn [new_event]. set (EV := mkEvent (Some []) None false (KCond all es 0)).
  destruct (simn_alloc f g a b EV Sm) as (S1 & -> & L); [apply (esdom_mono _ _ _ (Nat.le_succ_diag_r _) D)|].
  pose proof (proj2 (Nat.ltb_lt _ _) L) as Lt. set (c := length (events a)) in *.
  destruct es as [|e0 es']; cbn [map]; (split; [|split; [reflexivity|]]).
  - apply (simn_trigger f g _ _ c (Ok (VCond []))); [exact S1|exact L|reflexivity].
  - cbn [fst snd odom vdom]. rewrite len_trigger. exact Lt.
  - apply (simn_add_callback f g _ _ c (CbBuild c)); [apply (simn_cond_subscribe f g c (e0 :: es')); [exact S1|exact L]|].
    cbn [cbdom]. rewrite cond_subscribe_len. exact Lt.
  - cbn [fst snd odom vdom]. rewrite len_add_callback, cond_subscribe_len. exact Lt.
Qed.

Lemma simn_call_probe f g a b e k :
  simn f g a b -> Nat.ltb e (length (events a)) = true -> call_sim f g (call_probe e k a) (call_probe (f e) k b).
Proof.
  intros S Le. unfold call_probe. rewrite (simn_get _ _ _ _ _ S). destruct (get_event e a) as [ev|]; cbn [option_map].
  2:{ apply call_sim_fail, S. }
  unfold is_processed. cbn [ren_ev cbs]. destruct (cbs ev); cbn [option_map].
  - split; [apply (simn_add_callback f g a b e (CbProbe k)); [exact S|reflexivity]|]. split; reflexivity.
  - apply call_sim_fail, S.
Qed.

Lemma simn_call_query f g a b q e :
  simn f g a b -> call_sim f g (call_query q e a) (call_query q (f e) b).
Proof.
  intros S. unfold call_query. rewrite (simn_get _ _ _ _ _ S). destruct (get_event e a) as [ev|] eqn:H; cbn [option_map].
  2:{ apply call_sim_fail, S. }
  pose proof (simn_evdom _ _ _ _ _ _ S H) as D.
  destruct q.
  - unfold is_triggered. cbn [ren_ev out]. destruct (out ev); cbn [option_map]; (split; [exact S|split; reflexivity]).
  - unfold is_processed. cbn [ren_ev cbs]. destruct (cbs ev); cbn [option_map]; (split; [exact S|split; reflexivity]).
  - cbn [ren_ev out]. destruct (out ev) as [[v|x]|]; cbn [option_map ren_outcome].
    + apply (call_sim_same f g a b (Ok (vbool true))); [exact S|reflexivity].
    + apply (call_sim_same f g a b (Ok (vbool false))); [exact S|reflexivity].
    + apply call_sim_fail, S.
  - rewrite raw_value_ren. destruct (raw_value ev) as [v|] eqn:Rv; cbn [option_map].
    + apply (call_sim_same f g a b (Ok v)); [exact S|]. cbn [odom]. eapply raw_value_dom; eassumption.
    + apply call_sim_fail, S.
  - cbn [ren_ev kind]. destruct (kind ev); cbn [ren_kind];
      try (apply call_sim_fail, S).
    unfold is_triggered. cbn [ren_ev out]. destruct (out ev); cbn [option_map]; (split; [exact S|split; reflexivity]).
  - cbn [ren_ev defused]. apply (call_sim_same f g a b (Ok (vbool (defused ev)))); [exact S|]. destruct (defused ev); reflexivity.
Qed.

Lemma set_nth_val_ren f k v l : set_nth_val k (ren_val f v) (ren_vals f l) = ren_vals f (set_nth_val k v l).
Proof.
  revert l. induction k as [|k IH]; intros [|x t]; cbn; try reflexivity.
  - f_equal. apply (IH []).
  - f_equal. apply IH.
Qed.

Lemma set_nth_val_dom n k v : vdom n v = true -> forall l, vsdom n l = true -> vsdom n (set_nth_val k v l) = true.
Proof.
  intros Dv. induction k as [|k IH]; intros [|x t]; unfold vsdom; cbn [set_nth_val forallb]; intros D.
  - now rewrite Dv.
  - apply andb_true_iff in D. destruct D as [_ D]. now rewrite Dv, D.
  - cbn [vdom]. apply (IH [] eq_refl).
  - apply andb_true_iff in D. destruct D as [D1 D2]. rewrite D1. apply (IH t D2).
Qed.

Lemma nth_ren f k l : nth k (ren_vals f l) VNone = ren_val f (nth k l VNone).
Proof. unfold ren_vals. change VNone with (ren_val f VNone) at 1. apply map_nth. Qed.

Lemma nth_dom n k l : vsdom n l = true -> vdom n (nth k l VNone) = true.
Proof.
  revert k. induction l as [|x t IH]; intros [|k] D; try reflexivity; unfold vsdom in D; cbn [forallb] in D;
    apply andb_true_iff in D; destruct D as [D1 D2]; [exact D1|apply IH, D2].
Qed.

Lemma simn_glob f g a b : simn f g a b -> vsdom (length (events a)) (glob a) = true /\ glob b = ren_vals f (glob a).
Proof. intros [S _]. apply (sm_glob _ _ _ _ S). Qed.

Lemma simn_do_call codes f g a b c :
  parametric_codes codes -> simn f g a b -> cdom (length (events a)) c = true ->
  call_sim f g (do_call codes c a) (do_call codes (ren_call f c) b).
Proof.
  intros PC S D. destruct c; cbn [do_call ren_call cdom] in *.
  - apply simn_call_timeout; assumption.
  - apply simn_call_event; assumption.
  - apply simn_call_succeed; assumption.
  - apply simn_call_fail; assumption.
  - apply simn_call_spawn; assumption.
  - apply simn_call_interrupt; assumption.
  - apply simn_call_cond; assumption.
  - apply simn_call_cond; assumption.
  - apply simn_call_probe; assumption.
  - apply simn_call_query; assumption.
  - rewrite (proj2 S). apply (call_sim_same f g a b (Ok (VNum (now a)))); [exact S|reflexivity].
  - discriminate.
  - rewrite (proj2 S), (simn_active _ _ _ _ S). split; [|split; reflexivity]. cbn [fst].
    apply (simn_add_obs f g a b (OLog (active a) (now a) v) S). exact D.
  - destruct (simn_glob _ _ _ _ S) as [Dg Eg]. rewrite Eg, nth_ren.
    apply (call_sim_same f g a b (Ok (nth g0 (glob a) VNone))); [exact S|]. cbn [odom]. apply nth_dom, Dg.
  - destruct (simn_glob _ _ _ _ S) as [Dg Eg]. rewrite Eg, set_nth_val_ren. split; [|split; reflexivity]. cbn [fst].
    apply simn_set_glob; [exact S|]. apply set_nth_val_dom; assumption.
Qed.
