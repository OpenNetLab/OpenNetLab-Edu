(* Kernel/Deliver.v -- C02, part 1: facts about Kernel/Model.v that hold in EVERY state (no invariant needed).

     trigger_once            succeed/fail on a triggered event: RuntimeError, state unchanged; fail(non-exception): ValueError
     grows s s'              "s' is a later state": every event of s still exists, processed stays processed, triggered stays
                             triggered, defused stays defused, the kind is the same (up to the counter of a condition)
     grows_kprim, grows_kchain   every primitive move of Kernel/Prims.v grows the store, hence so does every function of the model
     later / processed_forever   along every execution cbs e = None is stable; add_callback on a processed event is the identity
     step_loop               step() on an unprocessed event, as one equation
     cb_chain / step_invokes     the step that processes e invokes the callbacks e had at the start of the step, in list order,
                             each once, up to the first callback that lets an exception escape
     resume_loop_eq, resume_proc_feeds     Process._resume: what is fed to the automaton, defusal, inner loop
     proc_finish_spec        the Process event gets the automaton's result and is scheduled NORMAL, delay 0
     step_failure / run_loop_propagates    an undefused failure is returned by step, and by run, at that instant *)
From Coq Require Import ZArith QArith List Bool Lia.
From ONL Require Import Base.Tools Kernel.Model Kernel.Prims.
Import ListNotations.
Local Open Scope nat_scope.

(* ------------------------------------------------------------------------------------------------ *)
(* small list facts *)

(* ------------------------------------------------------------------------------------------------ *)
(* trigger_once: a second succeed / fail raises RuntimeError and changes nothing *)

Lemma succeed_triggered e v s ev :
  get_event e s = Some ev -> out ev <> None ->
  call_succeed e v s = (s, Fail (kexn ERuntime M_already_triggered)).
Proof.
  intros H O. unfold call_succeed. rewrite H. unfold is_triggered. destruct (out ev); [reflexivity|contradiction].
Qed.

Lemma fail_triggered e x s ev :
  get_event e s = Some ev -> out ev <> None ->
  call_fail e x s = (s, Fail (kexn ERuntime M_already_triggered)).
Proof.
  intros H O. unfold call_fail. rewrite H. unfold is_triggered. destruct (out ev); [reflexivity|contradiction].
Qed.

Definition is_exn_val (v : val) : bool := match v with VExn _ _ => true | _ => false end.

Lemma fail_non_exception e x s ev :
  get_event e s = Some ev -> out ev = None -> is_exn_val x = false ->
  call_fail e x s = (s, Fail (kexn EValue M_not_exception)).
Proof.
  intros H O X. unfold call_fail. rewrite H. unfold is_triggered. rewrite O. destruct x; try reflexivity. discriminate.
Qed.

(* the first trigger: the outcome is exactly what was passed, scheduled NORMAL with delay 0, behind everything *)
Lemma trigger_event_spec e o s ev :
  get_event e s = Some ev ->
  let s' := trigger_event e o s in
  get_event e s' = Some (ev_set_out (Some o) ev) /\
  agenda s' = agenda s ++ [mkEntry (Qred (now s + 0)%Q) NORMAL (next_eid s) e] /\
  next_eid s' = S (next_eid s) /\ now s' = now s /\ procs s' = procs s /\
  (forall x, x <> e -> get_event x s' = get_event x s).
Proof.
  intros H. cbn zeta. unfold trigger_event, schedule. cbn.
  split; [|split; [reflexivity|split; [reflexivity|split; [reflexivity|split; [reflexivity|]]]]].
  - change (get_event e (upd_event e (ev_set_out (Some o)) s) = Some (ev_set_out (Some o) ev)).
    apply get_event_upd_same, H.
  - intros x Hx. change (get_event x (upd_event e (ev_set_out (Some o)) s) = get_event x s).
    apply get_event_upd_other, Hx.
Qed.

Lemma succeed_pending e v s ev :
  get_event e s = Some ev -> out ev = None ->
  call_succeed e v s = (trigger_event e (Ok v) s, Ok (VEv e)).
Proof. intros H O. unfold call_succeed. rewrite H. unfold is_triggered. now rewrite O. Qed.

Lemma fail_pending e c args s ev :
  get_event e s = Some ev -> out ev = None ->
  call_fail e (VExn c args) s = (trigger_event e (Fail (c, args)) s, Ok (VEv e)).
Proof. intros H O. unfold call_fail. rewrite H. unfold is_triggered. now rewrite O. Qed.

(* ------------------------------------------------------------------------------------------------ *)
(* grows: the order "later state" on event stores *)

Definition ksame (k k' : ekind) : Prop :=
  match k, k' with
  | KCond a o _, KCond a' o' _ => a = a' /\ o = o'
  | KCond _ _ _, _ => False
  | _, _ => k = k'
  end.

Lemma ksame_refl k : ksame k k.
Proof. destruct k; cbn; auto. Qed.

Lemma ksame_trans k1 k2 k3 : ksame k1 k2 -> ksame k2 k3 -> ksame k1 k3.
Proof.
  destruct k1; cbn; intros H; try (subst k2; exact (fun x => x)).
  destruct k2; try contradiction. destruct H as [-> ->]. exact (fun x => x).
Qed.

Record ev_le (ev ev' : event) : Prop := mkEvLe {
  le_cbs : cbs ev = None -> cbs ev' = None;
  le_out : out ev <> None -> out ev' <> None;
  le_def : defused ev = true -> defused ev' = true;
  le_kind : ksame (kind ev) (kind ev') }.

Lemma ev_le_refl ev : ev_le ev ev.
Proof. constructor; auto. apply ksame_refl. Qed.

Lemma ev_le_trans a b c : ev_le a b -> ev_le b c -> ev_le a c.
Proof. intros [A1 A2 A3 A4] [B1 B2 B3 B4]. constructor; auto. eapply ksame_trans; eassumption. Qed.

Definition grows (s s' : state) : Prop :=
  forall e ev, get_event e s = Some ev -> exists ev', get_event e s' = Some ev' /\ ev_le ev ev'.

Lemma grows_refl s : grows s s.
Proof. intros e ev H. exists ev. split; [exact H|apply ev_le_refl]. Qed.

Lemma grows_trans s1 s2 s3 : grows s1 s2 -> grows s2 s3 -> grows s1 s3.
Proof.
  intros H1 H2 e ev H. destruct (H1 _ _ H) as (ev2 & G2 & L2). destruct (H2 _ _ G2) as (ev3 & G3 & L3).
  exists ev3. split; [exact G3|eapply ev_le_trans; eassumption].
Qed.

Lemma grows_same_events s s' : events s' = events s -> grows s s'.
Proof. intros E e ev H. exists ev. unfold get_event in *. rewrite E. split; [exact H|apply ev_le_refl]. Qed.

Lemma grows_upd_event e f s : (forall ev, get_event e s = Some ev -> ev_le ev (f ev)) -> grows s (upd_event e f s).
Proof.
  intros Hf x ev H. rewrite get_event_upd. destruct (Nat.eqb x e) eqn:E.
  - apply Nat.eqb_eq in E. subst x. rewrite H. cbn. exists (f ev). split; [reflexivity|apply Hf, H].
  - exists ev. split; [exact H|apply ev_le_refl].
Qed.

Lemma grows_new_event ev s : grows s (snd (new_event ev s)).
Proof.
  intros x ev0 H. exists ev0. split; [|apply ev_le_refl].
  rewrite get_event_new_below; [exact H|eapply get_event_lt, H].
Qed.

Lemma grows_schedule e p d s : grows s (schedule e p d s).
Proof. apply grows_same_events. reflexivity. Qed.

Lemma grows_set_out e o s : grows s (upd_event e (ev_set_out (Some o)) s).
Proof. apply grows_upd_event. intros ev _. constructor; cbn; auto; [discriminate|apply ksame_refl]. Qed.
Lemma grows_set_defused e s : grows s (upd_event e ev_set_defused s).
Proof. apply grows_upd_event. intros ev _. constructor; cbn; auto. apply ksame_refl. Qed.
Lemma grows_set_cbs e c s : (c <> None -> forall ev, get_event e s = Some ev -> cbs ev <> None) -> grows s (upd_event e (ev_set_cbs c) s).
Proof.
  intros Hc. apply grows_upd_event. intros ev H. constructor; cbn; auto; [|apply ksame_refl].
  intros N. destruct c as [l|]; [|reflexivity]. exfalso. apply (Hc ltac:(discriminate) _ H N).
Qed.
Lemma grows_add_callback e c s : grows s (add_callback e c s).
Proof.
  apply grows_upd_event. intros ev _. unfold ev_add_cb. destruct (cbs ev) eqn:C; [|apply ev_le_refl].
  constructor; cbn; auto; [congruence|apply ksame_refl].
Qed.

Lemma grows_trigger e o s : grows s (trigger_event e o s).
Proof. unfold trigger_event. eapply grows_trans; [apply grows_set_out|apply grows_schedule]. Qed.

(* every function of the model is a chain of primitive moves (Kernel/Prims.v), and each primitive grows the store *)
Lemma grows_kprim b T s s' : kprim b T s s' -> grows s s'.
Proof.
  intros [s0 s1 (_ & _ & _ & Hv & _)|ev s0 _ _ _|ev prio d s0 _ _ _ _ _|e ev o s0 _ _|p pr o s0 _|e c s0 _|e ev l x s0 H C _
         |e s0|c cev all ops n s0 H Kc _|c cev v v' s0 _ _ _|p pr f s0 _ _ _|pr ev s0 _ _|t s0 _ _|e s0 _].
  - (* k_frame *) apply grows_same_events, Hv.
  - (* k_new *) apply grows_new_event.
  - (* k_born *) eapply grows_trans; [apply grows_new_event|apply grows_schedule].
  - (* k_trig *) apply grows_trigger.
  - (* k_ptrig *) apply grows_trigger.
  - (* k_addcb *) apply grows_add_callback.
  - (* k_rmcb *) apply grows_set_cbs. intros _ ev0 H0. rewrite H in H0. injection H0 as <-. rewrite C. discriminate.
  - (* k_defuse *) apply grows_set_defused.
  - (* k_count *) apply grows_upd_event. intros ev Hev. rewrite H in Hev. injection Hev as <-. constructor; cbn; auto. rewrite Kc. cbn. auto.
  - (* k_value *) apply grows_set_out.
  - (* k_proc *) apply grows_same_events. reflexivity.
  - (* k_spawn *) apply grows_same_events. reflexivity.
  - (* k_sentinel *) eapply grows_trans; [apply grows_new_event|apply grows_schedule].
  - (* k_stopcb *) apply grows_add_callback.
Qed.

Lemma grows_kchain b T s s' : kchain b T s s' -> grows s s'.
Proof. exact (kchain_rel b T grows grows_refl grows_trans (grows_kprim b T) s s'). Qed.

Lemma grows_do_call codes c s : grows s (fst (do_call codes c s)).
Proof. exact (grows_kchain _ _ _ _ (kc_do_call true Tall codes c s)). Qed.

Lemma grows_run_frag {A} codes (f : frag A) s : grows s (fst (run_frag codes f s)).
Proof. exact (grows_kchain _ _ _ _ (kc_run_frag true Tall codes f s)). Qed.

Lemma grows_run_cb fuel codes e c s : grows s (fst (run_cb fuel codes e c s)).
Proof. exact (grows_kchain _ _ _ _ (kc_run_cb true fuel codes e c s)). Qed.

Lemma grows_run_callbacks fuel codes e l s : grows s (fst (run_callbacks fuel codes e l s)).
Proof. exact (grows_kchain _ _ _ _ (kc_run_callbacks true fuel codes e l s)). Qed.

(* the state the loop leaves after c :: t is the state c left, or the state the loop over t left from there *)
Lemma run_callbacks_fst_cases fuel codes e c t s :
  fst (run_callbacks fuel codes e (c :: t) s) = fst (run_cb fuel codes e c s) \/
  fst (run_callbacks fuel codes e (c :: t) s) = fst (run_callbacks fuel codes e t (fst (run_cb fuel codes e c s))).
Proof.
  cbn [run_callbacks]. destruct (run_cb fuel codes e c s) as [s1 r]. cbn [fst].
  destruct r; try (right; reflexivity);
    (destruct (is_stop_cb c && is_exit _); [|left; reflexivity];
     destruct (run_callbacks fuel codes e t s1) as [s2 r2]; right; destruct r2; reflexivity).
Qed.

Lemma grows_step fuel codes s : grows s (fst (step fuel codes s)).
Proof.
  destruct (step fuel codes s) as [s' r] eqn:E. cbn [fst].
  destruct (step_below true _ _ _ _ _ E) as [(_ & -> & _)|(m & rest & P & [(ev & l & _ & _ & C)|[_ ->]])];
    [apply grows_refl| |apply grows_same_events; reflexivity].
  eapply grows_trans; [|exact (grows_kchain _ _ _ _ C)].
  apply (grows_trans _ (pop_state m rest s)); [apply grows_same_events; reflexivity|].
  apply grows_set_cbs. intros N. now contradiction N.
Qed.

Lemma grows_run_prelude u s s1 : run_prelude u s = inr s1 -> grows s s1.
Proof. intros H. exact (grows_kchain _ _ _ _ (kc_run_prelude Tall u s s1 H)). Qed.

Lemma grows_run_loop fuel codes u : forall n s, grows s (fst (run_loop n fuel codes u s)).
Proof.
  induction n as [|n IH]; intros s; cbn [run_loop]; [apply grows_refl|].
  pose proof (grows_step fuel codes s) as X. destruct (step fuel codes s) as [s1 r]. cbn [fst] in X.
  destruct r; try exact X. eapply grows_trans; [exact X|apply IH].
Qed.

Lemma grows_run fuel codes u s : grows s (fst (run fuel codes u s)).
Proof.
  unfold run. destruct (run_prelude u s) as [[s' r]|s1] eqn:P.
  - apply run_prelude_inl in P. subst s'. apply grows_refl.
  - eapply grows_trans; [eapply grows_run_prelude, P|apply grows_run_loop].
Qed.

(* ------------------------------------------------------------------------------------------------ *)
(* executions: any sequence of module-level code, step() and run() calls (and the prelude of run() alone, so that the
   inside of a run() is an execution too), with any fuel and any result *)

Inductive later (codes : list prog) : state -> state -> Prop :=
| later_refl s : later codes s s
| later_top s s' A (f : frag A) : later codes s s' -> later codes s (fst (exec_top codes f s'))
| later_prelude s s' u s1 : later codes s s' -> run_prelude u s' = inr s1 -> later codes s s1
| later_step s s' fuel : later codes s s' -> later codes s (fst (step fuel codes s'))
| later_run s s' fuel u : later codes s s' -> later codes s (fst (run fuel codes u s')).

Lemma later_grows codes s s' : later codes s s' -> grows s s'.
Proof.
  induction 1 as [s|s s' A f _ IH|s s' u s1 _ IH P|s s' fuel _ IH|s s' fuel u _ IH].
  - apply grows_refl.
  - eapply grows_trans; [exact IH|apply grows_run_frag].
  - eapply grows_trans; [exact IH|eapply grows_run_prelude, P].
  - eapply grows_trans; [exact IH|apply grows_step].
  - eapply grows_trans; [exact IH|apply grows_run].
Qed.

(* once processed, processed in every later state; and then nothing can be appended to its callbacks *)
Lemma processed_forever codes s s' e ev :
  later codes s s' -> get_event e s = Some ev -> cbs ev = None ->
  exists ev', get_event e s' = Some ev' /\ cbs ev' = None.
Proof.
  intros L H C. destruct (later_grows _ _ _ L _ _ H) as (ev' & G & Le). exists ev'. split; [exact G|apply (le_cbs _ _ Le), C].
Qed.

Lemma triggered_forever codes s s' e ev :
  later codes s s' -> get_event e s = Some ev -> out ev <> None ->
  exists ev', get_event e s' = Some ev' /\ out ev' <> None.
Proof.
  intros L H C. destruct (later_grows _ _ _ L _ _ H) as (ev' & G & Le). exists ev'. split; [exact G|apply (le_out _ _ Le), C].
Qed.

Lemma state_eta s : mkState (now s) (agenda s) (next_eid s) (events s) (procs s) (active s) (glob s) (obs s) = s.
Proof. destruct s; reflexivity. Qed.

Lemma add_callback_processed e c s ev : get_event e s = Some ev -> cbs ev = None -> add_callback e c s = s.
Proof.
  intros H C. unfold add_callback, upd_event, set_events.
  rewrite upd_nth_id; [apply state_eta|].
  intros x Hx. unfold get_event in H. rewrite H in Hx. injection Hx as <-. unfold ev_add_cb. now rewrite C.
Qed.

(* ------------------------------------------------------------------------------------------------ *)
(* the callback loop of step() *)

(* what a callback may answer without ending the loop: it returns, or it is the stop callback of run(until) and raises
   StopSimulation / the failure of the until-event -- step() remembers that and raises it after the loop (repaired code) *)
Definition cb_ok (c : cb) (r : result) : Prop := r = ROk \/ (is_stop_cb c = true /\ is_exit r = true).

(* [cb_chain fuel codes e l s s']: the callbacks l were invoked for e one after the other, in list order, each once,
   none of them ending the loop, taking the state from s to s' *)
Inductive cb_chain (fuel : nat) (codes : list prog) (e : evid) : list cb -> state -> state -> Prop :=
| chain_nil s : cb_chain fuel codes e [] s s
| chain_cons c t s s1 r s' :
    run_cb fuel codes e c s = (s1, r) -> cb_ok c r -> cb_chain fuel codes e t s1 s' -> cb_chain fuel codes e (c :: t) s s'.

Lemma cb_chain_app fuel codes e l1 l2 s s1 s2 :
  cb_chain fuel codes e l1 s s1 -> cb_chain fuel codes e l2 s1 s2 -> cb_chain fuel codes e (l1 ++ l2) s s2.
Proof. induction 1; cbn; [auto|]. intros H2. econstructor; eauto. Qed.

Lemma cb_chain_grows fuel codes e l s s' : cb_chain fuel codes e l s s' -> grows s s'.
Proof.
  induction 1 as [s|c t s s1 r s' R _ _ IH]; [apply grows_refl|].
  eapply grows_trans; [|exact IH]. pose proof (grows_run_cb fuel codes e c s) as X. now rewrite R in X.
Qed.

Lemma not_ok_cases (r : result) : r = ROk \/ r <> ROk.
Proof. destruct r; auto; right; discriminate. Qed.

Lemma match_not_ok {A} (r : result) (a b : A) : r <> ROk ->
  match r with ROk => a | _ => b end = b.
Proof. destruct r; [contradiction| | | | |]; reflexivity. Qed.

Lemma is_exit_not_ok r : is_exit r = true -> r <> ROk.
Proof. destruct r; discriminate. Qed.

(* one turn of the loop, for a callback that did not return normally *)
Lemma run_callbacks_cons_not_ok fuel codes e c t s s1 r :
  run_cb fuel codes e c s = (s1, r) -> r <> ROk ->
  run_callbacks fuel codes e (c :: t) s =
  if is_stop_cb c && is_exit r
  then let '(s2, r2) := run_callbacks fuel codes e t s1 in match r2 with ROk => (s2, r) | _ => (s2, r2) end
  else (s1, r).
Proof. intros R N. cbn [run_callbacks]. rewrite R. destruct r; [contradiction| | | | |]; reflexivity. Qed.

(* either all of l was invoked (and the loop ends normally or with the remembered stop), or a prefix, the next callback
   letting something escape (the rest is dropped) *)
Lemma run_callbacks_spec fuel codes e : forall l s s' r,
  run_callbacks fuel codes e l s = (s', r) ->
  (cb_chain fuel codes e l s s' /\ (r = ROk \/ is_exit r = true)) \/
  (exists pre c post smid, l = pre ++ c :: post /\ cb_chain fuel codes e pre s smid /\
                           run_cb fuel codes e c smid = (s', r) /\ ~ cb_ok c r).
Proof.
  induction l as [|c t IH]; intros s s' r.
  - cbn [run_callbacks]. intros H; injection H as <- <-. left. split; [constructor|left; reflexivity].
  - destruct (run_cb fuel codes e c s) as [s1 r1] eqn:R. destruct (not_ok_cases r1) as [->|N].
    + cbn [run_callbacks]. rewrite R. intros H.
      destruct (IH _ _ _ H) as [[Ch Rr]|(pre & c' & post & smid & -> & Ch & R' & NK)].
      * left. split; [econstructor; [exact R|left; reflexivity|exact Ch]|exact Rr].
      * right. exists (c :: pre), c', post, smid. split; [reflexivity|].
        split; [econstructor; [exact R|left; reflexivity|exact Ch]|]. auto.
    + rewrite (run_callbacks_cons_not_ok _ _ _ _ t _ _ _ R N).
      destruct (is_stop_cb c && is_exit r1) eqn:SE.
      * apply andb_true_iff in SE. destruct SE as [Sc Ex].
        destruct (run_callbacks fuel codes e t s1) as [s2 r2] eqn:R2.
        destruct (IH _ _ _ R2) as [[Ch Rr]|(pre & c' & post & smid & -> & Ch & R' & NK)].
        -- destruct (not_ok_cases r2) as [->|N2].
           ++ intros H; injection H as <- <-. left.
              split; [econstructor; [exact R|right; auto|exact Ch]|right; exact Ex].
           ++ rewrite (match_not_ok r2 _ _ N2). intros H; injection H as <- <-. left.
              split; [econstructor; [exact R|right; auto|exact Ch]|]. destruct Rr as [->|Rr]; [contradiction|right; exact Rr].
        -- assert (N2 : r2 <> ROk) by (intros ->; apply NK; left; reflexivity).
           rewrite (match_not_ok r2 _ _ N2). intros H; injection H as <- <-. right.
           exists (c :: pre), c', post, smid. split; [reflexivity|].
           split; [econstructor; [exact R|right; auto|exact Ch]|]. auto.
      * intros H; injection H as <- <-. right. exists [], c, t, s. split; [reflexivity|]. split; [constructor|].
        split; [exact R|]. intros [->|[Sc Ex]]; [contradiction|]. rewrite Sc, Ex in SE. discriminate.
Qed.

Lemma run_callbacks_ok_chain fuel codes e l s s' :
  run_callbacks fuel codes e l s = (s', ROk) -> cb_chain fuel codes e l s s'.
Proof.
  intros R. destruct (run_callbacks_spec _ _ _ _ _ _ _ R) as [[Ch _]|(pre & c & post & smid & _ & _ & _ & N)]; [exact Ch|].
  exfalso. apply N. left. reflexivity.
Qed.

(* a loop that ran through: run_callbacks returns its end state, and what it answers is ROk or what a stop callback said *)
Lemma cb_chain_run fuel codes e : forall l s s', cb_chain fuel codes e l s s' ->
  exists r, run_callbacks fuel codes e l s = (s', r) /\
            (r = ROk \/ exists pre post smid, l = pre ++ CbStop :: post /\ cb_chain fuel codes e pre s smid /\
                                              stop_cb e smid = (smid, r)).
Proof.
  induction 1 as [s|c t s s1 r0 s' R K _ (r & IH & W)].
  - exists ROk. split; [reflexivity|left; reflexivity].
  - destruct K as [->|[Sc Ex]].
    + exists r. cbn [run_callbacks]. rewrite R. split; [exact IH|].
      destruct W as [->|(pre & post & smid & -> & Chp & St)]; [left; reflexivity|]. right. exists (c :: pre), post, smid.
      split; [reflexivity|]. split; [econstructor; [exact R|left; reflexivity|exact Chp]|exact St].
    + destruct c; try discriminate Sc. assert (R' : stop_cb e s = (s1, r0)) by exact R.
      pose proof (stop_cb_state e s) as Ss. rewrite R' in Ss. cbn [fst] in Ss. subst s1.
      rewrite (run_callbacks_cons_not_ok _ _ _ _ t _ _ _ R (is_exit_not_ok _ Ex)), IH. cbn [is_stop_cb andb]. rewrite Ex.
      destruct (not_ok_cases r) as [->|N].
      * exists r0. split; [reflexivity|]. right. exists [], t, s. split; [reflexivity|]. split; [constructor|exact R'].
      * rewrite (match_not_ok r _ _ N). exists r. split; [reflexivity|].
        destruct W as [->|(pre & post & smid & -> & Chp & St)]; [contradiction|]. right. exists (CbStop :: pre), post, smid.
        split; [reflexivity|]. split; [econstructor; [exact R|right; auto|exact Chp]|exact St].
Qed.

Lemma cb_chain_run_nostop fuel codes e l s s' :
  cb_chain fuel codes e l s s' -> (forall c, In c l -> is_stop_cb c = false) -> run_callbacks fuel codes e l s = (s', ROk).
Proof.
  intros Ch NS. destruct (cb_chain_run _ _ _ _ _ _ Ch) as (r & R & [->|(pre & post & smid & -> & _)]); [exact R|].
  discriminate (NS CbStop (in_elt _ _ _)).
Qed.

(* the state in which the callback loop of the step that pops m starts *)
Definition loop_start (m : entry) (rest : list entry) (s : state) : state :=
  upd_event (e_ev m) (ev_set_cbs None) (pop_state m rest s).

Lemma get_event_pop_state m rest s x : get_event x (pop_state m rest s) = get_event x s.
Proof. reflexivity. Qed.

Lemma loop_start_processed m rest s ev :
  get_event (e_ev m) s = Some ev -> get_event (e_ev m) (loop_start m rest s) = Some (ev_set_cbs None ev).
Proof. intros H. unfold loop_start. apply get_event_upd_same. exact H. Qed.

Lemma step_loop fuel codes s m rest ev l :
  pop_min (agenda s) = Some (m, rest) -> get_event (e_ev m) s = Some ev -> cbs ev = Some l ->
  step fuel codes s =
  let '(s2, r) := run_callbacks fuel codes (e_ev m) l (loop_start m rest s) in
  (s2, match r with ROk => check_failure (e_ev m) s2 | _ => r end).
Proof.
  intros P H C. unfold step. rewrite P, get_event_pop_state, H, C. fold (loop_start m rest s).
  destruct (run_callbacks fuel codes (e_ev m) l (loop_start m rest s)) as [s2 r]. destruct r; reflexivity.
Qed.

Lemma step_loop_fst fuel codes s m rest ev l :
  pop_min (agenda s) = Some (m, rest) -> get_event (e_ev m) s = Some ev -> cbs ev = Some l ->
  fst (step fuel codes s) = fst (run_callbacks fuel codes (e_ev m) l (loop_start m rest s)).
Proof.
  intros P H C. rewrite (step_loop _ _ _ _ _ _ _ P H C).
  destruct (run_callbacks fuel codes (e_ev m) l (loop_start m rest s)). reflexivity.
Qed.

(* callbacks_exactly_once, the step: the list taken from the event at the start is invoked in order, each once;
   the event is processed (cbs = None) from the start of the loop on *)
Lemma step_invokes fuel codes s s' r m rest ev l :
  step fuel codes s = (s', r) -> pop_min (agenda s) = Some (m, rest) ->
  get_event (e_ev m) s = Some ev -> cbs ev = Some l ->
  (cb_chain fuel codes (e_ev m) l (loop_start m rest s) s' /\
   (r = check_failure (e_ev m) s' \/ is_exit r = true) /\
   ((forall c, In c l -> is_stop_cb c = false) -> r = check_failure (e_ev m) s')) \/
  (exists pre c post smid, l = pre ++ c :: post /\ cb_chain fuel codes (e_ev m) pre (loop_start m rest s) smid /\
                           run_cb fuel codes (e_ev m) c smid = (s', r) /\ ~ cb_ok c r).
Proof.
  intros St P H C. rewrite (step_loop _ _ _ _ _ _ _ P H C) in St.
  destruct (run_callbacks fuel codes (e_ev m) l (loop_start m rest s)) as [s2 r2] eqn:R.
  destruct (run_callbacks_spec _ _ _ _ _ _ _ R) as [[Ch Rr]|(pre & c & post & smid & -> & Ch & R' & N)].
  - left. destruct (not_ok_cases r2) as [->|N2].
    + injection St as <- <-. split; [exact Ch|]. split; [left; reflexivity|reflexivity].
    + rewrite (match_not_ok r2 _ _ N2) in St. injection St as <- <-. split; [exact Ch|].
      split; [destruct Rr as [->|Rr]; [contradiction|right; exact Rr]|]. intros H0.
      pose proof (cb_chain_run_nostop _ _ _ _ _ _ Ch H0) as R3. rewrite R in R3. injection R3 as E. contradiction.
  - right. exists pre, c, post, smid. assert (N2 : r2 <> ROk) by (intros ->; apply N; left; reflexivity).
    rewrite (match_not_ok r2 _ _ N2) in St. injection St as <- <-. auto.
Qed.

(* stated over the projections of [step] and [run_callbacks], so that on a closed state only a [result] has to be
   evaluated *)
Lemma step_chain fuel codes s m rest ev l :
  pop_min (agenda s) = Some (m, rest) -> get_event (e_ev m) s = Some ev -> cbs ev = Some l ->
  snd (run_callbacks fuel codes (e_ev m) l (loop_start m rest s)) = ROk ->
  cb_chain fuel codes (e_ev m) l (loop_start m rest s) (fst (step fuel codes s)).
Proof.
  intros P H C E. rewrite (step_loop_fst _ _ _ _ _ _ _ P H C). apply run_callbacks_ok_chain, pair_of_snd, E.
Qed.

Lemma step_of_chain fuel codes s m rest ev l s' :
  pop_min (agenda s) = Some (m, rest) -> get_event (e_ev m) s = Some ev -> cbs ev = Some l ->
  cb_chain fuel codes (e_ev m) l (loop_start m rest s) s' ->
  exists r0, (r0 = ROk \/ exists pre post smid, l = pre ++ CbStop :: post /\
                                               cb_chain fuel codes (e_ev m) pre (loop_start m rest s) smid /\
                                               stop_cb (e_ev m) smid = (smid, r0)) /\
             step fuel codes s = (s', match r0 with ROk => check_failure (e_ev m) s' | _ => r0 end).
Proof.
  intros P G C Ch. destruct (cb_chain_run _ _ _ _ _ _ Ch) as (r0 & R & W). exists r0.
  split; [exact W|]. rewrite (step_loop _ _ _ _ _ _ _ P G C), R. reflexivity.
Qed.

Lemma step_fst_chain fuel codes s m rest ev l s' :
  pop_min (agenda s) = Some (m, rest) -> get_event (e_ev m) s = Some ev -> cbs ev = Some l ->
  cb_chain fuel codes (e_ev m) l (loop_start m rest s) s' -> fst (step fuel codes s) = s'.
Proof. intros P G C Ch. destruct (step_of_chain _ _ _ _ _ _ _ _ P G C Ch) as (r0 & _ & St). now rewrite St. Qed.

(* an event that is popped although it is already processed (it was scheduled twice): TypeError before any callback *)
Lemma step_processed_twice fuel codes s m rest ev :
  pop_min (agenda s) = Some (m, rest) -> get_event (e_ev m) s = Some ev -> cbs ev = None ->
  step fuel codes s = (pop_state m rest s, RRaise (kexn EType M_none_not_iterable)).
Proof. intros P H C. unfold step. rewrite P, get_event_pop_state, H, C. reflexivity. Qed.

Lemma step_empty fuel codes s : pop_min (agenda s) = None -> step fuel codes s = (s, REmpty).
Proof. intros P. unfold step. now rewrite P. Qed.

(* failure_never_lost, the step: after the loop an undefused failure is what step() raises *)
Lemma check_failure_raise e s ev x :
  get_event e s = Some ev -> out ev = Some (Fail x) -> defused ev = false -> check_failure e s = RRaise x.
Proof. intros H O D. unfold check_failure. now rewrite H, O, D. Qed.

Lemma check_failure_cases e s ev :
  get_event e s = Some ev -> out ev <> None ->
  (check_failure e s = ROk /\ (exists v, out ev = Some (Ok v)) \/ (exists x, out ev = Some (Fail x) /\ defused ev = true)) \/
  (exists x, check_failure e s = RRaise x /\ out ev = Some (Fail x) /\ defused ev = false).
Proof.
  intros H O. unfold check_failure. rewrite H. destruct (out ev) as [[v|x]|]; [| |contradiction].
  - left. left. split; [reflexivity|eauto].
  - destruct (defused ev) eqn:D.
    + left. right. eauto.
    + right. eauto.
Qed.

(* ------------------------------------------------------------------------------------------------ *)
(* Environment.run: the loop returns the first thing a step raises, in the state that step left *)

Inductive ok_steps (fuel : nat) (codes : list prog) : state -> state -> Prop :=
| oks_refl s : ok_steps fuel codes s s
| oks_step s s1 s' : step fuel codes s = (s1, ROk) -> ok_steps fuel codes s1 s' -> ok_steps fuel codes s s'.

Lemma run_loop_spec fuel codes u : forall n s s' r,
  run_loop n fuel codes u s = (s', r) ->
  (r = RFuel /\ ok_steps fuel codes s s') \/
  (exists sk rk, ok_steps fuel codes s sk /\ step fuel codes sk = (s', rk) /\ rk <> ROk /\
                 r = match rk with REmpty => run_empty u s' | _ => rk end).
Proof.
  induction n as [|n IH]; intros s s' r; cbn [run_loop].
  - intros H; injection H as <- <-. left. split; [reflexivity|constructor].
  - destruct (step fuel codes s) as [s1 r1] eqn:St.
    destruct r1; try (intros H; injection H as <- <-; right; exists s; eexists; split; [constructor|split; [exact St|split; [discriminate|reflexivity]]]).
    intros H. destruct (IH _ _ _ H) as [[-> Ch]|(sk & rk & Ch & St' & N & E)].
    + left. split; [reflexivity|econstructor; eauto].
    + right. exists sk, rk. split; [econstructor; eauto|auto].
Qed.

Lemma run_loop_propagates fuel codes u n s s1 x :
  step fuel codes s = (s1, RRaise x) -> run_loop (S n) fuel codes u s = (s1, RRaise x).
Proof. intros H. cbn [run_loop]. now rewrite H. Qed.

Lemma run_loop_ok_steps fuel codes u : forall s sk, ok_steps fuel codes s sk ->
  forall s' x, step fuel codes sk = (s', RRaise x) ->
  exists k, forall n, k <= n -> run_loop n fuel codes u s = (s', RRaise x).
Proof.
  induction 1 as [s|s s1 sk St _ IH]; intros s' x H.
  - exists 1. intros [|n] L; [lia|]. apply run_loop_propagates, H.
  - destruct (IH _ _ H) as (k & Hk). exists (S k). intros [|n] L; [lia|]. cbn [run_loop]. rewrite St. apply Hk. lia.
Qed.

(* ------------------------------------------------------------------------------------------------ *)
(* Process._resume *)

(* the state in which the automaton runs: a failure is marked defused BEFORE it is thrown into the process *)
Definition feed_state (e : evid) (o : outcome) (s : state) : state :=
  match o with Fail _ => upd_event e ev_set_defused s | Ok _ => s end.

(* what _resume does with what the generator did (returned / raised / yielded) *)
Definition after_frag (f : nat) (codes : list prog) (p : pid) (pr : procrec) (x : state * fres (St (pcode pr)))
  : state * result :=
  let '(s2, r) := x in
  match r with
  | FrRet v => (proc_finish p pr (Ok v) s2, ROk)
  | FrRaise x => (proc_finish p pr (Fail x) s2, ROk)
  | FrYield v a =>
      let s3 := put_proc p (proc_set_st pr a) s2 in
      match v with
      | VEv e' =>
          match get_event e' s3 with
          | Some ev' => if is_processed ev' then resume_loop f codes p e' s3 else (proc_wait p e' s3, ROk)
          | None => (s3, RRaise (kexn ERuntime M_invalid_yield))
          end
      | _ => (s3, RRaise (kexn ERuntime M_invalid_yield))
      end
  end.

(* resume_gets_outcome: one turn of the loop feeds the automaton exactly the outcome of the event: Ok v with the
   event's value, or Fail x with the event's exception (class and args), the event being marked defused first *)
Lemma resume_loop_eq f codes p e s ev pr o :
  get_event e s = Some ev -> get_proc p s = Some pr -> out ev = Some o ->
  resume_loop (S f) codes p e s =
  after_frag f codes p pr (run_frag codes (resume (pcode pr) (pst pr) o) (feed_state e o s)).
Proof.
  intros H P O. cbn [resume_loop]. rewrite H, P, O. unfold after_frag, feed_state.
  destruct (run_frag codes (resume (pcode pr) (pst pr) o) match o with Ok _ => s | Fail _ => upd_event e ev_set_defused s end) as [s2 r].
  reflexivity.
Qed.

Lemma feed_state_defused e x s ev :
  get_event e s = Some ev -> exists ev', get_event e (feed_state e (Fail x) s) = Some ev' /\ defused ev' = true /\ out ev' = out ev.
Proof. intros H. exists (ev_set_defused ev). cbn [feed_state]. rewrite (get_event_upd_same _ _ _ _ H). auto. Qed.

Lemma resume_proc_eq f codes p e s ev pr o :
  get_event e s = Some ev -> get_proc p s = Some pr -> out ev = Some o ->
  resume_proc (S f) codes p e s =
  after_frag f codes p pr (run_frag codes (resume (pcode pr) (pst pr) o) (feed_state e o (set_active (Some p) s))).
Proof. intros H P O. unfold resume_proc. eapply resume_loop_eq; eauto. Qed.

(* process_event_outcome *)
Lemma proc_finish_spec p pr o s pe pr0 :
  get_event (pev pr) s = Some pe -> get_proc p s = Some pr0 ->
  let s' := proc_finish p pr o s in
  get_event (pev pr) s' = Some (ev_set_out (Some o) pe) /\
  agenda s' = agenda s ++ [mkEntry (Qred (now s + 0)%Q) NORMAL (next_eid s) (pev pr)] /\
  get_proc p s' = Some (proc_set_target None pr0) /\ active s' = None /\ now s' = now s /\
  (forall x, x <> pev pr -> get_event x s' = get_event x s) /\
  (forall q, q <> p -> get_proc q s' = get_proc q s).
Proof.
  intros H P. cbn zeta. destruct (trigger_event_spec _ o _ _ H) as (A & B & C & D & E & F).
  unfold proc_finish. cbn [set_active active now agenda].
  split; [exact A|]. split; [exact B|]. split.
  - change (get_proc p (upd_proc p (proc_set_target None) (trigger_event (pev pr) o s)) = Some (proc_set_target None pr0)).
    rewrite get_proc_upd, Nat.eqb_refl. unfold get_proc in *. rewrite E, P. reflexivity.
  - split; [reflexivity|]. split; [exact D|]. split; [exact F|].
    intros q Hq. change (get_proc q (upd_proc p (proc_set_target None) (trigger_event (pev pr) o s)) = get_proc q s).
    rewrite get_proc_upd. apply Nat.eqb_neq in Hq. rewrite Hq. unfold get_proc. now rewrite E.
Qed.

Lemma resume_returns f codes p e s ev pr o s2 v :
  get_event e s = Some ev -> get_proc p s = Some pr -> out ev = Some o ->
  run_frag codes (resume (pcode pr) (pst pr) o) (feed_state e o s) = (s2, FrRet v) ->
  resume_loop (S f) codes p e s = (proc_finish p pr (Ok v) s2, ROk).
Proof. intros H P O R. rewrite (resume_loop_eq _ _ _ _ _ _ _ _ H P O), R. reflexivity. Qed.

Lemma resume_raises f codes p e s ev pr o s2 x :
  get_event e s = Some ev -> get_proc p s = Some pr -> out ev = Some o ->
  run_frag codes (resume (pcode pr) (pst pr) o) (feed_state e o s) = (s2, FrRaise x) ->
  resume_loop (S f) codes p e s = (proc_finish p pr (Fail x) s2, ROk).
Proof. intros H P O R. rewrite (resume_loop_eq _ _ _ _ _ _ _ _ H P O), R. reflexivity. Qed.

(* yield_processed_continues: a yielded event that is already processed is fed at once, in the same _resume call *)
Lemma resume_yield_processed f codes p e s ev pr o s2 e' a ev' :
  get_event e s = Some ev -> get_proc p s = Some pr -> out ev = Some o ->
  run_frag codes (resume (pcode pr) (pst pr) o) (feed_state e o s) = (s2, FrYield (VEv e') a) ->
  get_event e' (put_proc p (proc_set_st pr a) s2) = Some ev' -> cbs ev' = None ->
  resume_loop (S f) codes p e s = resume_loop f codes p e' (put_proc p (proc_set_st pr a) s2).
Proof.
  intros H P O R H' C. rewrite (resume_loop_eq _ _ _ _ _ _ _ _ H P O), R. cbn. rewrite H'. unfold is_processed. now rewrite C.
Qed.

Lemma resume_yield_pending f codes p e s ev pr o s2 e' a ev' l :
  get_event e s = Some ev -> get_proc p s = Some pr -> out ev = Some o ->
  run_frag codes (resume (pcode pr) (pst pr) o) (feed_state e o s) = (s2, FrYield (VEv e') a) ->
  get_event e' (put_proc p (proc_set_st pr a) s2) = Some ev' -> cbs ev' = Some l ->
  resume_loop (S f) codes p e s = (proc_wait p e' (put_proc p (proc_set_st pr a) s2), ROk).
Proof.
  intros H P O R H' C. rewrite (resume_loop_eq _ _ _ _ _ _ _ _ H P O), R. cbn. rewrite H'. unfold is_processed. now rewrite C.
Qed.
