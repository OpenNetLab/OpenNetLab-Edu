(* Kernel/Script.v -- first-order script language for the CORRESPONDENCE only (theorems are about
   Kernel/Model.v and quantify over all automata, not over scripts).

   The Python harness (props/kernel_common.py) interprets the same scripts as real generator processes on the
   real onl.sim.Environment.  Both sides follow the conventions written here:

     registers     L i  local to one process instance (L 0 = the argument of the process)
                   G i  shared by all code (closure variables); kept in [glob] of the kernel state
     logging       every log entry is  OLog active_pid now (VList (VInt tag :: ...)):
                     tag 0  [0]                    the process body starts
                     tag 1  [1; lbl; [0; v]]       yield lbl returned value v
                            [1; lbl; [1; exn]]     yield lbl raised exn
                     tag 2  [2; exn]               an API call raised exn (caught at the call site)
                     tag 3  [3; v]                 ILog v
                     tag 4  [4]                    an operand register did not hold an event: call skipped
     yields        YPropagate re-raises a received exception (the process fails with it); YCatch stores it in
                   dst and continues; YRetry k yields the same value again after an Interrupt (at most k times),
                   otherwise behaves like YCatch
     main          definitions: instr, compile, pitem, run_plan, agree  *)
From Coq Require Import ZArith QArith List Bool.
From ONL Require Import Kernel.Model.
Import ListNotations.

Inductive reg := L (i : nat) | G (i : nat).

Inductive vexp := XNone | XInt (z : Z) | XReg (r : reg) | XUser (tag : Z) (arg : Z).

Inductive ymode := YPropagate | YCatch | YRetry (k : nat).

Inductive instr :=
| ITimeout (dst : reg) (d : Q) (v : vexp)
| IEvent (dst : reg)
| ISucceed (e : reg) (v : vexp)
| IFail (e : reg) (x : vexp)
| ISpawn (dst : reg) (code : nat) (arg : vexp)
| IInterrupt (p : reg) (cause : vexp)
| ICond (dst : reg) (all : bool) (es : list reg)         (* all_of / any_of / & / | *)
| IProbe (e : reg) (n : nat)
| IQuery (dst : reg) (q : query) (e : reg)
| INow (dst : reg)
| IPeek (dst : reg)
| ISet (dst : reg) (v : vexp)
| ILog (v : vexp)
| IYield (lbl : Z) (v : vexp) (dst : reg) (m : ymode)
| IReturn (v : vexp)
| IRaise (x : vexp)
| IIfExn (r : reg) (i : instr)                            (* run i if register r holds an exception *)
| IIfOk (r : reg) (i : instr).                            (* run i if it does not *)

Record sst := mkSst {
  s_code : list instr;                                    (* what remains to be executed *)
  s_regs : list val;
  s_wait : option (Z * val * reg * ymode) }.              (* the yield the generator is suspended at *)

Definition M_raise_non_exception : Z := 16.               (* TypeError: exceptions must derive from BaseException *)

Definition oval (o : outcome) : val :=
  match o with Ok v => VList [VInt 0; v] | Fail x => VList [VInt 1; exn_val x] end.
Definition okv (o : outcome) : val := match o with Ok v => v | Fail x => exn_val x end.
Definition is_exn (v : val) : bool := match v with VExn _ _ => true | _ => false end.
Definition get_ev (v : val) : option evid := match v with VEv e => Some e | _ => None end.

  Definition F := frag sst.

  Definition log (v : val) (k : F) : F := FCall (CLog v) (fun _ => k).

  Definition read_reg (r : reg) (regs : list val) (k : val -> F) : F :=
    match r with
    | L i => k (nth i regs VNone)
    | G g => FCall (CGetG g) (fun o => k (okv o))
    end.

  Definition write_reg (r : reg) (v : val) (regs : list val) (k : list val -> F) : F :=
    match r with
    | L i => k (set_nth_val i v regs)
    | G g => FCall (CSetG g v) (fun _ => k regs)
    end.

  Definition eval (x : vexp) (regs : list val) (k : val -> F) : F :=
    match x with
    | XNone => k VNone
    | XInt z => k (VInt z)
    | XReg r => read_reg r regs k
    | XUser tag arg => k (VExn (EUser tag) [VInt arg])
    end.

  Fixpoint read_regs (rs : list reg) (regs : list val) (k : list val -> F) : F :=
    match rs with
    | [] => k []
    | r :: t => read_reg r regs (fun v => read_regs t regs (fun vs => k (v :: vs)))
    end.

  Fixpoint all_evs (vs : list val) : option (list evid) :=
    match vs with
    | [] => Some []
    | v :: t => match get_ev v, all_evs t with Some e, Some l => Some (e :: l) | _, _ => None end
    end.

  (* an API call: the result goes to dst (if any); an exception is logged with tag 2 and dst is left alone *)
  Definition api (c : call) (dst : option reg) (regs : list val) (k : list val -> F) : F :=
    FCall c (fun o =>
      match o with
      | Ok v => match dst with Some r => write_reg r v regs k | None => k regs end
      | Fail x => log (VList [VInt 2; exn_val x]) (k regs)
      end).

  Definition with_ev (r : reg) (regs : list val) (k : list val -> F) (body : evid -> F) : F :=
    read_reg r regs (fun v => match get_ev v with
                              | Some e => body e
                              | None => log (VList [VInt 4]) (k regs)
                              end).

  (* one instruction; [rest] is the code after it (needed for the state stored at a yield),
     [k] continues with the rest *)
  Fixpoint exec_i (i : instr) (rest : list instr) (regs : list val) (k : list val -> F) : F :=
    match i with
    | ITimeout dst d v => eval v regs (fun v' => api (CTimeout d v') (Some dst) regs k)
    | IEvent dst => api CEvent (Some dst) regs k
    | ISucceed e v => with_ev e regs k (fun e' => eval v regs (fun v' => api (CSucceed e' v') None regs k))
    | IFail e x => with_ev e regs k (fun e' => eval x regs (fun x' => api (CFail e' x') None regs k))
    | ISpawn dst code arg => eval arg regs (fun a => api (CSpawn code a) (Some dst) regs k)
    | IInterrupt p cause => with_ev p regs k (fun e' => eval cause regs (fun c => api (CInterrupt e' c) None regs k))
    | ICond dst all es =>
        read_regs es regs (fun vs =>
          match all_evs vs with
          | Some l => api (if all then CAllOf l else CAnyOf l) (Some dst) regs k
          | None => log (VList [VInt 4]) (k regs)
          end)
    | IProbe e n => with_ev e regs k (fun e' => api (CProbe e' n) None regs k)
    | IQuery dst q e => with_ev e regs k (fun e' => api (CQuery q e') (Some dst) regs k)
    | INow dst => api CNow (Some dst) regs k
    | IPeek dst => api CPeek (Some dst) regs k
    | ISet dst v => eval v regs (fun v' => write_reg dst v' regs k)
    | ILog v => eval v regs (fun v' => log (VList [VInt 3; v']) (k regs))
    | IYield lbl v dst m => eval v regs (fun v' => FYield v' (mkSst rest regs (Some (lbl, v', dst, m))))
    | IReturn v => eval v regs (fun v' => FRet v')
    | IRaise x => eval x regs (fun x' => match x' with
                                         | VExn c args => FRaise (c, args)
                                         | _ => FRaise (kexn EType M_raise_non_exception)
                                         end)
    | IIfExn r j => read_reg r regs (fun v => if is_exn v then exec_i j rest regs k else k regs)
    | IIfOk r j => read_reg r regs (fun v => if is_exn v then k regs else exec_i j rest regs k)
    end.

  Fixpoint exec (l : list instr) (regs : list val) : F :=
    match l with
    | [] => FRet VNone
    | i :: rest => exec_i i rest regs (exec rest)
    end.

  Definition is_interrupt (x : exn) : bool := match fst x with EInterrupt => true | _ => false end.

  Definition script_resume (st : sst) (o : outcome) : F :=
    match s_wait st with
    | None => log (VList [VInt 0]) (exec (s_code st) (s_regs st))
    | Some (lbl, yv, dst, m) =>
        log (VList [VInt 1; VInt lbl; oval o])
          (match o with
           | Ok v => write_reg dst v (s_regs st) (exec (s_code st))
           | Fail x =>
               match m with
               | YPropagate => FRaise x
               | YCatch => write_reg dst (exn_val x) (s_regs st) (exec (s_code st))
               | YRetry (S n) =>
                   if is_interrupt x then FYield yv (mkSst (s_code st) (s_regs st) (Some (lbl, yv, dst, YRetry n)))
                   else write_reg dst (exn_val x) (s_regs st) (exec (s_code st))
               | YRetry O => write_reg dst (exn_val x) (s_regs st) (exec (s_code st))
               end
           end)
    end.

Definition compile (code : list instr) : prog :=
  mkProg sst (fun arg => mkSst code [arg] None) script_resume.

(* ------------------------------------------------------------------------------------------------ *)
(* run plans *)

Inductive pitem :=
| PExec (l : list instr)          (* module-level code: calls only (a yield ends it) *)
| PRun                            (* env.run() *)
| PRunNum (t : Q)                 (* env.run(until=t) *)
| PRunEv (g : nat)                (* env.run(until=G g)  -- skipped with AttributeError code 10 if G g is not an event *)
| PStep (n : nat).                (* up to n times env.step(), stopping at the first exception *)

Definition pres := (result * Q * option Q)%type.          (* outcome of the item, now, peek afterwards *)

(* [fixed_stop] = true: the repaired kernel ([step]/[run]); false: the kernel as found before the C03 fix *)
Fixpoint steps_sel (fixed_stop : bool) (n : nat) (fuel : nat) (codes : list prog) (s : state) : state * result :=
  match n with
  | O => (s, ROk)
  | S m => let '(s1, r) := step_sel fixed_stop fuel codes s in
           match r with ROk => steps_sel fixed_stop m fuel codes s1 | _ => (s1, r) end
  end.
Definition steps := steps_sel true.

(* what the caller of run() sees: "returned v" (None when the agenda ran dry; a stale stop callback left by an
   earlier run() that ended with an exception also makes a plain run() return) *)
Definition ret_norm (x : state * result) : state * result :=
  match snd x with ROk => (fst x, RStop VNone) | _ => x end.

Definition run_item_sel (fixed_stop : bool) (fuel : nat) (codes : list prog) (it : pitem) (s : state) : state * result :=
  match it with
  | PExec l => let '(s1, r) := exec_top codes (exec l []) s in
               (s1, match r with FrRaise x => RRaise x | _ => ROk end)
  | PRun => ret_norm (run_sel fixed_stop fuel codes UNone s)
  | PRunNum t => ret_norm (run_sel fixed_stop fuel codes (UNum t) s)
  | PRunEv g => match nth g (glob s) VNone with
                | VEv e => ret_norm (run_sel fixed_stop fuel codes (UEv e) s)
                | _ => (s, RRaise (kexn EAttribute M_not_an_event))
                end
  | PStep n => steps_sel fixed_stop n fuel codes s
  end.
Definition run_item := run_item_sel true.

Fixpoint run_plan_sel (fixed_stop : bool) (fuel : nat) (codes : list prog) (plan : list pitem) (s : state) : state * list pres :=
  match plan with
  | [] => (s, [])
  | it :: t => let '(s1, r) := run_item_sel fixed_stop fuel codes it s in
               let '(s2, rs) := run_plan_sel fixed_stop fuel codes t s1 in
               (s2, (r, now s1, peek s1) :: rs)
  end.
Definition run_plan := run_plan_sel true.

(* ------------------------------------------------------------------------------------------------ *)
(* comparison with the recorded implementation trace *)

Definition ecls_eqb (a b : ecls) : bool :=
  match a, b with
  | EInterrupt, EInterrupt | ERuntime, ERuntime | EValue, EValue | EAttribute, EAttribute
  | EType, EType | EAssert, EAssert => true
  | EUser x, EUser y => Z.eqb x y
  | _, _ => false
  end.

Fixpoint val_eqb (a b : val) : bool :=
  match a, b with
  | VNone, VNone => true
  | VInt x, VInt y => Z.eqb x y
  | VNum x, VNum y => Qeq_bool x y
  | VEv x, VEv y => Nat.eqb x y
  | VCond l1, VCond l2 =>
      (fix go (l1 l2 : list (evid * val)) : bool :=
         match l1, l2 with
         | [], [] => true
         | (e1, v1) :: t1, (e2, v2) :: t2 => Nat.eqb e1 e2 && val_eqb v1 v2 && go t1 t2
         | _, _ => false
         end) l1 l2
  | VList l1, VList l2 =>
      (fix go (l1 l2 : list val) : bool :=
         match l1, l2 with
         | [], [] => true
         | v1 :: t1, v2 :: t2 => val_eqb v1 v2 && go t1 t2
         | _, _ => false
         end) l1 l2
  | VExn c1 l1, VExn c2 l2 =>
      ecls_eqb c1 c2 &&
      (fix go (l1 l2 : list val) : bool :=
         match l1, l2 with
         | [], [] => true
         | v1 :: t1, v2 :: t2 => val_eqb v1 v2 && go t1 t2
         | _, _ => false
         end) l1 l2
  | _, _ => false
  end.

Definition exn_eqb (x y : exn) : bool := val_eqb (exn_val x) (exn_val y).
Definition outcome_eqb (a b : outcome) : bool :=
  match a, b with
  | Ok x, Ok y => val_eqb x y
  | Fail x, Fail y => exn_eqb x y
  | _, _ => false
  end.

Definition opt_eqb {A : Type} (f : A -> A -> bool) (a b : option A) : bool :=
  match a, b with None, None => true | Some x, Some y => f x y | _, _ => false end.

Fixpoint all2 {A : Type} (f : A -> A -> bool) (l1 l2 : list A) : bool :=
  match l1, l2 with
  | [], [] => true
  | x :: t1, y :: t2 => f x y && all2 f t1 t2
  | _, _ => false
  end.

Definition obs_eqb (a b : observation) : bool :=
  match a, b with
  | OStep e t, OStep e' t' => Nat.eqb e e' && Qeq_bool t t'
  | OProbe n e t o, OProbe n' e' t' o' => Nat.eqb n n' && Nat.eqb e e' && Qeq_bool t t' && opt_eqb outcome_eqb o o'
  | OLog p t v, OLog p' t' v' => opt_eqb Nat.eqb p p' && Qeq_bool t t' && val_eqb v v'
  | _, _ => false
  end.

Definition result_eqb (a b : result) : bool :=
  match a, b with
  | ROk, ROk | REmpty, REmpty | RFuel, RFuel | RBroken, RBroken => true
  | RStop x, RStop y => val_eqb x y
  | RRaise x, RRaise y => exn_eqb x y
  | _, _ => false
  end.

Definition pres_eqb (a b : pres) : bool :=
  let '(r, t, p) := a in let '(r', t', p') := b in
  result_eqb r r' && Qeq_bool t t' && opt_eqb Qeq_bool p p'.

Definition default_fuel : nat := 2000.

(* the model's behaviour on a case: trace in chronological order, per-item results *)
Definition model_run_sel (fixed_stop : bool) (t0 : Q) (scripts : list (list instr)) (plan : list pitem)
  : list observation * list pres :=
  let '(s, rs) := run_plan_sel fixed_stop default_fuel (map compile scripts) plan (init_state t0) in
  (rev (obs s), rs).
Definition model_run := model_run_sel true.

(* [agree] with the kernel as found before the C03 fix (for refutation witnesses / replaying old traces) *)
Definition agree_sel (fixed_stop : bool) (t0 : Q) (scripts : list (list instr)) (plan : list pitem)
                     (trace : list observation) (results : list pres) : bool :=
  let '(tr, rs) := model_run_sel fixed_stop t0 scripts plan in
  all2 obs_eqb tr trace && all2 pres_eqb rs results.

Definition agree (t0 : Q) (scripts : list (list instr)) (plan : list pitem)
                 (trace : list observation) (results : list pres) : bool :=
  let '(tr, rs) := model_run t0 scripts plan in
  all2 obs_eqb tr trace && all2 pres_eqb rs results.

(* index of the first differing trace entry / plan item (diagnosis in replay files) *)
Fixpoint first_diff {A : Type} (f : A -> A -> bool) (l1 l2 : list A) (i : nat) : option nat :=
  match l1, l2 with
  | [], [] => None
  | x :: t1, y :: t2 => if f x y then first_diff f t1 t2 (S i) else Some i
  | _, _ => Some i
  end.
Definition diagnose (t0 : Q) (scripts : list (list instr)) (plan : list pitem)
                    (trace : list observation) (results : list pres) :=
  let '(tr, rs) := model_run t0 scripts plan in
  (first_diff obs_eqb tr trace 0, first_diff pres_eqb rs results 0).

(* ------------------------------------------------------------------------------------------------ *)
(* Compact cases: long streaks for the correspondence.  A code is a list of
   [ritem]s -- single instructions and blocks repeated n times -- unrolled by [expand] before compilation, so
   the semantics of a repeated block is the block written out n times (iterated yields).  The recorded trace
   may be run-length encoded the same way ([titem]); [agree_long] takes the fuel (number of steps / of already
   processed events yielded in a row) explicitly. *)
Inductive ritem := RI (i : instr) | RRep (n : nat) (body : list instr).

Fixpoint rep_app {A : Type} (n : nat) (block acc : list A) : list A :=
  match n with O => acc | S m => block ++ rep_app m block acc end.

Fixpoint expand (l : list ritem) : list instr :=
  match l with
  | [] => []
  | RI i :: t => i :: expand t
  | RRep n b :: t => rep_app n b (expand t)
  end.

Inductive titem := TO (o : observation) | TRep (n : nat) (block : list observation).

Fixpoint expand_tr (l : list titem) : list observation :=
  match l with
  | [] => []
  | TO o :: t => o :: expand_tr t
  | TRep n b :: t => rep_app n b (expand_tr t)
  end.

Definition model_run_long (fuel : nat) (t0 : Q) (scripts : list (list ritem)) (plan : list pitem)
  : list observation * list pres :=
  let '(s, rs) := run_plan_sel true fuel (map (fun c => compile (expand c)) scripts) plan (init_state t0) in
  (rev (obs s), rs).

Definition agree_long (fuel : nat) (t0 : Q) (scripts : list (list ritem)) (plan : list pitem)
                      (trace : list titem) (results : list pres) : bool :=
  let '(tr, rs) := model_run_long fuel t0 scripts plan in
  all2 obs_eqb tr (expand_tr trace) && all2 pres_eqb rs results.

Definition diagnose_long (fuel : nat) (t0 : Q) (scripts : list (list ritem)) (plan : list pitem)
                         (trace : list titem) (results : list pres) :=
  let '(tr, rs) := model_run_long fuel t0 scripts plan in
  (first_diff obs_eqb tr (expand_tr trace) 0, first_diff pres_eqb rs results 0, List.length tr).

(* Digest of a trace, for long traces that would be too large as a literal term: a rolling hash of a structural
   encoding of every observation (times after Qred), mirrored by props/kernel_common.py [trace_digest].
   [agree_digest] compares the number of entries, the digest of the WHOLE trace and, literally, its last entries. *)
Definition HP : Z := 2305843009213693951%Z.     (* 2^61 - 1 *)
Definition HB : Z := 1000003%Z.
Definition hmix (h x : Z) : Z := ((h * HB + x + 1) mod HP)%Z.

Definition enc_q (q : Q) (h : Z) : Z := let r := Qred q in hmix (hmix h (Qnum r)) (Zpos (Qden r)).
Definition enc_cls (c : ecls) (h : Z) : Z :=
  match c with
  | EInterrupt => hmix h 1 | ERuntime => hmix h 2 | EValue => hmix h 3 | EAttribute => hmix h 4
  | EType => hmix h 5 | EAssert => hmix h 6 | EUser t => hmix (hmix h 7) t
  end.

Fixpoint enc_val (v : val) (h : Z) : Z :=
  match v with
  | VNone => hmix h 1
  | VInt z => hmix (hmix h 2) z
  | VNum q => enc_q q (hmix h 3)
  | VEv e => hmix (hmix h 4) (Z.of_nat e)
  | VCond items =>
      (fix go (l : list (evid * val)) (h : Z) : Z :=
         match l with [] => hmix h 0 | (e, x) :: t => go t (enc_val x (hmix h (Z.of_nat e))) end) items (hmix h 5)
  | VList l =>
      (fix go (l : list val) (h : Z) : Z :=
         match l with [] => hmix h 0 | x :: t => go t (enc_val x h) end) l (hmix h 6)
  | VExn c args =>
      (fix go (l : list val) (h : Z) : Z :=
         match l with [] => hmix h 0 | x :: t => go t (enc_val x h) end) args (enc_cls c (hmix h 7))
  end.

Definition enc_outcome (o : option outcome) (h : Z) : Z :=
  match o with
  | None => hmix h 0
  | Some (Ok v) => enc_val v (hmix h 1)
  | Some (Fail x) => enc_val (exn_val x) (hmix h 2)
  end.

Definition enc_obs (o : observation) (h : Z) : Z :=
  match o with
  | OStep e t => enc_q t (hmix (hmix h 1) (Z.of_nat e))
  | OProbe n e t oc => enc_outcome oc (enc_q t (hmix (hmix (hmix h 2) (Z.of_nat n)) (Z.of_nat e)))
  | OLog p t v => enc_val v (enc_q t (hmix (hmix h 3) (match p with None => 0 | Some q => Z.of_nat (S q) end)))
  end.

Definition trace_digest (tr : list observation) : Z := fold_left (fun h o => enc_obs o h) tr 7%Z.

Definition agree_digest (fuel : nat) (t0 : Q) (scripts : list (list ritem)) (plan : list pitem)
                        (len : nat) (digest : Z) (tail : list observation) (results : list pres) : bool :=
  let '(tr, rs) := model_run_long fuel t0 scripts plan in
  Nat.eqb (List.length tr) len && Z.eqb (trace_digest tr) digest &&
  all2 obs_eqb (skipn (len - List.length tail) tr) tail && all2 pres_eqb rs results.

Definition diagnose_digest (fuel : nat) (t0 : Q) (scripts : list (list ritem)) (plan : list pitem) (k : nat) :=
  let '(tr, rs) := model_run_long fuel t0 scripts plan in
  (List.length tr, trace_digest tr, skipn (List.length tr - k) tr, rs).
