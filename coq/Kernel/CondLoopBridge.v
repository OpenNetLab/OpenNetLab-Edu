(* Bridging lemmas (DESIGN 2.6, second tie) for the LOOPS of Condition: __init__ (the part before its subscription loop, ONE
   iteration of that loop and what follows it), _populate_value and _remove_check_callbacks (ONE iteration each), as
   translated from the tree under test on every run (Gen/Extracted_condloops.v; state record = the position k in
   self._events), are run here on the operand list and shown to be [call_cond] / [cond_subscribe], [populate_ops]
   and [remove_ops] of the hand-written kernel model (Kernel/Model.v), with fuel 1 + number of operands.  The recursion
   into a nested condition is an effect whose meaning is the recursive call of the model ([rec]). *)
From Coq Require Import ZArith QArith List Bool Lia.
From ONL Require Import Kernel.Model Gen.Extracted_condloops.
Import ListNotations.

Lemma nth_pre {A} (pre rest : list A) x : nth_error (pre ++ x :: rest) (length pre) = Some x.
Proof. rewrite nth_error_app2 by lia. rewrite Nat.sub_diag. reflexivity. Qed.
Lemma nth_end {A} (pre : list A) : nth_error pre (length pre) = None.
Proof. apply nth_error_None. lia. Qed.
Lemma len_snoc {A} (pre : list A) x : (Z.of_nat (length pre) + 1)%Z = Z.of_nat (length (pre ++ [x])).
Proof. rewrite app_length. cbn. lia. Qed.
Lemma snoc_app {A} (pre rest : list A) x : pre ++ x :: rest = (pre ++ [x]) ++ rest.
Proof. rewrite <- app_assoc. reflexivity. Qed.

(* ---- Condition.__init__: the subscription loop -------------------------------------------------------------------- *)
Definition sub_fx (c o : evid) (s : state) (e : cloop_fx) : option state :=
  match e with
  | FxCheckOperand => Some (cond_check c o s)                                   (* self._check(event) *)
  | FxSubscribe => Some (match get_event o s with Some _ => add_callback o (CbCheck c) s | None => s end)
  | _ => None
  end.

Fixpoint run_subscribe (fuel : nat) (c : evid) (ops : list evid) (s : state) (r : cloop_st) : option state :=
  match fuel with
  | O => None
  | S fu =>
      let k := Z.to_nat (o_k r) in
      let o := nth k ops 0%nat in
      let processed := match nth_error ops k with
                       | Some o' => match get_event o' s with Some oev => is_processed oev | None => false end
                       | None => false
                       end in
      let '(r', fx) := gen_Condition_init_loop r (Z.of_nat (length ops)) processed false false in
      match fx with
      | [e; FxLoopAgain] => match sub_fx c o s e with Some s' => run_subscribe fu c ops s' r' | None => None end
      | [FxAssertCallbacks; FxAppendBuild] => Some (add_callback c (CbBuild c) s)       (* after the loop *)
      | _ => None
      end
  end.

Lemma run_subscribe_spec c rest : forall pre s,
  run_subscribe (S (length rest)) c (pre ++ rest) s {| o_k := Z.of_nat (length pre) |} =
  Some (add_callback c (CbBuild c) (cond_subscribe c rest s)).
Proof.
  induction rest as [|o t IH]; intros pre s.
  - cbn [run_subscribe length o_k cond_subscribe]. rewrite Nat2Z.id, app_nil_r, nth_end.
    unfold gen_Condition_init_loop. cbn [o_k].
    destruct (Z.ltb_spec (Z.of_nat (length pre)) (Z.of_nat (length pre))); [lia|reflexivity].
  - cbn [run_subscribe o_k cond_subscribe]. rewrite Nat2Z.id, nth_pre.
    replace (nth (length pre) (pre ++ o :: t) 0%nat) with o by (rewrite app_nth2, Nat.sub_diag by lia; reflexivity).
    unfold gen_Condition_init_loop. cbn [o_k]. rewrite app_length. cbn [length].
    destruct (Z.ltb_spec (Z.of_nat (length pre)) (Z.of_nat (length pre + S (length t)))); [|lia].
    rewrite len_snoc with (x := o), (snoc_app pre t o).
    destruct (get_event o s) as [oev|] eqn:EG.
    + destruct (is_processed oev); cbn [app sub_fx]; rewrite ?EG; apply IH.
    + cbn [app sub_fx]. rewrite EG. apply IH.
Qed.

(* the whole constructor: before the loop, the loop from k = 0, after the loop *)
Definition cond_init_fx (all : bool) (es : list evid) (s : state) (before : list cloop_fx) : option (state * outcome) :=
  let '(c, s1) := new_event (mkEvent (Some []) None false (KCond all es 0)) s in
  match before with
  | [FxEventInit; FxSetEvaluate; FxSetEvents; FxCountZero; FxSucceedEmpty] =>
      Some (trigger_event c (Ok (VCond [])) s1, Ok (VEv c))                       (* no operands: succeeds at once *)
  | [FxEventInit; FxSetEvaluate; FxSetEvents; FxCountZero; FxCheckSameEnv] =>      (* one environment: the check passes *)
      match run_subscribe (S (length es)) c es s1 {| o_k := 0 |} with
      | Some s2 => Some (s2, Ok (VEv c))
      | None => None
      end
  | _ => None
  end.

Lemma bridge_cond_init all es s :
  all_valid es s = true ->
  cond_init_fx all es s (snd (gen_Condition_init_before {| o_k := 0 |} (Z.of_nat (length es)) false false false)) =
  Some (call_cond all es s).
Proof.
  intros Hv. unfold call_cond, cond_init_fx, gen_Condition_init_before. rewrite Hv. cbn [negb].
  destruct (new_event (mkEvent (Some []) None false (KCond all es 0)) s) as [c s1].
  destruct es as [|o t]; [reflexivity|].
  replace (Z.of_nat (length (o :: t)) =? 0)%Z with false by (symmetry; apply Z.eqb_neq; cbn [length]; lia).
  cbn [negb snd].
  pose proof (run_subscribe_spec c (o :: t) [] s1) as H. change (Z.of_nat (length (@nil evid))) with 0%Z in H.
  cbn [app] in H. rewrite H. reflexivity.
Qed.

(* ---- Condition._populate_value --------------------------------------------------------------------------------------- *)
Section Populate.
  Variable rec : list evid -> option (list (evid * val)).      (* event._populate_value(value) of a nested condition *)
  Variable evs : list event.

  Fixpoint run_populate (fuel : nat) (ops : list evid) (acc : list (evid * val)) (r : cloop_st) : option (list (evid * val)) :=
    match fuel with
    | O => None
    | S fu =>
        let k := Z.to_nat (o_k r) in
        match nth_error ops k with
        | None => match snd (gen_Condition_populate_iter r (Z.of_nat (length ops)) false false false) with
                  | [] => Some acc
                  | _ => None
                  end
        | Some o =>
            match nth_error evs o with
            | None => None                                                       (* not an event *)
            | Some oev =>
                let '(r', fx) := gen_Condition_populate_iter r (Z.of_nat (length ops)) (is_processed oev) (is_cond oev) false in
                match fx with
                | [FxPopulateNested; FxLoopAgain] =>
                    match kind oev with
                    | KCond _ ops' _ => match rec ops' with Some inner => run_populate fu ops (acc ++ inner) r' | None => None end
                    | _ => None
                    end
                | [FxAppendLeaf; FxLoopAgain] =>
                    match raw_value oev with Some v => run_populate fu ops (acc ++ [(o, v)]) r' | None => None end
                | [FxLoopAgain] => run_populate fu ops acc r'
                | _ => None
                end
            end
        end
    end.

  Lemma run_populate_spec rest : forall pre acc,
    run_populate (S (length rest)) (pre ++ rest) acc {| o_k := Z.of_nat (length pre) |} =
    match populate_ops rec evs rest with Some l => Some (acc ++ l) | None => None end.
  Proof.
    induction rest as [|o t IH]; intros pre acc.
    - cbn [run_populate length o_k populate_ops]. rewrite Nat2Z.id, !app_nil_r, nth_end.
      unfold gen_Condition_populate_iter. cbn [o_k].
      destruct (Z.ltb_spec (Z.of_nat (length pre)) (Z.of_nat (length pre))); [lia|reflexivity].
    - cbn [run_populate o_k populate_ops]. rewrite Nat2Z.id, nth_pre.
      destruct (nth_error evs o) as [oev|]; [|reflexivity].
      unfold gen_Condition_populate_iter. cbn [o_k]. rewrite app_length. cbn [length].
      destruct (Z.ltb_spec (Z.of_nat (length pre)) (Z.of_nat (length pre + S (length t)))); [|lia].
      rewrite len_snoc with (x := o), (snoc_app pre t o).
      unfold is_cond, is_processed. destruct (kind oev) eqn:EK; cbn [app];
        try (destruct (cbs oev) as [l|];
             [rewrite IH; reflexivity
             |destruct (raw_value oev) as [v|]; [rewrite IH; destruct (populate_ops rec evs t); [rewrite <- app_assoc|]; reflexivity
                                               |reflexivity]]).
      destruct (rec ops) as [inner|]; [|reflexivity].
      rewrite IH. destruct (populate_ops rec evs t); [rewrite <- app_assoc|]; reflexivity.
  Qed.

  Lemma bridge_populate ops :
    run_populate (S (length ops)) ops [] {| o_k := 0 |} = populate_ops rec evs ops.
  Proof.
    pose proof (run_populate_spec ops [] []) as H. change (Z.of_nat (length (@nil evid))) with 0%Z in H. cbn [app] in H. rewrite H.
    destruct (populate_ops rec evs ops); reflexivity.
  Qed.
End Populate.

(* ---- Condition._remove_check_callbacks -------------------------------------------------------------------------------- *)
Section Remove.
  Variable rec : evid -> state -> option state.                (* event._remove_check_callbacks() of a nested condition *)
  Variable c : evid.

  Definition registered (oev : event) : bool :=                (* event.callbacks and self._check in event.callbacks *)
    match cbs oev with Some l => mem_cb (CbCheck c) l | None => false end.

  Fixpoint apply_remove (o : evid) (s : state) (fx : list cloop_fx) : option (option state) :=   (* None = bad sequence *)
    match fx with
    | [] => Some (Some s)
    | FxRemoveCheck :: t =>
        match get_event o s with
        | Some oev => match cbs oev with
                      | Some l => apply_remove o (upd_event o (ev_set_cbs (Some (remove_first (CbCheck c) l))) s) t
                      | None => None
                      end
        | None => None
        end
    | FxRemoveNested :: t => match rec o s with Some s' => apply_remove o s' t | None => Some None end
    | _ => None
    end.

  Fixpoint run_remove (fuel : nat) (ops : list evid) (s : state) (r : cloop_st) : option state :=
    match fuel with
    | O => None
    | S fu =>
        let k := Z.to_nat (o_k r) in
        match nth_error ops k with
        | None => match snd (gen_Condition_remove_iter r (Z.of_nat (length ops)) false false false) with
                  | [] => Some s
                  | _ => None
                  end
        | Some o =>
            match get_event o s with
            | None => None
            | Some oev =>
                let '(r', fx) := gen_Condition_remove_iter r (Z.of_nat (length ops)) false (is_cond oev) (registered oev) in
                match rev fx with
                | FxLoopAgain :: body =>
                    match apply_remove o s (rev body) with
                    | Some (Some s') => run_remove fu ops s' r'
                    | _ => None
                    end
                | _ => None
                end
            end
        end
    end.

  Lemma run_remove_spec rest : forall pre s,
    run_remove (S (length rest)) (pre ++ rest) s {| o_k := Z.of_nat (length pre) |} = remove_ops rec c rest s.
  Proof.
    induction rest as [|o t IH]; intros pre s.
    - cbn [run_remove length o_k remove_ops]. rewrite Nat2Z.id, app_nil_r, nth_end.
      unfold gen_Condition_remove_iter. cbn [o_k].
      destruct (Z.ltb_spec (Z.of_nat (length pre)) (Z.of_nat (length pre))); [lia|reflexivity].
    - cbn [run_remove o_k remove_ops]. rewrite Nat2Z.id, nth_pre.
      destruct (get_event o s) as [oev|] eqn:EG; [|reflexivity].
      unfold gen_Condition_remove_iter. cbn [o_k]. rewrite app_length. cbn [length].
      destruct (Z.ltb_spec (Z.of_nat (length pre)) (Z.of_nat (length pre + S (length t)))); [|lia].
      rewrite len_snoc with (x := o), (snoc_app pre t o).
      unfold remove_check_from, registered. rewrite EG.
      destruct (cbs oev) as [l|] eqn:EC; [destruct (mem_cb (CbCheck c) l) eqn:EM|];
        destruct (is_cond oev); cbn [app rev apply_remove]; rewrite ?EG, ?EC;
        try (destruct (rec o _) as [s2|]; [apply IH|reflexivity]); apply IH.
  Qed.

  Lemma bridge_remove ops s :
    run_remove (S (length ops)) ops s {| o_k := 0 |} = remove_ops rec c ops s.
  Proof. exact (run_remove_spec ops [] s). Qed.
End Remove.

(* ---- non-vacuity witness for the constructor: two pending events, all_of([e0, e1]) ------------------------------------ *)
Definition ex_cond_state : state := fst (call_event (fst (call_event (init_state 0)))).

Lemma ex_cond_init :
  all_valid [0%nat; 1%nat] ex_cond_state = true /\
  cond_init_fx true [0%nat; 1%nat] ex_cond_state
    (snd (gen_Condition_init_before {| o_k := 0 |} (Z.of_nat (length [0%nat; 1%nat])) false false false)) =
  Some (call_cond true [0%nat; 1%nat] ex_cond_state) /\
  (* the condition is event 2; both operands carry its _check, it carries _build_value and is not triggered *)
  option_map cbs (get_event 0%nat (fst (call_cond true [0%nat; 1%nat] ex_cond_state))) = Some (Some [CbCheck 2%nat]) /\
  option_map cbs (get_event 2%nat (fst (call_cond true [0%nat; 1%nat] ex_cond_state))) = Some (Some [CbBuild 2%nat]) /\
  option_map out (get_event 2%nat (fst (call_cond true [0%nat; 1%nat] ex_cond_state))) = Some None.
Proof.
  split; [reflexivity|]. split; [apply bridge_cond_init; reflexivity|]. repeat split; vm_compute; reflexivity.
Qed.
