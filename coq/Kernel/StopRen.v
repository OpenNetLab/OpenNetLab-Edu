(* Kernel/StopRen.v -- C03: renaming of event ids, and what it means for a program not to look inside them.

   A numeric horizon costs an event id and an insertion id (the sentinel), so in a split run everything created later carries
   shifted ids.  In Python an event is an opaque object; in Kernel/Model.v it is a number, and an automaton [prog] is an
   arbitrary Coq function that could compute with that number.  Transparency of numeric horizons therefore holds for -- and is
   stated for -- the automata that treat event ids as opaque tokens:

     ren_val f v / ren_outcome / ren_call     apply the id map f to every event id in a value / outcome / API call
     vdom n v / odom / cdom                   every event id in it is below n (an id that has been allocated); [cdom] also
                                              excludes the one call whose answer shows the sentinel: CPeek (env.peek())
     agree n f f'                             f and f' coincide below n
     frel S f n fr fr'                        fr' is fr with ids renamed: same calls (renamed), continuations related for every
                                              answer, in every later world (more ids allocated, f extended)
     fbis pr f n fr fr'                       the coinductive closure of that: the fragments make the same calls (renamed) and, for every
                                              answer in every later world, go on in related fragments, also across yields
     pbis pr f n a a'                         automaton states a and a' are bisimilar up to renaming, now and in every later world
     parametric pr                            renaming the argument of a new process renames the process
     parametric_codes codes                   every automaton of the table is parametric

   Programs compiled from scripts (Kernel/Script.v) are parametric: StopScript.v. *)
From Coq Require Import ZArith QArith List Bool Lia.
From ONL Require Import Kernel.Model.
Import ListNotations.

(* ------------------------------------------------------------------------------------------------ *)
(* renaming *)

Fixpoint ren_val (f : nat -> nat) (v : val) : val :=
  match v with
  | VNone => VNone
  | VInt z => VInt z
  | VNum x => VNum x
  | VEv e => VEv (f e)
  | VCond items => VCond ((fix go (l : list (evid * val)) : list (evid * val) :=
                             match l with [] => [] | (e, x) :: t => (f e, ren_val f x) :: go t end) items)
  | VList l => VList ((fix go (l : list val) : list val := match l with [] => [] | x :: t => ren_val f x :: go t end) l)
  | VExn c args => VExn c ((fix go (l : list val) : list val := match l with [] => [] | x :: t => ren_val f x :: go t end) args)
  end.

Definition ren_vals (f : nat -> nat) (l : list val) : list val := map (ren_val f) l.
Definition ren_items (f : nat -> nat) (l : list (evid * val)) : list (evid * val) :=
  map (fun p => (f (fst p), ren_val f (snd p))) l.

Lemma ren_val_list f l : ren_val f (VList l) = VList (ren_vals f l).
Proof. reflexivity. Qed.
Lemma ren_val_exn f c l : ren_val f (VExn c l) = VExn c (ren_vals f l).
Proof. reflexivity. Qed.
Lemma ren_val_cond f l : ren_val f (VCond l) = VCond (ren_items f l).
Proof. cbn [ren_val]. f_equal. induction l as [|[e x] t IH]; [reflexivity|]. unfold ren_items in *. cbn [map fst snd]. rewrite <- IH. reflexivity. Qed.

Fixpoint vdom (n : nat) (v : val) : bool :=
  match v with
  | VNone | VInt _ | VNum _ => true
  | VEv e => Nat.ltb e n
  | VCond items => (fix go (l : list (evid * val)) : bool :=
                      match l with [] => true | (e, x) :: t => Nat.ltb e n && vdom n x && go t end) items
  | VList l => (fix go (l : list val) : bool := match l with [] => true | x :: t => vdom n x && go t end) l
  | VExn _ args => (fix go (l : list val) : bool := match l with [] => true | x :: t => vdom n x && go t end) args
  end.

Definition vsdom (n : nat) (l : list val) : bool := forallb (vdom n) l.
Definition idom (n : nat) (l : list (evid * val)) : bool := forallb (fun p => Nat.ltb (fst p) n && vdom n (snd p)) l.

Lemma vdom_list n l : vdom n (VList l) = vsdom n l.
Proof. reflexivity. Qed.
Lemma vdom_exn n c l : vdom n (VExn c l) = vsdom n l.
Proof. reflexivity. Qed.
Lemma vdom_cond n l : vdom n (VCond l) = idom n l.
Proof. cbn [vdom]. induction l as [|[e x] t IH]; [reflexivity|]. unfold idom in *. cbn [forallb fst snd]. rewrite <- IH. reflexivity. Qed.

Definition ren_exn (f : nat -> nat) (x : exn) : exn := (fst x, ren_vals f (snd x)).
Definition xdom (n : nat) (x : exn) : bool := vsdom n (snd x).

Definition ren_outcome (f : nat -> nat) (o : outcome) : outcome :=
  match o with Ok v => Ok (ren_val f v) | Fail x => Fail (ren_exn f x) end.
Definition odom (n : nat) (o : outcome) : bool := match o with Ok v => vdom n v | Fail x => xdom n x end.

Definition ren_call (f : nat -> nat) (c : call) : call :=
  match c with
  | CTimeout d v => CTimeout d (ren_val f v)
  | CEvent => CEvent
  | CSucceed e v => CSucceed (f e) (ren_val f v)
  | CFail e x => CFail (f e) (ren_val f x)
  | CSpawn code arg => CSpawn code (ren_val f arg)
  | CInterrupt e cause => CInterrupt (f e) (ren_val f cause)
  | CAllOf es => CAllOf (map f es)
  | CAnyOf es => CAnyOf (map f es)
  | CProbe e n => CProbe (f e) n
  | CQuery q e => CQuery q (f e)
  | CNow => CNow
  | CPeek => CPeek
  | CLog v => CLog (ren_val f v)
  | CGetG g => CGetG g
  | CSetG g v => CSetG g (ren_val f v)
  end.

Definition esdom (n : nat) (es : list evid) : bool := forallb (fun e => Nat.ltb e n) es.

(* the calls a parametric program may make, with ids that exist; CPeek is excluded: peek() shows the sentinel *)
Definition cdom (n : nat) (c : call) : bool :=
  match c with
  | CTimeout _ v => vdom n v
  | CEvent => true
  | CSucceed e v => Nat.ltb e n && vdom n v
  | CFail e x => Nat.ltb e n && vdom n x
  | CSpawn _ arg => vdom n arg
  | CInterrupt e cause => Nat.ltb e n && vdom n cause
  | CAllOf es | CAnyOf es => esdom n es
  | CProbe e _ => Nat.ltb e n
  | CQuery _ e => Nat.ltb e n
  | CNow => true
  | CPeek => false
  | CLog v => vdom n v
  | CGetG _ => true
  | CSetG _ v => vdom n v
  end.

Definition agree (n : nat) (f f' : nat -> nat) : Prop := forall i, (i < n)%nat -> f i = f' i.
Definition inj (f : nat -> nat) : Prop := forall i j, f i = f j -> i = j.

Lemma agree_refl n f : agree n f f. Proof. intros i _. reflexivity. Qed.
Lemma agree_trans n n' f1 f2 f3 : (n <= n')%nat -> agree n f1 f2 -> agree n' f2 f3 -> agree n f1 f3.
Proof. intros L A B i Hi. rewrite (A i Hi). apply B. lia. Qed.
Lemma agree_le n n' f f' : (n <= n')%nat -> agree n' f f' -> agree n f f'.
Proof. intros L A i Hi. apply A. lia. Qed.

(* ---- monotonicity of domains, renaming depends on the map below the domain only ---- *)

Lemma val_ind' (P : val -> Prop) :
  P VNone -> (forall z, P (VInt z)) -> (forall x, P (VNum x)) -> (forall e, P (VEv e)) ->
  (forall items, Forall (fun p => P (snd p)) items -> P (VCond items)) ->
  (forall l, Forall P l -> P (VList l)) -> (forall c l, Forall P l -> P (VExn c l)) -> forall v, P v.
Proof.
  intros H1 H2 H3 H4 H5 H6 H7. fix IH 1. intros [|z|x|e|items|l|c l]; [exact H1|apply H2|apply H3|apply H4| | |].
  - apply H5. induction items as [|[e x] t IHt]; constructor; [apply IH|exact IHt].
  - apply H6. induction l as [|x t IHt]; constructor; [apply IH|exact IHt].
  - apply H7. induction l as [|x t IHt]; constructor; [apply IH|exact IHt].
Qed.

Lemma vdom_mono n n' v : (n <= n')%nat -> vdom n v = true -> vdom n' v = true.
Proof.
  intros L. induction v as [| | |e|items IH|l IH|c l IH] using val_ind'; try (intros; reflexivity).
  - cbn [vdom]. rewrite !Nat.ltb_lt. lia.
  - rewrite !vdom_cond. unfold idom. induction IH as [|[e x] t Hx _ IHt]; cbn [forallb fst snd]; [auto|].
    rewrite !andb_true_iff, !Nat.ltb_lt. intros [[A B] C]. cbn [snd] in Hx. repeat split; [lia|auto|auto].
  - rewrite !vdom_list. unfold vsdom. induction IH as [|x t Hx _ IHt]; cbn [forallb]; [auto|].
    rewrite !andb_true_iff. intros [A B]. split; auto.
  - rewrite !vdom_exn. unfold vsdom. induction IH as [|x t Hx _ IHt]; cbn [forallb]; [auto|].
    rewrite !andb_true_iff. intros [A B]. split; auto.
Qed.

Lemma vsdom_mono n n' l : (n <= n')%nat -> vsdom n l = true -> vsdom n' l = true.
Proof.
  intros L. unfold vsdom. induction l as [|x t IH]; cbn [forallb]; [auto|]. rewrite !andb_true_iff. intros [A B].
  split; [eapply vdom_mono; eassumption|auto].
Qed.

Lemma odom_mono n n' o : (n <= n')%nat -> odom n o = true -> odom n' o = true.
Proof. intros L. destruct o as [v|x]; cbn; [apply vdom_mono, L|apply vsdom_mono, L]. Qed.

Lemma ren_val_agree n f f' v : agree n f f' -> vdom n v = true -> ren_val f v = ren_val f' v.
Proof.
  intros A. induction v as [| | |e|items IH|l IH|c l IH] using val_ind'; try (intros; reflexivity).
  - cbn [vdom ren_val]. rewrite Nat.ltb_lt. intros H. now rewrite (A _ H).
  - rewrite vdom_cond, !ren_val_cond. unfold idom, ren_items. intros H. f_equal.
    induction IH as [|[e x] t Hx _ IHt]; cbn [forallb map fst snd] in *; [reflexivity|].
    rewrite !andb_true_iff, Nat.ltb_lt in H. destruct H as [[H1 H2] H3]. rewrite (A _ H1), (Hx H2), (IHt H3). reflexivity.
  - rewrite vdom_list, !ren_val_list. unfold vsdom, ren_vals. intros H. f_equal.
    induction IH as [|x t Hx _ IHt]; cbn [forallb map] in *; [reflexivity|].
    rewrite andb_true_iff in H. destruct H as [H1 H2]. now rewrite (Hx H1), (IHt H2).
  - rewrite vdom_exn, !ren_val_exn. unfold vsdom, ren_vals. intros H. f_equal.
    induction IH as [|x t Hx _ IHt]; cbn [forallb map] in *; [reflexivity|].
    rewrite andb_true_iff in H. destruct H as [H1 H2]. now rewrite (Hx H1), (IHt H2).
Qed.

Lemma ren_vals_agree n f f' l : agree n f f' -> vsdom n l = true -> ren_vals f l = ren_vals f' l.
Proof.
  intros A. unfold vsdom, ren_vals. induction l as [|x t IH]; cbn [forallb map]; [reflexivity|]. rewrite andb_true_iff. intros [H1 H2].
  now rewrite (ren_val_agree _ _ _ _ A H1), (IH H2).
Qed.

Lemma ren_outcome_agree n f f' o : agree n f f' -> odom n o = true -> ren_outcome f o = ren_outcome f' o.
Proof.
  intros A. destruct o as [v|[c l]]; unfold odom, xdom, ren_outcome, ren_exn; cbn [fst snd]; intros H.
  - now rewrite (ren_val_agree _ _ _ _ A H).
  - now rewrite (ren_vals_agree _ _ _ _ A H).
Qed.

(* ------------------------------------------------------------------------------------------------ *)
(* programs that treat event ids as opaque tokens *)

(* two code fragments of automaton pr that are each other's renaming: same calls with renamed arguments, and for every answer
   -- in every later world: more ids allocated, the id map extended -- related continuations; at a yield the suspended
   automaton states are related in the same sense for whatever they are resumed with.  Coinductive because a resumed
   automaton runs another fragment; only ever DEstructed by the simulation proof. *)
CoInductive fbis (pr : prog) : (nat -> nat) -> nat -> frag (St pr) -> frag (St pr) -> Prop :=
| fb_yield f n v a a' :
    vdom n v = true ->
    (forall f' n', agree n f f' -> (n <= n')%nat -> inj f' -> forall o, odom n' o = true ->
                   fbis pr f' n' (resume pr a o) (resume pr a' (ren_outcome f' o))) ->
    fbis pr f n (FYield v a) (FYield (ren_val f v) a')
| fb_ret f n v : vdom n v = true -> fbis pr f n (FRet v) (FRet (ren_val f v))
| fb_raise f n x : xdom n x = true -> fbis pr f n (FRaise x) (FRaise (ren_exn f x))
| fb_call f n c k k' :
    cdom n c = true ->
    (forall f' n', agree n f f' -> (n <= n')%nat -> inj f' -> forall o, odom n' o = true ->
                   fbis pr f' n' (k o) (k' (ren_outcome f' o))) ->
    fbis pr f n (FCall c k) (FCall (ren_call f c) k').

(* suspended automaton states *)
Definition pbis (pr : prog) (f : nat -> nat) (n : nat) (a a' : St pr) : Prop :=
  forall f' n', agree n f f' -> (n <= n')%nat -> inj f' -> forall o, odom n' o = true ->
                fbis pr f' n' (resume pr a o) (resume pr a' (ren_outcome f' o)).

Definition parametric (pr : prog) : Prop :=
  forall f n arg, inj f -> vdom n arg = true -> pbis pr f n (start pr arg) (start pr (ren_val f arg)).

Definition parametric_codes (codes : list prog) : Prop := forall pr, In pr codes -> parametric pr.

Lemma pbis_mono pr f n a a' f' n' : pbis pr f n a a' -> agree n f f' -> (n <= n')%nat -> pbis pr f' n' a a'.
Proof.
  intros H Ag L f'' n'' Ag' L' I o O. apply H; [eapply agree_trans; eassumption|lia|exact I|exact O].
Qed.

Lemma pbis_resume pr f n a a' o :
  pbis pr f n a a' -> inj f -> odom n o = true -> fbis pr f n (resume pr a o) (resume pr a' (ren_outcome f o)).
Proof. intros H I O. apply H; [apply agree_refl|lia|exact I|exact O]. Qed.

(* how to show that a program is parametric: an inductive (finite) version of the relation on fragments, over any relation S
   on automaton states that is closed under "resume" *)
Section Frel.
  Context {A : Type}.
  Variable S : (nat -> nat) -> nat -> A -> A -> Prop.

  Inductive frel (f : nat -> nat) (n : nat) : frag A -> frag A -> Prop :=
  | frel_yield v a a' : vdom n v = true -> S f n a a' -> frel f n (FYield v a) (FYield (ren_val f v) a')
  | frel_ret v : vdom n v = true -> frel f n (FRet v) (FRet (ren_val f v))
  | frel_raise x : xdom n x = true -> frel f n (FRaise x) (FRaise (ren_exn f x))
  | frel_call c k k' :
      cdom n c = true ->
      (forall f' n', agree n f f' -> (n <= n')%nat -> inj f' -> forall o, odom n' o = true ->
                     frel f' n' (k o) (k' (ren_outcome f' o))) ->
      frel f n (FCall c k) (FCall (ren_call f c) k').
End Frel.

Lemma frel_fbis pr (S : (nat -> nat) -> nat -> St pr -> St pr -> Prop) :
  (forall f n a a', S f n a a' -> forall f' n', agree n f f' -> (n <= n')%nat -> inj f' -> forall o, odom n' o = true ->
      frel S f' n' (resume pr a o) (resume pr a' (ren_outcome f' o))) ->
  forall f n fr fr', frel S f n fr fr' -> fbis pr f n fr fr'.
Proof.
  intros H. cofix CIH. intros f n fr fr' R. destruct R as [v a a' V Sa|v V|x X|c k k' C K].
  - constructor; [exact V|]. intros f' n' Ag L I o O. apply CIH. exact (H _ _ _ _ Sa f' n' Ag L I o O).
  - constructor; exact V.
  - constructor; exact X.
  - constructor; [exact C|]. intros f' n' Ag L I o O. apply CIH. exact (K f' n' Ag L I o O).
Qed.

Lemma parametric_intro pr (S : (nat -> nat) -> nat -> St pr -> St pr -> Prop) :
  (forall f n a a', S f n a a' -> forall f' n', agree n f f' -> (n <= n')%nat -> inj f' -> forall o, odom n' o = true ->
      frel S f' n' (resume pr a o) (resume pr a' (ren_outcome f' o))) ->
  (forall f n arg, inj f -> vdom n arg = true -> S f n (start pr arg) (start pr (ren_val f arg))) ->
  parametric pr.
Proof.
  intros H St0 f n arg I V f' n' Ag L I' o O. eapply frel_fbis; [exact H|]. exact (H _ _ _ _ (St0 f n arg I V) f' n' Ag L I' o O).
Qed.
