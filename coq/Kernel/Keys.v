(* Kernel/Keys.v -- the key order of the agenda (time, priority, eid) and the facts about min_entry / pop_min. *)
From Coq Require Import ZArith QArith List Bool Lia Lqa.
From ONL Require Import Kernel.Model.
Import ListNotations.

(* ------------------------------------------------------------------------------------------------ *)
(* the key order *)

Definition key_lt (a b : entry) : Prop :=
  e_time a < e_time b \/
  (e_time a == e_time b /\ ((e_prio a < e_prio b)%nat \/ (e_prio a = e_prio b /\ (e_eid a < e_eid b)%nat))).

Definition key_le (a b : entry) : Prop :=
  e_time a < e_time b \/
  (e_time a == e_time b /\ ((e_prio a < e_prio b)%nat \/ (e_prio a = e_prio b /\ (e_eid a <= e_eid b)%nat))).

Lemma key_ltb_iff a b : key_ltb a b = true <-> key_lt a b.
Proof.
  unfold key_ltb, key_lt.
  destruct (e_time a ?= e_time b) eqn:C.
  - apply Qeq_alt in C. rewrite orb_true_iff, andb_true_iff, !Nat.ltb_lt, Nat.eqb_eq.
    split.
    + intros H. right. split; [exact C|]. tauto.
    + intros [H|[_ H]]; [lra|tauto].
  - apply Qlt_alt in C. split; [intros _; left; exact C|reflexivity].
  - apply Qgt_alt in C. split; [discriminate|]. intros [H|[H _]]; lra.
Qed.

Lemma key_ltb_false a b : key_ltb a b = false <-> key_le b a.
Proof.
  unfold key_ltb, key_le.
  destruct (e_time a ?= e_time b) eqn:C.
  - apply Qeq_alt in C. rewrite orb_false_iff, andb_false_iff, !Nat.ltb_ge, Nat.eqb_neq.
    split.
    + intros [H1 H2]. right. split; [lra|]. lia.
    + intros [H|[_ H]]; [lra|lia].
  - apply Qlt_alt in C. split; [discriminate|]. intros [H|[H _]]; lra.
  - apply Qgt_alt in C. split; [intros _; left; lra|reflexivity].
Qed.

Lemma key_lt_le a b : key_lt a b -> key_le a b.
Proof. unfold key_lt, key_le. intros [H|[H [H'|[H' H'']]]]; [left; exact H| right; split; [exact H|left; exact H'] | right; split; [exact H|right; lia]]. Qed.

Lemma key_le_iff_not_lt a b : key_le a b <-> ~ key_lt b a.
Proof. rewrite <- key_ltb_false, <- key_ltb_iff. destruct (key_ltb b a); split; congruence. Qed.

Lemma key_le_not_lt a b : key_le a b -> ~ key_lt b a.
Proof. apply key_le_iff_not_lt. Qed.

Lemma key_lt_irrefl a : ~ key_lt a a.
Proof. unfold key_lt. intros [H|[_ [H|[_ H]]]]; [lra|lia|lia]. Qed.

Lemma key_lt_asym a b : key_lt a b -> ~ key_lt b a.
Proof. intros H. apply key_le_not_lt, key_lt_le, H. Qed.

Lemma key_le_trans a b c : key_le a b -> key_le b c -> key_le a c.
Proof.
  unfold key_le.
  intros [H|[H [H'|[H' H'']]]] [K|[K [K'|[K' K'']]]];
    solve [ left; lra
          | right; split; [lra|]; solve [left; lia | right; split; lia] ].
Qed.

Lemma key_lt_trans a b c : key_lt a b -> key_lt b c -> key_lt a c.
Proof.
  unfold key_lt.
  intros [H|[H [H'|[H' H'']]]] [K|[K [K'|[K' K'']]]];
    solve [ left; lra
          | right; split; [lra|]; solve [left; lia | right; split; lia] ].
Qed.

(* keys with different insertion ids are strictly ordered *)
Lemma key_le_neq_lt a b : key_le a b -> e_eid a <> e_eid b -> key_lt a b.
Proof.
  unfold key_le, key_lt. intros [H|[H [H'|[H' H'']]]] N;
    [left; exact H | right; split; [exact H|left; exact H'] | right; split; [exact H|right; lia]].
Qed.

Lemma key_le_time a b : key_le a b -> e_time a <= e_time b.
Proof. unfold key_le. intros [H|[H _]]; lra. Qed.

(* ------------------------------------------------------------------------------------------------ *)
(* min_entry / remove_eid / pop_min *)

Lemma min_entry_in l m : min_entry l = Some m -> In m l.
Proof.
  revert m. induction l as [|x t IH]; cbn [min_entry]; [discriminate|].
  intros m. destruct (min_entry t) as [m'|] eqn:E.
  - destruct (key_ltb m' x); intros H; injection H as <-; [right; apply IH; reflexivity|left; reflexivity].
  - intros H; injection H as <-. left; reflexivity.
Qed.

Lemma min_entry_le l m : min_entry l = Some m -> forall x, In x l -> key_le m x.
Proof.
  revert m. induction l as [|y t IH]; cbn [min_entry]; [discriminate|].
  intros m. destruct (min_entry t) as [m'|] eqn:E.
  - destruct (key_ltb m' y) eqn:K; intros H; injection H as <-; intros x [<-|Hx].
    + apply key_lt_le, key_ltb_iff, K.
    + apply IH; [reflexivity|exact Hx].
    + right. split; [reflexivity|]. right. split; reflexivity || lia.
    + apply key_ltb_false in K. eapply key_le_trans; [exact K|]. apply IH; [reflexivity|exact Hx].
  - intros H; injection H as <-. intros x [<-|Hx].
    + right. split; [reflexivity|]. right. split; reflexivity || lia.
    + destruct t; [destruct Hx|]. cbn [min_entry] in E. destruct (min_entry t); [destruct (key_ltb e0 e)|]; discriminate.
Qed.

Lemma min_entry_none l : min_entry l = None -> l = [].
Proof.
  destruct l as [|x t]; [reflexivity|]. cbn [min_entry].
  destruct (min_entry t); [destruct (key_ltb e x)|]; discriminate.
Qed.

Lemma remove_eid_subset id l x : In x (remove_eid id l) -> In x l.
Proof.
  induction l as [|y t IH]; cbn [remove_eid]; [tauto|].
  destruct (Nat.eqb (e_eid y) id); [intros H; right; exact H|].
  intros [<-|H]; [left; reflexivity|right; apply IH, H].
Qed.

Lemma remove_eid_keeps id l x : In x l -> e_eid x <> id -> In x (remove_eid id l).
Proof.
  induction l as [|y t IH]; cbn [remove_eid]; [tauto|].
  intros [<-|H] N.
  - destruct (Nat.eqb (e_eid y) id) eqn:E; [apply Nat.eqb_eq in E; contradiction|left; reflexivity].
  - destruct (Nat.eqb (e_eid y) id); [exact H|right; apply IH; assumption].
Qed.

Lemma remove_eid_not_in id l : NoDup (map e_eid l) -> forall x, In x (remove_eid id l) -> e_eid x <> id.
Proof.
  induction l as [|y t IH]; cbn [remove_eid map]; [intros _ x []|].
  intros ND x. inversion ND as [|? ? Hn ND']; subst.
  destruct (Nat.eqb (e_eid y) id) eqn:E.
  - apply Nat.eqb_eq in E. intros Hx Heq. apply Hn. rewrite E, <- Heq. apply in_map, Hx.
  - apply Nat.eqb_neq in E. intros [<-|Hx]; [exact E|apply IH; assumption].
Qed.

Lemma nodup_app {A} (l1 l2 : list A) :
  NoDup l1 -> NoDup l2 -> (forall x, In x l1 -> ~ In x l2) -> NoDup (l1 ++ l2).
Proof.
  induction l1 as [|a t IH]; cbn [app]; intros H1 H2 H; [exact H2|].
  inversion H1 as [|? ? Hn H1']; subst. constructor.
  - intros Hin. apply in_app_or in Hin. destruct Hin as [Hin|Hin]; [exact (Hn Hin)|]. exact (H a (or_introl eq_refl) Hin).
  - apply IH; [exact H1'|exact H2|]. intros x Hx. apply H. right. exact Hx.
Qed.

Lemma nodup_eid_inj l x y : NoDup (map e_eid l) -> In x l -> In y l -> e_eid x = e_eid y -> x = y.
Proof.
  induction l as [|a t IH]; cbn [map In]; [tauto|]. intros ND Hx Hy E. inversion ND as [|? ? Hn ND']; subst.
  destruct Hx as [->|Hx], Hy as [->|Hy]; auto.
  - exfalso. apply Hn. rewrite E. apply in_map, Hy.
  - exfalso. apply Hn. rewrite <- E. apply in_map, Hx.
Qed.

Lemma remove_eid_nodup id l : NoDup (map e_eid l) -> NoDup (map e_eid (remove_eid id l)).
Proof.
  induction l as [|y t IH]; cbn [remove_eid map]; [intros H; exact H|].
  intros ND. inversion ND as [|? ? Hn ND']; subst.
  destruct (Nat.eqb (e_eid y) id); [exact ND'|].
  cbn [map]. constructor; [|apply IH, ND'].
  intros Hin. apply Hn. apply in_map_iff in Hin. destruct Hin as (x & Hx & Hin).
  apply in_map_iff. exists x. split; [exact Hx|eapply remove_eid_subset, Hin].
Qed.

Lemma pop_min_spec l m rest :
  pop_min l = Some (m, rest) ->
  In m l /\ rest = remove_eid (e_eid m) l /\ forall x, In x l -> key_le m x.
Proof.
  unfold pop_min. destruct (min_entry l) as [m'|] eqn:E; [|discriminate].
  intros H; injection H as <- <-.
  split; [apply min_entry_in, E|]. split; [reflexivity|]. apply min_entry_le, E.
Qed.

Lemma pop_min_none l : pop_min l = None -> l = [].
Proof. unfold pop_min. destruct (min_entry l) eqn:E; [discriminate|]. intros _. apply min_entry_none, E. Qed.
