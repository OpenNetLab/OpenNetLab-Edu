(* Kernel/CondProofs.v -- C05 (conditions): the property theorems.
   Statements are collected in Props/C05.v; see there for the reading of each theorem. *)
From Coq Require Import ZArith QArith List Bool Lia.
From ONL Require Import Kernel.Model Kernel.Keys Kernel.Prims Kernel.Cond Kernel.CondInv.
Import ListNotations.

(* ------------------------------------------------------------------------------------------------ *)
(* what one primitive does to one event: kinds are fixed (only the counter of a condition moves, and only in
   _check), an outcome is set once -- by an explicit succeed/fail (label), by _check, or (Process events) by the
   end of the process --, defusal is permanent, only a pop makes an event processed *)

Definition out_step (x : option evid) (a : evid) (ev ev1 : event) : Prop :=
  out ev1 = out ev \/ (out ev = None /\ x = Some a) \/ (exists q, kind ev = KProcess q).

Definition keeps (x : option evid) (s s1 : state) : Prop :=
  forall a ev, get_event a s = Some ev -> exists ev1, get_event a s1 = Some ev1 /\ kind ev1 = kind ev /\
    (defused ev = true -> defused ev1 = true) /\ (cbs ev = None <-> cbs ev1 = None) /\ out_step x a ev ev1.

Lemma keeps_same x s s1 : events s1 = events s -> keeps x s s1.
Proof.
  intros E a ev H. exists ev. split; [unfold get_event in *; rewrite E; exact H|]. repeat split; auto. left; reflexivity.
Qed.

Lemma keeps_upd x e f s :
  (forall ev, get_event e s = Some ev -> kind (f ev) = kind ev /\ (defused ev = true -> defused (f ev) = true) /\
                (cbs ev = None <-> cbs (f ev) = None) /\ out_step x e ev (f ev)) ->
  keeps x s (upd_event e f s).
Proof.
  intros Hf a ev H. rewrite get_event_upd. destruct (Nat.eqb a e) eqn:E.
  - apply Nat.eqb_eq in E. subst a. rewrite H. cbn. exists (f ev). split; [reflexivity|apply Hf, H].
  - exists ev. split; [exact H|]. repeat split; auto. left; reflexivity.
Qed.

Lemma noproc_of_keeps x s s1 : keeps x s s1 -> (forall a, get_event a s = None -> is_proc s1 a = false) -> noproc s s1.
Proof.
  intros K N o. unfold is_proc at 2. destruct (get_event o s) as [ev|] eqn:E.
  - destruct (K _ _ E) as (ev1 & E1 & _ & _ & C & _). unfold is_proc. rewrite E1. unfold is_processed.
    destruct (cbs ev), (cbs ev1); auto.
    + destruct C as [_ C]. specialize (C eq_refl). discriminate.
    + destruct C as [C _]. specialize (C eq_refl). discriminate.
  - apply N, E.
Qed.

Lemma is_proc_none s a : get_event a s = None -> is_proc s a = false.
Proof. intros H. unfold is_proc. rewrite H. reflexivity. Qed.

Lemma iprim_keeps x s s1 : iprim x s s1 -> keeps x s s1 /\ noproc s s1.
Proof.
  intros P.
  assert (UPD : forall e f, s1 = upd_event e f s ->
            (forall ev, get_event e s = Some ev -> kind (f ev) = kind ev /\ (defused ev = true -> defused (f ev) = true) /\
                (cbs ev = None <-> cbs (f ev) = None) /\ out_step x e ev (f ev)) -> keeps x s s1 /\ noproc s s1).
  { intros e f -> Hf. pose proof (keeps_upd x e f s Hf) as K. split; [exact K|]. eapply noproc_of_keeps; [exact K|].
    intros a Ha. apply is_proc_none. rewrite get_event_upd. rewrite Ha. destruct (Nat.eqb a e); reflexivity. }
  assert (SAME : events s1 = events s -> keeps x s s1 /\ noproc s s1).
  { intros E. split; [apply keeps_same, E|]. intros o. unfold is_proc, get_event. rewrite E. reflexivity. }
  destruct P.
  - apply SAME, H.
  - split.
    + intros a ev0 H0. exists ev0. split; [rewrite get_event_new_below; [exact H0|eapply get_event_lt, H0]|]. repeat split; auto. left; reflexivity.
    + intros o. unfold is_proc. rewrite get_new. destruct (Nat.ltb o (length (events s))) eqn:L; [reflexivity|].
      apply Nat.ltb_ge in L. rewrite (get_ge o s L). destruct (Nat.eqb o (length (events s))); [|reflexivity].
      destruct H as ((l & C & _) & _). unfold is_processed. rewrite C. reflexivity.
  - apply SAME. reflexivity.
  - eapply UPD; [reflexivity|]. intros ev H0. unfold ev_add_cb. destruct (cbs ev) eqn:C; cbn.
    + repeat split; auto; try discriminate. left; reflexivity.
    + repeat split; auto. left; reflexivity.
  - eapply UPD; [reflexivity|]. intros ev0 H2. rewrite H in H2. injection H2 as <-. cbn.
    repeat split; auto; try discriminate; try congruence. left; reflexivity.
  - eapply UPD; [reflexivity|]. intros ev0 H2. rewrite H in H2. injection H2 as <-. cbn.
    repeat split; auto. right. left. auto.
  - eapply UPD; [reflexivity|]. intros ev0 H2. rewrite H in H2. injection H2 as <-. cbn.
    repeat split; auto. right. right. exists q. exact H0.
  - eapply UPD; [reflexivity|]. intros ev0 H2. cbn. repeat split; auto. left; reflexivity.
  - apply SAME. reflexivity.
  - pose proof (call_cond_spec all es s H) as M. split.
    + intros a ev H0. destruct (cm_old _ _ _ _ M _ _ H0) as (ev' & H' & K & O & D & _ & C). exists ev'.
      split; [exact H'|]. split; [exact K|]. split; [exact D|]. split; [|left; exact O].
      rewrite C. destruct (cbs ev); split; congruence.
    + exact (made_noproc _ _ _ _ M).
Qed.

Lemma iptrace_keeps X' s s' a ev :
  iptrace X' s s' -> ~ In a X' \/ out ev <> None -> get_event a s = Some ev ->
  exists ev1, get_event a s' = Some ev1 /\ kind ev1 = kind ev /\ (defused ev = true -> defused ev1 = true) /\
              (cbs ev = None <-> cbs ev1 = None) /\ (out ev1 = out ev \/ exists q, kind ev = KProcess q) /\
              (out ev <> None -> out ev1 <> None).
Proof.
  intros T. revert ev. induction T as [|x X' s s1 s2 P T IH]; intros ev N H.
  - exists ev. repeat split; auto.
  - destruct (proj1 (iprim_keeps _ _ _ P) _ _ H) as (ev1 & H1 & K1 & D1 & C1 & O1).
    assert (G1 : out ev <> None -> out ev1 <> None).
    { destruct (proj1 (iprim_grows _ _ _ P) _ _ H) as (ev1' & H1' & _ & _ & Gn & _). rewrite H1 in H1'. injection H1' as <-. exact Gn. }
    assert (N2 : ~ In a X' \/ out ev1 <> None).
    { destruct N as [N|N]; [left; intros Hin; apply N, in_or_app; right; exact Hin|right; apply G1, N]. }
    destruct (IH ev1 N2 H1) as (ev2 & H2 & K2 & D2 & C2 & O2 & G2). exists ev2. split; [exact H2|]. split; [congruence|].
    split; [auto|]. split; [tauto|]. split; [|auto].
    destruct O1 as [O1|[(O1 & ->)|(q & O1)]].
    + destruct O2 as [O2|(q & O2)]; [left; congruence|right; exists q; congruence].
    + exfalso. destruct N as [N|N]; [apply N, in_or_app; left; left; reflexivity|congruence].
    + right. exists q. exact O1.
Qed.

Lemma iptrace_noproc X' s s' : iptrace X' s s' -> noproc s s'.
Proof.
  induction 1 as [|x X' s s1 s2 P T IH]; [intros o; reflexivity|].
  intros o. rewrite IH. apply (proj2 (iprim_keeps _ _ _ P)).
Qed.

(* ------------------------------------------------------------------------------------------------ *)
(* what _check and _build_value do to the individual events *)

Definition build_rel (e a : evid) (x y : event) : Prop :=
  kind y = kind x /\ defused y = defused x /\ (cbs x = None <-> cbs y = None) /\
  (out y = out x \/ (a = e /\ exists v v', out x = Some (Ok v) /\ out y = Some (Ok v'))).

Lemma cond_build_rel e s a :
  match get_event a s, get_event a (fst (cond_build e s)) with
  | Some x, Some y => build_rel e a x y
  | None, None => True
  | _, _ => False
  end.
Proof.
  destruct (cond_build_cases e s) as [->|(s1 & R & Res)].
  { destruct (get_event a s); [|exact I]. repeat split; auto. }
  pose proof (rmsteps_rmrel _ _ _ (remove_checks_rm _ _ _ _ R) a) as RR.
  assert (Base : match get_event a s, get_event a s1 with Some x, Some y => build_rel e a x y | None, None => True | _, _ => False end).
  { destruct (get_event a s), (get_event a s1); auto. destruct RR as (K & O & D & C & _). repeat split; auto; tauto. }
  destruct Res as [->|(cev & v & all & ops & n & items & Hc & Oc & _ & _ & ->)]; [exact Base|].
  rewrite get_event_upd. destruct (Nat.eqb_spec a e) as [->|]; [|exact Base].
  rewrite Hc in *. cbn. destruct (get_event e s) as [x|]; [|contradiction].
  destruct Base as (K & D & C & O). split; [exact K|]. split; [exact D|]. split; [exact C|]. right. split; [reflexivity|].
  destruct O as [O|(_ & v1 & v2 & O1 & O2)].
  - exists v. eexists. split; [congruence|reflexivity].
  - exists v1. eexists. split; [exact O1|reflexivity].
Qed.

Lemma cond_build_noproc e s : noproc s (fst (cond_build e s)).
Proof.
  intros a. unfold is_proc. pose proof (cond_build_rel e s a) as H.
  destruct (get_event a s) as [x|], (get_event a (fst (cond_build e s))) as [y|]; try contradiction; [|reflexivity].
  destruct H as (_ & _ & C & _). unfold is_processed. destruct (cbs x), (cbs y); auto.
  - destruct C as [_ C]. specialize (C eq_refl). discriminate.
  - destruct C as [C _]. specialize (C eq_refl). discriminate.
Qed.

(* ------------------------------------------------------------------------------------------------ *)
(* one step seen from one pending condition c: the popped event is e, l are e's callbacks still to run *)

Section OneCondition.
  Variables (codes : list prog) (fuel : nat) (e c : evid) (all : bool) (ops : list evid) (s0 : state).
  Hypothesis Nce : c <> e.

  Definition kproc (ev : event) : Prop := exists q, kind ev = KProcess q.

  Definition TRb (l : list cb) (oc : option outcome) (n : nat) (eev : event) : Prop :=
    (~ In e ops -> oc = None /\ cbcount (CbCheck c) l = 0%nat) /\
    (In e ops ->
       (oc = None /\ (all = false -> 0 < cbcount (CbCheck c) l)%nat /\
          (is_failed eev = true -> (0 < cbcount (CbCheck c) l)%nat \/ kproc eev)) \/
       (exists x, oc = Some (Fail x) /\ defused eev = true /\ (out eev = Some (Fail x) \/ kproc eev)) \/
       (oc = Some (Ok VNone) /\ cond_evaluate all (length ops) n = true /\ (is_failed eev = false \/ kproc eev))).

  Definition TR (l : list cb) (s : state) : Prop :=
    exists cev n eev, get_event c s = Some cev /\ kind cev = KCond all ops n /\ get_event e s = Some eev /\ out eev <> None /\
      TRb l (out cev) n eev.

  Definition QQ (X : list evid) (l : list cb) (s : state) : Prop :=
    noproc s0 s /\ (~ In c X -> TR l s).

  Lemma cbcount_check_cons c0 l : cbcount (CbCheck c) (CbCheck c0 :: l) = ((if Nat.eqb c c0 then 1 else 0) + cbcount (CbCheck c) l)%nat.
  Proof. rewrite cbcount_cons. reflexivity. Qed.

  (* transfer of the facts about e to a later record of e *)
  Lemma TR_transfer l s s1 cev n eev cev1 eev1 :
    get_event c s = Some cev -> kind cev = KCond all ops n -> get_event e s = Some eev -> out eev <> None ->
    get_event c s1 = Some cev1 -> kind cev1 = KCond all ops n -> out cev1 = out cev ->
    get_event e s1 = Some eev1 -> kind eev1 = kind eev -> (defused eev = true -> defused eev1 = true) ->
    (ostat (out eev1) = ostat (out eev) /\ (forall x, out eev = Some (Fail x) -> out eev1 = Some (Fail x)) \/ kproc eev) ->
    out eev1 <> None -> TRb l (out cev) n eev ->
    TR l s1.
  Proof.
    intros Hc Kc He Oe Hc1 Kc1 Oc1 He1 Ke1 De1 Oe1 One1 (A & B).
    assert (KP : kproc eev -> kproc eev1) by (intros (q & H); exists q; congruence).
    exists cev1, n, eev1. split; [exact Hc1|]. split; [exact Kc1|]. split; [exact He1|]. split; [exact One1|].
    rewrite Oc1. split; [exact A|]. intros Io. destruct (B Io) as [(O & L1 & L2)|[(x & O & D & E)|(O & Ev & F)]].
    - left. split; [exact O|]. split; [exact L1|]. intros F1.
      destruct Oe1 as [(St & _)|K]; [|right; apply KP, K].
      destruct (L2 ltac:(unfold is_failed in *; destruct (out eev1) as [[?|?]|], (out eev) as [[?|?]|]; cbn in St; congruence)) as [H|H]; [left; exact H|right; apply KP, H].
    - right. left. exists x. split; [exact O|]. split; [auto|].
      destruct E as [E|K]; [|right; apply KP, K]. destruct Oe1 as [(_ & Fx)|K]; [left; apply Fx, E|right; apply KP, K].
    - right. right. split; [exact O|]. split; [exact Ev|].
      destruct F as [F|K]; [|right; apply KP, K]. destruct Oe1 as [(St & _)|K]; [|right; apply KP, K].
      left. unfold is_failed in *. destruct (out eev1) as [[?|?]|], (out eev) as [[?|?]|]; cbn in St; congruence.
  Qed.

  Lemma QQ_i X l X' s s1 : iptrace X' s s1 -> QQ X l s -> QQ (X ++ X') l s1.
  Proof.
    intros T (NP & HT). split.
    - intros o. rewrite (iptrace_noproc _ _ _ T o). apply NP.
    - intros N. assert (N1 : ~ In c X) by (intros H; apply N, in_or_app; auto).
      assert (N2 : ~ In c X') by (intros H; apply N, in_or_app; auto).
      destruct (HT N1) as (cev & n & eev & Hc & Kc & He & Oe & AB).
      destruct (iptrace_keeps X' s s1 c cev T (or_introl N2) Hc) as (cev1 & Hc1 & Kc1 & _ & _ & Oc1 & _).
      assert (Oc : out cev1 = out cev) by (destruct Oc1 as [H|(q & H)]; [exact H|congruence]).
      destruct (iptrace_keeps X' s s1 e eev T (or_intror Oe) He) as (eev1 & He1 & Ke1 & De1 & _ & Oe1 & One1).
      apply (TR_transfer l s s1 cev n eev cev1 eev1 Hc Kc He Oe Hc1 ltac:(congruence) Oc He1 Ke1 De1); [|exact (One1 Oe)|exact AB].
      destruct Oe1 as [H|H]; [left; rewrite H; split; [reflexivity|auto]|right; exact H].
  Qed.

  Lemma QQ_drop X cb l s : (forall c0, cb <> CbCheck c0) -> QQ X (cb :: l) s -> QQ X l s.
  Proof.
    intros N1 (NP & HT). split; [exact NP|]. intros N. destruct (HT N) as (cev & n & eev & Hc & Kc & He & Oe & AB).
    assert (E : cbcount (CbCheck c) (cb :: l) = cbcount (CbCheck c) l).
    { rewrite cbcount_cons. assert (X0 : cb_eqb (CbCheck c) cb = false) by (apply cb_eqb_neq; intros H; apply (N1 c); auto). rewrite X0. reflexivity. }
    unfold TRb in AB. rewrite E in AB. exists cev, n, eev. split; [exact Hc|]. split; [exact Kc|]. split; [exact He|]. split; [exact Oe|exact AB].
  Qed.

  Lemma QQ_build X l s : winv X (CbBuild e :: l) e s -> QQ X (CbBuild e :: l) s -> QQ X l (fst (cond_build e s)).
  Proof.
    intros _ (NP & HT). split.
    - intros o. rewrite (cond_build_noproc e s o). apply NP.
    - intros N. destruct (HT N) as (cev & n & eev & Hc & Kc & He & Oe & AB).
      assert (E : cbcount (CbCheck c) (CbBuild e :: l) = cbcount (CbCheck c) l) by (rewrite cbcount_cons; reflexivity).
      unfold TRb in AB. rewrite E in AB.
      pose proof (cond_build_rel e s c) as Rc. rewrite Hc in Rc.
      destruct (get_event c (fst (cond_build e s))) as [cev1|] eqn:Hc1; [|contradiction].
      destruct Rc as (Kc1 & _ & _ & Oc1). assert (Oc : out cev1 = out cev) by (destruct Oc1 as [H|(H & _)]; [exact H|contradiction]).
      pose proof (cond_build_rel e s e) as Re. rewrite He in Re.
      destruct (get_event e (fst (cond_build e s))) as [eev1|] eqn:He1; [|contradiction].
      destruct Re as (Ke1 & De1 & _ & Oe1).
      apply (TR_transfer l s (fst (cond_build e s)) cev n eev cev1 eev1 Hc Kc He Oe Hc1 ltac:(congruence) Oc He1 Ke1 ltac:(congruence)); [| |exact AB].
      + left. destruct Oe1 as [H|(_ & v & v' & H1 & H2)]; [rewrite H; split; [reflexivity|auto]|].
        rewrite H1, H2. split; [reflexivity|]. intros x Hx. discriminate.
      + destruct Oe1 as [H|(_ & v & v' & H1 & H2)]; congruence.
  Qed.

  Lemma QQ_check X c0 l s : winv X (CbCheck c0 :: l) e s -> QQ X (CbCheck c0 :: l) s -> QQ X l (cond_check c0 e s).
  Proof.
    intros (CI & _ & (eev0 & He0 & Ce0) & WL) (NP & HT). split.
    - intros o. rewrite (cond_check_noproc c0 e s o). apply NP.
    - intros N. destruct (HT N) as (cev & n & eev & Hc & Kc & He & Oe & (A & B)).
      rewrite cbcount_check_cons in A, B.
      destruct (Nat.eq_dec c0 c) as [->|N0].
      + (* the _check of c itself *)
        rewrite Nat.eqb_refl in A, B.
        assert (Ie : In e ops).
        { destruct (proj1 WL c (or_introl eq_refl)) as (cev' & a' & ops' & n' & H' & K' & I'). rewrite Hc in H'. injection H' as <-.
          rewrite Kc in K'. injection K' as <- <- <-. exact I'. }
        destruct (out cev) as [oc|] eqn:Oc.
        * (* already triggered: no effect *)
          rewrite cond_check_noop by (right; right; exists cev; split; [exact Hc|left; congruence]).
          exists cev, n, eev. rewrite Oc. split; [exact Hc|]. split; [exact Kc|]. split; [exact He|]. split; [exact Oe|].
          split; [intros H; contradiction|]. intros _. destruct (B Ie) as [(O & _)|[H|H]]; [discriminate|right; left; exact H|right; right; exact H].
        * exists (check_upd all ops n eev cev), (S n), (if is_failed eev then ev_set_defused eev else eev).
          rewrite !(cond_check_get c e s cev eev all ops n) by assumption.
          assert (Eec : Nat.eqb e c = false) by (apply Nat.eqb_neq; congruence).
          rewrite Eec, !Nat.eqb_refl. autorewrite with check_upd.
          split; [reflexivity|]. split; [reflexivity|]. split; [reflexivity|]. split; [destruct (is_failed eev); exact Oe|].
          split; [intros H; contradiction|]. intros _.
          unfold check_triggers. destruct (is_failed eev) eqn:Fe; cbn [orb].
          -- destruct (failed_out _ Fe) as (x & Oo & ->). right. left. exists x. auto.
          -- rewrite (not_failed_out _ Fe). destruct (cond_evaluate all (length ops) (S n)) eqn:Ev.
             ++ right. right. auto.
             ++ left. rewrite Oc. split; [reflexivity|]. split; [intros ->; cbn in Ev; discriminate|congruence].
      + (* the _check of another condition: c is untouched, e may get defused *)
        assert (E0 : Nat.eqb c c0 = false) by (apply Nat.eqb_neq; congruence). rewrite E0 in A, B. cbn [plus] in A, B.
        assert (Hc1 : get_event c (cond_check c0 e s) = Some cev).
        { destruct (cond_check_frame c0 e s c) as [H|(H & _)]; [congruence|rewrite H; exact Hc|congruence]. }
        assert (He1 : exists eev1, get_event e (cond_check c0 e s) = Some eev1 /\ kind eev1 = kind eev /\ out eev1 = out eev /\
                         (defused eev = true -> defused eev1 = true)).
        { destruct (Nat.eq_dec e c0) as [<-|Ne].
          - (* e is not its own operand: _check e e does nothing to e beyond the counter; use the general shape *)
            destruct (cond_check_cases e e s) as [->|(cev' & oev' & a' & ops' & n' & H1 & H2 & H3 & H4)]; [exists eev; auto|].
            rewrite He in H1. injection H1 as <-. congruence.
          - destruct (cond_check_frame c0 e s e Ne) as [H|(_ & oev & Ho & _ & H)].
            + exists eev. rewrite H. auto.
            + rewrite He in Ho. injection Ho as <-. exists (ev_set_defused eev). rewrite H. cbn. auto. }
        destruct He1 as (eev1 & He1 & Ke1 & Oe1 & De1).
        apply (TR_transfer l s (cond_check c0 e s) cev n eev cev eev1 Hc Kc He Oe Hc1 Kc eq_refl He1 Ke1 De1); [| |split; [exact A|exact B]].
        * left. rewrite Oe1. split; [reflexivity|auto].
        * congruence.
  Qed.
End OneCondition.

(* ------------------------------------------------------------------------------------------------ *)
(* the tree of operands *)

Lemma desc_le X s d c : cinv X s -> desc s d c -> (c <= d)%nat.
Proof.
  intros CI H. induction H as [|d' dev all ops n o H IH Hd Kd Io]; [lia|].
  pose proof (ci_older _ _ CI _ _ _ _ _ Hd Kd _ Io). lia.
Qed.

Lemma desc_back X s s' d c :
  grows s s' -> cinv X s' -> (d < length (events s))%nat -> desc s' d c -> desc s d c.
Proof.
  intros [G _] CI Ld H. induction H as [|d' dev' all ops n o H IH Hd Kd Io]; [constructor|].
  pose proof (desc_le _ _ _ _ CI H) as Le.
  assert (Ld' : (d' < length (events s))%nat) by lia.
  destruct (get_event d' s) as [dev|] eqn:E; [|apply nth_error_None in E; lia].
  destruct (G _ _ E) as (dev2 & E2 & KL & _). rewrite Hd in E2. injection E2 as <-.
  destruct (kind_le_cond _ _ _ _ _ KL Kd) as (n0 & K0 & _).
  eapply desc_step; [exact IH|exact E|exact K0|exact Io].
Qed.

(* ------------------------------------------------------------------------------------------------ *)
(* C05, main theorem: one completed step, seen from a pending condition that no enclosing condition has detached *)

Theorem cond_step codes X fuel s s' e c cev all ops n :
  creach codes X s -> clean_step fuel codes s s' e ->
  get_event c s = Some cev -> kind cev = KCond all ops n -> out cev = None -> ~ detached s c ->
  exists X', etrace codes X' s s' /\ creach codes (X ++ X') s' /\
    (forall o, is_proc s' o = true <-> (o = e \/ is_proc s o = true)) /\
    (~ In c (X ++ X') ->
     exists cev' n' eev', get_event c s' = Some cev' /\ kind cev' = KCond all ops n' /\ get_event e s' = Some eev' /\
       (n' <= procpos s' ops)%nat /\
       (~ In e ops -> out cev' = None) /\
       (In e ops ->
          (out cev' = None /\ all = true /\ n' = procpos s' ops /\ cond_evaluate all (length ops) n' = false /\
             (is_failed eev' = false \/ kproc eev')) \/
          (exists x, out cev' = Some (Fail x) /\ defused eev' = true /\ (out eev' = Some (Fail x) \/ kproc eev')) \/
          (out cev' = Some (Ok VNone) /\ cond_evaluate all (length ops) n' = true /\ (is_failed eev' = false \/ kproc eev')))).
Proof.
  intros CR CS Hc Kc Oc ND.
  pose proof (creach_reach _ _ _ CR) as R. pose proof (reach_cinv _ _ _ R) as CI. pose proof (reach_procs_wf _ _ _ R) as PW.
  pose proof (creach_bnd _ _ _ CR) as B.
  pose proof CS as (m & rest & ev & l & Pm & -> & He & Cl & L).
  set (e := e_ev m) in *. set (sp := popped m rest s).
  destruct (pop_min_spec _ _ _ Pm) as (Im & _ & _).
  destruct (ci_agenda _ _ CI _ Im) as (ev0 & He0 & Oe0). fold e in He0. rewrite He in He0. injection He0 as <-.
  assert (Nce : c <> e) by (intros ->; rewrite Hc in He; injection He as <-; congruence).
  destruct (B _ _ _ _ _ Hc Kc) as (_ & B2). destruct (B2 Oc) as [D|(A & Q & F)]; [contradiction|].
  assert (Cnt : cbcount (CbCheck c) l = occ e ops) by (eapply A; eassumption).
  assert (Gp : forall x, get_event x sp = if Nat.eqb x e then Some (ev_set_cbs None ev) else get_event x s).
  { intros x. unfold sp. rewrite get_popped. fold e. destruct (Nat.eqb_spec x e) as [->|]; [rewrite He|]; reflexivity. }
  assert (Q0 : QQ e c all ops sp X l sp).
  { split; [intros o; reflexivity|]. intros _. exists cev, n, (ev_set_cbs None ev).
    split; [rewrite Gp; apply Nat.eqb_neq in Nce; rewrite Nce; exact Hc|]. split; [exact Kc|].
    split; [rewrite Gp, Nat.eqb_refl; reflexivity|]. split; [exact Oe0|]. split.
    - intros Ni. split; [exact Oc|]. rewrite Cnt. apply occ_notin, Ni.
    - intros Ii. left. split; [exact Oc|]. assert (0 < occ e ops)%nat by (apply occ_in, Ii). split; [intros _; lia|intros _; left; lia]. }
  destruct (clean_step_loop codes fuel X s s' m rest ev l (QQ e c all ops sp) (QQ_check e c all ops sp Nce) (QQ_build e c all ops sp Nce)
              (fun X0 cb l0 X1 a a1 N _ _ T H => QQ_drop e c all ops sp _ cb l0 a1 N (QQ_i e c all ops sp X0 _ X1 a a1 T H))
              CI PW Pm He Cl L Q0) as (X' & T' & _ & (NP & HT)).
  assert (CR' : creach codes (X ++ X') s') by (eapply cr_step; eassumption).
  pose proof (creach_reach _ _ _ CR') as R'. pose proof (reach_cinv _ _ _ R') as CI'. pose proof (creach_bnd _ _ _ CR') as B'.
  assert (GR : grows s s') by (eapply steps_grows; exists X'; eapply etrace_ptrace, T').
  assert (IPs : forall o, is_proc s' o = true <-> (o = e \/ is_proc s o = true)).
  { intros o. rewrite NP. unfold is_proc. rewrite Gp. destruct (Nat.eqb o e) eqn:E.
    - apply Nat.eqb_eq in E. subst o. cbn. split; auto.
    - apply Nat.eqb_neq in E. split; [auto|intros [H|H]; [contradiction|exact H]]. }
  exists X'. split; [exact T'|]. split; [exact CR'|]. split; [exact IPs|].
  intros NX. destruct (HT NX) as (cev' & n' & eev' & Hc' & Kc' & He' & Oe' & A' & Bx).
  destruct (B' _ _ _ _ _ Hc' Kc') as (B1' & B2'). rewrite cbcount_nil, Nat.add_0_r in B1', B2'.
  exists cev', n', eev'. split; [exact Hc'|]. split; [exact Kc'|]. split; [exact He'|]. split; [exact B1'|].
  split; [intros Ni; apply A', Ni|]. intros Ii.
  destruct (Bx Ii) as [(O & L1 & L2)|[H|H]]; [left|right; left; exact H|right; right; exact H].
  assert (Al : all = true) by (destruct all; [reflexivity|]; specialize (L1 eq_refl); rewrite cbcount_nil in L1; lia).
  split; [exact O|]. split; [exact Al|].
  assert (NDs : ~ detached s' c).
  { intros (d & Dd & Nd & Pd). apply IPs in Pd. destruct Pd as [->|Pd].
    - pose proof (desc_le _ _ _ _ CI' Dd) as Le. pose proof (ci_older _ _ CI _ _ _ _ _ Hc Kc _ Ii). lia.
    - apply ND. exists d. split; [|split; [exact Nd|exact Pd]].
      eapply desc_back; [exact GR|exact CI'| |exact Dd].
      unfold is_proc in Pd. destruct (get_event d s) eqn:E; [eapply get_event_lt, E|discriminate]. }
  destruct (B2' O) as [D|(_ & Q' & _)]; [contradiction|]. split; [exact Q'|].
  split; [exact (ci_pending _ _ CI' _ _ _ _ _ Hc' Kc' O)|].
  destruct (is_failed eev') eqn:Fe; [|left; reflexivity]. destruct (L2 eq_refl) as [H|H]; [rewrite cbcount_nil in H; lia|right; exact H].
Qed.

(* ------------------------------------------------------------------------------------------------ *)
(* the value of a condition: the processed leaves of its operand tree, left to right *)

Inductive leaves (evs : list event) : list evid -> list (evid * val) -> Prop :=
| lv_nil : leaves evs [] []
| lv_cond o oev all ops n t inner rest :
    nth_error evs o = Some oev -> kind oev = KCond all ops n -> leaves evs ops inner -> leaves evs t rest ->
    leaves evs (o :: t) (inner ++ rest)
| lv_done o oev t v rest :
    nth_error evs o = Some oev -> is_cond oev = false -> cbs oev = None -> raw_value oev = Some v -> leaves evs t rest ->
    leaves evs (o :: t) ((o, v) :: rest)
| lv_pending o oev t l rest :
    nth_error evs o = Some oev -> is_cond oev = false -> cbs oev = Some l -> leaves evs t rest ->
    leaves evs (o :: t) rest.

Lemma populate_sound fuel : forall evs ops items, populate fuel evs ops = Some items -> leaves evs ops items.
Proof.
  induction fuel as [|f IH]; intros evs ops items; cbn [populate]; [discriminate|].
  revert items. induction ops as [|o t IHo]; intros items; cbn [populate_ops].
  - intros H; injection H as <-. constructor.
  - destruct (nth_error evs o) as [oev|] eqn:E; [|discriminate].
    destruct (kind oev) eqn:K;
      try (destruct (cbs oev) as [l|] eqn:C;
           [intros H; eapply lv_pending; [exact E|unfold is_cond; rewrite K; reflexivity|exact C|apply IHo, H]
           |destruct (raw_value oev) as [v|] eqn:RV; [|discriminate];
            destruct (populate_ops (populate f evs) evs t) as [rest|] eqn:Rt; [|discriminate];
            intros H; injection H as <-; eapply lv_done; [exact E|unfold is_cond; rewrite K; reflexivity|exact C|exact RV|apply IHo; reflexivity]]).
    destruct (populate f evs ops) as [inner|] eqn:Ri; [|discriminate].
    destruct (populate_ops (populate f evs) evs t) as [rest|] eqn:Rt; [|discriminate].
    intros H; injection H as <-. eapply lv_cond; [exact E|exact K|apply IH, Ri|apply IHo; reflexivity].
Qed.

Definition ev_agree (a b : option event) : Prop :=
  match a, b with
  | Some x, Some y => kind y = kind x /\ (cbs x = None <-> cbs y = None) /\ raw_value y = raw_value x
  | None, None => True
  | _, _ => False
  end.

Lemma leaves_ext evs evs' bound :
  (forall o, (o < bound)%nat -> ev_agree (nth_error evs o) (nth_error evs' o)) ->
  (forall o oev all ops n x, (o < bound)%nat -> nth_error evs o = Some oev -> kind oev = KCond all ops n -> In x ops -> (x < bound)%nat) ->
  forall ops items, (forall x, In x ops -> (x < bound)%nat) -> leaves evs ops items -> leaves evs' ops items.
Proof.
  intros Ag Cl ops items Hb H. induction H as [|o oev all ops n t inner rest E K Hi IHi Ht IHt|o oev t v rest E K C RV Ht IHt|o oev t l rest E K C Ht IHt].
  - constructor.
  - assert (Lo : (o < bound)%nat) by (apply Hb; left; reflexivity).
    pose proof (Ag o Lo) as A. rewrite E in A. destruct (nth_error evs' o) as [oev'|] eqn:E'; [|contradiction].
    destruct A as (K' & _ & _). eapply lv_cond; [exact E'|rewrite K'; exact K| |].
    + apply IHi. intros x Hx. eapply Cl; eassumption.
    + apply IHt. intros x Hx. apply Hb. right. exact Hx.
  - assert (Lo : (o < bound)%nat) by (apply Hb; left; reflexivity).
    pose proof (Ag o Lo) as A. rewrite E in A. destruct (nth_error evs' o) as [oev'|] eqn:E'; [|contradiction].
    destruct A as (K' & C' & R'). eapply lv_done; [exact E'|unfold is_cond in *; rewrite K'; exact K|apply C', C|rewrite R'; exact RV|].
    apply IHt. intros x Hx. apply Hb. right. exact Hx.
  - assert (Lo : (o < bound)%nat) by (apply Hb; left; reflexivity).
    pose proof (Ag o Lo) as A. rewrite E in A. destruct (nth_error evs' o) as [oev'|] eqn:E'; [|contradiction].
    destruct A as (K' & C' & R'). destruct (cbs oev') as [l'|] eqn:Cb'.
    + eapply lv_pending; [exact E'|unfold is_cond in *; rewrite K'; exact K|exact Cb'|].
      apply IHt. intros x Hx. apply Hb. right. exact Hx.
    + destruct C' as [_ C']. specialize (C' eq_refl). congruence.
Qed.

(* the value is a function of the state *)
Lemma leaves_fun evs ops items : leaves evs ops items -> forall items', leaves evs ops items' -> items = items'.
Proof.
  intros H. induction H as [|o oev all ops n t inner rest E K Hi IHi Ht IHt|o oev t v rest E K C RV Ht IHt|o oev t l rest E K C Ht IHt];
    intros items' H'.
  - inversion H'. reflexivity.
  - inversion H' as [|o' oev' all' ops' n' t' inner' rest' E' K' Hi' Ht'|o' oev' t' v' rest' E' K' C' RV' Ht'|o' oev' t' l' rest' E' K' C' Ht']; subst;
      rewrite E in E'; injection E' as <-.
    + rewrite K in K'. injection K' as <- <- <-. rewrite (IHi _ Hi'), (IHt _ Ht'). reflexivity.
    + unfold is_cond in K'. rewrite K in K'. discriminate.
    + unfold is_cond in K'. rewrite K in K'. discriminate.
  - inversion H' as [|o' oev' all' ops' n' t' inner' rest' E' K' Hi' Ht'|o' oev' t' v' rest' E' K' C' RV' Ht'|o' oev' t' l' rest' E' K' C' Ht']; subst;
      rewrite E in E'; injection E' as <-.
    + unfold is_cond in K. rewrite K' in K. discriminate.
    + rewrite RV in RV'. injection RV' as <-. rewrite (IHt _ Ht'). reflexivity.
    + congruence.
  - inversion H' as [|o' oev' all' ops' n' t' inner' rest' E' K' Hi' Ht'|o' oev' t' v' rest' E' K' C' RV' Ht'|o' oev' t' l' rest' E' K' C' Ht']; subst;
      rewrite E in E'; injection E' as <-.
    + unfold is_cond in K. rewrite K' in K. discriminate.
    + congruence.
    + apply IHt, Ht'.
Qed.

(* once built, the value stays: the rest of the callback loop of c does not touch it *)
Section ValueStays.
  Variables (c : evid) (o0 : outcome).

  Definition VQ (X : list evid) (l : list cb) (s : state) : Prop :=
    cbcount (CbBuild c) l = 0%nat /\ exists cev, get_event c s = Some cev /\ out cev = Some o0 /\ is_cond cev = true.

  Lemma VQ_i X l X' s s1 : iptrace X' s s1 -> VQ X l s -> VQ (X ++ X') l s1.
  Proof.
    intros T (Cn & cev & Hc & Oc & Kc). split; [exact Cn|].
    assert (On : out cev <> None) by (rewrite Oc; discriminate).
    destruct (iptrace_keeps X' s s1 c cev T (or_intror On) Hc) as (cev1 & H1 & K1 & _ & _ & O1 & _).
    exists cev1. unfold is_cond in *. rewrite K1. split; [exact H1|]. split; [|exact Kc].
    destruct O1 as [O1|(q & O1)]; [congruence|rewrite O1 in Kc; discriminate].
  Qed.

  Lemma VQ_check X c0 l s : winv X (CbCheck c0 :: l) c s -> VQ X (CbCheck c0 :: l) s -> VQ X l (cond_check c0 c s).
  Proof.
    intros _ (Cn & cev & Hc & Oc & Kc). split; [rewrite cbcount_cons in Cn; exact Cn|].
    destruct (Nat.eq_dec c0 c) as [->|N].
    - rewrite cond_check_noop by (right; right; exists cev; split; [exact Hc|left; congruence]). exists cev. auto.
    - destruct (cond_check_frame c0 c s c) as [H|(_ & oev & Ho & _ & H)]; [congruence| |].
      + exists cev. rewrite H. auto.
      + rewrite Hc in Ho. injection Ho as <-. exists (ev_set_defused cev). rewrite H. cbn. auto.
  Qed.

  Lemma VQ_build X l s : winv X (CbBuild c :: l) c s -> VQ X (CbBuild c :: l) s -> VQ X l (fst (cond_build c s)).
  Proof. intros _ (Cn & _). rewrite cbcount_cons, cb_eqb_refl in Cn. discriminate. Qed.

  Lemma VQ_drop X cb l s : (forall c0, cb <> CbBuild c0) -> VQ X (cb :: l) s -> VQ X l s.
  Proof.
    intros N (Cn & H). split; [|exact H]. rewrite cbcount_cons in Cn.
    destruct (cb_eqb (CbBuild c) cb) eqn:E; [apply cb_eqb_eq in E; exfalso; apply (N c); auto|exact Cn].
  Qed.
End ValueStays.

(* C05, the value: in the completed step that processes the condition c (operands ops, triggered with success),
   _build_value runs first and sets the value to the processed leaves of the operand tree AT THAT MOMENT (the state
   in which c is popped), in left-to-right order, nested conditions flattened; the value is still that at the end of
   the step *)
Theorem cond_value_exact codes X fuel s s' c cev all ops n v0 :
  creach codes X s -> clean_step fuel codes s s' c ->
  get_event c s = Some cev -> kind cev = KCond all ops n -> ops <> [] -> out cev = Some (Ok v0) ->
  exists items cev', leaves (events s) ops items /\ get_event c s' = Some cev' /\ out cev' = Some (Ok (VCond items)).
Proof.
  intros CR CS Hc Kc Ne Oc.
  pose proof (creach_reach _ _ _ CR) as R. pose proof (reach_cinv _ _ _ R) as CI. pose proof (reach_procs_wf _ _ _ R) as PW.
  destruct CS as (m & rest & ev & l & Pm & -> & He & Cl & L). rewrite Hc in He. injection He as <-.
  pose proof (ci_build_head _ _ CI _ _ _ _ _ _ Hc Kc Cl Ne) as Hin.
  destruct (ci_build _ _ CI _ _ _ _ Hc Cl Hin) as (_ & Hd & Cn).
  destruct l as [|cb0 l']; [destruct Hin|]. cbn in Hd. injection Hd as ->.
  pose proof (winv_popped X m rest s cev _ CI PW Pm Hc Cl) as Wp.
  set (c := e_ev m) in *. set (sp := popped m rest s) in *.
  assert (Gp : forall x, get_event x sp = if Nat.eqb x c then Some (ev_set_cbs None cev) else get_event x s).
  { intros x. unfold sp. rewrite get_popped. fold c. destruct (Nat.eqb_spec x c) as [->|]; [rewrite Hc|]; reflexivity. }
  (* the first callback is _build_value *)
  assert (First : exists s1, run_cb fuel codes c (CbBuild c) sp = (s1, ROk) /\ cbloop codes fuel c l' s1 s').
  { inversion L as [|c1 t1 sa s1 sb R1 L1|]; subst. exists s1. auto. }
  destruct First as (s1 & R1 & L1).
  destruct (run_cb_winv codes fuel X (CbBuild c) l' c sp s1 ROk Wp R1) as (X1 & _ & W1).
  cbn [run_cb] in R1. unfold cond_build in R1.
  destruct (remove_checks (S c) c sp) as [sr|] eqn:RM; [|discriminate].
  pose proof (rmsteps_rmrel _ _ _ (remove_checks_rm _ _ _ _ RM)) as RR.
  assert (Hcr : exists cevr, get_event c sr = Some cevr /\ kind cevr = KCond all ops n /\ out cevr = Some (Ok v0)).
  { pose proof (RR c) as Rc. rewrite Gp, Nat.eqb_refl in Rc. destruct (get_event c sr) as [cevr|]; [|contradiction].
    destruct Rc as (K & O & _). exists cevr. cbn in K, O. split; [reflexivity|]. split; congruence. }
  destruct Hcr as (cevr & Hcr & Kcr & Ocr). rewrite Hcr, Ocr, Kcr in R1.
  destruct (populate (S c) (events sr) ops) as [items|] eqn:PO; [|discriminate]. injection R1 as <-.
  assert (Lv : leaves (events s) ops items).
  { apply populate_sound in PO. eapply (leaves_ext (events sr) (events s) c); [| | |exact PO].
    - intros o Lo. pose proof (RR o) as Ro. rewrite Gp in Ro. assert (Eo : Nat.eqb o c = false) by (apply Nat.eqb_neq; lia). rewrite Eo in Ro.
      unfold ev_agree. unfold get_event in Ro. destruct (nth_error (events s) o) as [x|], (nth_error (events sr) o) as [y|]; try contradiction; auto.
      destruct Ro as (K & O & _ & C & _). split; [congruence|]. split; [tauto|]. unfold raw_value. rewrite O. reflexivity.
    - intros o oev a ops0 n0 x Lo Eo Ko Ix.
      pose proof (RR o) as Ro. rewrite Gp in Ro. assert (Eo' : Nat.eqb o c = false) by (apply Nat.eqb_neq; lia). rewrite Eo' in Ro.
      unfold get_event in Ro. rewrite Eo in Ro. destruct (nth_error (events s) o) as [x0|] eqn:E0; [|contradiction].
      destruct Ro as (K & _). pose proof (ci_older _ _ CI o x0 a ops0 n0 E0 ltac:(congruence) _ Ix). lia.
    - intros x Ix. eapply ci_older; eassumption. }
  set (o1 := Ok (VCond items)).
  assert (Q1 : VQ c o1 (X ++ X1) l' (upd_event c (ev_set_out (Some o1)) sr)).
  { split.
    - rewrite cbcount_cons, cb_eqb_refl in Cn. lia.
    - exists (ev_set_out (Some o1) cevr). split; [apply get_event_upd_same, Hcr|]. split; [reflexivity|]. unfold is_cond. cbn. rewrite Kcr. reflexivity. }
  destruct (loop_all codes fuel c (VQ c o1) (VQ_check c o1) (VQ_build c o1)
              (fun X0 cb l0 X3 a a1 _ N _ T H => VQ_drop c o1 _ cb l0 a1 N (VQ_i c o1 X0 _ X3 a a1 T H)) l' _ s' L1 _ W1 Q1)
    as (X2 & _ & _ & (_ & cev' & Hc' & Oc' & _)).
  exists items, cev'. auto.
Qed.

(* ------------------------------------------------------------------------------------------------ *)
(* _check in isolation *)

Theorem check_fails_with_operand c o s cev oev all ops n x :
  get_event c s = Some cev -> kind cev = KCond all ops n -> out cev = None ->
  get_event o s = Some oev -> out oev = Some (Fail x) -> c <> o ->
  let s' := cond_check c o s in
  (exists cev', get_event c s' = Some cev' /\ out cev' = Some (Fail x) /\ kind cev' = KCond all ops (S n)) /\
  (exists oev', get_event o s' = Some oev' /\ defused oev' = true /\ out oev' = Some (Fail x)) /\
  agenda s' = agenda s ++ [mkEntry (Qred (now s + 0)) NORMAL (next_eid s) c].
Proof.
  intros Hc Kc Oc Ho Oo N. cbv zeta. rewrite (cond_check_eq c o s cev oev all ops n Hc Ho Oc Kc). cbv zeta.
  assert (F : is_failed oev = true) by (unfold is_failed; rewrite Oo; reflexivity).
  unfold check_triggers. rewrite F. cbn [orb]. split; [|split].
  - eexists. rewrite get_schedule. split; [apply get_event_upd_same; rewrite get_event_upd_other by exact N; exact Hc|].
    autorewrite with check_upd. unfold check_triggers, check_out. rewrite F, Oo. auto.
  - exists (ev_set_defused oev). rewrite get_schedule, get_event_upd_other by congruence. split; [apply get_event_upd_same, Ho|]. cbn. auto.
  - reflexivity.
Qed.

Theorem check_succeeds_when c o s cev oev all ops n :
  get_event c s = Some cev -> kind cev = KCond all ops n -> out cev = None ->
  get_event o s = Some oev -> is_failed oev = false -> c <> o ->
  let s' := cond_check c o s in
  exists cev', get_event c s' = Some cev' /\ kind cev' = KCond all ops (S n) /\
    out cev' = (if cond_evaluate all (length ops) (S n) then Some (Ok VNone) else None) /\
    (forall a, a <> c -> get_event a s' = get_event a s).
Proof.
  intros Hc Kc Oc Ho Fo N. cbv zeta. rewrite (cond_check_eq c o s cev oev all ops n Hc Ho Oc Kc). cbv zeta.
  unfold check_triggers. rewrite Fo. cbn [orb]. exists (check_upd all ops n oev cev). autorewrite with check_upd.
  unfold check_triggers. rewrite Fo, (not_failed_out _ Fo), Oc. cbn [orb].
  destruct (cond_evaluate all (length ops) (S n)); rewrite ?get_schedule;
    (split; [apply get_event_upd_same, Hc|]); (split; [reflexivity|]); (split; [reflexivity|]);
    intros a Na; rewrite ?get_schedule; apply get_event_upd_other, Na.
Qed.

(* a _check that arrives after the condition was triggered does nothing at all: the outcome of the condition is
   not changed and a failed operand is NOT defused by it *)
Theorem late_check_ignored c o s cev :
  get_event c s = Some cev -> out cev <> None -> cond_check c o s = s.
Proof. intros Hc Oc. apply cond_check_noop. right. right. exists cev. auto. Qed.

(* ... so an operand that fails after the condition was met, and that nobody else handles, crashes step()/run()
   with its exception: here for an event whose callbacks are only _checks of already triggered conditions and probes *)
Definition late_cb (s : state) (c : cb) : Prop :=
  match c with
  | CbCheck c0 => exists cev, get_event c0 s = Some cev /\ out cev <> None
  | CbProbe _ => True
  | _ => False
  end.

Lemma late_callbacks_run fuel codes e l : forall s1,
  (forall c, In c l -> late_cb s1 c) ->
  exists s2, run_callbacks fuel codes e l s1 = (s2, ROk) /\ events s2 = events s1 /\ agenda s2 = agenda s1.
Proof.
  induction l as [|c t IH]; intros s1 H; cbn [run_callbacks]; [exists s1; auto|].
  assert (Hc := H c (or_introl eq_refl)).
  destruct c; cbn in Hc; try contradiction; cbn [run_cb].
  - destruct Hc as (cev & Hc & Oc). rewrite (late_check_ignored _ _ _ _ Hc Oc).
    apply IH. intros c' Hc'. apply H. right. exact Hc'.
  - destruct (IH (probe_cb n e s1)) as (s2 & R & E & A).
    + intros c' Hc'. specialize (H c' (or_intror Hc')). destruct c'; cbn in *; auto.
    + exists s2. auto.
Qed.

Theorem late_failure_surfaces fuel codes s m rest ev l x :
  pop_min (agenda s) = Some (m, rest) -> get_event (e_ev m) s = Some ev -> cbs ev = Some l ->
  out ev = Some (Fail x) -> defused ev = false -> (forall c, In c l -> late_cb s c) ->
  exists s', step fuel codes s = (s', RRaise x) /\
             get_event (e_ev m) s' = Some (ev_set_cbs None ev) /\ agenda s' = rest.
Proof.
  intros Pm He Cl Oe De Hl. unfold step. rewrite Pm.
  change (get_event (e_ev m) (pop_state m rest s)) with (get_event (e_ev m) s). rewrite He, Cl.
  fold (popped m rest s).
  assert (Gp : get_event (e_ev m) (popped m rest s) = Some (ev_set_cbs None ev)).
  { unfold popped. apply get_event_upd_same. exact He. }
  destruct (late_callbacks_run fuel codes (e_ev m) l (popped m rest s)) as (s2 & R & E & A).
  - intros c Hc. specialize (Hl c Hc). destruct c; cbn in *; auto. destruct Hl as (cev & Hc0 & Oc).
    unfold popped. rewrite get_event_upd. change (get_event c (pop_state m rest s)) with (get_event c s). rewrite Hc0.
    destruct (Nat.eqb c (e_ev m)); cbn; eexists; split; try reflexivity; exact Oc.
  - rewrite R. exists s2.
    assert (G2 : get_event (e_ev m) s2 = Some (ev_set_cbs None ev)) by (unfold get_event in *; rewrite E; exact Gp).
    split; [|split; [exact G2|rewrite A; reflexivity]].
    unfold check_failure. rewrite G2. cbn. rewrite Oe, De. reflexivity.
Qed.

(* ------------------------------------------------------------------------------------------------ *)
(* triggered once: the outcome of a condition, once set, is final (only _build_value replaces the placeholder
   value of a successful condition by the ConditionValue) *)

Definition final_out (o o' : option outcome) : Prop :=
  match o with
  | Some (Fail x) => o' = Some (Fail x)
  | Some (Ok _) => exists v, o' = Some (Ok v)
  | None => True
  end.

Lemma final_out_refl o : final_out o o.
Proof. destruct o as [[v|x]|]; cbn; eauto. Qed.
Lemma final_out_trans a b c : final_out a b -> final_out b c -> final_out a c.
Proof.
  destruct a as [[v|x]|]; cbn; auto.
  - intros (v1 & ->). cbn. auto.
  - intros ->. cbn. auto.
Qed.

Lemma prim_cond_final x s s' c cev :
  prim x s s' -> get_event c s = Some cev -> is_cond cev = true ->
  exists cev', get_event c s' = Some cev' /\ is_cond cev' = true /\ final_out (out cev) (out cev').
Proof.
  intros P Hc Kc. destruct P as [x s s' P|m rest s Pm|c0 o oev s Ho Co Op|c0 s].
  - destruct (proj1 (iprim_keeps _ _ _ P) _ _ Hc) as (cev' & Hc' & K' & _ & _ & O').
    exists cev'. split; [exact Hc'|]. split; [unfold is_cond in *; rewrite K'; exact Kc|].
    destruct O' as [O'|[(O' & _)|(q & O')]].
    + rewrite O'. apply final_out_refl.
    + rewrite O'. exact I.
    + unfold is_cond in Kc. rewrite O' in Kc. discriminate.
  - unfold popped. rewrite get_event_upd. change (get_event c (pop_state m rest s)) with (get_event c s). rewrite Hc.
    destruct (Nat.eqb c (e_ev m)); cbn; eexists; (split; [reflexivity|]); (split; [exact Kc|]); apply final_out_refl.
  - destruct (Nat.eq_dec c c0) as [<-|N].
    + destruct (out cev) as [oc|] eqn:Oc.
      * rewrite cond_check_noop by (right; right; exists cev; split; [exact Hc|left; congruence]).
        exists cev. rewrite Oc. split; [exact Hc|]. split; [exact Kc|]. apply final_out_refl.
      * pose proof (grows_cond_check c o s) as [G _]. destruct (G _ _ Hc) as (cev' & Hc' & KL & _).
        exists cev'. split; [exact Hc'|]. split; [|exact I].
        unfold is_cond in *. destruct (kind cev) eqn:K; try discriminate.
        destruct (kind_le_cond_fwd _ _ _ _ _ KL eq_refl) as (n' & K' & _). rewrite K'. reflexivity.
    + destruct (cond_check_frame c0 o s c N) as [H|(Eco & oev' & Ho' & _ & H)].
      * exists cev. rewrite H. split; [exact Hc|]. split; [exact Kc|]. apply final_out_refl.
      * rewrite <- Eco in Ho'. rewrite Hc in Ho'. injection Ho' as <-. exists (ev_set_defused cev). rewrite H. cbn.
        split; [reflexivity|]. split; [exact Kc|]. apply final_out_refl.
  - pose proof (cond_build_rel c0 s c) as Rc. rewrite Hc in Rc.
    destruct (get_event c (fst (cond_build c0 s))) as [cev'|]; [|contradiction].
    destruct Rc as (K & _ & _ & O). exists cev'. split; [reflexivity|]. split; [unfold is_cond in *; rewrite K; exact Kc|].
    destruct O as [O|(_ & v & v' & O1 & O2)]; [rewrite O; apply final_out_refl|]. rewrite O1, O2. cbn. eauto.
Qed.

Theorem cond_outcome_final X s s' c cev :
  ptrace X s s' -> get_event c s = Some cev -> is_cond cev = true ->
  exists cev', get_event c s' = Some cev' /\ is_cond cev' = true /\ final_out (out cev) (out cev').
Proof.
  intros T. revert cev. induction T as [|x X s s1 s2 P T IH]; intros cev Hc Kc.
  - exists cev. split; [exact Hc|]. split; [exact Kc|]. apply final_out_refl.
  - destruct (prim_cond_final _ _ _ _ _ P Hc Kc) as (cev1 & H1 & K1 & F1).
    destruct (IH _ H1 K1) as (cev2 & H2 & K2 & F2). exists cev2. split; [exact H2|]. split; [exact K2|].
    eapply final_out_trans; eassumption.
Qed.

(* ------------------------------------------------------------------------------------------------ *)
(* construction *)

Theorem cond_construction codes X all es s :
  reach codes X s -> all_valid es s = true ->
  let s' := fst (call_cond all es s) in
  snd (call_cond all es s) = Ok (VEv (length (events s))) /\ cond_made s s' all es /\ cinv X s'.
Proof.
  intros R V. cbv zeta. split; [|split; [apply call_cond_spec, V|apply cinv_call_cond; [apply (reach_cinv _ _ _ R)|exact V]]].
  unfold call_cond. rewrite V. cbn [negb]. rewrite (new_event_eq _ s). cbv beta iota. destruct es; reflexivity.
Qed.

Theorem cond_construction_refused codes all es s :
  all_valid es s = false -> call_cond all es s = (s, Fail (kexn EAttribute M_not_an_event)) /\
  do_call codes (if all then CAllOf es else CAnyOf es) s = (s, Fail (kexn EAttribute M_not_an_event)).
Proof.
  intros V. assert (E : call_cond all es s = (s, Fail (kexn EAttribute M_not_an_event))) by (unfold call_cond; rewrite V; reflexivity).
  split; [exact E|]. destruct all; cbn [do_call]; exact E.
Qed.

Theorem cond_empty_immediate all s :
  let s' := fst (call_cond all [] s) in
  get_event (length (events s)) s' = Some (mkEvent (Some []) (Some (Ok (VCond []))) false (KCond all [] 0)) /\
  agenda s' = agenda s ++ [mkEntry (Qred (now s + 0)) NORMAL (next_eid s) (length (events s))].
Proof.
  cbv zeta. unfold call_cond. cbn [all_valid forallb negb]. rewrite (new_event_eq _ s). cbv beta iota. cbn [fst].
  unfold trigger_event. rewrite get_schedule. split; [|reflexivity].
  rewrite (get_event_upd_same _ _ _ _ (get_event_new_self _ s)). reflexivity.
Qed.

(* any_of with operands: triggered at construction exactly when some operand is already processed *)
Corollary any_of_at_construction es s cev n :
  all_valid es s = true -> es <> [] ->
  get_event (length (events s)) (fst (call_cond false es s)) = Some cev -> kind cev = KCond false es n ->
  (out cev = None <-> procpos s es = 0%nat).
Proof.
  intros V Ne Hc Kc. pose proof (call_cond_spec false es s V) as M.
  destruct (cm_new _ _ _ _ M) as (cev0 & n0 & H0 & K0 & _ & Le & Mo). rewrite Hc in H0. injection H0 as <-.
  rewrite Kc in K0. injection K0 as <-. split.
  - intros O. rewrite O in Mo. destruct Mo as (_ & Mn & Me & _). cbn in Me.
    apply orb_false_iff in Me. destruct Me as [Me _]. destruct n; [lia|discriminate].
  - intros P0. destruct (out cev) as [[v|x]|]; [| |reflexivity]; exfalso.
    + assert (n = 0%nat) by lia. subst n. cbn in Mo. destruct es; [congruence|discriminate].
    + destruct Mo as (o & oev & Io & Ho & Co & _).
      assert (is_proc s o = true).
      { pose proof (all_valid_lt _ _ V _ Io) as Lo. destruct (get_event o s) as [ev|] eqn:E; [|apply nth_error_None in E; lia].
        destruct (cm_old _ _ _ _ M _ _ E) as (ev' & E' & _ & _ & _ & _ & C). rewrite Ho in E'. injection E' as <-.
        unfold is_proc. rewrite E. unfold is_processed. rewrite C in Co. destruct (cbs ev); [discriminate|reflexivity]. }
      pose proof (proj1 (procpos_zero s es) P0 o Io). congruence.
Qed.

(* all_of: succeeds at construction exactly when every operand is processed and none of the processed has failed *)
Corollary all_of_at_construction es s cev n :
  all_valid es s = true ->
  get_event (length (events s)) (fst (call_cond true es s)) = Some cev -> kind cev = KCond true es n ->
  (out cev = None -> (procpos s es < length es)%nat) /\
  ((exists v, out cev = Some (Ok v)) -> procpos s es = length es) /\
  (forall x, out cev = Some (Fail x) -> exists o oev, In o es /\ get_event o s = Some oev /\ cbs oev = None /\ out oev = Some (Fail x)).
Proof.
  intros V Hc Kc. pose proof (call_cond_spec true es s V) as M.
  destruct (cm_new _ _ _ _ M) as (cev0 & n0 & H0 & K0 & _ & Le & Mo). rewrite Hc in H0. injection H0 as <-.
  rewrite Kc in K0. injection K0 as <-. pose proof (procpos_le_length s es) as PL. split; [|split].
  - intros O. rewrite O in Mo. destruct Mo as (_ & Mn & Me & _). cbn in Me. apply Nat.eqb_neq in Me. lia.
  - intros (v & O). rewrite O in Mo. cbn in Mo. apply Nat.eqb_eq in Mo. lia.
  - intros x O. rewrite O in Mo. destruct Mo as (o & oev & Io & Ho & Co & _ & Oo).
    pose proof (all_valid_lt _ _ V _ Io) as Lo. destruct (get_event o s) as [ev|] eqn:E; [|apply nth_error_None in E; lia].
    destruct (cm_old _ _ _ _ M _ _ E) as (ev' & E' & _ & O' & _ & _ & C). rewrite Ho in E'. injection E' as <-.
    exists o, ev. split; [exact Io|]. split; [exact E|]. split; [rewrite C in Co; destruct (cbs ev); [discriminate|reflexivity]|congruence].
Qed.

(* the counter never exceeds the number of processed operand positions, hence the number of operands *)
Theorem cond_count_le codes X s c cev all ops n :
  creach codes X s -> get_event c s = Some cev -> kind cev = KCond all ops n ->
  (n <= procpos s ops)%nat /\ (procpos s ops <= length ops)%nat.
Proof.
  intros CR Hc Kc. destruct (creach_bnd _ _ _ CR _ _ _ _ _ Hc Kc) as (B1 & _). rewrite cbcount_nil, Nat.add_0_r in B1.
  split; [exact B1|apply procpos_le_length].
Qed.

(* at step boundaries a pending, attached condition has counted exactly its processed operands, its predicate is
   false, and none of its processed operands has failed (Process events excepted: [kproc], see the vocabulary of Props/C05.v) *)
Theorem cond_pending_boundary codes X s c cev all ops n :
  creach codes X s -> get_event c s = Some cev -> kind cev = KCond all ops n -> out cev = None -> ~ detached s c ->
  n = procpos s ops /\ cond_evaluate all (length ops) n = false /\ attached s c ops /\
  (forall o oev, In o ops -> get_event o s = Some oev -> cbs oev = None -> is_failed oev = true -> kproc oev).
Proof.
  intros CR Hc Kc Oc ND. destruct (creach_bnd _ _ _ CR _ _ _ _ _ Hc Kc) as (_ & B2).
  destruct (B2 Oc) as [D|(A & Q & F)]; [contradiction|]. rewrite cbcount_nil, Nat.add_0_r in Q.
  split; [exact Q|]. split; [eapply ci_pending; [eapply reach_cinv, creach_reach, CR|exact Hc|exact Kc|exact Oc]|].
  split; [exact A|]. intros o oev Io Ho Co Fo. destruct (F _ _ Io Ho Co Fo) as [K|(_ & [])]. exact K.
Qed.

(* ------------------------------------------------------------------------------------------------ *)
(* corollaries of [cond_step] in the words of the property *)

Lemma creach_step_ok codes X fuel s s' : creach codes X s -> step fuel codes s = (s', ROk) -> exists X', creach codes (X ++ X') s'.
Proof. intros C H. destruct (step_ok_clean _ _ _ _ H) as (e & CS). eapply creach_step; eassumption. Qed.

(* never earlier: a step that processes an event which is not an operand leaves the condition pending *)
Corollary cond_not_earlier codes X fuel s s' e c cev all ops n :
  creach codes X s -> clean_step fuel codes s s' e ->
  get_event c s = Some cev -> kind cev = KCond all ops n -> out cev = None -> ~ detached s c -> ~ In e ops ->
  exists X', etrace codes X' s s' /\ (~ In c (X ++ X') -> exists cev' n', get_event c s' = Some cev' /\ kind cev' = KCond all ops n' /\ out cev' = None).
Proof.
  intros CR CS Hc Kc Oc ND Ni. destruct (cond_step codes X fuel s s' e c cev all ops n CR CS Hc Kc Oc ND) as (X' & T & _ & _ & H).
  exists X'. split; [exact T|]. intros NX. destruct (H NX) as (cev' & n' & eev' & Hc' & Kc' & _ & _ & A & _).
  exists cev', n'. auto.
Qed.

(* any_of: the step that processes the FIRST of its operands triggers it (with success, or with that operand's failure) *)
Corollary any_of_first codes X fuel s s' e c cev ops n :
  creach codes X s -> clean_step fuel codes s s' e ->
  get_event c s = Some cev -> kind cev = KCond false ops n -> out cev = None -> ~ detached s c -> In e ops ->
  procpos s ops = 0%nat /\
  exists X', etrace codes X' s s' /\
    (~ In c (X ++ X') -> exists cev' n' eev', get_event c s' = Some cev' /\ kind cev' = KCond false ops n' /\ get_event e s' = Some eev' /\
       ((exists x, out cev' = Some (Fail x) /\ defused eev' = true /\ (out eev' = Some (Fail x) \/ kproc eev')) \/
        (out cev' = Some (Ok VNone) /\ (is_failed eev' = false \/ kproc eev')))).
Proof.
  intros CR CS Hc Kc Oc ND Ii.
  destruct (cond_pending_boundary codes X s c cev false ops n CR Hc Kc Oc ND) as (Q & Ev & _).
  split.
  - cbn in Ev. apply orb_false_iff in Ev. destruct Ev as [Ev _]. destruct n; [lia|discriminate].
  - destruct (cond_step codes X fuel s s' e c cev false ops n CR CS Hc Kc Oc ND) as (X' & T & _ & _ & H).
    exists X'. split; [exact T|]. intros NX. destruct (H NX) as (cev' & n' & eev' & Hc' & Kc' & He' & _ & _ & B).
    exists cev', n', eev'. split; [exact Hc'|]. split; [exact Kc'|]. split; [exact He'|].
    destruct (B Ii) as [(_ & Al & _)|[F|(O & _ & G)]]; [discriminate|left; exact F|right; auto].
Qed.

(* all_of: it succeeds exactly in the step that processes its LAST unprocessed operand; a failing operand fails it;
   otherwise it stays pending, having counted exactly the processed operands *)
Corollary all_of_last codes X fuel s s' e c cev ops n :
  creach codes X s -> clean_step fuel codes s s' e ->
  get_event c s = Some cev -> kind cev = KCond true ops n -> out cev = None -> ~ detached s c -> In e ops ->
  (procpos s ops < length ops)%nat /\
  exists X', etrace codes X' s s' /\
    (~ In c (X ++ X') -> exists cev' n' eev', get_event c s' = Some cev' /\ kind cev' = KCond true ops n' /\ get_event e s' = Some eev' /\
       ((out cev' = None /\ (procpos s' ops < length ops)%nat /\ (is_failed eev' = false \/ kproc eev')) \/
        (exists x, out cev' = Some (Fail x) /\ defused eev' = true /\ (out eev' = Some (Fail x) \/ kproc eev')) \/
        (out cev' = Some (Ok VNone) /\ (forall o, In o ops -> o = e \/ is_proc s o = true) /\ (is_failed eev' = false \/ kproc eev')))).
Proof.
  intros CR CS Hc Kc Oc ND Ii.
  destruct (cond_pending_boundary codes X s c cev true ops n CR Hc Kc Oc ND) as (Q & Ev & _).
  pose proof (procpos_le_length s ops) as PL.
  split.
  - cbn in Ev. apply Nat.eqb_neq in Ev. lia.
  - destruct (cond_step codes X fuel s s' e c cev true ops n CR CS Hc Kc Oc ND) as (X' & T & _ & IP & H).
    exists X'. split; [exact T|]. intros NX. destruct (H NX) as (cev' & n' & eev' & Hc' & Kc' & He' & Le' & _ & B).
    exists cev', n', eev'. split; [exact Hc'|]. split; [exact Kc'|]. split; [exact He'|].
    pose proof (procpos_le_length s' ops) as PL'.
    destruct (B Ii) as [(O & _ & Q' & Ev' & G)|[F|(O & Ev' & G)]].
    + left. split; [exact O|]. split; [|exact G]. cbn in Ev'. apply Nat.eqb_neq in Ev'. lia.
    + right. left. exact F.
    + right. right. split; [exact O|]. split; [|exact G]. cbn in Ev'. apply Nat.eqb_eq in Ev'.
      assert (All : procpos s' ops = length ops) by lia. intros o Io. apply IP. apply (proj1 (procpos_all s' ops) All o Io).
Qed.

(* ------------------------------------------------------------------------------------------------ *)
(* nested conditions: the hypothesis "not detached" cannot be dropped.  all_of [a; b] nested in any_of [c; x]: once the
   outer condition has been processed (x fired first), the inner one never triggers although a and b are processed *)

Definition detach_demo : frag unit :=
  FCall (CTimeout 2 (VInt 1)) (fun _ => FCall (CTimeout 3 (VInt 2)) (fun _ => FCall (CTimeout 1 (VInt 3)) (fun _ =>
  FCall (CAllOf [0; 1]%nat) (fun _ => FCall (CAnyOf [3; 2]%nat) (fun _ => FRet VNone))))).

Theorem all_of_refuted_when_detached :
  exists (codes : list prog) X s c cev ops n,
    creach codes X s /\ get_event c s = Some cev /\ kind cev = KCond true ops n /\ out cev = None /\
    (forall o, In o ops -> is_proc s o = true) /\ agenda s = [] /\ detached s c.
Proof.
  set (s1 := fst (exec_top [] detach_demo (init_state 0))).
  set (s2 := fst (step 50 [] s1)). set (s3 := fst (step 50 [] s2)). set (s4 := fst (step 50 [] s3)). set (s5 := fst (step 50 [] s4)).
  assert (C0 : creach [] [] (init_state 0)) by constructor.
  destruct (creach_exec_top [] [] detach_demo (init_state 0) C0) as (X1 & C1). fold s1 in C1.
  assert (St : forall s, snd (step 50 [] s) = ROk -> step 50 [] s = (fst (step 50 [] s), ROk)).
  { intros s H. rewrite <- H. destruct (step 50 [] s); reflexivity. }
  destruct (creach_step_ok [] _ 50 s1 s2 C1 (St s1 ltac:(vm_compute; reflexivity))) as (X2 & C2).
  destruct (creach_step_ok [] _ 50 s2 s3 C2 (St s2 ltac:(vm_compute; reflexivity))) as (X3 & C3).
  destruct (creach_step_ok [] _ 50 s3 s4 C3 (St s3 ltac:(vm_compute; reflexivity))) as (X4 & C4).
  destruct (creach_step_ok [] _ 50 s4 s5 C4 (St s4 ltac:(vm_compute; reflexivity))) as (X5 & C5).
  exists [], ((((([] ++ X1) ++ X2) ++ X3) ++ X4) ++ X5), s5, 3%nat. eexists. exists [0; 1]%nat, 0%nat. split; [exact C5|].
  split; [vm_compute; reflexivity|]. split; [reflexivity|]. split; [reflexivity|].
  split; [intros o [<-|[<-|[]]]; vm_compute; reflexivity|]. split; [vm_compute; reflexivity|].
  exists 4%nat. split; [|split; [discriminate|vm_compute; reflexivity]].
  eapply desc_step with (d := 4%nat) (ops := [3; 2]%nat); [constructor|vm_compute; reflexivity|reflexivity|left; reflexivity].
Qed.

(* the hypotheses of [cond_step] are satisfiable: a = timeout 1, b = timeout 2, c = all_of [a; b]; first step *)
Definition step_demo : frag unit :=
  FCall (CTimeout 1 (VInt 1)) (fun _ => FCall (CTimeout 2 (VInt 2)) (fun _ => FCall (CAllOf [0; 1]%nat) (fun _ => FRet VNone))).

Example cond_step_hypotheses :
  let s := fst (exec_top [] step_demo (init_state 0)) in
  exists X cev s' e, creach [] X s /\ clean_step 50 [] s s' e /\
    get_event 2%nat s = Some cev /\ kind cev = KCond true [0; 1]%nat 0 /\ out cev = None /\ ~ detached s 2%nat.
Proof.
  cbv zeta. set (s := fst (exec_top [] step_demo (init_state 0))).
  destruct (creach_exec_top [] [] step_demo (init_state 0) (cr_init [] 0)) as (X1 & C1). fold s in C1.
  assert (St : step 50 [] s = (fst (step 50 [] s), ROk)).
  { assert (H : snd (step 50 [] s) = ROk) by (vm_compute; reflexivity). rewrite <- H. destruct (step 50 [] s); reflexivity. }
  destruct (step_ok_clean _ _ _ _ St) as (e & CS).
  eexists _, _, _, e. split; [exact C1|]. split; [exact CS|].
  split; [vm_compute; reflexivity|]. split; [reflexivity|]. split; [reflexivity|].
  intros (d & _ & _ & P). unfold is_proc in P.
  destruct d as [|[|[|d]]]; try (vm_compute in P; discriminate).
  rewrite get_ge in P; [discriminate|]. vm_compute. lia.
Qed.

(* ------------------------------------------------------------------------------------------------ *)
(* _build_value never hits the model's internal-error result: the fuel S c suffices because operands are older than
   their condition, and every processed leaf has a value *)

Definition tree_ok (s : state) : Prop :=
  forall d dev all ops n o, get_event d s = Some dev -> kind dev = KCond all ops n -> In o ops ->
    (o < d)%nat /\ get_event o s <> None.

Lemma tree_ok_cinv X s : cinv X s -> tree_ok s.
Proof.
  intros CI d dev all ops n o Hd Kd Io. pose proof (ci_older _ _ CI _ _ _ _ _ Hd Kd _ Io) as L. split; [exact L|].
  apply get_event_lt in Hd. intros E. apply nth_error_None in E. lia.
Qed.

Lemma tree_ok_kinds_eq s s' : kinds_eq s s' -> tree_ok s -> tree_ok s'.
Proof.
  intros K T d dev all ops n o Hd Kd Io.
  destruct (kinds_eq_get _ _ _ _ (kinds_eq_sym _ _ K) Hd) as (dev0 & Hd0 & Kd0).
  destruct (T d dev0 all ops n o Hd0 ltac:(congruence) Io) as (L & E). split; [exact L|].
  destruct (get_event o s) as [oev|] eqn:Eo; [|congruence].
  destruct (kinds_eq_get _ _ _ _ K Eo) as (oev' & Eo' & _). congruence.
Qed.

Lemma remove_checks_total f : forall c s, tree_ok s -> (c <= f)%nat -> get_event c s <> None -> remove_checks (S f) c s <> None.
Proof.
  induction f as [|f IH]; intros c s T Lc Hc; cbn [remove_checks];
    (destruct (get_event c s) as [cev|] eqn:E; [|congruence]);
    (destruct (kind cev) as [| | | | |all ops n|] eqn:K; try discriminate).
  - (* f = 0: c = 0, no operands *)
    assert (ops = []).
    { destruct ops as [|o t]; [reflexivity|]. destruct (T c cev all (o :: t) n o E K (or_introl eq_refl)) as (L & _). lia. }
    subst ops. discriminate.
  - assert (Gen : forall l s1, (forall o, In o l -> In o ops) -> kinds_eq s s1 -> remove_ops (remove_checks (S f)) c l s1 <> None).
    { induction l as [|o t IHl]; intros s1 Sub K1; cbn [remove_ops]; [discriminate|].
      assert (Io : In o ops) by (apply Sub; left; reflexivity).
      destruct (T c cev all ops n o E K Io) as (Lo & Eo).
      destruct (get_event o s) as [oev0|] eqn:Eo0; [|congruence].
      destruct (kinds_eq_get _ _ _ _ K1 Eo0) as (oev & Eo1 & Ko1). rewrite Eo1.
      assert (K2 : kinds_eq s (remove_check_from c o s1)) by (eapply kinds_eq_trans; [exact K1|apply kinds_eq_remove_check_from]).
      destruct (is_cond oev).
      + destruct (remove_checks (S f) o (remove_check_from c o s1)) as [s2|] eqn:R.
        * apply IHl; [intros; apply Sub; right; assumption|].
          eapply kinds_eq_trans; [exact K2|]. eapply rmsteps_kinds_eq, remove_checks_rm, R.
        * exfalso. revert R. apply IH; [eapply tree_ok_kinds_eq; eassumption|lia|].
          destruct (kinds_eq_get _ _ _ _ K2 Eo0) as (x & Hx & _). congruence.
      + apply IHl; [intros; apply Sub; right; assumption|exact K2]. }
    apply Gen; [auto|apply kinds_eq_refl].
Qed.

Lemma populate_total evs (Tr : forall d dev all ops n o, nth_error evs d = Some dev -> kind dev = KCond all ops n -> In o ops ->
                                 (o < d)%nat /\ nth_error evs o <> None)
      (Val : forall o oev, nth_error evs o = Some oev -> cbs oev = None -> out oev <> None) :
  forall f ops, (forall o, In o ops -> (o < f)%nat /\ nth_error evs o <> None) -> populate (S f) evs ops <> None.
Proof.
  induction f as [|f IH]; intros ops Hb.
  - cbn [populate]. destruct ops as [|o t]; [discriminate|]. destruct (Hb o (or_introl eq_refl)) as (L & _). lia.
  - change (populate (S (S f)) evs ops) with (populate_ops (populate (S f) evs) evs ops).
    assert (Hrec : forall ops', (forall x, In x ops' -> (x < f)%nat /\ nth_error evs x <> None) -> populate (S f) evs ops' <> None) by exact IH.
    clear IH. generalize dependent (populate (S f) evs). intros rec Hrec.
    induction ops as [|o t IHo]; cbn [populate_ops]; [discriminate|].
    destruct (Hb o (or_introl eq_refl)) as (Lo & Eo). destruct (nth_error evs o) as [oev|] eqn:E; [|congruence].
    assert (Rest : populate_ops rec evs t <> None) by (apply IHo; intros; apply Hb; right; assumption).
    destruct (populate_ops rec evs t) as [rest|]; [|congruence].
    destruct (kind oev) as [| | | | |all ops' n|] eqn:K;
      try (destruct (cbs oev) eqn:C; [discriminate|];
           unfold raw_value; pose proof (Val _ _ E C) as O; destruct (out oev) as [[?|?]|]; [discriminate|discriminate|congruence]).
    assert (Inner : rec ops' <> None).
    { apply Hrec. intros x Ix. destruct (Tr o oev all ops' n x E K Ix) as (Lx & Ex). split; [lia|exact Ex]. }
    destruct (rec ops'); [discriminate|congruence].
Qed.

Theorem cond_build_ok X s c cev :
  cinv X s -> get_event c s = Some cev -> is_cond cev = true -> out cev <> None -> snd (cond_build c s) = ROk.
Proof.
  intros CI Hc Kc Oc. pose proof (tree_ok_cinv _ _ CI) as T.
  unfold cond_build. destruct (remove_checks (S c) c s) as [s1|] eqn:R.
  2:{ exfalso. revert R. apply remove_checks_total; [exact T|lia|congruence]. }
  pose proof (remove_checks_rm _ _ _ _ R) as RM. pose proof (rmsteps_rmrel _ _ _ RM) as RR.
  pose proof (cinv_remove_checks _ _ _ _ _ CI R) as CI1.
  pose proof (RR c) as Rc. rewrite Hc in Rc. destruct (get_event c s1) as [cev1|] eqn:Hc1; [|contradiction].
  destruct Rc as (K1 & O1 & _). rewrite O1. destruct (out cev) as [[v|x]|]; [|reflexivity|congruence].
  unfold is_cond in Kc. rewrite K1. destruct (kind cev) as [| | | | |all ops n|] eqn:K; try discriminate.
  destruct (populate (S c) (events s1) ops) eqn:PO; [reflexivity|]. exfalso. revert PO.
  pose proof (tree_ok_cinv _ _ CI1) as T1.
  apply populate_total.
  - intros d dev a ops0 n0 o Hd Kd Io. exact (T1 d dev a ops0 n0 o Hd Kd Io).
  - intros o oev Ho Co. exact (ci_proc_trig _ _ CI1 o oev Ho Co).
  - intros o Io. exact (T1 c cev1 all ops n o Hc1 ltac:(congruence) Io).
Qed.
