(* Kernel/Inv.v -- the frame relation [ext s s'] ("between s and s' the kernel only appended agenda entries,
   by [schedule], each at a time >= now, with fresh consecutive eids and the priority class of its event;
   the clock did not move").  Every primitive mutation of Kernel/Prims.v is an [ext] ([ext_kprim]), hence so is
   every function of Kernel/Model.v below step(); [step] = one pop followed by an [ext] ([step_spec]). *)
From Coq Require Import ZArith QArith List Bool Lia Lqa.
From ONL Require Import Kernel.Model.
From ONL Require Export Kernel.Prims.
Import ListNotations.

(* priority class of an event kind: process starts, interrupts and the numeric-until sentinel are urgent *)
Definition kclass (k : ekind) : nat :=
  match k with KInit _ | KInterruption _ | KSentinel => URGENT | _ => NORMAL end.

Definition ev_class (s : state) (e : evid) (c : nat) : Prop :=
  exists ev, nth_error (events s) e = Some ev /\ kclass (kind ev) = c.

(* state invariant needed to know the class of what gets scheduled: urgent-class events are born triggered
   (so succeed/fail, which schedule NORMAL, refuse them), and the event of a process is a Process event *)
Definition kinv (s : state) : Prop :=
  (forall e ev, nth_error (events s) e = Some ev -> kclass (kind ev) = URGENT -> out ev <> None) /\
  (forall p pr, nth_error (procs s) p = Some pr -> ev_class s (pev pr) NORMAL).

Fixpoint new_ok (t : Q) (n : nat) (l : list entry) : Prop :=
  match l with
  | [] => True
  | x :: r => e_eid x = n /\ t <= e_time x /\ new_ok t (S n) r
  end.

Record extr (s s' : state) : Prop := mkExtr {
  x_kinv : kinv s';
  x_now : now s' = now s;
  x_cls : forall e c, ev_class s e c -> ev_class s' e c;
  x_new : exists l, agenda s' = agenda s ++ l /\ next_eid s' = (next_eid s + length l)%nat /\
                    new_ok (now s) (next_eid s) l /\ forall x, In x l -> ev_class s' (e_ev x) (e_prio x) }.

Definition ext (s s' : state) : Prop := kinv s -> extr s s'.

Lemma extr_still s s' :
  kinv s' -> now s' = now s -> agenda s' = agenda s -> next_eid s' = next_eid s ->
  (forall e c, ev_class s e c -> ev_class s' e c) -> extr s s'.
Proof.
  intros K N A E C. constructor; [exact K|exact N|exact C|].
  exists []. rewrite app_nil_r, A, E. cbn. repeat split; [lia|intros x []].
Qed.

Lemma new_ok_app t n l1 l2 : new_ok t n l1 -> new_ok t (n + length l1) l2 -> new_ok t n (l1 ++ l2).
Proof.
  revert n. induction l1 as [|x r IH]; cbn [new_ok app length]; intros n H1 H2.
  - rewrite Nat.add_0_r in H2. exact H2.
  - destruct H1 as (A & B & C). split; [exact A|]. split; [exact B|].
    apply IH; [exact C|]. replace (S n + length r)%nat with (n + S (length r))%nat by lia. exact H2.
Qed.

Lemma extr_trans s s1 s2 : extr s s1 -> extr s1 s2 -> extr s s2.
Proof.
  intros [K1 N1 C1 (l1 & A1 & E1 & O1 & P1)] [K2 N2 C2 (l2 & A2 & E2 & O2 & P2)].
  constructor; [exact K2|congruence|auto|].
  exists (l1 ++ l2). rewrite A2, A1, app_assoc. split; [reflexivity|].
  rewrite app_length. split; [lia|]. split.
  - apply new_ok_app; [exact O1|]. rewrite <- E1, <- N1. exact O2.
  - intros x Hx. apply in_app_or in Hx. destruct Hx as [Hx|Hx]; [apply C2, P1, Hx|apply P2, Hx].
Qed.

Lemma ext_refl s : ext s s.
Proof. intros K. apply extr_still; auto. Qed.

Lemma ext_trans s s1 s2 : ext s s1 -> ext s1 s2 -> ext s s2.
Proof. intros H1 H2 K. pose proof (H1 K) as X. eapply extr_trans; [exact X|]. apply H2, (x_kinv _ _ X). Qed.

(* the second leg may use what is known about the first *)
Lemma ext_bind s s1 s2 : ext s s1 -> (kinv s -> extr s s1 -> ext s1 s2) -> ext s s2.
Proof. intros H1 H2 K. pose proof (H1 K) as X. eapply extr_trans; [exact X|]. apply (H2 K X), (x_kinv _ _ X). Qed.

(* changing events only (same agenda, clock, procs) *)
Lemma ext_events s s' :
  now s' = now s -> agenda s' = agenda s -> next_eid s' = next_eid s -> procs s' = procs s ->
  (kinv s -> forall e ev, nth_error (events s) e = Some ev ->
       exists ev', nth_error (events s') e = Some ev' /\ kclass (kind ev') = kclass (kind ev)) ->
  (kinv s -> forall e ev', nth_error (events s') e = Some ev' -> kclass (kind ev') = URGENT -> out ev' <> None) ->
  ext s s'.
Proof.
  intros Hn Ha He Hp Hc Hk K.
  assert (C : forall e c, ev_class s e c -> ev_class s' e c).
  { intros e c (ev & H1 & H2). destruct (Hc K _ _ H1) as (ev' & H3 & H4). exists ev'. split; [exact H3|congruence]. }
  apply extr_still; try assumption.
  split; [exact (Hk K)|]. rewrite Hp. intros p pr H. apply C, (proj2 K _ _ H).
Qed.

Lemma ext_frame s s' :
  now s' = now s -> agenda s' = agenda s -> next_eid s' = next_eid s -> events s' = events s -> procs s' = procs s ->
  ext s s'.
Proof.
  intros Hn Ha He Hv Hp. apply ext_events; try assumption; intros K; rewrite Hv; [eauto|exact (proj1 K)].
Qed.

Lemma ext_upd_event e f s :
  (kinv s -> forall ev, nth_error (events s) e = Some ev ->
       kclass (kind (f ev)) = kclass (kind ev) /\ (out ev <> None -> out (f ev) <> None)) ->
  ext s (upd_event e f s).
Proof.
  intros Hf. apply ext_events; try reflexivity; intros K; cbn.
  - intros e0 ev H. rewrite nth_error_upd_nth. destruct (Nat.eqb e0 e) eqn:E.
    + apply Nat.eqb_eq in E. subst e0. pose proof (Hf K _ H) as Hfe. rewrite H. cbn. exists (f ev). split; [reflexivity|apply Hfe].
    + exists ev. split; [exact H|reflexivity].
  - intros e0 ev'. rewrite nth_error_upd_nth. destruct (Nat.eqb e0 e) eqn:E.
    + apply Nat.eqb_eq in E. subst e0. destruct (nth_error (events s) e) as [ev|] eqn:H; cbn; [|discriminate].
      intros H'; injection H' as <-. destruct (Hf K _ eq_refl) as [A B]. rewrite A. intros U. apply B. exact (proj1 K _ _ H U).
    + intros H. exact (proj1 K _ _ H).
Qed.

Lemma ext_new_event ev s :
  (kclass (kind ev) = URGENT -> out ev <> None) -> ext s (snd (new_event ev s)).
Proof.
  intros Hev. apply ext_events; try reflexivity; intros K; cbn.
  - intros e0 ev0 H. exists ev0. split; [apply nth_error_app_old, H|reflexivity].
  - intros e0 ev' H. destruct (nth_error_snoc_inv _ _ _ _ H) as [H0|[_ ->]]; [exact (proj1 K _ _ H0)|exact Hev].
Qed.

Lemma ev_class_new ev s : ev_class (snd (new_event ev s)) (fst (new_event ev s)) (kclass (kind ev)).
Proof. exists ev. split; [apply nth_error_last|reflexivity]. Qed.

Lemma ext_schedule e pr d s : 0 <= d -> (kinv s -> ev_class s e pr) -> ext s (schedule e pr d s).
Proof.
  intros Hd Hc K. constructor; [exact K|reflexivity|intros e0 c H; exact H|].
  exists [mkEntry (Qred (now s + d)) pr (next_eid s) e].
  split; [reflexivity|]. split; [cbn; lia|]. split.
  - cbn [new_ok e_eid e_time]. split; [reflexivity|]. split; [|exact I]. rewrite Qred_correct. lra.
  - intros x [<-|[]]. cbn [e_ev e_prio]. apply Hc, K.
Qed.

Lemma ext_upd_proc p f s :
  (kinv s -> forall pr0, nth_error (procs s) p = Some pr0 -> ev_class s (pev (f pr0)) NORMAL) ->
  ext s (upd_proc p f s).
Proof.
  intros Hf K. apply extr_still; try reflexivity; [|auto].
  split; [exact (proj1 K)|]. cbn. intros q pr. rewrite nth_error_upd_nth. destruct (Nat.eqb q p) eqn:E; [|apply (proj2 K)].
  apply Nat.eqb_eq in E. subst q. destruct (nth_error (procs s) p) as [pr0|] eqn:H; cbn; [|discriminate].
  intros H'; injection H' as <-. exact (Hf K _ eq_refl).
Qed.

Lemma ext_add_proc pr s : (kinv s -> ev_class s (pev pr) NORMAL) -> ext s (set_procs (procs s ++ [pr]) s).
Proof.
  intros Hc K. apply extr_still; try reflexivity; [|auto].
  split; [exact (proj1 K)|]. cbn. intros q pr0 H.
  destruct (nth_error_snoc_inv _ _ _ _ H) as [H0|[_ ->]]; [exact (proj2 K _ _ H0)|exact (Hc K)].
Qed.

(* setters of event fields that keep the class and never reset an outcome *)
Lemma ext_set_cbs e c s : ext s (upd_event e (ev_set_cbs c) s).
Proof. apply ext_upd_event. intros _ ev _. split; [reflexivity|auto]. Qed.
Lemma ext_set_defused e s : ext s (upd_event e ev_set_defused s).
Proof. apply ext_upd_event. intros _ ev _. split; [reflexivity|auto]. Qed.
Lemma ext_set_out e o s : ext s (upd_event e (ev_set_out (Some o)) s).
Proof. apply ext_upd_event. intros _ ev _. split; [reflexivity|]. intros _. cbn. discriminate. Qed.
Lemma ext_add_callback e c s : ext s (add_callback e c s).
Proof.
  apply ext_upd_event. intros _ ev _. unfold ev_add_cb. destruct (cbs ev); split; try reflexivity; auto.
Qed.

Lemma kclass_01 k : kclass k = URGENT \/ kclass k = NORMAL.
Proof. destruct k; cbn; auto. Qed.

(* an untriggered event is of the normal class *)
Lemma pending_normal s e ev : kinv s -> get_event e s = Some ev -> out ev = None -> ev_class s e NORMAL.
Proof.
  intros [K1 _] H O. exists ev. split; [exact H|]. destruct (kclass_01 (kind ev)) as [U|N]; [|exact N].
  exfalso. exact (K1 _ _ H U O).
Qed.

Lemma ext_trigger e o s : (kinv s -> ev_class s e NORMAL) -> ext s (trigger_event e o s).
Proof.
  intros H. unfold trigger_event. eapply ext_bind; [apply ext_set_out|]. intros K X.
  apply ext_schedule; [lra|]. intros _. apply (x_cls _ _ X), H, K.
Qed.

Lemma born_prio_class k prio : born_prio k = Some prio -> kclass k = prio.
Proof. destruct k; cbn; congruence. Qed.

Lemma ext_born ev d s : out ev <> None -> 0 <= d ->
  ext s (schedule (length (events s)) (kclass (kind ev)) d (snd (new_event ev s))).
Proof.
  intros O D. eapply ext_trans; [apply ext_new_event; intros _; exact O|].
  apply ext_schedule; [exact D|]. intros _. apply ev_class_new.
Qed.


Lemma ext_kprim b T s s' : kprim b T s s' -> ext s s'.
Proof.
  intros [s0 s1 (Hn & Ha & He & Hv & Hp)|ev s0 O _ P|ev prio d s0 O _ B D _|e ev o s0 H O|p pr o s0 H|e c s0 _|e ev l x s0 _ _ _
         |e s0|c cev all ops n s0 H Kc _|c cev v v' s0 _ _ _|p pr f s0 _ H E|pr ev s0 H Kp|t s0 _ L|e s0 _].
  - (* k_frame *) apply ext_frame; assumption.
  - (* k_new *) apply ext_new_event. destruct (kind ev); cbn in *; solve [contradiction|discriminate].
  - (* k_born *) rewrite <- (born_prio_class _ _ B). apply ext_born; assumption.
  - (* k_trig *) apply ext_trigger. intros K. eapply pending_normal; eassumption.
  - (* k_ptrig *) apply ext_trigger. intros K. exact (proj2 K _ _ H).
  - (* k_addcb *) apply ext_add_callback.
  - (* k_rmcb *) apply ext_set_cbs.
  - (* k_defuse *) apply ext_set_defused.
  - (* k_count *) apply ext_upd_event. intros _ ev Hev. unfold get_event in H. rewrite H in Hev. injection Hev as <-.
    rewrite Kc. split; [reflexivity|auto].
  - (* k_value *) apply ext_set_out.
  - (* k_proc *) apply ext_upd_proc. intros K pr0 H0. unfold get_proc in H. rewrite H in H0. injection H0 as <-.
    rewrite E. exact (proj2 K _ _ H).
  - (* k_spawn *) apply ext_add_proc. intros _. exists ev. split; [exact H|rewrite Kp; reflexivity].
  - (* k_sentinel *) apply (ext_born sentinel); [discriminate|lra].
  - (* k_stopcb *) apply ext_add_callback.
Qed.

Lemma ext_kchain b T s s' : kchain b T s s' -> ext s s'.
Proof. exact (kchain_rel b T ext ext_refl ext_trans (ext_kprim b T) s s'). Qed.

Lemma ext_do_call codes c s : ext s (fst (do_call codes c s)).
Proof. exact (ext_kchain _ _ _ _ (kc_do_call true Tall codes c s)). Qed.

Lemma ext_run_frag {A} codes (f : frag A) s : ext s (fst (run_frag codes f s)).
Proof. exact (ext_kchain _ _ _ _ (kc_run_frag true Tall codes f s)). Qed.

Lemma ext_run_callbacks fuel codes e l s : ext s (fst (run_callbacks fuel codes e l s)).
Proof. exact (ext_kchain _ _ _ _ (kc_run_callbacks true fuel codes e l s)). Qed.

Lemma ext_run_prelude u s s1 : run_prelude u s = inr s1 -> ext s s1.
Proof. intros H. exact (ext_kchain _ _ _ _ (kc_run_prelude Tall u s s1 H)). Qed.

(* step = pop the minimum, then only schedule *)
Lemma step_spec fuel codes s s' r :
  step fuel codes s = (s', r) ->
  (pop_min (agenda s) = None /\ s' = s /\ r = REmpty) \/
  (exists m rest, pop_min (agenda s) = Some (m, rest) /\ ext (pop_state m rest s) s').
Proof.
  intros H. destruct (step_below true _ _ _ _ _ H) as [E|(m & rest & P & [(ev & l & _ & _ & C)|[_ ->]])]; [left; exact E| |].
  - right. exists m, rest. split; [exact P|]. eapply ext_trans; [apply ext_set_cbs|exact (ext_kchain _ _ _ _ C)].
  - right. exists m, rest. split; [exact P|apply ext_refl].
Qed.
