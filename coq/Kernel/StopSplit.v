(* Kernel/StopSplit.v -- C03: a split run is the free run, up to stop callbacks and inert sentinels -- for EVERY program.

     free_run k           k times step(), whatever the steps answer (Kernel/Stop.v); run() and step(n) are free runs
                          ([run_loop_steps], [nsteps_steps]: of as many steps as entries were popped)
     ghost hz s           s plus an INERT sentinel: a pre-triggered event of kind KSentinel without any callback, scheduled
                          URGENT at hz -- what is left of the prelude of run(until=hz) once the stop callback is erased
     pre st s             the state in which the steps of stop point st start, stop callbacks erased: [ghost hz s] for a numeric
                          horizon hz > now, s itself for everything else (run(), run(until=event), step(n), refused calls)
     ghost_run            a free run in which ghosts are inserted between the steps
     split_ghost          erase (split run) = ghost_run (the same numbers of steps) -- all stop points, all programs
     split_transparent_events_steps   plans of run(), run(until=event), step(n): erase (split run) = free_run K: the two
                          executions are IDENTICAL (whole trace, agenda, processes, clock) except for stop callbacks
     split_transparent_events_steps_run   ... = the state the uninterrupted run() ends in, when both have emptied the agenda *)
From Coq Require Import ZArith QArith List Bool Lia Lqa.
From ONL Require Import Kernel.Model Kernel.Keys Kernel.Inv Kernel.Order Kernel.Deliver Kernel.DeliverWf Kernel.StopFrame
  Kernel.StopInv Kernel.Stop Kernel.StopSpec Kernel.StopErase.
Import ListNotations.

(* ---- free runs ---- *)

Lemma free_run_add fuel codes : forall a b s, free_run (a + b) fuel codes s = free_run b fuel codes (free_run a fuel codes s).
Proof. induction a as [|a IH]; intros b s; [reflexivity|]. cbn [Nat.add]. rewrite !free_run_S. apply IH. Qed.

Lemma step_empty_agenda fuel codes s : agenda s = [] -> step fuel codes s = (s, REmpty).
Proof. intros A. apply Deliver.step_empty. rewrite A. reflexivity. Qed.

Lemma free_run_empty fuel codes : forall k s, agenda s = [] -> free_run k fuel codes s = s.
Proof. induction k as [|k IH]; intros s A; [reflexivity|]. rewrite free_run_S, (step_empty_agenda _ _ _ A). apply IH, A. Qed.

Lemma free_run_confluent fuel codes a b s :
  agenda (free_run a fuel codes s) = [] -> agenda (free_run b fuel codes s) = [] -> free_run a fuel codes s = free_run b fuel codes s.
Proof.
  intros A B. destruct (Nat.le_ge_cases a b) as [L|L].
  - replace b with (a + (b - a))%nat by lia. rewrite free_run_add. symmetry. apply free_run_empty, A.
  - replace a with (b + (a - b))%nat by lia. rewrite free_run_add. apply free_run_empty, B.
Qed.

Lemma run_loop_free fuel codes u n s : exists k, fst (run_loop n fuel codes u s) = free_run k fuel codes s.
Proof. eexists. apply run_loop_steps. Qed.

Lemma run_none_free fuel codes s : exists k, fst (run fuel codes UNone s) = free_run k fuel codes s.
Proof. apply run_loop_free. Qed.

Lemma uinv_free_run fuel codes k s : uinv s -> uinv (free_run k fuel codes s).
Proof. apply free_run_inv. intros s0. apply uinv_step. Qed.

Lemma uinv_nsteps fuel codes n s : uinv s -> uinv (fst (nsteps n fuel codes s)).
Proof. intros U. rewrite nsteps_steps. apply uinv_free_run, U. Qed.

(* ---- inert sentinels ---- *)

Definition ghost_ev : event := mkEvent (Some []) (Some (Ok VNone)) false KSentinel.

Definition ghost (hz : Q) (s : state) : state :=
  mkState (now s) (agenda s ++ [num_entry hz s]) (S (next_eid s)) (events s ++ [ghost_ev]) (procs s) (active s) (glob s) (obs s).

Lemma num_start_erase hz s : erase (num_start hz s) = ghost hz (erase s).
Proof.
  unfold erase, num_start, ghost, set_events, num_entry. cbn. rewrite map_app, map_length. reflexivity.
Qed.

Definition pre (st : stop) (s : state) : state :=
  match st with
  | SNum hz => if Qle_bool hz (now s) then s else ghost hz s
  | _ => s
  end.

Lemma uinv_run_stop fuel codes st s : uinv s -> uinv (fst (run_stop fuel codes st s)).
Proof.
  intros U. destruct st as [|hz|e|n]; cbn [run_stop run_stop_sel run_sel]; try apply uinv_run, U. apply uinv_nsteps, U.
Qed.

Definition stop_steps (fuel : nat) (codes : list prog) (st : stop) (s : state) : nat :=
  match st with
  | SRun => loop_steps fuel fuel codes s
  | SNum hz => if Qle_bool hz (now s) then 0%nat else loop_steps fuel fuel codes (num_start hz s)
  | SEv e => match get_event e s with
             | Some ev => if is_processed ev then 0%nat else loop_steps fuel fuel codes (add_callback e CbStop s)
             | None => 0%nat
             end
  | SStep n => loop_steps n fuel codes s
  end.

Lemma run_stop_steps fuel codes st s :
  uinv s -> erase (fst (run_stop fuel codes st s)) = free_run (stop_steps fuel codes st s) fuel codes (pre st (erase s)).
Proof.
  intros U. destruct st as [|hz|e|n]; cbn [run_stop run_stop_sel run_sel pre stop_steps]; unfold run; cbn [run_prelude].
  - rewrite run_loop_steps. symmetry. apply free_run_erase, U.
  - change (now (erase s)) with (now s). destruct (Qle_bool hz (now s)) eqn:L; [reflexivity|].
    pose proof (run_prelude_num hz s (Qle_bool_false _ _ L)) as Pre. cbn [run_prelude] in Pre. rewrite L in Pre. rewrite Pre.
    rewrite run_loop_steps, <- num_start_erase. symmetry. apply free_run_erase.
    eapply uinv_run_prelude; [apply (run_prelude_num hz s (Qle_bool_false _ _ L))|exact U].
  - destruct (get_event e s) as [ev|]; [|reflexivity]. destruct (is_processed ev); [reflexivity|].
    rewrite run_loop_steps, <- (add_stop_erase e s). symmetry. apply free_run_erase, uinv_add_callback, U.
  - change (nsteps_sel true) with nsteps. rewrite nsteps_steps. symmetry. apply free_run_erase, U.
Qed.

Fixpoint ghost_run (fuel : nat) (codes : list prog) (plan : list (stop * nat)) (s : state) : state :=
  match plan with
  | [] => s
  | (st, k) :: t => ghost_run fuel codes t (free_run k fuel codes (pre st s))
  end.

Lemma run_split_cons fuel codes st t s :
  fst (run_split fuel codes (st :: t) s) = fst (run_split fuel codes t (fst (run_stop fuel codes st s))).
Proof.
  unfold run_split, run_stop. cbn [run_split_sel]. destruct (run_stop_sel true fuel codes st s) as [s1 r]. cbn [fst].
  destruct (run_split_sel true fuel codes t s1) as [s2 rs]. reflexivity.
Qed.

Fixpoint plan_steps (fuel : nat) (codes : list prog) (plan : list stop) (s : state) : list nat :=
  match plan with
  | [] => []
  | st :: t => stop_steps fuel codes st s :: plan_steps fuel codes t (fst (run_stop fuel codes st s))
  end.

Lemma plan_steps_length fuel codes : forall plan s, length (plan_steps fuel codes plan s) = length plan.
Proof. induction plan as [|st t IH]; intros s; cbn; [reflexivity|now rewrite IH]. Qed.

(* all stop points, all programs: the split run, with its stop callbacks erased, IS the free run in which an inert urgent
   event is scheduled at every accepted numeric horizon; the numbers of steps are those the split run made *)
Theorem split_ghost_steps fuel codes : forall plan s,
  uinv s -> erase (fst (run_split fuel codes plan s)) = ghost_run fuel codes (combine plan (plan_steps fuel codes plan s)) (erase s).
Proof.
  induction plan as [|st t IH]; intros s U; [reflexivity|].
  rewrite run_split_cons, (IH _ (uinv_run_stop fuel codes st s U)). cbn [plan_steps combine ghost_run].
  now rewrite (run_stop_steps fuel codes st s U).
Qed.

Theorem split_ghost fuel codes plan s :
  uinv s -> exists ks, length ks = length plan /\
    erase (fst (run_split fuel codes plan s)) = ghost_run fuel codes (combine plan ks) (erase s).
Proof. intros U. exists (plan_steps fuel codes plan s). split; [apply plan_steps_length|apply split_ghost_steps, U]. Qed.

Definition no_horizon (plan : list stop) : Prop := forall st, In st plan -> match st with SNum _ => False | _ => True end.

Lemma ghost_run_no_horizon fuel codes : forall plan ks s,
  no_horizon plan -> length ks = length plan ->
  ghost_run fuel codes (combine plan ks) s = free_run (fold_right Nat.add 0%nat ks) fuel codes s.
Proof.
  induction plan as [|st t IH]; intros [|k ks] s N L; try discriminate; [reflexivity|].
  cbn [combine ghost_run fold_right]. rewrite free_run_add.
  assert (P : pre st s = s) by (pose proof (N st (or_introl eq_refl)) as X; destruct st; try reflexivity; destruct X).
  rewrite P. apply IH; [intros x Hx; apply N; right; exact Hx|cbn in L; lia].
Qed.

(* plans of run(), run(until=event) and step(n) -- every program, every plan, no hypothesis but the well-formedness every
   execution has: the split run and the free run of as many steps end in the same state up to stop callbacks; in particular
   the same trace, the same agenda, the same processes *)
Lemma split_events_steps_count fuel codes plan s K :
  uinv s -> no_horizon plan -> fold_right Nat.add 0%nat (plan_steps fuel codes plan s) = K ->
  erase (fst (run_split fuel codes plan s)) = free_run K fuel codes (erase s).
Proof. intros U N <-. rewrite (split_ghost_steps _ _ _ _ U). apply ghost_run_no_horizon; [exact N|apply plan_steps_length]. Qed.

Theorem split_transparent_events_steps fuel codes plan s :
  uinv s -> no_horizon plan -> exists K, erase (fst (run_split fuel codes plan s)) = free_run K fuel codes (erase s).
Proof. intros U N. eexists. apply split_events_steps_count; [exact U|exact N|reflexivity]. Qed.

(* against the uinterrupted run(): when it returned normally and the split run has emptied the agenda too, the split run ends
   in the state of the uninterrupted run, up to stop callbacks (none, by [calm_run_split], if every run(until=...) returned):
   same trace, step by step *)
Theorem split_transparent_events_steps_run fuel codes plan s U :
  uinv s -> no_stop s -> no_horizon plan ->
  run fuel codes UNone s = (U, ROk) -> agenda (fst (run_split fuel codes plan s)) = [] ->
  erase (fst (run_split fuel codes plan s)) = U /\ obs (fst (run_split fuel codes plan s)) = obs U /\
  logs (fst (run_split fuel codes plan s)) = logs U.
Proof.
  intros Ui Ns N R A.
  destruct (split_transparent_events_steps fuel codes plan s Ui N) as (K & E).
  assert (Es : erase s = s) by (apply erase_id; intros e ev H; destruct (has_stop ev) eqn:T; [destruct (Ns _ _ H T)|reflexivity]).
  rewrite Es in E.
  destruct (run_none_free fuel codes s) as (k & Ek). rewrite R in Ek. cbn [fst] in Ek.
  pose proof (run_all_drains _ _ _ _ R) as Au.
  assert (X : erase (fst (run_split fuel codes plan s)) = U).
  { rewrite E, Ek. apply free_run_confluent; [rewrite <- E; exact A|rewrite <- Ek; exact Au]. }
  split; [exact X|]. split; [rewrite <- X; reflexivity|]. unfold logs. rewrite <- X. reflexivity.
Qed.
