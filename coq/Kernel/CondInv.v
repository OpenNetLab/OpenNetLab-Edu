(* Kernel/CondInv.v -- C05 (conditions): invariants.

   [cinv X s]     state invariant preserved by every primitive (hence true in every state of every execution
                  of every program, also in the middle of a step); X = the events that received an explicit
                  succeed/fail.  Clauses: agenda entries are triggered events; operands are older than their
                  condition; processed => triggered; where _check / _build_value callbacks sit; a pending
                  condition's predicate is false; a triggered condition (not in X) is justified.
   [binv l e s]   the counting invariant, relative to the callbacks [l] of the popped event [e] that are still
                  to run: count + (checks in flight) <= processed operand positions, with equality, full
                  subscription and "no processed operand has failed" for pending conditions that have not been
                  detached by an enclosing condition.  [binv [] e s] is the invariant at step boundaries.
   Also here: _remove_check_callbacks as a sequence of single removals ([rmsteps], [desc]); the closed form of
   Condition.__init__ ([CS], [cond_made], call_cond_spec); the callback loop ([winv], [cbloop]) with its induction
   principle (loop_all, clean_step_loop); steps, run_loop and run as executions ([clean_step], [creach], reach_run). *)
From Coq Require Import ZArith QArith List Bool Lia.
From ONL Require Import Kernel.Model Kernel.Keys Kernel.Prims Kernel.Cond.
Import ListNotations.

(* ------------------------------------------------------------------------------------------------ *)
(* counting *)

Definition cbcount (c : cb) (l : list cb) : nat := length (filter (cb_eqb c) l).
Definition occ (o : evid) (ops : list evid) : nat := length (filter (Nat.eqb o) ops).
Definition is_proc (s : state) (o : evid) : bool :=
  match get_event o s with Some ev => is_processed ev | None => false end.
Definition procpos (s : state) (ops : list evid) : nat := length (filter (is_proc s) ops).

Lemma cb_eqb_eq a b : cb_eqb a b = true <-> a = b.
Proof.
  destruct a, b; cbn; try (split; [intros H; discriminate H|intros H; discriminate H]); try (split; reflexivity);
    rewrite Nat.eqb_eq; (split; [intros ->; reflexivity|intros H; injection H; auto]).
Qed.
Lemma cb_eqb_refl a : cb_eqb a a = true. Proof. apply cb_eqb_eq. reflexivity. Qed.
Lemma cb_eqb_neq a b : cb_eqb a b = false <-> a <> b.
Proof. rewrite <- cb_eqb_eq. destruct (cb_eqb a b); split; congruence. Qed.

Lemma cbcount_app c l1 l2 : cbcount c (l1 ++ l2) = (cbcount c l1 + cbcount c l2)%nat.
Proof. unfold cbcount. rewrite filter_app, app_length. reflexivity. Qed.
Lemma cbcount_cons c d l : cbcount c (d :: l) = ((if cb_eqb c d then 1 else 0) + cbcount c l)%nat.
Proof. unfold cbcount. cbn. destruct (cb_eqb c d); reflexivity. Qed.
Lemma cbcount_nil c : cbcount c [] = 0%nat. Proof. reflexivity. Qed.

Lemma cbcount_in c l : In c l <-> (0 < cbcount c l)%nat.
Proof.
  induction l as [|d t IH]; [cbn; split; [tauto|lia]|]. rewrite cbcount_cons. cbn [In].
  destruct (cb_eqb c d) eqn:E.
  - apply cb_eqb_eq in E. subst d. split; [lia|auto].
  - apply cb_eqb_neq in E. rewrite IH. split; [intros [H|H]; [congruence|lia]|intros H; right; lia].
Qed.
Lemma cbcount_notin c l : ~ In c l <-> cbcount c l = 0%nat.
Proof. rewrite cbcount_in. lia. Qed.

Lemma cbcount_remove_other c d l : c <> d -> cbcount c (remove_first d l) = cbcount c l.
Proof.
  intros N. induction l as [|x t IH]; [reflexivity|]. cbn [remove_first].
  destruct (cb_eqb x d) eqn:E.
  - apply cb_eqb_eq in E. subst x. rewrite cbcount_cons. apply cb_eqb_neq in N. rewrite N. reflexivity.
  - rewrite !cbcount_cons, IH. reflexivity.
Qed.
Lemma cbcount_remove_same c l : cbcount c (remove_first c l) = pred (cbcount c l).
Proof.
  induction l as [|x t IH]; [reflexivity|]. cbn [remove_first].
  destruct (cb_eqb x c) eqn:E.
  - apply cb_eqb_eq in E. subst x. rewrite cbcount_cons, cb_eqb_refl. reflexivity.
  - rewrite !cbcount_cons, IH. assert (E' : cb_eqb c x = false).
    { apply cb_eqb_neq. apply cb_eqb_neq in E. congruence. } rewrite E'. reflexivity.
Qed.
Lemma mem_cb_in c l : mem_cb c l = true <-> In c l.
Proof.
  unfold mem_cb. rewrite existsb_exists. split.
  - intros (x & H & E). apply cb_eqb_eq in E. subst x. exact H.
  - intros H. exists c. split; [exact H|apply cb_eqb_refl].
Qed.

Lemma occ_cons o x t : occ o (x :: t) = ((if Nat.eqb o x then 1 else 0) + occ o t)%nat.
Proof. unfold occ. cbn. destruct (Nat.eqb o x); reflexivity. Qed.
Lemma occ_app o l1 l2 : occ o (l1 ++ l2) = (occ o l1 + occ o l2)%nat.
Proof. unfold occ. rewrite filter_app, app_length. reflexivity. Qed.
Lemma occ_in o ops : In o ops <-> (0 < occ o ops)%nat.
Proof.
  induction ops as [|x t IH]; [cbn; split; [tauto|lia]|]. rewrite occ_cons. cbn [In].
  destruct (Nat.eqb o x) eqn:E.
  - apply Nat.eqb_eq in E. subst x. split; [lia|auto].
  - apply Nat.eqb_neq in E. rewrite IH. split; [intros [H|H]; [congruence|lia]|intros H; right; lia].
Qed.
Lemma occ_notin o ops : ~ In o ops -> occ o ops = 0%nat.
Proof. rewrite occ_in. lia. Qed.

Lemma procpos_cons s o t : procpos s (o :: t) = ((if is_proc s o then 1 else 0) + procpos s t)%nat.
Proof. unfold procpos. cbn. destruct (is_proc s o); reflexivity. Qed.
Lemma procpos_app s l1 l2 : procpos s (l1 ++ l2) = (procpos s l1 + procpos s l2)%nat.
Proof. unfold procpos. rewrite filter_app, app_length. reflexivity. Qed.
Lemma procpos_le_length s ops : (procpos s ops <= length ops)%nat.
Proof. induction ops as [|o t IH]; [cbn; lia|]. rewrite procpos_cons. cbn [length]. destruct (is_proc s o); lia. Qed.
Lemma procpos_ext s s' ops : (forall o, In o ops -> is_proc s' o = is_proc s o) -> procpos s' ops = procpos s ops.
Proof.
  induction ops as [|o t IH]; intros H; [reflexivity|]. rewrite !procpos_cons, H by (left; reflexivity).
  rewrite IH; [reflexivity|]. intros; apply H; right; assumption.
Qed.
Lemma procpos_mono s s' ops : (forall o, In o ops -> is_proc s o = true -> is_proc s' o = true) -> (procpos s ops <= procpos s' ops)%nat.
Proof.
  induction ops as [|o t IH]; intros H; [cbn; lia|]. rewrite !procpos_cons.
  assert (IH' := IH (fun o' Ho => H o' (or_intror Ho))).
  destruct (is_proc s o) eqn:E; [rewrite (H o (or_introl eq_refl) E); lia|destruct (is_proc s' o); lia].
Qed.
(* one more event becomes processed *)
Lemma procpos_pop s s' e ops :
  is_proc s e = false -> is_proc s' e = true -> (forall o, o <> e -> is_proc s' o = is_proc s o) ->
  procpos s' ops = (procpos s ops + occ e ops)%nat.
Proof.
  intros H0 H1 Ho. induction ops as [|o t IH]; [reflexivity|]. rewrite !procpos_cons, occ_cons, IH.
  destruct (Nat.eqb e o) eqn:E.
  - apply Nat.eqb_eq in E. subst o. rewrite H0, H1. lia.
  - apply Nat.eqb_neq in E. rewrite Ho by congruence. lia.
Qed.
Lemma procpos_all s ops : procpos s ops = length ops <-> forall o, In o ops -> is_proc s o = true.
Proof.
  induction ops as [|o t IH]; [cbn; split; [intros _ o []|reflexivity]|]. rewrite procpos_cons. cbn [length In].
  pose proof (procpos_le_length s t). destruct (is_proc s o) eqn:E.
  - split.
    + intros H1 o' [<-|Ho]; [exact E|]. apply IH; [lia|exact Ho].
    + intros H1. assert (procpos s t = length t) by (apply IH; intros; apply H1; auto). lia.
  - split; [lia|]. intros H1. rewrite (H1 o (or_introl eq_refl)) in E. discriminate.
Qed.
Lemma procpos_zero s ops : procpos s ops = 0%nat <-> forall o, In o ops -> is_proc s o = false.
Proof.
  induction ops as [|o t IH]; [cbn; split; [intros _ o []|reflexivity]|]. rewrite procpos_cons. cbn [In].
  destruct (is_proc s o) eqn:E.
  - split; [lia|]. intros H1. rewrite (H1 o (or_introl eq_refl)) in E. discriminate.
  - split.
    + intros H1 o' [<-|Ho]; [exact E|]. apply IH; [lia|exact Ho].
    + intros H1. apply IH. intros; apply H1; auto.
Qed.

Lemma is_proc_iff s o : is_proc s o = true <-> processed_in o s.
Proof.
  unfold is_proc, processed_in, is_processed. destruct (get_event o s) as [ev|].
  - destruct (cbs ev) eqn:E; split; try discriminate.
    + intros (ev' & H & C). injection H as <-. congruence.
    + intros _. exists ev. auto.
    + reflexivity.
  - split; [discriminate|intros (ev & H & _); discriminate].
Qed.

(* ------------------------------------------------------------------------------------------------ *)
(* the state invariant *)

Definition justified (s : state) (cev : event) (all : bool) (ops : list evid) (n : nat) : Prop :=
  match out cev with
  | Some (Ok _) => cond_evaluate all (length ops) n = true
  | Some (Fail _) => exists o oev, In o ops /\ get_event o s = Some oev /\ cbs oev = None /\ defused oev = true
  | None => True
  end.

Record cinv (X : list evid) (s : state) : Prop := mkCinv {
  ci_agenda : forall x, In x (agenda s) -> exists ev, get_event (e_ev x) s = Some ev /\ out ev <> None;
  ci_older : forall c cev all ops n, get_event c s = Some cev -> kind cev = KCond all ops n ->
             forall o, In o ops -> (o < c)%nat;
  ci_proc_trig : forall e ev, get_event e s = Some ev -> cbs ev = None -> out ev <> None;
  ci_check : forall o oev l c, get_event o s = Some oev -> cbs oev = Some l -> In (CbCheck c) l ->
             exists cev all ops n, get_event c s = Some cev /\ kind cev = KCond all ops n /\
                                   (cbcount (CbCheck c) l <= occ o ops)%nat;
  ci_build : forall e ev l c, get_event e s = Some ev -> cbs ev = Some l -> In (CbBuild c) l ->
             c = e /\ hd_error l = Some (CbBuild c) /\ cbcount (CbBuild c) l = 1%nat;
  ci_build_head : forall c cev all ops n l, get_event c s = Some cev -> kind cev = KCond all ops n ->
             cbs cev = Some l -> ops <> [] -> In (CbBuild c) l;
  ci_pending : forall c cev all ops n, get_event c s = Some cev -> kind cev = KCond all ops n ->
             out cev = None -> cond_evaluate all (length ops) n = false;
  ci_just : forall c cev all ops n, get_event c s = Some cev -> kind cev = KCond all ops n ->
             ~ In c X -> justified s cev all ops n }.

Definition ostat (o : option outcome) : nat :=
  match o with None => 0 | Some (Ok _) => 1 | Some (Fail _) => 2 end.

Definition cbl_le (l l' : list cb) : Prop :=
  (forall c, cbcount (CbCheck c) l' <= cbcount (CbCheck c) l)%nat /\
  (forall c, cbcount (CbBuild c) l' = cbcount (CbBuild c) l) /\
  (forall c, hd_error l = Some (CbBuild c) -> hd_error l' = Some (CbBuild c)).

Lemma kind_le_cond k k' all ops n' : kind_le k k' -> k' = KCond all ops n' -> exists n, k = KCond all ops n /\ (n <= n')%nat.
Proof.
  intros [->|(a & o & n & m & -> & -> & L)] E.
  - exists n'. split; [exact E|lia].
  - injection E as -> -> ->. exists n. auto.
Qed.

Lemma kind_le_cond_fwd k k' all ops n : kind_le k k' -> k = KCond all ops n -> exists n', k' = KCond all ops n' /\ (n <= n')%nat.
Proof.
  intros [->|(a & o & n0 & m & -> & -> & L)] E.
  - exists n. split; [exact E|lia].
  - injection E as -> -> ->. exists m. auto.
Qed.

(* transfer of a justification to a later state *)
Lemma justified_mono s s' cev cev' all ops n n' :
  justified s cev all ops n -> grows s s' -> ostat (out cev') = ostat (out cev) ->
  (cond_evaluate all (length ops) n = true -> cond_evaluate all (length ops) n' = true) ->
  justified s' cev' all ops n'.
Proof.
  unfold justified. intros J [G _] St Ev.
  destruct (out cev') as [[v|x]|], (out cev) as [[v0|x0]|]; cbn in St; try discriminate; auto.
  destruct J as (o & oev & Io & Ho & Co & Do). destruct (G _ _ Ho) as (oev' & Ho' & _ & C' & _ & D').
  exists o, oev'. auto.
Qed.

(* the general update lemma: the event e is replaced by ev' *)
Lemma cinv_upd_gen X X' s e f ev :
  cinv X s -> incl X X' -> get_event e s = Some ev ->
  kind_le (kind ev) (kind (f ev)) -> (cbs ev = None -> cbs (f ev) = None) -> (cbs (f ev) = None -> out (f ev) <> None) ->
  (forall l l', cbs ev = Some l -> cbs (f ev) = Some l' -> cbl_le l l') ->
  (out ev <> None -> out (f ev) <> None) -> (defused ev = true -> defused (f ev) = true) ->
  (forall all ops n, kind (f ev) = KCond all ops n -> out (f ev) = None -> cond_evaluate all (length ops) n = false) ->
  (forall all ops n, kind (f ev) = KCond all ops n -> ~ In e X' -> justified (upd_event e f s) (f ev) all ops n) ->
  cinv X' (upd_event e f s).
Proof.
  intros CI HX He Uk Uc Up Ul Uo Ud UP UJ.
  assert (GR : grows s (upd_event e f s)).
  { apply grows_upd. intros ev0 H0. rewrite He in H0. injection H0 as <-. repeat split; auto. }
  pose proof (get_upd_inv e f s ev He) as G.
  assert (G2 : forall e0 ev0, get_event e0 s = Some ev0 -> exists ev0', get_event e0 (upd_event e f s) = Some ev0' /\
                 kind_le (kind ev0) (kind ev0') /\ (out ev0 <> None -> out ev0' <> None) /\ (cbs ev0 = None -> cbs ev0' = None) /\
                 (defused ev0 = true -> defused ev0' = true)).
  { intros e0 ev0 H. destruct (proj1 GR _ _ H) as (ev0' & H' & A & B & C & D). exists ev0'. auto. }
  constructor.
  - intros x Hx. change (agenda (upd_event e f s)) with (agenda s) in Hx.
    destruct (ci_agenda _ _ CI _ Hx) as (ev0 & H0 & O0). destruct (G2 _ _ H0) as (ev0' & H0' & _ & O & _).
    exists ev0'. split; [exact H0'|apply O, O0].
  - intros c cev all ops n Hc Kc. destruct (G _ _ Hc) as [[-> ->]|[_ Hc']].
    + destruct (kind_le_cond _ _ _ _ _ Uk Kc) as (n0 & K0 & _). eapply ci_older; eassumption.
    + eapply ci_older; eassumption.
  - intros e0 ev0 H0 C0. destruct (G _ _ H0) as [[-> ->]|[_ H0']].
    + apply Up, C0.
    + eapply ci_proc_trig; eassumption.
  - intros o oev l c Ho Cl Hin.
    assert (Old : exists l0, get_event o s = Some (if Nat.eqb o e then ev else oev) /\
                   cbs (if Nat.eqb o e then ev else oev) = Some l0 /\ In (CbCheck c) l0 /\
                   (cbcount (CbCheck c) l <= cbcount (CbCheck c) l0)%nat).
    { destruct (G _ _ Ho) as [[-> ->]|[N Ho']].
      - rewrite Nat.eqb_refl. destruct (cbs ev) as [l0|] eqn:C0; [|specialize (Uc eq_refl); congruence].
        destruct (Ul _ _ eq_refl Cl) as (L1 & _). exists l0. repeat split; auto.
        apply cbcount_in. apply cbcount_in in Hin. specialize (L1 c). lia.
      - apply Nat.eqb_neq in N. rewrite N. exists l. repeat split; auto. }
    destruct Old as (l0 & Ho0 & C0 & In0 & Le).
    destruct (ci_check _ _ CI _ _ _ _ Ho0 C0 In0) as (cev & all & ops & n & Hc & Kc & Lc).
    destruct (G2 _ _ Hc) as (cev' & Hc' & Kc' & _).
    destruct (kind_le_cond_fwd _ _ _ _ _ Kc' Kc) as (n' & Kn' & _). exists cev', all, ops, n'.
    split; [exact Hc'|]. split; [exact Kn'|lia].
  - intros e0 ev0 l c H0 Cl Hin. destruct (G _ _ H0) as [[-> ->]|[_ H0']].
    + destruct (cbs ev) as [l0|] eqn:C0; [|specialize (Uc eq_refl); congruence].
      destruct (Ul _ _ eq_refl Cl) as (_ & L2 & L3).
      assert (In0 : In (CbBuild c) l0). { apply cbcount_in. rewrite <- L2. apply cbcount_in, Hin. }
      destruct (ci_build _ _ CI _ _ _ _ He C0 In0) as (-> & Hd & Cn). split; [reflexivity|].
      split; [apply L3, Hd|rewrite L2; exact Cn].
    + eapply ci_build; eassumption.
  - intros c cev all ops n l Hc Kc Cl Ne. destruct (G _ _ Hc) as [[-> ->]|[_ Hc']].
    + destruct (cbs ev) as [l0|] eqn:C0; [|specialize (Uc eq_refl); congruence].
      destruct (Ul _ _ eq_refl Cl) as (_ & L2 & _). destruct (kind_le_cond _ _ _ _ _ Uk Kc) as (n0 & K0 & _).
      pose proof (ci_build_head _ _ CI _ _ _ _ _ _ He K0 C0 Ne) as In0.
      apply cbcount_in. rewrite L2. apply cbcount_in, In0.
    + eapply ci_build_head; eassumption.
  - intros c cev all ops n Hc Kc Oc. destruct (G _ _ Hc) as [[-> ->]|[_ Hc']].
    + eapply UP; eassumption.
    + eapply ci_pending; eassumption.
  - intros c cev all ops n Hc Kc NX. destruct (G _ _ Hc) as [[-> ->]|[_ Hc']].
    + apply UJ; assumption.
    + assert (NX0 : ~ In c X) by (intros H; apply NX, HX, H).
      eapply justified_mono; [eapply ci_just; eassumption|exact GR|reflexivity|auto].
Qed.

Definition ev_upd_ok (X' : list evid) (e : evid) (ev ev' : event) : Prop :=
  kind ev' = kind ev /\ (cbs ev = None -> cbs ev' = None) /\ (cbs ev' = None -> out ev' <> None) /\
  (forall l l', cbs ev = Some l -> cbs ev' = Some l' -> cbl_le l l') /\
  (out ev <> None -> out ev' <> None) /\ (defused ev = true -> defused ev' = true) /\
  (is_cond ev = true -> ostat (out ev') = ostat (out ev) \/ (out ev = None /\ In e X')).

Lemma cinv_upd X X' s e f ev :
  cinv X s -> incl X X' -> get_event e s = Some ev -> ev_upd_ok X' e ev (f ev) -> cinv X' (upd_event e f s).
Proof.
  intros CI HX He (Uk & Uc & Up & Ul & Uo & Ud & Uj).
  assert (GR : grows s (upd_event e f s)).
  { apply grows_upd. intros ev0 H0. rewrite He in H0. injection H0 as <-. repeat split; auto. left. exact Uk. }
  apply (cinv_upd_gen X X' s e f ev CI HX He (or_introl Uk) Uc Up Ul Uo Ud).
  - intros all ops n Kc Oc. rewrite Uk in Kc.
    assert (IC : is_cond ev = true) by (unfold is_cond; rewrite Kc; reflexivity).
    eapply ci_pending; [exact CI|exact He|exact Kc|].
    destruct (Uj IC) as [S|[O _]]; [|exact O]. rewrite Oc in S. destruct (out ev) as [[?|?]|]; cbn in S; congruence.
  - intros all ops n Kc NX. rewrite Uk in Kc.
    assert (IC : is_cond ev = true) by (unfold is_cond; rewrite Kc; reflexivity).
    destruct (Uj IC) as [S|[_ Hin]]; [|contradiction].
    assert (NX0 : ~ In e X) by (intros H; apply NX, HX, H).
    eapply justified_mono; [eapply ci_just; eassumption|exact GR|exact S|auto].
Qed.

(* changes that leave the events alone *)
Lemma cinv_same_events X s s' :
  cinv X s -> events s' = events s ->
  (forall x, In x (agenda s') -> In x (agenda s) \/ exists ev, get_event (e_ev x) s = Some ev /\ out ev <> None) ->
  cinv X s'.
Proof.
  intros CI E A.
  assert (G : forall e, get_event e s' = get_event e s) by (intros; unfold get_event; rewrite E; reflexivity).
  constructor.
  - intros x Hx. rewrite G. destruct (A _ Hx) as [H|H]; [eapply ci_agenda; eassumption|exact H].
  - intros c cev all ops n. rewrite G. apply (ci_older _ _ CI).
  - intros e ev. rewrite G. apply (ci_proc_trig _ _ CI).
  - intros o oev l c. rewrite G. intros H1 H2 H3.
    destruct (ci_check _ _ CI _ _ _ _ H1 H2 H3) as (cev & all & ops & n & A1 & A2 & A3). exists cev, all, ops, n. rewrite G. auto.
  - intros e ev l c. rewrite G. apply (ci_build _ _ CI).
  - intros c cev all ops n l. rewrite G. apply (ci_build_head _ _ CI).
  - intros c cev all ops n. rewrite G. apply (ci_pending _ _ CI).
  - intros c cev all ops n. rewrite G. intros H1 H2 H3. pose proof (ci_just _ _ CI _ _ _ _ _ H1 H2 H3) as J.
    unfold justified in *. destruct (out cev) as [[?|?]|]; auto.
    destruct J as (o & oev & J1 & J2 & J3). exists o, oev. rewrite G. auto.
Qed.

(* ---- instances ---- *)

Lemma cbl_le_refl l : cbl_le l l.
Proof. repeat split; auto. Qed.

Lemma cbcount_plain_single c d : plain_cb d -> (match c with CbCheck _ | CbBuild _ => True | _ => False end) -> cbcount c [d] = 0%nat.
Proof. intros P C. rewrite cbcount_cons, cbcount_nil. destruct c, d; cbn in *; try contradiction; reflexivity. Qed.

Lemma cbl_le_app_plain l d : plain_cb d -> cbl_le l (l ++ [d]).
Proof.
  intros P. repeat split; intros c.
  - rewrite cbcount_app, cbcount_plain_single; [lia|exact P|exact I].
  - rewrite cbcount_app, cbcount_plain_single; [lia|exact P|exact I].
  - destruct l; cbn; [discriminate|auto].
Qed.

Lemma cbl_le_remove l d : (match d with CbBuild _ => False | _ => True end) -> cbl_le l (remove_first d l).
Proof.
  intros P. repeat split; intros c.
  - destruct d; try (rewrite cbcount_remove_other by discriminate; lia).
    destruct (Nat.eq_dec c0 c) as [->|N]; [rewrite cbcount_remove_same; lia|].
    rewrite cbcount_remove_other by congruence. lia.
  - apply cbcount_remove_other. destruct d; try discriminate. contradiction.
  - destruct l as [|x t]; cbn; [discriminate|]. intros H; injection H as ->.
    destruct d; cbn; try reflexivity. contradiction.
Qed.

Lemma mk_ok X e ev ev' :
  kind ev' = kind ev -> (cbs ev = None -> cbs ev' = None) -> (cbs ev' = None -> out ev' <> None) ->
  (forall l l', cbs ev = Some l -> cbs ev' = Some l' -> cbl_le l l') ->
  (out ev <> None -> out ev' <> None) -> (defused ev = true -> defused ev' = true) ->
  (is_cond ev = true -> ostat (out ev') = ostat (out ev) \/ (out ev = None /\ In e X)) ->
  ev_upd_ok X e ev ev'.
Proof. unfold ev_upd_ok. auto 10. Qed.

Lemma ok_add_cb X e c ev : plain_cb c -> (cbs ev = None -> out ev <> None) -> ev_upd_ok X e ev (ev_add_cb c ev).
Proof.
  intros P T. unfold ev_add_cb. destruct (cbs ev) as [l|] eqn:C.
  - apply mk_ok; cbn; auto; try congruence.
    intros l1 l2 H H'. rewrite C in H. injection H as <-. injection H' as <-. apply cbl_le_app_plain, P.
  - apply mk_ok; auto; try congruence.
Qed.

Lemma ok_set_cbs X e ev l d :
  cbs ev = Some l -> (match d with CbBuild _ => False | _ => True end) ->
  ev_upd_ok X e ev (ev_set_cbs (Some (remove_first d l)) ev).
Proof.
  intros C P. apply mk_ok; cbn; auto; try congruence.
  intros l1 l2 H H'. rewrite C in H. injection H as <-. injection H' as <-. apply cbl_le_remove, P.
Qed.

Lemma ok_set_out X e ev o :
  (is_cond ev = true -> ostat (Some o) = ostat (out ev) \/ (out ev = None /\ In e X)) ->
  ev_upd_ok X e ev (ev_set_out (Some o) ev).
Proof.
  intros J. apply mk_ok; cbn; auto; try congruence.
  intros l1 l2 H H'. rewrite H in H'. injection H' as <-. apply cbl_le_refl.
Qed.

Lemma ok_set_defused X e ev : (cbs ev = None -> out ev <> None) -> ev_upd_ok X e ev (ev_set_defused ev).
Proof.
  intros T. apply mk_ok; cbn; auto.
  intros l1 l2 H H'. rewrite H in H'. injection H' as <-. apply cbl_le_refl.
Qed.

Lemma ok_set_processed X e ev : out ev <> None -> ev_upd_ok X e ev (ev_set_cbs None ev).
Proof. intros T. apply mk_ok; cbn; auto; try congruence. Qed.

Lemma upd_event_none e f s : get_event e s = None -> upd_event e f s = s.
Proof. intros H. apply upd_event_id. intros ev H'. congruence. Qed.

Lemma cinv_weaken X X' s : cinv X s -> incl X X' -> cinv X' s.
Proof.
  intros CI HX. destruct CI. constructor; auto. intros c cev all ops n H1 H2 H3. eapply ci_just0; eauto.
Qed.

Lemma cinv_new_plain X ev s : cinv X s -> plain_new ev -> (cbs ev = None -> out ev <> None) -> cinv X (snd (new_event ev s)).
Proof.
  intros CI ((l0 & Cl0 & Pl0) & Kn) _.
  set (s' := snd (new_event ev s)).
  pose proof (get_event_new_inv ev s) as G. fold s' in G.
  assert (G2 : forall e ev', get_event e s = Some ev' -> get_event e s' = Some ev').
  { intros e ev' H. unfold s'. rewrite get_event_new_below; [exact H|eapply get_event_lt, H]. }
  constructor.
  - intros x Hx. destruct (ci_agenda _ _ CI x Hx) as (ev0 & A & B). exists ev0. auto.
  - intros c cev all ops n Hc Kc. destruct (G _ _ Hc) as [H|[-> ->]]; [eapply ci_older; eassumption|].
    rewrite Kc in Kn. contradiction.
  - intros e ev' He C. destruct (G _ _ He) as [H|[-> ->]]; [eapply ci_proc_trig; eassumption|congruence].
  - intros o oev l c Ho Cl Hin. destruct (G _ _ Ho) as [H|[-> ->]].
    + destruct (ci_check _ _ CI _ _ _ _ H Cl Hin) as (cev & all & ops & n & A1 & A2 & A3).
      exists cev, all, ops, n. auto.
    + rewrite Cl0 in Cl. injection Cl as <-. apply Pl0 in Hin. contradiction.
  - intros e ev' l c He Cl Hin. destruct (G _ _ He) as [H|[-> ->]]; [eapply ci_build; eassumption|].
    rewrite Cl0 in Cl. injection Cl as <-. apply Pl0 in Hin. contradiction.
  - intros c cev all ops n l Hc Kc. destruct (G _ _ Hc) as [H|[-> ->]]; [eapply ci_build_head; eassumption|].
    rewrite Kc in Kn. contradiction.
  - intros c cev all ops n Hc Kc. destruct (G _ _ Hc) as [H|[-> ->]]; [eapply ci_pending; eassumption|].
    rewrite Kc in Kn. contradiction.
  - intros c cev all ops n Hc Kc NX. destruct (G _ _ Hc) as [H|[-> ->]]; [|rewrite Kc in Kn; contradiction].
    pose proof (ci_just _ _ CI _ _ _ _ _ H Kc NX) as J. unfold justified in *. destruct (out cev) as [[?|?]|]; auto.
    destruct J as (o & oev & J1 & J2 & J3). exists o, oev. auto.
Qed.

Lemma cinv_schedule X e prio d s ev : cinv X s -> get_event e s = Some ev -> out ev <> None -> cinv X (schedule e prio d s).
Proof.
  intros CI He O. eapply cinv_same_events; [exact CI|reflexivity|].
  intros x Hx. cbn in Hx. apply in_app_or in Hx. destruct Hx as [H|[<-|[]]]; [auto|]. right. cbn. eauto.
Qed.

Lemma cinv_trigger X X' e ev o s :
  cinv X s -> incl X X' -> get_event e s = Some ev ->
  (is_cond ev = true -> ostat (Some o) = ostat (out ev) \/ (out ev = None /\ In e X')) ->
  cinv X' (trigger_event e o s).
Proof.
  intros CI HX He J. unfold trigger_event. eapply cinv_schedule.
  - eapply cinv_upd; [exact CI|exact HX|exact He|apply ok_set_out, J].
  - apply get_event_upd_same, He.
  - cbn. discriminate.
Qed.

(* ---- Condition._check ---- *)

Lemma cinv_cond_check X c o oev s :
  cinv X s -> get_event o s = Some oev -> cbs oev = None -> opnd s c o -> cinv X (cond_check c o s).
Proof.
  intros CI Ho Co Op. destruct (cond_check_cases c o s) as [->|(cev & oev' & all & ops & n & Hc & Ho' & Oc & Kc)]; [exact CI|].
  rewrite Ho in Ho'. injection Ho' as <-.
  pose proof (Op _ _ _ _ Hc Kc) as Io. pose proof (ci_older _ _ CI _ _ _ _ _ Hc Kc _ Io) as Lt.
  assert (N : c <> o) by lia.
  rewrite (cond_check_eq c o s cev oev all ops n Hc Ho Oc Kc). cbv zeta.
  set (s0 := if is_failed oev then upd_event o ev_set_defused s else s).
  assert (CI0 : cinv X s0).
  { subst s0. destruct (is_failed oev); [|exact CI]. eapply cinv_upd; [exact CI|apply incl_refl|exact Ho|].
    apply ok_set_defused. intros _. eapply ci_proc_trig; eassumption. }
  assert (Hc0 : get_event c s0 = Some cev) by exact (get_defused_other c o s cev oev Hc Ho Oc).
  assert (Ho0 : exists oev0, get_event o s0 = Some oev0 /\ cbs oev0 = None /\ (is_failed oev = true -> defused oev0 = true)).
  { subst s0. destruct (is_failed oev) eqn:F.
    - exists (ev_set_defused oev). split; [apply get_event_upd_same, Ho|]. split; [exact Co|reflexivity].
    - exists oev. split; [exact Ho|]. split; [exact Co|discriminate]. }
  set (s1 := upd_event c (check_upd all ops n oev) s0).
  assert (CI1 : cinv X s1).
  { subst s1. eapply cinv_upd_gen; [exact CI0|apply incl_refl|exact Hc0|..]; autorewrite with check_upd.
    - right. exists all, ops, n, (S n). auto.
    - auto.
    - intros C. exfalso. eapply (ci_proc_trig _ _ CI); eassumption.
    - intros l l' C C'. rewrite C in C'. injection C' as <-. apply cbl_le_refl.
    - congruence.
    - auto.
    - intros all' ops' n' K O. injection K as <- <- <-. destruct (check_triggers all ops n oev) eqn:T; [discriminate|].
      apply orb_false_iff in T. apply T.
    - intros all' ops' n' K _. injection K as <- <- <-. unfold justified. autorewrite with check_upd.
      destruct (check_triggers all ops n oev) eqn:T; [|rewrite Oc; exact I].
      unfold check_triggers in T. destruct (is_failed oev) eqn:F.
      + destruct (failed_out _ F) as (x & _ & ->). destruct Ho0 as (oev0 & Ho0 & Co0 & Do0).
        exists o, oev0. split; [exact Io|]. split; [rewrite get_event_upd_other by congruence; exact Ho0|]. auto.
      + rewrite (not_failed_out _ F). exact T. }
  destruct (check_triggers all ops n oev) eqn:T; [|exact CI1].
  eapply cinv_schedule; [exact CI1|subst s1; apply get_event_upd_same, Hc0|]. rewrite check_upd_out, T. discriminate.
Qed.

(* ---- Condition._build_value: _remove_check_callbacks as a sequence of single removals ---- *)

Definition kinds_eq (s s' : state) : Prop := forall e, option_map kind (get_event e s') = option_map kind (get_event e s).

Lemma kinds_eq_refl s : kinds_eq s s. Proof. intros e; reflexivity. Qed.
Lemma kinds_eq_trans s1 s2 s3 : kinds_eq s1 s2 -> kinds_eq s2 s3 -> kinds_eq s1 s3.
Proof. intros A B e. rewrite B, A. reflexivity. Qed.
Lemma kinds_eq_sym s1 s2 : kinds_eq s1 s2 -> kinds_eq s2 s1.
Proof. intros A e. rewrite A. reflexivity. Qed.

Lemma kinds_eq_get s s' e ev : kinds_eq s s' -> get_event e s = Some ev -> exists ev', get_event e s' = Some ev' /\ kind ev' = kind ev.
Proof.
  intros K H. specialize (K e). rewrite H in K. destruct (get_event e s') as [ev'|]; [|discriminate].
  cbn in K. injection K as K. exists ev'. auto.
Qed.

Lemma kinds_eq_upd e f s : (forall ev, kind (f ev) = kind ev) -> kinds_eq s (upd_event e f s).
Proof.
  intros Hf e0. rewrite get_event_upd. destruct (Nat.eqb e0 e); [|reflexivity].
  destruct (get_event e0 s); cbn; [rewrite Hf|]; reflexivity.
Qed.

Lemma kinds_eq_remove_check_from d o s : kinds_eq s (remove_check_from d o s).
Proof.
  unfold remove_check_from. destruct (get_event o s); [|apply kinds_eq_refl]. destruct (cbs e); [|apply kinds_eq_refl].
  destruct (mem_cb _ _); [|apply kinds_eq_refl]. apply kinds_eq_upd. reflexivity.
Qed.

(* d is c itself or nested below c *)
Inductive desc (s : state) (c : evid) : evid -> Prop :=
| desc_refl : desc s c c
| desc_step d dev all ops n o : desc s c d -> get_event d s = Some dev -> kind dev = KCond all ops n -> In o ops -> desc s c o.

Lemma desc_kinds_eq s s' c d : kinds_eq s s' -> desc s c d -> desc s' c d.
Proof.
  intros K H. induction H as [|d dev all ops n o H IH Hd Kd Io]; [constructor|].
  destruct (kinds_eq_get _ _ _ _ K Hd) as (dev' & Hd' & Kd'). eapply desc_step; [exact IH|exact Hd'|rewrite Kd'; exact Kd|exact Io].
Qed.

Lemma desc_trans s a b c : desc s a b -> desc s b c -> desc s a c.
Proof. intros H1 H2. induction H2; [exact H1|]. eapply desc_step; eassumption. Qed.

Inductive rmsteps (D : evid -> Prop) : state -> state -> Prop :=
| rm_nil s : rmsteps D s s
| rm_cons d o s s' : D d -> rmsteps D (remove_check_from d o s) s' -> rmsteps D s s'.

Lemma rmsteps_trans (D : evid -> Prop) s1 s2 s3 : rmsteps D s1 s2 -> rmsteps D s2 s3 -> rmsteps D s1 s3.
Proof. induction 1; intros H3; [exact H3|]. econstructor; [eassumption|eauto]. Qed.

Lemma rmsteps_weaken (D D' : evid -> Prop) s s' : (forall d, D d -> D' d) -> rmsteps D s s' -> rmsteps D' s s'.
Proof. intros H R. induction R; [constructor|]. econstructor; [apply H; eassumption|eassumption]. Qed.

Lemma rmsteps_kinds_eq (D : evid -> Prop) s s' : rmsteps D s s' -> kinds_eq s s'.
Proof.
  induction 1; [apply kinds_eq_refl|]. eapply kinds_eq_trans; [apply kinds_eq_remove_check_from|eassumption].
Qed.

Lemma rmsteps_ind_P (P : state -> Prop) (D : evid -> Prop) s s' :
  (forall d o s0, D d -> P s0 -> P (remove_check_from d o s0)) -> rmsteps D s s' -> P s -> P s'.
Proof. intros H R. induction R; auto. Qed.

Lemma remove_checks_rm fuel : forall c s s', remove_checks fuel c s = Some s' -> rmsteps (desc s c) s s'.
Proof.
  induction fuel as [|f IH]; intros c s s'; cbn [remove_checks]; [discriminate|].
  destruct (get_event c s) as [cev|] eqn:Hc; [|discriminate].
  destruct (kind cev) as [| | | | |all ops n|] eqn:Kc; try (intros H; injection H as <-; constructor).
  assert (Gen : forall l s1 s2, (forall o, In o l -> In o ops) -> kinds_eq s s1 ->
            remove_ops (remove_checks f) c l s1 = Some s2 -> rmsteps (desc s c) s1 s2).
  { induction l as [|o t IHl]; intros s1 s2 Sub K; cbn [remove_ops].
    - intros H; injection H as <-. constructor.
    - destruct (get_event o s1) as [oev|]; [|discriminate].
      assert (K1 : kinds_eq s (remove_check_from c o s1)).
      { eapply kinds_eq_trans; [exact K|apply kinds_eq_remove_check_from]. }
      destruct (is_cond oev).
      + destruct (remove_checks f o (remove_check_from c o s1)) as [s3|] eqn:R; [|discriminate]. intros H.
        econstructor; [apply desc_refl|].
        pose proof (IH _ _ _ R) as R3.
        eapply rmsteps_trans.
        * eapply rmsteps_weaken; [|exact R3]. intros d Hd.
          apply (desc_kinds_eq _ s) in Hd; [|apply kinds_eq_sym, K1].
          eapply desc_trans; [|exact Hd]. eapply desc_step; [apply desc_refl|exact Hc|exact Kc|apply Sub; left; reflexivity].
        * apply IHl; [intros; apply Sub; right; assumption| |exact H].
          eapply kinds_eq_trans; [exact K1|eapply rmsteps_kinds_eq, R3].
      + intros H. econstructor; [apply desc_refl|]. apply IHl; [intros; apply Sub; right; assumption|exact K1|exact H]. }
  apply Gen; [auto|apply kinds_eq_refl].
Qed.

Lemma cinv_remove_check_from X d o s : cinv X s -> cinv X (remove_check_from d o s).
Proof.
  intros CI. unfold remove_check_from. destruct (get_event o s) as [oev|] eqn:Ho; [|exact CI].
  destruct (cbs oev) as [l|] eqn:Cl; [|exact CI]. destruct (mem_cb (CbCheck d) l); [|exact CI].
  eapply cinv_upd; [exact CI|apply incl_refl|exact Ho|]. apply ok_set_cbs; [exact Cl|exact I].
Qed.

Lemma cinv_remove_checks X f c s s1 : cinv X s -> remove_checks f c s = Some s1 -> cinv X s1.
Proof.
  intros CI R. eapply rmsteps_ind_P; [|eapply remove_checks_rm, R|exact CI]. intros; apply cinv_remove_check_from; assumption.
Qed.

Lemma cinv_cond_build X c s : cinv X s -> cinv X (fst (cond_build c s)).
Proof.
  intros CI. destruct (cond_build_cases c s) as [->|(s1 & R & [->|(cev & v & all & ops & n & items & Hc & Oc & _ & _ & ->)])];
    [exact CI|eapply cinv_remove_checks; eassumption|].
  eapply cinv_upd; [eapply cinv_remove_checks; eassumption|apply incl_refl|exact Hc|].
  apply ok_set_out. intros _. left. rewrite Oc. reflexivity.
Qed.

(* ---- Condition.__init__ : closed form of the state after call_cond ---- *)

Lemma length_cond_subscribe c l : forall s, length (events (cond_subscribe c l s)) = length (events s).
Proof.
  induction l as [|o t IH]; intros s; cbn [cond_subscribe]; [reflexivity|]. rewrite IH.
  destruct (get_event o s); [|reflexivity]. destruct (is_processed e); [apply length_cond_check|apply upd_event_length].
Qed.

Lemma repeat_cons_app {A} (x : A) n l : l ++ x :: repeat x n = (l ++ [x]) ++ repeat x n.
Proof. rewrite <- app_assoc. reflexivity. Qed.

Lemma sub_frame c : forall l s, (forall o, In o l -> o <> c) -> forall e ev, e <> c -> get_event e s = Some ev ->
  exists ev', get_event e (cond_subscribe c l s) = Some ev' /\ kind ev' = kind ev /\ out ev' = out ev /\
    (defused ev = true -> defused ev' = true) /\
    (defused ev' = true -> defused ev = true \/ (In e l /\ cbs ev = None /\ is_failed ev = true)) /\
    cbs ev' = match cbs ev with None => None | Some l0 => Some (l0 ++ repeat (CbCheck c) (occ e l)) end.
Proof.
  induction l as [|o t IH]; intros s Hl e ev N He; cbn [cond_subscribe].
  - exists ev. repeat split; auto. destruct (cbs ev); [rewrite app_nil_r|]; reflexivity.
  - set (s1 := match get_event o s with
               | Some oev => if is_processed oev then cond_check c o s else add_callback o (CbCheck c) s
               | None => s end).
    assert (H1 : exists ev1, get_event e s1 = Some ev1 /\ kind ev1 = kind ev /\ out ev1 = out ev /\
                   (defused ev = true -> defused ev1 = true) /\
                   (defused ev1 = true -> defused ev = true \/ (e = o /\ cbs ev = None /\ is_failed ev = true)) /\
                   cbs ev1 = match cbs ev with None => None
                                          | Some l0 => Some (if Nat.eqb e o then l0 ++ [CbCheck c] else l0) end).
    { subst s1. destruct (get_event o s) as [oev|] eqn:Ho.
      - destruct (is_processed oev) eqn:Po.
        + destruct (cond_check_frame c o s e N) as [E|(-> & oev' & Ho' & F & E)].
          * exists ev. rewrite E. repeat split; auto.
            destruct (cbs ev) eqn:C; [|reflexivity]. destruct (Nat.eqb e o) eqn:Eo; [|reflexivity].
            apply Nat.eqb_eq in Eo. subst e. rewrite He in Ho. injection Ho as <-. unfold is_processed in Po. rewrite C in Po. discriminate.
          * rewrite Ho in Ho'. injection Ho' as <-. rewrite He in Ho. injection Ho as <-.
            exists (ev_set_defused ev). split; [exact E|]. cbn. repeat split; auto.
            -- intros _. right. unfold is_processed in Po. destruct (cbs ev); [discriminate|auto].
            -- unfold is_processed in Po. destruct (cbs ev); [discriminate|reflexivity].
        + unfold add_callback. rewrite get_event_upd. destruct (Nat.eqb e o) eqn:Eo.
          * apply Nat.eqb_eq in Eo. subst e. rewrite He in Ho. injection Ho as <-. rewrite He. cbn.
            exists (ev_add_cb (CbCheck c) ev). split; [reflexivity|]. unfold ev_add_cb, is_processed in *.
            destruct (cbs ev) eqn:C; [|discriminate]. cbn. rewrite ?Nat.eqb_refl. repeat split; auto.
          * exists ev. repeat split; auto. destruct (cbs ev); reflexivity.
      - exists ev. repeat split; auto. destruct (cbs ev) eqn:C; [|reflexivity]. destruct (Nat.eqb e o) eqn:Eo; [|reflexivity].
        apply Nat.eqb_eq in Eo. subst e. congruence. }
    destruct H1 as (ev1 & He1 & K1 & O1 & D1 & D1' & C1).
    destruct (IH s1 (fun o' Ho' => Hl o' (or_intror Ho')) e ev1 N He1) as (ev' & He' & K' & O' & D' & D'' & C').
    exists ev'. split; [exact He'|]. split; [congruence|]. split; [congruence|]. split; [auto|]. split.
    + intros Dd. destruct (D'' Dd) as [Dd1|(I1 & Cb1 & F1)].
      * destruct (D1' Dd1) as [?|(-> & ? & ?)]; [auto|]. right. split; [left; reflexivity|auto].
      * right. split; [right; exact I1|]. unfold is_failed in *. rewrite O1 in F1. split; [|exact F1].
        rewrite C1 in Cb1. destruct (cbs ev); [discriminate|reflexivity].
    + rewrite C', C1. destruct (cbs ev) as [l0|]; [|reflexivity]. rewrite occ_cons.
      destruct (Nat.eqb e o); cbn [plus repeat]; [|reflexivity]. rewrite <- app_assoc. reflexivity.
Qed.

Lemma sub_is_proc c l s e : (forall o, In o l -> o <> c) -> e <> c -> is_proc (cond_subscribe c l s) e = is_proc s e.
Proof.
  intros Hl Ne. unfold is_proc. destruct (get_event e s) as [ev|] eqn:He.
  - destruct (sub_frame c l s Hl e ev Ne He) as (ev' & He' & _ & _ & _ & _ & C).
    rewrite He'. unfold is_processed. rewrite C. destruct (cbs ev); reflexivity.
  - assert (L : (length (events s) <= e)%nat) by (apply nth_error_None; exact He).
    rewrite get_ge; [reflexivity|]. rewrite length_cond_subscribe. exact L.
Qed.

(* the record of the condition under construction, after the operands [done] have been visited *)
Definition CS (s : state) (c : evid) (all : bool) (ops done : list evid) : Prop :=
  exists cev n, get_event c s = Some cev /\ cbs cev = Some [] /\ kind cev = KCond all ops n /\
    (n <= procpos s done)%nat /\
    match out cev with
    | None => n = procpos s done /\ cond_evaluate all (length ops) n = false /\
              (forall o oev, In o done -> get_event o s = Some oev -> cbs oev = None -> is_failed oev = false)
    | Some (Ok v) => v = VNone /\ cond_evaluate all (length ops) n = true
    | Some (Fail x) => exists o oev, In o done /\ get_event o s = Some oev /\ cbs oev = None /\ defused oev = true /\
                                     out oev = Some (Fail x)
    end.

Lemma CS_step c all ops o s done :
  o <> c -> (forall d, In d done -> d <> c) -> CS s c all ops done -> CS (cond_subscribe c [o] s) c all ops (done ++ [o]).
Proof.
  intros No Nd (cev & n & Hc & Cc & Kc & Le & M).
  set (s1 := cond_subscribe c [o] s).
  assert (Ho1 : forall o', In o' [o] -> o' <> c) by (intros o' [<-|[]]; exact No).
  assert (PP : procpos s1 (done ++ [o]) = (procpos s done + (if is_proc s o then 1 else 0))%nat).
  { rewrite procpos_app, procpos_cons. unfold procpos at 3. cbn [filter length]. rewrite Nat.add_0_r.
    unfold s1. rewrite sub_is_proc by auto. f_equal. apply procpos_ext. intros d Hd. apply sub_is_proc; auto. }
  (* the events of [done] keep what matters *)
  assert (Keep : forall d dev, d <> c -> get_event d s = Some dev -> exists dev', get_event d s1 = Some dev' /\
                   out dev' = out dev /\ (cbs dev = None -> cbs dev' = None) /\ (defused dev = true -> defused dev' = true)).
  { intros d dev Hd H. destruct (sub_frame c [o] s Ho1 d dev Hd H) as (dev' & He' & _ & O & D & _ & C).
    exists dev'. repeat split; auto. intros Cn. rewrite C, Cn. reflexivity. }
  assert (Keep2 : forall d dev', d <> c -> get_event d s1 = Some dev' -> exists dev, get_event d s = Some dev /\
                   out dev' = out dev /\ (cbs dev' = None -> cbs dev = None)).
  { intros d dev' Hd H. destruct (get_event d s) as [dev|] eqn:E.
    - destruct (sub_frame c [o] s Ho1 d dev Hd E) as (dev2 & He' & _ & O & _ & _ & C).
      fold s1 in He'. rewrite H in He'. injection He' as <-. exists dev. split; [reflexivity|]. split; [exact O|].
      rewrite C. destruct (cbs dev); [discriminate|reflexivity].
    - exfalso. assert (L : (length (events s) <= d)%nat) by (apply nth_error_None; exact E).
      unfold s1 in H. rewrite get_ge in H; [discriminate|]. rewrite length_cond_subscribe. exact L. }
  (* case analysis on the iteration *)
  unfold s1 in *. cbn [cond_subscribe] in *. clear s1.
  destruct (get_event o s) as [oev|] eqn:Ho.
  2:{ (* not an event: nothing happens *)
      exists cev, n. assert (Po : is_proc s o = false) by (unfold is_proc; rewrite Ho; reflexivity).
      rewrite Po, Nat.add_0_r in PP. rewrite PP.
      split; [exact Hc|]. split; [exact Cc|]. split; [exact Kc|]. split; [exact Le|].
      destruct (out cev) as [[v|x]|]; auto.
      - destruct M as (d & dev & A & B). exists d, dev. split; [apply in_or_app; auto|exact B].
      - destruct M as (A & B & C). split; [exact A|]. split; [exact B|].
        intros d dev Hd Hg Cb. apply in_app_or in Hd. destruct Hd as [Hd|[Hd|[]]]; [eapply C; eauto|subst d; congruence]. }
  assert (Po : is_proc s o = is_processed oev) by (unfold is_proc; rewrite Ho; reflexivity).
  destruct (is_processed oev) eqn:Pr.
  2:{ (* pending operand: subscribe *)
      rewrite Po, Nat.add_0_r in PP. exists cev, n.
      rewrite PP. split; [unfold add_callback; rewrite get_event_upd_other by congruence; exact Hc|]. split; [exact Cc|]. split; [exact Kc|]. split; [exact Le|].
      destruct (out cev) as [[v|x]|]; auto.
      - destruct M as (d & dev & A & B & C & D & E). destruct (Keep _ _ (Nd _ A) B) as (dev' & B' & O' & C' & D').
        exists d, dev'. split; [apply in_or_app; auto|]. split; [exact B'|]. split; [auto|]. split; [auto|congruence].
      - destruct M as (A & B & C). split; [exact A|]. split; [exact B|]. intros d dev Hd Hg Cb.
        apply in_app_or in Hd. destruct Hd as [Hd|[<-|[]]].
        + destruct (Keep2 _ _ (Nd _ Hd) Hg) as (dev0 & H0 & O0 & C0). unfold is_failed. rewrite O0. eapply C; eauto.
        + destruct (Keep2 _ _ No Hg) as (dev0 & H0 & O0 & C0). rewrite Ho in H0. injection H0 as <-.
          unfold is_processed in Pr. rewrite (C0 Cb) in Pr. discriminate. }
  (* processed operand: _check *)
  rewrite Po in PP.
  destruct (out cev) as [oc|] eqn:Oc.
  { (* already triggered: _check returns at once *)
    rewrite cond_check_noop in * by (right; right; exists cev; split; [exact Hc|left; congruence]).
    exists cev, n. rewrite Oc. split; [exact Hc|]. split; [exact Cc|]. split; [exact Kc|]. split; [rewrite PP; lia|].
    destruct oc as [v|x]; auto. destruct M as (d & dev & A & B). exists d, dev. split; [apply in_or_app; auto|exact B]. }
  destruct M as (Mn & Me & Mf).
  assert (Cn : c <> o) by congruence.
  pose proof (cond_check_get c o s cev oev all ops n) as G.
  assert (Hc1 : get_event c (cond_check c o s) = Some (check_upd all ops n oev cev)) by (rewrite G, Nat.eqb_refl by assumption; reflexivity).
  exists (check_upd all ops n oev cev), (S n). autorewrite with check_upd.
  split; [exact Hc1|]. split; [exact Cc|]. split; [reflexivity|]. split; [rewrite PP; lia|].
  unfold check_triggers in *. destruct (is_failed oev) eqn:F; cbn [orb] in *.
  - destruct (failed_out _ F) as (x & Oo & ->).
    exists o, (ev_set_defused oev). split; [apply in_or_app; right; left; reflexivity|]. split.
    + rewrite G by assumption. apply Nat.eqb_neq in No. rewrite No, Nat.eqb_refl. reflexivity.
    + cbn. unfold is_processed in Pr. destruct (cbs oev); [discriminate|]. auto.
  - rewrite (not_failed_out _ F). destruct (cond_evaluate all (length ops) (S n)) eqn:Ev; [auto|].
    rewrite Oc. split; [rewrite PP; lia|]. split; [reflexivity|].
    intros d dev Hd Hg Cb. apply in_app_or in Hd. destruct Hd as [Hd|[<-|[]]].
    + destruct (Keep2 _ _ (Nd _ Hd) Hg) as (dev0 & H0 & O0 & C0). unfold is_failed. rewrite O0. eapply Mf; eauto.
    + destruct (Keep2 _ _ No Hg) as (dev0 & H0 & O0 & C0). rewrite Ho in H0. injection H0 as <-.
      unfold is_failed in *. rewrite O0. exact F.
Qed.

Lemma cond_subscribe_cons c o t s : cond_subscribe c (o :: t) s = cond_subscribe c t (cond_subscribe c [o] s).
Proof. reflexivity. Qed.

Lemma CS_sub c all ops : forall l s done,
  (forall o, In o l -> o <> c) -> (forall d, In d done -> d <> c) -> CS s c all ops done ->
  CS (cond_subscribe c l s) c all ops (done ++ l).
Proof.
  induction l as [|o t IH]; intros s done Hl Hd H.
  - rewrite app_nil_r. exact H.
  - rewrite cond_subscribe_cons. replace (done ++ o :: t) with ((done ++ [o]) ++ t) by (rewrite <- app_assoc; reflexivity).
    apply IH.
    + intros o' Ho'. apply Hl. right. exact Ho'.
    + intros d Hd'. apply in_app_or in Hd'. destruct Hd' as [Hd'|[<-|[]]]; [auto|apply Hl; left; reflexivity].
    + apply CS_step; auto. apply Hl. left. reflexivity.
Qed.

(* the agenda after _check / the subscription loop: only entries for the condition are added, and only when it is triggered *)
Definition agenda_ext (c : evid) (s s' : state) : Prop :=
  exists ext, agenda s' = agenda s ++ ext /\
    forall x, In x ext -> e_ev x = c /\ exists cev, get_event c s' = Some cev /\ out cev <> None.

Lemma agenda_ext_same c s s' : agenda s' = agenda s -> agenda_ext c s s'.
Proof. intros E. exists []. rewrite app_nil_r. split; [exact E|intros x []]. Qed.

Lemma agenda_cond_check c o s : agenda_ext c s (cond_check c o s).
Proof.
  destruct (cond_check_cases c o s) as [->|(cev & oev & all & ops & n & Hc & Ho & Oc & Kc)]; [apply agenda_ext_same; reflexivity|].
  rewrite (cond_check_eq c o s cev oev all ops n Hc Ho Oc Kc). cbv zeta.
  pose proof (get_defused_other c o s cev oev Hc Ho Oc) as Hc0.
  destruct (check_triggers all ops n oev) eqn:T; [|apply agenda_ext_same; destruct (is_failed oev); reflexivity].
  eexists. split; [cbn [agenda schedule]; destruct (is_failed oev); reflexivity|].
  intros x [<-|[]]. split; [reflexivity|]. rewrite get_schedule. eexists. split; [apply get_event_upd_same, Hc0|].
  rewrite check_upd_out, T. discriminate.
Qed.

Lemma agenda_ext_trans c s1 s2 s3 :
  agenda_ext c s1 s2 -> agenda_ext c s2 s3 -> grows s2 s3 -> agenda_ext c s1 s3.
Proof.
  intros (e1 & A1 & B1) (e2 & A2 & B2) [G _]. exists (e1 ++ e2). split; [rewrite A2, A1, app_assoc; reflexivity|].
  intros x Hx. apply in_app_or in Hx. destruct Hx as [Hx|Hx]; [|apply B2, Hx].
  destruct (B1 _ Hx) as (E & cev & Hc & Oc). split; [exact E|].
  destruct (G _ _ Hc) as (cev' & Hc' & _ & _ & O' & _). exists cev'. auto.
Qed.

Lemma agenda_cond_subscribe c l : forall s, agenda_ext c s (cond_subscribe c l s).
Proof.
  induction l as [|o t IH]; intros s.
  - apply agenda_ext_same; reflexivity.
  - rewrite cond_subscribe_cons. eapply agenda_ext_trans; [|apply IH|apply grows_cond_subscribe].
    cbn [cond_subscribe]. destruct (get_event o s) as [oev|].
    + destruct (is_processed oev); [apply agenda_cond_check|]. apply agenda_ext_same; reflexivity.
    + apply agenda_ext_same; reflexivity.
Qed.

Lemma all_valid_lt es s : all_valid es s = true -> forall o, In o es -> (o < length (events s))%nat.
Proof.
  unfold all_valid. rewrite forallb_forall. intros H o Ho. specialize (H o Ho).
  destruct (get_event o s) eqn:E; [eapply get_event_lt, E|discriminate].
Qed.

(* what Condition.__init__ leaves behind *)
Record cond_made (s s' : state) (all : bool) (es : list evid) : Prop := mkMade {
  cm_len : length (events s') = S (length (events s));
  cm_procs : procs s' = procs s;
  cm_old : forall e ev, get_event e s = Some ev -> exists ev', get_event e s' = Some ev' /\ kind ev' = kind ev /\
      out ev' = out ev /\ (defused ev = true -> defused ev' = true) /\
      (defused ev' = true -> defused ev = true \/ (In e es /\ cbs ev = None /\ is_failed ev = true)) /\
      cbs ev' = match cbs ev with None => None
                | Some l0 => Some (l0 ++ repeat (CbCheck (length (events s))) (occ e es)) end;
  cm_new : exists cev n, get_event (length (events s)) s' = Some cev /\ kind cev = KCond all es n /\
      cbs cev = Some (match es with [] => [] | _ => [CbBuild (length (events s))] end) /\
      (n <= procpos s es)%nat /\
      match out cev with
      | None => es <> [] /\ n = procpos s es /\ cond_evaluate all (length es) n = false /\
                (forall o oev, In o es -> get_event o s = Some oev -> cbs oev = None -> is_failed oev = false)
      | Some (Ok v) => cond_evaluate all (length es) n = true
      | Some (Fail x) => exists o oev, In o es /\ get_event o s' = Some oev /\ cbs oev = None /\ defused oev = true /\
                                       out oev = Some (Fail x)
      end;
  cm_agenda : agenda_ext (length (events s)) s s' }.

Lemma cond_evaluate_nil all : cond_evaluate all 0 0 = true.
Proof. destruct all; reflexivity. Qed.
Lemma cond_evaluate_zero all n : n <> 0%nat -> cond_evaluate all n 0 = false.
Proof. intros H. destruct all; cbn; destruct n; try congruence; reflexivity. Qed.

Lemma call_cond_spec all es s : all_valid es s = true -> cond_made s (fst (call_cond all es s)) all es.
Proof.
  intros V. pose proof (all_valid_lt _ _ V) as Lt.
  unfold call_cond. rewrite V. cbn [negb].
  set (c := length (events s)).
  set (EV := mkEvent (Some []) None false (KCond all es 0)).
  rewrite (new_event_eq EV s). cbv beta iota. fold c.
  set (s1 := snd (new_event EV s)).
  assert (G1 : forall e ev, get_event e s = Some ev -> get_event e s1 = Some ev).
  { intros e ev H. unfold s1. rewrite get_event_new_below; [exact H|eapply get_event_lt, H]. }
  assert (Gc : get_event c s1 = Some EV) by apply get_event_new_self.
  destruct es as [|e0 t].
  - (* no operands: succeed at once *)
    cbn [fst]. unfold trigger_event. constructor.
    + cbn [events schedule]. rewrite upd_event_length. apply new_event_length.
    + reflexivity.
    + intros e ev H. exists ev. rewrite get_schedule, get_event_upd_other by (apply get_event_lt in H; fold c in H; lia).
      split; [apply G1, H|]. repeat split; auto. destruct (cbs ev); [rewrite app_nil_r|]; reflexivity.
    + exists (ev_set_out (Some (Ok (VCond []))) EV), 0%nat. rewrite get_schedule.
      split; [apply get_event_upd_same, Gc|]. cbn. repeat split; auto. apply cond_evaluate_nil.
    + eexists. split; [cbn [agenda schedule upd_event set_events]; reflexivity|].
      intros x [<-|[]]. split; [reflexivity|]. rewrite get_schedule. eexists. split; [apply get_event_upd_same, Gc|cbn; discriminate].
  - (* subscription loop, then the _build_value callback *)
    cbn [fst]. set (es := e0 :: t) in *. assert (Ees : es = e0 :: t) by reflexivity.
    assert (Nn : es <> []) by (rewrite Ees; discriminate).
    assert (Hne : forall o, In o es -> o <> c) by (intros o Ho; apply Lt in Ho; fold c in Ho; lia).
    set (s2 := cond_subscribe c es s1).
    assert (CS0 : CS s1 c all es []).
    { exists EV, 0%nat. split; [exact Gc|]. split; [reflexivity|]. split; [reflexivity|]. split; [cbn; lia|].
      cbn [out EV]. split; [reflexivity|]. split; [|intros o oev []].
      apply cond_evaluate_zero. rewrite Ees. cbn. discriminate. }
    pose proof (CS_sub c all es es s1 [] Hne (fun d (H : In d []) => match H with end) CS0) as CS2.
    cbn [app] in CS2. fold s2 in CS2.
    assert (PP : forall s', (forall o, In o es -> is_proc s' o = is_proc s o) -> procpos s' es = procpos s es).
    { intros s' H. apply procpos_ext, H. }
    assert (IP : forall o, In o es -> is_proc s2 o = is_proc s o).
    { intros o Ho. unfold s2. rewrite sub_is_proc by auto. unfold is_proc, s1. rewrite get_event_new_below by (apply Lt, Ho). reflexivity. }
    constructor.
    + unfold add_callback. rewrite upd_event_length. unfold s2. rewrite length_cond_subscribe. apply new_event_length.
    + unfold add_callback. cbn [procs upd_event set_events]. unfold s2. rewrite procs_cond_subscribe. reflexivity.
    + intros e ev H. assert (Ne : e <> c) by (apply get_event_lt in H; fold c in H; lia).
      destruct (sub_frame c es s1 Hne e ev Ne (G1 _ _ H)) as (ev' & He' & A).
      exists ev'. unfold add_callback. rewrite get_event_upd_other by exact Ne. split; [exact He'|exact A].
    + destruct CS2 as (cev & n & Hc & Cc & Kc & Le & M).
      exists (ev_add_cb (CbBuild c) cev), n. unfold add_callback. split; [apply get_event_upd_same, Hc|].
      unfold ev_add_cb. rewrite Cc. cbn [kind cbs out ev_set_cbs app]. split; [exact Kc|].
      split; [rewrite Ees; reflexivity|]. rewrite (PP s2 IP) in *. split; [exact Le|].
      destruct (out cev) as [[v|x]|].
      * apply M.
      * destruct M as (o & oev & Io & Ho & Co & Do & Oo). exists o, oev. rewrite get_event_upd_other by (apply Hne, Io). auto.
      * destruct M as (Mn & Me & Mf). split; [exact Nn|]. split; [exact Mn|]. split; [exact Me|].
        intros o oev Io Ho Co. destruct (sub_frame c es s1 Hne o oev (Hne _ Io) (G1 _ _ Ho)) as (oev' & Ho' & _ & O' & _ & _ & C').
        fold s2 in Ho'. rewrite Co in C'. specialize (Mf o oev' Io Ho' C'). unfold is_failed in *. rewrite <- O'. exact Mf.
    + destruct (agenda_cond_subscribe c es s1) as (ext & A & B). fold s2 in A, B.
      exists ext. split; [exact A|]. intros x Hx. destruct (B _ Hx) as (E & cev & Hc & Oc). split; [exact E|].
      exists (ev_add_cb (CbBuild c) cev). unfold add_callback. split; [apply get_event_upd_same, Hc|].
      unfold ev_add_cb. destruct (cbs cev); exact Oc.
Qed.

Lemma cbcount_repeat_same d k : cbcount d (repeat d k) = k.
Proof. induction k; [reflexivity|]. cbn [repeat]. rewrite cbcount_cons, cb_eqb_refl, IHk. reflexivity. Qed.
Lemma cbcount_repeat_other d d' k : d <> d' -> cbcount d (repeat d' k) = 0%nat.
Proof. intros N. apply cbcount_notin. intros H. apply repeat_spec in H. congruence. Qed.

Definition noproc (s s1 : state) : Prop := forall o, is_proc s1 o = is_proc s o.

Lemma made_noproc s s' all es : cond_made s s' all es -> noproc s s'.
Proof.
  intros M o. unfold is_proc at 2. destruct (get_event o s) as [ev|] eqn:E.
  - destruct (cm_old _ _ _ _ M _ _ E) as (ev' & H' & _ & _ & _ & _ & C). unfold is_proc. rewrite H'.
    unfold is_processed. rewrite C. destruct (cbs ev); reflexivity.
  - apply nth_error_None in E. unfold is_proc. destruct (cm_new _ _ _ _ M) as (cev & n & Hc & _ & Cc & _).
    destruct (Nat.eq_dec o (length (events s))) as [->|N].
    + rewrite Hc. unfold is_processed. rewrite Cc. reflexivity.
    + rewrite get_ge; [reflexivity|]. rewrite (cm_len _ _ _ _ M). lia.
Qed.

Lemma fresh_check X s o oev l :
  cinv X s -> get_event o s = Some oev -> cbs oev = Some l -> cbcount (CbCheck (length (events s))) l = 0%nat.
Proof.
  intros CI Ho Co. apply cbcount_notin. intros Hin.
  destruct (ci_check _ _ CI _ _ _ _ Ho Co Hin) as (x & _ & _ & _ & Hx & _). apply get_event_lt in Hx. lia.
Qed.

Lemma made_old_inv s s' all es e ev' :
  cond_made s s' all es -> get_event e s' = Some ev' -> e <> length (events s) ->
  exists ev, get_event e s = Some ev /\ kind ev' = kind ev /\ out ev' = out ev /\
    (defused ev = true -> defused ev' = true) /\
    cbs ev' = match cbs ev with None => None
              | Some l0 => Some (l0 ++ repeat (CbCheck (length (events s))) (occ e es)) end.
Proof.
  intros M H N. pose proof (get_event_lt _ _ _ H) as L. rewrite (cm_len _ _ _ _ M) in L.
  assert (L' : (e < length (events s))%nat) by lia.
  destruct (get_event e s) as [ev|] eqn:E; [|apply nth_error_None in E; lia].
  destruct (cm_old _ _ _ _ M _ _ E) as (ev2 & H2 & A & B & C & _ & D). rewrite H in H2. injection H2 as <-.
  exists ev. auto.
Qed.

Lemma cinv_call_cond X all es s : cinv X s -> all_valid es s = true -> cinv X (fst (call_cond all es s)).
Proof.
  intros CI V. pose proof (call_cond_spec all es s V) as M. pose proof (all_valid_lt _ _ V) as Lt.
  set (s' := fst (call_cond all es s)) in *. set (c := length (events s)) in *.
  destruct (cm_new _ _ _ _ M) as (cev & n & Hc & Kc & Cc & Le & Mo). fold c in Hc, Cc.
  assert (Cl : forall e ev', get_event e s' = Some ev' ->
            (e = c /\ ev' = cev) \/ (e <> c /\ exists ev, get_event e s = Some ev /\ kind ev' = kind ev /\ out ev' = out ev /\
               (defused ev = true -> defused ev' = true) /\
               cbs ev' = match cbs ev with None => None | Some l0 => Some (l0 ++ repeat (CbCheck c) (occ e es)) end)).
  { intros e ev' H. destruct (Nat.eq_dec e c) as [->|N]; [left; split; [reflexivity|congruence]|].
    right. split; [exact N|]. eapply made_old_inv; eassumption. }
  pose proof (fresh_check X s) as Fresh. fold c in Fresh.
  constructor.
  - intros x Hx. destruct (cm_agenda _ _ _ _ M) as (ext & A & B). rewrite A in Hx. apply in_app_or in Hx.
    destruct Hx as [Hx|Hx].
    + destruct (ci_agenda _ _ CI _ Hx) as (ev & He & Oe). destruct (cm_old _ _ _ _ M _ _ He) as (ev' & He' & _ & O' & _).
      exists ev'. split; [exact He'|congruence].
    + destruct (B _ Hx) as (-> & cev' & Hc' & Oc'). exists cev'. auto.
  - intros d dev all' ops n' Hd Kd o Io. destruct (Cl _ _ Hd) as [[-> ->]|(N & ev & He & K & _)].
    + rewrite Kc in Kd. injection Kd as <- <- <-. apply Lt, Io.
    + rewrite K in Kd. eapply ci_older; eassumption.
  - intros e ev' He Ce. destruct (Cl _ _ He) as [[-> ->]|(N & ev & He0 & _ & O & _ & C)].
    + rewrite Cc in Ce. discriminate.
    + rewrite O. eapply ci_proc_trig; [exact CI|exact He0|]. rewrite C in Ce. destruct (cbs ev); [discriminate|reflexivity].
  - intros o oev l d Ho Co Hin. destruct (Cl _ _ Ho) as [[-> ->]|(N & ev & He0 & _ & _ & _ & C)].
    + rewrite Cc in Co. injection Co as <-. destruct es; [destruct Hin|destruct Hin as [H|[]]; discriminate].
    + rewrite C in Co. destruct (cbs ev) as [l0|] eqn:C0; [|discriminate]. injection Co as <-.
      destruct (Nat.eq_dec d c) as [->|Nd].
      * exists cev, all, es, n. split; [exact Hc|]. split; [exact Kc|].
        rewrite cbcount_app, (Fresh _ _ _ CI He0 C0), cbcount_repeat_same. lia.
      * apply in_app_or in Hin. destruct Hin as [Hin|Hin]; [|apply repeat_spec in Hin; congruence].
        destruct (ci_check _ _ CI _ _ _ _ He0 C0 Hin) as (dev & a & ops & m & Hd & Kd & Ld).
        destruct (cm_old _ _ _ _ M _ _ Hd) as (dev' & Hd' & Kd' & _). exists dev', a, ops, m.
        split; [exact Hd'|]. split; [congruence|]. rewrite cbcount_app, cbcount_repeat_other by congruence. lia.
  - intros e ev' l d He Ce Hin. destruct (Cl _ _ He) as [[-> ->]|(N & ev & He0 & _ & _ & _ & C)].
    + rewrite Cc in Ce. injection Ce as <-. destruct es; [destruct Hin|].
      destruct Hin as [H|[]]. injection H as <-. split; [reflexivity|]. split; [reflexivity|].
      rewrite cbcount_cons, cb_eqb_refl. reflexivity.
    + rewrite C in Ce. destruct (cbs ev) as [l0|] eqn:C0; [|discriminate]. injection Ce as <-.
      apply in_app_or in Hin. destruct Hin as [Hin|Hin]; [|apply repeat_spec in Hin; discriminate].
      destruct (ci_build _ _ CI _ _ _ _ He0 C0 Hin) as (-> & Hd & Cn). split; [reflexivity|]. split.
      * destruct l0; cbn in *; [discriminate|exact Hd].
      * rewrite cbcount_app, cbcount_repeat_other by discriminate. lia.
  - intros d dev a ops m l Hd Kd Cd Ne. destruct (Cl _ _ Hd) as [[-> ->]|(N & ev & He0 & K & _ & _ & C)].
    + rewrite Kc in Kd. injection Kd as <- <- <-. rewrite Cc in Cd. injection Cd as <-.
      destruct es; [congruence|left; reflexivity].
    + rewrite C in Cd. destruct (cbs ev) as [l0|] eqn:C0; [|discriminate]. injection Cd as <-.
      apply in_or_app. left. rewrite K in Kd. eapply ci_build_head; eassumption.
  - intros d dev a ops m Hd Kd Od. destruct (Cl _ _ Hd) as [[-> ->]|(N & ev & He0 & K & O & _)].
    + rewrite Kc in Kd. injection Kd as <- <- <-. rewrite Od in Mo. apply Mo.
    + rewrite K in Kd. rewrite O in Od. eapply ci_pending; eassumption.
  - intros d dev a ops m Hd Kd NX. destruct (Cl _ _ Hd) as [[-> ->]|(N & ev & He0 & K & O & _)].
    + rewrite Kc in Kd. injection Kd as <- <- <-. unfold justified. destruct (out cev) as [[v|x]|]; auto.
      destruct Mo as (o & oev & Io & Ho & Co & Do & _). exists o, oev. auto.
    + rewrite K in Kd. pose proof (ci_just _ _ CI _ _ _ _ _ He0 Kd NX) as J. unfold justified in *. rewrite O.
      destruct (out ev) as [[v|x]|]; auto. destruct J as (o & oev & Io & Ho & Co & Do).
      destruct (cm_old _ _ _ _ M _ _ Ho) as (oev' & Ho' & _ & _ & D' & _ & C'). exists o, oev'.
      split; [exact Io|]. split; [exact Ho'|]. split; [rewrite C', Co; reflexivity|auto].
Qed.

(* ------------------------------------------------------------------------------------------------ *)
(* every primitive preserves the state invariant *)

Lemma get_init e t0 : get_event e (init_state t0) = None.
Proof. unfold get_event. cbn. destruct e; reflexivity. Qed.

Lemma cinv_init X t0 : cinv X (init_state t0).
Proof. constructor; [intros x []|..]; intros until 1; rewrite get_init in *; discriminate. Qed.

Lemma iprim_cinv X x s s' : cinv X s -> iprim x s s' -> cinv (X ++ lab x) s'.
Proof.
  intros CI P. destruct P; cbn [lab]; rewrite ?app_nil_r.
  - destruct H as (E & _ & A). eapply cinv_same_events; [exact CI|exact E|]. intros y Hy. left. rewrite <- A. exact Hy.
  - apply cinv_new_plain; [exact CI|exact H|]. destruct H as ((l & C & _) & _). congruence.
  - eapply cinv_schedule; eassumption.
  - unfold add_callback. destruct (get_event e s) as [ev|] eqn:He; [|rewrite upd_event_none by exact He; exact CI].
    eapply cinv_upd; [exact CI|apply incl_refl|exact He|]. apply ok_add_cb; [exact H|]. intros C. eapply ci_proc_trig; eassumption.
  - eapply cinv_upd; [exact CI|apply incl_refl|exact H|]. apply ok_set_cbs; [exact H0|]. destruct c; auto.
  - eapply cinv_upd; [exact CI|apply incl_appl, incl_refl|exact H|]. apply ok_set_out. intros _. right.
    split; [exact H0|]. apply in_or_app. right. left. reflexivity.
  - eapply cinv_upd; [exact CI|apply incl_refl|exact H|]. apply ok_set_out. unfold is_cond. rewrite H0. discriminate.
  - destruct (get_event e s) as [ev|] eqn:He; [|rewrite upd_event_none by exact He; exact CI].
    eapply cinv_upd; [exact CI|apply incl_refl|exact He|]. apply ok_set_defused. intros C. eapply ci_proc_trig; eassumption.
  - eapply cinv_same_events; [exact CI|reflexivity|]. intros y Hy. left. exact Hy.
  - apply cinv_call_cond; assumption.
Qed.

Lemma cinv_popped X m rest s : cinv X s -> pop_min (agenda s) = Some (m, rest) -> cinv X (popped m rest s).
Proof.
  intros CI Pm. destruct (pop_min_spec _ _ _ Pm) as (Im & Er & _).
  destruct (ci_agenda _ _ CI _ Im) as (ev & He & Oe).
  assert (CI1 : cinv X (pop_state m rest s)).
  { eapply cinv_same_events; [exact CI|reflexivity|]. intros y Hy. left. cbn in Hy. rewrite Er in Hy.
    eapply remove_eid_subset, Hy. }
  unfold popped. eapply cinv_upd; [exact CI1|apply incl_refl|exact He|]. apply ok_set_processed, Oe.
Qed.

Lemma prim_cinv X x s s' : cinv X s -> prim x s s' -> cinv (X ++ lab x) s'.
Proof.
  intros CI P. destruct P.
  - eapply iprim_cinv; eassumption.
  - cbn [lab]. rewrite app_nil_r. apply cinv_popped; assumption.
  - cbn [lab]. rewrite app_nil_r. eapply cinv_cond_check; eassumption.
  - cbn [lab]. rewrite app_nil_r. apply cinv_cond_build, CI.
Qed.

Lemma ptrace_cinv X0 X s s' : ptrace X s s' -> cinv X0 s -> cinv (X0 ++ X) s'.
Proof.
  intros T. revert X0. induction T as [|x X s s1 s2 P T IH]; intros X0 CI; [rewrite app_nil_r; exact CI|].
  rewrite app_assoc. apply IH. eapply prim_cinv; eassumption.
Qed.

Theorem reach_cinv codes X s : reach codes X s -> cinv X s.
Proof.
  intros (t0 & H). change X with ([] ++ X). eapply ptrace_cinv; [eapply etrace_ptrace, H|apply cinv_init].
Qed.

Lemma xtrace_cinv codes X0 X s s' : xtrace codes X s s' -> cinv X0 s -> cinv (X0 ++ X) s'.
Proof. intros T. apply ptrace_cinv. eapply xtrace_ptrace, T. Qed.

Lemma steps_cinv s s' X : steps s s' -> cinv X s -> exists X', cinv (X ++ X') s'.
Proof. intros [X' T] CI. exists X'. eapply ptrace_cinv; eassumption. Qed.

(* ------------------------------------------------------------------------------------------------ *)
(* the counting invariant, relative to the callbacks [l] of the popped event [e] still to be run *)

(* c has been detached by an enclosing condition d that was processed (_remove_check_callbacks is recursive) *)
Definition detached (s : state) (c : evid) : Prop := exists d, desc s d c /\ d <> c /\ is_proc s d = true.

Definition attached (s : state) (c : evid) (ops : list evid) : Prop :=
  forall o oev lo, get_event o s = Some oev -> cbs oev = Some lo -> cbcount (CbCheck c) lo = occ o ops.

Definition nofail (l : list cb) (e : evid) (s : state) (c : evid) (ops : list evid) : Prop :=
  forall o oev, In o ops -> get_event o s = Some oev -> cbs oev = None -> is_failed oev = true ->
                (exists q, kind oev = KProcess q) \/ (o = e /\ In (CbCheck c) l).

Definition binv (l : list cb) (e : evid) (s : state) : Prop :=
  forall c cev all ops n, get_event c s = Some cev -> kind cev = KCond all ops n ->
    (n + cbcount (CbCheck c) l <= procpos s ops)%nat /\
    (out cev = None -> detached s c \/
       (attached s c ops /\ (n + cbcount (CbCheck c) l)%nat = procpos s ops /\ nofail l e s c ops)).

(* the callbacks in flight belong to e: every _check in l is the _check of a condition having e as operand, a
   _build_value in l is e's own *)
Definition chk_ok (s : state) (e c : evid) : Prop :=
  exists cev all ops n, get_event c s = Some cev /\ kind cev = KCond all ops n /\ In e ops.

Definition wl (l : list cb) (e : evid) (s : state) : Prop :=
  (forall c, In (CbCheck c) l -> chk_ok s e c) /\ (forall c, In (CbBuild c) l -> c = e).

Lemma chk_ok_opnd s e c : chk_ok s e c -> opnd s c e.
Proof. intros (cev & all & ops & n & H & K & I) cev' all' ops' n' H' K'. rewrite H in H'. injection H' as <-. rewrite K in K'. injection K' as <- <- <-. exact I. Qed.

Lemma chk_ok_grows s s' e c : grows s s' -> chk_ok s e c -> chk_ok s' e c.
Proof.
  intros [G _] (cev & all & ops & n & H & K & I). destruct (G _ _ H) as (cev' & H' & KL & _).
  destruct (kind_le_cond_fwd _ _ _ _ _ KL K) as (n' & K' & _). exists cev', all, ops, n'. auto.
Qed.

Lemma wl_grows l e s s' : grows s s' -> wl l e s -> wl l e s'.
Proof. intros G [W1 W2]. split; [intros c H; eapply chk_ok_grows; eauto|exact W2]. Qed.

Lemma wl_tail cb l e s : wl (cb :: l) e s -> wl l e s.
Proof. intros [W1 W2]. split; intros c H; [apply W1|apply W2]; right; exact H. Qed.

Lemma wl_nil e s : wl [] e s. Proof. split; intros c []. Qed.

(* stability of the ingredients *)
Lemma is_proc_grows s s' o : grows s s' -> is_proc s o = true -> is_proc s' o = true.
Proof. intros G H. apply is_proc_iff. eapply grows_processed; [exact G|]. apply is_proc_iff, H. Qed.

Lemma desc_grows s s' c d : grows s s' -> desc s c d -> desc s' c d.
Proof.
  intros [G _] H. induction H as [|d dev all ops n o H IH Hd Kd Io]; [constructor|].
  destruct (G _ _ Hd) as (dev' & Hd' & KL & _). destruct (kind_le_cond_fwd _ _ _ _ _ KL Kd) as (n' & K' & _).
  eapply desc_step; [exact IH|exact Hd'|exact K'|exact Io].
Qed.

Lemma detached_grows s s' c : grows s s' -> detached s c -> detached s' c.
Proof. intros G (d & D & N & P). exists d. split; [eapply desc_grows; eauto|]. split; [exact N|eapply is_proc_grows; eauto]. Qed.

(* dropping a callback that is not a _check from the list in flight *)
Lemma binv_drop cb l e s : (forall c, cb <> CbCheck c) -> binv (cb :: l) e s -> binv l e s.
Proof.
  intros N B c cev all ops n Hc Kc. destruct (B _ _ _ _ _ Hc Kc) as (B1 & B2).
  assert (E : cbcount (CbCheck c) (cb :: l) = cbcount (CbCheck c) l).
  { rewrite cbcount_cons. assert (X : cb_eqb (CbCheck c) cb = false) by (apply cb_eqb_neq; intros H; apply (N c); auto). rewrite X. reflexivity. }
  rewrite E in *. split; [exact B1|]. intros O. destruct (B2 O) as [D|(A & Q & F)]; [left; exact D|right].
  split; [exact A|]. split; [exact Q|]. intros o oev Io Ho Co Fo. destruct (F _ _ Io Ho Co Fo) as [K|(-> & [H|H])]; auto.
  exfalso. apply (N c). exact H.
Qed.

Lemma kinds_eq_desc s s' c d : kinds_eq s s' -> desc s' c d -> desc s c d.
Proof. intros K. apply desc_kinds_eq, kinds_eq_sym, K. Qed.

(* a change of one event that keeps kinds, processedness and the numbers of _check callbacks *)
Lemma binv_upd X l e s e0 f ev :
  cinv X s -> binv l e s -> get_event e0 s = Some ev ->
  kind (f ev) = kind ev -> (cbs ev = None <-> cbs (f ev) = None) ->
  (forall l0 l1, cbs ev = Some l0 -> cbs (f ev) = Some l1 -> forall c, cbcount (CbCheck c) l1 = cbcount (CbCheck c) l0) ->
  (ostat (out (f ev)) = ostat (out ev) \/ out ev = None \/ exists q, kind ev = KProcess q) ->
  binv l e (upd_event e0 f s).
Proof.
  intros CI B He Uk Uc Ul Uo.
  set (s' := upd_event e0 f s).
  pose proof (get_upd_inv e0 f s ev He) as G. fold s' in G.
  assert (KE : kinds_eq s s').
  { intros e1. unfold s'. rewrite get_event_upd. destruct (Nat.eqb e1 e0) eqn:E; [|reflexivity].
    apply Nat.eqb_eq in E. subst e1. rewrite He. cbn. rewrite Uk. reflexivity. }
  assert (IP : forall o, is_proc s' o = is_proc s o).
  { intros o. unfold is_proc, s'. rewrite get_event_upd. destruct (Nat.eqb o e0) eqn:E; [|reflexivity].
    apply Nat.eqb_eq in E. subst o. rewrite He. cbn. unfold is_processed.
    destruct (cbs ev) eqn:C1, (cbs (f ev)) eqn:C2; try reflexivity.
    - destruct Uc as [_ U]. specialize (U eq_refl). discriminate.
    - destruct Uc as [U _]. specialize (U eq_refl). discriminate. }
  assert (PPe : forall ops, procpos s' ops = procpos s ops) by (intros; apply procpos_ext; intros; apply IP).
  assert (DT : forall c, detached s c -> detached s' c).
  { intros c (d & D & N & P). exists d. split; [eapply desc_kinds_eq; eauto|]. split; [exact N|rewrite IP; exact P]. }
  intros c cev' all ops n Hc Kc.
  assert (Old : exists cev, get_event c s = Some cev /\ kind cev = KCond all ops n /\ (out cev' = None -> out cev = None)).
  { destruct (G _ _ Hc) as [[-> ->]|[_ Hc']].
    - exists ev. split; [exact He|]. split; [congruence|]. intros O.
      destruct Uo as [E|[E|(q & E)]]; [rewrite O in E; destruct (out ev) as [[?|?]|]; cbn in E; congruence|exact E|rewrite Uk in Kc; congruence].
    - exists cev'. auto. }
  destruct Old as (cev & Hc0 & Kc0 & Oc0). destruct (B _ _ _ _ _ Hc0 Kc0) as (B1 & B2).
  rewrite PPe. split; [exact B1|]. intros O. destruct (B2 (Oc0 O)) as [D|(A & Q & F)]; [left; apply DT, D|right].
  split; [|split; [exact Q|]].
  - intros o oev' lo Ho Co. destruct (G _ _ Ho) as [[-> ->]|[_ Ho']].
    + destruct (cbs ev) as [l0|] eqn:C0.
      * rewrite (Ul _ _ eq_refl Co). eapply A; eassumption.
      * destruct Uc as [U _]. specialize (U eq_refl). congruence.
    + eapply A; eassumption.
  - intros o oev' Io Ho Co Fo. destruct (G _ _ Ho) as [[-> ->]|[_ Ho']].
    + assert (C0 : cbs ev = None) by (apply Uc, Co).
      destruct Uo as [E|[E|(q & E)]].
      * rewrite Uk. eapply F; try eassumption. unfold is_failed in *.
        destruct (out (f ev)) as [[?|?]|], (out ev) as [[?|?]|]; cbn in E; congruence.
      * exfalso. exact (ci_proc_trig _ _ CI _ _ He C0 E).
      * left. exists q. congruence.
    + eapply F; eassumption.
Qed.

Lemma binv_upd_keep X l e s e0 f ev :
  cinv X s -> binv l e s -> get_event e0 s = Some ev -> kind (f ev) = kind ev -> cbs (f ev) = cbs ev ->
  (ostat (out (f ev)) = ostat (out ev) \/ out ev = None \/ exists q, kind ev = KProcess q) ->
  binv l e (upd_event e0 f s).
Proof.
  intros CI B He K C O. apply (binv_upd X l e s e0 f ev CI B He K); [rewrite C; tauto| |exact O].
  rewrite C. intros l0 l1 H0 H1 c. congruence.
Qed.

Lemma binv_same_events l e s s' : events s' = events s -> binv l e s -> binv l e s'.
Proof.
  intros E B.
  assert (G : forall x, get_event x s' = get_event x s) by (intros; unfold get_event; rewrite E; reflexivity).
  assert (IP : forall o, is_proc s' o = is_proc s o) by (intros; unfold is_proc; rewrite G; reflexivity).
  assert (KE : kinds_eq s s') by (intros x; rewrite G; reflexivity).
  intros c cev all ops n Hc Kc. rewrite G in Hc. destruct (B _ _ _ _ _ Hc Kc) as (B1 & B2).
  rewrite (procpos_ext s s' ops) by (intros; apply IP). split; [exact B1|]. intros O.
  destruct (B2 O) as [(d & D & N & P)|(A & Q & F)].
  - left. exists d. split; [eapply desc_kinds_eq; eauto|]. split; [exact N|rewrite IP; exact P].
  - right. split; [|split; [exact Q|]].
    + intros o oev lo. rewrite G. apply A.
    + intros o oev Io. rewrite G. apply F, Io.
Qed.

Lemma binv_new_plain X l e ev s : cinv X s -> plain_new ev -> binv l e s -> binv l e (snd (new_event ev s)).
Proof.
  intros CI ((l0 & Cl0 & Pl0) & Kn) B.
  set (s' := snd (new_event ev s)).
  assert (GR : grows s s') by apply grows_new.
  pose proof (get_event_new_inv ev s) as G. fold s' in G.
  intros c cev all ops n Hc Kc. destruct (G _ _ Hc) as [Hc0|[-> ->]]; [|rewrite Kc in Kn; contradiction].
  assert (Lt : forall o, In o ops -> (o < length (events s))%nat).
  { intros o Io. pose proof (ci_older _ _ CI _ _ _ _ _ Hc0 Kc _ Io). apply get_event_lt in Hc0. lia. }
  assert (PPe : procpos s' ops = procpos s ops).
  { apply procpos_ext. intros o Io. unfold is_proc, s'. rewrite get_event_new_below by (apply Lt, Io). reflexivity. }
  destruct (B _ _ _ _ _ Hc0 Kc) as (B1 & B2). rewrite PPe. split; [exact B1|]. intros O.
  destruct (B2 O) as [D|(A & Q & F)]; [left; eapply detached_grows; eauto|right].
  split; [|split; [exact Q|]].
  - intros o oev lo Ho Co. destruct (G _ _ Ho) as [Ho0|[-> ->]]; [eapply A; eassumption|].
    rewrite Cl0 in Co. injection Co as <-. rewrite occ_notin by (intros Io; apply Lt in Io; lia).
    apply cbcount_notin. intros Hin. apply Pl0 in Hin. exact Hin.
  - intros o oev Io Ho. destruct (G _ _ Ho) as [Ho0|[-> _]]; [apply F; assumption|apply Lt in Io; lia].
Qed.

Lemma binv_call_cond X l e all es s :
  cinv X s -> wl l e s -> all_valid es s = true -> binv l e s -> binv l e (fst (call_cond all es s)).
Proof.
  intros CI [W1 _] V B. pose proof (call_cond_spec all es s V) as M. pose proof (all_valid_lt _ _ V) as Lt.
  pose proof (grows_call_cond all es s) as GR.
  set (s' := fst (call_cond all es s)) in *. set (c := length (events s)) in *.
  destruct (cm_new _ _ _ _ M) as (cev & n & Hc & Kc & Cc & Le & Mo). fold c in Hc, Cc.
  pose proof (made_noproc _ _ _ _ M) as IP. pose proof (fresh_check X s) as Fresh. fold c in Fresh.
  assert (FreshL : cbcount (CbCheck c) l = 0%nat).
  { apply cbcount_notin. intros Hin. destruct (W1 _ Hin) as (x & _ & _ & _ & Hx & _). apply get_event_lt in Hx. unfold c in Hx. lia. }
  intros d dev a ops m Hd Kd. destruct (Nat.eq_dec d c) as [->|Nd].
  - (* the new condition *)
    rewrite Hc in Hd. injection Hd as <-. rewrite Kc in Kd. injection Kd as <- <- <-.
    assert (PPe : procpos s' es = procpos s es) by (apply procpos_ext; intros; apply IP).
    rewrite PPe, FreshL, Nat.add_0_r. split; [exact Le|]. intros O. rewrite O in Mo. destruct Mo as (Ne & Mn & Me & Mf).
    right. split; [|split; [exact Mn|]].
    + intros o oev lo Ho Co. destruct (Nat.eq_dec o c) as [->|No].
      * rewrite Hc in Ho. injection Ho as <-. rewrite Cc in Co. injection Co as <-.
        rewrite occ_notin by (intros Io; apply Lt in Io; unfold c in Io; lia).
        destruct es; [congruence|reflexivity].
      * destruct (made_old_inv _ _ _ _ _ _ M Ho No) as (ev & He & _ & _ & _ & C). fold c in C. rewrite C in Co.
        destruct (cbs ev) as [l0|] eqn:C0; [|discriminate]. injection Co as <-.
        rewrite cbcount_app, (Fresh _ _ _ CI He C0), cbcount_repeat_same. reflexivity.
    + intros o oev Io Ho Co Fo. exfalso.
      assert (No : o <> c) by (apply Lt in Io; unfold c; lia).
      destruct (made_old_inv _ _ _ _ _ _ M Ho No) as (ev & He & _ & Oe & _ & C). rewrite C in Co.
      assert (C0 : cbs ev = None) by (destruct (cbs ev); [discriminate|reflexivity]).
      specialize (Mf _ _ Io He C0). unfold is_failed in *. rewrite Oe in Fo. congruence.
  - (* an older condition *)
    destruct (made_old_inv _ _ _ _ _ _ M Hd Nd) as (dev0 & Hd0 & Kd0 & Od0 & _ & _).
    rewrite Kd0 in Kd. destruct (B _ _ _ _ _ Hd0 Kd) as (B1 & B2).
    assert (LtO : forall o, In o ops -> (o < c)%nat).
    { intros o Io. pose proof (ci_older _ _ CI _ _ _ _ _ Hd0 Kd _ Io). apply get_event_lt in Hd0. unfold c. lia. }
    assert (PPe : procpos s' ops = procpos s ops) by (apply procpos_ext; intros; apply IP).
    rewrite PPe. split; [exact B1|]. rewrite Od0. intros O.
    destruct (B2 O) as [D|(A & Q & F)]; [left; eapply detached_grows; eauto|right].
    split; [|split; [exact Q|]].
    + intros o oev lo Ho Co. destruct (Nat.eq_dec o c) as [->|No].
      * rewrite Hc in Ho. injection Ho as <-. rewrite Cc in Co. injection Co as <-.
        rewrite occ_notin by (intros Io; apply LtO in Io; lia).
        destruct es; reflexivity.
      * destruct (made_old_inv _ _ _ _ _ _ M Ho No) as (ev & He & _ & _ & _ & C). fold c in C. rewrite C in Co.
        destruct (cbs ev) as [l0|] eqn:C0; [|discriminate]. injection Co as <-.
        rewrite cbcount_app, cbcount_repeat_other by congruence. rewrite Nat.add_0_r. eapply A; eassumption.
    + intros o oev Io Ho Co Fo. assert (No : o <> c) by (apply LtO in Io; lia).
      destruct (made_old_inv _ _ _ _ _ _ M Ho No) as (ev & He & Ke & Oe & _ & C). rewrite C in Co.
      assert (C0 : cbs ev = None) by (destruct (cbs ev); [discriminate|reflexivity]).
      rewrite Ke. apply F; auto. unfold is_failed in *. rewrite <- Oe. exact Fo.
Qed.

(* everything program code / a process resumption does preserves the counting invariant *)
Lemma iprim_binv X l e x s s' : cinv X s -> wl l e s -> iprim x s s' -> binv l e s -> binv l e s'.
Proof.
  intros CI W P B. destruct P.
  - apply (binv_same_events l e s); [apply H|exact B].
  - eapply binv_new_plain; eassumption.
  - apply (binv_same_events l e s); [reflexivity|exact B].
  - unfold add_callback. destruct (get_event e0 s) as [ev|] eqn:He; [|rewrite upd_event_none by exact He; exact B].
    destruct (cbs ev) as [l0|] eqn:C0.
    + eapply binv_upd; [exact CI|exact B|exact He|..]; unfold ev_add_cb; rewrite C0; cbn; auto.
      * split; discriminate.
      * intros l1 l2 H1 H2 c0. injection H1 as <-. injection H2 as <-. rewrite cbcount_app, cbcount_plain_single; [lia|exact H|exact I].
    + rewrite upd_event_id; [exact B|]. intros ev0 H0. rewrite He in H0. injection H0 as <-. unfold ev_add_cb. rewrite C0. reflexivity.
  - eapply binv_upd; [exact CI|exact B|exact H|..]; cbn; auto.
    + rewrite H0. split; discriminate.
    + intros l1 l2 H3 H4 c0. rewrite H0 in H3. injection H3 as <-. injection H4 as <-.
      apply cbcount_remove_other. destruct c; try discriminate; contradiction.
  - eapply binv_upd_keep; [exact CI|exact B|exact H|reflexivity|reflexivity|right; left; exact H0].
  - eapply binv_upd_keep; [exact CI|exact B|exact H|reflexivity|reflexivity|right; right; exists q; exact H0].
  - destruct (get_event e0 s) as [ev|] eqn:He; [|rewrite upd_event_none by exact He; exact B].
    eapply binv_upd_keep; [exact CI|exact B|exact He|reflexivity|reflexivity|left; reflexivity].
  - apply (binv_same_events l e s); [reflexivity|exact B].
  - eapply binv_call_cond; eassumption.
Qed.

(* ---- the kernel's own steps ---- *)

(* popping event e: its callbacks l are now in flight *)
Lemma binv_popped X e0 m rest s ev l :
  cinv X s -> binv [] e0 s -> pop_min (agenda s) = Some (m, rest) -> get_event (e_ev m) s = Some ev -> cbs ev = Some l ->
  binv l (e_ev m) (popped m rest s).
Proof.
  intros CI B Pm He Cl. set (e := e_ev m) in *. set (s' := popped m rest s).
  assert (GR : grows s s') by (eapply prim_grows, p_pop, Pm).
  assert (G : forall x, get_event x s' = if Nat.eqb x e then Some (ev_set_cbs None ev) else get_event x s).
  { intros x. unfold s'. rewrite get_popped. fold e. destruct (Nat.eqb_spec x e) as [->|]; [rewrite He|]; reflexivity. }
  assert (IPe : is_proc s e = false) by (unfold is_proc, is_processed; rewrite He, Cl; reflexivity).
  assert (IPe' : is_proc s' e = true) by (unfold is_proc; rewrite G, Nat.eqb_refl; reflexivity).
  assert (IPo : forall o, o <> e -> is_proc s' o = is_proc s o).
  { intros o N. unfold is_proc. rewrite G. apply Nat.eqb_neq in N. rewrite N. reflexivity. }
  assert (CK : forall c, In (CbCheck c) l -> exists cev all ops n, get_event c s = Some cev /\ kind cev = KCond all ops n /\
                                                  (cbcount (CbCheck c) l <= occ e ops)%nat).
  { intros c Hin. eapply ci_check; eassumption. }
  intros c cev' all ops n Hc Kc.
  assert (Old : exists cev, get_event c s = Some cev /\ kind cev = KCond all ops n /\ out cev = out cev').
  { rewrite G in Hc. destruct (Nat.eqb c e) eqn:E.
    - apply Nat.eqb_eq in E. subst c. injection Hc as <-. exists ev. auto.
    - exists cev'. auto. }
  destruct Old as (cev & Hc0 & Kc0 & Oc0). destruct (B _ _ _ _ _ Hc0 Kc0) as (B1 & B2).
  rewrite cbcount_nil, Nat.add_0_r in B1, B2.
  rewrite (procpos_pop s s' e ops IPe IPe' IPo).
  assert (Le : (cbcount (CbCheck c) l <= occ e ops)%nat).
  { destruct (cbcount (CbCheck c) l) eqn:Cn; [lia|]. assert (Hin : In (CbCheck c) l) by (apply cbcount_in; lia).
    destruct (CK _ Hin) as (cev2 & a2 & ops2 & n2 & H2 & K2 & L2). rewrite Hc0 in H2. injection H2 as <-.
    rewrite Kc0 in K2. injection K2 as <- <- <-. lia. }
  split; [lia|]. rewrite <- Oc0. intros O.
  destruct (B2 O) as [D|(A & Q & F)]; [left; eapply detached_grows; eauto|right].
  assert (Eq : cbcount (CbCheck c) l = occ e ops) by (eapply A; eassumption).
  split; [|split; [lia|]].
  + intros o oev lo Ho Co. rewrite G in Ho. destruct (Nat.eqb o e); [injection Ho as <-; discriminate|]. eapply A; eassumption.
  + intros o oev Io Ho Co Fo. rewrite G in Ho. destruct (Nat.eqb o e) eqn:E.
    * apply Nat.eqb_eq in E. subst o. right. split; [reflexivity|]. apply cbcount_in. rewrite Eq. apply occ_in, Io.
    * destruct (F _ _ Io Ho Co Fo) as [K|(_ & [])]. left. exact K.
Qed.


Lemma cond_check_cbs c0 o s a : option_map cbs (get_event a (cond_check c0 o s)) = option_map cbs (get_event a s).
Proof.
  destruct (cond_check_cases c0 o s) as [->|(cev & oev & all & ops & n & Hc & Ho & Oc & Kc)]; [reflexivity|].
  rewrite (cond_check_eq c0 o s cev oev all ops n Hc Ho Oc Kc). cbv zeta.
  assert (U : forall e f s1, (forall ev, cbs (f ev) = cbs ev) -> option_map cbs (get_event a (upd_event e f s1)) = option_map cbs (get_event a s1)).
  { intros e f s1 Hf. rewrite get_event_upd. destruct (Nat.eqb a e); [|reflexivity]. destruct (get_event a s1); cbn; [rewrite Hf|]; reflexivity. }
  destruct (check_triggers all ops n oev); rewrite ?get_schedule, U by apply check_upd_cbs; destruct (is_failed oev); rewrite ?U; reflexivity.
Qed.

Lemma cond_check_noproc c0 o s : noproc s (cond_check c0 o s).
Proof.
  intros a. unfold is_proc. pose proof (cond_check_cbs c0 o s a) as H.
  destruct (get_event a (cond_check c0 o s)) as [x|], (get_event a s) as [y|]; cbn in H; try discriminate; [|reflexivity].
  injection H as H. unfold is_processed. rewrite H. reflexivity.
Qed.

(* the _check callback of condition c, for the popped event e *)
Lemma binv_cond_check X c e eev l s :
  cinv X s -> get_event e s = Some eev -> cbs eev = None -> chk_ok s e c ->
  binv (CbCheck c :: l) e s -> binv l e (cond_check c e s).
Proof.
  intros CI He Ce (cev & all & ops & n & Hc & Kc & Ie) B.
  pose proof (ci_older _ _ CI _ _ _ _ _ Hc Kc _ Ie) as Lt. assert (Nce : c <> e) by lia.
  assert (CNT : forall c0, cbcount (CbCheck c0) (CbCheck c :: l) = ((if Nat.eqb c0 c then 1 else 0) + cbcount (CbCheck c0) l)%nat).
  { intros c0. rewrite cbcount_cons. cbn [cb_eqb]. reflexivity. }
  destruct (out cev) as [oc|] eqn:Oc.
  { (* c is already triggered: nothing happens *)
    rewrite cond_check_noop by (right; right; exists cev; split; [exact Hc|left; congruence]).
    intros c0 cev0 a0 ops0 n0 H0 K0. destruct (B _ _ _ _ _ H0 K0) as (B1 & B2). rewrite CNT in B1, B2.
    split; [lia|]. intros O. assert (N0 : c0 <> c) by (intros ->; rewrite Hc in H0; injection H0 as <-; congruence).
    apply Nat.eqb_neq in N0. rewrite N0 in B2. cbn [plus] in B2.
    destruct (B2 O) as [D|(A & Q & F)]; [left; exact D|right]. split; [exact A|]. split; [exact Q|].
    intros o oev Io Ho Co Fo. destruct (F _ _ Io Ho Co Fo) as [K|(-> & [H|H])]; auto.
    injection H as ->. rewrite Nat.eqb_refl in N0. discriminate. }
  pose proof (cond_check_get c e s cev eev all ops n) as G0.
  pose proof (grows_cond_check c e s) as GR. pose proof (cond_check_noproc c e s) as IP.
  set (s1 := cond_check c e s) in *.
  assert (G : forall x ev', get_event x s1 = Some ev' ->
            exists ev, get_event x s = Some ev /\ cbs ev' = cbs ev /\
              (x <> c -> kind ev' = kind ev /\ out ev' = out ev) /\
              (x = c -> ev = cev /\ kind ev' = KCond all ops (S n) /\
                        (out ev' = None -> is_failed eev = false))).
  { intros x ev'. rewrite G0 by assumption. destruct (Nat.eqb_spec x c) as [->|Nx].
    - intros H; injection H as <-. exists cev. split; [exact Hc|]. autorewrite with check_upd.
      split; [reflexivity|]. split; [congruence|]. intros _. split; [reflexivity|]. split; [reflexivity|].
      unfold check_triggers. destruct (is_failed eev); [discriminate|reflexivity].
    - destruct (Nat.eqb_spec x e) as [->|Ne]; intros H; [injection H as <-; exists eev|exists ev'].
      + split; [exact He|]. destruct (is_failed eev); repeat split; auto; congruence.
      + repeat split; auto; congruence. }
  intros c0 cev0' a0 ops0 n0 H0 K0. destruct (G _ _ H0) as (cev0 & H00 & C0 & Gn & Gc).
  rewrite (procpos_ext s s1 ops0) by (intros; apply IP).
  destruct (Nat.eq_dec c0 c) as [->|N0].
  - (* the condition itself *)
    destruct (Gc eq_refl) as (-> & K1 & O1). rewrite K0 in K1. injection K1 as -> -> ->.
    destruct (B _ _ _ _ _ Hc Kc) as (B1 & B2). rewrite CNT, Nat.eqb_refl in B1, B2.
    split; [lia|]. intros O. specialize (O1 O).
    destruct (B2 Oc) as [D|(A & Q & F)]; [left; eapply detached_grows; eauto|right].
    split; [|split; [lia|]].
    + intros o oev lo Ho Co. destruct (G _ _ Ho) as (oev0 & Ho0 & Cb0 & _). rewrite Cb0 in Co. eapply A; eassumption.
    + intros o oev Io Ho Co Fo. destruct (G _ _ Ho) as (oev0 & Ho0 & Cb0 & Gn0 & _).
      assert (No : o <> c) by (pose proof (ci_older _ _ CI _ _ _ _ _ Hc Kc _ Io); lia).
      destruct (Gn0 No) as (Ko & Oo). rewrite Cb0 in Co.
      assert (Fo0 : is_failed oev0 = true) by (unfold is_failed in *; rewrite <- Oo; exact Fo).
      destruct (F _ _ Io Ho0 Co Fo0) as [(q & K)|(-> & _)]; [left; exists q; congruence|].
      rewrite He in Ho0. injection Ho0 as <-. congruence.
  - (* another condition *)
    destruct (Gn N0) as (K1 & O1). rewrite K1 in K0. destruct (B _ _ _ _ _ H00 K0) as (B1 & B2).
    rewrite CNT in B1, B2. apply Nat.eqb_neq in N0. rewrite N0 in B1, B2. cbn [plus] in B1, B2.
    split; [exact B1|]. rewrite O1. intros O.
    destruct (B2 O) as [D|(A & Q & F)]; [left; eapply detached_grows; eauto|right].
    split; [|split; [exact Q|]].
    + intros o oev lo Ho Co. destruct (G _ _ Ho) as (oev0 & Ho0 & Cb0 & _). rewrite Cb0 in Co. eapply A; eassumption.
    + intros o oev Io Ho Co Fo. destruct (G _ _ Ho) as (oev0 & Ho0 & Cb0 & Gn0 & Gc0). rewrite Cb0 in Co.
      destruct (Nat.eq_dec o c) as [->|No].
      * (* the operand is c itself: a condition, whose failure status may just have changed; it is not processed *)
        exfalso. destruct (Gc0 eq_refl) as (-> & _). pose proof (ci_proc_trig _ _ CI _ _ Hc Co). congruence.
      * destruct (Gn0 No) as (Ko & Oo).
        assert (Fo0 : is_failed oev0 = true) by (unfold is_failed in *; rewrite <- Oo; exact Fo).
        destruct (F _ _ Io Ho0 Co Fo0) as [(q & K)|(-> & [H|H])]; [left; exists q; congruence| |right; auto].
        injection H as ->. rewrite Nat.eqb_refl in N0. discriminate.
Qed.

(* what a sequence of _check removals (for the conditions in D) does to the events *)
Definition rmrel (D : evid -> Prop) (s s' : state) : Prop :=
  forall x, match get_event x s, get_event x s' with
            | Some a, Some b => kind b = kind a /\ out b = out a /\ defused b = defused a /\ (cbs a = None <-> cbs b = None) /\
                                (forall l0 l1, cbs a = Some l0 -> cbs b = Some l1 ->
                                   forall c0, ~ D c0 -> cbcount (CbCheck c0) l1 = cbcount (CbCheck c0) l0)
            | None, None => True
            | _, _ => False
            end.

Lemma rmrel_refl D s : rmrel D s s.
Proof. intros x. destruct (get_event x s) as [a|]; [|exact I]. repeat split; auto. intros l0 l1 H0 H1. congruence. Qed.

Lemma rmrel_trans D s1 s2 s3 : rmrel D s1 s2 -> rmrel D s2 s3 -> rmrel D s1 s3.
Proof.
  intros R1 R2 x. specialize (R1 x). specialize (R2 x).
  destruct (get_event x s1) as [a|], (get_event x s2) as [b|], (get_event x s3) as [c|]; try contradiction; auto.
  destruct R1 as (K1 & O1 & D1 & C1 & L1), R2 as (K2 & O2 & D2 & C2 & L2).
  split; [congruence|]. split; [congruence|]. split; [congruence|]. split; [tauto|].
  intros l0 l2 H0 H2 c0 N. destruct (cbs b) as [l1|] eqn:Cb.
  - rewrite (L2 _ _ eq_refl H2 _ N). apply (L1 _ _ H0 eq_refl _ N).
  - destruct C1 as [_ C1]. specialize (C1 eq_refl). congruence.
Qed.

Lemma rmrel_remove_check_from (D : evid -> Prop) d o s : D d -> rmrel D s (remove_check_from d o s).
Proof.
  intros Dd. unfold remove_check_from. destruct (get_event o s) as [oev|] eqn:Ho; [|apply rmrel_refl].
  destruct (cbs oev) as [l|] eqn:Cl; [|apply rmrel_refl]. destruct (mem_cb (CbCheck d) l); [|apply rmrel_refl].
  intros x. rewrite get_event_upd. destruct (Nat.eqb x o) eqn:E.
  - apply Nat.eqb_eq in E. subst x. rewrite Ho. cbn. repeat split; auto; try (rewrite Cl; discriminate).
    intros l0 l1 H0 H1 c0 N. rewrite Cl in H0. injection H0 as <-. injection H1 as <-.
    apply cbcount_remove_other. intros E. injection E as ->. contradiction.
  - destruct (get_event x s) as [a|]; [|exact I]. repeat split; auto. intros l0 l1 H0 H1. congruence.
Qed.

Lemma rmsteps_rmrel (D : evid -> Prop) s s' : rmsteps D s s' -> rmrel D s s'.
Proof.
  induction 1; [apply rmrel_refl|]. eapply rmrel_trans; [apply rmrel_remove_check_from; eassumption|eassumption].
Qed.

Lemma rmsteps_list (D : evid -> Prop) s s' :
  rmsteps D s s' -> exists ds, (forall d, In d ds -> D d) /\ rmsteps (fun d => In d ds) s s'.
Proof.
  induction 1 as [s|d o s s' Dd RM (ds & Hds & IH)].
  - exists []. split; [intros d []|constructor].
  - exists (d :: ds). split; [intros d' [<-|H]; auto|].
    econstructor; [left; reflexivity|]. eapply rmsteps_weaken; [|exact IH]. intros d' H. right. exact H.
Qed.

(* the _build_value callback of the popped condition e *)
Lemma binv_cond_build X e eev l s :
  cinv X s -> get_event e s = Some eev -> cbs eev = None -> binv l e s -> binv l e (fst (cond_build e s)).
Proof.
  intros CI He Ce B.
  destruct (cond_build_cases e s) as [->|(s1 & R & Res)]; [exact B|].
  pose proof (remove_checks_rm _ _ _ _ R) as RM.
  destruct (rmsteps_list _ _ _ RM) as (ds & Hds & RM').
  pose proof (rmsteps_rmrel _ _ _ RM') as RR.
  pose proof (cinv_remove_checks _ _ _ _ _ CI R) as CI1.
  assert (GR : grows s s1) by (eapply grows_remove_checks, R).
  assert (IP : forall o, is_proc s1 o = is_proc s o).
  { intros o. unfold is_proc. specialize (RR o). destruct (get_event o s) as [a|], (get_event o s1) as [b|]; try contradiction; auto.
    destruct RR as (_ & _ & _ & C & _). unfold is_processed. destruct (cbs a), (cbs b); auto.
    - destruct C as [_ C]. specialize (C eq_refl). discriminate.
    - destruct C as [C _]. specialize (C eq_refl). discriminate. }
  assert (B1 : binv l e s1).
  { intros c cev' all ops n Hc Kc. pose proof (RR c) as Rc. rewrite Hc in Rc.
    destruct (get_event c s) as [cev|] eqn:Hc0; [|contradiction]. destruct Rc as (K1 & O1 & _).
    rewrite K1 in Kc. destruct (B _ _ _ _ _ Hc0 Kc) as (B1 & B2).
    rewrite (procpos_ext s s1 ops) by (intros; apply IP). split; [exact B1|]. rewrite O1. intros O.
    destruct (B2 O) as [D|(A & Q & F)]; [left; eapply detached_grows; eauto|].
    destruct (in_dec Nat.eq_dec c ds) as [Hin|Hnin].
    - (* c is nested below e: detached from now on *)
      left. exists e. split; [eapply desc_grows; [exact GR|apply Hds, Hin]|]. split.
      + intros ->. rewrite He in Hc0. injection Hc0 as <-. exact (ci_proc_trig _ _ CI _ _ He Ce O).
      + rewrite IP. unfold is_proc, is_processed. rewrite He, Ce. reflexivity.
    - right. split; [|split; [exact Q|]].
      + intros o oev lo Ho Co. pose proof (RR o) as Ro. rewrite Ho in Ro.
        destruct (get_event o s) as [oev0|] eqn:Ho0; [|contradiction]. destruct Ro as (_ & _ & _ & C & L).
        destruct (cbs oev0) as [l0|] eqn:C0; [|destruct C as [C _]; specialize (C eq_refl); congruence].
        rewrite (L _ _ eq_refl Co _ Hnin). eapply A; eassumption.
      + intros o oev Io Ho Co Fo. pose proof (RR o) as Ro. rewrite Ho in Ro.
        destruct (get_event o s) as [oev0|] eqn:Ho0; [|contradiction]. destruct Ro as (Ko & Oo & _ & C & _).
        rewrite Ko. apply F; auto; [apply C, Co|]. unfold is_failed in *. rewrite <- Oo. exact Fo. }
  destruct Res as [->|(cev & v & all & ops & n & items & Hc & Oc & _ & _ & ->)]; [exact B1|].
  eapply binv_upd_keep; [exact CI1|exact B1|exact Hc|reflexivity|reflexivity|left; cbn; rewrite Oc; reflexivity].
Qed.

(* ------------------------------------------------------------------------------------------------ *)
(* the callback loop of a step *)

Definition winv (X : list evid) (l : list cb) (e : evid) (s : state) : Prop :=
  cinv X s /\ procs_wf s /\ processed_in e s /\ wl l e s.

Lemma prim_winv l e x X s s' : prim x s s' -> winv X l e s -> winv (X ++ lab x) l e s'.
Proof.
  intros P (CI & PW & PE & WL). pose proof (prim_grows _ _ _ P) as G. split; [eapply prim_cinv; eassumption|].
  split; [eapply prim_procs_wf; eassumption|]. split; [eapply grows_processed; eauto|eapply wl_grows; eauto].
Qed.

Lemma iptrace_winv l e X' s s' : iptrace X' s s' -> forall X, winv X l e s -> winv (X ++ X') l e s'.
Proof.
  induction 1 as [|x X' s s1 s2 P T IH]; intros X W; [rewrite app_nil_r; exact W|].
  rewrite app_assoc. apply IH. eapply prim_winv; [apply p_inner, P|exact W].
Qed.

Lemma iptrace_binv l e X' s s' : iptrace X' s s' -> forall X, cinv X s -> wl l e s -> binv l e s -> binv l e s'.
Proof.
  induction 1 as [|x X' s s1 s2 P T IH]; intros X CI W B; [exact B|].
  eapply (IH (X ++ lab x)).
  - eapply iprim_cinv; eassumption.
  - eapply wl_grows; [eapply iprim_grows, P|exact W].
  - eapply iprim_binv; eassumption.
Qed.

Lemma winv_tail X cb l e s : winv X (cb :: l) e s -> winv X l e s.
Proof. intros (A & B & C & D). split; [exact A|]. split; [exact B|]. split; [exact C|eapply wl_tail, D]. Qed.

Lemma winv_popped X m rest s ev l :
  cinv X s -> procs_wf s -> pop_min (agenda s) = Some (m, rest) -> get_event (e_ev m) s = Some ev -> cbs ev = Some l ->
  winv X l (e_ev m) (popped m rest s).
Proof.
  intros CI PW Pm He Cl. split; [apply cinv_popped; assumption|]. split; [eapply prim_procs_wf; [apply p_pop, Pm|exact PW]|].
  split; [eapply popped_processed, He|]. eapply wl_grows; [eapply prim_grows, p_pop, Pm|]. split.
  - intros c Hin. destruct (ci_check _ _ CI _ _ _ _ He Cl Hin) as (cev & all & ops & n & Hc & Kc & Le).
    exists cev, all, ops, n. split; [exact Hc|]. split; [exact Kc|]. apply occ_in. apply cbcount_in in Hin. lia.
  - intros c Hin. exact (proj1 (ci_build _ _ CI _ _ _ _ He Cl Hin)).
Qed.

(* a loop in which every callback ran: each returned normally, except that the stop callback of run(until=event)
   may have raised (the repaired step() remembers that and continues) *)
Inductive cbloop (codes : list prog) (fuel : nat) (e : evid) : list cb -> state -> state -> Prop :=
| cbl_nil s : cbloop codes fuel e [] s s
| cbl_ok c t s s1 s' : run_cb fuel codes e c s = (s1, ROk) -> cbloop codes fuel e t s1 s' -> cbloop codes fuel e (c :: t) s s'
| cbl_stop t s s1 r s' : run_cb fuel codes e CbStop s = (s1, r) -> is_exit r = true -> cbloop codes fuel e t s1 s' ->
                         cbloop codes fuel e (CbStop :: t) s s'.

(* Induction principle for the callback loop of the popped event e: a family Q, indexed by the explicit triggers so far
   and the callbacks still to run, that is preserved by _check, by _build_value and by whatever any other callback
   does (program activity, then the callback leaves the list), holds at the end of every completed loop. *)
Section Loop.
  Variables (codes : list prog) (fuel : nat) (e : evid).
  Variable Q : list evid -> list cb -> state -> Prop.
  Hypothesis Qcheck : forall X c l s, winv X (CbCheck c :: l) e s -> Q X (CbCheck c :: l) s -> Q X l (cond_check c e s).
  Hypothesis Qbuild : forall X l s, winv X (CbBuild e :: l) e s -> Q X (CbBuild e :: l) s -> Q X l (fst (cond_build e s)).
  Hypothesis Qother : forall X cb l X' s s1, (forall c, cb <> CbCheck c) -> (forall c, cb <> CbBuild c) ->
                        winv X (cb :: l) e s -> iptrace X' s s1 -> Q X (cb :: l) s -> Q (X ++ X') l s1.

  Lemma loop_cb X cb l s s' r :
    winv X (cb :: l) e s -> run_cb fuel codes e cb s = (s', r) -> Q X (cb :: l) s ->
    exists X', etrace codes X' s s' /\ winv (X ++ X') l e s' /\ Q (X ++ X') l s'.
  Proof.
    intros W R HQ. pose proof W as (CI & PW & (eev & He & Ce) & WL).
    assert (ViaX : xsteps codes s s' -> (forall c, cb <> CbCheck c) -> (forall c, cb <> CbBuild c) ->
              exists X', etrace codes X' s s' /\ winv (X ++ X') l e s' /\ Q (X ++ X') l s').
    { intros (X' & T) N1 N2. exists X'. pose proof (xtrace_iptrace _ _ _ _ T) as T'.
      split; [apply et_one, es_x, T|]. split; [eapply winv_tail, iptrace_winv; eassumption|eapply Qother; eassumption]. }
    assert (ViaK : estep codes [] s s' -> prim None s s' -> Q X l s' ->
              exists X', etrace codes X' s s' /\ winv (X ++ X') l e s' /\ Q (X ++ X') l s').
    { intros ES P HQ'. exists []. rewrite app_nil_r. split; [apply et_one, ES|]. split; [|exact HQ'].
      rewrite <- (app_nil_r X). eapply (prim_winv l e None); [exact P|eapply winv_tail, W]. }
    destruct cb; cbn [run_cb] in R.
    - apply ViaX; try discriminate. pose proof (xs_resume_proc codes fuel p e s PW) as Xs. rewrite R in Xs. exact Xs.
    - injection R as <- <-. assert (CK : chk_ok s e c) by (apply (proj1 WL); left; reflexivity).
      apply ViaK; [eapply es_check| eapply p_check|apply Qcheck; assumption]; try eassumption; apply chk_ok_opnd, CK.
    - assert (c = e) by (apply (proj2 WL); left; reflexivity). subst c.
      assert (s' = fst (cond_build e s)) by (rewrite R; reflexivity). subst s'.
      apply ViaK; [apply es_build|apply p_build|apply Qbuild; assumption].
    - apply ViaX; try discriminate. pose proof (xs_do_interruption codes fuel i s PW) as Xs. rewrite R in Xs. exact Xs.
    - apply ViaX; try discriminate. assert (s' = s) by (rewrite <- (Prims.stop_cb_state e s), R; reflexivity). subst s'. apply xsteps_refl.
    - injection R as <- <-. apply ViaX; try discriminate. apply xsteps_prim, p_frame. repeat split.
  Qed.

  Lemma loop_all l s s' : cbloop codes fuel e l s s' -> forall X,
    winv X l e s -> Q X l s -> exists X', etrace codes X' s s' /\ winv (X ++ X') [] e s' /\ Q (X ++ X') [] s'.
  Proof.
    assert (Step : forall X c t a a1 r b, run_cb fuel codes e c a = (a1, r) -> winv X (c :: t) e a -> Q X (c :: t) a ->
              (forall X1, winv X1 t e a1 -> Q X1 t a1 -> exists X', etrace codes X' a1 b /\ winv (X1 ++ X') [] e b /\ Q (X1 ++ X') [] b) ->
              exists X', etrace codes X' a b /\ winv (X ++ X') [] e b /\ Q (X ++ X') [] b).
    { intros X c t a a1 r b R1 W HQ IH. destruct (loop_cb X c t a a1 r W R1 HQ) as (X1 & T1 & W1 & Q1).
      destruct (IH _ W1 Q1) as (X2 & T2 & W2 & Q2). exists (X1 ++ X2). rewrite app_assoc. split; [eapply et_app; eassumption|auto]. }
    induction 1 as [s|c t s s1 s' R1 L IH|t s s1 r1 s' R1 Ex L IH]; intros X W HQ.
    - exists []. rewrite app_nil_r. split; [constructor|auto].
    - eapply Step; eauto.
    - eapply Step; eauto.
  Qed.
End Loop.

Lemma run_cb_winv codes fuel X cb l e s s' r :
  winv X (cb :: l) e s -> run_cb fuel codes e cb s = (s', r) -> exists X', etrace codes X' s s' /\ winv (X ++ X') l e s'.
Proof.
  intros W R. destruct (loop_cb codes fuel e (fun _ _ _ => True)) with (X := X) (cb := cb) (l := l) (s := s) (s' := s') (r := r) as (X' & T & W' & _); auto.
  exists X'. auto.
Qed.

(* the loop, whatever its result (also when an exception escaped from its middle) *)
Lemma run_callbacks_winv codes fuel e l : forall X s s' r,
  winv X l e s -> run_callbacks fuel codes e l s = (s', r) ->
  exists X', etrace codes X' s s' /\ cinv (X ++ X') s' /\ procs_wf s'.
Proof.
  induction l as [|cb t IH]; intros X s s' r W R; cbn [run_callbacks] in R.
  - injection R as <- <-. exists []. rewrite app_nil_r. destruct W as (A & B & _). split; [constructor|auto].
  - destruct (run_cb fuel codes e cb s) as [s1 r1] eqn:R1.
    destruct (run_cb_winv codes fuel X cb t e s s1 r1 W R1) as (X1 & T1 & W1).
    assert (Cont : forall s2 r2, run_callbacks fuel codes e t s1 = (s2, r2) ->
              exists X', etrace codes X' s s2 /\ cinv (X ++ X') s2 /\ procs_wf s2).
    { intros s2 r2 R2. destruct (IH _ _ _ _ W1 R2) as (X2 & T2 & C2 & P2). exists (X1 ++ X2).
      split; [eapply et_app; eassumption|]. rewrite app_assoc. auto. }
    assert (Stop : exists X', etrace codes X' s s1 /\ cinv (X ++ X') s1 /\ procs_wf s1).
    { exists X1. destruct W1 as (A & B & _). auto. }
    destruct r1; try (injection R as <- <-; exact Stop); try (eapply Cont; exact R);
      (destruct (is_stop_cb cb && is_exit _); [|injection R as <- <-; exact Stop]);
      destruct (run_callbacks fuel codes e t s1) as [s2 r2] eqn:R2;
      (assert (s' = s2) by (destruct r2; injection R as <- _; reflexivity)); subst s'; eapply Cont; reflexivity.
Qed.

Lemma run_callbacks_cbloop codes fuel e l : forall s s',
  run_callbacks fuel codes e l s = (s', ROk) -> cbloop codes fuel e l s s'.
Proof.
  induction l as [|cb t IH]; intros s s' R; cbn [run_callbacks] in R.
  - injection R as <-. constructor.
  - destruct (run_cb fuel codes e cb s) as [s1 r1] eqn:R1.
    destruct r1; try (eapply cbl_ok; [exact R1|apply IH, R]);
      (destruct (is_stop_cb cb && is_exit _); [|discriminate]);
      destruct (run_callbacks fuel codes e t s1) as [s2 r2]; destruct r2; discriminate.
Qed.

Lemma cbloop_run_callbacks codes fuel e l s s' :
  cbloop codes fuel e l s s' ->
  exists r, run_callbacks fuel codes e l s = (s', r) /\ (r = ROk \/ (is_exit r = true /\ In CbStop l)).
Proof.
  induction 1 as [s|c t s s1 s' R1 L (r & IH & Hr)|t s s1 r1 s' R1 Ex L (r & IH & Hr)]; cbn [run_callbacks].
  - exists ROk. auto.
  - rewrite R1. exists r. split; [exact IH|]. destruct Hr as [H|(H & I)]; [auto|right; split; [exact H|right; exact I]].
  - rewrite R1. destruct r1; try discriminate; cbn [is_stop_cb is_exit andb]; rewrite IH.
    + destruct Hr as [->|(H & I)].
      * exists (RStop v). split; [reflexivity|right; split; [reflexivity|left; reflexivity]].
      * exists r. split; [destruct r; try discriminate; reflexivity|right; split; [exact H|right; exact I]].
    + destruct Hr as [->|(H & I)].
      * exists (RRaise x). split; [reflexivity|right; split; [reflexivity|left; reflexivity]].
      * exists r. split; [destruct r; try discriminate; reflexivity|right; split; [exact H|right; exact I]].
Qed.

(* ------------------------------------------------------------------------------------------------ *)
(* steps *)

Lemma binv_nil_irrel e e' s : binv [] e s -> binv [] e' s.
Proof.
  intros B c cev all ops n Hc Kc. destruct (B _ _ _ _ _ Hc Kc) as (B1 & B2). split; [exact B1|]. intros O.
  destruct (B2 O) as [D|(A & Q & F)]; [left; exact D|right]. split; [exact A|]. split; [exact Q|].
  intros o oev Io Ho Co Fo. destruct (F _ _ Io Ho Co Fo) as [K|(_ & [])]. left. exact K.
Qed.

(* the invariant at step boundaries *)
Definition bnd (s : state) : Prop := binv [] 0%nat s.

(* a step whose callback loop ran to its end (no exception escaped from the middle of the loop) *)
Definition clean_step (fuel : nat) (codes : list prog) (s s' : state) (e : evid) : Prop :=
  exists m rest ev l, pop_min (agenda s) = Some (m, rest) /\ e = e_ev m /\ get_event e s = Some ev /\ cbs ev = Some l /\
                      cbloop codes fuel e l (popped m rest s) s'.

(* what step() returns for it: the remembered stop of run(until=event) if there was one, else the verdict on an
   undefused failure *)
Lemma clean_step_result fuel codes s s' e : clean_step fuel codes s s' e ->
  exists r, step fuel codes s = (s', r) /\
            (r = check_failure e s' \/ (is_exit r = true /\ exists ev l, get_event e s = Some ev /\ cbs ev = Some l /\ In CbStop l)).
Proof.
  intros (m & rest & ev & l & Pm & -> & He & Cl & L). destruct (cbloop_run_callbacks _ _ _ _ _ _ L) as (r & R & Hr).
  unfold step. rewrite Pm. change (get_event (e_ev m) (pop_state m rest s)) with (get_event (e_ev m) s). rewrite He, Cl.
  fold (popped m rest s). rewrite R. destruct Hr as [->|(Ex & I)].
  - exists (check_failure (e_ev m) s'). auto.
  - exists r. split; [destruct r; try discriminate; reflexivity|]. right. split; [exact Ex|]. exists ev, l. auto.
Qed.

Lemma step_ok_clean fuel codes s s' : step fuel codes s = (s', ROk) -> exists e, clean_step fuel codes s s' e.
Proof.
  intros H. apply step_unfold in H. destruct H as [(_ & _ & H)|(m & rest & Pm & [(_ & _ & H)|[(ev & _ & _ & _ & H)|(ev & l & r2 & He & Cl & R & H)]])]; try discriminate.
  exists (e_ev m), m, rest, ev, l. destruct r2; try discriminate. repeat split; auto. apply run_callbacks_cbloop, R.
Qed.

Lemma step_winv codes fuel X s s' r :
  cinv X s -> procs_wf s -> step fuel codes s = (s', r) ->
  exists X', etrace codes X' s s' /\ cinv (X ++ X') s' /\ procs_wf s'.
Proof.
  intros CI PW H. apply step_unfold in H. destruct H as [(_ & -> & _)|(m & rest & Pm & H)].
  { exists []. rewrite app_nil_r. split; [constructor|auto]. }
  pose proof (et_one codes _ _ _ (es_pop codes m rest s Pm)) as T1.
  assert (C1 : cinv X (popped m rest s)) by (apply cinv_popped; assumption).
  assert (P1 : procs_wf (popped m rest s)) by (eapply prim_procs_wf; [apply p_pop, Pm|exact PW]).
  destruct H as [(_ & -> & _)|[(ev & _ & _ & -> & _)|(ev & l & r2 & He & Cl & R & _)]];
    try solve [exists []; rewrite app_nil_r; auto].
  destruct (run_callbacks_winv codes fuel _ _ _ _ _ _ (winv_popped X m rest s ev l CI PW Pm He Cl) R) as (X' & T & C & P).
  exists X'. split; [|auto]. apply (et_app codes [] X' _ _ _ T1 T).
Qed.

Lemma clean_step_loop codes fuel X s s' m rest ev l (Q : list evid -> list cb -> state -> Prop) :
  (forall X c l s, winv X (CbCheck c :: l) (e_ev m) s -> Q X (CbCheck c :: l) s -> Q X l (cond_check c (e_ev m) s)) ->
  (forall X l s, winv X (CbBuild (e_ev m) :: l) (e_ev m) s -> Q X (CbBuild (e_ev m) :: l) s -> Q X l (fst (cond_build (e_ev m) s))) ->
  (forall X cb l X' s s1, (forall c, cb <> CbCheck c) -> (forall c, cb <> CbBuild c) ->
     winv X (cb :: l) (e_ev m) s -> iptrace X' s s1 -> Q X (cb :: l) s -> Q (X ++ X') l s1) ->
  cinv X s -> procs_wf s -> pop_min (agenda s) = Some (m, rest) -> get_event (e_ev m) s = Some ev -> cbs ev = Some l ->
  cbloop codes fuel (e_ev m) l (popped m rest s) s' -> Q X l (popped m rest s) ->
  exists X', etrace codes X' s s' /\ winv (X ++ X') [] (e_ev m) s' /\ Q (X ++ X') [] s'.
Proof.
  intros Q1 Q2 Q3 CI PW Pm He Cl L Q0.
  destruct (loop_all codes fuel (e_ev m) Q Q1 Q2 Q3 l _ _ L X (winv_popped X m rest s ev l CI PW Pm He Cl) Q0) as (X' & T & W & HQ).
  exists X'. split; [|auto]. apply (et_app codes [] X' _ _ _ (et_one codes _ _ _ (es_pop codes m rest s Pm)) T).
Qed.

Lemma clean_step_etrace codes fuel X s s' e : cinv X s -> procs_wf s -> clean_step fuel codes s s' e ->
  exists X', etrace codes X' s s' /\ cinv (X ++ X') s' /\ procs_wf s'.
Proof.
  intros CI PW (m & rest & ev & l & Pm & -> & He & Cl & L).
  destruct (clean_step_loop codes fuel X s s' m rest ev l (fun _ _ _ => True)) as (X' & T & (C & P & _) & _); auto.
  exists X'. auto.
Qed.

Lemma clean_step_bnd codes fuel X s s' e : cinv X s -> procs_wf s -> bnd s -> clean_step fuel codes s s' e -> bnd s'.
Proof.
  intros CI PW B (m & rest & ev & l & Pm & -> & He & Cl & L).
  destruct (clean_step_loop codes fuel X s s' m rest ev l (fun _ l s => binv l (e_ev m) s)) as (X' & _ & _ & B'); auto.
  - intros X0 c l0 s0 (CI0 & _ & (eev & He0 & Ce0) & WL) B0.
    eapply binv_cond_check; [exact CI0|exact He0|exact Ce0|apply (proj1 WL); left; reflexivity|exact B0].
  - intros X0 l0 s0 (CI0 & _ & (eev & He0 & Ce0) & _) B0.
    eapply binv_cond_build; [exact CI0|exact He0|exact Ce0|]. eapply binv_drop; [|exact B0]. discriminate.
  - intros X0 cb l0 X' s0 s1 N _ (CI0 & _ & _ & WL) T B0.
    eapply binv_drop; [exact N|]. eapply iptrace_binv; eassumption.
  - eapply binv_popped; eassumption.
  - eapply binv_nil_irrel, B'.
Qed.

Lemma reach_step codes X fuel s s' r : reach codes X s -> step fuel codes s = (s', r) -> exists X', reach codes (X ++ X') s'.
Proof.
  intros R H. destruct (step_winv codes fuel X s s' r (reach_cinv _ _ _ R) (reach_procs_wf _ _ _ R) H) as (X' & T & _).
  eapply reach_esteps; [exact R|exists X'; exact T].
Qed.

Lemma reach_run_loop codes fuel u n : forall X s, reach codes X s -> exists X', reach codes (X ++ X') (fst (run_loop n fuel codes u s)).
Proof.
  induction n as [|n IH]; intros X s R; cbn [run_loop fst]; [exists []; rewrite app_nil_r; exact R|].
  destruct (step fuel codes s) as [s1 r] eqn:S. destruct (reach_step _ _ _ _ _ _ R S) as (X1 & R1).
  destruct r; try (exists X1; exact R1). destruct (IH _ _ R1) as (X2 & R2). exists (X1 ++ X2). rewrite app_assoc. exact R2.
Qed.

Lemma reach_run codes X fuel u s : reach codes X s -> exists X', reach codes (X ++ X') (fst (run fuel codes u s)).
Proof.
  intros R. unfold run. destruct (run_prelude u s) as [[s1 r]|s1] eqn:P.
  - apply Prims.run_prelude_inl in P. subst s1. exists []. rewrite app_nil_r. exact R.
  - destruct (reach_esteps _ _ _ _ R (esteps_x _ _ _ (xs_run_prelude codes u s s1 P))) as (X1 & R1).
    destruct (reach_run_loop codes fuel u fuel _ _ R1) as (X2 & R2). exists (X1 ++ X2). rewrite app_assoc. exact R2.
Qed.

(* clean executions: module-level code, run() preludes, and steps whose callback loop completed *)
Inductive creach (codes : list prog) : list evid -> state -> Prop :=
| cr_init t0 : creach codes [] (init_state t0)
| cr_x X X' s s' : creach codes X s -> xtrace codes X' s s' -> creach codes (X ++ X') s'
| cr_step X X' fuel s s' e : creach codes X s -> clean_step fuel codes s s' e -> etrace codes X' s s' ->
                             creach codes (X ++ X') s'.

Lemma creach_reach codes X s : creach codes X s -> reach codes X s.
Proof.
  induction 1 as [t0|X X' s s' C IH T|X X' fuel s s' e C IH CS T].
  - apply reach_init.
  - destruct IH as (t0 & T0). exists t0. eapply et_app; [exact T0|]. rewrite <- (app_nil_r X'). econstructor; [apply es_x, T|constructor].
  - destruct IH as (t0 & T0). exists t0. eapply et_app; eassumption.
Qed.

Lemma bnd_init t0 : bnd (init_state t0).
Proof. intros c cev all ops n H. rewrite get_init in H. discriminate. Qed.

Theorem creach_bnd codes X s : creach codes X s -> bnd s.
Proof.
  induction 1 as [t0|X X' s s' C IH T|X X' fuel s s' e C IH CS T].
  - apply bnd_init.
  - pose proof (creach_reach _ _ _ C) as R.
    eapply iptrace_binv; [eapply xtrace_iptrace, T|apply (reach_cinv _ _ _ R)|apply wl_nil|exact IH].
  - pose proof (creach_reach _ _ _ C) as R.
    eapply clean_step_bnd; [apply (reach_cinv _ _ _ R)|apply (reach_procs_wf _ _ _ R)|exact IH|exact CS].
Qed.

(* every clean step is available to [creach] *)
Lemma creach_step codes X fuel s s' e :
  creach codes X s -> clean_step fuel codes s s' e -> exists X', creach codes (X ++ X') s'.
Proof.
  intros C CS. pose proof (creach_reach _ _ _ C) as R.
  destruct (clean_step_etrace codes fuel X s s' e (reach_cinv _ _ _ R) (reach_procs_wf _ _ _ R) CS) as (X' & T & _).
  exists X'. eapply cr_step; eassumption.
Qed.

Lemma creach_exec_top {A} codes X (f : frag A) s : creach codes X s -> exists X', creach codes (X ++ X') (fst (exec_top codes f s)).
Proof. intros C. destruct (xs_run_frag codes f s) as (X' & T). exists X'. eapply cr_x; eassumption. Qed.

Lemma creach_prelude codes X u s s1 : creach codes X s -> run_prelude u s = inr s1 -> exists X', creach codes (X ++ X') s1.
Proof. intros C P. destruct (xs_run_prelude codes u s s1 P) as (X' & T). exists X'. eapply cr_x; eassumption. Qed.
