(* Bridging lemmas (DESIGN 2.6, second tie) for the kernel leaves: Environment.schedule / peek / step, Event.succeed /
   fail / defused / trigger, the read-only properties of Event (triggered, processed, ok, value), Timeout / Initialize /
   Interruption .__init__, Interruption._interrupt, StopSimulation.callback, Process.__init__ / interrupt / is_alive as
   translated from the tree under test on every run (Gen/Extracted_kernel.v: effects in program order, decided by boolean
   observations) are the corresponding functions of the hand-written kernel model (Kernel/Model.v, Kernel/Trigger.v) the
   C01 / C02 / C04 theorems are about.  The kernel works on objects: the generated definitions say WHICH field stores and
   calls happen, in WHICH order, under WHICH tests; their meaning in the model is given by the interpreters below.
   Whitelisted as one statement each (meaning given here): the heappop try/except of step() (FxRaiseEmptySchedule /
   FxPop), the callback loop of step() (FxRunCallbacks = [run_callbacks]), the try/except of peek() (FxPeek = [peek]).
   The witnesses of the hypothesis-carrying lemmas come last. *)
From Coq Require Import ZArith QArith Qreduction List Bool Lia.
From ONL Require Import Kernel.Model Kernel.Trigger Gen.Extracted_kernel.
Import ListNotations.

(* ---- Environment.schedule ---------------------------------------------------------------------------------- *)
(* heappush(queue, (t, prio, next(eid), event)): the agenda gets the entry under the next event id; stored times are
   kept normalised by the model *)
Definition sched_fx (e : evid) (s : state) (fx : list kernel_fx) : option state :=
  match fx with
  | [FxHeapPush t prio] =>
      Some (mkState (now s) (agenda s ++ [mkEntry (Qred t) (Z.to_nat prio) (next_eid s) e]) (S (next_eid s))
                    (events s) (procs s) (active s) (glob s) (obs s))
  | _ => None
  end.

Lemma sched_fx_eq e prio delay s t :
  t == now s + delay -> sched_fx e s [FxHeapPush t (Z.of_nat prio)] = Some (schedule e prio delay s).
Proof. intros H. unfold sched_fx, schedule. rewrite Nat2Z.id, (Qred_complete _ _ H). reflexivity. Qed.

Lemma bridge_schedule e prio delay s :
  sched_fx e s (gen_Environment_schedule (now s) delay (Z.of_nat prio)) = Some (schedule e prio delay s).
Proof. unfold gen_Environment_schedule. apply sched_fx_eq. ring. Qed.

(* ---- Environment.peek ---------------------------------------------------------------------------------------- *)
Definition peek_fx (s : state) (fx : list kernel_fx) : option (option Q) :=
  match fx with [FxPeek] => Some (peek s) | _ => None end.

Lemma bridge_peek s : peek_fx s gen_Environment_peek = Some (peek s).
Proof. reflexivity. Qed.

(* ---- Environment.step ------------------------------------------------------------------------------------------ *)
Definition is_rok (r : result) : bool := match r with ROk => true | _ => false end.

(* the observations of step(), read off the model: is the queue empty; what the callback loop left behind
   (a remembered stop / an escaping exception are both the loop's non-ROk result in the model); _ok and _defused of the
   popped event AFTER its callbacks ran *)
Definition step_obs (fuel : nat) (codes : list prog) (s : state) : bool * bool * bool * bool :=
  match pop_min (agenda s) with
  | None => (false, false, false, true)
  | Some (m, rest) =>
      let s1 := pop_state m rest s in
      match get_event (e_ev m) s1 with
      | Some ev =>
          match cbs ev with
          | Some l =>
              let '(s2, r) := run_callbacks fuel codes (e_ev m) l (upd_event (e_ev m) (ev_set_cbs None) s1) in
              match get_event (e_ev m) s2 with
              | Some ev2 => (negb (is_rok r), match out ev2 with Some (Ok _) => true | _ => false end, defused ev2, false)
              | None => (negb (is_rok r), false, false, false)
              end
          | None => (true, false, false, false)
          end
      | None => (true, false, false, false)
      end
  end.

Definition step_gen (fuel : nat) (codes : list prog) (s : state) : list kernel_fx :=
  match step_obs fuel codes s with
  | (stop_raised, ok, dfs, empty) => gen_Environment_step stop_raised ok dfs empty
  end.

(* the meaning of the effect sequences of step() *)
Definition step_fx (fuel : nat) (codes : list prog) (s : state) (fx : list kernel_fx) : option (state * result) :=
  match fx with
  | [FxRaiseEmptySchedule] => match pop_min (agenda s) with None => Some (s, REmpty) | Some _ => None end
  | FxPop :: FxDetachCallbacks :: FxStopNone :: FxRunCallbacks :: tail =>
      match pop_min (agenda s) with
      | None => None
      | Some (m, rest) =>
          let e := e_ev m in
          let s1 := pop_state m rest s in                                       (* now := the entry's time *)
          match get_event e s1 with
          | None => Some (s1, RBroken)
          | Some ev =>
              match cbs ev with
              | None => Some (s1, RRaise (kexn EType M_none_not_iterable))      (* for .. in None *)
              | Some l =>
                  let '(s2, r) := run_callbacks fuel codes e l (upd_event e (ev_set_cbs None) s1) in
                  match tail with
                  | [FxRaiseStop] => if is_rok r then None else Some (s2, r)     (* what the loop remembered / let escape *)
                  | [FxCopyFailure; FxSetCause; FxRaiseFailure] =>
                      if is_rok r then match check_failure e s2 with ROk => None | r' => Some (s2, r') end else None
                  | [] => if is_rok r then match check_failure e s2 with ROk => Some (s2, ROk) | _ => None end else None
                  | _ => None
                  end
              end
          end
      end
  | _ => None
  end.

Lemma bridge_step fuel codes s :
  snd (step fuel codes s) <> RBroken ->
  step_fx fuel codes s (step_gen fuel codes s) = Some (step fuel codes s).
Proof.
  unfold step_gen, step_obs, step_fx, step, gen_Environment_step.
  destruct (pop_min (agenda s)) as [[m rest]|]; [|reflexivity].
  cbv zeta.
  destruct (get_event (e_ev m) (pop_state m rest s)) as [ev|] eqn:EG; cbn [snd]; [|congruence].
  destruct (cbs ev) as [l|]; [|reflexivity].
  destruct (run_callbacks fuel codes (e_ev m) l (upd_event (e_ev m) (ev_set_cbs None) (pop_state m rest s))) as [s2 r] eqn:ER.
  destruct r; cbn [is_rok negb snd]; try (destruct (get_event (e_ev m) s2); reflexivity).
  unfold check_failure.
  destruct (get_event (e_ev m) s2) as [ev2|]; cbn [negb andb]; [|congruence].
  destruct (out ev2) as [[v|x]|]; cbn [negb andb]; try reflexivity; try congruence.
  destruct (defused ev2); reflexivity.
Qed.

(* ---- Event.succeed / Event.fail ------------------------------------------------------------------------------- *)
(* _ok / _value are the model's [out]; the stores take effect together when the event is scheduled *)
Definition mk_out (ok : bool) (v : val) : option outcome :=
  if ok then Some (Ok v) else match v with VExn c a => Some (Fail (c, a)) | _ => None end.

Fixpoint trigger_fx (e : evid) (arg : val) (ok : option bool) (vl : option val) (s : state) (fx : list kernel_fx)
  : option (state * outcome) :=
  match fx with
  | [] => None
  | FxRaiseAlreadyTriggered :: _ => Some (s, Fail (kexn ERuntime M_already_triggered))
  | FxRaiseNotException :: _ => Some (s, Fail (kexn EValue M_not_exception))
  | FxSetOk b :: t => trigger_fx e arg (Some b) vl s t
  | FxSetValueArg :: t => trigger_fx e arg ok (Some arg) s t
  | FxSchedule prio d :: t =>
      match ok, vl with
      | Some b, Some v =>
          match mk_out b v with
          | Some o => trigger_fx e arg ok vl (schedule e (Z.to_nat prio) d (upd_event e (ev_set_out (Some o)) s)) t
          | None => None
          end
      | _, _ => None
      end
  | FxReturnSelf :: t => match t with [] => Some (s, Ok (VEv e)) | _ => None end
  | _ => None
  end.

Definition is_exn_val (x : val) : bool := match x with VExn _ _ => true | _ => false end.

Lemma bridge_succeed e v s ev :
  get_event e s = Some ev ->
  trigger_fx e v None None s (gen_Event_succeed (is_triggered ev)) = Some (call_succeed e v s).
Proof.
  intros H. unfold call_succeed, gen_Event_succeed. rewrite H. destruct (is_triggered ev); reflexivity.
Qed.

Lemma bridge_fail e x s ev :
  get_event e s = Some ev ->
  trigger_fx e x None None s (gen_Event_fail (is_triggered ev) (is_exn_val x)) = Some (call_fail e x s).
Proof.
  intros H. unfold call_fail, gen_Event_fail. rewrite H. destruct (is_triggered ev); [reflexivity|].
  destruct x; reflexivity.
Qed.

(* Event.defused: the getter is hasattr(self, '_defused'); the setter stores True whatever it is given *)
Lemma bridge_defused_get e s ev :
  get_event e s = Some ev ->
  call_query QDefused e s = (s, Ok (vbool (snd (gen_Event_defused_get (defused ev))))) /\
  fst (gen_Event_defused_get (defused ev)) = [].
Proof. intros H. unfold call_query. rewrite H. split; reflexivity. Qed.

Definition defuse_fx (e : evid) (s : state) (fx : list kernel_fx) : option state :=
  match fx with [FxSetDefused] => Some (upd_event e ev_set_defused s) | _ => None end.

Lemma bridge_defused_set e s : defuse_fx e s gen_Event_defused_set = Some (upd_event e ev_set_defused s).
Proof. reflexivity. Qed.

(* ---- constructors: Timeout, Initialize, Interruption ---------------------------------------------------------- *)
(* a fresh event object under construction: its fields are collected and the object enters the model (new_event) when it
   is scheduled, which is the last thing every constructor does; a raise before that leaves no trace *)
Record build := { b_cbs : option (list cb); b_ok : option bool; b_val : option val; b_defused : bool }.
Definition build0 : build := {| b_cbs := None; b_ok := None; b_val := None; b_defused := false |}.

Fixpoint ctor_fx (k : ekind) (p : pid) (arg cause : val) (b : build) (s : state) (fx : list kernel_fx)
  : option (state * outcome) :=
  match fx with
  | [] => None
  | FxRaiseNegativeDelay :: _ => Some (s, Fail (kexn EValue M_negative_delay))
  | FxRaiseTerminated :: _ => Some (s, Fail (kexn ERuntime M_terminated))
  | FxRaiseSelfInterrupt :: _ => Some (s, Fail (kexn ERuntime M_self_interrupt))
  | FxEventInit :: t => ctor_fx k p arg cause {| b_cbs := Some []; b_ok := b_ok b; b_val := b_val b; b_defused := b_defused b |} s t
  | FxSetEnv :: t => ctor_fx k p arg cause b s t                                (* one environment *)
  | FxSetDelay _ :: t => ctor_fx k p arg cause b s t                            (* only used by repr *)
  | FxSetProcess :: t => ctor_fx k p arg cause b s t                            (* carried by the kind *)
  | FxSetCallbacksResume :: t =>
      ctor_fx k p arg cause {| b_cbs := Some [CbResume p]; b_ok := b_ok b; b_val := b_val b; b_defused := b_defused b |} s t
  | FxSetCallbacksInterrupt :: t =>
      ctor_fx k p arg cause {| b_cbs := Some [CbInterrupt (length (events s))]; b_ok := b_ok b; b_val := b_val b;
                               b_defused := b_defused b |} s t
  | FxSetOk o :: t => ctor_fx k p arg cause {| b_cbs := b_cbs b; b_ok := Some o; b_val := b_val b; b_defused := b_defused b |} s t
  | FxSetValueArg :: t => ctor_fx k p arg cause {| b_cbs := b_cbs b; b_ok := b_ok b; b_val := Some arg; b_defused := b_defused b |} s t
  | FxSetValueNone :: t => ctor_fx k p arg cause {| b_cbs := b_cbs b; b_ok := b_ok b; b_val := Some VNone; b_defused := b_defused b |} s t
  | FxSetValueInterrupt :: t =>
      ctor_fx k p arg cause {| b_cbs := b_cbs b; b_ok := b_ok b; b_val := Some (VExn EInterrupt [cause]); b_defused := b_defused b |} s t
  | FxSetDefused :: t => ctor_fx k p arg cause {| b_cbs := b_cbs b; b_ok := b_ok b; b_val := b_val b; b_defused := true |} s t
  | FxSchedule prio d :: t =>
      match t, b_cbs b, b_ok b, b_val b with
      | [], Some l, Some o, Some v =>
          match mk_out o v with
          | Some oc => let '(e, s1) := new_event (mkEvent (Some l) (Some oc) (b_defused b) k) s in
                       Some (schedule e (Z.to_nat prio) d s1, Ok (VEv e))
          | None => None
          end
      | _, _, _, _ => None
      end
  | _ => None
  end.

Lemma neg_delay_spec d : neg_delay d = negb (Qle_bool 0 d).
Proof.
  unfold neg_delay. destruct (d ?= 0) eqn:E.
  - apply Qeq_alt in E. symmetry. apply negb_false_iff, Qle_bool_iff. rewrite E. apply Qle_refl.
  - apply Qlt_alt in E. symmetry. apply negb_true_iff. destruct (Qle_bool 0 d) eqn:L; [|reflexivity].
    apply Qle_bool_iff in L. exfalso. apply (Qlt_not_le _ _ E L).
  - apply Qgt_alt in E. symmetry. apply negb_false_iff, Qle_bool_iff. apply Qlt_le_weak. exact E.
Qed.

(* Timeout(env, delay, value) *)
Lemma bridge_timeout_init d v s :
  ctor_fx KTimeout 0%nat v VNone build0 s (gen_Timeout_init d) = Some (call_timeout d v s).
Proof.
  unfold gen_Timeout_init, call_timeout. rewrite neg_delay_spec.
  destruct (Qle_bool 0 d); cbn; reflexivity.
Qed.

(* Initialize(env, process): the second half of Process.__init__ ([call_spawn]) *)
Definition init_of_spawn (p : pid) (s1 : state) : state * outcome :=
  let '(ie, s2) := new_event (mkEvent (Some [CbResume p]) (Some (Ok VNone)) false (KInit p)) s1 in
  (schedule ie URGENT 0 s2, Ok (VEv ie)).

Lemma bridge_initialize_init p s1 :
  ctor_fx (KInit p) p VNone VNone build0 s1 gen_Initialize_init = Some (init_of_spawn p s1).
Proof. reflexivity. Qed.

Lemma spawn_uses_init codes code arg s pr :
  nth_error codes code = Some pr ->
  let p := length (procs s) in
  let '(pe, s1) := new_event (mkEvent (Some []) None false (KProcess p)) s in
  let s3 := fst (init_of_spawn p s1) in
  call_spawn codes code arg s =
    (set_procs (procs s3 ++ [mkProc pr (start pr arg) pe (Some (length (events s1)))]) s3, Ok (VEv pe)).
Proof. intros H. unfold call_spawn, init_of_spawn. rewrite H. reflexivity. Qed.

(* Interruption(process, cause) = Process.interrupt(cause) *)
Definition interruption_gen (ev : event) (p : pid) (s : state) : list kernel_fx :=
  gen_Interruption_init (is_triggered ev) (match active s with Some a => Nat.eqb a p | None => false end).

Lemma bridge_interruption_init e cause s ev p :
  get_event e s = Some ev -> kind ev = KProcess p ->
  match ctor_fx (KInterruption p) p VNone cause build0 s (interruption_gen ev p s) with
  | Some (s', Ok _) => call_interrupt e cause s = (s', Ok VNone)       (* interrupt() returns None *)
  | Some (s', Fail x) => call_interrupt e cause s = (s', Fail x)
  | None => False
  end.
Proof.
  intros H K. unfold call_interrupt, interruption_gen, gen_Interruption_init. rewrite H, K.
  destruct (is_triggered ev); [reflexivity|].
  destruct (match active s with Some a => Nat.eqb a p | None => false end); reflexivity.
Qed.

Lemma bridge_process_interrupt : gen_Process_interrupt = [FxNewInterruption].
Proof. reflexivity. Qed.

(* ---- Interruption._interrupt ----------------------------------------------------------------------------------- *)
Definition interrupt_cb_fx (fuel : nat) (codes : list prog) (i : evid) (p : pid) (pr : procrec) (s : state)
           (fx : list kernel_fx) : option (state * result) :=
  match fx with
  | [] => Some (s, ROk)                                                          (* the process is dead: ignored *)
  | [FxRemoveResumeFromTarget; FxResumeProcess] =>
      match ptarget pr with
      | Some t =>
          match get_event t s with
          | Some tev =>
              match cbs tev with
              | None => Some (s, RRaise (kexn EAttribute M_target_processed))      (* None.remove *)
              | Some l =>
                  if mem_cb (CbResume p) l
                  then Some (resume_proc fuel codes p i (upd_event t (ev_set_cbs (Some (remove_first (CbResume p) l))) s))
                  else Some (s, RRaise (kexn EValue M_not_in_list))                (* list.remove(x): x not in list *)
              end
          | None => None
          end
      | None => None
      end
  | _ => None
  end.

Lemma bridge_interrupt_cb fuel codes i s iev p pr pe t tev :
  get_event i s = Some iev -> kind iev = KInterruption p -> get_proc p s = Some pr ->
  get_event (pev pr) s = Some pe -> ptarget pr = Some t -> get_event t s = Some tev ->
  interrupt_cb_fx fuel codes i p pr s (gen_Interruption_interrupt (is_triggered pe)) = Some (do_interruption fuel codes i s).
Proof.
  intros Hi Hk Hp Hpe Ht Htev. unfold do_interruption, gen_Interruption_interrupt, interrupt_cb_fx.
  rewrite Hi, Hk, Hp, Hpe. destruct (is_triggered pe); [reflexivity|].
  rewrite Ht, Htev. destruct (cbs tev) as [l|]; [|reflexivity]. destruct (mem_cb (CbResume p) l); reflexivity.
Qed.

(* ---- StopSimulation.callback ------------------------------------------------------------------------------------- *)
Definition stop_cb_fx (e : evid) (s : state) (fx : list kernel_fx) : option (state * result) :=
  match fx, get_event e s with
  | [FxRaiseStopValue], Some ev => match out ev with Some (Ok v) => Some (s, RStop v) | _ => None end
  | [FxRaiseEventValue], Some ev => match out ev with Some (Fail x) => Some (s, RRaise x) | _ => None end
  | _, _ => None
  end.

Lemma bridge_stop_cb e s ev o :
  get_event e s = Some ev -> out ev = Some o ->
  stop_cb_fx e s (gen_StopSimulation_callback (match o with Ok _ => true | Fail _ => false end)) = Some (stop_cb e s).
Proof.
  intros H Ho. unfold stop_cb, stop_cb_fx, gen_StopSimulation_callback. rewrite H, Ho.
  destruct o; cbn; rewrite ?H, ?Ho; reflexivity.
Qed.

(* ---- Event.trigger (model: Kernel/Trigger.v) ----------------------------------------------------------------------- *)
Definition trigger_copy_fx (e : evid) (o : outcome) (s : state) (fx : list kernel_fx) : option (state * outcome) :=
  match fx with
  | [FxCopyOk; FxCopyValue; FxSchedule prio d] =>
      Some (schedule e (Z.to_nat prio) d (upd_event e (ev_set_out (Some o)) s), Ok VNone)
  | _ => None
  end.

Lemma bridge_trigger e other s ev oev o :
  get_event e s = Some ev -> get_event other s = Some oev -> out oev = Some o ->
  trigger_copy_fx e o s gen_Event_trigger = Some (call_trigger e other s).
Proof. intros He Ho Hout. unfold call_trigger. rewrite He, Ho, Hout. reflexivity. Qed.

(* ---- Process.__init__ and Process.is_alive -------------------------------------------------------------------------- *)
Definition process_init_fx (codes : list prog) (code : nat) (arg : val) (s : state) (fx : list kernel_fx) : option (state * outcome) :=
  match fx, nth_error codes code with
  | [FxRaiseNotGenerator], None => Some (s, Fail (kexn EValue M_not_a_generator))
  | [FxSetEnv; FxSetCallbacksEmpty; FxSetGenerator; FxNewInitialize], Some pr =>
      let p := length (procs s) in
      let '(pe, s1) := new_event (mkEvent (Some []) None false (KProcess p)) s in       (* env, callbacks = [] *)
      let s3 := fst (init_of_spawn p s1) in                                              (* Initialize(env, self) *)
      Some (set_procs (procs s3 ++ [mkProc pr (start pr arg) pe (Some (length (events s1)))]) s3, Ok (VEv pe))
  | _, _ => None
  end.

Lemma bridge_process_init codes code arg s :
  process_init_fx codes code arg s (gen_Process_init (match nth_error codes code with Some _ => true | None => false end)) =
  Some (call_spawn codes code arg s).
Proof.
  unfold process_init_fx, gen_Process_init. destruct (nth_error codes code) as [pr|] eqn:E; cbn [negb].
  - pose proof (spawn_uses_init codes code arg s pr E) as H. cbv zeta in H.
    destruct (new_event (mkEvent (Some []) None false (KProcess (length (procs s)))) s) as [pe s1]. rewrite H. reflexivity.
  - unfold call_spawn. rewrite E. reflexivity.
Qed.

Lemma bridge_is_alive e s ev p :
  get_event e s = Some ev -> kind ev = KProcess p ->
  call_query QAlive e s = (s, Ok (vbool (snd (gen_Process_is_alive (negb (is_triggered ev)))))) /\
  fst (gen_Process_is_alive (negb (is_triggered ev))) = [].
Proof. intros H K. unfold call_query. rewrite H, K. split; reflexivity. Qed.

(* ---- the read-only properties of Event: triggered, processed, ok, value ----------------------------------------------- *)
Definition value_fx (ev : event) (s : state) (fx : list kernel_fx) : option (state * outcome) :=
  match fx with
  | [FxRaiseValuePending] => Some (s, Fail (kexn EAttribute M_value_pending))
  | [FxReturnValue] => match raw_value ev with Some v => Some (s, Ok v) | None => None end
  | _ => None
  end.

Lemma bridge_event_queries e s ev :
  get_event e s = Some ev ->
  call_query QTriggered e s = (s, Ok (vbool (snd (gen_Event_triggered (is_triggered ev))))) /\
  call_query QProcessed e s = (s, Ok (vbool (snd (gen_Event_processed (is_processed ev))))) /\
  (forall o, out ev = Some o ->
     call_query QOk e s = (s, Ok (vbool (snd (gen_Event_ok (match o with Ok _ => true | Fail _ => false end)))))) /\
  value_fx ev s (gen_Event_value (negb (is_triggered ev))) = Some (call_query QValue e s).
Proof.
  intros H. unfold call_query, gen_Event_value, value_fx, is_triggered, raw_value. rewrite H.
  split; [reflexivity|]. split; [reflexivity|]. split.
  - intros o Ho. rewrite Ho. destruct o; reflexivity.
  - destruct (out ev) as [[v|x]|]; reflexivity.
Qed.

(* ---- witnesses ------------------------------------------------------------------------------------------------------ *)
(* two events, the second triggered with 5: trigger copies its outcome onto the first *)
Definition ex_trig_state : state :=
  fst (call_succeed 1%nat (VInt 5) (fst (call_event (fst (call_event (init_state 0)))))).
Lemma ex_trigger :
  trigger_copy_fx 0%nat (Ok (VInt 5)) ex_trig_state gen_Event_trigger = Some (call_trigger 0%nat 1%nat ex_trig_state) /\
  option_map out (get_event 0%nat (fst (call_trigger 0%nat 1%nat ex_trig_state))) = Some (Some (Ok (VInt 5))) /\
  length (agenda (fst (call_trigger 0%nat 1%nat ex_trig_state))) = 2%nat.
Proof. repeat split; vm_compute; reflexivity. Qed.

(* a failed event (an Interrupt) at the head of the agenda with a recording callback: step raises it *)
Lemma ex_succeed_fail_step :
  let s := fst (call_event (init_state 0)) in
  (exists ev, get_event 0%nat s = Some ev /\
     trigger_fx 0%nat (VInt 3) None None s (gen_Event_succeed (is_triggered ev)) = Some (call_succeed 0%nat (VInt 3) s) /\
     trigger_fx 0%nat (VExn (EUser 1) []) None None s (gen_Event_fail (is_triggered ev) true) =
       Some (call_fail 0%nat (VExn (EUser 1) []) s)) /\
  snd (step 1 [] (fst (call_fail 0%nat (VExn (EUser 1) []) s))) = RRaise (EUser 1, []) /\
  step_fx 1 [] (fst (call_fail 0%nat (VExn (EUser 1) []) s)) (step_gen 1 [] (fst (call_fail 0%nat (VExn (EUser 1) []) s))) =
    Some (step 1 [] (fst (call_fail 0%nat (VExn (EUser 1) []) s))).
Proof.
  cbv zeta. split; [eexists; split; [reflexivity|]; split; reflexivity|].
  split; [vm_compute; reflexivity|]. apply bridge_step. vm_compute. discriminate.
Qed.

(* a freshly spawned process (its generator returns at once): alive until its Process event is triggered *)
Definition ex_prog : prog := mkProg unit (fun _ => tt) (fun _ _ => FRet VNone).
Definition ex_proc_state : state := fst (call_spawn [ex_prog] 0%nat VNone (init_state 0)).
Lemma ex_is_alive :
  exists ev, get_event 0%nat ex_proc_state = Some ev /\ kind ev = KProcess 0%nat /\
  call_query QAlive 0%nat ex_proc_state = (ex_proc_state, Ok (vbool true)) /\
  snd (gen_Process_is_alive (negb (is_triggered ev))) = true /\
  (* after the Initialize step the generator has returned: not alive any more *)
  fst (call_query QAlive 0%nat (fst (step 1 [ex_prog] ex_proc_state))) = fst (step 1 [ex_prog] ex_proc_state) /\
  snd (call_query QAlive 0%nat (fst (step 1 [ex_prog] ex_proc_state))) = Ok (vbool false).
Proof.
  exists (mkEvent (Some []) None false (KProcess 0%nat)).
  split; [vm_compute; reflexivity|]. split; [reflexivity|]. split; [vm_compute; reflexivity|].
  split; [reflexivity|]. split; vm_compute; reflexivity.
Qed.

(* run(until = an event triggered with 7): after the prelude the event carries the stop callback; the step stops with 7 *)
Definition ex_stop_state : state :=
  add_callback 0%nat CbStop (fst (call_succeed 0%nat (VInt 7) (fst (call_event (init_state 0))))).
Lemma ex_stop_callback_step :
  (exists ev, get_event 0%nat ex_stop_state = Some ev /\ out ev = Some (Ok (VInt 7)) /\
     stop_cb_fx 0%nat ex_stop_state (gen_StopSimulation_callback true) = Some (stop_cb 0%nat ex_stop_state)) /\
  snd (stop_cb 0%nat ex_stop_state) = RStop (VInt 7) /\
  snd (step 1 [] ex_stop_state) <> RBroken /\
  step_fx 1 [] ex_stop_state (step_gen 1 [] ex_stop_state) = Some (step 1 [] ex_stop_state) /\
  snd (step 1 [] ex_stop_state) = RStop (VInt 7).
Proof.
  split; [eexists; split; [reflexivity|]; split; reflexivity|].
  split; [vm_compute; reflexivity|]. split; [vm_compute; discriminate|].
  split; [apply bridge_step; vm_compute; discriminate|vm_compute; reflexivity].
Qed.

Lemma ex_defused_get :
  exists ev, get_event 0%nat ex_stop_state = Some ev /\
  call_query QDefused 0%nat ex_stop_state = (ex_stop_state, Ok (vbool false)) /\
  snd (gen_Event_defused_get (defused ev)) = false.
Proof. eexists. split; [reflexivity|]. split; reflexivity. Qed.

Lemma ex_event_queries :
  exists ev, get_event 0%nat ex_stop_state = Some ev /\ out ev = Some (Ok (VInt 7)) /\
  call_query QTriggered 0%nat ex_stop_state = (ex_stop_state, Ok (vbool true)) /\
  call_query QProcessed 0%nat ex_stop_state = (ex_stop_state, Ok (vbool false)) /\
  call_query QOk 0%nat ex_stop_state = (ex_stop_state, Ok (vbool true)) /\
  call_query QValue 0%nat ex_stop_state = (ex_stop_state, Ok (VInt 7)) /\
  gen_Event_value (negb (is_triggered ev)) = [FxReturnValue].
Proof. eexists. split; [reflexivity|]. repeat split; reflexivity. Qed.
