(* Kernel/StopFrame.v -- C03: the frame relation [sfr s s'] of everything the kernel does BELOW step()/run()
   (API calls, process bodies, callbacks):

     - the clock does not move and the agenda only gets new entries at its end;
     - a new entry of the URGENT class is due at the current instant (process starts and interrupts are scheduled with
       delay 0: the only urgent entry ever scheduled for a later instant is the sentinel of run(until=number));
     - an event that is triggered in s' was triggered in s or got one of the new entries (whoever sets an outcome also
       schedules);
     - no stop callback (StopSimulation.callback) appears: only run() appends one.

   Every primitive of Kernel/Prims.v below step() is such a step ([sfr_kprim]).  The state invariants it gives
   (urgent_now, no_stop, pend_ok, calm) are in Kernel/StopInv.v. *)
From Coq Require Import ZArith QArith List Bool Lia Lqa.
From ONL Require Import Kernel.Model Kernel.Keys Kernel.Inv Kernel.Order Kernel.Deliver Kernel.DeliverWf.
Import ListNotations.

Definition has_stop (ev : event) : bool :=
  match cbs ev with Some l => existsb is_stop_cb l | None => false end.

Definition sfr (s s' : state) : Prop :=
  now s' = now s /\
  (exists l, agenda s' = agenda s ++ l /\
             (forall y, In y l -> e_prio y = URGENT -> e_time y == now s /\ (length (events s) <= e_ev y)%nat) /\
             (forall e ev', get_event e s' = Some ev' -> out ev' <> None ->
                (exists ev, get_event e s = Some ev /\ out ev <> None) \/ (exists y, In y l /\ e_ev y = e))) /\
  (forall e ev', get_event e s' = Some ev' -> has_stop ev' = true ->
     exists ev, get_event e s = Some ev /\ has_stop ev = true) /\
  (forall e ev, get_event e s = Some ev ->
     exists ev', get_event e s' = Some ev' /\ (has_stop ev = true -> has_stop ev' = true)).

Lemma sfr_refl s : sfr s s.
Proof.
  split; [reflexivity|]. split; [|split].
  - exists []. rewrite app_nil_r. split; [reflexivity|]. split; [intros y []|].
    intros e ev' H O. left. exists ev'. auto.
  - intros e ev' H S. exists ev'. auto.
  - intros e ev H. exists ev. auto.
Qed.

Lemma sfr_length s s' : sfr s s' -> (length (events s) <= length (events s'))%nat.
Proof.
  intros (_ & _ & _ & K). destruct (length (events s)) as [|n] eqn:L; [lia|].
  destruct (nth_error (events s) n) as [ev|] eqn:H; [|apply nth_error_None in H; lia].
  destruct (K n ev H) as (ev' & H' & _). apply get_event_lt in H'. lia.
Qed.

Lemma sfr_trans s1 s2 s3 : sfr s1 s2 -> sfr s2 s3 -> sfr s1 s3.
Proof.
  intros X1 X2. pose proof (sfr_length _ _ X1) as Len.
  destruct X1 as (N1 & (l1 & A1 & U1 & T1) & S1 & K1), X2 as (N2 & (l2 & A2 & U2 & T2) & S2 & K2).
  split; [congruence|]. split; [|split].
  - exists (l1 ++ l2). split; [rewrite A2, A1, app_assoc; reflexivity|]. split.
    + intros y Hy P. apply in_app_or in Hy. destruct Hy as [Hy|Hy]; [apply U1; assumption|].
      rewrite <- N1. destruct (U2 _ Hy P) as [Ta Tb]. split; [exact Ta|lia].
    + intros e ev3 H O. destruct (T2 _ _ H O) as [(ev2 & H2 & O2)|(y & Hy & E)].
      * destruct (T1 _ _ H2 O2) as [L|(y & Hy & E)]; [left; exact L|].
        right. exists y. split; [apply in_or_app; left; exact Hy|exact E].
      * right. exists y. split; [apply in_or_app; right; exact Hy|exact E].
  - intros e ev3 H S. destruct (S2 _ _ H S) as (ev2 & H2 & S2'). exact (S1 _ _ H2 S2').
  - intros e ev H. destruct (K1 _ _ H) as (ev2 & H2 & P2). destruct (K2 _ _ H2) as (ev3 & H3 & P3).
    exists ev3. split; [exact H3|auto].
Qed.

(* ---- primitives ---- *)

Lemma sfr_same s s' : now s' = now s -> agenda s' = agenda s -> events s' = events s -> sfr s s'.
Proof.
  intros N A E. split; [exact N|]. split; [|split].
  - exists []. rewrite app_nil_r. split; [exact A|]. split; [intros y []|].
    intros e ev' H O. left. exists ev'. unfold get_event in *. rewrite <- E. auto.
  - intros e ev' H S. exists ev'. unfold get_event in *. rewrite <- E. auto.
  - intros e ev H. exists ev. unfold get_event in *. rewrite E. auto.
Qed.

(* a change of one event record that neither adds nor removes a stop callback and sets no outcome *)
Lemma sfr_upd_event e f s :
  (forall ev, get_event e s = Some ev ->
     has_stop (f ev) = has_stop ev /\ (out (f ev) <> None -> out ev <> None)) ->
  sfr s (upd_event e f s).
Proof.
  intros Hf. split; [reflexivity|]. split; [|split].
  - exists []. rewrite app_nil_r. split; [reflexivity|]. split; [intros y []|].
    intros x ev'. rewrite get_event_upd. destruct (Nat.eqb x e) eqn:E.
    + apply Nat.eqb_eq in E. subst x. destruct (get_event e s) as [ev|] eqn:H; cbn; [|discriminate].
      intros H'; injection H' as <-. intros O. left. exists ev. split; [reflexivity|apply (Hf _ eq_refl), O].
    + intros H O. left. exists ev'. auto.
  - intros x ev'. rewrite get_event_upd. destruct (Nat.eqb x e) eqn:E.
    + apply Nat.eqb_eq in E. subst x. destruct (get_event e s) as [ev|] eqn:H; cbn; [|discriminate].
      intros H'; injection H' as <-. intros S. exists ev. split; [reflexivity|]. rewrite <- (proj1 (Hf _ eq_refl)). exact S.
    + intros H S. exists ev'. auto.
  - intros x ev H. rewrite get_event_upd. destruct (Nat.eqb x e) eqn:E.
    + apply Nat.eqb_eq in E. subst x. rewrite H. cbn. exists (f ev). split; [reflexivity|]. rewrite (proj1 (Hf _ H)). auto.
    + exists ev. auto.
Qed.

Lemma sfr_set_defused e s : sfr s (upd_event e ev_set_defused s).
Proof. apply sfr_upd_event. intros ev _. split; auto. Qed.
Lemma sfr_set_kind e k s : sfr s (upd_event e (ev_set_kind k) s).
Proof. apply sfr_upd_event. intros ev _. split; auto. Qed.

Lemma existsb_stop_app l c : is_stop_cb c = false -> existsb is_stop_cb (l ++ [c]) = existsb is_stop_cb l.
Proof. intros H. rewrite existsb_app. cbn. rewrite H. now rewrite !orb_false_r. Qed.

Lemma cb_eqb_stop x c : cb_eqb x c = true -> is_stop_cb x = is_stop_cb c.
Proof. destruct x, c; cbn; intros H; try discriminate; reflexivity. Qed.

Lemma existsb_stop_remove c l : is_stop_cb c = false -> existsb is_stop_cb (remove_first c l) = existsb is_stop_cb l.
Proof.
  intros Hc. induction l as [|x t IH]; cbn [remove_first existsb]; [reflexivity|].
  destruct (cb_eqb x c) eqn:E.
  - rewrite (cb_eqb_stop _ _ E), Hc. reflexivity.
  - cbn [existsb]. now rewrite IH.
Qed.

Lemma sfr_add_callback e c s : is_stop_cb c = false -> sfr s (add_callback e c s).
Proof.
  intros Hc. apply sfr_upd_event. intros ev _. unfold ev_add_cb, has_stop. destruct (cbs ev) as [l|] eqn:C; cbn.
  - rewrite existsb_stop_app by exact Hc. split; auto.
  - rewrite C. split; auto.
Qed.

(* removing a callback that is not a stop callback *)
Lemma sfr_set_cbs_remove e c l s ev :
  is_stop_cb c = false -> get_event e s = Some ev -> cbs ev = Some l ->
  sfr s (upd_event e (ev_set_cbs (Some (remove_first c l))) s).
Proof.
  intros Hc H C. apply sfr_upd_event. intros ev0 H0. rewrite H in H0. injection H0 as <-.
  unfold has_stop. cbn. rewrite C. split; [apply existsb_stop_remove, Hc|auto].
Qed.

(* a new event without outcome and without stop callback *)
Lemma sfr_new_event ev s : out ev = None -> has_stop ev = false -> sfr s (snd (new_event ev s)).
Proof.
  intros O S. split; [reflexivity|]. split; [|split].
  - exists []. rewrite app_nil_r. split; [reflexivity|]. split; [intros y []|].
    intros x ev' H O'. destruct (get_event_new_inv _ _ _ _ H) as [H'|[_ ->]]; [left; exists ev'; auto|congruence].
  - intros x ev' H S'. destruct (get_event_new_inv _ _ _ _ H) as [H'|[_ ->]]; [exists ev'; auto|congruence].
  - intros x ev0 H. exists ev0. split; [|auto]. rewrite get_event_new_below; [exact H|eapply get_event_lt, H].
Qed.

(* Environment.schedule of an existing event, NORMAL (the URGENT entries are those of [sfr_new_scheduled]) *)
Lemma sfr_schedule_normal e d s : sfr s (schedule e NORMAL d s).
Proof.
  split; [reflexivity|]. split; [|split].
  - exists [mkEntry (Qred (now s + d)) NORMAL (next_eid s) e]. split; [reflexivity|]. split.
    + intros y [<-|[]]. cbn [e_prio]. discriminate.
    + intros x ev' H O. left. exists ev'. auto.
  - intros x ev' H S. exists ev'. auto.
  - intros x ev H. exists ev. auto.
Qed.

(* set the outcome and schedule: the tail of succeed / fail *)
Lemma sfr_trigger e o s : sfr s (trigger_event e o s).
Proof.
  unfold trigger_event. split; [reflexivity|].
  assert (G : forall x, get_event x (schedule e NORMAL 0 (upd_event e (ev_set_out (Some o)) s)) =
                        if Nat.eqb x e then option_map (ev_set_out (Some o)) (get_event x s) else get_event x s).
  { intros x. change (get_event x (schedule e NORMAL 0 (upd_event e (ev_set_out (Some o)) s)))
      with (get_event x (upd_event e (ev_set_out (Some o)) s)). apply get_event_upd. }
  split; [|split].
  - exists [mkEntry (Qred (now s + 0)) NORMAL (next_eid s) e]. split; [reflexivity|]. split.
    + intros y [<-|[]]. cbn. discriminate.
    + intros x ev'. rewrite G. destruct (Nat.eqb x e) eqn:E.
      * apply Nat.eqb_eq in E. subst x. intros _ _. right. eexists. split; [left; reflexivity|reflexivity].
      * intros H O. left. exists ev'. auto.
  - intros x ev'. rewrite G. destruct (Nat.eqb x e) eqn:E.
    + apply Nat.eqb_eq in E. subst x. destruct (get_event e s) as [ev|]; cbn; [|discriminate].
      intros H; injection H as <-. intros S. exists ev. auto.
    + intros H S. exists ev'. auto.
  - intros x ev H. rewrite G. destruct (Nat.eqb x e) eqn:E.
    + rewrite H. cbn. eexists. split; [reflexivity|]. auto.
    + exists ev. auto.
Qed.

(* a new event that is born triggered and scheduled at once: Timeout (NORMAL, any delay), Initialize and Interruption
   (URGENT, delay 0) *)
Lemma sfr_new_scheduled ev pr d s :
  has_stop ev = false -> (pr = URGENT -> d == 0) ->
  sfr s (schedule (length (events s)) pr d (snd (new_event ev s))).
Proof.
  intros S Hd. split; [reflexivity|]. split; [|split].
  - exists [mkEntry (Qred (now s + d)) pr (next_eid s) (length (events s))]. split; [reflexivity|]. split.
    + intros y [<-|[]]. cbn [e_prio e_time e_ev]. intros P. cbn [now new_event snd set_events]. rewrite Qred_correct. rewrite (Hd P).
      split; [lra|lia].
    + intros x ev' H O. destruct (get_event_new_inv _ _ _ _ H) as [H'|[-> ->]]; [left; exists ev'; auto|].
      right. eexists. split; [left; reflexivity|reflexivity].
  - intros x ev' H S'. destruct (get_event_new_inv _ _ _ _ H) as [H'|[-> ->]]; [exists ev'; auto|congruence].
  - intros x ev0 H. exists ev0. split; [|auto].
    change (get_event x (snd (new_event ev s)) = Some ev0). rewrite get_event_new_below; [exact H|eapply get_event_lt, H].
Qed.

(* ------------------------------------------------------------------------------------------------ *)

Lemma sfr_kprim T s s' : kprim true T s s' -> sfr s s'.
Proof.
  intros [s0 s1 (N & A & _ & E & _)|ev s0 O (l & C & Ns) _|ev prio d s0 _ (l & C & Ns) _ _ U|e ev o s0 _ _|p pr o s0 _|e c s0 Hc
         |e ev l x s0 H C Hx|e s0|c cev all ops n s0 _ _ _|c cev v v' s0 H O _|p pr f s0 _ _ _|pr ev s0 _ _|t s0 B _|e s0 B].
  - (* k_frame *) apply sfr_same; assumption.
  - (* k_new *) apply sfr_new_event; [exact O|]. unfold has_stop. now rewrite C.
  - (* k_born *) apply sfr_new_scheduled; [|exact U]. unfold has_stop. now rewrite C.
  - (* k_trig *) apply sfr_trigger.
  - (* k_ptrig *) apply sfr_trigger.
  - (* k_addcb *) apply sfr_add_callback, Hc.
  - (* k_rmcb *) exact (sfr_set_cbs_remove e x l s0 ev Hx H C).
  - (* k_defuse *) apply sfr_set_defused.
  - (* k_count *) apply sfr_set_kind.
  - (* k_value *) apply sfr_upd_event. intros ev0 H0. rewrite H in H0. injection H0 as <-. split; [reflexivity|]. intros _. congruence.
  - (* k_proc *) apply sfr_same; reflexivity.
  - (* k_spawn *) apply sfr_same; reflexivity.
  - (* k_sentinel *) discriminate B.
  - (* k_stopcb *) discriminate B.
Qed.

Lemma sfr_kchain T s s' : kchain true T s s' -> sfr s s'.
Proof. exact (kchain_rel true T sfr sfr_refl sfr_trans (sfr_kprim T) s s'). Qed.

Lemma sfr_do_call codes c s : sfr s (fst (do_call codes c s)).
Proof. exact (sfr_kchain _ _ _ (kc_do_call true Tall codes c s)). Qed.

Lemma sfr_run_frag {A} codes (f : frag A) s : sfr s (fst (run_frag codes f s)).
Proof. exact (sfr_kchain _ _ _ (kc_run_frag true Tall codes f s)). Qed.

Lemma sfr_run_cb fuel codes e c s : sfr s (fst (run_cb fuel codes e c s)).
Proof. exact (sfr_kchain _ _ _ (kc_run_cb true fuel codes e c s)). Qed.

Lemma sfr_run_callbacks fuel codes e l s : sfr s (fst (run_callbacks fuel codes e l s)).
Proof. exact (sfr_kchain _ _ _ (kc_run_callbacks true fuel codes e l s)). Qed.

Lemma sfr_cb_chain fuel codes e l s s' : cb_chain fuel codes e l s s' -> sfr s s'.
Proof.
  induction 1 as [s|c t s s1 r s' R _ _ IH]; [apply sfr_refl|].
  eapply sfr_trans; [|exact IH]. pose proof (sfr_run_cb fuel codes e c s) as X. now rewrite R in X.
Qed.

(* step = pop the minimum, mark its event processed ([mid]: the state in which the callback loop starts, or in which
   step() gives up at once; in every case it equals Deliver's [loop_start m rest s]: StopInv.mid_eq), then only things of the
   frame *)
Definition mid (m : entry) (rest : list entry) (s : state) : state :=
  match get_event (e_ev m) s with
  | Some ev => match cbs ev with Some _ => loop_start m rest s | None => pop_state m rest s end
  | None => pop_state m rest s
  end.

Definition after_loop (e : evid) (x : state * result) : state * result :=
  let '(s2, r) := x in match r with ROk => (s2, check_failure e s2) | _ => (s2, r) end.

Lemma step_eq fuel codes s m rest : pop_min (agenda s) = Some (m, rest) ->
  step fuel codes s =
  match get_event (e_ev m) s with
  | Some ev => match cbs ev with
               | Some l => after_loop (e_ev m) (run_callbacks fuel codes (e_ev m) l (loop_start m rest s))
               | None => (pop_state m rest s, RRaise (kexn EType M_none_not_iterable))
               end
  | None => (pop_state m rest s, RBroken)
  end.
Proof. intros P. unfold step. rewrite P. reflexivity. Qed.

Lemma after_loop_fst e x : fst (after_loop e x) = fst x.
Proof. destruct x as [s2 []]; reflexivity. Qed.

(* the state a step leaves is the state a callback loop leaves from the middle state (the empty loop where step() gives up) *)
Lemma step_fst_mid fuel codes s m rest : pop_min (agenda s) = Some (m, rest) ->
  exists l, fst (step fuel codes s) = fst (run_callbacks fuel codes (e_ev m) l (mid m rest s)).
Proof.
  intros P. rewrite (step_eq _ _ _ _ _ P). unfold mid.
  destruct (get_event (e_ev m) s) as [ev|]; [destruct (cbs ev) as [l|]|]; [exists l; apply after_loop_fst|exists []; reflexivity..].
Qed.

Lemma step_sfr fuel codes s s' r :
  step fuel codes s = (s', r) ->
  (pop_min (agenda s) = None /\ s' = s /\ r = REmpty) \/
  (exists m rest, pop_min (agenda s) = Some (m, rest) /\ sfr (mid m rest s) s').
Proof.
  intros H. destruct (pop_min (agenda s)) as [[m rest]|] eqn:P.
  - right. exists m, rest. split; [reflexivity|]. destruct (step_fst_mid fuel codes s m rest P) as (l & E).
    rewrite H in E. cbn [fst] in E. rewrite E. apply sfr_run_callbacks.
  - left. rewrite (Deliver.step_empty _ _ _ P) in H. injection H as <- <-. auto.
Qed.
