(* Kernel/Intr.v -- C04: interrupts reach a live process once, in issue order, ahead of ordinary events.
   Theorems about Kernel/Model.v for ALL code tables [codes] and ALL states reachable ([reach], Kernel/IntrStep.v)
   from [init_state] by module-level code, run() preludes and steps -- an execution being followed up to the first
   step whose callback loop is cut short ([step_clean] fails: an exception escaping from the middle of the loop --
   invalid yield, a forged event id --, or out-of-fuel; the StopSimulation of run(until=...) is not such a cut: the
   repaired kernel raises it after the loop).

   interrupt_refused_*      dead victim (generator ended, even if the termination event is still on the agenda) or
                            oneself: RuntimeError, state unchanged; [finish_is_dead], [dead_forever]
   interrupt_accepted       the Interruption event (failed with Interrupt(cause), defused, own callback) and its
                            URGENT entry due now
   interruption_entry       in every reachable state a pending Interruption entry is URGENT, due at the current
                            instant, the only entry of its event, whose callback list starts with its _interrupt
   clock_frozen / interrupt_before_normal / interrupts_in_issue_order / later_issue_later_eid
   interrupt_step           the step that processes it = _interrupt, then the other callbacks
   interrupt_delivery       victim alive: detached from its (unique) waiter list, resumed with Interrupt(cause)
   interrupt_dead_dropped   victim dead: no effect, no error
   detached_nowhere / detach_keeps_others / resumed_only_by_target / untouched_unless_resumed /
   yield_processed_continues / yield_pending_waits      the old target no longer resumes the victim
   init_before_interrupt / not_started / first_resumption_is_none *)
From Coq Require Import ZArith QArith List Bool Lia Lqa.
From ONL Require Import Kernel.Model Kernel.Keys Kernel.Prims Kernel.IntrBase Kernel.IntrInv Kernel.IntrStep.
Import ListNotations.

Definition dead (s : state) (p : pid) : Prop :=
  exists pr ev, get_proc p s = Some pr /\ get_event (pev pr) s = Some ev /\ out ev <> None.
Definition live (s : state) (p : pid) : Prop :=
  exists pr ev, get_proc p s = Some pr /\ get_event (pev pr) s = Some ev /\ out ev = None.

(* ------------------------------------------------------------------------------------------------ *)
(* refused *)

Lemma call_interrupt_refused_dead s e ev p cause :
  get_event e s = Some ev -> kind ev = KProcess p -> out ev <> None ->
  call_interrupt e cause s = (s, Fail (kexn ERuntime M_terminated)).
Proof.
  intros H K O. unfold call_interrupt. rewrite H, K. unfold is_triggered.
  destruct (out ev); [reflexivity|contradiction].
Qed.

Theorem interrupt_refused_dead codes s e ev p cause :
  get_event e s = Some ev -> kind ev = KProcess p -> out ev <> None ->
  do_call codes (CInterrupt e cause) s = (s, Fail (kexn ERuntime M_terminated)).
Proof. exact (call_interrupt_refused_dead s e ev p cause). Qed.

Theorem interrupt_refused_self codes s e ev p cause :
  get_event e s = Some ev -> kind ev = KProcess p -> out ev = None -> active s = Some p ->
  do_call codes (CInterrupt e cause) s = (s, Fail (kexn ERuntime M_self_interrupt)).
Proof.
  intros H K O A. cbn [do_call]. unfold call_interrupt. rewrite H, K. unfold is_triggered. rewrite O, A, Nat.eqb_refl.
  reflexivity.
Qed.

(* the generator ends: the Process event is triggered in the same resumption, before its entry is processed *)
Theorem finish_is_dead p pr o s ev :
  get_proc p s = Some pr -> get_event (pev pr) s = Some ev ->
  let s' := proc_finish p pr o s in
  dead s' p /\
  (exists ev', get_event (pev pr) s' = Some ev' /\ out ev' = Some o /\ cbs ev' = cbs ev) /\
  agenda s' = agenda s ++ [mkEntry (Qred (now s + 0)) NORMAL (next_eid s) (pev pr)].
Proof.
  intros Hp He s'.
  assert (G : get_event (pev pr) s' = Some (ev_set_out (Some o) ev)).
  { unfold s', proc_finish, trigger_event.
    change (get_event (pev pr) (upd_event (pev pr) (ev_set_out (Some o)) s) = Some (ev_set_out (Some o) ev)).
    apply get_event_upd_same, He. }
  split; [|split].
  - exists (proc_set_target None pr), (ev_set_out (Some o) ev). split; [|split; [exact G|discriminate]].
    unfold s', proc_finish. change (get_proc p (upd_proc p (proc_set_target None) s) = Some (proc_set_target None pr)).
    rewrite get_proc_upd, Nat.eqb_refl, Hp. reflexivity.
  - eexists. split; [exact G|]. split; reflexivity.
  - reflexivity.
Qed.

(* transitions of an execution (any step, clean or not) *)
Inductive trans (codes : list prog) : state -> state -> Prop :=
| t_top A (f : frag A) s : trans codes s (fst (exec_top codes f s))
| t_prelude u s s1 : run_prelude u s = inr s1 -> trans codes s s1
| t_step fuel s : trans codes s (fst (step fuel codes s)).

Inductive trans_star (codes : list prog) : state -> state -> Prop :=
| ts_refl s : trans_star codes s s
| ts_step s s1 s2 : trans codes s s1 -> trans_star codes s1 s2 -> trans_star codes s s2.

Lemma pevK_pop m rest s : pevK s -> pevK (pop_state m rest s).
Proof. intros K. exact K. Qed.

(* what every transition keeps: events stay, with the shape of their kind, triggered / processed once they are;
   processes keep their event *)
Definition keeps (s s' : state) : Prop :=
  pevK s' /\
  (forall e ev, get_event e s = Some ev -> exists ev', get_event e s' = Some ev' /\ ev_mono ev ev') /\
  (forall q pr, get_proc q s = Some pr -> exists pr', get_proc q s' = Some pr' /\ pev pr' = pev pr).

Lemma monor_keeps T s s' : monor T s s' -> keeps s s'.
Proof.
  intros [A B C D]. split; [exact A|]. split; [exact C|].
  intros q pr H. destruct (D _ _ H) as (pr' & H1 & H2 & _). exists pr'. auto.
Qed.

Lemma trans_keeps codes s s' : pevK s -> trans codes s s' -> keeps s s'.
Proof.
  intros K T. inversion T as [A f s0|u s0 s1 HP|fuel s0]; subst.
  - apply (monor_keeps Tnone), mono_run_frag, K.
  - apply (monor_keeps Tnone). eapply mono_run_prelude; eassumption.
  - destruct (step fuel codes s) as [s2 r] eqn:ST. cbn [fst] in *.
    destruct (step_mono _ _ _ _ _ ST) as [(_ & -> & _)|(m & rest & _ & M)].
    + apply (monor_keeps Tnone), monor_refl, K.
    + exact (monor_keeps _ _ _ (M K)).
Qed.

Lemma trans_star_keeps codes s s' : pevK s -> trans_star codes s s' -> keeps s s'.
Proof.
  intros K TS. induction TS as [s|s s1 s2 T _ IH]; [apply (monor_keeps Tnone), monor_refl, K|].
  destruct (trans_keeps _ _ _ K T) as (K1 & E1 & P1). destruct (IH K1) as (K2 & E2 & P2). split; [exact K2|]. split.
  - intros e ev He. destruct (E1 _ _ He) as (ev1 & He1 & M1). destruct (E2 _ _ He1) as (ev2 & He2 & M2).
    exists ev2. split; [exact He2|eapply ev_mono_trans; eassumption].
  - intros q pr Hp. destruct (P1 _ _ Hp) as (pr1 & Hp1 & V1). destruct (P2 _ _ Hp1) as (pr2 & Hp2 & V2).
    exists pr2. split; [exact Hp2|congruence].
Qed.

Theorem dead_forever codes s s' p :
  pevK s -> trans_star codes s s' -> dead s p -> dead s' p /\ pevK s'.
Proof.
  intros K TS (pr & ev & Hp & He & O). destruct (trans_star_keeps _ _ _ K TS) as (K' & E1 & P1). split; [|exact K'].
  destruct (P1 _ _ Hp) as (pr' & Hp' & Pv). destruct (E1 _ _ He) as (ev' & He' & (_ & M & _)).
  exists pr', ev'. rewrite Pv. auto.
Qed.

(* the property clause: once the generator of p has ended, every later interrupt() on it raises RuntimeError and
   changes nothing -- whether or not the termination event has been processed meanwhile *)
Theorem interrupt_refused_after_end codes s s' p cause :
  reach codes s -> dead s p -> trans_star codes s s' ->
  exists e, (forall pr, get_proc p s' = Some pr -> pev pr = e) /\
            do_call codes (CInterrupt e cause) s' = (s', Fail (kexn ERuntime M_terminated)).
Proof.
  intros R D TS. pose proof (iS_pev _ (proj1 (reach_good _ _ R))) as K.
  destruct (dead_forever _ _ _ _ K TS D) as ((pr & ev & Hp & He & O) & K').
  exists (pev pr). split; [intros pr0 H; congruence|].
  destruct (K' _ _ Hp) as (ev0 & He0 & Kd). rewrite He in He0. injection He0 as <-.
  eapply interrupt_refused_dead; eassumption.
Qed.

(* ------------------------------------------------------------------------------------------------ *)
(* accepted *)

Theorem interrupt_accepted codes s e ev p cause :
  get_event e s = Some ev -> kind ev = KProcess p -> out ev = None -> active s <> Some p ->
  let i := length (events s) in
  let s' := fst (do_call codes (CInterrupt e cause) s) in
  do_call codes (CInterrupt e cause) s = (s', Ok VNone) /\
  events s' = events s ++ [mkEvent (Some [CbInterrupt i]) (Some (Fail (EInterrupt, [cause]))) true (KInterruption p)] /\
  agenda s' = agenda s ++ [mkEntry (Qred (now s + 0)) URGENT (next_eid s) i] /\
  Qred (now s + 0) == now s /\
  next_eid s' = S (next_eid s) /\ procs s' = procs s /\ now s' = now s /\ active s' = active s.
Proof.
  intros H K O A i s'. unfold s'. cbn [do_call]. rewrite (call_interrupt_accept _ _ _ _ _ H K O A). cbn [fst].
  repeat split; try reflexivity. rewrite Qred_correct. lra.
Qed.

(* ------------------------------------------------------------------------------------------------ *)
(* the pending interruption *)

Theorem interruption_entry codes s x iev p :
  reach codes s -> In x (agenda s) -> get_event (e_ev x) s = Some iev -> kind iev = KInterruption p ->
  e_time x == now s /\ e_prio x = URGENT /\ (e_eid x < next_eid s)%nat /\
  (forall y, In y (agenda s) -> e_ev y = e_ev x -> y = x) /\
  (exists cause others, out iev = Some (Fail (EInterrupt, [cause])) /\ defused iev = true /\
                        cbs iev = Some (CbInterrupt (e_ev x) :: others) /\ ~ In (CbInterrupt (e_ev x)) others) /\
  (exists pr, get_proc p s = Some pr).
Proof.
  intros R Hx Hi K. destruct (reach_good _ _ R) as (HS & HC & HA).
  destruct (iA_urg _ HA _ _ Hx Hi) as (T & P & N & U); [rewrite K; reflexivity|].
  destruct (iS_kintr _ HS _ _ _ Hi K) as (Pp & (c & Oc) & Df & [X|(r & X)]); [congruence|].
  repeat split; auto.
  - apply (iA_eid _ HA), Hx.
  - exists c, r. repeat split; auto. intros Hin.
    destruct (iC_intr _ _ _ _ HC _ _ _ _ Hi X (or_intror Hin)) as (_ & CNT & _).
    cbn [cnt] in CNT. rewrite cb_eqb_refl in CNT. apply cnt_pos in Hin. lia.
Qed.

(* a processed Interruption event is never on the agenda again: delivered at most once *)
Theorem processed_interruption_gone codes s x iev p :
  reach codes s -> In x (agenda s) -> get_event (e_ev x) s = Some iev -> kind iev = KInterruption p -> cbs iev <> None.
Proof.
  intros R Hx Hi K. destruct (reach_good _ _ R) as (_ & _ & HA).
  destruct (iA_urg _ HA _ _ Hx Hi) as (_ & _ & N & _); [rewrite K; reflexivity|exact N].
Qed.

(* ... and an unprocessed one is on the agenda: delivered (or dropped) at least once if the run goes on *)
Theorem pending_interruption_scheduled codes s i iev p :
  reach codes s -> get_event i s = Some iev -> kind iev = KInterruption p -> cbs iev <> None ->
  exists x, In x (agenda s) /\ e_ev x = i.
Proof.
  intros R Hi K N. destruct (reach_good _ _ R) as (_ & _ & HA). apply (iA_has _ HA _ _ Hi); [rewrite K; reflexivity|exact N].
Qed.

(* the clock does not move while an interruption is pending: it takes effect at the instant of issue *)
Theorem clock_frozen codes s s' x iev iev' p :
  reach codes s -> reach codes s' -> In x (agenda s) -> In x (agenda s') ->
  get_event (e_ev x) s = Some iev -> kind iev = KInterruption p ->
  get_event (e_ev x) s' = Some iev' -> kind iev' = KInterruption p ->
  now s' == now s.
Proof.
  intros R R' Hx Hx' Hi K Hi' K'.
  destruct (interruption_entry _ _ _ _ _ R Hx Hi K) as (T & _). destruct (interruption_entry _ _ _ _ _ R' Hx' Hi' K') as (T' & _).
  lra.
Qed.

Lemma pop_not_later s m rest x y :
  NoDup (map e_eid (agenda s)) ->
  pop_min (agenda s) = Some (m, rest) -> In x (agenda s) -> In y (agenda s) -> key_lt x y -> e_eid m <> e_eid y.
Proof.
  intros ND HP Hx Hy LT E. destruct (pop_min_spec _ _ _ HP) as (Hm & _ & Hmin).
  assert (m = y) by (eapply nodup_eid_inj; eassumption). subst y.
  exact (key_le_not_lt _ _ (Hmin _ Hx) LT).
Qed.

(* urgent before normal: while an interruption is pending, no NORMAL entry is the next one processed *)
Theorem interrupt_before_normal codes s m rest x y iev p :
  reach codes s -> In x (agenda s) -> get_event (e_ev x) s = Some iev -> kind iev = KInterruption p ->
  In y (agenda s) -> e_prio y = NORMAL -> pop_min (agenda s) = Some (m, rest) -> e_eid m <> e_eid y.
Proof.
  intros R Hx Hi K Hy Py HP.
  destruct (interruption_entry _ _ _ _ _ R Hx Hi K) as (T & P & _).
  pose proof (iA_time _ (proj2 (proj2 (reach_good _ _ R))) _ Hy) as Ty.
  eapply pop_not_later; [apply (iA_nodup _ (proj2 (proj2 (reach_good _ _ R))))|exact HP|exact Hx|exact Hy|].
  unfold key_lt. destruct (Qlt_le_dec (e_time x) (e_time y)) as [L|L]; [left; exact L|].
  right. split; [lra|]. left. rewrite P, Py. unfold URGENT, NORMAL. lia.
Qed.

(* issue order: of two pending interruptions the one issued later (larger eid) is not processed first *)
Theorem interrupts_in_issue_order codes s m rest x y ix iy p q :
  reach codes s -> In x (agenda s) -> In y (agenda s) ->
  get_event (e_ev x) s = Some ix -> kind ix = KInterruption p ->
  get_event (e_ev y) s = Some iy -> kind iy = KInterruption q ->
  (e_eid x < e_eid y)%nat -> pop_min (agenda s) = Some (m, rest) -> e_eid m <> e_eid y.
Proof.
  intros R Hx Hy Hi K Hj K' LT HP.
  destruct (interruption_entry _ _ _ _ _ R Hx Hi K) as (T & P & _).
  destruct (interruption_entry _ _ _ _ _ R Hy Hj K') as (T' & P' & _).
  eapply pop_not_later; [apply (iA_nodup _ (proj2 (proj2 (reach_good _ _ R))))|exact HP|exact Hx|exact Hy|].
  right. split; [lra|]. right. split; [congruence|exact LT].
Qed.

(* ... and "issued later" is "larger eid": the entry of a new interrupt() lies above every pending entry *)
Theorem later_issue_later_eid codes s e ev p cause x :
  reach codes s -> get_event e s = Some ev -> kind ev = KProcess p -> out ev = None -> active s <> Some p ->
  In x (agenda s) ->
  exists y, agenda (fst (do_call codes (CInterrupt e cause) s)) = agenda s ++ [y] /\ (e_eid x < e_eid y)%nat /\
            e_ev y = length (events s).
Proof.
  intros R H K O A Hx. destruct (interrupt_accepted codes _ _ _ _ cause H K O A) as (_ & _ & Ag & _).
  eexists. split; [exact Ag|]. split; [|reflexivity]. cbn [e_eid].
  apply (iA_eid _ (proj2 (proj2 (reach_good _ _ R)))), Hx.
Qed.

(* ------------------------------------------------------------------------------------------------ *)
(* the step that processes an interruption *)

(* the state in which the callbacks of the popped entry run *)
Definition popped (m : entry) (rest : list entry) (s : state) : state :=
  upd_event (e_ev m) (ev_set_cbs None) (pop_state m rest s).

Lemma get_event_popped m rest s e :
  get_event e (popped m rest s) = if Nat.eqb e (e_ev m) then option_map (ev_set_cbs None) (get_event e s) else get_event e s.
Proof. unfold popped. rewrite get_event_upd. reflexivity. Qed.

Lemma get_event_popped_self m rest s ev : get_event (e_ev m) s = Some ev -> get_event (e_ev m) (popped m rest s) = Some (ev_set_cbs None ev).
Proof. intros H. rewrite get_event_popped, Nat.eqb_refl, H. reflexivity. Qed.

Lemma step_cons fuel codes s m rest ev c r :
  pop_min (agenda s) = Some (m, rest) -> get_event (e_ev m) s = Some ev -> cbs ev = Some (c :: r) -> is_stop_cb c = false ->
  step fuel codes s =
    (let '(s2, r2) := run_cb fuel codes (e_ev m) c (popped m rest s) in
     match r2 with
     | ROk => let '(s3, r3) := run_callbacks fuel codes (e_ev m) r s2 in
              (s3, match r3 with ROk => check_failure (e_ev m) s3 | _ => r3 end)
     | _ => (s2, r2)
     end).
Proof.
  intros HP He C NS. unfold step. rewrite HP. change (get_event (e_ev m) (pop_state m rest s)) with (get_event (e_ev m) s).
  rewrite He, C. cbn [run_callbacks]. fold (popped m rest s). rewrite NS.
  destruct (run_cb fuel codes (e_ev m) c (popped m rest s)) as [s2 r2]. destruct r2; try reflexivity.
  destruct (run_callbacks fuel codes (e_ev m) r s2) as [s3 r3]. destruct r3; reflexivity.
Qed.

Theorem interrupt_step fuel codes s m rest iev p :
  reach codes s -> pop_min (agenda s) = Some (m, rest) -> get_event (e_ev m) s = Some iev -> kind iev = KInterruption p ->
  exists cause others,
    out iev = Some (Fail (EInterrupt, [cause])) /\ cbs iev = Some (CbInterrupt (e_ev m) :: others) /\
    now (popped m rest s) == now s /\
    step fuel codes s =
      (let '(s2, r) := do_interruption fuel codes (e_ev m) (popped m rest s) in
       match r with
       | ROk => let '(s3, r3) := run_callbacks fuel codes (e_ev m) others s2 in
                (s3, match r3 with ROk => check_failure (e_ev m) s3 | _ => r3 end)
       | _ => (s2, r)
       end).
Proof.
  intros R HP Hi K. destruct (pop_min_spec _ _ _ HP) as (Hm & _).
  destruct (interruption_entry _ _ _ _ _ R Hm Hi K) as (T & _ & _ & _ & (c & r & O & _ & C & _) & _).
  exists c, r. split; [exact O|]. split; [exact C|]. split; [exact T|].
  exact (step_cons fuel codes s m rest iev _ r HP Hi C eq_refl).
Qed.

(* the body of Process._resume after the outcome has been read *)
Definition resume_with (f : nat) (codes : list prog) (p : pid) (pr : procrec) (o : outcome) (s1 : state) : state * result :=
  let '(s2, r) := run_frag codes (resume (pcode pr) (pst pr) o) s1 in
  match r with
  | FrRet v => (proc_finish p pr (Ok v) s2, ROk)
  | FrRaise x => (proc_finish p pr (Fail x) s2, ROk)
  | FrYield v a =>
      let s3 := put_proc p (proc_set_st pr a) s2 in
      match v with
      | VEv e' =>
          match get_event e' s3 with
          | Some ev' => if is_processed ev' then resume_loop f codes p e' s3 else (proc_wait p e' s3, ROk)
          | None => (s3, RRaise (kexn ERuntime M_invalid_yield))
          end
      | _ => (s3, RRaise (kexn ERuntime M_invalid_yield))
      end
  end.

(* a resumption by event e feeds the automaton the outcome of e (a failure is marked defused first) *)
Theorem resume_feeds_outcome f codes p e s ev pr o :
  get_event e s = Some ev -> get_proc p s = Some pr -> out ev = Some o ->
  resume_loop (S f) codes p e s =
  resume_with f codes p pr o (match o with Fail _ => upd_event e ev_set_defused s | Ok _ => s end).
Proof. intros He Hp O. cbn [resume_loop]. rewrite He, Hp, O. reflexivity. Qed.

Theorem interrupt_dead_dropped fuel codes s m rest iev p :
  reach codes s -> pop_min (agenda s) = Some (m, rest) -> get_event (e_ev m) s = Some iev -> kind iev = KInterruption p ->
  dead s p ->
  do_interruption fuel codes (e_ev m) (popped m rest s) = (popped m rest s, ROk) /\
  (* nothing else waits on the interruption event (always so unless a process was made to yield it): the step
     only removes the entry and marks the event processed, and raises nothing *)
  (cbs iev = Some [CbInterrupt (e_ev m)] -> step fuel codes s = (popped m rest s, ROk)).
Proof.
  intros R HP Hi K (pr & ev & Hp & He & O).
  pose proof (get_event_popped m rest s) as GE.
  assert (DI : do_interruption fuel codes (e_ev m) (popped m rest s) = (popped m rest s, ROk)).
  { unfold do_interruption. rewrite GE, Nat.eqb_refl, Hi. cbn [option_map ev_set_cbs kind]. rewrite K.
    change (get_proc p (popped m rest s)) with (get_proc p s). rewrite Hp. rewrite GE.
    destruct (Nat.eqb (pev pr) (e_ev m)); rewrite He; cbn [option_map]; unfold is_triggered; cbn [ev_set_cbs out];
      destruct (out ev); try reflexivity; contradiction. }
  split; [exact DI|]. intros C.
  destruct (interrupt_step fuel codes _ _ _ _ _ R HP Hi K) as (c & r & Oi & C' & _ & ST).
  rewrite C in C'. injection C' as <-. rewrite ST, DI. cbn [run_callbacks].
  unfold check_failure. rewrite GE, Nat.eqb_refl, Hi. cbn [option_map ev_set_cbs out defused]. rewrite Oi.
  destruct (reach_good _ _ R) as (HS & _). destruct (iS_kintr _ HS _ _ _ Hi K) as (_ & _ & Df & _). rewrite Df. reflexivity.
Qed.

Theorem interrupt_delivery fuel codes s m rest iev p pr :
  reach codes s -> pop_min (agenda s) = Some (m, rest) -> get_event (e_ev m) s = Some iev -> kind iev = KInterruption p ->
  get_proc p s = Some pr -> live s p ->
  ptarget pr <> Some (e_ev m) ->            (* the victim was not made to wait for this very Interruption event *)
  exists cause t tev l,
    out iev = Some (Fail (EInterrupt, [cause])) /\
    (* the victim is suspended on exactly one event, once *)
    ptarget pr = Some t /\ get_event t s = Some tev /\ cbs tev = Some l /\ cnt (CbResume p) l = 1%nat /\
    (forall t' tev' l', get_event t' s = Some tev' -> cbs tev' = Some l' -> In (CbResume p) l' -> t' = t) /\
    (* _interrupt removes that _resume and resumes the victim with the interruption event ... *)
    let s2 := upd_event t (ev_set_cbs (Some (remove_first (CbResume p) l))) (popped m rest s) in
    do_interruption fuel codes (e_ev m) (popped m rest s) = resume_proc fuel codes p (e_ev m) s2 /\
    (* ... i.e. throws Interrupt(cause) into its generator, at the instant of issue *)
    now s2 == now s /\
    forall f, fuel = S f ->
      resume_proc fuel codes p (e_ev m) s2 =
      resume_with f codes p pr (Fail (EInterrupt, [cause])) (upd_event (e_ev m) ev_set_defused (set_active (Some p) s2)).
Proof.
  intros R HP Hi K Hp (pr0 & pe0 & Hp0 & Hpe & Ope) NT. rewrite Hp in Hp0. injection Hp0 as <-.
  destruct (reach_good _ _ R) as (HS & HC & HA).
  destruct (pop_min_spec _ _ _ HP) as (Hm & _).
  destruct (interruption_entry _ _ _ _ _ R Hm Hi K) as (T & _ & _ & _ & (c & r & O & _ & C & _) & _).
  destruct (iC_wait _ _ _ _ HC _ _ _ Hp Hpe Ope) as [[]|(t & tev & l & Tg & Ht & Cl & Hin)]; [discriminate|].
  destruct (iC_res _ _ _ _ HC _ _ _ _ Ht Cl Hin) as (_ & CNT & _).
  assert (Nt : t <> e_ev m) by congruence.
  exists c, t, tev, l. split; [exact O|]. split; [exact Tg|]. split; [exact Ht|]. split; [exact Cl|]. split; [exact CNT|].
  split.
  { intros t' tev' l' H' C' Hin'. destruct (iC_res _ _ _ _ HC _ _ _ _ H' C' Hin') as ((pr' & Hp' & Tg') & _). congruence. }
  pose proof (get_event_popped m rest s) as GE.
  split; [|split].
  - unfold do_interruption. rewrite GE, Nat.eqb_refl, Hi. cbn [option_map ev_set_cbs kind]. rewrite K.
    change (get_proc p (popped m rest s)) with (get_proc p s). rewrite Hp.
    assert (X : exists pe1, get_event (pev pr) (popped m rest s) = Some pe1 /\ is_triggered pe1 = false).
    { rewrite GE. destruct (Nat.eqb (pev pr) (e_ev m)); rewrite Hpe; cbn [option_map]; eexists; (split; [reflexivity|]);
        unfold is_triggered; cbn [ev_set_cbs out]; rewrite Ope; reflexivity. }
    destruct X as (pe1 & -> & ->). rewrite Tg, GE. apply Nat.eqb_neq in Nt. rewrite Nt, Ht, Cl.
    apply mem_cb_in in Hin. rewrite Hin. reflexivity.
  - cbn. exact T.
  - intros f ->. unfold resume_proc.
    set (s2 := upd_event t (ev_set_cbs (Some (remove_first (CbResume p) l))) (popped m rest s)).
    assert (Hi2 : get_event (e_ev m) (set_active (Some p) s2) = Some (ev_set_cbs None iev)).
    { change (get_event (e_ev m) s2 = Some (ev_set_cbs None iev)). unfold s2.
      rewrite get_event_upd_other by congruence. rewrite GE, Nat.eqb_refl, Hi. reflexivity. }
    rewrite (resume_feeds_outcome f codes p (e_ev m) _ _ pr (Fail (EInterrupt, [c])) Hi2); [reflexivity|exact Hp|exact O].
Qed.

(* ------------------------------------------------------------------------------------------------ *)
(* the old target *)

(* after the detachment the victim's _resume is in no callback list at all *)
Theorem detached_nowhere codes s m rest p pr t tev l :
  reach codes s -> get_proc p s = Some pr -> ptarget pr = Some t -> get_event t s = Some tev -> cbs tev = Some l ->
  In (CbResume p) l -> t <> e_ev m ->
  let s2 := upd_event t (ev_set_cbs (Some (remove_first (CbResume p) l))) (popped m rest s) in
  forall t' tev' l', get_event t' s2 = Some tev' -> cbs tev' = Some l' -> ~ In (CbResume p) l'.
Proof.
  intros R Hp Tg Ht Cl Hin Nt s2 t' tev' l' H' C' Hin'.
  destruct (reach_good _ _ R) as (_ & HC & _).
  destruct (iC_res _ _ _ _ HC _ _ _ _ Ht Cl Hin) as (_ & CNT & _).
  unfold s2 in H'. rewrite get_event_upd, get_event_popped in H'. destruct (Nat.eqb t' t) eqn:E.
  - apply Nat.eqb_eq in E. subst t'. apply Nat.eqb_neq in Nt. rewrite Nt, Ht in H'. cbn in H'. injection H' as <-.
    cbn in C'. injection C' as <-. apply cnt_pos in Hin'. rewrite cnt_remove_first_same, CNT in Hin'. cbn in Hin'. lia.
  - apply Nat.eqb_neq in E. destruct (Nat.eqb t' (e_ev m)).
    + destruct (get_event t' s); cbn in H'; [|discriminate]. injection H' as <-. discriminate.
    + destruct (iC_res _ _ _ _ HC _ _ _ _ H' C' Hin') as ((pr' & Hp' & Tg') & _). congruence.
Qed.

(* the old target keeps its outcome, defusal and kind, and every other callback, in order.  The last conjunct reads the
   detaching update back on a store made up for the purpose (t + 1 copies of tev): it only says that the update at t
   yields tev' there, for any t, and claims nothing of a reachable state. *)
Theorem detach_keeps_others t p l tev :
  let tev' := ev_set_cbs (Some (remove_first (CbResume p) l)) tev in
  out tev' = out tev /\ defused tev' = defused tev /\ kind tev' = kind tev /\
  (forall c, c <> CbResume p -> cnt c (remove_first (CbResume p) l) = cnt c l) /\
  (forall l1 l2, l = l1 ++ CbResume p :: l2 -> ~ In (CbResume p) l1 -> remove_first (CbResume p) l = l1 ++ l2) /\
  get_event t (upd_event t (ev_set_cbs (Some (remove_first (CbResume p) l))) (mkState 0 [] 0 (repeat tev (S t)) [] None [] [])) = Some tev'.
Proof.
  cbn zeta. repeat split.
  - intros c N. apply cnt_remove_first_other, N.
  - intros l1 l2 -> N. induction l1 as [|x l1 IH]; cbn [app remove_first].
    + rewrite cb_eqb_refl. reflexivity.
    + assert (cb_eqb x (CbResume p) = false) as ->.
      { apply cb_eqb_neq. intros ->. apply N. left. reflexivity. }
      f_equal. apply IH. intros H. apply N. right. exact H.
  - apply get_event_upd_same. unfold get_event. cbn [events]. clear. induction t as [|t IH]; [reflexivity|exact IH].
Qed.

(* in every reachable state: processing an event resumes only processes whose CURRENT target it is (the event
   they yielded last), each once *)
Theorem resumed_only_by_target codes s m rest ev l q :
  reach codes s -> pop_min (agenda s) = Some (m, rest) -> get_event (e_ev m) s = Some ev -> cbs ev = Some l ->
  In (CbResume q) l ->
  exists pr, get_proc q s = Some pr /\ ptarget pr = Some (e_ev m) /\ cnt (CbResume q) l = 1%nat.
Proof.
  intros R _ He Cl Hin. destruct (reach_good _ _ R) as (_ & HC & _).
  destruct (iC_res _ _ _ _ HC _ _ _ _ He Cl Hin) as ((pr & Hp & Tg) & CNT & _). exists pr. auto.
Qed.

(* ... and a step leaves alone every process that is neither in the callback list of the processed event nor the
   victim of the processed interruption *)
Theorem untouched_unless_resumed fuel codes s m rest ev l q pr :
  reach codes s -> pop_min (agenda s) = Some (m, rest) -> get_event (e_ev m) s = Some ev -> cbs ev = Some l ->
  get_proc q s = Some pr -> ~ In (CbResume q) l -> kind ev <> KInterruption q ->
  get_proc q (fst (step fuel codes s)) = Some pr.
Proof.
  intros R HP He Cl Hq NR NK. destruct (reach_good _ _ R) as (HS & HC & _).
  destruct (step fuel codes s) as [s' r] eqn:ST. cbn [fst].
  destruct (step_mono _ _ _ _ _ ST) as [(X & _)|(m' & rest' & HP' & M)]; [congruence|].
  rewrite HP in HP'. injection HP' as <- <-.
  destruct (m_pr _ _ _ (M (iS_pev _ HS)) q pr Hq) as (pr' & H' & _ & Same). rewrite H'. f_equal. apply Same.
  intros Tq. destruct (Tq _ _ He Cl) as (c & Hc & Tc). destruct c; cbn [cb_touch] in Tc; try contradiction.
  - subst. contradiction.
  - destruct (iC_intr _ _ _ _ HC _ _ _ _ He Cl Hc) as (<- & _ & _).
    destruct Tc as [L|(iev & Hi & Ki)]; [apply get_event_lt in He; lia|]. congruence.
Qed.

(* yielding an event that has been processed continues at once with that event's outcome ... *)
Theorem yield_processed_continues f codes p pr o s1 s2 a e' ev' :
  run_frag codes (resume (pcode pr) (pst pr) o) s1 = (s2, FrYield (VEv e') a) ->
  get_event e' (put_proc p (proc_set_st pr a) s2) = Some ev' -> cbs ev' = None ->
  resume_with f codes p pr o s1 = resume_loop f codes p e' (put_proc p (proc_set_st pr a) s2).
Proof. intros RF He C. unfold resume_with. rewrite RF, He. unfold is_processed. rewrite C. reflexivity. Qed.

(* ... and yielding a pending one appends the _resume to its list and makes it the target *)
Theorem yield_pending_waits f codes p pr o s1 s2 a e' ev' l :
  run_frag codes (resume (pcode pr) (pst pr) o) s1 = (s2, FrYield (VEv e') a) ->
  let s3 := put_proc p (proc_set_st pr a) s2 in
  get_event e' s3 = Some ev' -> cbs ev' = Some l -> get_proc p s2 = Some pr ->
  resume_with f codes p pr o s1 = (proc_wait p e' s3, ROk) /\
  get_event e' (proc_wait p e' s3) = Some (ev_set_cbs (Some (l ++ [CbResume p])) ev') /\
  get_proc p (proc_wait p e' s3) = Some (proc_set_target (Some e') (proc_set_st pr a)).
Proof.
  intros RF s3 He C Hp. split; [|split].
  - unfold resume_with. rewrite RF. fold s3. rewrite He. unfold is_processed. rewrite C. reflexivity.
  - unfold proc_wait. change (get_event e' (add_callback e' (CbResume p) s3) = Some (ev_set_cbs (Some (l ++ [CbResume p])) ev')).
    unfold add_callback. rewrite (get_event_upd_same _ _ _ _ He). unfold ev_add_cb. rewrite C. reflexivity.
  - unfold proc_wait. change (get_proc p (upd_proc p (proc_set_target (Some e')) s3) = Some (proc_set_target (Some e') (proc_set_st pr a))).
    rewrite get_proc_upd, Nat.eqb_refl. unfold s3, put_proc. rewrite get_proc_upd, Nat.eqb_refl, Hp. reflexivity.
Qed.

(* ------------------------------------------------------------------------------------------------ *)
(* Initialize first *)

Theorem init_before_interrupt codes s m rest iev p :
  reach codes s -> pop_min (agenda s) = Some (m, rest) -> get_event (e_ev m) s = Some iev -> kind iev = KInterruption p ->
  forall ie ev, get_event ie s = Some ev -> kind ev = KInit p -> cbs ev = None.
Proof. intros R HP Hi K. exact (init_done_at_pop s m rest iev p (reach_good _ _ R) HP Hi K). Qed.

(* while its Initialize event is unprocessed a process sits at its start: it waits for that event only, whose first
   callback is its _resume and whose value is None *)
Theorem not_started codes s ie ev p :
  reach codes s -> get_event ie s = Some ev -> kind ev = KInit p -> cbs ev <> None ->
  exists pr r, get_proc p s = Some pr /\ ptarget pr = Some ie /\ cbs ev = Some (CbResume p :: r) /\ ~ In (CbResume p) r /\
               out ev = Some (Ok VNone) /\ (exists x, In x (agenda s) /\ e_ev x = ie /\ e_prio x = URGENT /\ e_time x == now s) /\
               (forall t' tev' l', get_event t' s = Some tev' -> cbs tev' = Some l' -> In (CbResume p) l' -> t' = ie).
Proof.
  intros R He K N. destruct (reach_good _ _ R) as (HS & HC & HA).
  destruct (iS_kinit _ HS _ _ _ He K) as (_ & O & [X|(r & C)]); [contradiction|].
  destruct (iC_res _ _ _ _ HC _ _ _ _ He C (or_introl eq_refl)) as ((pr & Hp & Tg) & CNT & _).
  exists pr, r. split; [exact Hp|]. split; [exact Tg|]. split; [exact C|]. split.
  { intros Hin. cbn [cnt] in CNT. rewrite cb_eqb_refl in CNT. apply cnt_pos in Hin. lia. }
  split; [exact O|]. split.
  - destruct (iA_has _ HA _ _ He) as (x & Hx & Ex); [rewrite K; reflexivity|exact N|].
    rewrite <- Ex in He. destruct (iA_urg _ HA _ _ Hx He) as (T & P & _); [rewrite K; reflexivity|].
    exists x. auto.
  - intros t' tev' l' H' C' Hin'. destruct (iC_res _ _ _ _ HC _ _ _ _ H' C' Hin') as ((pr' & Hp' & Tg') & _). congruence.
Qed.

(* hence no step touches it before its Initialize is processed ... *)
Theorem not_started_untouched fuel codes s ie ev p pr m rest :
  reach codes s -> get_event ie s = Some ev -> kind ev = KInit p -> cbs ev <> None -> get_proc p s = Some pr ->
  pop_min (agenda s) = Some (m, rest) -> e_ev m <> ie ->
  get_proc p (fst (step fuel codes s)) = Some pr.
Proof.
  intros R He K N Hp HP Nm.
  destruct (not_started _ _ _ _ _ R He K N) as (pr0 & r & Hp0 & Tg & C & _ & _ & _ & Only). rewrite Hp in Hp0. injection Hp0 as <-.
  destruct (reach_good _ _ R) as (HS & HC & HA). destruct (pop_min_spec _ _ _ HP) as (Hm & _).
  destruct (iA_ev _ HA _ Hm) as (mev & Hmev).
  destruct (cbs mev) as [l|] eqn:Cl.
  - eapply untouched_unless_resumed; try eassumption.
    + intros Hin. apply Nm. eapply Only; eassumption.
    + intros Km. pose proof (init_before_interrupt _ _ _ _ _ _ R HP Hmev Km _ _ He K). contradiction.
  - (* the popped event was already processed: the step raises at once *)
    unfold step. rewrite HP. change (get_event (e_ev m) (pop_state m rest s)) with (get_event (e_ev m) s).
    rewrite Hmev, Cl. exact Hp.
Qed.

(* ... and that step begins by sending None into the generator: the first resumption is never an Interrupt *)
Theorem first_resumption_is_none fuel codes s ev p m rest :
  reach codes s -> pop_min (agenda s) = Some (m, rest) -> get_event (e_ev m) s = Some ev -> kind ev = KInit p ->
  exists pr r,
    get_proc p s = Some pr /\ cbs ev = Some (CbResume p :: r) /\
    step fuel codes s =
      (let '(s2, r2) := resume_proc fuel codes p (e_ev m) (popped m rest s) in
       match r2 with
       | ROk => let '(s3, r3) := run_callbacks fuel codes (e_ev m) r s2 in
                (s3, match r3 with ROk => check_failure (e_ev m) s3 | _ => r3 end)
       | _ => (s2, r2)
       end) /\
    forall f, fuel = S f ->
      resume_proc fuel codes p (e_ev m) (popped m rest s) =
      resume_with f codes p pr (Ok VNone) (set_active (Some p) (popped m rest s)).
Proof.
  intros R HP He K. destruct (pop_min_spec _ _ _ HP) as (Hm & _).
  assert (N : cbs ev <> None).
  { destruct (reach_good _ _ R) as (_ & _ & HA). destruct (iA_urg _ HA _ _ Hm He) as (_ & _ & N & _); [rewrite K; reflexivity|exact N]. }
  destruct (not_started _ _ _ _ _ R He K N) as (pr & r & Hp & Tg & C & _ & O & _).
  exists pr, r. split; [exact Hp|]. split; [exact C|]. split.
  - exact (step_cons fuel codes s m rest ev _ r HP He C eq_refl).
  - intros f ->. unfold resume_proc.
    rewrite (resume_feeds_outcome f codes p (e_ev m) _ _ pr (Ok VNone) (get_event_popped_self m rest s ev He : get_event (e_ev m) (set_active (Some p) (popped m rest s)) = _));
      [reflexivity|exact Hp|exact O].
Qed.

(* every process has its Initialize event (created right after its Process event) *)
Theorem process_has_initialize codes s p pr :
  reach codes s -> get_proc p s = Some pr ->
  exists iev, get_event (S (pev pr)) s = Some iev /\ kind iev = KInit p.
Proof. intros R Hp. exact (iS_init _ (proj1 (reach_good _ _ R)) _ _ Hp). Qed.

(* _interrupt of interruption i is a callback of event i only, once: it runs only in the step that processes i *)
Theorem interrupt_callback_only_own_event codes s e ev l i :
  reach codes s -> get_event e s = Some ev -> cbs ev = Some l -> In (CbInterrupt i) l ->
  e = i /\ cnt (CbInterrupt i) l = 1%nat /\ exists p, kind ev = KInterruption p.
Proof. intros R He Cl Hin. exact (iC_intr _ _ _ _ (proj1 (proj2 (reach_good _ _ R))) _ _ _ _ He Cl Hin). Qed.

(* waiter uniqueness, as a statement of its own *)
Theorem waiter_unique codes s p pr :
  reach codes s -> get_proc p s = Some pr -> live s p ->
  exists t tev l, ptarget pr = Some t /\ get_event t s = Some tev /\ cbs tev = Some l /\ cnt (CbResume p) l = 1%nat /\
    forall t' tev' l', get_event t' s = Some tev' -> cbs tev' = Some l' -> In (CbResume p) l' -> t' = t.
Proof.
  intros R Hp (pr0 & pe0 & Hp0 & Hpe & Ope). rewrite Hp in Hp0. injection Hp0 as <-.
  destruct (reach_good _ _ R) as (HS & HC & HA).
  destruct (iC_wait _ _ _ _ HC _ _ _ Hp Hpe Ope) as [[]|(t & tev & l & Tg & Ht & Cl & Hin)]; [discriminate|].
  destruct (iC_res _ _ _ _ HC _ _ _ _ Ht Cl Hin) as (_ & CNT & _).
  exists t, tev, l. repeat split; auto.
  intros t' tev' l' H' C' Hin'. destruct (iC_res _ _ _ _ HC _ _ _ _ H' C' Hin') as ((pr' & Hp' & Tg') & _). congruence.
Qed.

(* along every execution an event stays, keeps the shape of its kind, stays triggered / processed once it is, and an
   Initialize / Interruption event keeps its outcome *)
Theorem events_monotone codes s s' e ev :
  pevK s -> trans_star codes s s' -> get_event e s = Some ev ->
  exists ev', get_event e s' = Some ev' /\ ev_mono ev ev'.
Proof. intros K TS. exact (proj1 (proj2 (trans_star_keeps _ _ _ K TS)) e ev). Qed.

(* the Interrupt(cause) delivered is the one issued: the interruption event keeps its outcome until (and after) it
   is processed, and once processed it stays processed *)
Theorem interruption_keeps_cause codes s s' i iev p cause :
  reach codes s -> trans_star codes s s' ->
  get_event i s = Some iev -> kind iev = KInterruption p -> out iev = Some (Fail (EInterrupt, [cause])) ->
  exists iev', get_event i s' = Some iev' /\ kind iev' = KInterruption p /\
               out iev' = Some (Fail (EInterrupt, [cause])) /\ (cbs iev = None -> cbs iev' = None).
Proof.
  intros R TS Hi K O. pose proof (iS_pev _ (proj1 (reach_good _ _ R))) as PK.
  destruct (events_monotone _ _ _ _ _ PK TS Hi) as (iev' & Hi' & (A & B & C & D)).
  exists iev'. split; [exact Hi'|]. split; [eapply kshape_eq_interruption; eassumption|]. split; [|exact C].
  rewrite D; [exact O|rewrite K; reflexivity|congruence].
Qed.
