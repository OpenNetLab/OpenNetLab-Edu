(* Kernel/IntrWitness.v -- C04: closed witness terms and the views of their states (Kernel/IntrView.v) used by
   Props/C04_Examples.v (non-vacuity of the hypotheses of the theorems of Props/C04.v).

   Family F (scripts of Kernel/Script.v, for convenience only):
     victim       (process 0)  t = env.timeout(5); yield t, re-yielding t after the FIRST Interrupt (YRetry 1), catching the second;
                               log what the yield gave; return
     interrupter  (process 1)  yield timeout(1); victim.interrupt(7); victim.interrupt(8); victim.interrupt(9);
                               yield the SAME (now processed) timeout again; log; end
   States at step boundaries, all at most at t = 1 ([f_at k] = k steps after the module-level code spawned both):
     f_at 0   nothing has run: both Initialize events (1, 3) pending, URGENT
     f_at 1   the victim has started and waits for its timeout (event 4, due 5, NORMAL); the interrupter has not started
     f_at 2   both started; the minimum of the agenda is the interrupter's timeout (event 5, due 1)
     f_at 3   t = 1: three Interruption events 6, 7, 8 (causes 7, 8, 9) pending, URGENT, in this order ahead of the NORMAL entries;
              the interrupter has ENDED (Process event 2 triggered, not processed); the victim is alive, waits for event 4
     f_at 4   Interrupt(7) delivered: the victim yielded event 4 again (re-attached); 7, 8 pending
     f_at 5   Interrupt(8) delivered: the victim logged it and ended (Process event 0 triggered); event 4 has no callback left;
              interruption 8 (cause 9) still pending -- for a dead process
     f_at 6   interruption 8 processed: dropped silently
     f_at 7   the Process event of the interrupter processed *)
From Coq Require Import ZArith QArith List Bool Lia.
From ONL Require Import Kernel.Model Kernel.Keys Kernel.Script Kernel.Prims Kernel.IntrBase Kernel.IntrInv Kernel.IntrStep Kernel.Intr Kernel.IntrView Kernel.IntrExamples.
Import ListNotations.

Definition f_victim : list instr :=
  [ITimeout (L 1) 5 XNone; IYield 1 (XReg (L 1)) (L 2) (YRetry 1); ILog (XReg (L 2)); IReturn XNone].
Definition f_interrupter : list instr :=
  [ITimeout (L 1) 1 XNone; IYield 2 (XReg (L 1)) (L 2) YCatch; IInterrupt (G 0) (XInt 7); IInterrupt (G 0) (XInt 8);
   IInterrupt (G 0) (XInt 9); IYield 3 (XReg (L 1)) (L 3) YCatch; ILog (XReg (L 3))].
Definition f_codes : list prog := map compile [f_victim; f_interrupter].
Definition f_s1 : state := fst (exec_top f_codes (exec ex_setup []) (init_state 0)).

(* n steps from s *)
Fixpoint f_run (fuel : nat) (codes : list prog) (n : nat) (s : state) : state :=
  match n with O => s | S j => f_run fuel codes j (fst (step fuel codes s)) end.
Definition f_at (k : nat) : state := f_run 10 f_codes k f_s1.

(* every one of the n steps is clean *)
Fixpoint clean_run (fuel : nat) (codes : list prog) (n : nat) (s : state) : Prop :=
  match n with O => True | S j => step_clean fuel codes s /\ clean_run fuel codes j (fst (step fuel codes s)) end.

Lemma reach_f_run fuel codes : forall n s, reach codes s -> clean_run fuel codes n s -> reach codes (f_run fuel codes n s).
Proof.
  induction n as [|n IH]; intros s R C; cbn [f_run]; [exact R|]. destruct C as [C1 C2].
  apply IH; [apply reach_step; assumption|exact C2].
Qed.

Lemma trans_star_f_run fuel codes : forall n s, trans_star codes s (f_run fuel codes n s).
Proof.
  induction n as [|n IH]; intros s; cbn [f_run]; [apply ts_refl|]. eapply ts_step; [apply t_step|apply IH].
Qed.

Lemma f_run_add fuel codes : forall a b s, f_run fuel codes (a + b) s = f_run fuel codes b (f_run fuel codes a s).
Proof. induction a as [|a IH]; intros b s; cbn [f_run Nat.add]; [reflexivity|apply IH]. Qed.

Lemma f_reach1 : reach f_codes f_s1.
Proof. apply reach_top, reach_init. Qed.

Lemma clean_run_le fuel codes : forall n k s, (k <= n)%nat -> clean_run fuel codes n s -> clean_run fuel codes k s.
Proof.
  induction n as [|n IH]; intros [|k] s L C; try exact I; [lia|].
  destruct C as [C1 C2]. split; [exact C1|]. apply IH; [lia|exact C2].
Qed.

Lemma f_clean : clean_run 10 f_codes 9 f_s1.
Proof. vm_compute. tauto. Qed.

Lemma f_reach k : (k <= 9)%nat -> reach f_codes (f_at k).
Proof. intros L. apply reach_f_run; [exact f_reach1|exact (clean_run_le _ _ _ _ _ L f_clean)]. Qed.

Definition f_vs : list sview := Eval vm_compute in map (fun k => view (f_at k)) (seq 0 8).
Lemma f_views : map (fun k => view (f_at k)) (seq 0 8) = f_vs.
Proof. vm_compute. reflexivity. Qed.
Definition f_view k : nth k (map (fun k => view (f_at k)) (seq 0 8)) v0 = nth k f_vs v0 := f_equal (fun l => nth k l v0) f_views.

Lemma f_trans a b : trans_star f_codes (f_at a) (f_at (a + b)).
Proof. unfold f_at. rewrite f_run_add. apply trans_star_f_run. Qed.

Lemma f_at_S k : fst (step 10 f_codes (f_at k)) = f_at (S k).
Proof. unfold f_at. rewrite <- (Nat.add_1_r k), f_run_add. reflexivity. Qed.

(* agenda entries of f_at 3 *)
Definition f_x6 : entry := mkEntry 1 URGENT 4%nat 6%nat.       (* interrupt(7) *)
Definition f_x7 : entry := mkEntry 1 URGENT 5%nat 7%nat.       (* interrupt(8) *)
Definition f_x8 : entry := mkEntry 1 URGENT 6%nat 8%nat.       (* interrupt(9) *)
Definition f_t4 : entry := mkEntry 5 NORMAL 2%nat 4%nat.       (* the victim's timeout *)
Definition f_p2 : entry := mkEntry 1 NORMAL 7%nat 2%nat.       (* the interrupter's termination *)

(* what one resumption of process p (record pr) with outcome o does up to its next yield of an event: the event, the state at the
   yield, the state with the new generator state stored *)
Definition yield_of (codes : list prog) (p : pid) (pr : procrec) (o : outcome) (s1 : state) : option (evid * state * state) :=
  match run_frag codes (resume (pcode pr) (pst pr) o) s1 with
  | (s2, FrYield (VEv e') a) => Some (e', s2, put_proc p (proc_set_st pr a) s2)
  | _ => None
  end.
Definition yield_at (codes : list prog) (p : pid) (o : outcome) (s1 s : state) : option (evid * state * state) :=
  match get_proc p s with Some pr => yield_of codes p pr o s1 | None => None end.

Lemma yield_of_ok codes p pr o s1 e' s2 s3 :
  yield_of codes p pr o s1 = Some (e', s2, s3) ->
  exists a, run_frag codes (resume (pcode pr) (pst pr) o) s1 = (s2, FrYield (VEv e') a) /\ s3 = put_proc p (proc_set_st pr a) s2.
Proof.
  unfold yield_of. destruct (run_frag codes (resume (pcode pr) (pst pr) o) s1) as [s2' [v a|v|x]]; try discriminate.
  destruct v; try discriminate. intros H. injection H as -> -> <-. exists a. split; reflexivity.
Qed.

Lemma yield_at_ok {B : Type} codes p o s1 s (F : evid * state * state -> B) (b : B) :
  option_map F (yield_at codes p o s1 s) = Some b ->
  exists pr e' s2 a, get_proc p s = Some pr /\ run_frag codes (resume (pcode pr) (pst pr) o) s1 = (s2, FrYield (VEv e') a) /\
                     F (e', s2, put_proc p (proc_set_st pr a) s2) = b.
Proof.
  unfold yield_at. destruct (get_proc p s) as [pr|]; [|discriminate].
  destruct (yield_of codes p pr o s1) as [[[e' s2] s3]|] eqn:Y; [|discriminate]. cbn [option_map]. intros H. injection H as H.
  destruct (yield_of_ok _ _ _ _ _ _ _ _ Y) as (a & RF & ->). exists pr, e', s2, a. split; [reflexivity|]. split; [exact RF|exact H].
Qed.

(* a fragment run does not touch the record of a suspended process *)
Lemma run_frag_keeps_proc {A : Type} codes (f : frag A) s p pr :
  pevK s -> get_proc p s = Some pr -> get_proc p (fst (run_frag codes f s)) = Some pr.
Proof.
  intros K Hp. destruct (m_pr _ _ _ (mono_run_frag Tnone codes f s K) _ _ Hp) as (pr' & H1 & _ & H2).
  rewrite H1. f_equal. apply H2. intros [].
Qed.

(* the interrupter's timeout, and the state in which the interrupter is resumed by it *)
Definition f_m5 : entry := mkEntry 1 NORMAL 3%nat 5%nat.
Definition f_s1_5 : state := set_active (Some 1%nat) (popped f_m5 [f_t4] (f_at 2)).

(* the state in which Interrupt(7) is thrown into the victim (C04_interrupt_delivery: interruption 6 popped, the victim detached
   from its target 4, active, the interruption event defused) *)
Definition f_rest6 : list entry := [f_t4; f_x7; f_x8; f_p2].
Definition f_s1_retry : state :=
  upd_event 6%nat ev_set_defused (set_active (Some 0%nat)
    (upd_event 4%nat (ev_set_cbs (Some (remove_first (CbResume 0%nat) [CbResume 0%nat]))) (popped f_x6 f_rest6 (f_at 3)))).

Lemma retry_state_ok s m rest p t c i :
  pevK s -> (forall ev, get_event t (popped m rest s) = Some ev -> cbs ev <> None) ->
  let s1 := upd_event i ev_set_defused (set_active (Some p) (upd_event t (ev_set_cbs (Some c)) (popped m rest s))) in
  pevK s1 /\ forall q pr, get_proc q s = Some pr -> get_proc q s1 = Some pr.
Proof.
  intros K Hc s1. split; [|intros q pr H; exact H].
  assert (X : mono Tnone (pop_state m rest s) s1).
  { unfold s1, popped.
    refine (mono_trans Tnone _ _ _ _ (mono_set_defused Tnone _ _)).
    refine (mono_trans Tnone _ _ _ _ (mono_set_active Tnone _ _)).
    refine (mono_trans Tnone _ _ _ (mono_set_cbs Tnone _ _ _ (or_introl eq_refl)) (mono_set_cbs Tnone _ _ _ _)).
    right. exact Hc. }
  exact (m_pevK _ _ _ (X (pevK_pop m rest s K))).
Qed.

Lemma f_retry_ok : pevK f_s1_retry /\ forall q pr, get_proc q (f_at 3) = Some pr -> get_proc q f_s1_retry = Some pr.
Proof.
  apply retry_state_ok; [apply iS_pev, (reach_good f_codes), f_reach; lia|].
  intros ev H.
  assert (X : option_map cbs (get_event 4%nat (popped f_x6 f_rest6 (f_at 3))) = Some (Some [CbResume 0%nat])) by (vm_compute; reflexivity).
  rewrite H in X. cbn in X. injection X as X. rewrite X. discriminate.
Qed.
