(* Kernel/StopSim.v -- C03: the simulation relation between an execution (state a) and the same execution with inert
   sentinels inserted (state b).

     f, g                 the id maps: event id of a -> event id of b, insertion id of a -> insertion id of b; strictly increasing,
                          and aligned on the ids not yet allocated (f (length (events a) + k) = length (events b) + k): inside a
                          step both sides allocate in lockstep, so one pair of maps serves a whole step; when a ghost is inserted
                          the maps are bumped above the allocated ids ([bump], StopGhost.v)
     ren_ev / ren_entry / ren_obs / ren_cb / ren_kind     renaming of kernel data;  evdom / ... : all ids below n
     sim f g a b          b is a renamed by (f, g), plus inert events (ghosts: pre-triggered, without callbacks) that nothing in
                          b refers to, plus agenda entries for some of them, plus their OStep records
     sim_get              get_event (f i) b = option_map (ren_ev f) (get_event i a)
     simn f g a b          sim f g a b /\ now b = now a
     simn_upd_event / simn_new_event / simn_schedule / ...   the primitives of the model keep the relation *)
From Coq Require Import ZArith QArith List Bool Lia.
From ONL Require Import Kernel.Model Kernel.Keys Kernel.Prims Kernel.Deliver Kernel.StopRen.
Import ListNotations.
Local Open Scope nat_scope.

(* ------------------------------------------------------------------------------------------------ *)
(* renaming of kernel data *)

Definition ren_cb (f : nat -> nat) (c : cb) : cb :=
  match c with
  | CbResume p => CbResume p
  | CbCheck c => CbCheck (f c)
  | CbBuild c => CbBuild (f c)
  | CbInterrupt i => CbInterrupt (f i)
  | CbStop => CbStop
  | CbProbe n => CbProbe n
  end.

Definition cbdom (n : nat) (c : cb) : bool :=
  match c with
  | CbCheck c | CbBuild c | CbInterrupt c => Nat.ltb c n
  | _ => true
  end.

Definition ren_kind (f : nat -> nat) (k : ekind) : ekind :=
  match k with KCond all ops count => KCond all (map f ops) count | _ => k end.
Definition kdom (n : nat) (k : ekind) : bool := match k with KCond _ ops _ => esdom n ops | _ => true end.

Definition ren_ev (f : nat -> nat) (ev : event) : event :=
  mkEvent (option_map (map (ren_cb f)) (cbs ev)) (option_map (ren_outcome f) (out ev)) (defused ev) (ren_kind f (kind ev)).

Definition evdom (n : nat) (ev : event) : bool :=
  match cbs ev with Some l => forallb (cbdom n) l | None => true end &&
  match out ev with Some o => odom n o | None => true end && kdom n (kind ev).

Definition ren_entry (f g : nat -> nat) (x : entry) : entry := mkEntry (e_time x) (e_prio x) (g (e_eid x)) (f (e_ev x)).

Definition ren_obs (f : nat -> nat) (o : observation) : observation :=
  match o with
  | OStep e t => OStep (f e) t
  | OProbe k e t oc => OProbe k (f e) t (option_map (ren_outcome f) oc)
  | OLog p t v => OLog p t (ren_val f v)
  end.

Definition obdom (n : nat) (o : observation) : bool :=
  match o with
  | OStep e _ => Nat.ltb e n
  | OProbe _ e _ oc => Nat.ltb e n && match oc with Some x => odom n x | None => true end
  | OLog _ _ v => vdom n v
  end.

(* the traces: b's is a's renamed, with the steps of ghosts in between *)
Inductive obs_rel (f : nat -> nat) (n : nat) : list observation -> list observation -> Prop :=
| obr_nil : obs_rel f n [] []
| obr_both o l l' : obdom n o = true -> obs_rel f n l l' -> obs_rel f n (o :: l) (ren_obs f o :: l')
| obr_ghost e t l l' : obs_rel f n l l' -> obs_rel f n l (OStep e t :: l').

Definition proc_rel (f : nat -> nat) (n : nat) (pr pr' : procrec) : Prop :=
  exists (code : prog) (st st' : St code) (pe : evid) (tg : option evid),
    pr = mkProc code st pe tg /\ pr' = mkProc code st' (f pe) (option_map f tg) /\
    pe < n /\ (forall t, tg = Some t -> t < n) /\ pbis code f n st st'.

Definition inert (ev : event) : Prop :=
  out ev = Some (Ok VNone) /\ (cbs ev = Some [] \/ cbs ev = None).

Definition smono (f : nat -> nat) : Prop := forall i j, i < j -> f i < f j.

Record sim (f g : nat -> nat) (a b : state) : Prop := mkSim {
  sm_f : smono f;
  sm_g : smono g;
  sm_ffut : forall k, f (length (events a) + k) = length (events b) + k;
  sm_gfut : forall k, g (next_eid a + k) = next_eid b + k;
  sm_active : active b = active a;
  sm_events : forall i ev, nth_error (events a) i = Some ev ->
                evdom (length (events a)) ev = true /\ nth_error (events b) (f i) = Some (ren_ev f ev);
  sm_ghosts : forall j ev', nth_error (events b) j = Some ev' -> (forall i, i < length (events a) -> f i <> j) -> inert ev';
  sm_agenda1 : forall x, In x (agenda a) ->
                 e_ev x < length (events a) /\ e_eid x < next_eid a /\ In (ren_entry f g x) (agenda b);
  sm_agenda2 : forall y, In y (agenda b) ->
                 e_ev y < length (events b) /\ e_eid y < next_eid b /\
                 ((exists x, In x (agenda a) /\ y = ren_entry f g x) \/
                  ((forall i, i < length (events a) -> f i <> e_ev y) /\ (forall i, i < next_eid a -> g i <> e_eid y)));
  sm_procs : length (procs b) = length (procs a) /\
             forall p pr, nth_error (procs a) p = Some pr ->
               exists pr', nth_error (procs b) p = Some pr' /\ proc_rel f (length (events a)) pr pr';
  sm_glob : vsdom (length (events a)) (glob a) = true /\ glob b = ren_vals f (glob a);
  sm_obs : obs_rel f (length (events a)) (obs a) (obs b) }.

(* ------------------------------------------------------------------------------------------------ *)
(* monotone maps *)

Lemma smono_inj f : smono f -> inj f.
Proof.
  intros M i j E. destruct (Nat.lt_trichotomy i j) as [L|[L|L]]; [|exact L|].
  - pose proof (M _ _ L). lia.
  - pose proof (M _ _ L). lia.
Qed.

Lemma smono_le f : smono f -> forall i, i <= f i.
Proof. intros M. induction i as [|i IH]; [lia|]. pose proof (M i (S i) ltac:(lia)). lia. Qed.

Lemma smono_lt_iff f i j : smono f -> (f i < f j <-> i < j).
Proof.
  intros M. split; [|apply M]. intros L. destruct (Nat.lt_trichotomy i j) as [X|[X|X]]; [exact X|subst; lia|].
  pose proof (M _ _ X). lia.
Qed.

Lemma smono_eq_iff f i j : smono f -> (f i = f j <-> i = j).
Proof. intros M. split; [apply smono_inj, M|intros ->; reflexivity]. Qed.

Lemma eqb_smono f i j : smono f -> Nat.eqb (f i) (f j) = Nat.eqb i j.
Proof.
  intros M. destruct (Nat.eqb i j) eqn:E.
  - apply Nat.eqb_eq in E. subst. apply Nat.eqb_refl.
  - apply Nat.eqb_neq in E. apply Nat.eqb_neq. intros X. apply E. exact (smono_inj _ M _ _ X).
Qed.

Lemma ltb_smono f i j : smono f -> Nat.ltb (f i) (f j) = Nat.ltb i j.
Proof.
  intros M. destruct (Nat.ltb i j) eqn:E.
  - apply Nat.ltb_lt in E. apply Nat.ltb_lt. apply M, E.
  - apply Nat.ltb_ge in E. apply Nat.ltb_ge. destruct (Nat.eq_dec i j) as [->|N]; [lia|].
    assert (j < i) by lia. pose proof (M _ _ H). lia.
Qed.

(* ------------------------------------------------------------------------------------------------ *)
(* what the relation says about lookups *)

Section Sim.
  Variables (f g : nat -> nat) (a b : state).
  Hypothesis S : sim f g a b.

  Lemma sim_inj : inj f.
  Proof. apply smono_inj, (sm_f _ _ _ _ S). Qed.

  Lemma sim_f_lt i : i < length (events a) -> f i < length (events b).
  Proof.
    intros L. pose proof (sm_ffut _ _ _ _ S 0) as E. rewrite !Nat.add_0_r in E.
    pose proof (sm_f _ _ _ _ S _ _ L). lia.
  Qed.

  Lemma sim_f_ge i : length (events a) <= i -> length (events b) <= f i.
  Proof.
    intros L. pose proof (sm_ffut _ _ _ _ S (i - length (events a))) as E.
    replace (length (events a) + (i - length (events a))) with i in E by lia. lia.
  Qed.

  (* the lookup in b at a renamed id *)
  Lemma sim_get i : get_event (f i) b = option_map (ren_ev f) (get_event i a).
  Proof.
    unfold get_event. destruct (nth_error (events a) i) as [ev|] eqn:H.
    - cbn. apply (sm_events _ _ _ _ S _ _ H).
    - cbn. apply nth_error_None. apply nth_error_None in H. apply sim_f_ge, H.
  Qed.

  Lemma sim_evdom i ev : get_event i a = Some ev -> evdom (length (events a)) ev = true.
  Proof. intros H. apply (sm_events _ _ _ _ S _ _ H). Qed.

  Lemma sim_get_proc p : forall pr, get_proc p a = Some pr ->
    exists pr', get_proc p b = Some pr' /\ proc_rel f (length (events a)) pr pr'.
  Proof. intros pr H. apply (proj2 (sm_procs _ _ _ _ S) _ _ H). Qed.

  Lemma sim_get_proc_none p : get_proc p a = None -> get_proc p b = None.
  Proof.
    unfold get_proc. intros H. apply nth_error_None. apply nth_error_None in H. rewrite (proj1 (sm_procs _ _ _ _ S)). exact H.
  Qed.
End Sim.

(* ------------------------------------------------------------------------------------------------ *)
(* monotonicity in the number of allocated ids, independence from the maps above it *)

Lemma esdom_mono n n' l : n <= n' -> esdom n l = true -> esdom n' l = true.
Proof.
  intros L. unfold esdom. induction l as [|x t IH]; cbn [forallb]; [auto|]. rewrite !andb_true_iff, !Nat.ltb_lt.
  intros [A B]. split; [lia|auto].
Qed.

Lemma cbdom_mono n n' c : n <= n' -> cbdom n c = true -> cbdom n' c = true.
Proof. intros L. destruct c; cbn [cbdom]; try (intros; reflexivity); rewrite !Nat.ltb_lt; lia. Qed.

Lemma evdom_mono n n' ev : n <= n' -> evdom n ev = true -> evdom n' ev = true.
Proof.
  intros L. unfold evdom. rewrite !andb_true_iff. intros [[A B] C]. repeat split.
  - destruct (cbs ev) as [l|]; [|reflexivity]. induction l as [|x t IH]; cbn [forallb] in *; [reflexivity|].
    rewrite andb_true_iff in *. destruct A as [A1 A2]. split; [eapply cbdom_mono; eassumption|auto].
  - destruct (out ev) as [o|]; [|reflexivity]. eapply odom_mono; eassumption.
  - destruct (kind ev); try reflexivity. cbn [kdom] in *. eapply esdom_mono; eassumption.
Qed.

Lemma obdom_mono n n' o : n <= n' -> obdom n o = true -> obdom n' o = true.
Proof.
  intros L. destruct o as [e t|k e t oc|p t v]; cbn [obdom].
  - rewrite !Nat.ltb_lt. lia.
  - rewrite !andb_true_iff, !Nat.ltb_lt. intros [A B]. split; [lia|]. destruct oc; [eapply odom_mono; eassumption|reflexivity].
  - apply vdom_mono, L.
Qed.

Lemma map_agree n f f' l : agree n f f' -> esdom n l = true -> map f l = map f' l.
Proof.
  intros A. unfold esdom. induction l as [|x t IH]; cbn [forallb map]; [reflexivity|]. rewrite andb_true_iff, Nat.ltb_lt.
  intros [H1 H2]. now rewrite (A _ H1), (IH H2).
Qed.

Lemma ren_cb_agree n f f' c : agree n f f' -> cbdom n c = true -> ren_cb f c = ren_cb f' c.
Proof. intros A. destruct c; cbn [cbdom ren_cb]; try reflexivity; rewrite Nat.ltb_lt; intros H; now rewrite (A _ H). Qed.

Lemma ren_ev_agree n f f' ev : agree n f f' -> evdom n ev = true -> ren_ev f ev = ren_ev f' ev.
Proof.
  intros A. unfold evdom, ren_ev. rewrite !andb_true_iff. intros [[H1 H2] H3]. f_equal.
  - destruct (cbs ev) as [l|]; [|reflexivity]. cbn [option_map]. f_equal.
    induction l as [|x t IH]; cbn [forallb map] in *; [reflexivity|]. rewrite andb_true_iff in H1. destruct H1 as [X Y].
    now rewrite (ren_cb_agree _ _ _ _ A X), (IH Y).
  - destruct (out ev) as [o|]; [|reflexivity]. cbn [option_map]. now rewrite (ren_outcome_agree _ _ _ _ A H2).
  - destruct (kind ev); try reflexivity. cbn [kdom ren_kind] in *. now rewrite (map_agree _ _ _ _ A H3).
Qed.

Lemma ren_obs_agree n f f' o : agree n f f' -> obdom n o = true -> ren_obs f o = ren_obs f' o.
Proof.
  intros A. destruct o as [e t|k e t oc|p t v]; cbn [obdom ren_obs].
  - rewrite Nat.ltb_lt. intros H. now rewrite (A _ H).
  - rewrite andb_true_iff, Nat.ltb_lt. intros [H1 H2]. rewrite (A _ H1). f_equal.
    destruct oc as [o|]; [|reflexivity]. cbn [option_map]. now rewrite (ren_outcome_agree _ _ _ _ A H2).
  - intros H. now rewrite (ren_val_agree _ _ _ _ A H).
Qed.

Lemma obs_rel_mono f f' n n' l l' : agree n f f' -> n <= n' -> obs_rel f n l l' -> obs_rel f' n' l l'.
Proof.
  intros A L R. induction R as [|o l l' D _ IH|e t l l' _ IH]; [constructor| |constructor; exact IH].
  rewrite (ren_obs_agree _ _ _ _ A D). constructor; [eapply obdom_mono; eassumption|exact IH].
Qed.

Lemma proc_rel_intro f n code st st' pe tg :
  pe < n -> (forall t, tg = Some t -> t < n) -> pbis code f n st st' ->
  proc_rel f n (mkProc code st pe tg) (mkProc code st' (f pe) (option_map f tg)).
Proof. intros. exists code, st, st', pe, tg. auto. Qed.

Lemma proc_rel_mono f f' n n' pr pr' : agree n f f' -> n <= n' -> proc_rel f n pr pr' -> proc_rel f' n' pr pr'.
Proof.
  intros A L (code & st & st' & pe & tg & -> & -> & Hp & Ht & B).
  exists code, st, st', pe, tg. split; [reflexivity|]. split.
  - rewrite (A _ Hp). f_equal. destruct tg as [t|]; [|reflexivity]. cbn. now rewrite (A _ (Ht _ eq_refl)).
  - split; [lia|]. split; [intros t E; specialize (Ht _ E); lia|]. eapply pbis_mono; eassumption.
Qed.

(* ------------------------------------------------------------------------------------------------ *)
(* the primitives keep the relation *)

(* inside a step both clocks show the instant of the popped entry *)
Definition simn (f g : nat -> nat) (a b : state) : Prop := sim f g a b /\ now b = now a.

(* only a record of a changes that is not an event, an agenda entry or an id counter *)
Lemma sim_same_events f g a b a' b' :
  sim f g a b ->
  events a' = events a -> events b' = events b -> agenda a' = agenda a -> agenda b' = agenda b ->
  next_eid a' = next_eid a -> next_eid b' = next_eid b ->
  active b' = active a' ->
  (length (procs b') = length (procs a') /\
   forall p pr, nth_error (procs a') p = Some pr ->
     exists pr', nth_error (procs b') p = Some pr' /\ proc_rel f (length (events a)) pr pr') ->
  (vsdom (length (events a)) (glob a') = true /\ glob b' = ren_vals f (glob a')) ->
  obs_rel f (length (events a)) (obs a') (obs b') ->
  sim f g a' b'.
Proof.
  intros S Ea Eb Aa Ab Na Nb Ac Pr Gl Ob. destruct S as [F G Ff Gf _ Ev Gh A1 A2 _ _ _].
  constructor; rewrite ?Ea, ?Eb, ?Aa, ?Ab, ?Na, ?Nb; assumption.
Qed.

Lemma simn_set_active f g a b p : simn f g a b -> simn f g (set_active p a) (set_active p b).
Proof. intros [S N]. split; [|exact N]. apply (sim_same_events f g a b _ _ S); try reflexivity; apply S. Qed.

Lemma sim_set_now f g a b t t' : sim f g a b -> sim f g (set_now t a) (set_now t' b).
Proof. intros S. apply (sim_same_events f g a b _ _ S); try reflexivity; apply S. Qed.

Lemma sim_add_obs f g a b o : sim f g a b -> obdom (length (events a)) o = true -> sim f g (add_obs o a) (add_obs (ren_obs f o) b).
Proof.
  intros S D. apply (sim_same_events f g a b _ _ S); try reflexivity; try apply S. cbn. constructor; [exact D|apply S].
Qed.

Lemma simn_add_obs f g a b o :
  simn f g a b -> obdom (length (events a)) o = true -> simn f g (add_obs o a) (add_obs (ren_obs f o) b).
Proof. intros [S N] D. split; [apply sim_add_obs; assumption|exact N]. Qed.

Lemma sim_add_obs_ghost f g a b e t : sim f g a b -> sim f g a (add_obs (OStep e t) b).
Proof. intros S. apply (sim_same_events f g a b _ _ S); try reflexivity; try apply S. cbn. constructor. apply S. Qed.

Lemma simn_set_glob f g a b l :
  simn f g a b -> vsdom (length (events a)) l = true -> simn f g (set_glob l a) (set_glob (ren_vals f l) b).
Proof.
  intros [S N] D. split; [|exact N]. apply (sim_same_events f g a b _ _ S); try reflexivity; try apply S. split; [exact D|reflexivity].
Qed.

Lemma simn_upd_proc f g a b p h h' :
  simn f g a b ->
  (forall pr pr', proc_rel f (length (events a)) pr pr' -> proc_rel f (length (events a)) (h pr) (h' pr')) ->
  simn f g (upd_proc p h a) (upd_proc p h' b).
Proof.
  intros [S N] H. split; [|exact N]. apply (sim_same_events f g a b _ _ S); try reflexivity; try apply S.
  destruct (sm_procs _ _ _ _ S) as [L P]. cbn. split; [rewrite !upd_nth_length; exact L|].
  intros q pr. rewrite !nth_error_upd_nth. destruct (Nat.eqb q p).
  - destruct (nth_error (procs a) q) as [pr0|] eqn:E; cbn; [|discriminate]. intros X; injection X as <-.
    destruct (P _ _ E) as (pr0' & E' & R). rewrite E'. cbn. eexists. split; [reflexivity|apply H, R].
  - apply P.
Qed.

Lemma sim_add_proc f g a b pr pr' :
  sim f g a b -> proc_rel f (length (events a)) pr pr' ->
  sim f g (set_procs (procs a ++ [pr]) a) (set_procs (procs b ++ [pr']) b).
Proof.
  intros S R. apply (sim_same_events f g a b _ _ S); try reflexivity; try apply S.
  destruct (sm_procs _ _ _ _ S) as [L P]. cbn. split; [rewrite !app_length, L; reflexivity|].
  intros q pr0 H. destruct (nth_error_snoc_inv _ _ _ _ H) as [Hq|[-> ->]].
  - destruct (P _ _ Hq) as (pr0' & E' & R0). exists pr0'. split; [|exact R0]. apply nth_error_app_old, E'.
  - exists pr'. split; [|exact R]. rewrite <- L. apply nth_error_last.
Qed.

(* one event record changes, on both sides in the same way *)
Lemma simn_upd_event f g a b i h h' :
  simn f g a b ->
  (forall ev, get_event i a = Some ev -> evdom (length (events a)) ev = true ->
     evdom (length (events a)) (h ev) = true /\ ren_ev f (h ev) = h' (ren_ev f ev)) ->
  simn f g (upd_event i h a) (upd_event (f i) h' b).
Proof.
  intros [S Nw] H. split; [|exact Nw]. pose proof (sim_inj _ _ _ _ S) as I. destruct S as [F G Ff Gf Ac Ev Gh A1 A2 Pr Gl Ob].
  constructor; cbn [upd_event set_events events agenda next_eid active procs glob obs]; rewrite ?upd_nth_length; try assumption.
  - intros j ev. rewrite !nth_error_upd_nth. rewrite (eqb_smono _ _ _ F). destruct (Nat.eqb j i) eqn:E.
    + apply Nat.eqb_eq in E. subst j. destruct (nth_error (events a) i) as [ev0|] eqn:E0; cbn; [|discriminate].
      intros X; injection X as <-. destruct (Ev _ _ E0) as [D0 B0]. destruct (H _ E0 D0) as [D1 R1].
      split; [exact D1|]. rewrite B0. cbn. now rewrite R1.
    + apply Ev.
  - intros j ev'. rewrite nth_error_upd_nth. destruct (Nat.eqb j (f i)) eqn:E.
    + apply Nat.eqb_eq in E. subst j. destruct (nth_error (events b) (f i)) as [ev0|] eqn:E0; cbn; [|discriminate].
      intros _ N. destruct (Nat.lt_ge_cases i (length (events a))) as [L|L]; [destruct (N _ L eq_refl)|].
      exfalso. assert (Lt : f i < length (events b)) by (apply nth_error_Some; congruence).
      pose proof (Ff (i - length (events a))) as X.
      replace (length (events a) + (i - length (events a))) with i in X by lia. lia.
    + apply Gh.
Qed.

(* a new event on both sides *)
Lemma simn_new_event f g a b ev :
  simn f g a b -> evdom (S (length (events a))) ev = true ->
  simn f g (snd (new_event ev a)) (snd (new_event (ren_ev f ev) b)).
Proof.
  intros [S Nw] D. split; [|exact Nw]. destruct S as [F G Ff Gf Ac Ev Gh A1 A2 Pr Gl Ob].
  assert (F0 : f (length (events a)) = length (events b)) by (pose proof (Ff 0) as X; now rewrite !Nat.add_0_r in X).
  constructor; cbn [new_event snd set_events events agenda next_eid active procs glob obs]; rewrite ?app_length; cbn [length]; try assumption.
  - intros k. replace (length (events a) + 1 + k) with (length (events a) + (1 + k)) by lia. rewrite Ff. lia.
  - intros j ev0 H. destruct (nth_error_snoc_inv _ _ _ _ H) as [Hj|[-> ->]].
    + destruct (Ev _ _ Hj) as [D0 B0]. split; [eapply evdom_mono; [|exact D0]; lia|].
      apply nth_error_app_old, B0.
    + split; [rewrite Nat.add_1_r; exact D|]. rewrite F0. apply nth_error_last.
  - intros j ev' H N. destruct (nth_error_snoc_inv _ _ _ _ H) as [Hj|[-> _]].
    + apply (Gh _ _ Hj). intros i Li. apply N. lia.
    + exfalso. apply (N (length (events a))); [lia|exact F0].
  - intros x Hx. destruct (A1 _ Hx) as (X1 & X2 & X3). split; [lia|]. split; assumption.
  - intros y Hy. destruct (A2 _ Hy) as (Y1 & Y2 & Y3). split; [lia|]. split; [exact Y2|].
    destruct Y3 as [L|[N1 N2]]; [left; exact L|right]. split; [|exact N2].
    intros i Li. destruct (Nat.eq_dec i (length (events a))) as [->|Ne]; [rewrite F0; lia|]. apply N1. lia.
  - destruct Pr as [L P]. split; [exact L|]. intros p pr H. destruct (P _ _ H) as (pr' & H' & R). exists pr'. split; [exact H'|].
    eapply proc_rel_mono; [apply agree_refl| |exact R]. lia.
  - destruct Gl as [D0 E0]. split; [eapply vsdom_mono; [|exact D0]; lia|exact E0].
  - eapply obs_rel_mono; [apply agree_refl| |exact Ob]. lia.
Qed.

(* Environment.schedule on both sides (the clocks agree) *)
Lemma simn_schedule f g a b e p d :
  simn f g a b -> e < length (events a) -> simn f g (schedule e p d a) (schedule (f e) p d b).
Proof.
  intros [S Nw] L. split; [|exact Nw]. pose proof (sim_f_lt _ _ _ _ S _ L) as Lb. destruct S as [F G Ff Gf Ac Ev Gh A1 A2 Pr Gl Ob].
  assert (G0 : g (next_eid a) = next_eid b) by (pose proof (Gf 0) as X; now rewrite !Nat.add_0_r in X).
  constructor; cbn [schedule events agenda next_eid active procs glob obs]; try assumption.
  - intros k. replace (S (next_eid a) + k) with (next_eid a + (1 + k)) by lia. rewrite Gf. lia.
  - intros x Hx. apply in_app_or in Hx. destruct Hx as [Hx|[<-|[]]].
    + destruct (A1 _ Hx) as (X1 & X2 & X3). split; [exact X1|]. split; [lia|]. apply in_or_app. left. exact X3.
    + cbn [e_ev e_eid]. split; [exact L|]. split; [lia|]. apply in_or_app. right. left.
      unfold ren_entry. cbn [e_time e_prio e_eid e_ev]. rewrite G0, Nw. reflexivity.
  - intros y Hy. apply in_app_or in Hy. destruct Hy as [Hy|[<-|[]]].
    + destruct (A2 _ Hy) as (Y1 & Y2 & Y3). split; [exact Y1|]. split; [lia|].
      destruct Y3 as [(x & Hx & ->)|[N1 N2]].
      * left. exists x. split; [apply in_or_app; left; exact Hx|reflexivity].
      * right. split; [exact N1|]. intros i Li. destruct (Nat.eq_dec i (next_eid a)) as [->|Ne]; [rewrite G0; lia|]. apply N2. lia.
    + cbn [e_ev e_eid]. split; [exact Lb|]. split; [lia|]. left.
      exists (mkEntry (Qred (now a + d)) p (next_eid a) e). split; [apply in_or_app; right; left; reflexivity|].
      unfold ren_entry. cbn [e_time e_prio e_eid e_ev]. rewrite G0, Nw. reflexivity.
Qed.
