(* Kernel/DeliverWf.v -- C02, part 3: well-formedness that holds in EVERY execution (whatever escapes from whatever loop):

     uinv s :=  every agenda entry names an existing, triggered event
             /\ the Process event of every process exists.

   Consequence used by the C02 theorems: the [RBroken] answers "agenda entry naming no event", "popped event has no outcome",
   "process has no Process event" are unreachable. *)
From Coq Require Import ZArith QArith List Bool Lia.
From ONL Require Import Kernel.Model Kernel.Keys Kernel.Prims Kernel.Deliver.
Import ListNotations.
Local Open Scope nat_scope.

Definition is_proc_kind (k : ekind) : bool := match k with KProcess _ => true | _ => false end.

(* the Process event of a process record exists and is a Process event *)
Definition pev_ok (s : state) (pr : procrec) : Prop :=
  exists pe, get_event (pev pr) s = Some pe /\ is_proc_kind (kind pe) = true.

Definition uinv (s : state) : Prop :=
  (forall x, In x (agenda s) -> exists ev, get_event (e_ev x) s = Some ev /\ out ev <> None) /\
  (forall p pr, get_proc p s = Some pr -> pev_ok s pr).

Lemma ksame_proc k k' : ksame k k' -> is_proc_kind k = true -> is_proc_kind k' = true.
Proof. destruct k; cbn; try discriminate. intros <- _. reflexivity. Qed.

Lemma pev_ok_grows s s' pr : grows s s' -> pev_ok s pr -> pev_ok s' pr.
Proof.
  intros G (pe & H & K). destruct (G _ _ H) as (pe' & H' & Le). exists pe'. split; [exact H'|].
  eapply ksame_proc; [apply (le_kind _ _ Le)|exact K].
Qed.

Lemma pev_ok_lt s pr : pev_ok s pr -> pev pr < length (events s).
Proof. intros (pe & H & _). eapply get_event_lt, H. Qed.

Lemma grows_lt s s' x : grows s s' -> x < length (events s) -> x < length (events s').
Proof.
  intros G L. destruct (nth_error (events s) x) as [ev|] eqn:H; [|apply nth_error_None in H; lia].
  destruct (G x ev H) as (ev' & H' & _). eapply get_event_lt, H'.
Qed.

Lemma get_event_some s x : x < length (events s) -> exists ev, get_event x s = Some ev.
Proof. intros L. unfold get_event. destruct (nth_error (events s) x) eqn:H; [eauto|apply nth_error_None in H; lia]. Qed.

(* agenda and processes untouched, events grown *)
Lemma uinv_frame s s' : agenda s' = agenda s -> procs s' = procs s -> grows s s' -> uinv s -> uinv s'.
Proof.
  intros A P G [U1 U2]. split.
  - intros x Hx. rewrite A in Hx. destruct (U1 x Hx) as (ev & H & O). destruct (G _ _ H) as (ev' & H' & Le).
    exists ev'. split; [exact H'|apply (le_out _ _ Le), O].
  - intros p pr H. unfold get_proc in H. rewrite P in H. eapply pev_ok_grows; [exact G|]. exact (U2 p pr H).
Qed.

Lemma uinv_upd_event e f s : (forall ev, get_event e s = Some ev -> ev_le ev (f ev)) -> uinv s -> uinv (upd_event e f s).
Proof. intros Hf. apply uinv_frame; try reflexivity. apply grows_upd_event, Hf. Qed.

Lemma uinv_new_event ev s : uinv s -> uinv (snd (new_event ev s)).
Proof. apply uinv_frame; try reflexivity. apply grows_new_event. Qed.

Lemma uinv_schedule e p d s ev : get_event e s = Some ev -> out ev <> None -> uinv s -> uinv (schedule e p d s).
Proof.
  intros H O [U1 U2]. split; [|exact U2].
  intros x Hx. cbn [schedule agenda] in Hx. apply in_app_or in Hx. destruct Hx as [Hx|[<-|[]]].
  - exact (U1 x Hx).
  - cbn [e_ev]. exists ev. auto.
Qed.

Lemma uinv_trigger e o s : e < length (events s) -> uinv s -> uinv (trigger_event e o s).
Proof.
  intros L U. destruct (get_event_some _ _ L) as (ev & H). unfold trigger_event.
  eapply uinv_schedule; [apply get_event_upd_same, H|cbn; discriminate|].
  apply uinv_upd_event; [|exact U]. intros ev0 _. constructor; cbn; auto; [discriminate|apply ksame_refl].
Qed.

Lemma uinv_add_callback e c s : uinv s -> uinv (add_callback e c s).
Proof. apply uinv_frame; try reflexivity. apply grows_add_callback. Qed.

Lemma uinv_new_scheduled ev p d s :
  out ev <> None -> uinv s -> uinv (schedule (length (events s)) p d (snd (new_event ev s))).
Proof.
  intros O U. eapply uinv_schedule; [apply get_event_new_self|exact O|apply uinv_new_event, U].
Qed.

Lemma uinv_upd_proc p f s : (forall pr, get_proc p s = Some pr -> pev (f pr) = pev pr) -> uinv s -> uinv (upd_proc p f s).
Proof.
  intros Hf [A B]. split; [exact A|].
  intros q pr H. rewrite get_proc_upd in H. destruct (Nat.eqb q p) eqn:E; [|exact (B q pr H)].
  apply Nat.eqb_eq in E. subst q. destruct (get_proc p s) as [pr0|] eqn:H0; [|discriminate]. cbn in H. injection H as <-.
  destruct (B p pr0 H0) as (pe & G & K). exists pe. rewrite (Hf pr0 eq_refl). auto.
Qed.

Lemma uinv_set_active a s : uinv s -> uinv (set_active a s).
Proof. apply uinv_frame; try reflexivity. apply grows_same_events. reflexivity. Qed.

Lemma grows_feed_state e o s : grows s (feed_state e o s).
Proof. destruct o; cbn; [apply grows_refl|apply grows_set_defused]. Qed.

Lemma uinv_kprim b T s s' : kprim b T s s' -> uinv s -> uinv s'.
Proof.
  intros [s0 s1 (_ & Ha & _ & Hv & Hp)|ev s0 _ _ _|ev prio d s0 O _ _ _ _|e ev o s0 H _|p pr o s0 H|e c s0 _|e ev l x s0 H C _
         |e s0|c cev all ops n s0 H Kc _|c cev v v' s0 _ _ _|p pr f s0 _ H E|pr ev s0 H Kp|t s0 _ _|e s0 _] U.
  - (* k_frame *) exact (uinv_frame _ _ Ha Hp (grows_same_events _ _ Hv) U).
  - (* k_new *) apply uinv_new_event, U.
  - (* k_born *) apply uinv_new_scheduled; assumption.
  - (* k_trig *) apply uinv_trigger; [eapply get_event_lt, H|exact U].
  - (* k_ptrig *) apply uinv_trigger; [apply pev_ok_lt, (proj2 U p pr H)|exact U].
  - (* k_addcb *) apply uinv_add_callback, U.
  - (* k_rmcb *) apply uinv_frame with (s := s0); try reflexivity; [|exact U]. apply grows_set_cbs.
    intros _ ev0 H0. rewrite H in H0. injection H0 as <-. rewrite C. discriminate.
  - (* k_defuse *) apply uinv_frame with (s := s0); try reflexivity; [apply grows_set_defused|exact U].
  - (* k_count *) apply uinv_upd_event; [|exact U]. intros ev Hev. rewrite H in Hev. injection Hev as <-.
    constructor; cbn; auto. rewrite Kc. cbn. auto.
  - (* k_value *) apply uinv_frame with (s := s0); try reflexivity; [apply grows_set_out|exact U].
  - (* k_proc *) apply uinv_upd_proc; [|exact U]. intros pr0 H0. rewrite H in H0. injection H0 as <-. exact E.
  - (* k_spawn *) destruct U as [A B]. split; [exact A|]. intros q pr0 Hq. unfold get_proc in Hq. cbn in Hq.
    destruct (nth_error_snoc_inv _ _ _ _ Hq) as [H0|[_ ->]]; [exact (B q pr0 H0)|].
    exists ev. split; [exact H|rewrite Kp; reflexivity].
  - (* k_sentinel *) apply uinv_new_scheduled; [discriminate|exact U].
  - (* k_stopcb *) apply uinv_add_callback, U.
Qed.

Lemma uinv_kchain b T s s' : kchain b T s s' -> uinv s -> uinv s'.
Proof. exact (kchain_rel b T (fun s s' => uinv s -> uinv s') (fun _ U => U) (fun _ _ _ F G U => G (F U)) (uinv_kprim b T) s s'). Qed.

Lemma uinv_do_call codes c s : uinv s -> uinv (fst (do_call codes c s)).
Proof. exact (uinv_kchain _ _ _ _ (kc_do_call true Tall codes c s)). Qed.

Lemma uinv_run_frag {A} codes (f : frag A) : forall s, uinv s -> uinv (fst (run_frag codes f s)).
Proof. intros s. exact (uinv_kchain _ _ _ _ (kc_run_frag true Tall codes f s)). Qed.

Lemma uinv_run_cb fuel codes e c s : uinv s -> uinv (fst (run_cb fuel codes e c s)).
Proof. exact (uinv_kchain _ _ _ _ (kc_run_cb true fuel codes e c s)). Qed.

Lemma uinv_run_callbacks fuel codes e l : forall s, uinv s -> uinv (fst (run_callbacks fuel codes e l s)).
Proof. intros s. exact (uinv_kchain _ _ _ _ (kc_run_callbacks true fuel codes e l s)). Qed.

Lemma uinv_cb_chain fuel codes e l s s' : cb_chain fuel codes e l s s' -> uinv s -> uinv s'.
Proof.
  induction 1 as [s|c t s s1 r s' R _ _ IH]; [auto|]. intros U. apply IH.
  pose proof (uinv_run_cb fuel codes e c s U) as X. now rewrite R in X.
Qed.

Lemma uinv_pop_state m rest s : pop_min (agenda s) = Some (m, rest) -> uinv s -> uinv (pop_state m rest s).
Proof.
  intros P [A B]. destruct (pop_min_spec _ _ _ P) as (_ & -> & _). split; [|exact B].
  intros x Hx. cbn in Hx. apply remove_eid_subset in Hx. exact (A x Hx).
Qed.

Lemma uinv_loop_start m rest s : pop_min (agenda s) = Some (m, rest) -> uinv s -> uinv (loop_start m rest s).
Proof.
  intros P U. unfold loop_start. apply uinv_upd_event; [|apply uinv_pop_state; assumption].
  intros ev _. constructor; cbn; auto. apply ksame_refl.
Qed.

Lemma uinv_step fuel codes s : uinv s -> uinv (fst (step fuel codes s)).
Proof.
  intros U. destruct (step fuel codes s) as [s' r] eqn:E. cbn [fst].
  destruct (step_below true _ _ _ _ _ E) as [(_ & -> & _)|(m & rest & P & [(ev & l & _ & _ & C)|[_ ->]])]; [exact U| |].
  - exact (uinv_kchain _ _ _ _ C (uinv_loop_start m rest s P U)).
  - exact (uinv_pop_state m rest s P U).
Qed.

Lemma uinv_run_prelude u s s1 : run_prelude u s = inr s1 -> uinv s -> uinv s1.
Proof. intros H. exact (uinv_kchain _ _ _ _ (kc_run_prelude Tall u s s1 H)). Qed.

Lemma uinv_run_loop fuel codes u : forall n s, uinv s -> uinv (fst (run_loop n fuel codes u s)).
Proof.
  induction n as [|n IH]; intros s U; cbn [run_loop]; [exact U|].
  pose proof (uinv_step fuel codes s U) as X. destruct (step fuel codes s) as [s1 r]. cbn [fst] in X.
  destruct r; try exact X. apply IH, X.
Qed.

Lemma uinv_run fuel codes u s : uinv s -> uinv (fst (run fuel codes u s)).
Proof.
  intros U. unfold run. destruct (run_prelude u s) as [[s' r]|s1] eqn:P.
  - apply run_prelude_inl in P. subst s'. exact U.
  - apply uinv_run_loop. eapply uinv_run_prelude; eauto.
Qed.

Lemma uinv_init t0 : uinv (init_state t0).
Proof. split; [intros x []|]. intros p pr H. destruct p; discriminate. Qed.

Lemma uinv_later codes s s' : later codes s s' -> uinv s -> uinv s'.
Proof.
  induction 1 as [s|s s' A f _ IH|s s' u s1 _ IH P|s s' fuel _ IH|s s' fuel u _ IH]; intros U.
  - exact U.
  - apply uinv_run_frag, IH, U.
  - eapply uinv_run_prelude; [exact P|]. apply IH, U.
  - apply uinv_step, IH, U.
  - apply uinv_run, IH, U.
Qed.
