(* Kernel/IntrBase.v -- groundwork for C04 (interrupts): list/callback lemmas, access lemmas for the state
   updaters of Kernel/Model.v, and the two-state relation [mono T s s'] ("between s and s' -- inside one step or
   one block of module-level code -- events and processes are only added; an event keeps the shape of its kind,
   stays triggered / processed once it is, an Initialize / Interruption event keeps its outcome; the record of a
   process outside T is untouched; the clock does not move").  It holds of every primitive of Kernel/Prims.v, hence
   of every function of the model, each being a chain of primitives. *)
From Coq Require Import ZArith QArith List Bool Lia Lqa.
From ONL Require Import Kernel.Model Kernel.Keys Kernel.Prims.
Import ListNotations.

(* ------------------------------------------------------------------------------------------------ *)
(* callbacks *)

Lemma cb_eqb_eq a b : cb_eqb a b = true <-> a = b.
Proof.
  destruct a, b; cbn; try (split; [discriminate|intros H; discriminate H]);
    try (rewrite Nat.eqb_eq; split; [intros ->; reflexivity|intros H; injection H; auto]).
  split; reflexivity.
Qed.

Lemma cb_eqb_refl a : cb_eqb a a = true.
Proof. apply cb_eqb_eq. reflexivity. Qed.

Lemma cb_eqb_neq a b : cb_eqb a b = false <-> a <> b.
Proof.
  split.
  - intros H E. apply cb_eqb_eq in E. congruence.
  - intros H. destruct (cb_eqb a b) eqn:E; [|reflexivity]. apply cb_eqb_eq in E. contradiction.
Qed.

Lemma cb_eq_dec (a b : cb) : {a = b} + {a <> b}.
Proof. destruct (cb_eqb a b) eqn:E; [left; apply cb_eqb_eq, E|right; apply cb_eqb_neq, E]. Qed.

(* number of occurrences *)
Fixpoint cnt (c : cb) (l : list cb) : nat :=
  match l with
  | [] => 0
  | x :: t => (if cb_eqb x c then 1 else 0) + cnt c t
  end.

Lemma cnt_pos c l : In c l <-> (0 < cnt c l)%nat.
Proof.
  induction l as [|x t IH]; cbn [cnt In]; [split; [tauto|lia]|].
  destruct (cb_eqb x c) eqn:E.
  - apply cb_eqb_eq in E. split; [lia|]. intros _. left. exact E.
  - apply cb_eqb_neq in E. rewrite IH. cbn. split; [intros [H|H]; [contradiction|exact H]|auto].
Qed.

Lemma cnt_zero c l : ~ In c l <-> cnt c l = 0%nat.
Proof. rewrite cnt_pos. lia. Qed.

Lemma cnt_app c l1 l2 : cnt c (l1 ++ l2) = (cnt c l1 + cnt c l2)%nat.
Proof. induction l1 as [|x t IH]; cbn [cnt app]; [reflexivity|]. rewrite IH. lia. Qed.

Lemma cnt_single c d : cnt c [d] = if cb_eqb d c then 1%nat else 0%nat.
Proof. cbn. lia. Qed.

Lemma mem_cb_in c l : mem_cb c l = true <-> In c l.
Proof.
  unfold mem_cb. rewrite existsb_exists. split.
  - intros (x & Hx & E). apply cb_eqb_eq in E. subst x. exact Hx.
  - intros H. exists c. split; [exact H|apply cb_eqb_refl].
Qed.

Lemma mem_cb_false c l : mem_cb c l = false <-> ~ In c l.
Proof. rewrite <- mem_cb_in. destruct (mem_cb c l); split; congruence. Qed.

Lemma in_remove_first x c l : In x (remove_first c l) -> In x l.
Proof.
  induction l as [|y t IH]; cbn [remove_first]; [tauto|].
  destruct (cb_eqb y c); [intros H; right; exact H|].
  intros [H|H]; [left; exact H|right; apply IH, H].
Qed.

Lemma in_remove_first_other x c l : x <> c -> In x l -> In x (remove_first c l).
Proof.
  intros N. induction l as [|y t IH]; cbn [remove_first]; [tauto|].
  destruct (cb_eqb y c) eqn:E.
  - apply cb_eqb_eq in E. subst y. intros [H|H]; [congruence|exact H].
  - intros [H|H]; [left; exact H|right; apply IH, H].
Qed.

Lemma cnt_remove_first_other c d l : c <> d -> cnt c (remove_first d l) = cnt c l.
Proof.
  intros N. induction l as [|y t IH]; cbn [remove_first cnt]; [reflexivity|].
  destruct (cb_eqb y d) eqn:E.
  - apply cb_eqb_eq in E. subst y.
    assert (cb_eqb d c = false) as -> by (apply cb_eqb_neq; congruence). reflexivity.
  - cbn [cnt]. rewrite IH. reflexivity.
Qed.

Lemma cnt_remove_first_same c l : cnt c (remove_first c l) = pred (cnt c l).
Proof.
  induction l as [|y t IH]; cbn [remove_first cnt]; [reflexivity|].
  destruct (cb_eqb y c) eqn:E; [cbn; lia|].
  cbn [cnt]. rewrite E, IH. reflexivity.
Qed.

(* the callbacks the interrupt property is about: process resumptions and interruptions *)
Definition is_core (c : cb) : bool := match c with CbResume _ | CbInterrupt _ => true | _ => false end.

(* ------------------------------------------------------------------------------------------------ *)
(* lists with update *)

(* ------------------------------------------------------------------------------------------------ *)
(* access lemmas *)

(* ------------------------------------------------------------------------------------------------ *)
(* kinds *)

Definition kshape (k : ekind) : ekind := match k with KCond a ops _ => KCond a ops 0 | _ => k end.
Definition urgent_kind (k : ekind) : bool := match k with KInit _ | KInterruption _ => true | _ => false end.

Lemma kshape_eq_interruption k k' p : kshape k' = kshape k -> k = KInterruption p -> k' = KInterruption p.
Proof. intros H ->. destruct k'; cbn in H; congruence. Qed.
Lemma kshape_eq_init k k' p : kshape k' = kshape k -> k = KInit p -> k' = KInit p.
Proof. intros H ->. destruct k'; cbn in H; congruence. Qed.
Lemma kshape_eq_process k k' p : kshape k' = kshape k -> k = KProcess p -> k' = KProcess p.
Proof. intros H ->. destruct k'; cbn in H; congruence. Qed.
Lemma kshape_urgent k k' : kshape k' = kshape k -> urgent_kind k' = urgent_kind k.
Proof. destruct k, k'; cbn; congruence. Qed.

(* ------------------------------------------------------------------------------------------------ *)
(* the relation *)

(* the event of a process is a Process event carrying its pid *)
Definition pevK (s : state) : Prop :=
  forall p pr, get_proc p s = Some pr -> exists ev, get_event (pev pr) s = Some ev /\ kind ev = KProcess p.

Definition ev_mono (ev ev' : event) : Prop :=
  kshape (kind ev') = kshape (kind ev) /\
  (out ev <> None -> out ev' <> None) /\
  (cbs ev = None -> cbs ev' = None) /\
  (urgent_kind (kind ev) = true -> out ev <> None -> out ev' = out ev).

Lemma ev_mono_refl ev : ev_mono ev ev.
Proof. repeat split; auto. Qed.

Lemma ev_mono_trans a b c : ev_mono a b -> ev_mono b c -> ev_mono a c.
Proof.
  intros (A1 & A2 & A3 & A4) (B1 & B2 & B3 & B4). repeat split.
  - congruence.
  - auto.
  - auto.
  - intros U O. rewrite B4; [apply A4; assumption| |apply A2, O].
    rewrite (kshape_urgent _ _ A1). exact U.
Qed.

Record monor (T : pid -> Prop) (s s' : state) : Prop := mkMonor {
  m_pevK : pevK s';
  m_now : now s' = now s;
  m_ev : forall e ev, get_event e s = Some ev -> exists ev', get_event e s' = Some ev' /\ ev_mono ev ev';
  m_pr : forall q pr, get_proc q s = Some pr ->
         exists pr', get_proc q s' = Some pr' /\ pev pr' = pev pr /\ (~ T q -> pr' = pr) }.

Definition mono (T : pid -> Prop) (s s' : state) : Prop := pevK s -> monor T s s'.

Lemma monor_refl T s : pevK s -> monor T s s.
Proof.
  intros K. constructor; [exact K|reflexivity| |].
  - intros e ev H. exists ev. split; [exact H|apply ev_mono_refl].
  - intros q pr H. exists pr. auto.
Qed.

Lemma monor_trans T s s1 s2 : monor T s s1 -> monor T s1 s2 -> monor T s s2.
Proof.
  intros [K1 N1 E1 P1] [K2 N2 E2 P2]. constructor; [exact K2|congruence| |].
  - intros e ev H. destruct (E1 _ _ H) as (ev1 & H1 & M1). destruct (E2 _ _ H1) as (ev2 & H2 & M2).
    exists ev2. split; [exact H2|eapply ev_mono_trans; eassumption].
  - intros q pr H. destruct (P1 _ _ H) as (pr1 & H1 & A1 & B1). destruct (P2 _ _ H1) as (pr2 & H2 & A2 & B2).
    exists pr2. split; [exact H2|]. split; [congruence|]. intros N. rewrite (B2 N). apply B1, N.
Qed.

Lemma monor_weaken (T T' : pid -> Prop) s s' : (forall q, T q -> T' q) -> monor T s s' -> monor T' s s'.
Proof.
  intros HT [K N E P]. constructor; try assumption.
  intros q pr H. destruct (P _ _ H) as (pr' & H1 & A & B). exists pr'. split; [exact H1|]. split; [exact A|].
  intros N'. apply B. intros X. apply N', HT, X.
Qed.

Lemma mono_refl T s : mono T s s.
Proof. intros K. apply monor_refl, K. Qed.

Lemma mono_trans T s s1 s2 : mono T s s1 -> mono T s1 s2 -> mono T s s2.
Proof. intros H1 H2 K. pose proof (H1 K) as X. eapply monor_trans; [exact X|]. apply H2, (m_pevK _ _ _ X). Qed.

Lemma mono_bind T s s1 s2 : mono T s s1 -> (pevK s -> monor T s s1 -> mono T s1 s2) -> mono T s s2.
Proof.
  intros H1 H2 K. pose proof (H1 K) as X. eapply monor_trans; [exact X|]. apply (H2 K X), (m_pevK _ _ _ X).
Qed.

Lemma mono_weaken (T T' : pid -> Prop) s s' : (forall q, T q -> T' q) -> mono T s s' -> mono T' s s'.
Proof. intros HT H K. eapply monor_weaken; [exact HT|apply H, K]. Qed.

(* ---- primitives ---- *)

Lemma mono_frame T s s' : now s' = now s -> events s' = events s -> procs s' = procs s -> mono T s s'.
Proof.
  intros Hn He Hp K. constructor.
  - intros p pr. unfold get_proc, get_event. rewrite Hp, He. apply K.
  - exact Hn.
  - intros e ev. unfold get_event. rewrite He. intros H. exists ev. split; [exact H|apply ev_mono_refl].
  - intros q pr. unfold get_proc. rewrite Hp. intros H. exists pr. auto.
Qed.

Lemma mono_set_active T a s : mono T s (set_active a s). Proof. apply mono_frame; reflexivity. Qed.
Lemma mono_add_obs T o s : mono T s (add_obs o s). Proof. apply mono_frame; reflexivity. Qed.
Lemma mono_schedule T e pr d s : mono T s (schedule e pr d s). Proof. apply mono_frame; reflexivity. Qed.

Lemma mono_upd_event T e f s :
  (pevK s -> forall ev, get_event e s = Some ev -> ev_mono ev (f ev)) -> mono T s (upd_event e f s).
Proof.
  intros Hf K. constructor.
  - intros p pr H. change (get_proc p s = Some pr) in H. destruct (K _ _ H) as (ev & H1 & H2).
    rewrite get_event_upd. destruct (Nat.eqb (pev pr) e) eqn:E.
    + apply Nat.eqb_eq in E. rewrite H1. cbn. exists (f ev). split; [reflexivity|].
      rewrite <- E in Hf. destruct (Hf K _ H1) as (A & _). apply (kshape_eq_process _ _ _ A H2).
    + exists ev. split; assumption.
  - reflexivity.
  - intros e0 ev H. rewrite get_event_upd. destruct (Nat.eqb e0 e) eqn:E.
    + apply Nat.eqb_eq in E. subst e0. rewrite H. cbn. exists (f ev). split; [reflexivity|apply Hf; assumption].
    + exists ev. split; [exact H|apply ev_mono_refl].
  - intros q pr H. exists pr. auto.
Qed.

Lemma mono_new_event T ev s : mono T s (snd (new_event ev s)).
Proof.
  intros K. constructor.
  - intros p pr H. change (get_proc p s = Some pr) in H. destruct (K _ _ H) as (ev0 & H1 & H2).
    exists ev0. split; [apply get_event_new_old, H1|exact H2].
  - reflexivity.
  - intros e ev0 H. exists ev0. split; [apply get_event_new_old, H|apply ev_mono_refl].
  - intros q pr H. exists pr. auto.
Qed.

Lemma mono_upd_proc (T : pid -> Prop) p f s :
  T p -> (forall pr, get_proc p s = Some pr -> pev (f pr) = pev pr) -> mono T s (upd_proc p f s).
Proof.
  intros HT Hf K. constructor.
  - intros q pr. rewrite get_proc_upd. destruct (Nat.eqb q p) eqn:E.
    + apply Nat.eqb_eq in E. subst q. destruct (get_proc p s) as [pr0|] eqn:H; cbn; [|discriminate].
      intros H'; injection H' as <-. rewrite (Hf _ eq_refl). apply (K _ _ H).
    + apply K.
  - reflexivity.
  - intros e ev H. exists ev. split; [exact H|apply ev_mono_refl].
  - intros q pr H. rewrite get_proc_upd. destruct (Nat.eqb q p) eqn:E.
    + apply Nat.eqb_eq in E. subst q. rewrite H. cbn. exists (f pr). split; [reflexivity|]. split; [apply Hf, H|].
      intros N. contradiction.
    + exists pr. auto.
Qed.

Lemma mono_add_proc T pr s :
  (exists ev, get_event (pev pr) s = Some ev /\ kind ev = KProcess (length (procs s))) ->
  mono T s (set_procs (procs s ++ [pr]) s).
Proof.
  intros Hev K. constructor.
  - intros q pr0 H. apply nth_error_snoc_inv in H. destruct H as [H|(-> & ->)]; [apply K, H|exact Hev].
  - reflexivity.
  - intros e ev H. exists ev. split; [exact H|apply ev_mono_refl].
  - intros q pr0 H. exists pr0. split; [apply nth_error_app_old, H|auto].
Qed.

(* event-field setters *)
Lemma mono_set_cbs T e c s : (c = None \/ forall ev, get_event e s = Some ev -> cbs ev <> None) -> mono T s (upd_event e (ev_set_cbs c) s).
Proof.
  intros Hc. apply mono_upd_event. intros _ ev H. repeat split; auto. cbn. intros N.
  destruct Hc as [->|Hc]; [reflexivity|]. exfalso. exact (Hc _ H N).
Qed.

Lemma mono_set_defused T e s : mono T s (upd_event e ev_set_defused s).
Proof. apply mono_upd_event. intros _ ev _. repeat split; auto. Qed.

Lemma mono_set_kind_cond T e a ops n s :
  (forall ev, get_event e s = Some ev -> exists n0, kind ev = KCond a ops n0) ->
  mono T s (upd_event e (ev_set_kind (KCond a ops n)) s).
Proof.
  intros Hk. apply mono_upd_event. intros _ ev H. destruct (Hk _ H) as (n0 & E). repeat split; auto.
  cbn. rewrite E. reflexivity.
Qed.

(* setting an outcome: allowed on untriggered events and on events that are not Initialize / Interruption *)
Lemma mono_set_out T e o s :
  (pevK s -> forall ev, get_event e s = Some ev -> out ev = None \/ urgent_kind (kind ev) = false) ->
  mono T s (upd_event e (ev_set_out (Some o)) s).
Proof.
  intros Hk. apply mono_upd_event. intros K ev H. repeat split; auto.
  - cbn. discriminate.
  - cbn. intros U O. destruct (Hk K _ H) as [X|X]; congruence.
Qed.

Lemma mono_add_callback T e c s : mono T s (add_callback e c s).
Proof.
  apply mono_upd_event. intros _ ev _. unfold ev_add_cb. destruct (cbs ev) eqn:C; repeat split; auto.
  cbn. congruence.
Qed.

Lemma mono_trigger T e o s :
  (pevK s -> forall ev, get_event e s = Some ev -> out ev = None \/ urgent_kind (kind ev) = false) ->
  mono T s (trigger_event e o s).
Proof. intros H. unfold trigger_event. eapply mono_trans; [apply mono_set_out, H|apply mono_schedule]. Qed.

Lemma mono_kprim b T s s' : kprim b T s s' -> mono T s s'.
Proof.
  intros [s0 s1 (Hn & _ & _ & Hv & Hp)|ev s0 _ _ _|ev prio d s0 _ _ _ _ _|e ev o s0 H O|p pr o s0 H|e c s0 _|e ev l x s0 H C _
         |e s0|c cev all ops n s0 H Kc _|c cev v v' s0 H _ Ic|p pr f s0 Tp H Pf|pr ev s0 H Kp|t s0 _ _|e s0 _].
  - (* k_frame *) apply mono_frame; assumption.
  - (* k_new *) apply mono_new_event.
  - (* k_born *) eapply mono_trans; [apply mono_new_event|apply mono_schedule].
  - (* k_trig *) apply mono_trigger. intros _ ev0 H0. left. congruence.
  - (* k_ptrig: a process ends, its event is a Process event *)
    apply mono_trigger. intros K ev0 H0. right. destruct (K _ _ H) as (ev1 & H1 & K1). rewrite H1 in H0. injection H0 as <-.
    rewrite K1. reflexivity.
  - (* k_addcb *) apply mono_add_callback.
  - (* k_rmcb *) apply mono_set_cbs. right. intros ev0 H0. rewrite H in H0. injection H0 as <-. rewrite C. discriminate.
  - (* k_defuse *) apply mono_set_defused.
  - (* k_count *) apply mono_set_kind_cond. intros ev0 H0. rewrite H in H0. injection H0 as <-. exists n. exact Kc.
  - (* k_value *) apply mono_set_out. intros _ ev0 H0. right. rewrite H in H0. injection H0 as <-.
    unfold is_cond in Ic. destruct (kind cev); try discriminate. reflexivity.
  - (* k_proc *) apply mono_upd_proc; [exact Tp|]. intros pr0 H0. rewrite H in H0. injection H0 as <-. exact Pf.
  - (* k_spawn *) apply mono_add_proc. exists ev. auto.
  - (* k_sentinel *) eapply mono_trans; [apply mono_new_event|apply mono_schedule].
  - (* k_stopcb *) apply mono_add_callback.
Qed.

Lemma mono_kchain b T s s' : kchain b T s s' -> mono T s s'.
Proof. exact (kchain_rel b T (mono T) (mono_refl T) (mono_trans T) (mono_kprim b T) s s'). Qed.

Lemma mono_run_frag {A} T codes (f : frag A) s : mono T s (fst (run_frag codes f s)).
Proof. exact (mono_kchain _ _ _ _ (kc_run_frag true T codes f s)). Qed.

Lemma mono_run_prelude T u s s1 : run_prelude u s = inr s1 -> mono T s s1.
Proof. intros H. exact (mono_kchain _ _ _ _ (kc_run_prelude T u s s1 H)). Qed.

(* the victim of an interruption event, as a set of pids *)
Definition victim_of (s : state) (i : evid) : pid -> Prop :=
  fun q => (length (events s) <= i)%nat \/ exists iev, get_event i s = Some iev /\ kind iev = KInterruption q.

(* processes a callback may touch *)
Definition cb_touch (s : state) (c : cb) : pid -> Prop :=
  fun q => match c with CbResume p => q = p | CbInterrupt i => victim_of s i q | _ => False end.

Lemma mono_run_cb fuel codes e c s : mono (cb_touch s c) s (fst (run_cb fuel codes e c s)).
Proof.
  destruct c; cbn [run_cb fst].
  - exact (mono_kchain _ _ _ _ (kc_resume_proc true fuel codes p e s)).
  - exact (mono_kchain _ _ _ _ (kc_cond_check true _ c e s)).
  - exact (mono_kchain _ _ _ _ (kc_cond_build true _ c s)).
  - apply (mono_kchain true), kc_do_interruption. intros iev q H K. right. exists iev. auto.
  - rewrite stop_cb_state. apply mono_refl.
  - apply mono_add_obs.
Qed.

Definition cbs_touch (s : state) (l : list cb) : pid -> Prop := fun q => exists c, In c l /\ cb_touch s c q.

Lemma victim_of_mono T s s1 i q : monor T s s1 -> victim_of s1 i q -> victim_of s i q.
Proof.
  intros X [L|(iev & H & K)].
  - left. destruct (Nat.le_gt_cases (length (events s)) i) as [G|G]; [exact G|]. exfalso.
    destruct (nth_error (events s) i) as [ev|] eqn:E; [|apply nth_error_None in E; lia].
    destruct (m_ev _ _ _ X _ _ E) as (ev' & H' & _). apply get_event_lt in H'. lia.
  - destruct (get_event i s) as [ev|] eqn:E.
    + right. exists ev. split; [exact E|].
      destruct (m_ev _ _ _ X _ _ E) as (ev' & H' & (A & _)). rewrite H in H'. injection H' as <-.
      exact (kshape_eq_interruption _ _ _ (eq_sym A) K).
    + left. apply nth_error_None in E. exact E.
Qed.

Lemma mono_run_callbacks fuel codes e l : forall s, mono (cbs_touch s l) s (fst (run_callbacks fuel codes e l s)).
Proof.
  induction l as [|c t IH]; intros s; cbn [run_callbacks fst]; [apply mono_refl|].
  pose proof (mono_run_cb fuel codes e c s) as X. destruct (run_cb fuel codes e c s) as [s1 r]. cbn [fst] in X.
  assert (X' : mono (cbs_touch s (c :: t)) s s1).
  { eapply mono_weaken; [|exact X]. intros q H. exists c. split; [left; reflexivity|exact H]. }
  assert (REST : mono (cbs_touch s (c :: t)) s (fst (run_callbacks fuel codes e t s1))).
  { eapply mono_bind; [exact X'|]. intros K XX.
    eapply mono_weaken; [|apply IH].
    intros q (c' & Hin & Hc'). exists c'. split; [right; exact Hin|].
    destruct c'; cbn [cb_touch] in *; try exact Hc'. eapply victim_of_mono; eassumption. }
  destruct r; try exact REST;
    (destruct (is_stop_cb c && is_exit _); [|exact X'];
     destruct (run_callbacks fuel codes e t s1) as [s2 r2]; cbn [fst] in REST; destruct r2; exact REST).
Qed.

(* one step: the pop, then only [mono] changes *)
Lemma step_mono fuel codes s s' r :
  step fuel codes s = (s', r) ->
  (pop_min (agenda s) = None /\ s' = s /\ r = REmpty) \/
  (exists m rest, pop_min (agenda s) = Some (m, rest) /\
      mono (fun q => forall ev l, get_event (e_ev m) s = Some ev -> cbs ev = Some l -> cbs_touch s l q)
           (pop_state m rest s) s').
Proof.
  unfold step. destruct (pop_min (agenda s)) as [[m rest]|].
  - intros H. right. exists m, rest. split; [reflexivity|].
    change (get_event (e_ev m) (pop_state m rest s)) with (get_event (e_ev m) s) in H.
    destruct (get_event (e_ev m) s) as [ev|] eqn:Hev; [|injection H as <- _; apply mono_refl].
    destruct (cbs ev) as [l|] eqn:Cl; [|injection H as <- _; apply mono_refl].
    set (s1 := upd_event (e_ev m) (ev_set_cbs None) (pop_state m rest s)) in *.
    pose proof (mono_run_callbacks fuel codes (e_ev m) l s1) as X.
    destruct (run_callbacks fuel codes (e_ev m) l s1) as [s2 r2]. cbn [fst] in X.
    assert (s' = s2) by (destruct r2; injection H as <- _; reflexivity). subst s'.
    eapply mono_bind; [apply mono_set_cbs; left; reflexivity|]. intros K X1.
    eapply mono_weaken; [|exact X]. intros q (c & Hin & Hc) ev0 l0 E0 C0. injection E0 as <-.
    rewrite Cl in C0. injection C0 as <-. exists c. split; [exact Hin|].
    destruct c; cbn [cb_touch] in *; try exact Hc.
    eapply victim_of_mono in Hc; [|exact X1]. exact Hc.
  - intros H; injection H as <- <-. left. auto.
Qed.
