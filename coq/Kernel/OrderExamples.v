(* Kernel/OrderExamples.v -- C01: the concrete execution used by Props/C01_Examples.v to show that the hypotheses of
   the C01 theorems are simultaneously satisfiable on a non-trivial instance, and the helper lemmas that turn a
   computed run of the executable kernel ([step], [run_frag]) into the inductive [Order.exec] the theorems quantify over.

   The scenario (two processes, four coinciding occurrences at instant 0, an interrupt, three instants 0, 1/2, 1):
     module level   t7 := timeout(0, 7);  W := process(oW);  t8 := timeout(0, 8);  I := process(oI)
     oW             yield timeout(1)        -- interrupted at 1/2, logs the Interrupt, ends
     oI             yield timeout(1/2);  W.interrupt(5);  ends
   Agenda after the module-level code ([o0], all due at 0):   t7 NORMAL #0,  Init W URGENT #1,  t8 NORMAL #2,  Init I URGENT #3.
   The kernel then pops, in this order ([oL]):
     Init W #1, Init I #3 (urgent first, in trigger order), t7 #0, t8 #2 (normal, in trigger order)           at 0
     timeout(1/2) #5 (I resumes, interrupts W, ends), Interruption #6 (URGENT: before I's Process event #7
     although due at the same instant), Process I #7, Process W #8                                              at 1/2
     timeout(1) #4 (W's abandoned timeout)                                                                      at 1
   [oS n] is the state after n steps. *)
From Coq Require Import ZArith QArith List Bool Lia.
From ONL Require Import Base.Tools Kernel.Model Kernel.Script Kernel.Keys Kernel.Inv Kernel.Order.
Import ListNotations.
Local Open Scope nat_scope.

(* ------------------------------------------------------------------------------------------------ *)
(* generic: computed runs are executions *)

Fixpoint nsteps (fuel : nat) (codes : list prog) (n : nat) (s : state) : state :=
  match n with O => s | S k => nsteps fuel codes k (fst (step fuel codes s)) end.

(* the labels of the next n steps (the entries they pop); None if the agenda runs dry before *)
Fixpoint klabels (fuel : nat) (codes : list prog) (n : nat) (s : state) : option (list (option entry)) :=
  match n with
  | O => Some []
  | S k => match pop_min (agenda s) with
           | None => None
           | Some (m, _) => match klabels fuel codes k (fst (step fuel codes s)) with
                            | Some l => Some (Some m :: l)
                            | None => None
                            end
           end
  end.

Lemma nsteps_add fuel codes a : forall b s, nsteps fuel codes (a + b) s = nsteps fuel codes b (nsteps fuel codes a s).
Proof. induction a as [|a IH]; intros b s; [reflexivity|]. cbn [Nat.add nsteps]. apply IH. Qed.

Lemma nsteps_S fuel codes n : forall s, nsteps fuel codes (S n) s = fst (step fuel codes (nsteps fuel codes n s)).
Proof. induction n as [|n IH]; intros s; [reflexivity|]. exact (IH (fst (step fuel codes s))). Qed.

(* Equations between whole states are never left to evaluation (a state holds the closures of its processes):
   they follow from the shape of the computation, and only the result is evaluated. *)
Lemma nsteps_step fuel codes n s r :
  snd (step fuel codes (nsteps fuel codes n s)) = r ->
  step fuel codes (nsteps fuel codes n s) = (nsteps fuel codes (S n) s, r).
Proof. rewrite nsteps_S. apply pair_of_snd. Qed.

Fixpoint steps_ok (fuel : nat) (codes : list prog) (k : nat) (s : state) : bool :=
  match k with
  | O => true
  | S k' => match snd (step fuel codes s) with ROk => steps_ok fuel codes k' (fst (step fuel codes s)) | _ => false end
  end.

Lemma run_loop_steps fuel codes u k : forall n s,
  steps_ok fuel codes k s = true -> run_loop (k + n) fuel codes u s = run_loop n fuel codes u (nsteps fuel codes k s).
Proof.
  induction k as [|k IH]; intros n s H; [reflexivity|]. cbn [steps_ok] in H. cbn [Nat.add run_loop nsteps].
  destruct (step fuel codes s) as [s1 r]. cbn [fst snd] in *. destruct r; try discriminate H. apply IH, H.
Qed.

Lemma run_loop_drained m fuel codes s : agenda s = [] -> run_loop (S m) fuel codes UNone s = (s, ROk).
Proof. intros A. cbn [run_loop]. rewrite (step_drained _ _ _ A). reflexivity. Qed.

Lemma klabels_exec fuel codes n : forall s l,
  klabels fuel codes n s = Some l -> Order.exec codes s l (nsteps fuel codes n s).
Proof.
  induction n as [|n IH]; intros s l H; cbn [klabels nsteps] in *.
  - injection H as <-. constructor.
  - destruct (pop_min (agenda s)) as [[m rest]|] eqn:P; [|discriminate].
    destruct (klabels fuel codes n (fst (step fuel codes s))) as [l'|] eqn:K; [|discriminate].
    injection H as <-. econstructor; [|apply IH, K].
    eapply KStep; [apply surjective_pairing|exact P].
Qed.

Lemma nsteps_good fuel codes n : forall s, good s -> good (nsteps fuel codes n s).
Proof.
  induction n as [|n IH]; intros s G; cbn [nsteps]; [exact G|]. apply IH.
  exact (proj2 (step_now_monotone fuel codes s _ _ G (surjective_pairing _))).
Qed.

Lemma nsteps_trans fuel codes n s m rest :
  pop_min (agenda (nsteps fuel codes n s)) = Some (m, rest) ->
  ktrans codes (nsteps fuel codes n s) (Some m) (nsteps fuel codes (S n) s).
Proof.
  intros H. rewrite nsteps_S. eapply kstep_trans, H.
Qed.

(* module-level code: one [None]-labelled transition per API call *)
Fixpoint frag_calls {A : Type} (codes : list prog) (f : frag A) (s : state) : nat :=
  match f with
  | FCall c k => let '(s1, o) := do_call codes c s in S (frag_calls codes (k o) s1)
  | _ => O
  end.

Lemma run_frag_exec_n {A : Type} codes (f : frag A) : forall s,
  Order.exec codes s (repeat None (frag_calls codes f s)) (fst (run_frag codes f s)).
Proof.
  induction f as [v a|v|x|c k IH]; intros s; cbn [frag_calls run_frag repeat fst]; try constructor.
  destruct (do_call codes c s) as [s1 o] eqn:C. cbn [repeat]. econstructor; [eapply KCall, C|apply IH].
Qed.

(* ------------------------------------------------------------------------------------------------ *)
(* the scenario *)

Definition oW : list instr := [ITimeout (L 1) 1 XNone; IYield 1 (XReg (L 1)) (L 2) YCatch; ILog (XReg (L 2))].
Definition oI : list instr := [ITimeout (L 1) (1 # 2) XNone; IYield 2 (XReg (L 1)) (L 2) YCatch; IInterrupt (G 1) (XInt 5)].
Definition ocodes : list prog := map compile [oW; oI].
Definition osetup : list instr :=
  [ITimeout (G 0) 0 (XInt 7); ISpawn (G 1) 0 XNone; ITimeout (G 2) 0 (XInt 8); ISpawn (G 3) 1 XNone].

Definition o0 : state := fst (run_frag ocodes (Script.exec osetup []) (init_state 0)).
Definition oS (n : nat) : state := nsteps 50 ocodes n o0.

(* the nine agenda entries of the run: time, class, insertion id, event *)
Definition eT7 : entry := mkEntry 0 NORMAL 0 0.          (* timeout(0, 7) *)
Definition eIW : entry := mkEntry 0 URGENT 1 2.          (* Initialize of W *)
Definition eT8 : entry := mkEntry 0 NORMAL 2 3.          (* timeout(0, 8) *)
Definition eII : entry := mkEntry 0 URGENT 3 5.          (* Initialize of I *)
Definition eTW : entry := mkEntry 1 NORMAL 4 6.          (* W's timeout(1), created at 0 *)
Definition eTI : entry := mkEntry (1 # 2) NORMAL 5 7.    (* I's timeout(1/2), created at 0 *)
Definition eX : entry := mkEntry (1 # 2) URGENT 6 8.     (* Interruption of W, created at 1/2 *)
Definition ePI : entry := mkEntry (1 # 2) NORMAL 7 4.    (* Process event of I (I ended at 1/2) *)
Definition ePW : entry := mkEntry (1 # 2) NORMAL 8 1.    (* Process event of W (W ended at 1/2) *)

Definition oL : list (option entry) := map Some [eIW; eII; eT7; eT8; eTI; eX; ePI; ePW; eTW].

Lemma o0_frag : run_frag ocodes (Script.exec osetup []) (init_state 0) = (o0, FrRet VNone).
Proof. unfold o0. apply pair_of_snd. vm_compute. reflexivity. Qed.

Lemma o0_exec : Order.exec ocodes (init_state 0) (repeat None 8) o0.
Proof. exact (run_frag_exec_n ocodes (Script.exec osetup []) (init_state 0)). Qed.

Lemma o0_good : good o0.
Proof. eapply exec_good; [apply good_init|apply o0_exec]. Qed.

Lemma oS_good n : good (oS n).
Proof. apply nsteps_good, o0_good. Qed.

(* stated about [o0] itself: instantiating [oS_exec] at a = 0 leaves the conversion of [oS 0] with [o0] to the
   unifier, which unfolds the closed run behind [o0] *)
Lemma o0_steps n l : klabels 50 ocodes n o0 = Some l -> Order.exec ocodes o0 l (oS n).
Proof. exact (klabels_exec 50 ocodes n o0 l). Qed.

(* the n steps after step a, with the entries they pop *)
Lemma oS_exec a n l : klabels 50 ocodes n (oS a) = Some l -> Order.exec ocodes (oS a) l (oS (a + n)).
Proof. intros H. unfold oS at 2. rewrite nsteps_add. apply klabels_exec, H. Qed.

Lemma oS_step n r : snd (step 50 ocodes (oS n)) = r -> step 50 ocodes (oS n) = (oS (S n), r).
Proof. exact (nsteps_step 50 ocodes n o0 r). Qed.

Lemma o0_run : run 50 ocodes UNone o0 = (oS 9, ROk).
Proof.
  unfold oS. change (run 50 ocodes UNone o0) with (run_loop (9 + 41) 50 ocodes UNone o0).
  rewrite run_loop_steps by (vm_compute; reflexivity). apply run_loop_drained. vm_compute. reflexivity.
Qed.

Lemma oS_trans a m rest : pop_min (agenda (oS a)) = Some (m, rest) -> ktrans ocodes (oS a) (Some m) (oS (S a)).
Proof.
  intros H. apply (nsteps_trans 50 ocodes a o0 m rest), H.
Qed.

(* a timeout created from module level at instant 1/2 (after five steps) with delay 1/4 *)
Definition oF : state := fst (do_call ocodes (CTimeout (1 # 4) (VInt 9)) (oS 5)).
Lemma oF_call : do_call ocodes (CTimeout (1 # 4) (VInt 9)) (oS 5) = (oF, Ok (VEv 9)).
Proof. unfold oF. apply pair_of_snd. vm_compute. reflexivity. Qed.
Definition eN : entry := mkEntry (3 # 4) NORMAL 8 9.     (* the new timeout: due at 1/2 + 1/4 *)
Definition ePW' : entry := mkEntry (1 # 2) NORMAL 9 1.   (* W's Process event in this continuation *)

(* run(until = 3/4) entered after five steps (now = 1/2) *)
Definition oU : state := match run_prelude (UNum (3 # 4)) (oS 5) with inr s => s | inl (s, _) => s end.
Definition eStop : entry := mkEntry (3 # 4) URGENT 8 9.  (* the until-sentinel *)

Lemma oU_prelude : run_prelude (UNum (3 # 4)) (oS 5) = inr oU.
Proof.
  assert (H : match run_prelude (UNum (3 # 4)) (oS 5) with inr _ => true | inl _ => false end = true)
    by (vm_compute; reflexivity).
  unfold oU. destruct (run_prelude (UNum (3 # 4)) (oS 5)) as [[s r]|s]; [discriminate H|reflexivity].
Qed.

Lemma oU_exec :
  Order.exec ocodes (init_state 0) (repeat None 8 ++ map Some [eIW; eII; eT7; eT8; eTI] ++ [None]) oU.
Proof.
  eapply exec_app; [apply o0_exec|]. eapply exec_app.
  - apply (o0_steps 5). vm_compute. reflexivity.
  - econstructor; [|constructor]. exact (KPrelude ocodes (UNum (3 # 4)) _ _ oU_prelude).
Qed.
