(* Kernel/StopErase.v -- C03: stop callbacks are invisible to everything but the loop of run().

     erase s              the state s without any stop callback (StopSimulation.callback) in any callback list
     <f>_erase            every function of Kernel/Model.v below step() commutes with [erase]:  f (erase s) = erase (f s),
                          with the same answer -- for EVERY program (no hypothesis on the automata: the answers of the API
                          calls are the same, so the continuations are the same)
     run_callbacks_erase  the loop over the callbacks of a triggered event: the erased run does what the full run does, minus
                          the stop; the states agree
     step_erase           fst (step (erase s)) = erase (fst (step s))        (uinv s: popped events are triggered)
     free_run_erase       the same for any number of steps *)
From Coq Require Import ZArith QArith List Bool Lia.
From ONL Require Import Kernel.Model Kernel.Keys Kernel.Prims Kernel.Deliver Kernel.DeliverWf Kernel.StopFrame Kernel.StopInv Kernel.Stop Kernel.StopSpec.
Import ListNotations.

Definition keep_cb (c : cb) : bool := negb (is_stop_cb c).
Definition erase_cbs (l : list cb) : list cb := filter keep_cb l.
Definition erase_ev (ev : event) : event := mkEvent (option_map erase_cbs (cbs ev)) (out ev) (defused ev) (kind ev).
Definition erase (s : state) : state := set_events (map erase_ev (events s)) s.

Definition elift {A : Type} (x : state * A) : state * A := (erase (fst x), snd x).

(* ---- lists of callbacks ---- *)

Lemma erase_cbs_app l c : is_stop_cb c = false -> erase_cbs (l ++ [c]) = erase_cbs l ++ [c].
Proof. intros H. unfold erase_cbs. rewrite filter_app. cbn. unfold keep_cb at 2. rewrite H. reflexivity. Qed.

Lemma cb_eqb_stop_l x c : is_stop_cb x = true -> is_stop_cb c = false -> cb_eqb x c = false.
Proof. destruct x; cbn; try discriminate. destruct c; cbn; try reflexivity. discriminate. Qed.

Lemma cb_eqb_stop_r x c : is_stop_cb x = true -> is_stop_cb c = false -> cb_eqb c x = false.
Proof. destruct x; cbn; try discriminate. destruct c; cbn; try reflexivity. discriminate. Qed.

Lemma erase_cbs_cons_stop x t : is_stop_cb x = true -> erase_cbs (x :: t) = erase_cbs t.
Proof. intros H. unfold erase_cbs. cbn [filter]. unfold keep_cb at 1. now rewrite H. Qed.

Lemma erase_cbs_cons_keep x t : is_stop_cb x = false -> erase_cbs (x :: t) = x :: erase_cbs t.
Proof. intros H. unfold erase_cbs. cbn [filter]. unfold keep_cb at 1. now rewrite H. Qed.

Lemma mem_cb_erase c l : is_stop_cb c = false -> mem_cb c (erase_cbs l) = mem_cb c l.
Proof.
  intros Hc. induction l as [|x t IH]; [reflexivity|].
  destruct (is_stop_cb x) eqn:Sx.
  - rewrite (erase_cbs_cons_stop _ _ Sx), IH. unfold mem_cb. cbn [existsb]. now rewrite (cb_eqb_stop_r _ _ Sx Hc).
  - rewrite (erase_cbs_cons_keep _ _ Sx). unfold mem_cb in *. cbn [existsb]. now rewrite IH.
Qed.

Lemma remove_first_erase c l : is_stop_cb c = false -> remove_first c (erase_cbs l) = erase_cbs (remove_first c l).
Proof.
  intros Hc. induction l as [|x t IH]; [reflexivity|].
  destruct (is_stop_cb x) eqn:Sx.
  - rewrite (erase_cbs_cons_stop _ _ Sx), IH. cbn [remove_first]. rewrite (cb_eqb_stop_l _ _ Sx Hc).
    now rewrite (erase_cbs_cons_stop _ _ Sx).
  - rewrite (erase_cbs_cons_keep _ _ Sx). cbn [remove_first]. destruct (cb_eqb x c); [reflexivity|].
    now rewrite (erase_cbs_cons_keep _ _ Sx), IH.
Qed.

(* ---- the event store ---- *)

Lemma get_event_erase e s : get_event e (erase s) = option_map erase_ev (get_event e s).
Proof. unfold get_event, erase. cbn. apply nth_error_map. Qed.

Lemma upd_nth_map {A B} (g : A -> B) (f : A -> A) (f' : B -> B) n l :
  (forall x, f' (g x) = g (f x)) -> upd_nth n f' (map g l) = map g (upd_nth n f l).
Proof.
  intros H. revert n. induction l as [|x t IH]; intros [|n]; cbn; try reflexivity.
  - now rewrite H.
  - now rewrite IH.
Qed.

Lemma upd_event_erase e f f' s :
  (forall ev, f' (erase_ev ev) = erase_ev (f ev)) -> upd_event e f' (erase s) = erase (upd_event e f s).
Proof. intros H. unfold upd_event, erase, set_events. cbn. f_equal. apply upd_nth_map, H. Qed.

Lemma set_out_erase e o s : upd_event e (ev_set_out o) (erase s) = erase (upd_event e (ev_set_out o) s).
Proof. apply upd_event_erase. reflexivity. Qed.
Lemma set_defused_erase e s : upd_event e ev_set_defused (erase s) = erase (upd_event e ev_set_defused s).
Proof. apply upd_event_erase. reflexivity. Qed.
Lemma set_kind_erase e k s : upd_event e (ev_set_kind k) (erase s) = erase (upd_event e (ev_set_kind k) s).
Proof. apply upd_event_erase. reflexivity. Qed.
Lemma set_cbs_none_erase e s : upd_event e (ev_set_cbs None) (erase s) = erase (upd_event e (ev_set_cbs None) s).
Proof. apply upd_event_erase. reflexivity. Qed.
Lemma set_cbs_some_erase e l s :
  upd_event e (ev_set_cbs (Some (erase_cbs l))) (erase s) = erase (upd_event e (ev_set_cbs (Some l)) s).
Proof. apply upd_event_erase. reflexivity. Qed.

Lemma add_callback_erase e c s : is_stop_cb c = false -> add_callback e c (erase s) = erase (add_callback e c s).
Proof.
  intros Hc. unfold add_callback. apply upd_event_erase. intros ev.
  destruct ev as [[l|] o d k]; unfold ev_add_cb, erase_ev, ev_set_cbs; cbn [cbs out defused kind option_map]; [|reflexivity].
  now rewrite erase_cbs_app.
Qed.

(* appending the stop callback is invisible *)
Lemma add_stop_erase e s : erase (add_callback e CbStop s) = erase s.
Proof.
  unfold add_callback, upd_event, erase, set_events. cbn. f_equal.
  generalize (events s). intros l. revert e. induction l as [|x t IH]; intros [|e]; cbn; try reflexivity.
  - f_equal. destruct x as [[cl|] o d k]; unfold ev_add_cb, erase_ev, ev_set_cbs; cbn [cbs out defused kind option_map]; [|reflexivity].
    unfold erase_cbs. rewrite filter_app. cbn. now rewrite app_nil_r.
  - now rewrite IH.
Qed.

Lemma new_event_erase ev s : erase_ev ev = ev -> new_event ev (erase s) = (fst (new_event ev s), erase (snd (new_event ev s))).
Proof. intros E. unfold new_event, erase, set_events. cbn. rewrite map_length, map_app. cbn [map]. rewrite E. reflexivity. Qed.

Lemma schedule_erase e p d s : schedule e p d (erase s) = erase (schedule e p d s).
Proof. reflexivity. Qed.

Lemma trigger_erase e o s : trigger_event e o (erase s) = erase (trigger_event e o s).
Proof. unfold trigger_event. rewrite set_out_erase. reflexivity. Qed.

Lemma set_active_erase a s : set_active a (erase s) = erase (set_active a s). Proof. reflexivity. Qed.
Lemma set_glob_erase g s : set_glob g (erase s) = erase (set_glob g s). Proof. reflexivity. Qed.
Lemma add_obs_erase o s : add_obs o (erase s) = erase (add_obs o s). Proof. reflexivity. Qed.
Lemma set_procs_erase ps s : set_procs ps (erase s) = erase (set_procs ps s). Proof. reflexivity. Qed.
Lemma upd_proc_erase p f s : upd_proc p f (erase s) = erase (upd_proc p f s). Proof. reflexivity. Qed.
Lemma get_proc_erase p s : get_proc p (erase s) = get_proc p s. Proof. reflexivity. Qed.

(* ---- conditions ---- *)

Lemma cond_check_erase c op s : cond_check c op (erase s) = erase (cond_check c op s).
Proof.
  unfold cond_check. rewrite !get_event_erase.
  destruct (get_event c s) as [cev|]; cbn [option_map]; [|reflexivity].
  destruct (get_event op s) as [oev|]; cbn [option_map]; [|reflexivity].
  cbn [erase_ev out kind]. destruct (out cev); [reflexivity|].
  destruct (kind cev) as [| | | | |all ops count|]; try reflexivity.
  rewrite set_kind_erase.
  destruct (out oev) as [[v|x]|].
  - destruct (cond_evaluate all (length ops) (S count)); [apply trigger_erase|reflexivity].
  - rewrite set_defused_erase. apply trigger_erase.
  - destruct (cond_evaluate all (length ops) (S count)); [apply trigger_erase|reflexivity].
Qed.

Lemma remove_check_from_erase c o s : remove_check_from c o (erase s) = erase (remove_check_from c o s).
Proof.
  unfold remove_check_from. rewrite get_event_erase.
  destruct (get_event o s) as [oev|]; cbn [option_map]; [|reflexivity].
  cbn [erase_ev cbs]. destruct (cbs oev) as [l|]; cbn [option_map]; [|reflexivity].
  rewrite mem_cb_erase by reflexivity. destruct (mem_cb (CbCheck c) l); [|reflexivity].
  rewrite remove_first_erase by reflexivity. apply set_cbs_some_erase.
Qed.

Lemma is_cond_erase ev : is_cond (erase_ev ev) = is_cond ev.
Proof. reflexivity. Qed.

Lemma remove_ops_erase rec c :
  (forall o s, rec o (erase s) = option_map erase (rec o s)) ->
  forall l s, remove_ops rec c l (erase s) = option_map erase (remove_ops rec c l s).
Proof.
  intros Hrec. induction l as [|o t IH]; intros s; cbn [remove_ops]; [reflexivity|].
  rewrite get_event_erase. destruct (get_event o s) as [oev|]; cbn [option_map]; [|reflexivity].
  rewrite is_cond_erase, remove_check_from_erase. destruct (is_cond oev).
  - rewrite Hrec. destruct (rec o (remove_check_from c o s)) as [s2|]; cbn [option_map]; [apply IH|reflexivity].
  - apply IH.
Qed.

Lemma remove_checks_erase fuel : forall c s, remove_checks fuel c (erase s) = option_map erase (remove_checks fuel c s).
Proof.
  induction fuel as [|f IH]; intros c s; cbn [remove_checks]; [reflexivity|].
  rewrite get_event_erase. destruct (get_event c s) as [cev|]; cbn [option_map]; [|reflexivity].
  cbn [erase_ev kind]. destruct (kind cev); try reflexivity. apply remove_ops_erase. exact IH.
Qed.

Lemma raw_value_erase ev : raw_value (erase_ev ev) = raw_value ev.
Proof. reflexivity. Qed.

Lemma populate_ops_erase rec evs : forall l, populate_ops rec (map erase_ev evs) l = populate_ops rec evs l.
Proof.
  induction l as [|o t IH]; cbn [populate_ops]; [reflexivity|].
  rewrite nth_error_map. destruct (nth_error evs o) as [oev|]; cbn [option_map]; [|reflexivity].
  cbn [erase_ev kind cbs]. rewrite IH, raw_value_erase.
  destruct (kind oev); destruct (cbs oev); reflexivity.
Qed.

Lemma populate_ops_ext rec1 rec2 evs :
  (forall l, rec1 l = rec2 l) -> forall l, populate_ops rec1 evs l = populate_ops rec2 evs l.
Proof.
  intros H. induction l as [|o t IH]; cbn [populate_ops]; [reflexivity|].
  destruct (nth_error evs o) as [oev|]; [|reflexivity]. rewrite IH. destruct (kind oev); try reflexivity. now rewrite H.
Qed.

Lemma populate_erase fuel : forall evs ops, populate fuel (map erase_ev evs) ops = populate fuel evs ops.
Proof.
  induction fuel as [|f IH]; intros evs ops; cbn [populate]; [reflexivity|].
  rewrite populate_ops_erase. apply populate_ops_ext. intros l. apply IH.
Qed.

Lemma cond_build_erase c s : cond_build c (erase s) = elift (cond_build c s).
Proof.
  unfold cond_build, elift. rewrite remove_checks_erase.
  destruct (remove_checks (S c) c s) as [s1|]; cbn [option_map]; [|reflexivity].
  rewrite get_event_erase. destruct (get_event c s1) as [cev|]; cbn [option_map]; [|reflexivity].
  cbn [erase_ev out kind]. destruct (out cev) as [[v|x]|]; try reflexivity.
  destruct (kind cev); try reflexivity.
  change (events (erase s1)) with (map erase_ev (events s1)). rewrite populate_erase.
  destruct (populate (S c) (events s1) ops); [|reflexivity]. cbn [fst snd]. now rewrite set_out_erase.
Qed.

(* ---- the API calls ---- *)

Lemma call_timeout_erase d v s : call_timeout d v (erase s) = elift (call_timeout d v s).
Proof.
  unfold call_timeout, elift. destruct (neg_delay d); [reflexivity|].
  rewrite new_event_erase by reflexivity. destruct (new_event _ s) as [e s1]. reflexivity.
Qed.

Lemma call_event_erase s : call_event (erase s) = elift (call_event s).
Proof.
  unfold call_event, elift.
  rewrite new_event_erase by reflexivity. destruct (new_event _ s) as [e s1]. reflexivity.
Qed.

Lemma call_succeed_erase e v s : call_succeed e v (erase s) = elift (call_succeed e v s).
Proof.
  unfold call_succeed, elift. rewrite get_event_erase. destruct (get_event e s) as [ev|]; cbn [option_map]; [|reflexivity].
  change (is_triggered (erase_ev ev)) with (is_triggered ev). destruct (is_triggered ev); [reflexivity|].
  cbn [fst snd]. now rewrite trigger_erase.
Qed.

Lemma call_fail_erase e x s : call_fail e x (erase s) = elift (call_fail e x s).
Proof.
  unfold call_fail, elift. rewrite get_event_erase. destruct (get_event e s) as [ev|]; cbn [option_map]; [|reflexivity].
  change (is_triggered (erase_ev ev)) with (is_triggered ev). destruct (is_triggered ev); [reflexivity|].
  destruct x; try reflexivity. cbn [fst snd]. now rewrite trigger_erase.
Qed.

Lemma call_spawn_erase codes code arg s : call_spawn codes code arg (erase s) = elift (call_spawn codes code arg s).
Proof.
  unfold call_spawn, elift. destruct (nth_error codes code) as [pr|]; [|reflexivity].
  change (procs (erase s)) with (procs s). set (p := length (procs s)).
  rewrite new_event_erase by reflexivity. destruct (new_event _ s) as [pe s1]. cbn [fst snd].
  rewrite new_event_erase by reflexivity. destruct (new_event _ s1) as [ie s2].
  reflexivity.
Qed.

Lemma call_interrupt_erase e cause s : call_interrupt e cause (erase s) = elift (call_interrupt e cause s).
Proof.
  unfold call_interrupt, elift. rewrite get_event_erase. destruct (get_event e s) as [ev|]; cbn [option_map]; [|reflexivity].
  change (kind (erase_ev ev)) with (kind ev). destruct (kind ev); try reflexivity.
  change (is_triggered (erase_ev ev)) with (is_triggered ev).
  destruct (is_triggered ev); [reflexivity|]. change (active (erase s)) with (active s).
  destruct (match active s with Some a => Nat.eqb a p | None => false end); [reflexivity|].
  assert (L : length (events (erase s)) = length (events s)) by (cbn; apply map_length). rewrite L.
  set (EV := mkEvent (Some [CbInterrupt (length (events s))]) (Some (Fail (EInterrupt, [cause]))) true (KInterruption p)).
  rewrite new_event_erase by reflexivity. destruct (new_event EV s) as [i s1]. reflexivity.
Qed.

Lemma cond_subscribe_erase c ops : forall s, cond_subscribe c ops (erase s) = erase (cond_subscribe c ops s).
Proof.
  induction ops as [|o t IH]; intros s; cbn [cond_subscribe]; [reflexivity|].
  rewrite get_event_erase. destruct (get_event o s) as [oev|]; cbn [option_map]; [|apply IH].
  change (is_processed (erase_ev oev)) with (match option_map erase_cbs (cbs oev) with None => true | Some _ => false end).
  unfold is_processed. destruct (cbs oev); cbn [option_map].
  - rewrite add_callback_erase by reflexivity. apply IH.
  - rewrite cond_check_erase. apply IH.
Qed.

Lemma all_valid_erase es s : all_valid es (erase s) = all_valid es s.
Proof.
  unfold all_valid. induction es as [|e t IH]; cbn [forallb]; [reflexivity|].
  rewrite IH, get_event_erase. destruct (get_event e s); reflexivity.
Qed.

Lemma call_cond_erase all es s : call_cond all es (erase s) = elift (call_cond all es s).
Proof.
  unfold call_cond, elift. rewrite all_valid_erase. destruct (negb (all_valid es s)); [reflexivity|].
  rewrite new_event_erase by reflexivity. destruct (new_event _ s) as [c s1]. cbn [fst snd].
  destruct es as [|e0 es'].
  - cbn [fst snd]. now rewrite trigger_erase.
  - cbn [fst snd]. rewrite cond_subscribe_erase, add_callback_erase by reflexivity. reflexivity.
Qed.

Lemma call_probe_erase e n s : call_probe e n (erase s) = elift (call_probe e n s).
Proof.
  unfold call_probe, elift. rewrite get_event_erase. destruct (get_event e s) as [ev|]; cbn [option_map]; [|reflexivity].
  unfold is_processed. cbn [erase_ev cbs]. destruct (cbs ev); cbn [option_map]; [|reflexivity].
  cbn [fst snd]. now rewrite add_callback_erase by reflexivity.
Qed.

Lemma call_query_erase q e s : call_query q e (erase s) = elift (call_query q e s).
Proof.
  unfold call_query, elift. rewrite get_event_erase. destruct (get_event e s) as [ev|]; cbn [option_map]; [|reflexivity].
  destruct q; cbn [erase_ev out kind defused]; try reflexivity.
  - unfold is_processed. cbn [erase_ev cbs]. destruct (cbs ev); reflexivity.
  - destruct (out ev) as [[?|?]|]; reflexivity.
  - rewrite raw_value_erase. destruct (raw_value ev); reflexivity.
  - destruct (kind ev); reflexivity.
Qed.

Lemma do_call_erase codes c s : do_call codes c (erase s) = elift (do_call codes c s).
Proof.
  destruct c; cbn [do_call].
  - apply call_timeout_erase.
  - apply call_event_erase.
  - apply call_succeed_erase.
  - apply call_fail_erase.
  - apply call_spawn_erase.
  - apply call_interrupt_erase.
  - apply call_cond_erase.
  - apply call_cond_erase.
  - apply call_probe_erase.
  - apply call_query_erase.
  - reflexivity.
  - reflexivity.
  - reflexivity.
  - reflexivity.
  - reflexivity.
Qed.

(* ---- process bodies ---- *)

Lemma run_frag_erase {A} codes (f : frag A) : forall s, run_frag codes f (erase s) = elift (run_frag codes f s).
Proof.
  induction f as [v a|v|x|c k IH]; intros s; cbn [run_frag]; try reflexivity.
  rewrite do_call_erase. unfold elift at 1. destruct (do_call codes c s) as [s1 o]. cbn [fst snd]. apply IH.
Qed.

Lemma proc_finish_erase p pr o s : proc_finish p pr o (erase s) = erase (proc_finish p pr o s).
Proof. unfold proc_finish. rewrite trigger_erase. reflexivity. Qed.

Lemma proc_wait_erase p e s : proc_wait p e (erase s) = erase (proc_wait p e s).
Proof. unfold proc_wait. rewrite add_callback_erase by reflexivity. reflexivity. Qed.

Lemma put_proc_erase p pr s : put_proc p pr (erase s) = erase (put_proc p pr s).
Proof. reflexivity. Qed.

Lemma resume_loop_erase codes fuel : forall p e s, resume_loop fuel codes p e (erase s) = elift (resume_loop fuel codes p e s).
Proof.
  induction fuel as [|f IH]; intros p e s; cbn [resume_loop]; [reflexivity|].
  rewrite get_event_erase, get_proc_erase.
  destruct (get_event e s) as [ev|]; cbn [option_map]; [|reflexivity].
  destruct (get_proc p s) as [pr|]; [|reflexivity].
  change (out (erase_ev ev)) with (out ev). destruct (out ev) as [o|]; [|reflexivity].
  assert (E1 : match o with Fail _ => upd_event e ev_set_defused (erase s) | Ok _ => erase s end =
               erase (match o with Fail _ => upd_event e ev_set_defused s | Ok _ => s end))
    by (destruct o; [reflexivity|apply set_defused_erase]).
  rewrite E1, run_frag_erase. unfold elift at 1.
  destruct (run_frag codes (resume (pcode pr) (pst pr) o) _) as [s2 r]. cbn [fst snd].
  destruct r as [v a|v|x].
  - rewrite put_proc_erase. destruct v; try reflexivity.
    rewrite get_event_erase. destruct (get_event e0 (put_proc p (proc_set_st pr a) s2)) as [ev'|]; cbn [option_map]; [|reflexivity].
    unfold is_processed. cbn [erase_ev cbs]. destruct (cbs ev'); cbn [option_map].
    + unfold elift. cbn [fst snd]. now rewrite proc_wait_erase.
    + apply IH.
  - unfold elift. cbn [fst snd]. now rewrite proc_finish_erase.
  - unfold elift. cbn [fst snd]. now rewrite proc_finish_erase.
Qed.

Lemma resume_proc_erase fuel codes p e s : resume_proc fuel codes p e (erase s) = elift (resume_proc fuel codes p e s).
Proof. unfold resume_proc. rewrite set_active_erase. apply resume_loop_erase. Qed.

Lemma do_interruption_erase fuel codes i s : do_interruption fuel codes i (erase s) = elift (do_interruption fuel codes i s).
Proof.
  unfold do_interruption. rewrite get_event_erase. destruct (get_event i s) as [iev|]; cbn [option_map]; [|reflexivity].
  change (kind (erase_ev iev)) with (kind iev). destruct (kind iev); try reflexivity.
  rewrite get_proc_erase. destruct (get_proc p s) as [pr|]; [|reflexivity].
  rewrite get_event_erase. destruct (get_event (pev pr) s) as [pe|]; cbn [option_map]; [|reflexivity].
  change (is_triggered (erase_ev pe)) with (is_triggered pe). destruct (is_triggered pe); [reflexivity|].
  destruct (ptarget pr) as [t|]; [|reflexivity].
  rewrite get_event_erase. destruct (get_event t s) as [tev|]; cbn [option_map]; [|reflexivity].
  cbn [erase_ev cbs]. destruct (cbs tev) as [l|]; cbn [option_map]; [|reflexivity].
  rewrite mem_cb_erase by reflexivity. destruct (mem_cb (CbResume p) l); [|reflexivity].
  rewrite remove_first_erase by reflexivity. rewrite set_cbs_some_erase. apply resume_proc_erase.
Qed.

Lemma probe_cb_erase n e s : probe_cb n e (erase s) = erase (probe_cb n e s).
Proof.
  unfold probe_cb. rewrite get_event_erase. destruct (get_event e s) as [ev|]; reflexivity.
Qed.

(* every callback but the stop callback *)
Lemma run_cb_erase fuel codes e c s : is_stop_cb c = false -> run_cb fuel codes e c (erase s) = elift (run_cb fuel codes e c s).
Proof.
  destruct c; cbn [run_cb is_stop_cb]; intros H; try discriminate.
  - apply resume_proc_erase.
  - unfold elift. cbn [fst snd]. now rewrite cond_check_erase.
  - apply cond_build_erase.
  - apply do_interruption_erase.
  - unfold elift. cbn [fst snd]. now rewrite probe_cb_erase.
Qed.

(* ---- the callback loop ---- *)

(* the loop over the erased list from the erased state reaches the erased end state of the full loop; it answers what the full
   loop answers, or ROk where the full loop answers what a stop callback raised *)
Lemma run_callbacks_erase fuel codes e : forall l s,
  (exists ev, get_event e s = Some ev /\ out ev <> None) ->
  exists r0, run_callbacks fuel codes e (erase_cbs l) (erase s) = (erase (fst (run_callbacks fuel codes e l s)), r0) /\
             (r0 = snd (run_callbacks fuel codes e l s) \/
              (r0 = ROk /\ existsb is_stop_cb l = true /\ is_exit (snd (run_callbacks fuel codes e l s)) = true)).
Proof.
  induction l as [|c t IH]; intros s Tr; [exists ROk; split; [reflexivity|left; reflexivity]|].
  destruct (is_stop_cb c) eqn:Sc.
  - (* the stop callback answers an exit (its event is triggered) and leaves the state: the erased loop goes on *)
    rewrite (erase_cbs_cons_stop _ _ Sc), (is_stop_cb_eq _ Sc). destruct Tr as (ev & G & O).
    assert (X : exists r1, run_cb fuel codes e CbStop s = (s, r1) /\ is_exit r1 = true).
    { cbn [run_cb]. rewrite (stop_cb_result _ _ _ G). destruct (out ev) as [[v|x]|]; [eexists; split; reflexivity..|contradiction]. }
    destruct X as (r1 & R1 & Ex). rewrite (run_callbacks_cons_not_ok _ _ _ _ t _ _ _ R1 (is_exit_not_ok _ Ex)), Ex. cbn [is_stop_cb andb].
    destruct (IH s (ex_intro _ ev (conj G O))) as (r0 & E & D). destruct (run_callbacks fuel codes e t s) as [s2 r2].
    cbn [fst snd existsb is_stop_cb orb] in *. exists r0.
    destruct (not_ok_cases r2) as [->|N2]; [|rewrite (match_not_ok r2 _ _ N2)]; cbn [fst snd]; (split; [exact E|]).
    + right. destruct D as [->|(-> & _)]; auto.
    + destruct D as [D|(D1 & _ & D3)]; [left; exact D|right; auto].
  - rewrite (erase_cbs_cons_keep _ _ Sc). cbn [run_callbacks]. rewrite (run_cb_erase _ _ _ _ _ Sc). unfold elift.
    pose proof (grows_run_cb fuel codes e c s) as Gr.
    destruct (run_cb fuel codes e c s) as [s1 r] eqn:R. cbn [fst snd] in *. rewrite Sc. cbn [andb].
    destruct r; try (eexists; split; [reflexivity|left; reflexivity]).
    destruct Tr as (ev & G & O). destruct (Gr _ _ G) as (ev' & G' & Le).
    destruct (IH s1 (ex_intro _ ev' (conj G' (le_out _ _ Le O)))) as (r0 & E & D).
    exists r0. split; [exact E|]. cbn [existsb]. rewrite Sc. exact D.
Qed.

Lemma check_failure_erase e s : check_failure e (erase s) = check_failure e s.
Proof. unfold check_failure. rewrite get_event_erase. destruct (get_event e s) as [ev|]; reflexivity. Qed.

Lemma pop_state_erase m rest s : pop_state m rest (erase s) = erase (pop_state m rest s).
Proof. reflexivity. Qed.

(* ---- step ---- *)

Lemma step_erase fuel codes s : uinv s -> fst (step fuel codes (erase s)) = erase (fst (step fuel codes s)).
Proof.
  intros U. unfold step. change (agenda (erase s)) with (agenda s).
  destruct (pop_min (agenda s)) as [[m rest]|] eqn:P; [|reflexivity].
  rewrite pop_state_erase, get_event_erase.
  destruct (get_event (e_ev m) (pop_state m rest s)) as [ev|] eqn:G; cbn [option_map]; [|reflexivity].
  cbn [erase_ev cbs]. destruct (cbs ev) as [l|] eqn:C; cbn [option_map]; [|reflexivity].
  rewrite set_cbs_none_erase.
  assert (Tr : exists ev0, get_event (e_ev m) (upd_event (e_ev m) (ev_set_cbs None) (pop_state m rest s)) = Some ev0 /\ out ev0 <> None).
  { exists (ev_set_cbs None ev). split; [apply get_event_upd_same, G|]. cbn.
    destruct (pop_min_spec _ _ _ P) as (Hm & _). destruct (proj1 U _ Hm) as (ev0 & H0 & O0).
    rewrite get_event_pop_state in G. rewrite G in H0. injection H0 as <-. exact O0. }
  destruct (run_callbacks_erase fuel codes (e_ev m) l _ Tr) as (r0 & E & _). rewrite E.
  destruct (run_callbacks fuel codes (e_ev m) l (upd_event (e_ev m) (ev_set_cbs None) (pop_state m rest s))) as [s2 r2].
  cbn [fst]. destruct r0, r2; reflexivity.
Qed.

Lemma erase_uinv s : uinv s -> uinv (erase s).
Proof.
  intros [U1 U2]. split.
  - intros x Hx. destruct (U1 x Hx) as (ev & H & O). exists (erase_ev ev). rewrite get_event_erase, H. auto.
  - intros p pr H. destruct (U2 p pr H) as (pe & Hp & K). exists (erase_ev pe). rewrite get_event_erase, Hp. auto.
Qed.

Lemma free_run_erase fuel codes : forall k s, uinv s -> free_run k fuel codes (erase s) = erase (free_run k fuel codes s).
Proof.
  induction k as [|k IH]; intros s U; [reflexivity|]. unfold free_run in *. cbn [free_run_sel]. change (step_sel true) with step.
  rewrite (step_erase _ _ _ U). apply IH, uinv_step, U.
Qed.

Lemma erase_obs s : obs (erase s) = obs s. Proof. reflexivity. Qed.
Lemma erase_agenda s : agenda (erase s) = agenda s. Proof. reflexivity. Qed.
Lemma erase_now s : now (erase s) = now s. Proof. reflexivity. Qed.
Lemma erase_procs s : procs (erase s) = procs s. Proof. reflexivity. Qed.
Lemma erase_glob s : glob (erase s) = glob s. Proof. reflexivity. Qed.

(* a state without stop callbacks is its own erasure *)
Lemma erase_cbs_id l : existsb is_stop_cb l = false -> erase_cbs l = l.
Proof.
  induction l as [|x t IH]; cbn [existsb]; [reflexivity|]. intros H. apply orb_false_iff in H. destruct H as [Hx Ht].
  rewrite (erase_cbs_cons_keep _ _ Hx), (IH Ht). reflexivity.
Qed.

Lemma erase_id s : (forall e ev, get_event e s = Some ev -> has_stop ev = false) -> erase s = s.
Proof.
  intros H. unfold erase, set_events. destruct s as [n a ne evs ps ac g ob]. cbn in *. f_equal.
  assert (H' : forall e ev, nth_error evs e = Some ev -> has_stop ev = false) by exact H. clear H.
  induction evs as [|x t IH]; [reflexivity|]. cbn [map]. f_equal.
  - pose proof (H' 0%nat x eq_refl) as Hx. destruct x as [[l|] o d k]; unfold erase_ev, has_stop in *; cbn in *; [|reflexivity].
    now rewrite erase_cbs_id.
  - apply IH. intros e ev He. exact (H' (S e) ev He).
Qed.
