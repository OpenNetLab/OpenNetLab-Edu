(* Kernel/StopScript.v -- C03: the programs compiled from scripts (Kernel/Script.v: the families the correspondence
   check runs on the real kernel) are parametric, provided they do not call env.peek().  So the class of programs
   [split_transparent] speaks about contains every generated family of props/c03.py. *)
From Coq Require Import ZArith QArith List Bool Lia.
From ONL Require Import Kernel.Model Kernel.Script Kernel.StopRen Kernel.StopSimCalls.
Import ListNotations.
Local Open Scope nat_scope.

Fixpoint nopeek_i (i : instr) : bool :=
  match i with IPeek _ => false | IIfExn _ j | IIfOk _ j => nopeek_i j | _ => true end.
Definition nopeek (l : list instr) : bool := forallb nopeek_i l.

Definition ren_wait (f : nat -> nat) (w : option (Z * val * reg * ymode)) : option (Z * val * reg * ymode) :=
  match w with Some (lbl, yv, dst, m) => Some (lbl, ren_val f yv, dst, m) | None => None end.
Definition wait_dom (n : nat) (w : option (Z * val * reg * ymode)) : bool :=
  match w with Some (_, yv, _, _) => vdom n yv | None => true end.

Definition ren_sst (f : nat -> nat) (st : sst) : sst := mkSst (s_code st) (ren_vals f (s_regs st)) (ren_wait f (s_wait st)).
Definition sst_dom (n : nat) (st : sst) : bool := nopeek (s_code st) && vsdom n (s_regs st) && wait_dom n (s_wait st).

Definition SS (f : nat -> nat) (n : nat) (st st' : sst) : Prop := sst_dom n st = true /\ st' = ren_sst f st.

Notation FR := (frel SS).

(* continuations, related in every later world *)
Definition krel (f : nat -> nat) (n : nat) (k k' : list val -> F) : Prop :=
  forall f' n', agree n f f' -> n <= n' -> inj f' -> forall regs, vsdom n' regs = true -> FR f' n' (k regs) (k' (ren_vals f' regs)).
Definition vkrel (f : nat -> nat) (n : nat) (k k' : val -> F) : Prop :=
  forall f' n', agree n f f' -> n <= n' -> inj f' -> forall v, vdom n' v = true -> FR f' n' (k v) (k' (ren_val f' v)).

Lemma krel_here f n k k' regs : krel f n k k' -> inj f -> vsdom n regs = true -> FR f n (k regs) (k' (ren_vals f regs)).
Proof. intros H I D. apply H; [apply agree_refl|lia|exact I|exact D]. Qed.

Lemma log_rel f n v kk kk' :
  vdom n v = true ->
  (forall f' n', agree n f f' -> n <= n' -> inj f' -> FR f' n' kk kk') ->
  FR f n (log v kk) (log (ren_val f v) kk').
Proof.
  intros D H. unfold log. change (CLog (ren_val f v)) with (ren_call f (CLog v)). constructor; [exact D|].
  intros f' n' A L I o _. apply H; assumption.
Qed.

Lemma okv_ren f o : okv (ren_outcome f o) = ren_val f (okv o).
Proof. destruct o as [v|[c l]]; reflexivity. Qed.

Lemma okv_dom n o : odom n o = true -> vdom n (okv o) = true.
Proof. destruct o as [v|[c l]]; cbn; auto. Qed.

Lemma read_reg_rel f n r regs k k' :
  inj f -> vsdom n regs = true -> vkrel f n k k' -> FR f n (read_reg r regs k) (read_reg r (ren_vals f regs) k').
Proof.
  intros I D H. destruct r as [i|g]; cbn [read_reg].
  - rewrite nth_ren. apply H; [apply agree_refl|lia|exact I|apply nth_dom, D].
  - change (CGetG g) with (ren_call f (CGetG g)) at 2. constructor; [reflexivity|].
    intros f' n' A L I' o O. rewrite okv_ren. apply H; [exact A|exact L|exact I'|apply okv_dom, O].
Qed.

Lemma write_reg_rel f n r v regs k k' :
  inj f -> vdom n v = true -> vsdom n regs = true -> krel f n k k' ->
  FR f n (write_reg r v regs k) (write_reg r (ren_val f v) (ren_vals f regs) k').
Proof.
  intros I Dv D H. destruct r as [i|g]; cbn [write_reg].
  - rewrite set_nth_val_ren. apply (krel_here _ _ _ _ _ H I). apply set_nth_val_dom; assumption.
  - change (CSetG g (ren_val f v)) with (ren_call f (CSetG g v)). constructor; [exact Dv|].
    intros f' n' A L I' o _. rewrite (ren_vals_agree _ _ _ _ A D). apply H; [exact A|exact L|exact I'|eapply vsdom_mono; eassumption].
Qed.

Lemma eval_rel f n x regs k k' :
  inj f -> vsdom n regs = true -> vkrel f n k k' -> FR f n (eval x regs k) (eval x (ren_vals f regs) k').
Proof.
  intros I D H. destruct x as [|z|r|tag arg]; cbn [eval].
  - apply (H f n (agree_refl _ _) (Nat.le_refl _) I VNone eq_refl).
  - apply (H f n (agree_refl _ _) (Nat.le_refl _) I (VInt z) eq_refl).
  - apply read_reg_rel; assumption.
  - apply (H f n (agree_refl _ _) (Nat.le_refl _) I (VExn (EUser tag) [VInt arg]) eq_refl).
Qed.

Definition ctx (f : nat -> nat) (n : nat) (regs : list val) (k k' : list val -> F) : Prop :=
  inj f /\ vsdom n regs = true /\ krel f n k k'.

Lemma ctx_later f n regs k k' f' n' :
  ctx f n regs k k' -> agree n f f' -> n <= n' -> inj f' -> ctx f' n' regs k k' /\ ren_vals f regs = ren_vals f' regs.
Proof.
  intros (_ & D & H) A L I'. split; [|exact (ren_vals_agree _ _ _ _ A D)].
  split; [exact I'|]. split; [exact (vsdom_mono _ _ _ L D)|].
  intros f2 n2 A2 L2 I2 regs2 D2. apply H; [eapply agree_trans; eassumption|lia|exact I2|exact D2].
Qed.

Lemma ctx_here f n regs k k' : ctx f n regs k k' -> FR f n (k regs) (k' (ren_vals f regs)).
Proof. intros (I & D & H). exact (krel_here _ _ _ _ _ H I D). Qed.

Lemma log_ctx f n v regs k k' :
  ctx f n regs k k' -> vdom n v = true -> FR f n (log v (k regs)) (log (ren_val f v) (k' (ren_vals f regs))).
Proof.
  intros C Dv. apply log_rel; [exact Dv|]. intros f' n' A L I'. destruct (ctx_later _ _ _ _ _ _ _ C A L I') as [C' ->]. apply ctx_here, C'.
Qed.

Lemma eval_ctx f n x regs k k' (B B' : val -> F) :
  ctx f n regs k k' ->
  (forall f' n' v, ctx f' n' regs k k' -> agree n f f' -> n <= n' -> ren_vals f regs = ren_vals f' regs -> vdom n' v = true -> FR f' n' (B v) (B' (ren_val f' v))) ->
  FR f n (eval x regs B) (eval x (ren_vals f regs) B').
Proof.
  intros C HB. pose proof C as (I & D & _). apply eval_rel; [exact I|exact D|]. intros f' n' A L I' v Dv.
  destruct (ctx_later _ _ _ _ _ _ _ C A L I') as [C' E]. exact (HB f' n' v C' A L E Dv).
Qed.

Lemma api_ctx f n c dst regs k k' :
  ctx f n regs k k' -> cdom n c = true -> FR f n (api c dst regs k) (api (ren_call f c) dst (ren_vals f regs) k').
Proof.
  intros C Dc. unfold api. constructor; [exact Dc|]. intros f' n' A L I' o O.
  destruct (ctx_later _ _ _ _ _ _ _ C A L I') as [C' ->]. pose proof C' as (_ & D' & H').
  destruct o as [v|x]; cbn [ren_outcome].
  - destruct dst as [r|]; [apply write_reg_rel; assumption|apply ctx_here, C'].
  - rewrite exn_val_ren. change (VList [VInt 2; ren_val f' (exn_val x)]) with (ren_val f' (VList [VInt 2; exn_val x])).
    apply log_ctx; [exact C'|]. cbn [vdom]. rewrite andb_true_r. destruct x as [cx lx]. exact O.
Qed.

Lemma get_ev_ren f v : get_ev (ren_val f v) = option_map f (get_ev v).
Proof. destruct v; reflexivity. Qed.

Lemma with_ev_ctx f n r regs k k' (B B' : evid -> F) :
  ctx f n regs k k' ->
  (forall f' n' e, ctx f' n' regs k k' -> agree n f f' -> n <= n' -> ren_vals f regs = ren_vals f' regs -> e < n' -> FR f' n' (B e) (B' (f' e))) ->
  FR f n (with_ev r regs k B) (with_ev r (ren_vals f regs) k' B').
Proof.
  intros C HB. pose proof C as (I & D & _). unfold with_ev. apply read_reg_rel; [exact I|exact D|].
  intros f' n' A L I' v Dv. rewrite get_ev_ren. destruct (ctx_later _ _ _ _ _ _ _ C A L I') as [C' E].
  destruct v; cbn [get_ev option_map]; try (rewrite E; exact (log_ctx _ _ (VList [VInt 4]) _ _ _ C' eq_refl)).
  exact (HB f' n' e C' A L E (proj1 (Nat.ltb_lt _ _) Dv)).
Qed.

Lemma all_evs_ren f vs : all_evs (ren_vals f vs) = option_map (map f) (all_evs vs).
Proof.
  induction vs as [|v t IH]; [reflexivity|]. cbn [ren_vals map all_evs]. fold (ren_vals f t). rewrite get_ev_ren, IH.
  destruct (get_ev v); cbn [option_map]; [|reflexivity]. destruct (all_evs t); reflexivity.
Qed.

Lemma all_evs_dom n vs l : vsdom n vs = true -> all_evs vs = Some l -> esdom n l = true.
Proof.
  revert l. induction vs as [|v t IH]; intros l D H; cbn [all_evs] in H.
  - injection H as <-. reflexivity.
  - unfold vsdom in D. cbn [forallb] in D. apply andb_true_iff in D. destruct D as [Dv Dt].
    destruct (get_ev v) as [e|] eqn:E; [|discriminate]. destruct (all_evs t) as [l0|]; [|discriminate]. injection H as <-.
    destruct v; try discriminate. injection E as <-. unfold esdom. cbn [forallb vdom] in *. rewrite Dv. exact (IH _ Dt eq_refl).
Qed.

Lemma read_regs_rel rs regs : forall f n k k',
  inj f -> vsdom n regs = true ->
  (forall f' n', agree n f f' -> n <= n' -> inj f' -> forall vs, vsdom n' vs = true -> FR f' n' (k vs) (k' (ren_vals f' vs))) ->
  FR f n (read_regs rs regs k) (read_regs rs (ren_vals f regs) k').
Proof.
  induction rs as [|r t IH]; intros f n k k' I D H; cbn [read_regs].
  - apply (H f n (agree_refl _ _) (Nat.le_refl _) I [] eq_refl).
  - apply read_reg_rel; [exact I|exact D|]. intros f' n' A L I' v Dv.
    rewrite (ren_vals_agree _ _ _ _ A D). apply IH; [exact I'|eapply vsdom_mono; eassumption|].
    intros f2 n2 A2 L2 I2 vs Dvs. rewrite (ren_val_agree _ _ _ _ A2 Dv).
    change (ren_val f2 v :: ren_vals f2 vs) with (ren_vals f2 (v :: vs)).
    apply H; [eapply agree_trans; eassumption|lia|exact I2|]. unfold vsdom. cbn [forallb]. rewrite (vdom_mono _ _ _ L2 Dv). exact Dvs.
Qed.

Lemma is_exn_ren f v : is_exn (ren_val f v) = is_exn v.
Proof. destruct v; reflexivity. Qed.

(* one instruction *)
Lemma exec_i_rel : forall i rest f nw regs k k',
  nopeek_i i = true -> nopeek rest = true -> ctx f nw regs k k' ->
  FR f nw (exec_i i rest regs k) (exec_i i rest (ren_vals f regs) k').
Proof.
  induction i; intros rest f nw regs k k' Np Nr C; cbn [exec_i nopeek_i] in *.
  - (* ITimeout *) eapply eval_ctx; [exact C|]. intros f1 n1 v1 C1 _ _ -> Dv. exact (api_ctx _ _ (CTimeout d v1) _ _ _ _ C1 Dv).
  - (* IEvent *) exact (api_ctx _ _ CEvent _ _ _ _ C eq_refl).
  - (* ISucceed *) eapply with_ev_ctx; [exact C|]. intros f1 n1 e1 C1 _ _ -> Le. eapply eval_ctx; [exact C1|]. intros f2 n2 v2 C2 A L -> Dv.
    rewrite (A _ Le). apply (api_ctx _ _ (CSucceed e1 v2) _ _ _ _ C2). cbn [cdom]. rewrite Dv, andb_true_r. apply Nat.ltb_lt. lia.
  - (* IFail *) eapply with_ev_ctx; [exact C|]. intros f1 n1 e1 C1 _ _ -> Le. eapply eval_ctx; [exact C1|]. intros f2 n2 v2 C2 A L -> Dv.
    rewrite (A _ Le). apply (api_ctx _ _ (CFail e1 v2) _ _ _ _ C2). cbn [cdom]. rewrite Dv, andb_true_r. apply Nat.ltb_lt. lia.
  - (* ISpawn *) eapply eval_ctx; [exact C|]. intros f1 n1 v1 C1 _ _ -> Dv. exact (api_ctx _ _ (CSpawn code v1) _ _ _ _ C1 Dv).
  - (* IInterrupt *) eapply with_ev_ctx; [exact C|]. intros f1 n1 e1 C1 _ _ -> Le. eapply eval_ctx; [exact C1|]. intros f2 n2 v2 C2 A L -> Dv.
    rewrite (A _ Le). apply (api_ctx _ _ (CInterrupt e1 v2) _ _ _ _ C2). cbn [cdom]. rewrite Dv, andb_true_r. apply Nat.ltb_lt. lia.
  - (* ICond *) pose proof C as (I & D & H). apply read_regs_rel; [exact I|exact D|]. intros f1 n1 A L I1 vs Dvs. rewrite all_evs_ren.
    destruct (ctx_later _ _ _ _ _ _ _ C A L I1) as [C1 ->].
    destruct (all_evs vs) as [l|] eqn:E; cbn [option_map]; [|exact (log_ctx _ _ (VList [VInt 4]) _ _ _ C1 eq_refl)].
    pose proof (all_evs_dom _ _ _ Dvs E) as Dl.
    destruct all; [exact (api_ctx _ _ (CAllOf l) _ _ _ _ C1 Dl)|exact (api_ctx _ _ (CAnyOf l) _ _ _ _ C1 Dl)].
  - (* IProbe *) eapply with_ev_ctx; [exact C|]. intros f1 n1 e1 C1 _ _ -> Le. exact (api_ctx _ _ (CProbe e1 n) _ _ _ _ C1 (proj2 (Nat.ltb_lt _ _) Le)).
  - (* IQuery *) eapply with_ev_ctx; [exact C|]. intros f1 n1 e1 C1 _ _ -> Le. exact (api_ctx _ _ (CQuery q e1) _ _ _ _ C1 (proj2 (Nat.ltb_lt _ _) Le)).
  - (* INow *) exact (api_ctx _ _ CNow _ _ _ _ C eq_refl).
  - (* IPeek *) discriminate.
  - (* ISet *) eapply eval_ctx; [exact C|]. intros f1 n1 v1 (I1 & D1 & H1) _ _ -> Dv. apply write_reg_rel; assumption.
  - (* ILog *) eapply eval_ctx; [exact C|]. intros f1 n1 v1 C1 _ _ -> Dv. apply (log_ctx _ _ (VList [VInt 3; v1]) _ _ _ C1). cbn [vdom]. now rewrite Dv.
  - (* IYield *) eapply eval_ctx; [exact C|]. intros f1 n1 v1 (I1 & D1 & H1) _ _ -> Dv.
    change (mkSst rest (ren_vals f1 regs) (Some (lbl, ren_val f1 v1, dst, m))) with (ren_sst f1 (mkSst rest regs (Some (lbl, v1, dst, m)))).
    constructor; [exact Dv|]. split; [|reflexivity]. unfold sst_dom. cbn [s_code s_regs s_wait wait_dom]. rewrite Nr, D1, Dv. reflexivity.
  - (* IReturn *) eapply eval_ctx; [exact C|]. intros f1 n1 v1 _ _ _ _ Dv. constructor. exact Dv.
  - (* IRaise *) eapply eval_ctx; [exact C|]. intros f1 n1 x1 _ _ _ _ Dx.
    destruct x1; cbn [ren_val]; try (change (kexn EType M_raise_non_exception) with (ren_exn f1 (kexn EType M_raise_non_exception)) at 2; constructor; reflexivity).
    change (c, (fix go (l : list val) : list val := match l with [] => [] | x :: t => ren_val f1 x :: go t end) args) with (ren_exn f1 (c, args)).
    constructor. exact Dx.
  - (* IIfExn *) pose proof C as (I & D & H). apply read_reg_rel; [exact I|exact D|]. intros f1 n1 A L I1 v Dv. rewrite is_exn_ren.
    destruct (ctx_later _ _ _ _ _ _ _ C A L I1) as [C1 ->]. destruct (is_exn v); [apply IHi; assumption|apply ctx_here, C1].
  - (* IIfOk *) pose proof C as (I & D & H). apply read_reg_rel; [exact I|exact D|]. intros f1 n1 A L I1 v Dv. rewrite is_exn_ren.
    destruct (ctx_later _ _ _ _ _ _ _ C A L I1) as [C1 ->]. destruct (is_exn v); [apply ctx_here, C1|apply IHi; assumption].
Qed.

Lemma exec_rel : forall l f n regs,
  nopeek l = true -> inj f -> vsdom n regs = true -> FR f n (exec l regs) (exec l (ren_vals f regs)).
Proof.
  induction l as [|i rest IH]; intros f n regs Np I D; cbn [exec].
  - change (FRet VNone) with (@FRet sst (ren_val f VNone)) at 2. constructor. reflexivity.
  - unfold nopeek in Np. cbn [forallb] in Np. apply andb_true_iff in Np. destruct Np as [Ni Nr].
    apply exec_i_rel; [exact Ni|exact Nr|]. split; [exact I|]. split; [exact D|].
    intros f' n' A L I' regs' D'. apply IH; assumption.
Qed.

Lemma oval_ren f o : oval (ren_outcome f o) = ren_val f (oval o).
Proof. destruct o as [v|[c l]]; reflexivity. Qed.

Lemma oval_dom n o : odom n o = true -> vdom n (oval o) = true.
Proof.
  destruct o as [v|[c l]]; intros H.
  - change (vdom n v && true = true). cbn [odom] in H. now rewrite H.
  - change (vsdom n l && true = true). unfold odom, xdom in H. cbn [snd] in H. now rewrite H.
Qed.

Lemma script_resume_rel f n st o :
  inj f -> sst_dom n st = true -> odom n o = true ->
  FR f n (script_resume st o) (script_resume (ren_sst f st) (ren_outcome f o)).
Proof.
  intros I D O. unfold sst_dom in D. apply andb_true_iff in D. destruct D as [D Dw]. apply andb_true_iff in D. destruct D as [Np Dr].
  unfold script_resume. cbn [ren_sst s_wait s_code s_regs]. destruct (s_wait st) as [[[[lbl yv] dst] m]|]; cbn [ren_wait].
  - rewrite oval_ren. change (VList [VInt 1; VInt lbl; ren_val f (oval o)]) with (ren_val f (VList [VInt 1; VInt lbl; oval o])).
    apply log_rel; [cbn [vdom]; rewrite (oval_dom _ _ O); reflexivity|].
    intros f' n' A L I'. rewrite (ren_vals_agree _ _ _ _ A Dr). pose proof (vsdom_mono _ _ _ L Dr) as Dr'.
    assert (KE : krel f' n' (exec (s_code st)) (exec (s_code st))) by (intros f2 n2 A2 L2 I2 regs D2; apply exec_rel; assumption).
    cbn [wait_dom] in Dw.
    destruct o as [v|x]; cbn [ren_outcome].
    + rewrite (ren_val_agree _ _ _ _ A O). apply write_reg_rel; [exact I'|eapply vdom_mono; eassumption|exact Dr'|exact KE].
    + assert (Ox : xdom n' x = true) by (unfold xdom in *; eapply vsdom_mono; eassumption).
      assert (Ex : ren_exn f x = ren_exn f' x) by (unfold ren_exn; now rewrite (ren_vals_agree _ _ _ _ A O)).
      rewrite Ex. assert (W : FR f' n' (write_reg dst (exn_val x) (s_regs st) (exec (s_code st)))
                                  (write_reg dst (exn_val (ren_exn f' x)) (ren_vals f' (s_regs st)) (exec (s_code st)))).
      { rewrite exn_val_ren. apply write_reg_rel; [exact I'| |exact Dr'|exact KE]. destruct x as [cx lx]. exact Ox. }
      destruct m as [| |[|k]]; try exact W.
      * constructor. exact Ox.
      * unfold is_interrupt. cbn [ren_exn fst]. destruct (fst x); try exact W.
        rewrite (ren_val_agree _ _ _ _ A Dw).
        change (mkSst (s_code st) (ren_vals f' (s_regs st)) (Some (lbl, ren_val f' yv, dst, YRetry k)))
          with (ren_sst f' (mkSst (s_code st) (s_regs st) (Some (lbl, yv, dst, YRetry k)))).
        constructor; [eapply vdom_mono; eassumption|]. split; [|reflexivity]. unfold sst_dom. cbn [s_code s_regs s_wait wait_dom].
        rewrite Np, Dr', (vdom_mono _ _ _ L Dw). reflexivity.
  - change (VList [VInt 0]) with (ren_val f (VList [VInt 0])) at 2. apply log_rel; [reflexivity|].
    intros f' n' A L I'. rewrite (ren_vals_agree _ _ _ _ A Dr). apply exec_rel; [exact Np|exact I'|eapply vsdom_mono; eassumption].
Qed.

Lemma sst_dom_mono n n' st : n <= n' -> sst_dom n st = true -> sst_dom n' st = true.
Proof.
  intros L. unfold sst_dom. rewrite !andb_true_iff. intros [[A B] C]. split; [split; [exact A|eapply vsdom_mono; eassumption]|].
  destruct (s_wait st) as [[[[lbl yv] dst] m]|]; [|reflexivity]. cbn [wait_dom] in *. eapply vdom_mono; eassumption.
Qed.

Lemma ren_sst_agree n f f' st : agree n f f' -> sst_dom n st = true -> ren_sst f st = ren_sst f' st.
Proof.
  intros A. unfold sst_dom, ren_sst. rewrite !andb_true_iff. intros [[_ B] C]. rewrite (ren_vals_agree _ _ _ _ A B). f_equal.
  destruct (s_wait st) as [[[[lbl yv] dst] m]|]; [|reflexivity]. cbn [wait_dom ren_wait] in *. now rewrite (ren_val_agree _ _ _ _ A C).
Qed.

(* every script without env.peek() compiles to a parametric program *)
Theorem compile_parametric code : nopeek code = true -> parametric (compile code).
Proof.
  intros Np. apply (parametric_intro (compile code) SS).
  - intros f n st st' [D ->] f' n' A L I o O. cbn [compile resume].
    rewrite (ren_sst_agree _ _ _ _ A D). apply script_resume_rel; [exact I|eapply sst_dom_mono; eassumption|exact O].
  - intros f n arg I V. cbn [compile start]. split; [|reflexivity]. unfold sst_dom. cbn [s_code s_regs s_wait wait_dom vsdom forallb].
    rewrite Np, V. reflexivity.
Qed.

Lemma compile_parametric_codes scripts : forallb nopeek scripts = true -> parametric_codes (map compile scripts).
Proof.
  intros H pr Hin. apply in_map_iff in Hin. destruct Hin as (code & <- & Hc). apply compile_parametric.
  rewrite forallb_forall in H. apply H, Hc.
Qed.
