(* Kernel/Cond.v -- C05 (conditions): the kernel's executions as sequences of PRIMITIVE transitions.

   [prim x s s'] : one primitive state change of Kernel/Model.v, as far as events / callbacks / outcomes /
   the agenda are concerned.  The label [x] is [Some e] exactly for the tail of an explicit
   [Event.succeed / Event.fail] API call on the pending event e (an "external" trigger, issued by program
   text), and [None] for everything the kernel does by itself.
   [ptrace X s s'] : a finite sequence of primitives; X lists the externally triggered events.

   Decomposition lemmas (this file): do_call (all 15 API calls), run_frag for every fragment of every automaton,
   resume_loop/resume_proc, do_interruption and run_prelude are traces of primitives, whatever their result (also
   RFuel / RBroken / RRaise); [step_unfold] splits a step into the pop and the callback loop.  The callbacks, the
   loop, step, run_loop and run are traversed in Kernel/CondInv.v, where the invariants they need are at hand.
   So an invariant of [prim] holds in every state of every execution of every program, including the states
   in the middle of a step.  Kernel/CondInv.v proves the invariants, Kernel/CondProofs.v the C05 theorems.

   [prim] stands beside the unlabelled primitives of Kernel/Prims.v: it carries the label of an explicit trigger,
   takes Condition.__init__ and the replacement of the process table as single primitives (the C05 invariants do not
   hold inside them), and is what [reach], hence the statements of Props/C05.v, are written in.  The label-free
   preorders of this file ([grows], [procs_wf]) go through Prims' traversal. *)
From Coq Require Import ZArith QArith List Bool Lia.
From ONL Require Import Kernel.Model Kernel.Prims.
Import ListNotations.

(* ------------------------------------------------------------------------------------------------ *)
(* lists of events: lookup after update / append *)

Lemma get_upd_inv e f s ev :
  get_event e s = Some ev -> forall e0 ev0', get_event e0 (upd_event e f s) = Some ev0' ->
  (e0 = e /\ ev0' = f ev) \/ (e0 <> e /\ get_event e0 s = Some ev0').
Proof.
  intros He e0 ev0'. rewrite get_event_upd. destruct (Nat.eqb_spec e0 e) as [->|N]; [|auto].
  rewrite He. cbn. intros H; injection H as <-. auto.
Qed.

Lemma get_ge e s : (length (events s) <= e)%nat -> get_event e s = None.
Proof. unfold get_event. apply nth_error_None. Qed.

Lemma get_new ev s e :
  get_event e (snd (new_event ev s)) =
  if Nat.ltb e (length (events s)) then get_event e s else if Nat.eqb e (length (events s)) then Some ev else None.
Proof.
  destruct (Nat.ltb e (length (events s))) eqn:L.
  - apply Nat.ltb_lt in L. apply get_event_new_below, L.
  - apply Nat.ltb_ge in L. destruct (Nat.eqb e (length (events s))) eqn:E.
    + apply Nat.eqb_eq in E. subst e. apply get_event_new_self.
    + apply Nat.eqb_neq in E. apply get_ge. unfold new_event. cbn. rewrite app_length. cbn. lia.
Qed.

Lemma new_event_eq ev s : new_event ev s = (length (events s), snd (new_event ev s)).
Proof. reflexivity. Qed.

Lemma new_event_fst ev s : fst (new_event ev s) = length (events s).
Proof. reflexivity. Qed.

Lemma new_event_length ev s : length (events (snd (new_event ev s))) = S (length (events s)).
Proof. unfold new_event. cbn. rewrite app_length. cbn. lia. Qed.

Lemma get_schedule e c p d s : get_event e (schedule c p d s) = get_event e s.
Proof. reflexivity. Qed.

Lemma upd_nth_twice {A} (f g : A -> A) n l : upd_nth n g (upd_nth n f l) = upd_nth n (fun x => g (f x)) l.
Proof. revert n. induction l as [|x t IH]; intros [|n]; cbn; try reflexivity. rewrite IH. reflexivity. Qed.

Lemma upd_nth_comm {A} (f g : A -> A) n m l : n <> m -> upd_nth n f (upd_nth m g l) = upd_nth m g (upd_nth n f l).
Proof.
  revert n m. induction l as [|x t IH]; intros [|n] [|m] H; cbn; try reflexivity; try congruence.
  rewrite IH by congruence. reflexivity.
Qed.

Lemma upd_event_twice e f g s : upd_event e g (upd_event e f s) = upd_event e (fun x => g (f x)) s.
Proof. unfold upd_event. cbn. rewrite upd_nth_twice. reflexivity. Qed.

Lemma upd_event_comm e1 e2 f g s : e1 <> e2 -> upd_event e1 f (upd_event e2 g s) = upd_event e2 g (upd_event e1 f s).
Proof. intros H. unfold upd_event. cbn. rewrite upd_nth_comm by exact H. reflexivity. Qed.

(* what _check does, as one update of the condition (after the operand was defused, if it failed) *)

Definition check_triggers (all : bool) (ops : list evid) (n : nat) (oev : event) : bool :=
  is_failed oev || cond_evaluate all (length ops) (S n).

Definition check_out (oev : event) : outcome :=
  match out oev with Some (Fail x) => Fail x | _ => Ok VNone end.

Definition check_upd (all : bool) (ops : list evid) (n : nat) (oev cev : event) : event :=
  let cev1 := ev_set_kind (KCond all ops (S n)) cev in
  if check_triggers all ops n oev then ev_set_out (Some (check_out oev)) cev1 else cev1.

Lemma check_upd_kind all ops n oev cev : kind (check_upd all ops n oev cev) = KCond all ops (S n).
Proof. unfold check_upd. destruct (check_triggers all ops n oev); reflexivity. Qed.
Lemma check_upd_cbs all ops n oev cev : cbs (check_upd all ops n oev cev) = cbs cev.
Proof. unfold check_upd. destruct (check_triggers all ops n oev); reflexivity. Qed.
Lemma check_upd_defused all ops n oev cev : defused (check_upd all ops n oev cev) = defused cev.
Proof. unfold check_upd. destruct (check_triggers all ops n oev); reflexivity. Qed.
Lemma check_upd_out all ops n oev cev :
  out (check_upd all ops n oev cev) = if check_triggers all ops n oev then Some (check_out oev) else out cev.
Proof. unfold check_upd. destruct (check_triggers all ops n oev); reflexivity. Qed.
#[global] Hint Rewrite check_upd_kind check_upd_cbs check_upd_defused check_upd_out : check_upd.

Lemma failed_out oev : is_failed oev = true -> exists x, out oev = Some (Fail x) /\ check_out oev = Fail x.
Proof. unfold is_failed, check_out. destruct (out oev) as [[v|x]|]; try discriminate. eauto. Qed.
Lemma not_failed_out oev : is_failed oev = false -> check_out oev = Ok VNone.
Proof. unfold is_failed, check_out. destruct (out oev) as [[v|x]|]; try discriminate; reflexivity. Qed.

(* a failed operand is not the pending condition itself *)
Lemma get_defused_other c o s cev oev :
  get_event c s = Some cev -> get_event o s = Some oev -> out cev = None ->
  get_event c (if is_failed oev then upd_event o ev_set_defused s else s) = Some cev.
Proof.
  intros Hc Ho Oc. destruct (is_failed oev) eqn:F; [|exact Hc]. rewrite get_event_upd_other; [exact Hc|]. intros ->.
  rewrite Hc in Ho. injection Ho as <-. unfold is_failed in F. rewrite Oc in F. discriminate.
Qed.

Lemma cond_check_eq c o s cev oev all ops n :
  get_event c s = Some cev -> get_event o s = Some oev -> out cev = None -> kind cev = KCond all ops n ->
  let s0 := if is_failed oev then upd_event o ev_set_defused s else s in
  let s1 := upd_event c (check_upd all ops n oev) s0 in
  cond_check c o s = if check_triggers all ops n oev then schedule c NORMAL 0 s1 else s1.
Proof.
  intros Hc Ho Oc Kc. unfold cond_check. rewrite Hc, Ho, Oc, Kc.
  unfold check_upd, check_triggers, check_out, is_failed, trigger_event.
  destruct (out oev) as [[v|x]|] eqn:Oo; cbn [orb].
  - destruct (cond_evaluate all (length ops) (S n)); cbn zeta; [|reflexivity].
    rewrite upd_event_twice. reflexivity.
  - assert (N : o <> c) by (intros ->; congruence).
    cbn zeta. rewrite (upd_event_comm o c) by exact N. rewrite upd_event_twice. reflexivity.
  - destruct (cond_evaluate all (length ops) (S n)); cbn zeta; [|reflexivity].
    rewrite upd_event_twice. reflexivity.
Qed.

Lemma cond_check_noop c o s :
  (get_event c s = None \/ get_event o s = None \/
   exists cev, get_event c s = Some cev /\ (out cev <> None \/ is_cond cev = false)) ->
  cond_check c o s = s.
Proof.
  unfold cond_check. intros [H|[H|(cev & H & [O|K])]].
  - rewrite H. reflexivity.
  - rewrite H. destruct (get_event c s); reflexivity.
  - rewrite H. destruct (get_event o s); [|reflexivity]. destruct (out cev); [reflexivity|congruence].
  - rewrite H. destruct (get_event o s); [|reflexivity]. unfold is_cond in K.
    destruct (out cev); [reflexivity|]. destruct (kind cev); try reflexivity. discriminate.
Qed.

Lemma cond_check_cases c o s :
  cond_check c o s = s \/
  exists cev oev all ops n, get_event c s = Some cev /\ get_event o s = Some oev /\ out cev = None /\ kind cev = KCond all ops n.
Proof.
  destruct (get_event c s) as [cev|] eqn:Hc; [|left; apply cond_check_noop; auto].
  destruct (get_event o s) as [oev|] eqn:Ho; [|left; apply cond_check_noop; auto].
  destruct (out cev) eqn:Oc; [left; apply cond_check_noop; right; right; exists cev; split; [exact Hc|left; congruence]|].
  destruct (kind cev) eqn:Kc; try (left; apply cond_check_noop; right; right; exists cev; split; [exact Hc|right; unfold is_cond; rewrite Kc; reflexivity]).
  right. exists cev, oev, all, ops, count. auto.
Qed.

Lemma cond_check_get c o s cev oev all ops n a :
  get_event c s = Some cev -> get_event o s = Some oev -> out cev = None -> kind cev = KCond all ops n ->
  get_event a (cond_check c o s) =
  if Nat.eqb a c then Some (check_upd all ops n oev cev)
  else if Nat.eqb a o then Some (if is_failed oev then ev_set_defused oev else oev) else get_event a s.
Proof.
  intros Hc Ho Oc Kc. rewrite (cond_check_eq c o s cev oev all ops n Hc Ho Oc Kc). cbv zeta.
  pose proof (get_defused_other c o s cev oev Hc Ho Oc) as Hc0.
  set (s0 := if is_failed oev then upd_event o ev_set_defused s else s) in *.
  assert (E : get_event a s0 = if Nat.eqb a o then Some (if is_failed oev then ev_set_defused oev else oev) else get_event a s).
  { unfold s0. destruct (is_failed oev); [rewrite get_event_upd|]; destruct (Nat.eqb_spec a o) as [->|]; rewrite ?Ho; reflexivity. }
  destruct (check_triggers all ops n oev); rewrite ?get_schedule, get_event_upd;
    (destruct (Nat.eqb_spec a c) as [->|]; [rewrite Hc0; reflexivity|exact E]).
Qed.

Lemma procs_cond_check c o s : procs (cond_check c o s) = procs s.
Proof.
  destruct (cond_check_cases c o s) as [->|(cev & oev & all & ops & n & Hc & Ho & Oc & Kc)]; [reflexivity|].
  rewrite (cond_check_eq c o s cev oev all ops n Hc Ho Oc Kc). cbv zeta.
  destruct (check_triggers all ops n oev), (is_failed oev); reflexivity.
Qed.

Lemma length_cond_check c o s : length (events (cond_check c o s)) = length (events s).
Proof.
  destruct (cond_check_cases c o s) as [->|(cev & oev & all & ops & n & Hc & Ho & Oc & Kc)]; [reflexivity|].
  rewrite (cond_check_eq c o s cev oev all ops n Hc Ho Oc Kc). cbv zeta.
  destruct (check_triggers all ops n oev), (is_failed oev); cbn [events schedule]; rewrite ?upd_event_length; reflexivity.
Qed.

(* effect of _check on the events other than the condition *)
Lemma cond_check_frame c o s e :
  e <> c ->
  get_event e (cond_check c o s) = get_event e s \/
  (e = o /\ exists oev, get_event o s = Some oev /\ is_failed oev = true /\
            get_event e (cond_check c o s) = Some (ev_set_defused oev)).
Proof.
  intros N. destruct (cond_check_cases c o s) as [->|(cev & oev & all & ops & n & Hc & Ho & Oc & Kc)]; [left; reflexivity|].
  rewrite (cond_check_eq c o s cev oev all ops n Hc Ho Oc Kc). cbv zeta.
  set (s0 := if is_failed oev then upd_event o ev_set_defused s else s).
  assert (E : forall s', get_event e (if check_triggers all ops n oev then schedule c NORMAL 0 s' else s') = get_event e s')
    by (intros; destruct (check_triggers all ops n oev); reflexivity).
  rewrite E, get_event_upd_other by exact N. unfold s0. destruct (is_failed oev) eqn:F; [|left; reflexivity].
  rewrite get_event_upd. destruct (Nat.eqb_spec e o) as [->|]; [|left; reflexivity].
  right. split; [reflexivity|]. exists oev. rewrite Ho. auto.
Qed.

(* ------------------------------------------------------------------------------------------------ *)
(* primitives *)

(* callbacks that are not part of the condition machinery *)
Definition plain_cb (c : cb) : Prop := match c with CbCheck _ | CbBuild _ => False | _ => True end.

(* an event created by anything but Condition.__init__ *)
Definition plain_new (ev : event) : Prop :=
  (exists l, cbs ev = Some l /\ forall c, In c l -> plain_cb c) /\
  (match kind ev with KCond _ _ _ => False | _ => True end).

(* what may happen to the table of processes: entries keep their Process event, new entries are appended
   and carry an existing event of kind KProcess *)
Definition procs_ok (s : state) (ps : list procrec) : Prop :=
  (forall p pr, nth_error (procs s) p = Some pr -> exists pr', nth_error ps p = Some pr' /\ pev pr' = pev pr) /\
  (forall p pr, nth_error ps p = Some pr -> nth_error (procs s) p = None ->
                exists ev q, get_event (pev pr) s = Some ev /\ kind ev = KProcess q).

Definition same_store (s s' : state) : Prop :=
  events s' = events s /\ procs s' = procs s /\ agenda s' = agenda s.

Inductive iprim : option evid -> state -> state -> Prop :=
| p_frame s s' : same_store s s' -> iprim None s s'
| p_new ev s : plain_new ev -> iprim None s (snd (new_event ev s))
| p_sched e prio d s ev : get_event e s = Some ev -> out ev <> None -> iprim None s (schedule e prio d s)
| p_addcb e c s : plain_cb c -> iprim None s (add_callback e c s)
| p_rmcb e ev l c s : get_event e s = Some ev -> cbs ev = Some l -> plain_cb c ->
                      iprim None s (upd_event e (ev_set_cbs (Some (remove_first c l))) s)
| p_trig e ev o s : get_event e s = Some ev -> out ev = None ->
                    iprim (Some e) s (upd_event e (ev_set_out (Some o)) s)
| p_ptrig e ev q o s : get_event e s = Some ev -> kind ev = KProcess q ->
                       iprim None s (upd_event e (ev_set_out (Some o)) s)
| p_defuse e s : iprim None s (upd_event e ev_set_defused s)
| p_procs ps s : procs_ok s ps -> iprim None s (set_procs ps s)
| p_cond all es s : all_valid es s = true -> iprim None s (fst (call_cond all es s)).

(* the state in which the callbacks of the popped event run *)
Definition popped (m : entry) (rest : list entry) (s : state) : state :=
  upd_event (e_ev m) (ev_set_cbs None) (pop_state m rest s).

(* o is an operand of c (if c is a condition at all) *)
Definition opnd (s : state) (c o : evid) : Prop :=
  forall cev all ops n, get_event c s = Some cev -> kind cev = KCond all ops n -> In o ops.

(* all primitives: what program code and process resumption do ([iprim]), plus the three things only the
   kernel's step does: pop an event, run a _check callback of the popped event, run _build_value *)
Inductive prim : option evid -> state -> state -> Prop :=
| p_inner x s s' : iprim x s s' -> prim x s s'
| p_pop m rest s : pop_min (agenda s) = Some (m, rest) -> prim None s (popped m rest s)
| p_check c o oev s : get_event o s = Some oev -> cbs oev = None -> opnd s c o -> prim None s (cond_check c o s)
| p_build c s : prim None s (fst (cond_build c s)).

Definition lab (x : option evid) : list evid := match x with Some e => [e] | None => [] end.

Inductive ltrace (R : option evid -> state -> state -> Prop) : list evid -> state -> state -> Prop :=
| pt_nil s : ltrace R [] s s
| pt_cons x X s s1 s2 : R x s s1 -> ltrace R X s1 s2 -> ltrace R (lab x ++ X) s s2.

Notation ptrace := (ltrace prim).
Notation iptrace := (ltrace iprim).

Lemma pt_one {R : option evid -> state -> state -> Prop} x s s' : R x s s' -> ltrace R (lab x) s s'.
Proof. intros H. rewrite <- (app_nil_r (lab x)). econstructor; [exact H|constructor]. Qed.

Lemma pt_step {R : option evid -> state -> state -> Prop} X s s1 s2 : R None s s1 -> ltrace R X s1 s2 -> ltrace R X s s2.
Proof. exact (pt_cons R None X s s1 s2). Qed.

Lemma pt_app {R : option evid -> state -> state -> Prop} X1 X2 s s1 s2 : ltrace R X1 s s1 -> ltrace R X2 s1 s2 -> ltrace R (X1 ++ X2) s s2.
Proof.
  induction 1 as [|x X s s1' s2' P T IH]; intros H2; [exact H2|].
  rewrite <- app_assoc. econstructor; [exact P|apply IH, H2].
Qed.

Lemma ltrace_mono (R R' : option evid -> state -> state -> Prop) :
  (forall x s s', R x s s' -> R' x s s') -> forall X s s', ltrace R X s s' -> ltrace R' X s s'.
Proof. intros H X s s' T. induction T; econstructor; eauto. Qed.

(* "some trace": the form used by the decomposition lemmas that do not care about labels *)
Definition steps (s s' : state) : Prop := exists X, ptrace X s s'.

Lemma steps_refl s : steps s s. Proof. exists []. constructor. Qed.
Lemma steps_trans s s1 s2 : steps s s1 -> steps s1 s2 -> steps s s2.
Proof. intros [X1 H1] [X2 H2]. exists (X1 ++ X2). eapply pt_app; eassumption. Qed.
Lemma steps_one x s s' : prim x s s' -> steps s s'.
Proof. intros H. exists (lab x). apply pt_one, H. Qed.

(* a generic induction principle: a reflexive-transitive relation containing every primitive contains steps *)
Lemma steps_ind_rel (R : state -> state -> Prop) :
  (forall s, R s s) -> (forall s s1 s2, R s s1 -> R s1 s2 -> R s s2) ->
  (forall x s s', prim x s s' -> R s s') -> forall s s', steps s s' -> R s s'.
Proof.
  intros Hr Ht Hp s s' [X H]. induction H as [|x X s s1 s2 P T IH]; [apply Hr|].
  eapply Ht; [eapply Hp, P|exact IH].
Qed.

(* ------------------------------------------------------------------------------------------------ *)
(* facts about primitives needed by the decomposition itself: the store only grows, processed events stay
   processed, a process keeps its Process event *)

Definition kind_le (k k' : ekind) : Prop :=
  k' = k \/ exists all ops n n', k = KCond all ops n /\ k' = KCond all ops n' /\ (n <= n')%nat.

Definition ev_le (ev ev' : event) : Prop :=
  kind_le (kind ev) (kind ev') /\ (cbs ev = None -> cbs ev' = None) /\ (out ev <> None -> out ev' <> None) /\
  (defused ev = true -> defused ev' = true).

Definition grows (s s' : state) : Prop :=
  (forall e ev, get_event e s = Some ev -> exists ev', get_event e s' = Some ev' /\ ev_le ev ev') /\
  (forall p pr, get_proc p s = Some pr -> exists pr', get_proc p s' = Some pr' /\ pev pr' = pev pr).

Lemma kind_le_refl k : kind_le k k. Proof. left; reflexivity. Qed.
Lemma kind_le_trans k1 k2 k3 : kind_le k1 k2 -> kind_le k2 k3 -> kind_le k1 k3.
Proof.
  intros [->|(a & o & n & n' & -> & -> & L)] [->|(a2 & o2 & m & m' & E & -> & L2)].
  - left; reflexivity.
  - right. exists a2, o2, m, m'. auto.
  - right. exists a, o, n, n'. auto.
  - injection E as <- <- <-. right. exists a, o, n, m'. repeat split; lia.
Qed.
Lemma ev_le_refl ev : ev_le ev ev. Proof. repeat split; auto using kind_le_refl. Qed.
Lemma ev_le_trans a b c : ev_le a b -> ev_le b c -> ev_le a c.
Proof. intros (A1 & A2 & A3 & A4) (B1 & B2 & B3 & B4). repeat split; eauto using kind_le_trans. Qed.

Lemma grows_refl s : grows s s.
Proof. split; [intros e ev H; exists ev; split; [exact H|apply ev_le_refl] | intros p pr H; exists pr; auto]. Qed.
Lemma grows_trans s1 s2 s3 : grows s1 s2 -> grows s2 s3 -> grows s1 s3.
Proof.
  intros [A1 A2] [B1 B2]. split.
  - intros e ev H. destruct (A1 _ _ H) as (ev' & H' & L). destruct (B1 _ _ H') as (ev'' & H'' & L').
    exists ev''. split; [exact H''|eapply ev_le_trans; eassumption].
  - intros p pr H. destruct (A2 _ _ H) as (pr' & H' & L). destruct (B2 _ _ H') as (pr'' & H'' & L').
    exists pr''. split; [exact H''|congruence].
Qed.

Lemma grows_same s s' : events s' = events s -> procs s' = procs s -> grows s s'.
Proof.
  intros E P. split.
  - intros e ev H. exists ev. split; [unfold get_event in *; rewrite E; exact H|apply ev_le_refl].
  - intros p pr H. exists pr. split; [unfold get_proc in *; rewrite P; exact H|reflexivity].
Qed.

Lemma grows_upd e f s : (forall ev, get_event e s = Some ev -> ev_le ev (f ev)) -> grows s (upd_event e f s).
Proof.
  intros Hf. split; [|intros p pr H; exists pr; auto].
  intros e0 ev H. rewrite get_event_upd. destruct (Nat.eqb e0 e) eqn:E.
  - apply Nat.eqb_eq in E. subst e0. rewrite H. cbn. exists (f ev). split; [reflexivity|apply Hf, H].
  - exists ev. split; [exact H|apply ev_le_refl].
Qed.

Lemma grows_new ev s : grows s (snd (new_event ev s)).
Proof.
  split; [|intros p pr H; exists pr; auto].
  intros e ev0 H. exists ev0. split; [rewrite get_event_new_below; [exact H|eapply get_event_lt, H]|apply ev_le_refl].
Qed.

Lemma ev_le_set_cbs c ev : cbs ev <> None -> ev_le ev (ev_set_cbs c ev).
Proof. intros H. repeat split; cbn; auto using kind_le_refl. intros; contradiction. Qed.
Lemma ev_le_set_cbs_none ev : ev_le ev (ev_set_cbs None ev).
Proof. repeat split; cbn; auto using kind_le_refl. Qed.
Lemma ev_le_set_out o ev : ev_le ev (ev_set_out (Some o) ev).
Proof. repeat split; cbn; auto using kind_le_refl. intros _; discriminate. Qed.
Lemma ev_le_set_defused ev : ev_le ev (ev_set_defused ev).
Proof. repeat split; cbn; auto using kind_le_refl. Qed.
Lemma ev_le_add_cb c ev : ev_le ev (ev_add_cb c ev).
Proof. unfold ev_add_cb. destruct (cbs ev) eqn:E; [apply ev_le_set_cbs; congruence|apply ev_le_refl]. Qed.

Lemma grows_schedule e p d s : grows s (schedule e p d s).
Proof. apply grows_same; reflexivity. Qed.

Lemma grows_trigger e o s : grows s (trigger_event e o s).
Proof.
  unfold trigger_event. eapply grows_trans; [|apply grows_schedule].
  apply grows_upd. intros ev _. apply ev_le_set_out.
Qed.

Lemma grows_add_callback e c s : grows s (add_callback e c s).
Proof. apply grows_upd. intros ev _. apply ev_le_add_cb. Qed.

Lemma grows_kprim b T s s' : kprim b T s s' -> grows s s'.
Proof.
  intros [s0 s1 (_ & _ & _ & Hv & Hp)|ev s0 _ _ _|ev prio d s0 _ _ _ _ _|e ev o s0 _ _|p pr o s0 _|e c s0 _|e ev l x s0 H C _
         |e s0|c cev all ops n s0 H Kc _|c cev v v' s0 _ _ _|p pr f s0 _ Hp Hf|pr ev s0 _ _|t s0 _ _|e s0 _].
  - (* k_frame *) apply grows_same; assumption.
  - (* k_new *) apply grows_new.
  - (* k_born *) eapply grows_trans; [apply grows_new|apply grows_schedule].
  - (* k_trig *) apply grows_trigger.
  - (* k_ptrig *) apply grows_trigger.
  - (* k_addcb *) apply grows_add_callback.
  - (* k_rmcb *) apply grows_upd. intros ev0 H0. rewrite H in H0. injection H0 as <-. apply ev_le_set_cbs. congruence.
  - (* k_defuse *) apply grows_upd. intros ev _. apply ev_le_set_defused.
  - (* k_count *) apply grows_upd. intros ev Hev. rewrite H in Hev. injection Hev as <-. repeat split; cbn; auto.
    right. exists all, ops, n, (S n). auto.
  - (* k_value *) apply grows_upd. intros ev _. apply ev_le_set_out.
  - (* k_proc *) split; [intros e ev He; exists ev; split; [exact He|apply ev_le_refl]|]. intros q pr0 Hq. unfold get_proc in *. cbn.
    rewrite nth_error_upd_nth. destruct (Nat.eqb_spec q p) as [->|]; [|eauto].
    rewrite Hq. cbn. rewrite Hp in Hq. injection Hq as <-. eauto.
  - (* k_spawn *) split; [intros e ev0 He; exists ev0; split; [exact He|apply ev_le_refl]|]. intros q pr0 Hq. exists pr0.
    split; [apply nth_error_app_old, Hq|reflexivity].
  - (* k_sentinel *) eapply grows_trans; [apply grows_new|apply grows_schedule].
  - (* k_stopcb *) apply grows_add_callback.
Qed.

Lemma grows_kchain b T s s' : kchain b T s s' -> grows s s'.
Proof. exact (kchain_rel b T grows grows_refl grows_trans (grows_kprim b T) s s'). Qed.

Lemma grows_cond_check c op s : grows s (cond_check c op s).
Proof. exact (grows_kchain _ _ _ _ (kc_cond_check true Tnone c op s)). Qed.

Lemma grows_remove_checks fuel c s s' : remove_checks fuel c s = Some s' -> grows s s'.
Proof. intros R. exact (grows_kchain _ _ _ _ (kc_remove_checks true Tnone fuel c s s' R)). Qed.

Lemma cond_build_cases c s :
  fst (cond_build c s) = s \/
  exists s1, remove_checks (S c) c s = Some s1 /\
    (fst (cond_build c s) = s1 \/
     exists cev v all ops n items, get_event c s1 = Some cev /\ out cev = Some (Ok v) /\ kind cev = KCond all ops n /\
       populate (S c) (events s1) ops = Some items /\
       fst (cond_build c s) = upd_event c (ev_set_out (Some (Ok (VCond items)))) s1).
Proof.
  unfold cond_build. destruct (remove_checks (S c) c s) as [s1|]; [right; exists s1; split; [reflexivity|]|left; reflexivity].
  destruct (get_event c s1) as [cev|]; [|left; reflexivity].
  destruct (out cev) as [[v|x]|] eqn:Oc; try (left; reflexivity).
  destruct (kind cev) eqn:Kc; try (left; reflexivity).
  destruct (populate (S c) (events s1) ops) as [items|] eqn:PO; [|left; reflexivity].
  right. exists cev, v, all, ops, count, items. auto.
Qed.

Lemma grows_cond_build c s : grows s (fst (cond_build c s)).
Proof. exact (grows_kchain _ _ _ _ (kc_cond_build true Tnone c s)). Qed.

Lemma grows_cond_subscribe c ops s : grows s (cond_subscribe c ops s).
Proof. exact (grows_kchain _ _ _ _ (kc_cond_subscribe true Tnone c ops s)). Qed.

Lemma grows_call_cond all es s : grows s (fst (call_cond all es s)).
Proof. exact (grows_kchain _ _ _ _ (kc_call_cond true Tnone all es s)). Qed.

Lemma iprim_grows x s s' : iprim x s s' -> grows s s'.
Proof.
  intros H. destruct H.
  - destruct H as (E & P & _). apply grows_same; assumption.
  - apply grows_new.
  - apply grows_schedule.
  - apply grows_add_callback.
  - apply grows_upd. intros ev0 H2. rewrite H in H2. injection H2 as <-. apply ev_le_set_cbs. congruence.
  - apply grows_upd. intros ev0 _. apply ev_le_set_out.
  - apply grows_upd. intros ev0 _. apply ev_le_set_out.
  - apply grows_upd. intros ev0 _. apply ev_le_set_defused.
  - destruct H as [H _]. split; [intros e ev He; exists ev; split; [exact He|apply ev_le_refl]|exact H].
  - apply grows_call_cond.
Qed.

Lemma prim_grows x s s' : prim x s s' -> grows s s'.
Proof.
  intros H. destruct H.
  - eapply iprim_grows; eassumption.
  - unfold popped. eapply grows_trans with (s2 := pop_state m rest s); [apply grows_same; reflexivity|].
    apply grows_upd. intros ev _. apply ev_le_set_cbs_none.
  - apply grows_cond_check.
  - apply grows_cond_build.
Qed.

Lemma steps_grows s s' : steps s s' -> grows s s'.
Proof. apply steps_ind_rel; [apply grows_refl|apply grows_trans|apply prim_grows]. Qed.

(* every process has a Process event *)
Definition procs_wf (s : state) : Prop :=
  forall p pr, get_proc p s = Some pr -> exists ev q, get_event (pev pr) s = Some ev /\ kind ev = KProcess q.

Lemma kind_le_process k k' q : kind_le k k' -> k = KProcess q -> k' = KProcess q.
Proof. intros [->|(a & o & n & n' & -> & _)] E; [exact E|discriminate]. Qed.

Lemma grows_kproc s s' e ev q :
  grows s s' -> get_event e s = Some ev -> kind ev = KProcess q -> exists ev', get_event e s' = Some ev' /\ kind ev' = KProcess q.
Proof.
  intros [G _] H K. destruct (G _ _ H) as (ev' & H' & L & _). exists ev'. split; [exact H'|].
  eapply kind_le_process; eassumption.
Qed.

Lemma procs_cond_subscribe c ops : forall s, procs (cond_subscribe c ops s) = procs s.
Proof.
  induction ops as [|o t IH]; intros s0; cbn [cond_subscribe]; [reflexivity|].
  rewrite IH. destruct (get_event o s0); [|reflexivity]. destruct (is_processed e); [|reflexivity].
  apply procs_cond_check.
Qed.

Lemma procs_wf_grows s s' :
  grows s s' -> procs_wf s ->
  (forall p pr, get_proc p s' = Some pr -> get_proc p s = None -> exists ev q, get_event (pev pr) s = Some ev /\ kind ev = KProcess q) ->
  (forall p pr pr', get_proc p s = Some pr -> get_proc p s' = Some pr' -> pev pr' = pev pr) -> procs_wf s'.
Proof.
  intros G W New Old p pr' H.
  assert (Back : exists ev q, get_event (pev pr') s = Some ev /\ kind ev = KProcess q).
  { destruct (get_proc p s) as [pr|] eqn:E; [|exact (New _ _ H E)]. rewrite (Old _ _ _ E H). exact (W _ _ E). }
  destruct Back as (ev & q & A & B). destruct (grows_kproc _ _ _ _ _ G A B) as (ev' & A' & B'). exists ev', q. auto.
Qed.

Lemma procs_wf_kprim b T s s' : kprim b T s s' -> procs_wf s -> procs_wf s'.
Proof.
  intros P W. apply (procs_wf_grows s s' (grows_kprim b T s s' P) W);
    destruct P as [s s' (_ & _ & _ & _ & E)| | | | | | | | | |p pr f s _ Hp Hf|pr ev s Hev Kev| |]; unfold get_proc; cbn;
    try rewrite E; try congruence.
  - (* k_proc, new entry *) intros q pr' H N. rewrite nth_error_upd_nth, N in H. destruct (Nat.eqb q p); discriminate.
  - (* k_spawn, new entry *) intros q pr' H N. apply nth_error_None in N. rewrite nth_error_app2 in H by exact N.
    destruct (q - length (procs s))%nat as [|k]; [|destruct k; discriminate]. injection H as <-. eauto.
  - (* k_proc, old entry *) intros q pr0 pr' H. rewrite nth_error_upd_nth, H. destruct (Nat.eqb_spec q p) as [->|]; [|congruence].
    cbn. intros E. injection E as <-. unfold get_proc in Hp. congruence.
  - (* k_spawn, old entry *) intros q pr0 pr' H. rewrite (nth_error_app_old _ _ _ _ H). congruence.
Qed.

Lemma procs_wf_kchain b T s s' : kchain b T s s' -> procs_wf s -> procs_wf s'.
Proof. intros C. induction C as [|s s1 s2 P C IH]; [auto|]. intros W. eapply IH, procs_wf_kprim; eassumption. Qed.

Lemma prim_procs_wf x s s' : prim x s s' -> procs_wf s -> procs_wf s'.
Proof.
  intros P W. pose proof (prim_grows _ _ _ P) as G.
  assert (Gen : procs s' = procs s -> procs_wf s').
  { intros E. apply (procs_wf_grows s s' G W); unfold get_proc; rewrite E; congruence. }
  destruct P as [x s s' P| | |]; [destruct P|..]; try (apply Gen; reflexivity).
  - apply Gen. apply H.
  - (* p_procs *)
    destruct H as [H1 H2]. apply (procs_wf_grows _ _ G W); unfold get_proc; cbn.
    + exact H2.
    + intros p pr pr' E0 E'. destruct (H1 _ _ E0) as (pr2 & A & B). congruence.
  - exact (procs_wf_kchain _ _ _ _ (kc_call_cond true Tnone all es s) W).
  - exact (procs_wf_kchain _ _ _ _ (kc_cond_check true Tnone c o s) W).
  - exact (procs_wf_kchain _ _ _ _ (kc_cond_build true Tnone c s) W).
Qed.

Lemma steps_procs_wf s s' : steps s s' -> procs_wf s -> procs_wf s'.
Proof.
  intros [X H]. induction H as [|x X s s1 s2 P T IH]; [auto|]. intros W. apply IH. eapply prim_procs_wf; eassumption.
Qed.

(* ------------------------------------------------------------------------------------------------ *)
(* executions: API calls (labelled with the event they explicitly trigger, if any) and kernel primitives *)

Definition trig_of (k : call) (s : state) : list evid :=
  match k with
  | CSucceed e _ => match get_event e s with
                    | Some ev => if is_triggered ev then [] else [e]
                    | None => []
                    end
  | CFail e (VExn _ _) => match get_event e s with
                          | Some ev => if is_triggered ev then [] else [e]
                          | None => []
                          end
  | _ => []
  end.

Inductive xstep (codes : list prog) : list evid -> state -> state -> Prop :=
| xs_call k s : xstep codes (trig_of k s) s (fst (do_call codes k s))
| xs_prim s s' : iprim None s s' -> xstep codes [] s s'.

Inductive xtrace (codes : list prog) : list evid -> state -> state -> Prop :=
| xt_nil s : xtrace codes [] s s
| xt_cons X1 X2 s s1 s2 : xstep codes X1 s s1 -> xtrace codes X2 s1 s2 -> xtrace codes (X1 ++ X2) s s2.

Lemma xt_app codes X1 X2 s s1 s2 : xtrace codes X1 s s1 -> xtrace codes X2 s1 s2 -> xtrace codes (X1 ++ X2) s s2.
Proof.
  induction 1 as [|Y1 Y2 s s1' s2' P T IH]; intros H2; [exact H2|].
  rewrite <- app_assoc. econstructor; [exact P|apply IH, H2].
Qed.

Definition xsteps (codes : list prog) (s s' : state) : Prop := exists X, xtrace codes X s s'.

Lemma xsteps_refl codes s : xsteps codes s s. Proof. exists []. constructor. Qed.
Lemma xsteps_trans codes s s1 s2 : xsteps codes s s1 -> xsteps codes s1 s2 -> xsteps codes s s2.
Proof. intros [X1 H1] [X2 H2]. exists (X1 ++ X2). eapply xt_app; eassumption. Qed.
Lemma xsteps_prim codes s s' : iprim None s s' -> xsteps codes s s'.
Proof. intros H. exists ([] ++ []). econstructor; [apply xs_prim, H|constructor]. Qed.
Lemma xsteps_call codes k s : xsteps codes s (fst (do_call codes k s)).
Proof. exists (trig_of k s ++ []). econstructor; [apply xs_call|constructor]. Qed.

(* ---- an API call is a sequence of primitives with the same label ---- *)

Lemma pt_trigger_ext e ev o s :
  get_event e s = Some ev -> out ev = None -> iptrace [e] s (trigger_event e o s).
Proof.
  intros H O. unfold trigger_event. apply (pt_cons iprim (Some e) [] _ _ _ (p_trig e ev o s H O)).
  apply (@pt_one iprim None). eapply p_sched; [apply get_event_upd_same, H|]. cbn. discriminate.
Qed.

Lemma pt_new_sched ev prio d s :
  plain_new ev -> out ev <> None -> iptrace [] s (schedule (length (events s)) prio d (snd (new_event ev s))).
Proof.
  intros P O. eapply pt_step; [apply p_new, P|]. apply (@pt_one iprim None). eapply p_sched; [apply get_event_new_self|exact O].
Qed.

Lemma plain_nil_cbs k : (match k with KCond _ _ _ => False | _ => True end) -> forall o d, plain_new (mkEvent (Some []) o d k).
Proof. intros K o d. split; [exists []; split; [reflexivity|intros c []]|exact K]. Qed.

Lemma do_call_ptrace codes k s : iptrace (trig_of k s) s (fst (do_call codes k s)).
Proof.
  destruct k; cbn [do_call trig_of].
  - (* timeout *)
    unfold call_timeout. destruct (neg_delay d); [constructor|].
    set (EV := mkEvent (Some []) (Some (Ok v)) false KTimeout).
    rewrite (new_event_eq EV s). cbv beta iota. cbn [fst].
    apply pt_new_sched; [apply plain_nil_cbs, I|discriminate].
  - (* event *)
    unfold call_event. set (EV := mkEvent (Some []) None false KPlain).
    rewrite (new_event_eq EV s). cbv beta iota. cbn [fst].
    apply (@pt_one iprim None), p_new, plain_nil_cbs, I.
  - (* succeed *)
    unfold call_succeed. destruct (get_event e s) as [ev|] eqn:H; [|constructor].
    unfold is_triggered. destruct (out ev) eqn:O; [constructor|]. cbn [fst].
    eapply pt_trigger_ext; eassumption.
  - (* fail *)
    unfold call_fail. destruct (get_event e s) as [ev|] eqn:H; [|destruct x; constructor].
    unfold is_triggered. destruct (out ev) eqn:O; [destruct x; constructor|].
    destruct x; try constructor. cbn [fst]. eapply pt_trigger_ext; eassumption.
  - (* spawn *)
    unfold call_spawn. destruct (nth_error codes code) as [pr|]; [|constructor].
    set (p := length (procs s)).
    set (EV1 := mkEvent (Some []) None false (KProcess p)).
    rewrite (new_event_eq EV1 s). cbv beta iota.
    set (s1 := snd (new_event EV1 s)).
    set (EV2 := mkEvent (Some [CbResume p]) (Some (Ok VNone)) false (KInit p)).
    rewrite (new_event_eq EV2 s1). cbv beta iota. cbn [fst].
    set (s2 := snd (new_event EV2 s1)).
    assert (PN2 : plain_new EV2).
    { split; [exists [CbResume p]; split; [reflexivity|intros c [<-|[]]; exact I]|exact I]. }
    eapply pt_step; [apply (p_new EV1 s), plain_nil_cbs, I|].
    apply (@pt_app iprim [] []) with (s1 := schedule (length (events s1)) URGENT 0 s2); [apply pt_new_sched; [exact PN2|discriminate]|].
    apply (@pt_one iprim None), p_procs. split.
    + intros q pr0 Hq. exists pr0. split; [|reflexivity].
      change (procs (schedule (length (events s1)) URGENT 0 s2)) with (procs s) in *.
      rewrite nth_error_app1; [exact Hq|]. apply nth_error_Some. congruence.
    + intros q pr0 Hq Hn. change (procs (schedule (length (events s1)) URGENT 0 s2)) with (procs s) in Hq, Hn.
      apply nth_error_None in Hn. rewrite nth_error_app2 in Hq by exact Hn.
      destruct (q - length (procs s))%nat as [|j]; [|destruct j; discriminate]. cbn in Hq. injection Hq as <-.
      cbn [pev]. exists EV1, p. split; [|reflexivity].
      change (get_event (length (events s)) s2 = Some EV1). unfold s2.
      rewrite get_event_new_below by (unfold s1; rewrite new_event_length; lia). apply get_event_new_self.
  - (* interrupt *)
    unfold call_interrupt. destruct (get_event e s) as [ev|]; [|constructor].
    destruct (kind ev); try constructor.
    destruct (is_triggered ev); [constructor|].
    destruct (match active s with Some a => Nat.eqb a p | None => false end); [constructor|].
    set (EV := mkEvent (Some [CbInterrupt (length (events s))]) (Some (Fail (EInterrupt, [cause]))) true (KInterruption p)).
    assert (PN : plain_new EV).
    { split; [exists [CbInterrupt (length (events s))]; split; [reflexivity|intros c [<-|[]]; exact I]|exact I]. }
    rewrite (new_event_eq EV s). cbv beta iota. cbn [fst].
    apply pt_new_sched; [exact PN|discriminate].
  - (* all_of *)
    destruct (all_valid es s) eqn:V.
    + apply (@pt_one iprim None). apply p_cond, V.
    + unfold call_cond. rewrite V. constructor.
  - destruct (all_valid es s) eqn:V.
    + apply (@pt_one iprim None). apply p_cond, V.
    + unfold call_cond. rewrite V. constructor.
  - (* probe *)
    unfold call_probe. destruct (get_event e s) as [ev|]; [|constructor].
    destruct (is_processed ev); [constructor|]. apply (@pt_one iprim None). apply p_addcb. exact I.
  - rewrite call_query_state. constructor.
  - constructor.
  - constructor.
  - apply (@pt_one iprim None). apply p_frame. repeat split.
  - constructor.
  - apply (@pt_one iprim None). apply p_frame. repeat split.
Qed.

Lemma xstep_iptrace codes X s s' : xstep codes X s s' -> iptrace X s s'.
Proof. intros [k s0|s0 s0' P]; [apply do_call_ptrace|apply (@pt_one iprim None), P]. Qed.

Lemma xtrace_iptrace codes X s s' : xtrace codes X s s' -> iptrace X s s'.
Proof. induction 1 as [|X1 X2 s s1 s2 P T IH]; [constructor|]. eapply pt_app; [eapply xstep_iptrace, P|exact IH]. Qed.

Lemma xtrace_ptrace codes X s s' : xtrace codes X s s' -> ptrace X s s'.
Proof. intros H. eapply ltrace_mono; [|eapply xtrace_iptrace, H]. intros; apply p_inner; assumption. Qed.

Lemma xsteps_steps codes s s' : xsteps codes s s' -> steps s s'.
Proof. intros [X H]. exists X. eapply xtrace_ptrace, H. Qed.

(* ---- composite functions ---- *)

Lemma xs_run_frag {A} codes (f : frag A) : forall s, xsteps codes s (fst (run_frag codes f s)).
Proof.
  induction f as [v a|v|x|c k IH]; intros s; cbn [run_frag fst]; try apply xsteps_refl.
  pose proof (xsteps_call codes c s) as X. destruct (do_call codes c s) as [s1 o]. cbn [fst] in X.
  eapply xsteps_trans; [exact X|apply IH].
Qed.

Lemma xs_trigger_proc codes e ev q o s :
  get_event e s = Some ev -> kind ev = KProcess q -> xsteps codes s (trigger_event e o s).
Proof.
  intros H K. unfold trigger_event. eapply xsteps_trans; [eapply xsteps_prim, p_ptrig; eassumption|].
  eapply xsteps_prim, p_sched; [apply get_event_upd_same, H|cbn; discriminate].
Qed.

Lemma procs_ok_upd p f s :
  (forall pr, get_proc p s = Some pr -> pev (f pr) = pev pr) -> procs_ok s (upd_nth p f (procs s)).
Proof.
  intros Hf. split.
  - intros q pr Hq. rewrite nth_error_upd_nth. destruct (Nat.eqb q p) eqn:E.
    + apply Nat.eqb_eq in E. subst q. rewrite Hq. cbn. exists (f pr). split; [reflexivity|apply Hf, Hq].
    + exists pr. auto.
  - intros q pr Hq Hn. rewrite nth_error_upd_nth in Hq. rewrite Hn in Hq. destruct (Nat.eqb q p); discriminate.
Qed.

Lemma xs_upd_proc codes p f s :
  (forall pr, get_proc p s = Some pr -> pev (f pr) = pev pr) -> xsteps codes s (upd_proc p f s).
Proof. intros Hf. apply xsteps_prim, p_procs, procs_ok_upd, Hf. Qed.

Lemma xs_set_active codes a s : xsteps codes s (set_active a s).
Proof. apply xsteps_prim, p_frame. repeat split. Qed.

Lemma xs_proc_finish codes p pr o s ev q :
  get_event (pev pr) s = Some ev -> kind ev = KProcess q -> xsteps codes s (proc_finish p pr o s).
Proof.
  intros H K. unfold proc_finish. eapply xsteps_trans; [eapply xs_trigger_proc; eassumption|].
  eapply xsteps_trans; [apply (xs_upd_proc codes p (proc_set_target None)); intros; reflexivity|apply xs_set_active].
Qed.

Lemma xs_proc_wait codes p e s : xsteps codes s (proc_wait p e s).
Proof.
  unfold proc_wait. eapply xsteps_trans; [apply xsteps_prim, (p_addcb e (CbResume p) s); exact I|].
  eapply xsteps_trans; [apply (xs_upd_proc codes p (proc_set_target (Some e))); intros; reflexivity|apply xs_set_active].
Qed.

Lemma xs_resume_loop codes fuel : forall p e s, procs_wf s -> xsteps codes s (fst (resume_loop fuel codes p e s)).
Proof.
  induction fuel as [|f IH]; intros p e s W; cbn [resume_loop]; [apply xsteps_refl|].
  destruct (get_event e s) as [ev|]; [|apply xsteps_refl].
  destruct (get_proc p s) as [pr|] eqn:Hp; [|apply xsteps_refl].
  destruct (out ev) as [o|]; [|apply xsteps_refl].
  set (s1 := match o with Fail _ => upd_event e ev_set_defused s | Ok _ => s end).
  assert (E1 : xsteps codes s s1) by (subst s1; destruct o; [apply xsteps_refl|apply xsteps_prim, p_defuse]).
  pose proof (xs_run_frag codes (resume (pcode pr) (pst pr) o) s1) as E2.
  destruct (run_frag codes (resume (pcode pr) (pst pr) o) s1) as [s2 r]. cbn [fst] in E2.
  assert (E12 : xsteps codes s s2) by (eapply xsteps_trans; eassumption).
  pose proof (steps_grows _ _ (xsteps_steps _ _ _ E12)) as G.
  pose proof (steps_procs_wf _ _ (xsteps_steps _ _ _ E12) W) as W2.
  destruct (proj2 G _ _ Hp) as (pr2 & Hp2 & Pev2).
  destruct (W2 _ _ Hp2) as (pe & q & Hpe & Kpe). rewrite Pev2 in Hpe.
  destruct r as [v a|v|x].
  - assert (E3 : xsteps codes s2 (put_proc p (proc_set_st pr a) s2)).
    { apply xs_upd_proc. intros pr0 H0. rewrite Hp2 in H0. injection H0 as <-. cbn. symmetry. exact Pev2. }
    assert (E13 : xsteps codes s (put_proc p (proc_set_st pr a) s2)) by (eapply xsteps_trans; eassumption).
    destruct v; try exact E13.
    destruct (get_event e0 (put_proc p (proc_set_st pr a) s2)) as [ev'|]; [|exact E13].
    destruct (is_processed ev').
    + eapply xsteps_trans; [exact E13|]. apply IH. eapply steps_procs_wf; [eapply xsteps_steps, E13|exact W].
    + cbn [fst]. eapply xsteps_trans; [exact E13|apply xs_proc_wait].
  - cbn [fst]. eapply xsteps_trans; [exact E12|]. eapply xs_proc_finish; eassumption.
  - cbn [fst]. eapply xsteps_trans; [exact E12|]. eapply xs_proc_finish; eassumption.
Qed.

Lemma procs_wf_frame s s' : events s' = events s -> procs s' = procs s -> procs_wf s -> procs_wf s'.
Proof. intros E P W p pr H. unfold get_proc, get_event in *. rewrite P in H. rewrite E. apply (W _ _ H). Qed.

Lemma xs_resume_proc codes fuel p e s : procs_wf s -> xsteps codes s (fst (resume_proc fuel codes p e s)).
Proof.
  intros W. unfold resume_proc. eapply xsteps_trans; [apply xs_set_active|]. apply xs_resume_loop.
  eapply procs_wf_frame; [| |exact W]; reflexivity.
Qed.

Lemma xs_do_interruption codes fuel i s : procs_wf s -> xsteps codes s (fst (do_interruption fuel codes i s)).
Proof.
  intros W. unfold do_interruption.
  destruct (get_event i s) as [iev|]; [|apply xsteps_refl].
  destruct (kind iev); try apply xsteps_refl.
  destruct (get_proc p s) as [pr|]; [|apply xsteps_refl].
  destruct (get_event (pev pr) s) as [pe|]; [|apply xsteps_refl].
  destruct (is_triggered pe); [apply xsteps_refl|].
  destruct (ptarget pr) as [t|]; [|apply xsteps_refl].
  destruct (get_event t s) as [tev|] eqn:Ht; [|apply xsteps_refl].
  destruct (cbs tev) as [l|] eqn:Cl; [|apply xsteps_refl].
  destruct (mem_cb (CbResume p) l); [|apply xsteps_refl].
  assert (P1 : iprim None s (upd_event t (ev_set_cbs (Some (remove_first (CbResume p) l))) s)).
  { eapply p_rmcb; [exact Ht|exact Cl|exact I]. }
  eapply xsteps_trans; [apply xsteps_prim, P1|]. apply xs_resume_proc.
  eapply prim_procs_wf; [apply p_inner, P1|exact W].
Qed.

Definition processed_in (e : evid) (s : state) : Prop := exists ev, get_event e s = Some ev /\ cbs ev = None.

Lemma grows_processed s s' e : grows s s' -> processed_in e s -> processed_in e s'.
Proof. intros [G _] (ev & H & C). destruct (G _ _ H) as (ev' & H' & _ & L & _). exists ev'. auto. Qed.

(* ---- whole executions: program activity, pops, _check and _build_value callbacks ---- *)

Inductive estep (codes : list prog) : list evid -> state -> state -> Prop :=
| es_x X s s' : xtrace codes X s s' -> estep codes X s s'
| es_pop m rest s : pop_min (agenda s) = Some (m, rest) -> estep codes [] s (popped m rest s)
| es_check c o oev s : get_event o s = Some oev -> cbs oev = None -> opnd s c o -> estep codes [] s (cond_check c o s)
| es_build c s : estep codes [] s (fst (cond_build c s)).

Inductive etrace (codes : list prog) : list evid -> state -> state -> Prop :=
| et_nil s : etrace codes [] s s
| et_cons X1 X2 s s1 s2 : estep codes X1 s s1 -> etrace codes X2 s1 s2 -> etrace codes (X1 ++ X2) s s2.

Lemma et_app codes X1 X2 s s1 s2 : etrace codes X1 s s1 -> etrace codes X2 s1 s2 -> etrace codes (X1 ++ X2) s s2.
Proof.
  induction 1 as [|Y1 Y2 s s1' s2' P T IH]; intros H2; [exact H2|].
  rewrite <- app_assoc. econstructor; [exact P|apply IH, H2].
Qed.

Lemma et_one codes X s s' : estep codes X s s' -> etrace codes X s s'.
Proof. intros H. rewrite <- (app_nil_r X). econstructor; [exact H|constructor]. Qed.

Definition esteps (codes : list prog) (s s' : state) : Prop := exists X, etrace codes X s s'.

Lemma esteps_refl codes s : esteps codes s s. Proof. exists []. constructor. Qed.
Lemma esteps_trans codes s s1 s2 : esteps codes s s1 -> esteps codes s1 s2 -> esteps codes s s2.
Proof. intros [X1 H1] [X2 H2]. exists (X1 ++ X2). eapply et_app; eassumption. Qed.
Lemma esteps_one codes X s s' : estep codes X s s' -> esteps codes s s'.
Proof. intros H. exists X. apply et_one, H. Qed.
Lemma esteps_x codes s s' : xsteps codes s s' -> esteps codes s s'.
Proof. intros [X H]. eapply esteps_one, es_x, H. Qed.

Lemma estep_ptrace codes X s s' : estep codes X s s' -> ptrace X s s'.
Proof.
  intros [X0 s0 s0' H|m rest s0 H|c o oev s0 H1 H2 H3|c s0].
  - eapply xtrace_ptrace, H.
  - apply (@pt_one prim None), p_pop, H.
  - apply (@pt_one prim None). eapply p_check; eassumption.
  - apply (@pt_one prim None), p_build.
Qed.

Lemma etrace_ptrace codes X s s' : etrace codes X s s' -> ptrace X s s'.
Proof. induction 1 as [|X1 X2 s s1 s2 P T IH]; [constructor|]. eapply pt_app; [eapply estep_ptrace, P|exact IH]. Qed.

Lemma esteps_steps codes s s' : esteps codes s s' -> steps s s'.
Proof. intros [X H]. exists X. eapply etrace_ptrace, H. Qed.

Lemma upd_event_id e f s : (forall ev, get_event e s = Some ev -> f ev = ev) -> upd_event e f s = s.
Proof. intros H. unfold upd_event. rewrite upd_nth_id by exact H. destruct s; reflexivity. Qed.

Lemma step_unfold fuel codes s s' r :
  step fuel codes s = (s', r) ->
  (pop_min (agenda s) = None /\ s' = s /\ r = REmpty) \/
  exists m rest, pop_min (agenda s) = Some (m, rest) /\
    ((get_event (e_ev m) s = None /\ s' = popped m rest s /\ r = RBroken) \/
     (exists ev, get_event (e_ev m) s = Some ev /\ cbs ev = None /\ s' = popped m rest s /\
                 r = RRaise (kexn EType M_none_not_iterable)) \/
     (exists ev l r2, get_event (e_ev m) s = Some ev /\ cbs ev = Some l /\
                      run_callbacks fuel codes (e_ev m) l (popped m rest s) = (s', r2) /\
                      r = match r2 with ROk => check_failure (e_ev m) s' | _ => r2 end)).
Proof.
  unfold step. destruct (pop_min (agenda s)) as [[m rest]|]; [|intros H; injection H as <- <-; left; auto].
  intros H. right. exists m, rest. split; [reflexivity|].
  change (get_event (e_ev m) (pop_state m rest s)) with (get_event (e_ev m) s) in H.
  destruct (get_event (e_ev m) s) as [ev|] eqn:He.
  - destruct (cbs ev) as [l|] eqn:Cl.
    + right. right. fold (popped m rest s) in H.
      destruct (run_callbacks fuel codes (e_ev m) l (popped m rest s)) as [s2 r2] eqn:R.
      exists ev, l, r2. split; [reflexivity|]. split; [exact Cl|].
      destruct r2; injection H as <- <-; auto.
    + right. left. exists ev. injection H as <- <-. split; [reflexivity|]. split; [exact Cl|]. split; [|reflexivity].
      unfold popped. symmetry. apply upd_event_id. intros ev0 H0.
      change (get_event (e_ev m) (pop_state m rest s)) with (get_event (e_ev m) s) in H0.
      rewrite He in H0. injection H0 as <-. destruct ev; cbn in *. subst. reflexivity.
  - left. injection H as <- <-. split; [reflexivity|]. split; [|reflexivity]. unfold popped. symmetry. apply upd_event_id.
    intros ev0 H0. change (get_event (e_ev m) (pop_state m rest s)) with (get_event (e_ev m) s) in H0. congruence.
Qed.

Lemma popped_processed m rest s ev : get_event (e_ev m) s = Some ev -> processed_in (e_ev m) (popped m rest s).
Proof.
  intros H. exists (ev_set_cbs None ev). split; [|reflexivity]. unfold popped. apply get_event_upd_same. exact H.
Qed.

Lemma get_popped m rest s a :
  get_event a (popped m rest s) = if Nat.eqb a (e_ev m) then option_map (ev_set_cbs None) (get_event a s) else get_event a s.
Proof. unfold popped. apply (get_event_upd (e_ev m) (ev_set_cbs None) a (pop_state m rest s)). Qed.

Lemma xs_run_prelude codes u s s1 : run_prelude u s = inr s1 -> xsteps codes s s1.
Proof.
  destruct u as [|t|e]; cbn [run_prelude].
  - intros H; injection H as <-. apply xsteps_refl.
  - destruct (Qle_bool t (now s)); [discriminate|].
    set (EV := mkEvent (Some []) (Some (Ok VNone)) false KSentinel).
    rewrite (new_event_eq EV s). cbv beta iota. intros H; injection H as <-.
    eapply xsteps_trans; [apply xsteps_prim, (p_new EV s), plain_nil_cbs, I|].
    eapply xsteps_trans; [eapply xsteps_prim, p_sched; [apply get_event_new_self|cbn; discriminate]|].
    apply xsteps_prim, p_addcb. exact I.
  - destruct (get_event e s) as [ev|]; [|discriminate].
    destruct (is_processed ev); [discriminate|]. intros H; injection H as <-. apply xsteps_prim, p_addcb. exact I.
Qed.

(* ------------------------------------------------------------------------------------------------ *)
(* reachable states: from an initial state, through module-level code, run(), step() -- any program *)

Lemma procs_wf_init t0 : procs_wf (init_state t0).
Proof. intros p pr H. unfold get_proc in H. cbn in H. destruct p; discriminate. Qed.

(* every state an execution passes through (also in the middle of a step), with the events X that received
   an explicit succeed / fail *)
Definition reach (codes : list prog) (X : list evid) (s : state) : Prop :=
  exists t0, etrace codes X (init_state t0) s.

Lemma reach_procs_wf codes X s : reach codes X s -> procs_wf s.
Proof. intros (t0 & H). eapply steps_procs_wf; [exists X; eapply etrace_ptrace, H|apply procs_wf_init]. Qed.

Lemma reach_init codes t0 : reach codes [] (init_state t0).
Proof. exists t0. constructor. Qed.

Lemma reach_esteps codes X s s' : reach codes X s -> esteps codes s s' -> exists X', reach codes (X ++ X') s'.
Proof. intros (t0 & H) (X' & H'). exists X', t0. eapply et_app; eassumption. Qed.

Lemma reach_exec_top {A} codes X (f : frag A) s : reach codes X s -> exists X', reach codes (X ++ X') (fst (exec_top codes f s)).
Proof. intros R. eapply reach_esteps; [exact R|apply esteps_x, xs_run_frag]. Qed.

