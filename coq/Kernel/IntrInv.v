(* Kernel/IntrInv.v -- the state invariant behind C04 (interrupts), in three groups, and its preservation by every
   function of Kernel/Model.v that runs inside a step or a block of module-level code.

     invS s                 structure: the event of a process is a Process event carrying its pid and conversely;
                            an Interruption event is born failed with Interrupt(cause), defused, with its own
                            _interrupt callback first; an Initialize event carries None and the _resume of its
                            process first; targets exist.
     invC run pe pend s     callbacks: [CbInterrupt i] occurs only in event i, once; [CbResume p] occurs only in the
                            callback list of p's target, once (waiter uniqueness); a live process that is not running
                            ([run]) waits: its _resume is in its target's list -- or in [pend], the callbacks of the
                            event [pe] being processed that have not been called yet.
     invA s                 agenda: entries name events, eids are distinct and below next_eid, times >= now; an
                            unprocessed Initialize / Interruption event has exactly one entry, URGENT, due now; a
                            processed one has none; the Initialize entry of a process precedes (eid) every
                            Interruption entry aimed at it.

   Between steps: [good s := inv None 0 [] s].

   [inv] is carried through each function of the model in turn, not through the primitives of Kernel/Prims.v as [mono]
   is in Kernel/IntrBase.v: it does not hold between the primitives of env.process() (the Process event exists before its
   process does), and below a step its parameters (who runs, which callbacks of the popped event are still to be called)
   change along a function, so it is no reflexive-transitive relation between states and [kchain_rel] does not apply. *)
From Coq Require Import ZArith QArith List Bool Lia Lqa.
From ONL Require Import Kernel.Model Kernel.Keys Kernel.Prims Kernel.IntrBase.
Import ListNotations.

Record invS (s : state) : Prop := mkInvS {
  iS_pev : pevK s;
  iS_kproc : forall e ev p, get_event e s = Some ev -> kind ev = KProcess p ->
             exists pr, get_proc p s = Some pr /\ pev pr = e;
  iS_kintr : forall i ev p, get_event i s = Some ev -> kind ev = KInterruption p ->
             (exists pr, get_proc p s = Some pr) /\ (exists c, out ev = Some (Fail (EInterrupt, [c]))) /\
             defused ev = true /\ (cbs ev = None \/ exists r, cbs ev = Some (CbInterrupt i :: r));
  iS_kinit : forall ie ev p, get_event ie s = Some ev -> kind ev = KInit p ->
             (exists pr, get_proc p s = Some pr) /\ out ev = Some (Ok VNone) /\
             (cbs ev = None \/ exists r, cbs ev = Some (CbResume p :: r));
  iS_tgt : forall p pr t, get_proc p s = Some pr -> ptarget pr = Some t -> exists tev, get_event t s = Some tev;
  iS_init : forall p pr, get_proc p s = Some pr ->
            exists iev, get_event (S (pev pr)) s = Some iev /\ kind iev = KInit p }.

Record invC (run : option pid) (pe : evid) (pend : list cb) (s : state) : Prop := mkInvC {
  iC_intr : forall e ev l i, get_event e s = Some ev -> cbs ev = Some l -> In (CbInterrupt i) l ->
            e = i /\ cnt (CbInterrupt i) l = 1%nat /\ exists p, kind ev = KInterruption p;
  iC_intr_pend : forall i, In (CbInterrupt i) pend ->
            i = pe /\ cnt (CbInterrupt i) pend = 1%nat /\
            exists ev p, get_event pe s = Some ev /\ kind ev = KInterruption p;
  iC_res : forall e ev l p, get_event e s = Some ev -> cbs ev = Some l -> In (CbResume p) l ->
            (exists pr, get_proc p s = Some pr /\ ptarget pr = Some e) /\ cnt (CbResume p) l = 1%nat /\
            run <> Some p /\ ~ In (CbResume p) pend;
  iC_res_pend : forall p, In (CbResume p) pend ->
            (exists pr, get_proc p s = Some pr /\ ptarget pr = Some pe) /\ cnt (CbResume p) pend = 1%nat /\
            run <> Some p /\ exists ev, get_event pe s = Some ev /\ cbs ev = None;
  iC_wait : forall p pr ev, get_proc p s = Some pr -> get_event (pev pr) s = Some ev -> out ev = None ->
            run <> Some p ->
            In (CbResume p) pend \/
            exists t tev l, ptarget pr = Some t /\ get_event t s = Some tev /\ cbs tev = Some l /\ In (CbResume p) l;
  iC_run : forall r, run = Some r -> exists pr, get_proc r s = Some pr }.

Record invA (s : state) : Prop := mkInvA {
  iA_ev : forall x, In x (agenda s) -> exists ev, get_event (e_ev x) s = Some ev;
  iA_nodup : NoDup (map e_eid (agenda s));
  iA_eid : forall x, In x (agenda s) -> (e_eid x < next_eid s)%nat;
  iA_time : forall x, In x (agenda s) -> now s <= e_time x;
  iA_urg : forall x ev, In x (agenda s) -> get_event (e_ev x) s = Some ev -> urgent_kind (kind ev) = true ->
           e_time x == now s /\ e_prio x = URGENT /\ cbs ev <> None /\
           (forall y, In y (agenda s) -> e_ev y = e_ev x -> y = x);
  iA_has : forall e ev, get_event e s = Some ev -> urgent_kind (kind ev) = true -> cbs ev <> None ->
           exists x, In x (agenda s) /\ e_ev x = e;
  iA_init_first : forall x y evx evy p, In x (agenda s) -> In y (agenda s) ->
           get_event (e_ev x) s = Some evx -> get_event (e_ev y) s = Some evy ->
           kind evx = KInit p -> kind evy = KInterruption p -> (e_eid x < e_eid y)%nat }.

Definition inv (run : option pid) (pe : evid) (pend : list cb) (s : state) : Prop :=
  invS s /\ invC run pe pend s /\ invA s.

(* the invariant between two steps *)
Definition good (s : state) : Prop := inv None 0%nat [] s.

(* ------------------------------------------------------------------------------------------------ *)
(* changes that touch neither events nor processes nor the agenda *)

Lemma inv_frame run pe pend s s' :
  events s' = events s -> procs s' = procs s -> agenda s' = agenda s -> now s' = now s -> next_eid s' = next_eid s ->
  inv run pe pend s -> inv run pe pend s'.
Proof.
  destruct s, s'. cbn. intros -> -> -> -> ->. intros (HS & HC & HA).
  split; [|split].
  - destruct HS as [A B C D E F0]. constructor; assumption.
  - destruct HC as [A B C D E R0]. constructor; assumption.
  - destruct HA as [A B C D E F G]. constructor; assumption.
Qed.

(* ------------------------------------------------------------------------------------------------ *)
(* pointwise evolution of events: kinds keep their shape, outcomes are only added, Initialize / Interruption events
   keep outcome and defusal, callback lists change only in their non-core entries (checks, probes, stop) *)

Definition cbs_ok (l l' : list cb) : Prop :=
  (forall c, is_core c = true -> cnt c l' = cnt c l) /\
  (forall c r, l = c :: r -> is_core c = true -> exists r', l' = c :: r').

Definition cbs_rel (o o' : option (list cb)) : Prop :=
  match o, o' with None, None => True | Some l, Some l' => cbs_ok l l' | _, _ => False end.

Definition ev_step (ev ev' : event) : Prop :=
  kshape (kind ev') = kshape (kind ev) /\
  (out ev <> None -> out ev' <> None) /\
  (urgent_kind (kind ev) = true -> out ev' = out ev /\ (defused ev = true -> defused ev' = true)) /\
  cbs_rel (cbs ev) (cbs ev').

Lemma cbs_ok_refl l : cbs_ok l l.
Proof. split; [reflexivity|]. intros c r -> _. exists r. reflexivity. Qed.

Lemma cbs_rel_refl o : cbs_rel o o.
Proof. destruct o; cbn; [apply cbs_ok_refl|exact I]. Qed.

Lemma ev_step_refl ev : ev_step ev ev.
Proof. repeat split; auto. apply cbs_rel_refl. Qed.

Lemma core_neq c d : is_core c = true -> is_core d = false -> c <> d.
Proof. intros A B E. subst. congruence. Qed.

Lemma cbs_ok_snoc l c : is_core c = false -> cbs_ok l (l ++ [c]).
Proof.
  intros N. split.
  - intros c0 C0. rewrite cnt_app, cnt_single.
    assert (cb_eqb c c0 = false) as -> by (apply cb_eqb_neq; intros E; subst; congruence). lia.
  - intros c0 r -> _. exists (r ++ [c]). reflexivity.
Qed.

Lemma cbs_ok_remove l c : is_core c = false -> cbs_ok l (remove_first c l).
Proof.
  intros N. split.
  - intros c0 C0. apply cnt_remove_first_other. apply core_neq; assumption.
  - intros c0 r -> C0. cbn [remove_first].
    assert (cb_eqb c0 c = false) as -> by (apply cb_eqb_neq, core_neq; assumption).
    eexists. reflexivity.
Qed.

Lemma cbs_ok_in l l' c : cbs_ok l l' -> is_core c = true -> (In c l' <-> In c l).
Proof. intros [H _] C. rewrite !cnt_pos, (H _ C). tauto. Qed.

Record evs_rel (R : event -> event -> Prop) (s s' : state) : Prop := mkEvsRel {
  es_procs : procs s' = procs s;
  es_agenda : agenda s' = agenda s;
  es_now : now s' = now s;
  es_eid : next_eid s' = next_eid s;
  es_len : length (events s') = length (events s);
  es_ev : forall e ev, get_event e s = Some ev -> exists ev', get_event e s' = Some ev' /\ R ev ev' }.

Lemma evs_rel_mono (R R' : event -> event -> Prop) s s' : (forall a b, R a b -> R' a b) -> evs_rel R s s' -> evs_rel R' s s'.
Proof.
  intros HR [A B C D E F]. constructor; try assumption.
  intros e ev H. destruct (F _ _ H) as (ev' & H' & S'). exists ev'. split; [exact H'|apply HR, S'].
Qed.

Lemma es_back R s s' : evs_rel R s s' ->
  forall e ev', get_event e s' = Some ev' -> exists ev, get_event e s = Some ev /\ R ev ev'.
Proof.
  intros X e ev' H. pose proof (get_event_lt _ _ _ H) as L. rewrite (es_len _ _ _ X) in L.
  destruct (get_event e s) as [ev|] eqn:E; [|apply nth_error_None in E; lia].
  exists ev. split; [reflexivity|]. destruct (es_ev _ _ _ X _ _ E) as (ev2 & H2 & S2). congruence.
Qed.

Lemma es_proc R s s' p : evs_rel R s s' -> get_proc p s' = get_proc p s.
Proof. intros X. unfold get_proc. rewrite (es_procs _ _ _ X). reflexivity. Qed.

Lemma es_upd_event (R : event -> event -> Prop) e f s :
  (forall ev, R ev ev) -> (forall ev, get_event e s = Some ev -> R ev (f ev)) -> evs_rel R s (upd_event e f s).
Proof.
  intros Hr Hf. constructor; try reflexivity.
  - apply upd_event_length.
  - intros e0 ev H. rewrite get_event_upd. destruct (Nat.eqb e0 e) eqn:E.
    + apply Nat.eqb_eq in E. subst e0. rewrite H. cbn. exists (f ev). split; [reflexivity|apply Hf, H].
    + exists ev. split; [exact H|apply Hr].
Qed.

Definition evs_step : state -> state -> Prop := evs_rel ev_step.

(* the weaker pointwise relation that the structure and agenda groups need: a callback list only keeps its status
   (processed or not) and, for Initialize / Interruption events, its core head *)
Definition ev_step0 (ev ev' : event) : Prop :=
  kshape (kind ev') = kshape (kind ev) /\
  (out ev <> None -> out ev' <> None) /\
  (urgent_kind (kind ev) = true ->
     out ev' = out ev /\ (defused ev = true -> defused ev' = true) /\
     (forall c r, cbs ev = Some (c :: r) -> is_core c = true -> exists r', cbs ev' = Some (c :: r'))) /\
  (cbs ev = None <-> cbs ev' = None).

Lemma ev_step_0 ev ev' : ev_step ev ev' -> ev_step0 ev ev'.
Proof.
  intros (A & B & C & D). split; [exact A|]. split; [exact B|]. split.
  - intros U. destruct (C U) as [C1 C2]. split; [exact C1|]. split; [exact C2|].
    intros c r Hc Ic. unfold cbs_rel in D. rewrite Hc in D. destruct (cbs ev') as [l'|]; [|contradiction].
    destruct (proj2 D _ _ eq_refl Ic) as (r' & ->). exists r'. reflexivity.
  - unfold cbs_rel in D. destruct (cbs ev), (cbs ev'); try contradiction; split; congruence.
Qed.

Lemma ev_step0_refl ev : ev_step0 ev ev.
Proof. apply ev_step_0, ev_step_refl. Qed.

Definition evs_step0 : state -> state -> Prop := evs_rel ev_step0.

Lemma evs_step_0 s s' : evs_step s s' -> evs_step0 s s'.
Proof. apply evs_rel_mono, ev_step_0. Qed.

Lemma invS_es0 s s' : evs_step0 s s' -> invS s -> invS s'.
Proof.
  intros X [A B C D E F0]. constructor.
  - intros p pr H. rewrite (es_proc _ _ _ _ X) in H. destruct (A _ _ H) as (ev & H1 & K1).
    destruct (es_ev _ _ _ X _ _ H1) as (ev' & H2 & S2). exists ev'. split; [exact H2|].
    apply (kshape_eq_process _ _ _ (proj1 S2) K1).
  - intros e ev' p H K. destruct (es_back _ _ _ X _ _ H) as (ev & H1 & S1).
    rewrite (es_proc _ _ _ _ X). apply (B e ev p H1). apply (kshape_eq_process _ _ _ (eq_sym (proj1 S1)) K).
  - intros i ev' p H K. destruct (es_back _ _ _ X _ _ H) as (ev & H1 & S1).
    assert (K1 : kind ev = KInterruption p) by apply (kshape_eq_interruption _ _ _ (eq_sym (proj1 S1)) K).
    destruct (C _ _ _ H1 K1) as (C1 & (c & C2) & C3 & C4).
    destruct S1 as (_ & _ & S3 & S4). rewrite K1 in S3. destruct (S3 eq_refl) as (S5 & S6 & S7).
    split; [rewrite (es_proc _ _ _ _ X); exact C1|]. split; [exists c; congruence|]. split; [auto|].
    destruct C4 as [C4|(r & C4)].
    + left. apply S4, C4.
    + right. apply (S7 _ _ C4 eq_refl).
  - intros ie ev' p H K. destruct (es_back _ _ _ X _ _ H) as (ev & H1 & S1).
    assert (K1 : kind ev = KInit p) by apply (kshape_eq_init _ _ _ (eq_sym (proj1 S1)) K).
    destruct (D _ _ _ H1 K1) as (D1 & D2 & D4).
    destruct S1 as (_ & _ & S3 & S4). rewrite K1 in S3. destruct (S3 eq_refl) as (S5 & S6 & S7).
    split; [rewrite (es_proc _ _ _ _ X); exact D1|]. split; [congruence|].
    destruct D4 as [D4|(r & D4)].
    + left. apply S4, D4.
    + right. apply (S7 _ _ D4 eq_refl).
  - intros p pr t H T. rewrite (es_proc _ _ _ _ X) in H. destruct (E _ _ _ H T) as (tev & H1).
    destruct (es_ev _ _ _ X _ _ H1) as (ev' & H2 & _). exists ev'. exact H2.
  - intros p pr H. rewrite (es_proc _ _ _ _ X) in H. destruct (F0 _ _ H) as (iev & H1 & K1).
    destruct (es_ev _ _ _ X _ _ H1) as (ev' & H2 & S2). exists ev'. split; [exact H2|].
    apply (kshape_eq_init _ _ _ (proj1 S2) K1).
Qed.

Lemma invS_es s s' : evs_step s s' -> invS s -> invS s'.
Proof. intros X. apply invS_es0, evs_step_0, X. Qed.

(* callback lists seen from the later state *)
Lemma es_cbs_back s s' e ev' l' : evs_step s s' -> get_event e s' = Some ev' -> cbs ev' = Some l' ->
  exists ev l, get_event e s = Some ev /\ cbs ev = Some l /\ cbs_ok l l' /\ ev_step ev ev'.
Proof.
  intros X H C. destruct (es_back _ _ _ X _ _ H) as (ev & H1 & S1). exists ev.
  pose proof S1 as (_ & _ & _ & S4). unfold cbs_rel in S4. rewrite C in S4.
  destruct (cbs ev) as [l|]; [|contradiction]. exists l. auto.
Qed.

Lemma es_cbs_fw s s' e ev l : evs_step s s' -> get_event e s = Some ev -> cbs ev = Some l ->
  exists ev' l', get_event e s' = Some ev' /\ cbs ev' = Some l' /\ cbs_ok l l' /\ ev_step ev ev'.
Proof.
  intros X H C. destruct (es_ev _ _ _ X _ _ H) as (ev' & H1 & S1). exists ev'.
  pose proof S1 as (_ & _ & _ & S4). unfold cbs_rel in S4. rewrite C in S4.
  destruct (cbs ev') as [l'|]; [|contradiction]. exists l'. auto.
Qed.

Lemma invC_es run pe pend s s' : evs_step s s' -> invC run pe pend s -> invC run pe pend s'.
Proof.
  intros X [A B C D E R0]. constructor; [| | | | |intros r Hr; rewrite (es_proc _ _ _ _ X); exact (R0 _ Hr)].
  - intros e ev' l' i H Cl Hin.
    destruct (es_cbs_back _ _ _ _ _ X H Cl) as (ev & l & H1 & C1 & OK & S1).
    assert (Hin1 : In (CbInterrupt i) l) by (apply (cbs_ok_in _ _ (CbInterrupt i) OK eq_refl), Hin).
    destruct (A _ _ _ _ H1 C1 Hin1) as (A1 & A2 & (p & A3)).
    split; [exact A1|]. split; [rewrite (proj1 OK (CbInterrupt i) eq_refl); exact A2|].
    exists p. apply (kshape_eq_interruption _ _ _ (proj1 S1) A3).
  - intros i Hin. destruct (B _ Hin) as (B1 & B2 & (ev & p & B3 & B4)).
    split; [exact B1|]. split; [exact B2|].
    destruct (es_ev _ _ _ X _ _ B3) as (ev' & H2 & S2). exists ev', p. split; [exact H2|].
    apply (kshape_eq_interruption _ _ _ (proj1 S2) B4).
  - intros e ev' l' p H Cl Hin.
    destruct (es_cbs_back _ _ _ _ _ X H Cl) as (ev & l & H1 & C1 & OK & S1).
    assert (Hin1 : In (CbResume p) l) by (apply (cbs_ok_in _ _ (CbResume p) OK eq_refl), Hin).
    destruct (C _ _ _ _ H1 C1 Hin1) as (C2 & C3 & C4 & C5).
    split; [rewrite (es_proc _ _ _ _ X); exact C2|]. split; [rewrite (proj1 OK (CbResume p) eq_refl); exact C3|]. auto.
  - intros p Hin. destruct (D _ Hin) as (D1 & D2 & D3 & (ev & D4 & D5)).
    split; [rewrite (es_proc _ _ _ _ X); exact D1|]. split; [exact D2|]. split; [exact D3|].
    destruct (es_ev _ _ _ X _ _ D4) as (ev' & H2 & (_ & _ & _ & S4)). exists ev'. split; [exact H2|].
    unfold cbs_rel in S4. rewrite D5 in S4. destruct (cbs ev'); [contradiction|reflexivity].
  - intros p pr ev' Hp H O R. rewrite (es_proc _ _ _ _ X) in Hp.
    destruct (es_back _ _ _ X _ _ H) as (ev & H1 & S1).
    assert (O1 : out ev = None).
    { destruct (out ev) eqn:OO; [|reflexivity]. exfalso. apply (proj1 (proj2 S1)); [congruence|exact O]. }
    destruct (E _ _ _ Hp H1 O1 R) as [E1|(t & tev & l & E1 & E2 & E3 & E4)]; [left; exact E1|right].
    destruct (es_cbs_fw _ _ _ _ _ X E2 E3) as (tev' & l' & F1 & F2 & OK & _).
    exists t, tev', l'. repeat split; try assumption. apply (cbs_ok_in _ _ (CbResume p) OK eq_refl), E4.
Qed.

Lemma es0_processed s s' e ev ev' : evs_step0 s s' -> get_event e s = Some ev -> get_event e s' = Some ev' ->
  (cbs ev = None <-> cbs ev' = None) /\ urgent_kind (kind ev') = urgent_kind (kind ev) /\ ev_step0 ev ev'.
Proof.
  intros X H H'. destruct (es_ev _ _ _ X _ _ H) as (ev2 & H2 & S2). rewrite H' in H2. injection H2 as <-.
  split; [apply S2|]. split; [apply kshape_urgent, S2|exact S2].
Qed.

Lemma invA_es0 s s' : evs_step0 s s' -> invA s -> invA s'.
Proof.
  intros X [A B C D E F G].
  pose proof (es_agenda _ _ _ X) as Ag. pose proof (es_now _ _ _ X) as Nw. pose proof (es_eid _ _ _ X) as Ne.
  constructor; rewrite ?Ag, ?Nw, ?Ne; try assumption.
  - intros x Hx. destruct (A _ Hx) as (ev & H). destruct (es_ev _ _ _ X _ _ H) as (ev' & H' & _). exists ev'. exact H'.
  - intros x ev' Hx H U. destruct (es_back _ _ _ X _ _ H) as (ev & H1 & S1).
    destruct (es0_processed _ _ _ _ _ X H1 H) as (P1 & P2 & _). rewrite P2 in U.
    destruct (E _ _ Hx H1 U) as (E1 & E2 & E3 & E4). repeat split; try assumption.
    intros N. apply E3, P1, N.
  - intros e ev' H U N. destruct (es_back _ _ _ X _ _ H) as (ev & H1 & S1).
    destruct (es0_processed _ _ _ _ _ X H1 H) as (P1 & P2 & _). rewrite P2 in U.
    apply (F _ _ H1 U). intros N1. apply N, P1, N1.
  - intros x y evx' evy' p Hx Hy H1 H2 K1 K2.
    destruct (es_back _ _ _ X _ _ H1) as (evx & H1' & S1). destruct (es_back _ _ _ X _ _ H2) as (evy & H2' & S2).
    apply (G x y evx evy p Hx Hy H1' H2').
    + apply (kshape_eq_init _ _ _ (eq_sym (proj1 S1)) K1).
    + apply (kshape_eq_interruption _ _ _ (eq_sym (proj1 S2)) K2).
Qed.

Lemma invA_es s s' : evs_step s s' -> invA s -> invA s'.
Proof. intros X. apply invA_es0, evs_step_0, X. Qed.

Lemma inv_es run pe pend s s' : evs_step s s' -> inv run pe pend s -> inv run pe pend s'.
Proof.
  intros X (HS & HC & HA). split; [eapply invS_es; eassumption|]. split; [eapply invC_es; eassumption|eapply invA_es; eassumption].
Qed.

Lemma inv_upd_event run pe pend e f s :
  (forall ev, get_event e s = Some ev -> ev_step ev (f ev)) ->
  inv run pe pend s -> inv run pe pend (upd_event e f s).
Proof. intros Hf. apply inv_es, es_upd_event; [exact ev_step_refl|exact Hf]. Qed.

(* groups that do not look at the agenda *)
Lemma invS_frame s s' : events s' = events s -> procs s' = procs s -> invS s -> invS s'.
Proof. destruct s, s'. cbn. intros -> ->. intros [A B C D E F0]. constructor; assumption. Qed.

Lemma invC_frame run pe pend s s' : events s' = events s -> procs s' = procs s -> invC run pe pend s -> invC run pe pend s'.
Proof. destruct s, s'. cbn. intros -> ->. intros [A B C D E R0]. constructor; assumption. Qed.

Lemma untriggered_not_urgent s e ev : invS s -> get_event e s = Some ev -> out ev = None -> urgent_kind (kind ev) = false.
Proof.
  intros HS H O. destruct (kind ev) eqn:K; try reflexivity.
  - destruct (iS_kinit _ HS _ _ _ H K) as (_ & O' & _). congruence.
  - destruct (iS_kintr _ HS _ _ _ H K) as (_ & (c & O') & _). congruence.
Qed.

(* ------------------------------------------------------------------------------------------------ *)
(* a new event without core callbacks, not a Process / Initialize / Interruption event *)

Definition plain_ev (ev : event) : Prop :=
  (exists l, cbs ev = Some l /\ forall c, In c l -> is_core c = false) /\
  urgent_kind (kind ev) = false /\ (forall p, kind ev <> KProcess p).

Lemma urgent_kind_cases k : urgent_kind k = true -> (exists p, k = KInit p) \/ (exists p, k = KInterruption p).
Proof. destruct k; cbn; try discriminate; intros _; [left|right]; eexists; reflexivity. Qed.

Lemma inv_new_event run pe pend ev s : plain_ev ev -> inv run pe pend s -> inv run pe pend (snd (new_event ev s)).
Proof.
  intros ((l0 & Cl0 & Hl0) & U0 & P0) (HS & HC & HA).
  set (s' := snd (new_event ev s)).
  assert (OLD : forall e x, get_event e s = Some x -> get_event e s' = Some x) by (intros; apply get_event_new_old; assumption).
  assert (PR : forall q, get_proc q s' = get_proc q s) by reflexivity.
  split; [|split].
  - destruct HS as [A B C D E F0]. constructor.
    + intros p pr H. destruct (A _ _ H) as (ev0 & H0 & K0). exists ev0. auto.
    + intros e ev0 p H K. apply get_event_new_inv in H. destruct H as [H|(_ & ->)]; [eapply B; eassumption|].
      exfalso. exact (P0 _ K).
    + intros i ev0 p H K. apply get_event_new_inv in H. destruct H as [H|(_ & ->)]; [eapply C; eassumption|].
      rewrite K in U0. discriminate.
    + intros i ev0 p H K. apply get_event_new_inv in H. destruct H as [H|(_ & ->)]; [eapply D; eassumption|].
      rewrite K in U0. discriminate.
    + intros p pr t H T. destruct (E _ _ _ H T) as (tev & H1). exists tev. auto.
    + intros p pr H. destruct (F0 _ _ H) as (iev & H1 & K1). exists iev. auto.
  - destruct HC as [A B C D E R0]. constructor; [| | | | |exact R0].
    + intros e ev0 l i H Cl Hin. apply get_event_new_inv in H. destruct H as [H|(_ & ->)]; [eapply A; eassumption|].
      rewrite Cl0 in Cl. injection Cl as <-. apply Hl0 in Hin. discriminate.
    + intros i Hin. destruct (B _ Hin) as (B1 & B2 & (ev0 & p & B3 & B4)). split; [exact B1|]. split; [exact B2|].
      exists ev0, p. auto.
    + intros e ev0 l p H Cl Hin. apply get_event_new_inv in H. destruct H as [H|(_ & ->)]; [eapply C; eassumption|].
      rewrite Cl0 in Cl. injection Cl as <-. apply Hl0 in Hin. discriminate.
    + intros p Hin. destruct (D _ Hin) as (D1 & D2 & D3 & (ev0 & D4 & D5)). repeat split; try assumption.
      exists ev0. auto.
    + intros p pr ev0 Hp H O R. destruct (iS_pev _ HS _ _ Hp) as (ev1 & H1 & _).
      rewrite (OLD _ _ H1) in H. injection H as <-.
      destruct (E _ _ _ Hp H1 O R) as [E1|(t & tev & l & E1 & E2 & E3 & E4)]; [left; exact E1|right].
      exists t, tev, l. auto.
  - destruct HA as [A B C D E F G]. constructor; try assumption.
    + intros x Hx. destruct (A _ Hx) as (ev0 & H0). exists ev0. auto.
    + intros x ev0 Hx H U. destruct (A _ Hx) as (ev1 & H1). rewrite (OLD _ _ H1) in H. injection H as <-.
      exact (E _ _ Hx H1 U).
    + intros e ev0 H U N. apply get_event_new_inv in H. destruct H as [H|(_ & ->)]; [eapply F; eassumption|].
      congruence.
    + intros x y evx evy p Hx Hy H1 H2 K1 K2.
      destruct (A _ Hx) as (e1 & X1). rewrite (OLD _ _ X1) in H1. injection H1 as <-.
      destruct (A _ Hy) as (e2 & X2). rewrite (OLD _ _ X2) in H2. injection H2 as <-.
      eapply G; eassumption.
Qed.

(* ------------------------------------------------------------------------------------------------ *)
(* scheduling an event that is neither an Initialize nor an Interruption event *)

Lemma nodup_snoc {A} (l : list A) a : NoDup l -> ~ In a l -> NoDup (l ++ [a]).
Proof.
  induction l as [|x t IH]; cbn; intros ND N.
  - constructor; [tauto|constructor].
  - inversion ND as [|? ? Hx ND']; subst. constructor.
    + rewrite in_app_iff. cbn. intros [H|[H|[]]]; [contradiction|]. apply N. left. symmetry. exact H.
    + apply IH; [exact ND'|]. intros H. apply N. right. exact H.
Qed.

Lemma in_snoc {A} (l : list A) a x : In x (l ++ [a]) <-> In x l \/ x = a.
Proof. rewrite in_app_iff. cbn. split; intros [H|H]; auto. destruct H as [H|[]]; auto. Qed.

Lemma fresh_eid s : invA s -> ~ In (next_eid s) (map e_eid (agenda s)).
Proof.
  intros HA H. apply in_map_iff in H. destruct H as (x & E & Hx). pose proof (iA_eid _ HA _ Hx). lia.
Qed.

Lemma invA_schedule e prio d s :
  invA s -> 0 <= d -> (exists ev, get_event e s = Some ev /\ urgent_kind (kind ev) = false) ->
  invA (schedule e prio d s).
Proof.
  intros HA Hd (ev & Hev & Uev). pose proof (fresh_eid _ HA) as FR. destruct HA as [A B C D E F G].
  set (x0 := mkEntry (Qred (now s + d)) prio (next_eid s) e).
  assert (NX : forall x evx, In x (agenda s ++ [x0]) -> get_event (e_ev x) s = Some evx -> urgent_kind (kind evx) = true -> In x (agenda s)).
  { intros x evx Hx H U. apply in_snoc in Hx. destruct Hx as [Hx| ->]; [exact Hx|]. change (get_event e s = Some evx) in H. rewrite Hev in H. injection H as <-. congruence. }
  constructor; cbn [schedule agenda now next_eid events].
  - intros x Hx. apply in_snoc in Hx. destruct Hx as [Hx| ->]; [apply A, Hx|]. exists ev. exact Hev.
  - rewrite map_app. apply nodup_snoc; assumption.
  - intros x Hx. apply in_snoc in Hx. destruct Hx as [Hx| ->]; [apply C in Hx; lia|cbn; lia].
  - intros x Hx. apply in_snoc in Hx. destruct Hx as [Hx| ->]; [apply D, Hx|]. unfold x0. cbn [e_time]. rewrite Qred_correct. lra.
  - intros x evx Hx H U. change (get_event (e_ev x) s = Some evx) in H. pose proof (NX _ _ Hx H U) as Hx0.
    destruct (E _ _ Hx0 H U) as (E1 & E2 & E3 & E4). repeat split; try assumption.
    intros y Hy Ey. apply in_snoc in Hy. destruct Hy as [Hy| ->]; [apply E4; assumption|].
    change (e = e_ev x) in Ey. rewrite <- Ey, Hev in H. injection H as <-. congruence.
  - intros e0 ev0 H U N. change (get_event e0 s = Some ev0) in H. destruct (F _ _ H U N) as (x & Hx & Ex).
    exists x. split; [apply in_snoc; left; exact Hx|exact Ex].
  - intros x y evx evy p Hx Hy H1 H2 K1 K2.
    change (get_event (e_ev x) s = Some evx) in H1. change (get_event (e_ev y) s = Some evy) in H2.
    apply (G x y evx evy p); try assumption.
    + apply (NX _ _ Hx H1). rewrite K1. reflexivity.
    + apply (NX _ _ Hy H2). rewrite K2. reflexivity.
Qed.

Lemma inv_schedule run pe pend e prio d s :
  0 <= d -> (exists ev, get_event e s = Some ev /\ urgent_kind (kind ev) = false) ->
  inv run pe pend s -> inv run pe pend (schedule e prio d s).
Proof.
  intros Hd He (HS & HC & HA). split; [|split].
  - eapply invS_frame; [| |exact HS]; reflexivity.
  - eapply invC_frame; [| |exact HC]; reflexivity.
  - apply invA_schedule; assumption.
Qed.

(* setting the outcome of an event that is neither Initialize nor Interruption *)
Lemma ev_step_set_out o ev : urgent_kind (kind ev) = false -> ev_step ev (ev_set_out (Some o) ev).
Proof.
  intros U. repeat split; cbn; try congruence. apply cbs_rel_refl.
Qed.

Lemma inv_trigger run pe pend e o s ev :
  get_event e s = Some ev -> urgent_kind (kind ev) = false ->
  inv run pe pend s -> inv run pe pend (trigger_event e o s).
Proof.
  intros H U I. unfold trigger_event. apply inv_schedule; [lra| |].
  - exists (ev_set_out (Some o) ev). split; [apply get_event_upd_same, H|exact U].
  - apply inv_upd_event; [|exact I]. intros ev0 H0. rewrite H in H0. injection H0 as <-. apply ev_step_set_out, U.
Qed.

Lemma ev_step_add_cb c ev : is_core c = false -> ev_step ev (ev_add_cb c ev).
Proof.
  intros N. unfold ev_add_cb. destruct (cbs ev) as [l|] eqn:C; [|apply ev_step_refl].
  repeat split; cbn; auto. unfold cbs_rel. rewrite C. apply cbs_ok_snoc, N.
Qed.

Lemma inv_add_callback run pe pend e c s : is_core c = false -> inv run pe pend s -> inv run pe pend (add_callback e c s).
Proof. intros N. apply inv_upd_event. intros ev _. apply ev_step_add_cb, N. Qed.

Lemma ev_step_defused ev : ev_step ev (ev_set_defused ev).
Proof. repeat split; cbn; auto. apply cbs_rel_refl. Qed.

Lemma inv_set_defused run pe pend e s : inv run pe pend s -> inv run pe pend (upd_event e ev_set_defused s).
Proof. apply inv_upd_event. intros ev _. apply ev_step_defused. Qed.

(* ------------------------------------------------------------------------------------------------ *)
(* conditions *)

Lemma inv_cond_check run pe pend c op s : inv run pe pend s -> inv run pe pend (cond_check c op s).
Proof.
  intros I. unfold cond_check.
  destruct (get_event c s) as [cev|] eqn:Hc; [|exact I].
  destruct (get_event op s) as [oev|] eqn:Ho; [|exact I].
  destruct (out cev) eqn:Oc; [exact I|].
  destruct (kind cev) as [| | | | |all ops count|] eqn:Kc; try exact I.
  set (s1 := upd_event c (ev_set_kind (KCond all ops (S count))) s).
  assert (I1 : inv run pe pend s1).
  { apply inv_upd_event; [|exact I]. intros ev H. rewrite Hc in H. injection H as <-.
    repeat split; cbn; auto; try (rewrite Kc; reflexivity); try (rewrite Kc; cbn; discriminate). apply cbs_rel_refl. }
  assert (Hc1 : get_event c s1 = Some (ev_set_kind (KCond all ops (S count)) cev)) by (apply get_event_upd_same, Hc).
  assert (TR : forall o s2 cev2, inv run pe pend s2 -> get_event c s2 = Some cev2 -> kind cev2 = KCond all ops (S count) ->
                inv run pe pend (trigger_event c o s2)).
  { intros o s2 cev2 I2 H2 K2. eapply inv_trigger; [exact H2| |exact I2]. rewrite K2. reflexivity. }
  destruct (out oev) as [[v|x]|].
  - destruct (cond_evaluate all (length ops) (S count)); [|exact I1]. eapply TR; [exact I1|exact Hc1|reflexivity].
  - eapply (TR _ _ (if Nat.eqb c op then ev_set_defused (ev_set_kind (KCond all ops (S count)) cev)
                    else ev_set_kind (KCond all ops (S count)) cev)); [apply inv_set_defused, I1| |].
    + rewrite get_event_upd. destruct (Nat.eqb c op); rewrite Hc1; reflexivity.
    + destruct (Nat.eqb c op); reflexivity.
  - destruct (cond_evaluate all (length ops) (S count)); [|exact I1]. eapply TR; [exact I1|exact Hc1|reflexivity].
Qed.

Lemma inv_remove_check_from run pe pend c o s : inv run pe pend s -> inv run pe pend (remove_check_from c o s).
Proof.
  intros I. unfold remove_check_from. destruct (get_event o s) as [oev|] eqn:H; [|exact I].
  destruct (cbs oev) as [l|] eqn:C; [|exact I].
  destruct (mem_cb (CbCheck c) l); [|exact I].
  apply inv_upd_event; [|exact I]. intros ev H'. rewrite H in H'. injection H' as <-.
  repeat split; cbn; auto. unfold cbs_rel. rewrite C. apply cbs_ok_remove. reflexivity.
Qed.

Lemma inv_remove_ops run pe pend rec c :
  (forall o s s', rec o s = Some s' -> inv run pe pend s -> inv run pe pend s') ->
  forall l s s', remove_ops rec c l s = Some s' -> inv run pe pend s -> inv run pe pend s'.
Proof.
  intros Hrec. induction l as [|o t IH]; intros s s'; cbn [remove_ops].
  - intros H; injection H as <-. auto.
  - destruct (get_event o s) as [oev|]; [|discriminate].
    destruct (is_cond oev).
    + destruct (rec o (remove_check_from c o s)) as [s2|] eqn:R; [|discriminate]. intros H I.
      eapply IH; [exact H|]. eapply Hrec; [exact R|]. apply inv_remove_check_from, I.
    + intros H I. eapply IH; [exact H|]. apply inv_remove_check_from, I.
Qed.

Lemma inv_remove_checks run pe pend fuel : forall c s s', remove_checks fuel c s = Some s' -> inv run pe pend s -> inv run pe pend s'.
Proof.
  induction fuel as [|f IH]; intros c s s'; cbn [remove_checks]; [discriminate|].
  destruct (get_event c s) as [cev|]; [|discriminate].
  destruct (kind cev); try (intros H; injection H as <-; auto).
  apply inv_remove_ops. exact IH.
Qed.

Lemma inv_cond_build run pe pend c s : inv run pe pend s -> inv run pe pend (fst (cond_build c s)).
Proof.
  intros I. unfold cond_build. destruct (remove_checks (S c) c s) as [s1|] eqn:R; [|exact I].
  pose proof (inv_remove_checks run pe pend _ _ _ _ R I) as I1.
  destruct (get_event c s1) as [cev|] eqn:Hc; [|exact I1].
  destruct (out cev) as [[v|x]|]; try exact I1.
  destruct (kind cev) eqn:Kc; try exact I1.
  destruct (populate (S c) (events s1) ops); [|exact I1].
  cbn [fst]. apply inv_upd_event; [|exact I1]. intros ev H. rewrite Hc in H. injection H as <-.
  apply ev_step_set_out. rewrite Kc. reflexivity.
Qed.

(* events are appended, one of them (event i) with an URGENT entry due now: Interruption.__init__ and
   Initialize.__init__.  The other new events are neither Initialize nor Interruption events. *)

Lemma invA_push s s' i EV :
  invS s -> invA s ->
  now s' = now s -> next_eid s' = S (next_eid s) ->
  agenda s' = agenda s ++ [mkEntry (Qred (now s + 0)) URGENT (next_eid s) i] ->
  (forall e x, get_event e s = Some x -> get_event e s' = Some x) ->
  (forall e x, get_event e s' = Some x ->
     get_event e s = Some x \/ ((length (events s) <= e)%nat /\ (urgent_kind (kind x) = true -> e = i))) ->
  (length (events s) <= i)%nat -> get_event i s' = Some EV -> cbs EV <> None ->
  (forall p, kind EV = KInit p -> get_proc p s = None) ->
  invA s'.
Proof.
  intros HS HA Nw Ne Ag OLD NEW Li NEWi Ci NoP. pose proof (fresh_eid _ HA) as FR. destruct HA as [A B C D E F G].
  set (x0 := mkEntry (Qred (now s + 0)) URGENT (next_eid s) i) in *.
  assert (EVX : forall x evx, In x (agenda s) -> get_event (e_ev x) s' = Some evx -> get_event (e_ev x) s = Some evx).
  { intros x evx Hx H. destruct (A _ Hx) as (ev1 & H1). rewrite (OLD _ _ H1) in H. congruence. }
  assert (LT : forall x, In x (agenda s) -> (e_ev x < length (events s))%nat).
  { intros x Hx. destruct (A _ Hx) as (ev1 & H1). apply get_event_lt in H1. exact H1. }
  constructor; rewrite ?Ag, ?Nw, ?Ne.
  - intros x Hx. apply in_snoc in Hx. destruct Hx as [Hx| ->]; [|exists EV; exact NEWi].
    destruct (A _ Hx) as (ev0 & H0). exists ev0. apply OLD, H0.
  - rewrite map_app. apply nodup_snoc; assumption.
  - intros x Hx. apply in_snoc in Hx. destruct Hx as [Hx| ->]; [apply C in Hx; lia|cbn; lia].
  - intros x Hx. apply in_snoc in Hx. destruct Hx as [Hx| ->]; [apply D, Hx|]. cbn [x0 e_time]. rewrite Qred_correct. lra.
  - intros x evx Hx H U. apply in_snoc in Hx. destruct Hx as [Hx| ->].
    + pose proof (EVX _ _ Hx H) as H'. destruct (E _ _ Hx H' U) as (E1 & E2 & E3 & E4). repeat split; try assumption.
      intros y Hy Ey. apply in_snoc in Hy. destruct Hy as [Hy| ->]; [apply E4; assumption|].
      exfalso. pose proof (LT _ Hx) as L. rewrite <- Ey in L. cbn in L. lia.
    + cbn [x0 e_ev] in H. rewrite NEWi in H. injection H as <-. split; [cbn [x0 e_time]; rewrite Qred_correct; lra|].
      split; [reflexivity|]. split; [exact Ci|].
      intros y Hy Ey. apply in_snoc in Hy. destruct Hy as [Hy|Hy]; [|exact Hy].
      exfalso. pose proof (LT _ Hy) as L. rewrite Ey in L. cbn in L. lia.
  - intros e0 ev0 H U N. destruct (NEW _ _ H) as [H0|(L0 & Ei)].
    + destruct (F _ _ H0 U N) as (x & Hx & Ex). exists x. split; [apply in_snoc; left; exact Hx|exact Ex].
    + exists x0. split; [apply in_snoc; right; reflexivity|]. symmetry. apply Ei, U.
  - intros x y evx evy q Hx Hy H1 H2 K1 K2. apply in_snoc in Hx. apply in_snoc in Hy. destruct Hy as [Hy| ->].
    + pose proof (EVX _ _ Hy H2) as H2'. destruct Hx as [Hx| ->]; [apply (G x y evx evy q); auto|].
      (* the new entry is an Initialize: its process is new, nothing interrupts it yet *)
      cbn [x0 e_ev] in H1. rewrite NEWi in H1. injection H1 as <-. exfalso.
      destruct (iS_kintr _ HS _ _ _ H2' K2) as ((pr & Hpr) & _). rewrite (NoP _ K1) in Hpr. discriminate.
    + destruct Hx as [Hx| ->]; [apply C in Hx; exact Hx|].
      cbn [x0 e_ev] in H1, H2. rewrite NEWi in H1, H2. congruence.
Qed.

(* ------------------------------------------------------------------------------------------------ *)
(* an accepted interrupt() *)

Definition intr_event (i : evid) (p : pid) (cause : val) : event :=
  mkEvent (Some [CbInterrupt i]) (Some (Fail (EInterrupt, [cause]))) true (KInterruption p).

Definition intr_state (p : pid) (cause : val) (s : state) : state :=
  schedule (length (events s)) URGENT 0 (snd (new_event (intr_event (length (events s)) p cause) s)).

Lemma call_interrupt_accept e cause s ev p :
  get_event e s = Some ev -> kind ev = KProcess p -> out ev = None -> active s <> Some p ->
  call_interrupt e cause s = (intr_state p cause s, Ok VNone).
Proof.
  intros H K O A. unfold call_interrupt. rewrite H, K. unfold is_triggered. rewrite O.
  assert ((match active s with Some a => Nat.eqb a p | None => false end) = false) as ->.
  { destruct (active s) as [a|]; [|reflexivity]. apply Nat.eqb_neq. congruence. }
  reflexivity.
Qed.

Lemma inv_interrupt run pe pend p cause s :
  (exists pr, get_proc p s = Some pr) -> inv run pe pend s -> inv run pe pend (intr_state p cause s).
Proof.
  intros Hp (HS & HC & HA).
  set (i := length (events s)). set (EV := intr_event i p cause).
  set (s1 := snd (new_event EV s)).
  assert (OLD : forall e x, get_event e s = Some x -> get_event e s1 = Some x) by (intros; apply get_event_new_old; assumption).
  assert (NEW : get_event i s1 = Some EV) by apply get_event_new_self.
  split; [|split].
  - apply (invS_frame s1); [reflexivity|reflexivity|].
    destruct HS as [A B C D E F0]. constructor.
    + intros q pr H. destruct (A _ _ H) as (ev0 & H0 & K0). exists ev0. auto.
    + intros e ev0 q H K. apply get_event_new_inv in H. destruct H as [H|(_ & ->)]; [eapply B; eassumption|discriminate].
    + intros j ev0 q H K. apply get_event_new_inv in H. destruct H as [H|(-> & ->)]; [eapply C; eassumption|].
      injection K as <-. split; [exact Hp|]. split; [exists cause; reflexivity|]. split; [reflexivity|].
      right. exists []. reflexivity.
    + intros j ev0 q H K. apply get_event_new_inv in H. destruct H as [H|(_ & ->)]; [eapply D; eassumption|discriminate].
    + intros q pr t H T. destruct (E _ _ _ H T) as (tev & H1). exists tev. auto.
    + intros q pr H. destruct (F0 _ _ H) as (iev & H1 & K1). exists iev. auto.
  - apply (invC_frame _ _ _ s1); [reflexivity|reflexivity|].
    destruct HC as [A B C D E R0]. constructor; [| | | | |exact R0].
    + intros e ev0 l j H Cl Hin. apply get_event_new_inv in H. destruct H as [H|(-> & ->)]; [eapply A; eassumption|].
      injection Cl as <-. destruct Hin as [Hin|[]]. injection Hin as <-. split; [reflexivity|].
      split; [cbn; rewrite Nat.eqb_refl; reflexivity|]. exists p. reflexivity.
    + intros j Hin. destruct (B _ Hin) as (B1 & B2 & (ev0 & q & B3 & B4)). split; [exact B1|]. split; [exact B2|].
      exists ev0, q. auto.
    + intros e ev0 l q H Cl Hin. apply get_event_new_inv in H. destruct H as [H|(_ & ->)]; [eapply C; eassumption|].
      injection Cl as <-. destruct Hin as [Hin|[]]. discriminate.
    + intros q Hin. destruct (D _ Hin) as (D1 & D2 & D3 & (ev0 & D4 & D5)). repeat split; try assumption.
      exists ev0. auto.
    + intros q pr ev0 Hq H O R. destruct (iS_pev _ HS _ _ Hq) as (ev1 & H1 & _).
      rewrite (OLD _ _ H1) in H. injection H as <-.
      destruct (E _ _ _ Hq H1 O R) as [E1|(t & tev & l & E1 & E2 & E3 & E4)]; [left; exact E1|right].
      exists t, tev, l. auto.
  - apply (invA_push s _ i EV HS HA); try reflexivity.
    + exact OLD.
    + intros e x H. change (get_event e s1 = Some x) in H. apply get_event_new_inv in H.
      destruct H as [H|(-> & _)]; [left; exact H|right; split; [apply Nat.le_refl|reflexivity]].
    + exact NEW.
    + discriminate.
    + discriminate.
Qed.

(* ------------------------------------------------------------------------------------------------ *)
(* env.process(generator) *)

Definition proc_event (p : pid) : event := mkEvent (Some []) None false (KProcess p).
Definition init_event (p : pid) : event := mkEvent (Some [CbResume p]) (Some (Ok VNone)) false (KInit p).
Definition init_entry (s : state) : entry := mkEntry (Qred (now s + 0)) URGENT (next_eid s) (S (length (events s))).

Definition spawn_state (pr : prog) (arg : val) (s : state) : state :=
  mkState (now s) (agenda s ++ [init_entry s]) (S (next_eid s))
          ((events s ++ [proc_event (length (procs s))]) ++ [init_event (length (procs s))])
          (procs s ++ [mkProc pr (start pr arg) (length (events s)) (Some (S (length (events s))))])
          (active s) (glob s) (obs s).

Lemma call_spawn_eq codes code arg s pr :
  nth_error codes code = Some pr ->
  call_spawn codes code arg s = (spawn_state pr arg s, Ok (VEv (length (events s)))).
Proof.
  intros H. unfold call_spawn. rewrite H. unfold new_event, schedule, set_procs, set_events, spawn_state, init_entry.
  cbn [fst snd events procs now agenda next_eid active glob obs].
  rewrite app_length. cbn [length]. rewrite Nat.add_1_r. reflexivity.
Qed.

Lemma spawn_ev_cases pr arg s e ev0 :
  get_event e (spawn_state pr arg s) = Some ev0 ->
  get_event e s = Some ev0 \/
  (e = length (events s) /\ ev0 = proc_event (length (procs s))) \/
  (e = S (length (events s)) /\ ev0 = init_event (length (procs s))).
Proof.
  intros H. apply nth_error_snoc_inv in H. rewrite app_length, Nat.add_1_r in H. destruct H as [H|H]; [|auto].
  apply nth_error_snoc_inv in H. destruct H as [H|H]; auto.
Qed.

Lemma spawn_ev_old pr arg s e x : get_event e s = Some x -> get_event e (spawn_state pr arg s) = Some x.
Proof. intros H. apply nth_error_app_old, nth_error_app_old, H. Qed.

Lemma spawn_ev_proc pr arg s : get_event (length (events s)) (spawn_state pr arg s) = Some (proc_event (length (procs s))).
Proof. apply nth_error_app_old, nth_error_last. Qed.

Lemma spawn_ev_init pr arg s : get_event (S (length (events s))) (spawn_state pr arg s) = Some (init_event (length (procs s))).
Proof.
  replace (S (length (events s))) with (length (events s ++ [proc_event (length (procs s))])) by (rewrite app_length; cbn; lia).
  apply nth_error_last.
Qed.

Lemma spawn_pr_cases pr arg s q pr0 :
  get_proc q (spawn_state pr arg s) = Some pr0 ->
  get_proc q s = Some pr0 \/
  (q = length (procs s) /\ pr0 = mkProc pr (start pr arg) (length (events s)) (Some (S (length (events s))))).
Proof. apply nth_error_snoc_inv. Qed.

Lemma spawn_pr_old pr arg s q x : get_proc q s = Some x -> get_proc q (spawn_state pr arg s) = Some x.
Proof. apply nth_error_app_old. Qed.

Lemma spawn_pr_new pr arg s :
  get_proc (length (procs s)) (spawn_state pr arg s) = Some (mkProc pr (start pr arg) (length (events s)) (Some (S (length (events s))))).
Proof. apply nth_error_last. Qed.

Lemma inv_spawn run pe pend pr arg s : inv run pe pend s -> inv run pe pend (spawn_state pr arg s).
Proof.
  intros (HS & HC & HA).
  set (s' := spawn_state pr arg s). set (n := length (events s)). set (p := length (procs s)).
  assert (NOP : forall x, get_proc p s = Some x -> False) by (intros x H; apply get_proc_lt in H; unfold p in H; lia).
  assert (NOE : forall e x, get_event e s = Some x -> (e < n)%nat) by (intros e x H; apply get_event_lt in H; exact H).
  split; [|split].
  - destruct HS as [A B C D E F0]. constructor.
    + intros q pr0 H. apply spawn_pr_cases in H. destruct H as [H|(-> & ->)].
      * destruct (A _ _ H) as (ev0 & H0 & K0). exists ev0. split; [apply spawn_ev_old, H0|exact K0].
      * exists (proc_event p). split; [apply spawn_ev_proc|reflexivity].
    + intros e ev0 q H K. apply spawn_ev_cases in H. destruct H as [H|[(-> & ->)|(-> & ->)]].
      * destruct (B _ _ _ H K) as (pr0 & H0 & P0). exists pr0. split; [apply spawn_pr_old, H0|exact P0].
      * injection K as <-. eexists. split; [apply spawn_pr_new|reflexivity].
      * discriminate.
    + intros j ev0 q H K. apply spawn_ev_cases in H. destruct H as [H|[(-> & ->)|(-> & ->)]]; try discriminate.
      destruct (C _ _ _ H K) as ((pr0 & C1) & C2). split; [|exact C2]. exists pr0. apply spawn_pr_old, C1.
    + intros j ev0 q H K. apply spawn_ev_cases in H. destruct H as [H|[(-> & ->)|(-> & ->)]]; try discriminate.
      * destruct (D _ _ _ H K) as ((pr0 & D1) & D2). split; [|exact D2]. exists pr0. apply spawn_pr_old, D1.
      * injection K as <-. split; [eexists; apply spawn_pr_new|]. split; [reflexivity|]. right. exists []. reflexivity.
    + intros q pr0 t H T. apply spawn_pr_cases in H. destruct H as [H|(-> & ->)].
      * destruct (E _ _ _ H T) as (tev & H1). exists tev. apply spawn_ev_old, H1.
      * cbn in T. injection T as <-. eexists. apply spawn_ev_init.
    + intros q pr0 H. apply spawn_pr_cases in H. destruct H as [H|(-> & ->)].
      * destruct (F0 _ _ H) as (iev & H1 & K1). exists iev. split; [apply spawn_ev_old, H1|exact K1].
      * eexists. split; [apply spawn_ev_init|reflexivity].
  - destruct HC as [A B C D E R0]. constructor.
    + intros e ev0 l j H Cl Hin. apply spawn_ev_cases in H. destruct H as [H|[(-> & ->)|(-> & ->)]].
      * eapply A; eassumption.
      * injection Cl as <-. destruct Hin.
      * injection Cl as <-. destruct Hin as [Hin|[]]. discriminate.
    + intros j Hin. destruct (B _ Hin) as (B1 & B2 & (ev0 & q & B3 & B4)). split; [exact B1|]. split; [exact B2|].
      exists ev0, q. split; [apply spawn_ev_old, B3|exact B4].
    + intros e ev0 l q H Cl Hin. apply spawn_ev_cases in H. destruct H as [H|[(-> & ->)|(-> & ->)]].
      * destruct (C _ _ _ _ H Cl Hin) as ((pr0 & C1 & C2) & C3). split; [|exact C3]. exists pr0. split; [apply spawn_pr_old, C1|exact C2].
      * injection Cl as <-. destruct Hin.
      * injection Cl as <-. destruct Hin as [Hin|[]]. injection Hin as <-. fold p.
        split; [eexists; split; [apply spawn_pr_new|reflexivity]|].
        split; [cbn; rewrite Nat.eqb_refl; reflexivity|]. split.
        -- intros Hr. destruct (R0 _ Hr) as (x & Hx). exact (NOP _ Hx).
        -- intros Hp. destruct (D _ Hp) as ((x & Hx & _) & _). exact (NOP _ Hx).
    + intros q Hin. destruct (D _ Hin) as ((pr0 & D0 & D1) & D2 & D3 & (ev0 & D4 & D5)).
      split; [exists pr0; split; [apply spawn_pr_old, D0|exact D1]|]. split; [exact D2|]. split; [exact D3|].
      exists ev0. split; [apply spawn_ev_old, D4|exact D5].
    + intros q pr0 ev0 Hq H O R. apply spawn_pr_cases in Hq. destruct Hq as [Hq|(-> & ->)].
      * destruct (iS_pev _ HS _ _ Hq) as (ev1 & H1 & _). unfold s' in H. rewrite (spawn_ev_old pr arg _ _ _ H1) in H. injection H as <-.
        destruct (E _ _ _ Hq H1 O R) as [E1|(t & tev & l & E1 & E2 & E3 & E4)]; [left; exact E1|right].
        exists t, tev, l. split; [exact E1|]. split; [apply spawn_ev_old, E2|]. auto.
      * right. exists (S n), (init_event p), [CbResume p]. split; [reflexivity|]. split; [apply spawn_ev_init|].
        split; [reflexivity|left; reflexivity].
    + intros r Hr. destruct (R0 _ Hr) as (x & Hx). exists x. apply spawn_pr_old, Hx.
  - apply (invA_push s _ (S n) (init_event p) HS HA); try reflexivity.
    + intros e x H. apply spawn_ev_old, H.
    + intros e x H. apply spawn_ev_cases in H. destruct H as [H|[(-> & ->)|(-> & ->)]]; [left; exact H|right..].
      * split; [apply Nat.le_refl|discriminate].
      * split; [apply Nat.le_succ_diag_r|reflexivity].
    + apply Nat.le_succ_diag_r.
    + apply spawn_ev_init.
    + discriminate.
    + intros q K. injection K as <-. destruct (get_proc p s) as [x|] eqn:Hx; [destruct (NOP x eq_refl)|reflexivity].
Qed.

(* ------------------------------------------------------------------------------------------------ *)
(* the API calls *)

Lemma plain_nil o d k : urgent_kind k = false -> (forall p, k <> KProcess p) -> plain_ev (mkEvent (Some []) o d k).
Proof. intros U P. split; [exists []; split; [reflexivity|intros c []]|]. split; assumption. Qed.

Lemma inv_call_timeout run pe pend d v s : inv run pe pend s -> inv run pe pend (fst (call_timeout d v s)).
Proof.
  intros I. unfold call_timeout. destruct (neg_delay d) eqn:N; [exact I|].
  set (EV := mkEvent (Some []) (Some (Ok v)) false KTimeout).
  change (inv run pe pend (schedule (length (events s)) NORMAL d (snd (new_event EV s)))).
  apply inv_schedule; [apply neg_delay_false, N| |].
  - exists EV. split; [apply get_event_new_self|reflexivity].
  - apply inv_new_event; [apply plain_nil; [reflexivity|discriminate]|exact I].
Qed.

Lemma inv_call_event run pe pend s : inv run pe pend s -> inv run pe pend (fst (call_event s)).
Proof.
  intros I. unfold call_event.
  change (inv run pe pend (snd (new_event (mkEvent (Some []) None false KPlain) s))).
  apply inv_new_event; [apply plain_nil; [reflexivity|discriminate]|exact I].
Qed.

Lemma inv_call_succeed run pe pend e v s : inv run pe pend s -> inv run pe pend (fst (call_succeed e v s)).
Proof.
  intros I. unfold call_succeed. destruct (get_event e s) as [ev|] eqn:H; [|exact I].
  unfold is_triggered. destruct (out ev) eqn:O; [exact I|]. cbn [fst].
  eapply inv_trigger; [exact H| |exact I]. eapply untriggered_not_urgent; [apply I|exact H|exact O].
Qed.

Lemma inv_call_fail run pe pend e x s : inv run pe pend s -> inv run pe pend (fst (call_fail e x s)).
Proof.
  intros I. unfold call_fail. destruct (get_event e s) as [ev|] eqn:H; [|exact I].
  unfold is_triggered. destruct (out ev) eqn:O; [exact I|].
  destruct x; try exact I. cbn [fst].
  eapply inv_trigger; [exact H| |exact I]. eapply untriggered_not_urgent; [apply I|exact H|exact O].
Qed.

Lemma inv_call_spawn run pe pend codes code arg s : inv run pe pend s -> inv run pe pend (fst (call_spawn codes code arg s)).
Proof.
  intros I. destruct (nth_error codes code) as [pr|] eqn:H.
  - rewrite (call_spawn_eq _ _ _ _ _ H). cbn [fst]. apply inv_spawn, I.
  - unfold call_spawn. rewrite H. exact I.
Qed.

Lemma inv_call_interrupt run pe pend e cause s : inv run pe pend s -> inv run pe pend (fst (call_interrupt e cause s)).
Proof.
  intros I. unfold call_interrupt. destruct (get_event e s) as [ev|] eqn:H; [|exact I].
  destruct (kind ev) eqn:K; try exact I.
  destruct (is_triggered ev); [exact I|].
  destruct (match active s with Some a => Nat.eqb a p | None => false end); [exact I|].
  change (inv run pe pend (intr_state p cause s)). apply inv_interrupt; [|exact I].
  destruct (iS_kproc _ (proj1 I) _ _ _ H K) as (pr & Hp & _). exists pr. exact Hp.
Qed.

Lemma inv_cond_subscribe run pe pend c ops : forall s, inv run pe pend s -> inv run pe pend (cond_subscribe c ops s).
Proof.
  induction ops as [|o t IH]; intros s I; cbn [cond_subscribe]; [exact I|].
  apply IH. destruct (get_event o s) as [oev|]; [|exact I].
  destruct (is_processed oev); [apply inv_cond_check, I|apply inv_add_callback; [reflexivity|exact I]].
Qed.

Lemma inv_call_cond run pe pend all es s : inv run pe pend s -> inv run pe pend (fst (call_cond all es s)).
Proof.
  intros I. unfold call_cond. destruct (negb (all_valid es s)); [exact I|].
  set (EV := mkEvent (Some []) None false (KCond all es 0)).
  assert (I1 : inv run pe pend (snd (new_event EV s))) by (apply inv_new_event; [apply plain_nil; [reflexivity|discriminate]|exact I]).
  pose proof (get_event_new_self EV s) as G1.
  unfold new_event in *. cbn [fst snd] in *. set (s1 := set_events (events s ++ [EV]) s) in *.
  destruct es as [|e0 es'].
  - cbn [fst]. eapply inv_trigger; [exact G1|reflexivity|exact I1].
  - cbn [fst]. apply inv_add_callback; [reflexivity|]. apply inv_cond_subscribe, I1.
Qed.

Lemma inv_call_probe run pe pend e n s : inv run pe pend s -> inv run pe pend (fst (call_probe e n s)).
Proof.
  intros I. unfold call_probe. destruct (get_event e s) as [ev|]; [|exact I].
  destruct (is_processed ev); [exact I|]. apply inv_add_callback; [reflexivity|exact I].
Qed.

Lemma inv_do_call run pe pend codes c s : inv run pe pend s -> inv run pe pend (fst (do_call codes c s)).
Proof.
  intros I. destruct c; cbn [do_call].
  - (* CTimeout *) apply inv_call_timeout, I.
  - (* CEvent *) apply inv_call_event, I.
  - (* CSucceed *) apply inv_call_succeed, I.
  - (* CFail *) apply inv_call_fail, I.
  - (* CSpawn *) apply inv_call_spawn, I.
  - (* CInterrupt *) apply inv_call_interrupt, I.
  - (* CAllOf *) apply inv_call_cond, I.
  - (* CAnyOf *) apply inv_call_cond, I.
  - (* CProbe *) apply inv_call_probe, I.
  - (* CQuery *) rewrite call_query_state. exact I.
  - (* CNow *) exact I.
  - (* CPeek *) exact I.
  - (* CLog *) eapply inv_frame; [| | | | |exact I]; reflexivity.
  - (* CGetG *) exact I.
  - (* CSetG *) eapply inv_frame; [| | | | |exact I]; reflexivity.
Qed.

Lemma inv_run_frag {A} run pe pend codes (f : frag A) : forall s, inv run pe pend s -> inv run pe pend (fst (run_frag codes f s)).
Proof.
  induction f as [v a|v|x|c k IH]; intros s I; cbn [run_frag fst]; try exact I.
  pose proof (inv_do_call run pe pend codes c s I) as X. destruct (do_call codes c s) as [s1 o]. cbn [fst] in X.
  apply IH, X.
Qed.

Lemma inv_set_active run pe pend a s : inv run pe pend s -> inv run pe pend (set_active a s).
Proof. intros I. eapply inv_frame; [| | | | |exact I]; reflexivity. Qed.

Lemma inv_run_prelude run pe pend u s s1 : run_prelude u s = inr s1 -> inv run pe pend s -> inv run pe pend s1.
Proof.
  destruct u as [|t|e]; cbn [run_prelude].
  - intros H; injection H as <-. auto.
  - destruct (Qle_bool t (now s)) eqn:L; [discriminate|].
    assert (Hd : 0 <= t - now s) by (apply Qle_bool_false in L; lra).
    set (EV := mkEvent (Some []) (Some (Ok VNone)) false KSentinel).
    change (@inr (state * result) state (add_callback (length (events s)) CbStop (schedule (length (events s)) URGENT (t - now s) (snd (new_event EV s)))) = inr s1 ->
            inv run pe pend s -> inv run pe pend s1).
    intros H I; injection H as <-. apply inv_add_callback; [reflexivity|].
    apply inv_schedule; [exact Hd| |].
    + exists EV. split; [apply get_event_new_self|reflexivity].
    + apply inv_new_event; [apply plain_nil; [reflexivity|discriminate]|exact I].
  - destruct (get_event e s) as [ev|]; [|discriminate].
    destruct (is_processed ev); [discriminate|]. intros H I; injection H as <-.
    apply inv_add_callback; [reflexivity|exact I].
Qed.
