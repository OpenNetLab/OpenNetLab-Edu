(* Kernel/Prims.v -- what happens below step().  Every function of Kernel/Model.v that runs between the pop of an
   agenda entry and the end of its callbacks, module-level code and the prelude of run() change the state only by a
   chain of primitive mutations ([kprim]), each with the guard the code has established when it performs it.
   A reflexive-transitive relation that contains every primitive therefore contains every such function
   ([kchain_rel]).  The frame relations of the kernel properties are proved this way, by one case analysis over [kprim]:
   ext (Inv.v), grows (Deliver.v), uinv (DeliverWf.v), vx (DeliverVal.v), mono (IntrBase.v), sfr (StopFrame.v), procs_wf
   (Cond.v).  Invariants that speak of the callbacks still to run or of the running process between two primitives (inv of
   IntrInv.v, cinv / binv of CondInv.v, winv of DeliverInv.v) follow the functions of the model themselves.
   [T] bounds the processes whose record is rewritten; [below] = true excludes the two things only the prelude of run()
   does (the until-sentinel, the stop callback), so that a chain at [true] is what happens below step() proper.
   Detaching the callbacks of the popped event (callbacks = None) is not a primitive: it alone can drop a stop callback,
   so [step_below] starts its chain in the state after it. *)
From Coq Require Import ZArith QArith List Bool Lia Lqa.
From ONL Require Export Base.QTools.
From ONL Require Import Kernel.Model.
Import ListNotations.


Lemma nth_error_upd_nth {A} (f : A -> A) l n m :
  nth_error (upd_nth n f l) m = if Nat.eqb m n then option_map f (nth_error l m) else nth_error l m.
Proof.
  revert n m. induction l as [|x t IH]; intros n m.
  - destruct n; destruct m; cbn; try reflexivity. destruct (Nat.eqb m n); reflexivity.
  - destruct n, m; cbn [upd_nth nth_error Nat.eqb option_map]; try reflexivity. apply IH.
Qed.

Lemma nth_error_last {A} (l : list A) a : nth_error (l ++ [a]) (length l) = Some a.
Proof. rewrite nth_error_app2 by lia. rewrite Nat.sub_diag. reflexivity. Qed.

Lemma nth_error_snoc_inv {A} (l : list A) a x n :
  nth_error (l ++ [a]) n = Some x -> nth_error l n = Some x \/ (n = length l /\ x = a).
Proof.
  intros H. destruct (Nat.lt_ge_cases n (length l)) as [L|L].
  - left. rewrite nth_error_app1 in H by exact L. exact H.
  - right. rewrite nth_error_app2 in H by exact L. destruct (n - length l)%nat as [|k] eqn:E; cbn in H.
    + injection H as <-. split; [lia|reflexivity].
    + destruct k; discriminate.
Qed.

Lemma nth_error_app_old {A} (l l' : list A) n a : nth_error l n = Some a -> nth_error (l ++ l') n = Some a.
Proof. intros H. rewrite nth_error_app1; [exact H|]. apply nth_error_Some. congruence. Qed.

Lemma upd_nth_length {A} (f : A -> A) l n : length (upd_nth n f l) = length l.
Proof. revert n. induction l as [|x t IH]; intros [|n]; cbn; try reflexivity. rewrite IH. reflexivity. Qed.

Lemma upd_nth_id {A} (f : A -> A) l n :
  (forall x, nth_error l n = Some x -> f x = x) -> upd_nth n f l = l.
Proof.
  revert n. induction l as [|a t IH]; intros [|n] H; cbn; try reflexivity.
  - rewrite (H a eq_refl). reflexivity.
  - rewrite IH; [reflexivity|exact H].
Qed.

Lemma nth_error_lt {A} (l : list A) n x : nth_error l n = Some x -> (n < length l)%nat.
Proof. intros H. apply nth_error_Some. congruence. Qed.

Lemma get_event_upd e f e' s :
  get_event e' (upd_event e f s) = if Nat.eqb e' e then option_map f (get_event e' s) else get_event e' s.
Proof. unfold get_event. cbn. apply nth_error_upd_nth. Qed.

Lemma get_event_upd_other e f e' s : e' <> e -> get_event e' (upd_event e f s) = get_event e' s.
Proof. intros N. rewrite get_event_upd. apply Nat.eqb_neq in N. rewrite N. reflexivity. Qed.

Lemma upd_event_length e f s : length (events (upd_event e f s)) = length (events s).
Proof. cbn. apply upd_nth_length. Qed.

Lemma get_event_lt e s ev : get_event e s = Some ev -> (e < length (events s))%nat.
Proof. apply nth_error_lt. Qed.

Lemma get_event_new_old ev s e x : get_event e s = Some x -> get_event e (snd (new_event ev s)) = Some x.
Proof. apply nth_error_app_old. Qed.

Lemma get_event_new_below ev s e : (e < length (events s))%nat -> get_event e (snd (new_event ev s)) = get_event e s.
Proof. intros H. unfold get_event. cbn. apply nth_error_app1, H. Qed.

Lemma get_event_new_self ev s : get_event (length (events s)) (snd (new_event ev s)) = Some ev.
Proof. apply nth_error_last. Qed.

Lemma get_event_new_inv ev s e x :
  get_event e (snd (new_event ev s)) = Some x -> get_event e s = Some x \/ (e = length (events s) /\ x = ev).
Proof. unfold get_event. cbn. apply nth_error_snoc_inv. Qed.

Lemma get_proc_upd p f q s :
  get_proc q (upd_proc p f s) = if Nat.eqb q p then option_map f (get_proc q s) else get_proc q s.
Proof. unfold get_proc. cbn. apply nth_error_upd_nth. Qed.

Lemma get_proc_lt p s pr : get_proc p s = Some pr -> (p < length (procs s))%nat.
Proof. apply nth_error_lt. Qed.

Lemma get_event_upd_same e f s ev : get_event e s = Some ev -> get_event e (upd_event e f s) = Some (f ev).
Proof. intros H. unfold get_event in *. cbn. rewrite nth_error_upd_nth, Nat.eqb_refl, H. reflexivity. Qed.

Lemma pending_upd e f c s :
  (forall x, out (f x) = out x) ->
  (exists ev, get_event c s = Some ev /\ out ev = None) -> exists ev, get_event c (upd_event e f s) = Some ev /\ out ev = None.
Proof.
  intros Hf (ev & H & O). unfold get_event in *. cbn. rewrite nth_error_upd_nth, H.
  destruct (Nat.eqb c e); [exists (f ev)|exists ev]; split; try reflexivity; [rewrite Hf|]; exact O.
Qed.

Lemma get_proc_upd_same p f s pr : get_proc p s = Some pr -> get_proc p (upd_proc p f s) = Some (f pr).
Proof. intros H. unfold get_proc in *. cbn. rewrite nth_error_upd_nth, Nat.eqb_refl, H. reflexivity. Qed.

Lemma neg_delay_false d : neg_delay d = false -> 0 <= d.
Proof.
  unfold neg_delay. destruct (d ?= 0) eqn:C; try discriminate; intros _.
  - apply Qeq_alt in C. lra.
  - apply Qgt_alt in C. lra.
Qed.

Lemma call_query_state q e s : fst (call_query q e s) = s.
Proof.
  unfold call_query. destruct (get_event e s) as [ev|]; [|reflexivity].
  destruct q; try reflexivity.
  - destruct (out ev) as [[?|?]|]; reflexivity.
  - destruct (raw_value ev); reflexivity.
  - destruct (kind ev); reflexivity.
Qed.

Lemma stop_cb_state e s : fst (stop_cb e s) = s.
Proof. unfold stop_cb. destruct (get_event e s) as [ev|]; [|reflexivity]. destruct (out ev) as [[?|?]|]; reflexivity. Qed.

Lemma run_prelude_inl u s s' r : run_prelude u s = inl (s', r) -> s' = s.
Proof.
  destruct u as [|t|e]; cbn [run_prelude]; [discriminate| |].
  - destruct (Qle_bool t (now s)); [intros H; injection H as <- _; reflexivity|].
    destruct (new_event _ s); discriminate.
  - destruct (get_event e s) as [ev|]; [|intros H; injection H as <- _; reflexivity].
    destruct (is_processed ev); [intros H; injection H as <- _; reflexivity|discriminate].
Qed.


(* events are born pending and unscheduled (Event, Process, Condition) or triggered and scheduled at once
   (Timeout NORMAL after its delay; Initialize and Interruption URGENT and due now); none is born with a stop callback *)
Definition pending_kind (k : ekind) : Prop :=
  match k with KPlain | KProcess _ | KCond _ _ _ => True | _ => False end.
Definition born_prio (k : ekind) : option nat :=
  match k with KTimeout => Some NORMAL | KInit _ | KInterruption _ => Some URGENT | _ => None end.
Definition no_stop (ev : event) : Prop := exists l, cbs ev = Some l /\ existsb is_stop_cb l = false.
Definition sentinel : event := mkEvent (Some []) (Some (Ok VNone)) false KSentinel.

Definition same_store (s s' : state) : Prop :=
  now s' = now s /\ agenda s' = agenda s /\ next_eid s' = next_eid s /\ events s' = events s /\ procs s' = procs s.

(* k_frame: _active_proc, closure variables, the log.  k_new, k_born: the constructors of events.py (Process.__init__ is
   k_new, k_born of its Initialize, k_spawn).  k_trig: succeed / fail, and a condition triggered by _check or born with no
   operands.  k_ptrig: the generator of p has ended (Process._resume).  k_addcb: callbacks.append.  k_rmcb:
   callbacks.remove in Condition._remove_check_callbacks and Interruption._interrupt.  k_defuse: defused = True.
   k_count: Condition._count += 1.  k_value: _build_value stores the ConditionValue.  k_proc: the generator's state and
   Process._target.  k_sentinel, k_stopcb: Environment.run(until = number | event). *)
Inductive kprim (below : bool) (T : pid -> Prop) : state -> state -> Prop :=
| k_frame s s' : same_store s s' -> kprim below T s s'
| k_new ev s : out ev = None -> no_stop ev -> pending_kind (kind ev) -> kprim below T s (snd (new_event ev s))
| k_born ev prio d s : out ev <> None -> no_stop ev -> born_prio (kind ev) = Some prio -> 0 <= d -> (prio = URGENT -> d == 0) ->
    kprim below T s (schedule (length (events s)) prio d (snd (new_event ev s)))
| k_trig e ev o s : get_event e s = Some ev -> out ev = None -> kprim below T s (trigger_event e o s)
| k_ptrig p pr o s : get_proc p s = Some pr -> kprim below T s (trigger_event (pev pr) o s)
| k_addcb e c s : is_stop_cb c = false -> kprim below T s (add_callback e c s)
| k_rmcb e ev l x s : get_event e s = Some ev -> cbs ev = Some l -> is_stop_cb x = false ->
    kprim below T s (upd_event e (ev_set_cbs (Some (remove_first x l))) s)
| k_defuse e s : kprim below T s (upd_event e ev_set_defused s)
| k_count c cev all ops n s : get_event c s = Some cev -> kind cev = KCond all ops n -> out cev = None ->
    kprim below T s (upd_event c (ev_set_kind (KCond all ops (S n))) s)
| k_value c cev v v' s : get_event c s = Some cev -> out cev = Some (Ok v) -> is_cond cev = true ->
    kprim below T s (upd_event c (ev_set_out (Some (Ok v'))) s)
| k_proc p pr f s : T p -> get_proc p s = Some pr -> pev (f pr) = pev pr -> kprim below T s (upd_proc p f s)
| k_spawn pr ev s : get_event (pev pr) s = Some ev -> kind ev = KProcess (length (procs s)) ->
    kprim below T s (set_procs (procs s ++ [pr]) s)
| k_sentinel t s : below = false -> now s < t ->
    kprim below T s (schedule (length (events s)) URGENT (t - now s) (snd (new_event sentinel s)))
| k_stopcb e s : below = false -> kprim below T s (add_callback e CbStop s).

Inductive kchain (below : bool) (T : pid -> Prop) : state -> state -> Prop :=
| kc_nil s : kchain below T s s
| kc_cons s s1 s2 : kprim below T s s1 -> kchain below T s1 s2 -> kchain below T s s2.

Definition Tnone : pid -> Prop := fun _ => False.
Definition Tone (p : pid) : pid -> Prop := fun q => q = p.
Definition Tall : pid -> Prop := fun _ => True.

Lemma kc_one b T s s' : kprim b T s s' -> kchain b T s s'.
Proof. intros H. econstructor; [exact H|constructor]. Qed.

Lemma kc_trans b T s s1 s2 : kchain b T s s1 -> kchain b T s1 s2 -> kchain b T s s2.
Proof. induction 1 as [|s s0 s1 P C IH]; intros H2; [exact H2|]. econstructor; [exact P|apply IH, H2]. Qed.

Lemma kprim_weaken b (T T' : pid -> Prop) s s' : (forall q, T q -> T' q) -> kprim b T s s' -> kprim b T' s s'.
Proof. intros HT P. destruct P; try (econstructor; eassumption). eapply k_proc; [apply HT|..]; eassumption. Qed.

Lemma kchain_weaken b (T T' : pid -> Prop) s s' : (forall q, T q -> T' q) -> kchain b T s s' -> kchain b T' s s'.
Proof. intros HT C. induction C; econstructor; [eapply kprim_weaken|]; eassumption. Qed.

Lemma kchain_rel b T (R : state -> state -> Prop) :
  (forall s, R s s) -> (forall s s1 s2, R s s1 -> R s1 s2 -> R s s2) ->
  (forall s s', kprim b T s s' -> R s s') -> forall s s', kchain b T s s' -> R s s'.
Proof. intros Hr Ht Hp s s' C. induction C as [|s s1 s2 P C IH]; [apply Hr|]. eapply Ht; [apply Hp, P|exact IH]. Qed.

Lemma kchain_proc_keep b T s s' q pr : kchain b T s s' -> ~ T q -> get_proc q s = Some pr -> get_proc q s' = Some pr.
Proof.
  intros C N. induction C as [|s s1 s2 P C IH]; intros H; [exact H|]. apply IH. unfold get_proc in *.
  destruct P as [s s1 (_ & _ & _ & _ & E)| | | | | | | | | |p pr0 f s Tp _ _|pr0 ev s _ _| |]; try exact H.
  - rewrite E. exact H.
  - cbn. rewrite nth_error_upd_nth. destruct (Nat.eqb q p) eqn:Q; [|exact H]. apply Nat.eqb_eq in Q. subst q. contradiction.
  - cbn. apply nth_error_app_old, H.
Qed.


Section Below.
  Variable b : bool.
  Variable T : pid -> Prop.
  Notation chain := (kchain b T).

  Lemma kc_frame s s' : same_store s s' -> chain s s'.
  Proof. intros H. apply kc_one, k_frame, H. Qed.

  Lemma kc_set_active a s : chain s (set_active a s). Proof. apply kc_frame. repeat split. Qed.
  Lemma kc_set_glob g s : chain s (set_glob g s). Proof. apply kc_frame. repeat split. Qed.
  Lemma kc_add_obs o s : chain s (add_obs o s). Proof. apply kc_frame. repeat split. Qed.

  Lemma kc_trig c o s : (exists ev, get_event c s = Some ev /\ out ev = None) -> chain s (trigger_event c o s).
  Proof. intros (ev & H & O). eapply kc_one, k_trig; eassumption. Qed.

  Lemma kc_cond_check c op s : chain s (cond_check c op s).
  Proof.
    unfold cond_check. destruct (get_event c s) as [cev|] eqn:Hc; [|constructor].
    destruct (get_event op s) as [oev|]; [|constructor].
    destruct (out cev) eqn:Oc; [constructor|].
    destruct (kind cev) as [| | | | |all ops count|] eqn:Kc; try constructor.
    assert (P : kprim b T s (upd_event c (ev_set_kind (KCond all ops (S count))) s)) by (eapply k_count; eassumption).
    assert (Hc1 : exists ev, get_event c (upd_event c (ev_set_kind (KCond all ops (S count))) s) = Some ev /\ out ev = None)
      by (apply pending_upd; [reflexivity|eauto]).
    assert (D : chain s (if cond_evaluate all (length ops) (S count)
                         then trigger_event c (Ok VNone) (upd_event c (ev_set_kind (KCond all ops (S count))) s)
                         else upd_event c (ev_set_kind (KCond all ops (S count))) s)).
    { destruct (cond_evaluate all (length ops) (S count)); [|apply kc_one, P]. econstructor; [exact P|apply kc_trig, Hc1]. }
    destruct (out oev) as [[v|x]|]; try exact D.
    econstructor; [exact P|]. econstructor; [apply k_defuse|]. apply kc_trig, pending_upd; [reflexivity|exact Hc1].
  Qed.

  Lemma kc_remove_check_from c o s : chain s (remove_check_from c o s).
  Proof.
    unfold remove_check_from. destruct (get_event o s) as [oev|] eqn:Ho; [|constructor].
    destruct (cbs oev) as [l|] eqn:Cb; [|constructor]. destruct (mem_cb (CbCheck c) l); [|constructor].
    eapply kc_one, k_rmcb; [exact Ho|exact Cb|reflexivity].
  Qed.

  Lemma kc_remove_ops rec c :
    (forall o s s', rec o s = Some s' -> chain s s') ->
    forall l s s', remove_ops rec c l s = Some s' -> chain s s'.
  Proof.
    intros Hrec. induction l as [|o t IH]; intros s s'; cbn [remove_ops].
    - intros H; injection H as <-. constructor.
    - destruct (get_event o s) as [oev|]; [|discriminate].
      destruct (is_cond oev).
      + destruct (rec o (remove_check_from c o s)) as [s2|] eqn:R; [|discriminate]. intros H.
        eapply kc_trans; [apply kc_remove_check_from|]. eapply kc_trans; [eapply Hrec, R|]. apply IH, H.
      + intros H. eapply kc_trans; [apply kc_remove_check_from|]. apply IH, H.
  Qed.

  Lemma kc_remove_checks fuel : forall c s s', remove_checks fuel c s = Some s' -> chain s s'.
  Proof.
    induction fuel as [|f IH]; intros c s s'; cbn [remove_checks]; [discriminate|].
    destruct (get_event c s) as [cev|]; [|discriminate].
    destruct (kind cev); try (intros H; injection H as <-; constructor).
    apply kc_remove_ops. exact IH.
  Qed.

  Lemma kc_cond_build c s : chain s (fst (cond_build c s)).
  Proof.
    unfold cond_build. destruct (remove_checks (S c) c s) as [s1|] eqn:R; [|constructor].
    pose proof (kc_remove_checks _ _ _ _ R) as E1.
    destruct (get_event c s1) as [cev|] eqn:Hc; [|exact E1].
    destruct (out cev) as [[v|x]|] eqn:Oc; try exact E1.
    destruct (kind cev) eqn:Kc; try exact E1.
    destruct (populate (S c) (events s1) ops); [|exact E1].
    cbn [fst]. eapply kc_trans; [exact E1|]. eapply kc_one, k_value; [exact Hc|exact Oc|].
    unfold is_cond. rewrite Kc. reflexivity.
  Qed.

  Lemma kc_born ev prio d s :
    out ev <> None -> no_stop ev -> born_prio (kind ev) = Some prio -> 0 <= d -> (prio = URGENT -> d == 0) ->
    chain s (schedule (length (events s)) prio d (set_events (events s ++ [ev]) s)).
  Proof. intros O C B D U. exact (kc_one _ _ _ _ (k_born b T ev prio d s O C B D U)). Qed.

  Lemma kc_new ev s : out ev = None -> no_stop ev -> pending_kind (kind ev) -> chain s (set_events (events s ++ [ev]) s).
  Proof. intros O C K. exact (kc_one _ _ _ _ (k_new b T ev s O C K)). Qed.

  Lemma no_stop_lit l o d k : existsb is_stop_cb l = false -> no_stop (mkEvent (Some l) o d k).
  Proof. intros H. exists l. split; [reflexivity|exact H]. Qed.

  Lemma kc_call_timeout d v s : chain s (fst (call_timeout d v s)).
  Proof.
    unfold call_timeout. destruct (neg_delay d) eqn:N; [constructor|]. cbn [new_event fst].
    apply kc_born; [discriminate|apply no_stop_lit; reflexivity|reflexivity|apply neg_delay_false, N|discriminate].
  Qed.

  Lemma kc_call_event s : chain s (fst (call_event s)).
  Proof. unfold call_event. cbn [new_event fst]. apply kc_new; [reflexivity|apply no_stop_lit; reflexivity|exact I]. Qed.

  Lemma kc_call_succeed e v s : chain s (fst (call_succeed e v s)).
  Proof.
    unfold call_succeed. destruct (get_event e s) as [ev|] eqn:H; [|constructor].
    unfold is_triggered. destruct (out ev) eqn:O; [constructor|]. cbn [fst]. apply kc_trig. eauto.
  Qed.

  Lemma kc_call_fail e x s : chain s (fst (call_fail e x s)).
  Proof.
    unfold call_fail. destruct (get_event e s) as [ev|] eqn:H; [|constructor].
    unfold is_triggered. destruct (out ev) eqn:O; [constructor|].
    destruct x; try constructor. cbn [fst]. apply kc_trig. eauto.
  Qed.

  Lemma kc_call_spawn codes code arg s : chain s (fst (call_spawn codes code arg s)).
  Proof.
    unfold call_spawn. destruct (nth_error codes code) as [pr|]; [|constructor]. cbn [new_event fst].
    set (p := length (procs s)). set (EV := mkEvent (Some []) None false (KProcess p)).
    eapply kc_trans; [apply (kc_new EV); [reflexivity|apply no_stop_lit; reflexivity|exact I]|].
    eapply kc_trans; [apply (kc_born (mkEvent (Some [CbResume p]) (Some (Ok VNone)) false (KInit p)) URGENT 0);
                      [discriminate|apply no_stop_lit; reflexivity|reflexivity|lra|reflexivity]|].
    cbn [events set_events length]. eapply kc_one, k_spawn with (ev := EV); [|reflexivity].
    unfold get_event. cbn. apply nth_error_app_old, nth_error_last.
  Qed.

  Lemma kc_call_interrupt e cause s : chain s (fst (call_interrupt e cause s)).
  Proof.
    unfold call_interrupt. destruct (get_event e s) as [ev|]; [|constructor].
    destruct (kind ev); try constructor.
    destruct (is_triggered ev); [constructor|].
    destruct (match active s with Some a => Nat.eqb a p | None => false end); [constructor|].
    cbn [new_event fst]. apply kc_born; [discriminate|apply no_stop_lit; reflexivity|reflexivity|lra|reflexivity].
  Qed.

  Lemma kc_cond_subscribe c ops : forall s, chain s (cond_subscribe c ops s).
  Proof.
    induction ops as [|o t IH]; intros s; cbn [cond_subscribe]; [constructor|].
    eapply kc_trans; [|apply IH].
    destruct (get_event o s) as [oev|]; [|constructor].
    destruct (is_processed oev); [apply kc_cond_check|apply kc_one, k_addcb; reflexivity].
  Qed.

  Lemma kc_call_cond all es s : chain s (fst (call_cond all es s)).
  Proof.
    unfold call_cond. destruct (negb (all_valid es s)); [constructor|]. cbn [new_event].
    set (EV := mkEvent (Some []) None false (KCond all es 0)).
    assert (N : chain s (set_events (events s ++ [EV]) s)) by (apply kc_new; [reflexivity|apply no_stop_lit; reflexivity|exact I]).
    destruct es as [|e0 es']; cbn [fst]; (eapply kc_trans; [exact N|]).
    - apply kc_trig. exists EV. split; [|reflexivity]. apply nth_error_last.
    - eapply kc_trans; [apply kc_cond_subscribe|apply kc_one, k_addcb; reflexivity].
  Qed.

  Lemma kc_call_probe e n s : chain s (fst (call_probe e n s)).
  Proof.
    unfold call_probe. destruct (get_event e s) as [ev|]; [|constructor].
    destruct (is_processed ev); [constructor|apply kc_one, k_addcb; reflexivity].
  Qed.

  Lemma kc_do_call codes c s : chain s (fst (do_call codes c s)).
  Proof.
    destruct c; cbn [do_call fst]; try constructor.
    - apply kc_call_timeout.
    - apply kc_call_event.
    - apply kc_call_succeed.
    - apply kc_call_fail.
    - apply kc_call_spawn.
    - apply kc_call_interrupt.
    - apply kc_call_cond.
    - apply kc_call_cond.
    - apply kc_call_probe.
    - rewrite call_query_state. constructor.
    - apply kc_add_obs.
    - apply kc_set_glob.
  Qed.

  Lemma kc_run_frag {A} codes (f : frag A) : forall s, chain s (fst (run_frag codes f s)).
  Proof.
    induction f as [v a|v|x|c k IH]; intros s; cbn [run_frag fst]; try constructor.
    pose proof (kc_do_call codes c s) as X. destruct (do_call codes c s) as [s1 o]. cbn [fst] in X.
    eapply kc_trans; [exact X|apply IH].
  Qed.
End Below.

(* the prelude of run(): the until-sentinel is URGENT but due later, and the stop callback is appended *)
Lemma kc_run_prelude T u s s1 : run_prelude u s = inr s1 -> kchain false T s s1.
Proof.
  destruct u as [|t|e]; cbn [run_prelude].
  - intros H; injection H as <-. constructor.
  - destruct (Qle_bool t (now s)) eqn:L; [discriminate|]. apply Qle_bool_false in L.
    cbn [new_event]. intros H; injection H as <-.
    econstructor; [exact (k_sentinel false T t s eq_refl L)|apply kc_one, k_stopcb; reflexivity].
  - destruct (get_event e s) as [ev|]; [|discriminate].
    destruct (is_processed ev); [discriminate|]. intros H; injection H as <-. apply kc_one, k_stopcb; reflexivity.
Qed.

Lemma kc_proc_finish b p pr o s : get_proc p s = Some pr -> kchain b (Tone p) s (proc_finish p pr o s).
Proof.
  intros H. unfold proc_finish. econstructor; [eapply k_ptrig, H|].
  econstructor; [apply (k_proc _ _ p pr (proc_set_target None)); [reflexivity|exact H|reflexivity]|apply kc_set_active].
Qed.

Lemma kc_proc_wait b p pr e s : get_proc p s = Some pr -> kchain b (Tone p) s (proc_wait p e s).
Proof.
  intros H. unfold proc_wait. econstructor; [apply (k_addcb _ _ e (CbResume p)); reflexivity|].
  econstructor; [apply (k_proc _ _ p pr (proc_set_target (Some e))); [reflexivity|exact H|reflexivity]|apply kc_set_active].
Qed.

Lemma kc_resume_loop b codes fuel : forall p e s, kchain b (Tone p) s (fst (resume_loop fuel codes p e s)).
Proof.
  induction fuel as [|f IH]; intros p e s; cbn [resume_loop]; [constructor|].
  destruct (get_event e s) as [ev|]; [|constructor].
  destruct (get_proc p s) as [pr|] eqn:Hp; [|constructor].
  destruct (out ev) as [o|]; [|constructor].
  set (s1 := match o with Fail _ => upd_event e ev_set_defused s | Ok _ => s end).
  (* up to the next yield nothing rewrites a process record: p still has the record read at the start *)
  assert (E1 : kchain b Tnone s s1) by (subst s1; destruct o; [constructor|apply kc_one, k_defuse]).
  pose proof (kc_run_frag b Tnone codes (resume (pcode pr) (pst pr) o) s1) as E2.
  destruct (run_frag codes (resume (pcode pr) (pst pr) o) s1) as [s2 r]. cbn [fst] in E2.
  pose proof (kc_trans _ _ _ _ _ E1 E2) as E12.
  pose proof (kchain_proc_keep _ _ _ _ _ _ E12 (fun F => F) Hp) as Hp2.
  eapply kc_trans; [eapply kchain_weaken; [|exact E12]; intros q []|].
  destruct r as [v a|v|x]; cbn [fst]; try (apply kc_proc_finish, Hp2).
  assert (E3 : kchain b (Tone p) s2 (put_proc p (proc_set_st pr a) s2))
    by (apply kc_one, (k_proc _ _ p pr (fun _ => proc_set_st pr a)); [reflexivity|exact Hp2|reflexivity]).
  destruct v; try exact E3.
  destruct (get_event e0 (put_proc p (proc_set_st pr a) s2)) as [ev'|]; [|exact E3].
  eapply kc_trans; [exact E3|]. destruct (is_processed ev'); [apply IH|].
  cbn [fst]. eapply kc_proc_wait, get_proc_upd_same, Hp2.
Qed.

Lemma kc_resume_proc b fuel codes p e s : kchain b (Tone p) s (fst (resume_proc fuel codes p e s)).
Proof. unfold resume_proc. eapply kc_trans; [apply kc_set_active|apply kc_resume_loop]. Qed.

Lemma kc_do_interruption b (T : pid -> Prop) fuel codes i s :
  (forall iev q, get_event i s = Some iev -> kind iev = KInterruption q -> T q) ->
  kchain b T s (fst (do_interruption fuel codes i s)).
Proof.
  intros HT. unfold do_interruption.
  destruct (get_event i s) as [iev|]; [|constructor].
  destruct (kind iev) eqn:K; try constructor.
  destruct (get_proc p s) as [pr|]; [|constructor].
  destruct (get_event (pev pr) s) as [pe|]; [|constructor].
  destruct (is_triggered pe); [constructor|].
  destruct (ptarget pr) as [t|]; [|constructor].
  destruct (get_event t s) as [tev|] eqn:Ht; [|constructor].
  destruct (cbs tev) as [l|] eqn:Cb; [|constructor].
  destruct (mem_cb (CbResume p) l); [|constructor].
  econstructor; [apply (k_rmcb _ _ t tev l (CbResume p)); [exact Ht|exact Cb|reflexivity]|].
  eapply kchain_weaken; [|apply kc_resume_proc]. intros q ->. exact (HT _ _ eq_refl K).
Qed.

Lemma kc_run_cb b fuel codes e c s : kchain b Tall s (fst (run_cb fuel codes e c s)).
Proof.
  destruct c; cbn [run_cb fst].
  - eapply kchain_weaken; [|apply kc_resume_proc]. intros q _. exact I.
  - apply kc_cond_check.
  - apply kc_cond_build.
  - apply kc_do_interruption. intros _ q _ _. exact I.
  - rewrite stop_cb_state. constructor.
  - apply kc_add_obs.
Qed.

Lemma kc_run_callbacks b fuel codes e l : forall s, kchain b Tall s (fst (run_callbacks fuel codes e l s)).
Proof.
  induction l as [|c t IH]; intros s; cbn [run_callbacks fst]; [constructor|].
  pose proof (kc_run_cb b fuel codes e c s) as X. destruct (run_cb fuel codes e c s) as [s1 r]. cbn [fst] in X.
  assert (D : kchain b Tall s (fst (let '(s2, r2) := run_callbacks fuel codes e t s1 in
                                  match r2 with ROk => (s2, r) | _ => (s2, r2) end))).
  { pose proof (IH s1) as Y. destruct (run_callbacks fuel codes e t s1) as [s2 r2]. cbn [fst] in Y.
    destruct r2; cbn [fst]; eapply kc_trans; eassumption. }
  destruct r; try (destruct (is_stop_cb c && is_exit _); [exact D|exact X]).
  eapply kc_trans; [exact X|apply IH].
Qed.

(* A popped event that is missing or already processed ends the step at the pop. *)
Lemma step_below b fuel codes s s' r :
  step fuel codes s = (s', r) ->
  (pop_min (agenda s) = None /\ s' = s /\ r = REmpty) \/
  (exists m rest, pop_min (agenda s) = Some (m, rest) /\
     ((exists ev l, get_event (e_ev m) s = Some ev /\ cbs ev = Some l /\
                    kchain b Tall (upd_event (e_ev m) (ev_set_cbs None) (pop_state m rest s)) s') \/
      ((forall ev, get_event (e_ev m) s = Some ev -> cbs ev = None) /\ s' = pop_state m rest s))).
Proof.
  unfold step. destruct (pop_min (agenda s)) as [[m rest]|].
  - intros H. right. exists m, rest. split; [reflexivity|].
    change (get_event (e_ev m) (pop_state m rest s)) with (get_event (e_ev m) s) in H.
    destruct (get_event (e_ev m) s) as [ev|]; [|right; injection H as <- _; split; [discriminate|reflexivity]].
    destruct (cbs ev) as [l|] eqn:Cb; [|right; injection H as <- _; split; [intros ev0 [= <-]; exact Cb|reflexivity]].
    left. exists ev, l. split; [reflexivity|]. split; [exact Cb|].
    pose proof (kc_run_callbacks b fuel codes (e_ev m) l (upd_event (e_ev m) (ev_set_cbs None) (pop_state m rest s))) as X.
    destruct (run_callbacks fuel codes (e_ev m) l (upd_event (e_ev m) (ev_set_cbs None) (pop_state m rest s))) as [s2 r2].
    cbn [fst] in X. destruct r2; injection H as <- _; exact X.
  - intros H; injection H as <- <-. left. auto.
Qed.
