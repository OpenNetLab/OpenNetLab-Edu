(* Kernel/DeliverMore.v -- C02, part 6: consequences that combine the invariants.

     creach_later                      clean executions are executions
     delivered_is_triggered_outcome    what a waiter is fed is the outcome the event got WHEN IT WAS TRIGGERED (timeouts, plain
                                       events, ...: stable kinds)
     timeout_carries_value             env.timeout(d, v) creates an event with outcome Ok v
     not_resumed_by_other_events       the processing of an event that is not p's target (and not an interrupt) leaves p's
                                       automaton state and target untouched
     cond_check_defuses, feed_defuses, undefused_without_handler    the only two places that set `defused`; a failed event
                                       whose callbacks are only probes / stop / build callbacks is still undefused after the loop *)
From Coq Require Import ZArith QArith List Bool Lia.
From ONL Require Import Kernel.Model Kernel.Keys Kernel.Prims Kernel.Deliver Kernel.DeliverInv Kernel.DeliverWf Kernel.DeliverThm Kernel.DeliverVal.
Import ListNotations.
Local Open Scope nat_scope.

Lemma creach_later codes s : creach codes s -> exists t0, later codes (init_state t0) s.
Proof.
  induction 1 as [t0|s A f _ (t0 & L)|s u s1 _ (t0 & L) P|s fuel _ (t0 & L) _].
  - exists t0. constructor.
  - exists t0. apply later_top, L.
  - exists t0. eapply later_prelude; eauto.
  - exists t0. apply later_step, L.
Qed.

(* ------------------------------------------------------------------------------------------------ *)
(* the value that is delivered is the value that was triggered *)

Theorem delivered_is_triggered_outcome fuel codes s m rest ev pre p post smid o :
  creach codes s -> pop_min (agenda s) = Some (m, rest) -> get_event (e_ev m) s = Some ev ->
  cbs ev = Some (pre ++ CbResume p :: post) ->
  cb_chain (S fuel) codes (e_ev m) pre (loop_start m rest s) smid ->
  stable_kind (kind ev) = true -> out ev = Some o ->
  exists pr, get_proc p smid = Some pr /\ ptarget pr = Some (e_ev m) /\ now smid = e_time m /\
    run_cb (S fuel) codes (e_ev m) (CbResume p) smid =
      after_frag fuel codes p pr
        (run_frag codes (resume (pcode pr) (pst pr) o) (feed_state (e_ev m) o (set_active (Some p) smid))).
Proof.
  intros R P G C Ch K O.
  destruct (resume_gets_outcome _ _ _ _ _ _ _ _ _ _ R P G C Ch) as (ev' & o' & pr & G' & O' & Pp & T & Eq & _).
  destruct (creach_later _ _ R) as (t0 & L).
  destruct (value_stable_in_loop _ _ _ _ _ _ _ _ L P Ch) as (N & St).
  destruct (St _ _ _ G K O) as (ev2 & G2 & O2). rewrite G' in G2. injection G2 as <-. rewrite O' in O2. injection O2 as ->.
  exists pr. auto.
Qed.

Theorem timeout_carries_value d v s :
  neg_delay d = false ->
  let e := length (events s) in
  exists s', call_timeout d v s = (s', Ok (VEv e)) /\
    get_event e s' = Some (mkEvent (Some []) (Some (Ok v)) false KTimeout) /\
    agenda s' = agenda s ++ [mkEntry (Qred (now s + d)%Q) NORMAL (next_eid s) e].
Proof.
  intros N e. unfold call_timeout, new_event. rewrite N. eexists. split; [reflexivity|]. split; [|reflexivity].
  apply (get_event_new_self (mkEvent (Some []) (Some (Ok v)) false KTimeout) s).
Qed.

Theorem negative_timeout_refused d v s :
  neg_delay d = true -> call_timeout d v s = (s, Fail (kexn EValue M_negative_delay)).
Proof. intros N. unfold call_timeout. now rewrite N. Qed.

(* ------------------------------------------------------------------------------------------------ *)
(* processes that are not invoked are not touched *)

Lemma get_proc_resume_loop_other codes fuel q prq p e s :
  q <> p -> get_proc q s = Some prq -> get_proc q (fst (resume_loop fuel codes p e s)) = Some prq.
Proof. exact (kchain_proc_keep _ _ _ _ q prq (kc_resume_loop true codes fuel p e s)). Qed.

Definition is_interrupt_cb (c : cb) : bool := match c with CbInterrupt _ => true | _ => false end.

Lemma get_proc_run_cb_other fuel codes e c s q prq :
  c <> CbResume q -> is_interrupt_cb c = false -> get_proc q s = Some prq ->
  get_proc q (fst (run_cb fuel codes e c s)) = Some prq.
Proof.
  intros N I H. destruct c; cbn [run_cb fst]; try discriminate.
  - unfold resume_proc. apply get_proc_resume_loop_other; [congruence|exact H].
  - exact (kchain_proc_keep _ _ _ _ q prq (kc_cond_check true Tnone c e s) (fun F => F) H).
  - exact (kchain_proc_keep _ _ _ _ q prq (kc_cond_build true Tnone c s) (fun F => F) H).
  - rewrite stop_cb_state. exact H.
  - exact H.
Qed.

Lemma get_proc_run_callbacks_other fuel codes e q prq : forall l s,
  cnt q l = 0 -> (forall c, In c l -> is_interrupt_cb c = false) ->
  get_proc q s = Some prq -> get_proc q (fst (run_callbacks fuel codes e l s)) = Some prq.
Proof.
  induction l as [|c t IH]; intros s C NI H; [exact H|].
  assert (Nc : c <> CbResume q).
  { intros ->. cbn in C. rewrite Nat.eqb_refl in C. lia. }
  assert (Ct : cnt q t = 0) by (destruct c; cbn in C; try exact C; lia).
  pose proof (get_proc_run_cb_other fuel codes e c s q prq Nc (NI c (or_introl eq_refl)) H) as X.
  destruct (run_callbacks_fst_cases fuel codes e c t s) as [E|E]; rewrite E; [exact X|].
  apply IH; auto. intros c' Hc'. apply NI. right. exact Hc'.
Qed.

(* a suspended process is not resumed -- its automaton state, its target, its record are what they were -- by a step
   that processes another event than its target, whatever that step does and returns (interrupts are C04's subject) *)
Theorem not_resumed_by_other_events fuel codes s q prq t m rest ev l :
  creach codes s -> get_proc q s = Some prq -> ptarget prq = Some t ->
  pop_min (agenda s) = Some (m, rest) -> get_event (e_ev m) s = Some ev -> cbs ev = Some l ->
  e_ev m <> t -> (forall c, In c l -> is_interrupt_cb c = false) ->
  get_proc q (fst (step fuel codes s)) = Some prq.
Proof.
  intros R H T P G C N NI.
  pose proof (resumed_exactly_once _ _ _ _ _ _ _ _ _ R H T P G C) as Cq.
  apply Nat.eqb_neq in N. rewrite N in Cq.
  rewrite (step_loop_fst _ _ _ _ _ _ _ P G C).
  apply get_proc_run_callbacks_other; auto.
Qed.

(* ------------------------------------------------------------------------------------------------ *)
(* who sets `defused` *)

Definition defused_at (s : state) (x : evid) : option bool := option_map defused (get_event x s).

(* 1. Process._resume, for the failed event it throws into the generator -- and for nothing else *)
Theorem feed_defuses e o s x :
  defused_at (feed_state e o s) x =
  match o with Fail _ => if Nat.eqb x e then option_map (fun _ => true) (get_event x s) else defused_at s x | Ok _ => defused_at s x end.
Proof.
  unfold defused_at. destruct o as [v|fx]; cbn [feed_state]; [reflexivity|].
  rewrite get_event_upd. destruct (Nat.eqb x e); [|reflexivity]. destruct (get_event x s); reflexivity.
Qed.

(* 2. Condition._check, for a failed operand whose exception the (still pending) condition takes over *)
Theorem cond_check_defuses c op s x :
  defused_at (cond_check c op s) x <> defused_at s x ->
  x = op /\ exists cev oev fx cev',
    get_event c s = Some cev /\ out cev = None /\ get_event op s = Some oev /\ out oev = Some (Fail fx) /\
    get_event c (cond_check c op s) = Some cev' /\ out cev' = Some (Fail fx).
Proof.
  unfold cond_check.
  destruct (get_event c s) as [cev|] eqn:Hc; [|intros N; now contradiction N].
  destruct (get_event op s) as [oev|] eqn:Ho; [|intros N; now contradiction N].
  destruct (out cev) eqn:Oc; [intros N; now contradiction N|].
  destruct (kind cev) as [| | | | |all ops count|] eqn:Kc; try (intros N; now contradiction N).
  set (s1 := upd_event c (ev_set_kind (KCond all ops (S count))) s).
  assert (D1 : forall y, defused_at s1 y = defused_at s y).
  { intros y. unfold defused_at, s1. rewrite get_event_upd. destruct (Nat.eqb y c) eqn:E; [|reflexivity].
    apply Nat.eqb_eq in E. subst y. rewrite Hc. reflexivity. }
  assert (DT : forall o0 s0 y, defused_at (trigger_event c o0 s0) y = defused_at s0 y).
  { intros o0 s0 y. unfold defused_at, trigger_event, schedule. cbn.
    change (option_map defused (get_event y (upd_event c (ev_set_out (Some o0)) s0)) = option_map defused (get_event y s0)).
    rewrite get_event_upd. destruct (Nat.eqb y c); [|reflexivity]. destruct (get_event y s0); reflexivity. }
  destruct (out oev) as [[v|fx]|] eqn:Oo.
  - intros N. exfalso. apply N. destruct (cond_evaluate all (length ops) (S count)); [rewrite DT|]; apply D1.
  - intros N. rewrite DT in N.
    assert (X : x = op).
    { destruct (Nat.eq_dec x op) as [E|E]; [exact E|]. exfalso. apply N. unfold defused_at.
      rewrite get_event_upd_other by exact E. apply D1. }
    split; [exact X|]. exists cev, oev, fx.
    destruct (trigger_event_spec c (Fail fx) (upd_event op ev_set_defused s1)) with (ev := match Nat.eqb c op with true => ev_set_defused (ev_set_kind (KCond all ops (S count)) cev) | false => ev_set_kind (KCond all ops (S count)) cev end) as (A & _).
    { rewrite get_event_upd. unfold s1. rewrite get_event_upd, Nat.eqb_refl, Hc. cbn. destruct (Nat.eqb c op); reflexivity. }
    eexists. repeat (split; [first [reflexivity|assumption]|]).
    split; [exact A|]. destruct (Nat.eqb c op); reflexivity.
  - intros N. exfalso. apply N. destruct (cond_evaluate all (length ops) (S count)); [rewrite DT|]; apply D1.
Qed.

(* 3. nothing else: callbacks that are neither a process resumption, an interruption nor a condition check leave every
   `defused` mark as it is *)
Definition dsame (s s' : state) : Prop := forall x, defused_at s' x = defused_at s x.

Lemma dsame_refl s : dsame s s. Proof. intros x. reflexivity. Qed.
Lemma dsame_trans a b c : dsame a b -> dsame b c -> dsame a c.
Proof. intros H1 H2 x. now rewrite H2, H1. Qed.

Lemma dsame_upd_event e f s : (forall ev, defused (f ev) = defused ev) -> dsame s (upd_event e f s).
Proof.
  intros Hf x. unfold defused_at. rewrite get_event_upd. destruct (Nat.eqb x e); [|reflexivity].
  destruct (get_event x s); cbn; [now rewrite Hf|reflexivity].
Qed.

Lemma dsame_cond_build c s : dsame s (fst (cond_build c s)).
Proof. apply (rel_cond_build dsame dsame_refl dsame_trans); intros; apply dsame_upd_event; reflexivity. Qed.

Definition is_handler (c : cb) : bool :=
  match c with CbResume _ | CbInterrupt _ | CbCheck _ => true | _ => false end.

Theorem only_handlers_defuse fuel codes e c s :
  is_handler c = false -> dsame s (fst (run_cb fuel codes e c s)).
Proof.
  destruct c; cbn [is_handler run_cb fst]; try discriminate; intros _.
  - apply dsame_cond_build.
  - rewrite stop_cb_state. apply dsame_refl.
  - intros x. reflexivity.
Qed.

Lemma dsame_chain fuel codes e l : forall s s',
  (forall c, In c l -> is_handler c = false) -> cb_chain fuel codes e l s s' -> dsame s s'.
Proof.
  induction l as [|c t IH]; intros s s' NH Ch; inversion Ch; subst; [apply dsame_refl|].
  eapply dsame_trans; [|eapply IH; [intros c' Hc'; apply NH; right; exact Hc'|eassumption]].
  pose proof (only_handlers_defuse fuel codes e c s (NH c (or_introl eq_refl))) as X.
  match goal with A : run_cb _ _ _ _ _ = _ |- _ => rewrite A in X end. exact X.
Qed.

(* hence: a failed event that nobody handles -- no waiting process, no interrupt, no condition among its callbacks -- is
   still undefused when the loop is over, and the step raises its exception (also when it is the until-event of run()) *)
Theorem undefused_without_handler fuel codes t0 s s' r m rest ev l x :
  later codes (init_state t0) s ->
  step fuel codes s = (s', r) -> pop_min (agenda s) = Some (m, rest) ->
  get_event (e_ev m) s = Some ev -> cbs ev = Some l -> out ev = Some (Fail x) -> defused ev = false ->
  stable_kind (kind ev) = true ->
  (forall c, In c l -> is_handler c = false) ->
  cb_chain fuel codes (e_ev m) l (loop_start m rest s) s' ->
  r = RRaise x /\ now s' = e_time m.
Proof.
  intros L St P G C O D K NH Ch.
  destruct (value_stable_in_loop _ _ _ _ _ _ _ _ L P Ch) as (N & Stb).
  split; [|exact N].
  destruct (step_of_chain _ _ _ _ _ _ _ _ P G C Ch) as (r0 & W & St'). rewrite St' in St.
  destruct (not_ok_cases r0) as [->|N0].
  - injection St as <-. destruct (Stb _ _ _ G K O) as (ev2 & G2 & O2).
    pose proof (dsame_chain _ _ _ _ _ _ NH Ch (e_ev m)) as Ds. unfold defused_at in Ds.
    rewrite G2, (loop_start_processed m rest s ev G) in Ds. cbn in Ds. injection Ds as Ds.
    unfold check_failure. rewrite G2, O2, Ds, D. reflexivity.
  - rewrite (match_not_ok r0 _ _ N0) in St. injection St as <-.
    destruct W as [->|(pre & post & smid & E & Chp & Sc)]; [contradiction|].
    destruct (value_stable_in_loop _ _ _ _ _ _ _ _ L P Chp) as (_ & Stb2).
    destruct (Stb2 _ _ _ G K O) as (ev2 & G2 & O2). unfold stop_cb in Sc. rewrite G2, O2 in Sc. congruence.
Qed.

(* ------------------------------------------------------------------------------------------------ *)
(* restatements used by Props/C02.v *)

Lemma waiter_invariant_inside_loop codes fuel s m rest ev pre post smid :
  creach codes s -> get_event (e_ev m) s = Some ev -> cbs ev = Some (pre ++ post) ->
  cb_chain fuel codes (e_ev m) pre (loop_start m rest s) smid ->
  winv (Some (e_ev m, post)) None smid.
Proof.
  intros R G C Ch.
  exact (winv_chain codes fuel (e_ev m) pre post _ _ (winv_loop_start m rest s ev _ (proj1 (creach_inv _ _ R)) G C) Ch).
Qed.

Lemma wellformed_always codes t0 s : later codes (init_state t0) s -> uinv s.
Proof. intros L. exact (uinv_later codes _ _ L (uinv_init t0)). Qed.

Lemma wellformed_inside_step fuel codes s m rest pre smid p :
  uinv s -> pop_min (agenda s) = Some (m, rest) -> cb_chain fuel codes (e_ev m) pre (loop_start m rest s) smid ->
  uinv (set_active (Some p) smid).
Proof.
  intros U P Ch. exact (uinv_set_active _ _ (uinv_cb_chain _ _ _ _ _ _ Ch (uinv_loop_start m rest s P U))).
Qed.

Lemma clean_states_wellformed codes s : creach codes s -> winv None None s /\ uinv s.
Proof. exact (creach_inv codes s). Qed.
