(* Kernel/DeliverInv.v -- C02, part 2: the waiter invariant.

     cnt p l                 number of occurrences of CbResume p in the callback list l
     tgt s p                 Process._target of p (None: no such process; Some None: running or dead)
     winv ov run s           waiter_unique, generalised to the middle of a step: [ov = Some (e, t)] says that the step is
                             processing e and t is the part of e's callback list not yet invoked (the event itself already
                             has cbs = None); [run = Some p] says that p's generator is executing.
                               w_in: CbResume p occurs in a (remaining) callback list of x  ->  p is suspended, its target is
                                     x, and it occurs there exactly once
                               w_tg: p is suspended with target t  ->  t still has a (remaining) callback list, containing
                                     CbResume p
     sim s s'                the callback lists changed only in entries that are not CbResume, targets are the same
     sim_<function>, winv_<function>   one lemma per function of the model *)
From Coq Require Import ZArith QArith List Bool Lia.
From ONL Require Import Kernel.Model Kernel.Prims Kernel.Deliver.
Import ListNotations.
Local Open Scope nat_scope.

(* ------------------------------------------------------------------------------------------------ *)
(* counting CbResume p *)

Fixpoint cnt (p : pid) (l : list cb) : nat :=
  match l with
  | [] => 0
  | CbResume q :: t => (if Nat.eqb q p then 1 else 0) + cnt p t
  | _ :: t => cnt p t
  end.

Definition is_resume (c : cb) : bool := match c with CbResume _ => true | _ => false end.

Lemma cnt_app p l1 l2 : cnt p (l1 ++ l2) = cnt p l1 + cnt p l2.
Proof. induction l1 as [|c t IH]; cbn; [reflexivity|]. destruct c; rewrite IH; lia. Qed.

Lemma cnt_In p l : cnt p l <> 0 <-> In (CbResume p) l.
Proof.
  induction l as [|c t IH]; cbn; [tauto|].
  destruct c as [q| | | | |]; try (rewrite IH; split; [tauto|intros [H|H]; [discriminate|exact H]]).
  destruct (Nat.eqb q p) eqn:E.
  - apply Nat.eqb_eq in E. subst q. split; [auto|lia].
  - apply Nat.eqb_neq in E. cbn. rewrite IH. split; [tauto|]. intros [H|H]; [congruence|exact H].
Qed.

Lemma cnt_single p c : is_resume c = false -> cnt p [c] = 0.
Proof. destruct c; cbn; congruence. Qed.

Lemma cb_eqb_eq a b : cb_eqb a b = true <-> a = b.
Proof.
  destruct a, b; cbn; try (split; [discriminate|congruence]); try tauto;
    rewrite Nat.eqb_eq; split; congruence.
Qed.

Lemma cb_eqb_refl a : cb_eqb a a = true.
Proof. apply cb_eqb_eq. reflexivity. Qed.

Lemma cnt_remove_first_other p c l : is_resume c = false -> cnt p (remove_first c l) = cnt p l.
Proof.
  intros N. induction l as [|x t IH]; cbn [remove_first]; [reflexivity|].
  destruct (cb_eqb x c) eqn:E.
  - apply cb_eqb_eq in E. subst x. destruct c; cbn in *; congruence.
  - destruct x; cbn; rewrite IH; reflexivity.
Qed.

Lemma cnt_remove_first_resume p q l :
  cnt q (remove_first (CbResume p) l) = if Nat.eqb q p then pred (cnt p l) else cnt q l.
Proof.
  induction l as [|x t IH]; cbn [remove_first].
  - cbn. destruct (Nat.eqb q p); reflexivity.
  - destruct (cb_eqb x (CbResume p)) eqn:E.
    + apply cb_eqb_eq in E. subst x. cbn. rewrite Nat.eqb_refl. destruct (Nat.eqb q p) eqn:Q.
      * apply Nat.eqb_eq in Q. subst q. reflexivity.
      * rewrite Nat.eqb_sym, Q. reflexivity.
    + destruct x as [r| | | | |]; cbn; try exact IH.
      assert (R : Nat.eqb r p = false).
      { destruct (Nat.eqb r p) eqn:R; [|reflexivity]. apply Nat.eqb_eq in R. subst r. cbn in E. now rewrite Nat.eqb_refl in E. }
      rewrite IH. destruct (Nat.eqb q p) eqn:Q.
      * apply Nat.eqb_eq in Q. subst q. rewrite R. reflexivity.
      * reflexivity.
Qed.

Lemma mem_cb_cnt p l : mem_cb (CbResume p) l = true -> cnt p l <> 0.
Proof.
  intros H. apply cnt_In. unfold mem_cb in H. apply existsb_exists in H. destruct H as (x & Hx & E).
  apply cb_eqb_eq in E. now subst x.
Qed.

(* ------------------------------------------------------------------------------------------------ *)
(* projections of the state the invariant talks about *)

Definition cbs_of (s : state) (x : evid) : option (list cb) :=
  match get_event x s with Some ev => cbs ev | None => None end.

Definition tgt (s : state) (p : pid) : option (option evid) := option_map ptarget (get_proc p s).

Definition ovl := option (evid * list cb).

Definition ocbs (ov : ovl) (s : state) (x : evid) : option (list cb) :=
  match ov with
  | Some (e, t) => if Nat.eqb x e then Some t else cbs_of s x
  | None => cbs_of s x
  end.

Record winv (ov : ovl) (run : option pid) (s : state) : Prop := mkW {
  w_in : forall x l p, ocbs ov s x = Some l -> cnt p l <> 0 ->
                       Some p <> run /\ cnt p l = 1 /\ tgt s p = Some (Some x);
  w_tg : forall p t, tgt s p = Some (Some t) -> Some p <> run -> exists l, ocbs ov s t = Some l /\ cnt p l <> 0;
  w_ov : forall e t, ov = Some (e, t) -> exists ev, get_event e s = Some ev /\ cbs ev = None;
  w_run : forall q, run = Some q -> tgt s q <> None }.

(* ------------------------------------------------------------------------------------------------ *)
(* sim *)

Definition lsim (a b : option (list cb)) : Prop :=
  match a, b with
  | Some l, Some l' => forall p, cnt p l' = cnt p l
  | None, None => True
  | _, _ => False
  end.

Definition esim (a b : option event) : Prop :=
  match a, b with
  | Some ev, Some ev' => lsim (cbs ev) (cbs ev')
  | None, None => True
  | _, _ => False
  end.

Definition sim (s s' : state) : Prop :=
  (forall p, tgt s' p = tgt s p) /\ (forall x, esim (get_event x s) (get_event x s')).

Lemma lsim_refl a : lsim a a.
Proof. destruct a; cbn; auto. Qed.
Lemma lsim_trans a b c : lsim a b -> lsim b c -> lsim a c.
Proof. destruct a, b, c; cbn; try tauto. intros H1 H2 p. now rewrite H2, H1. Qed.
Lemma esim_refl a : esim a a.
Proof. destruct a; cbn; auto. apply lsim_refl. Qed.
Lemma esim_trans a b c : esim a b -> esim b c -> esim a c.
Proof. destruct a, b, c; cbn; try tauto. apply lsim_trans. Qed.

Lemma sim_refl s : sim s s.
Proof. split; [reflexivity|intros x; apply esim_refl]. Qed.
Lemma sim_trans s1 s2 s3 : sim s1 s2 -> sim s2 s3 -> sim s1 s3.
Proof. intros [A1 B1] [A2 B2]. split; [intros p; now rewrite A2, A1|intros x; eapply esim_trans; eauto]. Qed.

Lemma sim_same s s' : events s' = events s -> procs s' = procs s -> sim s s'.
Proof. intros E P. split; [intros p; unfold tgt, get_proc; now rewrite P|intros x; unfold get_event; rewrite E; apply esim_refl]. Qed.

Lemma sim_upd_event e f s :
  (forall ev, get_event e s = Some ev -> lsim (cbs ev) (cbs (f ev))) -> sim s (upd_event e f s).
Proof.
  intros Hf. split; [reflexivity|]. intros x. rewrite get_event_upd. destruct (Nat.eqb x e) eqn:E.
  - apply Nat.eqb_eq in E. subst x. destruct (get_event e s) as [ev|] eqn:H; cbn; [apply Hf; reflexivity|exact I].
  - apply esim_refl.
Qed.

Lemma cbs_of_sim s s' x : sim s s' -> lsim (cbs_of s x) (cbs_of s' x).
Proof.
  intros [_ B]. specialize (B x). unfold cbs_of. destruct (get_event x s), (get_event x s'); cbn in *; tauto.
Qed.

Lemma ocbs_sim ov s s' x : sim s s' -> lsim (ocbs ov s x) (ocbs ov s' x).
Proof.
  intros S. unfold ocbs. destruct ov as [[e t]|]; [|apply cbs_of_sim, S].
  destruct (Nat.eqb x e); [apply lsim_refl|apply cbs_of_sim, S].
Qed.

Lemma winv_sim ov run s s' : sim s s' -> winv ov run s -> winv ov run s'.
Proof.
  intros S [I T O RR]. pose proof S as [St Se]. constructor; [| | |intros q E; rewrite St; exact (RR q E)].
  - intros x l' p H C. pose proof (ocbs_sim ov s s' x S) as L. rewrite H in L.
    destruct (ocbs ov s x) as [l|] eqn:H0; [|contradiction]. cbn in L.
    destruct (I x l p H0 ltac:(rewrite <- L; exact C)) as (A & B & D).
    split; [exact A|]. split; [now rewrite L|]. now rewrite St.
  - intros p t H R. rewrite St in H. destruct (T p t H R) as (l & H0 & C).
    pose proof (ocbs_sim ov s s' t S) as L. rewrite H0 in L.
    destruct (ocbs ov s' t) as [l'|]; [|contradiction]. cbn in L. exists l'. split; [reflexivity|now rewrite L].
  - intros e t E. destruct (O e t E) as (ev & H & C). specialize (Se e). rewrite H in Se.
    destruct (get_event e s') as [ev'|]; [|contradiction]. cbn in Se. rewrite C in Se.
    exists ev'. split; [reflexivity|]. destruct (cbs ev'); [contradiction|reflexivity].
Qed.

(* ---- sim: one lemma per function that never touches a CbResume entry or a target ---- *)

Lemma sim_schedule e p d s : sim s (schedule e p d s).
Proof. apply sim_same; reflexivity. Qed.
Lemma sim_set_out e o s : sim s (upd_event e (ev_set_out o) s).
Proof. apply sim_upd_event. intros ev _. apply lsim_refl. Qed.
Lemma sim_set_defused e s : sim s (upd_event e ev_set_defused s).
Proof. apply sim_upd_event. intros ev _. apply lsim_refl. Qed.
Lemma sim_set_kind e k s : sim s (upd_event e (ev_set_kind k) s).
Proof. apply sim_upd_event. intros ev _. apply lsim_refl. Qed.

Lemma sim_add_callback e c s : is_resume c = false -> sim s (add_callback e c s).
Proof.
  intros N. apply sim_upd_event. intros ev _. unfold ev_add_cb. destruct (cbs ev) as [l|] eqn:C; cbn; [|now rewrite C].
  intros p. rewrite cnt_app, (cnt_single _ _ N). lia.
Qed.

Lemma sim_trigger e o s : sim s (trigger_event e o s).
Proof. unfold trigger_event. eapply sim_trans; [apply sim_set_out|apply sim_schedule]. Qed.

Lemma sim_feed_state e o s : sim s (feed_state e o s).
Proof. destruct o; cbn; [apply sim_refl|apply sim_set_defused]. Qed.

Lemma sim_cond_check c op s : sim s (cond_check c op s).
Proof.
  unfold cond_check.
  destruct (get_event c s) as [cev|]; [|apply sim_refl].
  destruct (get_event op s) as [oev|]; [|apply sim_refl].
  destruct (out cev); [apply sim_refl|].
  destruct (kind cev) as [| | | | |all ops count|]; try apply sim_refl.
  pose proof (sim_set_kind c (KCond all ops (S count)) s) as E1.
  destruct (out oev) as [[v|x]|].
  - destruct (cond_evaluate all (length ops) (S count)); [|exact E1].
    eapply sim_trans; [exact E1|apply sim_trigger].
  - eapply sim_trans; [exact E1|]. eapply sim_trans; [apply sim_set_defused|apply sim_trigger].
  - destruct (cond_evaluate all (length ops) (S count)); [|exact E1].
    eapply sim_trans; [exact E1|apply sim_trigger].
Qed.

(* Condition._build_value only takes _check callbacks out of callback lists and stores the ConditionValue: a preorder
   kept by these two kinds of update is kept by cond_build *)
Section CondBuild.
  Variable R : state -> state -> Prop.
  Hypothesis R_refl : forall s, R s s.
  Hypothesis R_trans : forall a b c, R a b -> R b c -> R a c.
  Hypothesis R_remove : forall c o oev l s, get_event o s = Some oev -> cbs oev = Some l ->
    R s (upd_event o (ev_set_cbs (Some (remove_first (CbCheck c) l))) s).
  Hypothesis R_set_out : forall e o s, R s (upd_event e (ev_set_out o) s).

  Lemma rel_remove_check_from c o s : R s (remove_check_from c o s).
  Proof.
    unfold remove_check_from. destruct (get_event o s) as [oev|] eqn:H; [|apply R_refl].
    destruct (cbs oev) as [l|] eqn:C; [|apply R_refl]. destruct (mem_cb (CbCheck c) l); [|apply R_refl].
    exact (R_remove c o oev l s H C).
  Qed.

  Lemma rel_remove_ops rec c :
    (forall o s s', rec o s = Some s' -> R s s') ->
    forall l s s', remove_ops rec c l s = Some s' -> R s s'.
  Proof.
    intros Hrec. induction l as [|o t IH]; intros s s'; cbn [remove_ops].
    - intros H; injection H as <-. apply R_refl.
    - destruct (get_event o s) as [oev|]; [|discriminate].
      destruct (is_cond oev).
      + destruct (rec o (remove_check_from c o s)) as [s2|] eqn:E; [|discriminate]. intros H.
        eapply R_trans; [apply rel_remove_check_from|]. eapply R_trans; [eapply Hrec, E|]. apply IH, H.
      + intros H. eapply R_trans; [apply rel_remove_check_from|]. apply IH, H.
  Qed.

  Lemma rel_remove_checks fuel : forall c s s', remove_checks fuel c s = Some s' -> R s s'.
  Proof.
    induction fuel as [|f IH]; intros c s s'; cbn [remove_checks]; [discriminate|].
    destruct (get_event c s) as [cev|]; [|discriminate].
    destruct (kind cev); try (intros H; injection H as <-; apply R_refl).
    apply rel_remove_ops. exact IH.
  Qed.

  Lemma rel_cond_build c s : R s (fst (cond_build c s)).
  Proof.
    unfold cond_build. destruct (remove_checks (S c) c s) as [s1|] eqn:E; [|apply R_refl].
    pose proof (rel_remove_checks _ _ _ _ E) as E1.
    destruct (get_event c s1) as [cev|]; [|exact E1].
    destruct (out cev) as [[v|x]|]; try exact E1.
    destruct (kind cev); try exact E1.
    destruct (populate (S c) (events s1) ops); [|exact E1].
    cbn [fst]. eapply R_trans; [exact E1|apply R_set_out].
  Qed.
End CondBuild.

Lemma sim_cond_build c s : sim s (fst (cond_build c s)).
Proof.
  apply (rel_cond_build sim sim_refl sim_trans); [|intros; apply sim_set_out].
  intros c0 o oev l s0 H C. apply sim_upd_event. intros ev Hev. rewrite H in Hev. injection Hev as <-. rewrite C. cbn.
  intros p. apply cnt_remove_first_other. reflexivity.
Qed.

Lemma sim_cond_subscribe c ops : forall s, sim s (cond_subscribe c ops s).
Proof.
  induction ops as [|o t IH]; intros s; cbn [cond_subscribe]; [apply sim_refl|].
  eapply sim_trans; [|apply IH].
  destruct (get_event o s) as [oev|]; [|apply sim_refl].
  destruct (is_processed oev); [apply sim_cond_check|apply sim_add_callback; reflexivity].
Qed.

(* ------------------------------------------------------------------------------------------------ *)
(* winv: creation of events and processes *)

Lemma ocbs_lt ov run s x l : winv ov run s -> ocbs ov s x = Some l -> x < length (events s).
Proof.
  intros W H. unfold ocbs in H. destruct ov as [[e t]|].
  - destruct (Nat.eqb x e) eqn:E.
    + apply Nat.eqb_eq in E. subst x. destruct (w_ov _ _ _ W e t eq_refl) as (ev & G & _). eapply get_event_lt, G.
    + unfold cbs_of in H. destruct (get_event x s) eqn:G; [eapply get_event_lt, G|discriminate].
  - unfold cbs_of in H. destruct (get_event x s) eqn:G; [eapply get_event_lt, G|discriminate].
Qed.

Lemma cbs_of_new_old ev s x : x <> length (events s) -> cbs_of (snd (new_event ev s)) x = cbs_of s x.
Proof.
  intros N. unfold cbs_of. destruct (Nat.lt_ge_cases x (length (events s))) as [L|L].
  - now rewrite get_event_new_below.
  - unfold get_event. cbn. rewrite nth_error_app2 by lia.
    destruct (x - length (events s)) as [|k] eqn:K; [lia|]. cbn.
    replace (nth_error (events s) x) with (@None event) by (symmetry; apply nth_error_None; lia).
    destruct k; reflexivity.
Qed.

Lemma cbs_of_new_new ev s : cbs_of (snd (new_event ev s)) (length (events s)) = cbs ev.
Proof. unfold cbs_of. now rewrite get_event_new_self. Qed.

Lemma cbs_of_fresh s x : length (events s) <= x -> cbs_of s x = None.
Proof. intros L. unfold cbs_of, get_event. replace (nth_error (events s) x) with (@None event); [reflexivity|]. symmetry. apply nth_error_None. exact L. Qed.

Lemma ocbs_new_event ov run s ev x :
  winv ov run s ->
  ocbs ov (snd (new_event ev s)) x =
  if Nat.eqb x (length (events s)) then cbs ev else ocbs ov s x.
Proof.
  intros W. unfold ocbs. destruct ov as [[e t]|].
  - destruct (w_ov _ _ _ W e t eq_refl) as (ev0 & G & _). apply get_event_lt in G.
    destruct (Nat.eqb x e) eqn:E.
    + apply Nat.eqb_eq in E. subst x. replace (Nat.eqb e (length (events s))) with false; [reflexivity|].
      symmetry. apply Nat.eqb_neq. lia.
    + destruct (Nat.eqb x (length (events s))) eqn:N.
      * apply Nat.eqb_eq in N. subst x. apply cbs_of_new_new.
      * apply Nat.eqb_neq in N. now apply cbs_of_new_old.
  - destruct (Nat.eqb x (length (events s))) eqn:N.
    + apply Nat.eqb_eq in N. subst x. apply cbs_of_new_new.
    + apply Nat.eqb_neq in N. now apply cbs_of_new_old.
Qed.

(* a new event whose callback list contains no CbResume *)
Lemma winv_new_event ov run s ev :
  (forall l p, cbs ev = Some l -> cnt p l = 0) -> winv ov run s -> winv ov run (snd (new_event ev s)).
Proof.
  intros N W. constructor.
  - intros x l p H C. rewrite (ocbs_new_event _ _ _ _ _ W) in H. destruct (Nat.eqb x (length (events s))).
    + exfalso. apply C. eapply N, H.
    + exact (w_in _ _ _ W x l p H C).
  - intros p t H R. destruct (w_tg _ _ _ W p t H R) as (l & H0 & C). exists l. split; [|exact C].
    rewrite (ocbs_new_event _ _ _ _ _ W). pose proof (ocbs_lt _ _ _ _ _ W H0) as L.
    replace (Nat.eqb t (length (events s))) with false; [exact H0|]. symmetry. apply Nat.eqb_neq. lia.
  - intros e t E. destruct (w_ov _ _ _ W e t E) as (ev0 & G & C). exists ev0. split; [|exact C].
    rewrite get_event_new_below; [exact G|eapply get_event_lt, G].
  - intros q E. exact (w_run _ _ _ W q E).
Qed.

Lemma tgt_lt s p o : tgt s p = Some o -> p < length (procs s).
Proof. unfold tgt, get_proc. intros H. apply nth_error_Some. destruct (nth_error (procs s) p); discriminate. Qed.

Lemma cbs_of_ext s s' x : events s' = events s -> cbs_of s' x = cbs_of s x.
Proof. intros E. unfold cbs_of, get_event. now rewrite E. Qed.

Lemma ocbs_ext ov s s' x : events s' = events s -> ocbs ov s' x = ocbs ov s x.
Proof.
  intros E. unfold ocbs. destruct ov as [[e t]|]; [destruct (Nat.eqb x e)|]; try reflexivity; now apply cbs_of_ext.
Qed.

(* a new process together with its Initialize event *)
Lemma winv_add_waiter ov run s s' ev prc :
  winv ov run s -> events s' = events s ++ [ev] -> procs s' = procs s ++ [prc] ->
  cbs ev = Some [CbResume (length (procs s))] -> ptarget prc = Some (length (events s)) ->
  winv ov run s'.
Proof.
  intros W E P C T.
  set (n := length (events s)). set (p := length (procs s)).
  assert (OC : forall x, ocbs ov s' x = if Nat.eqb x n then Some [CbResume p] else ocbs ov s x).
  { intros x. unfold p, n. rewrite <- C. rewrite <- (ocbs_new_event ov run s ev x W). apply ocbs_ext. exact E. }
  assert (TG : forall q, tgt s' q = if Nat.ltb q p then tgt s q else if Nat.eqb q p then Some (Some n) else None).
  { intros q. unfold tgt, get_proc. rewrite P. destruct (Nat.ltb q p) eqn:L.
    - apply Nat.ltb_lt in L. now rewrite nth_error_app1.
    - apply Nat.ltb_ge in L. rewrite nth_error_app2 by exact L. destruct (Nat.eqb q p) eqn:Q.
      + apply Nat.eqb_eq in Q. subst q. unfold p. rewrite Nat.sub_diag. cbn. now rewrite T.
      + apply Nat.eqb_neq in Q. destruct (q - length (procs s)) as [|k] eqn:K; [unfold p in *; lia|]. cbn. destruct k; reflexivity. }
  assert (PR : forall q o, tgt s q = Some o -> Nat.ltb q p = true) by (intros q o H; apply Nat.ltb_lt; eapply tgt_lt, H).
  assert (FR : tgt s p = None).
  { unfold tgt, get_proc. replace (nth_error (procs s) p) with (@None procrec); [reflexivity|].
    symmetry. apply nth_error_None. unfold p. lia. }
  constructor.
  - intros x l q H Cq. rewrite OC in H. destruct (Nat.eqb x n) eqn:X.
    + apply Nat.eqb_eq in X. subst x. injection H as <-. cbn in Cq. destruct (Nat.eqb p q) eqn:Q; [|cbn in Cq; lia].
      apply Nat.eqb_eq in Q. subst q. split.
      * intros R. apply (w_run _ _ _ W p (eq_sym R)). exact FR.
      * split; [cbn; rewrite Nat.eqb_refl; reflexivity|]. rewrite TG, Nat.ltb_irrefl, Nat.eqb_refl. reflexivity.
    + destruct (w_in _ _ _ W x l q H Cq) as (A & B & D). split; [exact A|]. split; [exact B|]. rewrite TG, (PR _ _ D). exact D.
  - intros q t H R. rewrite TG in H. destruct (Nat.ltb q p) eqn:L.
    + destruct (w_tg _ _ _ W q t H R) as (l & H0 & Cq). exists l. split; [|exact Cq]. rewrite OC.
      pose proof (ocbs_lt _ _ _ _ _ W H0) as Lt. replace (Nat.eqb t n) with false; [exact H0|].
      symmetry; apply Nat.eqb_neq; unfold n; lia.
    + destruct (Nat.eqb q p) eqn:Q; [|discriminate]. apply Nat.eqb_eq in Q. subst q. injection H as <-.
      exists [CbResume p]. rewrite OC, Nat.eqb_refl. split; [reflexivity|]. cbn. rewrite Nat.eqb_refl. lia.
  - intros e t Ev. destruct (w_ov _ _ _ W e t Ev) as (ev0 & G & C0). exists ev0. split; [|exact C0].
    unfold get_event in *. rewrite E. rewrite nth_error_app1; [exact G|]. apply nth_error_Some. congruence.
  - intros q R. pose proof (w_run _ _ _ W q R) as N. destruct (tgt s q) eqn:TQ; [|contradiction].
    rewrite TG, (PR _ _ TQ), TQ. discriminate.
Qed.

Lemma cnt0_nil : forall l p, Some (@nil cb) = Some l -> cnt p l = 0.
Proof. intros l p H; injection H as <-; reflexivity. Qed.

Lemma winv_call_spawn codes code arg ov run s : winv ov run s -> winv ov run (fst (call_spawn codes code arg s)).
Proof.
  intros W. unfold call_spawn, new_event. destruct (nth_error codes code) as [pr|]; [|exact W]. cbn [fst].
  set (EV1 := mkEvent (Some []) None false (KProcess (length (procs s)))).
  eapply (winv_add_waiter ov run (snd (new_event EV1 s))).
  - apply winv_new_event; [apply cnt0_nil|exact W].
  - reflexivity.
  - reflexivity.
  - reflexivity.
  - reflexivity.
Qed.

Lemma winv_call_cond all es ov run s : winv ov run s -> winv ov run (fst (call_cond all es s)).
Proof.
  intros W. unfold call_cond. destruct (negb (all_valid es s)); [exact W|].
  pose proof (winv_new_event ov run s (mkEvent (Some []) None false (KCond all es 0)) (cnt0_nil) W) as W1.
  destruct (new_event _ s) as [c s1]. cbn [fst snd] in *.
  destruct es as [|e0 es']; cbn [fst].
  - eapply winv_sim; [apply sim_trigger|exact W1].
  - eapply winv_sim; [|exact W1]. eapply sim_trans; [apply sim_cond_subscribe|apply sim_add_callback; reflexivity].
Qed.

Lemma winv_do_call codes c ov run s : winv ov run s -> winv ov run (fst (do_call codes c s)).
Proof.
  intros W. destruct c; cbn [do_call].
  - unfold call_timeout. destruct (neg_delay d); [exact W|].
    pose proof (winv_new_event ov run s (mkEvent (Some []) (Some (Ok v)) false KTimeout) (cnt0_nil) W) as W1.
    destruct (new_event _ s) as [e s1]. cbn [fst snd] in *. eapply winv_sim; [apply sim_schedule|exact W1].
  - unfold call_event.
    pose proof (winv_new_event ov run s (mkEvent (Some []) None false KPlain) (cnt0_nil) W) as W1.
    destruct (new_event _ s) as [e s1]. exact W1.
  - unfold call_succeed. destruct (get_event e s); [|exact W]. destruct (is_triggered e0); [exact W|].
    cbn [fst]. eapply winv_sim; [apply sim_trigger|exact W].
  - unfold call_fail. destruct (get_event e s); [|exact W]. destruct (is_triggered e0); [exact W|].
    destruct x; try exact W. cbn [fst]. eapply winv_sim; [apply sim_trigger|exact W].
  - apply winv_call_spawn, W.
  - unfold call_interrupt. destruct (get_event e s) as [ev|]; [|exact W].
    destruct (kind ev); try exact W. destruct (is_triggered ev); [exact W|].
    destruct (match active s with Some a => Nat.eqb a p | None => false end); [exact W|].
    assert (W1 : winv ov run (snd (new_event (mkEvent (Some [CbInterrupt (length (events s))]) (Some (Fail (EInterrupt, [cause]))) true (KInterruption p)) s))).
    { apply winv_new_event; [|exact W]. intros l q H. injection H as <-. reflexivity. }
    destruct (new_event _ s) as [i s1]. cbn [fst snd] in *. eapply winv_sim; [apply sim_schedule|exact W1].
  - apply winv_call_cond, W.
  - apply winv_call_cond, W.
  - unfold call_probe. destruct (get_event e s) as [ev|]; [|exact W].
    destruct (is_processed ev); [exact W|]. cbn [fst]. eapply winv_sim; [apply sim_add_callback; reflexivity|exact W].
  - rewrite call_query_state. exact W.
  - exact W.
  - exact W.
  - cbn [fst]. apply (winv_sim ov run s); [apply sim_same; reflexivity|exact W].
  - exact W.
  - cbn [fst]. apply (winv_sim ov run s); [apply sim_same; reflexivity|exact W].
Qed.

Lemma winv_run_frag {A} codes (f : frag A) ov run : forall s, winv ov run s -> winv ov run (fst (run_frag codes f s)).
Proof.
  induction f as [v a|v|x|c k IH]; intros s W; cbn [run_frag fst]; try exact W.
  pose proof (winv_do_call codes c ov run s W) as X. destruct (do_call codes c s) as [s1 o]. cbn [fst] in X.
  apply IH, X.
Qed.

(* ------------------------------------------------------------------------------------------------ *)
(* winv: the moves of Process._resume and of the callback loop *)

Lemma tgt_upd_proc p f s q :
  tgt (upd_proc p f s) q = if Nat.eqb q p then option_map (fun pr => ptarget (f pr)) (get_proc q s) else tgt s q.
Proof. unfold tgt. rewrite get_proc_upd. destruct (Nat.eqb q p); [destruct (get_proc q s); reflexivity|reflexivity]. Qed.

Lemma ocbs_upd_proc ov p f s x : ocbs ov (upd_proc p f s) x = ocbs ov s x.
Proof. apply ocbs_ext. reflexivity. Qed.

Lemma tgt_some s p : tgt s p <> None -> exists pr, get_proc p s = Some pr.
Proof. unfold tgt. destruct (get_proc p s) as [pr|]; [eauto|intros H; contradiction]. Qed.

(* the record of the running process may be replaced by anything *)
Lemma winv_put_running ov p prx s : winv ov (Some p) s -> winv ov (Some p) (put_proc p prx s).
Proof.
  intros W. unfold put_proc. constructor.
  - intros x l q H C. rewrite ocbs_upd_proc in H. destruct (w_in _ _ _ W x l q H C) as (A & B & D).
    split; [exact A|]. split; [exact B|]. rewrite tgt_upd_proc. destruct (Nat.eqb q p) eqn:Q; [|exact D].
    apply Nat.eqb_eq in Q. subst q. exfalso. apply A. reflexivity.
  - intros q t H R. rewrite tgt_upd_proc in H. destruct (Nat.eqb q p) eqn:Q.
    + apply Nat.eqb_eq in Q. subst q. exfalso. apply R. reflexivity.
    + destruct (w_tg _ _ _ W q t H R) as (l & H0 & C). exists l. rewrite ocbs_upd_proc. auto.
  - intros e t E. exact (w_ov _ _ _ W e t E).
  - intros q E. injection E as <-. rewrite tgt_upd_proc, Nat.eqb_refl.
    destruct (tgt_some _ _ (w_run _ _ _ W p eq_refl)) as (pr & P). rewrite P. discriminate.
Qed.

(* the generator ended *)
Lemma winv_finish ov p s : winv ov (Some p) s -> winv ov None (upd_proc p (proc_set_target None) s).
Proof.
  intros W. constructor.
  - intros x l q H C. rewrite ocbs_upd_proc in H. destruct (w_in _ _ _ W x l q H C) as (A & B & D).
    split; [discriminate|]. split; [exact B|]. rewrite tgt_upd_proc. destruct (Nat.eqb q p) eqn:Q; [|exact D].
    apply Nat.eqb_eq in Q. subst q. exfalso. apply A. reflexivity.
  - intros q t H _. rewrite tgt_upd_proc in H. destruct (Nat.eqb q p) eqn:Q.
    + destruct (get_proc q s); discriminate.
    + assert (R : Some q <> Some p) by (intros E; injection E as ->; now rewrite Nat.eqb_refl in Q).
      destruct (w_tg _ _ _ W q t H R) as (l & H0 & C). exists l. rewrite ocbs_upd_proc. auto.
  - intros e t E. exact (w_ov _ _ _ W e t E).
  - intros q E. discriminate.
Qed.

(* the generator yielded a pending event *)
Lemma winv_wait ov p e' s ev' l :
  winv ov (Some p) s -> get_event e' s = Some ev' -> cbs ev' = Some l ->
  winv ov None (upd_proc p (proc_set_target (Some e')) (add_callback e' (CbResume p) s)).
Proof.
  intros W G C.
  set (s1 := add_callback e' (CbResume p) s).
  assert (G1 : forall x, get_event x s1 = if Nat.eqb x e' then Some (ev_set_cbs (Some (l ++ [CbResume p])) ev') else get_event x s).
  { intros x. unfold s1, add_callback. rewrite get_event_upd. destruct (Nat.eqb x e') eqn:X; [|reflexivity].
    apply Nat.eqb_eq in X. subst x. rewrite G. cbn. unfold ev_add_cb. now rewrite C. }
  assert (NE : forall e t, ov = Some (e, t) -> Nat.eqb e' e = false).
  { intros e t E. destruct (w_ov _ _ _ W e t E) as (ev0 & G0 & C0). apply Nat.eqb_neq. intros ->. congruence. }
  assert (OC : forall x, ocbs ov s1 x = if Nat.eqb x e' then Some (l ++ [CbResume p]) else ocbs ov s x).
  { intros x. unfold ocbs, cbs_of. rewrite G1. destruct ov as [[e t]|].
    - destruct (Nat.eqb x e) eqn:X.
      + apply Nat.eqb_eq in X. subst x. rewrite Nat.eqb_sym, (NE e t eq_refl). reflexivity.
      + destruct (Nat.eqb x e'); reflexivity.
    - destruct (Nat.eqb x e'); reflexivity. }
  assert (OE : ocbs ov s e' = Some l).
  { unfold ocbs, cbs_of. rewrite G. destruct ov as [[e t]|]; [|exact C]. now rewrite (NE e t eq_refl). }
  assert (NP : forall x l0, ocbs ov s x = Some l0 -> cnt p l0 = 0).
  { intros x l0 H. destruct (cnt p l0) eqn:K; [reflexivity|]. exfalso.
    destruct (w_in _ _ _ W x l0 p H ltac:(lia)) as (A & _). apply A. reflexivity. }
  destruct (tgt_some _ _ (w_run _ _ _ W p eq_refl)) as (pr & P).
  assert (TG : forall q, tgt (upd_proc p (proc_set_target (Some e')) s1) q = if Nat.eqb q p then Some (Some e') else tgt s q).
  { intros q. rewrite tgt_upd_proc. destruct (Nat.eqb q p) eqn:Q; [|reflexivity].
    apply Nat.eqb_eq in Q. subst q. change (get_proc p s1) with (get_proc p s). rewrite P. reflexivity. }
  constructor.
  - intros x l0 q H Cq. rewrite ocbs_upd_proc, OC in H. rewrite TG. destruct (Nat.eqb x e') eqn:X.
    + apply Nat.eqb_eq in X. subst x. injection H as <-. rewrite cnt_app in *. cbn in *.
      destruct (Nat.eqb p q) eqn:Q.
      * apply Nat.eqb_eq in Q. subst q. rewrite (NP _ _ OE), Nat.eqb_refl. split; [discriminate|]. split; reflexivity.
      * assert (Cq' : cnt q l <> 0) by lia. destruct (w_in _ _ _ W e' l q OE Cq') as (A & B & D).
        rewrite Nat.eqb_sym, Q. split; [discriminate|]. split; [lia|exact D].
    + destruct (w_in _ _ _ W x l0 q H Cq) as (A & B & D). split; [discriminate|]. split; [exact B|].
      destruct (Nat.eqb q p) eqn:Q; [|exact D]. apply Nat.eqb_eq in Q. subst q. exfalso. apply A. reflexivity.
  - intros q t H _. rewrite TG in H. destruct (Nat.eqb q p) eqn:Q.
    + injection H as <-. apply Nat.eqb_eq in Q. subst q. exists (l ++ [CbResume p]). rewrite ocbs_upd_proc, OC, Nat.eqb_refl.
      split; [reflexivity|]. rewrite cnt_app. cbn. rewrite Nat.eqb_refl. lia.
    + assert (R : Some q <> Some p) by (intros E; injection E as ->; now rewrite Nat.eqb_refl in Q).
      destruct (w_tg _ _ _ W q t H R) as (l0 & H0 & Cq). rewrite ocbs_upd_proc. setoid_rewrite OC.
      destruct (Nat.eqb t e') eqn:X.
      * apply Nat.eqb_eq in X. subst t. rewrite OE in H0. injection H0 as <-. exists (l ++ [CbResume p]).
        split; [reflexivity|]. rewrite cnt_app. lia.
      * exists l0. auto.
  - intros e t E. destruct (w_ov _ _ _ W e t E) as (ev0 & G0 & C0). exists ev0. split; [|exact C0].
    change (get_event e s1 = Some ev0). rewrite G1. pose proof (NE e t E) as N. rewrite Nat.eqb_sym in N. now rewrite N.
  - intros q E. discriminate.
Qed.

(* the loop takes the next callback, a CbResume: that process now runs *)
Lemma winv_pop_resume e p t s : winv (Some (e, CbResume p :: t)) None s -> winv (Some (e, t)) (Some p) s.
Proof.
  intros W.
  assert (OE : ocbs (Some (e, CbResume p :: t)) s e = Some (CbResume p :: t)) by (cbn; now rewrite Nat.eqb_refl).
  assert (CP : cnt p (CbResume p :: t) <> 0) by (cbn; rewrite Nat.eqb_refl; lia).
  destruct (w_in _ _ _ W e _ p OE CP) as (_ & B & D).
  assert (CT : cnt p t = 0) by (cbn in B; rewrite Nat.eqb_refl in B; lia).
  constructor.
  - intros x l q H C. cbn [ocbs] in H. destruct (Nat.eqb x e) eqn:X.
    + apply Nat.eqb_eq in X. subst x. injection H as <-.
      assert (Q : Nat.eqb p q = false).
      { destruct (Nat.eqb p q) eqn:Q; [|reflexivity]. apply Nat.eqb_eq in Q. subst q. contradiction. }
      assert (C' : cnt q (CbResume p :: t) <> 0) by (cbn; rewrite Q; exact C).
      destruct (w_in _ _ _ W e _ q OE C') as (_ & B' & D'). split.
      * intros E. injection E as ->. now rewrite Nat.eqb_refl in Q.
      * split; [cbn in B'; rewrite Q in B'; exact B'|exact D'].
    + assert (H' : ocbs (Some (e, CbResume p :: t)) s x = Some l) by (cbn; now rewrite X).
      destruct (w_in _ _ _ W x l q H' C) as (_ & B' & D'). split; [|auto].
      intros E. injection E as ->. rewrite D in D'. injection D' as ->. now rewrite Nat.eqb_refl in X.
  - intros q t0 H R. destruct (w_tg _ _ _ W q t0 H ltac:(discriminate)) as (l & H0 & C).
    cbn [ocbs] in *. destruct (Nat.eqb t0 e).
    + injection H0 as <-. exists t. split; [reflexivity|]. cbn in C. destruct (Nat.eqb p q) eqn:Q; [|exact C].
      apply Nat.eqb_eq in Q. subst q. exfalso. apply R. reflexivity.
    + exists l. auto.
  - intros e0 t0 E. injection E as <- <-. exact (w_ov _ _ _ W e _ eq_refl).
  - intros q E. injection E as <-. rewrite D. discriminate.
Qed.

(* the remaining list is replaced by one with the same CbResume entries (e.g. a non-CbResume head is taken) *)
Lemma winv_ov_cnt e t t' run s : (forall q, cnt q t' = cnt q t) -> winv (Some (e, t)) run s -> winv (Some (e, t')) run s.
Proof.
  intros Hc W. constructor.
  - intros x l q H C. cbn [ocbs] in H. destruct (Nat.eqb x e) eqn:X.
    + injection H as <-. rewrite Hc in *. apply (w_in _ _ _ W x t q); [cbn; now rewrite X|exact C].
    + apply (w_in _ _ _ W x l q); [cbn; now rewrite X|exact C].
  - intros q t0 H R. destruct (w_tg _ _ _ W q t0 H R) as (l & H0 & C). cbn [ocbs] in *. destruct (Nat.eqb t0 e).
    + injection H0 as <-. exists t'. split; [reflexivity|now rewrite Hc].
    + exists l. auto.
  - intros e0 t0 E. injection E as <- <-. exact (w_ov _ _ _ W e _ eq_refl).
  - exact (w_run _ _ _ W).
Qed.

Lemma winv_pop_other e c t run s : is_resume c = false -> winv (Some (e, c :: t)) run s -> winv (Some (e, t)) run s.
Proof. intros N. apply winv_ov_cnt. intros q. destruct c; cbn in *; congruence. Qed.

(* step(): callbacks, event.callbacks = event.callbacks, None *)
Lemma winv_open e ev l run s :
  winv None run s -> get_event e s = Some ev -> cbs ev = Some l ->
  winv (Some (e, l)) run (upd_event e (ev_set_cbs None) s).
Proof.
  intros W G C.
  assert (OC : forall x, ocbs (Some (e, l)) (upd_event e (ev_set_cbs None) s) x = ocbs None s x).
  { intros x. cbn [ocbs]. unfold cbs_of. destruct (Nat.eqb x e) eqn:X.
    - apply Nat.eqb_eq in X. subst x. now rewrite G.
    - apply Nat.eqb_neq in X. now rewrite get_event_upd_other. }
  constructor.
  - intros x l0 q H Cq. rewrite OC in H. exact (w_in _ _ _ W x l0 q H Cq).
  - intros q t H R. destruct (w_tg _ _ _ W q t H R) as (l0 & H0 & Cq). exists l0. rewrite OC. auto.
  - intros e0 t0 E. injection E as <- <-. exists (ev_set_cbs None ev). split; [apply get_event_upd_same, G|reflexivity].
  - exact (w_run _ _ _ W).
Qed.

(* the loop is over *)
Lemma winv_close e run s : winv (Some (e, [])) run s -> winv None run s.
Proof.
  intros W. destruct (w_ov _ _ _ W e [] eq_refl) as (ev & G & C).
  assert (CE : cbs_of s e = None) by (unfold cbs_of; now rewrite G).
  constructor.
  - intros x l q H Cq. cbn [ocbs] in H. apply (w_in _ _ _ W x l q); [|exact Cq]. cbn [ocbs].
    destruct (Nat.eqb x e) eqn:X; [|exact H]. apply Nat.eqb_eq in X. subst x. congruence.
  - intros q t H R. destruct (w_tg _ _ _ W q t H R) as (l & H0 & Cq). cbn [ocbs] in *. destruct (Nat.eqb t e).
    + injection H0 as <-. cbn in Cq. contradiction.
    + exists l. auto.
  - intros e0 t0 E. discriminate.
  - exact (w_run _ _ _ W).
Qed.

(* Interruption._interrupt: the victim is taken out of its target's list *)
Lemma winv_unregister ov p t tev l s :
  winv ov None s -> get_event t s = Some tev -> cbs tev = Some l -> cnt p l <> 0 ->
  winv ov (Some p) (upd_event t (ev_set_cbs (Some (remove_first (CbResume p) l))) s).
Proof.
  intros W G C Cp.
  set (l' := remove_first (CbResume p) l). set (s1 := upd_event t (ev_set_cbs (Some l')) s).
  assert (NE : forall e t0, ov = Some (e, t0) -> Nat.eqb t e = false).
  { intros e t0 E. destruct (w_ov _ _ _ W e t0 E) as (ev0 & G0 & C0). apply Nat.eqb_neq. intros ->. congruence. }
  assert (OT : ocbs ov s t = Some l).
  { unfold ocbs, cbs_of. rewrite G. destruct ov as [[e t0]|]; [|exact C]. now rewrite (NE e t0 eq_refl). }
  assert (OC : forall x, ocbs ov s1 x = if Nat.eqb x t then Some l' else ocbs ov s x).
  { intros x. unfold ocbs, cbs_of, s1. rewrite get_event_upd. destruct ov as [[e t0]|].
    - destruct (Nat.eqb x e) eqn:X.
      + apply Nat.eqb_eq in X. subst x. rewrite Nat.eqb_sym, (NE e t0 eq_refl). reflexivity.
      + destruct (Nat.eqb x t) eqn:Y; [|reflexivity]. apply Nat.eqb_eq in Y. subst x. now rewrite G.
    - destruct (Nat.eqb x t) eqn:Y; [|reflexivity]. apply Nat.eqb_eq in Y. subst x. now rewrite G. }
  destruct (w_in _ _ _ W t l p OT Cp) as (_ & B & D).
  assert (CL : forall q, cnt q l' = if Nat.eqb q p then 0 else cnt q l).
  { intros q. unfold l'. rewrite cnt_remove_first_resume. destruct (Nat.eqb q p); [rewrite B; reflexivity|reflexivity]. }
  constructor.
  - intros x l0 q H Cq. rewrite OC in H. change (tgt s1 q) with (tgt s q). destruct (Nat.eqb x t) eqn:X.
    + apply Nat.eqb_eq in X. subst x. injection H as <-. rewrite CL in *. destruct (Nat.eqb q p) eqn:Q; [contradiction|].
      destruct (w_in _ _ _ W t l q OT Cq) as (_ & B' & D'). split; [|auto].
      intros E. injection E as ->. now rewrite Nat.eqb_refl in Q.
    + destruct (w_in _ _ _ W x l0 q H Cq) as (_ & B' & D'). split; [|auto].
      intros E. injection E as ->. rewrite D in D'. injection D' as ->. now rewrite Nat.eqb_refl in X.
  - intros q t0 H R. change (tgt s1 q) with (tgt s q) in H.
    destruct (w_tg _ _ _ W q t0 H ltac:(discriminate)) as (l0 & H0 & Cq). setoid_rewrite OC.
    destruct (Nat.eqb t0 t) eqn:X.
    + apply Nat.eqb_eq in X. subst t0. rewrite OT in H0. injection H0 as <-. exists l'. split; [reflexivity|].
      rewrite CL. destruct (Nat.eqb q p) eqn:Q; [|exact Cq]. apply Nat.eqb_eq in Q. subst q. exfalso. apply R. reflexivity.
    + exists l0. auto.
  - intros e t0 E. destruct (w_ov _ _ _ W e t0 E) as (ev0 & G0 & C0). exists ev0. split; [|exact C0].
    unfold s1. rewrite get_event_upd. pose proof (NE e t0 E) as N. rewrite Nat.eqb_sym in N. now rewrite N.
  - intros q E. injection E as <-. change (tgt s1 p) with (tgt s p). rewrite D. discriminate.
Qed.

(* ------------------------------------------------------------------------------------------------ *)
(* winv through Process._resume, Interruption._interrupt, the callbacks, the loop *)

Lemma winv_resume_loop codes ov fuel : forall p e s s',
  winv ov (Some p) s -> resume_loop fuel codes p e s = (s', ROk) -> winv ov None s'.
Proof.
  induction fuel as [|f IH]; intros p e s s' W; cbn [resume_loop]; [discriminate|].
  destruct (get_event e s) as [ev|]; [|discriminate].
  destruct (get_proc p s) as [pr|]; [|discriminate].
  destruct (out ev) as [o|]; [|discriminate].
  assert (W1 : winv ov (Some p) (feed_state e o s)) by (eapply winv_sim; [apply sim_feed_state|exact W]).
  unfold feed_state in W1.
  pose proof (winv_run_frag codes (resume (pcode pr) (pst pr) o) ov (Some p) _ W1) as W2.
  destruct (run_frag codes (resume (pcode pr) (pst pr) o) match o with Ok _ => s | Fail _ => upd_event e ev_set_defused s end) as [s2 r].
  cbn [fst] in W2.
  destruct r as [v a|v|x].
  - pose proof (winv_put_running ov p (proc_set_st pr a) s2 W2) as W3.
    destruct v; try discriminate.
    destruct (get_event e0 (put_proc p (proc_set_st pr a) s2)) as [ev'|] eqn:G'; [|discriminate].
    unfold is_processed. destruct (cbs ev') as [l|] eqn:C'.
    + intros H. injection H as <-. unfold proc_wait.
      apply (winv_sim ov None (upd_proc p (proc_set_target (Some e0)) (add_callback e0 (CbResume p) (put_proc p (proc_set_st pr a) s2)))).
      * apply sim_same; reflexivity.
      * eapply winv_wait; eauto.
    + apply IH. exact W3.
  - intros H. injection H as <-. unfold proc_finish.
    apply (winv_sim ov None (upd_proc p (proc_set_target None) (trigger_event (pev pr) (Ok v) s2))).
    + apply sim_same; reflexivity.
    + apply winv_finish. eapply winv_sim; [apply sim_trigger|exact W2].
  - intros H. injection H as <-. unfold proc_finish.
    apply (winv_sim ov None (upd_proc p (proc_set_target None) (trigger_event (pev pr) (Fail x) s2))).
    + apply sim_same; reflexivity.
    + apply winv_finish. eapply winv_sim; [apply sim_trigger|exact W2].
Qed.

Lemma winv_resume_proc codes ov fuel p e s s' :
  winv ov (Some p) s -> resume_proc fuel codes p e s = (s', ROk) -> winv ov None s'.
Proof.
  intros W. unfold resume_proc. apply winv_resume_loop.
  apply (winv_sim ov (Some p) s); [apply sim_same; reflexivity|exact W].
Qed.

Lemma winv_do_interruption codes ov fuel i s s' :
  winv ov None s -> do_interruption fuel codes i s = (s', ROk) -> winv ov None s'.
Proof.
  intros W. unfold do_interruption.
  destruct (get_event i s) as [iev|]; [|discriminate].
  destruct (kind iev); try discriminate.
  destruct (get_proc p s) as [pr|]; [|discriminate].
  destruct (get_event (pev pr) s) as [pe|]; [|discriminate].
  destruct (is_triggered pe); [intros H; injection H as <-; exact W|].
  destruct (ptarget pr) as [t|]; [|discriminate].
  destruct (get_event t s) as [tev|] eqn:Gt; [|discriminate].
  destruct (cbs tev) as [l|] eqn:C; [|discriminate].
  destruct (mem_cb (CbResume p) l) eqn:M; [|discriminate].
  apply winv_resume_proc. eapply winv_unregister; eauto. apply mem_cb_cnt, M.
Qed.

Lemma winv_run_cb codes fuel e c t s s' r :
  winv (Some (e, c :: t)) None s -> run_cb fuel codes e c s = (s', r) -> cb_ok c r -> winv (Some (e, t)) None s'.
Proof.
  intros W H K.
  destruct c; try (destruct K as [->|[Sc _]]; [|discriminate Sc]); cbn [run_cb] in H.
  - revert H. apply winv_resume_proc. apply winv_pop_resume, W.
  - injection H as <-. eapply winv_sim; [apply sim_cond_check|]. eapply winv_pop_other; [|exact W]. reflexivity.
  - pose proof (sim_cond_build c s) as S. rewrite H in S. cbn [fst] in S.
    eapply winv_sim; [exact S|]. eapply winv_pop_other; [|exact W]. reflexivity.
  - revert H. apply winv_do_interruption. eapply winv_pop_other; [|exact W]. reflexivity.
  - pose proof (stop_cb_state e s) as S. rewrite H in S. cbn [fst] in S. subst s'.
    eapply winv_pop_other; [|exact W]. reflexivity.
  - injection H as <-. apply (winv_sim (Some (e, t)) None s); [apply sim_same; reflexivity|].
    eapply winv_pop_other; [|exact W]. reflexivity.
Qed.

Lemma winv_chain codes fuel e l1 : forall l2 s s',
  winv (Some (e, l1 ++ l2)) None s -> cb_chain fuel codes e l1 s s' -> winv (Some (e, l2)) None s'.
Proof.
  induction l1 as [|c t IH]; intros l2 s s' W Ch; inversion Ch; subst.
  - exact W.
  - eapply IH; [|eassumption]. eapply winv_run_cb; [exact W|eassumption|assumption].
Qed.

(* ------------------------------------------------------------------------------------------------ *)
(* clean steps: the callback loop ran through all callbacks (the stop callback of run(until) does not end it: what it raises
   is raised after the loop).  An exception escaping from the middle of the loop drops the remaining callbacks:
   DESIGN.md 4 (ii). *)

Definition step_clean (fuel : nat) (codes : list prog) (s : state) : Prop :=
  match pop_min (agenda s) with
  | None => True
  | Some (m, rest) =>
      match get_event (e_ev m) s with
      | None => False
      | Some ev =>
          match cbs ev with
          | None => True
          | Some l => exists s', cb_chain fuel codes (e_ev m) l (loop_start m rest s) s'
          end
      end
  end.

Lemma winv_loop_start m rest s ev l :
  winv None None s -> get_event (e_ev m) s = Some ev -> cbs ev = Some l -> winv (Some (e_ev m, l)) None (loop_start m rest s).
Proof.
  intros W G C. unfold loop_start. eapply winv_open; [|rewrite get_event_pop_state; exact G|exact C].
  apply (winv_sim None None s); [apply sim_same; reflexivity|exact W].
Qed.

Lemma winv_step fuel codes s : winv None None s -> step_clean fuel codes s -> winv None None (fst (step fuel codes s)).
Proof.
  intros W Cl. unfold step_clean in Cl.
  destruct (pop_min (agenda s)) as [[m rest]|] eqn:P; [|unfold step; rewrite P; exact W].
  destruct (get_event (e_ev m) s) as [ev|] eqn:G; [|contradiction].
  destruct (cbs ev) as [l|] eqn:C.
  - destruct Cl as (s' & Ch). rewrite (step_fst_chain _ _ _ _ _ _ _ _ P G C Ch).
    pose proof (winv_loop_start m rest s ev l W G C) as W0.
    apply (winv_close (e_ev m)). eapply (winv_chain codes fuel (e_ev m) l []); [rewrite app_nil_r; exact W0|exact Ch].
  - rewrite (step_processed_twice _ _ _ _ _ _ P G C). cbn [fst].
    apply (winv_sim None None s); [apply sim_same; reflexivity|exact W].
Qed.
