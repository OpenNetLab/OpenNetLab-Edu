(* Kernel/DeliverWitness.v -- C02: the concrete executions and witness terms used by Props/C02_Examples.v to show that the
   hypotheses of the C02 theorems are simultaneously satisfiable on non-trivial instances, and the helper lemmas that turn
   computed runs of the executable kernel into the inductive notions the theorems quantify over ([later], [creach],
   [ok_steps], [run_loop_clean], [cb_chain]).

   Scenario x (Kernel/DeliverExamples.v: xcodes, x0): a shared event G0 (event 0); A (process 0) waits for it and catches
   what it receives, B (process 1) waits for it and lets the exception propagate; T (process 2) fails G0 with User1(7) and
   then tries to succeed it (refused); Parent (process 3) spawns Child (process 4, returns 0 after timeout(1)) and joins it.
     [xS n] = the state after n steps.   xS 5: G0 is next, callbacks [CbResume 0; CbResume 1], failed, not defused.
     step 6 (xS 5 -> xS 6) processes G0: A catches (defuses), B fails with User1(7): its Process event 3 carries it, undefused.
     step 9 (xS 8 -> xS 9) processes B's Process event (no waiter): step() raises User1(7).
   Scenario y (here): events G0, G1, G2 (0, 1, 2), a probe on G2;
     Late (process 0): yield timeout(1, 4); then yields G0, ALREADY PROCESSED by then (succeeded with 11 at instant 0): logs 11
     Cond (process 1): yield AllOf[G1] (condition 10) and catches: G1 fails with User2(3), the condition takes it over (defuses G1)
     Trig (process 2): G0.succeed(11); G1.fail(User2(3)); yield timeout(2); G2.fail(User3(9)) -- only the probe listens:
                       step() raises User3(9) at instant 2.
     [yS n] = the state after n steps.  step 5 (yS 4 ->) processes G1, step 8 (yS 7 ->) the timeout of Late, step 11 (yS 10 ->) G2. *)
From Coq Require Import ZArith QArith List Bool Lia.
From ONL Require Import Base.Tools Kernel.Model Kernel.Script Kernel.Keys Kernel.Deliver Kernel.DeliverInv Kernel.DeliverWf Kernel.DeliverThm
  Kernel.DeliverVal Kernel.DeliverMore Kernel.DeliverExamples.
Import ListNotations.
Local Open Scope nat_scope.

(* ------------------------------------------------------------------------------------------------ *)
(* generic: computed runs are executions *)

Fixpoint nsteps (fuel : nat) (codes : list prog) (n : nat) (s : state) : state :=
  match n with O => s | S k => nsteps fuel codes k (fst (step fuel codes s)) end.

Lemma nsteps_S fuel codes n : forall s, nsteps fuel codes (S n) s = fst (step fuel codes (nsteps fuel codes n s)).
Proof. induction n as [|n IH]; intros s; [reflexivity|]. exact (IH (fst (step fuel codes s))). Qed.

(* a step of a computed run: only its [result] has to be evaluated *)
Lemma nsteps_step fuel codes n s r :
  snd (step fuel codes (nsteps fuel codes n s)) = r ->
  step fuel codes (nsteps fuel codes n s) = (nsteps fuel codes (S n) s, r).
Proof. rewrite nsteps_S. apply pair_of_snd. Qed.

Lemma later_nsteps fuel codes n : forall s s', later codes s s' -> later codes s (nsteps fuel codes n s').
Proof. induction n as [|n IH]; intros s s' L; cbn [nsteps]; [exact L|]. apply IH, later_step, L. Qed.

Lemma ok_steps_nsteps fuel codes n s : all_ok fuel codes n s = true -> ok_steps fuel codes s (nsteps fuel codes n s).
Proof. apply (all_ok_steps fuel codes (nsteps fuel codes)); reflexivity. Qed.

Lemma creach_nsteps fuel codes n s :
  creach codes s -> all_ok fuel codes n s = true -> creach codes (nsteps fuel codes n s).
Proof. intros R A. exact (creach_ok_steps _ _ _ _ (ok_steps_nsteps _ _ _ _ A) R). Qed.

(* run(): k normal steps, then a clean step that does not return normally *)
Lemma run_loop_clean_intro fuel codes k : forall n s,
  all_ok fuel codes k s = true -> step_clean fuel codes (nsteps fuel codes k s) ->
  snd (step fuel codes (nsteps fuel codes k s)) <> ROk -> run_loop_clean n fuel codes s.
Proof.
  induction k as [|k IH]; intros n s A C N; (destruct n as [|n]; [exact I|]); cbn [nsteps all_ok] in *; cbn [run_loop_clean];
    destruct (step fuel codes s) as [s1 r] eqn:St.
  - split; [exact C|]. destruct r; try exact I. now contradiction N.
  - destruct r; try discriminate. split; [eapply step_ok_clean, St|]. apply IH; assumption.
Qed.

Lemma run_loop_raises fuel codes u k : forall n s s' x,
  all_ok fuel codes k s = true -> step fuel codes (nsteps fuel codes k s) = (s', RRaise x) ->
  run_loop (k + S n) fuel codes u s = (s', RRaise x).
Proof.
  induction k as [|k IH]; intros n s s' x A St; cbn [nsteps all_ok Nat.add run_loop] in *.
  - now rewrite St.
  - destruct (step fuel codes s) as [s1 r]. destruct r; try discriminate. apply IH; assumption.
Qed.

Lemma cb_chain_one fuel codes e c s :
  snd (run_cb fuel codes e c s) = ROk -> cb_chain fuel codes e [c] s (fst (run_cb fuel codes e c s)).
Proof. intros E. econstructor; [apply pair_of_snd, E|left; reflexivity|constructor]. Qed.

Definition dummy_proc : procrec := mkProc (compile []) (start (compile []) VNone) 0 None.
Definition getp (p : pid) (s : state) : procrec := match get_proc p s with Some pr => pr | None => dummy_proc end.
Definition gete (e : evid) (s : state) : event :=
  match get_event e s with Some ev => ev | None => mkEvent None None false KPlain end.

(* the generator state stored at a yield *)
Definition yielded {A : Type} (d : A) (r : fres A) : A := match r with FrYield _ a => a | _ => d end.

Lemma getp_some p s :
  match get_proc p s with Some _ => true | None => false end = true -> get_proc p s = Some (getp p s).
Proof. apply some_default. Qed.

Lemma gete_some e s :
  match get_event e s with Some _ => true | None => false end = true -> get_event e s = Some (gete e s).
Proof. apply some_default. Qed.

Lemma yielded_eq {A} (r : fres A) d v :
  match r with FrYield v' _ => v' = v | _ => False end -> r = FrYield v (yielded d r).
Proof. destruct r; try contradiction. now intros <-. Qed.

(* ------------------------------------------------------------------------------------------------ *)
(* scenario x *)

Definition xS (n : nat) : state := nsteps 50 xcodes n x0.
Definition xexn : exn := (EUser 1, [VInt 7]).

Lemma x0_creach : creach xcodes x0.
Proof. apply cr_top, cr_init. Qed.

Lemma x0_later : later xcodes (init_state 0) x0.
Proof. apply later_top, later_refl. Qed.

Lemma xS_later n : later xcodes (init_state 0) (xS n).
Proof. apply later_nsteps, x0_later. Qed.

Lemma xS_later_from a n : later xcodes (xS a) (xS (a + n)).
Proof.
  unfold xS. induction n as [|n IH].
  - rewrite Nat.add_0_r. constructor.
  - rewrite Nat.add_succ_r, nsteps_S. apply later_step, IH.
Qed.

Lemma xS_S n : xS (S n) = fst (step 50 xcodes (xS n)).
Proof. apply nsteps_S. Qed.

Lemma xS_step n r : snd (step 50 xcodes (xS n)) = r -> step 50 xcodes (xS n) = (xS (S n), r).
Proof. apply nsteps_step. Qed.

Lemma xS_creach n : all_ok 50 xcodes n x0 = true -> creach xcodes (xS n).
Proof. apply creach_nsteps, x0_creach. Qed.

(* the step that processes G0: entry, rest of the agenda, the event, the state in which the callback loop starts,
   the state between the two callbacks *)
Definition xm : entry := mkEntry 0 NORMAL 4 0.
Definition xrest : list entry := [mkEntry 0 NORMAL 5 5; mkEntry 1 NORMAL 7 11].
Definition xevG0 : event := mkEvent (Some [CbResume 0; CbResume 1]) (Some (Fail xexn)) false KPlain.
Definition xL : state := loop_start xm xrest (xS 5).
Definition xmid : state := fst (run_cb 50 xcodes 0 (CbResume 0) xL).

Lemma xS5_creach : creach xcodes (xS 5).
Proof. apply xS_creach. vm_compute. reflexivity. Qed.

Lemma xS5_pop : pop_min (agenda (xS 5)) = Some (xm, xrest).
Proof. vm_compute. reflexivity. Qed.

Lemma xS5_G0 : get_event (e_ev xm) (xS 5) = Some xevG0.
Proof. vm_compute. reflexivity. Qed.

Lemma xS5_step : step 50 xcodes (xS 5) = (xS 6, ROk).
Proof. apply xS_step. vm_compute. reflexivity. Qed.

Lemma x_chain_A : cb_chain 50 xcodes (e_ev xm) [CbResume 0] (loop_start xm xrest (xS 5)) xmid.
Proof. apply (cb_chain_one 50 xcodes 0 (CbResume 0) xL). vm_compute. reflexivity. Qed.

Lemma x_chain_AB : cb_chain 50 xcodes (e_ev xm) [CbResume 0; CbResume 1] (loop_start xm xrest (xS 5)) (xS 6).
Proof.
  rewrite (xS_S 5).
  apply (step_chain 50 xcodes (xS 5) xm xrest xevG0 [CbResume 0; CbResume 1] xS5_pop xS5_G0 eq_refl). vm_compute. reflexivity.
Qed.

(* B, about to be resumed with the failure of G0 *)
Definition xsB : state := set_active (Some 1) xmid.
Definition xprB : procrec := getp 1 xsB.
Definition xfragB := run_frag xcodes (resume (pcode xprB) (pst xprB) (Fail xexn)) (feed_state 0 (Fail xexn) xsB).

(* A's Initialize (the first step): A yields the pending G0 *)
Definition xmI : entry := mkEntry 0 URGENT 0 2.
Definition xrestI : list entry := [mkEntry 0 URGENT 1 4; mkEntry 0 URGENT 2 6; mkEntry 0 URGENT 3 8].
Definition xsI : state := set_active (Some 0) (loop_start xmI xrestI x0).
Definition xprA : procrec := getp 0 xsI.
Definition xfragI := run_frag xcodes (resume (pcode xprA) (pst xprA) (Ok VNone)) (feed_state 2 (Ok VNone) xsI).
Definition xaI : St (pcode xprA) := yielded (pst xprA) (snd xfragI).

(* run(until = 5) entered in x0: the sentinel does not interfere; eight normal steps, the ninth raises User1(7) *)
Definition xU : state := match run_prelude (UNum 5) x0 with inr s => s | inl (s, _) => s end.
Definition xR (n : nat) : state := nsteps 50 xcodes n xU.

Lemma xU_prelude : run_prelude (UNum 5) x0 = inr xU.
Proof.
  assert (B : match run_prelude (UNum 5) x0 with inr _ => true | inl _ => false end = true) by (vm_compute; reflexivity).
  unfold xU. destruct (run_prelude (UNum 5) x0) as [[s r]|s]; [discriminate B|reflexivity].
Qed.

Lemma xU_creach : creach xcodes xU.
Proof. exact (cr_prelude xcodes x0 (UNum 5) xU x0_creach xU_prelude). Qed.

Lemma xR_step n r : snd (step 50 xcodes (xR n)) = r -> step 50 xcodes (xR n) = (xR (S n), r).
Proof. apply nsteps_step. Qed.

Lemma xR_raises k n s' x :
  all_ok 50 xcodes k xU = true -> step 50 xcodes (xR k) = (s', RRaise x) ->
  run_loop (k + S n) 50 xcodes (UNum 5) xU = (s', RRaise x).
Proof. apply run_loop_raises. Qed.

Lemma xR_ok_steps n : all_ok 50 xcodes n xU = true -> ok_steps 50 xcodes xU (xR n).
Proof. unfold xR. apply ok_steps_nsteps. Qed.

Lemma xR8_step_clean : step_clean 50 xcodes (nsteps 50 xcodes 8 xU).
Proof.
  apply (chain_clean 50 xcodes (nsteps 50 xcodes 8 xU) (mkEntry 0 NORMAL 10 3) [mkEntry 5 URGENT 4 9; mkEntry 1 NORMAL 8 12]
           (mkEvent (Some []) (Some (Fail xexn)) false (KProcess 1)) [] (loop_start (mkEntry 0 NORMAL 10 3)
              [mkEntry 5 URGENT 4 9; mkEntry 1 NORMAL 8 12] (nsteps 50 xcodes 8 xU))).
  - vm_compute. reflexivity.
  - vm_compute. reflexivity.
  - reflexivity.
  - constructor.
Qed.

Lemma x_run_clean : run_clean 50 xcodes (UNum 5) x0.
Proof.
  unfold run_clean. rewrite xU_prelude.
  apply (run_loop_clean_intro 50 xcodes 8 50 xU); [vm_compute; reflexivity|exact xR8_step_clean|vm_compute; discriminate].
Qed.

(* ------------------------------------------------------------------------------------------------ *)
(* scenario y *)

Definition yLate : list instr :=
  [ITimeout (L 1) 1 (XInt 4); IYield 1 (XReg (L 1)) (L 2) YCatch; IYield 2 (XReg (G 0)) (L 3) YCatch; ILog (XReg (L 3))].
Definition yCond : list instr := [ICond (L 1) true [G 1]; IYield 3 (XReg (L 1)) (L 2) YCatch; ILog (XReg (L 2))].
Definition yTrig : list instr :=
  [ISucceed (G 0) (XInt 11); IFail (G 1) (XUser 2 3); ITimeout (L 1) 2 XNone; IYield 4 (XReg (L 1)) (L 2) YCatch;
   IFail (G 2) (XUser 3 9)].
Definition ycodes : list prog := map compile [yLate; yCond; yTrig].
Definition ysetup : list instr :=
  [IEvent (G 0); IEvent (G 1); IEvent (G 2); IProbe (G 2) 1; ISpawn (G 3) 0 XNone; ISpawn (G 4) 1 XNone; ISpawn (G 5) 2 XNone].

Definition y0 : state := fst (exec_top ycodes (exec ysetup []) (init_state 0)).
Definition yS (n : nat) : state := nsteps 50 ycodes n y0.
Definition yexn2 : exn := (EUser 2, [VInt 3]).
Definition yexn3 : exn := (EUser 3, [VInt 9]).

Lemma y0_creach : creach ycodes y0.
Proof. apply cr_top, cr_init. Qed.

Lemma yS_later n : later ycodes (init_state 0) (yS n).
Proof. apply later_nsteps, later_top, later_refl. Qed.

Lemma yS_creach n : all_ok 50 ycodes n y0 = true -> creach ycodes (yS n).
Proof. apply creach_nsteps, y0_creach. Qed.

(* step 8: the timeout of Late (event 9, value 4) *)
Definition ymT : entry := mkEntry 1 NORMAL 3 9.
Definition yrestT : list entry := [mkEntry 2 NORMAL 6 11].
Definition ysT : state := set_active (Some 0) (loop_start ymT yrestT (yS 7)).
Definition yprL : procrec := getp 0 ysT.
Definition yfragT := run_frag ycodes (resume (pcode yprL) (pst yprL) (Ok (VInt 4))) (feed_state 9 (Ok (VInt 4)) ysT).
Definition yaT : St (pcode yprL) := yielded (pst yprL) (snd yfragT).
Definition ys3T : state := put_proc 0 (proc_set_st yprL yaT) (fst yfragT).

(* step 5: G1 (event 1, failed with User2(3)), callbacks [CbCheck 10] *)
Definition ymG1 : entry := mkEntry 0 NORMAL 5 1.
Definition yrestG1 : list entry := [mkEntry 1 NORMAL 3 9; mkEntry 2 NORMAL 6 11].
Definition yLG1 : state := loop_start ymG1 yrestG1 (yS 4).

(* step 11: G2 (event 2, failed with User3(9)), callbacks [CbProbe 1] *)
Definition ymG2 : entry := mkEntry 2 NORMAL 10 2.
Definition yrestG2 : list entry := [mkEntry 2 NORMAL 11 7].
Definition yevG2 : event := mkEvent (Some [CbProbe 1]) (Some (Fail yexn3)) false KPlain.
Definition yLG2 : state := loop_start ymG2 yrestG2 (yS 10).

Lemma yS_S n : yS (S n) = fst (step 50 ycodes (yS n)).
Proof. apply nsteps_S. Qed.

Lemma yS_step n r : snd (step 50 ycodes (yS n)) = r -> step 50 ycodes (yS n) = (yS (S n), r).
Proof. apply nsteps_step. Qed.

Lemma yS10_pop : pop_min (agenda (yS 10)) = Some (ymG2, yrestG2).
Proof. vm_compute. reflexivity. Qed.

Lemma yS10_G2 : get_event (e_ev ymG2) (yS 10) = Some yevG2.
Proof. vm_compute. reflexivity. Qed.

Lemma y_chain_G2 : cb_chain 50 ycodes (e_ev ymG2) [CbProbe 1] (loop_start ymG2 yrestG2 (yS 10)) (yS 11).
Proof.
  rewrite (yS_S 10).
  apply (step_chain 50 ycodes (yS 10) ymG2 yrestG2 yevG2 [CbProbe 1] yS10_pop yS10_G2 eq_refl). vm_compute. reflexivity.
Qed.
