(* Kernel/StopSimStep.v -- C03: process bodies, callbacks and step() keep the simulation relation, for parametric
   programs.  [res_sim]: what a callback / a step gives on both sides is related unless the a-side answers the explicit
   internal-error result RBroken (the two sides run Condition._build_value with different recursion fuel -- the fuel is the
   condition's id -- so "enough fuel on the a-side" is the hypothesis, and then the b-side, whose ids are larger, has enough). *)
From Coq Require Import ZArith QArith List Bool Lia.
From ONL Require Import Kernel.Model Kernel.Keys Kernel.Inv Kernel.Order Kernel.Deliver Kernel.StopFrame Kernel.StopInv Kernel.StopRen
  Kernel.StopSim Kernel.StopSimCalls.
Import ListNotations.
Local Open Scope nat_scope.

Lemma result_eq_broken (r : result) : r = RBroken \/ r <> RBroken.
Proof. destruct r; auto; right; discriminate. Qed.

(* ---- reading a bisimulation proof ---- *)

Lemma fbis_inv pr f n fr fr' : fbis pr f n fr fr' ->
  match fr with
  | FYield v a => exists a', fr' = FYield (ren_val f v) a' /\ vdom n v = true /\ pbis pr f n a a'
  | FRet v => fr' = FRet (ren_val f v) /\ vdom n v = true
  | FRaise x => fr' = FRaise (ren_exn f x) /\ xdom n x = true
  | FCall c k => exists k', fr' = FCall (ren_call f c) k' /\ cdom n c = true /\
                   (forall f' n', agree n f f' -> n <= n' -> inj f' -> forall o, odom n' o = true ->
                                  fbis pr f' n' (k o) (k' (ren_outcome f' o)))
  end.
Proof. intros H. destruct H; eauto. Qed.

Definition fres_sim pr f n (r r' : fres (St pr)) : Prop :=
  match r, r' with
  | FrYield v st, FrYield v' st' => vdom n v = true /\ v' = ren_val f v /\ pbis pr f n st st'
  | FrRet v, FrRet v' => vdom n v = true /\ v' = ren_val f v
  | FrRaise x, FrRaise x' => xdom n x = true /\ x' = ren_exn f x
  | _, _ => False
  end.

Lemma do_call_len codes c s : length (events s) <= length (events (fst (do_call codes c s))).
Proof. apply sfr_length, sfr_do_call. Qed.

(* ---- the code of a process between two yields ---- *)

Lemma simn_run_frag codes pr f g : parametric_codes codes ->
  forall (fr fr' : frag (St pr)) a b, simn f g a b -> fbis pr f (length (events a)) fr fr' ->
    simn f g (fst (run_frag codes fr a)) (fst (run_frag codes fr' b)) /\
    fres_sim pr f (length (events (fst (run_frag codes fr a)))) (snd (run_frag codes fr a)) (snd (run_frag codes fr' b)) /\
    length (events a) <= length (events (fst (run_frag codes fr a))).
Proof.
  intros PC fr. induction fr as [v st|v|x|c k IH]; intros fr' a b S B; apply fbis_inv in B.
  - destruct B as (st' & -> & V & P). cbn [run_frag fst snd fres_sim]. auto.
  - destruct B as (-> & V). cbn [run_frag fst snd fres_sim]. auto.
  - destruct B as (-> & X). cbn [run_frag fst snd fres_sim]. auto.
  - destruct B as (k' & -> & C & K). cbn [run_frag].
    pose proof (simn_do_call codes f g a b c PC S C) as (S1 & Eo & Do). pose proof (do_call_len codes c a) as L1.
    destruct (do_call codes c a) as [a1 o]. destruct (do_call codes (ren_call f c) b) as [b1 o']. cbn [fst snd] in *. subst o'.
    assert (B1 : fbis pr f (length (events a1)) (k o) (k' (ren_outcome f o))).
    { apply K; [apply agree_refl|exact L1|apply smono_inj, (simn_smono _ _ _ _ S)|exact Do]. }
    destruct (IH o _ _ _ S1 B1) as (S2 & R2 & L2). split; [exact S2|]. split; [exact R2|lia].
Qed.

(* ---- Process._resume ---- *)

Lemma simn_proc_rel f g a b p pr : simn f g a b -> get_proc p a = Some pr ->
  exists pr', get_proc p b = Some pr' /\ proc_rel f (length (events a)) pr pr'.
Proof. intros [S _] H. exact (sim_get_proc f g a b S p pr H). Qed.

Lemma simn_proc_none f g a b p : simn f g a b -> get_proc p a = None -> get_proc p b = None.
Proof. intros [S _] H. exact (sim_get_proc_none f g a b S p H). Qed.

Lemma simn_set_target f g a b p t :
  simn f g a b -> (forall e, t = Some e -> e < length (events a)) ->
  simn f g (upd_proc p (proc_set_target t) a) (upd_proc p (proc_set_target (option_map f t)) b).
Proof.
  intros S Lt. apply simn_upd_proc; [exact S|].
  intros pr pr' (code & st & st' & pe & tg & -> & -> & Hp & Ht & B).
  exists code, st, st', pe, t. cbn [proc_set_target pcode pst pev ptarget]. auto.
Qed.

Lemma simn_proc_finish f g a b p pr pr' o :
  simn f g a b -> proc_rel f (length (events a)) pr pr' -> odom (length (events a)) o = true ->
  simn f g (proc_finish p pr o a) (proc_finish p pr' (ren_outcome f o) b).
Proof.
  intros S (code & st & st' & pe & tg & -> & -> & Hp & Ht & B) O. unfold proc_finish. cbn [pev].
  apply simn_set_active. apply (simn_set_target f g _ _ p None); [|discriminate].
  apply simn_trigger; assumption.
Qed.

Lemma simn_proc_wait f g a b p e :
  simn f g a b -> e < length (events a) -> simn f g (proc_wait p e a) (proc_wait p (f e) b).
Proof.
  intros S L. unfold proc_wait. apply simn_set_active.
  apply (simn_set_target f g _ _ p (Some e)); [|intros e0 E; injection E as <-; rewrite len_add_callback; exact L].
  apply (simn_add_callback f g a b e (CbResume p)); [exact S|reflexivity].
Qed.

Lemma res_sim_same f g a b r : simn f g a b -> rdom (length (events a)) r = true -> res_sim f g (a, r) (b, ren_result f r).
Proof. intros S D _. cbn [fst snd]. auto. Qed.

Lemma res_sim_broken f g a rb : res_sim f g (a, RBroken) rb.
Proof. intros X. destruct (X eq_refl). Qed.

Lemma simn_resume_loop codes f g : parametric_codes codes ->
  forall fuel p e a b, simn f g a b -> e < length (events a) ->
    res_sim f g (resume_loop fuel codes p e a) (resume_loop fuel codes p (f e) b).
Proof.
  intros PC. induction fuel as [|fu IH]; intros p e a b S Le; cbn [resume_loop].
  { apply (res_sim_same f g a b RFuel S eq_refl). }
  rewrite (simn_get _ _ _ _ _ S). destruct (get_event e a) as [ev|] eqn:He; cbn [option_map]; [|apply res_sim_broken].
  destruct (get_proc p a) as [pr|] eqn:Hp.
  2:{ rewrite (simn_proc_none _ _ _ _ _ S Hp). apply res_sim_broken. }
  destruct (simn_proc_rel _ _ _ _ _ _ S Hp) as (pr' & Hp' & PR). rewrite Hp'.
  cbn [ren_ev out]. destruct (out ev) as [o|] eqn:Oe; cbn [option_map]; [|apply res_sim_broken].
  pose proof (simn_evdom _ _ _ _ _ _ S He) as De.
  assert (Do : odom (length (events a)) o = true) by (apply evdom_parts in De; destruct De as (_ & B & _); exact (B _ Oe)).
  set (a1 := match o with Fail _ => upd_event e ev_set_defused a | Ok _ => a end).
  set (b1 := match ren_outcome f o with Fail _ => upd_event (f e) ev_set_defused b | Ok _ => b end).
  assert (S1 : simn f g a1 b1).
  { subst a1 b1. destruct o; cbn [ren_outcome]; [exact S|]. apply simn_upd_event; [exact S|]. intros ev0 _ D0. apply upd_set_defused, D0. }
  assert (La1 : length (events a1) = length (events a)) by (subst a1; destruct o; [reflexivity|apply upd_event_length]).
  pose proof PR as (code & st & st' & pe & tg & -> & -> & Hpe & Htg & B). cbn [pcode pst].
  assert (Bf : fbis code f (length (events a1)) (resume code st o) (resume code st' (ren_outcome f o))).
  { rewrite La1. apply pbis_resume; [exact B|apply smono_inj, (simn_smono _ _ _ _ S)|exact Do]. }
  destruct (simn_run_frag codes code f g PC _ _ _ _ S1 Bf) as (S2 & R2 & L2).
  destruct (run_frag codes (resume code st o) a1) as [a2 r]. destruct (run_frag codes (resume code st' (ren_outcome f o)) b1) as [b2 r'].
  cbn [fst snd] in S2, R2, L2.
  assert (PR2 : proc_rel f (length (events a2)) (mkProc code st pe tg) (mkProc code st' (f pe) (option_map f tg))).
  { apply (proc_rel_mono f f (length (events a))); [apply agree_refl|lia|exact PR]. }
  assert (Lpe : pe < length (events a2)) by lia.
  assert (Ltg : forall t, tg = Some t -> t < length (events a2)) by (intros t E; specialize (Htg _ E); lia).
  destruct r as [v st2|v|x]; destruct r' as [v' st2'|v'|x']; cbn [fres_sim] in R2; try contradiction.
  - destruct R2 as (Dv & -> & B2).
    assert (S3 : simn f g (put_proc p (proc_set_st (mkProc code st pe tg) st2) a2)
                          (put_proc p (proc_set_st (mkProc code st' (f pe) (option_map f tg)) st2') b2)).
    { unfold put_proc. apply simn_upd_proc; [exact S2|]. intros _ _ _. apply proc_rel_intro; assumption. }
    destruct v; cbn [ren_val];
      try (apply (res_sim_same f g _ _ (RRaise (kexn ERuntime M_invalid_yield)) S3 eq_refl)).
    cbn [vdom] in Dv. apply ltb_true_lt in Dv.
    rewrite (simn_get _ _ _ _ _ S3). destruct (get_event e0 _) as [ev'|]; cbn [option_map].
    2:{ apply (res_sim_same f g _ _ (RRaise (kexn ERuntime M_invalid_yield)) S3 eq_refl). }
    unfold is_processed. cbn [ren_ev cbs]. destruct (cbs ev'); cbn [option_map].
    + intros _. cbn [fst snd]. split; [apply simn_proc_wait; [exact S3|exact Dv]|]. split; reflexivity.
    + apply IH; [exact S3|exact Dv].
  - destruct R2 as (Dv & ->). intros _. cbn [fst snd]. split; [|split; reflexivity].
    exact (simn_proc_finish f g a2 b2 p _ _ (Ok v) S2 PR2 Dv).
  - destruct R2 as (Dx & ->). intros _. cbn [fst snd]. split; [|split; reflexivity].
    exact (simn_proc_finish f g a2 b2 p _ _ (Fail x) S2 PR2 Dx).
Qed.

Lemma simn_resume_proc codes f g fuel p e a b : parametric_codes codes ->
  simn f g a b -> e < length (events a) -> res_sim f g (resume_proc fuel codes p e a) (resume_proc fuel codes p (f e) b).
Proof. intros PC S L. unfold resume_proc. apply simn_resume_loop; [exact PC|apply simn_set_active, S|exact L]. Qed.

(* ---- Interruption._interrupt ---- *)

Lemma simn_do_interruption codes f g fuel i a b : parametric_codes codes ->
  simn f g a b -> i < length (events a) -> res_sim f g (do_interruption fuel codes i a) (do_interruption fuel codes (f i) b).
Proof.
  intros PC S Li. unfold do_interruption. rewrite (simn_get _ _ _ _ _ S).
  destruct (get_event i a) as [iev|]; cbn [option_map]; [|apply res_sim_broken].
  cbn [ren_ev kind]. destruct (kind iev); cbn [ren_kind]; try apply res_sim_broken.
  destruct (get_proc p a) as [pr|] eqn:Hp.
  2:{ rewrite (simn_proc_none _ _ _ _ _ S Hp). apply res_sim_broken. }
  destruct (simn_proc_rel _ _ _ _ _ _ S Hp) as (pr' & Hp' & PR). rewrite Hp'.
  destruct PR as (code & st & st' & pe & tg & -> & -> & Hpe & Htg & B). cbn [pev ptarget].
  rewrite (simn_get _ _ _ _ _ S). destruct (get_event pe a) as [pev0|]; cbn [option_map]; [|apply res_sim_broken].
  unfold is_triggered. cbn [ren_ev out]. destruct (out pev0); cbn [option_map].
  { apply (res_sim_same f g a b ROk S eq_refl). }
  destruct tg as [t|]; cbn [option_map]; [|apply res_sim_broken].
  rewrite (simn_get _ _ _ _ _ S). destruct (get_event t a) as [tev|] eqn:Ht; cbn [option_map]; [|apply res_sim_broken].
  cbn [ren_ev cbs]. destruct (cbs tev) as [l|] eqn:Ct; cbn [option_map].
  2:{ apply (res_sim_same f g a b (RRaise (kexn EAttribute M_target_processed)) S eq_refl). }
  change (mem_cb (CbResume p) (map (ren_cb f) l)) with (mem_cb (ren_cb f (CbResume p)) (map (ren_cb f) l)).
  rewrite (mem_cb_ren _ _ _ (simn_smono _ _ _ _ S)).
  destruct (mem_cb (CbResume p) l).
  2:{ apply (res_sim_same f g a b (RRaise (kexn EValue M_not_in_list)) S eq_refl). }
  change (remove_first (CbResume p) (map (ren_cb f) l)) with (remove_first (ren_cb f (CbResume p)) (map (ren_cb f) l)).
  rewrite (remove_first_ren _ _ _ (simn_smono _ _ _ _ S)).
  apply simn_resume_proc; [exact PC| |rewrite upd_event_length; exact Li].
  apply simn_upd_event; [exact S|]. intros ev H D. rewrite Ht in H. injection H as <-.
  apply (upd_set_cbs f _ (Some (remove_first (CbResume p) l))); [|exact D].
  intros l0 E; injection E as <-. apply forallb_remove_first. apply evdom_parts in D. apply D, Ct.
Qed.

(* ---- the callbacks ---- *)

Lemma simn_stop_cb f g a b e : simn f g a b -> res_sim f g (stop_cb e a) (stop_cb (f e) b).
Proof.
  intros S. unfold stop_cb. rewrite (simn_get _ _ _ _ _ S). destruct (get_event e a) as [ev|] eqn:H; cbn [option_map]; [|apply res_sim_broken].
  pose proof (simn_evdom _ _ _ _ _ _ S H) as D. apply evdom_parts in D. destruct D as (_ & B & _).
  cbn [ren_ev out]. destruct (out ev) as [[v|x]|] eqn:O; cbn [option_map ren_outcome]; [| |apply res_sim_broken].
  - apply (res_sim_same f g a b (RStop v) S). exact (B _ eq_refl).
  - apply (res_sim_same f g a b (RRaise x) S). exact (B _ eq_refl).
Qed.

Lemma simn_probe_cb f g a b k e : simn f g a b -> e < length (events a) -> simn f g (probe_cb k e a) (probe_cb k (f e) b).
Proof.
  intros S L. unfold probe_cb. rewrite (simn_get _ _ _ _ _ S), (proj2 S).
  assert (E : match option_map (ren_ev f) (get_event e a) with Some ev => out ev | None => None end =
              option_map (ren_outcome f) (match get_event e a with Some ev => out ev | None => None end))
    by (destruct (get_event e a); reflexivity).
  rewrite E. apply (simn_add_obs f g a b (OProbe k e (now a) (match get_event e a with Some ev => out ev | None => None end)) S).
  cbn [obdom]. apply Nat.ltb_lt in L. rewrite L. cbn [andb].
  destruct (get_event e a) as [ev|] eqn:H; [|reflexivity]. destruct (out ev) as [o|] eqn:O; [|reflexivity].
  pose proof (simn_evdom _ _ _ _ _ _ S H) as D. apply evdom_parts in D. apply D, O.
Qed.

Lemma simn_run_cb codes f g fuel e c a b : parametric_codes codes ->
  simn f g a b -> e < length (events a) -> cbdom (length (events a)) c = true ->
  res_sim f g (run_cb fuel codes e c a) (run_cb fuel codes (f e) (ren_cb f c) b).
Proof.
  intros PC S Le Dc. destruct c; cbn [run_cb ren_cb cbdom] in *.
  - apply simn_resume_proc; assumption.
  - intros _. cbn [fst snd]. split; [apply simn_cond_check; [exact S|apply ltb_true_lt, Dc]|]. split; reflexivity.
  - apply simn_cond_build; [exact S|apply ltb_true_lt, Dc].
  - apply simn_do_interruption; [exact PC|exact S|apply ltb_true_lt, Dc].
  - apply simn_stop_cb, S.
  - intros _. cbn [fst snd]. split; [apply simn_probe_cb; assumption|]. split; reflexivity.
Qed.

Lemma run_cb_len fuel codes e c s : length (events s) <= length (events (fst (run_cb fuel codes e c s))).
Proof. apply sfr_length, sfr_run_cb. Qed.

Lemma is_stop_cb_ren f c : is_stop_cb (ren_cb f c) = is_stop_cb c.
Proof. destruct c; reflexivity. Qed.
Lemma is_exit_ren f r : is_exit (ren_result f r) = is_exit r.
Proof. destruct r; reflexivity. Qed.

Lemma ren_result_ok f r : ren_result f r = ROk -> r = ROk.
Proof. destruct r; cbn; congruence. Qed.

Lemma forallb_cbdom_mono n n' l : n <= n' -> forallb (cbdom n) l = true -> forallb (cbdom n') l = true.
Proof.
  intros L. induction l as [|x t IH]; cbn [forallb]; [auto|]. rewrite !andb_true_iff. intros [A B].
  split; [eapply cbdom_mono; eassumption|auto].
Qed.

Lemma rdom_mono n n' r : n <= n' -> rdom n r = true -> rdom n' r = true.
Proof. intros L. destruct r; cbn [rdom]; try (intros; reflexivity); [apply vdom_mono, L|apply vsdom_mono, L]. Qed.

Lemma run_callbacks_len fuel codes e l s : length (events s) <= length (events (fst (run_callbacks fuel codes e l s))).
Proof. apply sfr_length, sfr_run_callbacks. Qed.

(* the loop *)
Lemma simn_run_callbacks codes f g fuel e : parametric_codes codes ->
  forall l a b, simn f g a b -> e < length (events a) -> forallb (cbdom (length (events a))) l = true ->
    res_sim f g (run_callbacks fuel codes e l a) (run_callbacks fuel codes (f e) (map (ren_cb f) l) b).
Proof.
  intros PC. induction l as [|c t IH]; intros a b S Le Dl; [apply (res_sim_same f g a b ROk S eq_refl)|].
  cbn [forallb map] in *. apply andb_true_iff in Dl. destruct Dl as [Dc Dt].
  pose proof (simn_run_cb codes f g fuel e c a b PC S Le Dc) as R1. pose proof (run_cb_len fuel codes e c a) as L1.
  destruct (run_cb fuel codes e c a) as [a1 r] eqn:Ra. destruct (run_cb fuel codes (f e) (ren_cb f c) b) as [b1 r'] eqn:Rb.
  unfold res_sim in R1. cbn [fst snd] in R1, L1.
  destruct (result_eq_broken r) as [->|Nb].
  { (* the a-side gave the internal-error answer: it ends the loop with it *)
    rewrite (run_callbacks_cons_not_ok _ _ _ _ t _ _ _ Ra) by discriminate. cbn [is_exit]. rewrite andb_false_r. apply res_sim_broken. }
  destruct (R1 Nb) as (S1 & -> & D1).
  assert (Le1 : e < length (events a1)) by lia.
  assert (Dt1 : forallb (cbdom (length (events a1))) t = true) by (apply (forallb_cbdom_mono _ _ _ L1 Dt)).
  destruct (not_ok_cases r) as [->|N]; [cbn [run_callbacks]; rewrite Ra, Rb; apply IH; assumption|].
  rewrite (run_callbacks_cons_not_ok _ _ _ _ t _ _ _ Ra N), (run_callbacks_cons_not_ok _ _ _ _ _ _ _ _ Rb)
    by (intros X; apply N, (ren_result_ok f), X).
  rewrite is_stop_cb_ren, is_exit_ren. destruct (is_stop_cb c && is_exit r); [|apply (res_sim_same f g a1 b1 r S1 D1)].
  (* a remembered stop: the rest of the loop runs, and its answer wins unless it is ROk *)
  pose proof (IH _ _ S1 Le1 Dt1) as R2. pose proof (run_callbacks_len fuel codes e t a1) as L2.
  destruct (run_callbacks fuel codes e t a1) as [a2 r2]. destruct (run_callbacks fuel codes (f e) (map (ren_cb f) t) b1) as [b2 r2'].
  unfold res_sim in *. cbn [fst snd] in *.
  destruct (not_ok_cases r2) as [->|N2].
  - destruct (R2 ltac:(discriminate)) as (S2 & -> & _). intros _. cbn [ren_result fst snd].
    split; [exact S2|]. split; [reflexivity|exact (rdom_mono _ _ _ L2 D1)].
  - rewrite (match_not_ok r2 _ _ N2). intros Nb2. destruct (R2 Nb2) as (S2 & -> & D2).
    rewrite match_not_ok by (intros X; apply N2, (ren_result_ok f), X). auto.
Qed.

(* ------------------------------------------------------------------------------------------------ *)
(* step() *)

Lemma check_failure_ren f g a b e :
  simn f g a b -> check_failure (f e) b = ren_result f (check_failure e a) /\ rdom (length (events a)) (check_failure e a) = true.
Proof.
  intros S. unfold check_failure. rewrite (simn_get _ _ _ _ _ S). destruct (get_event e a) as [ev|] eqn:H; cbn [option_map]; [|auto].
  pose proof (simn_evdom _ _ _ _ _ _ S H) as D. apply evdom_parts in D. destruct D as (_ & B & _).
  cbn [ren_ev out defused]. destruct (out ev) as [[v|x]|] eqn:O; cbn [option_map ren_outcome]; [auto| |auto].
  destruct (defused ev); [auto|]. split; [reflexivity|]. exact (B _ eq_refl).
Qed.

(* the order of keys is the same on both sides *)
Lemma smono_le_iff h i j : smono h -> (h i <= h j <-> i <= j).
Proof.
  intros M. split; intros L.
  - destruct (Nat.le_gt_cases i j) as [X|X]; [exact X|]. pose proof (M _ _ X). lia.
  - destruct (Nat.eq_dec i j) as [->|N]; [lia|]. assert (X : i < j) by lia. pose proof (M _ _ X). lia.
Qed.

Lemma key_le_ren f g x z : smono g -> (key_le (ren_entry f g x) (ren_entry f g z) <-> key_le x z).
Proof.
  intros M. unfold key_le, ren_entry. cbn [e_time e_prio e_eid]. rewrite (smono_le_iff g _ _ M). reflexivity.
Qed.

Definition is_ghost_entry (f g : nat -> nat) (a : state) (y : entry) : Prop :=
  (forall i, i < length (events a) -> f i <> e_ev y) /\ (forall i, i < next_eid a -> g i <> e_eid y).

(* the minimum of b's agenda is a ghost, or the renamed minimum of a's agenda *)
Lemma sim_min f g a b y rest' :
  sim f g a b -> good a -> good b -> pop_min (agenda b) = Some (y, rest') ->
  is_ghost_entry f g a y \/ exists m rest, pop_min (agenda a) = Some (m, rest) /\ y = ren_entry f g m.
Proof.
  intros S Ga Gb P. destruct (pop_min_spec _ _ _ P) as (Hy & _ & Hle).
  destruct (sm_agenda2 _ _ _ _ S _ Hy) as (_ & _ & [(x & Hx & ->)|Gh]); [|left; exact Gh]. right.
  destruct (pop_min (agenda a)) as [[m rest]|] eqn:Pa; [|apply pop_min_none in Pa; rewrite Pa in Hx; destruct Hx].
  exists m, rest. split; [reflexivity|]. destruct (pop_min_spec _ _ _ Pa) as (Hm & _ & Hla).
  destruct (sm_agenda1 _ _ _ _ S _ Hm) as (_ & _ & Hmb).
  pose proof (proj1 (key_le_ren f g _ _ (sm_g _ _ _ _ S)) (Hle _ Hmb)) as K1. pose proof (Hla _ Hx) as K2.
  assert (E : e_eid x = e_eid m).
  { destruct (Nat.eq_dec (e_eid x) (e_eid m)) as [E|N]; [exact E|]. exfalso. apply (key_le_not_lt _ _ K1).
    apply key_le_neq_lt; [exact K2|]. intros Q. apply N. symmetry. exact Q. }
  f_equal. destruct Ga as (A & _). eapply (nodup_eid_inj (agenda a)); [apply (ok_nodup _ A)|exact Hx|exact Hm|exact E].
Qed.

Lemma sim_g_lt f g a b i : sim f g a b -> i < next_eid a -> g i < next_eid b.
Proof. intros S L. pose proof (sm_gfut _ _ _ _ S 0) as E. rewrite !Nat.add_0_r in E. pose proof (sm_g _ _ _ _ S _ _ L). lia. Qed.

(* replacing both agendas *)
Lemma sim_set_agenda f g a b ra rb :
  sim f g a b ->
  (forall x, In x ra -> In x (agenda a) /\ In (ren_entry f g x) rb) ->
  (forall y, In y rb -> In y (agenda b) /\ ((exists x, y = ren_entry f g x /\ In x (agenda a)) -> exists x, y = ren_entry f g x /\ In x ra)) ->
  sim f g (set_agenda ra a) (set_agenda rb b).
Proof.
  intros S H1 H2. destruct S as [F G Ff Gf Ac Ev Gh A1 A2 Pr Gl Ob].
  constructor; cbn [set_agenda events agenda next_eid active procs glob obs]; try assumption.
  - intros x Hx. destruct (H1 _ Hx) as [Ha Hb]. destruct (A1 _ Ha) as (X1 & X2 & _). auto.
  - intros y Hy. destruct (H2 _ Hy) as [Hb K]. destruct (A2 _ Hb) as (Y1 & Y2 & Y3). split; [exact Y1|]. split; [exact Y2|].
    destruct Y3 as [(x & Hx & ->)|Gh']; [|right; exact Gh']. left.
    destruct (K (ex_intro _ x (conj eq_refl Hx))) as (x' & E & Hx'). exists x'. auto.
Qed.

Lemma ren_entry_inj f g x z : smono f -> smono g -> ren_entry f g x = ren_entry f g z -> x = z.
Proof.
  intros F G E. destruct x as [t p i e], z as [t' p' i' e']. unfold ren_entry in E. cbn in E. injection E as -> -> E1 E2.
  apply (smono_inj _ G) in E1. apply (smono_inj _ F) in E2. now subst.
Qed.

(* both sides pop corresponding entries *)
Lemma sim_pop_real f g a b m rest rest' :
  sim f g a b -> good a -> good b ->
  pop_min (agenda a) = Some (m, rest) -> pop_min (agenda b) = Some (ren_entry f g m, rest') ->
  simn f g (pop_state m rest a) (pop_state (ren_entry f g m) rest' b).
Proof.
  intros S Ga Gb Pa Pb.
  destruct (pop_min_spec _ _ _ Pa) as (Hm & Er & _). destruct (pop_min_spec _ _ _ Pb) as (Hm' & Er' & _).
  pose proof Ga as (Aa & _). pose proof Gb as (Ab & _).
  destruct (sm_agenda1 _ _ _ _ S _ Hm) as (Lm & _ & _).
  split; [|reflexivity]. unfold pop_state.
  change (OStep (e_ev (ren_entry f g m)) (e_time (ren_entry f g m))) with (ren_obs f (OStep (e_ev m) (e_time m))).
  apply sim_add_obs; [|cbn [obdom set_agenda set_now events]; apply Nat.ltb_lt, Lm].
  apply sim_set_agenda; [apply sim_set_now, S| |].
  - intros x Hx. cbn [set_now agenda]. subst rest. pose proof (remove_eid_subset _ _ _ Hx) as Hxa.
    split; [exact Hxa|]. subst rest'. destruct (sm_agenda1 _ _ _ _ S _ Hxa) as (_ & _ & Hxb).
    apply remove_eid_keeps; [exact Hxb|]. cbn [ren_entry e_eid]. intros E. apply (smono_inj _ (sm_g _ _ _ _ S)) in E.
    exact (remove_eid_not_in _ _ (ok_nodup _ Aa) _ Hx E).
  - intros y Hy. cbn [set_now agenda]. subst rest'. pose proof (remove_eid_subset _ _ _ Hy) as Hyb. split; [exact Hyb|].
    intros (x & -> & Hx). exists x. split; [reflexivity|]. subst rest. apply remove_eid_keeps; [exact Hx|].
    intros E. apply (remove_eid_not_in _ _ (ok_nodup _ Ab) _ Hy). cbn [ren_entry e_eid]. now rewrite E.
Qed.

Lemma sim_set_now_b f g a b t : sim f g a b -> sim f g a (set_now t b).
Proof. intros [F G Ff Gf Ac Ev Gh A1 A2 Pr Gl Ob]. constructor; assumption. Qed.

Lemma sim_set_agenda_b f g a b rb :
  sim f g a b -> (forall x, In x (agenda a) -> In (ren_entry f g x) rb) -> (forall y, In y rb -> In y (agenda b)) ->
  sim f g a (set_agenda rb b).
Proof.
  intros [F G Ff Gf Ac Ev Gh A1 A2 Pr Gl Ob] H1 H2.
  constructor; cbn [set_agenda events agenda next_eid active procs glob obs]; try assumption.
  - intros x Hx. destruct (A1 _ Hx) as (X1 & X2 & _). auto.
  - intros y Hy. apply A2, H2, Hy.
Qed.

(* b pops a ghost entry, a stands still *)
Lemma sim_pop_ghost f g a b y rest' :
  sim f g a b -> good b -> pop_min (agenda b) = Some (y, rest') -> is_ghost_entry f g a y ->
  sim f g a (pop_state y rest' b).
Proof.
  intros S Gb Pb [Gy _]. destruct (pop_min_spec _ _ _ Pb) as (Hy & Er' & _). pose proof Gb as (Ab & _).
  unfold pop_state. apply sim_add_obs_ghost.
  apply sim_set_agenda_b; [apply (sim_set_now_b f g a b), S| |].
  - intros x Hx. cbn [set_now agenda]. subst rest'. destruct (sm_agenda1 _ _ _ _ S _ Hx) as (Lx & _ & Hxb).
    apply remove_eid_keeps; [exact Hxb|]. intros Eq.
    assert (ren_entry f g x = y) by (eapply (nodup_eid_inj (agenda b)); [apply (ok_nodup _ Ab)|exact Hxb|exact Hy|exact Eq]).
    subst y. exact (Gy _ Lx eq_refl).
  - intros y0 Hy0. cbn [set_now agenda] in *. subst rest'. eapply remove_eid_subset, Hy0.
Qed.

(* an inert event may lose its (empty) callback list *)
Lemma sim_upd_ghost f g a b j h :
  sim f g a b -> (forall i, i < length (events a) -> f i <> j) -> (forall ev, inert ev -> inert (h ev)) ->
  sim f g a (upd_event j h b).
Proof.
  intros S N H. destruct S as [F G Ff Gf Ac Ev Gh A1 A2 Pr Gl Ob].
  constructor; cbn [upd_event set_events events agenda next_eid active procs glob obs]; rewrite ?upd_nth_length; try assumption.
  - intros i ev Hi. destruct (Ev _ _ Hi) as [D B]. split; [exact D|]. rewrite nth_error_upd_nth.
    destruct (Nat.eqb (f i) j) eqn:E; [|exact B]. apply Nat.eqb_eq in E. exfalso. apply (N i); [|exact E].
    apply nth_error_Some. congruence.
  - intros k ev'. rewrite nth_error_upd_nth. destruct (Nat.eqb k j) eqn:E.
    + apply Nat.eqb_eq in E. subst k. destruct (nth_error (events b) j) as [ev0|] eqn:E0; cbn; [|discriminate].
      intros X Nk; injection X as <-. apply H. exact (Gh _ _ E0 Nk).
    + apply Gh.
Qed.

(* a step in which both sides pop corresponding entries *)
Lemma sim_step_real codes f g fuel a b m rest rest' : parametric_codes codes ->
  sim f g a b -> good a -> good b ->
  pop_min (agenda a) = Some (m, rest) -> pop_min (agenda b) = Some (ren_entry f g m, rest') ->
  res_sim f g (step fuel codes a) (step fuel codes b).
Proof.
  intros PC S Ga Gb Pa Pb. pose proof (sim_pop_real _ _ _ _ _ _ _ S Ga Gb Pa Pb) as S1.
  destruct (pop_min_spec _ _ _ Pa) as (Hm & _ & _). destruct (sm_agenda1 _ _ _ _ S _ Hm) as (Lm & _ & _).
  unfold step. rewrite Pa, Pb. cbn [ren_entry e_ev]. rewrite (simn_get _ _ _ _ _ S1).
  destruct (get_event (e_ev m) (pop_state m rest a)) as [ev|] eqn:He; cbn [option_map]; [|apply res_sim_broken].
  pose proof (simn_evdom _ _ _ _ _ _ S1 He) as De.
  cbn [ren_ev cbs]. destruct (cbs ev) as [l|] eqn:Ce; cbn [option_map].
  2:{ apply (res_sim_same f g _ _ (RRaise (kexn EType M_none_not_iterable)) S1 eq_refl). }
  assert (S2 : simn f g (upd_event (e_ev m) (ev_set_cbs None) (pop_state m rest a))
                        (upd_event (f (e_ev m)) (ev_set_cbs None) (pop_state (ren_entry f g m) rest' b))).
  { apply simn_upd_event; [exact S1|]. intros ev0 _ D0. apply (upd_set_cbs f _ None); [discriminate|exact D0]. }
  assert (Dl : forallb (cbdom (length (events (upd_event (e_ev m) (ev_set_cbs None) (pop_state m rest a))))) l = true).
  { rewrite upd_event_length. apply evdom_parts in De. apply De, Ce. }
  assert (Le : e_ev m < length (events (upd_event (e_ev m) (ev_set_cbs None) (pop_state m rest a)))) by (rewrite upd_event_length; exact Lm).
  pose proof (simn_run_callbacks codes f g fuel (e_ev m) PC l _ _ S2 Le Dl) as R.
  destruct (run_callbacks fuel codes (e_ev m) l _) as [a2 r]. destruct (run_callbacks fuel codes (f (e_ev m)) (map (ren_cb f) l) _) as [b2 r'].
  unfold res_sim in *. cbn [fst snd] in *.
  destruct (result_eq_broken r) as [->|Nb]; [intros X; destruct (X eq_refl)|].
  destruct (R Nb) as (S3 & -> & D3). destruct (check_failure_ren f g a2 b2 (e_ev m) S3) as [Ec Dc].
  destruct r; cbn [ren_result fst snd]; intros _; try (split; [exact S3|split; [reflexivity|exact D3]]).
  split; [exact S3|]. split; [exact Ec|exact Dc].
Qed.

(* a step in which b pops a ghost *)
Lemma sim_step_ghost codes f g fuel a b y rest' :
  sim f g a b -> good b -> pop_min (agenda b) = Some (y, rest') -> is_ghost_entry f g a y ->
  sim f g a (fst (step fuel codes b)).
Proof.
  intros S Gb Pb Gy. pose proof (sim_pop_ghost _ _ _ _ _ _ S Gb Pb Gy) as S1.
  destruct (pop_min_spec _ _ _ Pb) as (Hy & _ & _). destruct (sm_agenda2 _ _ _ _ S _ Hy) as (Ly & _ & _).
  unfold step. rewrite Pb. rewrite get_event_pop_state.
  destruct (get_event (e_ev y) b) as [ev|] eqn:He; [|exact S1].
  pose proof (sm_ghosts _ _ _ _ S _ _ He (proj1 Gy)) as (Oi & Ci).
  destruct Ci as [Ci|Ci]; rewrite Ci; [|exact S1].
  cbn [run_callbacks].
  assert (S2 : sim f g a (upd_event (e_ev y) (ev_set_cbs None) (pop_state y rest' b))).
  { apply sim_upd_ghost; [exact S1|exact (proj1 Gy)|]. intros ev0 (O0 & _). split; [exact O0|right; reflexivity]. }
  destruct (check_failure (e_ev y) _); exact S2.
Qed.
