(* Kernel/Model.v -- executable operational semantics of onl/sim/core.py (Environment: schedule, peek,
   step, run) and onl/sim/events.py (Event, Timeout, Initialize, Interruption, Process, Condition).
   NO proofs in this file (the model must still run when a proof breaks).

   Main definitions (in file order)
     val / exn / outcome          values, exceptions (class + args; copying an exception is the identity)
     cb / ekind / event           defunctionalised callbacks, event records {cbs; out; defused; kind}
     call / frag / prog           processes as automata {St; start; resume : St -> outcome -> frag St}
     entry / state                agenda entries (time, prio, eid, event), kernel state
     key_ltb min_entry remove_eid pop_min      the heap: minimum of the lexicographic key
     schedule peek new_event upd_event add_callback remove_first mem_cb
     trigger_event                Event.succeed / Event.fail without the guard (sets outcome, schedules NORMAL)
     call_timeout call_event call_succeed call_fail call_spawn call_interrupt call_cond call_query ... do_call
     cond_check cond_build remove_check_from remove_ops remove_checks populate_ops populate   Condition._check/_build_value/_remove_check_callbacks/_populate_value
     run_frag                     runs the synchronous calls of a fragment up to Yield/Return/Raise
     proc_finish proc_wait resume_loop resume_proc   Process._resume
     do_interruption stop_cb probe_cb run_cb run_callbacks
     pop_state step               Environment.step
     run_prelude run_loop run     Environment.run(until = None | number | event)
     run_callbacks_unfixed step_unfixed run_unfixed step_sel run_sel   the code as found before the C03 fix: (stop raised inside the callback loop)
     init_state exec_top          initial state; code executed outside any process (active = None)

   Conventions
     * ids are positions in append-only lists ([events], [procs]); a fresh id is a length.
     * every Python exception that can escape is an explicit [result]/[outcome]; [RFuel] is the explicit
       out-of-fuel result; [RBroken] marks internal inconsistencies (an agenda entry naming no event, ...)
       that Python would answer with some incidental TypeError: theorems must show they are not reached.
     * times are [Q]; stored times are [Qred]-normalised; comparisons use [Qcompare]/[Qle_bool].
     * URGENT = 0, NORMAL = 1 as in events.py.
     * not modelled: resources (extension point: add callbacks/kinds/calls), Event.trigger (public, unused),
       the mixed-environment ValueError of Condition (one environment only), tracebacks/__cause__/repr. *)
From Coq Require Import ZArith QArith List Bool.
Import ListNotations.

Definition evid := nat.
Definition pid := nat.

Definition URGENT : nat := 0%nat.
Definition NORMAL : nat := 1%nat.

(* ------------------------------------------------------------------------------------------------ *)
(* values, exceptions *)

Inductive ecls := EInterrupt | ERuntime | EValue | EAttribute | EType | EAssert | EUser (tag : Z).

Inductive val :=
| VNone
| VInt (z : Z)
| VNum (x : Q)
| VEv (e : evid)                              (* an Event object (Process objects are events) *)
| VCond (items : list (evid * val))           (* ConditionValue: processed leaves with their values, ordered *)
| VList (l : list val)
| VExn (c : ecls) (args : list val).          (* an exception object used as a value *)

Definition exn := (ecls * list val)%type.
Inductive outcome := Ok (v : val) | Fail (x : exn).

(* the messages of the kernel's own exceptions, as codes (the harness maps message patterns to them) *)
Definition M_already_triggered : Z := 1.   (* RuntimeError  '... has already been triggered' *)
Definition M_terminated : Z := 2.          (* RuntimeError  '... has terminated and cannot be interrupted.' *)
Definition M_self_interrupt : Z := 3.      (* RuntimeError  'A process is not allowed to interrupt itself.' *)
Definition M_invalid_yield : Z := 4.       (* RuntimeError  'Invalid yield value ...' *)
Definition M_until_not_triggered : Z := 5. (* RuntimeError  'No scheduled events left but "until" event was not triggered' *)
Definition M_negative_delay : Z := 6.      (* ValueError    'Negative delay ...' *)
Definition M_not_exception : Z := 7.       (* ValueError    '... is not an exception.' *)
Definition M_until_past : Z := 8.          (* ValueError    'until(=...) must be > the current simulation time.' *)
Definition M_value_pending : Z := 9.       (* AttributeError 'Value of ... is not yet available' / no attribute '_ok' *)
Definition M_not_an_event : Z := 10.       (* AttributeError: operand is not an event / process (None.succeed ...) *)
Definition M_not_a_generator : Z := 11.    (* ValueError    '... is not a generator.'  (unknown code index) *)
Definition M_target_processed : Z := 12.   (* AttributeError 'NoneType' object has no attribute 'remove' (in _interrupt) *)
Definition M_not_in_list : Z := 13.        (* ValueError    list.remove(x): x not in list (in _interrupt) *)
Definition M_none_not_iterable : Z := 14.  (* TypeError     'NoneType' object is not iterable (event processed twice) *)
Definition M_assert : Z := 15.             (* AssertionError  assert not until.triggered *)

Definition kexn (c : ecls) (m : Z) : exn := (c, [VInt m]).
Definition exn_val (x : exn) : val := VExn (fst x) (snd x).

(* ------------------------------------------------------------------------------------------------ *)
(* events *)

Inductive cb :=
| CbResume (p : pid)          (* Process._resume of process p *)
| CbCheck (c : evid)          (* Condition._check of condition c *)
| CbBuild (c : evid)          (* Condition._build_value of condition c *)
| CbInterrupt (i : evid)      (* Interruption._interrupt of interruption event i *)
| CbStop                      (* StopSimulation.callback *)
| CbProbe (n : nat).          (* recording callback appended by the harness *)

Definition cb_eqb (a b : cb) : bool :=
  match a, b with
  | CbResume p, CbResume q => Nat.eqb p q
  | CbCheck p, CbCheck q => Nat.eqb p q
  | CbBuild p, CbBuild q => Nat.eqb p q
  | CbInterrupt p, CbInterrupt q => Nat.eqb p q
  | CbStop, CbStop => true
  | CbProbe p, CbProbe q => Nat.eqb p q
  | _, _ => false
  end.

Inductive ekind :=
| KPlain | KTimeout | KInit (p : pid) | KInterruption (p : pid) | KProcess (p : pid)
| KCond (all : bool) (ops : list evid) (count : nat) | KSentinel.

Record event := mkEvent {
  cbs : option (list cb);        (* Event.callbacks; None once processed *)
  out : option outcome;          (* None = PENDING; Some (Ok v) / Some (Fail x) = _ok,_value *)
  defused : bool;
  kind : ekind }.

(* ------------------------------------------------------------------------------------------------ *)
(* processes *)

Inductive query := QTriggered | QProcessed | QOk | QValue | QAlive | QDefused.

Inductive call :=
| CTimeout (d : Q) (v : val)
| CEvent
| CSucceed (e : evid) (v : val)
| CFail (e : evid) (x : val)
| CSpawn (code : nat) (arg : val)
| CInterrupt (e : evid) (cause : val)          (* e: the Process event *)
| CAllOf (es : list evid)
| CAnyOf (es : list evid)
| CProbe (e : evid) (n : nat)                  (* e.callbacks.append(probe n)  (harness) *)
| CQuery (q : query) (e : evid)
| CNow
| CPeek
| CLog (v : val)                               (* harness: record v with env.now and env.active_process *)
| CGetG (g : nat)                              (* variables shared by closures *)
| CSetG (g : nat) (v : val).

Inductive frag (A : Type) :=
| FYield (v : val) (a : A)                     (* yield v  (v should be VEv e), continue in state a *)
| FRet (v : val)
| FRaise (x : exn)
| FCall (c : call) (k : outcome -> frag A).    (* k receives the result or the exception the call raised *)
Arguments FYield {A}. Arguments FRet {A}. Arguments FRaise {A}. Arguments FCall {A}.

Record prog := mkProg { St : Type; start : val -> St; resume : St -> outcome -> frag St }.

Record procrec := mkProc {
  pcode : prog;
  pst : St pcode;                 (* the suspended generator *)
  pev : evid;                     (* the Process event *)
  ptarget : option evid }.        (* Process._target *)

(* ------------------------------------------------------------------------------------------------ *)
(* state *)

Record entry := mkEntry { e_time : Q; e_prio : nat; e_eid : nat; e_ev : evid }.

Inductive observation :=
| OStep (e : evid) (t : Q)                                   (* step() popped event e and set now := t *)
| OProbe (n : nat) (e : evid) (t : Q) (o : option outcome)   (* probe n called for e *)
| OLog (p : option pid) (t : Q) (v : val).

Record state := mkState {
  now : Q;
  agenda : list entry;
  next_eid : nat;
  events : list event;
  procs : list procrec;
  active : option pid;
  glob : list val;
  obs : list observation }.       (* most recent first *)

Inductive result :=
| ROk                 (* step: processed one event; run: returned None *)
| REmpty              (* EmptySchedule *)
| RStop (v : val)     (* StopSimulation(v) / run returned v *)
| RRaise (x : exn)    (* an exception escaped *)
| RFuel
| RBroken.

Definition set_now t s := mkState t (agenda s) (next_eid s) (events s) (procs s) (active s) (glob s) (obs s).
Definition set_agenda a s := mkState (now s) a (next_eid s) (events s) (procs s) (active s) (glob s) (obs s).
Definition set_events ev s := mkState (now s) (agenda s) (next_eid s) ev (procs s) (active s) (glob s) (obs s).
Definition set_procs ps s := mkState (now s) (agenda s) (next_eid s) (events s) ps (active s) (glob s) (obs s).
Definition set_active a s := mkState (now s) (agenda s) (next_eid s) (events s) (procs s) a (glob s) (obs s).
Definition set_glob g s := mkState (now s) (agenda s) (next_eid s) (events s) (procs s) (active s) g (obs s).
Definition add_obs o s := mkState (now s) (agenda s) (next_eid s) (events s) (procs s) (active s) (glob s) (o :: obs s).

Fixpoint upd_nth {A : Type} (n : nat) (f : A -> A) (l : list A) : list A :=
  match l, n with
  | [], _ => []
  | x :: t, O => f x :: t
  | x :: t, S m => x :: upd_nth m f t
  end.

(* ------------------------------------------------------------------------------------------------ *)
(* the agenda: heappush / heappop on keys (time, priority, eid) that are pairwise distinct *)

Definition key_ltb (a b : entry) : bool :=
  match e_time a ?= e_time b with
  | Lt => true
  | Gt => false
  | Eq => Nat.ltb (e_prio a) (e_prio b) || (Nat.eqb (e_prio a) (e_prio b) && Nat.ltb (e_eid a) (e_eid b))
  end.

Fixpoint min_entry (l : list entry) : option entry :=
  match l with
  | [] => None
  | x :: t => match min_entry t with
              | None => Some x
              | Some m => if key_ltb m x then Some m else Some x
              end
  end.

Fixpoint remove_eid (id : nat) (l : list entry) : list entry :=
  match l with
  | [] => []
  | x :: t => if Nat.eqb (e_eid x) id then t else x :: remove_eid id t
  end.

Definition pop_min (l : list entry) : option (entry * list entry) :=
  match min_entry l with
  | None => None
  | Some m => Some (m, remove_eid (e_eid m) l)
  end.

(* Environment.schedule *)
Definition schedule (e : evid) (prio : nat) (delay : Q) (s : state) : state :=
  mkState (now s) (agenda s ++ [mkEntry (Qred (now s + delay)) prio (next_eid s) e]) (S (next_eid s))
          (events s) (procs s) (active s) (glob s) (obs s).

(* Environment.peek; None = Infinity *)
Definition peek (s : state) : option Q :=
  match min_entry (agenda s) with None => None | Some m => Some (e_time m) end.

(* ------------------------------------------------------------------------------------------------ *)
(* event store *)

Definition get_event (e : evid) (s : state) : option event := nth_error (events s) e.
Definition upd_event (e : evid) (f : event -> event) (s : state) : state :=
  set_events (upd_nth e f (events s)) s.
Definition new_event (ev : event) (s : state) : evid * state :=
  (length (events s), set_events (events s ++ [ev]) s).

Definition ev_set_cbs c (ev : event) := mkEvent c (out ev) (defused ev) (kind ev).
Definition ev_set_out o (ev : event) := mkEvent (cbs ev) o (defused ev) (kind ev).
Definition ev_set_defused (ev : event) := mkEvent (cbs ev) (out ev) true (kind ev).
Definition ev_set_kind k (ev : event) := mkEvent (cbs ev) (out ev) (defused ev) k.

Definition ev_add_cb (c : cb) (ev : event) : event :=
  match cbs ev with Some l => ev_set_cbs (Some (l ++ [c])) ev | None => ev end.
(* event.callbacks.append(c)  -- the caller has checked that callbacks is a list *)
Definition add_callback (e : evid) (c : cb) (s : state) : state := upd_event e (ev_add_cb c) s.

Fixpoint remove_first (c : cb) (l : list cb) : list cb :=
  match l with
  | [] => []
  | x :: t => if cb_eqb x c then t else x :: remove_first c t
  end.
Definition mem_cb (c : cb) (l : list cb) : bool := existsb (cb_eqb c) l.

(* sets _ok/_value and calls env.schedule(self)  (the tail of succeed / fail) *)
Definition trigger_event (e : evid) (o : outcome) (s : state) : state :=
  schedule e NORMAL 0 (upd_event e (ev_set_out (Some o)) s).

Definition is_triggered (ev : event) : bool := match out ev with Some _ => true | None => false end.
Definition is_processed (ev : event) : bool := match cbs ev with None => true | Some _ => false end.
Definition is_failed (ev : event) : bool := match out ev with Some (Fail _) => true | _ => false end.

(* Event._value of a triggered event as a Python object *)
Definition raw_value (ev : event) : option val :=
  match out ev with
  | Some (Ok v) => Some v
  | Some (Fail x) => Some (exn_val x)
  | None => None
  end.

(* ------------------------------------------------------------------------------------------------ *)
(* conditions *)

Definition cond_evaluate (all : bool) (n_ops count : nat) : bool :=
  if all then Nat.eqb n_ops count                       (* all_events: len(events) == count *)
  else Nat.ltb 0 count || Nat.eqb n_ops 0.              (* any_events: count > 0 or len(events) == 0 *)

(* Condition._check(op) of condition c *)
Definition cond_check (c op : evid) (s : state) : state :=
  match get_event c s, get_event op s with
  | Some cev, Some oev =>
      match out cev, kind cev with
      | None, KCond all ops count =>
          let s1 := upd_event c (ev_set_kind (KCond all ops (S count))) s in
          match out oev with
          | Some (Fail x) => trigger_event c (Fail x) (upd_event op ev_set_defused s1)
          | _ => if cond_evaluate all (length ops) (S count) then trigger_event c (Ok VNone) s1 else s1
          end
      | _, _ => s                                       (* self._value is not PENDING: return *)
      end
  | _, _ => s
  end.

(* Condition._remove_check_callbacks, recursively; fuel bounds the nesting depth (operands are older
   than their condition, so [S c] is enough); None = fuel exhausted or a dangling operand.
   [remove_ops rec c ops]: the loop over the operands of c; [rec] handles a nested condition. *)
Definition remove_check_from (c o : evid) (s : state) : state :=
  match get_event o s with
  | Some oev => match cbs oev with
                | Some l => if mem_cb (CbCheck c) l
                            then upd_event o (ev_set_cbs (Some (remove_first (CbCheck c) l))) s
                            else s
                | None => s
                end
  | None => s
  end.

Definition is_cond (ev : event) : bool := match kind ev with KCond _ _ _ => true | _ => false end.

Fixpoint remove_ops (rec : evid -> state -> option state) (c : evid) (l : list evid) (s : state) : option state :=
  match l with
  | [] => Some s
  | o :: t =>
      match get_event o s with
      | None => None
      | Some oev =>
          let s1 := remove_check_from c o s in
          if is_cond oev
          then match rec o s1 with Some s2 => remove_ops rec c t s2 | None => None end
          else remove_ops rec c t s1
      end
  end.

Fixpoint remove_checks (fuel : nat) (c : evid) (s : state) : option state :=
  match fuel with
  | O => None
  | S f =>
      match get_event c s with
      | Some cev => match kind cev with
                    | KCond _ ops _ => remove_ops (remove_checks f) c ops s
                    | _ => Some s
                    end
      | None => None
      end
  end.

(* Condition._populate_value: the processed leaves, left to right, nested conditions flattened *)
Fixpoint populate_ops (rec : list evid -> option (list (evid * val))) (evs : list event) (l : list evid)
  : option (list (evid * val)) :=
  match l with
  | [] => Some []
  | o :: t =>
      match nth_error evs o with
      | None => None
      | Some oev =>
          match kind oev with
          | KCond _ ops' _ =>
              match rec ops', populate_ops rec evs t with
              | Some inner, Some rest => Some (inner ++ rest)
              | _, _ => None
              end
          | _ =>
              match cbs oev with
              | None => match raw_value oev, populate_ops rec evs t with
                        | Some v, Some rest => Some ((o, v) :: rest)
                        | _, _ => None
                        end
              | Some _ => populate_ops rec evs t
              end
          end
      end
  end.

Fixpoint populate (fuel : nat) (evs : list event) (ops : list evid) : option (list (evid * val)) :=
  match fuel with
  | O => None
  | S f => populate_ops (populate f evs) evs ops
  end.

(* Condition._build_value (callback of the condition c itself) *)
Definition cond_build (c : evid) (s : state) : state * result :=
  match remove_checks (S c) c s with
  | None => (s, RBroken)
  | Some s1 =>
      match get_event c s1 with
      | Some cev =>
          match out cev, kind cev with
          | Some (Ok _), KCond _ ops _ =>
              match populate (S c) (events s1) ops with
              | Some items => (upd_event c (ev_set_out (Some (Ok (VCond items)))) s1, ROk)
              | None => (s1, RBroken)
              end
          | Some (Fail _), _ => (s1, ROk)
          | _, _ => (s1, RBroken)
          end
      | None => (s1, RBroken)
      end
  end.

(* ------------------------------------------------------------------------------------------------ *)
(* the synchronous API calls; each returns the new state and the value returned / exception raised *)

Definition neg_delay (d : Q) : bool := match d ?= 0 with Lt => true | _ => false end.

(* Timeout(env, delay, value) *)
Definition call_timeout (d : Q) (v : val) (s : state) : state * outcome :=
  if neg_delay d then (s, Fail (kexn EValue M_negative_delay))
  else let '(e, s1) := new_event (mkEvent (Some []) (Some (Ok v)) false KTimeout) s in
       (schedule e NORMAL d s1, Ok (VEv e)).

(* Event(env) *)
Definition call_event (s : state) : state * outcome :=
  let '(e, s1) := new_event (mkEvent (Some []) None false KPlain) s in (s1, Ok (VEv e)).

(* Event.succeed(value) *)
Definition call_succeed (e : evid) (v : val) (s : state) : state * outcome :=
  match get_event e s with
  | None => (s, Fail (kexn EAttribute M_not_an_event))
  | Some ev => if is_triggered ev then (s, Fail (kexn ERuntime M_already_triggered))
               else (trigger_event e (Ok v) s, Ok (VEv e))
  end.

(* Event.fail(exception) *)
Definition call_fail (e : evid) (x : val) (s : state) : state * outcome :=
  match get_event e s with
  | None => (s, Fail (kexn EAttribute M_not_an_event))
  | Some ev => if is_triggered ev then (s, Fail (kexn ERuntime M_already_triggered))
               else match x with
                    | VExn c args => (trigger_event e (Fail (c, args)) s, Ok (VEv e))
                    | _ => (s, Fail (kexn EValue M_not_exception))
                    end
  end.

(* Process(env, generator): the Process event, then Initialize (URGENT) with callbacks [_resume] *)
Definition call_spawn (codes : list prog) (code : nat) (arg : val) (s : state) : state * outcome :=
  match nth_error codes code with
  | None => (s, Fail (kexn EValue M_not_a_generator))
  | Some pr =>
      let p := length (procs s) in
      let '(pe, s1) := new_event (mkEvent (Some []) None false (KProcess p)) s in
      let '(ie, s2) := new_event (mkEvent (Some [CbResume p]) (Some (Ok VNone)) false (KInit p)) s1 in
      let s3 := schedule ie URGENT 0 s2 in
      (set_procs (procs s3 ++ [mkProc pr (start pr arg) pe (Some ie)]) s3, Ok (VEv pe))
  end.

(* Process.interrupt(cause) = Interruption(process, cause) *)
Definition call_interrupt (e : evid) (cause : val) (s : state) : state * outcome :=
  match get_event e s with
  | None => (s, Fail (kexn EAttribute M_not_an_event))
  | Some ev =>
      match kind ev with
      | KProcess p =>
          if is_triggered ev then (s, Fail (kexn ERuntime M_terminated))
          else if match active s with Some a => Nat.eqb a p | None => false end
               then (s, Fail (kexn ERuntime M_self_interrupt))
          else
            let i := length (events s) in
            let '(_, s1) := new_event (mkEvent (Some [CbInterrupt i]) (Some (Fail (EInterrupt, [cause]))) true
                                               (KInterruption p)) s in
            (schedule i URGENT 0 s1, Ok VNone)
      | _ => (s, Fail (kexn EAttribute M_not_an_event))
      end
  end.

(* the loop of Condition.__init__ over the operands *)
Fixpoint cond_subscribe (c : evid) (ops : list evid) (s : state) : state :=
  match ops with
  | [] => s
  | o :: t =>
      let s1 := match get_event o s with
                | Some oev => if is_processed oev then cond_check c o s else add_callback o (CbCheck c) s
                | None => s
                end in
      cond_subscribe c t s1
  end.

Definition all_valid (es : list evid) (s : state) : bool :=
  forallb (fun e => match get_event e s with Some _ => true | None => false end) es.

(* Condition(env, all_events | any_events, events) *)
Definition call_cond (all : bool) (es : list evid) (s : state) : state * outcome :=
  if negb (all_valid es s) then (s, Fail (kexn EAttribute M_not_an_event))
  else
    let '(c, s1) := new_event (mkEvent (Some []) None false (KCond all es 0)) s in
    match es with
    | [] => (trigger_event c (Ok (VCond [])) s1, Ok (VEv c))
    | _ => (add_callback c (CbBuild c) (cond_subscribe c es s1), Ok (VEv c))
    end.

Definition call_probe (e : evid) (n : nat) (s : state) : state * outcome :=
  match get_event e s with
  | Some ev => if is_processed ev then (s, Fail (kexn EAttribute M_target_processed))
               else (add_callback e (CbProbe n) s, Ok VNone)
  | None => (s, Fail (kexn EAttribute M_not_an_event))
  end.

Definition vbool (b : bool) : val := VInt (if b then 1 else 0).

Definition call_query (q : query) (e : evid) (s : state) : state * outcome :=
  match get_event e s with
  | None => (s, Fail (kexn EAttribute M_not_an_event))
  | Some ev =>
      match q with
      | QTriggered => (s, Ok (vbool (is_triggered ev)))
      | QProcessed => (s, Ok (vbool (is_processed ev)))
      | QDefused => (s, Ok (vbool (defused ev)))
      | QOk => match out ev with
               | Some (Ok _) => (s, Ok (vbool true))
               | Some (Fail _) => (s, Ok (vbool false))
               | None => (s, Fail (kexn EAttribute M_value_pending))
               end
      | QValue => match raw_value ev with
                  | Some v => (s, Ok v)
                  | None => (s, Fail (kexn EAttribute M_value_pending))
                  end
      | QAlive => match kind ev with
                  | KProcess _ => (s, Ok (vbool (negb (is_triggered ev))))
                  | _ => (s, Fail (kexn EAttribute M_not_an_event))
                  end
      end
  end.

Fixpoint set_nth_val (n : nat) (v : val) (l : list val) : list val :=
  match n, l with
  | O, [] => [v]
  | O, _ :: t => v :: t
  | S m, [] => VNone :: set_nth_val m v []
  | S m, x :: t => x :: set_nth_val m v t
  end.

Definition do_call (codes : list prog) (c : call) (s : state) : state * outcome :=
  match c with
  | CTimeout d v => call_timeout d v s
  | CEvent => call_event s
  | CSucceed e v => call_succeed e v s
  | CFail e x => call_fail e x s
  | CSpawn code arg => call_spawn codes code arg s
  | CInterrupt e cause => call_interrupt e cause s
  | CAllOf es => call_cond true es s
  | CAnyOf es => call_cond false es s
  | CProbe e n => call_probe e n s
  | CQuery q e => call_query q e s
  | CNow => (s, Ok (VNum (now s)))
  | CPeek => (s, Ok (match peek s with Some t => VNum t | None => VNone end))
  | CLog v => (add_obs (OLog (active s) (now s) v) s, Ok VNone)
  | CGetG g => (s, Ok (nth g (glob s) VNone))
  | CSetG g v => (set_glob (set_nth_val g v (glob s)) s, Ok VNone)
  end.

(* ------------------------------------------------------------------------------------------------ *)
(* running the code of a process between two yields *)

Inductive fres (A : Type) := FrYield (v : val) (a : A) | FrRet (v : val) | FrRaise (x : exn).
Arguments FrYield {A}. Arguments FrRet {A}. Arguments FrRaise {A}.

Fixpoint run_frag {A : Type} (codes : list prog) (f : frag A) (s : state) : state * fres A :=
  match f with
  | FYield v a => (s, FrYield v a)
  | FRet v => (s, FrRet v)
  | FRaise x => (s, FrRaise x)
  | FCall c k => let '(s1, o) := do_call codes c s in run_frag codes (k o) s1
  end.

Definition get_proc (p : pid) (s : state) : option procrec := nth_error (procs s) p.
Definition proc_set_st (pr : procrec) (a : St (pcode pr)) : procrec := mkProc (pcode pr) a (pev pr) (ptarget pr).
Definition proc_set_target (t : option evid) (pr : procrec) : procrec := mkProc (pcode pr) (pst pr) (pev pr) t.
Definition upd_proc (p : pid) (f : procrec -> procrec) (s : state) : state := set_procs (upd_nth p f (procs s)) s.
Definition put_proc (p : pid) (pr : procrec) (s : state) : state := upd_proc p (fun _ => pr) s.

(* generator exhausted (return / uncaught exception): trigger the Process event, _target = None, active = None *)
Definition proc_finish (p : pid) (pr : procrec) (o : outcome) (s : state) : state :=
  set_active None (upd_proc p (proc_set_target None) (trigger_event (pev pr) o s)).

(* the process waits for the pending event e: callbacks.append(_resume); _target = e; active = None *)
Definition proc_wait (p : pid) (e : evid) (s : state) : state :=
  set_active None (upd_proc p (proc_set_target (Some e)) (add_callback e (CbResume p) s)).

(* the `while True` of Process._resume; fuel bounds the number of already processed events yielded in a row *)
Fixpoint resume_loop (fuel : nat) (codes : list prog) (p : pid) (e : evid) (s : state) : state * result :=
  match fuel with
  | O => (s, RFuel)
  | S f =>
      match get_event e s, get_proc p s with
      | Some ev, Some pr =>
          match out ev with
          | None => (s, RBroken)
          | Some o =>
              let s1 := match o with Fail _ => upd_event e ev_set_defused s | Ok _ => s end in
              let '(s2, r) := run_frag codes (resume (pcode pr) (pst pr) o) s1 in
              match r with
              | FrRet v => (proc_finish p pr (Ok v) s2, ROk)
              | FrRaise x => (proc_finish p pr (Fail x) s2, ROk)
              | FrYield v a =>
                  let s3 := put_proc p (proc_set_st pr a) s2 in
                  match v with
                  | VEv e' =>
                      match get_event e' s3 with
                      | Some ev' => if is_processed ev' then resume_loop f codes p e' s3
                                    else (proc_wait p e' s3, ROk)
                      | None => (s3, RRaise (kexn ERuntime M_invalid_yield))
                      end
                  | _ => (s3, RRaise (kexn ERuntime M_invalid_yield))
                  end
              end
          end
      | _, _ => (s, RBroken)
      end
  end.

(* Process._resume(event) *)
Definition resume_proc (fuel : nat) (codes : list prog) (p : pid) (e : evid) (s : state) : state * result :=
  resume_loop fuel codes p e (set_active (Some p) s).

(* Interruption._interrupt *)
Definition do_interruption (fuel : nat) (codes : list prog) (i : evid) (s : state) : state * result :=
  match get_event i s with
  | Some iev =>
      match kind iev with
      | KInterruption p =>
          match get_proc p s with
          | Some pr =>
              match get_event (pev pr) s with
              | Some pe =>
                  if is_triggered pe then (s, ROk)                  (* dead: ignored *)
                  else match ptarget pr with
                       | Some t =>
                           match get_event t s with
                           | Some tev =>
                               match cbs tev with
                               | None => (s, RRaise (kexn EAttribute M_target_processed))
                               | Some l =>
                                   if mem_cb (CbResume p) l
                                   then resume_proc fuel codes p i
                                          (upd_event t (ev_set_cbs (Some (remove_first (CbResume p) l))) s)
                                   else (s, RRaise (kexn EValue M_not_in_list))
                               end
                           | None => (s, RBroken)
                           end
                       | None => (s, RBroken)
                       end
              | None => (s, RBroken)
              end
          | None => (s, RBroken)
          end
      | _ => (s, RBroken)
      end
  | None => (s, RBroken)
  end.

(* StopSimulation.callback(event) *)
Definition stop_cb (e : evid) (s : state) : state * result :=
  match get_event e s with
  | Some ev => match out ev with
               | Some (Ok v) => (s, RStop v)
               | Some (Fail x) => (s, RRaise x)       (* raise event._value: the object itself, not defused *)
               | None => (s, RBroken)
               end
  | None => (s, RBroken)
  end.

Definition probe_cb (n : nat) (e : evid) (s : state) : state :=
  add_obs (OProbe n e (now s) (match get_event e s with Some ev => out ev | None => None end)) s.

(* callback(event) *)
Definition run_cb (fuel : nat) (codes : list prog) (e : evid) (c : cb) (s : state) : state * result :=
  match c with
  | CbResume p => resume_proc fuel codes p e s
  | CbCheck c => (cond_check c e s, ROk)
  | CbBuild c => cond_build c s
  | CbInterrupt i => do_interruption fuel codes i s
  | CbStop => stop_cb e s
  | CbProbe n => (probe_cb n e s, ROk)
  end.

(* for callback in callbacks: callback(event)
   An exception raised by a callback ends the loop and the rest of the callbacks is lost -- except for
   StopSimulation.callback (repaired code, fix: commit in onl/sim/core.py): whatever the stop callback raises
   (StopSimulation(value), or the failure of a failed until-event) is remembered, the remaining callbacks of the
   event still run, and it is raised right after the loop.  If a later callback raises, that exception escapes.
   The code as found (stop raised from inside the loop, later waiters dropped) is [run_callbacks_unfixed]. *)
Definition is_stop_cb (c : cb) : bool := match c with CbStop => true | _ => false end.
Definition is_exit (r : result) : bool := match r with RStop _ | RRaise _ => true | _ => false end.

Fixpoint run_callbacks (fuel : nat) (codes : list prog) (e : evid) (l : list cb) (s : state) : state * result :=
  match l with
  | [] => (s, ROk)
  | c :: t => let '(s1, r) := run_cb fuel codes e c s in
              match r with
              | ROk => run_callbacks fuel codes e t s1
              | _ => if is_stop_cb c && is_exit r
                     then let '(s2, r2) := run_callbacks fuel codes e t s1 in
                          match r2 with ROk => (s2, r) | _ => (s2, r2) end
                     else (s1, r)
              end
  end.

(* after the loop: an undefused failure crashes the environment with a copy of the exception *)
Definition check_failure (e : evid) (s : state) : result :=
  match get_event e s with
  | Some ev => match out ev with
               | Some (Fail x) => if defused ev then ROk else RRaise x
               | Some (Ok _) => ROk
               | None => RBroken
               end
  | None => RBroken
  end.

(* self._now, _, _, event = heappop(self._queue) *)
Definition pop_state (m : entry) (rest : list entry) (s : state) : state :=
  add_obs (OStep (e_ev m) (e_time m)) (set_agenda rest (set_now (e_time m) s)).

(* Environment.step *)
Definition step (fuel : nat) (codes : list prog) (s : state) : state * result :=
  match pop_min (agenda s) with
  | None => (s, REmpty)
  | Some (m, rest) =>
      let e := e_ev m in
      let s1 := pop_state m rest s in
      match get_event e s1 with
      | None => (s1, RBroken)
      | Some ev =>
          match cbs ev with
          | None => (s1, RRaise (kexn EType M_none_not_iterable))
          | Some l =>
              let '(s2, r) := run_callbacks fuel codes e l (upd_event e (ev_set_cbs None) s1) in
              match r with
              | ROk => (s2, check_failure e s2)
              | _ => (s2, r)
              end
          end
      end
  end.

(* ------------------------------------------------------------------------------------------------ *)
(* Environment.run *)

Inductive until := UNone | UNum (t : Q) | UEv (e : evid).

(* the part of run() before the loop: inl = run returns/raises at once, inr = enter the loop *)
Definition run_prelude (u : until) (s : state) : (state * result) + state :=
  match u with
  | UNone => inr s
  | UNum t =>
      if Qle_bool t (now s) then inl (s, RRaise (kexn EValue M_until_past))
      else let '(e, s1) := new_event (mkEvent (Some []) (Some (Ok VNone)) false KSentinel) s in
           inr (add_callback e CbStop (schedule e URGENT (t - now s) s1))
  | UEv e =>
      match get_event e s with
      | None => inl (s, RRaise (kexn EAttribute M_not_an_event))
      | Some ev =>
          if is_processed ev
          then inl (s, match raw_value ev with Some v => RStop v | None => RRaise (kexn EAttribute M_value_pending) end)
          else inr (add_callback e CbStop s)
      end
  end.

(* what run() does when step() raised EmptySchedule *)
Definition run_empty (u : until) (s : state) : result :=
  match u with
  | UNone => ROk
  | UEv e =>
      match get_event e s with
      | Some ev => if is_triggered ev then RRaise (kexn EAssert M_assert) else RRaise (kexn ERuntime M_until_not_triggered)
      | None => RBroken
      end
  | UNum _ => RRaise (kexn EAssert M_assert)     (* the sentinel is triggered and scheduled: not reachable *)
  end.

(* while True: self.step()   -- [fuel] bounds the number of steps (and is the fuel of each step) *)
Fixpoint run_loop (n : nat) (fuel : nat) (codes : list prog) (u : until) (s : state) : state * result :=
  match n with
  | O => (s, RFuel)
  | S m =>
      let '(s1, r) := step fuel codes s in
      match r with
      | ROk => run_loop m fuel codes u s1
      | REmpty => (s1, run_empty u s1)
      | _ => (s1, r)                       (* RStop v: run returns v; RRaise x: x escapes run *)
      end
  end.

Definition run (fuel : nat) (codes : list prog) (u : until) (s : state) : state * result :=
  match run_prelude u s with
  | inl r => r
  | inr s1 => run_loop fuel fuel codes u s1
  end.

(* ------------------------------------------------------------------------------------------------ *)
(* The kernel as found at the pinned commit, before the fix: commit for C03: StopSimulation raised from inside
   the callback loop.  Executable copies used only to state and replay the refutation of the C03 split-transparency
   statement ([..._refuted_before_fix]); [step_sel]/[run_sel] select by a boolean (true = repaired code). *)
Fixpoint run_callbacks_unfixed (fuel : nat) (codes : list prog) (e : evid) (l : list cb) (s : state) : state * result :=
  match l with
  | [] => (s, ROk)
  | c :: t => let '(s1, r) := run_cb fuel codes e c s in
              match r with
              | ROk => run_callbacks_unfixed fuel codes e t s1
              | _ => (s1, r)
              end
  end.

Definition step_unfixed (fuel : nat) (codes : list prog) (s : state) : state * result :=
  match pop_min (agenda s) with
  | None => (s, REmpty)
  | Some (m, rest) =>
      let e := e_ev m in
      let s1 := pop_state m rest s in
      match get_event e s1 with
      | None => (s1, RBroken)
      | Some ev =>
          match cbs ev with
          | None => (s1, RRaise (kexn EType M_none_not_iterable))
          | Some l =>
              let '(s2, r) := run_callbacks_unfixed fuel codes e l (upd_event e (ev_set_cbs None) s1) in
              match r with
              | ROk => (s2, check_failure e s2)
              | _ => (s2, r)
              end
          end
      end
  end.

Fixpoint run_loop_unfixed (n : nat) (fuel : nat) (codes : list prog) (u : until) (s : state) : state * result :=
  match n with
  | O => (s, RFuel)
  | S m =>
      let '(s1, r) := step_unfixed fuel codes s in
      match r with
      | ROk => run_loop_unfixed m fuel codes u s1
      | REmpty => (s1, run_empty u s1)
      | _ => (s1, r)
      end
  end.

Definition run_unfixed (fuel : nat) (codes : list prog) (u : until) (s : state) : state * result :=
  match run_prelude u s with
  | inl r => r
  | inr s1 => run_loop_unfixed fuel fuel codes u s1
  end.

Definition step_sel (fixed_stop : bool) := if fixed_stop then step else step_unfixed.
Definition run_sel (fixed_stop : bool) := if fixed_stop then run else run_unfixed.

(* ------------------------------------------------------------------------------------------------ *)

Definition init_state (t0 : Q) : state := mkState (Qred t0) [] 0 [] [] None [] [].

(* code executed outside any process (module level): the calls of a fragment, active = None *)
Definition exec_top {A : Type} (codes : list prog) (f : frag A) (s : state) : state * fres A :=
  run_frag codes f s.
