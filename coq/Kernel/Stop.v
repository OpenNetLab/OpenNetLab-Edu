(* Kernel/Stop.v -- C03, definitions: stop points, split runs, the free-running kernel, and the witness that refutes
   split transparency for the kernel as found (StopSimulation raised from inside the callback loop).

     stop                       a stop point: run() | run(until=t) | run(until=event) | n times step()
     run_stop_sel fx            what one stop point does ([fx] = true: the repaired kernel of Kernel/Model.v)
     run_split_sel fx           a plan of stop points, one after the other; what an item returns or raises is the caller's
                                business (the harness records it and goes on with the next item), the kernel state carries on
     free_run k                 k times step(), whatever the steps answer: the uninterrupted execution (a run() that ends with
                                an escaped failure is resumed by the next run(): [run_loop_free])
     logs                       the user-visible part of the trace: the OLog / OProbe records, in order  *)
From Coq Require Import ZArith QArith List Bool Lia.
From ONL Require Import Kernel.Model Kernel.Script.
Import ListNotations.

Inductive stop := SRun | SNum (t : Q) | SEv (e : evid) | SStep (n : nat).

Fixpoint nsteps_sel (fx : bool) (n fuel : nat) (codes : list prog) (s : state) : state * result :=
  match n with
  | O => (s, ROk)
  | S m => let '(s1, r) := step_sel fx fuel codes s in
           match r with ROk => nsteps_sel fx m fuel codes s1 | _ => (s1, r) end
  end.

Definition run_stop_sel (fx : bool) (fuel : nat) (codes : list prog) (st : stop) (s : state) : state * result :=
  match st with
  | SRun => run_sel fx fuel codes UNone s
  | SNum t => run_sel fx fuel codes (UNum t) s
  | SEv e => run_sel fx fuel codes (UEv e) s
  | SStep n => nsteps_sel fx n fuel codes s
  end.

Fixpoint run_split_sel (fx : bool) (fuel : nat) (codes : list prog) (plan : list stop) (s : state) : state * list result :=
  match plan with
  | [] => (s, [])
  | st :: t => let '(s1, r) := run_stop_sel fx fuel codes st s in
               let '(s2, rs) := run_split_sel fx fuel codes t s1 in (s2, r :: rs)
  end.

Definition run_stop := run_stop_sel true.
Definition run_split := run_split_sel true.
Definition nsteps := nsteps_sel true.

Fixpoint free_run_sel (fx : bool) (k fuel : nat) (codes : list prog) (s : state) : state :=
  match k with
  | O => s
  | S m => free_run_sel fx m fuel codes (fst (step_sel fx fuel codes s))
  end.
Definition free_run := free_run_sel true.

Lemma free_run_S k fuel codes s : free_run (S k) fuel codes s = free_run k fuel codes (fst (step fuel codes s)).
Proof. reflexivity. Qed.

Lemma free_run_inv (P : state -> Prop) fuel codes :
  (forall s, P s -> P (fst (step fuel codes s))) -> forall k s, P s -> P (free_run k fuel codes s).
Proof. intros H. induction k as [|k IH]; intros s Ps; [exact Ps|]. rewrite free_run_S. apply IH, H, Ps. Qed.

Definition is_user_obs (o : observation) : bool := match o with OStep _ _ => false | _ => true end.
Definition logs (s : state) : list observation := filter is_user_obs (rev (obs s)).

(* ------------------------------------------------------------------------------------------------ *)
(* determinism: [run], [step], [run_split] are Coq functions of the program and the state -- the model has no hash, no
   object address and no clock.  Stated for the record; that the IMPLEMENTATION is a function of the program is checked by
   the correspondence under several PYTHONHASHSEED values in fresh interpreter processes (props/c03.py, extra_checks). *)
Lemma run_deterministic fuel codes u s x y : run fuel codes u s = x -> run fuel codes u s = y -> x = y.
Proof. intros <- <-. reflexivity. Qed.

Lemma run_split_deterministic fuel codes plan s x y : run_split fuel codes plan s = x -> run_split fuel codes plan s = y -> x = y.
Proof. intros <- <-. reflexivity. Qed.

(* ------------------------------------------------------------------------------------------------ *)
(* the witness (corpus/C03/until-event-loses-late-waiter.json): process 1 yields the until-event G0 at t = 1, after
   run(until=G0) has appended the stop callback; G0 is triggered at t = 2 *)
Definition wit_code0 : list instr :=
  [ITimeout (L 1) 2 XNone; IYield 1 (XReg (L 1)) (L 2) YCatch; ISucceed (G 0) (XInt 5)].
Definition wit_code1 : list instr :=
  [ITimeout (L 1) 1 XNone; IYield 2 (XReg (L 1)) (L 2) YCatch; IYield 3 (XReg (G 0)) (L 3) YCatch; ILog (XReg (L 3));
   ITimeout (L 4) 1 XNone; IYield 4 (XReg (L 4)) (L 5) YCatch; ILog (XInt 99)].
Definition wit_setup : list instr :=
  [IEvent (G 0); IProbe (G 0) 1; ISpawn (G 1) 0 XNone; ISpawn (G 2) 1 XNone].
Definition wit_codes : list prog := map compile [wit_code0; wit_code1].
Definition wit_s0 : state := fst (exec_top wit_codes (exec wit_setup []) (init_state 0)).
Definition wit_plan : list stop := [SEv 0%nat; SRun].

(* split_refuted_before_fix: with the kernel as found, the split run [run(until=G0); run()] and the uninterrupted run() both
   return normally and leave an empty agenda, but the split run has lost process 1 for good: its visible trace is shorter *)
Theorem split_refuted_before_fix :
  exists fuel codes s0 plan,
    let S := fst (run_split_sel false fuel codes plan s0) in
    let U := run_sel false fuel codes UNone s0 in
    snd U = ROk /\ agenda (fst U) = [] /\ agenda S = [] /\
    snd (run_split_sel false fuel codes plan s0) = [RStop (VInt 5); ROk] /\
    logs S <> logs (fst U) /\ (length (logs S) < length (logs (fst U)))%nat.
Proof.
  exists 100%nat, wit_codes, wit_s0, wit_plan. vm_compute.
  repeat split; try reflexivity; try lia. intros H. discriminate H.
Qed.

(* the same witness on the repaired kernel: nothing is lost *)
Example wit_repaired :
  let S := fst (run_split 100 wit_codes wit_plan wit_s0) in
  let U := run 100 wit_codes UNone wit_s0 in
  snd U = ROk /\ agenda (fst U) = [] /\ agenda S = [] /\
  snd (run_split 100 wit_codes wit_plan wit_s0) = [RStop (VInt 5); ROk] /\ logs S = logs (fst U).
Proof. vm_compute. repeat split; reflexivity. Qed.
