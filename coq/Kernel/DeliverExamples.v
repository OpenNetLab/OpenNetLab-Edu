(* Kernel/DeliverExamples.v -- C02: concrete instances showing that the hypotheses of the C02 theorems are satisfiable on
   non-trivial states (computed with vm_compute from a script family), and what the theorems then say about them.

   The family: a shared event G0; two waiters (A catches what it receives, B lets it propagate); a trigger process that
   fails G0 and then tries to succeed it (refused); a child that returns 0 and a parent that joins it. *)
From Coq Require Import ZArith QArith List Bool Lia.
From ONL Require Import Base.Tools Kernel.Model Kernel.Script Kernel.Keys Kernel.Deliver Kernel.DeliverInv Kernel.DeliverWf Kernel.DeliverThm
  Kernel.DeliverVal Kernel.DeliverMore.
Import ListNotations.
Local Open Scope nat_scope.

Definition xA : list instr := [IYield 1 (XReg (G 0)) (L 1) YCatch; ILog (XReg (L 1))].
Definition xB : list instr := [IYield 2 (XReg (G 0)) (L 1) YPropagate].
Definition xT : list instr := [IFail (G 0) (XUser 1 7); ISucceed (G 0) (XInt 0); IQuery (L 1) QOk (G 0); ILog (XReg (L 1))].
Definition xChild : list instr := [ITimeout (L 1) 1 (XInt 0); IYield 3 (XReg (L 1)) (L 2) YCatch; IReturn (XInt 0)].
Definition xParent : list instr := [ISpawn (L 1) 3 XNone; IYield 4 (XReg (L 1)) (L 2) YCatch; ILog (XReg (L 2)); IReturn (XReg (L 2))].
Definition xcodes : list prog := map compile [xA; xB; xT; xChild; xParent].
Definition xsetup : list instr :=
  [IEvent (G 0); ISpawn (G 1) 0 XNone; ISpawn (G 2) 1 XNone; ISpawn (G 3) 2 XNone; ISpawn (G 4) 4 XNone].

Definition x0 : state := fst (exec_top xcodes (exec xsetup []) (init_state 0)).
Definition xstep (s : state) : state := fst (step 50 xcodes s).
Fixpoint xsteps (n : nat) (s : state) : state := match n with O => s | S k => xsteps k (xstep s) end.

Example x0_clean : creach xcodes x0.
Proof. apply cr_top, cr_init. Qed.

(* after the four Initialize events of A, B, T and the parent ... *)
Example x4_clean : creach xcodes (xsteps 4 x0).
Proof.
  apply (creach_ok_steps 50 xcodes x0); [|exact x0_clean].
  apply (all_ok_steps 50 xcodes xsteps); [reflexivity|reflexivity|]. vm_compute. reflexivity.
Qed.

(* ... A and B wait for G0 (event 0), which T has failed: the hypotheses of waiter_unique / resumed_exactly_once hold *)
Example x4_waiters :
  exists prA prB ev,
    get_proc 0 (xsteps 4 x0) = Some prA /\ ptarget prA = Some 0 /\
    get_proc 1 (xsteps 4 x0) = Some prB /\ ptarget prB = Some 0 /\
    get_event 0 (xsteps 4 x0) = Some ev /\ cbs ev = Some [CbResume 0; CbResume 1] /\
    out ev = Some (Fail (EUser 1, [VInt 7])) /\ defused ev = false /\ stable_kind (kind ev) = true.
Proof.
  destruct (some_fact (get_proc 0 (xsteps 4 x0)) (fun pr => ptarget pr = Some 0)) as (prA & PA & TA); [vm_compute; reflexivity|].
  destruct (some_fact (get_proc 1 (xsteps 4 x0)) (fun pr => ptarget pr = Some 0)) as (prB & PB & TB); [vm_compute; reflexivity|].
  destruct (some_fact (get_event 0 (xsteps 4 x0))
              (fun ev => cbs ev = Some [CbResume 0; CbResume 1] /\ out ev = Some (Fail (EUser 1, [VInt 7])) /\
                         defused ev = false /\ stable_kind (kind ev) = true)) as (ev & G & F);
    [vm_compute; repeat split|].
  exists prA, prB, ev. tauto.
Qed.

(* the rejected succeed() left everything as it was: T logged ok = False (0) *)
Example x4_rejected_succeed_changed_nothing :
  In (OLog (Some 2) 0 (VList [VInt 3; VInt 0])) (obs (xsteps 4 x0)) /\
  In (OLog (Some 2) 0 (VList [VInt 2; VExn ERuntime [VInt M_already_triggered]])) (obs (xsteps 4 x0)).
Proof. vm_compute. split; tauto. Qed.

(* the hypotheses of callbacks_exactly_once / resume_gets_outcome / failure_never_lost for the step that processes G0:
   which entry is popped, its callback list, the loop running through *)
Definition xG0_state : state := xsteps 5 x0.     (* after the Initialize of the child too: G0 is next *)

Definition xm : entry := match pop_min (agenda xG0_state) with Some (m, _) => m | None => mkEntry 0 0 0 0 end.
Definition xrest : list entry := match pop_min (agenda xG0_state) with Some (_, r) => r | None => [] end.
Definition xG0_after : state := fst (step 50 xcodes xG0_state).

Example xG0_step :
  exists ev,
    pop_min (agenda xG0_state) = Some (xm, xrest) /\ e_ev xm = 0 /\
    get_event 0 xG0_state = Some ev /\ cbs ev = Some [CbResume 0; CbResume 1] /\
    cb_chain 50 xcodes 0 [CbResume 0; CbResume 1] (loop_start xm xrest xG0_state) xG0_after /\
    step 50 xcodes xG0_state = (xG0_after, ROk) /\
    (* A received the exception (and logged it), B failed with it: B's Process event carries it, undefused *)
    In (OLog (Some 0) 0 (VList [VInt 1; VInt 1; VList [VInt 1; VExn (EUser 1) [VInt 7]]])) (obs xG0_after) /\
    (exists pe, get_event 3 xG0_after = Some pe /\ out pe = Some (Fail (EUser 1, [VInt 7])) /\ defused pe = false).
Proof.
  assert (P : pop_min (agenda xG0_state) = Some (xm, xrest)) by (apply some_pair; vm_compute; discriminate).
  assert (E : e_ev xm = 0) by (vm_compute; reflexivity).
  destruct (some_fact (get_event 0 xG0_state) (fun ev => cbs ev = Some [CbResume 0; CbResume 1])) as (ev & G & C);
    [vm_compute; reflexivity|].
  assert (Gm := G). rewrite <- E in Gm.
  assert (Ch := step_chain 50 xcodes xG0_state xm xrest ev _ P Gm C). rewrite E in Ch.
  specialize (Ch ltac:(vm_compute; reflexivity)).
  assert (St : step 50 xcodes xG0_state = (xG0_after, ROk)) by (unfold xG0_after; apply pair_of_snd; vm_compute; reflexivity).
  exists ev. split; [exact P|]. split; [exact E|]. split; [exact G|]. split; [exact C|]. split; [exact Ch|].
  split; [exact St|]. split; [vm_compute; tauto|].
  destruct (some_fact (get_event 3 xG0_after) (fun pe => out pe = Some (Fail (EUser 1, [VInt 7])) /\ defused pe = false))
    as (pe & Gp & Fp); [vm_compute; split; reflexivity|].
  exists pe. tauto.
Qed.

(* B's failure is unhandled: the step that processes B's Process event (event 3, nobody waits for it) raises it *)
Example xB_failure_raised :
  exists n x, snd (step 50 xcodes (xsteps n x0)) = RRaise x /\ x = (EUser 1, [VInt 7]) /\ n = 8.
Proof. exists 8, (EUser 1, [VInt 7]). vm_compute. repeat split; reflexivity. Qed.

(* the child returns 0: its Process event carries Ok (VInt 0) (process_event_outcome), and the joining parent receives
   exactly 0, not None *)
Example xchild_returns_zero :
  exists n, In (OLog (Some 3) 1 (VList [VInt 3; VInt 0])) (obs (xsteps n x0)) /\ n = 11.
Proof. exists 11. vm_compute. split; [tauto|reflexivity]. Qed.
