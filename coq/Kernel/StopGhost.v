(* Kernel/StopGhost.v -- C03: inert sentinels are invisible -- for parametric programs -- and with that, split
   transparency for ALL stop points.

     bsim f g a b          sim f g a b /\ good a /\ good b: the relation between steps (the clocks may differ: b's clock may
                           stand at a horizon a has not reached)
     bsim_ghost            inserting a ghost on the b-side keeps the relation, with the id maps bumped above the allocated ids
     bsim_step             one step of b is matched by no step (b popped a ghost, or nothing) or one step of a
     bsim_free_run         k steps of b are matched by j <= k steps of a
     ghost_transparent     a ghost run is matched by a free run
     obs_rel_logs          related traces have the same user-visible part, up to the renaming
     split_transparent     the theorem: for parametric programs (Kernel/StopRen.v), any plan of stop points: the user-visible
                           trace of the split run is the renamed user-visible trace of a free run of the same initial state;
                           [split_transparent_run]: ... of the uninterrupted run(), when both have emptied the agenda *)
From Coq Require Import ZArith QArith List Bool Lia Lqa.
From ONL Require Import Kernel.Model Kernel.Keys Kernel.Inv Kernel.Order Kernel.Deliver Kernel.DeliverWf Kernel.StopFrame
  Kernel.StopInv Kernel.Stop Kernel.StopSpec Kernel.StopErase Kernel.StopSplit Kernel.StopRen Kernel.StopSim Kernel.StopSimCalls
  Kernel.StopSimStep Kernel.StopScript.
Import ListNotations.
Local Open Scope nat_scope.

Definition bsim (f g : nat -> nat) (a b : state) : Prop := sim f g a b /\ good a /\ good b.

(* ---- inserting a ghost ---- *)

Definition bump (n : nat) (h : nat -> nat) : nat -> nat := fun i => if Nat.ltb i n then h i else S (h i).

Lemma bump_lt n h i : i < n -> bump n h i = h i.
Proof. intros L. unfold bump. apply Nat.ltb_lt in L. now rewrite L. Qed.
Lemma bump_ge n h i : n <= i -> bump n h i = S (h i).
Proof. intros L. unfold bump. apply Nat.ltb_ge in L. now rewrite L. Qed.

Lemma bump_smono n h : smono h -> smono (bump n h).
Proof.
  intros M i j L. unfold bump. destruct (Nat.ltb i n) eqn:Ei, (Nat.ltb j n) eqn:Ej; pose proof (M _ _ L); try lia.
  apply Nat.ltb_ge in Ei. apply Nat.ltb_lt in Ej. lia.
Qed.

Lemma bump_agree n h : agree n h (bump n h).
Proof. intros i L. symmetry. apply bump_lt, L. Qed.

Lemma good_ghost hz s : (now s < hz)%Q -> good s -> good (ghost hz s).
Proof.
  intros Lt G.
  assert (E : ghost hz s = schedule (length (events s)) URGENT (hz - now s) (snd (new_event ghost_ev s))) by reflexivity.
  rewrite E. eapply ext_good; [exact G|].
  eapply ext_trans; [apply (ext_new_event ghost_ev s); intros _; discriminate|].
  apply ext_schedule; [lra|]. intros _. apply (ev_class_new ghost_ev s).
Qed.

Lemma ren_entry_agree f f' g g' a x :
  agree (length (events a)) f f' -> agree (next_eid a) g g' -> e_ev x < length (events a) -> e_eid x < next_eid a ->
  ren_entry f' g' x = ren_entry f g x.
Proof. intros Af Ag Le Li. unfold ren_entry. now rewrite (Af _ Le), (Ag _ Li). Qed.

Lemma bsim_ghost f g a b hz :
  bsim f g a b -> (now b < hz)%Q ->
  bsim (bump (length (events a)) f) (bump (next_eid a) g) a (ghost hz b).
Proof.
  intros (S & Ga & Gb) Lt. split; [|split; [exact Ga|apply good_ghost; assumption]].
  set (na := length (events a)). set (f' := bump na f). set (g' := bump (next_eid a) g).
  pose proof (bump_agree na f) as Af. pose proof (bump_agree (next_eid a) g) as Ag. fold f' in Af. fold g' in Ag.
  destruct S as [F G Ff Gf Ac Ev Gh A1 A2 Pr Gl Ob].
  assert (Flt : forall i, i < na -> f i < length (events b)).
  { intros i L. pose proof (Ff 0) as E. rewrite !Nat.add_0_r in E. pose proof (F _ _ L). fold na in E. lia. }
  assert (Glt : forall i, i < next_eid a -> g i < next_eid b).
  { intros i L. pose proof (Gf 0) as E. rewrite !Nat.add_0_r in E. pose proof (G _ _ L). lia. }
  constructor; cbn [ghost events agenda next_eid active procs glob obs]; rewrite ?app_length; cbn [length].
  - apply bump_smono, F.
  - apply bump_smono, G.
  - intros k. unfold f'. rewrite bump_ge by (fold na; lia). fold na. rewrite Ff. lia.
  - intros k. unfold g'. rewrite bump_ge by lia. rewrite Gf. lia.
  - exact Ac.
  - intros i ev Hi. destruct (Ev _ _ Hi) as [D B]. split; [exact D|].
    assert (Li : i < na) by (apply nth_error_Some; fold na; congruence).
    rewrite <- (Af _ Li). rewrite <- (ren_ev_agree na f f' ev Af D). rewrite nth_error_app1; [exact B|]. apply Flt, Li.
  - intros j ev' Hj N. destruct (nth_error_snoc_inv _ _ _ _ Hj) as [Hj'|[-> ->]].
    + apply (Gh _ _ Hj'). intros i Li. rewrite (Af _ Li). apply N, Li.
    + split; [reflexivity|left; reflexivity].
  - intros x Hx. destruct (A1 _ Hx) as (X1 & X2 & X3). split; [exact X1|]. split; [exact X2|].
    rewrite (ren_entry_agree f f' g g' a x Af Ag X1 X2). apply in_or_app. left. exact X3.
  - intros y Hy. apply in_app_or in Hy. destruct Hy as [Hy|[<-|[]]].
    + destruct (A2 _ Hy) as (Y1 & Y2 & Y3). split; [lia|]. split; [lia|].
      destruct Y3 as [(x & Hx & ->)|[N1 N2]].
      * left. exists x. split; [exact Hx|]. destruct (A1 _ Hx) as (X1 & X2 & _). symmetry. apply (ren_entry_agree f f' g g' a x); assumption.
      * right. split; [intros i Li; rewrite <- (Af _ Li); apply N1, Li|intros i Li; rewrite <- (Ag _ Li); apply N2, Li].
    + unfold num_entry. cbn [e_ev e_eid]. split; [lia|]. split; [lia|]. right. split.
      * intros i Li. rewrite <- (Af _ Li). pose proof (Flt _ Li). lia.
      * intros i Li. rewrite <- (Ag _ Li). pose proof (Glt _ Li). lia.
  - destruct Pr as [L P]. split; [exact L|]. intros p pr H. destruct (P _ _ H) as (pr' & H' & R). exists pr'. split; [exact H'|].
    eapply proc_rel_mono; [exact Af| |exact R]. lia.
  - destruct Gl as [D E]. split; [exact D|]. rewrite E. apply (ren_vals_agree _ _ _ _ Af D).
  - eapply obs_rel_mono; [exact Af| |exact Ob]. lia.
Qed.

(* ---- steps ---- *)

Lemma good_step fuel codes s : good s -> good (fst (step fuel codes s)).
Proof. intros G. destruct (step fuel codes s) as [s' r] eqn:St. exact (proj2 (step_now_monotone _ _ _ _ _ G St)). Qed.

Lemma good_free_run fuel codes : forall k s, good s -> good (free_run k fuel codes s).
Proof. apply free_run_inv. intros s. apply good_step. Qed.

(* one step of b: a does nothing (b popped a ghost, or had nothing to pop), or a makes the corresponding step *)
Lemma bsim_step codes f g fuel a b : parametric_codes codes ->
  bsim f g a b ->
  bsim f g a (fst (step fuel codes b)) \/
  (snd (step fuel codes a) <> RBroken -> bsim f g (fst (step fuel codes a)) (fst (step fuel codes b))).
Proof.
  intros PC (S & Ga & Gb). destruct (pop_min (agenda b)) as [[y rest']|] eqn:Pb.
  2:{ left. rewrite (Deliver.step_empty _ _ _ Pb). split; [exact S|split; assumption]. }
  destruct (sim_min _ _ _ _ _ _ S Ga Gb Pb) as [Gy|(m & rest & Pa & ->)].
  - left. split; [eapply sim_step_ghost; eassumption|]. split; [exact Ga|apply good_step, Gb].
  - right. intros Nb. destruct (sim_step_real codes f g fuel a b m rest rest' PC S Ga Gb Pa Pb Nb) as ((S' & _) & _).
    split; [exact S'|]. split; apply good_step; assumption.
Qed.

(* the steps of the free run of a answer anything but the internal-error result *)
Definition clean (fuel : nat) (codes : list prog) (j : nat) (a : state) : Prop :=
  forall i, i < j -> snd (step fuel codes (free_run i fuel codes a)) <> RBroken.

Lemma clean_S fuel codes j a : clean fuel codes (S j) a -> snd (step fuel codes a) <> RBroken /\ clean fuel codes j (fst (step fuel codes a)).
Proof.
  intros C. split; [apply (C 0); lia|]. intros i L. specialize (C (S i) ltac:(lia)). rewrite free_run_S in C. exact C.
Qed.

Lemma clean_le fuel codes j j' a : j <= j' -> clean fuel codes j' a -> clean fuel codes j a.
Proof. intros L C i Li. apply C. lia. Qed.

Lemma bsim_free_run codes f g fuel : parametric_codes codes ->
  forall k a b, bsim f g a b ->
    exists j, j <= k /\ (clean fuel codes j a -> bsim f g (free_run j fuel codes a) (free_run k fuel codes b)).
Proof.
  intros PC. induction k as [|k IH]; intros a b B.
  - exists 0. split; [lia|]. intros _. exact B.
  - rewrite free_run_S. destruct (bsim_step codes f g fuel a b PC B) as [B1|B1].
    + destruct (IH _ _ B1) as (j & L & H). exists j. split; [lia|exact H].
    + (* a steps too -- unless its step answers RBroken, in which case nothing is claimed from here on *)
      destruct (result_eq_broken (snd (step fuel codes a))) as [Eb|Nb].
      * exists 1. split; [lia|]. intros C. exfalso. apply (C 0); [lia|]. exact Eb.
      * destruct (IH _ _ (B1 Nb)) as (j & L & H). exists (S j). split; [lia|]. intros C. rewrite free_run_S.
        apply H. apply (clean_S _ _ _ _ C).
Qed.

Lemma clean_dec fuel codes j a : clean fuel codes j a \/ ~ clean fuel codes j a.
Proof.
  induction j as [|j IH]; [left; intros i L; lia|].
  destruct IH as [C|N]; [|right; intros C; apply N; eapply clean_le; [|exact C]; lia].
  destruct (result_eq_broken (snd (step fuel codes (free_run j fuel codes a)))) as [E|Nb].
  - right. intros C'. apply (C' j); [lia|exact E].
  - left. intros i L. destruct (Nat.eq_dec i j) as [->|Ne]; [exact Nb|apply C; lia].
Qed.

(* ---- ghost runs ---- *)

Lemma clean_add fuel codes j1 j2 a :
  clean fuel codes (j1 + j2) a -> clean fuel codes j1 a /\ clean fuel codes j2 (free_run j1 fuel codes a).
Proof.
  intros C. split; [intros i L; apply C; lia|]. intros i L. specialize (C (j1 + i) ltac:(lia)). rewrite free_run_add in C. exact C.
Qed.

Theorem ghost_transparent codes fuel : parametric_codes codes ->
  forall items f g a b, bsim f g a b ->
    exists K, clean fuel codes K a -> exists f' g', bsim f' g' (free_run K fuel codes a) (ghost_run fuel codes items b).
Proof.
  intros PC. induction items as [|[st k] t IH]; intros f g a b B.
  - exists 0. intros _. exists f, g. exact B.
  - cbn [ghost_run].
    assert (Hp : exists f1 g1, bsim f1 g1 a (pre st b)).
    { destruct st as [|hz|e|n]; cbn [pre]; try (exists f, g; exact B).
      destruct (Qle_bool hz (now b)) eqn:L; [exists f, g; exact B|].
      pose proof (Qle_bool_false _ _ L) as Lt.
      eexists. eexists. apply bsim_ghost; eassumption. }
    destruct Hp as (f1 & g1 & B1).
    destruct (bsim_free_run codes f1 g1 fuel PC k a (pre st b) B1) as (j & _ & H).
    (* the rest of the plan, from wherever a got to -- provided it got there cleanly *)
    destruct (clean_dec fuel codes j a) as [Cj|Nj].
    + destruct (IH _ _ _ _ (H Cj)) as (K & HK). exists (j + K). intros C. destruct (clean_add _ _ _ _ _ C) as [_ C2].
      rewrite free_run_add. exact (HK C2).
    + exists j. intros C. contradiction.
Qed.

(* ---- the user-visible trace ---- *)

Lemma is_user_ren f o : is_user_obs (ren_obs f o) = is_user_obs o.
Proof. destruct o; reflexivity. Qed.

Lemma obs_rel_filter f n l l' : obs_rel f n l l' -> filter is_user_obs l' = map (ren_obs f) (filter is_user_obs l).
Proof.
  induction 1 as [|o l l' D _ IH|e t l l' _ IH]; [reflexivity| |exact IH].
  cbn [filter]. rewrite is_user_ren. destruct (is_user_obs o); cbn [map]; now rewrite IH.
Qed.

Lemma filter_rev_comm {A} (p : A -> bool) (l : list A) : filter p (rev l) = rev (filter p l).
Proof.
  induction l as [|x t IH]; [reflexivity|]. cbn [rev filter]. rewrite filter_app, IH. cbn [filter].
  destruct (p x); cbn [rev]; [reflexivity|now rewrite app_nil_r].
Qed.

Lemma obs_rel_logs f n a b : obs_rel f n (obs a) (obs b) -> logs b = map (ren_obs f) (logs a).
Proof.
  intros R. unfold logs. rewrite !filter_rev_comm, (obs_rel_filter _ _ _ _ R), map_rev. reflexivity.
Qed.

(* ---- split transparency, all stop points ---- *)

Definition selfsim (s : state) : Prop := sim (fun i => i) (fun i => i) s s.

Definition never_broken (fuel : nat) (codes : list prog) (s : state) : Prop :=
  forall i, snd (step fuel codes (free_run i fuel codes s)) <> RBroken.

Lemma selfsim_init t0 : selfsim (init_state t0).
Proof.
  constructor; cbn; try reflexivity; try (intros i j L; exact L); try (intros k; reflexivity).
  - intros [|i] ev H; discriminate.
  - intros [|j] ev H; discriminate.
  - intros x [].
  - intros y [].
  - split; [reflexivity|]. intros [|p] pr H; discriminate.
  - split; reflexivity.
  - constructor.
Qed.

(* module-level script code keeps a state related to itself *)
Lemma selfsim_exec_top codes l s :
  parametric_codes codes -> nopeek l = true -> selfsim s -> selfsim (fst (exec_top codes (Script.exec l []) s)).
Proof.
  intros PC Np SS. unfold exec_top.
  assert (B : fbis (Script.compile []) (fun i : nat => i) (length (events s)) (Script.exec l []) (Script.exec l [])).
  { apply (frel_fbis (Script.compile []) StopScript.SS).
    - intros f n st st' [D ->] f' n' A L I o O. cbn [Script.compile resume].
      rewrite (ren_sst_agree _ _ _ _ A D). apply script_resume_rel; [exact I|eapply sst_dom_mono; eassumption|exact O].
    - change (Script.exec l []) with (Script.exec l (ren_vals (fun i : nat => i) [])) at 2.
      apply exec_rel; [exact Np|intros i j E; exact E|reflexivity]. }
  destruct (simn_run_frag codes (Script.compile []) (fun i => i) (fun i => i) PC _ _ s s (conj SS eq_refl) B) as ((S' & _) & _).
  exact S'.
Qed.

(* the theorem: any plan of stop points -- numeric horizons (also AT due instants: the sentinel is URGENT), until-events, single
   steps, run() -- for every table of parametric programs, from any well-formed state: the user-visible trace of the split run
   (the records of process bodies and probes, in order, with their clocks and values) is the user-visible trace of the free run
   of K steps of the same state, with event ids renamed by a strictly increasing map: no record is lost, added or reordered *)
Theorem split_transparent codes fuel s0 plan : parametric_codes codes ->
  selfsim s0 -> good s0 -> uinv s0 -> no_stop s0 ->
  exists K, clean fuel codes K s0 ->
    exists f, smono f /\ logs (fst (run_split fuel codes plan s0)) = map (ren_obs f) (logs (free_run K fuel codes s0)) /\
              (agenda (fst (run_split fuel codes plan s0)) = [] -> agenda (free_run K fuel codes s0) = []).
Proof.
  intros PC SS G U Ns. destruct (split_ghost fuel codes plan s0 U) as (ks & _ & E).
  assert (Es : erase s0 = s0) by (apply erase_id; intros e ev H; destruct (has_stop ev) eqn:T; [destruct (Ns _ _ H T)|reflexivity]).
  rewrite Es in E.
  destruct (ghost_transparent codes fuel PC (combine plan ks) _ _ s0 s0 (conj SS (conj G G))) as (K & H).
  exists K. intros C. destruct (H C) as (f' & g' & (S & _ & _)). exists f'. split; [apply (sm_f _ _ _ _ S)|]. split.
  - rewrite <- E in S. change (logs (fst (run_split fuel codes plan s0))) with (logs (erase (fst (run_split fuel codes plan s0)))).
    eapply obs_rel_logs. apply (sm_obs _ _ _ _ S).
  - intros A. rewrite <- E in S. destruct (agenda (free_run K fuel codes s0)) as [|x t] eqn:Af; [reflexivity|].
    destruct (sm_agenda1 _ _ _ _ S x) as (_ & _ & X); [rewrite Af; left; reflexivity|]. rewrite erase_agenda, A in X. destruct X.
Qed.

(* against the uninterrupted run(): both have emptied the agenda -- the split run shows exactly the trace of run() *)
Theorem split_transparent_run codes fuel s0 plan U : parametric_codes codes ->
  selfsim s0 -> good s0 -> uinv s0 -> no_stop s0 -> never_broken fuel codes s0 ->
  run fuel codes UNone s0 = (U, ROk) -> agenda (fst (run_split fuel codes plan s0)) = [] ->
  exists f, smono f /\ logs (fst (run_split fuel codes plan s0)) = map (ren_obs f) (logs U).
Proof.
  intros PC SS G Ui Ns Nb R A. destruct (split_transparent codes fuel s0 plan PC SS G Ui Ns) as (K & H).
  destruct (H (fun i _ => Nb i)) as (f & M & L & Ag). exists f. split; [exact M|].
  destruct (run_none_free fuel codes s0) as (k & Ek). rewrite R in Ek. cbn [fst] in Ek.
  pose proof (run_all_drains _ _ _ _ R) as Au.
  assert (X : free_run K fuel codes s0 = U) by (rewrite Ek; apply free_run_confluent; [exact (Ag A)|rewrite <- Ek; exact Au]).
  rewrite <- X. exact L.
Qed.
