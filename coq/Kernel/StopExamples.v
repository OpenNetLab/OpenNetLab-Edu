(* Kernel/StopExamples.v -- C03: the hypotheses of the theorems of StopSpec.v on a computed instance (the witness family of
   Kernel/Stop.v: two processes, one shared event triggered at t = 2, a waiter that registers at t = 1). *)
From Coq Require Import ZArith QArith List Bool Lia.
From ONL Require Import Base.Tools Kernel.Model Kernel.Script Kernel.Keys Kernel.Inv Kernel.Order Kernel.Deliver Kernel.DeliverWf
  Kernel.DeliverVal Kernel.StopFrame Kernel.StopInv Kernel.Stop Kernel.StopSpec Kernel.StopErase Kernel.StopSplit Kernel.StopRen Kernel.StopSim
  Kernel.StopSimCalls Kernel.StopSimStep Kernel.StopGhost Kernel.StopScript.
Import ListNotations.

(* the state after the module-level code is calm: run_until_number_spec / run_until_event_spec apply to it *)
Example ex_calm : calm wit_s0.
Proof. unfold wit_s0. apply calm_exec_top, calm_init. Qed.

Lemma wit_run : run 100 wit_codes UNone wit_s0 = (fst (run 100 wit_codes UNone wit_s0), ROk).
Proof. apply pair_of_snd. vm_compute. reflexivity. Qed.

(* run(until=2): G0 is triggered at 2 by process 0, whose timeout is due at 2 -- and is NOT processed: the call returns None
   with now = 2 after the timeout of process 1 (due at 1) only *)
Example ex_run_num :
  let r := run 100 wit_codes (UNum 2) wit_s0 in
  now wit_s0 < 2 /\ snd r = RStop VNone /\ now (fst r) == 2 /\
  map (fun y => (e_time y, e_ev y)) (agenda (fst r)) = [(2, 6%nat)] /\ calm (fst r).
Proof.
  cbn zeta. split; [reflexivity|]. split; [vm_compute; reflexivity|]. split; [vm_compute; reflexivity|].
  split; [vm_compute; reflexivity|].
  apply calm_run_num with (v := VNone); [exact ex_calm|vm_compute; reflexivity].
Qed.

(* a horizon that is not in the future *)
Example ex_run_num_past : run 100 wit_codes (UNum 0) wit_s0 = (wit_s0, RRaise (kexn EValue M_until_past)).
Proof. apply run_num_past. vm_compute. discriminate. Qed.

(* run(until=G0): returns 5 after all callbacks of G0 ran (the probe and the late waiter, process 1) *)
Example ex_run_ev :
  exists ev l, get_event 0%nat wit_s0 = Some ev /\ cbs ev = Some l /\
  snd (run 100 wit_codes (UEv 0%nat) wit_s0) = RStop (VInt 5) /\ calm (fst (run 100 wit_codes (UEv 0%nat) wit_s0)).
Proof.
  eexists. eexists. split; [vm_compute; reflexivity|]. split; [reflexivity|]. split; [vm_compute; reflexivity|].
  apply calm_run_ev with (v := VInt 5); [exact ex_calm|vm_compute; reflexivity].
Qed.

(* an until-event that is processed already: its value at once *)
Example ex_run_ev_processed :
  let s1 := fst (run 100 wit_codes (UEv 0%nat) wit_s0) in
  run 100 wit_codes (UEv 0%nat) s1 = (s1, RStop (VInt 5)).
Proof.
  intros s1. assert (H : get_event 0%nat s1 = Some (mkEvent None (Some (Ok (VInt 5))) false KPlain)) by (vm_compute; reflexivity).
  exact (run_event_processed 100 wit_codes 0%nat s1 _ H eq_refl).
Qed.

(* an until-event nobody triggers: RuntimeError once the agenda is empty *)
Definition ex_idle : state := fst (do_call wit_codes CEvent (init_state 0)).
Example ex_exhausted : run 100 wit_codes (UEv 0%nat) ex_idle = (add_callback 0%nat CbStop ex_idle, RRaise (kexn ERuntime M_until_not_triggered)).
Proof.
  assert (C : calm ex_idle) by apply calm_call, calm_init.
  assert (H : get_event 0%nat ex_idle = Some (mkEvent (Some []) None false KPlain)) by reflexivity.
  unfold run. rewrite (run_event_pending_prelude _ _ _ _ H eq_refl).
  apply run_loop_ev_empty; [exact (je_start _ _ _ _ C H eq_refl)|reflexivity].
Qed.

(* a plan all of whose run(until=...) calls return *)
Example ex_plan_returned : plan_returned 100 wit_codes [SNum 1; SStep 1; SEv 0%nat; SNum 1; SRun] wit_s0.
Proof.
  cbn [plan_returned returned]. repeat split.
  - right. eexists. vm_compute. reflexivity.
  - right. eexists. vm_compute. reflexivity.
  - left. vm_compute. discriminate.
Qed.

Lemma ex_no_horizon : no_horizon [SEv 0%nat; SStep 1; SStep 1; SRun].
Proof. intros st [<-|[<-|[<-|[<-|[]]]]]; exact I. Qed.

(* split_transparent_events_steps_run applies to the witness: stop at G0, make two single steps, run to the end *)
Example ex_split_events_steps :
  let plan := [SEv 0%nat; SStep 1; SStep 1; SRun] in
  logs (fst (run_split 100 wit_codes plan wit_s0)) = logs (fst (run 100 wit_codes UNone wit_s0)).
Proof.
  cbn zeta. pose proof ex_calm as (_ & Ui & _ & Ns & _).
  apply (split_transparent_events_steps_run 100 wit_codes _ wit_s0 _ Ui Ns ex_no_horizon wit_run). vm_compute. reflexivity.
Qed.

(* ---- split_transparent (all stop points) applies to the witness family ---- *)

(* the witness programs are compiled scripts without env.peek(): parametric *)
Example ex_parametric : parametric_codes wit_codes.
Proof. apply compile_parametric_codes. vm_compute. reflexivity. Qed.

Example ex_selfsim : selfsim wit_s0.
Proof. unfold wit_s0. apply selfsim_exec_top; [exact ex_parametric|reflexivity|apply selfsim_init]. Qed.

(* the free run never answers the internal-error result: checked for the steps it makes, then the agenda is empty *)
Fixpoint nb_check (fuel : nat) (codes : list prog) (k : nat) (s : state) : bool :=
  match k with
  | O => true
  | S j => match snd (step fuel codes s) with RBroken => false | _ => nb_check fuel codes j (fst (step fuel codes s)) end
  end.

Lemma nb_check_clean fuel codes : forall k s, nb_check fuel codes k s = true -> clean fuel codes k s.
Proof.
  induction k as [|k IH]; intros s H i L; [lia|]. cbn [nb_check] in H.
  destruct i as [|i].
  - cbn. change (step_sel true) with step. destruct (snd (step fuel codes s)); try discriminate; discriminate.
  - rewrite free_run_S. apply IH; [|lia]. destruct (snd (step fuel codes s)); try discriminate; exact H.
Qed.

Lemma never_broken_finite fuel codes k s :
  nb_check fuel codes k s = true -> agenda (free_run k fuel codes s) = [] -> never_broken fuel codes s.
Proof.
  intros H A i. destruct (Nat.lt_ge_cases i k) as [L|L]; [exact (nb_check_clean _ _ _ _ H i L)|].
  replace i with (k + (i - k))%nat by lia. rewrite free_run_add, (free_run_empty _ _ _ _ A), (step_empty_agenda _ _ _ A). discriminate.
Qed.

Example ex_never_broken : never_broken 100 wit_codes wit_s0.
Proof. apply (never_broken_finite 100 wit_codes 30 wit_s0); vm_compute; reflexivity. Qed.

(* numeric horizons at 1 (where process 1 resumes) and at 2 (where G0 is triggered), the until-event, a single step: the
   user-visible trace is that of run(), event ids renamed *)
Example ex_split_transparent :
  let plan := [SNum 1; SEv 0%nat; SNum 2; SStep 1; SNum 2; SRun] in
  exists f, smono f /\ logs (fst (run_split 100 wit_codes plan wit_s0)) = map (ren_obs f) (logs (fst (run 100 wit_codes UNone wit_s0))).
Proof.
  cbn zeta. pose proof ex_calm as (G & Ui & _ & Ns & _).
  apply (split_transparent_run wit_codes 100 wit_s0 _ _ ex_parametric ex_selfsim G Ui Ns ex_never_broken wit_run).
  vm_compute. reflexivity.
Qed.
