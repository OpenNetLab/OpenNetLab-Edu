(* Kernel/DeliverVal.v -- C02, part 5: the outcome of an event does not change between its trigger and its delivery, and
   callbacks do not move the clock.

     stable_kind k           every kind of event except Process events (the generator's end sets their outcome, unguarded: a
                             Process event succeeded by hand is re-triggered) and conditions (_build_value replaces the
                             placeholder None by the ConditionValue in the condition's own first callback)
     vgrows s s'             events of s still exist in s', same kind, and a stable event that had an outcome has the same
     vx s s'                 vgrows /\ now s' = now s         (everything below step())
     value_stable            along every execution from an initial state
     value_stable_in_loop    and between the callbacks of one step *)
From Coq Require Import ZArith QArith List Bool Lia.
From ONL Require Import Kernel.Model Kernel.Prims Kernel.Deliver Kernel.DeliverWf.
Import ListNotations.
Local Open Scope nat_scope.

Definition stable_kind (k : ekind) : bool := match k with KProcess _ | KCond _ _ _ => false | _ => true end.

Lemma ksame_stable k k' : ksame k k' -> stable_kind k' = stable_kind k.
Proof. destruct k; cbn; try (intros <-; reflexivity). destruct k'; try contradiction. reflexivity. Qed.

Record vle (ev ev' : event) : Prop := mkVle {
  v_kind : ksame (kind ev) (kind ev');
  v_out : stable_kind (kind ev) = true -> out ev <> None -> out ev' = out ev }.

Lemma vle_refl ev : vle ev ev.
Proof. constructor; [apply ksame_refl|reflexivity]. Qed.

Lemma vle_trans a b c : vle a b -> vle b c -> vle a c.
Proof.
  intros [K1 O1] [K2 O2]. constructor; [eapply ksame_trans; eassumption|].
  intros S N. rewrite <- (O1 S N). apply O2; [rewrite (ksame_stable _ _ K1); exact S|rewrite (O1 S N); exact N].
Qed.

Definition vgrows (s s' : state) : Prop :=
  forall e ev, get_event e s = Some ev -> exists ev', get_event e s' = Some ev' /\ vle ev ev'.

Definition vx (s s' : state) : Prop := now s' = now s /\ vgrows s s'.

Lemma vgrows_refl s : vgrows s s.
Proof. intros e ev H. exists ev. split; [exact H|apply vle_refl]. Qed.

Lemma vgrows_trans s1 s2 s3 : vgrows s1 s2 -> vgrows s2 s3 -> vgrows s1 s3.
Proof.
  intros H1 H2 e ev H. destruct (H1 _ _ H) as (ev2 & G2 & L2). destruct (H2 _ _ G2) as (ev3 & G3 & L3).
  exists ev3. split; [exact G3|eapply vle_trans; eassumption].
Qed.

Lemma vx_refl s : vx s s.
Proof. split; [reflexivity|apply vgrows_refl]. Qed.

Lemma vx_trans s1 s2 s3 : vx s1 s2 -> vx s2 s3 -> vx s1 s3.
Proof. intros [N1 G1] [N2 G2]. split; [congruence|eapply vgrows_trans; eassumption]. Qed.

Lemma vx_same s s' : events s' = events s -> now s' = now s -> vx s s'.
Proof.
  intros E N. split; [exact N|]. intros e ev H. exists ev. unfold get_event in *. rewrite E. split; [exact H|apply vle_refl].
Qed.

Lemma vx_upd_event e f s : (forall ev, get_event e s = Some ev -> vle ev (f ev)) -> vx s (upd_event e f s).
Proof.
  intros Hf. split; [reflexivity|]. intros x ev H. rewrite get_event_upd. destruct (Nat.eqb x e) eqn:E.
  - apply Nat.eqb_eq in E. subst x. rewrite H. cbn. exists (f ev). split; [reflexivity|apply Hf, H].
  - exists ev. split; [exact H|apply vle_refl].
Qed.

Lemma vx_new_event ev s : vx s (snd (new_event ev s)).
Proof.
  split; [reflexivity|]. intros x ev0 H. exists ev0. split; [|apply vle_refl].
  rewrite get_event_new_below; [exact H|eapply get_event_lt, H].
Qed.

Lemma vx_schedule e p d s : vx s (schedule e p d s).
Proof. apply vx_same; reflexivity. Qed.

(* setters that do not touch outcome or kind *)
Lemma vx_set_defused e s : vx s (upd_event e ev_set_defused s).
Proof. apply vx_upd_event. intros ev _. constructor; [apply ksame_refl|reflexivity]. Qed.
Lemma vx_set_cbs e c s : vx s (upd_event e (ev_set_cbs c) s).
Proof. apply vx_upd_event. intros ev _. constructor; [apply ksame_refl|reflexivity]. Qed.
Lemma vx_add_callback e c s : vx s (add_callback e c s).
Proof.
  apply vx_upd_event. intros ev _. unfold ev_add_cb. destruct (cbs ev); [|apply vle_refl].
  constructor; [apply ksame_refl|reflexivity].
Qed.

(* the outcome may be set where there is none yet, or on a Process / condition event *)
Definition may_set (ev : event) : Prop := out ev = None \/ stable_kind (kind ev) = false.

Lemma vx_set_out e o s : (forall ev, get_event e s = Some ev -> may_set ev) -> vx s (upd_event e (ev_set_out o) s).
Proof.
  intros M. apply vx_upd_event. intros ev H. constructor; [apply ksame_refl|]. cbn.
  intros S N. destruct (M ev H) as [O|K]; [contradiction|congruence].
Qed.

Lemma vx_trigger e o s : (forall ev, get_event e s = Some ev -> may_set ev) -> vx s (trigger_event e o s).
Proof. intros M. unfold trigger_event. eapply vx_trans; [apply vx_set_out, M|apply vx_schedule]. Qed.

Lemma pev_ok_may_set s pr : pev_ok s pr -> forall ev, get_event (pev pr) s = Some ev -> may_set ev.
Proof.
  intros (pe & H & K) ev H'. rewrite H in H'. injection H' as <-. right. destruct (kind pe); try discriminate. reflexivity.
Qed.

(* [uinv] is needed in the k_ptrig case only: a process ends on its own Process event *)
Lemma vx_kprim b T s s' : kprim b T s s' -> uinv s -> vx s s'.
Proof.
  intros [s0 s1 (Hn & _ & _ & Hv & _)|ev s0 _ _ _|ev prio d s0 _ _ _ _ _|e ev o s0 H O|p pr o s0 H|e c s0 _|e ev l x s0 _ _ _
         |e s0|c cev all ops n s0 H Kc _|c cev v v' s0 H _ Kc|p pr f s0 _ _ _|pr ev s0 _ _|t s0 _ _|e s0 _] U.
  - (* k_frame *) apply vx_same; assumption.
  - (* k_new *) apply vx_new_event.
  - (* k_born *) eapply vx_trans; [apply vx_new_event|apply vx_schedule].
  - (* k_trig *) apply vx_trigger. intros ev0 H0. rewrite H in H0. injection H0 as <-. left. exact O.
  - (* k_ptrig *) apply vx_trigger, pev_ok_may_set, (proj2 U p pr H).
  - (* k_addcb *) apply vx_add_callback.
  - (* k_rmcb *) apply vx_set_cbs.
  - (* k_defuse *) apply vx_set_defused.
  - (* k_count *) apply vx_upd_event. intros ev Hev. rewrite H in Hev. injection Hev as <-.
    constructor; cbn; [rewrite Kc; cbn; auto|rewrite Kc; discriminate].
  - (* k_value *) apply vx_set_out. intros ev Hev. rewrite H in Hev. injection Hev as <-. right.
    unfold is_cond in Kc. destruct (kind cev); try discriminate. reflexivity.
  - (* k_proc *) apply vx_same; reflexivity.
  - (* k_spawn *) apply vx_same; reflexivity.
  - (* k_sentinel *) eapply vx_trans; [apply vx_new_event|apply vx_schedule].
  - (* k_stopcb *) apply vx_add_callback.
Qed.

Lemma vx_kchain b T s s' : kchain b T s s' -> uinv s -> vx s s'.
Proof.
  intros C U. refine (proj2 (kchain_rel b T (fun s s' => uinv s -> uinv s' /\ vx s s') _ _ _ s s' C U)).
  - intros s0 U0. split; [exact U0|apply vx_refl].
  - intros s0 s1 s2 F G U0. destruct (F U0) as [U1 V1]. destruct (G U1) as [U2 V2].
    split; [exact U2|eapply vx_trans; eassumption].
  - intros s0 s1 P U0. split; [exact (uinv_kprim b T _ _ P U0)|exact (vx_kprim b T _ _ P U0)].
Qed.

Lemma vx_run_frag {A} codes (f : frag A) s : uinv s -> vx s (fst (run_frag codes f s)).
Proof. exact (vx_kchain _ _ _ _ (kc_run_frag true Tall codes f s)). Qed.

Lemma vx_run_cb fuel codes e c s : uinv s -> vx s (fst (run_cb fuel codes e c s)).
Proof. exact (vx_kchain _ _ _ _ (kc_run_cb true fuel codes e c s)). Qed.

Lemma vx_cb_chain fuel codes e l s s' : cb_chain fuel codes e l s s' -> uinv s -> vx s s'.
Proof.
  induction 1 as [s|c t s s1 r s' R _ _ IH]; intros U; [apply vx_refl|].
  pose proof (vx_run_cb fuel codes e c s U) as X. pose proof (uinv_run_cb fuel codes e c s U) as U1.
  rewrite R in X, U1. cbn [fst] in X, U1. eapply vx_trans; [exact X|apply IH, U1].
Qed.

Lemma vgrows_loop_start m rest s : vgrows s (loop_start m rest s).
Proof.
  unfold loop_start. eapply vgrows_trans; [|apply vx_set_cbs].
  intros e ev H. exists ev. split; [exact H|apply vle_refl].
Qed.

Lemma now_loop_start m rest s : now (loop_start m rest s) = e_time m.
Proof. reflexivity. Qed.

Lemma vgrows_step fuel codes s : uinv s -> vgrows s (fst (step fuel codes s)).
Proof.
  intros U. destruct (step fuel codes s) as [s' r] eqn:E. cbn [fst].
  assert (G0 : forall m rest, vgrows s (pop_state m rest s)) by (intros m rest e ev H; exists ev; split; [exact H|apply vle_refl]).
  destruct (step_below true _ _ _ _ _ E) as [(_ & -> & _)|(m & rest & P & [(ev & l & _ & _ & C)|[_ ->]])];
    [apply vgrows_refl| |apply G0].
  eapply vgrows_trans; [apply vgrows_loop_start|exact (proj2 (vx_kchain _ _ _ _ C (uinv_loop_start m rest s P U)))].
Qed.

Lemma vgrows_run_prelude u s s1 : run_prelude u s = inr s1 -> uinv s -> vgrows s s1.
Proof. intros H U. exact (proj2 (vx_kchain _ _ _ _ (kc_run_prelude Tall u s s1 H) U)). Qed.

Lemma vgrows_run_loop fuel codes u : forall n s, uinv s -> vgrows s (fst (run_loop n fuel codes u s)).
Proof.
  induction n as [|n IH]; intros s U; cbn [run_loop]; [apply vgrows_refl|].
  pose proof (vgrows_step fuel codes s U) as X. pose proof (uinv_step fuel codes s U) as U1.
  destruct (step fuel codes s) as [s1 r]. cbn [fst] in X, U1.
  destruct r; try exact X. eapply vgrows_trans; [exact X|apply IH, U1].
Qed.

Lemma vgrows_run fuel codes u s : uinv s -> vgrows s (fst (run fuel codes u s)).
Proof.
  intros U. unfold run. destruct (run_prelude u s) as [[s' r]|s1] eqn:P.
  - apply run_prelude_inl in P. subst s'. apply vgrows_refl.
  - eapply vgrows_trans; [exact (vgrows_run_prelude _ _ _ P U)|]. apply vgrows_run_loop. eapply uinv_run_prelude; eauto.
Qed.

Lemma vgrows_later codes s s' : later codes s s' -> uinv s -> vgrows s s'.
Proof.
  induction 1 as [s|s s' A f L IH|s s' u s1 L IH P|s s' fuel L IH|s s' fuel u L IH]; intros U.
  - apply vgrows_refl.
  - eapply vgrows_trans; [apply IH, U|]. apply vx_run_frag. eapply uinv_later; eauto.
  - eapply vgrows_trans; [apply IH, U|]. eapply vgrows_run_prelude; [exact P|]. eapply uinv_later; eauto.
  - eapply vgrows_trans; [apply IH, U|]. apply vgrows_step. eapply uinv_later; eauto.
  - eapply vgrows_trans; [apply IH, U|]. apply vgrows_run. eapply uinv_later; eauto.
Qed.

(* the outcome a timeout / plain event / ... got when it was triggered is the outcome it has in every later state *)
Theorem value_stable codes t0 s s' e ev o :
  later codes (init_state t0) s -> later codes s s' ->
  get_event e s = Some ev -> stable_kind (kind ev) = true -> out ev = Some o ->
  exists ev', get_event e s' = Some ev' /\ out ev' = Some o.
Proof.
  intros L0 L H K O. pose proof (uinv_later _ _ _ L0 (uinv_init t0)) as U.
  destruct (vgrows_later _ _ _ L U _ _ H) as (ev' & H' & Le). exists ev'. split; [exact H'|].
  rewrite (v_out _ _ Le K); [exact O|congruence].
Qed.

(* ... also between the callbacks of the step that processes it (or any other event), and the clock stands still *)
Theorem value_stable_in_loop fuel codes t0 s m rest pre smid :
  later codes (init_state t0) s -> pop_min (agenda s) = Some (m, rest) ->
  cb_chain fuel codes (e_ev m) pre (loop_start m rest s) smid ->
  now smid = e_time m /\
  forall e ev o, get_event e s = Some ev -> stable_kind (kind ev) = true -> out ev = Some o ->
                 exists ev', get_event e smid = Some ev' /\ out ev' = Some o.
Proof.
  intros L0 P Ch. pose proof (uinv_later _ _ _ L0 (uinv_init t0)) as U.
  destruct (vx_cb_chain _ _ _ _ _ _ Ch (uinv_loop_start m rest s P U)) as [N G]. split; [rewrite N; reflexivity|].
  intros e ev o H K O. destruct (vgrows_trans _ _ _ (vgrows_loop_start m rest s) G _ _ H) as (ev' & H' & Le).
  exists ev'. split; [exact H'|]. rewrite (v_out _ _ Le K); [exact O|congruence].
Qed.
