(* Bridging lemmas (DESIGN 2.6, second tie) for the Condition leaves: Condition.all_events / any_events / _check /
   _build_value as translated from the tree under test on every run (Gen/Extracted_cond.v) are [cond_evaluate],
   [cond_check] and [cond_build] of the hand-written kernel model (Kernel/Model.v) the C05 theorems are about.
   _remove_check_callbacks and _populate_value (loops over the operands) are effects of _build_value whose meaning is
   the model's [remove_checks] / [populate]; Condition.__init__ (loops) is translated in Kernel/CondLoopBridge.v. *)
From Coq Require Import ZArith QArith List Bool Lia.
From ONL Require Import Kernel.Model Gen.Extracted_cond.
Import ListNotations.

(* the evaluation functions *)
Lemma bridge_cond_evaluate all n_ops count :
  cond_evaluate all n_ops count =
  snd (if all then gen_Condition_all_events {| c_count := 0 |} (Z.of_nat n_ops) (Z.of_nat count)
       else gen_Condition_any_events {| c_count := 0 |} (Z.of_nat n_ops) (Z.of_nat count)).
Proof.
  unfold cond_evaluate, gen_Condition_all_events, gen_Condition_any_events. destruct all; cbn [snd].
  - destruct (Nat.eqb_spec n_ops count), (Z.eqb_spec (Z.of_nat n_ops) (Z.of_nat count)); try reflexivity; lia.
  - destruct (Nat.ltb_spec 0 count), (Z.ltb_spec 0 (Z.of_nat count)); try lia;
      destruct (Nat.eqb_spec n_ops 0), (Z.eqb_spec (Z.of_nat n_ops) 0); try reflexivity; lia.
Qed.

(* Condition._check(op) of condition c *)
Definition check_fx (c op : evid) (x : option exn) (s1 : state) (fx : list cond_fx) : option state :=
  match fx, x with
  | [], _ => Some s1
  | [FxDefuseOperand; FxFailWithOperandValue], Some x' => Some (trigger_event c (Fail x') (upd_event op ev_set_defused s1))
  | [FxSucceed], _ => Some (trigger_event c (Ok VNone) s1)
  | _, _ => None
  end.

Lemma bridge_cond_check c op s cev oev all ops count :
  get_event c s = Some cev -> get_event op s = Some oev -> kind cev = KCond all ops count ->
  let failure := match out oev with Some (Fail x) => Some x | _ => None end in
  let g := gen_Condition_check {| c_count := Z.of_nat count |} (is_triggered cev)
                               (match failure with Some _ => false | None => true end)
                               (cond_evaluate all (length ops) (S count)) in
  (* the count field after the call, and the state *)
  (is_triggered cev = false -> c_count (fst g) = Z.of_nat (S count)) /\
  check_fx c op failure
           (if is_triggered cev then s else upd_event c (ev_set_kind (KCond all ops (S count))) s) (snd g) =
    Some (cond_check c op s).
Proof.
  intros Hc Ho Hk. unfold cond_check, gen_Condition_check, is_triggered. rewrite Hc, Ho, Hk.
  destruct (out cev) as [o|]; cbn -[Z.of_nat].
  - split; [discriminate|reflexivity].
  - split; [intros _; rewrite Nat2Z.inj_succ; unfold Z.succ;
             destruct (out oev) as [[v|x]|]; cbn; try destruct (cond_evaluate all (length ops) (S count)); reflexivity|].
    destruct (out oev) as [[v|x]|]; cbn; try (destruct (cond_evaluate all (length ops) (S count)); reflexivity);
      try reflexivity.
Qed.

(* Condition._build_value (the condition's own callback) *)
Definition build_fx (c : evid) (s : state) (fx : list cond_fx) : state * result :=
  match fx with
  | FxRemoveChecks :: t =>
      match remove_checks (S c) c s with
      | None => (s, RBroken)
      | Some s1 =>
          match t, get_event c s1 with
          | [], _ => (s1, ROk)
          | [FxNewValue; FxPopulate], Some cev =>
              match kind cev with
              | KCond _ ops _ =>
                  match populate (S c) (events s1) ops with
                  | Some items => (upd_event c (ev_set_out (Some (Ok (VCond items)))) s1, ROk)
                  | None => (s1, RBroken)
                  end
              | _ => (s1, RBroken)
              end
          | _, _ => (s1, RBroken)
          end
      end
  | _ => (s, RBroken)
  end.

Definition build_gen (c : evid) (s : state) : list cond_fx :=
  match remove_checks (S c) c s with
  | Some s1 => match get_event c s1 with
               | Some cev => snd (gen_Condition_build_value {| c_count := 0 |}
                                                           (match out cev with Some (Ok _) => true | _ => false end))
               | None => [FxRemoveChecks]
               end
  | None => [FxRemoveChecks]
  end.

Lemma bridge_cond_build c s :
  snd (cond_build c s) <> RBroken -> build_fx c s (build_gen c s) = cond_build c s.
Proof.
  unfold cond_build, build_fx, build_gen, gen_Condition_build_value.
  destruct (remove_checks (S c) c s) as [s1|]; [|reflexivity].
  destruct (get_event c s1) as [cev|] eqn:E; cbn [snd]; [|congruence].
  destruct (out cev) as [[v|x]|]; cbn [snd]; rewrite ?E; try reflexivity; try congruence;
    try (destruct (kind cev); reflexivity).
Qed.

(* ---- non-vacuity witnesses: all_of([e0, e1]) = event 2; e0 succeeds with 1 and is processed, then e1 with 2 ----------- *)
Definition exc_s0 : state := fst (call_cond true [0%nat; 1%nat] (fst (call_event (fst (call_event (init_state 0)))))).
Definition exc_s1 : state := fst (call_succeed 0%nat (VInt 1) exc_s0).
Lemma ex_cond_check :
  exists cev oev, get_event 2%nat exc_s1 = Some cev /\ get_event 0%nat exc_s1 = Some oev /\ kind cev = KCond true [0%nat; 1%nat] 0 /\
  is_triggered cev = false /\
  c_count (fst (gen_Condition_check {| c_count := 0 |} false true (cond_evaluate true 2 1))) = 1%Z /\
  snd (gen_Condition_check {| c_count := 0 |} false true (cond_evaluate true 2 1)) = [] /\
  option_map kind (get_event 2%nat (cond_check 2%nat 0%nat exc_s1)) = Some (KCond true [0%nat; 1%nat] 1) /\
  option_map out (get_event 2%nat (cond_check 2%nat 0%nat exc_s1)) = Some None.
Proof. do 2 eexists. split; [reflexivity|]. split; [reflexivity|]. repeat split; vm_compute; reflexivity. Qed.

(* both operands processed (two steps), the condition is triggered: its own callback builds the value *)
Definition exc_s2 : state :=
  fst (step 1 [] (fst (step 1 [] (fst (call_succeed 1%nat (VInt 2) exc_s1))))).
Lemma ex_cond_build :
  snd (cond_build 2%nat exc_s2) <> RBroken /\
  build_fx 2%nat exc_s2 (build_gen 2%nat exc_s2) = cond_build 2%nat exc_s2 /\
  build_gen 2%nat exc_s2 = [FxRemoveChecks; FxNewValue; FxPopulate] /\
  option_map out (get_event 2%nat (fst (cond_build 2%nat exc_s2))) = Some (Some (Ok (VCond [(0%nat, VInt 1); (1%nat, VInt 2)]))).
Proof.
  split; [vm_compute; discriminate|]. split; [apply bridge_cond_build; vm_compute; discriminate|].
  split; vm_compute; reflexivity.
Qed.
