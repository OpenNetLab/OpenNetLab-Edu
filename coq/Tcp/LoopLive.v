(* C16 reliable_delivery, liveness half (statements in Props/C16.v and Props/C16_Live.v): a potential that
   every agenda step lowers.  Every agenda entry, every queued data copy and every
   queued ACK carries the work it still stands for (itself and what it can set off without
   transmitting); on top of that a data copy of segment id carries a weight wD n id (n = what the
   sink expects next) and an ACK numbered a a weight wA a.  A packet handed to the data path is
   credited cT, a timer expiry cE, a byte not yet sent costs G.  Two instances:
   - no weights, cT = 10: the number of steps is bounded by 3 + flow size + 10 * (data transmissions);
   - Tcp/LoopLive2.v: weights under which a fast retransmission is paid by the duplicate ACK that
     triggers it, cT = 0: the number of steps is bounded by the number of timer expiries. *)
From Coq Require Import ZArith QArith Qabs Qround Qminmax List Bool Lia Lqa Arith.
From ONL Require Import Tcp.Sink Tcp.SinkProofs Tcp.Sender Tcp.SenderProofs Tcp.Loop Tcp.LoopProofs.
Import ListNotations.
Open Scope Z_scope.

(* the work an agenda entry still stands for: itself (1) and the entries it sets off without a transmission.
   Data: GetD 8 = itself, OutD 7; OutD 7 = itself, the ACK's put callback 1, the queued ACK 5.  ACK: queued 5 = its
   GetA; GetA 5 = itself, OutA 4; OutA 4 = itself and the 3 a new ACK adds at the sender (a token in cwnd_avaialbe 1, its
   StorePut 2 = itself and the granted StoreGet 1).  Timer: Init 2 = itself, Fire 1.  A queued data copy is worth its GetD, 8.
   Outputs (ocost): Tx 9 = the queued copy 8 and its put callback 1; TStart 2; TRestart 1.  Hence the prices:
   a new segment 11 = Tx 9 + TStart 2, an expiry 10 = Tx 9 + TRestart 1, a duplicate ACK 9 against its own 3,
   a delivery 6 = put callback 1 + queued ACK 5. *)
Definition wev (e : aev) : Z :=
  match e with
  | ASenderWake => 1 | ASenderCb => 2 | ATimerInit _ => 2 | ATimerFire _ => 1
  | AWireInit _ => 1 | AWirePutCb _ => 1
  | AWireGetD _ => 8 | AWireOutD _ => 7
  | AWireGetA _ _ _ _ => 5 | AWireOutA _ _ _ _ => 4
  end.

(* timeout_callback calls in a sender log *)
Definition expiries (l : list slog) : nat :=
  length (filter (fun x => match sl_ev x with EExpire _ => true | _ => false end) l).

(* k agenda steps *)
Inductive lsteps (lc : lcfg) : nat -> lstate -> lstate -> Prop :=
| steps_O st : lsteps lc O st st
| steps_S k st st1 st2 : lsteps lc k st st1 -> lstep lc st1 = Some (inl st2) -> lsteps lc (S k) st st2.

Lemma lsteps_reach lc k st st' : lsteps lc k st st' -> lreach lc st st'.
Proof. induction 1; [constructor|eapply reach_step; eauto]. Qed.

Lemma reach_lsteps lc st0 st : lreach lc st0 st -> exists k, lsteps lc k st0 st.
Proof. induction 1 as [|st st' H (k & IH) Hs]; [exists O; constructor|exists (S k); eapply steps_S; eauto]. Qed.

Lemma reach_ns_le lc cw ss rtt0 orc st :
  lc_ok2 lc -> (zq (mss (lc_cfg lc)) <= cw)%Q -> (0 < rtt0)%Q -> fsize (lc_cfg lc) <> 0 ->
  lreach lc (linit cw ss rtt0 orc) st -> next_seq (l_snd st) <= fsize (lc_cfg lc).
Proof.
  intros Hok2 Hc Hr Hfs H. destruct (reach_C lc cw ss rtt0 orc st Hok2 Hc Hr H) as [_ [Cs _]].
  destruct (sc_buf _ _ Cs) as [B1 B2]. specialize (B2 Hfs). lia.
Qed.

(* what a sender event adds besides its outputs: the StorePut and the granted StoreGet *)
Definition extra_cost (s s' : sender) (e : event) : Z :=
  (if (pend s <? pend s')%nat then 2 else 0) +
  (if wake s' && negb (match e with EWake => false | _ => wake s end) then 1 else 0).

Definition psame (st st' : lstate) : Prop :=
  l_snd st' = l_snd st /\ l_sink st' = l_sink st /\ l_slog st' = l_slog st.

Lemma psame_trans a b c : psame a b -> psame b c -> psame a c.
Proof. intros (A1 & A2 & A3) (B1 & B2 & B3). repeat split; congruence. Qed.

Lemma sender_event_snd lc st e st' :
  sender_event lc st e = inl st' ->
  exists s' o, step (lc_fx lc) (lc_cfg lc) (l_snd st) e = Ok s' o /\ l_snd st' = norm_sender s'.
Proof.
  intros H. unfold sender_event in H.
  destruct (step (lc_fx lc) (lc_cfg lc) (l_snd st) e) as [s' o|x]; [|discriminate].
  exists s', o. split; [reflexivity|]. injection H as <-. lproj.
  assert (E : forall o st0, l_snd (do_outs lc st0 o) = l_snd st0).
  { clear. induction o as [|[]]; intros; cbn [do_outs]; rewrite ?IHo; unfold tx_data; try destruct (existsb _ _); reflexivity. }
  destruct (_ <? _)%nat; destruct (_ && _); lproj; apply E.
Qed.

(* the sink: an in-order arrival pushes the ACK beyond the segment *)
Lemma sink_nse_after lc st ev id :
  0 < mss (lc_cfg lc) -> LInvB lc st ev -> 0 <= id ->
  let sk := sink_step true (l_sink st) (id, mss (lc_cfg lc)) in
  nse (l_sink st) <= nse sk /\ 0 <= nse sk /\ (id <= nse (l_sink st) -> id + mss (lc_cfg lc) <= nse sk).
Proof.
  intros Hm HB Hid sk. destruct (lb_sink _ _ _ HB) as (hist & Bi & Bp & _).
  assert (Bi' : Inv (hist ++ [(id, mss (lc_cfg lc))]) sk) by (apply Inv_step; cbn [fst snd]; [lia|lia|exact Bi]).
  assert (Bp' : prefix_len (hist ++ [(id, mss (lc_cfg lc))]) (nse sk)).
  { apply (ack_prefix _ sk id (mss (lc_cfg lc))) in Bi'. exact Bi'. }
  split; [|split].
  - eapply prefix_len_mono; [|exact Bp|exact Bp']. intros x Hx. apply covered_app. left. exact Hx.
  - apply Bp'.
  - intros Hle. destruct Bp as (P0 & P1 & _). destruct Bp' as (Q0 & _ & Q2).
    destruct (Z_lt_ge_dec (nse sk) (id + mss (lc_cfg lc))) as [Hlt|Hge]; [|lia]. exfalso. apply Q2.
    apply covered_app. cbn [fst snd]. destruct (Z_lt_ge_dec (nse sk) id) as [H1|H1]; [left; apply P1; clearbody sk; lia|right; clearbody sk; lia].
Qed.

Section Pot.
Variable lc : lcfg.
Local Notation SZ := (fsize (lc_cfg lc)).
Local Notation m := (mss (lc_cfg lc)).
Variables (wD : Z -> Z -> Z) (wA : Z -> Z) (G cT cE : Z).

(* the sink's progress makes no data copy dearer; nothing weighs less than nothing *)
Hypothesis wD_mono : forall n n' id, n <= n' -> 0 <= id -> wD n' id <= wD n id.
Hypothesis wD_nonneg : forall n id, 0 <= id <= SZ -> 0 <= wD n id.
Hypothesis wA_nonneg : forall a, a <= SZ -> 0 <= wA a.
Hypothesis G_nonneg : 0 <= G.
(* a new segment (copy, put callback, timer) is paid by its bytes; a retransmission on expiry (copy, put
   callback, re-armed timer) by the expiry; a fast retransmission by the duplicate ACK (3 is what the
   sender does with any ACK); a copy that reaches the sink pays for the ACK it triggers *)
Hypothesis pay_new : forall n id, 0 <= id <= SZ -> 11 + wD n id - cT <= G.
Hypothesis pay_expiry : forall n id, 0 <= id <= SZ -> 10 + wD n id - cT <= cE.
Hypothesis pay_dup : forall n a, a <= n -> 9 + wD n a - cT <= 3 + wA a.
Hypothesis pay_ack : forall n n' id, n <= n' -> 0 <= n' <= SZ -> 0 <= id -> (id <= n -> id + m <= n') -> wA n' <= wD n id.

Definition wevw (n : Z) (e : aev) : Z :=
  match e with
  | AWireGetD id => 8 + wD n id
  | AWireOutD id => 7 + wD n id
  | AWireGetA a _ _ _ => 5 + wA a
  | AWireOutA a _ _ _ => 4 + wA a
  | _ => wev e
  end.

Fixpoint wag (n : Z) (l : list aentry) : Z :=
  match l with [] => 0 | a :: t => wevw n (ae_ev a) + wag n t end.
Fixpoint sumD (n : Z) (l : list Z) : Z :=
  match l with [] => 0 | id :: t => 8 + wD n id + sumD n t end.
Fixpoint sumA (l : list ackrec) : Z :=
  match l with [] => 0 | r :: t => 5 + wA (a_no r) + sumA t end.

Definition potN (n : Z) (st : lstate) : Z :=
  wag n (l_agenda st) + sumD n (wd_items (l_wd st)) + sumA (wa_items (l_wa st)) - cT * Z.of_nat (l_n1 st).
Definition potS (s : sender) : Z := Z.of_nat (tokens s) + G * (SZ - next_seq s).
Definition pot (st : lstate) : Z :=
  potN (nse (l_sink st)) st + potS (l_snd st) - cE * Z.of_nat (expiries (l_slog st)).

Lemma wag_insert n e l : wag n (ainsert e l) = wevw n (ae_ev e) + wag n l.
Proof.
  induction l as [|x t IH]; cbn [ainsert wag]; [lia|].
  destruct (ae_before e x); cbn [wag]; [lia|rewrite IH; lia].
Qed.

Lemma sumD_app n a b : sumD n (a ++ b) = sumD n a + sumD n b.
Proof. induction a as [|x a IH]; cbn [app sumD]; [lia|rewrite IH; lia]. Qed.
Lemma sumA_app a b : sumA (a ++ b) = sumA a + sumA b.
Proof. induction a as [|x a IH]; cbn [app sumA]; [lia|rewrite IH; lia]. Qed.

Lemma potN_sched n st t p e : potN n (sched st t p e) = wevw n e + potN n st.
Proof. unfold potN, sched; lproj. rewrite wag_insert. cbn [ae_ev]. lia. Qed.

Definition ids_in (st : lstate) : Prop :=
  Forall (fun id => 0 <= id <= SZ) (wd_items (l_wd st)) /\
  Forall (fun a => match ae_ev a with
                   | AWireGetD id | AWireOutD id => 0 <= id <= SZ
                   | AWireGetA k _ _ _ | AWireOutA k _ _ _ => k <= SZ
                   | _ => True end) (l_agenda st) /\
  Forall (fun r => a_no r <= SZ) (wa_items (l_wa st)).

Lemma B_ids_in st : 0 < m -> LInvB lc st None -> next_seq (l_snd st) <= SZ -> ids_in st.
Proof.
  intros Hm HB Hns. pose proof (LInvB_nse_le lc st None Hm HB) as Hnse. split; [|split].
  - eapply Forall_impl; [|exact (lb_wd _ _ _ HB)]. intros id [A B]. lia.
  - apply Forall_forall. intros a Ha. destruct (ae_ev a) eqn:E; auto.
    1,2: destruct (lb_evd _ _ _ HB (ae_ev a) id) as [A B]; [right; eauto|rewrite E; reflexivity|lia].
    1,2: destruct (lb_eva _ _ _ HB (ae_ev a) ackno) as [[A B] _]; [right; eauto|rewrite E; reflexivity|lia].
  - eapply Forall_impl; [|exact (lb_wa _ _ _ HB)]. intros r [A B]. lia.
Qed.

Lemma potN_mono n n' st : n <= n' -> ids_in st -> potN n' st <= potN n st.
Proof.
  intros Hn (H1 & H2 & _). unfold potN.
  assert (wag n' (l_agenda st) <= wag n (l_agenda st)).
  { induction H2 as [|a l Ha Hl IH]; cbn [wag]; [lia|]. unfold wevw.
    destruct (ae_ev a); try lia; pose proof (wD_mono n n' id Hn (proj1 Ha)); lia. }
  assert (sumD n' (wd_items (l_wd st)) <= sumD n (wd_items (l_wd st))).
  { induction H1 as [|a l Ha Hl IH]; cbn [sumD]; [lia|]. pose proof (wD_mono n n' a Hn (proj1 Ha)). lia. }
  lia.
Qed.

Lemma potN_lower n st : ids_in st -> - cT * Z.of_nat (l_n1 st) + 8 * Z.of_nat (length (wd_items (l_wd st))) <= potN n st.
Proof.
  intros (H1 & H2 & H3). unfold potN.
  assert (0 <= wag n (l_agenda st)).
  { induction H2 as [|a l Ha Hl IH]; cbn [wag]; [lia|]. unfold wevw.
    destruct (ae_ev a); cbn [wev]; try lia; try (pose proof (wD_nonneg n id Ha); lia); pose proof (wA_nonneg ackno Ha); lia. }
  assert (8 * Z.of_nat (length (wd_items (l_wd st))) <= sumD n (wd_items (l_wd st))).
  { induction H1 as [|a l Ha Hl IH]; cbn [sumD length]; [lia|]. pose proof (wD_nonneg n a Ha). lia. }
  assert (0 <= sumA (wa_items (l_wa st))).
  { induction H3 as [|a l Ha Hl IH]; cbn [sumA]; [lia|]. pose proof (wA_nonneg _ Ha). lia. }
  lia.
Qed.

Fixpoint ocost (n : Z) (o : list out) : Z :=
  match o with
  | [] => 0
  | Tx id _ :: t => 9 + wD n id - cT + ocost n t
  | TStart _ _ :: t => 2 + ocost n t
  | TStop _ :: t => ocost n t
  | TRestart _ _ :: t => 1 + ocost n t
  end.

Definition tx_ok (o : list out) : Prop := forall id z, In (Tx id z) o -> 0 <= id <= SZ.

Lemma tx_data_pot n st id : 0 <= id <= SZ ->
  potN n (tx_data lc st id) <= potN n st + 9 + wD n id - cT /\ psame st (tx_data lc st id).
Proof.
  intros Hid. pose proof (wD_nonneg n id Hid) as Hw.
  unfold tx_data. destruct (existsb (Nat.eqb (l_n1 st)) (lc_drop_data lc)); (split; [|repeat split]).
  - unfold potN; lproj. lia.
  - rewrite potN_sched. unfold potN, wevw; lproj. rewrite sumD_app. cbn [sumD wev]. lia.
Qed.

Lemma do_outs_pot n : forall o st, tx_ok o ->
  potN n (do_outs lc st o) <= potN n st + ocost n o /\ psame st (do_outs lc st o).
Proof.
  induction o as [|x o IH]; intros st Hok; cbn [do_outs ocost]; [repeat split; lia|].
  assert (Hok' : tx_ok o) by (intros i z Hi; apply (Hok i z); right; exact Hi).
  destruct x as [id z|id r|id|id r].
  - destruct (tx_data_pot n st id (Hok id z (or_introl eq_refl))) as (A & B).
    destruct (IH (tx_data lc st id) Hok') as (A' & B'). split; [lia|eapply psame_trans; eauto].
  - destruct (IH (sched st (l_now st) 0 (ATimerInit id)) Hok') as (A' & B').
    rewrite potN_sched in A'. cbn [wevw wev] in A'. split; [lia|exact B'].
  - apply IH. exact Hok'.
  - destruct (IH (sched st (l_now st + r)%Q 1 (ATimerFire id)) Hok') as (A' & B').
    rewrite potN_sched in A'. cbn [wevw wev] in A'. split; [lia|exact B'].
Qed.

Lemma sender_event_pot n st e st' s' o :
  step (lc_fx lc) (lc_cfg lc) (l_snd st) e = Ok s' o -> tx_ok o -> sender_event lc st e = inl st' ->
  l_sink st' = l_sink st /\ l_slog st' = mkslog (l_now st) e (txs o) (norm_sender s') :: l_slog st /\
  potN n st' <= potN n st + ocost n o + extra_cost (l_snd st) s' e.
Proof.
  intros Hstep Hok H. unfold sender_event in H. rewrite Hstep in H. injection H as <-.
  destruct (do_outs_pot n o (set_snd st (norm_sender s')) Hok) as (A & _ & C & D).
  set (st1 := do_outs lc _ o) in *.
  change (pend (norm_sender s')) with (pend s'). change (wake (norm_sender s')) with (wake s').
  change (potN n (set_snd st (norm_sender s'))) with (potN n st) in A. unfold extra_cost.
  destruct (_ <? _)%nat; destruct (_ && _); lproj; (split; [exact C|]); (split; [rewrite D; reflexivity|]);
    unfold potN in *; lproj; rewrite ?wag_insert; cbn [ae_ev wevw wev]; lia.
Qed.

Lemma ocost_segs n id k r : 0 <= id -> id + Z.of_nat k * m <= SZ -> 0 < m -> ocost n (segs m id k r) <= Z.of_nat k * G.
Proof.
  intros Hid Hle Hm. revert id Hid Hle. induction k as [|k IH]; intros id Hid Hle; cbn [segs ocost]; [lia|].
  specialize (IH (id + m) ltac:(lia) ltac:(lia)). pose proof (pay_new n id ltac:(nia)). lia.
Qed.

Lemma ocost_stops n ids : ocost n (map TStop ids) = 0.
Proof. induction ids as [|i t IH]; cbn [map ocost]; auto. Qed.

(* the sender's share of one event *)
Lemma step_potS n s e s' o :
  0 < m -> SInv (lc_cfg lc) s -> 0 <= next_seq s -> next_seq s' <= SZ -> Forall (fun i => 0 <= i) (sent s) ->
  (match e with EAck a _ _ _ => last_ack s <= n /\ a <= SZ | _ => True end) ->
  step repaired (lc_cfg lc) s e = Ok s' o ->
  ocost n o + extra_cost s s' e + potS s' <=
  potS s + (match e with EAck a _ _ _ => 3 + wA a | EExpire _ => cE | _ => 0 end).
Proof.
  intros Hm I Hns Hns' Hsent He H. unfold extra_cost, potS.
  assert (Hb : wake s && negb (wake s) = false) by (destruct (wake s); reflexivity).
  destruct e as [ackno pid sample orc|id| |]; cbn [step] in H.
  - destruct He as [Hla Ha]. pose proof (wA_nonneg ackno Ha).
    apply on_ack_shape in H; [|apply I]. destruct H as (N & _ & Wk & _ & _ & [D|Nw]).
    + destruct D as (Ea&_&_&_&_&_&_&_&Tk&Pd&O). rewrite N, Wk, Tk, Pd, Nat.ltb_irrefl, Hb.
      destruct O as [->|(-> & _)]; cbn [ocost]; [lia|]. pose proof (pay_dup n (last_ack s) ltac:(lia)). rewrite Ea. lia.
    + destruct Nw as (_&_&_&_&_&O&_&_&_&Tk&Pd). rewrite N, Wk, Tk, Pd, O, ocost_stops, Hb.
      replace (pend s <? S (pend s))%nat with true by (symmetry; apply Nat.ltb_lt; lia). lia.
  - unfold on_timer in H. destruct (has_timer id (timers s)) eqn:Eh; cbn [negb] in H; [|discriminate].
    apply has_timer_In in Eh. rewrite (si_keys _ _ I) in Eh.
    assert (Hid : 0 <= id < next_seq s).
    { rewrite Forall_forall in Hsent. pose proof (si_below _ _ I) as Hb'. rewrite Forall_forall in Hb'. split; [apply Hsent|apply Hb']; exact Eh. }
    apply in_sent_In in Eh.
    unfold resend in H. proj. rewrite Eh in H. injection H as <- <-. proj. cbn [app ocost]. proj. rewrite Nat.ltb_irrefl, Hb.
    pose proof (pay_expiry n id ltac:(lia)). lia.
  - apply on_storecb_shape in H as (-> & p & Hp & [(Wt & Tk & ->)|(_ & ->)]); proj; rewrite Hp; cbn [ocost];
      (replace (S p <? p)%nat with false by (symmetry; apply Nat.ltb_ge; lia)).
    + destruct (negb (wake s)); cbn [andb]; lia.
    + rewrite Hb. lia.
  - pose proof H as H0. unfold on_wake in H0. destruct (wake s && negb (finished s)); [|discriminate].
    apply send_loop_flags in H0 as (Pd & Fl). proj.
    apply send_guard in H; [|exact Hm]. destruct H as (k & -> & Hk & _). proj. cbn [app].
    rewrite Hk in Hns'.
    pose proof (ocost_segs n (next_seq s) k (rto s) Hns Hns' Hm) as Hc.
    rewrite Hk, Pd, Nat.ltb_irrefl. cbn [negb]. rewrite andb_true_r.
    assert (Hkm : Z.of_nat k * G <= G * (Z.of_nat k * m)) by nia.
    destruct Fl as [(_ & Hw & _ & Tk)|(_ & [(Hw & _ & Tk)|(Hw & _ & Tk & Tk0)])]; rewrite Hw; cbn [Z.of_nat]; lia.
Qed.

Lemma wd_get_pot n st : potN n (wd_get st) = potN n st /\ psame st (wd_get st).
Proof.
  unfold wd_get. destruct (wd_items (l_wd st)) as [|x rest] eqn:E; (split; [|repeat split]).
  - unfold potN; lproj. rewrite E. reflexivity.
  - rewrite potN_sched. unfold potN, wevw; lproj. rewrite E. cbn [sumD wev]. lia.
Qed.

Lemma wa_get_pot n st : potN n (wa_get st) = potN n st /\ psame st (wa_get st).
Proof.
  unfold wa_get. destruct (wa_items (l_wa st)) as [|x rest] eqn:E; (split; [|repeat split]).
  - unfold potN; lproj. rewrite E. reflexivity.
  - rewrite potN_sched. unfold potN, wevw; lproj. rewrite E. cbn [sumA wev]. lia.
Qed.

Lemma deliver_data_pot st id st' :
  deliver_data lc st id = inl st' ->
  l_snd st' = l_snd st /\ l_slog st' = l_slog st /\
  l_sink st' = sink_step true (l_sink st) (id, m) /\
  (nse (l_sink st') <= SZ -> forall n, potN n st' <= potN n st + 6 + wA (nse (l_sink st'))).
Proof.
  unfold deliver_data. destruct (pkt_get id (l_pkt st)) as [[tm ct]|]; [|discriminate].
  cbv zeta. remember (sink_step true (l_sink st) (id, m)) as sk eqn:Esk. clear Esk.
  destruct (existsb _ _); intros H; injection H as <-; lproj; repeat split; intros Hle n; pose proof (wA_nonneg _ Hle).
  - unfold potN; lproj. lia.
  - rewrite potN_sched. unfold potN, wevw; lproj. rewrite sumA_app. cbn [sumA a_no wev]. lia.
Qed.

(* one sender event inside the loop *)
Lemma sender_event_pot_total st e ev st' :
  lc_ok lc -> LInvA lc st (Some ev) -> LInvB lc st (Some ev) -> next_seq (l_snd st') <= SZ ->
  (match e with EAck a _ _ _ => ackno_of ev = Some a | _ => True end) ->
  sender_event lc st e = inl st' ->
  pot st' <= pot st + (match e with EAck a _ _ _ => 3 + wA a | _ => 0 end).
Proof.
  intros [Hfx Hm _] HA HB Hns' Hev H. pose proof (la_sinv _ _ _ HA) as I.
  destruct (sender_event_snd lc st e st' H) as (s' & o & Hstep & Hsn). pose proof Hstep as Hstep'. rewrite Hfx in Hstep'.
  destruct (step_seg _ _ _ _ _ Hm (proj1 (proj2 (si_win _ _ I))) (lb_ns _ _ _ HB) (lb_sent _ _ _ HB) Hstep') as (Hmono & _ & Stx & _).
  rewrite Hsn in Hns'. change (next_seq (norm_sender s')) with (next_seq s') in Hns'.
  assert (Hok : tx_ok o) by (intros id z Hi; destruct (Stx id z Hi) as [A B]; lia).
  destruct (sender_event_pot (nse (l_sink st)) st e st' s' o Hstep Hok H) as (Hsk & Hsl & Hp).
  assert (Hsent : Forall (fun i => 0 <= i) (sent (l_snd st))).
  { eapply Forall_impl; [|exact (lb_sent _ _ _ HB)]. intros i [A _]. exact A. }
  pose proof (LInvB_nse_le lc st _ Hm HB) as Hnse.
  assert (He : match e with EAck a _ _ _ => last_ack (l_snd st) <= nse (l_sink st) /\ a <= SZ | _ => True end).
  { destruct e as [a pid sm orc| | |]; auto. destruct (lb_eva _ _ _ HB ev a (or_introl eq_refl) Hev) as [[_ A] _].
    pose proof (lb_la _ _ _ HB). lia. }
  pose proof (step_potS (nse (l_sink st)) _ _ _ _ Hm I (lb_ns _ _ _ HB) Hns' Hsent He Hstep') as Hq.
  unfold pot. rewrite Hsk, Hsn, Hsl. change (potS (norm_sender s')) with (potS s').
  unfold expiries. cbn [filter sl_ev]. destruct e as [a pid sm orc|id| |]; cbn [length]; lia.
Qed.

Lemma deliver_then_get st ev id st1 :
  lc_ok lc -> LInvB lc st (Some ev) -> dataid_of ev = Some id -> ids_in st -> nse (l_sink st1) <= SZ ->
  deliver_data lc st id = inl st1 ->
  pot (wd_get st1) <= pot st + 6 + wD (nse (l_sink st)) id.
Proof.
  intros [_ Hm _] HB Hid Hin Hle D.
  destruct (lb_evd _ _ _ HB ev id (or_introl eq_refl) Hid) as [Hid0 Hid1].
  destruct (deliver_data_pot st id st1 D) as (Hs & Hl & Hk & Hp). specialize (Hp Hle).
  destruct (sink_nse_after lc st _ id Hm HB Hid0) as (M1 & M2 & M3). cbv zeta in *. rewrite <- Hk in *.
  set (n := nse (l_sink st)) in *. set (n' := nse (l_sink st1)) in *.
  destruct (wd_get_pot n' st1) as (G1 & G2 & G3 & G4).
  pose proof (potN_mono n n' st M1 Hin) as Hmono. specialize (Hp n').
  pose proof (pay_ack n n' id M1 ltac:(lia) Hid0 M3).
  unfold pot. rewrite G3, G4, G2, Hs, Hl. fold n' n. rewrite G1. lia.
Qed.

Lemma deliver_ack_then_get st ev a pid tm st1 :
  lc_ok lc -> LInvA lc st (Some ev) -> LInvB lc st (Some ev) -> ackno_of ev = Some a ->
  next_seq (l_snd st1) <= SZ ->
  deliver_ack lc st a pid tm = inl st1 ->
  pot (wa_get st1) <= pot st + 3 + wA a.
Proof.
  intros Hok HA HB Hev Hns1 D. unfold deliver_ack in D.
  set (st0 := mkls _ _ _ _ _ _ _ _ _ _ (tl (l_oracle st)) _ _ _) in D.
  assert (A0 : LInvA lc st0 (Some ev)).
  { destruct HA as [Is Iw Ic [Ts Tf Tpk Tw Te Td Tk]]. constructor; subst st0; lproj; auto. constructor; lproj; auto. }
  assert (B0 : LInvB lc st0 (Some ev)).
  { destruct HB as [Bns Bsent Bsk Bwd Bevd Beva Bwa Bsort Bctl Bla]. constructor; subst st0; lproj; auto. }
  pose proof (sender_event_pot_total st0 (EAck a pid (nq (l_now st - tm)) (hd 0%Q (l_oracle st))) ev st1 Hok A0 B0 Hns1 Hev D) as Hp. cbn beta iota in Hp.
  change (pot st0) with (pot st) in Hp.
  destruct (wa_get_pot (nse (l_sink st1)) st1) as (G1 & G2 & G3 & G4).
  unfold pot in *. rewrite G3, G4, G2, G1. lia.
Qed.

(* one agenda entry: the potential drops by at least one, but for the credit of an expiry *)
Lemma handle_pot st ev st' :
  lc_ok lc -> LInvA lc st (Some ev) -> LInvB lc st (Some ev) -> ids_in st ->
  next_seq (l_snd st') <= SZ -> nse (l_sink st') <= SZ ->
  handle lc st ev = inl st' -> pot st' <= pot st + wevw (nse (l_sink st)) ev - 1.
Proof.
  intros Hok HA HB Hin Hns' Hle H. set (n := nse (l_sink st)).
  assert (Sched : forall t p e, pot (sched st t p e) = wevw n e + pot st).
  { intros. unfold pot. lproj. rewrite potN_sched. fold n. lia. }
  assert (GetD : forall st1, pot (wd_get st1) = pot st1).
  { intros. destruct (wd_get_pot (nse (l_sink st1)) st1) as (G1 & G2 & G3 & G4). unfold pot. rewrite G3, G4, G2, G1. reflexivity. }
  assert (GetA : forall st1, pot (wa_get st1) = pot st1).
  { intros. destruct (wa_get_pot (nse (l_sink st1)) st1) as (G1 & G2 & G3 & G4). unfold pot. rewrite G3, G4, G2, G1. reflexivity. }
  assert (Snd : forall e, match e with EAck _ _ _ _ => False | _ => True end -> sender_event lc st e = inl st' -> pot st' <= pot st).
  { intros e He Hs. pose proof (sender_event_pot_total st e ev st' Hok HA HB Hns') as Hp.
    destruct e; [destruct He|..]; specialize (Hp I Hs); lia. }
  assert (Dlv : forall id st1, dataid_of ev = Some id -> deliver_data lc st id = inl st1 -> st' = wd_get st1 ->
                pot st' <= pot st + 6 + wD n id).
  { intros id st1 Hid D ->. eapply deliver_then_get; eauto. destruct (wd_get_pot 0 st1) as (_ & _ & <- & _). exact Hle. }
  assert (Ack : forall a pid tm st1, ackno_of ev = Some a -> deliver_ack lc st a pid tm = inl st1 -> st' = wa_get st1 ->
                pot st' <= pot st + 3 + wA a).
  { intros a pid tm st1 Ha D ->. eapply deliver_ack_then_get; eauto. rewrite <- (wa_get_snd st1). exact Hns'. }
  destruct ev as [| |id|id|w|w|id|id|ackno pid tm ct|ackno pid tm ct]; cbn [handle wevw wev] in *.
  - apply Snd in H; [lia|exact I].
  - apply Snd in H; [lia|exact I].
  - destruct (find _ _) as [[k r]|]; injection H as <-; rewrite ?Sched; cbn [wevw wev]; lia.
  - destruct (has_timer _ _); [apply Snd in H; [lia|exact I]|injection H as <-; lia].
  - destruct w; injection H as <-; rewrite ?GetA, ?GetD; lia.
  - destruct w; [destruct (wa_waiting _)|destruct (wd_waiting _)]; injection H as <-; rewrite ?GetA, ?GetD; lia.
  - destruct (pkt_get id (l_pkt st)) as [[tm ct]|]; [|discriminate].
    destruct (Qltb _ _); [injection H as <-; rewrite Sched; cbn [wevw wev]; lia|].
    destruct (deliver_data lc st id) as [st1|] eqn:D; cbn [bind] in H; [|discriminate]. injection H as H.
    pose proof (Dlv id st1 eq_refl D (eq_sym H)). lia.
  - destruct (deliver_data lc st id) as [st1|] eqn:D; cbn [bind] in H; [|discriminate]. injection H as H.
    pose proof (Dlv id st1 eq_refl D (eq_sym H)). lia.
  - destruct (Qltb _ _); [injection H as <-; rewrite Sched; cbn [wevw wev]; lia|].
    destruct (deliver_ack lc st ackno pid tm) as [st1|] eqn:D; cbn [bind] in H; [|discriminate]. injection H as H.
    pose proof (Ack ackno pid tm st1 eq_refl D (eq_sym H)). lia.
  - destruct (deliver_ack lc st ackno pid tm) as [st1|] eqn:D; cbn [bind] in H; [|discriminate]. injection H as H.
    pose proof (Ack ackno pid tm st1 eq_refl D (eq_sym H)). lia.
Qed.

Section Run.
Variables (cw ss rtt0 : Q) (orc : list Q).
Hypothesis Hok2 : lc_ok2 lc.
Hypothesis Hc : (zq m <= cw)%Q.
Hypothesis Hr : (0 < rtt0)%Q.
Hypothesis Hfs : SZ <> 0.
Local Notation st0 := (linit cw ss rtt0 orc).

Lemma reach_ids_in st : lreach lc st0 st -> ids_in st.
Proof.
  intros Hreach. pose proof (ok2_ok _ Hok2) as Hok.
  destruct (reach_AB lc cw ss rtt0 orc st Hok Hc Hr Hreach) as [_ HB].
  apply B_ids_in; [apply Hok|exact HB|eapply reach_ns_le; eauto].
Qed.

Lemma lstep_pot st st' : lreach lc st0 st -> lstep lc st = Some (inl st') -> pot st' + 1 <= pot st.
Proof.
  intros Hreach H. pose proof (ok2_ok _ Hok2) as Hok.
  assert (Hreach' : lreach lc st0 st') by (eapply reach_step; eauto).
  destruct (reach_AB lc cw ss rtt0 orc st Hok Hc Hr Hreach) as [HA HB].
  destruct (reach_AB lc cw ss rtt0 orc st' Hok Hc Hr Hreach') as [_ HB'].
  pose proof (reach_ns_le lc cw ss rtt0 orc st' Hok2 Hc Hr Hfs Hreach') as Hns'.
  pose proof (LInvB_nse_le lc st' None (ok_mss _ Hok) HB') as Hnse'.
  pose proof (reach_ids_in st Hreach) as (I1 & I2 & I3).
  unfold lstep in H. destruct (l_agenda st) as [|a rest] eqn:E; [discriminate|].
  injection H as H. fold (popped st a rest) in H.
  destruct (pop_A lc st a rest HA E) as (P1 & _). pose proof (pop_B lc st a rest HB E) as P2.
  apply handle_pot in H; auto; try lia.
  - unfold pot, potN, popped in *; lproj. rewrite E. cbn [wag]. lia.
  - unfold ids_in, popped; lproj. inversion I2; auto.
Qed.

Lemma pot_init : pot st0 = 3 + G * SZ.
Proof. unfold pot, potN, potS, expiries, linit, init; lproj; proj. cbn [wag ae_ev wevw wev sumD sumA filter length Z.of_nat]. lia. Qed.

Theorem work_bounded k st :
  lsteps lc k st0 st ->
  Z.of_nat k + 8 * Z.of_nat (length (wd_items (l_wd st))) <=
  3 + G * SZ + cT * Z.of_nat (l_n1 st) + cE * Z.of_nat (expiries (l_slog st)).
Proof.
  intros H.
  assert (Hp : Z.of_nat k + pot st <= pot st0).
  { remember st0 as s0. induction H as [|k st st1 st2 H IH Hs]; [lia|]. specialize (IH Heqs0). subst st.
    pose proof (lstep_pot st1 st2 (lsteps_reach _ _ _ _ H) Hs). lia. }
  pose proof (lsteps_reach _ _ _ _ H) as Hreach.
  pose proof (potN_lower (nse (l_sink st)) st (reach_ids_in st Hreach)) as Hn.
  pose proof (reach_ns_le lc cw ss rtt0 orc st Hok2 Hc Hr Hfs Hreach) as Hns.
  assert (0 <= potS (l_snd st)) by (unfold potS; nia).
  rewrite pot_init in Hp. unfold pot in Hp. lia.
Qed.
End Run.
End Pot.

(* WORK IS BOUNDED BY TRANSMISSIONS: after k steps, k <= 3 + flow size + 10 * (data packets handed
   to the data path so far).  Everything except transmitting (new data is bounded by the flow;
   retransmissions come from timer expiries and fast retransmit) is finite work. *)
Theorem loop_work_bounded lc cw ss rtt0 orc k st :
  lc_ok2 lc -> (zq (mss (lc_cfg lc)) <= cw)%Q -> (0 < rtt0)%Q -> fsize (lc_cfg lc) <> 0 ->
  lsteps lc k (linit cw ss rtt0 orc) st ->
  Z.of_nat k <= 3 + fsize (lc_cfg lc) + 10 * Z.of_nat (l_n1 st).
Proof.
  intros Hok2 Hc Hr Hfs H.
  pose proof (work_bounded lc (fun _ _ => 0) (fun _ => 0) 1 10 0) as W. cbv beta in W.
  specialize (W ltac:(lia) ltac:(lia) ltac:(lia) ltac:(lia) ltac:(lia) ltac:(lia) ltac:(lia) ltac:(lia) cw ss rtt0 orc Hok2 Hc Hr Hfs k st H).
  lia.
Qed.

Lemma lsteps_prepend lc st s1 k s2 : lstep lc st = Some (inl s1) -> lsteps lc k s1 s2 -> lsteps lc (S k) st s2.
Proof.
  intros Es H. induction H as [|k a b c H IH Hs].
  - eapply steps_S; [constructor|exact Es].
  - eapply steps_S; [exact (IH Es)|exact Hs].
Qed.

Lemma lrun_fuel_steps lc : forall fuel st st', lrun fuel lc st = LFuel st' -> lsteps lc fuel st st'.
Proof.
  induction fuel as [|f IH]; intros st st'; cbn [lrun].
  - intros H; injection H as <-. constructor.
  - destruct (l_agenda st) as [|a rest] eqn:E; [discriminate|].
    destruct (Qle_bool (lc_tmax lc) (ae_time a)); [discriminate|].
    destruct (lstep lc st) as [[st1|e]|] eqn:Es; try discriminate.
    intros H. apply IH in H. eapply lsteps_prepend; eauto.
Qed.

(* the executable runner runs out of fuel only if that many packets were transmitted *)
Theorem loop_out_of_fuel_needs_transmissions lc cw ss rtt0 orc fuel st :
  lc_ok2 lc -> (zq (mss (lc_cfg lc)) <= cw)%Q -> (0 < rtt0)%Q -> fsize (lc_cfg lc) <> 0 ->
  lrun fuel lc (linit cw ss rtt0 orc) = LFuel st ->
  Z.of_nat fuel <= 3 + fsize (lc_cfg lc) + 10 * Z.of_nat (l_n1 st).
Proof.
  intros Hok2 Hc Hr Hfs H. apply lrun_fuel_steps in H. eapply loop_work_bounded; eauto.
Qed.
