(* Closed loop: the sender of Tcp/Sender.v and the sink of Tcp/Sink.v joined by two Wires
   (onl/netdev/wire.py, constant delay) and two droppers (finite sets of dropped transmission
   indices), on a small agenda ordered like the kernel's: (time, priority, insertion number).
   Executable; no proofs here.

   What is kept from the real objects because it decides the order of events:
   - Store hand-offs take two agenda hops (the StorePut event's callback grants a waiting get; the
     granted StoreGet event resumes the consumer), for the sender's cwnd_avaialbe and for both wires;
   - a Timer is a process: its Initialize event (urgent) schedules the Timeout; when the Timeout is
     processed the callback runs unless the timer was stopped, and a restart() from the callback
     schedules the next Timeout after everything the callback scheduled;
   - retransmissions re-send THE SAME Packet object: packet.time (and packet.current_time) of a copy
     still inside the wire are overwritten ([l_pkt] maps a segment id to the fields of its object);
     the wire's store holds (entry instant, packet) pairs (fix: commit 965d42d in onl/netdev/wire.py), so each
     traversal is timed by its own entry instant: [wd_stamps] runs parallel to [wd_items], and
     [wd_entered] is the local variable `entered` of the wire's process (the entry it last took);
     ACK packets are fresh objects and are carried by value. *)
From Coq Require Import ZArith QArith Qabs Qround Qminmax List Bool.
From ONL Require Import Tcp.Sink Tcp.Sender.
Import ListNotations.
Open Scope Z_scope.

Inductive aev :=
| ASenderWake                (* Initialize / granted StoreGet of the sender process *)
| ASenderCb                  (* a StorePut event of cwnd_avaialbe *)
| ATimerInit (id : Z)        (* Initialize of the Timer process of segment id *)
| ATimerFire (id : Z)        (* the Timeout the Timer process of segment id sleeps on *)
| AWireInit (w : bool)       (* false = data wire, true = ACK wire *)
| AWirePutCb (w : bool)      (* a StorePut event of the wire's store *)
| AWireGetD (id : Z)         (* data wire: granted StoreGet carrying the packet of segment id *)
| AWireOutD (id : Z)         (* data wire: end of the propagation delay *)
| AWireGetA (ackno pid : Z) (tm ct : Q)   (* ACK wire: the ACK packet by value (ack, packet_id, time, current_time) *)
| AWireOutA (ackno pid : Z) (tm ct : Q).

Record aentry := mkae { ae_time : Q; ae_prio : nat; ae_seq : nat; ae_ev : aev }.

Definition ae_before (a b : aentry) : bool :=
  Qltb (ae_time a) (ae_time b) ||
  (Qeq_bool (ae_time a) (ae_time b) &&
   ((ae_prio a <? ae_prio b)%nat || ((ae_prio a =? ae_prio b)%nat && (ae_seq a <? ae_seq b)%nat))).

Fixpoint ainsert (e : aentry) (l : list aentry) : list aentry :=
  match l with
  | [] => [e]
  | x :: t => if ae_before e x then e :: x :: t else x :: ainsert e t
  end.

Record ackrec := mkack { a_no : Z; a_pid : Z; a_time : Q; a_ct : Q }.

Record wireD := mkwd { wd_items : list Z; wd_stamps : list Q; wd_entered : Q; wd_waiting : bool }.
Record wireA := mkwa { wa_items : list ackrec; wa_waiting : bool }.

Record lcfg := mklcfg {
  lc_fx : fixes; lc_cfg : config; lc_delay : Q;
  lc_drop_data : list nat; lc_drop_ack : list nat;
  lc_tmax : Q
}.

(* what the correspondence compares *)
Record slog := mkslog { sl_time : Q; sl_ev : event; sl_tx : list (Z * Z); sl_post : sender }.
Record dlog := mkdlog { dl_idx : nat; dl_id : Z; dl_ack : Z; dl_time : Q; dl_dropped : bool }.

Record lstate := mkls {
  l_now : Q; l_seq : nat; l_agenda : list aentry;
  l_snd : sender; l_sink : sink;
  l_pkt : list (Z * (Q * Q));        (* id -> (packet.time, packet.current_time) of the one Packet object of segment id *)
  l_wd : wireD; l_wa : wireA;
  l_n1 : nat; l_n2 : nat;            (* packets seen by the droppers *)
  l_oracle : list Q;                 (* TCPCubic.cnt after each ACK, as computed by the real code (oracle, see Sender.v) *)
  l_slog : list slog; l_d1 : list dlog; l_d2 : list dlog   (* reversed logs *)
}.

Inductive lerr :=
| LSender (e : err)          (* the sender raised *)
| LNoPacket (id : Z).        (* model-level: a segment id without a Packet object *)

Definition nq (q : Q) : Q := Qred q.

Definition norm_sender (s : sender) : sender :=
  mkst (next_seq s) (send_buffer s) (last_ack s) (dupack s) (nq (cwnd s)) (nq (ssthresh s)) (nq (srtt s)) (nq (rttvar s))
       (nq (rto s)) (cwnd_cnt s) (nq (cnt s)) (map (fun p => (fst p, nq (snd p))) (timers s)) (sent s)
       (tokens s) (pend s) (waiting s) (wake s) (finished s).

Definition sched (st : lstate) (t : Q) (prio : nat) (e : aev) : lstate :=
  mkls (l_now st) (S (l_seq st)) (ainsert (mkae (nq t) prio (l_seq st) e) (l_agenda st))
       (l_snd st) (l_sink st) (l_pkt st) (l_wd st) (l_wa st) (l_n1 st) (l_n2 st) (l_oracle st)
       (l_slog st) (l_d1 st) (l_d2 st).

Fixpoint pkt_get (id : Z) (m : list (Z * (Q * Q))) : option (Q * Q) :=
  match m with [] => None | (k, v) :: t => if k =? id then Some v else pkt_get id t end.
Fixpoint pkt_set (id : Z) (v : Q * Q) (m : list (Z * (Q * Q))) : list (Z * (Q * Q)) :=
  match m with [] => [(id, v)] | (k, x) :: t => if k =? id then (k, v) :: t else (k, x) :: pkt_set id v t end.

Definition set_snd (st : lstate) (s : sender) : lstate :=
  mkls (l_now st) (l_seq st) (l_agenda st) s (l_sink st) (l_pkt st) (l_wd st) (l_wa st) (l_n1 st) (l_n2 st)
       (l_oracle st) (l_slog st) (l_d1 st) (l_d2 st).
Definition set_pkt (st : lstate) (m : list (Z * (Q * Q))) : lstate :=
  mkls (l_now st) (l_seq st) (l_agenda st) (l_snd st) (l_sink st) m (l_wd st) (l_wa st) (l_n1 st) (l_n2 st)
       (l_oracle st) (l_slog st) (l_d1 st) (l_d2 st).
Definition set_wd (st : lstate) (w : wireD) : lstate :=
  mkls (l_now st) (l_seq st) (l_agenda st) (l_snd st) (l_sink st) (l_pkt st) w (l_wa st) (l_n1 st) (l_n2 st)
       (l_oracle st) (l_slog st) (l_d1 st) (l_d2 st).
Definition set_wa (st : lstate) (w : wireA) : lstate :=
  mkls (l_now st) (l_seq st) (l_agenda st) (l_snd st) (l_sink st) (l_pkt st) (l_wd st) w (l_n1 st) (l_n2 st)
       (l_oracle st) (l_slog st) (l_d1 st) (l_d2 st).

(* ---- data path: sender.out = dropper 1 -> wire 1 ---- *)

(* out.put(packet) of segment id: the packet's time was just set to now by the sender *)
Definition tx_data (lc : lcfg) (st : lstate) (id : Z) : lstate :=
  let idx := l_n1 st in
  let dropped := existsb (Nat.eqb idx) (lc_drop_data lc) in
  let ct := match pkt_get id (l_pkt st) with Some (_, c) => c | None => 0%Q end in   (* a new Packet has current_time 0 *)
  let st1 := mkls (l_now st) (l_seq st) (l_agenda st) (l_snd st) (l_sink st)
                  (pkt_set id (l_now st, if dropped then ct else l_now st) (l_pkt st))   (* Wire.put: packet.current_time = now *)
                  (l_wd st) (l_wa st) (S idx) (l_n2 st) (l_oracle st) (l_slog st)
                  (mkdlog idx id 0 (l_now st) dropped :: l_d1 st) (l_d2 st) in
  if dropped then st1
  else sched (set_wd st1 (mkwd (wd_items (l_wd st1) ++ [id]) (wd_stamps (l_wd st1) ++ [l_now st]) (wd_entered (l_wd st1))
                               (wd_waiting (l_wd st1)))) (l_now st) 1 (AWirePutCb false).

(* the outputs of one sender event, in order *)
Fixpoint do_outs (lc : lcfg) (st : lstate) (o : list out) : lstate :=
  match o with
  | [] => st
  | Tx id _ :: t => do_outs lc (tx_data lc st id) t
  | TStart id _ :: t => do_outs lc (sched st (l_now st) 0 (ATimerInit id)) t
  | TStop _ :: t => do_outs lc st t
  | TRestart id r :: t => do_outs lc (sched st (l_now st + r)%Q 1 (ATimerFire id)) t
  end.

(* one event of the sender inside the loop *)
Definition sender_event (lc : lcfg) (st : lstate) (e : event) : lstate + lerr :=
  let s := l_snd st in
  match step (lc_fx lc) (lc_cfg lc) s e with
  | Raise x => inr (LSender x)
  | Ok s' o =>
      let s' := norm_sender s' in
      let st1 := do_outs lc (set_snd st s') o in
      (* cwnd_avaialbe.put(True): its StorePut event *)
      let st2 := if (pend s <? pend s')%nat then sched st1 (l_now st) 1 ASenderCb else st1 in
      (* a get granted (by the StorePut callback, or at once inside get()): its StoreGet event *)
      let st3 := if wake s' && negb (match e with EWake => false | _ => wake s end) then sched st2 (l_now st) 1 ASenderWake else st2 in
      inl (mkls (l_now st3) (l_seq st3) (l_agenda st3) (l_snd st3) (l_sink st3) (l_pkt st3) (l_wd st3) (l_wa st3)
                (l_n1 st3) (l_n2 st3) (l_oracle st3)
                (mkslog (l_now st) e (txs o) s' :: l_slog st3) (l_d1 st3) (l_d2 st3))
  end.

(* ---- wires ---- *)

(* store.get() of the data wire's process *)
Definition wd_get (st : lstate) : lstate :=
  match wd_items (l_wd st) with
  | x :: rest => sched (set_wd st (mkwd rest (tl (wd_stamps (l_wd st))) (hd 0%Q (wd_stamps (l_wd st))) false)) (l_now st) 1 (AWireGetD x)
  | [] => set_wd st (mkwd [] (wd_stamps (l_wd st)) (wd_entered (l_wd st)) true)
  end.
Definition wa_get (st : lstate) : lstate :=
  match wa_items (l_wa st) with
  | x :: rest => sched (set_wa st (mkwa rest false)) (l_now st) 1 (AWireGetA (a_no x) (a_pid x) (a_time x) (a_ct x))
  | [] => set_wa st (mkwa [] true)
  end.

(* sink.put(packet of segment id) and the way back: dropper 2 -> wire 2 *)
Definition deliver_data (lc : lcfg) (st : lstate) (id : Z) : lstate + lerr :=
  match pkt_get id (l_pkt st) with
  | None => inr (LNoPacket id)
  | Some (tm, _) =>
      let sk := sink_step true (l_sink st) (id, mss (lc_cfg lc)) in
      let idx := l_n2 st in
      let dropped := existsb (Nat.eqb idx) (lc_drop_ack lc) in
      let st1 := mkls (l_now st) (l_seq st) (l_agenda st) (l_snd st) sk (l_pkt st) (l_wd st) (l_wa st)
                      (l_n1 st) (S idx) (l_oracle st) (l_slog st) (l_d1 st)
                      (mkdlog idx id (nse sk) (l_now st) dropped :: l_d2 st) in
      if dropped then inl st1
      else inl (sched (set_wa st1 (mkwa (wa_items (l_wa st1) ++ [mkack (nse sk) id tm (l_now st)]) (wa_waiting (l_wa st1))))
                      (l_now st) 1 (AWirePutCb true))
  end.

(* wire2.out.put(ack) = sender.put(ack) *)
Definition deliver_ack (lc : lcfg) (st : lstate) (ackno pid : Z) (tm : Q) : lstate + lerr :=
  let o := hd 0%Q (l_oracle st) in
  let st1 := mkls (l_now st) (l_seq st) (l_agenda st) (l_snd st) (l_sink st) (l_pkt st) (l_wd st) (l_wa st)
                  (l_n1 st) (l_n2 st) (tl (l_oracle st)) (l_slog st) (l_d1 st) (l_d2 st) in
  sender_event lc st1 (EAck ackno pid (nq (l_now st - tm)) o).

Definition bind (x : lstate + lerr) (f : lstate -> lstate + lerr) : lstate + lerr :=
  match x with inl s => f s | inr e => inr e end.

(* one agenda entry *)
Definition handle (lc : lcfg) (st : lstate) (e : aev) : lstate + lerr :=
  let d := lc_delay lc in
  match e with
  | ASenderWake => sender_event lc st EWake
  | ASenderCb => sender_event lc st EStoreCb
  | ATimerInit id =>
      (* Timer.run: while env.now < expire_time: yield timeout(expire_time - now) *)
      match find (fun p => fst p =? id) (timers (l_snd st)) with
      | Some (_, r) => inl (sched st (l_now st + r)%Q 1 (ATimerFire id))
      | None => inl st
      end
  | ATimerFire id =>
      (* if not self.stopped: callback;  a stopped timer is no longer in self.timers *)
      if has_timer id (timers (l_snd st)) then sender_event lc st (EExpire id) else inl st
  | AWireInit false => inl (wd_get st)
  | AWireInit true => inl (wa_get st)
  | AWirePutCb false =>
      if wd_waiting (l_wd st) then inl (wd_get st) else inl st
  | AWirePutCb true =>
      if wa_waiting (l_wa st) then inl (wa_get st) else inl st
  | AWireGetD id =>
      match pkt_get id (l_pkt st) with
      | None => inr (LNoPacket id)
      | Some _ =>
          (* entered, packet = yield self.store.get(): queued_time = now - entered *)
          let queued := (l_now st - wd_entered (l_wd st))%Q in
          if Qltb queued d then inl (sched st (l_now st + (d - queued))%Q 1 (AWireOutD id))
          else bind (deliver_data lc st id) (fun st' => inl (wd_get st'))
      end
  | AWireOutD id => bind (deliver_data lc st id) (fun st' => inl (wd_get st'))
  | AWireGetA ackno pid tm ct =>
      let queued := (l_now st - ct)%Q in
      if Qltb queued d then inl (sched st (l_now st + (d - queued))%Q 1 (AWireOutA ackno pid tm ct))
      else bind (deliver_ack lc st ackno pid tm) (fun st' => inl (wa_get st'))
  | AWireOutA ackno pid tm ct => bind (deliver_ack lc st ackno pid tm) (fun st' => inl (wa_get st'))
  end.

Inductive lres :=
| LQuiescent (st : lstate)          (* the agenda is empty *)
| LStopped (st : lstate)            (* the next entry is due at or after t_max (env.run(until=t_max) returned) *)
| LFuel (st : lstate)
| LRaised (st : lstate) (e : lerr). (* state before the failing entry *)

Definition lstep (lc : lcfg) (st : lstate) : option (lstate + lerr) :=
  match l_agenda st with
  | [] => None
  | a :: rest =>
      Some (handle lc (mkls (ae_time a) (l_seq st) rest (l_snd st) (l_sink st) (l_pkt st) (l_wd st) (l_wa st)
                            (l_n1 st) (l_n2 st) (l_oracle st) (l_slog st) (l_d1 st) (l_d2 st)) (ae_ev a))
  end.

Fixpoint lrun (fuel : nat) (lc : lcfg) (st : lstate) : lres :=
  match fuel with
  | O => LFuel st
  | S f =>
      match l_agenda st with
      | [] => LQuiescent st
      | a :: _ =>
          if Qle_bool (lc_tmax lc) (ae_time a) then LStopped st
          else match lstep lc st with
               | None => LQuiescent st
               | Some (inl st') => lrun f lc st'
               | Some (inr e) => LRaised st e
               end
      end
  end.

(* the harness creates wire1, wire2, then the sender: three Initialize events at time 0 *)
Definition linit (cw ss rtt0 : Q) (oracle : list Q) : lstate :=
  mkls 0 3 [mkae 0 0 0 (AWireInit false); mkae 0 0 1 (AWireInit true); mkae 0 0 2 ASenderWake]
       (init cw ss rtt0) sink0 [] (mkwd [] [] 0 false) (mkwa [] false) O O oracle [] [] [].

Definition lfinal (r : lres) : lstate :=
  match r with LQuiescent s | LStopped s | LFuel s | LRaised s _ => s end.

(* ------------------------------------------------------------------------------------------------ *)
(* correspondence *)

Definition event_eqb (a b : event) : bool :=
  match a, b with
  | EAck x p s o, EAck y q t u => (x =? y) && (p =? q) && Qeq_bool s t && Qeq_bool o u
  | EExpire x, EExpire y => x =? y
  | EStoreCb, EStoreCb | EWake, EWake => true
  | _, _ => false
  end.

Definition slog_agree (m o : slog) : bool :=
  Qeq_bool (sl_time m) (sl_time o) && event_eqb (sl_ev m) (sl_ev o) && listZZ_eq (sl_tx m) (sl_tx o) &&
  state_close (sl_post m) (sl_post o).

Definition dlog_agree (m o : dlog) : bool :=
  Nat.eqb (dl_idx m) (dl_idx o) && (dl_id m =? dl_id o) && (dl_ack m =? dl_ack o) &&
  Qeq_bool (dl_time m) (dl_time o) && Bool.eqb (dl_dropped m) (dl_dropped o).

Fixpoint all2 {A : Type} (f : A -> A -> bool) (a b : list A) : bool :=
  match a, b with
  | [], [] => true
  | x :: a', y :: b' => f x y && all2 f a' b'
  | _, _ => false
  end.

Fixpoint first_diff {A : Type} (f : A -> A -> bool) (a b : list A) (k : nat) : option nat :=
  match a, b with
  | [], [] => None
  | x :: a', y :: b' => if f x y then first_diff f a' b' (S k) else Some k
  | _, _ => Some k
  end.

(* what the real run ended with: 0 quiescent, 1 stopped at t_max, 2 raised KeyError etc. *)
Definition end_agree (r : lres) (obs_end : Z) (obs_err : option err) : bool :=
  match r, obs_end with
  | LQuiescent _, 0 => true
  | LStopped _, 1 => true
  | LRaised _ (LSender e), 2 => match obs_err with Some e' => err_eqb e e' | None => false end
  | _, _ => false
  end.

Definition rangesZ_eq := listZZ_eq.

Definition loop_agree (r : lres) (osl : list slog) (od1 od2 : list dlog) (obs_end : Z) (obs_err : option err)
           (obuf : list (Z * Z)) : bool :=
  let st := lfinal r in
  end_agree r obs_end obs_err &&
  all2 dlog_agree (rev (l_d1 st)) od1 && all2 dlog_agree (rev (l_d2 st)) od2 &&
  (match obs_end with
   | 2 => all2 slog_agree (rev (l_slog st)) (removelast osl)     (* the raising event has no model post-state *)
   | _ => all2 slog_agree (rev (l_slog st)) osl
   end) &&
  rangesZ_eq (buf (l_sink st)) obuf.
