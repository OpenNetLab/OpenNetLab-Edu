(* C16 liveness: the RTO never falls below rtt0 * (7/8)^size; the number of timer expiries of any run is
   bounded, hence the number of agenda steps; with enough fuel the executable runner never ends in LFuel: it ends
   quiescent (or stopped by t_max) with everything delivered and acknowledged. *)
From Coq Require Import ZArith QArith Qabs Qround Qminmax List Bool Lia Lqa Arith.
From ONL Require Import Tcp.Sink Tcp.SinkProofs Tcp.Sender Tcp.SenderProofs Tcp.Loop Tcp.LoopProofs Tcp.LoopLive
  Tcp.LoopLossfree Tcp.LoopLive2 Tcp.LoopLive2T Tcp.LoopLive2P Tcp.LoopLive2Q Tcp.LoopLive2U.
Import ListNotations.
Open Scope Z_scope.

(* a sender transition inside the loop is on an ACK that does not go backwards and carries a non-negative
   RTT sample: the lower bound of the RTO is kept by every agenda step *)
Lemma reach_RtoLow lc cw ss rtt0 orc st :
  lc_ok lc -> (zq (mss (lc_cfg lc)) <= cw)%Q -> (0 < rtt0)%Q ->
  lreach lc (linit cw ss rtt0 orc) st -> RtoLow rtt0 (l_snd st).
Proof.
  intros Hok Hc Hr. induction 1 as [|st st' Hreach IH Hls]; [apply RtoLow_init; exact Hr|].
  destruct (reach_AB lc cw ss rtt0 orc st Hok Hc Hr Hreach) as [HA HB].
  pose proof Hls as Hs. unfold lstep in Hs. destruct (l_agenda st) as [|a rest] eqn:E; [discriminate|]. clear Hs.
  destruct (pop_A lc st a rest HA E) as (_ & P2 & _). pose proof (pop_B lc st a rest HB E) as PB.
  pose proof (lstep_Tr lc st a rest st' (ok_fx _ Hok) E Hls) as HT. Tr_cases HT;
    try (destruct Hk as [k1 k2 k3 k4 k5 k6 k7]; unfold popped in *; lproj; rewrite k2; exact IH).
  - rewrite Hsnd. apply RtoLow_norm. apply (RtoLow_step (lc_cfg lc) rtt0 (l_snd st) e s' o (ok_mss _ Hok) Hr (la_sinv _ _ _ HA)); auto.
    + destruct (ae_ev a); inversion Hev; subst; cbn [sample_ok]; auto; apply nq_nonneg; exact P2.
    + assert (Hk : forall k0, ackno_of (ae_ev a) = Some k0 -> last_ack (l_snd st) <= k0).
      { intros k0 Hk0. destruct (lb_eva _ _ _ PB (ae_ev a) k0 (or_introl eq_refl) Hk0) as [[A _] _]. exact A. }
      destruct (ae_ev a); inversion Hev; subst; cbn [ack_fwd]; auto.
  - rewrite Hsnd. exact IH.
Qed.

(* THE RTO HAS A POSITIVE LOWER BOUND along every run: rto >= rtt_estimate >= rtt0 * (7/8)^last_ack
   (and last_ack <= size).  In particular the RTO never reaches 0, also with delay 0, where every RTT
   sample is 0 and rtt_estimate decays geometrically. *)
Theorem loop_rto_lower_bound lc cw ss rtt0 orc st :
  lc_ok2 lc -> (zq (mss (lc_cfg lc)) <= cw)%Q -> (0 < rtt0)%Q -> fsize (lc_cfg lc) <> 0 ->
  lreach lc (linit cw ss rtt0 orc) st ->
  (0 < rtt0 * geo (Z.to_nat (fsize (lc_cfg lc))) <= rto (l_snd st))%Q.
Proof.
  intros Hok2 Hc Hr Hfs Hreach. pose proof (ok2_ok _ Hok2) as Hok.
  destruct (reach_RtoLow lc cw ss rtt0 orc st Hok Hc Hr Hreach) as [A B C].
  destruct (loop_last_ack_le_prefix_le_next_seq lc cw ss rtt0 orc st Hok Hc Hr Hreach) as [[L1 L2] _].
  pose proof (reach_ns_le lc cw ss rtt0 orc st Hok2 Hc Hr Hfs Hreach) as Hns.
  pose proof (geo_pos (Z.to_nat (fsize (lc_cfg lc)))) as Hg.
  assert (G : (geo (Z.to_nat (fsize (lc_cfg lc))) <= geo (Z.to_nat (last_ack (l_snd st))))%Q) by (apply geo_mono; lia).
  split; [nra|]. nra.
Qed.

(* the data wire's store is bounded through the potential of LoopLive2 *)
Lemma items_bound lc cw ss rtt0 orc st :
  lc_ok2 lc -> (zq (mss (lc_cfg lc)) <= cw)%Q -> (0 < rtt0)%Q -> fsize (lc_cfg lc) <> 0 ->
  lreach lc (linit cw ss rtt0 orc) st ->
  8 * Z.of_nat (length (wd_items (l_wd st))) <= 3 + Gnew lc * fsize (lc_cfg lc) + Cexp lc * Z.of_nat (nexp st).
Proof.
  intros Hok2 Hc Hr Hfs Hreach. destruct (reach_lsteps _ _ _ Hreach) as (k & Hk).
  pose proof (work_and_queue_bounded_by_expiries lc cw ss rtt0 orc k st Hok2 Hc Hr Hfs Hk). lia.
Qed.

Section Final.
Variable lc : lcfg.
Variables cw ss rtt0 : Q.
Variable orc : list Q.
Variable B : Z.
Hypothesis Hok2 : lc_ok2 lc.
Hypothesis Hcw : (zq (mss (lc_cfg lc)) <= cw)%Q.
Hypothesis Hrtt : (0 < rtt0)%Q.
Hypothesis Hfs : fsize (lc_cfg lc) <> 0.
Local Notation SZ := (fsize (lc_cfg lc)).
Local Notation d := (lc_delay lc).
Local Notation st0 := (linit cw ss rtt0 orc).

(* the lower bound of the RTO, the bound on the data wire's queue, the threshold, the epoch allowance *)
Definition rho : Q := rtt0 * geo (Z.to_nat SZ).
Definition Pmax : Z := 3 + Gnew lc * SZ + Cexp lc * (B + 1).
Definition ThetaB : Q := (inject_Z Pmax + 3) * d.
Definition LGB : Z := lgz ThetaB rho.
Definition nphase : Z := SZ + Z.of_nat (length (lc_drop_data lc)) + Z.of_nat (length (lc_drop_ack lc)) + 1.

Hypothesis HB0 : 0 <= B.
(* B bounds itself: the threshold ThetaB grows with B (the data wire's queue is bounded through the number of
   expiries), LGB with its logarithm; Bexp_ok below solves the inequality *)
Hypothesis HB : PsiMax lc LGB * nphase <= B.

Let Hok : lc_ok lc := ok2_ok _ Hok2.
Let Hm : 0 < mss (lc_cfg lc) := ok_mss _ Hok.
Let Hd : (0 <= d)%Q := ok_delay _ Hok.

Lemma good_reach st : lreach lc st0 st -> Z.of_nat (nexp st) <= B + 1 -> Good lc ThetaB LGB st.
Proof.
  intros Hreach Hn.
  destruct (reach_AB lc cw ss rtt0 orc st Hok Hcw Hrtt Hreach) as [HA HB1].
  constructor; auto.
  - eapply reach_W; eauto.
  - eapply reach_U; eauto.
  - eapply reach_ns_le; eauto.
  - exact (rl_la _ _ (reach_RtoLow lc cw ss rtt0 orc st Hok Hcw Hrtt Hreach)).
  - destruct (loop_rto_lower_bound lc cw ss rtt0 orc st Hok2 Hcw Hrtt Hfs Hreach) as [R1 R2]. apply lgz_mono; assumption.
  - pose proof (items_bound lc cw ss rtt0 orc st Hok2 Hcw Hrtt Hfs Hreach) as Hi.
    assert (HC : 0 <= Cexp lc) by (unfold Cexp; pose proof (lb_ns _ _ _ HB1); pose proof (reach_ns_le lc cw ss rtt0 orc st Hok2 Hcw Hrtt Hfs Hreach); lia).
    assert (Hlen : Z.of_nat (length (wd_items (l_wd st))) <= Pmax) by (unfold Pmax; nia).
    unfold ThetaB, nlen. assert (inject_Z (Z.of_nat (length (wd_items (l_wd st)))) <= inject_Z Pmax)%Q by (rewrite <- Zle_Qle; exact Hlen).
    nra.
Qed.

Lemma dropsAfter_0 l : dropsAfter 0 l = length l.
Proof. unfold dropsAfter. rewrite filter_all_true by reflexivity. reflexivity. Qed.

Lemma Total0_le : Total lc ThetaB LGB st0 <= B.
Proof.
  assert (G0 : Good lc ThetaB LGB st0) by (apply good_reach; [constructor|unfold nexp, linit; cbn; lia]).
  pose proof (Psi_bounds lc ThetaB LGB st0 Hm G0) as [P0 P1].
  assert (E : (SZ - last_ack (l_snd st0)) + dropsRem lc st0 = nphase - 1).
  { unfold dropsRem, linit, init, nphase; lproj; proj. rewrite !dropsAfter_0. lia. }
  unfold Total. rewrite E. assert (0 <= PsiMax lc LGB) by lia. nia.
Qed.

Lemma Total_nonneg st : Good lc ThetaB LGB st -> 0 <= Total lc ThetaB LGB st.
Proof.
  intros G. pose proof (Psi_bounds lc ThetaB LGB st Hm G) as [P0 P1].
  pose proof (g_ns _ _ _ _ G). pose proof (lb_la _ _ _ (g_B _ _ _ _ G)). pose proof (LInvB_nse_le lc st None Hm (g_B _ _ _ _ G)).
  unfold Total, dropsRem. assert (0 <= PsiMax lc LGB) by lia. nia.
Qed.

(* THE NUMBER OF TIMER EXPIRIES IS BOUNDED along every run *)
Lemma expiries_inv st : lreach lc st0 st ->
  Total lc ThetaB LGB st + Z.of_nat (nexp st) <= Total lc ThetaB LGB st0 /\ Z.of_nat (nexp st) <= B.
Proof.
  induction 1 as [|st st' Hreach [IH1 IH2] Hstep].
  - split; [unfold nexp at 1, linit; cbn [l_slog filter length Z.of_nat]; lia|unfold nexp, linit; cbn; lia].
  - assert (Hreach' : lreach lc st0 st') by (eapply reach_step; eauto).
    pose proof Hstep as Hs. unfold lstep in Hs. destruct (l_agenda st) as [|a rest] eqn:E; [discriminate|]. clear Hs.
    pose proof (lstep_Tr lc st a rest st' (ok_fx _ Hok) E Hstep) as HT.
    pose proof (Tr_counters lc st a rest st' HT) as (_ & _ & Hne).
    assert (G : Good lc ThetaB LGB st) by (apply good_reach; [exact Hreach|lia]).
    assert (G' : Good lc ThetaB LGB st') by (apply good_reach; [exact Hreach'|lia]).
    assert (Hla : last_ack (l_snd st) <= last_ack (l_snd st')).
    { apply (loop_last_ack_monotone lc cw ss rtt0 orc st st' Hok Hcw Hrtt Hreach). eapply reach_step; [constructor|exact Hstep]. }
    pose proof (Total_step lc ThetaB LGB Hd Hm st a rest st' G G' E HT Hla) as Hts.
    pose proof (Total_nonneg st' G'). pose proof Total0_le.
    split; lia.
Qed.

Theorem loop_expiries_bounded st : lreach lc st0 st -> Z.of_nat (nexp st) <= B.
Proof. intros H. apply (expiries_inv st H). Qed.

(* hence the number of agenda steps *)
Theorem loop_steps_bounded k st : lsteps lc k st0 st -> Z.of_nat k <= 3 + Gnew lc * SZ + Cexp lc * B.
Proof.
  intros H. pose proof (loop_work_bounded_by_expiries lc cw ss rtt0 orc k st Hok2 Hcw Hrtt Hfs H) as Hw.
  pose proof (loop_expiries_bounded st (lsteps_reach _ _ _ _ H)) as Hb.
  assert (0 <= Cexp lc).
  { unfold Cexp. pose proof (reach_ns_le lc cw ss rtt0 orc st0 Hok2 Hcw Hrtt Hfs (reach_init _ _)). unfold linit, init in H0; lproj; proj. lia. }
  nia.
Qed.

(* RELIABLE DELIVERY: with more fuel than that the runner ends quiescent (or stopped by t_max) with
   everything delivered and acknowledged *)
Theorem loop_terminates fuel :
  3 + Gnew lc * SZ + Cexp lc * B < Z.of_nat fuel ->
  match lrun fuel lc st0 with
  | LQuiescent st => last_ack (l_snd st) = SZ /\ nse (l_sink st) = SZ /\ sink_prefix (l_sink st) SZ
  | LStopped st => exists a rest, l_agenda st = a :: rest /\ (lc_tmax lc <= ae_time a)%Q
  | LFuel _ | LRaised _ _ => False
  end.
Proof.
  intros Hfuel. pose proof (lrun_result lc fuel st0) as R.
  destruct (lrun fuel lc st0) as [st|st|st|st e] eqn:E.
  - assert (Hr : lreach lc st0 st).
    { pose proof (lrun_reach lc st0 fuel _ (reach_init _ _)) as Hr. rewrite E in Hr. exact Hr. }
    exact (loop_quiescent_complete lc cw ss rtt0 orc st Hok2 Hcw Hrtt Hfs Hr R).
  - exact R.
  - apply lrun_fuel_steps in E. apply loop_steps_bounded in E. lia.
  - eapply loop_never_raises; eauto.
Qed.
End Final.

(* an explicit bound *)
Lemma pow2_ge_2l l : 0 <= l -> 2 * l <= 2 ^ l.
Proof.
  intros Hl. pattern l. apply natlike_ind; [cbn; lia| |exact Hl].
  intros x Hx IH. rewrite Z.pow_succ_r by exact Hx.
  destruct (Z.eq_dec x 0) as [->|Hne]; [cbn; lia|].
  assert (2 <= 2 ^ x) by (change 2 with (2 ^ 1) at 1; apply Z.pow_le_mono_r; lia). lia.
Qed.

Section Explicit.
Variable lc : lcfg.
Variable rtt0 : Q.
Local Notation SZ := (fsize (lc_cfg lc)).
Local Notation d := (lc_delay lc).

(* With B = nphase * (c0 + L) the condition PsiMax * nphase <= B reads LGB <= L, and LGB <= L follows from
   (alpha + Cexp * B) * kappa <= 2^L, i.e. A1 + A2 * L <= 2^L; L = 2 * log2up (A1 + A2 + 1) satisfies it
   because 2 l <= 2^l.  kappa: delays per smallest RTO; c0: PsiMax without the doublings; alpha: Pmax + 3 at B = 0. *)
Definition kappa : Z := Qceiling (d / rho lc rtt0).
Definition c0 : Z := 3 * SZ + 3.
Definition alpha : Z := 6 + Gnew lc * SZ + Cexp lc.
Definition A1 : Z := (alpha + Cexp lc * nphase lc * c0) * kappa.
Definition A2 : Z := Cexp lc * nphase lc * kappa.
Definition Lexp : Z := 2 * Z.log2_up (A1 + A2 + 1).
(* THE BOUND on the number of timer expiries: a function of the flow size, the delay, the initial RTT
   estimate and the lengths of the drop lists *)
Definition Bexp : Z := nphase lc * (c0 + Lexp).

Hypothesis Hok2 : lc_ok2 lc.
Hypothesis Hrtt : (0 < rtt0)%Q.
Hypothesis Hfs : SZ <> 0.

Lemma SZ_pos : 0 < SZ.
Proof. destruct (ok2_size _ Hok2) as (k & Hk & Ek). pose proof (ok_mss _ (ok2_ok _ Hok2)). nia. Qed.

Lemma rho_pos : (0 < rho lc rtt0)%Q.
Proof. unfold rho. pose proof (geo_pos (Z.to_nat SZ)). nra. Qed.

Lemma Bexp_ok : 0 <= Bexp /\ PsiMax lc (LGB lc rtt0 Bexp) * nphase lc <= Bexp.
Proof.
  pose proof SZ_pos as Hs. pose proof rho_pos as Hr. pose proof (ok_delay _ (ok2_ok _ Hok2)) as Hd.
  assert (HM : 1 <= nphase lc) by (unfold nphase; lia).
  assert (Hc0 : 0 <= c0) by (unfold c0; lia).
  assert (HG : 0 <= Gnew lc) by (unfold Gnew; lia).
  assert (HC : 0 <= Cexp lc) by (unfold Cexp; lia).
  assert (Ha : 0 <= alpha) by (unfold alpha; nia).
  assert (Hk : 0 <= kappa).
  { unfold kappa. assert (0 <= d / rho lc rtt0)%Q by (apply Qle_shift_div_l; [exact Hr|lra]).
    pose proof (Qle_ceiling (d / rho lc rtt0)) as Hc. assert (inject_Z (-1) < inject_Z (Qceiling (d / rho lc rtt0)))%Q by (apply Qlt_le_trans with 0%Q; [reflexivity|lra]).
    rewrite <- Zlt_Qlt in H0. lia. }
  assert (HA1 : 0 <= A1) by (unfold A1; nia). assert (HA2 : 0 <= A2) by (unfold A2; nia).
  set (l := Z.log2_up (A1 + A2 + 1)). assert (Hl : 0 <= l) by apply Z.log2_up_nonneg.
  assert (HL : 0 <= Lexp) by (unfold Lexp; fold l; lia).
  assert (HBx : 0 <= Bexp) by (unfold Bexp; nia).
  split; [exact HBx|].
  (* (alpha + Cexp * Bexp) * kappa <= 2 ^ Lexp *)
  assert (P1 : A1 + A2 + 1 <= 2 ^ l) by (apply Z.log2_up_le_pow2; [lia|unfold l; lia]).
  assert (P2 : 2 * l <= 2 ^ l) by (apply pow2_ge_2l; exact Hl).
  assert (P3 : 2 ^ Lexp = 2 ^ l * 2 ^ l) by (unfold Lexp; fold l; replace (2 * l) with (l + l) by lia; apply Z.pow_add_r; lia).
  assert (P4 : A1 + A2 * Lexp <= 2 ^ Lexp).
  { rewrite P3. unfold Lexp at 1. fold l. assert (1 <= 2 ^ l) by lia. nia. }
  assert (P5 : (alpha + Cexp lc * Bexp) * kappa = A1 + A2 * Lexp) by (unfold A1, A2, Bexp; ring).
  (* the threshold is below rho * 2 ^ Lexp *)
  assert (Hdk : (d <= rho lc rtt0 * inject_Z kappa)%Q).
  { unfold kappa. pose proof (Qle_ceiling (d / rho lc rtt0)) as Hc.
    assert (Ht : (d == (d / rho lc rtt0) * rho lc rtt0)%Q) by (field; lra). rewrite Ht at 1. nra. }
  assert (HP : (inject_Z (Pmax lc Bexp) + 3 == inject_Z (alpha + Cexp lc * Bexp))%Q).
  { assert (Ez : Pmax lc Bexp + 3 = alpha + Cexp lc * Bexp) by (unfold Pmax, alpha; ring).
    rewrite <- Ez, inject_Z_plus. reflexivity. }
  assert (HLG : LGB lc rtt0 Bexp <= Lexp).
  { unfold LGB. apply lgz_le; [exact Hr|exact HL|]. unfold ThetaB. rewrite HP.
    assert (Hq : (inject_Z (alpha + Cexp lc * Bexp) * inject_Z kappa <= inject_Z (2 ^ Lexp))%Q).
    { rewrite <- inject_Z_mult, <- Zle_Qle. rewrite P5. exact P4. }
    assert (0 <= inject_Z (alpha + Cexp lc * Bexp))%Q by (change 0%Q with (inject_Z 0); rewrite <- Zle_Qle; nia).
    nra. }
  unfold PsiMax. unfold Bexp at 2. rewrite (Z.mul_comm (nphase lc)). apply Z.mul_le_mono_nonneg_r; [lia|]. unfold c0. lia.
Qed.
End Explicit.

(* RELIABLE DELIVERY (C16, liveness): for every flow of whole segments, MSS > 0, one-way delay d >= 0,
   initial RTT estimate > 0, initial window >= MSS, every two FINITE lists of dropped transmission
   indices, Reno or CUBIC (any oracle): a run with more than  3 + Gnew*size + Cexp*Bexp  steps of fuel
   never runs out of fuel and never raises; it ends with an empty agenda, last_ack = size and the sink
   holding exactly [0, size) -- unless t_max stops it first *)
Theorem loop_reliable_delivery lc cw ss rtt0 orc fuel :
  lc_ok2 lc -> (zq (mss (lc_cfg lc)) <= cw)%Q -> (0 < rtt0)%Q -> fsize (lc_cfg lc) <> 0 ->
  3 + Gnew lc * fsize (lc_cfg lc) + Cexp lc * Bexp lc rtt0 < Z.of_nat fuel ->
  match lrun fuel lc (linit cw ss rtt0 orc) with
  | LQuiescent st => last_ack (l_snd st) = fsize (lc_cfg lc) /\ nse (l_sink st) = fsize (lc_cfg lc) /\
                     sink_prefix (l_sink st) (fsize (lc_cfg lc))
  | LStopped st => exists a rest, l_agenda st = a :: rest /\ (lc_tmax lc <= ae_time a)%Q
  | LFuel _ | LRaised _ _ => False
  end.
Proof.
  intros Hok2 Hcw Hrtt Hfs Hfuel. destruct (Bexp_ok lc rtt0 Hok2 Hrtt Hfs) as [B0 B1].
  exact (loop_terminates lc cw ss rtt0 orc (Bexp lc rtt0) Hok2 Hcw Hrtt Hfs B0 B1 fuel Hfuel).
Qed.

(* and in every reachable state: the expiries so far, the agenda steps so far *)
Theorem loop_expiries_bounded_explicit lc cw ss rtt0 orc st :
  lc_ok2 lc -> (zq (mss (lc_cfg lc)) <= cw)%Q -> (0 < rtt0)%Q -> fsize (lc_cfg lc) <> 0 ->
  lreach lc (linit cw ss rtt0 orc) st -> Z.of_nat (nexp st) <= Bexp lc rtt0.
Proof.
  intros Hok2 Hcw Hrtt Hfs Hr. destruct (Bexp_ok lc rtt0 Hok2 Hrtt Hfs) as [B0 B1].
  exact (loop_expiries_bounded lc cw ss rtt0 orc (Bexp lc rtt0) Hok2 Hcw Hrtt Hfs B0 B1 st Hr).
Qed.

(* 4 segments of 1 byte, delay 1, data transmissions 0 and 2 and ACK 1 dropped, rtt_estimate 1, window 2:
   the hypotheses hold, the bound is 40047 steps, and the run (3 expiries, 7 transmissions) completes *)
Definition lc_live : lcfg := mklcfg repaired (mkcfg 1 4 Reno) (1 # 1) [0; 2]%nat [1]%nat (1000000 # 1).
Example live_example :
  lc_ok2 lc_live /\ (zq (mss (lc_cfg lc_live)) <= 2 # 1)%Q /\ fsize (lc_cfg lc_live) <> 0 /\
  Bexp lc_live 1 = 360 /\ 3 + Gnew lc_live * 4 + Cexp lc_live * Bexp lc_live 1 = 40047 /\
  exists st, lrun (Z.to_nat 40048) lc_live (linit (2 # 1) (65535 # 1) 1 []) = LQuiescent st /\
             last_ack (l_snd st) = 4 /\ nse (l_sink st) = 4 /\ nexp st = 3%nat /\ l_n1 st = 7%nat.
Proof.
  split; [|split; [|split; [|split; [|split]]]].
  - constructor; [constructor; cbn; [reflexivity|lia|discriminate]|]. exists 4. cbn. lia.
  - cbn. discriminate.
  - cbn. discriminate.
  - vm_compute. reflexivity.
  - vm_compute. reflexivity.
  - eexists. split; [vm_compute; reflexivity|]. repeat split; reflexivity.
Qed.

(* delay 0 (every RTT sample is 0, rtt_estimate decays by 7/8 per new ACK), CUBIC, three data and two ACK drops *)
Definition lc_live0 : lcfg := mklcfg repaired (mkcfg 2 6 Cubic) (0 # 1) [1; 2; 3]%nat [0; 1]%nat (1000000 # 1).
Example live_example_delay0 :
  lc_ok2 lc_live0 /\ Bexp lc_live0 (1 # 4) = 252 /\
  exists st, lrun (Z.to_nat 38710) lc_live0 (linit (4 # 1) (65535 # 1) (1 # 4) []) = LQuiescent st /\
             last_ack (l_snd st) = 6 /\ (0 < rto (l_snd st))%Q.
Proof.
  split; [|split].
  - constructor; [constructor; cbn; [reflexivity|lia|discriminate]|]. exists 3. cbn. lia.
  - vm_compute. reflexivity.
  - eexists. split; [vm_compute; reflexivity|]. split; [reflexivity|]. vm_compute. reflexivity.
Qed.
