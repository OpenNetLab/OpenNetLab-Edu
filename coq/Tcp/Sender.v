(* Model of onl/packet/tcp_generator.py : CongestionControl / TCPReno / TCPCubic and
   TCPPacketGenerator.{run, put, timeout_callback, resend_packet}, as an event-driven state machine.
   Executable; no proofs here.

   Events (what the kernel does to the sender, one atomic piece of Python each):
     EAck ackno pid sample cnt   put(ack) with ack.ack = ackno, ack.packet_id = pid,
                                 sample = env.now - ack.time.  [cnt] is an oracle for TCPCubic only:
                                 the value of self.cnt after cubic_update() (libm `**`, not modelled)
     EExpire id                  the Timer of segment id fires: timeout_callback(id)
     EStoreCb                    the kernel processes one StorePut event of cwnd_avaialbe
                                 (its callback _trigger_get serves a waiting get)
     EWake                       the sender process is resumed (Initialize, or its StoreGet event is
                                 processed): the loop of run() up to the next `yield` / `return`
   Byte counts and ids are Z; cwnd, ssthresh, rtt_estimate, est_deviation, rto are Q.

   [fixes]: the three repairs made in /repo by fix: commits; [false] gives the code as found. *)
From Coq Require Import ZArith QArith Qabs Qround Qminmax List Bool.
Import ListNotations.
Open Scope Z_scope.

Inductive alg := Reno | Cubic.

Record fixes := mkfx {
  fx_deflate3 : bool;      (* dupack_over() only when fast retransmit took place (dupack >= 3) *)
  fx_guard_resend : bool;  (* resend_packet(seqno) ignores a seqno that is not in flight *)
  fx_stop_acked : bool     (* a new ACK stops and forgets every segment below ackno, not only ack.packet_id *)
}.
Definition as_found : fixes := mkfx false false false.

Record config := mkcfg {
  mss : Z;                 (* TCPPacketGenerator.mss = CongestionControl.mss *)
  fsize : Z;               (* flow.size; 0 stands for None (falsy): unbounded flow *)
  calg : alg
}.

Record sender := mkst {
  next_seq : Z; send_buffer : Z; last_ack : Z; dupack : Z;
  cwnd : Q; ssthresh : Q;
  srtt : Q;                (* rtt_estimate *)
  rttvar : Q;              (* est_deviation *)
  rto : Q;
  cwnd_cnt : Z; cnt : Q;   (* TCPCubic.cwnd_cnt, TCPCubic.cnt *)
  timers : list (Z * Q);   (* self.timers in dict order: id, the timeout the Timer was last armed with *)
  sent : list Z;           (* keys of self.sent_packets in dict order *)
  tokens : nat;            (* len(cwnd_avaialbe.items) *)
  pend : nat;              (* StorePut events of cwnd_avaialbe scheduled and not yet processed *)
  waiting : bool;          (* the sender process has an untriggered get in get_queue *)
  wake : bool;             (* the event the sender process waits for is triggered and not yet processed *)
  finished : bool          (* run() returned *)
}.

Inductive err :=
| KeyErr (id : Z)          (* sent_packets[id] / timers[id] misses *)
| ZeroDiv                  (* mss*mss/cwnd with cwnd = 0 *)
| TimerValue               (* Timer(timeout <= 0): ValueError *)
| NotEnabled               (* the event cannot occur in this state (model-level, no Python counterpart) *)
| OutOfFuel
| OtherErr.

Inductive out :=
| Tx (id size : Z)         (* out.put(packet) *)
| TStart (id : Z) (r : Q)  (* Timer(env, timeout=r, args=id) *)
| TStop (id : Z)           (* timers[id].stop() *)
| TRestart (id : Z) (r : Q). (* timers[id].restart(r) from its own callback *)

Inductive result := Ok (s : sender) (o : list out) | Raise (e : err).

Inductive event :=
| EAck (ackno pid : Z) (sample cnt_oracle : Q)
| EExpire (id : Z)
| EStoreCb
| EWake.

(* ---- setters (Coq has no record update) ---- *)
Definition set_cc (s : sender) (cw ss : Q) : sender :=
  mkst (next_seq s) (send_buffer s) (last_ack s) (dupack s) cw ss (srtt s) (rttvar s) (rto s)
       (cwnd_cnt s) (cnt s) (timers s) (sent s) (tokens s) (pend s) (waiting s) (wake s) (finished s).
Definition set_dupack (s : sender) (d : Z) : sender :=
  mkst (next_seq s) (send_buffer s) (last_ack s) d (cwnd s) (ssthresh s) (srtt s) (rttvar s) (rto s)
       (cwnd_cnt s) (cnt s) (timers s) (sent s) (tokens s) (pend s) (waiting s) (wake s) (finished s).
Definition set_rto (s : sender) (r : Q) : sender :=
  mkst (next_seq s) (send_buffer s) (last_ack s) (dupack s) (cwnd s) (ssthresh s) (srtt s) (rttvar s) r
       (cwnd_cnt s) (cnt s) (timers s) (sent s) (tokens s) (pend s) (waiting s) (wake s) (finished s).
Definition set_timers (s : sender) (t : list (Z * Q)) (se : list Z) : sender :=
  mkst (next_seq s) (send_buffer s) (last_ack s) (dupack s) (cwnd s) (ssthresh s) (srtt s) (rttvar s) (rto s)
       (cwnd_cnt s) (cnt s) t se (tokens s) (pend s) (waiting s) (wake s) (finished s).
Definition set_store (s : sender) (tk pd : nat) (wt wk : bool) : sender :=
  mkst (next_seq s) (send_buffer s) (last_ack s) (dupack s) (cwnd s) (ssthresh s) (srtt s) (rttvar s) (rto s)
       (cwnd_cnt s) (cnt s) (timers s) (sent s) tk pd wt wk (finished s).

Definition Qltb (a b : Q) : bool := negb (Qle_bool b a).
Definition zq (z : Z) : Q := inject_Z z.

Fixpoint has_timer (id : Z) (t : list (Z * Q)) : bool :=
  match t with [] => false | (k, _) :: r => (k =? id) || has_timer id r end.
Definition in_sent (id : Z) (l : list Z) : bool := existsb (Z.eqb id) l.
Definition del_timer (id : Z) (t : list (Z * Q)) : list (Z * Q) := filter (fun p => negb (fst p =? id)) t.
Definition del_sent (id : Z) (l : list Z) : list Z := filter (fun k => negb (k =? id)) l.
Fixpoint rearm (id : Z) (r : Q) (t : list (Z * Q)) : list (Z * Q) :=
  match t with [] => [] | (k, x) :: rest => if k =? id then (k, r) :: rest else (k, x) :: rearm id r rest end.

(* ---- CongestionControl ---- *)

(* consecutive_dupacks_received: ssthresh = max(2*mss, cwnd/2); cwnd = ssthresh + 3*mss.
   Python's max(a, b) returns b only when b > a. *)
Definition fr_ssthresh (m : Z) (cw : Q) : Q :=
  if Qltb (zq (2 * m)) (cw / (2 # 1))%Q then (cw / (2 # 1))%Q else zq (2 * m).
Definition fr_cwnd (m : Z) (cw : Q) : Q := (fr_ssthresh m cw + zq (3 * m))%Q.

(* ack_received.  Result: cwnd, cwnd_cnt, cnt  (None: ZeroDivisionError) *)
Definition cc_ack (c : config) (cw ss : Q) (ccnt : Z) (cn oracle : Q) : option (Q * Z * Q) :=
  if Qle_bool cw ss then Some ((cw + zq (mss c))%Q, ccnt, cn)                     (* slow start, both algorithms *)
  else match calg c with
       | Reno => if Qeq_bool cw 0%Q then None
                 else Some ((cw + zq (mss c * mss c) / cw)%Q, ccnt, cn)            (* mss*mss/cwnd *)
       | Cubic =>                                                                (* cubic_update sets self.cnt := oracle *)
           if Qltb oracle (zq ccnt) then Some ((cw + zq (mss c))%Q, 0, oracle)      (* cwnd_cnt > cnt *)
           else Some (cw, ccnt + 1, oracle)
       end.

(* ---- resend_packet(seqno): every packet in sent_packets has size mss ---- *)
Definition resend (fx : fixes) (c : config) (s : sender) (id : Z) : option (list out) :=
  if in_sent id (sent s) then Some [Tx id (mss c)]
  else if fx_guard_resend fx then Some [] else None.

(* ---- Store.put(True) of cwnd_avaialbe: the item is appended at once, the StorePut event is scheduled ---- *)
Definition store_put (s : sender) : sender :=
  set_store s (S (tokens s)) (S (pend s)) (waiting s) (wake s).

(* ---- the timers stopped by a new ACK ---- *)
Definition acked_ids (fx : fixes) (c : config) (s : sender) (ackno pid : Z) : list Z :=
  if fx_stop_acked fx then map fst (filter (fun p => fst p + mss c <=? ackno) (timers s))
  else if has_timer pid (timers s) then [pid] else [].

(* stop(); del timers[id]; del sent_packets[id]  for each id in turn *)
Fixpoint stop_all (ids : list Z) (t : list (Z * Q)) (se : list Z) (acc : list out)
  : option (list (Z * Q) * list Z * list out) :=
  match ids with
  | [] => Some (t, se, acc)
  | id :: rest =>
      if in_sent id se then stop_all rest (del_timer id t) (del_sent id se) (acc ++ [TStop id])
      else None                                                   (* KeyError: del sent_packets[id] *)
  end.
Definition first_missing (ids : list Z) (se : list Z) : Z :=
  hd 0 (filter (fun id => negb (in_sent id se)) ids).

(* ---- put(ack) ---- *)
Definition on_ack (fx : fixes) (c : config) (s : sender) (ackno pid : Z) (sample oracle : Q) : result :=
  let m := mss c in
  (* if ackno == last_ack: dupack += 1  else: [deflate]; dupack = 0 *)
  let s1 :=
    if ackno =? last_ack s then set_dupack s (dupack s + 1)
    else if 0 <? dupack s then
           let thr := if fx_deflate3 fx then 3 else 1 in
           let cw := if thr <=? dupack s then ssthresh s else cwnd s in      (* dupack_over() *)
           set_dupack (set_cc s cw (ssthresh s)) 0
         else s in
  if dupack s1 =? 3 then
    (* consecutive_dupacks_received(); resend_packet(ackno); return *)
    let s2 := set_cc s1 (fr_cwnd m (cwnd s1)) (fr_ssthresh m (cwnd s1)) in
    match resend fx c s2 ackno with
    | Some o => Ok s2 o
    | None => Raise (KeyErr ackno)
    end
  else if 3 <? dupack s1 then
    (* more_dupacks_received(); if last_ack + cwnd >= ackno: resend_packet(ackno); return *)
    let s2 := set_cc s1 (cwnd s1 + zq m)%Q (ssthresh s1) in
    if Qle_bool (zq ackno) (zq (last_ack s2) + cwnd s2)%Q then
      match resend fx c s2 ackno with
      | Some o => Ok s2 o
      | None => Raise (KeyErr ackno)
      end
    else Ok s2 []
  else if dupack s1 =? 0 then
    (* new ACK: estimator, last_ack, ack_received, stop timers, wake the sender process *)
    let e := (sample - srtt s1)%Q in
    let srtt' := (srtt s1 + (1 # 8) * e)%Q in
    let rttvar' := (rttvar s1 + (1 # 4) * (Qabs e - rttvar s1))%Q in
    let rto' := (srtt' + (4 # 1) * rttvar')%Q in
    match cc_ack c (cwnd s1) (ssthresh s1) (cwnd_cnt s1) (cnt s1) oracle with
    | None => Raise ZeroDiv
    | Some (cw, ccnt, cn) =>
        let ids := acked_ids fx c s1 ackno pid in
        match stop_all ids (timers s1) (sent s1) [] with
        | None => Raise (KeyErr (first_missing ids (sent s1)))
        | Some (t, se, o) =>
            Ok (store_put (mkst (next_seq s1) (send_buffer s1) ackno (dupack s1) cw (ssthresh s1) srtt' rttvar' rto'
                                ccnt cn t se (tokens s1) (pend s1) (waiting s1) (wake s1) (finished s1))) o
        end
    end
  else Ok s1 [].

(* ---- timeout_callback(id) ---- *)
Definition on_timer (fx : fixes) (c : config) (s : sender) (id : Z) : result :=
  if negb (has_timer id (timers s)) then Raise NotEnabled
  else
    let s1 := set_cc s (zq (mss c)) (ssthresh s) in          (* timer_expired(): cwnd = mss (+ cubic_reset) *)
    match resend fx c s1 id with
    | None => Raise (KeyErr id)
    | Some o =>
        let r := (rto s1 * (2 # 1))%Q in                               (* self.rto *= 2 *)
        Ok (set_timers (set_rto s1 r) (rearm id r (timers s1)) (sent s1)) (o ++ [TRestart id r])
    end.

(* ---- the kernel processes one StorePut event: _trigger_get ---- *)
Definition on_storecb (s : sender) : result :=
  match pend s with
  | O => Raise NotEnabled
  | S p =>
      match waiting s, tokens s with
      | true, S tk => Ok (set_store s tk p false true) []
      | _, _ => Ok (set_store s (tokens s) p (waiting s) (wake s)) []
      end
  end.

(* ---- run(): one resumption of the sender process ---- *)

(* while self.next_seq >= self.send_buffer: self.send_buffer += packet_size *)
Fixpoint fill (fuel : nat) (ns sb p : Z) : option Z :=
  match fuel with
  | O => None
  | S f => if sb <=? ns then fill f ns (sb + p) p else Some sb
  end.

Definition psize (c : config) (ns : Z) : Z :=
  if fsize c =? 0 then mss c else Z.min (mss c) (fsize c - ns).

Definition guard (c : config) (s : sender) (sb : Z) : bool :=
  Qle_bool (zq (next_seq s + mss c)) (Qmin (zq sb) (zq (last_ack s) + cwnd s)%Q).

Fixpoint send_loop (fuel : nat) (c : config) (s : sender) (acc : list out) : result :=
  match fuel with
  | O => Raise OutOfFuel
  | S f =>
      if negb (fsize c =? 0) && (fsize c <=? next_seq s) then
        Ok (mkst (next_seq s) (send_buffer s) (last_ack s) (dupack s) (cwnd s) (ssthresh s) (srtt s) (rttvar s) (rto s)
                 (cwnd_cnt s) (cnt s) (timers s) (sent s) (tokens s) (pend s) false false true) acc
      else
        match fill (S (S (Z.to_nat (next_seq s - send_buffer s)))) (next_seq s) (send_buffer s) (psize c (next_seq s)) with
        | None => Raise OutOfFuel
        | Some sb =>
            if guard c s sb then
              if Qle_bool (rto s) 0%Q then Raise TimerValue
              else
                let id := next_seq s in
                send_loop f c
                  (mkst (id + mss c) sb (last_ack s) (dupack s) (cwnd s) (ssthresh s) (srtt s) (rttvar s) (rto s)
                        (cwnd_cnt s) (cnt s) (timers s ++ [(id, rto s)]) (sent s ++ [id])
                        (tokens s) (pend s) (waiting s) (wake s) (finished s))
                  (acc ++ [Tx id (mss c); TStart id (rto s)])
            else
              (* yield self.cwnd_avaialbe.get() *)
              let s' := mkst (next_seq s) sb (last_ack s) (dupack s) (cwnd s) (ssthresh s) (srtt s) (rttvar s) (rto s)
                             (cwnd_cnt s) (cnt s) (timers s) (sent s) (tokens s) (pend s) (waiting s) (wake s) (finished s) in
              match tokens s with
              | S tk => Ok (set_store s' tk (pend s) false true) acc
              | O => Ok (set_store s' O (pend s) true false) acc
              end
        end
  end.

Definition send_fuel (s : sender) : nat :=
  S (Z.to_nat (Qfloor (zq (last_ack s) + cwnd s)%Q - next_seq s)).

Definition on_wake (c : config) (s : sender) : result :=
  if wake s && negb (finished s) then
    send_loop (send_fuel s) c (set_store s (tokens s) (pend s) false false) []
  else Raise NotEnabled.

Definition step (fx : fixes) (c : config) (s : sender) (e : event) : result :=
  match e with
  | EAck ackno pid sample oracle => on_ack fx c s ackno pid sample oracle
  | EExpire id => on_timer fx c s id
  | EStoreCb => on_storecb s
  | EWake => on_wake c s
  end.

(* TCPPacketGenerator.__init__: the Initialize event of the sender process is scheduled *)
Definition init (cw ss rtt0 : Q) : sender :=
  mkst 0 0 0 0 cw ss rtt0 0%Q (rtt0 * (2 # 1))%Q 0 0%Q [] [] O O false true false.

(* a history: the states and outputs after each event; stops at the first exception *)
Fixpoint run (fx : fixes) (c : config) (s : sender) (evs : list event) : result :=
  match evs with
  | [] => Ok s []
  | e :: t =>
      match step fx c s e with
      | Raise x => Raise x
      | Ok s' o => match run fx c s' t with
                   | Raise x => Raise x
                   | Ok s'' o' => Ok s'' (o ++ o')
                   end
      end
  end.

(* ------------------------------------------------------------------------------------------------ *)
(* Correspondence: every observed transition of the real sender is a transition of the model.
   The model is stepped from the OBSERVED pre-state (all of the sender's state is public), and its
   post-state must equal the observed one: exactly on everything integral, boolean and on the
   outputs, within a relative 1e-12 on the five float-valued fields (binary64 rounding of
   mss*mss/cwnd, 0.125*err, ... is outside the model). *)

Definition tol : Q := 1 # 1000000000000.
Definition Qclose (a b : Q) : bool := Qle_bool (Qabs (a - b)%Q) (tol * Qabs b)%Q.

Definition timers_close (a b : list (Z * Q)) : bool :=
  (fix go (x y : list (Z * Q)) : bool :=
     match x, y with
     | [], [] => true
     | (i, r) :: x', (j, q) :: y' => (i =? j) && Qclose r q && go x' y'
     | _, _ => false
     end) a b.

Fixpoint listZ_eq (a b : list Z) : bool :=
  match a, b with
  | [], [] => true
  | x :: a', y :: b' => (x =? y) && listZ_eq a' b'
  | _, _ => false
  end.

Definition state_close (m o : sender) : bool :=
  (next_seq m =? next_seq o) && (send_buffer m =? send_buffer o) && (last_ack m =? last_ack o) &&
  (dupack m =? dupack o) && Qclose (cwnd m) (cwnd o) && Qclose (ssthresh m) (ssthresh o) &&
  Qclose (srtt m) (srtt o) && Qclose (rttvar m) (rttvar o) && Qclose (rto m) (rto o) &&
  (cwnd_cnt m =? cwnd_cnt o) && Qeq_bool (cnt m) (cnt o) &&
  timers_close (timers m) (timers o) && listZ_eq (sent m) (sent o) &&
  Nat.eqb (tokens m) (tokens o) && Nat.eqb (pend m) (pend o) &&
  Bool.eqb (waiting m) (waiting o) && Bool.eqb (wake m) (wake o) && Bool.eqb (finished m) (finished o).

(* the initial state is compared exactly *)
Definition state_exact (m o : sender) : bool :=
  state_close m o && Qeq_bool (cwnd m) (cwnd o) && Qeq_bool (ssthresh m) (ssthresh o) &&
  Qeq_bool (srtt m) (srtt o) && Qeq_bool (rttvar m) (rttvar o) && Qeq_bool (rto m) (rto o).

Fixpoint txs (o : list out) : list (Z * Z) :=
  match o with
  | [] => []
  | Tx i z :: t => (i, z) :: txs t
  | _ :: t => txs t
  end.

Fixpoint listZZ_eq (a b : list (Z * Z)) : bool :=
  match a, b with
  | [], [] => true
  | (x, u) :: a', (y, v) :: b' => (x =? y) && (u =? v) && listZZ_eq a' b'
  | _, _ => false
  end.

Definition err_eqb (a b : err) : bool :=
  match a, b with
  | KeyErr x, KeyErr y => x =? y
  | ZeroDiv, ZeroDiv | TimerValue, TimerValue => true
  | _, _ => false
  end.

Record entry := mkentry { e_ev : event; e_tx : list (Z * Z); e_post : sender; e_err : option err }.

Fixpoint check_trace (fx : fixes) (c : config) (pre : sender) (l : list entry) : bool :=
  match l with
  | [] => true
  | e :: t =>
      match step fx c pre (e_ev e), e_err e with
      | Ok s' o, None => state_close s' (e_post e) && listZZ_eq (txs o) (e_tx e) && check_trace fx c (e_post e) t
      | Raise x, Some y => err_eqb x y && match t with [] => true | _ => false end
      | _, _ => false
      end
  end.

(* index of the first entry that does not check (diagnosis only) *)
Fixpoint first_bad (fx : fixes) (c : config) (pre : sender) (l : list entry) (k : nat) : option (nat * result) :=
  match l with
  | [] => None
  | e :: t =>
      let r := step fx c pre (e_ev e) in
      if check_trace fx c pre [e] then first_bad fx c (e_post e) t (S k) else Some (k, r)
  end.

(* the repairs present in /repo today (kept in step with the fix: commits) *)
Definition current : fixes := mkfx true true true.
