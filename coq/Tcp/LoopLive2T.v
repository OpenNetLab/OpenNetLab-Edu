(* C16 liveness: an exact description of one agenda step (what is added to the
   agenda and when, what enters and leaves the two wires), with drops; and the timing/control
   invariant LInvW of the two wires:
   - each wire's process is in exactly one place (initialising, holding a packet, waiting), a waiting
     process with a non-empty store has a put callback pending in the current instant;
   - hand-off events are due in the current instant; a held data packet leaves at most d later;
   - the data wire keeps one entry instant per queued packet, all in the past (the store holds
     (entry instant, packet) pairs since the Wire repair 965d42d; the defaults in wd_get are unreachable);
   - a queued ACK created at ct is delivered by ct + d (ACK packets are fresh objects). *)
From Coq Require Import ZArith QArith Qabs Qround Qminmax List Bool Lia Lqa Arith.
From ONL Require Import Tcp.Sink Tcp.SinkProofs Tcp.Sender Tcp.SenderProofs Tcp.Loop Tcp.LoopProofs Tcp.LoopLive
  Tcp.LoopLossfree Tcp.LoopLive2.
Import ListNotations.
Open Scope Z_scope.

(* nq is Qred: left transparent, cbn and injection on agenda times unfold Qred on symbolic rationals *)
Global Opaque nq.

Section Descr.
Variable lc : lcfg.
Local Notation d := (lc_delay lc).

Definition droppedD (k : nat) : bool := existsb (Nat.eqb k) (lc_drop_data lc).
Definition droppedA (k : nat) : bool := existsb (Nat.eqb k) (lc_drop_ack lc).

(* the effect of the outputs of one sender event: the new agenda entries, the segment ids that enter the
   data wire (those the dropper lets through), the number of packets handed to the data path *)
Fixpoint onews (now : Q) (n1 : nat) (o : list out) : list (Q * aev) :=
  match o with
  | [] => []
  | Tx _ _ :: t => (if droppedD n1 then [] else [(nq now, AWirePutCb false)]) ++ onews now (S n1) t
  | TStart id _ :: t => (nq now, ATimerInit id) :: onews now n1 t
  | TStop _ :: t => onews now n1 t
  | TRestart id r :: t => (nq (now + r), ATimerFire id) :: onews now n1 t
  end.
Fixpoint okept (n1 : nat) (o : list out) : list Z :=
  match o with
  | [] => []
  | Tx id _ :: t => (if droppedD n1 then [] else [id]) ++ okept (S n1) t
  | _ :: t => okept n1 t
  end.
Definition oeff (now : Q) (n1 : nat) (o : list out) : list (Q * aev) * list Z * nat :=
  (onews now n1 o, okept n1 o, length (tx_ids o)).

Lemma AddsT_one ag t p k e : AddsT ag (ainsert (mkae t p k e) ag) [(t, e)].
Proof. apply (addsT_cons _ _ [] t p k e). constructor. Qed.

Lemma AddsT_cons_front a b c x n : AddsT a b [x] -> AddsT b c n -> AddsT a c (x :: n).
Proof. intros H1 H2. change (x :: n) with ([x] ++ n). eapply AddsT_trans; eauto. Qed.

Record frame (st st' : lstate) : Prop := {
  fr_now : l_now st' = l_now st; fr_snd : l_snd st' = l_snd st; fr_sink : l_sink st' = l_sink st;
  fr_wa : l_wa st' = l_wa st; fr_n2 : l_n2 st' = l_n2 st; fr_slog : l_slog st' = l_slog st
}.

Lemma frame_trans a b c : frame a b -> frame b c -> frame a c.
Proof. intros [] []. constructor; congruence. Qed.

Lemma wd_app_app w k1 k2 t : wd_app (wd_app w k1 t) k2 t = wd_app w (k1 ++ k2) t.
Proof. unfold wd_app. cbn [wd_items wd_stamps wd_entered wd_waiting]. rewrite map_app, !app_assoc. reflexivity. Qed.

Lemma wd_app_nil w t : wd_app w [] t = w.
Proof. unfold wd_app. cbn [map]. rewrite !app_nil_r. destruct w; reflexivity. Qed.

Lemma tx_data_descr st id :
  let st' := tx_data lc st id in
  frame st st' /\ l_n1 st' = S (l_n1 st) /\
  AddsT (l_agenda st) (l_agenda st') (if droppedD (l_n1 st) then [] else [(nq (l_now st), AWirePutCb false)]) /\
  l_wd st' = wd_app (l_wd st) (if droppedD (l_n1 st) then [] else [id]) (l_now st).
Proof.
  unfold tx_data, droppedD. destruct (existsb (Nat.eqb (l_n1 st)) (lc_drop_data lc)); lproj;
    (split; [constructor; reflexivity|]); (split; [reflexivity|]).
  - split; [constructor|]. symmetry. apply wd_app_nil.
  - split; [apply AddsT_one|reflexivity].
Qed.

Lemma do_outs_descr : forall o st,
  let st' := do_outs lc st o in
  frame st st' /\ AddsT (l_agenda st) (l_agenda st') (onews (l_now st) (l_n1 st) o) /\
  l_wd st' = wd_app (l_wd st) (okept (l_n1 st) o) (l_now st) /\ l_n1 st' = (l_n1 st + length (tx_ids o))%nat.
Proof.
  assert (Sch : forall o st t p e,
            (let st' := do_outs lc (sched st t p e) o in
             frame (sched st t p e) st' /\ AddsT (l_agenda (sched st t p e)) (l_agenda st') (onews (l_now st) (l_n1 st) o) /\
             l_wd st' = wd_app (l_wd st) (okept (l_n1 st) o) (l_now st) /\ l_n1 st' = (l_n1 st + length (tx_ids o))%nat) ->
            let st' := do_outs lc (sched st t p e) o in
            frame st st' /\ AddsT (l_agenda st) (l_agenda st') ((nq t, e) :: onews (l_now st) (l_n1 st) o) /\
            l_wd st' = wd_app (l_wd st) (okept (l_n1 st) o) (l_now st) /\ l_n1 st' = (l_n1 st + length (tx_ids o))%nat).
  { intros o st t p e ([] & A & W & N). split; [constructor; assumption|]. split; [|split; assumption].
    eapply AddsT_cons_front; [apply AddsT_sched|exact A]. }
  induction o as [|x o IH]; intros st; cbn [do_outs onews okept].
  - rewrite wd_app_nil, Nat.add_0_r. split; [constructor; reflexivity|]. split; [constructor|split; reflexivity].
  - destruct x as [id z|id r|id|id r].
    + change (length (tx_ids (Tx id z :: o))) with (S (length (tx_ids o))).
      destruct (tx_data_descr st id) as (F1 & T1 & Ta & Tw). specialize (IH (tx_data lc st id)). cbv zeta in IH.
      rewrite (fr_now _ _ F1), T1, Tw, wd_app_app in IH. destruct IH as (F & A & W & N).
      split; [eapply frame_trans; eauto|]. split; [eapply AddsT_trans; eauto|]. split; [exact W|lia].
    + change (tx_ids (TStart id r :: o)) with (tx_ids o). apply Sch. exact (IH (sched st (l_now st) 0 (ATimerInit id))).
    + apply IH.
    + change (tx_ids (TRestart id r :: o)) with (tx_ids o). apply Sch. exact (IH (sched st (l_now st + r)%Q 1 (ATimerFire id))).
Qed.

(* one sender event inside the loop, exactly *)
Lemma sender_event_descr st e st' s' o :
  step (lc_fx lc) (lc_cfg lc) (l_snd st) e = Ok s' o -> sender_event lc st e = inl st' ->
  l_now st' = l_now st /\ l_snd st' = norm_sender s' /\ l_sink st' = l_sink st /\ l_wa st' = l_wa st /\
  l_n2 st' = l_n2 st /\ l_slog st' = mkslog (l_now st) e (txs o) (norm_sender s') :: l_slog st /\
  AddsT (l_agenda st) (l_agenda st') (onews (l_now st) (l_n1 st) o ++ extra_news (l_now st) (l_snd st) s' e) /\
  l_wd st' = wd_app (l_wd st) (okept (l_n1 st) o) (l_now st) /\ l_n1 st' = (l_n1 st + length (tx_ids o))%nat.
Proof.
  intros Hstep H. unfold sender_event in H. rewrite Hstep in H. injection H as <-.
  destruct (do_outs_descr o (set_snd st (norm_sender s'))) as ([f1 f2 f3 f4 f5 f6] & A & W & N).
  set (st1 := do_outs lc _ o) in *. lproj.
  change (pend (norm_sender s')) with (pend s'). change (wake (norm_sender s')) with (wake s').
  unfold extra_news. clearbody st1.
  destruct (_ <? _)%nat; destruct (_ && _); lproj; rewrite ?f1 in *; rewrite ?f6; do 6 (split; [assumption || reflexivity|]);
    (split; [|split; [exact W|exact N]]).
  - rewrite app_assoc. constructor. constructor. exact A.
  - rewrite app_nil_r. constructor. exact A.
  - cbn [app]. constructor. exact A.
  - cbn [app]. rewrite app_nil_r. exact A.
Qed.
End Descr.

Definition getD_eff (now : Q) (w : wireD) : list (Q * aev) * wireD :=
  match wd_items w with
  | x :: r => ([(nq now, AWireGetD x)], mkwd r (tl (wd_stamps w)) (hd 0%Q (wd_stamps w)) false)
  | [] => ([], mkwd [] (wd_stamps w) (wd_entered w) true) end.
Definition getA_eff (now : Q) (w : wireA) : list (Q * aev) * wireA :=
  match wa_items w with
  | x :: r => ([(nq now, AWireGetA (a_no x) (a_pid x) (a_time x) (a_ct x))], mkwa r false)
  | [] => ([], mkwa [] true) end.

(* everything but the agenda and the two stores *)
Record keep (st st' : lstate) : Prop := {
  k_now : l_now st' = l_now st; k_snd : l_snd st' = l_snd st; k_sink : l_sink st' = l_sink st;
  k_pkt : l_pkt st' = l_pkt st; k_n1 : l_n1 st' = l_n1 st; k_n2 : l_n2 st' = l_n2 st; k_slog : l_slog st' = l_slog st
}.
Lemma keep_refl st : keep st st.
Proof. constructor; reflexivity. Qed.
Lemma keep_trans a b c : keep a b -> keep b c -> keep a c.
Proof. intros [] []. constructor; congruence. Qed.

Lemma sched_keep st t p e : keep st (sched st t p e).
Proof. constructor; reflexivity. Qed.

Lemma wd_get_descr st :
  keep st (wd_get st) /\ l_wa (wd_get st) = l_wa st /\
  AddsT (l_agenda st) (l_agenda (wd_get st)) (fst (getD_eff (l_now st) (l_wd st))) /\
  l_wd (wd_get st) = snd (getD_eff (l_now st) (l_wd st)).
Proof.
  unfold wd_get, getD_eff. destruct (wd_items (l_wd st)) as [|x r]; cbn [fst snd].
  - split; [constructor; reflexivity|]. split; [reflexivity|]. split; [constructor|reflexivity].
  - split; [constructor; reflexivity|]. split; [reflexivity|]. split; [apply (AddsT_sched (set_wd st (mkwd r (tl (wd_stamps (l_wd st))) (hd 0%Q (wd_stamps (l_wd st))) false)))|reflexivity].
Qed.

Lemma wa_get_descr st :
  keep st (wa_get st) /\ l_wd (wa_get st) = l_wd st /\
  AddsT (l_agenda st) (l_agenda (wa_get st)) (fst (getA_eff (l_now st) (l_wa st))) /\
  l_wa (wa_get st) = snd (getA_eff (l_now st) (l_wa st)).
Proof.
  unfold wa_get, getA_eff. destruct (wa_items (l_wa st)) as [|x r]; cbn [fst snd].
  - split; [constructor; reflexivity|]. split; [reflexivity|]. split; [constructor|reflexivity].
  - split; [constructor; reflexivity|]. split; [reflexivity|]. split; [apply (AddsT_sched (set_wa st (mkwa r false)))|reflexivity].
Qed.

Section Tr.
Variable lc : lcfg.
Local Notation d := (lc_delay lc).
Local Notation cfg := (lc_cfg lc).

(* which sender event an agenda entry due at tau stands for *)
Inductive ev_sender (st : lstate) (tau : Q) : aev -> event -> bool -> Prop :=
| es_wake : ev_sender st tau ASenderWake EWake false
| es_cb : ev_sender st tau ASenderCb EStoreCb false
| es_fire id : has_timer id (timers (l_snd st)) = true -> ev_sender st tau (ATimerFire id) (EExpire id) false
| es_getA a p tm ct : Qltb (tau - ct) d = false ->
    ev_sender st tau (AWireGetA a p tm ct) (EAck a p (nq (tau - tm)) (hd 0%Q (l_oracle st))) true
| es_outA a p tm ct : ev_sender st tau (AWireOutA a p tm ct) (EAck a p (nq (tau - tm)) (hd 0%Q (l_oracle st))) true.

(* the steps that leave the sender, the sink and the droppers alone: what replaces the entry on the agenda, and the
   two stores afterwards *)
Inductive Quiet (st : lstate) (a : aentry) : list (Q * aev) -> wireD -> wireA -> Prop :=
| q_init id r :
    ae_ev a = ATimerInit id -> find (fun p => fst p =? id) (timers (l_snd st)) = Some (id, r) ->
    Quiet st a [(nq (ae_time a + r), ATimerFire id)] (l_wd st) (l_wa st)
| q_noop :
    (match ae_ev a with
     | ATimerInit id | ATimerFire id => has_timer id (timers (l_snd st)) = false
     | AWirePutCb false => wd_waiting (l_wd st) = false
     | AWirePutCb true => wa_waiting (l_wa st) = false
     | _ => False end) ->
    Quiet st a [] (l_wd st) (l_wa st)
| q_getD :
    (ae_ev a = AWireInit false \/ (ae_ev a = AWirePutCb false /\ wd_waiting (l_wd st) = true)) ->
    Quiet st a (fst (getD_eff (ae_time a) (l_wd st))) (snd (getD_eff (ae_time a) (l_wd st))) (l_wa st)
| q_getA :
    (ae_ev a = AWireInit true \/ (ae_ev a = AWirePutCb true /\ wa_waiting (l_wa st) = true)) ->
    Quiet st a (fst (getA_eff (ae_time a) (l_wa st))) (l_wd st) (snd (getA_eff (ae_time a) (l_wa st)))
| q_waitD id :
    ae_ev a = AWireGetD id -> Qltb (ae_time a - wd_entered (l_wd st)) d = true ->
    Quiet st a [(nq (ae_time a + (d - (ae_time a - wd_entered (l_wd st)))), AWireOutD id)] (l_wd st) (l_wa st)
| q_waitA ackno pid tm ct :
    ae_ev a = AWireGetA ackno pid tm ct -> Qltb (ae_time a - ct) d = true ->
    Quiet st a [(nq (ae_time a + (d - (ae_time a - ct))), AWireOutA ackno pid tm ct)] (l_wd st) (l_wa st).

(* one agenda step, described: [a] is the entry taken off the agenda, [rest] what remains *)
Inductive Tr (st : lstate) (a : aentry) (rest : list aentry) (st' : lstate) : Prop :=
| tr_sender e isack s' o nw kp k nwa :
    ev_sender st (ae_time a) (ae_ev a) e isack ->
    step repaired cfg (l_snd st) e = Ok s' o -> oeff lc (ae_time a) (l_n1 st) o = (nw, kp, k) ->
    l_now st' = ae_time a -> l_snd st' = norm_sender s' -> l_sink st' = l_sink st -> l_n2 st' = l_n2 st ->
    l_slog st' = mkslog (ae_time a) e (txs o) (norm_sender s') :: l_slog st ->
    l_n1 st' = (l_n1 st + k)%nat ->
    l_wd st' = wd_app (l_wd st) kp (ae_time a) ->
    (if isack then nwa = fst (getA_eff (ae_time a) (l_wa st)) /\ l_wa st' = snd (getA_eff (ae_time a) (l_wa st))
     else nwa = [] /\ l_wa st' = l_wa st) ->
    AddsT rest (l_agenda st') ((nw ++ extra_news (ae_time a) (l_snd st) s' e) ++ nwa) ->
    Tr st a rest st'
| tr_quiet news wd' wa' :
    Quiet st a news wd' wa' -> keep (popped st a rest) st' -> l_wd st' = wd' -> l_wa st' = wa' ->
    AddsT rest (l_agenda st') news -> Tr st a rest st'
| tr_deliver id tm ct :
    (ae_ev a = AWireOutD id \/ (ae_ev a = AWireGetD id /\ Qltb (ae_time a - wd_entered (l_wd st)) d = false)) ->
    pkt_get id (l_pkt st) = Some (tm, ct) ->
    l_now st' = ae_time a -> l_snd st' = l_snd st -> l_pkt st' = l_pkt st -> l_n1 st' = l_n1 st -> l_slog st' = l_slog st ->
    l_sink st' = sink_step true (l_sink st) (id, mss cfg) -> l_n2 st' = S (l_n2 st) ->
    l_wd st' = snd (getD_eff (ae_time a) (l_wd st)) ->
    (if droppedA lc (l_n2 st) then
       l_wa st' = l_wa st /\ AddsT rest (l_agenda st') (fst (getD_eff (ae_time a) (l_wd st)))
     else
       l_wa st' = mkwa (wa_items (l_wa st) ++ [mkack (nse (l_sink st')) id tm (ae_time a)]) (wa_waiting (l_wa st)) /\
       AddsT rest (l_agenda st') ((nq (ae_time a), AWirePutCb true) :: fst (getD_eff (ae_time a) (l_wd st)))) ->
    Tr st a rest st'.

Lemma Quiet_no_sender st a news wd' wa' e b : Quiet st a news wd' wa' -> ~ ev_sender st (ae_time a) (ae_ev a) e b.
Proof.
  intros Hq He. destruct Hq as [id r Hev Hfind|Hev|Hev|Hev|id Hev Hq|ackno pid tm ct Hev Hq];
    try (destruct Hev as [Hev|[Hev _]]); inversion He; try congruence.
  all: match goal with H : _ = ae_ev _ |- _ => rewrite <- H in Hev end; congruence.
Qed.

Lemma find_none_has id t : find (fun p : Z * Q => fst p =? id) t = None -> has_timer id t = false.
Proof.
  intros H. destruct (has_timer id t) eqn:E; [|reflexivity]. exfalso.
  apply has_timer_In in E. exact (find_none_keys _ _ H E).
Qed.

Lemma popped_keep st a rest : keep (popped st a rest) (popped st a rest).
Proof. apply keep_refl. Qed.

Lemma deliver_data_descr st id tm ct st1 :
  pkt_get id (l_pkt st) = Some (tm, ct) -> deliver_data lc st id = inl st1 ->
  l_now st1 = l_now st /\ l_snd st1 = l_snd st /\ l_pkt st1 = l_pkt st /\ l_n1 st1 = l_n1 st /\ l_slog st1 = l_slog st /\
  l_wd st1 = l_wd st /\ l_sink st1 = sink_step true (l_sink st) (id, mss cfg) /\ l_n2 st1 = S (l_n2 st) /\
  (if droppedA lc (l_n2 st) then l_wa st1 = l_wa st /\ l_agenda st1 = l_agenda st
   else l_wa st1 = mkwa (wa_items (l_wa st) ++ [mkack (nse (l_sink st1)) id tm (l_now st)]) (wa_waiting (l_wa st)) /\
        AddsT (l_agenda st) (l_agenda st1) [(nq (l_now st), AWirePutCb true)]).
Proof.
  intros Ep D. unfold deliver_data in D. rewrite Ep in D. unfold droppedA. cbv zeta in D.
  remember (sink_step true (l_sink st) (id, mss cfg)) as sk eqn:Esk. clear Esk.
  destruct (existsb (Nat.eqb (l_n2 st)) (lc_drop_ack lc)); injection D as <-; lproj.
  - repeat split; reflexivity.
  - do 8 (split; [reflexivity|]). split; [reflexivity|]. apply AddsT_one.
Qed.

Lemma lstep_Tr st a rest st' :
  lc_fx lc = repaired -> l_agenda st = a :: rest -> lstep lc st = Some (inl st') -> Tr st a rest st'.
Proof.
  intros Hfx E H. unfold lstep in H. rewrite E in H. injection H as H. fold (popped st a rest) in H.
  set (pst := popped st a rest) in *.
  (* the entry taken off, and (for an ACK) the first value of the oracle *)
  pose (pso := fun orc => mkls (ae_time a) (l_seq st) rest (l_snd st) (l_sink st) (l_pkt st) (l_wd st) (l_wa st)
                               (l_n1 st) (l_n2 st) orc (l_slog st) (l_d1 st) (l_d2 st)).
  assert (SE : forall e isack orc, ev_sender st (ae_time a) (ae_ev a) e isack ->
             forall st1, sender_event lc (pso orc) e = inl st1 ->
             st' = (if isack then wa_get st1 else st1) -> Tr st a rest st').
  { intros e isack orc Hev st1 Hse ->.
    destruct (sender_event_snd lc (pso orc) e st1 Hse) as (s' & o & Hstep & _).
    destruct (sender_event_descr lc (pso orc) e st1 s' o Hstep Hse) as (D1&D2&D3&D4&D5&D6&D7&D8&D9).
    unfold pso in *; lproj. rewrite Hfx in Hstep.
    destruct isack.
    - destruct (wa_get_descr st1) as ([g1 g2 g3 g4 g5 g6 g7] & G2 & G3 & G4). rewrite D1, D4 in *.
      eapply (tr_sender st a rest _ e true s' o _ _ _ _ Hev Hstep eq_refl); eauto; try congruence; rewrite ?g4; auto.
      eapply (AddsT_trans _ _ _ G3 _ _ D7).
    - eapply (tr_sender st a rest _ e false s' o _ _ _ [] Hev Hstep eq_refl); eauto.
      rewrite app_nil_r. exact D7. }
  assert (DL : forall id tm ct st1,
             (ae_ev a = AWireOutD id \/ (ae_ev a = AWireGetD id /\ Qltb (ae_time a - wd_entered (l_wd st)) d = false)) ->
             pkt_get id (l_pkt pst) = Some (tm, ct) -> deliver_data lc pst id = inl st1 -> Tr st a rest (wd_get st1)).
  { intros id tm ct st1 Hev Ep D.
    destruct (deliver_data_descr pst id tm ct st1 Ep D) as (D1&D2&D3&D4&D5&D6&D7&D8&D9).
    destruct (wd_get_descr st1) as ([g1 g2 g3 g4 g5 g6 g7] & G2 & G3 & G4).
    rewrite D1, D6 in *. unfold pst, popped in *; lproj.
    eapply (tr_deliver st a rest _ id tm ct); [exact Hev|exact Ep|..]; try congruence.
    destruct (droppedA lc (l_n2 st)).
    - destruct D9 as [Da Db]. split; [congruence|]. rewrite Db in G3. exact G3.
    - destruct D9 as [Da Db]. split; [rewrite G2, g3; exact Da|].
      eapply AddsT_cons_front; [exact Db|exact G3]. }
  destruct (ae_ev a) as [| |id|id|w|w|id|id|ackno pid tm ct|ackno pid tm ct] eqn:Eev; cbn [handle] in H.
  - refine (SE EWake false (l_oracle st) _ st' H eq_refl). constructor.
  - refine (SE EStoreCb false (l_oracle st) _ st' H eq_refl). constructor.
  - destruct (find (fun p => fst p =? id) (timers (l_snd pst))) as [[k r]|] eqn:Ef; injection H as <-.
    + pose proof (find_some _ _ Ef) as [_ Ek]. cbn [fst] in Ek. apply Z.eqb_eq in Ek. subst k.
      eapply tr_quiet; [apply (q_init st a id r Eev Ef)|apply sched_keep|reflexivity|reflexivity|apply (AddsT_sched pst)].
    + eapply tr_quiet; [apply q_noop; rewrite Eev; apply find_none_has; exact Ef|apply keep_refl|reflexivity|reflexivity|constructor].
  - destruct (has_timer id (timers (l_snd pst))) eqn:Eh.
    + refine (SE (EExpire id) false (l_oracle st) _ st' H eq_refl). constructor. exact Eh.
    + injection H as <-. eapply tr_quiet; [apply q_noop; rewrite Eev; exact Eh|apply keep_refl|reflexivity|reflexivity|constructor].
  - destruct w; injection H as <-.
    + destruct (wa_get_descr pst) as (G1 & G2 & G3 & G4). eapply tr_quiet; [apply q_getA; auto|exact G1|exact G2|exact G4|exact G3].
    + destruct (wd_get_descr pst) as (G1 & G2 & G3 & G4). eapply tr_quiet; [apply q_getD; auto|exact G1|exact G4|exact G2|exact G3].
  - destruct w.
    + destruct (wa_waiting (l_wa pst)) eqn:Ew; injection H as <-.
      * destruct (wa_get_descr pst) as (G1 & G2 & G3 & G4). eapply tr_quiet; [apply q_getA; auto|exact G1|exact G2|exact G4|exact G3].
      * eapply tr_quiet; [apply q_noop; rewrite Eev; exact Ew|apply keep_refl|reflexivity|reflexivity|constructor].
    + destruct (wd_waiting (l_wd pst)) eqn:Ew; injection H as <-.
      * destruct (wd_get_descr pst) as (G1 & G2 & G3 & G4). eapply tr_quiet; [apply q_getD; auto|exact G1|exact G4|exact G2|exact G3].
      * eapply tr_quiet; [apply q_noop; rewrite Eev; exact Ew|apply keep_refl|reflexivity|reflexivity|constructor].
  - destruct (pkt_get id (l_pkt pst)) as [[tm ct]|] eqn:Ep; [|discriminate].
    destruct (Qltb (l_now pst - wd_entered (l_wd pst)) d) eqn:Eq.
    + injection H as <-. eapply tr_quiet; [apply (q_waitD st a id Eev Eq)|apply sched_keep|reflexivity|reflexivity|apply (AddsT_sched pst)].
    + destruct (deliver_data lc pst id) as [st1|] eqn:D; cbn [bind] in H; [|discriminate]. injection H as <-.
      eapply DL; eauto.
  - destruct (pkt_get id (l_pkt pst)) as [[tm ct]|] eqn:Ep; [|unfold deliver_data in H; rewrite Ep in H; discriminate].
    destruct (deliver_data lc pst id) as [st1|] eqn:D; cbn [bind] in H; [|discriminate]. injection H as <-.
    eapply DL; eauto.
  - destruct (Qltb (l_now pst - ct) d) eqn:Eq.
    + injection H as <-. eapply tr_quiet; [apply (q_waitA st a ackno pid tm ct Eev Eq)|apply sched_keep|reflexivity|reflexivity|apply (AddsT_sched pst)].
    + destruct (deliver_ack lc pst ackno pid tm) as [st1|] eqn:D; cbn [bind] in H; [|discriminate]. injection H as <-.
      unfold deliver_ack in D. change (l_now pst) with (ae_time a) in D. change (l_oracle pst) with (l_oracle st) in D.
      refine (SE _ true (tl (l_oracle st)) _ st1 D eq_refl). constructor. exact Eq.
  - destruct (deliver_ack lc pst ackno pid tm) as [st1|] eqn:D; cbn [bind] in H; [|discriminate]. injection H as <-.
    unfold deliver_ack in D. change (l_now pst) with (ae_time a) in D. change (l_oracle pst) with (l_oracle st) in D.
    refine (SE _ true (tl (l_oracle st)) _ st1 D eq_refl). constructor.
Qed.
End Tr.

(* The cases of Tr and of Quiet, with the names every proof by cases on a step uses.
   Tr: a sender event e (isack: it was an ACK, and the ACK wire then asks its store; nwa its news), with the step
   s -> s', o of the sender, the effect (nw, kp, k) of o and the fields of the new state; a quiet step (Hq : Quiet,
   Hk : everything but the agenda and the two stores is kept); a delivery of segment id at the sink (Hif: the ACK
   is dropped or queued).
   Quiet: Timer Initialize of an armed timer | nothing to do | the data wire asks its store | the ACK wire asks its
   store | a data packet starts its propagation delay | an ACK starts its propagation delay. *)
Ltac Tr_cases HT :=
  destruct HT as [e isack s' o nw kp k nwa Hev Hstep Ho Hnow Hsnd Hsink Hn2 Hslog Hn1 Hwd Hif HA'
                 | news wd' wa' Hq Hk Hwd Hwa HA'
                 | id tm ct Hev Hp Hnow Hsnd Hpkt Hn1 Hslog Hsink Hn2 Hwd Hif].
Ltac Quiet_cases Hq := destruct Hq as [id r Hev Hfind|Hev|Hev|Hev|id Hev Hq|ackno pid tm ct Hev Hq].

(* counting agenda entries through AddsT *)
Definition ncount (p : aev -> bool) (news : list (Q * aev)) : nat := length (filter (fun x => p (snd x)) news).

Lemma acount_cons p a l : acount p (a :: l) = (b2n (p (ae_ev a)) + acount p l)%nat.
Proof. unfold acount. cbn [filter]. destruct (p (ae_ev a)); reflexivity. Qed.

Lemma ncount_app p a b : ncount p (a ++ b) = (ncount p a + ncount p b)%nat.
Proof. unfold ncount. rewrite filter_app, app_length. reflexivity. Qed.

Lemma ncount_cons p x l : ncount p (x :: l) = (b2n (p (snd x)) + ncount p l)%nat.
Proof. unfold ncount. cbn [filter]. destruct (p (snd x)); reflexivity. Qed.

Lemma filter_ge1 {A : Type} (p : A -> bool) l x : In x l -> p x = true -> (1 <= length (filter p l))%nat.
Proof. intros Hx Hp. apply in_split in Hx as (l1 & l2 & ->). rewrite filter_app, app_length. cbn [filter]. rewrite Hp. cbn [length]. lia. Qed.

Lemma ncount_nil_pred p news : (forall x, In x news -> p (snd x) = false) -> ncount p news = O.
Proof. intros H. unfold ncount. apply length_zero_iff_nil, filter_none. exact H. Qed.

Lemma AddsT_acount p ag ag' news : AddsT ag ag' news -> acount p ag' = (ncount p news + acount p ag)%nat.
Proof.
  induction 1 as [|ag ag' news t q k e H IH]; [reflexivity|].
  rewrite ainsert_count, IH, ncount_app. cbn [ae_ev]. unfold ncount at 3. cbn [filter snd].
  destruct (p e); cbn [length]; lia.
Qed.

Lemma AddsT_In_iff ag ag' news : AddsT ag ag' news -> forall a,
  In a ag' -> In a ag \/ In (ae_time a, ae_ev a) news.
Proof.
  induction 1 as [|ag ag' news t q k e H IH]; intros a Ha; [left; exact Ha|].
  apply ainsert_In in Ha as [->|Ha].
  - right. apply in_or_app. right. left. reflexivity.
  - destruct (IH a Ha) as [?|?]; [left; assumption|right; apply in_or_app; left; assumption].
Qed.

Lemma AddsT_In_old ag ag' news a : AddsT ag ag' news -> In a ag -> In a ag'.
Proof. induction 1; [auto|]. intros Ha. apply ainsert_In. right. auto. Qed.

Lemma AddsT_In_new ag ag' news t e : AddsT ag ag' news -> In (t, e) news -> exists a, In a ag' /\ ae_time a = t /\ ae_ev a = e.
Proof.
  induction 1 as [|ag ag' news t0 q k e0 H IH]; [intros []|]. intros Hin. apply in_app_or in Hin as [Hin|[E|[]]].
  - destruct (IH Hin) as (a & Ha & A1 & A2). exists a. split; [apply ainsert_In; right; exact Ha|auto].
  - injection E as <- <-. exists (mkae t0 q k e0). split; [apply ainsert_In; left; reflexivity|auto].
Qed.

Lemma AddsT_sorted ag ag' news : AddsT ag ag' news -> asorted ag -> asorted ag'.
Proof. induction 1; [auto|]. intros Hs. apply ainsert_sorted. auto. Qed.

Lemma asorted_head a rest b : asorted (a :: rest) -> In b rest -> (ae_time a <= ae_time b)%Q.
Proof. cbn [asorted]. intros [H _] Hb. rewrite Forall_forall in H. apply H, Hb. Qed.

(* the timing / control invariant of the two wires *)
Section W.
Variable lc : lcfg.
Local Notation d := (lc_delay lc).

Definition ackct (e : aev) : option Q :=
  match e with AWireGetA _ _ _ ct | AWireOutA _ _ _ ct => Some ct | _ => None end.

Definition entry_w (now t : Q) (e : aev) : Prop :=
  match e with
  | AWireInit _ | AWirePutCb _ | AWireGetD _ => (t <= now)%Q
  | AWireGetA _ _ _ ct => (t <= now /\ ct <= now /\ now <= ct + d)%Q
  | AWireOutD _ => (t <= now + d)%Q
  | AWireOutA _ _ _ ct => (t <= ct + d /\ ct <= now)%Q
  | _ => True
  end.

Fixpoint sortedQ (l : list Q) : Prop :=
  match l with [] => True | x :: t => Forall (fun y => (x <= y)%Q) t /\ sortedQ t end.

(* where a wire's process is: initialising, holding a packet (an agenda entry of its own), or waiting for its
   store; a waiting process with a non-empty store is being woken by a put callback *)
Record Ctl (hold init put : aev -> bool) (ag : list aentry) (waiting : bool) (nonempty : Prop) : Prop := {
  c_one : (acount hold ag + acount init ag + b2n waiting)%nat = 1%nat;
  c_wake : acount hold ag = O -> nonempty -> (0 < acount put ag + acount init ag)%nat
}.
Definition WD (ag : list aentry) (w : wireD) : Prop := Ctl is_holdD is_initD is_putD ag (wd_waiting w) (wd_items w <> []).
(* the ACK wire: the same, and every ACK (created at ct) is on time for ct + d, in creation order *)
Record WA (now : Q) (ag : list aentry) (w : wireA) : Prop := {
  wa_c : Ctl is_holdA is_initA is_putA ag (wa_waiting w) (wa_items w <> []);
  wa_acks : Forall (fun r => (a_ct r <= now /\ now <= a_ct r + d)%Q) (wa_items w);
  wa_sorted : sortedQ (map a_ct (wa_items w));
  wa_held_le : forall a c, In a ag -> ackct (ae_ev a) = Some c -> Forall (fun r => (c <= a_ct r)%Q) (wa_items w)
}.
(* the entry instants kept by the data wire (its queue, and the one its process holds) are in the past *)
Definition Wst (now : Q) (w : wireD) : Prop :=
  (wd_entered w <= now)%Q /\ Forall (fun t => (t <= now)%Q) (wd_stamps w).
Record LInvW (st : lstate) : Prop := {
  w_now : (0 <= l_now st)%Q;
  w_ent : Forall (fun a => entry_w (l_now st) (ae_time a) (ae_ev a)) (l_agenda st);
  w_D : WD (l_agenda st) (l_wd st);
  w_A : WA (l_now st) (l_agenda st) (l_wa st);
  w_st : Wst (l_now st) (l_wd st);
  (* one entry instant per queued packet: the defaults of hd / tl in wd_get are never used *)
  w_len : length (wd_stamps (l_wd st)) = length (wd_items (l_wd st))
}.

Lemma entry_w_mono now tau t e : (now <= tau)%Q -> (tau <= t)%Q -> entry_w now t e -> entry_w tau t e.
Proof. intros H1 H2. destruct e; cbn [entry_w]; auto; intros; lra. Qed.

(* what the outputs of a sender event put on the agenda *)
Definition news_kind (tau : Q) (x : Q * aev) : Prop :=
  (x = (nq tau, AWirePutCb false)) \/ (exists id, x = (nq tau, ATimerInit id)) \/ (exists id r, x = (nq (tau + r), ATimerFire id)).

Lemma oeff_kinds tau o n1 nw kp k : oeff lc tau n1 o = (nw, kp, k) ->
  Forall (news_kind tau) nw /\ (kp <> [] -> In (nq tau, AWirePutCb false) nw).
Proof.
  intros E; injection E as <- <- _. revert n1.
  induction o as [|[id z|id r|id|id r] o IH]; intros n1; cbn [onews okept]; try destruct (IH n1) as [A B].
  - split; [constructor|intros H; contradiction].
  - clear A B. destruct (IH (S n1)) as [A B]. destruct (droppedD lc n1); cbn [app]; [split; assumption|].
    split; [constructor; [left; reflexivity|exact A]|intros _; left; reflexivity].
  - split; [constructor; [right; left; eauto|exact A]|intros H; right; auto].
  - split; assumption.
  - split; [constructor; [right; right; eauto|exact A]|intros H; right; auto].
Qed.

Lemma extra_news_kind tau s s' e x : In x (extra_news tau s s' e) -> x = (nq tau, ASenderCb) \/ x = (nq tau, ASenderWake).
Proof.
  unfold extra_news. intros H. apply in_app_or in H as [H|H].
  - destruct (_ <? _)%nat; [destruct H as [<-|[]]; left; reflexivity|destruct H].
  - destruct (_ && _); [destruct H as [<-|[]]; right; reflexivity|destruct H].
Qed.

(* a predicate that no sender-produced entry satisfies *)
Definition wire_pred (p : aev -> bool) : Prop :=
  p ASenderCb = false /\ p ASenderWake = false /\ (forall id, p (ATimerInit id) = false) /\ (forall id, p (ATimerFire id) = false).

Lemma ncount_sender_news p tau o n1 nw kp k s s' e :
  wire_pred p -> p (AWirePutCb false) = false -> oeff lc tau n1 o = (nw, kp, k) -> ncount p (nw ++ extra_news tau s s' e) = O.
Proof.
  intros (P1 & P2 & P3 & P4) P5 Ho. destruct (oeff_kinds tau o n1 nw kp k Ho) as [Hk _]. rewrite Forall_forall in Hk.
  apply ncount_nil_pred. intros x Hx. apply in_app_or in Hx as [Hx|Hx].
  - destruct (Hk x Hx) as [->|[(id & ->)|(id & r & ->)]]; cbn [snd]; auto.
  - apply extra_news_kind in Hx as [->| ->]; assumption.
Qed.
End W.

Section Wstep.
Variable lc : lcfg.
Local Notation d := (lc_delay lc).
Hypothesis Hd : (0 <= d)%Q.

Lemma AddsT_ent tau rest ag' news :
  AddsT rest ag' news -> Forall (fun b => entry_w lc tau (ae_time b) (ae_ev b)) rest ->
  Forall (fun x => entry_w lc tau (fst x) (snd x)) news -> Forall (fun b => entry_w lc tau (ae_time b) (ae_ev b)) ag'.
Proof. intros H. apply (AddsT_Forall (entry_w lc tau) _ _ _ H). Qed.

Lemma sum_pos_ex p q l : (0 < acount p l + acount q l)%nat -> exists b, In b l /\ (p (ae_ev b) = true \/ q (ae_ev b) = true).
Proof.
  intros H. destruct (acount p l) as [|k] eqn:E1.
  - destruct (acount_pos q l) as (b & B1 & B2); [lia|]. eauto.
  - destruct (acount_pos p l) as (b & B1 & B2); [lia|]. eauto.
Qed.

Section CtlStep.
Variables hold init put : aev -> bool.
Variables (a : aentry) (rest ag' : list aentry) (wt : bool) (ne : Prop).
Hypothesis C : Ctl hold init put (a :: rest) wt ne.

Lemma Ctl_rest :
  (init (ae_ev a) = true \/ (put (ae_ev a) = true /\ wt = true) \/ hold (ae_ev a) = true) ->
  acount hold rest = O /\ acount init rest = O.
Proof.
  destruct C as [c1 _]. repeat rewrite acount_cons in c1.
  intros [R|[[_ R]|R]]; rewrite R in c1; cbn [b2n] in c1; lia.
Qed.

(* the entry taken off is replaced by entries of the same role; the store is untouched *)
Lemma Ctl_same news :
  AddsT rest ag' news -> ncount hold news = b2n (hold (ae_ev a)) -> ncount init news = b2n (init (ae_ev a)) ->
  (put (ae_ev a) = true -> wt = false) -> Ctl hold init put ag' wt ne.
Proof.
  destruct C as [c1 c2]. intros HA C1 C2 Hp. repeat rewrite acount_cons in c1. repeat rewrite acount_cons in c2.
  constructor; repeat rewrite (AddsT_acount _ _ _ _ HA); [lia|].
  intros H0 Hne. assert (Hh : (b2n (hold (ae_ev a)) + acount hold rest)%nat = O) by lia.
  specialize (c2 Hh Hne). destruct (put (ae_ev a)) eqn:Ep; [|cbn [b2n] in c2; lia].
  rewrite (Hp eq_refl) in c1. cbn [b2n] in c1. lia.
Qed.

(* something is appended to the store, with a put callback *)
Lemma Ctl_put news (ne' : Prop) :
  AddsT rest ag' news -> hold (ae_ev a) = false -> init (ae_ev a) = false -> put (ae_ev a) = false ->
  ncount hold news = O -> ncount init news = O -> (ne' -> ne \/ (1 <= ncount put news)%nat) ->
  Ctl hold init put ag' wt ne'.
Proof.
  destruct C as [c1 c2]. intros HA E1 E2 E3 C1 C2 C3. repeat rewrite acount_cons in c1. repeat rewrite acount_cons in c2.
  rewrite E1, E2 in c1. rewrite E1, E2, E3 in c2. cbn [b2n] in *.
  constructor; repeat rewrite (AddsT_acount _ _ _ _ HA); [lia|].
  intros H0 Hne. destruct (C3 Hne) as [H|H]; [|lia]. assert (Hh : (0 + acount hold rest)%nat = O) by lia. specialize (c2 Hh H). lia.
Qed.

(* the wire's process asks its store for the next packet: it gets one (g, a hold entry) or goes to wait *)
Lemma Ctl_get n0 g wt' (ne' : Prop) :
  AddsT rest ag' (n0 ++ g) -> ncount hold n0 = O -> ncount init n0 = O ->
  (init (ae_ev a) = true \/ (put (ae_ev a) = true /\ wt = true) \/ hold (ae_ev a) = true) ->
  (g = [] /\ wt' = true /\ ~ ne') \/ (ncount hold g = 1%nat /\ ncount init g = O /\ wt' = false) ->
  Ctl hold init put ag' wt' ne'.
Proof.
  intros HA C1 C2 Hrole Hg. destruct (Ctl_rest Hrole) as [Z1 Z2].
  constructor; repeat rewrite (AddsT_acount _ _ _ _ HA); repeat rewrite ncount_app.
  - destruct Hg as [(-> & -> & _)|(G1 & G2 & ->)]; cbn [ncount filter length b2n]; lia.
  - destruct Hg as [(_ & _ & Hn)|(G1 & _ & _)]; [intros _ H; contradiction|lia].
Qed.
End CtlStep.

(* the data wire's process asks its store for the next packet *)
Lemma WD_2 tau a rest ag' n0 w :
  WD (a :: rest) w -> AddsT rest ag' (n0 ++ fst (getD_eff tau w)) ->
  ncount is_holdD n0 = O -> ncount is_initD n0 = O ->
  (is_initD (ae_ev a) = true \/ (is_putD (ae_ev a) = true /\ wd_waiting w = true) \/ is_holdD (ae_ev a) = true) ->
  WD ag' (snd (getD_eff tau w)).
Proof.
  intros W HA C1 C2 Hrole. apply (Ctl_get _ _ _ _ _ _ _ _ W n0 _ _ _ HA C1 C2 Hrole).
  unfold getD_eff. destruct (wd_items w); cbn [fst snd wd_items wd_waiting]; [left; repeat split; auto|right; repeat split; reflexivity].
Qed.

Lemma ackct_hold e c : ackct e = Some c -> is_holdA e = true.
Proof. destruct e; cbn; try discriminate; reflexivity. Qed.

Lemma sortedQ_app l x : sortedQ l -> Forall (fun y => (y <= x)%Q) l -> sortedQ (l ++ [x]).
Proof.
  induction l as [|y l IH]; cbn [sortedQ app]; [intros _ _; split; [constructor|exact I]|].
  intros [Hy Hl] Hf. inversion Hf as [|? ? Hyx Hf']; subst. split; [|apply IH; assumption].
  apply Forall_app. split; [exact Hy|]. constructor; [exact Hyx|constructor].
Qed.

(* the clock cannot pass the delivery instant ct + d of an ACK in the ACK wire *)
Lemma head_time_acks now tau ag w r :
  WA lc now ag w -> Forall (fun b => entry_w lc now (ae_time b) (ae_ev b)) ag ->
  (forall b, In b ag -> (tau <= ae_time b)%Q) -> In r (wa_items w) -> (tau <= a_ct r + d)%Q.
Proof.
  intros [[cA wA] aA sA hA] He Hh Hr. rewrite Forall_forall in aA, He. destruct (aA r Hr) as [A1 A2].
  destruct (acount is_holdA ag) as [|n] eqn:Eh.
  - assert (Hne : wa_items w <> []) by (intros E; rewrite E in Hr; destruct Hr).
    destruct (sum_pos_ex _ _ _ (wA eq_refl Hne)) as (b & B1 & B2).
    pose proof (Hh b B1) as T1. pose proof (He b B1) as T2.
    destruct (ae_ev b) as [| | | |[]|[]| | | |]; cbn [is_putA is_initA entry_w] in *; destruct B2; try discriminate; lra.
  - destruct (acount_pos is_holdA ag) as (b & B1 & B2); [lia|].
    pose proof (Hh b B1) as T1. pose proof (He b B1) as T2.
    destruct (ae_ev b) eqn:Eb; try discriminate; cbn [entry_w] in T2.
    + lra.
    + pose proof (hA b ct B1) as Hl. rewrite Eb in Hl. specialize (Hl eq_refl). rewrite Forall_forall in Hl.
      specialize (Hl r Hr). lra.
Qed.

Lemma WA_adv now tau ag w :
  WA lc now ag w -> (now <= tau)%Q -> (forall r, In r (wa_items w) -> (tau <= a_ct r + d)%Q) -> WA lc tau ag w.
Proof.
  intros [cA aA sA hA] Hn Hh. constructor; auto.
  apply Forall_forall. intros r Hr. rewrite Forall_forall in aA. destruct (aA r Hr). specialize (Hh r Hr). split; lra.
Qed.

(* the ACK wire: the entry taken off is replaced by entries of the same role, the store is untouched *)
Lemma WA_0 tau a rest ag' news w :
  WA lc tau (a :: rest) w -> AddsT rest ag' news ->
  ncount is_holdA news = b2n (is_holdA (ae_ev a)) -> ncount is_initA news = b2n (is_initA (ae_ev a)) ->
  (is_putA (ae_ev a) = true -> wa_waiting w = false) ->
  (forall x c, In x news -> ackct (snd x) = Some c -> ackct (ae_ev a) = Some c) -> WA lc tau ag' w.
Proof.
  intros [cA aA sA hA] HA C1 C2 Hp Hheld. constructor; auto; [eapply Ctl_same; eauto|].
  intros b c Hb Hc. destruct (AddsT_In_iff _ _ _ HA b Hb) as [Hold|Hnew].
  - apply (hA b c); [right; exact Hold|exact Hc].
  - apply (hA a c); [left; reflexivity|]. apply (Hheld _ _ Hnew). exact Hc.
Qed.

(* the sink appends an ACK created now, with a put callback *)
Lemma WA_1 tau a rest ag' news w r :
  WA lc tau (a :: rest) w -> AddsT rest ag' news -> a_ct r = tau ->
  is_holdA (ae_ev a) = false -> is_initA (ae_ev a) = false -> is_putA (ae_ev a) = false ->
  ncount is_holdA news = O -> ncount is_initA news = O -> (1 <= ncount is_putA news)%nat ->
  (forall x, In x news -> ackct (snd x) = None) ->
  (forall b c, In b rest -> ackct (ae_ev b) = Some c -> (c <= tau)%Q) ->
  WA lc tau ag' (mkwa (wa_items w ++ [r]) (wa_waiting w)).
Proof.
  intros [cA aA sA hA] HA Er E1 E2 E3 C1 C2 C3 Hnone Hc. constructor; cbn [wa_items wa_waiting].
  - eapply Ctl_put; eauto.
  - apply Forall_app. split; [exact aA|]. constructor; [|constructor]. rewrite Er. split; lra.
  - rewrite map_app. cbn [map]. apply sortedQ_app; [exact sA|]. apply Forall_forall. intros y Hy.
    apply in_map_iff in Hy as (x & <- & Hx). rewrite Forall_forall in aA. destruct (aA x Hx). rewrite Er. lra.
  - intros b c Hb Hbc. destruct (AddsT_In_iff _ _ _ HA b Hb) as [Hold|Hnew].
    + apply Forall_app. split; [apply (hA b c); [right; exact Hold|exact Hbc]|]. constructor; [|constructor].
      rewrite Er. eapply Hc; eauto.
    + pose proof (Hnone _ Hnew) as Hx. cbn [snd] in Hx. congruence.
Qed.

Lemma sortedQ_map_head x l : sortedQ (map a_ct (x :: l)) -> Forall (fun r => (a_ct x <= a_ct r)%Q) l /\ sortedQ (map a_ct l).
Proof.
  cbn [map sortedQ]. intros [H1 H2]. split; [|exact H2]. apply Forall_forall. intros r Hr. rewrite Forall_forall in H1. apply H1. apply in_map. exact Hr.
Qed.

(* the ACK wire's process asks its store for the next packet *)
Lemma WA_2 tau a rest ag' n0 w :
  WA lc tau (a :: rest) w -> AddsT rest ag' (n0 ++ fst (getA_eff tau w)) ->
  ncount is_holdA n0 = O -> ncount is_initA n0 = O -> (forall x, In x n0 -> ackct (snd x) = None) ->
  (is_initA (ae_ev a) = true \/ (is_putA (ae_ev a) = true /\ wa_waiting w = true) \/ is_holdA (ae_ev a) = true) ->
  WA lc tau ag' (snd (getA_eff tau w)).
Proof.
  intros [cA aA sA hA] HA C1 C2 Hnone Hrole. destruct (Ctl_rest _ _ _ _ _ _ _ cA Hrole) as [Z1 _].
  assert (NoOld : forall b c, In b rest -> ackct (ae_ev b) = Some c -> False).
  { intros b c Hb Hc. apply ackct_hold in Hc. pose proof (acount_zero _ _ Z1 b Hb). congruence. }
  constructor.
  - apply (Ctl_get _ _ _ _ _ _ _ _ cA n0 _ _ _ HA C1 C2 Hrole).
    unfold getA_eff. destruct (wa_items w); cbn [fst snd wa_items wa_waiting]; [left; repeat split; auto|right; repeat split; reflexivity].
  - unfold getA_eff. destruct (wa_items w); cbn [snd wa_items]; [constructor|inversion aA; assumption].
  - unfold getA_eff. destruct (wa_items w); cbn [snd wa_items]; [exact I|apply (sortedQ_map_head _ _ sA)].
  - unfold getA_eff in *. destruct (wa_items w) as [|x l]; cbn [fst snd wa_items] in *; [constructor|].
    intros b c Hb Hc. destruct (AddsT_In_iff _ _ _ HA b Hb) as [Hold|Hnew]; [exfalso; eapply NoOld; eauto|].
    apply in_app_or in Hnew as [Hnew|[Hnew|[]]]; [pose proof (Hnone _ Hnew) as Hx; cbn [snd] in Hx; congruence|].
    injection Hnew as Ht Hev. rewrite <- Hev in Hc. cbn [ackct] in Hc. injection Hc as <-. exact (proj1 (sortedQ_map_head _ _ sA)).
Qed.

Lemma ent_adv now tau a rest :
  Forall (fun b => entry_w lc now (ae_time b) (ae_ev b)) (a :: rest) -> (now <= tau)%Q ->
  (forall b, In b rest -> (tau <= ae_time b)%Q) -> Forall (fun b => entry_w lc tau (ae_time b) (ae_ev b)) rest.
Proof.
  intros He Hn Hr. inversion He as [|? ? _ Hrest]; subst. apply Forall_forall. intros b Hb.
  rewrite Forall_forall in Hrest. apply (entry_w_mono lc now); auto.
Qed.

Lemma nq_le tau : (nq tau <= tau)%Q.
Proof. rewrite nq_eq. apply Qle_refl. Qed.

Lemma sender_news tau o n1 nw kp k s s' e x :
  oeff lc tau n1 o = (nw, kp, k) -> In x (nw ++ extra_news tau s s' e) ->
  dataid_of (snd x) = None /\ ackno_of (snd x) = None /\ ackct (snd x) = None /\ entry_w lc tau (fst x) (snd x).
Proof.
  intros Ho Hx. destruct (oeff_kinds lc tau o n1 nw kp k Ho) as [Hk _]. apply in_app_or in Hx as [Hx|Hx].
  - rewrite Forall_forall in Hk. destruct (Hk x Hx) as [->|[(id & ->)|(id & r & ->)]]; repeat split. apply nq_le.
  - apply extra_news_kind in Hx as [->| ->]; repeat split.
Qed.

Lemma getA_news_ent tau ag w : WA lc tau ag w -> Forall (fun x => entry_w lc tau (fst x) (snd x)) (fst (getA_eff tau w)).
Proof.
  intros W. unfold getA_eff. destruct (wa_items w) as [|x l] eqn:E; cbn [fst]; constructor; [|constructor].
  cbn [fst snd entry_w]. pose proof (wa_acks _ _ _ _ W) as Ha. rewrite E in Ha. inversion Ha as [|? ? [A1 A2] _]; subst.
  split; [apply nq_le|]. split; assumption.
Qed.

Lemma getD_news_ent tau w : Forall (fun x => entry_w lc tau (fst x) (snd x)) (fst (getD_eff tau w)).
Proof. unfold getD_eff. destruct (wd_items w); cbn [fst]; constructor; [|constructor]. cbn [fst snd entry_w]. apply nq_le. Qed.

Lemma getD_news_counts tau w p : p = is_holdA \/ p = is_initA \/ p = is_putA -> ncount p (fst (getD_eff tau w)) = O.
Proof. unfold getD_eff. destruct (wd_items w); cbn [fst]; [reflexivity|]. intros [->|[->| ->]]; reflexivity. Qed.

Lemma getA_news_counts tau w p : p = is_holdD \/ p = is_initD \/ p = is_putD -> ncount p (fst (getA_eff tau w)) = O.
Proof. unfold getA_eff. destruct (wa_items w); cbn [fst]; [reflexivity|]. intros [->|[->| ->]]; reflexivity. Qed.

Lemma ncount_ge1 p news x : In x news -> p (snd x) = true -> (1 <= ncount p news)%nat.
Proof. intros Hx Hp. apply (filter_ge1 (fun x => p (snd x)) news x Hx Hp). Qed.

Lemma wire_pred_holdD : wire_pred is_holdD. Proof. repeat split. Qed.
Lemma wire_pred_initD : wire_pred is_initD. Proof. repeat split. Qed.
Lemma wire_pred_holdA : wire_pred is_holdA. Proof. repeat split. Qed.
Lemma wire_pred_initA : wire_pred is_initA. Proof. repeat split. Qed.
Lemma wire_pred_putA : wire_pred is_putA. Proof. repeat split. Qed.

Lemma ev_sender_roles st tau ev e isack : ev_sender lc st tau ev e isack ->
  is_holdD ev = false /\ is_initD ev = false /\ is_putD ev = false /\ is_initA ev = false /\ is_putA ev = false /\
  is_holdA ev = isack.
Proof. destruct 1; repeat split. Qed.

Lemma Wst_mono now tau w : (now <= tau)%Q -> Wst now w -> Wst tau w.
Proof. intros H [A B]. split; [lra|]. eapply Forall_impl; [|exact B]. intros t Ht. cbn beta in Ht. lra. Qed.

Lemma Wst_app tau w kp : Wst tau w -> Wst tau (wd_app w kp tau).
Proof.
  intros [A B]. split; [exact A|]. unfold wd_app. cbn [wd_stamps]. apply Forall_app. split; [exact B|].
  apply Forall_forall. intros t Ht. apply in_map_iff in Ht as (j & <- & _). apply Qle_refl.
Qed.

Lemma Wst_get tau w : (0 <= tau)%Q -> Wst tau w -> Wst tau (snd (getD_eff tau w)).
Proof.
  intros H0 [A B]. unfold getD_eff. destruct (wd_items w); cbn [snd]; [split; assumption|].
  destruct (wd_stamps w) as [|t0 l0]; cbn [hd tl wd_entered wd_stamps]; [split; [exact H0|constructor]|].
  inversion B; subst. split; assumption.
Qed.

Lemma wlen_app w kp t : length (wd_stamps w) = length (wd_items w) -> length (wd_stamps (wd_app w kp t)) = length (wd_items (wd_app w kp t)).
Proof. intros H. unfold wd_app. cbn [wd_stamps wd_items]. rewrite !app_length, map_length, H. reflexivity. Qed.

Lemma wlen_get tau w : length (wd_stamps w) = length (wd_items w) ->
  length (wd_stamps (snd (getD_eff tau w))) = length (wd_items (snd (getD_eff tau w))) /\
  (wd_items w <> [] -> wd_stamps w <> []).
Proof.
  intros H. unfold getD_eff. destruct (wd_items w) as [|x r]; cbn [snd wd_stamps wd_items]; [split; [exact H|intros C; contradiction]|].
  destruct (wd_stamps w) as [|t0 l0]; cbn [length tl] in *; [discriminate|]. split; [lia|discriminate].
Qed.

(* THE TIMING / CONTROL INVARIANT IS PRESERVED by every agenda step *)
Lemma LInvW_step st a rest st' :
  LInvA lc st None -> LInvW lc st -> l_agenda st = a :: rest -> Tr lc st a rest st' -> LInvW lc st'.
Proof.
  intros HA W E HT. destruct (la_T _ _ _ HA) as [Ts Tf _ _ _ _ _]. rewrite E in Ts, Tf.
  assert (Hn : (l_now st <= ae_time a)%Q) by (inversion Tf; assumption).
  assert (Hrest : forall b, In b rest -> (ae_time a <= ae_time b)%Q) by (intros b Hb; eapply asorted_head; eauto).
  assert (Hall : forall b, In b (a :: rest) -> (ae_time a <= ae_time b)%Q) by (intros b [<-|Hb]; [apply Qle_refl|auto]).
  destruct W as [W0 We WDs WAs Wst0 Wlen0]. rewrite E in We, WDs, WAs.
  assert (H0 : (0 <= ae_time a)%Q) by lra.
  assert (WstT : Wst (ae_time a) (l_wd st)) by exact (Wst_mono _ _ _ Hn Wst0).
  assert (EntR : Forall (fun b => entry_w lc (ae_time a) (ae_time b) (ae_ev b)) rest) by exact (ent_adv _ _ _ _ We Hn Hrest).
  assert (WAt : WA lc (ae_time a) (a :: rest) (l_wa st)).
  { eapply WA_adv; [exact WAs|exact Hn|]. intros r Hr. eapply head_time_acks; eauto. }
  assert (HeldLe : forall b c, In b rest -> ackct (ae_ev b) = Some c -> (c <= ae_time a)%Q).
  { intros b c Hb Hc. rewrite Forall_forall in We. specialize (We b (or_intror Hb)).
    destruct (ae_ev b); cbn [ackct] in Hc; try discriminate; injection Hc as <-; cbn [entry_w] in We; lra. }
  Tr_cases HT.
  - (* a sender event *)
    destruct (ev_sender_roles _ _ _ _ _ Hev) as (R1 & R2 & R3 & R4 & R5 & R6).
    assert (Ent1 : Forall (fun x => entry_w lc (ae_time a) (fst x) (snd x)) (nw ++ extra_news (ae_time a) (l_snd st) s' e)).
    { apply Forall_forall. intros x Hx. apply (sender_news _ _ _ _ _ _ _ _ _ x Ho Hx). }
    assert (Cn : forall p, wire_pred p -> p (AWirePutCb false) = false -> ncount p (nw ++ extra_news (ae_time a) (l_snd st) s' e) = O).
    { intros p Hp Hf. exact (ncount_sender_news lc p _ _ _ _ _ _ _ _ _ Hp Hf Ho). }
    assert (CnA : forall p, p = is_holdD \/ p = is_initD \/ p = is_putD -> ncount p nwa = O).
    { intros p Hp. destruct isack; destruct Hif as [-> _]; [apply getA_news_counts; exact Hp|reflexivity]. }
    assert (EntA : Forall (fun x => entry_w lc (ae_time a) (fst x) (snd x)) nwa).
    { destruct isack; destruct Hif as [-> _]; [eapply getA_news_ent; eauto|constructor]. }
    constructor; rewrite ?Hnow.
    + exact H0.
    + eapply AddsT_ent; [exact HA'|exact EntR|]. apply Forall_app. split; assumption.
    + rewrite Hwd. eapply (Ctl_put _ _ _ _ _ _ _ _ WDs); [exact HA'|exact R1|exact R2|exact R3| | |].
      * rewrite ncount_app, (Cn _ wire_pred_holdD eq_refl), (CnA _ (or_introl eq_refl)). reflexivity.
      * rewrite ncount_app, (Cn _ wire_pred_initD eq_refl), (CnA _ (or_intror (or_introl eq_refl))). reflexivity.
      * unfold wd_app. cbn [wd_items]. intros Hne. destruct (wd_items (l_wd st)); [right|left; discriminate].
        destruct (oeff_kinds lc _ _ _ _ _ _ Ho) as [_ Hin]. specialize (Hin Hne).
        eapply ncount_ge1; [apply in_or_app; left; apply in_or_app; left; exact Hin|reflexivity].
    + destruct isack; destruct Hif as [-> ->].
      * eapply WA_2; [exact WAt|exact HA'| | | |right; right; exact R6].
        -- apply (Cn _ wire_pred_holdA eq_refl).
        -- apply (Cn _ wire_pred_initA eq_refl).
        -- intros x Hx. apply (sender_news _ _ _ _ _ _ _ _ _ x Ho Hx).
      * eapply WA_0; [exact WAt|exact HA'| | | |].
        -- rewrite app_nil_r, (Cn _ wire_pred_holdA eq_refl), R6. reflexivity.
        -- rewrite app_nil_r, (Cn _ wire_pred_initA eq_refl), R4. reflexivity.
        -- rewrite R5. discriminate.
        -- intros x c Hx Hc. rewrite app_nil_r in Hx. destruct (sender_news _ _ _ _ _ _ _ _ _ x Ho Hx) as (_ & _ & C & _). congruence.
    + rewrite Hwd. apply Wst_app. exact WstT.
    + rewrite Hwd. apply wlen_app. exact Wlen0.
  - destruct Hk as [k1 k2 k3 k4 k5 k6 k7]. unfold popped in *; lproj.
    Quiet_cases Hq.
    + (* Timer Initialize of an armed timer *)
      constructor; rewrite ?k1, ?k4, ?Hwd, ?Hwa; auto.
      * eapply AddsT_ent; [exact HA'|exact EntR|]. constructor; [exact I|constructor].
      * eapply (Ctl_same _ _ _ _ _ _ _ _ WDs); [exact HA'| | |]; rewrite Hev; cbn; try reflexivity. discriminate.
      * eapply WA_0; [exact WAt|exact HA'| | | |]; rewrite Hev; cbn; try reflexivity; try discriminate.
        intros x c [<-|[]]; discriminate.
    + (* nothing to do *)
      constructor; rewrite ?k1, ?k4, ?Hwd, ?Hwa; auto.
      * eapply AddsT_ent; [exact HA'|exact EntR|constructor].
      * eapply (Ctl_same _ _ _ _ _ _ _ _ WDs); [exact HA'| | |]; destruct (ae_ev a) as [| | | | |[]| | | |]; cbn in *; try reflexivity; try discriminate; try contradiction; auto.
      * eapply WA_0; [exact WAt|exact HA'| | | |]; try (intros x c []);
          destruct (ae_ev a) as [| | | | |[]| | | |]; cbn in *; try reflexivity; try discriminate; try contradiction; auto.
    + (* the data wire asks its store *)
      constructor; rewrite ?k1, ?k4, ?Hwd, ?Hwa; auto.
      * eapply AddsT_ent; [exact HA'|exact EntR|apply getD_news_ent].
      * eapply (WD_2 (ae_time a) a rest _ []); [exact WDs|exact HA'|reflexivity|reflexivity|].
        destruct Hev as [->|[-> Hw]]; [left; reflexivity|right; left; split; [reflexivity|exact Hw]].
      * eapply WA_0; [exact WAt|exact HA'| | | |].
        -- rewrite getD_news_counts by auto. destruct Hev as [->|[-> _]]; reflexivity.
        -- rewrite getD_news_counts by auto. destruct Hev as [->|[-> _]]; reflexivity.
        -- destruct Hev as [->|[-> _]]; discriminate.
        -- intros x c Hx Hc. exfalso. unfold getD_eff in Hx. destruct (wd_items (l_wd st)); cbn [fst] in Hx; [destruct Hx|].
          destruct Hx as [<-|[]]. discriminate.
      * apply Wst_get; assumption.
      * apply wlen_get. exact Wlen0.
    + (* the ACK wire asks its store *)
      constructor; rewrite ?k1, ?k4, ?Hwd, ?Hwa; auto.
      * eapply AddsT_ent; [exact HA'|exact EntR|eapply getA_news_ent; eauto].
      * eapply (Ctl_same _ _ _ _ _ _ _ _ WDs); [exact HA'| | |].
        -- rewrite getA_news_counts by auto. destruct Hev as [->|[-> _]]; reflexivity.
        -- rewrite getA_news_counts by auto. destruct Hev as [->|[-> _]]; reflexivity.
        -- destruct Hev as [->|[-> _]]; discriminate.
      * eapply (WA_2 (ae_time a) a rest _ []); [exact WAt|exact HA'|reflexivity|reflexivity|intros x []|].
        destruct Hev as [->|[-> Hw]]; [left; reflexivity|right; left; split; [reflexivity|exact Hw]].
    + (* a data packet starts its propagation delay *)
      constructor; rewrite ?k1, ?k4, ?Hwd, ?Hwa; auto.
      * eapply AddsT_ent; [exact HA'|exact EntR|]. constructor; [|constructor]. cbn [fst snd entry_w].
        rewrite nq_eq. destruct WstT as [Hc _]. lra.
      * eapply (Ctl_same _ _ _ _ _ _ _ _ WDs); [exact HA'| | |]; rewrite Hev; cbn; try reflexivity. discriminate.
      * eapply WA_0; [exact WAt|exact HA'| | | |]; rewrite Hev; cbn; try reflexivity; try discriminate.
        intros x c [<-|[]]; discriminate.
    + (* an ACK starts its propagation delay *)
      assert (Ea : entry_w lc (l_now st) (ae_time a) (ae_ev a)) by (inversion We; assumption). rewrite Hev in Ea. cbn [entry_w] in Ea.
      constructor; rewrite ?k1, ?k4, ?Hwd, ?Hwa; auto.
      * eapply AddsT_ent; [exact HA'|exact EntR|]. constructor; [|constructor]. cbn [fst snd entry_w].
        rewrite nq_eq. split; lra.
      * eapply (Ctl_same _ _ _ _ _ _ _ _ WDs); [exact HA'| | |]; rewrite Hev; cbn; try reflexivity. discriminate.
      * eapply WA_0; [exact WAt|exact HA'| | | |]; rewrite Hev; cbn; try reflexivity; try discriminate.
        intros x c [<-|[]] Hc; exact Hc.
  - (* a data packet reaches the sink *)
    assert (Ra : is_holdD (ae_ev a) = true /\ is_holdA (ae_ev a) = false /\ is_initA (ae_ev a) = false /\ is_putA (ae_ev a) = false).
    { destruct Hev as [->|[-> _]]; repeat split. }
    destruct Ra as (R1 & R2 & R3 & R4).
    constructor; rewrite ?Hnow, ?Hpkt; auto.
    + destruct (droppedA lc (l_n2 st)); destruct Hif as [_ HA'].
      * eapply AddsT_ent; [exact HA'|exact EntR|apply getD_news_ent].
      * eapply AddsT_ent; [exact HA'|exact EntR|]. constructor; [cbn [fst snd entry_w]; apply nq_le|apply getD_news_ent].
    + rewrite Hwd. destruct (droppedA lc (l_n2 st)); destruct Hif as [_ HA'].
      * eapply (WD_2 (ae_time a) a rest _ []); [exact WDs|exact HA'|reflexivity|reflexivity|right; right; exact R1].
      * eapply (WD_2 (ae_time a) a rest _ [(nq (ae_time a), AWirePutCb true)]); [exact WDs|exact HA'|reflexivity|reflexivity|right; right; exact R1].
    + destruct (droppedA lc (l_n2 st)); destruct Hif as [Hwa HA']; rewrite Hwa.
      * eapply WA_0; [exact WAt|exact HA'| | | |].
        -- rewrite getD_news_counts by auto. rewrite R2. reflexivity.
        -- rewrite getD_news_counts by auto. rewrite R3. reflexivity.
        -- rewrite R4. discriminate.
        -- intros x c Hx Hc. exfalso. unfold getD_eff in Hx. destruct (wd_items (l_wd st)); cbn [fst] in Hx; [destruct Hx|].
           destruct Hx as [<-|[]]. discriminate.
      * eapply WA_1; [exact WAt|exact HA'|reflexivity|exact R2|exact R3|exact R4| | | | |exact HeldLe].
        -- rewrite ncount_cons, getD_news_counts by auto. reflexivity.
        -- rewrite ncount_cons, getD_news_counts by auto. reflexivity.
        -- rewrite ncount_cons. cbn [snd is_putA b2n]. lia.
        -- intros x [<-|Hx]; [reflexivity|]. unfold getD_eff in Hx. destruct (wd_items (l_wd st)); cbn [fst] in Hx; [destruct Hx|].
           destruct Hx as [<-|[]]. reflexivity.
    + rewrite Hwd. apply Wst_get; assumption.
    + rewrite Hwd. apply wlen_get. exact Wlen0.
Qed.
End Wstep.

Lemma linit_W lc cw ss rtt0 orc : LInvW lc (linit cw ss rtt0 orc).
Proof.
  unfold linit. constructor; lproj.
  - apply Qle_refl.
  - repeat constructor; cbn; apply Qle_refl.
  - constructor; cbn; [reflexivity|]. intros _ H. contradiction.
  - constructor; cbn; auto. constructor; cbn; [reflexivity|intros _ H; contradiction].
  - split; [apply Qle_refl|constructor].
  - reflexivity.
Qed.

Lemma reach_W lc cw ss rtt0 orc st :
  lc_ok lc -> (zq (mss (lc_cfg lc)) <= cw)%Q -> (0 < rtt0)%Q ->
  lreach lc (linit cw ss rtt0 orc) st -> LInvW lc st.
Proof.
  intros Hok Hc Hr. induction 1 as [|st st' Hreach IH Hstep]; [apply linit_W|].
  pose proof (reach_A lc cw ss rtt0 orc st Hok Hc Hr Hreach) as HA.
  pose proof Hstep as Hs. unfold lstep in Hs. destruct (l_agenda st) as [|a rest] eqn:E; [discriminate|]. clear Hs.
  eapply LInvW_step; eauto; [exact (ok_delay _ Hok)|]. eapply lstep_Tr; eauto. exact (ok_fx _ Hok).
Qed.
