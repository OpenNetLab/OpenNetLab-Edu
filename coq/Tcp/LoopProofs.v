(* Proofs about the repaired sender inside the closed loop of Tcp/Loop.v (C16, sender clauses).
   Part 1: the sender alone never raises (every dictionary lookup hits), for all event histories.
   Part 2: agenda lemmas.   Part 3: what each piece of the loop changes; the loop never raises.
   Part 4: last_ack <= contiguous prefix at the sink <= next_seq; last_ack monotone.
   Part 5: an unfinished transfer always has pending work. *)
From Coq Require Import ZArith QArith Qabs Qround Qminmax List Bool Lia Lqa Arith.
From ONL Require Import Tcp.Sink Tcp.SinkProofs Tcp.Sender Tcp.SenderProofs Tcp.Loop.
Import ListNotations.
Open Scope Z_scope.

Definition repaired : fixes := mkfx true true true.

(* ================================================================================================ *)
(* Part 1: the sender alone *)

Definition keys (t : list (Z * Q)) : list Z := map fst t.

Record SInv (c : config) (s : sender) : Prop := {
  si_win : win_inv c s;
  si_keys : keys (timers s) = sent s;
  si_nodup : NoDup (sent s);
  si_below : Forall (fun i => i < next_seq s) (sent s);
  si_rto : (0 < rto s)%Q;
  si_srtt : (0 < srtt s)%Q;
  si_rttvar : (0 <= rttvar s)%Q;
  si_armed : Forall (fun p => (0 < snd p)%Q) (timers s);
  si_wake : wake s = true -> finished s = false /\ waiting s = false;
  si_waiting : waiting s = true -> finished s = false
}.

Lemma in_sent_In id l : in_sent id l = true <-> In id l.
Proof.
  unfold in_sent. rewrite existsb_exists. split.
  - intros (x & Hx & E). apply Z.eqb_eq in E. subst. exact Hx.
  - intros H. exists id. split; [exact H|apply Z.eqb_refl].
Qed.

Lemma has_timer_In id t : has_timer id t = true <-> In id (keys t).
Proof.
  induction t as [|[k r] t IH]; cbn [has_timer keys map In fst].
  - split; [discriminate|tauto].
  - rewrite orb_true_iff, IH, Z.eqb_eq. tauto.
Qed.

Definition mem (k : Z) (l : list Z) : bool := existsb (Z.eqb k) l.

Lemma filter_all_true {A : Type} (f : A -> bool) (l : list A) : (forall x, f x = true) -> filter f l = l.
Proof. intros H. induction l as [|x l IH]; cbn [filter]; [reflexivity|]. rewrite H, IH. reflexivity. Qed.

Lemma filter_twice {A : Type} (f g : A -> bool) (l : list A) : filter f (filter g l) = filter (fun x => g x && f x) l.
Proof.
  induction l as [|x l IH]; cbn [filter]; [reflexivity|].
  destruct (g x); cbn [filter andb]; [destruct (f x)|]; rewrite IH; reflexivity.
Qed.

Lemma mem_In k l : mem k l = true <-> In k l.
Proof. apply in_sent_In. Qed.

Lemma stop_all_filter ids : forall t se acc t' se' o,
  stop_all ids t se acc = Some (t', se', o) ->
  t' = filter (fun p => negb (mem (fst p) ids)) t /\ se' = filter (fun k => negb (mem k ids)) se /\
  o = acc ++ map TStop ids.
Proof.
  induction ids as [|id r IH]; intros t se acc t' se' o; cbn [stop_all].
  - intros H; injection H as <- <- <-. cbn [mem existsb negb map]. rewrite !filter_all_true, app_nil_r by reflexivity. auto.
  - destruct (in_sent id se); [|discriminate]. intros H. apply IH in H as (A & B & C).
    split; [|split].
    + rewrite A. unfold del_timer. rewrite filter_twice. apply filter_ext. intros p. cbn [mem existsb].
      rewrite negb_orb. rewrite (Z.eqb_sym (fst p) id). reflexivity.
    + rewrite B. unfold del_sent. rewrite filter_twice. apply filter_ext. intros k. cbn [mem existsb].
      rewrite negb_orb. rewrite (Z.eqb_sym k id). reflexivity.
    + rewrite C. rewrite <- app_assoc. reflexivity.
Qed.

Lemma stop_all_succeeds ids : forall t se acc,
  NoDup ids -> (forall id, In id ids -> In id se) -> exists r, stop_all ids t se acc = Some r.
Proof.
  induction ids as [|id r IH]; intros t se acc Hnd Hin; cbn [stop_all]; [eauto|].
  assert (E : in_sent id se = true) by (apply in_sent_In, Hin; left; reflexivity). rewrite E.
  inversion Hnd as [|? ? Hni Hnd']; subst. apply IH; [exact Hnd'|].
  intros k Hk. unfold del_sent. apply filter_In. split; [apply Hin; right; exact Hk|].
  apply negb_true_iff, Z.eqb_neq. intros ->. contradiction.
Qed.

Lemma keys_filter (f : Z -> bool) t : keys (filter (fun p => f (fst p)) t) = filter f (keys t).
Proof.
  unfold keys. induction t as [|[k r] t IH]; cbn [filter map fst]; [reflexivity|].
  destruct (f k); cbn [map fst]; rewrite IH; reflexivity.
Qed.

Lemma keys_rearm id r t : keys (rearm id r t) = keys t.
Proof.
  unfold keys. induction t as [|[k x] t IH]; cbn [rearm map fst]; [reflexivity|].
  destruct (k =? id); cbn [map fst]; [reflexivity|rewrite IH; reflexivity].
Qed.

Lemma rearm_armed id r t : (0 < r)%Q -> Forall (fun p => (0 < snd p)%Q) t -> Forall (fun p => (0 < snd p)%Q) (rearm id r t).
Proof.
  intros Hr. induction 1 as [|[k x] t Hx Ht IH]; cbn [rearm]; [constructor|].
  destruct (k =? id); constructor; auto.
Qed.

(* ---- the shape of each sender transition ---- *)

Definition new_ack_post (fx : fixes) (c : config) (s s' : sender) (ackno pid : Z) (sample : Q) (outs : list out) : Prop :=
  let ids := acked_ids fx c s ackno pid in
  ackno <> last_ack s /\ last_ack s' = ackno /\ dupack s' = 0 /\
  timers s' = filter (fun p => negb (mem (fst p) ids)) (timers s) /\
  sent s' = filter (fun k => negb (mem k ids)) (sent s) /\
  outs = map TStop ids /\
  srtt s' = (srtt s + (1 # 8) * (sample - srtt s))%Q /\
  rttvar s' = (rttvar s + (1 # 4) * (Qabs (sample - srtt s) - rttvar s))%Q /\
  rto s' = (srtt s' + (4 # 1) * rttvar s')%Q /\
  tokens s' = S (tokens s) /\ pend s' = S (pend s).

Definition dup_ack_post (c : config) (s s' : sender) (ackno : Z) (outs : list out) : Prop :=
  ackno = last_ack s /\ last_ack s' = last_ack s /\ dupack s' = dupack s + 1 /\
  timers s' = timers s /\ sent s' = sent s /\ srtt s' = srtt s /\ rttvar s' = rttvar s /\ rto s' = rto s /\
  tokens s' = tokens s /\ pend s' = pend s /\
  (outs = [] \/ (outs = [Tx ackno (mss c)] /\ In ackno (sent s) /\ 3 <= dupack s')).

Lemma on_ack_shape fx c s ackno pid sample o s' outs :
  0 <= dupack s ->
  on_ack fx c s ackno pid sample o = Ok s' outs ->
  next_seq s' = next_seq s /\ send_buffer s' = send_buffer s /\ wake s' = wake s /\ waiting s' = waiting s /\
  finished s' = finished s /\
  (dup_ack_post c s s' ackno outs \/ new_ack_post fx c s s' ackno pid sample outs).
Proof.
  intros Hd. rewrite on_ack_cases by exact Hd. destruct (Z.eqb_spec ackno (last_ack s)) as [Ea|Ea].
  - destruct (Z.ltb_spec (dupack s + 1) 3) as [H3|H3].
    + intros [= <- <-]. proj. repeat split; try reflexivity. left. unfold dup_ack_post; proj. repeat split; auto.
    + cbv zeta. set (s2 := dup_state c s).
      assert (E2 : next_seq s2 = next_seq s /\ send_buffer s2 = send_buffer s /\ wake s2 = wake s /\ waiting s2 = waiting s /\
                   finished s2 = finished s /\ last_ack s2 = last_ack s /\ dupack s2 = dupack s + 1 /\ timers s2 = timers s /\
                   sent s2 = sent s /\ srtt s2 = srtt s /\ rttvar s2 = rttvar s /\ rto s2 = rto s /\ tokens s2 = tokens s /\
                   pend s2 = pend s)
        by (unfold s2, dup_state; destruct (dupack s =? 2); proj; repeat split; reflexivity).
      destruct E2 as (A1 & A2 & A3 & A4 & A5 & A6 & A7 & A8 & A9 & A10 & A11 & A12 & A13 & A14).
      assert (P : forall o2, (o2 = [] \/ (o2 = [Tx ackno (mss c)] /\ In ackno (sent s))) ->
                             dup_ack_post c s s2 ackno o2).
      { intros o2 Ho. unfold dup_ack_post. repeat split; auto. destruct Ho as [->|[-> Hi]]; [left; reflexivity|right]. repeat split; auto. lia. }
      destruct (_ || _); [unfold resend; rewrite A9; destruct (in_sent ackno (sent s)) eqn:Ei; [|destruct (fx_guard_resend fx); [|discriminate]]|];
        intros [= <- <-]; repeat split; auto; left; apply P; auto.
      right. split; [reflexivity|apply in_sent_In, Ei].
  - destruct (cc_ack _ _ _ _ _ _) as [[[cw ccnt] cn]|]; [|discriminate]. cbv zeta.
    destruct (stop_all _ _ _ _) as [[[t se] oo]|] eqn:Est; [|discriminate]. apply stop_all_filter in Est as (A & B & C).
    intros [= <- <-]. unfold new_ack_state; proj. repeat split; try reflexivity. right. unfold new_ack_post; proj.
    repeat split; auto.
Qed.

Lemma on_timer_shape fx c s id s' outs :
  on_timer fx c s id = Ok s' outs ->
  In id (keys (timers s)) /\
  s' = mkst (next_seq s) (send_buffer s) (last_ack s) (dupack s) (zq (mss c)) (ssthresh s)
            (srtt s) (rttvar s) (rto s * (2 # 1))%Q (cwnd_cnt s) (cnt s)
            (rearm id (rto s * (2 # 1))%Q (timers s)) (sent s)
            (tokens s) (pend s) (waiting s) (wake s) (finished s) /\
  (outs = [TRestart id (rto s * (2 # 1))%Q] \/
   (outs = [Tx id (mss c); TRestart id (rto s * (2 # 1))%Q] /\ In id (sent s))).
Proof.
  unfold on_timer. destruct (has_timer id (timers s)) eqn:Eh; cbn [negb]; [|discriminate].
  apply has_timer_In in Eh. unfold resend. proj.
  destruct (in_sent id (sent s)) eqn:Es.
  - intros H; injection H as <- <-. split; [exact Eh|]. split; [reflexivity|]. right. split; [reflexivity|apply in_sent_In; exact Es].
  - destruct (fx_guard_resend fx); [|discriminate]. intros H; injection H as <- <-. split; [exact Eh|]. split; [reflexivity|]. left. reflexivity.
Qed.

Lemma on_storecb_shape s s' outs :
  on_storecb s = Ok s' outs ->
  outs = [] /\ exists p, pend s = S p /\
  ((waiting s = true /\ (0 < tokens s)%nat /\ s' = set_store s (Nat.pred (tokens s)) p false true) \/
   ((waiting s = false \/ tokens s = O) /\ s' = set_store s (tokens s) p (waiting s) (wake s))).
Proof.
  unfold on_storecb. destruct (pend s) as [|p]; [discriminate|].
  destruct (waiting s) eqn:Ew; [destruct (tokens s) as [|tk] eqn:Et|]; intros H; injection H as <- <-; split; try reflexivity; exists p; split; try reflexivity.
  - right. split; [right; reflexivity|reflexivity].
  - left. split; [reflexivity|]. split; [lia|reflexivity].
  - right. split; [left; reflexivity|reflexivity].
Qed.

Lemma seg_ids_In m id n i : In i (seg_ids m id n) -> exists k : nat, (k < n)%nat /\ i = id + Z.of_nat k * m.
Proof.
  revert id. induction n as [|n IH]; intros id; cbn [seg_ids In]; [tauto|].
  intros [<-|H].
  - exists O. split; [lia|]. cbn. lia.
  - apply IH in H as (k & Hk & ->). exists (S k). split; [lia|]. lia.
Qed.

Lemma seg_ids_NoDup m id n : 0 < m -> NoDup (seg_ids m id n).
Proof.
  intros Hm. revert id. induction n as [|n IH]; intros id; cbn [seg_ids]; constructor; [|apply IH].
  intros H. apply seg_ids_In in H as (k & _ & E). nia.
Qed.

Lemma NoDup_app_intro {A : Type} (a b : list A) :
  NoDup a -> NoDup b -> (forall x, In x a -> In x b -> False) -> NoDup (a ++ b).
Proof.
  induction a as [|x a IH]; intros Ha Hb Hd; cbn [app]; [exact Hb|].
  inversion Ha as [|? ? Hx Ha']; subst. constructor.
  - intros H. apply in_app_or in H as [H|H]; [contradiction|]. apply (Hd x); [left; reflexivity|exact H].
  - apply IH; auto. intros y Hy Hy'. apply (Hd y); [right; exact Hy|exact Hy'].
Qed.

Lemma keys_app a b : keys (a ++ b) = keys a ++ keys b.
Proof. unfold keys. apply map_app. Qed.

Lemma keys_map_pair (r : Q) l : keys (map (fun i => (i, r)) l) = l.
Proof. unfold keys. rewrite map_map. cbn [fst]. apply map_id. Qed.

(* ---- the invariant is preserved; nothing but NotEnabled can be raised ---- *)
Definition sample_ok (e : event) : Prop :=
  match e with EAck _ _ sample _ => (0 <= sample)%Q | _ => True end.

Lemma init_sinv c cw0 ss0 rtt0 : (zq (mss c) <= cw0)%Q -> (0 < rtt0)%Q -> SInv c (init cw0 ss0 rtt0).
Proof.
  intros Hc Hr. constructor; unfold init; proj.
  - apply init_win_inv. exact Hc.
  - reflexivity.
  - constructor.
  - constructor.
  - lra.
  - exact Hr.
  - lra.
  - constructor.
  - intros _. split; reflexivity.
  - discriminate.
Qed.

Lemma step_sinv c s e s' outs :
  0 < mss c -> SInv c s -> sample_ok e -> step repaired c s e = Ok s' outs -> SInv c s'.
Proof.
  intros Hm I Hs H.
  assert (W : win_inv c s') by (eapply step_win_inv; eauto; [reflexivity|apply I]).
  destruct I as [Iw Ik Ind Ib Ir Isr Irv Ia Iwk Iwt].
  destruct e as [ackno pid sample o|id| |]; cbn [step] in H.
  - (* ACK *)
    apply on_ack_shape in H; [|apply Iw]. destruct H as (N & B & Wk & Wt & F & [D|Nw]).
    + destruct D as (_ & _ & _ & T & S & SR & RV & R & _).
      constructor; rewrite ?T, ?S, ?SR, ?RV, ?R, ?N, ?Wk, ?Wt, ?F; auto.
    + destruct Nw as (_ & _ & _ & T & S & _ & SR & RV & R & _). cbn [sample_ok] in Hs.
      constructor; rewrite ?N, ?Wk, ?Wt, ?F; auto.
      * rewrite T, S. rewrite (keys_filter (fun k => negb (mem k (acked_ids repaired c s ackno pid)))). rewrite Ik. reflexivity.
      * rewrite S. apply NoDup_filter. exact Ind.
      * rewrite S. apply Forall_forall. intros i Hi. apply filter_In in Hi as [Hi _]. rewrite Forall_forall in Ib. auto.
      * rewrite R, SR, RV. pose proof (Qabs_nonneg (sample - srtt s)). lra.
      * rewrite SR. lra.
      * rewrite RV. pose proof (Qabs_nonneg (sample - srtt s)). lra.
      * rewrite T. apply Forall_forall. intros p Hp. apply filter_In in Hp as [Hp _]. rewrite Forall_forall in Ia. auto.
  - (* expiry *)
    apply on_timer_shape in H as (_ & -> & _). constructor; proj; auto.
    + rewrite keys_rearm. exact Ik.
    + lra.
    + apply rearm_armed; [lra|exact Ia].
  - (* store callback *)
    apply on_storecb_shape in H as (_ & p & _ & [(Wt & _ & ->)|(_ & ->)]); constructor; proj; auto; try discriminate.
  - (* resumption *)
    pose proof H as H0. unfold on_wake in H0. destruct (wake s && negb (finished s)) eqn:Ew; [|discriminate].
    apply andb_true_iff in Ew as [Ew Ef]. apply negb_true_iff in Ef.
    apply send_loop_flags in H0 as (_ & Fl). proj.
    apply send_guard in H; [|exact Hm]. destruct H as (n & _ & Hns & Ht & Hse & _ & _ & _ & _ & _ & Hsr & Hrv & Hr & _). proj.
    constructor; auto.
    + rewrite Ht, Hse, keys_app, keys_map_pair, Ik. reflexivity.
    + rewrite Hse. apply NoDup_app_intro; [exact Ind|apply seg_ids_NoDup; exact Hm|].
      intros i Hi Hj. rewrite Forall_forall in Ib. specialize (Ib i Hi). apply seg_ids_In in Hj as (k & _ & ->). nia.
    + rewrite Hse, Hns. apply Forall_forall. intros i Hi. apply in_app_or in Hi as [Hi|Hi].
      * rewrite Forall_forall in Ib. specialize (Ib i Hi). nia.
      * apply seg_ids_In in Hi as (k & Hk & ->). nia.
    + rewrite Hr. exact Ir.
    + rewrite Hsr. exact Isr.
    + rewrite Hrv. exact Irv.
    + rewrite Ht. apply Forall_app. split; [exact Ia|]. apply Forall_forall. intros q Hq. apply in_map_iff in Hq as (i & <- & _). exact Ir.
    + intros Hw. destruct Fl as [(_ & Hw' & _)|(Hf & [(_ & Hwt & _)|(Hw' & _)])]; try congruence. split; [congruence|exact Hwt].
    + intros Hw. destruct Fl as [(_ & _ & Hw' & _)|(Hf & _)]; congruence.
Qed.

Lemma acked_ids_props c s ackno pid :
  keys (timers s) = sent s -> NoDup (sent s) ->
  NoDup (acked_ids repaired c s ackno pid) /\ (forall id, In id (acked_ids repaired c s ackno pid) -> In id (sent s)).
Proof.
  intros Hk Hn. unfold acked_ids, repaired; proj.
  change (map fst (filter (fun p => fst p + mss c <=? ackno) (timers s)))
    with (keys (filter (fun p => (fun k => k + mss c <=? ackno) (fst p)) (timers s))).
  rewrite keys_filter, Hk. split; [apply NoDup_filter; exact Hn|].
  intros id H. apply filter_In in H as [H _]. exact H.
Qed.

Lemma step_no_raise c s e x :
  0 < mss c -> SInv c s -> step repaired c s e = Raise x -> x = NotEnabled.
Proof.
  intros Hm I. destruct I as [Iw Ik Ind Ib Ir Isr Irv Ia Iwk Iwt]. destruct Iw as (Hcw & Hd & Hss).
  assert (Hp : (0 < zq (mss c))%Q) by (apply (zq_lt 0); exact Hm).
  destruct e as [ackno pid sample o|id| |]; cbn [step].
  - rewrite on_ack_cases by exact Hd. destruct (ackno =? last_ack s).
    + destruct (_ <? _); [discriminate|]. cbv zeta. destruct (_ || _); [|discriminate].
      unfold resend, repaired; proj. destruct (in_sent ackno _); discriminate.
    + destruct (cc_ack _ _ _ _ _ _) as [[[cw ccnt] cn]|] eqn:Ecc.
      * cbv zeta. destruct (acked_ids_props c s ackno pid Ik Ind) as [An Ai].
        destruct (stop_all_succeeds _ (timers s) (sent s) [] An Ai) as [[[t se] oo] Est]. rewrite Est. discriminate.
      * apply cc_ack_none in Ecc. pose proof (ack_cwnd_ge repaired c s ackno eq_refl Hm (conj Hcw (conj Hd Hss))). lra.
  - unfold on_timer. destruct (negb _); [intros H; injection H as <-; reflexivity|].
    unfold resend, repaired; proj. destruct (in_sent id (sent s)); discriminate.
  - unfold on_storecb. destruct (pend s); [intros H; injection H as <-; reflexivity|].
    destruct (waiting s); [destruct (tokens s)|]; discriminate.
  - intros H. pose proof (wake_never_out_of_fuel c s Hm) as NF.
    unfold on_wake in *. destruct (wake s && negb (finished s)); [|injection H as <-; reflexivity].
    pose proof H as H2. apply send_loop_raises in H2 as [->|[-> Hr]]; [exfalso; exact (NF H)|]. proj. lra.
Qed.

(* all histories with non-negative RTT samples: the repaired sender never raises; what remains is the
   model-level NotEnabled for an event that cannot occur in the state *)
Theorem sender_never_raises c cw0 ss0 rtt0 : 0 < mss c -> (zq (mss c) <= cw0)%Q -> (0 < rtt0)%Q ->
  forall evs x, Forall sample_ok evs -> run repaired c (init cw0 ss0 rtt0) evs = Raise x -> x = NotEnabled.
Proof.
  intros Hm Hc Hr evs. generalize (init_sinv c cw0 ss0 rtt0 Hc Hr). generalize (init cw0 ss0 rtt0) as s.
  induction evs as [|e evs IH]; intros s I x Hs; cbn [run]; [discriminate|].
  inversion Hs as [|? ? He Hs']; subst.
  destruct (step repaired c s e) as [s1 o1|y] eqn:E1.
  - destruct (run repaired c s1 evs) as [s2 o2|y] eqn:E2; [discriminate|].
    intros H; injection H as <-. eapply IH; [|exact Hs'|exact E2]. eapply step_sinv; eauto.
  - intros H; injection H as <-. eapply step_no_raise; eauto.
Qed.

(* before the repairs: the third duplicate of the final ACK raises KeyError (nothing in flight at next_seq) *)
Theorem sender_raises_before_fix :
  exists c evs, Forall sample_ok evs /\
    run (mkfx true false false) c (init (1024 # 1) (65535 # 1) (1 # 16)) evs = Raise (KeyErr 512).
Proof.
  exists (mkcfg 512 512 Reno),
    [EWake; EExpire 0; EExpire 0; EExpire 0; EAck 512 0 (5 # 8) 0; EStoreCb;
     EAck 512 0 (1 # 2) 0; EAck 512 0 1 0; EAck 512 0 1 0].
  split; [repeat constructor; cbn; unfold Qle; cbn; lia|vm_compute; reflexivity].
Qed.

(* ================================================================================================ *)
(* Part 2: the agenda *)

Definition acount (p : aev -> bool) (l : list aentry) : nat := length (filter (fun a => p (ae_ev a)) l).
Definition afuture (now : Q) (l : list aentry) : Prop := Forall (fun a => (now <= ae_time a)%Q) l.
Fixpoint asorted (l : list aentry) : Prop :=
  match l with [] => True | a :: t => Forall (fun b => (ae_time a <= ae_time b)%Q) t /\ asorted t end.

Lemma ainsert_In a e l : In a (ainsert e l) <-> a = e \/ In a l.
Proof.
  induction l as [|x t IH]; cbn [ainsert In].
  - split; [intros [H|[]]; auto|intros [H|[]]; auto].
  - destruct (ae_before e x); cbn [In]; [|rewrite IH]; intuition.
Qed.

Lemma ainsert_count p e l : acount p (ainsert e l) = ((if p (ae_ev e) then 1 else 0) + acount p l)%nat.
Proof.
  unfold acount. induction l as [|x t IH]; cbn [ainsert filter length].
  - destruct (p (ae_ev e)); reflexivity.
  - destruct (ae_before e x); cbn [filter].
    + destruct (p (ae_ev e)); destruct (p (ae_ev x)); cbn [length]; lia.
    + destruct (p (ae_ev x)); cbn [length]; rewrite IH; lia.
Qed.

Lemma ae_before_true a b : ae_before a b = true -> (ae_time a <= ae_time b)%Q.
Proof.
  unfold ae_before. intros H. apply orb_true_iff in H as [H|H].
  - apply Qltb_true in H. apply Qlt_le_weak, H.
  - apply andb_true_iff in H as [H _]. apply Qeq_bool_iff in H. rewrite H. apply Qle_refl.
Qed.

Lemma ae_before_false a b : ae_before a b = false -> (ae_time b <= ae_time a)%Q.
Proof.
  unfold ae_before. intros H. apply orb_false_iff in H as [H _]. apply Qltb_false in H. exact H.
Qed.

Lemma ainsert_sorted e l : asorted l -> asorted (ainsert e l).
Proof.
  induction l as [|x t IH]; cbn [ainsert asorted].
  - intros _. split; [constructor|exact I].
  - intros [Hx Ht]. destruct (ae_before e x) eqn:E; cbn [asorted].
    + apply ae_before_true in E. split; [|split; assumption].
      constructor; [exact E|]. eapply Forall_impl; [|exact Hx]. intros b Hb. cbn beta in *. eapply Qle_trans; eauto.
    + apply ae_before_false in E. split; [|apply IH; exact Ht].
      apply Forall_forall. intros b Hb. apply ainsert_In in Hb as [->|Hb]; [exact E|].
      rewrite Forall_forall in Hx. apply Hx, Hb.
Qed.

Lemma ainsert_future now e l : (now <= ae_time e)%Q -> afuture now l -> afuture now (ainsert e l).
Proof.
  intros He Hl. apply Forall_forall. intros a Ha. apply ainsert_In in Ha as [->|Ha]; [exact He|].
  unfold afuture in Hl. rewrite Forall_forall in Hl. auto.
Qed.

(* [Adds now ag ag' evs]: ag' is ag plus one entry for each event of evs, none due before now *)
Inductive Adds (now : Q) : list aentry -> list aentry -> list aev -> Prop :=
| adds_nil ag : Adds now ag ag []
| adds_cons ag ag' evs e t p k : Adds now ag ag' evs -> (now <= t)%Q -> Adds now ag (ainsert (mkae t p k e) ag') (evs ++ [e]).

Lemma Adds_trans now a b c e1 e2 : Adds now a b e1 -> Adds now b c e2 -> Adds now a c (e1 ++ e2).
Proof.
  intros H1 H2. induction H2 as [|ag ag' evs e t p k H IH Ht].
  - rewrite app_nil_r. exact H1.
  - rewrite app_assoc. constructor; auto.
Qed.

Lemma Adds_one now ag e t p k : (now <= t)%Q -> Adds now ag (ainsert (mkae t p k e) ag) [e].
Proof. intros H. apply (adds_cons now ag ag [] e t p k); [constructor|exact H]. Qed.

Definition ecount (p : aev -> bool) (l : list aev) : nat := length (filter p l).

Lemma ecount_app p a b : ecount p (a ++ b) = (ecount p a + ecount p b)%nat.
Proof. unfold ecount. rewrite filter_app, app_length. reflexivity. Qed.

Lemma Adds_count now ag ag' evs p : Adds now ag ag' evs -> acount p ag' = (ecount p evs + acount p ag)%nat.
Proof.
  induction 1 as [|ag ag' evs e t q k H IH Ht]; [reflexivity|].
  rewrite ainsert_count, IH, ecount_app. cbn [ae_ev].
  assert (E : ecount p [e] = if p e then 1%nat else 0%nat) by (unfold ecount; cbn [filter]; destruct (p e); reflexivity).
  rewrite E. destruct (p e); lia.
Qed.

Lemma Adds_In_old now ag ag' evs a : Adds now ag ag' evs -> In a ag -> In a ag'.
Proof. induction 1; [auto|]. intros Ha. apply ainsert_In. right. auto. Qed.

Lemma Adds_In_new now ag ag' evs a : Adds now ag ag' evs -> In a ag' -> In a ag \/ (In (ae_ev a) evs /\ (now <= ae_time a)%Q).
Proof.
  induction 1 as [|ag ag' evs e t q k H IH Ht]; [auto|]. intros Ha. apply ainsert_In in Ha as [->|Ha].
  - right. cbn [ae_ev ae_time]. split; [apply in_or_app; right; left; reflexivity|exact Ht].
  - destruct (IH Ha) as [?|[? ?]]; [left; assumption|right; split; [apply in_or_app; left; assumption|assumption]].
Qed.

Lemma Adds_has now ag ag' evs e : Adds now ag ag' evs -> In e evs -> exists a, In a ag' /\ ae_ev a = e.
Proof.
  induction 1 as [|ag ag' evs e' t q k H IH Ht]; [intros []|]. intros He. apply in_app_or in He as [He|[<-|[]]].
  - destruct (IH He) as (a & Ha & Ea). exists a. split; [apply ainsert_In; right; exact Ha|exact Ea].
  - exists (mkae t q k e'). split; [apply ainsert_In; left; reflexivity|reflexivity].
Qed.

Lemma Adds_sorted now ag ag' evs : Adds now ag ag' evs -> asorted ag -> asorted ag'.
Proof. induction 1; [auto|]. intros Hs. apply ainsert_sorted. auto. Qed.

Lemma Adds_future now ag ag' evs : Adds now ag ag' evs -> afuture now ag -> afuture now ag'.
Proof. induction 1; [auto|]. intros Hs. apply ainsert_future; auto. Qed.

Lemma nq_eq q : (nq q == q)%Q.
Proof. unfold nq. apply Qred_correct. Qed.

Lemma sched_Adds st t p e : (l_now st <= t)%Q -> Adds (l_now st) (l_agenda st) (l_agenda (sched st t p e)) [e].
Proof. intros H. unfold sched; cbn [l_agenda]. apply Adds_one. rewrite nq_eq. exact H. Qed.

(* ================================================================================================ *)
(* Part 3: what each piece of the loop changes *)

Ltac lproj :=
  cbn [l_now l_seq l_agenda l_snd l_sink l_pkt l_wd l_wa l_n1 l_n2 l_oracle l_slog l_d1 l_d2
       set_snd set_pkt set_wd set_wa sched wd_items wd_waiting wa_items wa_waiting] in *.

Lemma pkt_get_set id v m j : pkt_get j (pkt_set id v m) = if j =? id then Some v else pkt_get j m.
Proof.
  induction m as [|[k x] m IH]; cbn [pkt_set pkt_get].
  - rewrite (Z.eqb_sym id j). reflexivity.
  - destruct (k =? id) eqn:E; cbn [pkt_get].
    + apply Z.eqb_eq in E. subst k. rewrite (Z.eqb_sym id j). destruct (j =? id); reflexivity.
    + rewrite IH. destruct (k =? j) eqn:E2; [|reflexivity].
      apply Z.eqb_eq in E2. subst k. rewrite E. reflexivity.
Qed.

(* the components a piece of the loop leaves alone *)
Definition same_ends (st st' : lstate) : Prop :=
  l_now st' = l_now st /\ l_snd st' = l_snd st /\ l_sink st' = l_sink st /\ l_wa st' = l_wa st /\ l_oracle st' = l_oracle st.

Lemma same_ends_refl st : same_ends st st.
Proof. repeat split. Qed.

Lemma same_ends_trans a b c : same_ends a b -> same_ends b c -> same_ends a c.
Proof. intros (A1&A2&A3&A4&A5) (B1&B2&B3&B4&B5). repeat split; congruence. Qed.

Definition pkt_mono (now : Q) (o : list out) (m m' : list (Z * (Q * Q))) : Prop :=
  (forall j, pkt_get j m' = pkt_get j m \/ exists c z, In (Tx j z) o /\ pkt_get j m' = Some (now, c)) /\
  (forall j z, In (Tx j z) o -> exists c, pkt_get j m' = Some (now, c)).

Definition out_ev (o : list out) (e : aev) : Prop :=
  e = AWirePutCb false \/ (exists id r, e = ATimerInit id /\ In (TStart id r) o) \/
  (exists id r, e = ATimerFire id /\ In (TRestart id r) o).

Lemma tx_data_spec lc st id :
  let st' := tx_data lc st id in
  same_ends st st' /\
  (exists evs, Adds (l_now st) (l_agenda st) (l_agenda st') evs /\ (evs = [] \/ evs = [AWirePutCb false])) /\
  (exists l, wd_items (l_wd st') = wd_items (l_wd st) ++ l /\ (l = [] \/ l = [id])) /\
  wd_waiting (l_wd st') = wd_waiting (l_wd st) /\
  (exists c, pkt_get id (l_pkt st') = Some (l_now st, c)) /\
  (forall j, j <> id -> pkt_get j (l_pkt st') = pkt_get j (l_pkt st)).
Proof.
  unfold tx_data. destruct (existsb (Nat.eqb (l_n1 st)) (lc_drop_data lc)); lproj.
  - split; [repeat split|]. split; [exists []; split; [constructor|left; reflexivity]|].
    split; [exists []; rewrite app_nil_r; auto|]. split; [reflexivity|].
    split; [eexists; rewrite pkt_get_set, Z.eqb_refl; reflexivity|].
    intros j Hj. rewrite pkt_get_set. apply Z.eqb_neq in Hj. rewrite Hj. reflexivity.
  - split; [repeat split|]. split; [exists [AWirePutCb false]; split; [|right; reflexivity]|].
    { apply Adds_one. rewrite nq_eq. apply Qle_refl. }
    split; [exists [id]; auto|]. split; [reflexivity|].
    split; [eexists; rewrite pkt_get_set, Z.eqb_refl; reflexivity|].
    intros j Hj. rewrite pkt_get_set. apply Z.eqb_neq in Hj. rewrite Hj. reflexivity.
Qed.

Definition restart_ok (o : list out) : Prop := forall id r, In (TRestart id r) o -> (0 <= r)%Q.

(* what emitting the outputs [o] of one sender event changes: agenda entries for them, none due before now; the
   segments that pass the dropper appended to the data wire's store; their Packet objects stamped with the current time *)
Definition outs_rel (o : list out) (st st' : lstate) : Prop :=
  same_ends st st' /\
  (exists evs, Adds (l_now st) (l_agenda st) (l_agenda st') evs /\ Forall (out_ev o) evs /\
               (forall id r, In (TStart id r) o -> In (ATimerInit id) evs) /\
               (forall id r, In (TRestart id r) o -> In (ATimerFire id) evs)) /\
  (exists l, wd_items (l_wd st') = wd_items (l_wd st) ++ l /\ forall id, In id l -> exists z, In (Tx id z) o) /\
  wd_waiting (l_wd st') = wd_waiting (l_wd st) /\
  pkt_mono (l_now st) o (l_pkt st) (l_pkt st').

Lemma outs_rel_app o1 o2 a b c : outs_rel o1 a b -> outs_rel o2 b c -> outs_rel (o1 ++ o2) a c.
Proof.
  intros (S1 & (ev1 & A1 & F1 & I1 & R1) & (l1 & L1 & L1') & W1 & (M1 & M1'))
         (S2 & (ev2 & A2 & F2 & I2 & R2) & (l2 & L2 & L2') & W2 & (M2 & M2')).
  assert (Hn : l_now b = l_now a) by apply S1. rewrite Hn in *.
  assert (Wk : forall o e, (forall x, In x o -> In x (o1 ++ o2)) -> out_ev o e -> out_ev (o1 ++ o2) e).
  { intros o e Hi [H|[(id & r & H1 & H2)|(id & r & H1 & H2)]]; [left; exact H|right; left|right; right]; exists id, r; auto. }
  split; [eapply same_ends_trans; eauto|]. split.
  { exists (ev1 ++ ev2). split; [eapply Adds_trans; eauto|]. split.
    - apply Forall_app. split; (eapply Forall_impl; [|eassumption]); intros e; apply Wk; intros x Hx; apply in_or_app; auto.
    - split; intros i r H; apply in_app_or in H as [H|H]; apply in_or_app; eauto. }
  split.
  { exists (l1 ++ l2). rewrite L2, L1, app_assoc. split; [reflexivity|]. intros i Hi.
    apply in_app_or in Hi as [Hi|Hi]; [destruct (L1' i Hi) as (z & Hz)|destruct (L2' i Hi) as (z & Hz)]; exists z; apply in_or_app; auto. }
  split; [congruence|]. split.
  - intros j. destruct (M2 j) as [E|(c0 & z & Hin & E)]; [|right; exists c0, z; split; [apply in_or_app; auto|exact E]].
    destruct (M1 j) as [E1|(c0 & z & Hin & E1)]; [left; congruence|right; exists c0, z; split; [apply in_or_app; auto|congruence]].
  - intros j z H. apply in_app_or in H as [H|H]; [|eapply M2'; eauto].
    destruct (M1' j z H) as (c1 & E1). destruct (M2 j) as [E|(c0 & z' & _ & E)]; [exists c1; congruence|exists c0; exact E].
Qed.

Lemma outs_rel_idle o st : (forall x, In x o -> exists id, x = TStop id) -> outs_rel o st st.
Proof.
  intros Ho. split; [apply same_ends_refl|]. split.
  { exists []. split; [constructor|]. split; [constructor|]. split; intros id r H; destruct (Ho _ H) as (? & E); discriminate E. }
  split; [exists []; rewrite app_nil_r; split; [reflexivity|intros ? []]|]. split; [reflexivity|].
  split; [intros j; left; reflexivity|]. intros j z H. destruct (Ho _ H) as (? & E). discriminate E.
Qed.

Lemma outs_rel_tx lc st id z : outs_rel [Tx id z] st (tx_data lc st id).
Proof.
  destruct (tx_data_spec lc st id) as (S1 & (ev1 & A1 & E1) & (l1 & L1 & L1') & W1 & (c1 & P1) & P1').
  split; [exact S1|]. split.
  { exists ev1. split; [exact A1|]. split; [destruct E1 as [->| ->]; [constructor|constructor; [left; reflexivity|constructor]]|].
    split; intros i r [H|[]]; discriminate. }
  split.
  { exists l1. split; [exact L1|]. intros i Hi. destruct L1' as [->| ->]; [destruct Hi|]. destruct Hi as [<-|[]]. exists z. left. reflexivity. }
  split; [exact W1|]. split.
  - intros j. destruct (Z.eq_dec j id) as [->|Hne]; [right; exists c1, z; split; [left; reflexivity|exact P1]|left; apply P1', Hne].
  - intros j z' [H|[]]. injection H as <- _. exists c1. exact P1.
Qed.

(* a timer command [x] schedules the one entry [e] *)
Lemma outs_rel_timer st t p e x :
  (l_now st <= t)%Q -> out_ev [x] e ->
  (forall id r, x = TStart id r -> e = ATimerInit id) -> (forall id r, x = TRestart id r -> e = ATimerFire id) ->
  (forall j z, x <> Tx j z) -> outs_rel [x] st (sched st t p e).
Proof.
  intros Ht He Hs Hr Hx. split; [repeat split|]. split.
  { exists [e]. split; [apply sched_Adds, Ht|]. split; [constructor; [exact He|constructor]|].
    split; intros i r [H|[]]; left; eauto. }
  split; [exists []; rewrite app_nil_r; split; [reflexivity|intros ? []]|]. split; [reflexivity|].
  split; [intros j; left; reflexivity|]. intros j z [H|[]]. destruct (Hx _ _ H).
Qed.

Lemma do_outs_app lc : forall o1 o2 st, do_outs lc st (o1 ++ o2) = do_outs lc (do_outs lc st o1) o2.
Proof. induction o1 as [|[] o1 IH]; intros o2 st; cbn [app do_outs]; auto. Qed.

Lemma do_outs_spec lc : forall o st, restart_ok o -> outs_rel o st (do_outs lc st o).
Proof.
  induction o as [|x o IH]; intros st Hr; [apply outs_rel_idle; intros ? []|].
  change (x :: o) with ([x] ++ o). rewrite do_outs_app.
  apply (outs_rel_app [x] o st (do_outs lc st [x])); [|apply IH; intros id r H; apply (Hr id r); right; exact H].
  destruct x as [id z|id r|id|id r]; cbn [do_outs].
  - apply outs_rel_tx.
  - apply outs_rel_timer; try discriminate; [apply Qle_refl| |intros ? ? [= <- _]; reflexivity].
    right; left. exists id, r. split; [reflexivity|left; reflexivity].
  - apply outs_rel_idle. intros x [<-|[]]. eauto.
  - apply outs_rel_timer; try discriminate; [| |intros ? ? [= <- _]; reflexivity].
    + assert (0 <= r)%Q by (apply (Hr id r); left; reflexivity). lra.
    + right; right. exists id, r. split; [reflexivity|left; reflexivity].
Qed.

(* ---- normalising the rationals does not disturb the sender's invariant ---- *)
Lemma keys_norm t : keys (map (fun p : Z * Q => (fst p, nq (snd p))) t) = keys t.
Proof. unfold keys. rewrite map_map. cbn [fst]. reflexivity. Qed.

Lemma norm_sinv c s : SInv c s -> SInv c (norm_sender s).
Proof.
  intros [Iw Ik Ind Ib Ir Isr Irv Ia Iwk Iwt]. constructor; unfold norm_sender; proj; auto.
  - destruct Iw as (A & B & C). unfold win_inv; proj. rewrite !nq_eq. auto.
  - rewrite keys_norm. exact Ik.
  - rewrite nq_eq. exact Ir.
  - rewrite nq_eq. exact Isr.
  - rewrite nq_eq. exact Irv.
  - apply Forall_forall. intros p Hp. apply in_map_iff in Hp as (q & <- & Hq). cbn [snd]. rewrite nq_eq.
    rewrite Forall_forall in Ia. apply Ia, Hq.
Qed.

Definition ackno_of (e : aev) : option Z :=
  match e with AWireGetA a _ _ _ | AWireOutA a _ _ _ => Some a | _ => None end.
Definition dataid_of (e : aev) : option Z :=
  match e with AWireGetD id | AWireOutD id => Some id | _ => None end.
Definition is_holdA (e : aev) : bool := match ackno_of e with Some _ => true | None => false end.
Definition is_initA (e : aev) : bool := match e with AWireInit true => true | _ => false end.
Definition is_wake (e : aev) : bool := match e with ASenderWake => true | _ => false end.
Definition is_cb (e : aev) : bool := match e with ASenderCb => true | _ => false end.
Definition b2n (b : bool) : nat := if b then 1%nat else 0%nat.

Definition pkt_le (now : Q) (m : list (Z * (Q * Q))) : Prop :=
  forall id t c, pkt_get id m = Some (t, c) -> (t <= now)%Q.
Definition ev_time_ok (now : Q) (e : aev) : Prop :=
  match e with AWireGetA _ _ tm _ | AWireOutA _ _ tm _ => (tm <= now)%Q | _ => True end.
Definition ev_pkt_ok (m : list (Z * (Q * Q))) (e : aev) : Prop :=
  match e with AWireGetD id | AWireOutD id => pkt_get id m <> None | _ => True end.

(* time and packets: the agenda is ordered and lies in the future; packet.time and the time an ACK carries lie in the
   past (RTT samples are >= 0); every segment id in the data wire or on the agenda has its Packet object *)
Record LInvT (st : lstate) : Prop := {
  lt_sorted : asorted (l_agenda st);
  lt_future : afuture (l_now st) (l_agenda st);
  lt_pkt_le : pkt_le (l_now st) (l_pkt st);
  lt_wa_le : Forall (fun r => (a_time r <= l_now st)%Q) (wa_items (l_wa st));
  lt_ev_time : Forall (fun a => ev_time_ok (l_now st) (ae_ev a)) (l_agenda st);
  lt_wd_pkt : Forall (fun id => pkt_get id (l_pkt st) <> None) (wd_items (l_wd st));
  lt_ev_pkt : Forall (fun a => ev_pkt_ok (l_pkt st) (ae_ev a)) (l_agenda st)
}.

(* [ev]: the agenda entry being processed (already removed from the agenda), if any *)
Record LInvA (lc : lcfg) (st : lstate) (ev : option aev) : Prop := {
  la_sinv : SInv (lc_cfg lc) (l_snd st);
  la_wake : (acount is_wake (l_agenda st) + match ev with Some e => b2n (is_wake e) | None => 0 end)%nat = b2n (wake (l_snd st));
  la_cb : (acount is_cb (l_agenda st) + match ev with Some e => b2n (is_cb e) | None => 0 end)%nat = pend (l_snd st);
  la_T : LInvT st
}.

Definition enabled (s : sender) (e : event) : Prop :=
  match e with
  | EWake => wake s = true
  | EStoreCb => (0 < pend s)%nat
  | EExpire id => has_timer id (timers s) = true
  | EAck _ _ _ _ => True
  end.

Lemma step_enabled_ok c s e :
  0 < mss c -> SInv c s -> enabled s e -> exists s' o, step repaired c s e = Ok s' o.
Proof.
  intros Hm I He. destruct (step repaired c s e) as [s' o|x] eqn:E; [eauto|]. exfalso.
  pose proof (step_no_raise c s e x Hm I E) as ->.
  destruct e as [ackno pid sample o|id| |]; cbn [step enabled] in *.
  - rewrite on_ack_cases in E by apply I. destruct (ackno =? last_ack s).
    + destruct (_ <? _); [discriminate|]. cbv zeta in E. destruct (_ || _); [destruct (resend _ _ _ _)|]; discriminate.
    + destruct (cc_ack _ _ _ _ _ _) as [[[? ?] ?]|]; [|discriminate]. cbv zeta in E. destruct (stop_all _ _ _ _) as [[[? ?] ?]|]; discriminate.
  - unfold on_timer in E. rewrite He in E. cbn [negb] in E. destruct (resend _ _ _ _); discriminate.
  - unfold on_storecb in E. destruct (pend s); [lia|]. destruct (waiting s); [destruct (tokens s)|]; discriminate.
  - unfold on_wake in E. rewrite He in E. destruct (si_wake _ _ I He) as [Hf _]. rewrite Hf in E. cbn [negb andb] in E.
    apply send_loop_raises in E as [E|[E _]]; discriminate.
Qed.

(* the outputs of a sender transition re-arm with a positive timeout *)
Lemma step_restart_ok c s e s' o : 0 < mss c -> SInv c s -> step repaired c s e = Ok s' o -> restart_ok o.
Proof.
  intros Hm I H id r Hin. destruct e as [ackno pid sample orc|id'| |]; cbn [step] in H.
  - apply on_ack_shape in H; [|apply I]. destruct H as (_&_&_&_&_&[D|N]).
    + destruct D as (_&_&_&_&_&_&_&_&_&_&[->|[-> _]]); [destruct Hin|destruct Hin as [?|[]]; discriminate].
    + destruct N as (_&_&_&_&_&->&_). apply in_map_iff in Hin as (? & ? & _). discriminate.
  - apply on_timer_shape in H as (_ & _ & [->|[-> _]]).
    + destruct Hin as [H|[]]. injection H as _ <-. pose proof (si_rto _ _ I). lra.
    + destruct Hin as [H|[H|[]]]; [discriminate|]. injection H as _ <-. pose proof (si_rto _ _ I). lra.
  - apply on_storecb_shape in H as (-> & _). destruct Hin.
  - apply send_guard in H; [|exact Hm]. destruct H as (n & -> & _). exfalso. clear -Hin.
    revert Hin. generalize (next_seq (set_store s (tokens s) (pend s) false false)) as i.
    induction n as [|n IH]; intros i; cbn [segs app In]; [tauto|]. intros [H|[H|H]]; [discriminate|discriminate|eauto].
Qed.

Lemma step_flags c s e s' o :
  0 <= dupack s -> (wake s = true -> waiting s = false) -> step repaired c s e = Ok s' o ->
  (e <> EWake -> wake s = true -> wake s' = true) /\
  match e with EStoreCb => S (pend s') = pend s | _ => pend s' = pend s \/ pend s' = S (pend s) end.
Proof.
  intros Hd Hw H. destruct e as [ackno pid sample orc|id| |]; cbn [step] in H.
  - apply on_ack_shape in H; [|exact Hd]. destruct H as (_ & _ & Wk & _ & _ & [D|N]).
    + split; [congruence|left; apply D].
    + split; [congruence|right; apply N].
  - apply on_timer_shape in H as (_ & -> & _). proj. auto.
  - apply on_storecb_shape in H as (_ & p & Hp & [(Wt & _ & ->)|(_ & ->)]); proj; auto.
  - split; [congruence|]. unfold on_wake in H. destruct (wake s && negb (finished s)); [|discriminate].
    apply send_loop_flags in H as (Pd & _). proj. auto.
Qed.

Definition sev_extra (s s' : sender) (e : event) : list aev :=
  (if (pend s <? pend s')%nat then [ASenderCb] else []) ++
  (if wake s' && negb (match e with EWake => false | _ => wake s end) then [ASenderWake] else []).

Lemma sched_when (b : bool) st t e : (l_now st <= t)%Q ->
  let st' := if b then sched st t 1 e else st in
  Adds (l_now st) (l_agenda st) (l_agenda st') (if b then [e] else []) /\ same_ends st st' /\
  l_wd st' = l_wd st /\ l_pkt st' = l_pkt st.
Proof. intros H. destruct b; (split; [apply sched_Adds, H || constructor|]); repeat split. Qed.

Lemma sender_event_spec lc st e :
  lc_fx lc = repaired -> 0 < mss (lc_cfg lc) -> SInv (lc_cfg lc) (l_snd st) -> enabled (l_snd st) e ->
  exists st' s' o,
    sender_event lc st e = inl st' /\ step repaired (lc_cfg lc) (l_snd st) e = Ok s' o /\
    l_snd st' = norm_sender s' /\ l_now st' = l_now st /\ l_sink st' = l_sink st /\ l_wa st' = l_wa st /\
    l_oracle st' = l_oracle st /\
    (exists evs, Adds (l_now st) (l_agenda st) (l_agenda st') (evs ++ sev_extra (l_snd st) (norm_sender s') e) /\
                 Forall (out_ev o) evs /\
                 (forall id r, In (TStart id r) o -> In (ATimerInit id) evs) /\
                 (forall id r, In (TRestart id r) o -> In (ATimerFire id) evs)) /\
    (exists l, wd_items (l_wd st') = wd_items (l_wd st) ++ l /\ forall id, In id l -> exists z, In (Tx id z) o) /\
    wd_waiting (l_wd st') = wd_waiting (l_wd st) /\
    pkt_mono (l_now st) o (l_pkt st) (l_pkt st').
Proof.
  intros Hfx Hm I He. destruct (step_enabled_ok _ _ _ Hm I He) as (s' & o & Hstep).
  pose proof (step_restart_ok _ _ _ _ _ Hm I Hstep) as Hr.
  unfold sender_event. rewrite Hfx, Hstep.
  set (st0 := set_snd st (norm_sender s')).
  destruct (do_outs_spec lc o st0 Hr) as (S1 & (ev1 & A1 & F1 & I1 & R1) & L1 & W1 & M1).
  set (st1 := do_outs lc st0 o) in *. pose proof S1 as (N1 & _).
  change (l_now st0) with (l_now st) in *.
  destruct (sched_when (pend (l_snd st) <? pend (norm_sender s'))%nat st1 (l_now st) ASenderCb) as (A2 & S2 & WD2 & PK2);
    [rewrite N1; apply Qle_refl|]. set (st2 := if (_ <? _)%nat then _ else st1) in *. pose proof S2 as (N2 & _).
  destruct (sched_when (wake (norm_sender s') && negb (match e with EWake => false | _ => wake (l_snd st) end)) st2 (l_now st)
                       ASenderWake) as (A3 & S3 & WD3 & PK3); [rewrite N2, N1; apply Qle_refl|].
  set (st3 := if _ && _ then _ else st2) in *. rewrite N2, N1 in A3. rewrite N1 in A2.
  destruct (same_ends_trans _ _ _ S1 (same_ends_trans _ _ _ S2 S3)) as (N3 & SN3 & SK3 & WA3 & OR3).
  eexists. exists s', o. split; [reflexivity|]. lproj. split; [reflexivity|].
  split; [exact SN3|]. split; [exact N3|]. split; [exact SK3|]. split; [exact WA3|]. split; [exact OR3|].
  split; [exists ev1; split; [|auto]; eapply Adds_trans; [exact A1|]; eapply Adds_trans; [exact A2|exact A3]|].
  rewrite WD3, WD2, PK3, PK2. auto.
Qed.

Definition plain_ev (e : aev) : Prop := ackno_of e = None /\ dataid_of e = None /\ is_initA e = false.

Lemma out_ev_plain o e : out_ev o e -> is_wake e = false /\ is_cb e = false /\ plain_ev e.
Proof. intros [->|[(id & r & -> & _)|(id & r & -> & _)]]; repeat split. Qed.

Lemma sev_extra_plain s s' e : Forall plain_ev (sev_extra s s' e).
Proof.
  unfold sev_extra. apply Forall_app. split; [destruct (_ <? _)%nat|destruct (_ && _)]; repeat constructor.
Qed.

Lemma ecount_zero p l : Forall (fun e => p e = false) l -> ecount p l = O.
Proof. unfold ecount. induction 1 as [|x l Hx Hl IH]; cbn [filter]; [reflexivity|]. rewrite Hx. exact IH. Qed.

Lemma pkt_mono_keeps now o m m' j : pkt_mono now o m m' -> pkt_get j m <> None -> pkt_get j m' <> None.
Proof. intros [M _] H. destruct (M j) as [E|(c & z & _ & E)]; rewrite E; [exact H|discriminate]. Qed.

(* the time/packet part of the invariant survives anything that only adds plain agenda entries,
   appends transmitted segments to the data wire and stamps their packets with the current time *)
Lemma T_after_outs st st' o evs :
  l_now st' = l_now st -> l_wa st' = l_wa st ->
  Adds (l_now st) (l_agenda st) (l_agenda st') evs -> Forall plain_ev evs ->
  (exists l, wd_items (l_wd st') = wd_items (l_wd st) ++ l /\ forall id, In id l -> exists z, In (Tx id z) o) ->
  pkt_mono (l_now st) o (l_pkt st) (l_pkt st') ->
  LInvT st -> LInvT st'.
Proof.
  intros Hn Hwa Ha Hb (l & Hl & Hl') Hm [Ts Tf Tp Tw Te Td Tk]. constructor; rewrite ?Hn, ?Hwa; auto.
  - eapply Adds_sorted; eauto.
  - eapply Adds_future; eauto.
  - intros id t c H. destruct Hm as [M _]. destruct (M id) as [E|(c' & z & _ & E)]; rewrite E in H.
    + eapply Tp; eauto.
    + injection H as <- _. apply Qle_refl.
  - apply Forall_forall. intros a Hin. destruct (Adds_In_new _ _ _ _ _ Ha Hin) as [Hold|[Hnew _]].
    + rewrite Forall_forall in Te. apply Te, Hold.
    + rewrite Forall_forall in Hb. destruct (Hb _ Hnew) as (Ea & Ed & _). destruct (ae_ev a); cbn in *; auto; discriminate.
  - rewrite Hl. apply Forall_app. split.
    + eapply Forall_impl; [|exact Td]. intros id. apply pkt_mono_keeps with (1 := Hm).
    + apply Forall_forall. intros id Hid. destruct (Hl' id Hid) as (z & Hz). destruct Hm as [_ M2].
      destruct (M2 id z Hz) as (c & E). rewrite E. discriminate.
  - apply Forall_forall. intros a Hin. destruct (Adds_In_new _ _ _ _ _ Ha Hin) as [Hold|[Hnew _]].
    + rewrite Forall_forall in Tk. specialize (Tk _ Hold). destruct (ae_ev a); cbn in *; auto; eapply pkt_mono_keeps; eauto.
    + rewrite Forall_forall in Hb. destruct (Hb _ Hnew) as (Ea & Ed & _). destruct (ae_ev a); cbn in *; auto; discriminate.
Qed.

(* deliver_ack takes one value off the CUBIC oracle before the sender's event *)
Definition no_oracle (st : lstate) : lstate :=
  mkls (l_now st) (l_seq st) (l_agenda st) (l_snd st) (l_sink st) (l_pkt st) (l_wd st) (l_wa st)
       (l_n1 st) (l_n2 st) (tl (l_oracle st)) (l_slog st) (l_d1 st) (l_d2 st).

(* the sender event an agenda entry stands for: the state it is applied to, the event, and whether the ACK wire's
   process then asks its store for the next packet *)
Inductive sender_ev (lc : lcfg) (st : lstate) : aev -> lstate -> event -> bool -> Prop :=
| se_wake : sender_ev lc st ASenderWake st EWake false
| se_cb : sender_ev lc st ASenderCb st EStoreCb false
| se_fire id : has_timer id (timers (l_snd st)) = true -> sender_ev lc st (ATimerFire id) st (EExpire id) false
| se_ack ev a p tm ct :
    ev = AWireOutA a p tm ct \/ (ev = AWireGetA a p tm ct /\ Qltb (l_now st - ct) (lc_delay lc) = false) ->
    sender_ev lc st ev (no_oracle st) (EAck a p (nq (l_now st - tm)) (hd 0%Q (l_oracle st))) true.

Definition ev_of (e : event) (ev : aev) : Prop :=
  match e with
  | EWake => ev = ASenderWake
  | EStoreCb => ev = ASenderCb
  | EExpire id => ev = ATimerFire id
  | EAck a _ _ _ => ackno_of ev = Some a
  end.

Lemma nq_nonneg a b : (b <= a)%Q -> (0 <= nq (a - b))%Q.
Proof. intros H. rewrite nq_eq. lra. Qed.

Lemma LInvA_oracle lc st ev : LInvA lc st ev -> LInvA lc (no_oracle st) ev.
Proof. intros [Is Iw Ic [Ts Tf Tpk Tw Te Td Tk]]. constructor; lproj; auto. constructor; lproj; auto. Qed.

(* the event is enabled in the sender's state because the entry that stands for it was on the agenda *)
Lemma sender_ev_ok lc st ev st0 e ack :
  sender_ev lc st ev st0 e ack -> LInvA lc st (Some ev) -> ev_time_ok (l_now st) ev ->
  (st0 = st \/ st0 = no_oracle st) /\ LInvA lc st0 (Some ev) /\
  enabled (l_snd st0) e /\ sample_ok e /\ ev_of e ev /\ ack = is_holdA ev.
Proof.
  intros S I Het. pose proof I as [_ Iw Ic _].
  destruct S as [| |id Ht|ev a p tm ct Hev]; cbn [enabled sample_ok ev_of is_holdA ackno_of is_wake is_cb b2n] in *.
  - do 2 (split; [auto|]). split; [|auto]. destruct (wake (l_snd st)); [reflexivity|cbn [b2n] in Iw; lia].
  - do 2 (split; [auto|]). split; [lia|auto].
  - do 2 (split; [auto|]). auto.
  - assert (E : ackno_of ev = Some a /\ (tm <= l_now st)%Q) by (destruct Hev as [->|[-> _]]; split; auto).
    destruct E as [E Htm]. rewrite E. split; [auto|]. split; [apply LInvA_oracle, I|].
    split; [exact Logic.I|]. split; [apply nq_nonneg, Htm|]. unfold is_holdA. rewrite E. auto.
Qed.

(* one sender event inside the loop: it is defined, and the whole invariant is re-established *)
Lemma sender_event_inv lc st e ev :
  lc_fx lc = repaired -> 0 < mss (lc_cfg lc) -> LInvA lc st (Some ev) -> sample_ok e ->
  enabled (l_snd st) e -> ev_of e ev ->
  exists st', sender_event lc st e = inl st' /\ LInvA lc st' None /\
              l_now st' = l_now st /\ l_sink st' = l_sink st /\ l_wa st' = l_wa st.
Proof.
  intros Hfx Hm [Is Iw Ic It] Hs He Hev.
  destruct (sender_event_spec lc st e Hfx Hm Is He) as
      (st' & s' & o & Hse & Hstep & Hsn & Hn & Hsk & Hwa & Hor & (evs & Ha & Hf & _ & _) & Hl & Hw & Hpm).
  exists st'. split; [exact Hse|]. split; [|auto].
  assert (Pl : Forall (fun x => is_wake x = false) evs /\ Forall (fun x => is_cb x = false) evs /\ Forall plain_ev evs).
  { repeat split; eapply Forall_impl; try exact Hf; intros x Hx; apply (out_ev_plain o x Hx). }
  destruct Pl as (Pw & Pc & Pb).
  assert (Eev : is_wake ev = match e with EWake => true | _ => false end /\
                is_cb ev = match e with EStoreCb => true | _ => false end).
  { destruct e; cbn [ev_of] in Hev; [destruct ev; try discriminate; auto|subst; auto..]. }
  destruct Eev as [Ew Ec]. rewrite Ew in Iw. rewrite Ec in Ic.
  destruct (step_flags _ _ _ _ _ (proj1 (proj2 (si_win _ _ Is))) (fun W => proj2 (si_wake _ _ Is W)) Hstep) as [Fw Fp].
  constructor.
  - rewrite Hsn. apply norm_sinv. eapply step_sinv; eauto.
  - rewrite (Adds_count _ _ _ _ is_wake Ha), ecount_app, (ecount_zero _ _ Pw), Hsn. unfold sev_extra. rewrite ecount_app.
    change (wake (norm_sender s')) with (wake s').
    replace (ecount is_wake (if (pend (l_snd st) <? pend (norm_sender s'))%nat then [ASenderCb] else [])) with O
      by (destruct (_ <? _)%nat; reflexivity).
    destruct e; cbn [b2n] in Iw.
    1-3: specialize (Fw ltac:(discriminate)); destruct (wake (l_snd st));
      [rewrite (Fw eq_refl)|destruct (wake s')]; cbn [andb negb ecount filter length is_wake b2n] in *; lia.
    cbn [enabled] in He. rewrite He in Iw. destruct (wake s'); cbn [andb negb ecount filter length is_wake b2n] in *; lia.
  - rewrite (Adds_count _ _ _ _ is_cb Ha), ecount_app, (ecount_zero _ _ Pc), Hsn. unfold sev_extra. rewrite ecount_app.
    change (pend (norm_sender s')) with (pend s').
    replace (ecount is_cb (if wake (norm_sender s') && negb match e with EWake => false | _ => wake (l_snd st) end then [ASenderWake] else [])) with O
      by (destruct (_ && _); reflexivity).
    destruct (Nat.ltb_spec (pend (l_snd st)) (pend s')); destruct e; cbn [ecount filter length is_cb b2n] in *; lia.
  - eapply (T_after_outs st st' o); eauto.
    apply Forall_app. split; [exact Pb|apply sev_extra_plain].
Qed.

(* ---- scheduling one more agenda entry ---- *)
Lemma sched_T st t p e :
  (l_now st <= t)%Q -> ev_time_ok (l_now st) e -> ev_pkt_ok (l_pkt st) e -> LInvT st -> LInvT (sched st t p e).
Proof.
  intros Ht He Hp [Ts Tf Tpk Tw Te Td Tk].
  pose proof (sched_Adds st t p e Ht) as Ha.
  constructor; lproj; auto.
  - eapply Adds_sorted; eauto.
  - eapply Adds_future; eauto.
  - apply Forall_forall. intros a Hin. apply ainsert_In in Hin as [->|Hin]; [exact He|]. rewrite Forall_forall in Te. auto.
  - apply Forall_forall. intros a Hin. apply ainsert_In in Hin as [->|Hin]; [exact Hp|]. rewrite Forall_forall in Tk. auto.
Qed.

Lemma sched_A lc st t p e ev0 :
  (l_now st <= t)%Q -> is_wake e = false -> is_cb e = false ->
  ev_time_ok (l_now st) e -> ev_pkt_ok (l_pkt st) e -> LInvA lc st ev0 -> LInvA lc (sched st t p e) ev0.
Proof.
  intros Ht Hw Hc He Hp [Is Iw Ic It]. constructor.
  - exact Is.
  - change (l_snd (sched st t p e)) with (l_snd st). rewrite <- Iw. unfold sched; lproj. rewrite ainsert_count. cbn [ae_ev]. rewrite Hw. reflexivity.
  - change (l_snd (sched st t p e)) with (l_snd st). rewrite <- Ic. unfold sched; lproj. rewrite ainsert_count. cbn [ae_ev]. rewrite Hc. reflexivity.
  - apply sched_T; auto.
Qed.

Lemma LInvA_done lc st e : is_wake e = false -> is_cb e = false -> LInvA lc st (Some e) -> LInvA lc st None.
Proof. intros Hw Hc [Is Iw Ic It]. rewrite Hw in Iw. rewrite Hc in Ic. cbn [b2n] in *. constructor; auto. Qed.

(* ---- the wires ---- *)
Lemma wd_get_A lc st : LInvA lc st None -> LInvA lc (wd_get st) None.
Proof.
  intros I. unfold wd_get. destruct (wd_items (l_wd st)) as [|x rest] eqn:E.
  - destruct I as [Is Iw Ic [Ts Tf Tpk Tw Te Td Tk]]. constructor; lproj; auto. constructor; lproj; auto.
  - assert (Hx : pkt_get x (l_pkt st) <> None /\ Forall (fun id => pkt_get id (l_pkt st) <> None) rest).
    { destruct I as [_ _ _ [_ _ _ _ _ Td _]]. rewrite E in Td. inversion Td; auto. }
    destruct Hx as [Hx Hrest].
    apply sched_A; lproj; try reflexivity; try exact Logic.I; try exact Hx; try apply Qle_refl.
    destruct I as [Is Iw Ic [Ts Tf Tpk Tw Te Td Tk]]. constructor; lproj; auto. constructor; lproj; auto.
Qed.

Lemma wa_get_A lc st : LInvA lc st None -> LInvA lc (wa_get st) None.
Proof.
  intros I. unfold wa_get. destruct (wa_items (l_wa st)) as [|x rest] eqn:E.
  - destruct I as [Is Iw Ic [Ts Tf Tpk Tw Te Td Tk]]. constructor; lproj; auto. constructor; lproj; auto.
  - assert (Hx : (a_time x <= l_now st)%Q /\ Forall (fun r => (a_time r <= l_now st)%Q) rest).
    { destruct I as [_ _ _ [_ _ _ Tw _ _ _]]. rewrite E in Tw. inversion Tw; auto. }
    destruct Hx as [Hx Hrest].
    apply sched_A; lproj; try reflexivity; try exact Logic.I; try exact Hx; try apply Qle_refl.
    destruct I as [Is Iw Ic [Ts Tf Tpk Tw Te Td Tk]]. constructor; lproj; auto. constructor; lproj; auto.
Qed.

Lemma deliver_data_A lc st id :
  pkt_get id (l_pkt st) <> None -> LInvA lc st None ->
  exists st', deliver_data lc st id = inl st' /\ LInvA lc st' None /\ l_now st' = l_now st /\ l_snd st' = l_snd st.
Proof.
  intros Hp I. unfold deliver_data. destruct (pkt_get id (l_pkt st)) as [[tm ct]|] eqn:E; [|contradiction].
  assert (Htm : (tm <= l_now st)%Q) by (destruct I as [_ _ _ [_ _ Tpk _ _ _ _]]; eapply Tpk; eauto).
  destruct (existsb (Nat.eqb (l_n2 st)) (lc_drop_ack lc)).
  - eexists. split; [reflexivity|]. split; [|split; reflexivity].
    destruct I as [Is Iw Ic [Ts Tf Tpk Tw Te Td Tk]]. constructor; lproj; auto. constructor; lproj; auto.
  - eexists. split; [reflexivity|]. split; [|split; reflexivity].
    apply sched_A; lproj; try reflexivity; try exact Logic.I; try apply Qle_refl.
    destruct I as [Is Iw Ic [Ts Tf Tpk Tw Te Td Tk]]. constructor; lproj; auto. constructor; lproj; auto.
    apply Forall_app. split; [exact Tw|]. constructor; [exact Htm|constructor].
Qed.

(* ---- one agenda entry ---- *)
Record lc_ok (lc : lcfg) : Prop := {
  ok_fx : lc_fx lc = repaired;
  ok_mss : 0 < mss (lc_cfg lc);
  ok_delay : (0 <= lc_delay lc)%Q
}.

(* What [handle] does, by kind of entry: one sender event (then, for an ACK, the ACK wire's next get); a Timer process
   going to sleep until its Timeout; an entry that finds nothing to do (a stopped timer, a put callback nobody waits
   for); a wire's process asking its store; a packet held until its propagation delay is over; a segment handed to the
   sink.  The two ways to fail: the sender raises, a segment id has no Packet object. *)
Inductive handled (lc : lcfg) (st : lstate) : aev -> lstate + lerr -> Prop :=
| h_sender ev st0 e ack st1 :
    sender_ev lc st ev st0 e ack -> sender_event lc st0 e = inl st1 ->
    handled lc st ev (inl (if ack then wa_get st1 else st1))
| h_raise ev st0 e ack x :
    sender_ev lc st ev st0 e ack -> sender_event lc st0 e = Datatypes.inr x -> handled lc st ev (Datatypes.inr x)
| h_arm id r :
    In (id, r) (timers (l_snd st)) ->
    handled lc st (ATimerInit id) (inl (sched st (l_now st + r)%Q 1 (ATimerFire id)))
| h_skip ev :
    match ev with
    | ATimerInit id | ATimerFire id => has_timer id (timers (l_snd st)) = false
    | AWirePutCb false => wd_waiting (l_wd st) = false
    | AWirePutCb true => wa_waiting (l_wa st) = false
    | _ => False
    end -> handled lc st ev (inl st)
| h_getD ev :
    ev = AWireInit false \/ (ev = AWirePutCb false /\ wd_waiting (l_wd st) = true) -> handled lc st ev (inl (wd_get st))
| h_getA ev :
    ev = AWireInit true \/ (ev = AWirePutCb true /\ wa_waiting (l_wa st) = true) -> handled lc st ev (inl (wa_get st))
| h_holdD id :
    pkt_get id (l_pkt st) <> None -> Qltb (l_now st - wd_entered (l_wd st)) (lc_delay lc) = true ->
    handled lc st (AWireGetD id)
            (inl (sched st (l_now st + (lc_delay lc - (l_now st - wd_entered (l_wd st))))%Q 1 (AWireOutD id)))
| h_holdA a p tm ct :
    Qltb (l_now st - ct) (lc_delay lc) = true ->
    handled lc st (AWireGetA a p tm ct) (inl (sched st (l_now st + (lc_delay lc - (l_now st - ct)))%Q 1 (AWireOutA a p tm ct)))
| h_deliver ev id st1 :
    ev = AWireOutD id \/ (ev = AWireGetD id /\ Qltb (l_now st - wd_entered (l_wd st)) (lc_delay lc) = false) ->
    deliver_data lc st id = inl st1 -> handled lc st ev (inl (wd_get st1))
| h_nopkt ev id :
    dataid_of ev = Some id -> pkt_get id (l_pkt st) = None -> handled lc st ev (Datatypes.inr (LNoPacket id)).

Lemma find_none_keys id t : find (fun p : Z * Q => fst p =? id) t = None -> ~ In id (keys t).
Proof.
  intros H Hin. unfold keys in Hin. apply in_map_iff in Hin as (p & <- & Hp).
  apply (find_none _ _ H) in Hp. cbn beta in Hp. rewrite Z.eqb_refl in Hp. discriminate.
Qed.

Lemma handle_cases lc st ev : handled lc st ev (handle lc st ev).
Proof.
  assert (S0 : forall ev0 e, sender_ev lc st ev0 st e false -> handled lc st ev0 (sender_event lc st e)).
  { intros ev0 e S. destruct (sender_event lc st e) eqn:E; [exact (h_sender _ _ _ _ _ _ _ S E)|exact (h_raise _ _ _ _ _ _ _ S E)]. }
  assert (S1 : forall ev0 a p tm ct,
             ev0 = AWireOutA a p tm ct \/ (ev0 = AWireGetA a p tm ct /\ Qltb (l_now st - ct) (lc_delay lc) = false) ->
             handled lc st ev0 (bind (deliver_ack lc st a p tm) (fun st' => inl (wa_get st')))).
  { intros ev0 a p tm ct Hev. pose proof (se_ack lc st ev0 a p tm ct Hev) as S. unfold deliver_ack. fold (no_oracle st).
    destruct (sender_event lc (no_oracle st) _) eqn:E; [exact (h_sender _ _ _ _ _ _ _ S E)|exact (h_raise _ _ _ _ _ _ _ S E)]. }
  assert (D : forall ev0 id,
             ev0 = AWireOutD id \/ (ev0 = AWireGetD id /\ Qltb (l_now st - wd_entered (l_wd st)) (lc_delay lc) = false) ->
             handled lc st ev0 (bind (deliver_data lc st id) (fun st' => inl (wd_get st')))).
  { intros ev0 id Hev. destruct (deliver_data lc st id) as [st1|x] eqn:E; [exact (h_deliver _ _ _ _ _ Hev E)|].
    unfold deliver_data in E. destruct (pkt_get id (l_pkt st)) as [[tm ct]|] eqn:Ep.
    - destruct (existsb _ _); discriminate.
    - injection E as <-. apply (h_nopkt _ _ _ id); [destruct Hev as [->|[-> _]]; reflexivity|exact Ep]. }
  destruct ev as [| |id|id|w|w|id|id|a p tm ct|a p tm ct]; cbn [handle].
  - apply S0. constructor.
  - apply S0. constructor.
  - destruct (find _ _) as [[k r]|] eqn:Ef.
    + apply find_some in Ef as [Hin Hk]. cbn [fst] in Hk. apply Z.eqb_eq in Hk. subst k. apply h_arm, Hin.
    + apply h_skip. apply find_none_keys in Ef. destruct (has_timer id _) eqn:Eh; [apply has_timer_In in Eh; contradiction|reflexivity].
  - destruct (has_timer id _) eqn:Eh; [apply S0; constructor; exact Eh|apply h_skip, Eh].
  - destruct w; [apply h_getA|apply h_getD]; auto.
  - destruct w; [destruct (wa_waiting _) eqn:Ew|destruct (wd_waiting _) eqn:Ew];
      [apply h_getA; auto|apply h_skip, Ew|apply h_getD; auto|apply h_skip, Ew].
  - destruct (pkt_get id (l_pkt st)) eqn:Ep; [|exact (h_nopkt _ _ (AWireGetD id) id eq_refl Ep)].
    destruct (Qltb (l_now st - wd_entered (l_wd st)) (lc_delay lc)) eqn:Eq; [apply h_holdD; [rewrite Ep; discriminate|exact Eq]|apply D; auto].
  - apply D. auto.
  - destruct (Qltb (l_now st - ct) (lc_delay lc)) eqn:Eq; [apply h_holdA, Eq|apply (S1 _ a p tm ct); auto].
  - apply (S1 _ a p tm ct). auto.
Qed.

Lemma handle_A lc st ev :
  lc_ok lc -> LInvA lc st (Some ev) -> ev_time_ok (l_now st) ev -> ev_pkt_ok (l_pkt st) ev ->
  exists st', handle lc st ev = inl st' /\ LInvA lc st' None /\ l_now st' = l_now st.
Proof.
  intros [Hfx Hm Hd] HI Het Hep.
  assert (Gd : forall s, l_now (wd_get s) = l_now s) by (intros s; unfold wd_get; destruct (wd_items _); reflexivity).
  assert (Ga : forall s, l_now (wa_get s) = l_now s) by (intros s; unfold wa_get; destruct (wa_items _); reflexivity).
  destruct (handle_cases lc st ev) as [ev st0 e ack st1 S E|ev st0 e ack x S E|id r Hin|ev Hs|ev Hg|ev Hg|id Hp Hq|a p tm ct Hq
                                      |ev id st1 Hv E|ev id Hid Hn].
  1,2: destruct (sender_ev_ok _ _ _ _ _ _ S HI Het) as (Fr & I0 & He & Hs & Hev & _);
       destruct (sender_event_inv lc st0 e ev Hfx Hm I0 Hs) as (st' & A & B & C & _);
         [exact He|exact Hev|]; rewrite A in E.
  2: discriminate.
  - injection E as <-. eexists. split; [reflexivity|]. assert (l_now st0 = l_now st) by (destruct Fr as [->| ->]; reflexivity).
    destruct ack; [split; [apply wa_get_A, B|rewrite Ga]|split; [exact B|]]; congruence.
  - assert (Hr : (0 < r)%Q).
    { destruct HI as [Is _ _ _]. pose proof (si_armed _ _ Is) as Ha. rewrite Forall_forall in Ha. apply (Ha _ Hin). }
    eexists. split; [reflexivity|]. split; [|reflexivity].
    apply sched_A; try reflexivity; try exact Logic.I; [lra|]. refine (LInvA_done _ _ _ _ _ HI); reflexivity.
  - eexists. split; [reflexivity|]. split; [|reflexivity].
    refine (LInvA_done _ _ _ _ _ HI); destruct ev as [| | | |[|]|[|]| | | |]; try contradiction; reflexivity.
  - eexists. split; [reflexivity|]. split; [|apply Gd]. apply wd_get_A.
    refine (LInvA_done _ _ _ _ _ HI); destruct Hg as [->|[-> _]]; reflexivity.
  - eexists. split; [reflexivity|]. split; [|apply Ga]. apply wa_get_A.
    refine (LInvA_done _ _ _ _ _ HI); destruct Hg as [->|[-> _]]; reflexivity.
  - apply Qltb_true in Hq. eexists. split; [reflexivity|]. split; [|reflexivity].
    apply sched_A; try reflexivity; try exact Logic.I; [lra|exact Hp|]. refine (LInvA_done _ _ _ _ _ HI); reflexivity.
  - apply Qltb_true in Hq. eexists. split; [reflexivity|]. split; [|reflexivity].
    apply sched_A; try reflexivity; try exact Logic.I; [lra|exact Het|]. refine (LInvA_done _ _ _ _ _ HI); reflexivity.
  - assert (I0 : LInvA lc st None) by (refine (LInvA_done _ _ _ _ _ HI); destruct Hv as [->|[-> _]]; reflexivity).
    destruct (deliver_data_A lc st id) as (st2 & D1 & D2 & D3 & _); [destruct Hv as [->|[-> _]]; exact Hep|exact I0|].
    rewrite D1 in E. injection E as <-. eexists. split; [reflexivity|]. split; [apply wd_get_A, D2|rewrite Gd; exact D3].
  - exfalso. destruct ev; try discriminate; injection Hid as <-; exact (Hep Hn).
Qed.

(* ---- taking the next entry off the agenda ---- *)
Definition popped (st : lstate) (a : aentry) (rest : list aentry) : lstate :=
  mkls (ae_time a) (l_seq st) rest (l_snd st) (l_sink st) (l_pkt st) (l_wd st) (l_wa st)
       (l_n1 st) (l_n2 st) (l_oracle st) (l_slog st) (l_d1 st) (l_d2 st).

Lemma pop_A lc st a rest :
  LInvA lc st None -> l_agenda st = a :: rest ->
  LInvA lc (popped st a rest) (Some (ae_ev a)) /\ ev_time_ok (ae_time a) (ae_ev a) /\ ev_pkt_ok (l_pkt st) (ae_ev a) /\
  (l_now st <= ae_time a)%Q.
Proof.
  intros [Is Iw Ic [Ts Tf Tpk Tw Te Td Tk]] E. rewrite E in *.
  assert (Hna : (l_now st <= ae_time a)%Q) by (inversion Tf; assumption).
  assert (Mono : forall e, ev_time_ok (l_now st) e -> ev_time_ok (ae_time a) e).
  { intros e. destruct e; cbn [ev_time_ok]; auto; intros; lra. }
  split; [|split; [|split]].
  - constructor; unfold popped; lproj; auto.
    + rewrite <- Iw. unfold acount. cbn [filter]. destruct (is_wake (ae_ev a)); cbn [length b2n]; lia.
    + rewrite <- Ic. unfold acount. cbn [filter]. destruct (is_cb (ae_ev a)); cbn [length b2n]; lia.
    + constructor; lproj.
      * cbn [asorted] in Ts. apply Ts.
      * cbn [asorted] in Ts. apply Ts.
      * intros id t c H. specialize (Tpk id t c H). lra.
      * eapply Forall_impl; [|exact Tw]. intros r Hr. cbn beta in *. lra.
      * inversion Te; subst. eapply Forall_impl; [|eassumption]. intros b. apply Mono.
      * exact Td.
      * inversion Tk; assumption.
  - inversion Te; subst. apply Mono. assumption.
  - inversion Tk; assumption.
  - exact Hna.
Qed.

Lemma lstep_popped lc st r :
  lstep lc st = Some r -> exists a rest, l_agenda st = a :: rest /\ handle lc (popped st a rest) (ae_ev a) = r.
Proof. unfold lstep. destruct (l_agenda st) as [|a rest]; [discriminate|]. intros [= <-]. eauto. Qed.

Lemma lstep_A lc st r :
  lc_ok lc -> LInvA lc st None -> lstep lc st = Some r ->
  exists st', r = inl st' /\ LInvA lc st' None /\ (l_now st <= l_now st')%Q.
Proof.
  intros Hok HI H. apply lstep_popped in H as (a & rest & E & <-). destruct (pop_A lc st a rest HI E) as (P1 & P2 & P3 & P4).
  destruct (handle_A lc (popped st a rest) (ae_ev a) Hok P1 P2 P3) as (st' & H1 & H2 & H3).
  exists st'. split; [exact H1|]. split; [exact H2|]. rewrite H3. exact P4.
Qed.

(* the states the loop can be in *)
Inductive lreach (lc : lcfg) (st0 : lstate) : lstate -> Prop :=
| reach_init : lreach lc st0 st0
| reach_step st st' : lreach lc st0 st -> lstep lc st = Some (inl st') -> lreach lc st0 st'.

Lemma linit_A lc cw ss rtt0 orc :
  (zq (mss (lc_cfg lc)) <= cw)%Q -> (0 < rtt0)%Q -> LInvA lc (linit cw ss rtt0 orc) None.
Proof.
  intros Hc Hr. constructor; unfold linit; lproj.
  - apply init_sinv; assumption.
  - reflexivity.
  - reflexivity.
  - constructor; lproj.
    + cbn [asorted ae_time]. repeat split; repeat constructor; apply Qle_refl.
    + repeat constructor; apply Qle_refl.
    + intros id t c H. discriminate.
    + constructor.
    + repeat constructor.
    + constructor.
    + repeat constructor.
Qed.

Lemma reach_A lc cw ss rtt0 orc st :
  lc_ok lc -> (zq (mss (lc_cfg lc)) <= cw)%Q -> (0 < rtt0)%Q ->
  lreach lc (linit cw ss rtt0 orc) st -> LInvA lc st None.
Proof.
  intros Hok Hc Hr. induction 1 as [|st st' Hreach IH Hstep]; [apply linit_A; assumption|].
  destruct (lstep_A lc st _ Hok IH Hstep) as (st2 & E & H2 & _). injection E as <-. exact H2.
Qed.

Lemma lrun_reach lc st0 : forall fuel st, lreach lc st0 st -> lreach lc st0 (lfinal (lrun fuel lc st)).
Proof.
  induction fuel as [|f IH]; intros st Hr; cbn [lrun lfinal]; [exact Hr|].
  destruct (l_agenda st) as [|a rest] eqn:E; [exact Hr|].
  destruct (Qle_bool (lc_tmax lc) (ae_time a)); [exact Hr|].
  destruct (lstep lc st) as [[st'|e]|] eqn:Es; cbn [lfinal]; try exact Hr.
  apply IH. eapply reach_step; eauto.
Qed.

Lemma lrun_result lc : forall fuel st0,
  match lrun fuel lc st0 with
  | LQuiescent st => l_agenda st = []
  | LStopped st => exists a rest, l_agenda st = a :: rest /\ (lc_tmax lc <= ae_time a)%Q
  | LFuel _ | LRaised _ _ => True
  end.
Proof.
  induction fuel as [|f IH]; intros st0; cbn [lrun]; [exact I|].
  destruct (l_agenda st0) as [|a rest] eqn:Ea; [exact Ea|].
  destruct (Qle_bool (lc_tmax lc) (ae_time a)) eqn:Eq; [exists a, rest; split; [exact Ea|apply Qle_bool_iff, Eq]|].
  unfold lstep. rewrite Ea. destruct (handle _ _ _); [apply IH|exact I].
Qed.

(* THE LOOP NEVER RAISES: every dictionary lookup of the repaired sender hits, no division by zero,
   no Timer with a non-positive timeout, no event that cannot occur -- for every flow, delay, drop
   pattern, CUBIC oracle and however long the loop runs *)
Theorem loop_never_raises lc cw ss rtt0 orc :
  lc_ok lc -> (zq (mss (lc_cfg lc)) <= cw)%Q -> (0 < rtt0)%Q ->
  forall fuel st e, lrun fuel lc (linit cw ss rtt0 orc) <> LRaised st e.
Proof.
  intros Hok Hc Hr fuel.
  assert (G : forall fuel st, LInvA lc st None -> forall st' e, lrun fuel lc st <> LRaised st' e).
  { clear fuel. induction fuel as [|f IH]; intros st HI st' e; cbn [lrun]; [discriminate|].
    destruct (l_agenda st) as [|a rest] eqn:E; [discriminate|].
    destruct (Qle_bool (lc_tmax lc) (ae_time a)); [discriminate|].
    destruct (lstep lc st) as [r|] eqn:Es; [|discriminate].
    destruct (lstep_A lc st r Hok HI Es) as (st2 & -> & H2 & _). apply IH. exact H2. }
  intros st e. apply G. apply linit_A; assumption.
Qed.

(* and the unrepaired sender does raise in the loop: one segment, RTO below the round-trip time *)
Definition lc_found : lcfg := mklcfg (mkfx true false false) (mkcfg 1000 1000 Reno) (5 # 2) [] [] (1048576 # 1).
Theorem loop_raises_before_fix :
  exists st, lrun 200 lc_found (linit (1000 # 1) (65535 # 1) (1 # 4) []) = LRaised st (LSender (KeyErr 1000)).
Proof. eexists. vm_compute. reflexivity. Qed.

(* ================================================================================================ *)
(* Part 4: last_ack <= contiguous prefix at the sink <= next_seq;  last_ack never decreases *)

Definition has_ev (st : lstate) (ev : option aev) (e : aev) : Prop :=
  ev = Some e \/ exists a, In a (l_agenda st) /\ ae_ev a = e.


Definition seg_ok (c : config) (s : sender) (id : Z) : Prop := 0 <= id /\ id + mss c <= next_seq s.

Fixpoint sortedZ (l : list Z) : Prop :=
  match l with [] => True | x :: t => Forall (fun y => x <= y) t /\ sortedZ t end.

Definition opt_count (p : aev -> bool) (ev : option aev) : nat :=
  match ev with Some e => b2n (p e) | None => O end.

(* numbers: every segment id in play was sent (below next_seq); the sink's next_seq_expected is the prefix of what
   arrived; every ACK number in play lies between last_ack and that prefix, and the ACK pipeline is in increasing order.
   [lb_ctl]: the ACK wire's process is in exactly one place -- holding a packet, about to be initialised, or waiting on
   its store -- which is why at most one ACK is outside the store and the order is kept. *)
Record LInvB (lc : lcfg) (st : lstate) (ev : option aev) : Prop := {
  lb_ns : 0 <= next_seq (l_snd st);
  lb_sent : Forall (seg_ok (lc_cfg lc) (l_snd st)) (sent (l_snd st));
  lb_sink : exists hist, Inv hist (l_sink st) /\ prefix_len hist (nse (l_sink st)) /\
                         Forall (fun g => snd g = mss (lc_cfg lc) /\ seg_ok (lc_cfg lc) (l_snd st) (fst g)) hist;
  lb_wd : Forall (seg_ok (lc_cfg lc) (l_snd st)) (wd_items (l_wd st));
  lb_evd : forall e id, has_ev st ev e -> dataid_of e = Some id -> seg_ok (lc_cfg lc) (l_snd st) id;
  lb_eva : forall e a, has_ev st ev e -> ackno_of e = Some a ->
                       last_ack (l_snd st) <= a <= nse (l_sink st) /\ Forall (fun r => a <= a_no r) (wa_items (l_wa st));
  lb_wa : Forall (fun r => last_ack (l_snd st) <= a_no r <= nse (l_sink st)) (wa_items (l_wa st));
  lb_wa_sorted : sortedZ (map a_no (wa_items (l_wa st)));
  lb_ctl : (acount is_holdA (l_agenda st) + opt_count is_holdA ev + acount is_initA (l_agenda st) + opt_count is_initA ev
            + b2n (wa_waiting (l_wa st)))%nat = 1%nat;
  lb_la : last_ack (l_snd st) <= nse (l_sink st)
}.

(* the prefix of arrivals that all end at or below N is at most N *)
Lemma prefix_le_bound hist n N :
  prefix_len hist n -> 0 <= N -> (forall g, In g hist -> fst g + snd g <= N) -> n <= N.
Proof.
  intros (H0 & Hcov & _) HN Hb. destruct (Z_le_gt_dec n N) as [|Hgt]; [assumption|]. exfalso.
  assert (Hc : covered hist (n - 1)) by (apply Hcov; lia).
  destruct Hc as (g & Hg & Hr). specialize (Hb g Hg). lia.
Qed.

Lemma LInvB_nse_le lc st ev : 0 < mss (lc_cfg lc) -> LInvB lc st ev -> nse (l_sink st) <= next_seq (l_snd st).
Proof.
  intros Hm B. destruct (lb_sink _ _ _ B) as (hist & _ & Hp & Hf).
  eapply prefix_le_bound; [exact Hp|apply B|]. intros g Hg. rewrite Forall_forall in Hf.
  destruct (Hf g Hg) as (Hs & _ & Hle). rewrite Hs. exact Hle.
Qed.

Lemma seg_ok_mono c s s' id : next_seq s <= next_seq s' -> seg_ok c s id -> seg_ok c s' id.
Proof. unfold seg_ok. lia. Qed.

Lemma segs_tx_in m id n r i z : In (Tx i z) (segs m id n r) -> In i (seg_ids m id n).
Proof.
  revert id. induction n as [|n IH]; intros id; cbn [segs seg_ids In]; [tauto|].
  intros [H|[H|H]]; [injection H as <- _; left; reflexivity|discriminate|right; eauto].
Qed.

(* what a sender transition does to next_seq, to the ids in flight, to last_ack; what it transmits *)
Lemma step_seg c s e s' o :
  0 < mss c -> 0 <= dupack s -> 0 <= next_seq s -> Forall (seg_ok c s) (sent s) ->
  step repaired c s e = Ok s' o ->
  next_seq s <= next_seq s' /\ Forall (seg_ok c s') (sent s') /\
  (forall id z, In (Tx id z) o -> seg_ok c s' id) /\
  (last_ack s' = last_ack s \/ exists ackno pid sample orc, e = EAck ackno pid sample orc /\ last_ack s' = ackno).
Proof.
  intros Hm Hd H0 Hs H. destruct e as [ackno pid sample orc|id| |]; cbn [step] in H.
  - apply on_ack_shape in H; [|exact Hd]. destruct H as (N & _ & _ & _ & _ & [D|Nw]).
    + destruct D as (_ & L & _ & _ & S & _ & _ & _ & _ & _ & O).
      split; [lia|]. split; [rewrite S; eapply Forall_impl; [|exact Hs]; intros i; apply seg_ok_mono; lia|].
      split; [|left; exact L].
      intros i z Hin. destruct O as [->|(-> & Hi & _)]; [destruct Hin|].
      destruct Hin as [E|[]]. injection E as <- _. rewrite Forall_forall in Hs. eapply seg_ok_mono; [|apply Hs, Hi]. lia.
    + destruct Nw as (_ & L & _ & _ & S & O & _).
      split; [lia|]. split.
      * rewrite S. apply Forall_forall. intros i Hi. apply filter_In in Hi as [Hi _]. rewrite Forall_forall in Hs.
        eapply seg_ok_mono; [|apply Hs, Hi]. lia.
      * split; [|right; exists ackno, pid, sample, orc; auto].
        intros i z Hin. rewrite O in Hin. apply in_map_iff in Hin as (? & ? & _). discriminate.
  - apply on_timer_shape in H as (_ & -> & O). proj. split; [lia|]. split; [exact Hs|]. split; [|left; reflexivity].
    intros i z Hin. destruct O as [->|(-> & Hi)].
    + destruct Hin as [E|[]]; discriminate.
    + destruct Hin as [E|[E|[]]]; [|discriminate]. injection E as <- _. rewrite Forall_forall in Hs. apply Hs, Hi.
  - apply on_storecb_shape in H as (-> & p & _ & [(_ & _ & ->)|(_ & ->)]); proj; (split; [lia|]); (split; [exact Hs|]); (split; [intros ? ? []|left; reflexivity]).
  - apply send_guard in H; [|exact Hm]. destruct H as (n & -> & Hns & _ & Hse & _ & Hla & _). proj.
    assert (Hle : next_seq s <= next_seq s') by nia.
    assert (Hnew : forall i, In i (seg_ids (mss c) (next_seq s) n) -> seg_ok c s' i).
    { intros i Hi. apply seg_ids_In in Hi as (k & Hk & ->). unfold seg_ok. rewrite Hns. nia. }
    split; [exact Hle|]. split; [|split; [|left; exact Hla]].
    + rewrite Hse. apply Forall_app. split.
      * eapply Forall_impl; [|exact Hs]. intros i. apply seg_ok_mono. exact Hle.
      * apply Forall_forall. exact Hnew.
    + intros i z Hin. cbn [app] in Hin. apply Hnew. eapply segs_tx_in; eauto.
Qed.

Lemma acount_zero p l : acount p l = O -> forall a, In a l -> p (ae_ev a) = false.
Proof.
  unfold acount. induction l as [|x l IH]; cbn [filter]; intros H a Ha; [destruct Ha|].
  destruct (p (ae_ev x)) eqn:E; [cbn [length] in H; lia|]. destruct Ha as [<-|Ha]; [exact E|apply IH; assumption].
Qed.

Lemma sortedZ_app_max l x : sortedZ l -> Forall (fun y => y <= x) l -> sortedZ (l ++ [x]).
Proof.
  induction l as [|y l IH]; cbn [sortedZ app]; [intros _ _; split; [constructor|exact Logic.I]|].
  intros [Hy Hl] Hf. inversion Hf as [|? ? Hyx Hf']; subst. split; [|apply IH; assumption].
  apply Forall_app. split; [exact Hy|]. constructor; [exact Hyx|constructor].
Qed.

Lemma plain_counts l : Forall plain_ev l -> ecount is_holdA l = O /\ ecount is_initA l = O.
Proof.
  intros H. split; apply ecount_zero; eapply Forall_impl; try exact H; intros e (A & _ & C); [|exact C].
  unfold is_holdA. rewrite A. reflexivity.
Qed.

Lemma sender_event_B lc st e ev st' :
  lc_ok lc -> LInvA lc st (Some ev) -> LInvB lc st (Some ev) -> enabled (l_snd st) e ->
  ev_of e ev ->
  sender_event lc st e = inl st' -> LInvB lc st' (if is_holdA ev then Some (AWireInit true) else None).
Proof.
  intros [Hfx Hm Hdl] HA HB He Hev0 Hse.
  assert (Hev : match e with EAck ackno _ _ _ => ackno_of ev = Some ackno | _ => plain_ev ev end)
    by (destruct e; cbn [ev_of] in Hev0; subst; repeat split; auto).
  destruct (sender_event_spec lc st e Hfx Hm (la_sinv _ _ _ HA) He) as
      (st2 & s' & o & Hse2 & Hstep & Hsn & Hn & Hsk & Hwa & Hor & (evs & Ha & Hf & _ & _) & (l & Hl & Hl') & Hw & Hpm).
  rewrite Hse in Hse2. injection Hse2 as <-.
  destruct HB as [Bns Bsent (hist & Bi & Bp & Bh) Bwd Bevd Beva Bwa Bsort Bctl Bla].
  destruct (step_seg _ _ _ _ _ Hm (proj1 (proj2 (si_win _ _ (la_sinv _ _ _ HA)))) Bns Bsent Hstep) as (Sns & Ssent & Stx & Sla).
  assert (Mono : forall id, seg_ok (lc_cfg lc) (l_snd st) id -> seg_ok (lc_cfg lc) (norm_sender s') id)
    by (intros id; unfold seg_ok; cbn [next_seq norm_sender]; lia).
  assert (Pl : Forall plain_ev (evs ++ sev_extra (l_snd st) (norm_sender s') e)).
  { apply Forall_app. split; [eapply Forall_impl; [|exact Hf]; intros x Hx; apply (out_ev_plain o x Hx)|apply sev_extra_plain]. }
  (* events of st' are old agenda events or plain new ones *)
  assert (Old : forall x, has_ev st' (if is_holdA ev then Some (AWireInit true) else None) x ->
                          (exists a, In a (l_agenda st) /\ ae_ev a = x) \/ (ackno_of x = None /\ dataid_of x = None)).
  { intros x [H|(a & Hin & <-)]; [destruct (is_holdA ev); [injection H as <-; right; split; reflexivity|discriminate]|].
    destruct (Adds_In_new _ _ _ _ _ Ha Hin) as [H|[H _]]; [left; eauto|right].
    rewrite Forall_forall in Pl. destruct (Pl _ H) as (P1 & P2 & _). split; assumption. }
  (* the new last_ack is bounded by the sink's prefix and by everything still in the ACK pipeline *)
  assert (LAok : last_ack s' <= nse (l_sink st) /\ Forall (fun r => last_ack s' <= a_no r) (wa_items (l_wa st)) /\
                 last_ack (l_snd st) <= last_ack s').
  { destruct Sla as [E|(ackno & pid & sample & orc & -> & E)].
    - rewrite E. split; [exact Bla|]. split; [|lia]. eapply Forall_impl; [|exact Bwa]. intros r; cbn beta; lia.
    - rewrite E. destruct (Beva ev ackno (or_introl eq_refl) Hev) as [[A1 A2] A3]. auto. }
  destruct LAok as (LA1 & LA2 & LA3).
  assert (NoHold : forall a0, In a0 (l_agenda st) -> ackno_of (ae_ev a0) = None \/ (exists k, ackno_of (ae_ev a0) = Some k /\ ackno_of ev = None)).
  { intros a0 Hin. destruct (ackno_of (ae_ev a0)) as [k|] eqn:E; [|left; reflexivity]. right. exists k. split; [reflexivity|].
    destruct (ackno_of ev) as [k'|] eqn:E'; [|reflexivity]. exfalso.
    assert (H1 : is_holdA ev = true) by (unfold is_holdA; rewrite E'; reflexivity).
    assert (H2 : is_holdA (ae_ev a0) = true) by (unfold is_holdA; rewrite E; reflexivity).
    assert (H3 : (1 <= acount is_holdA (l_agenda st))%nat).
    { unfold acount. apply in_split in Hin as (l1 & l2 & ->). rewrite filter_app, app_length. cbn [filter]. rewrite H2. cbn [length]. lia. }
    cbn [opt_count] in Bctl. rewrite H1 in Bctl. cbn [b2n] in Bctl. lia. }
  constructor; rewrite ?Hsn, ?Hsk, ?Hwa, ?Hl; cbn [next_seq sent last_ack norm_sender].
  - lia.
  - exact Ssent.
  - exists hist. split; [exact Bi|]. split; [exact Bp|].
    eapply Forall_impl; [|exact Bh]. intros g [G1 G2]. split; [exact G1|apply Mono, G2].
  - apply Forall_app. split; [eapply Forall_impl; [|exact Bwd]; exact Mono|].
    apply Forall_forall. intros id Hid. destruct (Hl' id Hid) as (z & Hz). exact (Stx _ _ Hz).
  - intros x id Hx Hd. destruct (Old x Hx) as [(a & Hin & <-)|(_ & P)]; [|congruence].
    apply Mono. eapply Bevd; [right; eauto|exact Hd].
  - intros x a Hx Hk. destruct (Old x Hx) as [(a0 & Hin & <-)|(P & _)]; [|congruence].
    destruct (NoHold a0 Hin) as [E|(k & E & Enone)]; [congruence|].
    (* the processed entry was not an ACK in the pipeline: last_ack unchanged *)
    assert (Esame : last_ack s' = last_ack (l_snd st)).
    { destruct Sla as [E1|(ackno & pid & sample & orc & -> & E1)]; [exact E1|]. cbn beta iota in Hev. congruence. }
    rewrite Esame. eapply Beva; [right; eauto|exact Hk].
  - apply Forall_forall. intros r Hr. rewrite Forall_forall in Bwa, LA2.
    specialize (Bwa r Hr). specialize (LA2 r Hr). cbn beta in *. lia.
  - exact Bsort.
  - rewrite (Adds_count _ _ _ _ is_holdA Ha), (Adds_count _ _ _ _ is_initA Ha).
    destruct (plain_counts _ Pl) as [-> ->]. cbn [opt_count] in *.
    assert (Zi : is_initA ev = false)
      by (destruct e; cbn [ev_of] in Hev0; [destruct ev; try discriminate; reflexivity|subst; reflexivity..]).
    rewrite Zi in Bctl. destruct (is_holdA ev); cbn [b2n opt_count is_holdA is_initA ackno_of] in *; lia.
  - exact LA1.
Qed.

Lemma has_ev_sched st t p e evo x :
  has_ev (sched st t p e) evo x -> x = e \/ has_ev st evo x.
Proof.
  intros [H|(a & Hin & <-)]; [right; left; exact H|]. unfold sched in Hin; lproj.
  apply ainsert_In in Hin as [->|Hin]; [left; reflexivity|right; right; eauto].
Qed.

(* adding an entry that carries no packet *)
Lemma sched_B_plain lc st t p e evo : plain_ev e -> LInvB lc st evo -> LInvB lc (sched st t p e) evo.
Proof.
  intros (P1 & P2 & P3) [Bns Bsent Bsk Bwd Bevd Beva Bwa Bsort Bctl Bla]. constructor; lproj; auto.
  - intros x id Hx Hd. apply has_ev_sched in Hx as [->|Hx]; [congruence|eauto].
  - intros x a Hx Hk. apply has_ev_sched in Hx as [->|Hx]; [congruence|eauto].
  - assert (Hh : is_holdA e = false) by (unfold is_holdA; rewrite P1; reflexivity).
    rewrite !ainsert_count. cbn [ae_ev]. rewrite P3, Hh. exact Bctl.
Qed.

(* the processed entry carried nothing: forget it *)
Lemma B_done lc st ev : plain_ev ev -> LInvB lc st (Some ev) -> LInvB lc st None.
Proof.
  intros (P1 & P2 & P3) [Bns Bsent Bsk Bwd Bevd Beva Bwa Bsort Bctl Bla]. constructor; auto.
  - intros x id [H|H] Hd; [discriminate|]. eapply Bevd; [right; exact H|exact Hd].
  - intros x a [H|H] Hk; [discriminate|]. eapply Beva; [right; exact H|exact Hk].
  - assert (Hh : is_holdA ev = false) by (unfold is_holdA; rewrite P1; reflexivity).
    cbn [opt_count] in *. rewrite P3, Hh in Bctl. cbn [b2n] in Bctl. lia.
Qed.

(* the packet of the processed entry moves to a new entry (end of the propagation delay) *)
Lemma sched_B_move lc st t p ev e :
  ackno_of e = ackno_of ev -> dataid_of e = dataid_of ev -> is_initA e = false -> is_initA ev = false ->
  LInvB lc st (Some ev) -> LInvB lc (sched st t p e) None.
Proof.
  intros E1 E2 E3 E4 [Bns Bsent Bsk Bwd Bevd Beva Bwa Bsort Bctl Bla]. constructor; lproj; auto.
  - intros x id Hx Hd. apply has_ev_sched in Hx as [->|[H|H]]; [|discriminate|].
    + eapply Bevd; [left; reflexivity|congruence].
    + eapply Bevd; [right; exact H|exact Hd].
  - intros x a Hx Hk. apply has_ev_sched in Hx as [->|[H|H]]; [|discriminate|].
    + eapply Beva; [left; reflexivity|congruence].
    + eapply Beva; [right; exact H|exact Hk].
  - assert (Hh : is_holdA e = is_holdA ev) by (unfold is_holdA; rewrite E1; reflexivity).
    rewrite !ainsert_count. cbn [ae_ev opt_count] in *. rewrite E3, Hh. rewrite E4 in Bctl. destruct (is_holdA ev); cbn [b2n] in *; lia.
Qed.

Lemma wd_get_B lc st : LInvB lc st None -> LInvB lc (wd_get st) None.
Proof.
  intros HB. unfold wd_get. destruct (wd_items (l_wd st)) as [|x rest] eqn:E.
  - destruct HB as [Bns Bsent Bsk Bwd Bevd Beva Bwa Bsort Bctl Bla]. constructor; lproj; auto.
  - destruct HB as [Bns Bsent Bsk Bwd Bevd Beva Bwa Bsort Bctl Bla]. rewrite E in Bwd.
    inversion Bwd as [|? ? Hx Hrest]; subst. constructor; lproj; auto.
    + intros y id Hy Hd. apply has_ev_sched in Hy as [->|[H|H]]; [|discriminate|].
      * cbn [dataid_of] in Hd. injection Hd as <-. exact Hx.
      * eapply Bevd; [right; exact H|exact Hd].
    + intros y a Hy Hk. apply has_ev_sched in Hy as [->|[H|H]]; [discriminate|discriminate|].
      eapply Beva; [right; exact H|exact Hk].
    + rewrite !ainsert_count. cbn [ae_ev is_holdA is_initA ackno_of b2n]. exact Bctl.
Qed.

Lemma sortedZ_head_le x l : sortedZ (x :: l) -> Forall (fun y => x <= y) l /\ sortedZ l.
Proof. cbn [sortedZ]. tauto. Qed.

(* the ACK wire's process asks its store for the next packet; it has the control token (it was just
   initialised / just delivered a packet) or it was waiting and a put callback serves it *)
Lemma wa_get_B lc st evo :
  (evo = Some (AWireInit true) \/ (wa_waiting (l_wa st) = true /\ evo = Some (AWirePutCb true))) ->
  LInvB lc st evo -> LInvB lc (wa_get st) None.
Proof.
  intros Hctl [Bns Bsent Bsk Bwd Bevd Beva Bwa Bsort Bctl Bla].
  assert (Hcnt : (acount is_holdA (l_agenda st) + acount is_initA (l_agenda st))%nat = O).
  { destruct Hctl as [->|[Hw ->]]; cbn [opt_count is_holdA is_initA ackno_of b2n] in Bctl; [|rewrite Hw in Bctl; cbn [b2n] in Bctl]; lia. }
  assert (Hold : forall y, has_ev st evo y -> ackno_of y = None \/ exists a0, In a0 (l_agenda st) /\ ae_ev a0 = y).
  { intros y [H|H]; [|right; exact H]. left. destruct Hctl as [->|[_ ->]]; injection H as <-; reflexivity. }
  assert (Hevd : forall y id, has_ev st None y -> dataid_of y = Some id -> seg_ok (lc_cfg lc) (l_snd st) id).
  { intros y id [H|H] Hd; [discriminate|]. eapply Bevd; [right; exact H|exact Hd]. }
  unfold wa_get. destruct (wa_items (l_wa st)) as [|x rest] eqn:E.
  - constructor; lproj; auto.
    + intros y a [H|H] Hk; [discriminate|]. destruct (Beva y a (or_intror H) Hk) as [A _]. split; [exact A|constructor].
    + cbn [opt_count b2n]. lia.
  - inversion Bwa as [|? ? Hx Hrest]; subst. cbn [map] in Bsort. apply sortedZ_head_le in Bsort as [Hle Hs].
    constructor; lproj; auto.
    + intros y id Hy Hd. apply has_ev_sched in Hy as [->|Hy]; [discriminate|eauto].
    + intros y a Hy Hk. apply has_ev_sched in Hy as [->|[H|(a0 & Hin & <-)]]; [|discriminate|].
      * cbn [ackno_of] in Hk. injection Hk as <-. split; [exact Hx|].
        apply Forall_forall. intros r Hr. rewrite Forall_forall in Hle. apply Hle. apply in_map. exact Hr.
      * exfalso. assert (Hz : acount is_holdA (l_agenda st) = O) by lia.
        pose proof (acount_zero _ _ Hz a0 Hin) as Hf. unfold is_holdA in Hf. rewrite Hk in Hf. discriminate.
    + rewrite !ainsert_count. cbn [ae_ev is_holdA is_initA ackno_of b2n opt_count]. lia.
Qed.

Lemma deliver_data_B lc st ev id st' :
  0 < mss (lc_cfg lc) -> dataid_of ev = Some id -> LInvB lc st (Some ev) ->
  deliver_data lc st id = inl st' -> LInvB lc st' None.
Proof.
  intros Hm Hid [Bns Bsent (hist & Bi & Bp & Bh) Bwd Bevd Beva Bwa Bsort Bctl Bla] H.
  assert (Hseg : seg_ok (lc_cfg lc) (l_snd st) id) by (eapply Bevd; [left; reflexivity|exact Hid]).
  assert (Hev : ackno_of ev = None /\ is_initA ev = false /\ is_holdA ev = false).
  { destruct ev; try discriminate; repeat split. }
  destruct Hev as (Ev1 & Ev2 & Ev3).
  unfold deliver_data in H. destruct (pkt_get id (l_pkt st)) as [[tm ct]|]; [|discriminate].
  set (sk := sink_step true (l_sink st) (id, mss (lc_cfg lc))) in *.
  assert (Bi' : Inv (hist ++ [(id, mss (lc_cfg lc))]) sk).
  { apply Inv_step; cbn [fst snd]; [apply Hseg|lia|exact Bi]. }
  assert (Bp' : prefix_len (hist ++ [(id, mss (lc_cfg lc))]) (nse sk)).
  { apply (ack_prefix _ sk id (mss (lc_cfg lc))) in Bi'. exact Bi'. }
  assert (Hmono : nse (l_sink st) <= nse sk).
  { eapply prefix_len_mono; [|exact Bp|exact Bp']. intros x Hx. apply covered_app. left. exact Hx. }
  assert (Bh' : Forall (fun g => snd g = mss (lc_cfg lc) /\ seg_ok (lc_cfg lc) (l_snd st) (fst g)) (hist ++ [(id, mss (lc_cfg lc))])).
  { apply Forall_app. split; [exact Bh|]. constructor; [split; [reflexivity|exact Hseg]|constructor]. }
  assert (Hevd : forall y i, (exists a0, In a0 (l_agenda st) /\ ae_ev a0 = y) -> dataid_of y = Some i -> seg_ok (lc_cfg lc) (l_snd st) i).
  { intros y i Hy Hd. eapply Bevd; [right; exact Hy|exact Hd]. }
  assert (Heva : forall y a, (exists a0, In a0 (l_agenda st) /\ ae_ev a0 = y) -> ackno_of y = Some a ->
                             last_ack (l_snd st) <= a <= nse sk /\ Forall (fun r => a <= a_no r) (wa_items (l_wa st)) /\ a <= nse sk).
  { intros y a Hy Hk. destruct (Beva y a (or_intror Hy) Hk) as [[A1 A2] A3]. repeat split; try assumption; lia. }
  assert (Bwa' : Forall (fun r => last_ack (l_snd st) <= a_no r <= nse sk) (wa_items (l_wa st))).
  { eapply Forall_impl; [|exact Bwa]. intros r; cbn beta; lia. }
  assert (Bctl' : (acount is_holdA (l_agenda st) + acount is_initA (l_agenda st) + b2n (wa_waiting (l_wa st)))%nat = 1%nat).
  { cbn [opt_count] in Bctl. rewrite Ev2, Ev3 in Bctl. cbn [b2n] in Bctl. lia. }
  clearbody sk.
  destruct (existsb (Nat.eqb (l_n2 st)) (lc_drop_ack lc)); injection H as <-.
  - constructor; lproj; auto.
    + exists (hist ++ [(id, mss (lc_cfg lc))]). auto.
    + intros y i [Hy|Hy] Hd; [discriminate|]. eapply Hevd; eauto.
    + intros y a [Hy|Hy] Hk; [discriminate|]. destruct (Heva y a Hy Hk) as (A & B & _). split; assumption.
    + cbn [opt_count]. lia.
    + lia.
  - constructor; lproj; auto.
    + exists (hist ++ [(id, mss (lc_cfg lc))]). auto.
    + intros y i Hy Hd. apply has_ev_sched in Hy as [->|[Hy|Hy]]; [discriminate|discriminate|]. eapply Hevd; eauto.
    + intros y a Hy Hk. apply has_ev_sched in Hy as [->|[Hy|Hy]]; [discriminate|discriminate|].
      destruct (Heva y a Hy Hk) as (A & B & C). split; [exact A|].
      apply Forall_app. split; [exact B|]. constructor; [exact C|constructor].
    + apply Forall_app. split; [exact Bwa'|]. constructor; [cbn [a_no]; lia|constructor].
    + rewrite map_app. cbn [map a_no]. apply sortedZ_app_max; [exact Bsort|].
      apply Forall_forall. intros y Hy. apply in_map_iff in Hy as (r & <- & Hr). rewrite Forall_forall in Bwa'. apply Bwa', Hr.
    + rewrite !ainsert_count. cbn [ae_ev is_holdA is_initA ackno_of b2n opt_count]. lia.
    + lia.
Qed.

Lemma pop_B lc st a rest :
  LInvB lc st None -> l_agenda st = a :: rest -> LInvB lc (popped st a rest) (Some (ae_ev a)).
Proof.
  intros [Bns Bsent Bsk Bwd Bevd Beva Bwa Bsort Bctl Bla] E.
  assert (Hev : forall x, has_ev (popped st a rest) (Some (ae_ev a)) x -> has_ev st None x).
  { intros x [H|(a0 & Hin & <-)]; right; rewrite E.
    - injection H as <-. exists a. split; [left; reflexivity|reflexivity].
    - exists a0. split; [right; exact Hin|reflexivity]. }
  constructor; unfold popped; lproj; auto.
  - intros x id Hx. apply Bevd. apply Hev. exact Hx.
  - intros x k Hx. apply Beva. apply Hev. exact Hx.
  - rewrite E in Bctl. unfold acount in *. cbn [filter opt_count] in *.
    destruct (is_holdA (ae_ev a)); destruct (is_initA (ae_ev a)); cbn [length b2n] in *; lia.
Qed.

Lemma LInvB_oracle lc st ev : LInvB lc st ev -> LInvB lc (no_oracle st) ev.
Proof. intros [Bns Bsent Bsk Bwd Bevd Beva Bwa Bsort Bctl Bla]. constructor; lproj; auto. Qed.

Lemma handle_B lc st ev st' :
  lc_ok lc -> LInvA lc st (Some ev) -> LInvB lc st (Some ev) -> ev_time_ok (l_now st) ev ->
  handle lc st ev = inl st' -> LInvB lc st' None.
Proof.
  intros Hok HA HB Het. pose proof Hok as [Hfx Hm Hd].
  destruct (handle_cases lc st ev) as [ev st0 e ack st1 S E|ev st0 e ack x S E|id r Hin|ev Hs|ev Hg|ev Hg|id Hp Hq|a p tm ct Hq
                                      |ev id st1 Hv E|ev id Hid Hn]; intros H; try discriminate; injection H as <-.
  - destruct (sender_ev_ok _ _ _ _ _ _ S HA Het) as (Fr & A0 & He & _ & Hev & ->).
    assert (B0 : LInvB lc st0 (Some ev)) by (destruct Fr as [->| ->]; [exact HB|apply LInvB_oracle, HB]).
    pose proof (sender_event_B lc st0 e ev st1 Hok A0 B0 He Hev E) as B1.
    destruct (is_holdA ev); [apply (wa_get_B lc st1 (Some (AWireInit true))); [left; reflexivity|exact B1]|exact B1].
  - apply sched_B_plain; [repeat split|]. eapply B_done; [|exact HB]. repeat split.
  - eapply B_done; [|exact HB]. destruct ev as [| | | |[|]|[|]| | | |]; try contradiction; repeat split.
  - apply wd_get_B. eapply B_done; [|exact HB]. destruct Hg as [->|[-> _]]; repeat split.
  - apply (wa_get_B lc st (Some ev)); [|exact HB]. destruct Hg as [->|[-> Hw]]; auto.
  - eapply sched_B_move; [| | | |exact HB]; reflexivity.
  - eapply sched_B_move; [| | | |exact HB]; reflexivity.
  - apply wd_get_B. eapply deliver_data_B; eauto. destruct Hv as [->|[-> _]]; reflexivity.
Qed.

Lemma linit_B lc cw ss rtt0 orc : LInvB lc (linit cw ss rtt0 orc) None.
Proof.
  constructor; unfold linit, init; lproj; proj.
  - lia.
  - constructor.
  - exists []. split; [apply Inv_init|]. split; [|constructor].
    unfold prefix_len, sink0; cbn [nse]. split; [lia|]. split; [intros b Hb; lia|]. intros (g & [] & _).
  - constructor.
  - intros e id [H|(a & Hin & <-)] Hd; [discriminate|].
    cbn [In] in Hin. destruct Hin as [<-|[<-|[<-|[]]]]; discriminate.
  - intros e k [H|(a & Hin & <-)] Hd; [discriminate|].
    cbn [In] in Hin. destruct Hin as [<-|[<-|[<-|[]]]]; discriminate.
  - constructor.
  - exact Logic.I.
  - reflexivity.
  - unfold sink0; cbn [nse]. lia.
Qed.

Record LInvAB (lc : lcfg) (st : lstate) : Prop := { ab_A : LInvA lc st None; ab_B : LInvB lc st None }.

Lemma lstep_AB lc st st' : lc_ok lc -> LInvAB lc st -> lstep lc st = Some (inl st') -> LInvAB lc st'.
Proof.
  intros Hok [HA HB] H. apply lstep_popped in H as (a & rest & E & H0).
  destruct (pop_A lc st a rest HA E) as (P1 & P2 & P3 & P4).
  destruct (handle_A lc (popped st a rest) (ae_ev a) Hok P1 P2 P3) as (st2 & H1 & H2 & H3).
  rewrite H1 in H0. injection H0 as <-. constructor; [exact H2|].
  eapply handle_B; eauto. apply pop_B; assumption.
Qed.

Lemma reach_AB lc cw ss rtt0 orc st :
  lc_ok lc -> (zq (mss (lc_cfg lc)) <= cw)%Q -> (0 < rtt0)%Q ->
  lreach lc (linit cw ss rtt0 orc) st -> LInvAB lc st.
Proof.
  intros Hok Hc Hr. induction 1 as [|st st' Hreach IH Hstep].
  - constructor; [apply linit_A; assumption|apply linit_B].
  - eapply lstep_AB; eauto.
Qed.

(* the contiguous prefix held by the sink, read off its receive buffer *)
Definition sink_prefix (sk : sink) (n : Z) : Prop :=
  0 <= n /\ (forall b, 0 <= b < n -> cov (buf sk) b) /\ ~ cov (buf sk) n.

Theorem loop_last_ack_le_prefix_le_next_seq lc cw ss rtt0 orc st :
  lc_ok lc -> (zq (mss (lc_cfg lc)) <= cw)%Q -> (0 < rtt0)%Q ->
  lreach lc (linit cw ss rtt0 orc) st ->
  last_ack (l_snd st) <= nse (l_sink st) <= next_seq (l_snd st) /\ sink_prefix (l_sink st) (nse (l_sink st)).
Proof.
  intros Hok Hc Hr H. destruct (reach_AB lc cw ss rtt0 orc st Hok Hc Hr H) as [_ HB].
  split; [split; [apply HB|eapply LInvB_nse_le; [apply Hok|exact HB]]|].
  destruct (lb_sink _ _ _ HB) as (hist & (_ & _ & Hcov) & (P0 & P1 & P2) & _).
  split; [exact P0|]. split.
  - intros b Hb. apply Hcov. apply P1. exact Hb.
  - intros Hn. apply P2. apply Hcov. exact Hn.
Qed.

(* ---- last_ack never decreases ---- *)
Lemma sender_event_la lc st e ev st' :
  lc_ok lc -> LInvA lc st (Some ev) -> LInvB lc st (Some ev) -> enabled (l_snd st) e ->
  ev_of e ev ->
  sender_event lc st e = inl st' -> last_ack (l_snd st) <= last_ack (l_snd st').
Proof.
  intros [Hfx Hm Hdl] HA HB He Hev Hse.
  destruct (sender_event_spec lc st e Hfx Hm (la_sinv _ _ _ HA) He) as (st2 & s' & o & Hse2 & Hstep & Hsn & _).
  rewrite Hse in Hse2. injection Hse2 as <-. rewrite Hsn. change (last_ack (norm_sender s')) with (last_ack s').
  destruct (step_seg _ _ _ _ _ Hm (proj1 (proj2 (si_win _ _ (la_sinv _ _ _ HA)))) (lb_ns _ _ _ HB) (lb_sent _ _ _ HB) Hstep) as (_ & _ & _ & Sla).
  destruct Sla as [E|(ackno & pid & sample & orc & -> & E)]; [lia|]. rewrite E.
  destruct (lb_eva _ _ _ HB ev ackno (or_introl eq_refl) Hev) as [[A _] _]. exact A.
Qed.

Lemma wd_get_snd st : l_snd (wd_get st) = l_snd st.
Proof. unfold wd_get. destruct (wd_items (l_wd st)); reflexivity. Qed.
Lemma wa_get_snd st : l_snd (wa_get st) = l_snd st.
Proof. unfold wa_get. destruct (wa_items (l_wa st)); reflexivity. Qed.
Lemma deliver_data_snd lc st id st' : deliver_data lc st id = inl st' -> l_snd st' = l_snd st.
Proof.
  unfold deliver_data. destruct (pkt_get id (l_pkt st)) as [[tm ct]|]; [|discriminate].
  destruct (existsb _ _); intros H; injection H as <-; reflexivity.
Qed.

Lemma handle_la_mono lc st ev st' :
  lc_ok lc -> LInvA lc st (Some ev) -> LInvB lc st (Some ev) -> ev_time_ok (l_now st) ev ->
  handle lc st ev = inl st' -> last_ack (l_snd st) <= last_ack (l_snd st').
Proof.
  intros Hok HA HB Het.
  destruct (handle_cases lc st ev) as [ev st0 e ack st1 S E|ev st0 e ack x S E|id r Hin|ev Hs|ev Hg|ev Hg|id Hp Hq|a p tm ct Hq
                                      |ev id st1 Hv E|ev id Hid Hn]; intros H; try discriminate; injection H as <-;
    rewrite ?wd_get_snd, ?wa_get_snd; try rewrite (deliver_data_snd _ _ _ _ E); try (lproj; lia).
  destruct (sender_ev_ok _ _ _ _ _ _ S HA Het) as (Fr & A0 & He & _ & Hev & _).
  assert (B0 : LInvB lc st0 (Some ev)) by (destruct Fr as [->| ->]; [exact HB|apply LInvB_oracle, HB]).
  pose proof (sender_event_la lc st0 e ev st1 Hok A0 B0 He Hev E) as L.
  replace (l_snd st) with (l_snd st0) by (destruct Fr as [->| ->]; reflexivity).
  destruct ack; rewrite ?wa_get_snd; exact L.
Qed.

Theorem loop_last_ack_monotone lc cw ss rtt0 orc st st' :
  lc_ok lc -> (zq (mss (lc_cfg lc)) <= cw)%Q -> (0 < rtt0)%Q ->
  lreach lc (linit cw ss rtt0 orc) st -> lreach lc st st' ->
  last_ack (l_snd st) <= last_ack (l_snd st').
Proof.
  intros Hok Hc Hr H0 H. induction H as [|s1 s2 Hreach IH Hstep]; [lia|].
  assert (R1 : lreach lc (linit cw ss rtt0 orc) s1).
  { clear IH Hstep. induction Hreach as [|a b Hab IHab Hs]; [exact H0|eapply reach_step; eauto]. }
  destruct (reach_AB lc cw ss rtt0 orc s1 Hok Hc Hr R1) as [HA HB].
  apply lstep_popped in Hstep as (a & rest & E & H1).
  destruct (pop_A lc s1 a rest HA E) as (P1 & Pt & _).
  pose proof (handle_la_mono lc _ _ _ Hok P1 (pop_B lc s1 a rest HB E) Pt H1) as Hm. unfold popped in Hm; lproj. lia.
Qed.

(* ================================================================================================ *)
(* Part 5: an unfinished transfer always has pending work *)

Definition mult (m x : Z) : Prop := exists k, 0 <= k /\ x = k * m.

Lemma fill_steps fuel ns sb p sb' : fill fuel ns sb p = Some sb' -> exists j : nat, sb' = sb + Z.of_nat j * p.
Proof.
  revert sb. induction fuel as [|f IH]; intros sb; cbn [fill]; [discriminate|].
  destruct (sb <=? ns).
  - intros H. apply IH in H as (j & ->). exists (S j). lia.
  - intros H; injection H as <-. exists O. lia.
Qed.

Record SInvC (c : config) (s : sender) : Prop := {
  sc_mult_ns : mult (mss c) (next_seq s);
  sc_mult_sb : mult (mss c) (send_buffer s);
  sc_buf : buffered_ok c s;
  sc_timers : forall k, 0 <= k -> k * mss c < next_seq s -> last_ack s < k * mss c + mss c -> In (k * mss c) (keys (timers s));
  sc_wait0 : waiting s = true -> tokens s = O -> last_ack s < next_seq s;
  sc_wait1 : waiting s = true -> (0 < tokens s)%nat -> (0 < pend s)%nat;
  sc_ctl : finished s = true \/ waiting s = true \/ wake s = true;
  sc_fin : finished s = true -> fsize c <> 0 /\ fsize c <= next_seq s
}.

Lemma mult_gap m a b : 0 < m -> mult m a -> mult m b -> a < b -> a + m <= b.
Proof. intros Hm (k & Hk & ->) (j & Hj & ->) H. assert (k < j) by nia. nia. Qed.

Lemma send_loop_C c (Hm : 0 < mss c) (Hf : mult (mss c) (fsize c)) : forall fuel s acc s' outs,
  mult (mss c) (next_seq s) -> mult (mss c) (send_buffer s) -> (zq (mss c) <= cwnd s)%Q ->
  send_loop fuel c s acc = Ok s' outs ->
  mult (mss c) (next_seq s') /\ mult (mss c) (send_buffer s') /\
  (waiting s' = true -> waiting s = false -> last_ack s' < next_seq s') /\
  (finished s' = true -> finished s = false -> fsize c <> 0 /\ fsize c <= next_seq s').
Proof.
  induction fuel as [|f IH]; intros s acc s' outs Mn Mb Hc; cbn [send_loop]; [discriminate|].
  destruct (negb (fsize c =? 0) && (fsize c <=? next_seq s)) eqn:Efin.
  - intros H; injection H as <- _. proj. apply andb_true_iff in Efin as [E1 E2]. apply negb_true_iff, Z.eqb_neq in E1. apply Z.leb_le in E2.
    split; [exact Mn|]. split; [exact Mb|]. split; [discriminate|]. auto.
  - destruct (fill _ _ _ _) as [sb|] eqn:Efill; [|discriminate].
    assert (Hp : psize c (next_seq s) = mss c).
    { unfold psize. destruct (fsize c =? 0) eqn:E0; [reflexivity|]. apply Z.eqb_neq in E0.
      apply andb_false_iff in Efin as [E|E]; [discriminate|]. apply Z.leb_gt in E.
      pose proof (mult_gap _ _ _ Hm Mn Hf E). lia. }
    rewrite Hp in Efill. pose proof (fill_ge _ _ _ _ _ Efill) as Hge.
    destruct (fill_steps _ _ _ _ _ Efill) as (j & Hj).
    assert (Msb : mult (mss c) sb).
    { destruct Mb as (k & Hk & Ek). exists (k + Z.of_nat j). split; [lia|]. rewrite Hj, Ek. ring. }
    destruct (guard c s sb) eqn:Eg.
    + destruct (Qle_bool (rto s) 0); [discriminate|]. intros H. apply IH in H; proj; auto.
      destruct Mn as (k & Hk & Ek). exists (k + 1). split; [lia|]. rewrite Ek. ring.
    + intros H.
      assert (Hla : last_ack s < next_seq s).
      { pose proof (mult_gap _ _ _ Hm Mn Msb Hge) as Hgap.
        unfold guard in Eg. apply Qle_bool_false in Eg.
        destruct (Q.min_spec (zq sb) (zq (last_ack s) + cwnd s)%Q) as [[_ Emin]|[_ Emin]]; rewrite Emin in Eg.
        - apply (zq_le _ _) in Hgap. lra.
        - assert (Hq : (zq (last_ack s) + zq (mss c) < zq (next_seq s + mss c))%Q) by lra.
          rewrite <- zq_add in Hq. unfold zq in Hq. rewrite <- Zlt_Qlt in Hq. lia. }
      destruct (tokens s); injection H as <- _; proj; (split; [exact Mn|]); (split; [exact Msb|]); (split; [|intros A B; congruence]); auto.
Qed.

Lemma seg_ids_has m id n (j : nat) : (j < n)%nat -> In (id + Z.of_nat j * m) (seg_ids m id n).
Proof.
  revert id j. induction n as [|n IH]; intros id j Hj; [lia|]. cbn [seg_ids]. destruct j as [|j].
  - left. cbn. lia.
  - right. replace (id + Z.of_nat (S j) * m) with (id + m + Z.of_nat j * m) by lia. apply IH. lia.
Qed.

Lemma In_keys_filter (f : Z -> bool) t x : In x (keys (filter (fun p => f (fst p)) t)) <-> In x (keys t) /\ f x = true.
Proof. rewrite keys_filter. apply filter_In. Qed.

Definition ack_fwd (s : sender) (e : event) : Prop :=
  match e with EAck ackno _ _ _ => last_ack s <= ackno | _ => True end.

Lemma step_C c s e s' o :
  0 < mss c -> mult (mss c) (fsize c) -> SInv c s -> SInvC c s -> ack_fwd s e ->
  step repaired c s e = Ok s' o -> SInvC c s'.
Proof.
  intros Hm Hf I [Mn Mb Bf Tm W0 W1 Ct Fn] Hfw H.
  destruct e as [ackno pid sample orc|id| |]; cbn [step] in H.
  - apply on_ack_shape in H; [|apply I]. destruct H as (N & B & Wk & Wt & F & [D|Nw]).
    + destruct D as (_ & L & _ & T & _ & _ & _ & _ & Tk & Pd & _).
      constructor; unfold buffered_ok in *; rewrite ?N, ?B, ?Wk, ?Wt, ?F, ?L, ?T, ?Tk, ?Pd; auto.
    + destruct Nw as (_ & L & _ & T & _ & _ & _ & _ & _ & Tk & Pd). cbn [ack_fwd] in Hfw.
      constructor; unfold buffered_ok in *; rewrite ?N, ?B, ?Wk, ?Wt, ?F, ?L, ?Tk, ?Pd; auto; try lia.
      intros k Hk Hlt Hla. rewrite T.
      apply (In_keys_filter (fun x => negb (mem x (acked_ids repaired c s ackno pid)))). split; [apply Tm; auto; lia|].
      apply negb_true_iff. destruct (mem (k * mss c) (acked_ids repaired c s ackno pid)) eqn:E; [|reflexivity]. exfalso.
      apply mem_In in E. unfold acked_ids, repaired in E; proj.
      change (map fst (filter (fun p => fst p + mss c <=? ackno) (timers s)))
        with (keys (filter (fun p => (fun x => x + mss c <=? ackno) (fst p)) (timers s))) in E.
      apply In_keys_filter in E as [_ E]. apply Z.leb_le in E. lia.
  - apply on_timer_shape in H as (_ & -> & _). constructor; unfold buffered_ok in *; proj; auto.
    intros k Hk Hlt Hla. rewrite keys_rearm. auto.
  - apply on_storecb_shape in H as (_ & p & Hp & [(Wt & Tk & ->)|(Hor & ->)]); constructor; unfold buffered_ok in *; proj; auto; try discriminate.
    intros Hw Ht. destruct Hor as [Hor|Hor]; [congruence|lia].
  - pose proof H as H0. unfold on_wake in H0. destruct (wake s && negb (finished s)) eqn:Ew; [|discriminate].
    apply andb_true_iff in Ew as [Ew Ef]. apply negb_true_iff in Ef.
    pose proof (send_loop_flags _ _ _ _ _ _ H0) as (Pd & Fl).
    pose proof (send_loop_buffered c Hm _ (set_store s (tokens s) (pend s) false false) _ _ _ Bf H0) as Bf'.
    pose proof (send_loop_C c Hm Hf _ (set_store s (tokens s) (pend s) false false) _ _ _ Mn Mb (proj1 (si_win _ _ I)) H0) as (Mn' & Mb' & Wz & Fz). proj.
    apply send_guard in H; [|exact Hm]. destruct H as (n & _ & Hns & Ht & _ & _ & Hla & _). proj.
    constructor; auto.
    + intros k Hk Hlt Hlak. rewrite Ht, keys_app, keys_map_pair. apply in_or_app.
      destruct (Z_lt_ge_dec (k * mss c) (next_seq s)) as [Hold|Hnew].
      * left. apply Tm; auto. lia.
      * right. destruct Mn as (a & Ha & Ea).
        assert (Hka : a <= k) by nia.
        replace (k * mss c) with (next_seq s + Z.of_nat (Z.to_nat (k - a)) * mss c) by (rewrite Z2Nat.id by lia; rewrite Ea; ring).
        apply seg_ids_has. rewrite Hns, Ea in Hlt. assert (k - a < Z.of_nat n) by nia. lia.
    + intros Hw Ht0. destruct Fl as [(_ & _ & Hx & _)|(_ & [(_ & Hx & _)|(_ & _ & Hx & _)])]; [congruence|congruence|lia].
    + destruct Fl as [(Hx & _)|(_ & [(Hx & _)|(_ & Hx & _)])]; auto.
Qed.

Lemma init_C c cw ss rtt0 : 0 < mss c -> mult (mss c) (fsize c) -> SInvC c (init cw ss rtt0).
Proof.
  intros Hm (n & Hn & En). constructor; unfold init, buffered_ok; proj.
  - exists 0. lia.
  - exists 0. lia.
  - split; [lia|intros _; nia].
  - intros k Hk Hlt. nia.
  - discriminate.
  - discriminate.
  - right; right; reflexivity.
  - discriminate.
Qed.

Lemma norm_C c s : SInvC c s -> SInvC c (norm_sender s).
Proof.
  intros [Mn Mb Bf Tm W0 W1 Ct Fn]. constructor; unfold norm_sender, buffered_ok in *; proj; auto.
  intros k Hk Hlt Hla. rewrite keys_norm. auto.
Qed.

Lemma segs_start_in m id n r i : In i (seg_ids m id n) -> In (TStart i r) (segs m id n r).
Proof.
  revert id. induction n as [|n IH]; intros id; cbn [segs seg_ids In]; [tauto|].
  intros [<-|H]; [right; left; reflexivity|right; right; eauto].
Qed.

(* where the keys of the timer table come from, and that an expiry re-arms *)
Lemma step_keys c s e s' o :
  0 < mss c -> 0 <= dupack s -> step repaired c s e = Ok s' o ->
  (forall id, In id (keys (timers s')) -> In id (keys (timers s)) \/ exists r, In (TStart id r) o) /\
  (forall id, e = EExpire id -> exists r, In (TRestart id r) o).
Proof.
  intros Hm Hd H. destruct e as [ackno pid sample orc|id0| |]; cbn [step] in H.
  - apply on_ack_shape in H; [|exact Hd]. destruct H as (_ & _ & _ & _ & _ & [D|Nw]).
    + destruct D as (_ & _ & _ & T & _). split; [intros id Hi; left; rewrite <- T; exact Hi|discriminate].
    + destruct Nw as (_ & _ & _ & T & _). split; [|discriminate]. intros id Hi. left. rewrite T in Hi.
      apply (In_keys_filter (fun x => negb (mem x (acked_ids repaired c s ackno pid)))) in Hi. apply Hi.
  - apply on_timer_shape in H as (_ & -> & O). proj. split.
    + intros id Hi. left. rewrite keys_rearm in Hi. exact Hi.
    + intros id E. injection E as <-. destruct O as [->|[-> _]]; eexists; [left; reflexivity|right; left; reflexivity].
  - apply on_storecb_shape in H as (_ & p & _ & [(_ & _ & ->)|(_ & ->)]); proj; (split; [auto|discriminate]).
  - apply send_guard in H; [|exact Hm]. destruct H as (n & -> & _ & Ht & _). proj. split; [|discriminate].
    intros id Hi. rewrite Ht, keys_app, keys_map_pair in Hi. apply in_app_or in Hi as [Hi|Hi]; [left; exact Hi|right].
    eexists. cbn [app]. apply segs_start_in. exact Hi.
Qed.

Definition timer_ev (e : aev) : Prop := exists id, e = ATimerInit id \/ e = ATimerFire id.

Definition pending (st : lstate) (ev : option aev) : Prop :=
  forall id, In id (keys (timers (l_snd st))) -> has_ev st ev (ATimerInit id) \/ has_ev st ev (ATimerFire id).

Record LInvC (lc : lcfg) (st : lstate) (ev : option aev) : Prop := {
  lcc_s : SInvC (lc_cfg lc) (l_snd st);
  lcc_p : pending st ev
}.


Lemma sender_event_C lc st e ev st' :
  lc_ok lc -> mult (mss (lc_cfg lc)) (fsize (lc_cfg lc)) ->
  LInvA lc st (Some ev) -> LInvB lc st (Some ev) -> LInvC lc st (Some ev) -> enabled (l_snd st) e ->
  ev_of e ev ->
  sender_event lc st e = inl st' -> LInvC lc st' None.
Proof.
  intros [Hfx Hm Hdl] Hf HA HB [Cs Cp] He Hev Hse.
  destruct (sender_event_spec lc st e Hfx Hm (la_sinv _ _ _ HA) He) as
      (st2 & s' & o & Hse2 & Hstep & Hsn & Hn & Hsk & Hwa & Hor & (evs & Ha & Hfo & Hts & Htr) & _).
  rewrite Hse in Hse2. injection Hse2 as <-.
  assert (Hd : 0 <= dupack (l_snd st)) by apply (si_win _ _ (la_sinv _ _ _ HA)).
  destruct (step_keys _ _ _ _ _ Hm Hd Hstep) as (K1 & K2).
  constructor.
  - rewrite Hsn. apply norm_C. eapply step_C; eauto; [apply HA|].
    destruct e; cbn [ack_fwd]; auto. destruct (lb_eva _ _ _ HB ev ackno (or_introl eq_refl) Hev) as [[A _] _]. exact A.
  - intros id Hi. rewrite Hsn in Hi. change (timers (norm_sender s')) with (map (fun p : Z * Q => (fst p, nq (snd p))) (timers s')) in Hi.
    rewrite keys_norm in Hi.
    assert (New : forall x, In x evs -> has_ev st' None x).
    { intros x Hx. right. eapply Adds_has; [exact Ha|]. apply in_or_app. left. exact Hx. }
    assert (Keep : forall x, (exists a, In a (l_agenda st) /\ ae_ev a = x) -> has_ev st' None x).
    { intros x (a & Hin & E). right. exists a. split; [eapply Adds_In_old; eauto|exact E]. }
    destruct (K1 id Hi) as [Hold|(r & Hr)]; [|left; apply New; eapply Hts; eauto].
    destruct (Cp id Hold) as [[H|H]|[H|H]].
    + (* the processed entry is this timer's Initialize: not a sender event *)
      injection H as ->. destruct e; discriminate Hev.
    + left. apply Keep. exact H.
    + injection H as ->. destruct e as [ackno pid sample orc|id0| |]; try discriminate Hev.
      injection Hev as <-. destruct (K2 id eq_refl) as (r & Hr). right. apply New. eapply Htr; eauto.
    + right. apply Keep. exact H.
Qed.

(* pieces of the loop that leave the sender alone and only add agenda entries *)
Definition amono (st st' : lstate) : Prop :=
  l_snd st' = l_snd st /\ forall a, In a (l_agenda st) -> In a (l_agenda st').

Lemma amono_trans a b c : amono a b -> amono b c -> amono a c.
Proof. intros [A1 A2] [B1 B2]. split; [congruence|auto]. Qed.
Lemma sched_amono st t p e : amono st (sched st t p e).
Proof. split; [reflexivity|]. intros a Ha. unfold sched; lproj. apply ainsert_In. right. exact Ha. Qed.
Lemma wd_get_amono st : amono st (wd_get st).
Proof. unfold wd_get. destruct (wd_items (l_wd st)); [split; auto|]. eapply amono_trans; [|apply sched_amono]. split; auto. Qed.
Lemma wa_get_amono st : amono st (wa_get st).
Proof. unfold wa_get. destruct (wa_items (l_wa st)); [split; auto|]. eapply amono_trans; [|apply sched_amono]. split; auto. Qed.
Lemma deliver_data_amono lc st id st' : deliver_data lc st id = inl st' -> amono st st'.
Proof.
  unfold deliver_data. destruct (pkt_get id (l_pkt st)) as [[tm ct]|]; [|discriminate].
  destruct (existsb _ _); intros H; injection H as <-; [split; auto|].
  eapply amono_trans; [|apply sched_amono]. split; auto.
Qed.

Lemma C_amono lc st st' evo :
  amono st st' -> (forall e, evo = Some e -> ~ timer_ev e) -> LInvC lc st evo -> LInvC lc st' None.
Proof.
  intros [S A] Hnt [Cs Cp]. constructor; [rewrite S; exact Cs|].
  intros id Hi. rewrite S in Hi.
  assert (K : forall x, has_ev st evo x -> timer_ev x -> has_ev st' None x).
  { intros x [H|(a & Hin & E)] Ht; [exfalso; exact (Hnt _ H Ht)|]. right. exists a. split; [apply A, Hin|exact E]. }
  destruct (Cp id Hi) as [H|H]; [left|right]; apply K; auto; exists id; auto.
Qed.

Lemma LInvC_oracle lc st ev : LInvC lc st ev -> LInvC lc (no_oracle st) ev.
Proof. intros [Cs Cp]. constructor; lproj; auto. Qed.

Lemma pop_C lc st a rest : LInvC lc st None -> l_agenda st = a :: rest -> LInvC lc (popped st a rest) (Some (ae_ev a)).
Proof.
  intros [Cs Cp] E. constructor; [exact Cs|]. intros id Hi.
  assert (K : forall x, has_ev st None x -> has_ev (popped st a rest) (Some (ae_ev a)) x).
  { intros x [H|(a0 & Hin & Ex)]; [discriminate|]. rewrite E in Hin. destruct Hin as [<-|Hin]; [left; congruence|right; eauto]. }
  destruct (Cp id Hi) as [H|H]; [left|right]; apply K; exact H.
Qed.

Lemma handle_C lc st ev st' :
  lc_ok lc -> mult (mss (lc_cfg lc)) (fsize (lc_cfg lc)) ->
  LInvA lc st (Some ev) -> LInvB lc st (Some ev) -> LInvC lc st (Some ev) -> ev_time_ok (l_now st) ev ->
  handle lc st ev = inl st' -> LInvC lc st' None.
Proof.
  intros Hok Hf HA HB HC Het.
  destruct (handle_cases lc st ev) as [ev st0 e ack st1 S E|ev st0 e ack x S E|id r Hin|ev Hs|ev Hg|ev Hg|id Hp Hq|a p tm ct Hq
                                      |ev id st1 Hv E|ev id Hid Hn]; intros H; try discriminate; injection H as <-.
  - destruct (sender_ev_ok _ _ _ _ _ _ S HA Het) as (Fr & A0 & He & _ & Hev & _).
    assert (B0 : LInvB lc st0 (Some ev)) by (destruct Fr as [->| ->]; [exact HB|apply LInvB_oracle, HB]).
    assert (C0 : LInvC lc st0 (Some ev)) by (destruct Fr as [->| ->]; [exact HC|apply LInvC_oracle, HC]).
    pose proof (sender_event_C lc st0 e ev st1 Hok Hf A0 B0 C0 He Hev E) as C1.
    destruct ack; [|exact C1]. apply (C_amono lc st1 _ None); [apply wa_get_amono|discriminate|exact C1].
  - (* the timer's Initialize event is replaced by its Timeout *)
    destruct HC as [Cs Cp]. constructor; [exact Cs|]. intros i Hi. lproj.
    destruct (Z.eq_dec i id) as [->|Hne].
    + right. right. eexists. split; [apply ainsert_In; left; reflexivity|reflexivity].
    + destruct (Cp i Hi) as [[E|(a & Ha & E)]|[E|(a & Ha & E)]]; try (injection E as E; congruence).
      * left. right. exists a. split; [apply ainsert_In; right; exact Ha|exact E].
      * right. right. exists a. split; [apply ainsert_In; right; exact Ha|exact E].
  - destruct HC as [Cs Cp]. constructor; [exact Cs|]. intros i Hi.
    destruct (Cp i Hi) as [[E|K]|[E|K]]; [injection E as ->|left; right; exact K|injection E as ->|right; right; exact K];
      cbn beta iota in Hs; apply has_timer_In in Hi; congruence.
  - apply (C_amono lc st _ (Some ev)); [apply wd_get_amono| |exact HC].
    intros e0 [= <-] (i & [E0|E0]); destruct Hg as [->|[-> _]]; discriminate.
  - apply (C_amono lc st _ (Some ev)); [apply wa_get_amono| |exact HC].
    intros e0 [= <-] (i & [E0|E0]); destruct Hg as [->|[-> _]]; discriminate.
  - apply (C_amono lc st _ (Some (AWireGetD id))); [apply sched_amono| |exact HC]. intros e0 [= <-] (i & [E0|E0]); discriminate.
  - apply (C_amono lc st _ (Some (AWireGetA a p tm ct))); [apply sched_amono| |exact HC].
    intros e0 [= <-] (i & [E0|E0]); discriminate.
  - apply (C_amono lc st _ (Some ev)); [eapply amono_trans; [eapply deliver_data_amono; eauto|apply wd_get_amono]| |exact HC].
    intros e0 [= <-] (i & [E0|E0]); destruct Hv as [->|[-> _]]; discriminate.
Qed.

Record lc_ok2 (lc : lcfg) : Prop := {
  ok2_ok : lc_ok lc;
  ok2_size : mult (mss (lc_cfg lc)) (fsize (lc_cfg lc))
}.

Lemma linit_C lc cw ss rtt0 orc : lc_ok2 lc -> LInvC lc (linit cw ss rtt0 orc) None.
Proof.
  intros [[_ Hm _] Hf]. constructor; unfold linit; lproj.
  - apply init_C; assumption.
  - intros id Hi. unfold init in Hi; proj. destruct Hi.
Qed.

Lemma reach_C lc cw ss rtt0 orc st :
  lc_ok2 lc -> (zq (mss (lc_cfg lc)) <= cw)%Q -> (0 < rtt0)%Q ->
  lreach lc (linit cw ss rtt0 orc) st -> LInvAB lc st /\ LInvC lc st None.
Proof.
  intros Hok2 Hc Hr. pose proof Hok2 as [Hok Hf]. induction 1 as [|st st' Hreach IH Hstep].
  - split; [constructor; [apply linit_A; assumption|apply linit_B]|apply linit_C; exact Hok2].
  - destruct IH as [[HA HB] HC]. split; [eapply lstep_AB; eauto; constructor; assumption|].
    apply lstep_popped in Hstep as (a & rest & E & H0).
    destruct (pop_A lc st a rest HA E) as (P1 & Pt & _).
    eapply handle_C; eauto; [apply pop_B; assumption|apply pop_C; assumption].
Qed.

Lemma acount_pos p l : (0 < acount p l)%nat -> exists a, In a l /\ p (ae_ev a) = true.
Proof.
  unfold acount. induction l as [|x l IH]; cbn [filter length]; [lia|].
  destruct (p (ae_ev x)) eqn:E; [intros _; exists x; split; [left; reflexivity|exact E]|].
  intros H. destruct (IH H) as (a & Ha & Ea). exists a. split; [right; exact Ha|exact Ea].
Qed.

(* what is pending when the transfer is not finished: the retransmission timer of the first
   unacknowledged segment has its kernel event on the agenda, or the sender process is about to run *)
Definition pending_work (lc : lcfg) (st : lstate) : Prop :=
  (exists id a, In id (keys (timers (l_snd st))) /\ id <= last_ack (l_snd st) < id + mss (lc_cfg lc) /\
                In a (l_agenda st) /\ (ae_ev a = ATimerInit id \/ ae_ev a = ATimerFire id)) \/
  (exists a, In a (l_agenda st) /\ (ae_ev a = ASenderWake \/ ae_ev a = ASenderCb)).

(* UNFINISHED => PENDING: in every reachable state, if last_ack has not reached the end of the flow
   (equivalently: the sink does not hold [0,size) contiguously, see the corollary), the agenda holds
   a timer event of the first unacknowledged segment or an event that resumes the sender: the
   simulation cannot become quiescent before the transfer is complete *)
Theorem loop_unfinished_has_pending lc cw ss rtt0 orc st :
  lc_ok2 lc -> (zq (mss (lc_cfg lc)) <= cw)%Q -> (0 < rtt0)%Q -> fsize (lc_cfg lc) <> 0 ->
  lreach lc (linit cw ss rtt0 orc) st ->
  last_ack (l_snd st) < fsize (lc_cfg lc) -> pending_work lc st.
Proof.
  intros Hok2 Hc Hr Hfs Hreach Hla. pose proof Hok2 as [Hok Hf]. pose proof Hok as [Hfx Hm Hd].
  destruct (reach_C lc cw ss rtt0 orc st Hok2 Hc Hr Hreach) as [[HA HB] [Cs Cp]].
  pose proof (LInvB_nse_le lc st None Hm HB) as Hnse. pose proof (lb_la _ _ _ HB) as Hlb.
  set (s := l_snd st) in *. set (m := mss (lc_cfg lc)) in *.
  assert (H0la : 0 <= last_ack s).
  { pose proof (loop_last_ack_monotone lc cw ss rtt0 orc _ st Hok Hc Hr (reach_init _ _) Hreach) as H. exact H. }
  destruct (Z_lt_ge_dec (last_ack s) (next_seq s)) as [Hlt|Hge].
  - (* some sent data is not acknowledged: its timer is armed and has its kernel event *)
    left. set (k := last_ack s / m).
    assert (Hk : 0 <= k /\ k * m <= last_ack s < k * m + m).
    { unfold k. pose proof (Z.div_mod (last_ack s) m ltac:(lia)) as E. pose proof (Z.mod_pos_bound (last_ack s) m Hm) as Bm.
      split; [apply Z.div_pos; lia|]. nia. }
    destruct Hk as (Hk0 & Hk1 & Hk2).
    assert (Hin : In (k * m) (keys (timers s))) by (apply (sc_timers _ _ Cs); [exact Hk0|lia|lia]).
    destruct (Cp _ Hin) as [[E|(a & Ha & Ea)]|[E|(a & Ha & Ea)]]; try discriminate.
    + exists (k * m), a. repeat split; auto; lia.
    + exists (k * m), a. repeat split; auto; lia.
  - (* everything sent is acknowledged, more is to be sent: the sender process is runnable *)
    right. assert (Hns : next_seq s < fsize (lc_cfg lc)) by lia.
    destruct (sc_ctl _ _ Cs) as [Hfin|[Hwt|Hwk]].
    + destruct (sc_fin _ _ Cs Hfin) as [_ Hx]. lia.
    + destruct (tokens s) as [|tk] eqn:Et.
      * pose proof (sc_wait0 _ _ Cs Hwt Et). lia.
      * assert (Hp : (0 < pend s)%nat) by (apply (sc_wait1 _ _ Cs Hwt); lia).
        pose proof (la_cb _ _ _ HA) as Hc'. cbn [opt_count] in Hc'. rewrite Nat.add_0_r in Hc'.
        destruct (acount_pos is_cb (l_agenda st)) as (a & Ha & Ea); [fold s in Hc'; lia|].
        exists a. split; [exact Ha|]. right. destruct (ae_ev a); try discriminate; reflexivity.
    + pose proof (la_wake _ _ _ HA) as Hw. rewrite Nat.add_0_r in Hw. fold s in Hw. rewrite Hwk in Hw. cbn [b2n] in Hw.
      destruct (acount_pos is_wake (l_agenda st)) as (a & Ha & Ea); [lia|].
      exists a. split; [exact Ha|]. left. destruct (ae_ev a); try discriminate; reflexivity.
Qed.

(* corollaries in the words of the property *)
Theorem loop_not_quiescent_while_unfinished lc cw ss rtt0 orc st :
  lc_ok2 lc -> (zq (mss (lc_cfg lc)) <= cw)%Q -> (0 < rtt0)%Q -> fsize (lc_cfg lc) <> 0 ->
  lreach lc (linit cw ss rtt0 orc) st ->
  (last_ack (l_snd st) < fsize (lc_cfg lc) \/ nse (l_sink st) < fsize (lc_cfg lc)) -> l_agenda st <> [].
Proof.
  intros Hok2 Hc Hr Hfs Hreach Hun.
  assert (Hla : last_ack (l_snd st) < fsize (lc_cfg lc)).
  { destruct Hun as [H|H]; [exact H|].
    destruct (loop_last_ack_le_prefix_le_next_seq lc cw ss rtt0 orc st (ok2_ok _ Hok2) Hc Hr Hreach) as [[A _] _]. lia. }
  destruct (loop_unfinished_has_pending lc cw ss rtt0 orc st Hok2 Hc Hr Hfs Hreach Hla) as [(id & a & _ & _ & Ha & _)|(a & Ha & _)];
    intros E; rewrite E in Ha; destruct Ha.
Qed.

(* a quiescent loop has delivered everything: the sink holds exactly [0, size) and last_ack = size *)
Theorem loop_quiescent_complete lc cw ss rtt0 orc st :
  lc_ok2 lc -> (zq (mss (lc_cfg lc)) <= cw)%Q -> (0 < rtt0)%Q -> fsize (lc_cfg lc) <> 0 ->
  lreach lc (linit cw ss rtt0 orc) st -> l_agenda st = [] ->
  last_ack (l_snd st) = fsize (lc_cfg lc) /\ nse (l_sink st) = fsize (lc_cfg lc) /\
  sink_prefix (l_sink st) (fsize (lc_cfg lc)).
Proof.
  intros Hok2 Hc Hr Hfs Hreach Hq.
  destruct (loop_last_ack_le_prefix_le_next_seq lc cw ss rtt0 orc st (ok2_ok _ Hok2) Hc Hr Hreach) as [[A B] P].
  destruct (reach_C lc cw ss rtt0 orc st Hok2 Hc Hr Hreach) as [_ [Cs _]].
  pose proof (sc_buf _ _ Cs) as [B1 B2]. specialize (B2 Hfs).
  destruct (Z_lt_ge_dec (last_ack (l_snd st)) (fsize (lc_cfg lc))) as [Hlt|Hge].
  - exfalso. eapply loop_not_quiescent_while_unfinished; eauto.
  - assert (E1 : last_ack (l_snd st) = fsize (lc_cfg lc)) by lia.
    assert (E2 : nse (l_sink st) = fsize (lc_cfg lc)) by lia.
    split; [exact E1|]. split; [exact E2|]. rewrite <- E2. exact P.
Qed.

(* ================================================================================================ *)
(* Two clauses of the property as plain statements, for the record.  Neither is proved in this form: reliable
   delivery is C16_reliable_delivery (Props/C16_Live.v, with an explicit fuel bound), the loss-free clause is
   lossfree_no_retransmit (Tcp/LoopLossfree.v, with the hypothesis on the timeouts stated on the configuration). *)

(* liveness: with finitely many drops the loop becomes quiescent (and is then complete by loop_quiescent_complete) *)
Definition reliable_delivery_statement : Prop :=
  forall lc cw ss rtt0 orc, lc_ok2 lc -> (zq (mss (lc_cfg lc)) <= cw)%Q -> (0 < rtt0)%Q -> fsize (lc_cfg lc) <> 0 ->
  exists fuel st T, (T <= lc_tmax lc)%Q -> lrun fuel lc (linit cw ss rtt0 orc) = LQuiescent st.

(* no drops and 2*delay below every armed timeout: no segment id is offered to the data path twice *)
Definition lossfree_no_retransmit_statement : Prop :=
  forall lc cw ss rtt0 orc fuel, lc_ok2 lc -> (zq (mss (lc_cfg lc)) <= cw)%Q -> (0 < rtt0)%Q ->
  lc_drop_data lc = [] -> lc_drop_ack lc = [] ->
  let st := lfinal (lrun fuel lc (linit cw ss rtt0 orc)) in
  (forall e, In e (l_slog st) -> forall id r, In (id, r) (timers (sl_post e)) -> (2 * lc_delay lc < r)%Q) ->
  NoDup (map dl_id (l_d1 st)).

(* on every path: a segment is transmitted again only by its own timer's expiry or by
   a duplicate ACK counted third or later (fast retransmit); everything else transmits new data only *)
Theorem retransmission_needs_expiry_or_third_dup fx c s e s' o id z :
  0 <= dupack s -> step fx c s e = Ok s' o -> In (Tx id z) o ->
  e = EWake \/ e = EExpire id \/
  (exists pid sample orc, e = EAck id pid sample orc /\ id = last_ack s /\ 3 <= dupack s + 1).
Proof.
  intros Hd H Hin. destruct e as [ackno pid sample orc|id0| |]; cbn [step] in H; [| | |left; reflexivity].
  - right; right. apply on_ack_shape in H; [|exact Hd]. destruct H as (_ & _ & _ & _ & _ & [D|Nw]).
    + destruct D as (Ea & _ & Ed & _ & _ & _ & _ & _ & _ & _ & [->|(-> & _ & H3)]); [destruct Hin|].
      destruct Hin as [E|[]]. injection E as <- _. exists pid, sample, orc. repeat split; auto. lia.
    + destruct Nw as (_ & _ & _ & _ & _ & -> & _). apply in_map_iff in Hin as (? & ? & _). discriminate.
  - right; left. apply on_timer_shape in H as (_ & _ & [->|(-> & _)]).
    + destruct Hin as [E|[]]; discriminate.
    + destruct Hin as [E|[E|[]]]; [injection E as <- _; reflexivity|discriminate].
  - apply on_storecb_shape in H as (-> & _). destruct Hin.
Qed.

Lemma current_is_repaired : current = repaired.
Proof. reflexivity. Qed.
