(* C16 liveness: the packets in flight as one pipeline with delivery deadlines,
   and the status of each armed retransmission timer.
   An ACK created at ct reaches the sender by ct + d.  The data wire serves one packet at a time and
   each service takes at most d, whatever retransmissions do to the packet's stamps: the packet
   held by the wire leaves by [base], the j-th queued one by base + (j+1) d; its ACK arrives d later.
   These deadlines never increase.  With X = last_ack:
     X-item    a data copy of segment X, or an ACK numbered above X (its arrival ends the epoch);
     witness   of timer i: a data copy of i, or an ACK triggered by a copy of i;
     P(i)      timer i's Timeout is due after the deadline of a witness of i;
     L(i)      timer i's Timeout is due after the deadline of an X-item.
   A P or L timer cannot fire before that item is consumed (or dropped). *)
From Coq Require Import ZArith QArith Qabs Qround Qminmax List Bool Lia Lqa Arith.
From ONL Require Import Tcp.Sink Tcp.SinkProofs Tcp.Sender Tcp.SenderProofs Tcp.Loop Tcp.LoopProofs Tcp.LoopLive
  Tcp.LoopLossfree Tcp.LoopLive2 Tcp.LoopLive2T.
Import ListNotations.
Open Scope Z_scope.

Inductive item := IA (a pid : Z) | ID (id : Z).

Section Pipe.
Variable lc : lcfg.
Local Notation d := (lc_delay lc).
Hypothesis Hd : (0 <= d)%Q.

(* the ACK held by the ACK wire and the instant by which it reaches the sender *)
Definition hA1te (t : Q) (e : aev) : list (item * Q) :=
  match e with AWireGetA k p _ ct | AWireOutA k p _ ct => [(IA k p, (ct + d)%Q)] | _ => [] end.
Definition hA1 (a : aentry) : list (item * Q) := hA1te (ae_time a) (ae_ev a).
Definition heldA_items (ag : list aentry) : list (item * Q) := flat_map hA1 ag.
Definition qA_items (w : wireA) : list (item * Q) := map (fun r => (IA (a_no r) (a_pid r), (a_ct r + d)%Q)) (wa_items w).

(* the packet held by the data wire and the bound on the instant it leaves *)
Definition hD1te (t : Q) (e : aev) : list (Z * Q) :=
  match e with AWireOutD id => [(id, t)] | AWireGetD id => [(id, (t + d)%Q)] | _ => [] end.
Definition hD1 (a : aentry) : list (Z * Q) := hD1te (ae_time a) (ae_ev a).
Definition hD (ag : list aentry) : list (Z * Q) := flat_map hD1 ag.
Definition base (now : Q) (ag : list aentry) : Q := match hD ag with (_, t) :: _ => t | [] => now end.
Definition heldD_items (ag : list aentry) : list (item * Q) := map (fun x => (ID (fst x), (snd x + d)%Q)) (hD ag).
Fixpoint qD_items (b : Q) (l : list Z) : list (item * Q) :=
  match l with [] => [] | id :: t => (ID id, (b + d + d)%Q) :: qD_items (b + d)%Q t end.

Definition pipe (st : lstate) : list (item * Q) :=
  heldA_items (l_agenda st) ++ qA_items (l_wa st) ++ heldD_items (l_agenda st) ++
  qD_items (base (l_now st) (l_agenda st)) (wd_items (l_wd st)).

(* [x'] is at least as good as [x]: same packet (or its ACK), deadline not later *)
Definition better (x x' : item * Q) : Prop := fst x' = fst x /\ (snd x' <= snd x)%Q.

Lemma qD_mono b b' l x : (b' <= b)%Q -> In x (qD_items b l) -> exists x', In x' (qD_items b' l) /\ better x x'.
Proof.
  revert b b'. induction l as [|id t IH]; intros b b' Hb; cbn [qD_items In]; [tauto|].
  intros [<-|H].
  - eexists. split; [left; reflexivity|]. split; cbn [fst snd]; [reflexivity|lra].
  - destruct (IH (b + d)%Q (b' + d)%Q ltac:(lra) H) as (x' & A & B). exists x'. split; [right; exact A|exact B].
Qed.

Lemma qD_lo b l x : In x (qD_items b l) -> (b <= snd x)%Q.
Proof.
  revert b. induction l as [|id t IH]; intros b; cbn [qD_items In]; [tauto|].
  intros [<-|H]; [cbn [snd]; lra|]. specialize (IH _ H). lra.
Qed.

Definition nlen {A : Type} (l : list A) : Q := inject_Z (Z.of_nat (length l)).

Lemma nlen_cons {A : Type} (x : A) l : (nlen (x :: l) == nlen l + 1)%Q.
Proof. unfold nlen. cbn [length]. rewrite Nat2Z.inj_succ. unfold Z.succ. rewrite inject_Z_plus. reflexivity. Qed.

Lemma nlen_nonneg {A : Type} (l : list A) : (0 <= nlen l)%Q.
Proof. unfold nlen. change 0%Q with (inject_Z 0). rewrite <- Zle_Qle. apply Nat2Z.is_nonneg. Qed.

Lemma nlen_app {A : Type} (a b : list A) : (nlen (a ++ b) == nlen a + nlen b)%Q.
Proof. unfold nlen. rewrite app_length, Nat2Z.inj_add, inject_Z_plus. reflexivity. Qed.

Lemma qD_hi b l x : In x (qD_items b l) -> (snd x <= b + nlen l * d + d)%Q.
Proof.
  revert b. induction l as [|id t IH]; intros b; cbn [qD_items In]; [tauto|].
  pose proof (nlen_nonneg t) as Hn. rewrite nlen_cons.
  intros [<-|H]; [cbn [snd]; nra|]. specialize (IH _ H). nra.
Qed.

Lemma qD_app b l k : qD_items b (l ++ k) = qD_items b l ++ qD_items (fold_left (fun q _ => (q + d)%Q) l b) k.
Proof. revert b. induction l as [|id t IH]; intros b; cbn [app qD_items fold_left]; [reflexivity|]. rewrite IH. reflexivity. Qed.

Lemma fold_add b (l : list Z) : (fold_left (fun q _ => (q + d)%Q) l b == b + nlen l * d)%Q.
Proof.
  revert b. induction l as [|id t IH]; intros b; cbn [fold_left]; [unfold nlen; cbn [length Z.of_nat]; change (inject_Z 0) with 0%Q; lra|].
  rewrite IH, nlen_cons. lra.
Qed.

Lemma hD_cons a l : hD (a :: l) = hD1 a ++ hD l.
Proof. reflexivity. Qed.

Lemma hD_nil_count ag : hD ag = [] <-> acount is_holdD ag = O.
Proof.
  induction ag as [|a l IH]; [split; reflexivity|]. rewrite hD_cons, acount_cons. unfold hD1, hD1te, is_holdD.
  destruct (ae_ev a); cbn [dataid_of app b2n]; rewrite ?Nat.add_0_l; try exact IH; split; try discriminate; lia.
Qed.

Lemma In_hD ag id t : In (id, t) (hD ag) <->
  exists b, In b ag /\ ((ae_ev b = AWireOutD id /\ t = ae_time b) \/ (ae_ev b = AWireGetD id /\ t = (ae_time b + d)%Q)).
Proof.
  unfold hD. rewrite in_flat_map. split.
  - intros (b & Hb & Hx). exists b. split; [exact Hb|]. unfold hD1, hD1te in Hx.
    destruct (ae_ev b); cbn [In] in Hx; try contradiction; destruct Hx as [E|[]]; injection E as <- <-; auto.
  - intros (b & Hb & [[E ->]|[E ->]]); exists b; (split; [exact Hb|]); unfold hD1, hD1te; rewrite E; left; reflexivity.
Qed.

Lemma In_heldA ag it td : In (it, td) (heldA_items ag) <->
  exists b k p tm ct, In b ag /\ (ae_ev b = AWireGetA k p tm ct \/ ae_ev b = AWireOutA k p tm ct) /\ it = IA k p /\ td = (ct + d)%Q.
Proof.
  unfold heldA_items. rewrite in_flat_map. split.
  - intros (b & Hb & Hx). unfold hA1, hA1te in Hx.
    destruct (ae_ev b) eqn:E; cbn [In] in Hx; try contradiction; destruct Hx as [Ex|[]]; injection Ex as <- <-;
      exists b, ackno, pid, tm, ct; auto.
  - intros (b & k & p & tm & ct & Hb & [E|E] & -> & ->); exists b; (split; [exact Hb|]); unfold hA1, hA1te; rewrite E; left; reflexivity.
Qed.

(* every deadline is at or after the instant of the next agenda entry: the clock cannot pass a deadline *)
Lemma pipe_lo st a rest x :
  LInvW lc st -> l_agenda st = a :: rest -> (forall b, In b (l_agenda st) -> (ae_time a <= ae_time b)%Q) ->
  In x (pipe st) -> (ae_time a <= snd x)%Q.
Proof.
  intros [W0 We0 WDs WAs Wst0 Wlen0] E Hall Hx. pose proof We0 as We. rewrite Forall_forall in We. destruct x as [it td]. cbn [snd].
  unfold pipe in Hx. apply in_app_or in Hx as [Hx|Hx]; [|apply in_app_or in Hx as [Hx|Hx]; [|apply in_app_or in Hx as [Hx|Hx]]].
  - apply In_heldA in Hx as (b & k & p & tm & ct & Hb & Hev & _ & ->).
    pose proof (Hall b Hb) as T1. pose proof (We b Hb) as T2. destruct Hev as [Ev|Ev]; rewrite Ev in T2; cbn [entry_w] in T2; lra.
  - unfold qA_items in Hx. apply in_map_iff in Hx as (r & Er & Hr). injection Er as _ <-.
    exact (head_time_acks lc _ _ _ _ r WAs We0 Hall Hr).
  - unfold heldD_items in Hx. apply in_map_iff in Hx as ([id t] & Er & Hr). injection Er as _ <-. cbn [snd].
    apply In_hD in Hr as (b & Hb & [[Ev ->]|[Ev ->]]); pose proof (Hall b Hb); lra.
  - assert (Hne : wd_items (l_wd st) <> []) by (intros En; rewrite En in Hx; destruct Hx).
    apply qD_lo in Hx. cbn [snd] in Hx.
    assert (Hb : (ae_time a <= base (l_now st) (l_agenda st))%Q); [|lra].
    unfold base. destruct (hD (l_agenda st)) as [|[id t] l] eqn:Eh.
    + apply hD_nil_count in Eh. destruct (sum_pos_ex _ _ _ (c_wake _ _ _ _ _ _ WDs Eh Hne)) as (b & B1 & B2).
      pose proof (Hall b B1) as T1. pose proof (We b B1) as T2.
      destruct (ae_ev b) as [| | | |[]|[]| | | |]; cbn [is_putD is_initD entry_w] in *; destruct B2; try discriminate; lra.
    + assert (Hin : In (id, t) (hD (l_agenda st))) by (rewrite Eh; left; reflexivity).
      apply In_hD in Hin as (b & Hb & [[Ev ->]|[Ev ->]]); pose proof (Hall b Hb); lra.
Qed.

Lemma hD_fin_hi now ag id t :
  Forall (fun b => entry_w lc now (ae_time b) (ae_ev b)) ag -> In (id, t) (hD ag) -> (t <= now + d)%Q.
Proof.
  intros We H. rewrite Forall_forall in We. apply In_hD in H as (b & Hb & [[Ev ->]|[Ev ->]]);
    pose proof (We b Hb) as T; rewrite Ev in T; cbn [entry_w] in T; lra.
Qed.

Lemma base_hi now ag :
  Forall (fun b => entry_w lc now (ae_time b) (ae_ev b)) ag -> (base now ag <= now + d)%Q.
Proof.
  intros We. unfold base. destruct (hD ag) as [|[id t] l] eqn:Eh; [lra|].
  apply (hD_fin_hi now ag id t We). rewrite Eh. left. reflexivity.
Qed.

(* and no deadline is further away than (queue length + 2) propagation delays *)
Lemma pipe_hi st x :
  LInvW lc st -> In x (pipe st) -> (snd x <= l_now st + (nlen (wd_items (l_wd st)) + 2) * d)%Q.
Proof.
  intros [W0 We0 WDs WAs Wst0 Wlen0] Hx. pose proof We0 as We. rewrite Forall_forall in We. destruct x as [it td]. cbn [snd].
  pose proof (nlen_nonneg (wd_items (l_wd st))) as Hn.
  unfold pipe in Hx. apply in_app_or in Hx as [Hx|Hx]; [|apply in_app_or in Hx as [Hx|Hx]; [|apply in_app_or in Hx as [Hx|Hx]]].
  - apply In_heldA in Hx as (b & k & p & tm & ct & Hb & Hev & _ & ->).
    pose proof (We b Hb) as T2. destruct Hev as [Ev|Ev]; rewrite Ev in T2; cbn [entry_w] in T2; nra.
  - unfold qA_items in Hx. apply in_map_iff in Hx as (r & Er & Hr). injection Er as _ <-.
    pose proof (wa_acks _ _ _ _ WAs) as Ha. rewrite Forall_forall in Ha. destruct (Ha r Hr). nra.
  - unfold heldD_items in Hx. apply in_map_iff in Hx as ([id t] & Er & Hr). injection Er as _ <-. cbn [snd].
    pose proof (hD_fin_hi _ _ _ _ We0 Hr). nra.
  - apply qD_hi in Hx. cbn [snd] in Hx. pose proof (base_hi _ _ We0). nra.
Qed.

Lemma insert_split (e : aentry) l : exists l1 l2, l = l1 ++ l2 /\ ainsert e l = l1 ++ e :: l2.
Proof.
  induction l as [|x t IH]; cbn [ainsert].
  - exists [], []. split; reflexivity.
  - destruct (ae_before e x).
    + exists [], (x :: t). split; reflexivity.
    + destruct IH as (l1 & l2 & -> & E). exists (x :: l1), l2. split; [reflexivity|]. rewrite E. reflexivity.
Qed.

Section Proj.
Context {X : Type} (f : Q -> aev -> list X).
(* what f reads off each agenda entry, in agenda order (hD, heldA_items, fires are instances) *)
Definition fm (ag : list aentry) : list X := flat_map (fun a => f (ae_time a) (ae_ev a)) ag.

Lemma fm_AddsT_nil rest ag' news :
  AddsT rest ag' news -> (forall n, In n news -> f (fst n) (snd n) = []) -> fm ag' = fm rest.
Proof.
  induction 1 as [|ag ag' news t p k e H IH]; intros Hn; [reflexivity|].
  destruct (insert_split (mkae t p k e) ag') as (l1 & l2 & E1 & E2). rewrite E2.
  rewrite <- IH by (intros n Hin; apply Hn; apply in_or_app; left; exact Hin). rewrite E1.
  unfold fm. rewrite !flat_map_app. cbn [flat_map ae_time ae_ev].
  pose proof (Hn (t, e) ltac:(apply in_or_app; right; left; reflexivity)) as Hx. cbn [fst snd] in Hx. rewrite Hx. reflexivity.
Qed.

Lemma fm_AddsT_In rest ag' news x :
  AddsT rest ag' news -> (In x (fm ag') <-> In x (fm rest) \/ exists n, In n news /\ In x (f (fst n) (snd n))).
Proof.
  induction 1 as [|ag ag' news t p k e H IH].
  - split; [auto|]. intros [H|(n & [] & _)]. exact H.
  - destruct (insert_split (mkae t p k e) ag') as (l1 & l2 & E1 & E2). rewrite E2.
    assert (E3 : In x (fm (l1 ++ mkae t p k e :: l2)) <-> In x (fm ag') \/ In x (f t e)).
    { rewrite E1. unfold fm. rewrite !flat_map_app, !in_app_iff. cbn [flat_map ae_time ae_ev]. rewrite in_app_iff. tauto. }
    rewrite E3, IH. split.
    + intros [[A|(n & A & B)]|A]; [left; exact A|right; exists n; split; [apply in_or_app; left; exact A|exact B]|].
      right. exists (t, e). split; [apply in_or_app; right; left; reflexivity|exact A].
    + intros [A|(n & A & B)]; [left; left; exact A|]. apply in_app_or in A as [A|[<-|[]]]; [left; right; eauto|right; exact B].
Qed.

End Proj.

Lemma hD_AddsT_nil rest ag' news :
  AddsT rest ag' news -> (forall n, In n news -> is_holdD (snd n) = false) -> hD ag' = hD rest.
Proof.
  intros HA Hn. apply (fm_AddsT_nil hD1te _ _ _ HA). intros n Hin. specialize (Hn n Hin).
  unfold hD1te. destruct (snd n); try reflexivity; discriminate.
Qed.

Lemma heldA_AddsT_nil rest ag' news :
  AddsT rest ag' news -> (forall n, In n news -> is_holdA (snd n) = false) -> heldA_items ag' = heldA_items rest.
Proof.
  intros HA Hn. apply (fm_AddsT_nil hA1te _ _ _ HA). intros n Hin. specialize (Hn n Hin).
  unfold hA1te. destruct (snd n); try reflexivity; discriminate.
Qed.

Lemma hD_len ag : length (hD ag) = acount is_holdD ag.
Proof.
  induction ag as [|a l IH]; [reflexivity|]. rewrite hD_cons, acount_cons, app_length, IH. unfold hD1, hD1te, is_holdD.
  destruct (ae_ev a); reflexivity.
Qed.

Lemma hD_single ag x : (acount is_holdD ag <= 1)%nat -> In x (hD ag) -> hD ag = [x].
Proof.
  intros Hc Hin. rewrite <- hD_len in Hc. destruct (hD ag) as [|y [|z l]]; cbn [length] in Hc; [destruct Hin| |lia].
  destruct Hin as [->|[]]. reflexivity.
Qed.

Lemma base_of_in now ag id t : (acount is_holdD ag <= 1)%nat -> In (id, t) (hD ag) -> base now ag = t.
Proof. intros Hc Hin. unfold base. rewrite (hD_single ag _ Hc Hin). reflexivity. Qed.

Lemma base_nil now ag : acount is_holdD ag = O -> base now ag = now.
Proof. intros H. apply hD_nil_count in H. unfold base. rewrite H. reflexivity. Qed.

Definition fire1 (t : Q) (e : aev) : list (Z * Q) := match e with ATimerFire j => [(j, t)] | _ => [] end.
Definition fires (ag : list aentry) : list (Z * Q) := fm fire1 ag.

Lemma In_fires ag j t : In (j, t) (fires ag) <-> exists b, In b ag /\ ae_ev b = ATimerFire j /\ ae_time b = t.
Proof.
  unfold fires, fm. rewrite in_flat_map. split.
  - intros (b & Hb & Hx). exists b. split; [exact Hb|]. unfold fire1 in Hx. destruct (ae_ev b); cbn [In] in Hx; try contradiction.
    destruct Hx as [E|[]]. injection E as <- <-. auto.
  - intros (b & Hb & E & <-). exists b. split; [exact Hb|]. unfold fire1. rewrite E. left. reflexivity.
Qed.
End Pipe.

Section Status.
Variable lc : lcfg.
Local Notation d := (lc_delay lc).

Definition isX (X : Z) (it : item) : bool := match it with ID id => id =? X | IA k _ => X <? k end.
Definition isW (i : Z) (it : item) : bool := match it with ID id => id =? i | IA _ p => p =? i end.

Definition has (p : item -> bool) (pp : list (item * Q)) (D : Q) : bool := existsb (fun x => p (fst x) && Qltb (snd x) D) pp.
Definition stat (p : item -> bool) (st : lstate) (i : Z) : bool :=
  existsb (fun f => (fst f =? i) && has p (pipe lc st) (snd f)) (fires (l_agenda st)).
Definition statP (st : lstate) (i : Z) : bool := stat (isW i) st i.
Definition statL (st : lstate) (i : Z) : bool := stat (isX (last_ack (l_snd st))) st i.
(* an X-item is in flight: the epoch will end without another expiry of the segment at last_ack *)
Definition zmode (st : lstate) : bool := existsb (fun x => isX (last_ack (l_snd st)) (fst x)) (pipe lc st).

Definition cntnot (f : Z -> bool) (ks : list Z) : Z := Z.of_nat (length (filter (fun i => negb (f i)) ks)).

Lemma cntnot_nonneg f ks : 0 <= cntnot f ks.
Proof. unfold cntnot. lia. Qed.
Lemma cntnot_le_len f ks : cntnot f ks <= Z.of_nat (length ks).
Proof.
  unfold cntnot. assert ((length (filter (fun i => negb (f i)) ks) <= length ks)%nat); [|lia].
  induction ks as [|k l IH]; cbn [filter length]; [lia|]. destruct (negb (f k)); cbn [length]; lia.
Qed.
Lemma cntnot_pos f ks i : In i ks -> f i = false -> 1 <= cntnot f ks.
Proof. intros Hin Hf. unfold cntnot. pose proof (filter_ge1 (fun i => negb (f i)) ks i Hin ltac:(cbv beta; rewrite Hf; reflexivity)). lia. Qed.
Lemma cntnot_app f a b : cntnot f (a ++ b) = cntnot f a + cntnot f b.
Proof. unfold cntnot. rewrite filter_app, app_length. lia. Qed.

Lemma cntnot_mono f g ks : (forall i, In i ks -> f i = true -> g i = true) -> cntnot g ks <= cntnot f ks.
Proof.
  intros H. unfold cntnot. induction ks as [|k l IH]; cbn [filter]; [lia|].
  assert (IH' : (length (filter (fun i => negb (g i)) l) <= length (filter (fun i => negb (f i)) l))%nat).
  { assert (forall i, In i l -> f i = true -> g i = true) by (intros i Hi; apply H; right; exact Hi). specialize (IH H0). lia. }
  destruct (f k) eqn:Ef; cbn [negb].
  - rewrite (H k (or_introl eq_refl) Ef). cbn [negb]. lia.
  - destruct (g k); cbn [negb length]; lia.
Qed.

(* one key may lose its status *)
Lemma cntnot_mono_but f g ks i0 : NoDup ks ->
  (forall i, In i ks -> i <> i0 -> f i = true -> g i = true) -> cntnot g ks <= cntnot f ks + 1.
Proof.
  intros Hnd H. destruct (in_dec Z.eq_dec i0 ks) as [Hin|Hnot].
  - apply in_split in Hin as (l1 & l2 & ->). apply NoDup_remove_2 in Hnd. change (i0 :: l2) with ([i0] ++ l2) in H |- *. rewrite !cntnot_app.
    pose proof (cntnot_mono f g l1 ltac:(intros i Hi; apply H; [apply in_or_app; left; exact Hi|intros ->; apply Hnd, in_or_app; left; exact Hi])).
    pose proof (cntnot_mono f g l2 ltac:(intros i Hi; apply H; [apply in_or_app; right; right; exact Hi|intros ->; apply Hnd, in_or_app; right; exact Hi])).
    pose proof (cntnot_le_len g [i0]). pose proof (cntnot_nonneg f [i0]). cbn [length Z.of_nat] in *. lia.
  - pose proof (cntnot_mono f g ks ltac:(intros i Hi; apply H; [exact Hi|intros ->; contradiction])). lia.
Qed.

(* one key gains its status, the others keep theirs *)
Lemma cntnot_gain f g ks i0 :
  In i0 ks -> f i0 = false -> g i0 = true -> (forall i, In i ks -> f i = true -> g i = true) -> cntnot g ks + 1 <= cntnot f ks.
Proof.
  intros Hin Hf Hg H. apply in_split in Hin as (l1 & l2 & ->). change (i0 :: l2) with ([i0] ++ l2). rewrite !cntnot_app.
  pose proof (cntnot_mono f g l1 ltac:(intros i Hi; apply H; apply in_or_app; left; exact Hi)).
  pose proof (cntnot_mono f g l2 ltac:(intros i Hi; apply H; apply in_or_app; right; right; exact Hi)).
  unfold cntnot at 2 5. cbn [filter]. rewrite Hf, Hg. cbn [negb length Z.of_nat]. lia.
Qed.


(* it' serves every timer it serves, and is an X-item if it is: a data copy and the ACK it triggers *)
Definition Rx (X : Z) (it it' : item) : Prop :=
  (forall i, isW i it = true -> isW i it' = true) /\ (isX X it = true -> isX X it' = true).

Lemma Rx_refl X it : Rx X it it.
Proof. split; auto. Qed.

(* every item of pp but the excepted ones has a successor in pp' with a deadline that is not later *)
Definition Pres (X : Z) (pp pp' : list (item * Q)) (exc : item * Q -> Prop) : Prop :=
  forall x, In x pp -> exc x \/ exists x', In x' pp' /\ Rx X (fst x) (fst x') /\ (snd x' <= snd x)%Q.

Definition fires_keep (i : Z) (st st' : lstate) : Prop :=
  forall t, In (i, t) (fires (l_agenda st)) -> In (i, t) (fires (l_agenda st')).

Lemma stat_intro p st i D x :
  In (i, D) (fires (l_agenda st)) -> In x (pipe lc st) -> p (fst x) = true -> Qltb (snd x) D = true -> stat p st i = true.
Proof.
  intros Hf Hx Hw Hlt. apply existsb_exists. exists (i, D). split; [exact Hf|]. cbn [fst snd]. rewrite Z.eqb_refl.
  apply existsb_exists. exists x. split; [exact Hx|]. rewrite Hw, Hlt. reflexivity.
Qed.

Lemma stat_elim p st i : stat p st i = true ->
  exists D x, In (i, D) (fires (l_agenda st)) /\ In x (pipe lc st) /\ p (fst x) = true /\ (snd x < D)%Q.
Proof.
  intros H. apply existsb_exists in H as ([j D] & Hf & Hc). cbn [fst snd] in Hc. apply andb_true_iff in Hc as [C1 C2].
  apply Z.eqb_eq in C1. subst j. apply existsb_exists in C2 as (x & Hx & Hc). apply andb_true_iff in Hc as [C2 C3].
  exists D, x. rewrite <- Qltb_true. auto.
Qed.

Lemma stat_mono X p p' st st' exc i :
  Pres X (pipe lc st) (pipe lc st') exc -> (forall it it', Rx X it it' -> p it = true -> p' it' = true) ->
  (forall x, exc x -> p (fst x) = false) -> fires_keep i st st' -> stat p st i = true -> stat p' st' i = true.
Proof.
  intros HP HR He Hf H. apply stat_elim in H as (D & x & HD & Hx & C1 & C2).
  destruct (HP x Hx) as [Hex|(x' & Hx' & R & Hle)]; [rewrite (He x Hex) in C1; discriminate|].
  apply (stat_intro p' st' i D x'); [apply Hf; exact HD|exact Hx'|exact (HR _ _ R C1)|apply Qltb_true; lra].
Qed.

Lemma zmode_mono st st' exc :
  last_ack (l_snd st') = last_ack (l_snd st) ->
  Pres (last_ack (l_snd st)) (pipe lc st) (pipe lc st') exc -> (forall x, exc x -> isX (last_ack (l_snd st)) (fst x) = false) ->
  zmode st = true -> zmode st' = true.
Proof.
  intros HX HP He H. unfold zmode in *. rewrite HX. apply existsb_exists in H as (x & Hx & C1).
  destruct (HP x Hx) as [Hex|(x' & Hx' & [_ R2] & _)]; [rewrite (He x Hex) in C1; discriminate|].
  apply existsb_exists. exists x'. split; [exact Hx'|apply R2; exact C1].
Qed.
End Status.

(* what an agenda step does to the two halves of the pipeline *)
Section Parts.
Variable lc : lcfg.
Local Notation d := (lc_delay lc).
Hypothesis Hd : (0 <= d)%Q.

(* the two halves of pipe: what the data wire holds and queues, what the ACK wire holds and queues *)
Definition DPl (now : Q) (ag : list aentry) (items : list Z) : list (item * Q) :=
  heldD_items lc ag ++ qD_items lc (base lc now ag) items.
Definition APl (ag : list aentry) (w : wireA) : list (item * Q) := heldA_items lc ag ++ qA_items lc w.

Lemma pipe_parts st : pipe lc st = APl (l_agenda st) (l_wa st) ++ DPl (l_now st) (l_agenda st) (wd_items (l_wd st)).
Proof. unfold pipe, APl, DPl. rewrite <- app_assoc. reflexivity. Qed.

Lemma hD_nothold a l : is_holdD (ae_ev a) = false -> hD lc (a :: l) = hD lc l.
Proof. intros H. rewrite hD_cons. unfold hD1, hD1te. destruct (ae_ev a); try reflexivity; discriminate. Qed.

Lemma heldA_cons a l : heldA_items lc (a :: l) = hA1 lc a ++ heldA_items lc l.
Proof. reflexivity. Qed.

Lemma heldA_nothold a l : is_holdA (ae_ev a) = false -> heldA_items lc (a :: l) = heldA_items lc l.
Proof. intros H. unfold heldA_items. cbn [flat_map]. unfold hA1, hA1te. destruct (ae_ev a); try reflexivity; discriminate. Qed.

Lemma better_refl x : better x x.
Proof. split; [reflexivity|apply Qle_refl]. Qed.

Lemma qD_prefix b l k x : In x (qD_items lc b l) -> In x (qD_items lc b (l ++ k)).
Proof. intros H. rewrite qD_app. apply in_or_app. left. exact H. Qed.

(* the data wire is not involved (or only receives new segments) *)
Lemma DP_same now tau a rest ag' news items kp x :
  is_holdD (ae_ev a) = false -> AddsT rest ag' news -> (forall n, In n news -> is_holdD (snd n) = false) ->
  (acount is_holdD (a :: rest) = O -> items <> [] -> (tau <= now)%Q) ->
  In x (DPl now (a :: rest) items) -> exists x', In x' (DPl tau ag' (items ++ kp)) /\ better x x'.
Proof.
  intros Ha HA Hn Ht Hx. unfold DPl in *.
  assert (Eh : hD lc ag' = hD lc (a :: rest)) by (rewrite (hD_AddsT_nil lc _ _ _ HA Hn), hD_nothold; auto).
  assert (Ehi : heldD_items lc ag' = heldD_items lc (a :: rest)) by (unfold heldD_items; rewrite Eh; reflexivity).
  apply in_app_or in Hx as [Hx|Hx].
  - exists x. split; [apply in_or_app; left; rewrite Ehi; exact Hx|apply better_refl].
  - assert (Hne : items <> []) by (intros En; rewrite En in Hx; destruct Hx).
    assert (Hb : (base lc tau ag' <= base lc now (a :: rest))%Q).
    { unfold base. rewrite Eh. destruct (hD lc (a :: rest)) as [|[i t] l] eqn:E; [|apply Qle_refl].
      apply Ht; [apply (proj1 (hD_nil_count lc _)); exact E|exact Hne]. }
    destruct (qD_mono lc _ _ _ x Hb Hx) as (x' & A & B). exists x'. split; [apply in_or_app; right; apply qD_prefix; exact A|exact B].
Qed.

(* the held packet starts its propagation delay: it leaves no later than assumed *)
Lemma DP_wait now tau a rest ag' id t' items x :
  ae_ev a = AWireGetD id -> ae_time a = tau -> AddsT rest ag' [(t', AWireOutD id)] -> (t' <= tau + d)%Q ->
  acount is_holdD rest = O ->
  In x (DPl now (a :: rest) items) -> exists x', In x' (DPl tau ag' items) /\ better x x'.
Proof.
  intros Ea Et HA Ht Hc Hx. unfold DPl in *.
  assert (E0 : hD lc (a :: rest) = [(id, (tau + d)%Q)]).
  { rewrite hD_cons. rewrite (proj2 (hD_nil_count lc _) Hc), app_nil_r. unfold hD1, hD1te. rewrite Ea, Et. reflexivity. }
  assert (Hin : In (id, t') (hD lc ag')).
  { apply (fm_AddsT_In (hD1te lc) _ _ _ (id, t') HA). right. exists (t', AWireOutD id). split; [left; reflexivity|left; reflexivity]. }
  assert (Hc' : (acount is_holdD ag' <= 1)%nat) by (rewrite (AddsT_acount _ _ _ _ HA), Hc; cbn; lia).
  pose proof (hD_single lc ag' _ Hc' Hin) as Eh.
  unfold heldD_items, base in *. rewrite E0 in Hx. rewrite Eh. cbn [map fst snd] in *.
  apply in_app_or in Hx as [[<-|[]]|Hx].
  - eexists. split; [left; reflexivity|]. split; cbn [fst snd]; [reflexivity|lra].
  - destruct (qD_mono lc _ _ _ x Ht Hx) as (x' & A & B). exists x'. split; [right; exact A|exact B].
Qed.

(* the wire's process takes the next packet out of its store *)
Lemma DP_get tau b0 rest ag' n0 w x :
  acount is_holdD rest = O -> AddsT rest ag' (n0 ++ fst (getD_eff tau w)) -> (forall n, In n n0 -> is_holdD (snd n) = false) ->
  (tau <= b0)%Q ->
  In x (qD_items lc b0 (wd_items w)) -> exists x', In x' (DPl tau ag' (wd_items (snd (getD_eff tau w)))) /\ better x x'.
Proof.
  intros Hc HA Hn Hb Hx. unfold DPl, getD_eff in *. destruct (wd_items w) as [|y l] eqn:Ei; [destruct Hx|]. cbn [fst snd wd_items] in *.
  assert (Hin : In (y, (nq tau + d)%Q) (hD lc ag')).
  { apply (fm_AddsT_In (hD1te lc) _ _ _ (y, (nq tau + d)%Q) HA). right. exists (nq tau, AWireGetD y).
    split; [apply in_or_app; right; left; reflexivity|left; reflexivity]. }
  assert (Hc' : (acount is_holdD ag' <= 1)%nat).
  { rewrite (AddsT_acount _ _ _ _ HA), Hc, ncount_app, ncount_cons. cbn [snd is_holdD dataid_of b2n ncount filter length].
    rewrite (ncount_nil_pred is_holdD n0 Hn). lia. }
  pose proof (hD_single lc ag' _ Hc' Hin) as Eh.
  unfold heldD_items, base. rewrite Eh. cbn [map fst snd]. cbn [qD_items] in Hx. pose proof (nq_eq tau) as Hq.
  destruct Hx as [<-|Hx].
  - eexists. split; [left; reflexivity|]. split; cbn [fst snd]; [reflexivity|lra].
  - assert (Hb' : (nq tau + d <= b0 + d)%Q) by lra.
    destruct (qD_mono lc _ _ _ x Hb' Hx) as (x' & A & B). exists x'. split; [right; exact A|exact B].
Qed.

Lemma heldA_nil_count ag : acount is_holdA ag = O -> heldA_items lc ag = [].
Proof.
  induction ag as [|a l IH]; [reflexivity|]. rewrite acount_cons. intros H.
  rewrite heldA_nothold; [apply IH; lia|]. destruct (is_holdA (ae_ev a)); [cbn [b2n] in H; lia|reflexivity].
Qed.

Lemma AP_same a rest ag' news (w w' : wireA) l x :
  is_holdA (ae_ev a) = false -> AddsT rest ag' news -> (forall n, In n news -> is_holdA (snd n) = false) ->
  wa_items w' = wa_items w ++ l ->
  In x (APl (a :: rest) w) -> In x (APl ag' w').
Proof.
  intros Ha HA Hn Hw Hx. unfold APl in *. rewrite (heldA_AddsT_nil lc _ _ _ HA Hn). rewrite heldA_nothold in Hx by exact Ha.
  apply in_app_or in Hx as [Hx|Hx]; apply in_or_app; [left; exact Hx|right].
  unfold qA_items in *. rewrite Hw, map_app. apply in_or_app. left. exact Hx.
Qed.

Lemma AP_wait a rest ag' k p tm ct t' w x :
  ae_ev a = AWireGetA k p tm ct -> AddsT rest ag' [(t', AWireOutA k p tm ct)] ->
  In x (APl (a :: rest) w) -> In x (APl ag' w).
Proof.
  intros Ea HA Hx. unfold APl in *. apply in_app_or in Hx as [Hx|Hx]; apply in_or_app; [left|right; exact Hx].
  unfold heldA_items in *. cbn [flat_map] in Hx. apply in_app_or in Hx as [Hx|Hx].
  - unfold hA1, hA1te in Hx. rewrite Ea in Hx. destruct Hx as [<-|[]].
    apply (fm_AddsT_In (hA1te lc) _ _ _ _ HA). right. exists (t', AWireOutA k p tm ct). split; [left; reflexivity|left; reflexivity].
  - apply (fm_AddsT_In (hA1te lc) _ _ _ _ HA). left. exact Hx.
Qed.

Lemma AP_get tau rest ag' n0 w x :
  AddsT rest ag' (n0 ++ fst (getA_eff tau w)) ->
  In x (qA_items lc w) -> In x (APl ag' (snd (getA_eff tau w))).
Proof.
  intros HA Hx. unfold APl, getA_eff, qA_items in *. destruct (wa_items w) as [|y l] eqn:Ei; [destruct Hx|]. cbn [fst snd wa_items map] in *.
  destruct Hx as [<-|Hx]; apply in_or_app; [left|right; exact Hx].
  apply (fm_AddsT_In (hA1te lc) _ _ _ _ HA). right. eexists. split; [apply in_or_app; right; left; reflexivity|]. left. reflexivity.
Qed.

(* a waiting data wire with packets in its store is being woken in the current instant *)
Lemma head_le_now_D st a rest :
  LInvW lc st -> l_agenda st = a :: rest -> (forall b, In b (l_agenda st) -> (ae_time a <= ae_time b)%Q) ->
  acount is_holdD (l_agenda st) = O -> wd_items (l_wd st) <> [] -> (ae_time a <= l_now st)%Q.
Proof.
  intros [W0 We WDs WAs Wst0 Wlen0] E Hall Hc Hne. rewrite Forall_forall in We.
  destruct (sum_pos_ex _ _ _ (c_wake _ _ _ _ _ _ WDs Hc Hne)) as (b & B1 & B2).
  pose proof (Hall b B1) as T1. pose proof (We b B1) as T2.
  destruct (ae_ev b) as [| | | |[]|[]| | | |]; cbn [is_putD is_initD entry_w] in *; destruct B2; try discriminate; lra.
Qed.

Lemma Tr_adds st a rest st' : Tr lc st a rest st' -> exists news, AddsT rest (l_agenda st') news.
Proof.
  intros HT. Tr_cases HT; eauto.
  - destruct (droppedA lc (l_n2 st)); destruct Hif as [_ H]; eauto.
Qed.

Lemma fires_cons a l j t : In (j, t) (fires (a :: l)) <-> (ae_ev a = ATimerFire j /\ ae_time a = t) \/ In (j, t) (fires l).
Proof.
  unfold fires, fm. cbn [flat_map]. rewrite in_app_iff. unfold fire1 at 1. split.
  - intros [H|H]; [left|right; exact H]. destruct (ae_ev a); cbn [In] in H; try contradiction. destruct H as [E|[]]. injection E as <- <-. auto.
  - intros [[E <-]|H]; [left; rewrite E; left; reflexivity|right; exact H].
Qed.

(* the Timeout events of the other timers stay on the agenda *)
Lemma fires_keep_step st a rest st' i :
  l_agenda st = a :: rest -> Tr lc st a rest st' -> ae_ev a <> ATimerFire i -> fires_keep i st st'.
Proof.
  intros E HT Hne t Hin. destruct (Tr_adds _ _ _ _ HT) as (news & HA). rewrite E in Hin.
  apply fires_cons in Hin as [[Ea _]|Hin]; [contradiction|].
  apply (fm_AddsT_In fire1 _ _ _ _ HA). left. exact Hin.
Qed.

Lemma sender_news_nohold tau o n1 nw kp k s s' e n :
  oeff lc tau n1 o = (nw, kp, k) -> In n (nw ++ extra_news tau s s' e) -> is_holdD (snd n) = false /\ is_holdA (snd n) = false.
Proof. intros Ho Hn. destruct (sender_news lc _ _ _ _ _ _ _ _ _ n Ho Hn) as (D & A & _). unfold is_holdD, is_holdA. rewrite D, A. auto. Qed.

Lemma getD_news_nohold tau w n : In n (fst (getD_eff tau w)) -> is_holdA (snd n) = false.
Proof. unfold getD_eff. destruct (wd_items w); cbn [fst]; [intros []|]. intros [<-|[]]. reflexivity. Qed.
Lemma getA_news_nohold tau w n : In n (fst (getA_eff tau w)) -> is_holdD (snd n) = false.
Proof. unfold getA_eff. destruct (wa_items w); cbn [fst]; [intros []|]. intros [<-|[]]. reflexivity. Qed.

Definition consumed (st : lstate) (a : aentry) (x : item * Q) : Prop :=
  (exists e, ev_sender lc st (ae_time a) (ae_ev a) e true) /\ In x (hA1 lc a).

(* EVERY ITEM IN FLIGHT SURVIVES an agenda step that does not drop an ACK, with a deadline that is not
   later -- except the ACK handed to the sender *)
Lemma step_Pres st a rest st' :
  0 < mss (lc_cfg lc) -> LInvB lc st None -> LInvW lc st -> l_agenda st = a :: rest ->
  (l_now st <= ae_time a)%Q -> (forall b, In b (l_agenda st) -> (ae_time a <= ae_time b)%Q) ->
  Tr lc st a rest st' -> (droppedA lc (l_n2 st) = false \/ l_n2 st' = l_n2 st) ->
  Pres (last_ack (l_snd st)) (pipe lc st) (pipe lc st') (consumed st a).
Proof.
  intros Hm HB HW E Hn Hall HT Hnd. pose proof HW as [W0 We WDs WAs Wst0 Wlen0]. rewrite E in We, WDs, WAs.
  set (X := last_ack (l_snd st)).
  assert (ToP : forall x x', In x' (pipe lc st') -> better x x' -> consumed st a x \/ exists x', In x' (pipe lc st') /\ Rx X (fst x) (fst x') /\ (snd x' <= snd x)%Q).
  { intros x x' Hin [B1 B2]. right. exists x'. split; [exact Hin|]. split; [rewrite B1; apply Rx_refl|exact B2]. }
  assert (InA : forall x', In x' (APl (l_agenda st') (l_wa st')) -> In x' (pipe lc st')) by (intros x' H; rewrite pipe_parts; apply in_or_app; left; exact H).
  assert (InD : forall x', In x' (DPl (l_now st') (l_agenda st') (wd_items (l_wd st'))) -> In x' (pipe lc st')) by (intros x' H; rewrite pipe_parts; apply in_or_app; right; exact H).
  assert (HleD : acount is_holdD (a :: rest) = O -> wd_items (l_wd st) <> [] -> (ae_time a <= l_now st)%Q).
  { intros Hc Hne. apply (head_le_now_D st a rest HW E Hall); [rewrite E; exact Hc|exact Hne]. }
  (* a half of the pipeline that the step does not take anything out of *)
  assert (SameA : forall news l x, is_holdA (ae_ev a) = false -> AddsT rest (l_agenda st') news ->
            (forall n, In n news -> is_holdA (snd n) = false) -> wa_items (l_wa st') = wa_items (l_wa st) ++ l ->
            In x (APl (a :: rest) (l_wa st)) ->
            consumed st a x \/ exists x', In x' (pipe lc st') /\ Rx X (fst x) (fst x') /\ (snd x' <= snd x)%Q).
  { intros news l x Ra HA Hnh Hw Hx. apply (ToP x x); [|apply better_refl]. apply InA. exact (AP_same a rest _ news _ _ l x Ra HA Hnh Hw Hx). }
  assert (SameD : forall news kp x, is_holdD (ae_ev a) = false -> AddsT rest (l_agenda st') news ->
            (forall n, In n news -> is_holdD (snd n) = false) -> l_now st' = ae_time a -> wd_items (l_wd st') = wd_items (l_wd st) ++ kp ->
            In x (DPl (l_now st) (a :: rest) (wd_items (l_wd st))) ->
            consumed st a x \/ exists x', In x' (pipe lc st') /\ Rx X (fst x) (fst x') /\ (snd x' <= snd x)%Q).
  { intros news kp x Ra HA Hnh Hnow Hw Hx.
    destruct (DP_same (l_now st) (ae_time a) a rest _ news (wd_items (l_wd st)) kp x Ra HA Hnh HleD Hx) as (x' & A & B).
    apply (ToP x x'); [|exact B]. apply InD. rewrite Hnow, Hw. exact A. }
  assert (One : forall (p : aev -> bool) (t : Q) e, p e = false -> forall n : Q * aev, In n [(t, e)] -> p (snd n) = false) by (intros p t e He n [<-|[]]; exact He).
  intros x Hx. rewrite pipe_parts, E in Hx.
  Tr_cases HT;
    [|destruct Hk as [k1 k2 k3 k4 k5 k6 k7]; unfold popped in *; lproj;
      Quiet_cases Hq|];
    apply in_app_or in Hx as [Hx|Hx].
  - (* sender, ACK half: the ACK handed to the sender is consumed, the next one is taken from the store *)
    destruct (ev_sender_roles _ _ _ _ _ _ Hev) as (R1 & R2 & R3 & R4 & R5 & R6).
    destruct isack; destruct Hif as [-> Hwa].
    + unfold APl in Hx. apply in_app_or in Hx as [Hx|Hx].
      * rewrite heldA_cons in Hx. apply in_app_or in Hx as [Hx|Hx]; [left; split; [eauto|exact Hx]|].
        pose proof (proj1 (Ctl_rest _ _ _ _ _ _ _ (wa_c _ _ _ _ WAs) (or_intror (or_intror R6)))) as Hc. rewrite (heldA_nil_count _ Hc) in Hx. destruct Hx.
      * apply (ToP x x); [|apply better_refl]. apply InA. rewrite Hwa. exact (AP_get _ _ _ _ _ x HA' Hx).
    + apply (SameA _ [] x R6 HA'); [|rewrite Hwa, app_nil_r; reflexivity|exact Hx].
      intros n Hin. rewrite app_nil_r in Hin. eapply sender_news_nohold; eauto.
  - (* sender, data half *)
    destruct (ev_sender_roles _ _ _ _ _ _ Hev) as (R1 & R2 & R3 & R4 & R5 & R6).
    apply (SameD _ kp x R1 HA'); [|exact Hnow|rewrite Hwd; reflexivity|exact Hx].
    intros n Hin. apply in_app_or in Hin as [Hin|Hin]; [eapply sender_news_nohold; eauto|].
    destruct isack; destruct Hif as [-> _]; [eapply getA_news_nohold; eauto|destruct Hin].
  - (* Timer Initialize *)
    apply (SameA _ [] x ltac:(rewrite Hev; reflexivity) HA'); [apply One; reflexivity|rewrite Hwa, app_nil_r; reflexivity|exact Hx].
  - apply (SameD _ [] x ltac:(rewrite Hev; reflexivity) HA'); [apply One; reflexivity|exact k1|rewrite Hwd, app_nil_r; reflexivity|exact Hx].
  - (* nothing *)
    assert (Ra : is_holdA (ae_ev a) = false) by (destruct (ae_ev a) as [| | | | |[]| | | |]; try contradiction; reflexivity).
    apply (SameA [] [] x Ra HA'); [intros n []|rewrite Hwa, app_nil_r; reflexivity|exact Hx].
  - assert (Ra : is_holdD (ae_ev a) = false) by (destruct (ae_ev a) as [| | | | |[]| | | |]; try contradiction; reflexivity).
    apply (SameD [] [] x Ra HA'); [intros n []|exact k1|rewrite Hwd, app_nil_r; reflexivity|exact Hx].
  - (* the data wire takes the next packet out of its store *)
    apply (SameA _ [] x ltac:(destruct Hev as [->|[-> _]]; reflexivity) HA'); [apply getD_news_nohold|rewrite Hwa, app_nil_r; reflexivity|exact Hx].
  - assert (Ra : is_holdD (ae_ev a) = false) by (destruct Hev as [->|[-> _]]; reflexivity).
    assert (Hc : acount is_holdD rest = O).
    { refine (proj1 (Ctl_rest _ _ _ _ _ _ _ WDs _)). destruct Hev as [->|[-> Hw]]; [left; reflexivity|right; left; split; [reflexivity|exact Hw]]. }
    assert (Hc2 : acount is_holdD (a :: rest) = O) by (rewrite acount_cons, Ra; cbn [b2n]; lia).
    unfold DPl, heldD_items in Hx. rewrite (base_nil lc _ _ Hc2), (proj2 (hD_nil_count lc _) Hc2) in Hx. cbn [map app] in Hx.
    assert (Hne : wd_items (l_wd st) <> []) by (intros En; rewrite En in Hx; destruct Hx).
    destruct (DP_get (ae_time a) (l_now st) rest _ [] (l_wd st) x Hc HA' ltac:(intros n []) (HleD Hc2 Hne) Hx) as (x' & A & B).
    apply (ToP x x'); [|exact B]. apply InD. rewrite k1, Hwd. exact A.
  - (* the ACK wire takes the next ACK out of its store *)
    assert (Ra : is_holdA (ae_ev a) = false) by (destruct Hev as [->|[-> _]]; reflexivity).
    assert (Hc : acount is_holdA rest = O).
    { refine (proj1 (Ctl_rest _ _ _ _ _ _ _ (wa_c _ _ _ _ WAs) _)). destruct Hev as [->|[-> Hw]]; [left; reflexivity|right; left; split; [reflexivity|exact Hw]]. }
    unfold APl in Hx. rewrite heldA_nothold in Hx by exact Ra. rewrite (heldA_nil_count _ Hc) in Hx. cbn [app] in Hx.
    apply (ToP x x); [|apply better_refl]. apply InA. rewrite Hwa. exact (AP_get (ae_time a) rest _ [] _ x HA' Hx).
  - apply (SameD _ [] x ltac:(destruct Hev as [->|[-> _]]; reflexivity) HA'); [apply getA_news_nohold|exact k1|rewrite Hwd, app_nil_r; reflexivity|exact Hx].
  - (* a data packet starts its propagation delay: it leaves no later than assumed *)
    apply (SameA _ [] x ltac:(rewrite Hev; reflexivity) HA'); [apply One; reflexivity|rewrite Hwa, app_nil_r; reflexivity|exact Hx].
  - assert (Hc : acount is_holdD rest = O) by (refine (proj1 (Ctl_rest _ _ _ _ _ _ _ WDs _)); right; right; rewrite Hev; reflexivity).
    assert (Ht : (nq (ae_time a + (d - (ae_time a - wd_entered (l_wd st)))) <= ae_time a + d)%Q).
    { rewrite nq_eq. destruct Wst0 as [Hc' _]. lra. }
    destruct (DP_wait (l_now st) (ae_time a) a rest _ id _ (wd_items (l_wd st)) x Hev eq_refl HA' Ht Hc Hx) as (x' & A & B).
    apply (ToP x x'); [|exact B]. apply InD. rewrite k1, Hwd. exact A.
  - (* an ACK starts its propagation delay *)
    apply (ToP x x); [|apply better_refl]. apply InA. rewrite Hwa. exact (AP_wait a rest _ _ _ _ _ _ _ x Hev HA' Hx).
  - apply (SameD _ [] x ltac:(rewrite Hev; reflexivity) HA'); [apply One; reflexivity|exact k1|rewrite Hwd, app_nil_r; reflexivity|exact Hx].
  - (* delivery at the sink, ACK half *)
    assert (Hdr : droppedA lc (l_n2 st) = false) by (destruct Hnd as [H|H]; [exact H|rewrite Hn2 in H; lia]).
    rewrite Hdr in Hif. destruct Hif as [Hwa HA'].
    apply (SameA _ [mkack (nse (l_sink st')) id tm (ae_time a)] x ltac:(destruct Hev as [->|[-> _]]; reflexivity) HA'); [|rewrite Hwa; reflexivity|exact Hx].
    intros n [<-|Hin]; [reflexivity|eapply getD_news_nohold; eauto].
  - (* delivery at the sink, data half: the delivered copy becomes its ACK *)
    assert (Hdr : droppedA lc (l_n2 st) = false) by (destruct Hnd as [H|H]; [exact H|rewrite Hn2 in H; lia]).
    rewrite Hdr in Hif. destruct Hif as [Hwa HA'].
    assert (Ra1 : is_holdD (ae_ev a) = true) by (destruct Hev as [->|[-> _]]; reflexivity).
    assert (Hc : acount is_holdD rest = O) by (refine (proj1 (Ctl_rest _ _ _ _ _ _ _ WDs _)); right; right; exact Ra1).
    assert (Eh : exists fin, hD lc (a :: rest) = [(id, fin)] /\ (ae_time a <= fin)%Q).
    { rewrite hD_cons, (proj2 (hD_nil_count lc _) Hc), app_nil_r. unfold hD1, hD1te.
      destruct Hev as [->|[-> _]]; eexists; (split; [reflexivity|lra]). }
    destruct Eh as (fin & Eh & Hfin).
    unfold DPl, heldD_items, base in Hx. rewrite Eh in Hx. cbn [map fst snd] in Hx.
    apply in_app_or in Hx as [[<-|[]]|Hx].
    + right. exists (IA (nse (l_sink st')) id, (ae_time a + d)%Q). split; [|split].
      * apply InA. unfold APl. apply in_or_app. right. unfold qA_items. rewrite Hwa. cbn [wa_items]. rewrite map_app.
        apply in_or_app. right. left. reflexivity.
      * cbn [fst]. split; [intros i Hi; exact Hi|]. cbn [isX]. intros Hi. apply Z.eqb_eq in Hi. apply Z.ltb_lt.
        assert (Hseg : 0 <= id).
        { destruct (lb_evd _ _ _ HB (ae_ev a) id) as [A _]; [right; exists a; split; [rewrite E; left; reflexivity|reflexivity]|destruct Hev as [->|[-> _]]; reflexivity|exact A]. }
        destruct (sink_nse_after lc st None id Hm HB Hseg) as (_ & _ & M3). cbv zeta in M3. rewrite <- Hsink in M3.
        pose proof (lb_la _ _ _ HB). subst id. fold X in M3. specialize (M3 ltac:(unfold X; lia)). unfold X in *. lia.
      * cbn [snd]. lra.
    + destruct (DP_get (ae_time a) fin rest _ [(nq (ae_time a), AWirePutCb true)] (l_wd st) x Hc HA' ltac:(intros n [<-|[]]; reflexivity) Hfin Hx) as (x' & A & B).
      apply (ToP x x'); [|exact B]. apply InD. rewrite Hnow, Hwd. exact A.
Qed.
End Parts.
