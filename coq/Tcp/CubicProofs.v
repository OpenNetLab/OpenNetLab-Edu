(* Proofs about Tcp/Cubic.v: the oracle of the sender model is the computed CUBIC cnt; the cube-root
   branch is dead; the growth rule in closed form. *)
From Coq Require Import ZArith QArith Qabs Qminmax List Bool Lia Lqa.
From ONL Require Import Tcp.Sender Tcp.SenderProofs Tcp.Cubic.
Import ListNotations.
Open Scope Z_scope.

(* ---- how put() consumes the oracle ---- *)

(* a duplicate ACK, or any ACK that does not reach ack_received(): the oracle is not looked at *)
Lemma on_ack_oracle_irrelevant fx c s ackno pid sample o o' :
  ack_counts s ackno = false -> on_ack fx c s ackno pid sample o = on_ack fx c s ackno pid sample o'.
Proof.
  unfold ack_counts, on_ack. destruct (ackno =? last_ack s) eqn:Ea.
  - proj. intros H. rewrite H. reflexivity.
  - destruct (0 <? dupack s) eqn:E0; [discriminate|]. intros H. rewrite H.
    destruct (dupack s =? 3); [reflexivity|]. destruct (3 <? dupack s); reflexivity.
Qed.

(* an ACK that reaches ack_received(): ack_received runs on cwnd = ack_cwnd (after the deflation, if
   any), and that is the only place the oracle goes: cc_ack *)
Lemma on_ack_counts fx c s ackno pid sample o :
  ack_counts s ackno = true -> 0 <= dupack s ->
  ackno <> last_ack s /\
  on_ack fx c s ackno pid sample o =
  let s1 := set_dupack (set_cc s (ack_cwnd fx s ackno) (ssthresh s)) 0 in
  match cc_ack c (ack_cwnd fx s ackno) (ssthresh s) (cwnd_cnt s) (cnt s) o with
  | None => Raise ZeroDiv
  | Some (cw, ccnt, cn) =>
      let ids := acked_ids fx c s1 ackno pid in
      match stop_all ids (timers s) (sent s) [] with
      | None => Raise (KeyErr (first_missing ids (sent s)))
      | Some (t, se, oo) =>
          Ok (store_put (mkst (next_seq s) (send_buffer s) ackno 0 cw (ssthresh s)
                              (srtt s + (1 # 8) * (sample - srtt s))%Q
                              (rttvar s + (1 # 4) * (Qabs (sample - srtt s) - rttvar s))%Q
                              (srtt s + (1 # 8) * (sample - srtt s) + (4 # 1) * (rttvar s + (1 # 4) * (Qabs (sample - srtt s) - rttvar s)))%Q
                              ccnt cn t se (tokens s) (pend s) (waiting s) (wake s) (finished s))) oo
      end
  end.
Proof.
  intros H Hd. assert (Hne : ackno <> last_ack s).
  { unfold ack_counts in H. destruct (Z.eqb_spec ackno (last_ack s)); [lia|assumption]. }
  split; [exact Hne|]. rewrite on_ack_cases by exact Hd. replace (ackno =? last_ack s) with false by lia. reflexivity.
Qed.

(* ---- stepx is step with the computed oracle ---- *)
Lemma stepx_is_step fx c s cs e s' cs' o :
  stepx fx c s cs e = XOk s' cs' o ->
  exists ev, step fx c s ev = Ok s' o /\
             match e, ev with
             | XAck a p sm _, EAck a' p' sm' _ => a = a' /\ p = p' /\ sm = sm'
             | XExpire i, EExpire i' => i = i'
             | XStoreCb, EStoreCb | XWake, EWake => True
             | _, _ => False
             end.
Proof.
  destruct e as [ackno pid sample now|id| |]; cbn [stepx].
  - destruct (ack_counts s ackno).
    + destruct (calg c).
      * destruct (step fx c s (EAck ackno pid sample 0)) eqn:E; [|discriminate]. intros H; injection H as <- <- <-. eexists; split; [exact E|repeat split].
      * destruct (cubic_ack _ _ _ _ _) as [cs1 cn|]; [|discriminate].
        destruct (step fx c s (EAck ackno pid sample _)) eqn:E; [|discriminate]. intros H; injection H as <- <- <-. eexists; split; [exact E|repeat split].
    + destruct (step fx c s (EAck ackno pid sample 0)) eqn:E; [|discriminate]. intros H; injection H as <- <- <-. eexists; split; [exact E|repeat split].
  - destruct (step fx c s (EExpire id)) eqn:E; [|discriminate]. intros H; injection H as <- <- <-. eexists; split; [exact E|repeat split].
  - destruct (step fx c s EStoreCb) eqn:E; [|discriminate]. intros H; injection H as <- <- <-. eexists; split; [exact E|repeat split].
  - destruct (step fx c s EWake) eqn:E; [|discriminate]. intros H; injection H as <- <- <-. eexists; split; [exact E|repeat split].
Qed.

(* ---- the cube-root branch is dead ---- *)
Definition cub_inv (c : config) (s : sender) (cs : cubic) : Prop := win_inv c s /\ (c_wlast cs == 0)%Q.

Lemma cubic_ack_wlast cs cw ss rtt now cs' cn : cubic_ack cs cw ss rtt now = CubOk cs' cn -> c_wlast cs' = c_wlast cs.
Proof.
  unfold cubic_ack. destruct (Qle_bool cw ss); [intros H; injection H as <- _; reflexivity|].
  destruct (Qle_bool (c_epoch cs) 0); [destruct (Qltb cw (c_wlast cs)); [discriminate|]|]; intros H; injection H as <- _; reflexivity.
Qed.

Lemma cubic_ack_no_root cs cw ss rtt now : (c_wlast cs == 0)%Q -> (0 < cw)%Q -> cubic_ack cs cw ss rtt now <> CubicRoot.
Proof.
  intros Hw Hc. unfold cubic_ack. destruct (Qle_bool cw ss); [discriminate|].
  destruct (Qle_bool (c_epoch cs) 0); [|discriminate].
  destruct (Qltb cw (c_wlast cs)) eqn:E; [|discriminate]. apply Qltb_true in E. lra.
Qed.

Lemma stepx_inv fx c s cs e s' cs' o :
  fx_deflate3 fx = true -> 0 < mss c -> cub_inv c s cs -> stepx fx c s cs e = XOk s' cs' o -> cub_inv c s' cs'.
Proof.
  intros Hfx Hm [W Hw] H. pose proof H as H0. apply stepx_is_step in H0 as (ev & Hstep & _).
  split; [eapply step_win_inv; eauto|].
  destruct e as [ackno pid sample now|id| |]; cbn [stepx] in H.
  - destruct (ack_counts s ackno).
    + destruct (calg c).
      * destruct (step _ _ _ _); [|discriminate]. injection H as _ <- _. exact Hw.
      * destruct (cubic_ack _ _ _ _ _) as [cs1 cn|] eqn:Ec; [|discriminate].
        destruct (step _ _ _ _); [|discriminate]. injection H as _ <- _. rewrite (cubic_ack_wlast _ _ _ _ _ _ _ Ec). exact Hw.
    + destruct (step _ _ _ _); [|discriminate]. injection H as _ <- _. exact Hw.
  - destruct (step _ _ _ _); [|discriminate]. injection H as _ <- _. destruct (calg c); [exact Hw|reflexivity].
  - destruct (step _ _ _ _); [|discriminate]. injection H as _ <- _. exact Hw.
  - destruct (step _ _ _ _); [|discriminate]. injection H as _ <- _. exact Hw.
Qed.

Lemma stepx_no_root fx c s cs e :
  fx_deflate3 fx = true -> 0 < mss c -> cub_inv c s cs -> stepx fx c s cs e <> XCubicRoot.
Proof.
  intros Hfx Hm [W Hw]. destruct e as [ackno pid sample now|id| |]; cbn [stepx].
  - destruct (ack_counts s ackno).
    + destruct (calg c); [destruct (step _ _ _ _); discriminate|].
      destruct (cubic_ack _ _ _ _ _) as [cs1 cn|] eqn:Ec; [destruct (step _ _ _ _); discriminate|].
      exfalso. eapply cubic_ack_no_root; [exact Hw| |exact Ec].
      pose proof (ack_cwnd_ge fx c s ackno Hfx Hm W). assert (0 < zq (mss c))%Q by (apply (zq_lt 0); exact Hm). lra.
    + destruct (step _ _ _ _); discriminate.
  - destruct (step _ _ _ _); discriminate.
  - destruct (step _ _ _ _); discriminate.
  - destruct (step _ _ _ _); discriminate.
Qed.

(* W_last_max is only ever 0 and cwnd >= MSS > 0: `cwnd < W_last_max` never holds, K = (...) ** (1/3)
   is never evaluated -- over all histories, from TCPCubic's initial state *)
Theorem cubic_root_unreachable fx c cw0 ss0 rtt0 evs :
  fx_deflate3 fx = true -> 0 < mss c -> (zq (mss c) <= cw0)%Q ->
  runx fx c (init cw0 ss0 rtt0) cubic0 evs <> XCubicRoot.
Proof.
  intros Hfx Hm Hc.
  assert (I0 : cub_inv c (init cw0 ss0 rtt0) cubic0) by (split; [apply init_win_inv; exact Hc|reflexivity]).
  revert I0. generalize (init cw0 ss0 rtt0) as s. generalize cubic0 as cs.
  induction evs as [|e evs IH]; intros cs s I; cbn [runx]; [discriminate|].
  destruct (stepx fx c s cs e) as [s' cs' o|x|] eqn:E.
  - specialize (IH cs' s' (stepx_inv _ _ _ _ _ _ _ _ Hfx Hm I E)).
    destruct (runx fx c s' cs' evs); [discriminate|discriminate|contradiction].
  - discriminate.
  - exfalso. eapply stepx_no_root; eauto.
Qed.

(* and K stays 0 *)
Lemma cubic_ack_k cs cw ss rtt now cs' cn : (c_k cs == 0)%Q -> cubic_ack cs cw ss rtt now = CubOk cs' cn -> (c_k cs' == 0)%Q.
Proof.
  intros Hk. unfold cubic_ack. destruct (Qle_bool cw ss); [intros H; injection H as <- _; exact Hk|].
  destruct (Qle_bool (c_epoch cs) 0); [destruct (Qltb cw (c_wlast cs)); [discriminate|]|]; intros H; injection H as <- _; cbn [c_k]; [reflexivity|exact Hk].
Qed.

(* ---- the growth rule in closed form ---- *)
Lemma friendliness_gain : ((3 # 1) * cBeta / ((2 # 1) - cBeta) == 1 # 3)%Q.
Proof. reflexivity. Qed.

(* congestion avoidance, epoch already running: the cubic target C (t - K)^3 above origin_point, the
   TCP-friendly estimate W_tcp += (1/3) ack_cnt / cwnd, and cnt = cwnd / (target - cwnd) capped by
   cwnd / (W_tcp - cwnd) *)
Theorem cubic_growth_rule cs cw ss rtt now :
  ~ (cw <= ss)%Q -> (0 < c_epoch cs)%Q ->
  let dmin := if Qltb 0 (c_dmin cs) then (if Qle_bool (c_dmin cs) rtt then c_dmin cs else rtt) else rtt in
  let t := (now + dmin - c_epoch cs)%Q in
  let target := (c_origin cs + (2 # 5) * ((t - c_k cs) * (t - c_k cs) * (t - c_k cs)))%Q in
  let wtcp := (c_wtcp cs + (3 # 1) * cBeta / ((2 # 1) - cBeta) * ((c_ackcnt cs + 1) / cw))%Q in
  let cnt1 := if Qltb cw target then (cw / (target - cw))%Q else ((100 # 1) * cw)%Q in
  cubic_ack cs cw ss rtt now =
  CubOk (mkcub (c_wlast cs) (c_epoch cs) (c_origin cs) dmin wtcp (c_k cs) 0)
        (Some (if Qltb cw wtcp then (if Qltb (cw / (wtcp - cw)) cnt1 then cw / (wtcp - cw) else cnt1)%Q else cnt1)).
Proof.
  intros Hca He. unfold cubic_ack.
  destruct (Qle_bool cw ss) eqn:E1; [apply Qle_bool_iff in E1; contradiction|].
  destruct (Qle_bool (c_epoch cs) 0) eqn:E2; [apply Qle_bool_iff in E2; lra|]. reflexivity.
Qed.

(* a new epoch (first congestion-avoidance ACK after the start or after a timeout): origin_point = cwnd,
   epoch_start = now, W_tcp = cwnd, so t = d_min and the target is cwnd + C d_min^3 *)
Theorem cubic_epoch_start_rule cs cw ss rtt now :
  ~ (cw <= ss)%Q -> (c_epoch cs <= 0)%Q -> ~ (cw < c_wlast cs)%Q ->
  let dmin := if Qltb 0 (c_dmin cs) then (if Qle_bool (c_dmin cs) rtt then c_dmin cs else rtt) else rtt in
  let t := (now + dmin - now)%Q in
  let target := (cw + (2 # 5) * ((t - 0) * (t - 0) * (t - 0)))%Q in
  let wtcp := (cw + (3 # 1) * cBeta / ((2 # 1) - cBeta) * (1 / cw))%Q in
  let cnt1 := if Qltb cw target then (cw / (target - cw))%Q else ((100 # 1) * cw)%Q in
  cubic_ack cs cw ss rtt now =
  CubOk (mkcub (c_wlast cs) now cw dmin wtcp 0 0)
        (Some (if Qltb cw wtcp then (if Qltb (cw / (wtcp - cw)) cnt1 then cw / (wtcp - cw) else cnt1)%Q else cnt1)).
Proof.
  intros Hca He Hw. unfold cubic_ack.
  destruct (Qle_bool cw ss) eqn:E1; [apply Qle_bool_iff in E1; contradiction|].
  destruct (Qle_bool (c_epoch cs) 0) eqn:E2; [|apply Qle_bool_false in E2; lra].
  destruct (Qltb cw (c_wlast cs)) eqn:E3; [apply Qltb_true in E3; contradiction|]. reflexivity.
Qed.

(* slow start: only d_min moves, cnt is untouched *)
Theorem cubic_slow_start_rule cs cw ss rtt now :
  (cw <= ss)%Q ->
  cubic_ack cs cw ss rtt now =
  CubOk (mkcub (c_wlast cs) (c_epoch cs) (c_origin cs)
               (if Qltb 0 (c_dmin cs) then (if Qle_bool (c_dmin cs) rtt then c_dmin cs else rtt) else rtt)
               (c_wtcp cs) (c_k cs) (c_ackcnt cs)) None.
Proof. intros H. unfold cubic_ack. apply Qle_bool_iff in H. rewrite H. reflexivity. Qed.

(* the computed cnt is positive (cwnd > 0): the window can always grow again *)
Lemma cnt_formula_pos cw tgt w2 :
  (0 < cw)%Q ->
  let c1 := if Qltb cw tgt then (cw / (tgt - cw))%Q else ((100 # 1) * cw)%Q in
  (0 < (if Qltb cw w2 then (if Qltb (cw / (w2 - cw)) c1 then cw / (w2 - cw) else c1) else c1))%Q.
Proof.
  intros Hc c1.
  assert (P1 : (0 < c1)%Q).
  { unfold c1. destruct (Qltb cw tgt) eqn:Et; [apply Qltb_true in Et; apply Qlt_shift_div_l; lra|lra]. }
  destruct (Qltb cw w2) eqn:Ew; [|exact P1]. apply Qltb_true in Ew.
  destruct (Qltb (cw / (w2 - cw)) c1); [apply Qlt_shift_div_l; lra|exact P1].
Qed.

Theorem cubic_cnt_pos cs cw ss rtt now cs' q :
  (0 < cw)%Q -> cubic_ack cs cw ss rtt now = CubOk cs' (Some q) -> (0 < q)%Q.
Proof.
  intros Hc. unfold cubic_ack. destruct (Qle_bool cw ss); [discriminate|].
  destruct (Qle_bool (c_epoch cs) 0); [destruct (Qltb cw (c_wlast cs)); [discriminate|]|];
    intros H; injection H as _ <-; apply cnt_formula_pos; exact Hc.
Qed.

(* ---- the full rule for a new ACK of TCPCubic: stepx on an ACK that reaches ack_received() ---- *)
Theorem cubic_new_ack_rule fx c s cs ackno pid sample now cs' q :
  calg c = Cubic -> ack_counts s ackno = true -> 0 <= dupack s ->
  cubic_ack cs (ack_cwnd fx s ackno) (ssthresh s) sample now = CubOk cs' q ->
  stepx fx c s cs (XAck ackno pid sample now) =
  match on_ack fx c s ackno pid sample (match q with Some x => x | None => cnt s end) with
  | Ok s' o => XOk s' cs' o
  | Raise x => XRaise x
  end /\
  cc_ack c (ack_cwnd fx s ackno) (ssthresh s) (cwnd_cnt s) (cnt s) (match q with Some x => x | None => cnt s end) =
  Some (match q with
        | None => ((ack_cwnd fx s ackno + zq (mss c))%Q, cwnd_cnt s, cnt s)                 (* slow start *)
        | Some x => if Qltb x (zq (cwnd_cnt s)) then ((ack_cwnd fx s ackno + zq (mss c))%Q, 0, x)   (* cwnd_cnt > cnt *)
                    else (ack_cwnd fx s ackno, cwnd_cnt s + 1, x)
        end).
Proof.
  intros Ha Hc Hd Hq. split.
  - cbn [stepx step]. rewrite Hc, Ha, Hq. reflexivity.
  - unfold cc_ack. rewrite Ha. unfold cubic_ack in Hq.
    destruct (Qle_bool (ack_cwnd fx s ackno) (ssthresh s)); [injection Hq as _ <-; reflexivity|].
    destruct (Qle_bool (c_epoch cs) 0); [destruct (Qltb (ack_cwnd fx s ackno) (c_wlast cs)); [discriminate|]|];
      injection Hq as _ <-; match goal with |- context [Qltb ?x (zq (cwnd_cnt s))] => destruct (Qltb x (zq (cwnd_cnt s))) end; reflexivity.
Qed.
