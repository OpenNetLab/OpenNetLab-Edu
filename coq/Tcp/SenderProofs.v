(* Proofs about Tcp/Sender.v: the window law (C17).  Every rule is an equation between the state
   before and after the event, including what does not change; the invariants are proved over all
   histories of events. *)
From Coq Require Import ZArith QArith Qabs Qround Qminmax List Bool Lia Lqa.
From ONL Require Import Tcp.Sender Tcp.Cubic.
Import ListNotations.
Open Scope Z_scope.

(* reduces the field projections of a sender written out with mkst or the setters, and of configs and fixes *)
Ltac proj :=
  cbn [next_seq send_buffer last_ack dupack cwnd ssthresh srtt rttvar rto cwnd_cnt cnt timers sent tokens pend
       waiting wake finished set_cc set_dupack set_rto set_timers set_store store_put mss fsize calg
       fx_deflate3 fx_guard_resend fx_stop_acked] in *.

(* small facts *)

Lemma Qle_bool_true a b : Qle_bool a b = true <-> (a <= b)%Q.
Proof. apply Qle_bool_iff. Qed.

Lemma Qle_bool_false a b : Qle_bool a b = false <-> (b < a)%Q.
Proof.
  split; intros H.
  - destruct (Qlt_le_dec b a) as [L|L]; [exact L|]. apply Qle_bool_iff in L. congruence.
  - destruct (Qle_bool a b) eqn:E; [|reflexivity]. apply Qle_bool_iff in E. exfalso. apply (Qlt_not_le _ _ H E).
Qed.

Lemma Qltb_true a b : Qltb a b = true <-> (a < b)%Q.
Proof. unfold Qltb. rewrite negb_true_iff. apply Qle_bool_false. Qed.

Lemma Qltb_false a b : Qltb a b = false <-> (b <= a)%Q.
Proof. unfold Qltb. rewrite negb_false_iff. apply Qle_bool_true. Qed.

Lemma zq_le a b : a <= b -> (zq a <= zq b)%Q.
Proof. intros H. unfold zq. rewrite <- Zle_Qle. exact H. Qed.

Lemma zq_lt a b : a < b -> (zq a < zq b)%Q.
Proof. intros H. unfold zq. rewrite <- Zlt_Qlt. exact H. Qed.

Lemma zq_add a b : (zq (a + b) == zq a + zq b)%Q.
Proof. unfold zq. rewrite inject_Z_plus. reflexivity. Qed.

Lemma zq_mul a b : (zq (a * b) == zq a * zq b)%Q.
Proof. unfold zq. rewrite inject_Z_mult. reflexivity. Qed.

(* fast-retransmit threshold: max(2*mss, cwnd/2) *)
Lemma fr_ssthresh_spec m cw : (fr_ssthresh m cw == Qmax (zq (2 * m)) (cw / (2 # 1)))%Q.
Proof.
  unfold fr_ssthresh. destruct (Qltb (zq (2 * m)) (cw / (2 # 1))) eqn:E.
  - apply Qltb_true in E. symmetry. apply Q.max_r. apply Qlt_le_weak, E.
  - apply Qltb_false in E. symmetry. apply Q.max_l. exact E.
Qed.

Lemma fr_ssthresh_ge m cw : (zq (2 * m) <= fr_ssthresh m cw)%Q.
Proof.
  unfold fr_ssthresh. destruct (Qltb (zq (2 * m)) (cw / (2 # 1))) eqn:E.
  - apply Qltb_true in E. apply Qlt_le_weak, E.
  - apply Qle_refl.
Qed.

(* put(ack) with the counting of duplicates resolved: what on_ack computes from the state it is called in.
   [dup_state]: after the third or a later duplicate; [new_ack_state]: after an ACK that reaches ack_received(),
   which sees the window [ack_cwnd] (deflated first if a fast retransmit took place). *)
Definition dup_state (c : config) (s : sender) : sender :=
  let s1 := set_dupack s (dupack s + 1) in
  if dupack s =? 2 then set_cc s1 (fr_cwnd (mss c) (cwnd s)) (fr_ssthresh (mss c) (cwnd s))
  else set_cc s1 (cwnd s + zq (mss c))%Q (ssthresh s).

Definition new_ack_state (s : sender) (ackno : Z) (sample cw : Q) (ccnt : Z) (cn : Q) (t : list (Z * Q)) (se : list Z) : sender :=
  let srtt' := (srtt s + (1 # 8) * (sample - srtt s))%Q in
  let rttvar' := (rttvar s + (1 # 4) * (Qabs (sample - srtt s) - rttvar s))%Q in
  mkst (next_seq s) (send_buffer s) ackno 0 cw (ssthresh s) srtt' rttvar' (srtt' + (4 # 1) * rttvar')%Q
       ccnt cn t se (S (tokens s)) (S (pend s)) (waiting s) (wake s) (finished s).

Lemma on_ack_cases fx c s ackno pid sample o : 0 <= dupack s ->
  on_ack fx c s ackno pid sample o =
  if ackno =? last_ack s then
    if dupack s + 1 <? 3 then Ok (set_dupack s (dupack s + 1)) []
    else let s2 := dup_state c s in
         if (dupack s =? 2) || Qle_bool (zq ackno) (zq (last_ack s) + cwnd s2) then
           match resend fx c s2 ackno with Some o => Ok s2 o | None => Raise (KeyErr ackno) end
         else Ok s2 []
  else
    match cc_ack c (ack_cwnd fx s ackno) (ssthresh s) (cwnd_cnt s) (cnt s) o with
    | None => Raise ZeroDiv
    | Some (cw, ccnt, cn) =>
        let ids := acked_ids fx c s ackno pid in
        match stop_all ids (timers s) (sent s) [] with
        | None => Raise (KeyErr (first_missing ids (sent s)))
        | Some (t, se, oo) => Ok (new_ack_state s ackno sample cw ccnt cn t se) oo
        end
    end.
Proof.
  intros Hd. unfold on_ack, ack_cwnd, dup_state. destruct (ackno =? last_ack s).
  - proj. destruct (Z.ltb_spec (dupack s + 1) 3) as [H3|H3].
    + replace (dupack s + 1 =? 3) with false by lia. replace (3 <? dupack s + 1) with false by lia.
      replace (dupack s + 1 =? 0) with false by lia. reflexivity.
    + destruct (Z.eqb_spec (dupack s) 2) as [E2|E2].
      * rewrite E2. reflexivity.
      * replace (dupack s + 1 =? 3) with false by lia. replace (3 <? dupack s + 1) with true by lia. reflexivity.
  - destruct (0 <? dupack s) eqn:E0.
    + proj. reflexivity.
    + replace (dupack s) with 0 by lia. reflexivity.
Qed.

(* duplicate ACKs *)

(* the first and the second duplicate: only the counter moves *)
Theorem early_dup_rule fx c s pid sample o :
  0 <= dupack s -> dupack s + 1 < 3 ->
  on_ack fx c s (last_ack s) pid sample o = Ok (set_dupack s (dupack s + 1)) [].
Proof.
  intros H0 H3. rewrite on_ack_cases, Z.eqb_refl by exact H0.
  replace (dupack s + 1 <? 3) with true by lia. reflexivity.
Qed.

(* the third duplicate: ssthresh = max(2 MSS, cwnd/2), cwnd = ssthresh + 3 MSS, the missing segment
   (the one starting at last_ack) is retransmitted; nothing else changes *)
Theorem fast_retransmit_rule fx c s pid sample o :
  dupack s = 2 -> in_sent (last_ack s) (sent s) = true ->
  on_ack fx c s (last_ack s) pid sample o =
  Ok (mkst (next_seq s) (send_buffer s) (last_ack s) 3
           (fr_ssthresh (mss c) (cwnd s) + zq (3 * mss c))%Q (fr_ssthresh (mss c) (cwnd s))
           (srtt s) (rttvar s) (rto s) (cwnd_cnt s) (cnt s) (timers s) (sent s)
           (tokens s) (pend s) (waiting s) (wake s) (finished s))
     [Tx (last_ack s) (mss c)].
Proof.
  intros H2 Hin. rewrite on_ack_cases, Z.eqb_refl by lia. unfold dup_state, resend.
  replace (dupack s + 1 <? 3) with false by lia. replace (dupack s =? 2) with true by lia. proj. rewrite Hin, H2. reflexivity.
Qed.

(* with the repaired resend_packet, a third duplicate for which nothing is in flight changes the
   window in the same way and transmits nothing *)
Theorem fast_retransmit_nothing_in_flight fx c s pid sample o :
  fx_guard_resend fx = true -> dupack s = 2 -> in_sent (last_ack s) (sent s) = false ->
  on_ack fx c s (last_ack s) pid sample o =
  Ok (mkst (next_seq s) (send_buffer s) (last_ack s) 3
           (fr_ssthresh (mss c) (cwnd s) + zq (3 * mss c))%Q (fr_ssthresh (mss c) (cwnd s))
           (srtt s) (rttvar s) (rto s) (cwnd_cnt s) (cnt s) (timers s) (sent s)
           (tokens s) (pend s) (waiting s) (wake s) (finished s))
     [].
Proof.
  intros Hg H2 Hin. rewrite on_ack_cases, Z.eqb_refl by lia. unfold dup_state, resend.
  replace (dupack s + 1 <? 3) with false by lia. replace (dupack s =? 2) with true by lia. proj. rewrite Hin, Hg, H2. reflexivity.
Qed.

(* every further duplicate: cwnd += MSS (and the missing segment is offered again) *)
Theorem more_dupacks_rule fx c s pid sample o :
  3 <= dupack s -> (0 <= cwnd s)%Q -> 0 < mss c -> in_sent (last_ack s) (sent s) = true ->
  on_ack fx c s (last_ack s) pid sample o =
  Ok (mkst (next_seq s) (send_buffer s) (last_ack s) (dupack s + 1)
           (cwnd s + zq (mss c))%Q (ssthresh s)
           (srtt s) (rttvar s) (rto s) (cwnd_cnt s) (cnt s) (timers s) (sent s)
           (tokens s) (pend s) (waiting s) (wake s) (finished s))
     [Tx (last_ack s) (mss c)].
Proof.
  intros H3 Hc Hm Hin. rewrite on_ack_cases, Z.eqb_refl by lia. unfold dup_state, resend.
  replace (dupack s + 1 <? 3) with false by lia. replace (dupack s =? 2) with false by lia. proj.
  replace (Qle_bool _ _) with true; [rewrite Hin; reflexivity|].
  symmetry. apply Qle_bool_true. assert (0 < zq (mss c))%Q by (apply (zq_lt 0); exact Hm). lra.
Qed.

(* new ACKs *)

(* What a new ACK (ackno <> last_ack) does when no fast retransmit is pending (dupack < 3), stated
   through ack_received's result [cc_ack] and the timers stopped [stop_all]: the estimator, last_ack,
   dupack := 0, one token for the sender process; next_seq, send_buffer, ssthresh unchanged. *)
Theorem new_ack_rule fx c s ackno pid sample o cw ccnt cn t se outs :
  fx_deflate3 fx = true ->
  ackno <> last_ack s -> 0 <= dupack s < 3 ->
  cc_ack c (cwnd s) (ssthresh s) (cwnd_cnt s) (cnt s) o = Some (cw, ccnt, cn) ->
  stop_all (acked_ids fx c s ackno pid) (timers s) (sent s) [] = Some (t, se, outs) ->
  on_ack fx c s ackno pid sample o =
  Ok (mkst (next_seq s) (send_buffer s) ackno 0 cw (ssthresh s)
           (srtt s + (1 # 8) * (sample - srtt s))%Q
           (rttvar s + (1 # 4) * (Qabs (sample - srtt s) - rttvar s))%Q
           (srtt s + (1 # 8) * (sample - srtt s) + (4 # 1) * (rttvar s + (1 # 4) * (Qabs (sample - srtt s) - rttvar s)))%Q
           ccnt cn t se (S (tokens s)) (S (pend s)) (waiting s) (wake s) (finished s))
     outs.
Proof.
  intros Hfx Hne Hd Hcc Hst. rewrite on_ack_cases by lia.
  replace (ackno =? last_ack s) with false by lia.
  replace (ack_cwnd fx s ackno) with (cwnd s); [rewrite Hcc; cbv zeta; rewrite Hst; reflexivity|].
  unfold ack_cwnd. rewrite Hfx. replace (ackno =? last_ack s) with false by lia.
  replace (3 <=? dupack s) with false by lia. destruct (0 <? dupack s); reflexivity.
Qed.

(* ack_received for Reno: slow start adds one MSS, congestion avoidance MSS*MSS/cwnd *)
Theorem reno_ack_rule c cw ss ccnt cn o :
  calg c = Reno -> ~ (cw == 0)%Q ->
  cc_ack c cw ss ccnt cn o =
  Some ((if Qle_bool cw ss then cw + zq (mss c) else cw + zq (mss c * mss c) / cw)%Q, ccnt, cn).
Proof.
  intros Ha Hz. unfold cc_ack. rewrite Ha. destruct (Qle_bool cw ss); [reflexivity|].
  destruct (Qeq_bool cw 0) eqn:E; [apply Qeq_bool_iff in E; contradiction|reflexivity].
Qed.

(* ack_received for CUBIC: slow start as Reno; otherwise the cnt / cwnd_cnt counting rule on the
   value of cnt that cubic_update() produced *)
Theorem cubic_ack_rule c cw ss ccnt cn o :
  calg c = Cubic ->
  cc_ack c cw ss ccnt cn o =
  Some (if Qle_bool cw ss then ((cw + zq (mss c))%Q, ccnt, cn)
        else if Qltb o (zq ccnt) then ((cw + zq (mss c))%Q, 0, o) else (cw, ccnt + 1, o)).
Proof.
  intros Ha. unfold cc_ack. rewrite Ha. destruct (Qle_bool cw ss); [reflexivity|].
  destruct (Qltb o (zq ccnt)); reflexivity.
Qed.

(* "the next new ACK first deflates cwnd to ssthresh and is then counted like any new ACK" *)
Theorem deflate_then_count fx c s ackno pid sample o :
  fx_deflate3 fx = true -> ackno <> last_ack s -> 3 <= dupack s ->
  on_ack fx c s ackno pid sample o =
  on_ack fx c (set_dupack (set_cc s (ssthresh s) (ssthresh s)) 0) ackno pid sample o.
Proof.
  intros Hfx Hne Hd. unfold on_ack. proj.
  replace (ackno =? last_ack s) with false by (symmetry; apply Z.eqb_neq; exact Hne).
  rewrite Hfx.
  replace (0 <? dupack s) with true by (symmetry; apply Z.ltb_lt; lia).
  replace (3 <=? dupack s) with true by (symmetry; apply Z.leb_le; lia).
  cbn [Z.ltb Z.compare]. reflexivity.
Qed.

(* the repaired code: after one or two duplicates (no fast retransmit) the window is NOT deflated *)
Theorem no_deflate_before_third_dup fx c s ackno pid sample o :
  fx_deflate3 fx = true -> ackno <> last_ack s -> 0 < dupack s < 3 ->
  on_ack fx c s ackno pid sample o = on_ack fx c (set_dupack s 0) ackno pid sample o.
Proof.
  intros Hfx Hne Hd. unfold on_ack. proj.
  replace (ackno =? last_ack s) with false by (symmetry; apply Z.eqb_neq; exact Hne).
  rewrite Hfx.
  replace (0 <? dupack s) with true by (symmetry; apply Z.ltb_lt; lia).
  replace (3 <=? dupack s) with false by (symmetry; apply Z.leb_gt; lia).
  cbn [Z.ltb Z.compare]. reflexivity.
Qed.

(* the code as found deflated after a single duplicate: cwnd 1536, one duplicate, new ACK:
   cwnd = ssthresh + MSS = 66047 instead of 1536 + 512 *)
Definition s_one_dup : sender :=
  mkst 2048 2560 512 1 (1536 # 1) (65535 # 1) (15 # 16) (1 # 8) (23 # 16) 0 0
       [(512, 2 # 1); (1024, 23 # 16); (1536, 23 # 16)] [512; 1024; 1536] O O true false false.

Theorem deflate_refuted_before_fix :
  exists c s ackno pid sample o s' outs,
    ackno <> last_ack s /\ 0 < dupack s < 3 /\ (cwnd s <= ssthresh s)%Q /\
    on_ack as_found c s ackno pid sample o = Ok s' outs /\
    ~ (cwnd s' == cwnd s + zq (mss c))%Q /\ (cwnd s' == ssthresh s + zq (mss c))%Q.
Proof.
  exists (mkcfg 512 5120 Reno), s_one_dup, 1024, 512, (1 # 4), 0%Q.
  eexists. eexists. split; [cbn; lia|]. split; [cbn; lia|]. split; [cbn; unfold Qle; cbn; lia|].
  split; [vm_compute; reflexivity|]. split; cbn; unfold Qeq; cbn; lia.
Qed.

(* and the repaired code on the same state does count the ACK in slow start *)
Example no_deflate_example :
  exists s' outs, on_ack (mkfx true false false) (mkcfg 512 5120 Reno) s_one_dup 1024 512 (1 # 4) 0 = Ok s' outs /\
                  (cwnd s' == 2048 # 1)%Q /\ dupack s' = 0 /\ last_ack s' = 1024.
Proof. eexists. eexists. split; [vm_compute; reflexivity|]. cbn. split; [reflexivity|split; reflexivity]. Qed.

(* retransmission timeout *)

Theorem timeout_rule fx c s id :
  has_timer id (timers s) = true -> in_sent id (sent s) = true ->
  on_timer fx c s id =
  Ok (mkst (next_seq s) (send_buffer s) (last_ack s) (dupack s) (zq (mss c)) (ssthresh s)
           (srtt s) (rttvar s) (rto s * (2 # 1))%Q (cwnd_cnt s) (cnt s)
           (rearm id (rto s * (2 # 1))%Q (timers s)) (sent s)
           (tokens s) (pend s) (waiting s) (wake s) (finished s))
     [Tx id (mss c); TRestart id (rto s * (2 # 1))%Q].
Proof.
  intros Ht Hs. unfold on_timer. rewrite Ht. cbn [negb]. unfold resend. proj. rewrite Hs. reflexivity.
Qed.

Theorem rto_doubles fx c s id s' outs :
  on_timer fx c s id = Ok s' outs -> rto s' = (rto s * (2 # 1))%Q /\ cwnd s' = zq (mss c) /\ ssthresh s' = ssthresh s.
Proof.
  unfold on_timer. destruct (negb (has_timer id (timers s))); [discriminate|].
  destruct (resend fx c (set_cc s (zq (mss c)) (ssthresh s)) id); [|discriminate].
  intros H. injection H as <- _. proj. auto.
Qed.

(* RTO formula *)

Local Opaque Qabs.   (* field would unfold Qabs into a case split on the sign *)
Theorem rto_formula fx c s ackno pid sample o s' outs :
  ackno <> last_ack s -> 0 <= dupack s ->
  on_ack fx c s ackno pid sample o = Ok s' outs ->
  (srtt s' == srtt s + (sample - srtt s) / (8 # 1))%Q /\
  (rttvar s' == rttvar s + (Qabs (sample - srtt s) - rttvar s) / (4 # 1))%Q /\
  (rto s' == srtt s' + (4 # 1) * rttvar s')%Q /\
  last_ack s' = ackno /\ dupack s' = 0.
Proof.
  intros Hne Hd. rewrite on_ack_cases by exact Hd. replace (ackno =? last_ack s) with false by lia.
  destruct (cc_ack _ _ _ _ _ _) as [[[cw ccnt] cn]|]; [|discriminate]. cbv zeta.
  destruct (stop_all _ _ _ _) as [[[t se] oo]|]; [|discriminate].
  intros H. injection H as <- _. unfold new_ack_state. proj. repeat split; try reflexivity; field.
Qed.
Local Transparent Qabs.

(* the send loop *)

(* n consecutive MSS-sized segments starting at id, each with a timer armed with r *)
Fixpoint segs (m id : Z) (n : nat) (r : Q) : list out :=
  match n with O => [] | S k => Tx id m :: TStart id r :: segs m (id + m) k r end.
Fixpoint seg_ids (m id : Z) (n : nat) : list Z :=
  match n with O => [] | S k => id :: seg_ids m (id + m) k end.

Lemma fill_ge fuel ns sb p sb' : fill fuel ns sb p = Some sb' -> ns < sb'.
Proof.
  revert sb. induction fuel as [|f IH]; intros sb; cbn [fill]; [discriminate|].
  destruct (sb <=? ns) eqn:E; [apply IH|]. intros H; injection H as <-. apply Z.leb_gt in E. exact E.
Qed.

Lemma fill_bound fuel ns sb p sb' lim :
  fill fuel ns sb p = Some sb' -> sb <= lim -> ns + p <= lim -> 0 <= p -> sb' <= lim.
Proof.
  revert sb. induction fuel as [|f IH]; intros sb; cbn [fill]; [discriminate|].
  destruct (sb <=? ns) eqn:E.
  - intros H Hs Hp H0. apply Z.leb_le in E. apply (IH (sb + p)); auto. lia.
  - intros H; injection H as <-. auto.
Qed.

Lemma fill_mono fuel ns sb p sb' : fill fuel ns sb p = Some sb' -> 0 <= p -> sb <= sb'.
Proof.
  revert sb. induction fuel as [|f IH]; intros sb; cbn [fill]; [discriminate|].
  destruct (sb <=? ns) eqn:E.
  - intros H H0. specialize (IH _ H H0). lia.
  - intros H; injection H as <-. lia.
Qed.

Lemma fill_enough fuel ns sb p : 1 <= p -> (Z.to_nat (ns - sb + 1) < fuel)%nat -> exists sb', fill fuel ns sb p = Some sb'.
Proof.
  intros Hp. revert sb. induction fuel as [|f IH]; intros sb Hf; [lia|]. cbn [fill].
  destruct (sb <=? ns) eqn:E; [|eauto]. apply Z.leb_le in E. apply IH. lia.
Qed.

(* what one resumption of the sender process does *)
Definition wake_spec (c : config) (s s' : sender) (acc outs : list out) : Prop :=
  exists n : nat,
    outs = acc ++ segs (mss c) (next_seq s) n (rto s) /\
    next_seq s' = next_seq s + Z.of_nat n * mss c /\
    timers s' = timers s ++ map (fun i => (i, rto s)) (seg_ids (mss c) (next_seq s) n) /\
    sent s' = sent s ++ seg_ids (mss c) (next_seq s) n /\
    (* every emission was allowed by the window and by the buffered data *)
    (forall k : nat, (k < n)%nat ->
        (zq (next_seq s + Z.of_nat k * mss c + mss c) <= zq (last_ack s) + cwnd s)%Q /\
        next_seq s + Z.of_nat k * mss c + mss c <= send_buffer s') /\
    (* nothing else moves *)
    last_ack s' = last_ack s /\ dupack s' = dupack s /\ cwnd s' = cwnd s /\ ssthresh s' = ssthresh s /\
    srtt s' = srtt s /\ rttvar s' = rttvar s /\ rto s' = rto s /\ cwnd_cnt s' = cwnd_cnt s /\ cnt s' = cnt s /\
    pend s' = pend s /\ send_buffer s <= send_buffer s' /\
    (* it stops only at the end of the flow or when the guard fails *)
    ((finished s' = true /\ fsize c <> 0 /\ fsize c <= next_seq s') \/
     (finished s' = finished s /\ guard c s' (send_buffer s') = false /\ next_seq s' < send_buffer s')).

Lemma send_loop_spec c (Hm : 0 < mss c) : forall fuel s acc s' outs,
  send_loop fuel c s acc = Ok s' outs -> wake_spec c s s' acc outs.
Proof.
  induction fuel as [|f IH]; intros s acc s' outs; cbn [send_loop]; [discriminate|].
  destruct (negb (fsize c =? 0) && (fsize c <=? next_seq s)) eqn:Efin.
  - intros H; injection H as <- <-. exists O. cbn [segs seg_ids map]. rewrite !app_nil_r. proj.
    apply andb_true_iff in Efin as [E1 E2]. apply negb_true_iff, Z.eqb_neq in E1. apply Z.leb_le in E2.
    repeat split; try reflexivity; try lia.
  - destruct (fill _ _ _ _) as [sb|] eqn:Efill; [|discriminate].
    assert (Hp : 0 <= psize c (next_seq s)).
    { unfold psize. destruct (fsize c =? 0) eqn:E0; [lia|].
      apply andb_false_iff in Efin as [E|E]; [discriminate|]. apply Z.leb_gt in E. lia. }
    pose proof (fill_ge _ _ _ _ _ Efill) as Hge. pose proof (fill_mono _ _ _ _ _ Efill Hp) as Hmono.
    destruct (guard c s sb) eqn:Eg.
    + destruct (Qle_bool (rto s) 0); [discriminate|].
      intros H. apply IH in H. destruct H as (n & Ho & Hns & Ht & Hse & Hall & Hrest). proj.
      exists (S n). split; [|split; [|split; [|split; [|split]]]].
      * rewrite Ho. cbn [segs]. rewrite <- app_assoc. reflexivity.
      * rewrite Hns. lia.
      * rewrite Ht. cbn [seg_ids map]. rewrite <- app_assoc. reflexivity.
      * rewrite Hse. cbn [seg_ids]. rewrite <- app_assoc. reflexivity.
      * intros k Hk. destruct k as [|k].
        -- cbn [Z.of_nat]. replace (next_seq s + 0 * mss c + mss c) with (next_seq s + mss c) by lia.
           unfold guard in Eg. apply Qle_bool_true in Eg. split.
           ++ eapply Qle_trans; [exact Eg|apply Q.le_min_r].
           ++ assert (H1 : (zq (next_seq s + mss c) <= zq sb)%Q) by (eapply Qle_trans; [exact Eg|apply Q.le_min_l]).
              unfold zq in H1. rewrite <- Zle_Qle in H1. destruct Hrest as (_&_&_&_&_&_&_&_&_&_&Hsb&_). lia.
        -- destruct (Hall k ltac:(lia)) as [A B].
           replace (next_seq s + Z.of_nat (S k) * mss c + mss c) with (next_seq s + mss c + Z.of_nat k * mss c + mss c) by lia.
           split; assumption.
      * destruct Hrest as (A1&A2&A3&A4&A5&A6&A7&A8&A9&A10&A11&A12). repeat split; try assumption. lia.
    + intros H. exists O. cbn [segs seg_ids map]. rewrite !app_nil_r.
      assert (Hs' : next_seq s' = next_seq s /\ send_buffer s' = sb /\ last_ack s' = last_ack s /\ cwnd s' = cwnd s /\
                    finished s' = finished s /\ timers s' = timers s /\ sent s' = sent s /\ dupack s' = dupack s /\
                    ssthresh s' = ssthresh s /\ srtt s' = srtt s /\ rttvar s' = rttvar s /\ rto s' = rto s /\
                    cwnd_cnt s' = cwnd_cnt s /\ cnt s' = cnt s /\ pend s' = pend s /\ outs = acc).
      { destruct (tokens s); injection H as <- <-; proj; repeat split; reflexivity. }
      destruct Hs' as (B1&B2&B3&B4&B5&B6&B7&B8&B9&B10&B11&B12&B13&B14&B15&B16).
      split; [exact B16|]. split; [lia|]. split; [exact B6|]. split; [exact B7|].
      split; [intros k Hk; lia|].
      repeat split; try assumption; try lia. right. split; [exact B5|]. split; [|lia].
      unfold guard in *. rewrite B1, B2, B3, B4. exact Eg.
Qed.

Theorem send_guard c s s' outs :
  0 < mss c -> on_wake c s = Ok s' outs -> wake_spec c (set_store s (tokens s) (pend s) false false) s' [] outs.
Proof.
  intros Hm. unfold on_wake. destruct (wake s && negb (finished s)); [|discriminate].
  apply send_loop_spec. exact Hm.
Qed.

(* hence: right after sending, the data in flight beyond last_ack fits the congestion window *)
Theorem window_respected c s s' outs :
  0 < mss c -> on_wake c s = Ok s' outs -> next_seq s < next_seq s' ->
  (zq (next_seq s' - last_ack s') <= cwnd s')%Q.
Proof.
  intros Hm H Hlt. apply send_guard in H; [|exact Hm]. destruct H as (n & _ & Hns & _ & _ & Hall & Hla & _ & Hcw & _). proj.
  destruct n as [|n]; [lia|]. destruct (Hall n ltac:(lia)) as [A _].
  rewrite Hla, Hcw, Hns.
  replace (next_seq s + Z.of_nat (S n) * mss c - last_ack s) with (next_seq s + Z.of_nat n * mss c + mss c - last_ack s) by lia.
  unfold Z.sub. rewrite zq_add. unfold zq at 2. rewrite inject_Z_opp. fold (zq (last_ack s)). lra.
Qed.

(* the sender never runs ahead of the data buffered from the flow, which never exceeds the flow *)
Definition buffered_ok (c : config) (s : sender) : Prop :=
  next_seq s <= send_buffer s /\ (fsize c <> 0 -> send_buffer s <= fsize c).

Lemma send_loop_buffered c (Hm : 0 < mss c) : forall fuel s acc s' outs,
  buffered_ok c s -> send_loop fuel c s acc = Ok s' outs -> buffered_ok c s'.
Proof.
  induction fuel as [|f IH]; intros s acc s' outs Hb; cbn [send_loop]; [discriminate|].
  destruct (negb (fsize c =? 0) && (fsize c <=? next_seq s)) eqn:Efin.
  - intros H; injection H as <- _. exact Hb.
  - destruct (fill _ _ _ _) as [sb|] eqn:Efill; [|discriminate].
    assert (Hsb : next_seq s < sb /\ (fsize c <> 0 -> sb <= fsize c)).
    { split; [eapply fill_ge; eauto|]. intros Hf. destruct Hb as [B1 B2].
      apply andb_false_iff in Efin as [E|E]; [apply negb_false_iff, Z.eqb_eq in E; contradiction|]. apply Z.leb_gt in E.
      eapply fill_bound; eauto; unfold psize; replace (fsize c =? 0) with false by (symmetry; apply Z.eqb_neq; exact Hf); lia. }
    destruct (guard c s sb) eqn:Eg.
    + destruct (Qle_bool (rto s) 0); [discriminate|]. apply IH. unfold buffered_ok; proj.
      unfold guard in Eg. apply Qle_bool_true in Eg.
      assert (H1 : (zq (next_seq s + mss c) <= zq sb)%Q) by (eapply Qle_trans; [exact Eg|apply Q.le_min_l]).
      unfold zq in H1. rewrite <- Zle_Qle in H1. tauto.
    + intros H. destruct (tokens s); injection H as <- _; unfold buffered_ok; proj; split; try tauto; lia.
Qed.

Lemma send_loop_flags c : forall fuel s acc s' outs,
  send_loop fuel c s acc = Ok s' outs ->
  pend s' = pend s /\
  ((finished s' = true /\ wake s' = false /\ waiting s' = false /\ tokens s' = tokens s) \/
   (finished s' = finished s /\
    ((wake s' = true /\ waiting s' = false /\ S (tokens s') = tokens s) \/
     (wake s' = false /\ waiting s' = true /\ tokens s' = O /\ tokens s = O)))).
Proof.
  induction fuel as [|f IH]; intros s acc s' outs; cbn [send_loop]; [discriminate|].
  destruct (negb (fsize c =? 0) && (fsize c <=? next_seq s)).
  - intros H; injection H as <- _. proj. split; [reflexivity|]. left. repeat split; reflexivity.
  - destruct (fill _ _ _ _) as [sb|]; [|discriminate]. destruct (guard c s sb).
    + destruct (Qle_bool (rto s) 0); [discriminate|]. intros H. apply IH in H. proj. exact H.
    + destruct (tokens s) as [|tk] eqn:Et; intros H; injection H as <- _; proj; (split; [reflexivity|]); right; (split; [reflexivity|]).
      * right. repeat split; reflexivity.
      * left. repeat split; reflexivity.
Qed.

Lemma send_loop_raises c : forall fuel s acc x,
  send_loop fuel c s acc = Raise x -> x = OutOfFuel \/ (x = TimerValue /\ (rto s <= 0)%Q).
Proof.
  induction fuel as [|f IH]; intros s acc x; cbn [send_loop]; [intros H; injection H as <-; left; reflexivity|].
  destruct (negb (fsize c =? 0) && (fsize c <=? next_seq s)); [discriminate|].
  destruct (fill _ _ _ _) as [sb|]; [|intros H; injection H as <-; left; reflexivity].
  destruct (guard c s sb).
  - destruct (Qle_bool (rto s) 0) eqn:Er.
    + intros H; injection H as <-. right. split; [reflexivity|apply Qle_bool_true; exact Er].
    + intros H. apply IH in H. proj. exact H.
  - destruct (tokens s); discriminate.
Qed.

(* only the resumption of the sender process emits new data *)

Fixpoint starts (o : list out) : list Z :=
  match o with [] => [] | TStart i _ :: t => i :: starts t | _ :: t => starts t end.

Definition retransmissions_only (s : sender) (o : list out) : Prop :=
  starts o = [] /\ forall i z, In (Tx i z) o -> in_sent i (sent s) = true.

Lemma resend_retx fx c s s0 id o :
  sent s0 = sent s -> resend fx c s0 id = Some o -> retransmissions_only s o.
Proof.
  unfold resend. intros Hs. destruct (in_sent id (sent s0)) eqn:E.
  - intros H; injection H as <-. split; [reflexivity|]. intros i z [H|[]]. injection H as <- _. rewrite <- Hs. exact E.
  - destruct (fx_guard_resend fx); [|discriminate]. intros H; injection H as <-. split; [reflexivity|intros i z []].
Qed.

Lemma stop_all_starts ids : forall t se acc t' se' o,
  stop_all ids t se acc = Some (t', se', o) ->
  starts o = starts acc /\ (forall i z, In (Tx i z) o -> In (Tx i z) acc).
Proof.
  induction ids as [|id r IH]; intros t se acc t' se' o; cbn [stop_all].
  - intros H; injection H as _ _ <-. auto.
  - destruct (in_sent id se); [|discriminate]. intros H. apply IH in H as [A B]. split.
    + rewrite A. clear. induction acc as [|x acc IHa]; [reflexivity|]. destruct x; cbn [app starts]; rewrite ?IHa; reflexivity.
    + intros i z Hi. specialize (B i z Hi). apply in_app_or in B as [B|[B|[]]]; [exact B|discriminate].
Qed.

Theorem only_wake_sends_new_data fx c s e s' outs :
  e <> EWake -> step fx c s e = Ok s' outs ->
  next_seq s' = next_seq s /\ send_buffer s' = send_buffer s /\ retransmissions_only s outs.
Proof.
  intros Hne. destruct e as [ackno pid sample o|id| |]; cbn [step]; [| | |contradiction].
  - unfold on_ack. set (s1 := if ackno =? last_ack s then _ else _).
    assert (H1 : next_seq s1 = next_seq s /\ send_buffer s1 = send_buffer s /\ sent s1 = sent s).
    { subst s1. destruct (ackno =? last_ack s); [proj; auto|]. destruct (0 <? dupack s); proj; auto. }
    destruct H1 as (A & B & C).
    destruct (dupack s1 =? 3).
    + destruct (resend _ _ _ _) as [o'|] eqn:R; [|discriminate]. intros H; injection H as <- <-. proj.
      split; [exact A|split; [exact B|]]. eapply resend_retx; [|exact R]. proj. exact C.
    + destruct (3 <? dupack s1).
      * destruct (Qle_bool _ _).
        -- destruct (resend _ _ _ _) as [o'|] eqn:R; [|discriminate]. intros H; injection H as <- <-. proj.
           split; [exact A|split; [exact B|]]. eapply resend_retx; [|exact R]. proj. exact C.
        -- intros H; injection H as <- <-. proj. split; [exact A|split; [exact B|]]. split; [reflexivity|intros i z []].
      * destruct (dupack s1 =? 0).
        -- destruct (cc_ack _ _ _ _ _ _) as [[[cw ccnt] cn]|]; [|discriminate].
           destruct (stop_all _ _ _ _) as [[[t se] oo]|] eqn:St; [|discriminate].
           intros H; injection H as <- <-. proj. split; [exact A|split; [exact B|]].
           apply stop_all_starts in St as [S1 S2]. split; [exact S1|]. intros i z Hi. destruct (S2 i z Hi).
        -- intros H; injection H as <- <-. split; [exact A|split; [exact B|]]. split; [reflexivity|intros i z []].
  - unfold on_timer. destruct (negb (has_timer id (timers s))); [discriminate|].
    destruct (resend _ _ _ _) as [o'|] eqn:R; [|discriminate]. intros H; injection H as <- <-. proj.
    split; [reflexivity|split; [reflexivity|]].
    apply (resend_retx fx c s) in R; [|reflexivity]. destruct R as [R1 R2]. split.
    + clear R2. induction o' as [|x o' IHo]; [reflexivity|]. destruct x; cbn [app starts] in *; try discriminate; auto.
    + intros i z Hi. apply in_app_or in Hi as [Hi|[Hi|[]]]; [eauto|discriminate].
  - unfold on_storecb. destruct (pend s); [discriminate|].
    destruct (waiting s); [destruct (tokens s)|]; intros H; injection H as <- <-; proj; repeat split; try reflexivity; intros i z [].
Qed.

Lemma starts_app a b : starts (a ++ b) = starts a ++ starts b.
Proof. induction a as [|x a IH]; [reflexivity|]. destruct x; cbn [app starts]; rewrite ?IH; reflexivity. Qed.

Lemma starts_segs m id n r : starts (segs m id n r) = seg_ids m id n.
Proof. revert id. induction n as [|n IH]; intros id; [reflexivity|]. cbn [segs starts seg_ids]. rewrite IH. reflexivity. Qed.

Lemma seg_ids_app m id a b : seg_ids m id (a + b) = seg_ids m id a ++ seg_ids m (id + Z.of_nat a * m) b.
Proof.
  revert id. induction a as [|a IH]; intros id.
  - cbn [Nat.add seg_ids app Z.of_nat]. replace (id + 0 * m) with id by lia. reflexivity.
  - change (S a + b)%nat with (S (a + b)).
    change (seg_ids m id (S (a + b))) with (id :: seg_ids m (id + m) (a + b)).
    change (seg_ids m id (S a)) with (id :: seg_ids m (id + m) a).
    rewrite IH. rewrite <- app_comm_cons. do 2 f_equal. f_equal. lia.
Qed.

(* over any history: the new segments (those for which a timer is started) are numbered
   next_seq, next_seq + MSS, ... without gaps, and next_seq counts them *)
Lemma run_numbering fx c (Hm : 0 < mss c) : forall evs s s' outs,
  run fx c s evs = Ok s' outs ->
  exists n : nat, starts outs = seg_ids (mss c) (next_seq s) n /\ next_seq s' = next_seq s + Z.of_nat n * mss c.
Proof.
  induction evs as [|e evs IH]; intros s s' outs; cbn [run].
  - intros H; injection H as <- <-. exists O. cbn. split; [reflexivity|lia].
  - destruct (step fx c s e) as [s1 o1|] eqn:E1; [|discriminate].
    destruct (run fx c s1 evs) as [s2 o2|] eqn:E2; [|discriminate].
    intros H; injection H as <- <-. apply IH in E2 as (n2 & S2 & N2).
    assert (H1 : exists n1 : nat, starts o1 = seg_ids (mss c) (next_seq s) n1 /\ next_seq s1 = next_seq s + Z.of_nat n1 * mss c).
    { destruct e as [ackno pid sample o|id| |].
      1-3: (apply only_wake_sends_new_data in E1 as (A & _ & (B & _)); [|discriminate]; exists O; rewrite B; cbn; split; [reflexivity|lia]).
      cbn [step] in E1. apply send_guard in E1 as (n & Ho & Hns & _); [|exact Hm]. proj.
      exists n. rewrite Ho. cbn [app]. rewrite starts_segs. auto. }
    destruct H1 as (n1 & S1 & N1). exists (n1 + n2)%nat. rewrite starts_app, S1, S2, seg_ids_app, N1. split; [reflexivity|]. rewrite N2, N1. lia.
Qed.

Theorem segments_consecutive fx c cw0 ss0 rtt0 evs s' outs :
  0 < mss c -> run fx c (init cw0 ss0 rtt0) evs = Ok s' outs ->
  exists n : nat, starts outs = seg_ids (mss c) 0 n /\ next_seq s' = Z.of_nat n * mss c.
Proof.
  intros Hm H. apply run_numbering in H as (n & A & B); [|exact Hm]. exists n. split; [exact A|]. rewrite B. cbn. lia.
Qed.

(* cwnd >= MSS, over all histories *)

Definition win_inv (c : config) (s : sender) : Prop :=
  (zq (mss c) <= cwnd s)%Q /\ 0 <= dupack s /\ (3 <= dupack s -> (zq (2 * mss c) <= ssthresh s)%Q).

Lemma zq_2m_ge m : 0 < m -> (zq m <= zq (2 * m))%Q.
Proof. intros H. apply zq_le. lia. Qed.

Lemma cc_ack_ge c cw ss ccnt cn o cw' ccnt' cn' :
  0 < mss c -> (zq (mss c) <= cw)%Q -> cc_ack c cw ss ccnt cn o = Some (cw', ccnt', cn') -> (zq (mss c) <= cw')%Q.
Proof.
  intros Hm Hc. assert (Hp : (0 < zq (mss c))%Q) by (apply (zq_lt 0); exact Hm).
  unfold cc_ack. destruct (Qle_bool cw ss).
  - intros H; injection H as <- _ _. lra.
  - destruct (calg c).
    + destruct (Qeq_bool cw 0); [discriminate|]. intros H; injection H as <- _ _.
      assert (H0 : (0 <= zq (mss c * mss c) / cw)%Q).
      { apply Qle_shift_div_l; [lra|]. rewrite Qmult_0_l. apply (zq_le 0). nia. }
      lra.
    + destruct (Qltb o (zq ccnt)); intros H; injection H as <- _ _; lra.
Qed.

Lemma cc_ack_none c cw ss ccnt cn o : cc_ack c cw ss ccnt cn o = None -> (cw == 0)%Q.
Proof.
  unfold cc_ack. destruct (Qle_bool cw ss); [discriminate|].
  destruct (calg c); [|destruct (Qltb o (zq ccnt)); discriminate].
  destruct (Qeq_bool cw 0) eqn:Ez; [intros _; apply Qeq_bool_iff, Ez|discriminate].
Qed.

(* ssthresh >= 2 MSS whenever the deflation applies *)
Lemma ack_cwnd_ge fx c s ackno : fx_deflate3 fx = true -> 0 < mss c -> win_inv c s -> (zq (mss c) <= ack_cwnd fx s ackno)%Q.
Proof.
  intros Hfx Hm (Hc & Hd & Hs). unfold ack_cwnd. rewrite Hfx. destruct (ackno =? last_ack s); [exact Hc|].
  destruct (0 <? dupack s); [|exact Hc]. destruct (3 <=? dupack s) eqn:E3; [|exact Hc].
  apply Z.leb_le in E3. specialize (Hs E3). assert (zq (mss c) <= zq (2 * mss c))%Q by (apply zq_2m_ge; exact Hm). lra.
Qed.

Lemma on_ack_win_inv fx c s ackno pid sample o s' outs :
  fx_deflate3 fx = true -> 0 < mss c -> win_inv c s -> on_ack fx c s ackno pid sample o = Ok s' outs -> win_inv c s'.
Proof.
  intros Hfx Hm W. pose proof W as (Hc & Hd & Hs). rewrite on_ack_cases by exact Hd.
  assert (Hp : (0 < zq (mss c))%Q) by (apply (zq_lt 0); exact Hm).
  assert (H2m : (zq (mss c) <= zq (2 * mss c))%Q) by (apply zq_2m_ge; exact Hm).
  destruct (ackno =? last_ack s).
  - destruct (Z.ltb_spec (dupack s + 1) 3) as [H3|H3].
    + intros [= <- _]. unfold win_inv; proj. split; [exact Hc|]. split; [lia|intros; lia].
    + assert (W2 : win_inv c (dup_state c s)).
      { unfold dup_state, win_inv, fr_cwnd. destruct (Z.eqb_spec (dupack s) 2) as [E2|E2]; proj.
        - pose proof (fr_ssthresh_ge (mss c) (cwnd s)). assert (0 <= zq (3 * mss c))%Q by (apply (zq_le 0); lia).
          split; [lra|]. split; [lia|auto].
        - split; [lra|]. split; [lia|]. intros _. apply Hs. lia. }
      cbv zeta. destruct (_ || _); [destruct (resend _ _ _ _); [|discriminate]|]; intros [= <- _]; exact W2.
  - destruct (cc_ack _ _ _ _ _ _) as [[[cw ccnt] cn]|] eqn:Ecc; [|discriminate]. cbv zeta.
    destruct (stop_all _ _ _ _) as [[[t se] oo]|]; [|discriminate]. intros [= <- _].
    unfold win_inv, new_ack_state; proj. split; [|split; [lia|intros; lia]].
    eapply cc_ack_ge; [exact Hm| |exact Ecc]. apply ack_cwnd_ge; assumption.
Qed.

Lemma step_win_inv fx c s e s' outs :
  fx_deflate3 fx = true -> 0 < mss c -> win_inv c s -> step fx c s e = Ok s' outs -> win_inv c s'.
Proof.
  intros Hfx Hm W. destruct e as [ackno pid sample o|id| |]; cbn [step].
  - apply on_ack_win_inv; assumption.
  - destruct W as (Hc & Hd & Hs). unfold on_timer. destruct (negb (has_timer id (timers s))); [discriminate|].
    destruct (resend _ _ _ _); [|discriminate]. intros H; injection H as <- _. unfold win_inv; proj.
    split; [apply Qle_refl|]. split; assumption.
  - destruct W as (Hc & Hd & Hs). unfold on_storecb. destruct (pend s); [discriminate|].
    destruct (waiting s); [destruct (tokens s)|]; intros H; injection H as <- _; unfold win_inv; proj; auto.
  - intros H. apply send_guard in H as (n & _ & _ & _ & _ & _ & _ & Hd' & Hc' & Hs' & _); [|exact Hm]. proj.
    destruct W as (Hc & Hd & Hs). unfold win_inv. rewrite Hd', Hc', Hs'. auto.
Qed.

Lemma run_win_inv fx c (Hfx : fx_deflate3 fx = true) (Hm : 0 < mss c) : forall evs s s' outs,
  win_inv c s -> run fx c s evs = Ok s' outs -> win_inv c s'.
Proof.
  induction evs as [|e evs IH]; intros s s' outs W; cbn [run].
  - intros H; injection H as <- _. exact W.
  - destruct (step fx c s e) as [s1 o1|] eqn:E1; [|discriminate].
    destruct (run fx c s1 evs) as [s2 o2|] eqn:E2; [|discriminate].
    intros H; injection H as <- _. eapply IH; [|exact E2]. eapply step_win_inv; eauto.
Qed.

Lemma init_win_inv c cw0 ss0 rtt0 : (zq (mss c) <= cw0)%Q -> win_inv c (init cw0 ss0 rtt0).
Proof. intros Hc. unfold win_inv, init; proj. split; [exact Hc|]. split; [lia|]. intros; lia. Qed.

(* cwnd never falls below one MSS: every history of ACKs, expiries, store callbacks and resumptions,
   from any initial cwnd >= MSS and ANY initial ssthresh *)
Theorem cwnd_ge_mss fx c cw0 ss0 rtt0 evs s' outs :
  fx_deflate3 fx = true -> 0 < mss c -> (zq (mss c) <= cw0)%Q ->
  run fx c (init cw0 ss0 rtt0) evs = Ok s' outs -> (zq (mss c) <= cwnd s')%Q.
Proof.
  intros Hfx Hm Hc H. eapply run_win_inv in H; eauto; [destruct H as [H _]; exact H|].
  apply init_win_inv; exact Hc.
Qed.

(* the model's division never meets cwnd = 0 (Python would raise ZeroDivisionError) *)
Theorem never_zero_div fx c cw0 ss0 rtt0 evs s' outs e :
  fx_deflate3 fx = true -> 0 < mss c -> (zq (mss c) <= cw0)%Q ->
  run fx c (init cw0 ss0 rtt0) evs = Ok s' outs -> step fx c s' e <> Raise ZeroDiv.
Proof.
  intros Hfx Hm Hc H.
  assert (W : win_inv c s') by (eapply run_win_inv in H; eauto; apply init_win_inv; exact Hc).
  clear H. destruct W as (Hcw & Hd & Hs).
  assert (Hp : (0 < zq (mss c))%Q) by (apply (zq_lt 0); exact Hm).
  destruct e as [ackno pid sample o|id| |]; cbn [step].
  - rewrite on_ack_cases by exact Hd. destruct (ackno =? last_ack s').
    + destruct (_ <? _); [discriminate|]. cbv zeta. destruct (_ || _); [destruct (resend _ _ _ _)|]; discriminate.
    + destruct (cc_ack _ _ _ _ _ _) as [[[cw ccnt] cn]|] eqn:Ecc.
      * cbv zeta. destruct (stop_all _ _ _ _) as [[[t se] oo]|]; discriminate.
      * apply cc_ack_none in Ecc. pose proof (ack_cwnd_ge fx c s' ackno Hfx Hm (conj Hcw (conj Hd Hs))). lra.
  - unfold on_timer. destruct (negb _); [discriminate|]. destruct (resend _ _ _ _); discriminate.
  - unfold on_storecb. destruct (pend s'); [discriminate|]. destruct (waiting s'); [destruct (tokens s')|]; discriminate.
  - unfold on_wake. destruct (wake s' && negb (finished s')); [|discriminate].
    intros H. apply send_loop_raises in H as [H|[H _]]; discriminate.
Qed.

(* k expiries (with store callbacks and resumptions, but no ACK, in between) multiply the RTO by 2^k *)
Fixpoint expiries (evs : list event) : nat :=
  match evs with [] => O | EExpire _ :: t => S (expiries t) | _ :: t => expiries t end.
Fixpoint no_ack (evs : list event) : Prop :=
  match evs with [] => True | EAck _ _ _ _ :: _ => False | _ :: t => no_ack t end.

Theorem rto_doubles_k fx c (Hm : 0 < mss c) : forall evs s s' outs,
  no_ack evs -> run fx c s evs = Ok s' outs -> (rto s' == rto s * inject_Z (2 ^ Z.of_nat (expiries evs)))%Q.
Proof.
  induction evs as [|e evs IH]; intros s s' outs Hn; cbn [run].
  - intros H; injection H as <- _. cbn [expiries Z.of_nat]. change (2 ^ 0) with 1. change (inject_Z 1) with 1%Q. ring.
  - destruct (step fx c s e) as [s1 o1|] eqn:E1; [|discriminate].
    destruct (run fx c s1 evs) as [s2 o2|] eqn:E2; [|discriminate].
    intros H; injection H as <- _. destruct e as [ackno pid sample o|id| |]; cbn [no_ack expiries] in *.
    + contradiction.
    + cbn [step] in E1. apply rto_doubles in E1 as (R & _). apply IH in E2; [|exact Hn]. rewrite E2, R.
      rewrite Nat2Z.inj_succ, Z.pow_succ_r by lia. rewrite inject_Z_mult. change (inject_Z 2) with (2 # 1). ring.
    + cbn [step] in E1. unfold on_storecb in E1. destruct (pend s); [discriminate|].
      assert (R : rto s1 = rto s) by (destruct (waiting s); [destruct (tokens s)|]; injection E1 as <- _; reflexivity).
      apply IH in E2; [|exact Hn]. rewrite E2, R. reflexivity.
    + cbn [step] in E1. apply send_guard in E1 as (n & _ & _ & _ & _ & _ & _ & _ & _ & _ & _ & _ & R & _); [|exact Hm]. proj.
      apply IH in E2; [|exact Hn]. rewrite E2, R. reflexivity.
Qed.

(* the fuel of the send loop always suffices *)
Lemma send_loop_fuel c (Hm : 0 < mss c) : forall fuel s acc,
  (Z.to_nat (Qfloor (zq (last_ack s) + cwnd s)%Q - next_seq s) < fuel)%nat ->
  send_loop fuel c s acc <> Raise OutOfFuel.
Proof.
  induction fuel as [|f IH]; intros s acc Hf; [lia|]. cbn [send_loop].
  destruct (negb (fsize c =? 0) && (fsize c <=? next_seq s)) eqn:Efin; [discriminate|].
  assert (Hp : 1 <= psize c (next_seq s)).
  { unfold psize. destruct (fsize c =? 0) eqn:E0; [lia|].
    apply andb_false_iff in Efin as [E|E]; [discriminate|]. apply Z.leb_gt in E. lia. }
  destruct (fill_enough (S (S (Z.to_nat (next_seq s - send_buffer s)))) (next_seq s) (send_buffer s) _ Hp ltac:(lia)) as [sb Esb].
  rewrite Esb. destruct (guard c s sb) eqn:Eg.
  - destruct (Qle_bool (rto s) 0); [discriminate|]. apply IH. proj.
    unfold guard in Eg. apply Qle_bool_true in Eg.
    assert (H1 : (zq (next_seq s + mss c) <= zq (last_ack s) + cwnd s)%Q) by (eapply Qle_trans; [exact Eg|apply Q.le_min_r]).
    apply Qfloor_resp_le in H1. unfold zq in H1 at 1. rewrite Qfloor_Z in H1. lia.
  - destruct (tokens s); discriminate.
Qed.

Theorem wake_never_out_of_fuel c s : 0 < mss c -> on_wake c s <> Raise OutOfFuel.
Proof.
  intros Hm. unfold on_wake. destruct (wake s && negb (finished s)); [|discriminate].
  apply send_loop_fuel; [exact Hm|]. unfold send_fuel. proj. lia.
Qed.

(* non-vacuity: a concrete history exercising every rule (Reno, MSS 512, cwnd 1024, ssthresh 65535, 10 segments) *)

Definition ex_cfg := mkcfg 512 5120 Reno.
Definition ex_hist : list event :=
  [EWake; EAck 512 0 (1 # 2) 0; EStoreCb; EWake;
   EAck 512 1024 (1 # 4) 0; EAck 512 1536 (1 # 4) 0; EAck 512 2048 (1 # 4) 0; EAck 512 2048 (1 # 4) 0;
   EAck 2560 512 (1 # 4) 0; EStoreCb; EWake; EExpire 2560].

Example ex_hist_runs :
  exists s' outs, run (mkfx true true true) ex_cfg (init (1024 # 1) (65535 # 1) 1) ex_hist = Ok s' outs /\
    txs outs = [(0, 512); (512, 512); (1024, 512); (1536, 512); (512, 512); (512, 512);
                (2048, 512); (2560, 512); (3072, 512); (3584, 512); (2560, 512)] /\
    (cwnd s' == 512 # 1)%Q /\ (ssthresh s' == 1024 # 1)%Q /\ next_seq s' = 4096 /\ last_ack s' = 2560.
Proof. eexists. eexists. split; [vm_compute; reflexivity|]. repeat split. Qed.
