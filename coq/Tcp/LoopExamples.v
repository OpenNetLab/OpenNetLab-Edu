(* Witness terms for the non-vacuity statements of Props/C16_Examples.v: concrete configurations and
   executions of the closed loop (Tcp/Loop.v) and of the sender alone (Tcp/Sender.v) on which the
   hypotheses of the C16 theorems hold together, and the small tool that turns a computed run into the
   inductive [lsteps]/[lreach] the theorems are stated with. *)
From Coq Require Import ZArith QArith List Lia.
From ONL Require Import Tcp.Sink Tcp.Sender Tcp.SenderProofs Tcp.Loop Tcp.LoopProofs Tcp.LoopLive.
From ONL Require Export Tcp.SenderExamples.
Import ListNotations.
Open Scope Z_scope.

(* k agenda steps, computed; None when the agenda runs empty or a step raises before k steps are done *)
Fixpoint lstepsf (k : nat) (lc : lcfg) (st : lstate) : option lstate :=
  match k with
  | O => Some st
  | S k' => match lstepsf k' lc st with
            | Some st1 => match lstep lc st1 with Some (inl st2) => Some st2 | _ => None end
            | None => None
            end
  end.

Lemma lstepsf_lsteps lc : forall k st st', lstepsf k lc st = Some st' -> lsteps lc k st st'.
Proof.
  induction k as [|k IH]; intros st st' H; cbn [lstepsf] in H.
  - injection H as <-. constructor.
  - destruct (lstepsf k lc st) as [st1|] eqn:E1; [|discriminate].
    destruct (lstep lc st1) as [[st2|e]|] eqn:E2; try discriminate.
    injection H as <-. econstructor; [apply IH; exact E1|exact E2].
Qed.

Lemma lstepsf_reach lc k st st' : lstepsf k lc st = Some st' -> lreach lc st st'.
Proof. intros H. eapply lsteps_reach. apply lstepsf_lsteps. exact H. Qed.

(* for a computed run only a boolean is evaluated: the end state, which holds the whole log, never appears in a proof *)
Lemma lstepsf_runs lc k st :
  (if lstepsf k lc st then true else false) = true ->
  lsteps lc k st (match lstepsf k lc st with Some s => s | None => st end).
Proof. destruct (lstepsf k lc st) eqn:E; [intros _; apply lstepsf_lsteps, E|discriminate]. Qed.

(* ---- the sink alone: corpus/C16/sink-dup-after-merge.json and sink-first-missing.json combined and extended:
   first segment missing at first, reordering, a duplicate after a merge, a gap closed late ---- *)
Definition segsW : list (Z * Z) := [(512, 512); (1024, 512); (0, 512); (512, 512); (2048, 512); (1536, 512)].

(* the sender alone: cS, sS0, hS2, hS, hSbad, sender_after are in Tcp/SenderExamples.v (shared with C17) *)

(* ---- the closed loop with losses: 8 segments of 512 bytes, window 4 MSS, one-way delay 1/4, rtt_estimate 1/2;
   data transmissions 1 and 6 (segment 512, twice) and ACK transmission 2 are dropped.
   The run: 120 agenda steps, 22 data transmissions, 20 ACKs, 7 timer expiries, a fast retransmit (dupack up to 7),
   quiescent at t = 17 with last_ack = 4096. ---- *)
Definition lcW : lcfg := mklcfg repaired (mkcfg 512 4096 Reno) (1 # 4) [1; 6]%nat [2]%nat (1048576 # 1).
Definition stW0 : lstate := linit (2048 # 1) (65535 # 1) (1 # 2) [].
Definition stW (k : nat) : lstate := match lstepsf k lcW stW0 with Some s => s | None => stW0 end.

(* ---- the same flow over a loss-free path: delay 1/4 < rtt_estimate 1 <> 2 * 1/4 ---- *)
Definition lcF : lcfg := mklcfg repaired (mkcfg 512 4096 Reno) (1 # 4) [] [] (1048576 # 1).
Definition stF0 : lstate := linit (2048 # 1) (65535 # 1) (1 # 1) [].
Definition stF (k : nat) : lstate := match lstepsf k lcF stF0 with Some s => s | None => stF0 end.

Lemma lcW_ok2 : lc_ok2 lcW.
Proof. constructor; [constructor; cbn; [reflexivity|lia|discriminate]|]. exists 8. cbn. lia. Qed.
Lemma lcF_ok2 : lc_ok2 lcF.
Proof. constructor; [constructor; cbn; [reflexivity|lia|discriminate]|]. exists 8. cbn. lia. Qed.
