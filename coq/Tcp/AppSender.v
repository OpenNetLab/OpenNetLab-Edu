(* The sender of Tcp/Sender.v together with the APPLICATION PROCESS of its Flow: run() fetches data from
   flow.arrival_dist / flow.size_dist / flow.size into send_buffer, possibly sleeping on
   env.timeout(wait_time) for the next application write, honours flow.start_time and flow.finish_time.
   ACKs, expiries and store callbacks are those of [step]; the resumptions of run() ([AWake]: Initialize or
   the granted StoreGet; [AAppWake]: the Timeout of start_time or of the next write) are modelled here with
   the data-fetching loop, line by line.
   Executable; no proofs here. *)
From Coq Require Import ZArith QArith Qabs Qminmax List Bool.
From ONL Require Import Tcp.Sender.
Import ListNotations.
Open Scope Z_scope.

Record acfg := mkacfg {
  ac_cfg : config;                       (* mss, flow.size (0 = None), algorithm *)
  ac_start : Q;                          (* flow.start_time (0 = None / falsy) *)
  ac_finish : option Q;                  (* flow.finish_time (None = infinite) *)
  ac_arr : option (list Q * Q);          (* flow.arrival_dist: the scripted draws, then a default; None = not set *)
  ac_siz : option (list Z * Z)           (* flow.size_dist, likewise *)
}.

Record app := mkapp {
  ap_last : Q;                           (* self.last_arrival *)
  ap_sleep : option (bool * Q);          (* run() sleeps on a Timeout due at the instant; true = waiting for the next write, false = start_time *)
  ap_started : bool;                     (* run() has been resumed at least once *)
  ap_ai : nat; ap_si : nat               (* draws taken from arrival_dist / size_dist so far *)
}.
Definition app0 : app := mkapp 0 None false O O.

Inductive aevent :=
| AEv (e : event)                        (* EAck / EExpire / EStoreCb: as in Tcp/Sender.v (EWake is not used here) *)
| AWake (now : Q)                        (* run() resumed by its Initialize event or by the granted StoreGet *)
| AAppWake (now : Q).                    (* run() resumed by the Timeout it sleeps on *)

Inductive aresult := AOk (s : sender) (a : app) (o : list out) | ARaise (e : err) | AHang.

Inductive mode := MOuter | MInner | MAfterArrival.

Definition set_buffer (s : sender) (sb : Z) : sender :=
  mkst (next_seq s) sb (last_ack s) (dupack s) (cwnd s) (ssthresh s) (srtt s) (rttvar s) (rto s)
       (cwnd_cnt s) (cnt s) (timers s) (sent s) (tokens s) (pend s) (waiting s) (wake s) (finished s).

Definition finish_run (s : sender) : sender :=
  mkst (next_seq s) (send_buffer s) (last_ack s) (dupack s) (cwnd s) (ssthresh s) (srtt s) (rttvar s) (rto s)
       (cwnd_cnt s) (cnt s) (timers s) (sent s) (tokens s) (pend s) false false true.

(* the loop of run() from one of its three program points up to the next yield / return *)
Fixpoint arun (fuel : nat) (ac : acfg) (now : Q) (m : mode) (s : sender) (a : app) (acc : list out) : aresult :=
  let c := ac_cfg ac in
  match fuel with
  | O => AHang
  | S f =>
      match m with
      | MOuter =>
          (* while env.now < self.flow.finish_time:  if self.flow.size and self.next_seq >= self.flow.size: return *)
          if match ac_finish ac with Some ft => Qle_bool ft now | None => false end then AOk (finish_run s) a acc
          else if negb (fsize c =? 0) && (fsize c <=? next_seq s) then AOk (finish_run s) a acc
          else arun f ac now MInner s a acc
      | MInner =>
          (* while self.next_seq >= self.send_buffer: *)
          if send_buffer s <=? next_seq s then
            match ac_arr ac with
            | Some (l, dflt) =>
                (* wait_time = self.flow.arrival_dist() - (self.env.now - self.last_arrival) *)
                let wait := (nth (ap_ai a) l dflt - (now - ap_last a))%Q in
                if Qltb 0 wait then
                  AOk s (mkapp (ap_last a) (Some (true, (now + wait)%Q)) true (S (ap_ai a)) (ap_si a)) acc   (* yield env.timeout(wait_time) *)
                else arun f ac now MAfterArrival s (mkapp now None true (S (ap_ai a)) (ap_si a)) acc   (* self.last_arrival = env.now *)
            | None => arun f ac now MAfterArrival s a acc
            end
          else if guard c s (send_buffer s) then
            (* the send guard holds: one MSS-sized segment, its timer *)
            if Qle_bool (rto s) 0 then ARaise TimerValue
            else
              let id := next_seq s in
              arun f ac now MOuter
                (mkst (id + mss c) (send_buffer s) (last_ack s) (dupack s) (cwnd s) (ssthresh s) (srtt s) (rttvar s) (rto s)
                      (cwnd_cnt s) (cnt s) (timers s ++ [(id, rto s)]) (sent s ++ [id])
                      (tokens s) (pend s) (waiting s) (wake s) (finished s))
                a (acc ++ [Tx id (mss c); TStart id (rto s)])
          else
            (* yield self.cwnd_avaialbe.get() *)
            match tokens s with
            | S tk => AOk (set_store s tk (pend s) false true) a acc
            | O => AOk (set_store s O (pend s) true false) a acc
            end
      | MAfterArrival =>
          (* packet_size = size_dist() | min(mss, size - next_seq) | mss ;  self.send_buffer += packet_size *)
          match ac_siz ac with
          | Some (l, dflt) =>
              arun f ac now MInner (set_buffer s (send_buffer s + nth (ap_si a) l dflt))
                   (mkapp (ap_last a) (ap_sleep a) (ap_started a) (ap_ai a) (S (ap_si a))) acc
          | None => arun f ac now MInner (set_buffer s (send_buffer s + psize c (next_seq s))) a acc
          end
      end
  end.

Definition astep (fx : fixes) (fuel : nat) (ac : acfg) (s : sender) (a : app) (e : aevent) : aresult :=
  match e with
  | AEv EWake => ARaise NotEnabled
  | AEv ev => match step fx (ac_cfg ac) s ev with Ok s' o => AOk s' a o | Raise x => ARaise x end
  | AWake now =>
      if wake s && negb (finished s) && match ap_sleep a with None => true | Some _ => false end then
        let s0 := set_store s (tokens s) (pend s) false false in
        if ap_started a then arun fuel ac now MOuter s0 a []
        else
          (* the first resumption: if self.flow.start_time: yield env.timeout(self.flow.start_time) *)
          if Qeq_bool (ac_start ac) 0 then arun fuel ac now MOuter s0 (mkapp (ap_last a) None true (ap_ai a) (ap_si a)) []
          else AOk s0 (mkapp (ap_last a) (Some (false, (now + ac_start ac)%Q)) true (ap_ai a) (ap_si a)) []
      else ARaise NotEnabled
  | AAppWake now =>
      match ap_sleep a with
      | Some (isapp, due) =>
          if Qeq_bool due now && negb (finished s) then
            if isapp then arun fuel ac now MAfterArrival s (mkapp now None true (ap_ai a) (ap_si a)) []   (* self.last_arrival = env.now *)
            else arun fuel ac now MOuter s (mkapp (ap_last a) None true (ap_ai a) (ap_si a)) []
          else ARaise NotEnabled
      | None => ARaise NotEnabled
      end
  end.

(* ---- correspondence, per transition from the observed pre-state ---- *)
Definition app_eqb (m o : app) : bool :=
  Qeq_bool (ap_last m) (ap_last o) &&
  match ap_sleep m, ap_sleep o with
  | None, None => true
  | Some (k, d), Some (k', d') => Bool.eqb k k' && Qeq_bool d d'
  | _, _ => false
  end && Bool.eqb (ap_started m) (ap_started o) && Nat.eqb (ap_ai m) (ap_ai o) && Nat.eqb (ap_si m) (ap_si o).

Record aentry := mkaentry { ae_ev : aevent; ae_tx : list (Z * Z); ae_post : sender; ae_app : app; ae_err : option err }.

Fixpoint check_atrace (fx : fixes) (fuel : nat) (ac : acfg) (pre : sender) (pa : app) (l : list aentry) : bool :=
  match l with
  | [] => true
  | e :: t =>
      match astep fx fuel ac pre pa (ae_ev e), ae_err e with
      | AOk s' a' o, None =>
          state_close s' (ae_post e) && app_eqb a' (ae_app e) && listZZ_eq (txs o) (ae_tx e) &&
          check_atrace fx fuel ac (ae_post e) (ae_app e) t
      | ARaise x, Some y => err_eqb x y && match t with [] => true | _ => false end
      | _, _ => false
      end
  end.

Fixpoint first_abad (fx : fixes) (fuel : nat) (ac : acfg) (pre : sender) (pa : app) (l : list aentry) (k : nat)
  : option (nat * aresult) :=
  match l with
  | [] => None
  | e :: t => if check_atrace fx fuel ac pre pa [e] then first_abad fx fuel ac (ae_post e) (ae_app e) t (S k)
              else Some (k, astep fx fuel ac pre pa (ae_ev e))
  end.
