(* Bridging lemmas for the TCPCubic methods translated from /repo (Gen/Extracted_cc.v, second part):
   ack_received (with cubic_update and cubic_tcp_friendliness inlined by the calls) and timer_expired
   (with cubic_reset) compute what Tcp/Cubic.v + Tcp/Sender.v:cc_ack use. *)
From Coq Require Import ZArith QArith Qabs Qminmax Bool Lia Lqa.
From ONL Require Import Tcp.Sender Tcp.SenderProofs Tcp.Cubic Gen.Extracted_cc.
Open Scope Z_scope.

(* the generated state of a model state *)
Definition G (m cw ss : Q) (cs : cubic) (cn : Q) (ccnt : Z) : cubst :=
  mkgc m cw ss (c_wlast cs) (c_epoch cs) (c_origin cs) (c_dmin cs) (c_wtcp cs) (c_k cs)
       (c_ackcnt cs) cn (inject_Z ccnt) cBeta cC.

Definition gc_eq (a b : cubst) : Prop :=
  (y_mss a == y_mss b /\ y_cwnd a == y_cwnd b /\ y_ssthresh a == y_ssthresh b /\ y_W_last_max a == y_W_last_max b /\
   y_epoch_start a == y_epoch_start b /\ y_origin_point a == y_origin_point b /\ y_d_min a == y_d_min b /\
   y_W_tcp a == y_W_tcp b /\ y_K a == y_K b /\ y_ack_cnt a == y_ack_cnt b /\ y_cnt a == y_cnt b /\
   y_cwnd_cnt a == y_cwnd_cnt b /\ y_beta a == y_beta b /\ y_C a == y_C b)%Q.

Lemma bridge_cubic_consts : g_cubic_init_beta = cBeta /\ g_cubic_init_C = cC /\ g_cubic_init_tcp_friendliness = true.
Proof. repeat split. Qed.

(* reduces the projections and setters of the generated record and of [G] *)
Ltac gproj := cbn [y_mss y_cwnd y_ssthresh y_W_last_max y_epoch_start y_origin_point y_d_min y_W_tcp y_K y_ack_cnt y_cnt
                   y_cwnd_cnt y_beta y_C sety_cwnd sety_ssthresh sety_W_last_max sety_epoch_start sety_origin_point
                   sety_d_min sety_W_tcp sety_K sety_ack_cnt sety_cnt sety_cwnd_cnt G
                   c_wlast c_epoch c_origin c_dmin c_wtcp c_k c_ackcnt] in *.

Lemma bridge_cubic_timer_expired m cw ss cs cn ccnt :
  exists g', g_TCPCubic_timer_expired (G m cw ss cs cn ccnt) = Some g' /\ gc_eq g' (G m m ss (cubic_reset cs) cn ccnt).
Proof.
  unfold g_TCPCubic_timer_expired, g_TCPCubic_cubic_reset. gproj. eexists. split; [reflexivity|].
  unfold gc_eq, cubic_reset, cubic0. gproj. repeat split; reflexivity.
Qed.

(* The generated bodies in closed form.  A test whose two branches assign the same field is a conditional VALUE of that
   field ([if_some]); what is left to split on are the tests that change the flow: slow start, a new epoch, the cube root,
   and cwnd_cnt > cnt. *)
Lemma if_some {A B : Type} (b : bool) (f : A -> B) (x y : A) :
  (if b then Some (f x) else Some (f y)) = Some (f (if b then x else y)).
Proof. destruct b; reflexivity. Qed.

Lemma gen_friendliness s :
  g_TCPCubic_cubic_tcp_friendliness s =
  let w := (y_W_tcp s + (3 # 1) * y_beta s / ((2 # 1) - y_beta s) * (y_ack_cnt s / y_cwnd s))%Q in
  let mc := (y_cwnd s / (w - y_cwnd s))%Q in
  Some (sety_cnt (sety_ack_cnt (sety_W_tcp s w) 0)
                 (if Qltb (y_cwnd s) w then if Qltb mc (y_cnt s) then mc else y_cnt s else y_cnt s)).
Proof.
  destruct s as [m0 cw0 ss0 wl0 ep0 og0 dm0 wt0 k0 ac0 cn0 cc0 be0 cC0]. unfold g_TCPCubic_cubic_tcp_friendliness, Qltb. gproj. cbv zeta.
  destruct (Qle_bool _ cw0); [reflexivity|]. cbn [negb]. destruct (Qle_bool cn0 _); reflexivity.
Qed.

Definition gen_target (s : cubst) (now : Q) : Q :=
  let t := (now + y_d_min s - y_epoch_start s)%Q in
  (y_origin_point s + y_C s * ((t - y_K s) * (t - y_K s) * (t - y_K s)))%Q.

Lemma gen_update s now :
  g_TCPCubic_cubic_update s now =
  match (if Qle_bool (y_epoch_start s) 0
         then if Qltb (y_cwnd s) (y_W_last_max s) then None
              else Some (sety_W_tcp (sety_ack_cnt (sety_origin_point (sety_K (sety_epoch_start s now) 0) (y_cwnd s)) 1) (y_cwnd s))
         else Some (sety_ack_cnt s (y_ack_cnt s + 1))) with
  | None => None
  | Some s1 =>
      g_TCPCubic_cubic_tcp_friendliness
        (sety_cnt s1 (if Qltb (y_cwnd s1) (gen_target s1 now) then y_cwnd s1 / (gen_target s1 now - y_cwnd s1) else (100 # 1) * y_cwnd s1))
  end.
Proof.
  destruct s as [m0 cw0 ss0 wl0 ep0 og0 dm0 wt0 k0 ac0 cn0 cc0 be0 cC0]. unfold g_TCPCubic_cubic_update, g_cubic_init_tcp_friendliness, gen_target, Qltb. gproj.
  destruct (Qle_bool ep0 0).
  - destruct (Qle_bool wl0 cw0); cbn [negb]; [|reflexivity]. cbv zeta. gproj.
    rewrite (if_some _ (sety_cnt _)). gproj. destruct (g_TCPCubic_cubic_tcp_friendliness _); reflexivity.
  - cbv zeta. gproj. rewrite (if_some _ (sety_cnt _)). gproj. destruct (g_TCPCubic_cubic_tcp_friendliness _); reflexivity.
Qed.

Lemma gen_ack_received s rtt now :
  g_TCPCubic_ack_received s rtt now =
  let s1 := sety_d_min s (if Qltb 0 (y_d_min s) then if Qle_bool (y_d_min s) rtt then y_d_min s else rtt else rtt) in
  if Qle_bool (y_cwnd s) (y_ssthresh s) then Some (sety_cwnd s1 (y_cwnd s + y_mss s))
  else match g_TCPCubic_cubic_update s1 now with
       | None => None
       | Some s2 => Some (if Qltb (y_cnt s2) (y_cwnd_cnt s2) then sety_cwnd_cnt (sety_cwnd s2 (y_cwnd s2 + y_mss s2)) 0
                          else sety_cwnd_cnt s2 (y_cwnd_cnt s2 + 1))
       end.
Proof.
  destruct s as [m0 cw0 ss0 wl0 ep0 og0 dm0 wt0 k0 ac0 cn0 cc0 be0 cC0]. unfold g_TCPCubic_ack_received, Qltb. gproj. cbv zeta. rewrite (if_some _ (sety_d_min _)). gproj.
  destruct (Qle_bool cw0 ss0); [reflexivity|].
  destruct (g_TCPCubic_cubic_update _ now) as [s2|]; [|reflexivity]. destruct (Qle_bool (y_cwnd_cnt s2) (y_cnt s2)); reflexivity.
Qed.

Lemma bridge_cubic_ack_received c cs cw ss ccnt cn rtt now :
  calg c = Cubic ->
  match cubic_ack cs cw ss rtt now with
  | CubicRoot => g_TCPCubic_ack_received (G (zq (mss c)) cw ss cs cn ccnt) rtt now = None
  | CubOk cs' q =>
      exists g', g_TCPCubic_ack_received (G (zq (mss c)) cw ss cs cn ccnt) rtt now = Some g' /\
                 match cc_ack c cw ss ccnt cn (match q with Some x => x | None => cn end) with
                 | Some (cw', ccnt', cn') => gc_eq g' (G (zq (mss c)) cw' ss cs' cn' ccnt')
                 | None => False
                 end
  end.
Proof.
  intros Ha. rewrite gen_ack_received. unfold cubic_ack, cc_ack. rewrite Ha. gproj.
  set (dmin := if Qltb 0 (c_dmin cs) then _ else rtt).
  destruct (Qle_bool cw ss).
  - eexists. split; [reflexivity|]. unfold gc_eq. gproj. repeat split; reflexivity.
  - rewrite gen_update. gproj. destruct (Qle_bool (c_epoch cs) 0); [destruct (Qltb cw (c_wlast cs)); [reflexivity|]|].
    all: rewrite gen_friendliness; unfold gen_target, zq; gproj; cbv zeta; (eexists; split; [reflexivity|]);
      match goal with |- context [Qltb ?x (inject_Z ?z)] => destruct (Qltb x (inject_Z z)) end;
      unfold gc_eq; gproj; repeat split; try reflexivity; rewrite inject_Z_plus; reflexivity.
Qed.
