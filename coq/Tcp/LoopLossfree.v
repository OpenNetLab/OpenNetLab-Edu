(* The loss-free loop (C16 lossfree_no_retransmit, and termination of the loss-free loop).
   No drops, delay d >= 0, initial RTT estimate rtt0 with d < rtt0 (so the first RTO 2*rtt0 exceeds
   the round-trip time 2d) and rtt0 <> 2d (so the estimator never lands exactly on srtt = 2d,
   rttvar = 0, where RTO = RTT and the timer wins the same-instant race against the ACK).
   Invariant: segments [S,N) are in the data wire in order, the ACKs of [A,S) in the ACK wire in
   order, each segment x is delivered exactly at s_x + d and acknowledged exactly at s_x + 2d
   (s_x its one send instant), its timer is due at s_x + r_x with r_x > 2d and is stopped first. *)
From Coq Require Import ZArith QArith Qabs Qround Qminmax List Bool Lia Lqa Arith.
From ONL Require Import Tcp.Sink Tcp.SinkProofs Tcp.Sender Tcp.SenderProofs Tcp.Loop Tcp.LoopProofs Tcp.LoopLive.
Import ListNotations.
Open Scope Z_scope.

(* ---- in-order arrival at the sink ---- *)
Definition sink_upto (S : Z) : sink := {| buf := if S =? 0 then [] else [(0, S)]; nse := S |}.

Lemma sink_in_order S m : 0 <= S -> 0 < m -> sink_step true (sink_upto S) (S, m) = sink_upto (S + m).
Proof.
  intros HS Hm. unfold sink_step, sink_upto, packet_arrived. cbn [buf fst snd].
  assert (E : (S + m =? 0) = false) by (apply Z.eqb_neq; lia). rewrite E.
  destruct (S =? 0) eqn:E0.
  - apply Z.eqb_eq in E0. subst S. cbn [insert_sorted merge merge_from ack_choice]. cbn. reflexivity.
  - apply Z.eqb_neq in E0. cbn [insert_sorted]. unfold range_leb. cbn [fst snd].
    replace (0 <? S) with true by (symmetry; apply Z.ltb_lt; lia). cbn [orb].
    cbn [merge merge_from fst snd]. rewrite Z.leb_refl. cbn [merge_from fst snd ack_choice].
    rewrite Z.max_r by lia. cbn. reflexivity.
Qed.

(* ---- the events in play: the entry being processed (if any) and the agenda ---- *)
Definition evl (st : lstate) (ev : option aev) : list aev :=
  (match ev with Some e => [e] | None => [] end) ++ map ae_ev (l_agenda st).

Definition dids (e : aev) : list Z := match dataid_of e with Some i => [i] | None => [] end.
Definition apids (e : aev) : list Z :=
  match e with AWireGetA _ p _ _ | AWireOutA _ p _ _ => [p] | _ => [] end.

Definition heldD (st : lstate) (ev : option aev) : list Z := flat_map dids (evl st ev).
Definition heldA (st : lstate) (ev : option aev) : list Z := flat_map apids (evl st ev).
Definition Dp (st : lstate) (ev : option aev) : list Z := heldD st ev ++ wd_items (l_wd st).
Definition Ap (st : lstate) (ev : option aev) : list Z := heldA st ev ++ map a_pid (wa_items (l_wa st)).

Definition cnt (p : aev -> bool) (st : lstate) (ev : option aev) : nat := length (filter p (evl st ev)).
Definition is_initD (e : aev) : bool := match e with AWireInit false => true | _ => false end.
Definition is_holdD (e : aev) : bool := match dataid_of e with Some _ => true | None => false end.
Definition is_putD (e : aev) : bool := match e with AWirePutCb false => true | _ => false end.
Definition is_putA (e : aev) : bool := match e with AWirePutCb true => true | _ => false end.

(* the one send instant of segment x: packet.time = packet.current_time = s *)
Definition sent_at (st : lstate) (x : Z) (s : Q) : Prop := pkt_get x (l_pkt st) = Some (s, s).

Section LF.
Variable lc : lcfg.
Local Notation m := (mss (lc_cfg lc)).
Local Notation d := (lc_delay lc).

(* what an agenda entry due at t must satisfy *)
Definition entry_ok (st : lstate) (t : Q) (e : aev) : Prop :=
  match e with
  | AWireGetD x => exists s, sent_at st x s /\ (t <= s + d)%Q /\ wd_entered (l_wd st) = s
  | AWireOutD x => exists s, sent_at st x s /\ (t == s + d)%Q
  | AWireGetA a p tm ct => sent_at st p tm /\ a = p + m /\ (ct == tm + d)%Q /\ (t <= tm + (2 # 1) * d)%Q
  | AWireOutA a p tm ct => sent_at st p tm /\ a = p + m /\ (ct == tm + d)%Q /\ (t == tm + (2 # 1) * d)%Q
  | AWirePutCb _ | AWireInit _ => (t <= l_now st)%Q
  | ATimerInit id => id < next_seq (l_snd st) /\ forall r, In (id, r) (timers (l_snd st)) -> exists s, sent_at st id s /\ (t == s)%Q
  | ATimerFire id => id < next_seq (l_snd st) /\ forall r, In (id, r) (timers (l_snd st)) -> exists s, sent_at st id s /\ (t == s + r)%Q
  | _ => True
  end.

Definition ack_ok (st : lstate) (r : ackrec) : Prop :=
  sent_at st (a_pid r) (a_time r) /\ a_no r = a_pid r + m /\ (a_ct r == a_time r + d)%Q.

Record LF (st : lstate) (ev : option aev) : Prop := {
  lf_la : 0 <= last_ack (l_snd st);
  lf_dup : dupack (l_snd st) = 0;
  lf_rto : ((2 # 1) * d < rto (l_snd st))%Q;
  lf_srtt : ~ (srtt (l_snd st) == (2 # 1) * d)%Q;
  lf_sink : l_sink st = sink_upto (nse (l_sink st));
  (* timers: exactly the unacknowledged sent segments, each armed beyond the round trip *)
  lf_timers : exists nT : nat, keys (timers (l_snd st)) = seg_ids m (last_ack (l_snd st)) nT /\
                               last_ack (l_snd st) + Z.of_nat nT * m = next_seq (l_snd st);
  lf_armed : Forall (fun p => ((2 # 1) * d < snd p)%Q) (timers (l_snd st));
  (* pipelines *)
  lf_Dp : exists nD : nat, Dp st ev = seg_ids m (nse (l_sink st)) nD /\ nse (l_sink st) + Z.of_nat nD * m = next_seq (l_snd st);
  lf_Ap : exists nA : nat, Ap st ev = seg_ids m (last_ack (l_snd st)) nA /\ last_ack (l_snd st) + Z.of_nat nA * m = nse (l_sink st);
  lf_D_due : forall x, In x (Dp st ev) -> exists s, sent_at st x s /\ (l_now st <= s + d)%Q;
  lf_A_due : forall x, In x (Ap st ev) -> exists s, sent_at st x s /\ (l_now st <= s + (2 # 1) * d)%Q;
  lf_order : forall x y sx sy, last_ack (l_snd st) <= x -> x <= y -> sent_at st x sx -> sent_at st y sy -> (sx <= sy)%Q;
  (* wire control *)
  lf_ctlD : (cnt is_holdD st ev + cnt is_initD st ev + b2n (wd_waiting (l_wd st)))%nat = 1%nat;
  lf_ctlA : (cnt is_holdA st ev + cnt is_initA st ev + b2n (wa_waiting (l_wa st)))%nat = 1%nat;
  lf_waitD : cnt is_holdD st ev = O -> wd_items (l_wd st) <> [] -> (0 < cnt is_putD st ev + cnt is_initD st ev)%nat;
  lf_waitA : cnt is_holdA st ev = O -> wa_items (l_wa st) <> [] -> (0 < cnt is_putA st ev + cnt is_initA st ev)%nat;
  (* entries and queued ACKs *)
  lf_entries : Forall (fun a => entry_ok st (ae_time a) (ae_ev a)) (l_agenda st);
  lf_acks : Forall (ack_ok st) (wa_items (l_wa st));
  (* the transmission log: every segment once, in order *)
  lf_log : exists nN : nat, map dl_id (rev (l_d1 st)) = seg_ids m 0 nN /\ Z.of_nat nN * m = next_seq (l_snd st) /\ l_n1 st = nN;
  lf_dom : forall y s, sent_at st y s -> y < next_seq (l_snd st);
  (* every queued entry carries the send instant of its segment (nothing is sent twice) *)
  lf_stamps : Forall2 (fun x s => sent_at st x s) (wd_items (l_wd st)) (wd_stamps (l_wd st))
}.

End LF.

(* ---- events under scheduling ---- *)
Lemma map_ev_insert e l : exists l1 l2, l = l1 ++ l2 /\ ainsert e l = l1 ++ e :: l2.
Proof.
  induction l as [|x t IH]; cbn [ainsert].
  - exists [], []. split; reflexivity.
  - destruct (ae_before e x).
    + exists [], (x :: t). split; reflexivity.
    + destruct IH as (l1 & l2 & -> & E). exists (x :: l1), l2. split; [reflexivity|]. rewrite E. reflexivity.
Qed.

Lemma evl_sched st t p e ev : exists l1 l2, evl st ev = l1 ++ l2 /\ evl (sched st t p e) ev = l1 ++ e :: l2.
Proof.
  unfold evl, sched; lproj. destruct (map_ev_insert (mkae (nq t) p (l_seq st) e) (l_agenda st)) as (l1 & l2 & E1 & E2).
  rewrite E2. rewrite E1. rewrite !map_app. cbn [map ae_ev].
  exists ((match ev with Some e0 => [e0] | None => [] end) ++ map ae_ev l1), (map ae_ev l2).
  rewrite <- !app_assoc. split; reflexivity.
Qed.

Lemma cnt_sched p st t q e ev : cnt p (sched st t q e) ev = (b2n (p e) + cnt p st ev)%nat.
Proof.
  unfold cnt. destruct (evl_sched st t q e ev) as (l1 & l2 & -> & ->).
  rewrite !filter_app, !app_length. cbn [filter]. destruct (p e); cbn [length b2n]; lia.
Qed.

Lemma proj_sched_nil {X : Type} (f : aev -> list X) st t p e ev :
  f e = [] -> flat_map f (evl (sched st t p e) ev) = flat_map f (evl st ev).
Proof.
  intros Hf. destruct (evl_sched st t p e ev) as (l1 & l2 & -> & ->).
  rewrite !flat_map_app. cbn [flat_map]. rewrite Hf. reflexivity.
Qed.

Lemma flat_map_nil_app {X Y : Type} (f : X -> list Y) l1 l2 : flat_map f (l1 ++ l2) = [] -> flat_map f l1 = [] /\ flat_map f l2 = [].
Proof. rewrite flat_map_app. apply app_eq_nil. Qed.

Lemma proj_sched_single {X : Type} (f : aev -> list X) st t p e ev :
  flat_map f (evl st ev) = [] -> flat_map f (evl (sched st t p e) ev) = f e.
Proof.
  destruct (evl_sched st t p e ev) as (l1 & l2 & -> & ->). intros H.
  apply flat_map_nil_app in H as [H1 H2]. rewrite flat_map_app. cbn [flat_map]. rewrite H1, H2, app_nil_r. reflexivity.
Qed.

Lemma In_evl_sched st t p e ev x : In x (evl (sched st t p e) ev) <-> x = e \/ In x (evl st ev).
Proof.
  destruct (evl_sched st t p e ev) as (l1 & l2 & -> & ->). rewrite !in_app_iff. cbn [In]. intuition.
Qed.

(* counting and projecting *)
Lemma cnt_zero_forall p st ev : cnt p st ev = O -> forall x, In x (evl st ev) -> p x = false.
Proof.
  unfold cnt. induction (evl st ev) as [|y l IH]; cbn [filter]; intros H x Hx; [destruct Hx|].
  destruct (p y) eqn:E; [cbn [length] in H; lia|]. destruct Hx as [<-|Hx]; auto.
Qed.

Lemma cnt_pos_exists p st ev : (0 < cnt p st ev)%nat -> exists x, In x (evl st ev) /\ p x = true.
Proof.
  unfold cnt. induction (evl st ev) as [|y l IH]; cbn [filter length]; [lia|].
  destruct (p y) eqn:E; [intros _; exists y; split; [left; reflexivity|exact E]|].
  intros H. destruct (IH H) as (x & Hx & Ex). exists x. split; [right; exact Hx|exact Ex].
Qed.

Lemma heldD_len st ev : length (heldD st ev) = cnt is_holdD st ev.
Proof.
  unfold heldD, cnt. induction (evl st ev) as [|y l IH]; cbn [flat_map filter]; [reflexivity|].
  rewrite app_length, IH. unfold dids, is_holdD. destruct (dataid_of y); cbn [length]; lia.
Qed.

Lemma heldA_len st ev : length (heldA st ev) = cnt is_holdA st ev.
Proof.
  unfold heldA, cnt. induction (evl st ev) as [|y l IH]; cbn [flat_map filter]; [reflexivity|].
  rewrite app_length, IH. unfold apids, is_holdA. destruct y; cbn [ackno_of length]; lia.
Qed.

Section LFproofs.
Variable lc : lcfg.
Local Notation m := (mss (lc_cfg lc)).
Local Notation d := (lc_delay lc).
Hypothesis Hok2 : lc_ok2 lc.
Hypothesis Hnd : lc_drop_data lc = [].
Hypothesis Hna : lc_drop_ack lc = [].

Lemma Hm_pos : 0 < m.
Proof. exact (ok_mss _ (ok2_ok _ Hok2)). Qed.
Lemma Hd_nonneg : (0 <= d)%Q.
Proof. exact (ok_delay _ (ok2_ok _ Hok2)). Qed.

Lemma entry_ok_now st st' t e :
  l_pkt st' = l_pkt st -> l_snd st' = l_snd st -> wd_entered (l_wd st') = wd_entered (l_wd st) -> (l_now st <= l_now st')%Q ->
  entry_ok lc st t e -> entry_ok lc st' t e.
Proof.
  intros Hp Hs Hw Hn. unfold entry_ok, sent_at. rewrite Hp, Hs, Hw. destruct e; auto; intros H; lra.
Qed.

Lemma evl_In_agenda st e : In e (evl st None) <-> exists a, In a (l_agenda st) /\ ae_ev a = e.
Proof. unfold evl. cbn [app]. rewrite in_map_iff. split; intros (a & A & B); exists a; auto. Qed.

Lemma seg_ids_head mm id n x l : seg_ids mm id n = x :: l -> x = id /\ l = seg_ids mm (id + mm) (Nat.pred n).
Proof. destruct n as [|n]; cbn [seg_ids]; [discriminate|]. intros H; injection H as <- <-. auto. Qed.

Lemma seg_ids_ge mm id n x : 0 < mm -> In x (seg_ids mm id n) -> id <= x.
Proof. intros Hmm H. apply seg_ids_In in H as (k & _ & ->). nia. Qed.

(* taking the next entry off the agenda *)
Lemma pop_LF st a rest :
  LInvA lc st None -> LF lc st None -> l_agenda st = a :: rest ->
  LF lc (popped st a rest) (Some (ae_ev a)) /\ entry_ok lc (popped st a rest) (ae_time a) (ae_ev a).
Proof.
  intros HA L E. pose proof Hm_pos as Hm. pose proof Hd_nonneg as Hd.
  destruct HA as [_ _ _ [Ts Tf _ _ _ _ _]]. rewrite E in Ts, Tf. cbn [asorted] in Ts. destruct Ts as [Tmin _].
  assert (Hna' : (l_now st <= ae_time a)%Q) by (inversion Tf; assumption).
  assert (Eevl : evl (popped st a rest) (Some (ae_ev a)) = evl st None) by (unfold evl, popped; lproj; rewrite E; reflexivity).
  assert (Hent : forall a', In a' (l_agenda st) -> entry_ok lc st (ae_time a') (ae_ev a')).
  { pose proof (lf_entries _ _ _ L) as F. rewrite Forall_forall in F. exact F. }
  assert (Hmin : forall a', In a' (l_agenda st) -> (ae_time a <= ae_time a')%Q).
  { intros a' Hin. rewrite E in Hin. destruct Hin as [<-|Hin]; [apply Qle_refl|]. rewrite Forall_forall in Tmin. apply Tmin, Hin. }
  (* The popped instant does not pass the due time s + K of anything in a wire (K = d for data, 2d for ACKs): with
     nothing held, a put callback or the wire's Initialize is on the agenda, due now; otherwise the held packet is the
     first of the pipeline, its entry is due by s0 + K, and everything behind it was sent later. *)
  assert (Due : forall (held items : list Z) base n K,
             held ++ items = seg_ids m base n -> last_ack (l_snd st) <= base ->
             (held = [] -> items <> [] -> exists a', In a' (l_agenda st) /\ (ae_time a' <= l_now st)%Q) ->
             (forall x0, In x0 held -> exists a' s0, In a' (l_agenda st) /\ sent_at st x0 s0 /\ (ae_time a' <= s0 + K)%Q) ->
             forall x s, In x (held ++ items) -> sent_at st x s -> (l_now st <= s + K)%Q -> (ae_time a <= s + K)%Q).
  { intros held items base n K Ep Hb Hnow Hheld x s Hx Hs Hle. destruct held as [|x0 l0].
    - destruct Hnow as (a' & Hin & Ha'); [reflexivity|intros Z; rewrite Z in Hx; destruct Hx|].
      pose proof (Hmin a' Hin). lra.
    - destruct (Hheld x0 (or_introl eq_refl)) as (a' & s0 & Hin & S0 & T0). pose proof (Hmin a' Hin).
      assert (Hxge : base <= x) by (rewrite Ep in Hx; apply seg_ids_ge in Hx; [exact Hx|exact Hm]).
      cbn [app] in Ep. symmetry in Ep. apply seg_ids_head in Ep as [-> _].
      assert (s0 <= s)%Q by (apply (lf_order _ _ _ L base x s0 s); auto).
      lra. }
  assert (Wake : forall pP pI : aev -> bool, (0 < cnt pP st None + cnt pI st None)%nat ->
             (forall e t, pP e = true \/ pI e = true -> entry_ok lc st t e -> (t <= l_now st)%Q) ->
             exists a', In a' (l_agenda st) /\ (ae_time a' <= l_now st)%Q).
  { intros pP pI Hpos Hok.
    assert (Hex : exists e, In e (evl st None) /\ (pP e = true \/ pI e = true)).
    { destruct (cnt pP st None) eqn:E1.
      - destruct (cnt_pos_exists pI st None ltac:(lia)) as (e & He & Hi). eauto.
      - destruct (cnt_pos_exists pP st None ltac:(lia)) as (e & He & Hi). eauto. }
    destruct Hex as (e & He & Hk). apply evl_In_agenda in He as (a' & Hin & <-). exists a'. split; [exact Hin|]. eauto. }
  destruct (lf_Dp _ _ _ L) as (nD & EDp & _). destruct (lf_Ap _ _ _ L) as (nA & EAp & ELA).
  assert (DueD : forall x, In x (Dp st None) -> exists s, sent_at st x s /\ (ae_time a <= s + d)%Q).
  { intros x Hx. destruct (lf_D_due _ _ _ L x Hx) as (s & Hs & Hle). exists s. split; [exact Hs|].
    apply (Due (heldD st None) (wd_items (l_wd st)) _ nD d EDp) with (x := x); auto; [fold m in ELA; nia| |].
    - intros Hh Hne. apply (Wake is_putD is_initD).
      + apply (lf_waitD _ _ _ L); [rewrite <- heldD_len, Hh; reflexivity|exact Hne].
      + intros e t Hk Ok. destruct e; cbn in Hk; destruct Hk as [Hk|Hk]; try discriminate; exact Ok.
    - intros x0 Hx0. apply in_flat_map in Hx0 as (e & He & Hd0). apply evl_In_agenda in He as (a' & Hin & <-).
      pose proof (Hent a' Hin) as Ok.
      destruct (ae_ev a'); cbn [dids dataid_of In] in Hd0; try contradiction; destruct Hd0 as [->|[]]; cbn [entry_ok] in Ok;
        [destruct Ok as (s0 & S0 & T0 & _)|destruct Ok as (s0 & S0 & T0)]; exists a', s0; (split; [exact Hin|]); (split; [exact S0|lra]). }
  assert (DueA : forall x, In x (Ap st None) -> exists s, sent_at st x s /\ (ae_time a <= s + (2 # 1) * d)%Q).
  { intros x Hx. destruct (lf_A_due _ _ _ L x Hx) as (s & Hs & Hle). exists s. split; [exact Hs|].
    apply (Due (heldA st None) (map a_pid (wa_items (l_wa st))) _ nA ((2 # 1) * d)%Q EAp) with (x := x); auto; [lia| |].
    - intros Hh Hne. apply (Wake is_putA is_initA).
      + apply (lf_waitA _ _ _ L); [rewrite <- heldA_len, Hh; reflexivity|intros Z; rewrite Z in Hne; apply Hne; reflexivity].
      + intros e t Hk Ok. destruct e; cbn in Hk; destruct Hk as [Hk|Hk]; try discriminate; exact Ok.
    - intros x0 Hx0. apply in_flat_map in Hx0 as (e & He & Hd0). apply evl_In_agenda in He as (a' & Hin & <-).
      pose proof (Hent a' Hin) as Ok.
      destruct (ae_ev a'); cbn [apids In] in Hd0; try contradiction; destruct Hd0 as [->|[]]; cbn [entry_ok] in Ok;
        destruct Ok as (S0 & _ & _ & T0); exists a'; eexists; (split; [exact Hin|]); (split; [exact S0|lra]). }
  split.
  - destruct L as [Lla Ldup Lrto Lsrtt Lsink Ltimers Larmed LDp LAp LDdue LAdue Lorder LctlD LctlA LwaitD LwaitA Lentries Lacks Llog Ldom Lstamps].
    constructor; unfold Dp, Ap, heldD, heldA, cnt in *; rewrite ?Eevl; unfold popped; lproj; auto.
    + apply Forall_forall. intros a' Hin. eapply (entry_ok_now st); try reflexivity; [exact Hna'|].
      apply Hent. rewrite E. right. exact Hin.
  - eapply (entry_ok_now st); try reflexivity; [exact Hna'|]. apply Hent. rewrite E. left. reflexivity.
Qed.

(* ---- exact bookkeeping of what is added to the agenda ---- *)
Inductive AddsT : list aentry -> list aentry -> list (Q * aev) -> Prop :=
| addsT_nil ag : AddsT ag ag []
| addsT_cons ag ag' news t p k e : AddsT ag ag' news -> AddsT ag (ainsert (mkae t p k e) ag') (news ++ [(t, e)]).

Lemma AddsT_trans b c n2 : AddsT b c n2 -> forall a n1, AddsT a b n1 -> AddsT a c (n1 ++ n2).
Proof.
  induction 1 as [|ag ag' news t p k e H IH]; intros a n1 H1; [rewrite app_nil_r; exact H1|].
  rewrite app_assoc. constructor. apply IH. exact H1.
Qed.

Lemma AddsT_sched st t p e : AddsT (l_agenda st) (l_agenda (sched st t p e)) [(nq t, e)].
Proof. unfold sched; lproj. apply (addsT_cons _ _ [] (nq t) p (l_seq st) e). constructor. Qed.

Lemma AddsT_Forall (P : Q -> aev -> Prop) ag ag' news :
  AddsT ag ag' news -> Forall (fun a => P (ae_time a) (ae_ev a)) ag -> Forall (fun x => P (fst x) (snd x)) news ->
  Forall (fun a => P (ae_time a) (ae_ev a)) ag'.
Proof.
  induction 1 as [|ag ag' news t p k e H IH]; intros Ha Hn; [exact Ha|].
  apply Forall_app in Hn as [Hn1 Hn2]. inversion Hn2 as [|? ? Hte _]; subst. cbn [fst snd] in Hte.
  apply Forall_forall. intros a Hin. apply ainsert_In in Hin as [->|Hin]; [exact Hte|].
  specialize (IH Ha Hn1). rewrite Forall_forall in IH. apply IH, Hin.
Qed.

Lemma AddsT_cnt (p : aev -> bool) ag ag' news : AddsT ag ag' news -> forall pre : list aev,
  length (filter p (pre ++ map ae_ev ag')) = (length (filter p (map snd news)) + length (filter p (pre ++ map ae_ev ag)))%nat.
Proof.
  induction 1 as [|ag ag' news t q k e H IH]; intros pre; [reflexivity|].
  destruct (map_ev_insert (mkae t q k e) ag') as (l1 & l2 & E1 & E2). rewrite E2. specialize (IH pre). rewrite E1 in IH.
  rewrite !map_app, !filter_app, !app_length in *. cbn [map ae_ev snd filter] in *. destruct (p e); cbn [length]; lia.
Qed.

Lemma AddsT_proj_nil {X : Type} (f : aev -> list X) ag ag' news : AddsT ag ag' news ->
  Forall (fun x => f (snd x) = []) news -> forall pre : list aev,
  flat_map f (pre ++ map ae_ev ag') = flat_map f (pre ++ map ae_ev ag).
Proof.
  induction 1 as [|ag ag' news t q k e H IH]; intros Hn pre; [reflexivity|].
  apply Forall_app in Hn as [Hn1 Hn2]. inversion Hn2 as [|? ? He _]; subst. cbn [snd] in He.
  destruct (map_ev_insert (mkae t q k e) ag') as (l1 & l2 & E1 & E2). rewrite E2. specialize (IH Hn1 pre). rewrite E1 in IH.
  rewrite <- IH. rewrite !map_app, !flat_map_app. cbn [map ae_ev flat_map]. rewrite He. reflexivity.
Qed.

Lemma AddsT_In ag ag' news : AddsT ag ag' news -> forall (pre : list aev) x,
  In x (pre ++ map ae_ev ag') <-> In x (map snd news) \/ In x (pre ++ map ae_ev ag).
Proof.
  induction 1 as [|ag ag' news t q k e H IH]; intros pre x; [cbn [map In]; tauto|].
  specialize (IH pre x). rewrite in_app_iff in *. rewrite map_app, in_app_iff.
  assert (E : In x (map ae_ev (ainsert (mkae t q k e) ag')) <-> e = x \/ In x (map ae_ev ag')).
  { rewrite !in_map_iff. split.
    - intros (a & <- & Ha). apply ainsert_In in Ha as [->|Ha]; [left; reflexivity|right; eauto].
    - intros [<-|(a & <- & Ha)]; [exists (mkae t q k e)|exists a]; (split; [reflexivity|apply ainsert_In; auto]). }
  rewrite E. cbn [map snd In]. clear -IH. tauto.
Qed.

(* ---- the outputs of a sender event when nothing is dropped ---- *)
Definition tx_ids (o : list out) : list Z := flat_map (fun x => match x with Tx i _ => [i] | _ => [] end) o.
Definition out_news (now : Q) (o : list out) : list (Q * aev) :=
  flat_map (fun x => match x with
                     | Tx _ _ => [(nq now, AWirePutCb false)]
                     | TStart id _ => [(nq now, ATimerInit id)]
                     | TStop _ => []
                     | TRestart id r => [(nq (now + r), ATimerFire id)]
                     end) o.
Fixpoint pkt_sets (now : Q) (ids : list Z) (pk : list (Z * (Q * Q))) : list (Z * (Q * Q)) :=
  match ids with [] => pk | i :: t => pkt_sets now t (pkt_set i (now, now) pk) end.

Record same_rest (st st' : lstate) : Prop := {
  sr_now : l_now st' = l_now st; sr_snd : l_snd st' = l_snd st; sr_sink : l_sink st' = l_sink st;
  sr_wa : l_wa st' = l_wa st; sr_n2 : l_n2 st' = l_n2 st
}.

(* the data wire's store after the segments [ids] entered it at [t] *)
Definition wd_app (w : wireD) (ids : list Z) (t : Q) : wireD :=
  mkwd (wd_items w ++ ids) (wd_stamps w ++ map (fun _ => t) ids) (wd_entered w) (wd_waiting w).

Lemma do_outs_exact : forall o st,
  let st' := do_outs lc st o in
  same_rest st st' /\
  AddsT (l_agenda st) (l_agenda st') (out_news (l_now st) o) /\
  l_wd st' = wd_app (l_wd st) (tx_ids o) (l_now st) /\
  l_pkt st' = pkt_sets (l_now st) (tx_ids o) (l_pkt st) /\
  l_n1 st' = (l_n1 st + length (tx_ids o))%nat /\
  map dl_id (rev (l_d1 st')) = map dl_id (rev (l_d1 st)) ++ tx_ids o.
Proof.
  induction o as [|x o IH]; intros st; cbn [do_outs tx_ids out_news flat_map pkt_sets].
  - split; [constructor; reflexivity|]. split; [constructor|]. unfold wd_app. cbn [map]. rewrite !app_nil_r, Nat.add_0_r.
    split; [destruct (l_wd st); reflexivity|]. auto.
  - destruct x as [id z|id r|id|id r].
    + (* Tx *)
      set (st1 := tx_data lc st id).
      assert (T : same_rest st st1 /\ AddsT (l_agenda st) (l_agenda st1) [(nq (l_now st), AWirePutCb false)] /\
                  l_wd st1 = wd_app (l_wd st) [id] (l_now st) /\
                  l_pkt st1 = pkt_set id (l_now st, l_now st) (l_pkt st) /\ l_n1 st1 = S (l_n1 st) /\
                  l_d1 st1 = mkdlog (l_n1 st) id 0 (l_now st) false :: l_d1 st).
      { subst st1. unfold tx_data. rewrite Hnd. cbn [existsb]. lproj.
        split; [constructor; reflexivity|]. split; [|auto].
        apply (addsT_cons _ _ [] (nq (l_now st)) 1%nat (l_seq st) (AWirePutCb false)). constructor. }
      destruct T as (S1 & A1 & W1 & P1 & N1 & D1).
      destruct (IH st1) as (S2 & A2 & W2 & P2 & N2 & D2). fold (do_outs lc st1 o) in *.
      destruct S1 as [a1 a2 a3 a4 a5], S2 as [b1 b2 b3 b4 b5]. rewrite a1 in *.
      split; [constructor; congruence|]. split; [eapply (AddsT_trans _ _ _ A2 _ _ A1)|].
      split; [rewrite W2, W1; unfold wd_app; cbn [wd_items wd_stamps wd_entered wd_waiting map]; rewrite <- !app_assoc; reflexivity|].
      split; [rewrite P2, P1; reflexivity|]. unfold tx_ids in *. split; [rewrite N2, N1; cbn [length app]; lia|].
      rewrite D2, D1. cbn [rev]. rewrite map_app. cbn [map dl_id app]. rewrite <- app_assoc. reflexivity.
    + set (st1 := sched st (l_now st) 0 (ATimerInit id)).
      destruct (IH st1) as (S2 & A2 & W2 & P2 & N2 & D2). fold (do_outs lc st1 o) in *.
      change (l_now st1) with (l_now st) in *. destruct S2 as [b1 b2 b3 b4 b5].
      split; [constructor; assumption|]. split; [eapply (AddsT_trans _ _ _ A2 _ _ (AddsT_sched st _ _ _))|]. auto.
    + apply IH.
    + set (st1 := sched st (l_now st + r)%Q 1 (ATimerFire id)).
      destruct (IH st1) as (S2 & A2 & W2 & P2 & N2 & D2). fold (do_outs lc st1 o) in *.
      change (l_now st1) with (l_now st) in *. destruct S2 as [b1 b2 b3 b4 b5].
      split; [constructor; assumption|]. split; [eapply (AddsT_trans _ _ _ A2 _ _ (AddsT_sched st _ _ _))|]. auto.
Qed.

(* ---- the processed entry vs. the agenda ---- *)
Lemma cnt_some p st e : cnt p st (Some e) = (b2n (p e) + cnt p st None)%nat.
Proof. unfold cnt, evl. cbn [app filter]. destruct (p e); cbn [length b2n]; lia. Qed.
Lemma heldD_some st e : heldD st (Some e) = dids e ++ heldD st None.
Proof. reflexivity. Qed.
Lemma heldA_some st e : heldA st (Some e) = apids e ++ heldA st None.
Proof. reflexivity. Qed.
Lemma cnt_sched_none p st t q e : cnt p (sched st t q e) None = (b2n (p e) + cnt p st None)%nat.
Proof. apply cnt_sched. Qed.

Lemma heldD_nil_cnt st ev : cnt is_holdD st ev = O -> heldD st ev = [].
Proof. intros H. apply length_zero_iff_nil. rewrite heldD_len. exact H. Qed.
Lemma heldA_nil_cnt st ev : cnt is_holdA st ev = O -> heldA st ev = [].
Proof. intros H. apply length_zero_iff_nil. rewrite heldA_len. exact H. Qed.

(* LF does not read the CUBIC oracle *)
Lemma LF_oracle st ev : LF lc st ev -> LF lc (no_oracle st) ev.
Proof.
  intros [Lla Ldup Lrto Lsrtt Lsink Ltimers Larmed LDp LAp LDdue LAdue Lorder LctlD LctlA LwaitD LwaitA Lentries Lacks Llog Ldom Lstamps].
  constructor; auto.
Qed.

(* an entry that is not a granted data packet does not read the wire's local variable *)
Lemma entry_ok_noget st st' t e :
  l_pkt st' = l_pkt st -> l_snd st' = l_snd st -> l_now st' = l_now st -> is_holdD e = false \/ (exists x, e = AWireOutD x) ->
  entry_ok lc st t e -> entry_ok lc st' t e.
Proof.
  intros A B C Hh. unfold entry_ok, sent_at. rewrite A, B, C. destruct e; auto. destruct Hh as [Hh|(x & Hx)]; discriminate.
Qed.

Lemma Forall_insert (P : aentry -> Prop) e l : P e -> Forall P l -> Forall P (ainsert e l).
Proof.
  intros He Hl. apply Forall_forall. intros a Ha. apply ainsert_In in Ha as [->|Ha]; [exact He|].
  rewrite Forall_forall in Hl. auto.
Qed.

Lemma sent_at_fun st x s s' : sent_at st x s -> sent_at st x s' -> s = s'.
Proof. unfold sent_at. intros A B. rewrite A in B. injection B as <-. reflexivity. Qed.

(* the data wire's process asks its store for the next packet *)
Lemma wd_get_LF st ev :
  (ev = AWireInit false \/ (ev = AWirePutCb false /\ wd_waiting (l_wd st) = true)) ->
  LF lc st (Some ev) -> LF lc (wd_get st) None.
Proof.
  intros Hev L.
  assert (Hd : dids ev = [] /\ apids ev = [] /\ is_holdD ev = false /\ is_holdA ev = false /\ is_initA ev = false /\ is_putA ev = false)
    by (destruct Hev as [->|[-> _]]; repeat split).
  destruct Hd as (Hd1 & Hd2 & Hd3 & Hd4 & Hd5 & Hd6).
  destruct L as [Lla Ldup Lrto Lsrtt Lsink Ltimers Larmed LDp LAp LDdue LAdue Lorder LctlD LctlA LwaitD LwaitA Lentries Lacks Llog Ldom Lstamps].
  rewrite !cnt_some in *. rewrite Hd3 in LctlD. rewrite Hd4, Hd5 in LctlA. rewrite Hd4 in LwaitA. rewrite Hd5, Hd6 in LwaitA. rewrite Hd3 in LwaitD.
  cbn [b2n Nat.add] in *.
  assert (Hc : cnt is_holdD st None = O /\ cnt is_initD st None = O).
  { destruct Hev as [->|[-> Hw]]; cbn [is_initD b2n] in LctlD; [|rewrite Hw in LctlD; cbn [b2n] in LctlD]; lia. }
  destruct Hc as [Hc1 Hc2].
  assert (HhD : heldD st None = []) by (apply heldD_nil_cnt; exact Hc1).
  unfold Dp, Ap in *. rewrite heldD_some, Hd1 in *. rewrite heldA_some, Hd2 in *. rewrite HhD in *. cbn [app] in *.
  unfold wd_get. destruct (wd_items (l_wd st)) as [|x rest] eqn:E.
  - (* nothing queued: wait *)
    constructor; unfold Dp, Ap, heldD, heldA, cnt, evl, entry_ok, ack_ok, sent_at in *; lproj; rewrite ?E, ?HhD, ?Hc1, ?Hc2; cbn [app] in *; auto.
    intros _ Hne. contradiction.
  - (* hand the first queued packet to the process: its StoreGet event *)
    assert (Hx : exists s, sent_at st x s /\ (l_now st <= s + d)%Q) by (apply LDdue; left; reflexivity).
    inversion Lstamps as [|? s0 ? srest Hs0 Hrest Ei Es]; subst.
    cbn [hd tl]. set (st1 := set_wd st (mkwd rest srest s0 false)).
    assert (EhD : heldD (sched st1 (l_now st) 1 (AWireGetD x)) None = [x]) by (apply (proj_sched_single dids st1), HhD).
    assert (EhA : heldA (sched st1 (l_now st) 1 (AWireGetD x)) None = heldA st None) by (apply (proj_sched_nil apids st1); reflexivity).
    assert (Ecn : forall p, cnt p (sched st1 (l_now st) 1 (AWireGetD x)) None = (b2n (p (AWireGetD x)) + cnt p st None)%nat)
      by (intros p; exact (cnt_sched p st1 _ _ _ None)).
    constructor; unfold Dp, Ap; rewrite ?EhD, ?EhA, ?Ecn, ?Hc1, ?Hc2; lproj;
      cbn [is_holdD is_initD is_holdA is_initA is_putA dataid_of ackno_of b2n Nat.add app]; auto.
    + discriminate.
    + apply Forall_insert; [cbn [ae_time ae_ev entry_ok]|].
      * destruct Hx as (s & Hs & Hle). exists s. split; [exact Hs|]. split; [rewrite nq_eq; exact Hle|]. lproj.
        eapply sent_at_fun; eauto.
      * apply Forall_forall. intros a0 Ha0. rewrite Forall_forall in Lentries.
        apply (entry_ok_noget st); try reflexivity; [|apply Lentries, Ha0]. left.
        apply (cnt_zero_forall is_holdD st None Hc1). unfold evl. cbn [app]. apply in_map. exact Ha0.
Qed.


Lemma wa_get_LF st ev :
  (ev = AWireInit true \/ (ev = AWirePutCb true /\ wa_waiting (l_wa st) = true)) ->
  LF lc st (Some ev) -> LF lc (wa_get st) None.
Proof.
  intros Hev L.
  assert (Hd : dids ev = [] /\ apids ev = [] /\ is_holdD ev = false /\ is_holdA ev = false /\ is_initD ev = false /\ is_putD ev = false)
    by (destruct Hev as [->|[-> _]]; repeat split).
  destruct Hd as (Hd1 & Hd2 & Hd3 & Hd4 & Hd5 & Hd6).
  destruct L as [Lla Ldup Lrto Lsrtt Lsink Ltimers Larmed LDp LAp LDdue LAdue Lorder LctlD LctlA LwaitD LwaitA Lentries Lacks Llog Ldom Lstamps].
  rewrite !cnt_some in *. rewrite Hd3, Hd5 in LctlD. rewrite Hd4 in LctlA. rewrite Hd3, Hd5, Hd6 in LwaitD. rewrite Hd4 in LwaitA.
  cbn [b2n Nat.add] in *.
  assert (Hc : cnt is_holdA st None = O /\ cnt is_initA st None = O).
  { destruct Hev as [->|[-> Hw]]; cbn [is_initA b2n] in LctlA; [|rewrite Hw in LctlA; cbn [b2n] in LctlA]; lia. }
  destruct Hc as [Hc1 Hc2].
  assert (HhA : heldA st None = []) by (apply heldA_nil_cnt; exact Hc1).
  unfold Dp, Ap in *. rewrite heldD_some, Hd1 in *. rewrite heldA_some, Hd2 in *. rewrite HhA in *. cbn [app] in *.
  unfold wa_get. destruct (wa_items (l_wa st)) as [|x rest] eqn:E.
  - constructor; unfold Dp, Ap, heldD, heldA, cnt, evl, entry_ok, ack_ok, sent_at in *; lproj; rewrite ?E, ?HhA, ?Hc1, ?Hc2; cbn [app map] in *; auto.
    intros _ Hne. contradiction.
  - cbn [map] in *.
    assert (Hx : exists s, sent_at st (a_pid x) s /\ (l_now st <= s + (2 # 1) * d)%Q) by (apply LAdue; left; reflexivity).
    inversion Lacks as [|? ? Hax Hrest]; subst.
    set (st1 := set_wa st (mkwa rest false)). set (e := AWireGetA (a_no x) (a_pid x) (a_time x) (a_ct x)).
    assert (EhD : heldD (sched st1 (l_now st) 1 e) None = heldD st None) by (apply (proj_sched_nil dids st1); reflexivity).
    assert (EhA : heldA (sched st1 (l_now st) 1 e) None = [a_pid x]) by (apply (proj_sched_single apids st1), HhA).
    assert (Ecn : forall p, cnt p (sched st1 (l_now st) 1 e) None = (b2n (p e) + cnt p st None)%nat)
      by (intros p; exact (cnt_sched p st1 _ _ _ None)).
    constructor; unfold Dp, Ap; rewrite ?EhD, ?EhA, ?Ecn, ?Hc1, ?Hc2; lproj;
      cbn [e is_holdD is_initD is_putD is_holdA is_initA dataid_of ackno_of b2n Nat.add app]; auto.
    + discriminate.
    + apply Forall_insert; [cbn [ae_time ae_ev entry_ok]|exact Lentries].
      destruct Hax as (A1 & A2 & A3). destruct Hx as (s & Hs & Hle).
      pose proof (sent_at_fun _ _ _ _ A1 Hs) as <-.
      split; [exact A1|]. split; [exact A2|]. split; [exact A3|]. rewrite nq_eq. exact Hle.
Qed.

Lemma seg_ids_snoc mm id n : seg_ids mm id n ++ [id + Z.of_nat n * mm] = seg_ids mm id (S n).
Proof. replace (S n) with (n + 1)%nat by lia. rewrite seg_ids_app. cbn [seg_ids]. reflexivity. Qed.

Local Opaque sink_step.
(* the data wire hands segment x to the sink: it is the next in-order segment, the sink acknowledges x + MSS *)
Lemma deliver_data_LF st ev x st' :
  (ev = AWireGetD x \/ ev = AWireOutD x) ->
  (forall s, sent_at st x s -> (l_now st == s + d)%Q) ->
  LF lc st (Some ev) -> deliver_data lc st x = inl st' -> LF lc st' (Some (AWireInit false)).
Proof.
  intros Hev Hnow L H. pose proof Hm_pos as Hm. pose proof Hd_nonneg as Hdn.
  assert (Hd : dids ev = [x] /\ apids ev = [] /\ is_holdD ev = true /\ is_holdA ev = false /\ is_initD ev = false /\
               is_initA ev = false /\ is_putD ev = false /\ is_putA ev = false)
    by (destruct Hev as [->| ->]; repeat split).
  destruct Hd as (Hd1 & Hd2 & Hd3 & Hd4 & Hd5 & Hd6 & Hd7 & Hd8).
  destruct L as [Lla Ldup Lrto Lsrtt Lsink Ltimers Larmed LDp LAp LDdue LAdue Lorder LctlD LctlA LwaitD LwaitA Lentries Lacks Llog Ldom Lstamps].
  rewrite !cnt_some in *. rewrite Hd3, Hd5 in LctlD. rewrite Hd4, Hd6 in LctlA. rewrite Hd4, Hd6, Hd8 in LwaitA. clear LwaitD.
  cbn [b2n Nat.add] in *.
  assert (Hc : cnt is_holdD st None = O /\ cnt is_initD st None = O /\ wd_waiting (l_wd st) = false).
  { destruct (wd_waiting (l_wd st)); cbn [b2n] in LctlD; repeat split; lia. }
  destruct Hc as (Hc1 & Hc2 & Hc3).
  assert (HhD : heldD st None = []) by (apply heldD_nil_cnt; exact Hc1).
  unfold Dp, Ap in *. rewrite heldD_some, Hd1 in *. rewrite heldA_some, Hd2 in *. rewrite HhD in *. cbn [app] in *.
  destruct LDp as (nD & EDp & ENs). destruct LAp as (nA & EAp & ELa).
  symmetry in EDp. pose proof (seg_ids_head _ _ _ _ _ EDp) as [Ex Eitems].
  destruct nD as [|nD]; [discriminate|]. cbn [Nat.pred] in Eitems.
  destruct (LDdue x (or_introl eq_refl)) as (s & Hs & _). pose proof (Hnow s Hs) as Hns.
  unfold deliver_data in H. unfold sent_at in Hs. rewrite Hs in H. rewrite Hna in H. cbn [existsb] in H. injection H as <-.
  set (S0 := nse (l_sink st)) in *.
  assert (HS0 : 0 <= S0) by lia.
  assert (Esk : sink_step true (l_sink st) (x, m) = sink_upto (S0 + m)).
  { rewrite Lsink. fold S0. rewrite Ex. apply sink_in_order; lia. }
  rewrite Esk. cbn [nse sink_upto].
  set (st1 := set_wa _ _). set (st2 := sched st1 (l_now st) 1 (AWirePutCb true)).
  assert (EhD : heldD st2 (Some (AWireInit false)) = [])
    by (unfold heldD, st2; rewrite (proj_sched_nil dids st1) by reflexivity; exact HhD).
  assert (EhA : heldA st2 (Some (AWireInit false)) = heldA st None)
    by (unfold heldA, st2; apply (proj_sched_nil apids st1); reflexivity).
  assert (Ecn : forall p, cnt p st2 (Some (AWireInit false)) =
                          (b2n (p (AWirePutCb true)) + (b2n (p (AWireInit false)) + cnt p st None))%nat)
    by (intros p; unfold st2; rewrite cnt_sched, cnt_some; reflexivity).
  constructor; unfold Dp, Ap, sent_at; rewrite ?EhD, ?EhA, ?Ecn, ?Hc1, ?Hc2, ?Hc3; unfold st2, st1; lproj;
    cbn [nse sink_upto wa_items wa_waiting is_holdD is_initD is_holdA is_initA is_putD is_putA dataid_of ackno_of b2n Nat.add app];
    auto; try lia.
  - exists nD. split; [rewrite Eitems; reflexivity|]. lia.
  - exists (S nA). rewrite map_app, app_assoc, EAp. cbn [map a_pid]. rewrite Ex. fold S0. rewrite <- ELa. rewrite seg_ids_snoc.
    split; [reflexivity|lia].
  - intros y Hy. apply LDdue. right. exact Hy.
  - intros y Hy. rewrite map_app, app_assoc in Hy. apply in_app_or in Hy as [Hy|[<-|[]]]; [apply LAdue; exact Hy|].
    cbn [a_pid]. exists s. split; [exact Hs|]. lra.
  - apply Forall_insert; [cbn [ae_time ae_ev entry_ok]; lproj; rewrite nq_eq; apply Qle_refl|].
    eapply Forall_impl; [|exact Lentries]. intros a0. apply entry_ok_now; try reflexivity. apply Qle_refl.
  - apply Forall_app. split; [eapply Forall_impl; [|exact Lacks]; intros r; unfold ack_ok, sent_at; lproj; auto|].
    constructor; [|constructor].
    unfold ack_ok, sent_at. cbn [a_pid a_time a_no a_ct]. lproj. split; [exact Hs|]. split; [lia|exact Hns].
Qed.

(* ---- one sender event, exactly (nothing dropped) ---- *)
Definition extra_news (now : Q) (s s' : sender) (e : event) : list (Q * aev) :=
  (if (pend s <? pend s')%nat then [(nq now, ASenderCb)] else []) ++
  (if wake s' && negb (match e with EWake => false | _ => wake s end) then [(nq now, ASenderWake)] else []).

Lemma sender_event_exact st e st' s' o :
  step (lc_fx lc) (lc_cfg lc) (l_snd st) e = Ok s' o -> sender_event lc st e = inl st' ->
  l_now st' = l_now st /\ l_snd st' = norm_sender s' /\ l_sink st' = l_sink st /\ l_wa st' = l_wa st /\
  AddsT (l_agenda st) (l_agenda st') (out_news (l_now st) o ++ extra_news (l_now st) (l_snd st) s' e) /\
  l_wd st' = wd_app (l_wd st) (tx_ids o) (l_now st) /\
  l_pkt st' = pkt_sets (l_now st) (tx_ids o) (l_pkt st) /\
  l_n1 st' = (l_n1 st + length (tx_ids o))%nat /\
  map dl_id (rev (l_d1 st')) = map dl_id (rev (l_d1 st)) ++ tx_ids o.
Proof.
  intros Hstep H. unfold sender_event in H. rewrite Hstep in H. injection H as <-.
  set (st0 := set_snd st (norm_sender s')).
  destruct (do_outs_exact o st0) as ([a1 a2 a3 a4 a5] & A & W & P & N & D).
  set (st1 := do_outs lc st0 o) in *.
  change (l_now st0) with (l_now st) in *. change (l_agenda st0) with (l_agenda st) in *.
  change (l_wd st0) with (l_wd st) in *. change (l_pkt st0) with (l_pkt st) in *.
  change (l_n1 st0) with (l_n1 st) in *. change (l_d1 st0) with (l_d1 st) in *.
  change (l_snd st0) with (norm_sender s') in *. change (l_sink st0) with (l_sink st) in *. change (l_wa st0) with (l_wa st) in *.
  change (pend (norm_sender s')) with (pend s'). change (wake (norm_sender s')) with (wake s').
  unfold extra_news.
  set (c1 := (pend (l_snd st) <? pend s')%nat). set (c2 := wake s' && negb _).
  clearbody st1.
  destruct c1, c2; lproj; rewrite ?a1 in *; repeat split; auto.
  - rewrite app_assoc. constructor. constructor. exact A.
  - rewrite app_nil_r. constructor. exact A.
  - cbn [app]. constructor. exact A.
  - cbn [app]. rewrite app_nil_r. exact A.
Qed.

Lemma tx_ids_segs mm id n r : tx_ids (segs mm id n r) = seg_ids mm id n.
Proof. revert id. induction n as [|n IH]; intros id; cbn [segs tx_ids flat_map seg_ids app]; [reflexivity|]. f_equal. apply IH. Qed.

Lemma pkt_sets_get now ids : forall pk x,
  pkt_get x (pkt_sets now ids pk) = if mem x ids then Some (now, now) else pkt_get x pk.
Proof.
  induction ids as [|i t IH]; intros pk x; cbn [pkt_sets mem existsb]; [reflexivity|].
  rewrite IH. fold (mem x t). destruct (mem x t); [rewrite orb_true_r; reflexivity|]. rewrite orb_false_r.
  rewrite pkt_get_set. reflexivity.
Qed.

Lemma cnt_AddsT p st st' ev news :
  AddsT (l_agenda st) (l_agenda st') news -> cnt p st' ev = (length (filter p (map snd news)) + cnt p st ev)%nat.
Proof. intros H. unfold cnt, evl. apply (AddsT_cnt p _ _ _ H). Qed.

Lemma heldD_AddsT st st' ev news :
  AddsT (l_agenda st) (l_agenda st') news -> Forall (fun x => dids (snd x) = []) news -> heldD st' ev = heldD st ev.
Proof. intros H F. unfold heldD, evl. apply (AddsT_proj_nil dids _ _ _ H F). Qed.

Lemma heldA_AddsT st st' ev news :
  AddsT (l_agenda st) (l_agenda st') news -> Forall (fun x => apids (snd x) = []) news -> heldA st' ev = heldA st ev.
Proof. intros H F. unfold heldA, evl. apply (AddsT_proj_nil apids _ _ _ H F). Qed.

(* entries a sender event can add *)
Definition quiet (e : aev) : Prop :=
  dids e = [] /\ apids e = [] /\ is_holdD e = false /\ is_holdA e = false /\ is_initD e = false /\ is_initA e = false /\ is_putA e = false.

Lemma out_news_quiet now o : Forall (fun x => quiet (snd x)) (out_news now o).
Proof.
  induction o as [|x o IH]; cbn [out_news flat_map]; [constructor|].
  apply Forall_app. split; [|exact IH]. destruct x; repeat constructor.
Qed.

Lemma extra_news_quiet now s s' e : Forall (fun x => quiet (snd x)) (extra_news now s s' e).
Proof.
  unfold extra_news. apply Forall_app. split.
  - destruct (_ <? _)%nat; repeat constructor.
  - destruct (_ && _); repeat constructor.
Qed.

Lemma quiet_counts (p : aev -> bool) (news : list (Q * aev)) :
  Forall (fun x => quiet (snd x)) news -> (forall e, quiet e -> p e = false) -> length (filter p (map snd news)) = O.
Proof.
  intros F Hp. induction F as [|x l Hx Hl IH]; cbn [map filter]; [reflexivity|]. rewrite (Hp _ Hx). exact IH.
Qed.

Lemma In_norm_timers id r t : In (id, r) (map (fun p : Z * Q => (fst p, nq (snd p))) t) -> exists r0, In (id, r0) t /\ r = nq r0.
Proof. intros H. apply in_map_iff in H as ([i r0] & E & Hin). cbn [fst snd] in E. injection E as <- <-. eauto. Qed.

Lemma Forall2_imp {A B : Type} (P R : A -> B -> Prop) la lb : (forall a b, P a b -> R a b) -> Forall2 P la lb -> Forall2 R la lb.
Proof. intros H. induction 1; constructor; auto. Qed.

Lemma seg_ids_len mm id n : length (seg_ids mm id n) = n.
Proof. revert id. induction n as [|n IH]; intros id; cbn [seg_ids length]; [reflexivity|]. rewrite IH. reflexivity. Qed.

Lemma out_news_segs now mm id n r x :
  In x (out_news now (segs mm id n r)) ->
  fst x = nq now /\ (snd x = AWirePutCb false \/ exists i, snd x = ATimerInit i /\ In i (seg_ids mm id n)).
Proof.
  revert id. induction n as [|n IH]; intros id; cbn [segs out_news flat_map seg_ids app In]; [tauto|].
  intros [<-|[<-|H]].
  - split; [reflexivity|left; reflexivity].
  - split; [reflexivity|right; exists id; split; [reflexivity|left; reflexivity]].
  - destruct (IH _ H) as (A & [B|(i & B & C)]); split; auto. right. exists i. split; [exact B|right; exact C].
Qed.

Lemma out_news_segs_put now mm id n r : (0 < n)%nat -> In (AWirePutCb false) (map snd (out_news now (segs mm id n r))).
Proof. destruct n as [|n]; [lia|]. intros _. cbn [segs out_news flat_map app map snd]. left. reflexivity. Qed.

Lemma extra_news_in now s s' e x : In x (extra_news now s s' e) -> fst x = nq now /\ (snd x = ASenderCb \/ snd x = ASenderWake).
Proof.
  unfold extra_news. intros H. apply in_app_or in H as [H|H].
  - destruct (_ <? _)%nat; [destruct H as [<-|[]]; auto|destruct H].
  - destruct (_ && _); [destruct H as [<-|[]]; auto|destruct H].
Qed.

Lemma sender_event_step st e st' : sender_event lc st e = inl st' -> exists s' o, step repaired (lc_cfg lc) (l_snd st) e = Ok s' o.
Proof.
  unfold sender_event. rewrite (ok_fx _ (ok2_ok _ Hok2)). destruct (step repaired (lc_cfg lc) (l_snd st) e) as [s' o|x]; [eauto|discriminate].
Qed.

(* the sender process resumes; or a StorePut callback of its store is processed *)
Lemma LF_wake_or_cb st se ev st' :
  (se = EWake /\ ev = ASenderWake) \/ (se = EStoreCb /\ ev = ASenderCb) ->
  LInvA lc st (Some ev) -> LF lc st (Some ev) -> sender_event lc st se = inl st' -> LF lc st' None.
Proof.
  intros Hwc HIA L H. pose proof Hm_pos as Hm. pose proof Hd_nonneg as Hdn.
  destruct (sender_event_step _ _ _ H) as (s' & o & Hstep).
  pose proof Hstep as Hstep'. rewrite <- (ok_fx _ (ok2_ok _ Hok2)) in Hstep'.
  destruct (sender_event_exact st se st' s' o Hstep' H) as (Pn & Ps & Pk & Pwa & HA & Pwd & Ppk & Pn1 & Pd1).
  assert (Hsh : exists n : nat, o = segs m (next_seq (l_snd st)) n (rto (l_snd st)) /\
            last_ack s' = last_ack (l_snd st) /\ dupack s' = dupack (l_snd st) /\ rto s' = rto (l_snd st) /\ srtt s' = srtt (l_snd st) /\
            next_seq s' = next_seq (l_snd st) + Z.of_nat n * m /\
            timers s' = timers (l_snd st) ++ map (fun i => (i, rto (l_snd st))) (seg_ids m (next_seq (l_snd st)) n)).
  { destruct Hwc as [[-> ->]|[-> ->]]; cbn [step] in Hstep.
    - apply send_guard in Hstep; [|exact Hm]. destruct Hstep as (n & Ho & Hns & Ht & _ & _ & Hla & Hdu & _ & _ & Hsr & _ & Hr & _). proj.
      exists n. cbn [app] in Ho. auto 10.
    - apply on_storecb_shape in Hstep as (-> & p & _ & [(_ & _ & ->)|(_ & ->)]); exists O; proj; cbn [segs seg_ids map Z.of_nat];
        rewrite app_nil_r, Z.add_0_r; auto 10. }
  destruct Hsh as (n & -> & Sla & Sdup & Srto & Ssrtt & Sns & Stm).
  rewrite tx_ids_segs, ?seg_ids_len in *.
  assert (Hev : dids ev = [] /\ apids ev = [] /\ is_holdD ev = false /\ is_holdA ev = false /\ is_initD ev = false /\ is_initA ev = false /\
                is_putD ev = false /\ is_putA ev = false) by (destruct Hwc as [[_ ->]|[_ ->]]; repeat split).
  destruct Hev as (Hd1 & Hd2 & Hd3 & Hd4 & Hd5 & Hd6 & Hd7 & Hd8).
  clear Hwc.
  assert (Hple : pkt_le (l_now st) (l_pkt st)) by apply HIA.
  set (news := out_news _ _ ++ extra_news _ _ _ _) in HA.
  assert (HQ : Forall (fun x => quiet (snd x)) news) by (apply Forall_app; split; [apply out_news_quiet|apply extra_news_quiet]).
  assert (HK : forall x, In x news -> (fst x == l_now st)%Q /\
                (snd x = AWirePutCb false \/ snd x = ASenderCb \/ snd x = ASenderWake \/
                 exists id, snd x = ATimerInit id /\ In id (seg_ids m (next_seq (l_snd st)) n))).
  { intros x Hx. apply in_app_or in Hx as [Hx|Hx].
    - destruct (out_news_segs _ _ _ _ _ _ Hx) as (A & [B|(i & B & C)]); rewrite A; (split; [apply nq_eq|]); [left; exact B|eauto 6].
    - destruct (extra_news_in _ _ _ _ _ Hx) as (A & [B|B]); rewrite A; (split; [apply nq_eq|]); auto. }
  assert (HP : (0 < n)%nat -> In (AWirePutCb false) (map snd news))
    by (intros Hn; unfold news; rewrite map_app; apply in_or_app; left; apply out_news_segs_put, Hn).
  clearbody news.
  destruct L as [Lla Ldup Lrto Lsrtt Lsink Ltimers Larmed LDp LAp LDdue LAdue Lorder LctlD LctlA LwaitD LwaitA Lentries Lacks Llog Ldom Lstamps].
  set (ids := seg_ids m (next_seq (l_snd st)) n) in *.
  rewrite !cnt_some in *. rewrite Hd3, Hd5 in LctlD. rewrite Hd4, Hd6 in LctlA. rewrite Hd3, Hd5, Hd7 in LwaitD. rewrite Hd4, Hd6, Hd8 in LwaitA.
  cbn [b2n Nat.add] in *. unfold Dp, Ap in *. rewrite heldD_some, Hd1 in *. rewrite heldA_some, Hd2 in *. cbn [app] in *.
  assert (Hnew_ge : forall y, In y ids -> next_seq (l_snd st) <= y /\ y < next_seq (l_snd st) + Z.of_nat n * m).
  { intros y Hy. apply seg_ids_In in Hy as (k & Hk & ->). nia. }
  assert (Hold : forall y sy, sent_at st y sy -> sent_at st' y sy).
  { intros y sy Hy. unfold sent_at in *. rewrite Ppk, pkt_sets_get. destruct (mem y ids) eqn:E; [|exact Hy].
    apply mem_In in E. apply Hnew_ge in E. pose proof (Ldom y sy Hy).  lia. }
  assert (Hnew : forall y, In y ids -> sent_at st' y (l_now st)).
  { intros y Hy. unfold sent_at. rewrite Ppk, pkt_sets_get. apply mem_In in Hy. rewrite Hy. reflexivity. }
  assert (Hcases : forall y sy, sent_at st' y sy -> (In y ids /\ sy = l_now st) \/ (~ In y ids /\ sent_at st y sy)).
  { intros y sy Hy. unfold sent_at in *. rewrite Ppk, pkt_sets_get in Hy. destruct (mem y ids) eqn:E.
    - left. apply mem_In in E. split; [exact E|]. injection Hy as <-. reflexivity.
    - right. split; [|exact Hy]. intros Hin. apply mem_In in Hin. congruence. }
  assert (HQd : Forall (fun x => dids (snd x) = []) news) by (eapply Forall_impl; [|exact HQ]; intros x Hx; apply Hx).
  assert (HQa : Forall (fun x => apids (snd x) = []) news) by (eapply Forall_impl; [|exact HQ]; intros x Hx; apply Hx).
  assert (Cq : forall p, (forall e, quiet e -> p e = false) -> cnt p st' None = cnt p st None).
  { intros p Hp. rewrite (cnt_AddsT p st st' None news HA), (quiet_counts p news HQ Hp). reflexivity. }
  assert (Cge : forall p, (cnt p st None <= cnt p st' None)%nat) by (intros p; rewrite (cnt_AddsT p st st' None news HA); lia).
  destruct Ltimers as (nT & ET & ETn). destruct LDp as (nD & ED & EDn). destruct LAp as (nA & EA & EAn). destruct Llog as (nN & EN & ENn & ENc).
  pose proof (heldD_AddsT st st' None news HA HQd) as EhD. pose proof (heldA_AddsT st st' None news HA HQa) as EhA.
  constructor; unfold Dp, Ap;
    rewrite ?EhD, ?EhA, ?(Cq is_holdD), ?(Cq is_initD), ?(Cq is_holdA), ?(Cq is_initA) by (intros e He; apply He);
    rewrite ?Pn, ?Ps, ?Pk, ?Pwa, ?Pwd; unfold wd_app;
    cbn [last_ack dupack rto srtt next_seq timers norm_sender wd_items wd_stamps wd_waiting];
    rewrite ?Sla, ?Sdup, ?Srto, ?Ssrtt, ?Sns; auto.
  - rewrite nq_eq. exact Lrto.
  - rewrite nq_eq. exact Lsrtt.
  - exists (nT + n)%nat. rewrite keys_norm, Stm, keys_app, keys_map_pair, ET, seg_ids_app. rewrite ETn. fold ids.
    split; [reflexivity|]. lia.
  - rewrite Stm. apply Forall_forall. intros p Hp. apply in_map_iff in Hp as (q & <- & Hq). cbn [snd]. rewrite nq_eq.
    apply in_app_or in Hq as [Hq|Hq]; [rewrite Forall_forall in Larmed; apply Larmed, Hq|].
    apply in_map_iff in Hq as (i & <- & _). cbn [snd]. exact Lrto.
  - exists (nD + n)%nat. rewrite app_assoc, ED, seg_ids_app. rewrite EDn. fold ids. split; [reflexivity|]. lia.
  - exists nA. split; [exact EA|exact EAn].
  - intros y Hy. rewrite app_assoc in Hy. apply in_app_or in Hy as [Hy|Hy].
    + destruct (LDdue y Hy) as (sy & A & B). exists sy. split; [apply Hold; exact A|exact B].
    + exists (l_now st). split; [apply Hnew; exact Hy|lra].
  - intros y Hy. destruct (LAdue y Hy) as (sy & A & B). exists sy. split; [apply Hold; exact A|exact B].
  - intros x y sx sy Hla Hxy Hx Hy. destruct (Hcases x sx Hx) as [[Hxi ->]|[Hxn Hxo]]; destruct (Hcases y sy Hy) as [[Hyi ->]|[Hyn Hyo]].
    + apply Qle_refl.
    + apply Hnew_ge in Hxi. pose proof (Ldom y sy Hyo).  lia.
    + apply (Hple x sx sx). exact Hxo.
    + eapply Lorder; eauto.
  - intros Hh Hne. destruct n as [|n'].
    + cbn [seg_ids] in *. subst ids. rewrite app_nil_r in Hne. pose proof (LwaitD Hh Hne). pose proof (Cge is_putD). lia.
    + assert (Hp : In (AWirePutCb false) (map snd news)) by (apply HP; lia).
      rewrite (cnt_AddsT is_putD st st' None news HA).
      assert (0 < length (filter is_putD (map snd news)))%nat.
      { clear -Hp. induction (map snd news) as [|e l IH]; [destruct Hp|]. cbn [filter]. destruct Hp as [->|Hp]; [cbn; lia|].
        destruct (is_putD e); cbn [length]; [lia|auto]. }
      lia.
  - intros Hh Hne. pose proof (LwaitA Hh Hne). pose proof (Cge is_putA). lia.
  - (* entries *)
    apply (AddsT_Forall (fun t e => entry_ok lc st' t e) _ _ _ HA).
    + eapply Forall_impl; [|exact Lentries]. intros a Ha. unfold entry_ok in *. rewrite Pn, Ps.
      cbn [next_seq timers norm_sender]. rewrite Sns, Stm.
      destruct (ae_ev a) as [| |id|id|w|w|x|x|ak p tm ct|ak p tm ct]; auto.
      * destruct Ha as [Hlt Hr]. split; [nia|]. intros r Hin. apply In_norm_timers in Hin as (r0 & Hin & ->).
        apply in_app_or in Hin as [Hin|Hin].
        -- destruct (Hr r0 Hin) as (s0 & A & B). exists s0. split; [apply Hold; exact A|exact B].
        -- apply in_map_iff in Hin as (i & E & Hi). injection E as -> _. apply Hnew_ge in Hi. lia.
      * destruct Ha as [Hlt Hr]. split; [nia|]. intros r Hin. apply In_norm_timers in Hin as (r0 & Hin & ->).
        apply in_app_or in Hin as [Hin|Hin].
        -- destruct (Hr r0 Hin) as (s0 & A & B). exists s0. split; [apply Hold; exact A|rewrite nq_eq; exact B].
        -- apply in_map_iff in Hin as (i & E & Hi). injection E as -> _. apply Hnew_ge in Hi. lia.
      * destruct Ha as (s0 & A & B & C). exists s0. split; [apply Hold; exact A|]. split; [exact B|]. rewrite Pwd. exact C.
      * destruct Ha as (s0 & A & B). exists s0. split; [apply Hold; exact A|exact B].
      * destruct Ha as (A & B). split; [apply Hold; exact A|exact B].
      * destruct Ha as (A & B). split; [apply Hold; exact A|exact B].
    + apply Forall_forall. intros x Hx.
      destruct (HK x Hx) as (Ht & [E|[E|[E|(id & E & Hid)]]]); rewrite E; cbn [entry_ok]; auto.
      * rewrite Pn. lra.
      * rewrite Ps. cbn [next_seq timers norm_sender]. rewrite Sns. split; [apply Hnew_ge in Hid; lia|].
        intros r _. exists (l_now st). split; [apply Hnew; exact Hid|exact Ht].
  - eapply Forall_impl; [|exact Lacks]. intros r (A & B & C). split; [apply Hold; exact A|]. split; assumption.
  - exists (nN + n)%nat. rewrite Pd1, EN, seg_ids_app. replace (0 + Z.of_nat nN * m) with (next_seq (l_snd st)) by lia. fold ids.
    split; [reflexivity|]. split; [lia|]. rewrite Pn1, ENc. reflexivity.
  - intros y sy Hy. destruct (Hcases y sy Hy) as [[Hyi _]|[_ Hyo]]; [apply Hnew_ge in Hyi; lia|].
    pose proof (Ldom y sy Hyo).  lia.
  - apply Forall2_app.
    + eapply Forall2_imp; [|exact Lstamps]. intros y sy. apply Hold.
    + clear -Hnew. induction ids as [|y l IH]; cbn [map]; constructor; [apply Hnew; left; reflexivity|].
      apply IH. intros z Hz. apply Hnew. right. exact Hz.
Qed.

Lemma filter_none {X : Type} (f : X -> bool) l : (forall x, In x l -> f x = false) -> filter f l = [].
Proof. induction l as [|x l IH]; intros H; cbn [filter]; [reflexivity|]. rewrite (H x (or_introl eq_refl)). apply IH. intros y Hy. apply H. right. exact Hy. Qed.

(* the cumulative ACK a = A + MSS stops exactly the timer of segment A, the first in the table *)
Lemma timers_ack_head (t : list (Z * Q)) A nT a :
  keys t = seg_ids m A (S nT) -> a = A + m ->
  map fst (filter (fun p => fst p + m <=? a) t) = [A] /\
  filter (fun p => negb (mem (fst p) [A])) t = tl t /\ keys (tl t) = seg_ids m (A + m) nT /\
  exists r0, t = (A, r0) :: tl t.
Proof.
  intros Hk Ha. pose proof Hm_pos as Hm. destruct t as [|[k0 r0] rest]; [discriminate|].
  cbn [keys map fst seg_ids] in Hk. injection Hk as -> Hrest. fold (keys rest) in Hrest. cbn [tl].
  assert (Hge : forall p, In p rest -> A + m <= fst p).
  { intros p Hp. assert (In (fst p) (keys rest)) by (unfold keys; apply in_map; exact Hp). rewrite Hrest in H.
    apply seg_ids_ge in H; [lia|exact Hm]. }
  split; [|split; [|split; [exact Hrest|eauto]]].
  - cbn [filter fst]. replace (A + m <=? a) with true by (symmetry; apply Z.leb_le; lia). cbn [map fst].
    rewrite filter_none; [reflexivity|]. intros p Hp. apply Z.leb_gt. specialize (Hge p Hp). lia.
  - cbn [filter fst mem existsb]. rewrite Z.eqb_refl. cbn [orb negb].
    rewrite (filter_ext_in _ (fun _ => true)); [apply filter_all_true; reflexivity|]. intros p Hp. specialize (Hge p Hp). cbn [mem existsb]. rewrite orb_false_r.
    apply negb_true_iff, Z.eqb_neq. lia.
Qed.

(* the ACK wire hands the ACK of the first unacknowledged segment to the sender *)
Lemma LF_ack st ev a p tm ct st' :
  (ev = AWireGetA a p tm ct \/ ev = AWireOutA a p tm ct) ->
  sent_at st p tm -> a = p + m -> (l_now st == tm + (2 # 1) * d)%Q ->
  LInvA lc st (Some ev) -> LF lc st (Some ev) ->
  deliver_ack lc st a p tm = inl st' -> LF lc st' (Some (AWireInit true)).
Proof.
  intros Hev Hsent Ha Hnow HA L H. pose proof Hm_pos as Hm. pose proof Hd_nonneg as Hdn.
  unfold deliver_ack in H.
  fold (no_oracle st) in H. set (st0 := no_oracle st) in H.
  set (sample := nq (l_now st - tm)) in H. set (orc := hd 0%Q (l_oracle st)) in H.
  assert (LF0 : LF lc st0 (Some ev)) by (apply LF_oracle, L).
  assert (Q0 : l_now st0 = l_now st /\ l_snd st0 = l_snd st /\ l_pkt st0 = l_pkt st) by (repeat split).
  destruct Q0 as (Q1 & Q2 & Q3).
  assert (Hple : pkt_le (l_now st0) (l_pkt st0)) by (rewrite Q1, Q3; apply HA).
  assert (Isr : (0 <= rttvar (l_snd st))%Q) by apply (la_sinv _ _ _ HA).
  assert (Idup : 0 <= dupack (l_snd st)) by apply (si_win _ _ (la_sinv _ _ _ HA)).
  clearbody st0. clear L.
  destruct (sender_event_step _ _ _ H) as (s' & o & Hstep).
  pose proof Hstep as Hstep'. rewrite <- (ok_fx _ (ok2_ok _ Hok2)) in Hstep'.
  destruct (sender_event_exact st0 _ st' s' o Hstep' H) as (P1 & P2 & P3 & P4 & PA & PW & PP & PN & PD).
  rewrite Q2 in *. rewrite Q1 in *.
  assert (Hd : dids ev = [] /\ apids ev = [p] /\ is_holdD ev = false /\ is_holdA ev = true /\ is_initD ev = false /\
               is_initA ev = false /\ is_putD ev = false /\ is_putA ev = false) by (destruct Hev as [->| ->]; repeat split).
  destruct Hd as (Hd1 & Hd2 & Hd3 & Hd4 & Hd5 & Hd6 & Hd7 & Hd8).
  destruct LF0 as [Lla Ldup Lrto Lsrtt Lsink Ltimers Larmed LDp LAp LDdue LAdue Lorder LctlD LctlA LwaitD LwaitA Lentries Lacks Llog Ldom Lstamps].
  rewrite Q2 in *. rewrite ?Q1 in *.
  rewrite !cnt_some in *. rewrite Hd3, Hd5 in LctlD. rewrite Hd4, Hd6 in LctlA. rewrite Hd3, Hd5, Hd7 in LwaitD. clear LwaitA.
  cbn [b2n Nat.add] in *.
  assert (Hc : cnt is_holdA st0 None = O /\ cnt is_initA st0 None = O /\ wa_waiting (l_wa st0) = false).
  { destruct (wa_waiting (l_wa st0)); cbn [b2n] in LctlA; repeat split; lia. }
  destruct Hc as (Hc1 & Hc2 & Hc3).
  assert (HhA : heldA st0 None = []) by (apply heldA_nil_cnt; exact Hc1).
  unfold Dp, Ap in *. rewrite heldD_some, Hd1 in *. rewrite heldA_some, Hd2 in *. rewrite HhA in *. cbn [app] in *.
  destruct Ltimers as (nT & ET & ETn). destruct LDp as (nD & ED & EDn). destruct LAp as (nA & EA & EAn).
  symmetry in EA. pose proof (seg_ids_head _ _ _ _ _ EA) as [Ep Eitems].
  destruct nA as [|nA]; [discriminate|]. cbn [Nat.pred] in Eitems.
  set (A := last_ack (l_snd st)) in *.
  destruct nT as [|nT]; [exfalso; nia|].
  destruct (timers_ack_head (timers (l_snd st)) A nT a ET ltac:(lia)) as (Hids & Hfil & Hkeys & (r0 & Htm)).
  (* the sender's step: a new ACK *)
  cbn [step] in Hstep. apply on_ack_shape in Hstep; [|exact Idup].
  destruct Hstep as (Sns & _ & Swk & _ & _ & [D|Nw]); [destruct D as (D & _); lia|].
  destruct Nw as (_ & Sla & Sdu & Stm & _ & So & Ssr & Srv & Srt & _ & Spd).
  assert (Ea : a = A + m) by lia. rewrite Ea in Sla.
  unfold acked_ids, repaired in Stm, So; proj. rewrite Hids in Stm, So. rewrite Hfil in Stm.
  rewrite So in *. cbn [map tx_ids flat_map out_news app] in *. unfold wd_app in PW. cbn [map] in PW. rewrite !app_nil_r in PW.
  assert (Hsample : (sample == (2 # 1) * d)%Q) by (unfold sample; rewrite nq_eq; lra).
  assert (Hextra : extra_news (l_now st) (l_snd st) s' (EAck a p sample orc) = [(nq (l_now st), ASenderCb)]).
  { unfold extra_news. rewrite Spd, Swk. replace (pend (l_snd st) <? S (pend (l_snd st)))%nat with true by (symmetry; apply Nat.ltb_lt; lia).
    destruct (wake (l_snd st)); reflexivity. }
  rewrite Hextra in PA.
  assert (HQ : Forall (fun x => quiet (snd x)) [(nq (l_now st), ASenderCb)]) by (repeat constructor).
  assert (HQd : Forall (fun x : Q * aev => dids (snd x) = []) [(nq (l_now st), ASenderCb)]) by (repeat constructor).
  assert (HQa : Forall (fun x : Q * aev => apids (snd x) = []) [(nq (l_now st), ASenderCb)]) by (repeat constructor).
  assert (Cq : forall q ev0, q ASenderCb = false -> cnt q st' ev0 = cnt q st0 ev0).
  { intros q ev0 Hq. rewrite (cnt_AddsT q st0 st' ev0 _ PA). cbn [map snd filter]. rewrite Hq. reflexivity. }
  assert (EhD : forall ev0, heldD st' ev0 = heldD st0 ev0) by (intros; apply (heldD_AddsT st0 st' _ _ PA HQd)).
  assert (EhA : forall ev0, heldA st' ev0 = heldA st0 ev0) by (intros; apply (heldA_AddsT st0 st' _ _ PA HQa)).
  set (e := (sample - srtt (l_snd st))%Q) in *.
  assert (He : ~ (e == 0)%Q) by (unfold e; intro Z; apply Lsrtt; lra).
  assert (Hab1 : (e <= Qabs e)%Q) by apply Qle_Qabs.
  assert (Hab2 : (- e <= Qabs e)%Q) by (rewrite <- Qabs_opp; apply Qle_Qabs).
  (* the Packet objects, the data wire, the held packets and every count but that of ASenderCb are those of st0 *)
  constructor; unfold Dp, Ap, ack_ok, sent_at;
    rewrite ?EhD, ?EhA, ?cnt_some, ?(Cq is_holdD), ?(Cq is_initD), ?(Cq is_holdA), ?(Cq is_initA), ?(Cq is_putD) by reflexivity;
    rewrite ?P1, ?P2, ?P3, ?P4, ?PP, ?PW, ?Hc1, ?Hc2, ?Hc3;
    cbn [last_ack dupack rto srtt next_seq timers norm_sender wd_items wd_stamps wd_waiting
         is_holdD is_initD is_putD is_holdA is_initA dataid_of ackno_of b2n Nat.add];
    rewrite ?Sla, ?Sdu, ?Sns; cbn [pkt_sets]; auto.
  - lia.
  - rewrite nq_eq, Srt, Ssr, Srv. fold e.
    destruct (Q_dec e 0) as [[Hneg|Hpos]|Hz]; [| |contradiction]; unfold e in *; lra.
  - rewrite nq_eq, Ssr. fold e. intro Z. apply He. unfold e in *. lra.
  - exists nT. rewrite keys_norm, Stm, Hkeys. split; [reflexivity|]. fold A in ETn. lia.
  - rewrite Stm. apply Forall_forall. intros q Hq. apply in_map_iff in Hq as (q0 & <- & Hq0). cbn [snd]. rewrite nq_eq.
    rewrite Forall_forall in Larmed. apply Larmed. rewrite Htm. right. exact Hq0.
  - exists nD. split; [exact ED|exact EDn].
  - exists nA. change (heldA st0 (Some (AWireInit true))) with (heldA st0 None). rewrite HhA. cbn [app]. rewrite Eitems. fold A.
    split; [reflexivity|]. fold A in EAn. lia.
  - intros y Hy. change (heldA st0 (Some (AWireInit true))) with (heldA st0 None) in Hy. rewrite HhA in Hy.
    apply LAdue. right. exact Hy.
  - intros x y sx sy Hla Hxy. apply Lorder; [fold A; lia|exact Hxy].
  - intros _ _. lia.
  - apply (AddsT_Forall (fun t e0 => entry_ok lc st' t e0) _ _ _ PA); [|repeat constructor].
    eapply Forall_impl; [|exact Lentries]. intros a0 Ha0. unfold entry_ok, sent_at in *. rewrite P1, P2, PP, PW. rewrite ?Q1, ?Q2 in Ha0.
    cbn [next_seq timers norm_sender wd_entered]. rewrite Sns, Stm.
    destruct (ae_ev a0) as [| |id|id|w|w|x|x|ak pp tm' ct'|ak pp tm' ct']; auto.
    + destruct Ha0 as [Hlt Hr]. split; [exact Hlt|]. intros r Hin. apply In_norm_timers in Hin as (r1 & Hin & ->).
      apply (Hr r1). rewrite Htm. right. exact Hin.
    + destruct Ha0 as [Hlt Hr]. split; [exact Hlt|]. intros r Hin. apply In_norm_timers in Hin as (r1 & Hin & ->).
      destruct (Hr r1) as (s0 & B1 & B2); [rewrite Htm; right; exact Hin|]. exists s0. split; [exact B1|rewrite nq_eq; exact B2].
  - destruct Llog as (nN & EN & ENn & ENc). exists nN. rewrite PD, app_nil_r, PN. cbn [length]. rewrite Nat.add_0_r. auto.
Qed.

(* ---- the remaining agenda entries ---- *)
Lemma LF_drop st e :
  dids e = [] -> apids e = [] -> is_holdD e = false -> is_holdA e = false -> is_initD e = false -> is_initA e = false ->
  (is_putD e = false \/ wd_waiting (l_wd st) = false) -> (is_putA e = false \/ wa_waiting (l_wa st) = false) ->
  LF lc st (Some e) -> LF lc st None.
Proof.
  intros Hd1 Hd2 Hd3 Hd4 Hd5 Hd6 Hd7 Hd8 L.
  destruct L as [Lla Ldup Lrto Lsrtt Lsink Ltimers Larmed LDp LAp LDdue LAdue Lorder LctlD LctlA LwaitD LwaitA Lentries Lacks Llog Ldom Lstamps].
  rewrite !cnt_some in *. rewrite Hd3, Hd5 in LctlD. rewrite Hd4, Hd6 in LctlA. rewrite Hd3, Hd5 in LwaitD. rewrite Hd4, Hd6 in LwaitA.
  cbn [b2n Nat.add] in *. unfold Dp, Ap in *. rewrite heldD_some, Hd1 in *. rewrite heldA_some, Hd2 in *. cbn [app] in *.
  constructor; auto.
  - intros Hh Hne. specialize (LwaitD Hh Hne). destruct Hd7 as [Hp|Hw]; [rewrite Hp in LwaitD; cbn [b2n] in LwaitD; lia|].
    rewrite Hh, Hw in LctlD. cbn [b2n] in LctlD. lia.
  - intros Hh Hne. specialize (LwaitA Hh Hne). destruct Hd8 as [Hp|Hw]; [rewrite Hp in LwaitA; cbn [b2n] in LwaitA; lia|].
    rewrite Hh, Hw in LctlA. cbn [b2n] in LctlA. lia.
Qed.

(* scheduling an entry that carries no packet and is no wire initialisation *)
Lemma LF_sched_quiet st t p e :
  quiet e -> entry_ok lc st (nq t) e -> LF lc st None -> LF lc (sched st t p e) None.
Proof.
  intros (Q1 & Q2 & Q3 & Q4 & Q5 & Q6 & Q7) He L.
  destruct L as [Lla Ldup Lrto Lsrtt Lsink Ltimers Larmed LDp LAp LDdue LAdue Lorder LctlD LctlA LwaitD LwaitA Lentries Lacks Llog Ldom Lstamps].
  constructor; lproj; auto; unfold Dp, Ap, heldD, heldA in *; rewrite ?(proj_sched_nil dids st) by exact Q1;
    rewrite ?(proj_sched_nil apids st) by exact Q2; rewrite ?cnt_sched_none, ?Q3, ?Q4, ?Q5, ?Q6, ?Q7; cbn [b2n Nat.add]; lproj; auto.
  - intros Hh Hne. specialize (LwaitD Hh Hne). lia.
  - apply Forall_insert; [exact He|exact Lentries].
Qed.

Lemma keys_NoDup_fun (t : list (Z * Q)) id r r' : NoDup (keys t) -> In (id, r) t -> In (id, r') t -> r = r'.
Proof.
  induction t as [|[k x] t IH]; cbn [keys map fst In]; [tauto|]. intros Hn [E|H] [E'|H'].
  - congruence.
  - injection E as -> ->. inversion Hn as [|? ? Hk _]; subst. exfalso. apply Hk. change id with (fst (id, r')). apply in_map. exact H'.
  - injection E' as -> ->. inversion Hn as [|? ? Hk _]; subst. exfalso. apply Hk. change id with (fst (id, r)). apply in_map. exact H.
  - inversion Hn; subst. apply IH; auto.
Qed.

(* the packet of the processed entry stays in the wire until its propagation delay is over *)
Lemma LF_move_D st x s :
  sent_at st x s -> LF lc st (Some (AWireGetD x)) ->
  LF lc (sched st (l_now st + (d - (l_now st - s)))%Q 1 (AWireOutD x)) None.
Proof.
  intros Hs L. destruct L as [Lla Ldup Lrto Lsrtt Lsink Ltimers Larmed LDp LAp LDdue LAdue Lorder LctlD LctlA LwaitD LwaitA Lentries Lacks Llog Ldom Lstamps].
  rewrite !cnt_some in *. cbn [is_holdD is_initD is_holdA is_initA is_putD is_putA dataid_of ackno_of b2n Nat.add] in *.
  assert (Hc : cnt is_holdD st None = O) by lia.
  assert (HhD : heldD st None = []) by (apply heldD_nil_cnt; exact Hc).
  unfold Dp, Ap in *. rewrite heldD_some, heldA_some in *. cbn [dids apids dataid_of app] in *. rewrite HhD in *. cbn [app] in *.
  constructor; unfold Dp, Ap, heldD, heldA; rewrite ?(proj_sched_single dids st) by exact HhD;
    rewrite ?(proj_sched_nil apids st) by reflexivity; rewrite ?cnt_sched_none; lproj;
    cbn [dids apids is_holdD is_initD is_holdA is_initA is_putA dataid_of ackno_of b2n Nat.add app]; auto; try lia.
  apply Forall_insert; [|exact Lentries]. cbn [ae_time ae_ev entry_ok]. exists s. split; [exact Hs|]. rewrite nq_eq. ring.
Qed.

Lemma LF_move_A st a p tm ct :
  (ct == tm + d)%Q -> sent_at st p tm -> a = p + m -> LF lc st (Some (AWireGetA a p tm ct)) ->
  LF lc (sched st (l_now st + (d - (l_now st - ct)))%Q 1 (AWireOutA a p tm ct)) None.
Proof.
  intros Hct Hs Ha L. destruct L as [Lla Ldup Lrto Lsrtt Lsink Ltimers Larmed LDp LAp LDdue LAdue Lorder LctlD LctlA LwaitD LwaitA Lentries Lacks Llog Ldom Lstamps].
  rewrite !cnt_some in *. cbn [is_holdD is_initD is_holdA is_initA is_putD is_putA dataid_of ackno_of b2n Nat.add] in *.
  assert (Hc : cnt is_holdA st None = O) by lia.
  assert (HhA : heldA st None = []) by (apply heldA_nil_cnt; exact Hc).
  unfold Dp, Ap in *. rewrite heldD_some, heldA_some in *. cbn [dids apids dataid_of app] in *. rewrite HhA in *. cbn [app] in *.
  constructor; unfold Dp, Ap, heldD, heldA; rewrite ?(proj_sched_nil dids st) by reflexivity;
    rewrite ?(proj_sched_single apids st) by exact HhA; rewrite ?cnt_sched_none; lproj;
    cbn [dids apids is_holdD is_initD is_putD is_holdA is_initA dataid_of ackno_of b2n Nat.add app]; auto; try lia.
  apply Forall_insert; [|exact Lentries]. cbn [ae_time ae_ev entry_ok]. split; [exact Hs|]. split; [exact Ha|]. split; [exact Hct|].
    rewrite nq_eq. lra.
Qed.

(* an armed timer is never due: its segment (or the ACK of it) is still travelling and not overdue *)
Lemma LF_no_expiry st id :
  LF lc st (Some (ATimerFire id)) -> entry_ok lc st (l_now st) (ATimerFire id) ->
  has_timer id (timers (l_snd st)) = true -> False.
Proof.
  intros L He Ht. pose proof Hm_pos as Hm. pose proof Hd_nonneg as Hdn.
  apply has_timer_In in Ht. pose proof Ht as Hk. unfold keys in Ht. apply in_map_iff in Ht as ([k r] & E & Hin). cbn [fst] in E. subst k.
  destruct He as [_ He]. destruct (He r Hin) as (s & Hs & Hnow).
  pose proof (lf_armed _ _ _ L) as F. rewrite Forall_forall in F. pose proof (F _ Hin) as Hr. cbn [snd] in Hr.
  destruct (lf_timers _ _ _ L) as (nT & ET & ETn). destruct (lf_Dp _ _ _ L) as (nD & ED & EDn). destruct (lf_Ap _ _ _ L) as (nA & EA & EAn).
  rewrite ET in Hk. apply seg_ids_In in Hk as (k & Hkl & Hkid).
  destruct (Z_lt_ge_dec id (nse (l_sink st))) as [Hlt|Hge].
  - assert (Hin' : In id (Ap st (Some (ATimerFire id)))).
    { rewrite EA, Hkid. apply seg_ids_has. nia. }
    destruct (lf_A_due _ _ _ L id Hin') as (s' & Hs' & Hle). pose proof (sent_at_fun _ _ _ _ Hs Hs') as <-. lra.
  - assert (Hin' : In id (Dp st (Some (ATimerFire id)))).
    { rewrite ED. replace id with (nse (l_sink st) + Z.of_nat (k - nA) * m) by nia. apply seg_ids_has. nia. }
    destruct (lf_D_due _ _ _ L id Hin') as (s' & Hs' & Hle). pose proof (sent_at_fun _ _ _ _ Hs Hs') as <-. lra.
Qed.

Lemma handle_LF st ev st' :
  LInvA lc st (Some ev) -> LF lc st (Some ev) -> entry_ok lc st (l_now st) ev ->
  handle lc st ev = inl st' -> LF lc st' None.
Proof.
  intros HA L He. pose proof Hm_pos as Hm. pose proof Hd_nonneg as Hdn.
  destruct (handle_cases lc st ev) as [ev st0 e ack st1 S E|ev st0 e ack x S E|id r Hin|ev Hs|ev Hg|ev Hg|id Hp Hq|a p tm ct Hq
                                      |ev id st1 Hv E|ev id Hid Hn]; intros H; try discriminate; injection H as <-.
  - destruct S as [| |id Ht|ev a p tm ct Hev].
    + eapply (LF_wake_or_cb st EWake ASenderWake); eauto.
    + eapply (LF_wake_or_cb st EStoreCb ASenderCb); eauto.
    + exfalso. eapply LF_no_expiry; eauto.
    + apply (wa_get_LF st1 (AWireInit true)); [auto|].
      assert (Hx : sent_at st p tm /\ a = p + m /\ (l_now st == tm + (2 # 1) * d)%Q).
      { destruct Hev as [->|[-> Eq]]; destruct He as (Hs & Ha & Hct & Ht); repeat split; auto.
        apply Qltb_false in Eq. lra. }
      destruct Hx as (Hs & Ha & Ht).
      apply (LF_ack st ev a p tm ct); auto. destruct Hev as [->|[-> _]]; auto.
  - assert (LN : LF lc st None) by (eapply LF_drop; [..|exact L]; auto).
    apply LF_sched_quiet; [repeat split| |exact LN].
    destruct He as [Hlt Hs]. cbn [entry_ok]. split; [exact Hlt|]. intros r' Hin'.
    assert (Hnd' : NoDup (keys (timers (l_snd st)))).
    { destruct HA as [Is _ _ _]. rewrite (si_keys _ _ Is). apply Is. }
    pose proof (keys_NoDup_fun _ _ _ _ Hnd' Hin Hin') as <-.
    destruct (Hs r Hin) as (s & A1 & A2). exists s. split; [exact A1|]. rewrite nq_eq. lra.
  - destruct ev as [| | | |[|]|[|]| | | |]; try contradiction; (eapply LF_drop; [..|exact L]; auto).
  - apply (wd_get_LF st ev); auto.
  - apply (wa_get_LF st ev); auto.
  - destruct He as (s & Hs & Hle & <-). apply LF_move_D; auto.
  - destruct He as (Hs & Ha & Hct & Hle). apply LF_move_A; auto.
  - apply (wd_get_LF st1 (AWireInit false)); [auto|].
    eapply (deliver_data_LF st ev); eauto; [destruct Hv as [->|[-> _]]; auto|].
    intros s0 Hs0. destruct Hv as [->|[-> Eq]].
    + destruct He as (s & Hs & Heq). pose proof (sent_at_fun _ _ _ _ Hs Hs0) as <-. exact Heq.
    + destruct He as (s & Hs & Hle & Hent). pose proof (sent_at_fun _ _ _ _ Hs Hs0) as <-.
      rewrite Hent in Eq. apply Qltb_false in Eq. lra.
Qed.

(* ---- all reachable states ---- *)
Variables cw ss rtt0 : Q.
Variable orc : list Q.
Hypothesis Hcw : (zq m <= cw)%Q.
Hypothesis Hrtt : (d < rtt0)%Q.
Hypothesis Hrtt2 : ~ (rtt0 == (2 # 1) * d)%Q.

Lemma rtt0_pos : (0 < rtt0)%Q.
Proof. pose proof Hd_nonneg. lra. Qed.

Lemma linit_LF : LF lc (linit cw ss rtt0 orc) None.
Proof.
  pose proof Hd_nonneg as Hdn.
  constructor; unfold linit, init; lproj; proj; unfold Dp, Ap, heldD, heldA, cnt, evl; lproj; cbn [map ae_ev app flat_map dids apids dataid_of filter length
     is_holdD is_initD is_holdA is_initA is_putD is_putA ackno_of b2n Nat.add].
  - lia.
  - reflexivity.
  - lra.
  - exact Hrtt2.
  - reflexivity.
  - exists O. split; [reflexivity|lia].
  - constructor.
  - exists O. split; [reflexivity|]. cbn. lia.
  - exists O. split; [reflexivity|]. cbn. lia.
  - intros x [].
  - intros x [].
  - intros x y sx sy _ _ H. discriminate.
  - reflexivity.
  - reflexivity.
  - intros _ H. contradiction.
  - intros _ H. contradiction.
  - repeat constructor; cbn [entry_ok ae_time ae_ev]; lproj; apply Qle_refl.
  - constructor.
  - exists O. repeat split.
  - intros y s H. discriminate.
  - constructor.
Qed.

Lemma reach_LF st : lreach lc (linit cw ss rtt0 orc) st -> LF lc st None.
Proof.
  induction 1 as [|st st' Hreach IH Hstep]; [apply linit_LF|].
  assert (HA : LInvA lc st None) by (eapply reach_A; eauto; [apply Hok2|apply rtt0_pos]).
  apply lstep_popped in Hstep as (a & rest & E & Hstep).
  destruct (pop_LF st a rest HA IH E) as [Ldup Lrto].
  destruct (pop_A lc st a rest HA E) as (P1 & _).
  eapply handle_LF; eauto.
Qed.

(* LOSS-FREE, RTT BELOW THE RTO: every segment is handed to the data path exactly once, in order *)
Theorem lossfree_transmissions st :
  lreach lc (linit cw ss rtt0 orc) st ->
  exists nN : nat, map dl_id (rev (l_d1 st)) = seg_ids m 0 nN /\ Z.of_nat nN * m = next_seq (l_snd st) /\ l_n1 st = nN.
Proof. intros H. apply (lf_log _ _ _ (reach_LF st H)). Qed.

Theorem lossfree_no_retransmit st :
  lreach lc (linit cw ss rtt0 orc) st -> NoDup (map dl_id (l_d1 st)).
Proof.
  intros H. destruct (lossfree_transmissions st H) as (nN & E & _).
  assert (N : NoDup (map dl_id (rev (l_d1 st)))) by (rewrite E; apply seg_ids_NoDup; apply Hm_pos).
  rewrite map_rev in N. apply NoDup_rev in N. rewrite rev_involutive in N. exact N.
Qed.

(* no duplicate ACK is ever counted (that no armed timer expires is LF_no_expiry) *)
Theorem lossfree_no_dupack st : lreach lc (linit cw ss rtt0 orc) st -> dupack (l_snd st) = 0.
Proof. intros H. apply (lf_dup _ _ _ (reach_LF st H)). Qed.

(* TERMINATION OF THE LOSS-FREE LOOP with an explicit bound *)
Theorem lossfree_steps_bounded k st :
  fsize (lc_cfg lc) <> 0 -> lsteps lc k (linit cw ss rtt0 orc) st -> Z.of_nat k <= 3 + 11 * fsize (lc_cfg lc).
Proof.
  intros Hfs H. pose proof Hm_pos as Hm.
  pose proof (loop_work_bounded lc cw ss rtt0 orc k st Hok2 Hcw rtt0_pos Hfs H) as Hw.
  pose proof (lsteps_reach _ _ _ _ H) as Hr.
  destruct (lossfree_transmissions st Hr) as (nN & _ & En & Ec).
  destruct (reach_C lc cw ss rtt0 orc st Hok2 Hcw rtt0_pos Hr) as [_ [Cs _]].
  destruct (sc_buf _ _ Cs) as [B1 B2]. specialize (B2 Hfs). rewrite Ec in Hw. nia.
Qed.

Theorem lossfree_terminates fuel :
  fsize (lc_cfg lc) <> 0 -> 3 + 11 * fsize (lc_cfg lc) < Z.of_nat fuel ->
  match lrun fuel lc (linit cw ss rtt0 orc) with
  | LQuiescent st => last_ack (l_snd st) = fsize (lc_cfg lc) /\ nse (l_sink st) = fsize (lc_cfg lc) /\
                     sink_prefix (l_sink st) (fsize (lc_cfg lc)) /\ NoDup (map dl_id (l_d1 st))
  | LStopped st => exists a rest, l_agenda st = a :: rest /\ (lc_tmax lc <= ae_time a)%Q
  | LFuel _ | LRaised _ _ => False
  end.
Proof.
  intros Hfs Hfuel. pose proof (lrun_result lc fuel (linit cw ss rtt0 orc)) as R.
  destruct (lrun fuel lc (linit cw ss rtt0 orc)) as [st|st|st|st e] eqn:E.
  - assert (Hr : lreach lc (linit cw ss rtt0 orc) st).
    { pose proof (lrun_reach lc (linit cw ss rtt0 orc) fuel _ (reach_init _ _)) as Hr. rewrite E in Hr. exact Hr. }
    destruct (loop_quiescent_complete lc cw ss rtt0 orc st Hok2 Hcw rtt0_pos Hfs Hr R) as (A & B & C).
    split; [exact A|]. split; [exact B|]. split; [exact C|]. apply lossfree_no_retransmit. exact Hr.
  - exact R.
  - apply lrun_fuel_steps in E. apply lossfree_steps_bounded in E; [lia|exact Hfs].
  - eapply loop_never_raises; eauto; [apply Hok2|apply rtt0_pos].
Qed.

End LFproofs.

(* non-vacuity: 4 segments, delay 1/4, rtt_estimate 1: the hypotheses hold and the run completes *)
Definition lc_example : lcfg := mklcfg repaired (mkcfg 512 2048 Reno) (1 # 4) [] [] (1000 # 1).
Example lossfree_example :
  lc_ok2 lc_example /\ (lc_delay lc_example < 1)%Q /\ ~ (1 == (2 # 1) * lc_delay lc_example)%Q /\
  exists st, lrun 200 lc_example (linit (1024 # 1) (65535 # 1) 1 []) = LQuiescent st /\
             last_ack (l_snd st) = 2048 /\ map dl_id (rev (l_d1 st)) = [0; 512; 1024; 1536].
Proof.
  split; [|split; [|split]].
  - constructor; [constructor; cbn; [reflexivity|lia|discriminate]|]. exists 4. cbn. lia.
  - cbn. reflexivity.
  - cbn. intros H. discriminate H.
  - eexists. split; [vm_compute; reflexivity|]. split; reflexivity.
Qed.
