(* Bridging lemmas (DESIGN 2.6, second tie) for TCPPacketGenerator.put and timeout_callback: the bodies as translated from
   the tree under test on every run (Gen/Extracted_tcpsender.v: dupack / last_ack / rtt_estimate / est_deviation / rto and
   the effects in program order) are [on_ack current] / [on_timer current] of the hand-written sender model
   (Tcp/Sender.v) the C17 (and the sender part of the C16) theorems are about.  The CongestionControl method bodies are
   tied separately (Tcp/CcBridge.v, Tcp/CubicBridge.v); here a CALL of one is an effect whose meaning is the model's
   window rule.  The loop that stops and forgets the acknowledged timers is one whitelisted statement (FxStopAcked =
   [stop_all] of [acked_ids]). *)
From Coq Require Import ZArith QArith Qabs List Bool Lia.
From ONL Require Import Tcp.Sender Gen.Extracted_tcpsender.
Import ListNotations.
Open Scope Z_scope.

Definition sender_fields (s : sender) : sender_st :=
  {| t_dupack := dupack s; t_last_ack := last_ack s; t_rtt_estimate := srtt s; t_est_deviation := rttvar s; t_rto := rto s |}.

Definition sender_with_fields (s : sender) (f : sender_st) : sender :=
  mkst (next_seq s) (send_buffer s) (t_last_ack f) (t_dupack f) (cwnd s) (ssthresh s) (t_rtt_estimate f) (t_est_deviation f)
       (t_rto f) (cwnd_cnt s) (cnt s) (timers s) (sent s) (tokens s) (pend s) (waiting s) (wake s) (finished s).

Definition set_ccack (s : sender) (cw : Q) (ccnt : Z) (cn : Q) : sender :=
  mkst (next_seq s) (send_buffer s) (last_ack s) (dupack s) cw (ssthresh s) (srtt s) (rttvar s) (rto s)
       ccnt cn (timers s) (sent s) (tokens s) (pend s) (waiting s) (wake s) (finished s).

(* the effects in the model; ackno / pid / oracle are what the ACK carries and what TCPCubic computed (see Sender.v) *)
Fixpoint sender_fx_run (c : config) (oracle : Q) (ackno pid : Z) (s : sender) (o : list out) (fx : list sender_fx) : result :=
  match fx with
  | [] => Ok s o
  | FxAssertAck :: t => sender_fx_run c oracle ackno pid s o t
  | FxCcDupackOver :: t => sender_fx_run c oracle ackno pid (set_cc s (ssthresh s) (ssthresh s)) o t
  | FxCcFastRetransmit :: t =>
      sender_fx_run c oracle ackno pid (set_cc s (fr_cwnd (mss c) (cwnd s)) (fr_ssthresh (mss c) (cwnd s))) o t
  | FxCcMoreDupacks :: t => sender_fx_run c oracle ackno pid (set_cc s (cwnd s + zq (mss c))%Q (ssthresh s)) o t
  | FxCcTimerExpired :: t => sender_fx_run c oracle ackno pid (set_cc s (zq (mss c)) (ssthresh s)) o t
  | FxResend id :: t =>
      match resend current c s id with
      | Some o' => sender_fx_run c oracle ackno pid s (o ++ o') t
      | None => Raise (KeyErr id)
      end
  | FxCcAck _ _ :: t =>
      match cc_ack c (cwnd s) (ssthresh s) (cwnd_cnt s) (cnt s) oracle with
      | None => Raise ZeroDiv
      | Some (cw, ccnt, cn) => sender_fx_run c oracle ackno pid (set_ccack s cw ccnt cn) o t
      end
  | FxStopAcked :: t =>
      let ids := acked_ids current c s ackno pid in
      match stop_all ids (timers s) (sent s) [] with
      | None => Raise (KeyErr (first_missing ids (sent s)))
      | Some (tm, se, o') => sender_fx_run c oracle ackno pid (set_timers s tm se) (o ++ o') t
      end
  | FxTokenPut :: t => sender_fx_run c oracle ackno pid (store_put s) o t
  | FxTimerRestart id r :: t =>
      sender_fx_run c oracle ackno pid (set_timers s (rearm id r (timers s)) (sent s)) (o ++ [TRestart id r]) t
  end.

Definition sender_gen_put (c : config) (s : sender) (ackno : Z) (ack_time now : Q) : sender_st * list sender_fx :=
  gen_TCPPacketGenerator_put (sender_fields s) ackno ack_time now (cwnd s + zq (mss c))%Q.

Ltac zcases :=
  repeat match goal with
         | |- context [Z.eqb ?a ?b] => destruct (Z.eqb_spec a b)
         | |- context [Z.ltb ?a ?b] => destruct (Z.ltb_spec a b)
         | |- context [Z.leb ?a ?b] => destruct (Z.leb_spec a b)
         end.

Lemma bridge_sender_put c s ackno pid ack_time now oracle :
  let g := sender_gen_put c s ackno ack_time now in
  sender_fx_run c oracle ackno pid (sender_with_fields s (fst g)) [] (snd g) =
  on_ack current c s ackno pid (now - ack_time)%Q oracle.
Proof.
  unfold sender_gen_put, gen_TCPPacketGenerator_put, on_ack, sender_fields, sender_with_fields.
  cbn [current fx_deflate3 fx_guard_resend fx_stop_acked t_dupack t_last_ack t_rtt_estimate t_est_deviation t_rto].
  rewrite ?(Z.eqb_sym (last_ack s) ackno).       (* `self.last_ack == ackno`, either order *)
  destruct (Z.eqb_spec ackno (last_ack s)) as [E|E].
  - (* a duplicate: dupack + 1 is < 3 (only the counter), = 3 (fast retransmit, resend) or > 3 (cwnd += MSS, resend if
       the window allows); the last `all:` closes the case dupack + 1 = 0 of a negative counter, which falls through
       to the new-ACK code *)
    cbn -[Z.eqb Z.ltb Z.leb Z.add Qle_bool resend].
    zcases; try lia; cbn -[Qle_bool resend cc_ack stop_all acked_ids];
      try (destruct (Qle_bool _ _)); cbn -[resend cc_ack stop_all acked_ids];
      try (destruct (resend current c _ ackno) eqn:ER; cbn in ER |- *; rewrite ?ER); try reflexivity.
    all: try (cbn; destruct (cc_ack _ _ _ _ _ _) as [[[cw ccnt] cn]|]; [|reflexivity];
              cbn; destruct (stop_all _ _ _ _) as [[[tm se] o']|]; reflexivity).
  - (* a new ACK: after a duplicate (deflation when dupack >= 3, the counter back to 0) or with dupack <= 0, where a
       negative counter is tested against 3 and 0 again *)
    destruct (Z.ltb_spec 0 (dupack s)) as [D|D].
    + destruct (Z.leb_spec 3 (dupack s)) as [D3|D3];
        cbn -[Qle_bool resend cc_ack stop_all acked_ids];
        destruct (cc_ack _ _ _ _ _ _) as [[[cw ccnt] cn]|]; try reflexivity;
        cbn -[stop_all acked_ids]; destruct (stop_all _ _ _ _) as [[[tm se] o']|]; reflexivity.
    + cbn -[Z.eqb Z.ltb Z.leb Qle_bool resend cc_ack stop_all acked_ids].
      zcases; try lia; cbn -[Qle_bool resend cc_ack stop_all acked_ids];
        try (destruct (Qle_bool _ _)); cbn -[resend cc_ack stop_all acked_ids];
        try (destruct (resend current c _ ackno) eqn:ER; cbn in ER |- *; rewrite ?ER); try reflexivity.
      all: try (cbn; destruct (cc_ack _ _ _ _ _ _) as [[[cw ccnt] cn]|]; [|reflexivity];
                cbn; destruct (stop_all _ _ _ _) as [[[tm se] o']|]; reflexivity).
  all: destruct s; reflexivity.
Qed.

(* timeout_callback(id) for a segment whose timer exists (the callback of that very Timer) *)
Definition sender_gen_timeout (s : sender) (id : Z) : sender_st * list sender_fx :=
  gen_TCPPacketGenerator_timeout_callback (sender_fields s) id.

Lemma bridge_sender_timeout c s id oracle :
  has_timer id (timers s) = true ->
  let g := sender_gen_timeout s id in
  sender_fx_run c oracle 0 0 (sender_with_fields s (fst g)) [] (snd g) = on_timer current c s id.
Proof.
  intros H. unfold sender_gen_timeout, gen_TCPPacketGenerator_timeout_callback, on_timer, sender_fields, sender_with_fields.
  rewrite H. cbn -[resend].
  destruct (resend current c _ id) eqn:ER; cbn in ER |- *; rewrite ?ER; reflexivity.
Qed.
