(* Proofs about Tcp/Sink.v: the repaired ACK choice returns the length of the contiguous received
   prefix, for every arrival sequence. *)
From Coq Require Import ZArith List Bool Lia.
From ONL Require Import Tcp.Sink.
Import ListNotations.
Open Scope Z_scope.

Definition inr (r : range) (b : Z) : Prop := fst r <= b < snd r.
Definition cov (l : list range) (b : Z) : Prop := exists r, In r l /\ inr r b.

(* what the property talks about: bytes covered by the segments that arrived *)
Definition covered (segs : list (Z * Z)) (b : Z) : Prop :=
  exists g, In g segs /\ fst g <= b < fst g + snd g.
Definition prefix_len (segs : list (Z * Z)) (n : Z) : Prop :=
  0 <= n /\ (forall b, 0 <= b < n -> covered segs b) /\ ~ covered segs n.

Fixpoint ssorted (l : list range) : Prop :=
  match l with [] => True | x :: t => (forall y, In y t -> fst x <= fst y) /\ ssorted t end.

(* well-formed, strictly separated (non-adjacent) ranges in increasing order *)
Fixpoint gaps (l : list range) : Prop :=
  match l with
  | [] => True
  | x :: t => fst x <= snd x /\ (forall y, In y t -> snd x < fst y) /\ gaps t
  end.

Lemma gaps_wf l : gaps l -> forall y, In y l -> fst y <= snd y.
Proof.
  induction l as [|x t IH]; cbn [gaps In]; [tauto|].
  intros (Hx & _ & Ht) y [->|Hy]; auto.
Qed.

Lemma gaps_ssorted l : gaps l -> ssorted l.
Proof.
  induction l as [|x t IH]; cbn [gaps ssorted]; [tauto|].
  intros (Hx & Hlt & Ht); split; [|auto].
  intros y Hy. specialize (Hlt y Hy). lia.
Qed.

Lemma insert_in r l y : In y (insert_sorted r l) <-> y = r \/ In y l.
Proof.
  induction l as [|x t IH]; cbn [insert_sorted In].
  - intuition.
  - destruct (range_leb x r); cbn [In]; rewrite ?IH; intuition.
Qed.

Lemma insert_cov r l b : cov (insert_sorted r l) b <-> inr r b \/ cov l b.
Proof.
  unfold cov; split.
  - intros (y & Hy & Hb). apply insert_in in Hy as [->|Hy]; [left; auto|right; eauto].
  - intros [Hb|(y & Hy & Hb)]; [exists r|exists y]; split; auto; apply insert_in; auto.
Qed.

Lemma range_leb_false x r : range_leb x r = false -> fst r <= fst x.
Proof.
  unfold range_leb. intros H.
  apply orb_false_iff in H as [H1 H2]. apply Z.ltb_ge in H1. exact H1.
Qed.

Lemma range_leb_true x r : range_leb x r = true -> fst x <= fst r.
Proof.
  unfold range_leb. intros H.
  apply orb_true_iff in H as [H|H]; [apply Z.ltb_lt in H; lia|].
  apply andb_true_iff in H as [H _]. apply Z.eqb_eq in H. lia.
Qed.

Lemma insert_ssorted r l : ssorted l -> ssorted (insert_sorted r l).
Proof.
  induction l as [|x t IH]; cbn [insert_sorted ssorted].
  - intros _. split; [intros y []|exact I].
  - intros (Hx & Ht). destruct (range_leb x r) eqn:E; cbn [ssorted].
    + split; [|auto]. intros y Hy. apply insert_in in Hy as [->|Hy]; [apply range_leb_true; auto|auto].
    + apply range_leb_false in E. split; [|split; auto].
      intros y [<-|Hy]; [exact E|]. specialize (Hx y Hy). lia.
Qed.

(* the merge loop keeps: [cur] starts no later than anything still to come, the output is separated ranges in
   increasing order, and covers exactly what [cur] and the remaining ranges cover *)
Lemma merge_from_spec l : forall cur,
  fst cur <= snd cur ->
  (forall y, In y l -> fst cur <= fst y /\ fst y <= snd y) ->
  ssorted l ->
  gaps (merge_from cur l) /\
  (forall y, In y (merge_from cur l) -> fst cur <= fst y) /\
  (forall b, cov (merge_from cur l) b <-> inr cur b \/ cov l b).
Proof.
  induction l as [|[s e] t IH]; intros cur Hc Hall Hs; cbn [merge_from].
  - cbn [gaps]. split; [|split].
    + split; [exact Hc|split; [intros y []|exact I]].
    + intros y [<-|[]]; lia.
    + intros b; unfold cov; split.
      * intros (y & [<-|[]] & Hb); auto.
      * intros [Hb|(y & [] & _)]. exists cur; split; [left; auto|auto].
  - destruct Hs as (Hse & Hst).
    assert (Hcs : fst cur <= s /\ s <= e) by (apply (Hall (s, e)); left; auto).
    destruct (s <=? snd cur) eqn:E.
    + apply Z.leb_le in E.
      destruct (IH (fst cur, Z.max (snd cur) e)) as (G & F & C).
      * cbn [fst snd]. lia.
      * intros y Hy. cbn [fst]. apply Hall. right; auto.
      * exact Hst.
      * split; [exact G|split; [exact F|]].
        intros b. rewrite C. unfold cov, inr; cbn [fst snd]. split.
        -- intros [Hb|(y & Hy & Hb)].
           ++ destruct (Z_lt_dec b (snd cur)); [left; lia|].
              right; exists (s, e); split; [left; auto|cbn [fst snd]; lia].
           ++ right; exists y; split; [right; auto|auto].
        -- intros [Hb|(y & [<-|Hy] & Hb)].
           ++ left; lia.
           ++ cbn [fst snd] in Hb. left; lia.
           ++ right; exists y; auto.
    + apply Z.leb_gt in E.
      destruct (IH (s, e)) as (G & F & C).
      * cbn [fst snd]; lia.
      * intros y Hy. cbn [fst snd]. split; [apply (Hse y Hy)|apply Hall; right; auto].
      * exact Hst.
      * cbn [fst snd] in F. split; [|split].
        -- cbn [gaps]. split; [exact Hc|split; [|exact G]].
           intros y Hy. specialize (F y Hy). lia.
        -- intros y [<-|Hy]; [lia|]. specialize (F y Hy). lia.
        -- intros b. unfold cov in *. split.
           ++ intros (y & [<-|Hy] & Hb); [left; auto|].
              assert (H : exists r, In r (merge_from (s, e) t) /\ inr r b) by eauto.
              apply C in H as [H|(r & Hr & Hrb)]; right; [exists (s, e)|exists r]; split; auto; [left|right]; auto.
           ++ intros [Hb|(y & [<-|Hy] & Hb)].
              ** exists cur; split; [left; auto|auto].
              ** assert (H : inr (s, e) b \/ (exists r, In r t /\ inr r b)) by (left; auto).
                 apply C in H as (r & Hr & Hrb). exists r; split; [right; auto|auto].
              ** assert (H : inr (s, e) b \/ (exists r, In r t /\ inr r b)) by (right; eauto).
                 apply C in H as (r & Hr & Hrb). exists r; split; [right; auto|auto].
Qed.

Lemma merge_spec l :
  (forall y, In y l -> fst y <= snd y) -> ssorted l ->
  gaps (merge l) /\ (forall b, cov (merge l) b <-> cov l b) /\
  (forall y, In y (merge l) -> exists x, In x l /\ fst x <= fst y).
Proof.
  destruct l as [|x t]; cbn [merge].
  - intros _ _. split; [exact I|split; [tauto|intros y []]].
  - intros Hwf (Hx & Ht).
    destruct (merge_from_spec t x) as (G & F & C).
    + apply Hwf; left; auto.
    + intros y Hy; split; [auto|apply Hwf; right; auto].
    + exact Ht.
    + split; [exact G|split].
      * intros b. rewrite C. unfold cov. split.
        -- intros [Hb|(y & Hy & Hb)]; [exists x|exists y]; split; auto; [left|right]; auto.
        -- intros (y & [<-|Hy] & Hb); [left; auto|right; eauto].
      * intros y Hy. exists x; split; [left; auto|auto].
Qed.

(* the invariant of the sink w.r.t. the history of arrivals *)
Definition Inv (hist : list (Z * Z)) (s : sink) : Prop :=
  gaps (buf s) /\ (forall r, In r (buf s) -> 0 <= fst r) /\ (forall b, cov (buf s) b <-> covered hist b).

Lemma Inv_init : Inv [] sink0.
Proof.
  unfold Inv, sink0; cbn. split; [exact I|split; [tauto|]].
  intros b; unfold cov, covered; split; intros (x & [] & _).
Qed.

Lemma covered_app h g b : covered (h ++ [g]) b <-> covered h b \/ (fst g <= b < fst g + snd g).
Proof.
  unfold covered; split.
  - intros (x & Hx & Hb). apply in_app_or in Hx as [Hx|[<-|[]]]; [left; eauto|right; auto].
  - intros [(x & Hx & Hb)|Hb]; [exists x|exists g]; split; auto; apply in_or_app; [left|right; left]; auto.
Qed.

Lemma Inv_step hist s g fixed :
  0 <= fst g -> 0 <= snd g -> Inv hist s -> Inv (hist ++ [g]) (sink_step fixed s g).
Proof.
  intros Hid Hsz (G & P & C). unfold Inv, sink_step; cbn [buf]. unfold packet_arrived.
  set (r := (fst g, fst g + snd g)).
  destruct (merge_spec (insert_sorted r (buf s))) as (G' & C' & F').
  - intros y Hy. apply insert_in in Hy as [->|Hy]; [cbn; lia|eapply gaps_wf; eauto].
  - apply insert_ssorted, gaps_ssorted, G.
  - split; [exact G'|split].
    + intros y Hy. destruct (F' y Hy) as (x & Hx & Hle).
      apply insert_in in Hx as [->|Hx]; [cbn in Hle; lia|specialize (P x Hx); lia].
    + intros b. rewrite C', insert_cov, covered_app, C. unfold inr, r; cbn [fst snd]. tauto.
Qed.

Lemma ack_prefix hist s pid size :
  Inv hist s -> prefix_len hist (ack_choice true (buf s) pid size).
Proof.
  intros (G & P & C). unfold prefix_len, ack_choice.
  destruct (buf s) as [|[a e] t] eqn:E.
  - split; [lia|split; [intros b Hb; lia|]].
    intros H. apply C in H as (x & [] & _).
  - cbn [gaps fst snd] in G. destruct G as (Hae & Hlt & Gt).
    assert (Ha : 0 <= a) by (apply (P (a, e)); left; auto).
    destruct (a =? 0) eqn:Ea.
    + apply Z.eqb_eq in Ea. subst a. split; [lia|split].
      * intros b Hb. apply C. exists (0, e); split; [left; auto|unfold inr; cbn; lia].
      * intros H. apply C in H as (x & [<-|Hx] & Hb); unfold inr in Hb; cbn [fst snd] in Hb; [lia|].
        specialize (Hlt x Hx). lia.
    + apply Z.eqb_neq in Ea. split; [lia|split; [intros b Hb; lia|]].
      intros H. apply C in H as (x & [<-|Hx] & Hb); unfold inr in Hb; cbn [fst snd] in Hb; [lia|].
      specialize (Hlt x Hx). lia.
Qed.

Lemma acks_prefix segs : forall hist s,
  (forall g, In g segs -> 0 <= fst g /\ 0 <= snd g) ->
  Inv hist s ->
  forall k a, nth_error (acks true s segs) k = Some a -> prefix_len (hist ++ firstn (S k) segs) a.
Proof.
  induction segs as [|g t IH]; intros hist s Hpos HI k a Hk; cbn [acks] in Hk.
  - destruct k; discriminate.
  - assert (Hg : 0 <= fst g /\ 0 <= snd g) by (apply Hpos; left; auto).
    assert (HI' : Inv (hist ++ [g]) (sink_step true s g)) by (apply Inv_step; tauto).
    destruct k as [|k]; cbn [nth_error] in Hk.
    + injection Hk as <-. cbn [firstn].
      apply (ack_prefix _ (sink_step true s g) (fst g) (snd g)) in HI'. exact HI'.
    + change (firstn (S (S k)) (g :: t)) with (g :: firstn (S k) t).
      replace (hist ++ g :: firstn (S k) t) with ((hist ++ [g]) ++ firstn (S k) t)
        by (rewrite <- app_assoc; reflexivity).
      eapply IH; eauto. intros x Hx; apply Hpos; right; auto.
Qed.

Lemma prefix_len_mono s1 s2 a b :
  (forall x, covered s1 x -> covered s2 x) -> prefix_len s1 a -> prefix_len s2 b -> a <= b.
Proof.
  intros Hsub (Ha & Pa & _) (Hb & _ & Nb).
  destruct (Z_le_gt_dec a b); [auto|]. exfalso. apply Nb, Hsub, Pa. lia.
Qed.

Lemma in_firstn_mono (A : Type) (l : list A) : forall i j g,
  (i <= j)%nat -> In g (firstn i l) -> In g (firstn j l).
Proof.
  induction l as [|y t IH]; intros i j g Hij Hg.
  - rewrite firstn_nil in Hg. destruct Hg.
  - destruct i as [|i]; [destruct Hg|]. destruct j as [|j]; [lia|].
    cbn [firstn In] in *. destruct Hg as [->|Hg]; [left; auto|right].
    apply (IH i j); [lia|auto].
Qed.

Lemma covered_firstn_mono (segs : list (Z * Z)) i j x :
  (i <= j)%nat -> covered (firstn i segs) x -> covered (firstn j segs) x.
Proof.
  intros Hij (g & Hg & Hb). exists g; split; [|auto].
  eapply in_firstn_mono; eauto.
Qed.

Theorem ack_is_prefix segs :
  (forall g, In g segs -> 0 <= fst g /\ 0 <= snd g) ->
  forall k a, nth_error (acks true sink0 segs) k = Some a -> prefix_len (firstn (S k) segs) a.
Proof.
  intros Hpos k a Hk. apply (acks_prefix segs [] sink0 Hpos Inv_init k a Hk).
Qed.

Theorem ack_monotone segs :
  (forall g, In g segs -> 0 <= fst g /\ 0 <= snd g) ->
  forall i j a b, (i <= j)%nat ->
  nth_error (acks true sink0 segs) i = Some a -> nth_error (acks true sink0 segs) j = Some b -> a <= b.
Proof.
  intros Hpos i j a b Hij Hi Hj.
  apply (prefix_len_mono (firstn (S i) segs) (firstn (S j) segs)).
  - intros x. apply covered_firstn_mono. lia.
  - apply ack_is_prefix; auto.
  - apply ack_is_prefix; auto.
Qed.

(* the code as found at the pinned commit violates monotonicity (hence also the prefix statement) *)
Lemma ack_refuted_unfixed :
  exists segs, (forall g, In g segs -> 0 <= fst g /\ 0 <= snd g) /\
    exists i j a b, (i <= j)%nat /\ nth_error (acks false sink0 segs) i = Some a /\
                    nth_error (acks false sink0 segs) j = Some b /\ b < a.
Proof.
  exists [(0, 512); (512, 512); (1024, 512); (512, 512)]. split.
  - intros g Hg. cbn [In] in Hg. repeat (destruct Hg as [<-|Hg]; [cbn; lia|]). destruct Hg.
  - exists 2%nat, 3%nat, 1536, 1024. repeat split; try reflexivity. lia.
Qed.

(* non-vacuity: a concrete reordered, duplicated history with a gap *)
Example ack_example :
  acks true sink0 [(512, 512); (0, 512); (1536, 512); (512, 512); (1024, 512)] = [0; 1024; 1024; 1024; 2048].
Proof. vm_compute. reflexivity. Qed.
