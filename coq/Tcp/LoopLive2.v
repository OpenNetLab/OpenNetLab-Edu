(* C16 liveness: the potential of LoopLive.v with weights: an ACK numbered a carries 20*(size-a)+10, a data copy of
   segment id that the sink can already chain (id <= next_seq_expected) carries 20*(size-id), any other
   copy 20*(size+1).  A copy delivered in order produces an ACK numbered at least id+mss, a duplicate ACK
   numbered a retransmits segment a = last_ack <= next_seq_expected: a fast retransmission is paid for
   by the duplicate ACK that triggers it, and only a timer expiry adds potential.
   Hence: the number of agenda steps (and of transmissions) is bounded by the number of EXPIRIES.
   Then: the invariant RtoLow of the sender behind the lower bound of the retransmission timeout
   (LoopLive2F.loop_rto_lower_bound). *)
From Coq Require Import ZArith QArith Qabs Qround Qminmax List Bool Lia Lqa Arith.
From ONL Require Import Tcp.Sink Tcp.SinkProofs Tcp.Sender Tcp.SenderProofs Tcp.Loop Tcp.LoopProofs Tcp.LoopLive.
Import ListNotations.
Open Scope Z_scope.

Definition is_expire (e : event) : bool := match e with EExpire _ => true | _ => false end.
(* the number of timer expiries (timeout_callback calls) so far *)
Definition nexp (st : lstate) : nat := length (filter (fun x => is_expire (sl_ev x)) (l_slog st)).

Section Pot2.
Variable lc : lcfg.
Local Notation SZ := (fsize (lc_cfg lc)).

Definition wD (n id : Z) : Z := if id <=? n then 20 * (SZ - id) else 20 * (SZ + 1).
Definition wA (a : Z) : Z := 20 * (SZ - a) + 10.

Definition Gnew : Z := 20 * (SZ + 1) + 11.     (* a new segment: its copy, the put callback, its timer *)
Definition Cexp : Z := 20 * (SZ + 1) + 10.     (* an expiry: the copy, the put callback, the re-armed timer *)

Lemma nexp_sched st t p e : nexp (sched st t p e) = nexp st.
Proof. reflexivity. Qed.

Lemma nexp_wd_get st : nexp (wd_get st) = nexp st.
Proof using lc. unfold nexp, wd_get. destruct (wd_items (l_wd st)); reflexivity. Qed.
Lemma nexp_wa_get st : nexp (wa_get st) = nexp st.
Proof using lc. unfold nexp, wa_get. destruct (wa_items (l_wa st)); reflexivity. Qed.

End Pot2.

(* WORK IS BOUNDED BY EXPIRIES: after k agenda steps,
   k <= 3 + (20*(size+1)+11)*size + (20*(size+1)+10) * (timer expiries so far),
   and so is eight times the length of the data wire's queue.
   New data, fast retransmissions, duplicate ACKs, hand-offs are all finite work; only the
   retransmission timer can keep the loop busy. *)
Lemma work_and_queue_bounded_by_expiries lc cw ss rtt0 orc k st :
  lc_ok2 lc -> (zq (mss (lc_cfg lc)) <= cw)%Q -> (0 < rtt0)%Q -> fsize (lc_cfg lc) <> 0 ->
  lsteps lc k (linit cw ss rtt0 orc) st ->
  Z.of_nat k + 8 * Z.of_nat (length (wd_items (l_wd st))) <=
  3 + Gnew lc * fsize (lc_cfg lc) + Cexp lc * Z.of_nat (nexp st).
Proof.
  intros Hok2 Hc Hr Hfs H. pose proof (ok_mss _ (ok2_ok _ Hok2)) as Hm.
  pose proof (reach_ns_le lc cw ss rtt0 orc _ Hok2 Hc Hr Hfs (reach_init _ _)) as H0. unfold linit, init in H0; lproj; proj.
  change (nexp st) with (expiries (l_slog st)).
  rewrite <- (Z.add_0_r (3 + _)), <- (Z.mul_0_l (Z.of_nat (l_n1 st))).
  apply (work_bounded lc (wD lc) (wA lc) (Gnew lc) 0 (Cexp lc)) with (cw := cw) (ss := ss) (rtt0 := rtt0) (orc := orc); auto;
    unfold wD, wA, Gnew, Cexp; intros.
  - destruct (id <=? n) eqn:E1; destruct (id <=? n') eqn:E2; lia.
  - destruct (id <=? n); lia.
  - lia.
  - lia.
  - destruct (id <=? n); lia.
  - destruct (id <=? n); lia.
  - replace (a <=? n) with true by (symmetry; apply Z.leb_le; assumption). lia.
  - destruct (id <=? n) eqn:E; [apply Z.leb_le in E|]; lia.
Qed.

Theorem loop_work_bounded_by_expiries lc cw ss rtt0 orc k st :
  lc_ok2 lc -> (zq (mss (lc_cfg lc)) <= cw)%Q -> (0 < rtt0)%Q -> fsize (lc_cfg lc) <> 0 ->
  lsteps lc k (linit cw ss rtt0 orc) st ->
  Z.of_nat k <= 3 + Gnew lc * fsize (lc_cfg lc) + Cexp lc * Z.of_nat (nexp st).
Proof. intros Hok2 Hc Hr Hfs H. pose proof (work_and_queue_bounded_by_expiries lc cw ss rtt0 orc k st Hok2 Hc Hr Hfs H). lia. Qed.


(* (7/8)^k: each new ACK moves rtt_estimate at most one eighth of the way down to a sample >= 0 *)
Fixpoint geo (k : nat) : Q := match k with O => 1 | S j => (7 # 8) * geo j end.

Lemma geo_pos k : (0 < geo k)%Q.
Proof. induction k as [|k IH]; cbn [geo]; lra. Qed.

Lemma geo_S_le k : (geo (S k) <= geo k)%Q.
Proof. cbn [geo]. pose proof (geo_pos k). lra. Qed.

Lemma geo_mono k j : (k <= j)%nat -> (geo j <= geo k)%Q.
Proof. induction 1 as [|j H IH]; [lra|]. pose proof (geo_S_le j). lra. Qed.

Record RtoLow (rtt0 : Q) (s : sender) : Prop := {
  rl_la : 0 <= last_ack s;
  rl_srtt : (rtt0 * geo (Z.to_nat (last_ack s)) <= srtt s)%Q;
  rl_rto : (srtt s <= rto s)%Q
}.

Lemma RtoLow_norm rtt0 s : RtoLow rtt0 s -> RtoLow rtt0 (norm_sender s).
Proof. intros [A B C]. constructor; unfold norm_sender; proj; rewrite ?nq_eq; auto. Qed.

Lemma RtoLow_init cw ss rtt0 : (0 < rtt0)%Q -> RtoLow rtt0 (init cw ss rtt0).
Proof. intros H. constructor; unfold init; proj; cbn [Z.to_nat geo]; lra || lia. Qed.

Lemma RtoLow_step c rtt0 s e s' o :
  0 < mss c -> (0 < rtt0)%Q -> SInv c s -> sample_ok e -> ack_fwd s e -> RtoLow rtt0 s ->
  step repaired c s e = Ok s' o -> RtoLow rtt0 s'.
Proof.
  intros Hm Hr I Hs Hf [A B C] H. destruct e as [ackno pid sample orc|id| |]; cbn [step] in H.
  - apply on_ack_shape in H; [|apply I]. destruct H as (_ & _ & _ & _ & _ & [D|Nw]).
    + destruct D as (_ & L & _ & _ & _ & SR & _ & R & _). constructor; rewrite ?L, ?SR, ?R; auto.
    + destruct Nw as (Hne & L & _ & _ & _ & _ & SR & RV & R & _). cbn [sample_ok ack_fwd] in *.
      pose proof (si_rttvar _ _ I) as Hrv. pose proof (Qabs_nonneg (sample - srtt s)) as Hab.
      assert (G : (geo (Z.to_nat ackno) <= (7 # 8) * geo (Z.to_nat (last_ack s)))%Q).
      { change ((7 # 8) * geo (Z.to_nat (last_ack s)))%Q with (geo (S (Z.to_nat (last_ack s)))). apply geo_mono. lia. }
      constructor; rewrite ?L.
      * lia.
      * rewrite SR. nra.
      * rewrite R, RV. lra.
  - apply on_timer_shape in H as (_ & -> & _). constructor; proj; auto. pose proof (si_rto _ _ I). lra.
  - apply on_storecb_shape in H as (_ & p & _ & [(_ & _ & ->)|(_ & ->)]); constructor; proj; auto.
  - apply send_guard in H; [|exact Hm]. destruct H as (n & _ & _ & _ & _ & _ & L & _ & _ & _ & SR & _ & R & _). proj.
    constructor; rewrite ?L, ?SR, ?R; auto.
Qed.

(* non-vacuity: a run with drops; 3 expiries, the RTO above the bound *)
Definition lc_ex2 : lcfg := mklcfg repaired (mkcfg 1 4 Reno) (1 # 1) [0; 2]%nat [1]%nat (1000000 # 1).
Example work_and_rto_example :
  lc_ok2 lc_ex2 /\
  exists st, lrun 1000 lc_ex2 (linit (2 # 1) (65535 # 1) 1 []) = LQuiescent st /\ nexp st = 3%nat /\
             3 + Gnew lc_ex2 * 4 + Cexp lc_ex2 * Z.of_nat (nexp st) = 777 /\
             (0 < 1 * geo 4 <= rto (l_snd st))%Q.
Proof.
  split.
  - constructor; [constructor; cbn; [reflexivity|lia|discriminate]|]. exists 4. cbn. lia.
  - eexists. split; [vm_compute; reflexivity|]. split; [reflexivity|]. split; [reflexivity|]. split; vm_compute; [reflexivity|discriminate].
Qed.
