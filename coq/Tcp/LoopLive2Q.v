(* C16 liveness: the potential that bounds the number of timer expiries.
     lgz(rto)   doublings still needed until rto >= Theta (an expiry below Theta is paid by its doubling);
     epoch part with X = last_ack: while no X-item is in flight, every armed timer without a
                witness (and every segment not yet sent) counts, plus the two duplicate ACKs that may
                still arrive before fast retransmit; once an X-item is in flight, every timer that
                is not locked behind it counts;
     Total    = that + PsiMax * (bytes not yet acknowledged + drop indices not yet consumed).
   Every agenda step keeps Total, every timer expiry lowers it by at least one. *)
From Coq Require Import ZArith QArith Qabs Qround Qminmax List Bool Lia Lqa Arith.
From ONL Require Import Tcp.Sink Tcp.SinkProofs Tcp.Sender Tcp.SenderProofs Tcp.Loop Tcp.LoopProofs Tcp.LoopLive
  Tcp.LoopLossfree Tcp.LoopLive2 Tcp.LoopLive2T Tcp.LoopLive2P.
Import ListNotations.
Open Scope Z_scope.

Section Lg.
Variable Theta : Q.
Definition lgz (r : Q) : Z := Z.log2_up (Qceiling (Theta / r)).

Lemma lgz_nonneg r : 0 <= lgz r.
Proof. apply Z.log2_up_nonneg. Qed.

Lemma lgz_eq r r' : (r == r')%Q -> lgz r = lgz r'.
Proof. intros H. unfold lgz. rewrite H. reflexivity. Qed.

Lemma Qceiling_le_Z x z : (x <= inject_Z z)%Q -> Qceiling x <= z.
Proof. intros H. rewrite <- (Qceiling_Z z). apply Qceiling_resp_le, H. Qed.

Lemma lgz_le r k : (0 < r)%Q -> 0 <= k -> (Theta <= r * inject_Z (2 ^ k))%Q -> lgz r <= k.
Proof.
  intros Hr Hk H. unfold lgz.
  assert (Hx : (Theta / r <= inject_Z (2 ^ k))%Q).
  { apply Qle_shift_div_r; [exact Hr|]. lra. }
  apply Qceiling_le_Z in Hx.
  destruct (Z_le_gt_dec (Qceiling (Theta / r)) 0) as [H0|H0].
  - rewrite Z.log2_up_nonpos by exact H0. exact Hk.
  - apply Z.log2_up_le_pow2; [lia|exact Hx].
Qed.

Lemma lgz_spec r : (0 < r)%Q -> (Theta <= r * inject_Z (2 ^ lgz r))%Q.
Proof.
  intros Hr. unfold lgz. set (c := Qceiling (Theta / r)).
  assert (Hc : (Theta / r <= inject_Z c)%Q) by apply Qle_ceiling.
  assert (Hp : c <= 2 ^ Z.log2_up c).
  { destruct (Z_le_gt_dec c 0) as [H0|H0].
    - rewrite Z.log2_up_nonpos by exact H0. rewrite Z.pow_0_r. lia.
    - apply Z.log2_up_le_pow2; lia. }
  assert (Hq : (inject_Z c <= inject_Z (2 ^ Z.log2_up c))%Q) by (rewrite <- Zle_Qle; exact Hp).
  assert (Ht : (Theta == (Theta / r) * r)%Q) by (field; lra).
  rewrite Ht. nra.
Qed.

(* below Theta, a doubling saves one *)
Lemma lgz_double r : (0 < r)%Q -> (r < Theta)%Q -> lgz (r * (2 # 1)) <= lgz r - 1.
Proof.
  intros Hr Hlt. pose proof (lgz_spec r Hr) as Hs. pose proof (lgz_nonneg r) as H0.
  remember (lgz r) as k eqn:Ek.
  assert (H1 : 1 <= k).
  { destruct (Z_le_gt_dec 1 k) as [H|H]; [exact H|]. exfalso. assert (k = 0) by lia. subst k. rewrite H1 in Hs.
    rewrite Z.pow_0_r in Hs. change (inject_Z 1) with 1%Q in Hs. lra. }
  apply lgz_le; [lra|lia|].
  replace k with (k - 1 + 1) in Hs by lia. rewrite Z.pow_add_r in Hs by lia. rewrite inject_Z_mult in Hs.
  change (inject_Z (2 ^ 1)) with (2 # 1)%Q in Hs. lra.
Qed.

Lemma lgz_mono r r' : (0 < r)%Q -> (r <= r')%Q -> lgz r' <= lgz r.
Proof.
  intros Hr Hle. apply lgz_le; [lra|apply lgz_nonneg|]. pose proof (lgz_spec r Hr) as Hs.
  assert (0 <= inject_Z (2 ^ lgz r))%Q.
  { change 0%Q with (inject_Z 0). rewrite <- Zle_Qle. apply Z.pow_nonneg. lia. }
  nra.
Qed.

Lemma lgz_zero r : (0 < r)%Q -> (Theta <= r)%Q -> lgz r = 0.
Proof.
  intros Hr H. apply Z.le_antisymm; [|apply lgz_nonneg]. apply lgz_le; [exact Hr|lia|].
  rewrite Z.pow_0_r. change (inject_Z 1) with 1%Q. lra.
Qed.
End Lg.

Definition dropsAfter (n : nat) (l : list nat) : nat := length (filter (fun k => (n <=? k)%nat) l).

Lemma dropsAfter_mono n n' l : (n <= n')%nat -> (dropsAfter n' l <= dropsAfter n l)%nat.
Proof.
  intros H. unfold dropsAfter. induction l as [|k l IH]; cbn [filter]; [lia|].
  destruct (n' <=? k)%nat eqn:E1; destruct (n <=? k)%nat eqn:E2; cbn [length]; try lia.
  apply Nat.leb_le in E1. apply Nat.leb_gt in E2. lia.
Qed.

Lemma dropsAfter_S n l : existsb (Nat.eqb n) l = true -> (dropsAfter (S n) l < dropsAfter n l)%nat.
Proof.
  unfold dropsAfter. induction l as [|k l IH]; cbn [existsb filter]; [discriminate|].
  intros H. apply orb_true_iff in H as [H|H].
  - apply Nat.eqb_eq in H. subst k. rewrite Nat.leb_refl. replace (S n <=? n)%nat with false by (symmetry; apply Nat.leb_gt; lia).
    cbn [length]. pose proof (dropsAfter_mono n (S n) l ltac:(lia)) as M. unfold dropsAfter in M. lia.
  - specialize (IH H). destruct (S n <=? k)%nat eqn:E1; destruct (n <=? k)%nat eqn:E2; cbn [length]; try lia.
    apply Nat.leb_le in E1. apply Nat.leb_gt in E2. lia.
Qed.

(* the ids a sender event hands to the data path *)
Lemma oeff_nodrop lc tau o n1 nw kp k : oeff lc tau n1 o = (nw, kp, k) ->
  (dropsAfter (n1 + k) (lc_drop_data lc) < dropsAfter n1 (lc_drop_data lc))%nat \/ kp = tx_ids o.
Proof.
  intros E; injection E as _ <- <-. revert n1.
  induction o as [|[id z|id r|id|id r] o IH]; intros n1; cbn [okept]; try apply IH; [right; reflexivity|].
  change (tx_ids (Tx id z :: o)) with (id :: tx_ids o). cbn [length]. replace (n1 + S (length (tx_ids o)))%nat with (S n1 + length (tx_ids o))%nat by lia.
  pose proof (dropsAfter_mono n1 (S n1) (lc_drop_data lc) ltac:(lia)).
  destruct (IH (S n1)) as [A|A]; [left; lia|]. destruct (droppedD lc n1) eqn:Ed; [left|right; rewrite A; reflexivity].
  pose proof (dropsAfter_S n1 (lc_drop_data lc) Ed). pose proof (dropsAfter_mono (S n1) (S n1 + length (tx_ids o)) (lc_drop_data lc) ltac:(lia)). lia.
Qed.

Lemma acount_ge1 p l b : In b l -> p (ae_ev b) = true -> (1 <= acount p l)%nat.
Proof. intros Hb Hp. apply (filter_ge1 (fun a => p (ae_ev a)) l b Hb Hp). Qed.

Lemma NoDup_range_length (l : list Z) n : NoDup l -> Forall (fun x => 0 <= x < n) l -> Z.of_nat (length l) <= Z.max 0 n.
Proof.
  intros Hnd Hr.
  assert (Hinc : incl (map Z.to_nat l) (seq 0 (Z.to_nat n))).
  { intros k Hk. apply in_map_iff in Hk as (x & <- & Hx). rewrite Forall_forall in Hr. specialize (Hr x Hx). apply in_seq. lia. }
  assert (Hnd' : NoDup (map Z.to_nat l)).
  { clear Hinc. induction Hnd as [|x l Hx Hl IH]; cbn [map]; constructor.
    - intros Hin. apply in_map_iff in Hin as (y & Ey & Hy). inversion Hr as [|? ? Hx0 Hr']; subst. rewrite Forall_forall in Hr'.
      specialize (Hr' y Hy). assert (y = x) by lia. subst y. contradiction.
    - apply IH. inversion Hr; assumption. }
  pose proof (NoDup_incl_length Hnd' Hinc) as H. rewrite map_length, seq_length in H. lia.
Qed.

Definition is_timer (id : Z) (e : aev) : bool :=
  match e with ATimerInit j | ATimerFire j => j =? id | _ => false end.

(* assumed here, proved in LoopLive2U: one kernel event per armed timer; ids unacknowledged *)
Record LInvU (lc : lcfg) (st : lstate) : Prop := {
  u_uniq : forall id, In id (keys (timers (l_snd st))) -> acount (is_timer id) (l_agenda st) = 1%nat;
  u_la_sent : last_ack (l_snd st) < next_seq (l_snd st) -> In (last_ack (l_snd st)) (sent (l_snd st));
  u_all_acked : last_ack (l_snd st) = next_seq (l_snd st) -> timers (l_snd st) = []
}.

Section Pot3.
Variable lc : lcfg.
Variable Theta : Q.
Variable LG : Z.
Local Notation d := (lc_delay lc).
Local Notation SZ := (fsize (lc_cfg lc)).
Local Notation m := (mss (lc_cfg lc)).

Definition unsent (s : sender) : Z := SZ - next_seq s.
Definition dupt (s : sender) : Z := 2 - Z.min (dupack s) 2.

Definition Psi (st : lstate) : Z :=
  let s := l_snd st in
  let ks := keys (timers s) in
  lgz Theta (rto s) +
  (if zmode lc st then cntnot (statL lc st) ks + unsent s
   else SZ + cntnot (statP lc st) ks + unsent s + dupt s).

Definition PsiMax : Z := LG + 3 * SZ + 3.
Definition dropsRem (st : lstate) : Z :=
  Z.of_nat (dropsAfter (l_n1 st) (lc_drop_data lc) + dropsAfter (l_n2 st) (lc_drop_ack lc)).
Definition Total (st : lstate) : Z := Psi st + PsiMax * ((SZ - last_ack (l_snd st)) + dropsRem st).

(* what the step lemma needs of a state *)
Record Good (st : lstate) : Prop := {
  g_A : LInvA lc st None;
  g_B : LInvB lc st None;
  g_W : LInvW lc st;
  g_U : LInvU lc st;
  g_ns : next_seq (l_snd st) <= SZ;
  g_la : 0 <= last_ack (l_snd st);
  g_lg : lgz Theta (rto (l_snd st)) <= LG;
  g_q : ((nlen (wd_items (l_wd st)) + 3) * d <= Theta)%Q
}.

Lemma good_keys_len st : 0 < m -> Good st -> Z.of_nat (length (keys (timers (l_snd st)))) <= next_seq (l_snd st).
Proof.
  intros Hm G. pose proof (la_sinv _ _ _ (g_A _ G)) as I. pose proof (g_B _ G) as HB.
  rewrite (si_keys _ _ I).
  pose proof (NoDup_range_length (sent (l_snd st)) (next_seq (l_snd st)) (si_nodup _ _ I)) as H.
  assert (Hr : Forall (fun x => 0 <= x < next_seq (l_snd st)) (sent (l_snd st))).
  { eapply Forall_impl; [|exact (lb_sent _ _ _ HB)]. intros i [A B]. lia. }
  specialize (H Hr). pose proof (lb_ns _ _ _ HB). lia.
Qed.

Lemma Psi_z_le st : 0 < m -> Good st -> zmode lc st = true -> Psi st <= lgz Theta (rto (l_snd st)) + SZ.
Proof.
  intros Hm G Hz. unfold Psi. rewrite Hz. pose proof (good_keys_len st Hm G) as Hk.
  pose proof (cntnot_le_len (statL lc st) (keys (timers (l_snd st)))). unfold unsent. lia.
Qed.

Lemma Psi_nz_ge st : Good st -> zmode lc st = false ->
  lgz Theta (rto (l_snd st)) + SZ + cntnot (statP lc st) (keys (timers (l_snd st))) <= Psi st.
Proof.
  intros G Hz. unfold Psi. rewrite Hz. pose proof (g_ns _ G). unfold unsent, dupt.
  assert (0 <= dupack (l_snd st)) by apply (si_win _ _ (la_sinv _ _ _ (g_A _ G))). lia.
Qed.

Lemma Psi_bounds st : 0 < m -> Good st -> 0 <= Psi st <= PsiMax - 1.
Proof.
  intros Hm G. pose proof (good_keys_len st Hm G) as Hk. pose proof (g_ns _ G) as Hns. pose proof (lb_ns _ _ _ (g_B _ G)) as H0.
  pose proof (lgz_nonneg Theta (rto (l_snd st))) as Hl. pose proof (g_lg _ G) as Hl2.
  assert (Hdp : 0 <= dupack (l_snd st)) by apply (si_win _ _ (la_sinv _ _ _ (g_A _ G))).
  unfold Psi, PsiMax, unsent, dupt. set (ks := keys (timers (l_snd st))) in *.
  pose proof (cntnot_le_len (statL lc st) ks). pose proof (cntnot_le_len (statP lc st) ks).
  pose proof (cntnot_nonneg (statL lc st) ks). pose proof (cntnot_nonneg (statP lc st) ks).
  destruct (zmode lc st); lia.
Qed.

(* a new ACK or a consumed drop index pays for a whole epoch *)
Lemma Total_phase st st' :
  0 < m -> Good st -> Good st' ->
  last_ack (l_snd st) <= last_ack (l_snd st') -> dropsRem st' <= dropsRem st ->
  (last_ack (l_snd st) < last_ack (l_snd st') \/ dropsRem st' < dropsRem st) ->
  Total st' + 1 <= Total st.
Proof.
  intros Hm G G' Hla Hdr Hph. pose proof (Psi_bounds st Hm G). pose proof (Psi_bounds st' Hm G').
  assert (0 <= PsiMax) by lia. unfold Total. nia.
Qed.

Hypothesis Hd : (0 <= d)%Q.

Lemma hall_of_A st a rest : LInvA lc st None -> l_agenda st = a :: rest ->
  (l_now st <= ae_time a)%Q /\ forall b, In b (l_agenda st) -> (ae_time a <= ae_time b)%Q.
Proof.
  intros HA E. destruct (la_T _ _ _ HA) as [Ts Tf _ _ _ _ _]. rewrite E in Ts, Tf. split; [inversion Tf; assumption|].
  intros b Hb. rewrite E in Hb. destruct Hb as [<-|Hb]; [apply Qle_refl|eapply asorted_head; eauto].
Qed.

Lemma nofire st a rest id p :
  Good st -> l_agenda st = a :: rest -> ae_ev a = ATimerFire id -> In id (keys (timers (l_snd st))) ->
  stat lc p st id = false.
Proof.
  intros G E Ea Hk. destruct (hall_of_A st a rest (g_A _ G) E) as [Hn Hall].
  destruct (stat lc p st id) eqn:Es; [|reflexivity]. exfalso.
  apply stat_elim in Es as (t & x & Hin & Hx & _ & Hlt).
  (* the only Timeout of timer id is the entry at the head; nothing in flight is due before it *)
  pose proof (pipe_lo lc Hd st a rest x (g_W _ G) E Hall Hx) as Hlo.
  rewrite E in Hin. apply fires_cons in Hin as [[_ Ht]|Hin]; [rewrite <- Ht in Hlt; lra|].
  apply In_fires in Hin as (b & Hb & Eb & _).
  pose proof (u_uniq _ _ (g_U _ G) id Hk) as Hu. rewrite E, acount_cons in Hu.
  assert (1 <= acount (is_timer id) rest)%nat by (eapply acount_ge1; [exact Hb|rewrite Eb; cbn; apply Z.eqb_refl]).
  rewrite Ea in Hu. cbn [is_timer] in Hu. rewrite Z.eqb_refl in Hu. cbn [b2n] in Hu. lia.
Qed.

Lemma all_before st D x :
  Good st -> (l_now st + (nlen (wd_items (l_wd st)) + 2) * d < D)%Q -> In x (pipe lc st) -> Qltb (snd x) D = true.
Proof. intros G HD Hx. apply Qltb_true. pose proof (pipe_hi lc Hd st x (g_W _ G) Hx). lra. Qed.

Lemma tail_in b items id : exists td, In (ID id, td) (qD_items lc b (items ++ [id])).
Proof. rewrite qD_app. cbn [qD_items]. eexists. apply in_or_app. right. left. reflexivity. Qed.

Lemma new_item_in st id items : wd_items (l_wd st) = items ++ [id] -> exists td, In (ID id, td) (pipe lc st).
Proof.
  intros E. destruct (tail_in (base lc (l_now st) (l_agenda st)) items id) as (td & H). exists td.
  unfold pipe. rewrite E. apply in_or_app; right. apply in_or_app; right. apply in_or_app; right. exact H.
Qed.

Lemma new_fire_in rest ag' news t id : AddsT rest ag' news -> In (t, ATimerFire id) news -> In (id, t) (fires ag').
Proof.
  intros HA Hin. apply (fm_AddsT_In fire1 _ _ _ _ HA). right. exists (t, ATimerFire id). split; [exact Hin|left; reflexivity].
Qed.

Lemma zmode_intro st x : In x (pipe lc st) -> isX (last_ack (l_snd st)) (fst x) = true -> zmode lc st = true.
Proof. intros Hx Hw. unfold zmode. apply existsb_exists. exists x. split; assumption. Qed.

Lemma zmode_elim st : zmode lc st = true -> exists x, In x (pipe lc st) /\ isX (last_ack (l_snd st)) (fst x) = true.
Proof. unfold zmode. intros H. apply existsb_exists in H. exact H. Qed.

Hypothesis Hm : 0 < m.

(* comparing the potential before and after a step within an epoch: the step pays c, of which cl by doublings of
   the RTO, cz by the epoch part while the mode stays, cf by the timers without witness when an X-item appears *)
Lemma Psi_cmp st st' (c cl cz cf : Z) :
  Good st -> Good st' ->
  lgz Theta (rto (l_snd st')) + cl <= lgz Theta (rto (l_snd st)) ->
  (zmode lc st = true -> zmode lc st' = true) ->
  (zmode lc st = true ->
   cntnot (statL lc st') (keys (timers (l_snd st'))) + unsent (l_snd st') + cz <=
   cntnot (statL lc st) (keys (timers (l_snd st))) + unsent (l_snd st)) ->
  (zmode lc st' = false ->
   cntnot (statP lc st') (keys (timers (l_snd st'))) + unsent (l_snd st') + dupt (l_snd st') + cz <=
   cntnot (statP lc st) (keys (timers (l_snd st))) + unsent (l_snd st) + dupt (l_snd st)) ->
  (zmode lc st = false -> zmode lc st' = true -> cf <= cntnot (statP lc st) (keys (timers (l_snd st)))) ->
  c <= cl + cz -> c <= cl + cf -> Psi st' + c <= Psi st.
Proof.
  intros G G' Hl Hz HL HP HF C1 C2.
  destruct (zmode lc st) eqn:Ez; destruct (zmode lc st') eqn:Ez'.
  - specialize (HL eq_refl). unfold Psi. rewrite Ez, Ez'. lia.
  - specialize (Hz eq_refl). discriminate.
  - pose proof (Psi_z_le st' Hm G' Ez'). pose proof (Psi_nz_ge st G Ez). specialize (HF eq_refl eq_refl). lia.
  - specialize (HP eq_refl). unfold Psi. rewrite Ez, Ez'. lia.
Qed.

(* statuses through one agenda step that drops no ACK *)
Lemma stat_mono_step st a rest st' :
  Good st -> l_agenda st = a :: rest -> Tr lc st a rest st' ->
  last_ack (l_snd st') = last_ack (l_snd st) -> (droppedA lc (l_n2 st) = false \/ l_n2 st' = l_n2 st) ->
  (forall i, ae_ev a <> ATimerFire i -> (forall x, consumed lc st a x -> isW i (fst x) = false) ->
             statP lc st i = true -> statP lc st' i = true) /\
  (forall i, ae_ev a <> ATimerFire i -> (forall x, consumed lc st a x -> isX (last_ack (l_snd st)) (fst x) = false) ->
             statL lc st i = true -> statL lc st' i = true) /\
  ((forall x, consumed lc st a x -> isX (last_ack (l_snd st)) (fst x) = false) -> zmode lc st = true -> zmode lc st' = true).
Proof.
  intros G E HT HX Hnd. destruct (hall_of_A st a rest (g_A _ G) E) as [Hn Hall].
  pose proof (step_Pres lc Hd st a rest st' Hm (g_B _ G) (g_W _ G) E Hn Hall HT Hnd) as HP.
  split; [|split].
  - intros i Hne Hex. apply (stat_mono lc _ _ _ _ _ _ i HP); [intros it it' R; apply R|exact Hex|eapply fires_keep_step; eauto].
  - intros i Hne Hex. unfold statL. rewrite HX.
    apply (stat_mono lc _ _ _ _ _ _ i HP); [intros it it' R; apply R|exact Hex|eapply fires_keep_step; eauto].
  - intros Hex Hs. eapply zmode_mono; eauto.
Qed.

Lemma not_consumed st a x : (forall e, ~ ev_sender lc st (ae_time a) (ae_ev a) e true) -> ~ consumed lc st a x.
Proof. intros H [(e & He) _]. exact (H e He). Qed.

Lemma no_consume_plain st a : (ae_ev a = ASenderWake \/ ae_ev a = ASenderCb \/ exists id, ae_ev a = ATimerFire id) ->
  forall e, ~ ev_sender lc st (ae_time a) (ae_ev a) e true.
Proof. intros H e He. inversion He; subst; destruct H as [H|[H|(id & H)]]; congruence. Qed.

(* a step that hands no ACK to the sender and does not move last_ack: every armed timer keeps its status, but
   the timer that fires (which had none) *)
Lemma stat_keep st a rest st' :
  Good st -> l_agenda st = a :: rest -> Tr lc st a rest st' ->
  last_ack (l_snd st') = last_ack (l_snd st) -> (droppedA lc (l_n2 st) = false \/ l_n2 st' = l_n2 st) ->
  (forall e, ~ ev_sender lc st (ae_time a) (ae_ev a) e true) ->
  (forall i, In i (keys (timers (l_snd st))) -> ae_ev a = ATimerFire i -> statP lc st i = false /\ statL lc st i = false) ->
  (forall i, In i (keys (timers (l_snd st))) -> statP lc st i = true -> statP lc st' i = true) /\
  (forall i, In i (keys (timers (l_snd st))) -> statL lc st i = true -> statL lc st' i = true) /\
  (zmode lc st = true -> zmode lc st' = true).
Proof.
  intros G E HT HX Hnd Hns Hf. destruct (stat_mono_step st a rest st' G E HT HX Hnd) as (MP & ML & MZ).
  assert (NC : forall (q : item -> bool) x, consumed lc st a x -> q (fst x) = false) by (intros q x Hx; destruct (not_consumed st a x Hns Hx)).
  split; [|split].
  - intros i Hk Hi. apply MP; [intros Ea; destruct (Hf i Hk Ea); congruence|apply NC|exact Hi].
  - intros i Hk Hi. apply ML; [intros Ea; destruct (Hf i Hk Ea); congruence|apply NC|exact Hi].
  - apply MZ, NC.
Qed.

Lemma Psi_keep st a rest st' new c :
  Good st -> Good st' -> l_agenda st = a :: rest -> Tr lc st a rest st' ->
  last_ack (l_snd st') = last_ack (l_snd st) -> (droppedA lc (l_n2 st) = false \/ l_n2 st' = l_n2 st) ->
  (forall e, ~ ev_sender lc st (ae_time a) (ae_ev a) e true) ->
  (forall i, In i (keys (timers (l_snd st))) -> ae_ev a = ATimerFire i -> statP lc st i = false /\ statL lc st i = false) ->
  keys (timers (l_snd st')) = keys (timers (l_snd st)) ++ new ->
  unsent (l_snd st') + Z.of_nat (length new) <= unsent (l_snd st) -> dupt (l_snd st') = dupt (l_snd st) ->
  lgz Theta (rto (l_snd st')) + c <= lgz Theta (rto (l_snd st)) -> 0 <= c ->
  Psi st' + c <= Psi st.
Proof.
  intros G G' E HT HX Hnd Hns Hf Ek Eu Ed El Hc.
  destruct (stat_keep st a rest st' G E HT HX Hnd Hns Hf) as (MP & ML & MZ).
  apply (Psi_cmp st st' c c 0 0 G G'); try lia; try assumption.
  - intros _. rewrite Ek, cntnot_app. pose proof (cntnot_le_len (statL lc st') new). pose proof (cntnot_mono _ _ _ ML). lia.
  - intros _. rewrite Ek, cntnot_app, Ed. pose proof (cntnot_le_len (statP lc st') new). pose proof (cntnot_mono _ _ _ MP). lia.
  - intros _ _. apply cntnot_nonneg.
Qed.

Lemma lgz_norm s' : lgz Theta (rto (norm_sender s')) = lgz Theta (rto s').
Proof. apply lgz_eq. unfold norm_sender; proj. apply nq_eq. Qed.

Lemma keys_norm_sender s' : keys (timers (norm_sender s')) = keys (timers s').
Proof. apply keys_norm. Qed.

Lemma Psi_wake st a rest st' s' o :
  Good st -> Good st' -> l_agenda st = a :: rest -> Tr lc st a rest st' ->
  ae_ev a = ASenderWake -> step repaired (lc_cfg lc) (l_snd st) EWake = Ok s' o -> l_snd st' = norm_sender s' ->
  l_n2 st' = l_n2 st -> Psi st' <= Psi st.
Proof.
  intros G G' E HT Ea Hstep Hsnd Hn2. cbn [step] in Hstep.
  apply send_guard in Hstep; [|exact Hm]. destruct Hstep as (n & _ & Hns & Ht & _ & _ & Hla & Hdup & _ & _ & _ & _ & Hrto & _). proj.
  assert (Psi st' + 0 <= Psi st); [|lia].
  apply (Psi_keep st a rest st' (seg_ids m (next_seq (l_snd st)) n) 0 G G' E HT); rewrite ?Hsnd, ?lgz_norm, ?keys_norm_sender; auto; try lia.
  - apply no_consume_plain; auto.
  - intros i _ Ei. congruence.
  - rewrite Ht, keys_app, keys_map_pair. reflexivity.
  - rewrite seg_ids_len. unfold unsent. change (next_seq (norm_sender s')) with (next_seq s'). nia.
  - unfold dupt. change (dupack (norm_sender s')) with (dupack s'). rewrite Hdup. reflexivity.
  - rewrite Hrto. lia.
Qed.

Lemma Psi_cb st a rest st' s' o :
  Good st -> Good st' -> l_agenda st = a :: rest -> Tr lc st a rest st' ->
  ae_ev a = ASenderCb -> step repaired (lc_cfg lc) (l_snd st) EStoreCb = Ok s' o -> l_snd st' = norm_sender s' ->
  l_n2 st' = l_n2 st -> Psi st' <= Psi st.
Proof.
  intros G G' E HT Ea Hstep Hsnd Hn2. cbn [step] in Hstep.
  assert (F : timers s' = timers (l_snd st) /\ next_seq s' = next_seq (l_snd st) /\ last_ack s' = last_ack (l_snd st) /\
              dupack s' = dupack (l_snd st) /\ rto s' = rto (l_snd st)).
  { apply on_storecb_shape in Hstep as (_ & p & _ & [(_ & _ & ->)|(_ & ->)]); proj; repeat split; reflexivity. }
  destruct F as (Ft & Fn & Fl & Fd & Fr).
  assert (Psi st' + 0 <= Psi st); [|lia].
  apply (Psi_keep st a rest st' [] 0 G G' E HT); rewrite ?Hsnd, ?lgz_norm, ?keys_norm_sender, ?app_nil_r; auto; try lia.
  - apply no_consume_plain; auto.
  - intros i _ Ei. congruence.
  - rewrite Ft. reflexivity.
  - unfold unsent. change (next_seq (norm_sender s')) with (next_seq s'). cbn [length]. lia.
  - unfold dupt. change (dupack (norm_sender s')) with (dupack s'). rewrite Fd. reflexivity.
  - rewrite Fr. lia.
Qed.

(* a timer expiry pays one: by its doubling below Theta, by gaining a witness (or the lock) above *)
Lemma Psi_expire st a rest st' id s' o nw kp k news :
  Good st -> Good st' -> l_agenda st = a :: rest -> Tr lc st a rest st' ->
  ae_ev a = ATimerFire id -> has_timer id (timers (l_snd st)) = true ->
  step repaired (lc_cfg lc) (l_snd st) (EExpire id) = Ok s' o -> oeff lc (ae_time a) (l_n1 st) o = (nw, kp, k) -> kp = tx_ids o ->
  l_snd st' = norm_sender s' -> l_now st' = ae_time a -> l_n2 st' = l_n2 st ->
  l_wd st' = wd_app (l_wd st) kp (ae_time a) ->
  AddsT rest (l_agenda st') news -> (forall n, In n nw -> In n news) ->
  Psi st' + 1 <= Psi st.
Proof.
  intros G G' E HT Ea Hht Hstep Ho Hkp Hsnd Hnow Hn2 Hwd HA' Hsub.
  pose proof (la_sinv _ _ _ (g_A _ G)) as I. set (s := l_snd st) in *.
  assert (Hk : In id (keys (timers s))) by (apply has_timer_In; exact Hht).
  assert (Hs : in_sent id (sent s) = true) by (apply in_sent_In; rewrite <- (si_keys _ _ I); exact Hk).
  cbn [step] in Hstep. unfold on_timer in Hstep. rewrite Hht in Hstep. cbn [negb] in Hstep. unfold resend in Hstep. proj. rewrite Hs in Hstep.
  injection Hstep as <- <-. cbn [app tx_ids flat_map] in Hkp. subst kp.
  set (r' := (rto s * (2 # 1))%Q) in *.
  assert (HinF : In (nq (ae_time a + r'), ATimerFire id) news).
  { apply Hsub. injection Ho as <- _ _. cbn [onews]. apply in_or_app. right. left. reflexivity. }
  pose proof (si_rto _ _ I) as Hrto.
  assert (HX : last_ack (l_snd st') = last_ack s) by (rewrite Hsnd; reflexivity).
  pose proof (nofire st a rest id _ G E Ea Hk : statP lc st id = false) as NP. pose proof (nofire st a rest id _ G E Ea Hk : statL lc st id = false) as NL.
  assert (Hns : forall e, ~ ev_sender lc st (ae_time a) (ae_ev a) e true) by (apply no_consume_plain; eauto).
  assert (Hf : forall i, In i (keys (timers s)) -> ae_ev a = ATimerFire i -> statP lc st i = false /\ statL lc st i = false).
  { intros i _ Ei. rewrite Ea in Ei. injection Ei as <-. auto. }
  assert (Ek : keys (timers (l_snd st')) = keys (timers s)).
  { rewrite Hsnd. unfold norm_sender; proj. rewrite keys_norm, keys_rearm. reflexivity. }
  assert (Eu : unsent (l_snd st') = unsent s) by (rewrite Hsnd; reflexivity).
  assert (Ed : dupt (l_snd st') = dupt s) by (rewrite Hsnd; reflexivity).
  assert (Er : lgz Theta (rto (l_snd st')) = lgz Theta r') by (rewrite Hsnd, lgz_norm; reflexivity).
  destruct (Qlt_le_dec (rto s) Theta) as [Hlow|Hhigh].
  - (* below Theta: the doubling pays *)
    apply (Psi_keep st a rest st' [] 1 G G' E HT HX (or_intror Hn2) Hns Hf); rewrite ?app_nil_r; auto; try (rewrite ?Eu; fold s; cbn [length]; lia).
    rewrite Er. pose proof (lgz_double Theta (rto s) Hrto Hlow). fold r' in H. fold s. lia.
  - (* at or above Theta: the re-armed timer is due after everything in flight *)
    assert (Hitems : wd_items (l_wd st') = wd_items (l_wd st) ++ [id]) by (rewrite Hwd; reflexivity).
    destruct (new_item_in st' id _ Hitems) as (td & Hx0).
    pose proof (new_fire_in _ _ _ _ _ HA' HinF) as Hf0.
    assert (HD : (l_now st' + (nlen (wd_items (l_wd st')) + 2) * d < nq (ae_time a + r'))%Q).
    { rewrite Hnow, Hitems, nlen_app, nq_eq.
      assert (E1 : (nlen [id] == 1)%Q) by reflexivity. rewrite E1.
      pose proof (g_q _ G) as Hq. unfold r'.
      assert (E2 : ((nlen (wd_items (l_wd st)) + 1 + 2) * d == (nlen (wd_items (l_wd st)) + 3) * d)%Q) by ring.
      rewrite E2. lra. }
    assert (GP : statP lc st' id = true).
    { eapply stat_intro; [exact Hf0|exact Hx0|cbn; apply Z.eqb_refl|eapply all_before; eauto]. }
    assert (GL : zmode lc st' = true -> statL lc st' id = true).
    { intros Hz. destruct (zmode_elim st' Hz) as (x & Hx & Hxx). eapply stat_intro; [exact Hf0|exact Hx|exact Hxx|eapply all_before; eauto]. }
    destruct (stat_keep st a rest st' G E HT HX (or_intror Hn2) Hns Hf) as (MonoP & MonoL & MonoZ).
    apply (Psi_cmp st st' 1 0 1 1 G G'); try lia.
    + rewrite Er. pose proof (lgz_mono Theta (rto s) r' Hrto ltac:(unfold r'; lra)). fold s. lia.
    + exact MonoZ.
    + intros Hz. rewrite Ek, Eu. pose proof (cntnot_gain _ _ _ id Hk NL (GL (MonoZ Hz)) MonoL). fold s. lia.
    + intros _. rewrite Ek, Eu, Ed. pose proof (cntnot_gain _ _ _ id Hk NP GP MonoP). fold s. lia.
    + intros _ _. apply (cntnot_pos _ _ id Hk NP).
Qed.

(* a duplicate ACK: it may take a timer's witness away; the first two are paid by the duplicate
   counter, from the third on the segment at last_ack is retransmitted and an X-item is in flight *)
Lemma Psi_dupack st a rest st' k p sample orc s' o nw kp kk :
  Good st -> Good st' -> l_agenda st = a :: rest -> Tr lc st a rest st' ->
  ev_sender lc st (ae_time a) (ae_ev a) (EAck k p sample orc) true ->
  step repaired (lc_cfg lc) (l_snd st) (EAck k p sample orc) = Ok s' o -> last_ack s' = last_ack (l_snd st) ->
  oeff lc (ae_time a) (l_n1 st) o = (nw, kp, kk) -> kp = tx_ids o ->
  l_snd st' = norm_sender s' -> l_n2 st' = l_n2 st ->
  l_wd st' = wd_app (l_wd st) kp (ae_time a) ->
  Psi st' <= Psi st.
Proof.
  intros G G' E HT Hev Hstep HXs Ho Hkp Hsnd Hn2 Hwd.
  pose proof (la_sinv _ _ _ (g_A _ G)) as I. set (s := l_snd st) in *.
  assert (Hdp : 0 <= dupack s) by apply (si_win _ _ I).
  pose proof Hstep as Hstep0. cbn [step] in Hstep.
  apply on_ack_shape in Hstep; [|exact Hdp]. destruct Hstep as (Fn & _ & _ & _ & _ & [D|Nw]);
    [|destruct Nw as (Hne & Hl & _); congruence].
  destruct D as (Ek & _ & Fd & Ft & Fs & _ & _ & Fr & _ & _ & Fo). subst k.
  set (X := last_ack s) in *.
  assert (HX : last_ack (l_snd st') = X) by (rewrite Hsnd; exact HXs).
  destruct (stat_mono_step st a rest st' G E HT HX (or_intror Hn2)) as (MP & ML & MZ).
  assert (Hcons : forall x, consumed lc st a x -> fst x = IA X p).
  { intros x [_ Hx]. unfold hA1, hA1te in Hx. destruct (ae_ev a) eqn:Eev; inversion Hev; subst; destruct Hx as [<-|[]]; reflexivity. }
  assert (NX : forall x, consumed lc st a x -> isX X (fst x) = false).
  { intros x Hx. rewrite (Hcons x Hx). cbn [isX]. apply Z.ltb_irrefl. }
  assert (NF : forall i, ae_ev a <> ATimerFire i) by (intros i Hi; rewrite Hi in Hev; inversion Hev).
  assert (EkS : keys (timers (l_snd st')) = keys (timers s)).
  { rewrite Hsnd. change (timers (norm_sender s')) with (map (fun q : Z * Q => (fst q, nq (snd q))) (timers s')). rewrite keys_norm, Ft. reflexivity. }
  assert (Eu : unsent (l_snd st') = unsent s) by (unfold unsent; rewrite Hsnd; change (next_seq (norm_sender s')) with (next_seq s'); rewrite Fn; reflexivity).
  assert (Edp : dupack (l_snd st') = dupack s + 1) by (rewrite Hsnd; exact Fd).
  assert (MonoL : forall i, In i (keys (timers s)) -> statL lc st i = true -> statL lc st' i = true).
  { intros i _ Hi. apply ML; [apply NF|exact NX|exact Hi]. }
  assert (MonoP : forall i, In i (keys (timers s)) -> i <> p -> statP lc st i = true -> statP lc st' i = true).
  { intros i _ Hip Hi. apply MP; [apply NF| |exact Hi]. intros x Hx. rewrite (Hcons x Hx). cbn [isW]. apply Z.eqb_neq. congruence. }
  assert (Hnd : NoDup (keys (timers s))) by (rewrite (si_keys _ _ I); apply (si_nodup _ _ I)).
  assert (Psi st' + 0 <= Psi st); [|lia].
  apply (Psi_cmp st st' 0 0 0 0 G G'); try lia.
  - rewrite Hsnd, lgz_norm, Fr. fold s. lia.
  - apply MZ. exact NX.
  - intros _. rewrite EkS, Eu. pose proof (cntnot_mono _ _ _ MonoL). fold s. lia.
  - intros Hz'. rewrite EkS, Eu. fold s.
    pose proof (cntnot_mono_but (statP lc st) (statP lc st') _ p Hnd MonoP) as Hc1.
    unfold dupt. rewrite Edp.
    destruct (Z_le_gt_dec (dupack s + 1) 2) as [Hsmall|Hbig]; [lia|].
    (* third duplicate or later *)
    destruct (Z_lt_ge_dec X (next_seq s)) as [Hout|Hall].
    + exfalso. pose proof (u_la_sent _ _ (g_U _ G) Hout) as Hin. fold s in Hin. fold X in Hin. apply in_sent_In in Hin.
      assert (Eo : o = [Tx X m]).
      { cbn [step] in Hstep0. unfold X in Hstep0, Hin. destruct (Z.eq_dec (dupack s) 2) as [E2|E2].
        - rewrite (fast_retransmit_rule repaired (lc_cfg lc) s p sample orc E2 Hin) in Hstep0. injection Hstep0 as _ <-. reflexivity.
        - assert (Hcw : (0 <= cwnd s)%Q).
          { destruct (si_win _ _ I) as (Hc & _). assert (0 < zq m)%Q by (apply (zq_lt 0); exact Hm). lra. }
          rewrite (more_dupacks_rule repaired (lc_cfg lc) s p sample orc ltac:(lia) Hcw Hm Hin) in Hstep0. injection Hstep0 as _ <-. reflexivity. }
      rewrite Eo in Hkp. cbn [tx_ids flat_map app] in Hkp. subst kp.
      destruct (new_item_in st' X (wd_items (l_wd st)) ltac:(rewrite Hwd; reflexivity)) as (td & Hx0).
      assert (zmode lc st' = true); [|congruence].
      eapply zmode_intro; [exact Hx0|]. rewrite HX. cbn [fst isX]. apply Z.eqb_refl.
    + assert (Hnse : X <= next_seq s).
      { pose proof (lb_la _ _ _ (g_B _ G)). pose proof (LInvB_nse_le lc st None Hm (g_B _ G)). unfold X, s. lia. }
      assert (Et : timers s = []) by (apply (u_all_acked _ _ (g_U _ G)); fold s; fold X; lia).
      rewrite Et. unfold keys, cntnot. cbn [map filter length Z.of_nat]. lia.
  - intros _ _. apply cntnot_nonneg.
Qed.

Lemma nexp_cons st st' x : l_slog st' = x :: l_slog st -> nexp st' = ((if is_expire (sl_ev x) then 1 else 0) + nexp st)%nat.
Proof. intros E. unfold nexp. rewrite E. cbn [filter]. destruct (is_expire (sl_ev x)); reflexivity. Qed.

Lemma nexp_same st st' : l_slog st' = l_slog st -> nexp st' = nexp st.
Proof. intros E. unfold nexp. rewrite E. reflexivity. Qed.

Lemma Tr_counters st a rest st' : Tr lc st a rest st' ->
  (l_n1 st <= l_n1 st')%nat /\ (l_n2 st <= l_n2 st')%nat /\ (nexp st' <= S (nexp st))%nat.
Proof.
  intros HT.
  Tr_cases HT;
    try (destruct Hk as [k1 k2 k3 k4 k5 k6 k7]; unfold popped in *; lproj; rewrite (nexp_same _ _ k7); lia).
  - rewrite (nexp_cons _ _ _ Hslog). destruct (is_expire _); lia.
  - rewrite (nexp_same _ _ Hslog). lia.
Qed.

(* EVERY AGENDA STEP KEEPS Total; EVERY TIMER EXPIRY LOWERS IT BY ONE *)
Lemma Total_step st a rest st' :
  Good st -> Good st' -> l_agenda st = a :: rest -> Tr lc st a rest st' ->
  last_ack (l_snd st) <= last_ack (l_snd st') ->
  Total st' + Z.of_nat (nexp st') <= Total st + Z.of_nat (nexp st).
Proof.
  intros G G' E HT Hla.
  destruct (Tr_counters st a rest st' HT) as (Cn1 & Cn2 & Cne).
  pose proof (dropsAfter_mono _ _ (lc_drop_data lc) Cn1) as D1. pose proof (dropsAfter_mono _ _ (lc_drop_ack lc) Cn2) as D2.
  assert (Hdr : dropsRem st' <= dropsRem st) by (unfold dropsRem; lia).
  destruct (Z_lt_ge_dec (last_ack (l_snd st)) (last_ack (l_snd st'))) as [Hnew|Hsame].
  { pose proof (Total_phase st st' Hm G G' Hla Hdr (or_introl Hnew)). lia. }
  destruct (Z_lt_ge_dec (dropsRem st') (dropsRem st)) as [Hdrop|Hnodrop].
  { pose proof (Total_phase st st' Hm G G' Hla Hdr (or_intror Hdrop)). lia. }
  assert (HX : last_ack (l_snd st') = last_ack (l_snd st)) by lia.
  assert (E1 : dropsAfter (l_n1 st') (lc_drop_data lc) = dropsAfter (l_n1 st) (lc_drop_data lc)) by (unfold dropsRem in *; lia).
  assert (E2 : dropsAfter (l_n2 st') (lc_drop_ack lc) = dropsAfter (l_n2 st) (lc_drop_ack lc)) by (unfold dropsRem in *; lia).
  assert (Ed : dropsRem st' = dropsRem st) by (unfold dropsRem; rewrite E1, E2; reflexivity).
  assert (Hnd : droppedA lc (l_n2 st) = false \/ l_n2 st' = l_n2 st).
  { destruct (Nat.eq_dec (l_n2 st') (l_n2 st)) as [En|En]; [right; exact En|left].
    destruct (droppedA lc (l_n2 st)) eqn:Edr; [|reflexivity]. exfalso.
    pose proof (dropsAfter_S _ _ Edr). pose proof (dropsAfter_mono (S (l_n2 st)) (l_n2 st') (lc_drop_ack lc) ltac:(lia)). lia. }
  assert (Goal2 : Psi st' + Z.of_nat (nexp st') <= Psi st + Z.of_nat (nexp st)); [|unfold Total; rewrite HX, Ed; lia].
  assert (Qt : l_snd st' = l_snd st -> l_slog st' = l_slog st ->
                  (forall e, ~ ev_sender lc st (ae_time a) (ae_ev a) e true) ->
                  (forall i, In i (keys (timers (l_snd st))) -> ae_ev a <> ATimerFire i) ->
                  Psi st' + Z.of_nat (nexp st') <= Psi st + Z.of_nat (nexp st)).
  { intros Es El Hns Hnf. rewrite (nexp_same _ _ El).
    pose proof (Psi_keep st a rest st' [] 0 G G' E HT HX Hnd Hns) as Hq. rewrite Es, app_nil_r in Hq. cbn [length] in Hq.
    specialize (Hq ltac:(intros i Hi Ei; destruct (Hnf i Hi Ei)) eq_refl). lia. }
  pose proof HT as HT0.
  Tr_cases HT.
  - (* sender *)
    rewrite (nexp_cons _ _ _ Hslog). cbn [sl_ev].
    assert (Hkp2 : kp = tx_ids o).
    { destruct (oeff_nodrop lc _ _ _ _ _ _ Ho) as [Hlt|Hk2]; [|exact Hk2]. exfalso. rewrite <- Hn1 in Hlt. lia. }
    assert (HXs : last_ack s' = last_ack (l_snd st)) by (rewrite Hsnd in HX; exact HX).
    inversion Hev as [Ea Ee Ei|Ea Ee Ei|id Hht Ea Ee Ei|k0 p tm ct Hq Ea Ee Ei|k0 p tm ct Ea Ee Ei]; subst e isack; cbn [is_expire].
    + pose proof (Psi_wake st a rest st' s' o G G' E HT0 (eq_sym Ea) Hstep Hsnd Hn2). lia.
    + pose proof (Psi_cb st a rest st' s' o G G' E HT0 (eq_sym Ea) Hstep Hsnd Hn2). lia.
    + pose proof (Psi_expire st a rest st' id s' o nw kp k _ G G' E HT0 (eq_sym Ea) Hht Hstep Ho Hkp2 Hsnd Hnow Hn2 Hwd HA'
                  ltac:(intros n Hin; apply in_or_app; left; apply in_or_app; left; exact Hin)). lia.
    + pose proof (Psi_dupack st a rest st' _ _ _ _ s' o nw kp k G G' E HT0 Hev Hstep HXs Ho Hkp2 Hsnd Hn2 Hwd). lia.
    + pose proof (Psi_dupack st a rest st' _ _ _ _ s' o nw kp k G G' E HT0 Hev Hstep HXs Ho Hkp2 Hsnd Hn2 Hwd). lia.
  - destruct Hk as [k1 k2 k3 k4 k5 k6 k7]. unfold popped in *; lproj. apply Qt; auto.
    + intros e. apply (Quiet_no_sender lc st a _ _ _ e true Hq).
    + intros i Hi Ea. apply (Quiet_no_sender lc st a _ _ _ (EExpire i) false Hq). rewrite Ea. constructor. apply has_timer_In. exact Hi.
  - apply Qt; auto.
    + intros e He. destruct Hev as [Ea|[Ea _]]; rewrite Ea in He; inversion He.
    + intros i _. destruct Hev as [Ea|[Ea _]]; rewrite Ea; discriminate.
Qed.
End Pot3.
