(* Model of onl/packet/tcp_sink.py : TCPSink.packet_arrived + the ACK choice in TCPSink.put.
   Executable; no proofs here. *)
From Coq Require Import ZArith List Bool.
Import ListNotations.
Open Scope Z_scope.

Definition range := (Z * Z)%type.          (* [start, end) as the Python list [start, end] *)

(* Python compares the two-element lists lexicographically in list.sort() *)
Definition range_leb (a b : range) : bool :=
  (fst a <? fst b) || ((fst a =? fst b) && (snd a <=? snd b)).

(* recv_buffer.append(r); recv_buffer.sort()  -- the buffer is sorted before the append, the sort is
   stable, so the result is the insertion of r after every element <= r. Elements equal to r are
   indistinguishable from it. *)
Fixpoint insert_sorted (r : range) (l : list range) : list range :=
  match l with
  | [] => [r]
  | x :: t => if range_leb x r then x :: insert_sorted r t else r :: x :: t
  end.

(* the merge loop:  merge_stats[-1] is [cur] *)
Fixpoint merge_from (cur : range) (l : list range) : list range :=
  match l with
  | [] => [cur]
  | (s, e) :: t =>
      if s <=? snd cur then merge_from (fst cur, Z.max (snd cur) e) t
      else cur :: merge_from (s, e) t
  end.

Definition merge (l : list range) : list range :=
  match l with [] => [] | x :: t => merge_from x t end.

Definition packet_arrived (buf : list range) (pid size : Z) : list range :=
  merge (insert_sorted (pid, pid + size) buf).

(* ACK choice.  [fixed = true] is the repaired code (ACK = end of the first range if it starts at
   byte 0, else 0); [fixed = false] is the code as found at the pinned commit
   (pid+size when the buffer has one range, else end of the first range). *)
Definition ack_choice (fixed : bool) (buf : list range) (pid size : Z) : Z :=
  if fixed then
    match buf with
    | (s, e) :: _ => if s =? 0 then e else 0
    | [] => 0
    end
  else
    match buf with
    | [_] => pid + size
    | (s, e) :: _ => e
    | [] => 0
    end.

Record sink := { buf : list range; nse : Z }.       (* recv_buffer, next_seq_expected *)
Definition sink0 : sink := {| buf := []; nse := 0 |}.

Definition sink_step (fixed : bool) (s : sink) (seg : Z * Z) : sink :=
  let b := packet_arrived (buf s) (fst seg) (snd seg) in
  {| buf := b; nse := ack_choice fixed b (fst seg) (snd seg) |}.

(* the sequence of ACK numbers returned for a sequence of arriving segments (id, size) *)
Fixpoint acks (fixed : bool) (s : sink) (segs : list (Z * Z)) : list Z :=
  match segs with
  | [] => []
  | g :: t => let s' := sink_step fixed s g in nse s' :: acks fixed s' t
  end.

Definition run_sink (fixed : bool) (segs : list (Z * Z)) : sink :=
  fold_left (sink_step fixed) segs sink0.
