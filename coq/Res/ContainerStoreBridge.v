(* Bridging lemmas (DESIGN 2.6, second tie) for the _do_put/_do_get bodies of Container, Store and PriorityStore:
   the bodies as translated from the tree under test on every run (Gen/Extracted_container.v, Gen/Extracted_store.v:
   new level, effects in program order, returned bool) are the [k_do_put]/[k_do_get] of the hand-written kinds
   (Res/ContainerStore.v) the C07 theorems are about: same content, succeed() called iff the model triggers the
   request, same return value (the scan proceeds / breaks).  Capacities are finite here (the model's [Some c]). *)
From Coq Require Import ZArith QArith Qreduction List Bool Lia Lqa.
From ONL Require Import Base.QTools Res.Heap Res.HeapProofs Res.ContainerStore.
From ONL Require Gen.Extracted_container Gen.Extracted_store.
Import ListNotations.

(* split on every rational comparison, as propositions *)
Ltac qcases :=
  repeat match goal with
         | |- context [Qle_bool ?a ?b] =>
             let E := fresh "E" in destruct (Qle_bool a b) eqn:E; [apply Qle_bool_iff in E | apply Qle_bool_false in E]
         end.

(* ---- Container ------------------------------------------------------------------------------------------ *)
Section ContainerBridge.
  Import Extracted_container.

  Definition cont_gen_put (cap level amount : Q) := gen_Container_do_put {| c_level := level |} cap amount.
  Definition cont_gen_get (cap level amount : Q) := gen_Container_do_get {| c_level := level |} cap amount.

  (* (new level, effects, returned bool) against the model's result *)
  Definition cont_agrees (g : cont_st * list cont_fx * bool) (r : dores Q unit) : Prop :=
    c_level (fst (fst g)) == r_c r /\
    snd (fst g) = match r_val r with Some _ => [FxSucceed] | None => [] end /\
    snd g = r_proceed r.

  Lemma bridge_container_do_put cap level amount :
    cont_agrees (cont_gen_put cap level amount) (c_do_put (Some cap) level amount).
  Proof.
    unfold cont_agrees, cont_gen_put, gen_Container_do_put, c_do_put, room_for; cbn -[Qred].
    qcases; cbn -[Qred]; try (exfalso; lra);
      repeat split; try reflexivity; rewrite ?Qred_correct; lra.
  Qed.

  Lemma bridge_container_do_get cap level amount :
    cont_agrees (cont_gen_get cap level amount) (c_do_get level amount).
  Proof.
    unfold cont_agrees, cont_gen_get, gen_Container_do_get, c_do_get; cbn -[Qred].
    qcases; cbn -[Qred]; try (exfalso; lra);
      repeat split; try reflexivity; rewrite ?Qred_correct; lra.
  Qed.
End ContainerBridge.

(* ---- Store, PriorityStore ------------------------------------------------------------------------------ *)
Section StoreBridge.
  Import Extracted_store.
  Variable A : Type.
  Variable key : A -> Z.

  (* what the effects of _do_put(event) / _do_get(event) mean for the item list and the event *)
  Definition store_fx_apply (item : A) (acc : list A * option (option A)) (e : store_fx) : list A * option (option A) :=
    let '(items, val) := acc in
    match e with
    | FxAppend => (items ++ [item], val)                                     (* self.items.append(event.item) *)
    | FxHeapPush => (match heappush key items item with Some h => h | None => items end, val)
    | FxSucceed => (items, Some None)                                        (* event.succeed() *)
    | FxSucceedPop0 => match items with x :: t => (t, Some (Some x)) | [] => (items, val) end
    | FxSucceedHeapPop => match heappop key items with Some (x, h) => (h, Some (Some x)) | None => (items, val) end
    end.

  Definition store_fx_run (item : A) (items : list A) (fx : list store_fx) : list A * option (option A) :=
    fold_left (store_fx_apply item) fx (items, None).

  Definition n_of (items : list A) : Z := Z.of_nat (length items).

  (* the guards: integer sums under inject_Z are split, the length becomes an opaque rational / integer *)
  Ltac guard_q items :=
    rewrite ?inject_Z_plus; change (inject_Z 1) with 1%Q;
    generalize (inject_Z (Z.of_nat (length items))); intro nq;
    qcases; cbn; try (exfalso; lra).
  Ltac guard_z :=
    repeat match goal with
           | |- context [Z.ltb ?a ?b] => destruct (Z.ltb_spec a b)
           | |- context [Z.leb ?a ?b] => destruct (Z.leb_spec a b)
           | |- context [Z.eqb ?a ?b] => destruct (Z.eqb_spec a b)
           end; cbn [negb]; try (exfalso; cbn [length] in *; lia).

  (* Store._do_put *)
  Lemma bridge_store_do_put cap items item :
    let g := gen_Store_do_put (n_of items) cap in
    let r := s_do_put A (Some cap) items item in
    store_fx_run item items (fst g) = (r_c r, match r_val r with Some _ => Some None | None => None end) /\
    fst g = (if has_room (Some cap) (length items) then [FxAppend; FxSucceed] else []) /\
    snd g = r_proceed r.
  Proof.
    unfold gen_Store_do_put, s_do_put, has_room, store_fx_run, n_of; cbn -[inject_Z Z.of_nat Z.add].
    guard_q items; repeat split; reflexivity.
  Qed.

  (* Store._do_get *)
  Lemma bridge_store_do_get cap items item :
    let g := gen_Store_do_get (n_of items) cap in
    let r := s_do_get A items tt in
    store_fx_run item items (fst g) = (r_c r, match r_val r with Some x => Some (Some x) | None => None end) /\
    fst g = (match items with _ :: _ => [FxSucceedPop0] | [] => [] end) /\
    snd g = r_proceed r.
  Proof.
    unfold gen_Store_do_get, s_do_get, store_fx_run, n_of.
    destruct items as [|x t]; cbn -[Z.of_nat Z.add]; guard_z; cbn; repeat split; reflexivity.
  Qed.

  (* PriorityStore._do_put *)
  Lemma bridge_pstore_do_put cap items item :
    let g := gen_PriorityStore_do_put (n_of items) cap in
    let r := p_do_put A key (Some cap) items item in
    store_fx_run item items (fst g) = (r_c r, match r_val r with Some _ => Some None | None => None end) /\
    fst g = (if has_room (Some cap) (length items) then [FxHeapPush; FxSucceed] else []) /\
    snd g = r_proceed r.
  Proof.
    unfold gen_PriorityStore_do_put, p_do_put, has_room, store_fx_run, n_of; cbn -[inject_Z Z.of_nat Z.add heappush].
    pose proof (heappush_total A key items item) as HT.
    guard_q items; destruct (heappush key items item); try congruence; cbn; repeat split; reflexivity.
  Qed.

  (* PriorityStore._do_get *)
  Lemma bridge_pstore_do_get cap items item :
    let g := gen_PriorityStore_do_get (n_of items) cap in
    let r := p_do_get A key items tt in
    store_fx_run item items (fst g) = (r_c r, match r_val r with Some x => Some (Some x) | None => None end) /\
    fst g = (match items with _ :: _ => [FxSucceedHeapPop] | [] => [] end) /\
    snd g = r_proceed r.
  Proof.
    unfold gen_PriorityStore_do_get, p_do_get, store_fx_run, n_of.
    destruct items as [|x t]; cbn -[Z.of_nat Z.add heappop]; guard_z; [cbn; repeat split; reflexivity|].
    assert (HT : heappop key (x :: t) <> None) by (apply heappop_total; discriminate).
    cbn -[heappop]. destruct (heappop key (x :: t)) as [[y h]|]; [|congruence].
    cbn. repeat split; reflexivity.
  Qed.
End StoreBridge.
