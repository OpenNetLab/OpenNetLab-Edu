(* Proofs about the resource automaton of Res/Resource.v (property C06). *)
From Coq Require Import ZArith List Bool Arith Lia Sorted Permutation.
From ONL Require Import Res.Resource Res.ListFacts.
Import ListNotations.
(* Python's tuple order on (priority, time, not preempt) is a strict total order *)

Definition b2z (b : bool) : Z := if b then 1%Z else 0%Z.
Definition klt (a b : key) : Prop :=
  match a, b with
  | (p1, t1, n1), (p2, t2, n2) =>
      (p1 < p2 \/ (p1 = p2 /\ (t1 < t2 \/ (t1 = t2 /\ b2z n1 < b2z n2))))%Z
  end.

Lemma bool_ltb_spec a b : bool_ltb a b = true <-> (b2z a < b2z b)%Z.
Proof. destruct a, b; split; intros H; (reflexivity || discriminate H). Qed.

Lemma key_ltb_spec : forall a b, key_ltb a b = true <-> klt a b.
Proof.
  intros [[p1 t1] n1] [[p2 t2] n2]. unfold key_ltb, klt.
  rewrite orb_true_iff, andb_true_iff, orb_true_iff, andb_true_iff, Z.ltb_lt, Z.eqb_eq, Z.ltb_lt, Z.eqb_eq, bool_ltb_spec.
  reflexivity.
Qed.

Lemma key_ltb_nspec : forall a b, key_ltb a b = false <-> ~ klt a b.
Proof. intros a b. rewrite <- key_ltb_spec. symmetry. apply not_true_iff_false. Qed.

(* key comparisons as propositions about (priority, time, b2z flag): lexicographic order on Z^3, which lia decides *)
Ltac kprep :=
  repeat match goal with
  | H : key_ltb _ _ = true |- _ => apply key_ltb_spec in H
  | H : key_ltb _ _ = false |- _ => apply key_ltb_nspec in H
  | |- key_ltb _ _ = true => apply key_ltb_spec
  | |- key_ltb _ _ = false => apply key_ltb_nspec
  end;
  repeat match goal with a : key |- _ => destruct a as [[? ?] ?] end; unfold klt in *.

Lemma key_lt_trans : forall a b c, key_ltb a b = true -> key_ltb b c = true -> key_ltb a c = true.
Proof. intros a b c H1 H2. kprep. lia. Qed.
Lemma key_lt_le_trans : forall a b c, key_ltb a b = true -> key_ltb c b = false -> key_ltb a c = true.
Proof. intros a b c H1 H2. kprep. lia. Qed.
Lemma key_le_lt_trans : forall a b c, key_ltb b a = false -> key_ltb b c = true -> key_ltb a c = true.
Proof. intros a b c H1 H2. kprep. lia. Qed.
Lemma key_le_trans : forall a b c, key_ltb b a = false -> key_ltb c b = false -> key_ltb c a = false.
Proof. intros a b c H1 H2. kprep. lia. Qed.
Lemma key_lt_irrefl : forall a, key_ltb a a = false.
Proof. intros a. kprep. lia. Qed.
Lemma key_lt_asym : forall a b, key_ltb a b = true -> key_ltb b a = false.
Proof. intros a b H. kprep. lia. Qed.
Lemma key_total : forall a b, key_ltb a b = false -> key_ltb b a = false -> a = b.
Proof.
  intros [[p1 t1] n1] [[p2 t2] n2] H1 H2. kprep. assert (E : b2z n1 = b2z n2) by lia.
  f_equal; [f_equal; lia|]. destruct n1, n2; (reflexivity || discriminate E).
Qed.
Lemma key_eqb_eq : forall a b, key_eqb a b = true <-> a = b.
Proof.
  intros [[p1 t1] n1] [[p2 t2] n2]. unfold key_eqb.
  rewrite !andb_true_iff, !Z.eqb_eq, eqb_true_iff. split.
  - intros [[-> ->] ->]; reflexivity.
  - intros H; inversion H; auto.
Qed.
Lemma key_eqb_refl : forall a, key_eqb a a = true.
Proof. intros a; apply key_eqb_eq; reflexivity. Qed.

Arguments key_ltb : simpl never.
Arguments key_eqb : simpl never.
Arguments rkey : simpl never.

(* keys non-decreasing along the list *)
Definition kle (x y : req) : Prop := key_ltb (rkey y) (rkey x) = false.
Definition ksorted (l : list req) : Prop := StronglySorted kle l.

Lemma ins_perm : forall x l, Permutation (ins x l) (x :: l).
Proof.
  intros x l; induction l as [|y t IH]; simpl; [reflexivity|].
  destruct (key_ltb (rkey y) (rkey x)); [|reflexivity].
  rewrite IH. apply perm_swap.
Qed.
Lemma ssort_perm : forall l, Permutation (ssort l) l.
Proof.
  induction l as [|x t IH]; simpl; [reflexivity|]. rewrite ins_perm. constructor; exact IH.
Qed.
Lemma ins_in : forall x l z, In z (ins x l) <-> z = x \/ In z l.
Proof.
  intros x l z. split; intros H.
  - apply (Permutation_in _ (ins_perm x l)) in H. destruct H; auto.
  - apply (Permutation_in _ (Permutation_sym (ins_perm x l))). destruct H; [left|right]; auto.
Qed.
Lemma ssort_in : forall l z, In z (ssort l) <-> In z l.
Proof.
  intros l z; split; intros H.
  - exact (Permutation_in _ (ssort_perm l) H).
  - exact (Permutation_in _ (Permutation_sym (ssort_perm l)) H).
Qed.

Lemma ins_ksorted : forall x l, ksorted l -> ksorted (ins x l).
Proof.
  intros x l; induction l as [|y t IH]; intros Hs; simpl.
  - constructor; constructor.
  - destruct (key_ltb (rkey y) (rkey x)) eqn:E.
    + inversion Hs as [|? ? Ht Hy]; subst. constructor; [apply IH; exact Ht|].
      apply Forall_forall; intros z Hz. apply ins_in in Hz. destruct Hz as [->|Hz].
      * unfold kle. apply key_lt_asym; exact E.
      * rewrite Forall_forall in Hy; apply Hy; exact Hz.
    + constructor; [exact Hs|]. inversion Hs as [|? ? Ht Hy]; subst.
      constructor; [exact E|]. rewrite Forall_forall in *; intros z Hz. unfold kle in *.
      eapply key_le_trans; [exact E| apply Hy; exact Hz].
Qed.
Lemma ssort_ksorted : forall l, ksorted (ssort l).
Proof. induction l as [|x t IH]; simpl; [constructor|]. apply ins_ksorted; exact IH. Qed.

(* sorting a list whose keys are already in order changes nothing *)
Lemma ins_head : forall x l, ksorted (x :: l) -> ins x l = x :: l.
Proof.
  intros x [|y t] Hs; simpl; [reflexivity|].
  inversion Hs as [|? ? _ Hy]; subst. inversion Hy as [|? ? Hxy _]; subst. unfold kle in Hxy. rewrite Hxy. reflexivity.
Qed.
Lemma ssort_id : forall l, ksorted l -> ssort l = l.
Proof.
  induction l as [|x t IH]; intros Hs; simpl; [reflexivity|].
  inversion Hs as [|? ? Ht _]; subst. rewrite (IH Ht). apply ins_head; exact Hs.
Qed.

(* SortedQueue.append on a sorted queue = put the new element behind every element whose key is <= its key *)
Fixpoint place (e : req) (q : list req) : list req :=
  match q with
  | [] => [e]
  | y :: t => if key_ltb (rkey e) (rkey y) then e :: y :: t else y :: place e t
  end.

Lemma ssort_app_place : forall q e, ksorted q -> ssort (q ++ [e]) = place e q.
Proof.
  induction q as [|a q IH]; intros e Hs; simpl; [reflexivity|].
  inversion Hs as [|? ? Hq Ha]; subst. rewrite (IH e Hq).
  destruct (key_ltb (rkey e) (rkey a)) eqn:E.
  - destruct q as [|y t]; simpl.
    + rewrite E. reflexivity.
    + inversion Ha as [|? ? Hay _]; subst. unfold kle in Hay.
      assert (Hey : key_ltb (rkey e) (rkey y) = true) by (eapply key_lt_le_trans; [exact E|exact Hay]).
      rewrite Hey. simpl. rewrite E. simpl. rewrite Hay. reflexivity.
  - destruct q as [|y t]; simpl.
    + rewrite E. reflexivity.
    + inversion Ha as [|? ? Hay _]; subst. unfold kle in Hay.
      destruct (key_ltb (rkey e) (rkey y)) eqn:Ey; simpl.
      * rewrite E. reflexivity.
      * rewrite Hay. reflexivity.
Qed.

Lemma place_split : forall e q, exists l1 l2, q = l1 ++ l2 /\ place e q = l1 ++ e :: l2
   /\ (forall x, In x l1 -> key_ltb (rkey e) (rkey x) = false)
   /\ (match l2 with [] => True | y :: _ => key_ltb (rkey e) (rkey y) = true end).
Proof.
  intros e q; induction q as [|y t IH]; simpl.
  - exists [], []. repeat split; auto. intros x [].
  - destruct (key_ltb (rkey e) (rkey y)) eqn:E.
    + exists [], (y :: t). repeat split; auto. intros x [].
    + destruct IH as (l1 & l2 & Hq & Hp & H1 & H2). exists (y :: l1), l2. rewrite Hq at 1. rewrite Hp. repeat split; auto.
      intros x [<-|Hx]; auto.
Qed.

(* the last element of the sorted list = the LAST element of maximal key of the original list *)
Fixpoint lastmax (u : list req) : option req :=
  match u with
  | [] => None
  | x :: t => match lastmax t with
              | None => Some x
              | Some m => if key_ltb (rkey m) (rkey x) then Some x else Some m
              end
  end.

Fixpoint lastopt (l : list req) : option req :=
  match l with
  | [] => None
  | x :: t => match lastopt t with None => Some x | Some y => Some y end
  end.

Lemma lastopt_rev : forall l, match rev l with [] => None | w :: _ => Some w end = lastopt l.
Proof.
  induction l as [|x t IH]; simpl; [reflexivity|].
  destruct (rev t) as [|w r]; simpl; rewrite <- IH; reflexivity.
Qed.

Lemma lastopt_in : forall l m, lastopt l = Some m -> In m l.
Proof.
  induction l as [|x t IH]; intros m H; simpl in H; [discriminate|].
  destruct (lastopt t) as [y|]; inversion H; subst; [right; apply IH; reflexivity|left; reflexivity].
Qed.

Lemma lastopt_ins : forall x l, ksorted l ->
  lastopt (ins x l) = match lastopt l with
                      | None => Some x
                      | Some m => if key_ltb (rkey m) (rkey x) then Some x else Some m
                      end.
Proof.
  intros x l; induction l as [|y t IH]; intros Hs; [reflexivity|].
  inversion Hs as [|? ? Ht Hy]; subst. specialize (IH Ht).
  simpl ins. destruct (key_ltb (rkey y) (rkey x)) eqn:E.
  - change (lastopt (y :: ins x t)) with (match lastopt (ins x t) with None => Some y | Some z => Some z end).
    rewrite IH. change (lastopt (y :: t)) with (match lastopt t with None => Some y | Some z => Some z end).
    destruct (lastopt t) as [m|].
    + destruct (key_ltb (rkey m) (rkey x)); reflexivity.
    + rewrite E. reflexivity.
  - change (lastopt (x :: y :: t)) with (match lastopt (y :: t) with None => Some x | Some z => Some z end).
    destruct (lastopt (y :: t)) as [m|] eqn:El.
    + assert (Hm : key_ltb (rkey m) (rkey x) = false).
      { apply lastopt_in in El. destruct El as [<-|Hin]; [exact E|].
        rewrite Forall_forall in Hy. specialize (Hy _ Hin). unfold kle in Hy.
        eapply key_le_trans; [exact E|exact Hy]. }
      rewrite Hm. reflexivity.
    + simpl in El. destruct (lastopt t); discriminate.
Qed.

Lemma worst_lastmax : forall u, worst u = lastmax u.
Proof.
  intros u. unfold worst. rewrite lastopt_rev.
  induction u as [|x t IH]; [reflexivity|].
  simpl ssort. rewrite (lastopt_ins x (ssort t) (ssort_ksorted t)). rewrite IH. reflexivity.
Qed.

Lemma lastmax_spec : forall u w, lastmax u = Some w ->
  exists l1 l2, u = l1 ++ w :: l2
    /\ (forall x, In x l1 -> key_ltb (rkey w) (rkey x) = false)
    /\ (forall x, In x l2 -> key_ltb (rkey x) (rkey w) = true).
Proof.
  induction u as [|x t IH]; intros w H; simpl in H; [discriminate|].
  destruct (lastmax t) as [m|] eqn:Em.
  - destruct (IH m eq_refl) as (l1 & l2 & Ht & H1 & H2).
    destruct (key_ltb (rkey m) (rkey x)) eqn:E; inversion H; subst.
    + exists [], (l1 ++ m :: l2). repeat split; auto. { intros y []. }
      intros y Hy. apply in_app_or in Hy. destruct Hy as [Hy|[<-|Hy]].
      * eapply key_le_lt_trans; [apply H1; exact Hy|exact E].
      * exact E.
      * eapply key_lt_trans; [apply H2; exact Hy|exact E].
    + exists (x :: l1), l2. repeat split; auto. intros y [<-|Hy]; auto.
  - inversion H; subst. destruct t; [|simpl in Em; destruct (lastmax t); [destruct (key_ltb _ _)|]; discriminate].
    exists [], []. repeat split; auto; intros y [].
Qed.

Lemma worst_none : forall u, worst u = None -> u = [].
Proof.
  intros u H. rewrite worst_lastmax in H. destruct u as [|x t]; [reflexivity|].
  simpl in H. destruct (lastmax t); [destruct (key_ltb _ _)|]; discriminate.
Qed.

Definition rank_lt (k : kind) (x y : req) : Prop := rank_ltb k x y = true.
Definition rsorted (k : kind) (l : list req) : Prop := StronglySorted (rank_lt k) l.

Lemma rank_kle : forall k x y, k <> KRes -> rank_lt k x y -> kle x y.
Proof.
  intros k x y Hk H. unfold rank_lt, rank_ltb in H. unfold kle.
  destruct k; [congruence| |]; apply orb_true_iff in H; destruct H as [H|H];
    try (apply key_lt_asym; exact H);
    apply andb_true_iff in H; destruct H as [H _]; apply key_eqb_eq in H; rewrite H; apply key_lt_irrefl.
Qed.

Lemma rsorted_ksorted : forall k l, k <> KRes -> rsorted k l -> ksorted l.
Proof.
  intros k l Hk H; induction H as [|x l Hl IH Hx]; constructor; [exact IH|].
  rewrite Forall_forall in *; intros y Hy. eapply rank_kle; [exact Hk|apply Hx; exact Hy].
Qed.

Lemma place_in : forall e q z, In z (place e q) <-> z = e \/ In z q.
Proof.
  intros e q z; induction q as [|y t IH]; simpl.
  - intuition.
  - destruct (key_ltb (rkey e) (rkey y)); simpl; rewrite ?IH; intuition.
Qed.

Lemma place_rsorted : forall k e q, k <> KRes -> rsorted k q -> (forall y, In y q -> rid y < rid e) -> rsorted k (place e q).
Proof.
  intros k e q Hk; induction q as [|y t IH]; intros Hs Hid; simpl.
  - constructor; constructor.
  - inversion Hs as [|? ? Ht Hy]; subst.
    destruct (key_ltb (rkey e) (rkey y)) eqn:E.
    + constructor; [exact Hs|]. rewrite Forall_forall; intros z Hz.
      assert (Hyz : kle y z).
      { destruct Hz as [<-|Hz]; [unfold kle; apply key_lt_irrefl|]. rewrite Forall_forall in Hy. eapply rank_kle; [exact Hk|apply Hy; exact Hz]. }
      unfold kle in Hyz. unfold rank_lt, rank_ltb.
      assert (key_ltb (rkey e) (rkey z) = true) by (eapply key_lt_le_trans; [exact E|exact Hyz]).
      destruct k; [congruence| |]; rewrite H; reflexivity.
    + constructor; [apply IH; [exact Ht|intros z Hz; apply Hid; right; exact Hz]|].
      rewrite Forall_forall; intros z Hz. apply place_in in Hz. destruct Hz as [->|Hz].
      * unfold rank_lt, rank_ltb.
        assert (Hlt : rid y <? rid e = true) by (apply Nat.ltb_lt; apply Hid; left; reflexivity).
        destruct (key_ltb (rkey y) (rkey e)) eqn:E2.
        -- destruct k; [congruence| |]; reflexivity.
        -- assert (rkey y = rkey e) by (apply key_total; assumption).
           rewrite H, key_eqb_refl, Hlt. destruct k; [congruence| |]; reflexivity.
      * rewrite Forall_forall in Hy; apply Hy; exact Hz.
Qed.

Lemma enqueue_perm : forall k q e, Permutation (enqueue k q e) (e :: q).
Proof.
  intros k q e. assert (Permutation (q ++ [e]) (e :: q)) by (rewrite Permutation_app_comm; reflexivity).
  destruct k; simpl; try exact H; rewrite ssort_perm; exact H.
Qed.
Lemma enqueue_in : forall k q e z, In z (enqueue k q e) <-> z = e \/ In z q.
Proof.
  intros k q e z; split; intros H.
  - apply (Permutation_in _ (enqueue_perm k q e)) in H. destruct H; auto.
  - apply (Permutation_in _ (Permutation_sym (enqueue_perm k q e))). destruct H; [left|right]; auto.
Qed.

Lemma enqueue_rsorted : forall k q e, rsorted k q -> (forall y, In y q -> rid y < rid e) -> rsorted k (enqueue k q e).
Proof.
  intros k q e Hs Hid. destruct k eqn:Ek.
  - simpl. apply sorted_snoc; [exact Hs|]. intros y Hy. unfold rank_lt; simpl. apply Nat.ltb_lt; apply Hid; exact Hy.
  - simpl. rewrite ssort_app_place; [|eapply rsorted_ksorted; [|exact Hs]; discriminate].
    apply place_rsorted; [discriminate|exact Hs|exact Hid].
  - simpl. rewrite ssort_app_place; [|eapply rsorted_ksorted; [|exact Hs]; discriminate].
    apply place_rsorted; [discriminate|exact Hs|exact Hid].
Qed.

Lemma remove_id_cases : forall i l,
  (~ In i (map rid l) /\ remove_id i l = l) \/
  exists l1 x l2, l = l1 ++ x :: l2 /\ rid x = i /\ ~ In i (map rid l1) /\ remove_id i l = l1 ++ l2.
Proof.
  intros i l; induction l as [|y t IH]; simpl; [left; tauto|]. destruct (rid y =? i) eqn:E.
  - apply Nat.eqb_eq in E. right. exists [], y, t. simpl. tauto.
  - apply Nat.eqb_neq in E. destruct IH as [[Hn ->]|(l1 & x & l2 & -> & Hx & Hn & ->)].
    + left. split; [intros [H|H]; tauto|reflexivity].
    + right. exists (y :: l1), x, l2. simpl. repeat split; auto. intros [H|H]; tauto.
Qed.

Lemma remove_id_in : forall i l x, In x (remove_id i l) -> In x l.
Proof.
  intros i l x. destruct (remove_id_cases i l) as [[_ ->]|(l1 & y & l2 & -> & _ & _ & ->)]; [auto|].
  rewrite !in_app_iff. simpl. tauto.
Qed.
Lemma remove_id_sorted : forall (R : req -> req -> Prop) i l, StronglySorted R l -> StronglySorted R (remove_id i l).
Proof.
  intros R i l. destruct (remove_id_cases i l) as [[_ ->]|(l1 & y & l2 & -> & _ & _ & ->)]; [auto|apply sorted_app_drop].
Qed.
Lemma remove_id_notin : forall i l, ~ In i (map rid l) -> remove_id i l = l.
Proof.
  intros i l H. destruct (remove_id_cases i l) as [[_ E]|(l1 & y & l2 & -> & <- & _ & _)]; [exact E|].
  exfalso. apply H. rewrite map_app. apply in_or_app. right. left. reflexivity.
Qed.
Lemma remove_id_split : forall w l1 l2, ~ In (rid w) (map rid l1) -> remove_id (rid w) (l1 ++ w :: l2) = l1 ++ l2.
Proof.
  intros w l1 l2; induction l1 as [|y t IH]; intros H; simpl in *.
  - rewrite Nat.eqb_refl; reflexivity.
  - destruct (rid y =? rid w) eqn:E; [apply Nat.eqb_eq in E; exfalso; apply H; left; exact E|].
    f_equal; apply IH; intros Hc; apply H; right; exact Hc.
Qed.
Lemma has_id_in : forall i l, has_id i l = true <-> In i (map rid l).
Proof.
  intros i l; unfold has_id; rewrite existsb_exists; split.
  - intros (x & Hx & E). apply Nat.eqb_eq in E. subst. apply in_map; exact Hx.
  - intros H. apply in_map_iff in H. destruct H as (x & E & Hx). exists x; split; [exact Hx|apply Nat.eqb_eq; exact E].
Qed.
Lemma remove_id_length : forall i l, has_id i l = true -> S (length (remove_id i l)) = length l.
Proof.
  intros i l H. apply has_id_in in H. destruct (remove_id_cases i l) as [[Hn _]|(l1 & y & l2 & -> & _ & _ & ->)]; [tauto|].
  rewrite !app_length. simpl. lia.
Qed.
Lemma remove_id_length_le : forall i l, length (remove_id i l) <= length l.
Proof.
  intros i l. destruct (remove_id_cases i l) as [[_ ->]|(l1 & y & l2 & -> & _ & _ & ->)]; [lia|].
  rewrite !app_length. simpl. lia.
Qed.
Lemma nodup_remove_l : forall (f : req -> nat) i l r, NoDup (map f (l ++ r)) -> NoDup (map f (remove_id i l ++ r)).
Proof.
  intros f i l r. destruct (remove_id_cases i l) as [[_ ->]|(l1 & y & l2 & -> & _ & _ & ->)]; [auto|].
  rewrite <- !app_assoc, !map_app. apply NoDup_remove_1.
Qed.
Lemma nodup_remove_r : forall (f : req -> nat) i l r, NoDup (map f (l ++ r)) -> NoDup (map f (l ++ remove_id i r)).
Proof.
  intros f i l r. destruct (remove_id_cases i r) as [[_ ->]|(l1 & y & l2 & -> & _ & _ & ->)]; [auto|].
  rewrite !app_assoc, !map_app. apply NoDup_remove_1.
Qed.
Lemma nodup_app_neq : forall (f : req -> nat) l r a b, NoDup (map f (l ++ r)) -> In a l -> In b r -> f a <> f b.
Proof.
  intros f l r a b; induction l as [|y t IH]; intros H Ha Hb; simpl in *; [destruct Ha|].
  inversion H as [|? ? Hn Hd]; subst. destruct Ha as [->|Ha]; [|apply IH; assumption].
  intros E. apply Hn. rewrite E. apply in_map. apply in_or_app; right; exact Hb.
Qed.


Lemma existsb_nat_in : forall r l, existsb (Nat.eqb r) l = true <-> In r l.
Proof.
  intros r l; rewrite existsb_exists; split.
  - intros (x & Hx & E); apply Nat.eqb_eq in E; subst; exact Hx.
  - intros H; exists r; split; [exact H|apply Nat.eqb_refl].
Qed.

Lemma rank_eqkey_rid : forall k x y, rank_lt k x y -> rkey x = rkey y -> rid x < rid y.
Proof.
  intros k x y H E. unfold rank_lt, rank_ltb in H. destruct k.
  - apply Nat.ltb_lt; exact H.
  - rewrite E, key_lt_irrefl in H. simpl in H. apply andb_true_iff in H. destruct H as [_ H]. apply Nat.ltb_lt; exact H.
  - rewrite E, key_lt_irrefl in H. simpl in H. apply andb_true_iff in H. destruct H as [_ H]. apply Nat.ltb_lt; exact H.
Qed.

(* [q] is the put queue "as the scan sees it"; the field [queue s] is not mentioned *)
Record QI (k : kind) (cap : nat) (s : state) (q : list req) : Prop := mkQI {
  i_cap : length (users s) <= cap;
  i_getq : getq s = [];
  i_ids : NoDup (map rid (users s ++ q));
  i_procs : NoDup (map rproc (users s ++ q));
  i_fresh : forall r, In r (users s ++ q) -> rid r < next_id s;
  i_gfresh : forall i, In i (granted s) -> i < next_id s;
  i_ug : forall r, In r (users s) -> In (rid r) (granted s);
  i_qg : forall r, In r q -> ~ In (rid r) (granted s);
  i_sorted : rsorted k q;
  i_strict : forall i, In i (intrs s) -> key_ltb (rkey (iby i)) (rkey (ivictim i)) = true /\ rpre (iby i) = true;
  i_nointr : k <> KPreempt -> intrs s = [];
  i_since : forall r, In r (users s) -> exists t, rsince r = Some t /\ (t <= now s)%Z;
  (* equal keys: users are in arrival order, and arrived before everybody of that key who still waits *)
  i_uu : StronglySorted (fun a b => rkey a = rkey b -> rid a < rid b) (users s);
  i_uq : forall u h, In u (users s) -> In h q -> rkey u = rkey h -> rid u < rid h
}.

(* free slot and a waiter => a Release of this resource is triggered and not yet processed *)
Definition J (cap : nat) (s : state) (q : list req) : Prop :=
  length (users s) < cap -> q <> [] -> exists i, In (ERel i) (pending s).

Definition Inv (k : kind) (cap : nat) (s : state) : Prop := QI k cap s (queue s) /\ J cap s (queue s).

(* the active process holds nothing that a request still in the queue could evict *)
Definition act_ok (k : kind) (act : option nat) (s : state) (q : list req) : Prop :=
  k = KPreempt ->
  match act with
  | None => True
  | Some p => forall u, In u (users s) -> rproc u = p -> forall h, In h q -> key_ltb (rkey h) (rkey u) = false
  end.

Definition grant (t : Z) (e : req) : req := mkReq (rid e) (rproc e) (rprio e) (rtime e) (rpre e) (Some t).
Definition grant_state (s : state) (e : req) : state :=
  mkState (users s ++ [grant (now s) e]) (queue s) (getq s) (pending s ++ [EReq (rid e)]) (granted s ++ [rid e])
          (intrs s) (dead s) (next_id s) (now s).

Lemma res_do_put_eq : forall cap s e,
  res_do_put cap s e = if length (users s) <? cap then (grant_state s e, true, true) else (s, false, false).
Proof. reflexivity. Qed.

Lemma grant_I : forall k cap s e q, QI k cap s (e :: q) -> length (users s) < cap -> QI k cap (grant_state s e) q.
Proof.
  intros k cap s e q H Hlt. destruct H. unfold grant_state. constructor; simpl.
  - (* i_cap *) rewrite app_length; simpl; lia.
  - (* i_getq *) exact i_getq0.
  - (* i_ids *) rewrite <- app_assoc; simpl. rewrite map_app in *; simpl in *. exact i_ids0.
  - (* i_procs *) rewrite <- app_assoc; simpl. rewrite map_app in *; simpl in *. exact i_procs0.
  - (* i_fresh *) intros r Hr. rewrite <- app_assoc in Hr; simpl in Hr. apply in_app_or in Hr.
    destruct Hr as [Hr|[<-|Hr]].
    + apply i_fresh0; apply in_or_app; left; exact Hr.
    + simpl. apply (i_fresh0 e); apply in_or_app; right; left; reflexivity.
    + apply i_fresh0; apply in_or_app; right; right; exact Hr.
  - (* i_gfresh *) intros i Hi. apply in_app_or in Hi. destruct Hi as [Hi|[<-|[]]]; [apply i_gfresh0; exact Hi|].
    apply (i_fresh0 e); apply in_or_app; right; left; reflexivity.
  - (* i_ug *) intros r Hr. apply in_app_or in Hr. apply in_or_app. destruct Hr as [Hr|[<-|[]]]; [left; apply i_ug0; exact Hr|right; left; reflexivity].
  - (* i_qg *) intros r Hr Hc. apply in_app_or in Hc. destruct Hc as [Hc|[Hc|[]]].
    + apply (i_qg0 r); [right; exact Hr|exact Hc].
    + rewrite map_app in i_ids0. apply nodup_app_r in i_ids0. simpl in i_ids0.
      inversion i_ids0 as [|? ? Hn _]; subst. apply Hn. rewrite Hc. apply in_map; exact Hr.
  - (* i_sorted *) inversion i_sorted0; assumption.
  - (* i_strict *) exact i_strict0.
  - (* i_nointr *) exact i_nointr0.
  - (* i_since *) intros r Hr. apply in_app_or in Hr. destruct Hr as [Hr|[<-|[]]]; [apply i_since0; exact Hr|].
    exists (now s); split; [reflexivity|lia].
  - (* i_uu *) apply sorted_snoc; [exact i_uu0|]. intros u Hu E. apply (i_uq0 u e Hu (or_introl eq_refl) E).
  - (* i_uq *) intros u h Hu Hh E. apply in_app_or in Hu. destruct Hu as [Hu|[<-|[]]].
    + apply (i_uq0 u h Hu (or_intror Hh) E).
    + inversion i_sorted0 as [|? ? _ He]; subst. rewrite Forall_forall in He.
      apply (rank_eqkey_rid k e h (He h Hh) E).
Qed.

Lemma grant_act_ok : forall k cap act s e q, QI k cap s (e :: q) -> act_ok k act s (e :: q) -> act_ok k act (grant_state s e) q.
Proof.
  intros k cap act s e q HI H Hk. specialize (H Hk). destruct act as [p|]; [|exact I].
  intros u Hu Hp h Hh. simpl in Hu. apply in_app_or in Hu. destruct Hu as [Hu|[<-|[]]].
  - apply (H u Hu Hp h); right; exact Hh.
  - change (rkey (grant (now s) e)) with (rkey e).
    destruct HI. inversion i_sorted0 as [|? ? _ He]; subst. rewrite Forall_forall in He.
    assert (kle e h) by (eapply rank_kle; [|apply He; exact Hh]; discriminate). exact H0.
Qed.

Definition evict_state (s : state) (w e : req) (notified : bool) : state :=
  add_intr (set_users s (remove_id (rid w) (users s))) (mkIntr w e notified).

(* the invariant survives the departure of a user (eviction, release) *)
Lemma QI_del_user : forall k cap s q i, QI k cap s q -> QI k cap (set_users s (remove_id i (users s))) q.
Proof.
  intros k cap s q i H. destruct H. constructor; simpl; try assumption.
  - (* i_cap *) pose proof (remove_id_length_le i (users s)); lia.
  - (* i_ids *) apply nodup_remove_l; exact i_ids0.
  - (* i_procs *) apply nodup_remove_l; exact i_procs0.
  - (* i_fresh *) intros r Hr. apply i_fresh0. apply in_app_or in Hr. apply in_or_app. destruct Hr as [Hr|Hr]; [left; eapply remove_id_in; exact Hr|right; exact Hr].
  - (* i_ug *) intros r Hr. apply i_ug0. eapply remove_id_in; exact Hr.
  - (* i_since *) intros r Hr. apply i_since0. eapply remove_id_in; exact Hr.
  - (* i_uu *) apply remove_id_sorted; exact i_uu0.
  - (* i_uq *) intros u h Hu Hh E. apply (i_uq0 u h); [eapply remove_id_in; exact Hu|exact Hh|exact E].
Qed.

Lemma evict_I : forall cap s w e b q, QI KPreempt cap s (e :: q) -> In w (users s) ->
  key_ltb (rkey e) (rkey w) = true -> rpre e = true -> QI KPreempt cap (evict_state s w e b) (e :: q).
Proof.
  intros cap s w e b q H Hw Hlt Hpre. destruct (QI_del_user _ _ _ _ (rid w) H). unfold evict_state.
  constructor; simpl in *; try assumption.
  - (* i_strict *) intros i Hi. apply in_app_or in Hi. destruct Hi as [Hi|[<-|[]]]; [apply i_strict0; exact Hi|]. simpl. split; assumption.
  - (* i_nointr *) intros Hc; congruence.
Qed.

Lemma evict_act_ok : forall act s w e b q, act_ok KPreempt act s q -> act_ok KPreempt act (evict_state s w e b) q.
Proof.
  intros act s w e b q H Hk. specialize (H Hk). destruct act as [p|]; [|exact I].
  intros u Hu. apply H. simpl in Hu. eapply remove_id_in; exact Hu.
Qed.

Lemma worst_in : forall u w, worst u = Some w -> In w u.
Proof.
  intros u w H. rewrite worst_lastmax in H. apply lastmax_spec in H. destruct H as (l1 & l2 & -> & _).
  apply in_or_app; right; left; reflexivity.
Qed.

(* what one call of _do_put on the head e of the queue e :: q does to a state satisfying the invariant: it returns
   True iff it granted e (so the scan stops at the first refusal), a grant re-establishes the invariant for q, and
   a refusal changes nothing and only happens when the resource is full *)
Definition put_ok (k : kind) (cap : nat) (act : option nat) (s : state) (e : req) (q : list req)
           (res : option (state * bool * bool)) : Prop :=
  exists s' b, res = Some (s', b, b) /\
    if b then QI k cap s' q /\ act_ok k act s' q /\ granted s' = granted s ++ [rid e]
    else s' = s /\ cap <= length (users s).

(* Resource._do_put, called on s itself or on s after the eviction of a user (s0) *)
Lemma res_put_ok : forall k cap act s s0 e q, QI k cap s0 (e :: q) -> act_ok k act s0 (e :: q) ->
  granted s0 = granted s -> (length (users s0) <? cap = false -> s0 = s) ->
  put_ok k cap act s e q (Some (res_do_put cap s0 e)).
Proof.
  intros k cap act s s0 e q HI0 Hact0 Eg Hsame. rewrite res_do_put_eq. destruct (length (users s0) <? cap) eqn:E.
  - apply Nat.ltb_lt in E. exists (grant_state s0 e), true. split; [reflexivity|].
    split; [apply grant_I; assumption|]. split; [eapply grant_act_ok; eassumption|].
    simpl. rewrite Eg. reflexivity.
  - exists s0, false. split; [reflexivity|]. specialize (Hsame eq_refl). subst s0. split; [reflexivity|].
    apply Nat.ltb_ge in E; exact E.
Qed.

(* PreemptiveResource._do_put in one piece: the worst user w is evicted exactly when all slots are taken, e preempts
   and w's key is strictly behind e's; then, as otherwise, the base class's _do_put runs.  The RuntimeError of
   Process.interrupt (victim = active process) is excluded by the hypothesis: the active process holds nothing that e
   could evict. *)
Definition evicts (cap : nat) (s : state) (e : req) : bool :=
  (cap <=? length (users s)) && rpre e &&
  match worst (users s) with Some w => key_ltb (rkey e) (rkey w) | None => false end.

Lemma preempt_do_put_spec : forall cap act s e, 1 <= cap ->
  (forall p u, act = Some p -> In u (users s) -> rproc u = p -> key_ltb (rkey e) (rkey u) = false) ->
  preempt_do_put cap act s e =
  match worst (users s) with
  | Some w => Some (res_do_put cap (if evicts cap s e then evict_state s w e (negb (is_dead s (rproc w))) else s) e)
  | None => Some (res_do_put cap s e)
  end.
Proof.
  intros cap act s e Hcap Hact. unfold preempt_do_put, evicts, evict_state.
  destruct (worst (users s)) as [w|] eqn:Ew.
  - destruct ((cap <=? length (users s)) && rpre e); cbn [andb]; [|reflexivity].
    destruct (key_ltb (rkey e) (rkey w)) eqn:Elt; [|reflexivity].
    destruct (is_dead s (rproc w)); cbn [negb]; [reflexivity|]. destruct act as [a|]; [|reflexivity].
    destruct (a =? rproc w) eqn:Ea; [|reflexivity]. apply Nat.eqb_eq in Ea.
    rewrite (Hact a w eq_refl (worst_in _ _ Ew) (eq_sym Ea)) in Elt. discriminate.
  - apply worst_none in Ew. rewrite Ew. simpl. destruct cap; [lia|reflexivity].
Qed.

Lemma do_put_ok : forall k cap act s e q, 1 <= cap -> QI k cap s (e :: q) -> act_ok k act s (e :: q) ->
  put_ok k cap act s e q (do_put k cap act s e).
Proof.
  intros k cap act s e q Hcap HI Hact.
  assert (Hplain : put_ok k cap act s e q (Some (res_do_put cap s e))) by (apply res_put_ok; auto).
  destruct k; try exact Hplain. unfold do_put. rewrite preempt_do_put_spec; [|exact Hcap|].
  2:{ intros p u -> Hu Hp. exact (Hact eq_refl u Hu Hp e (or_introl eq_refl)). }
  destruct (worst (users s)) as [w|] eqn:Ew; [|exact Hplain].
  unfold evicts. rewrite Ew. destruct ((cap <=? length (users s)) && rpre e && key_ltb (rkey e) (rkey w)) eqn:Ec; [|exact Hplain].
  apply andb_true_iff in Ec as [Ec Elt]. apply andb_true_iff in Ec as [Efull Epre]. apply Nat.leb_le in Efull.
  pose proof (worst_in _ _ Ew) as Hw. apply res_put_ok; try reflexivity.
  - apply evict_I; assumption.
  - apply evict_act_ok; exact Hact.
  - (* after the eviction a slot is free *)
    intros E. exfalso. simpl in E. apply Nat.ltb_ge in E.
    assert (has_id (rid w) (users s) = true) by (apply has_id_in; apply in_map; exact Hw).
    pose proof (remove_id_length _ _ H). destruct HI. lia.
Qed.

(* the scan of _trigger_put: it calls _do_put on the head of the queue until one call fails *)
Lemma scan_ok : forall k cap act, 1 <= cap -> forall q s, QI k cap s q -> act_ok k act s q ->
  exists s' q' new, scan (do_put k cap act) s [] q = Some (s', q') /\ q = new ++ q' /\ QI k cap s' q'
    /\ granted s' = granted s ++ map rid new /\ (q' = [] \/ cap <= length (users s')).
Proof.
  intros k cap act Hcap q; induction q as [|e q IH]; intros s HI Hact.
  - exists s, [], []. simpl. rewrite app_nil_r. split; [reflexivity|]. split; [reflexivity|]. split; [exact HI|]. auto.
  - destruct (do_put_ok k cap act s e q Hcap HI Hact) as (s1 & b & Hd & Hb).
    simpl. rewrite Hd. destruct b.
    + destruct Hb as (HI1 & Hact1 & Eg).
      destruct (IH s1 HI1 Hact1) as (s' & q' & new & Hs & Hq & HI' & Eg' & Hpost).
      exists s', q', (e :: new). rewrite Hs. split; [reflexivity|]. split; [simpl; rewrite Hq; reflexivity|].
      split; [exact HI'|]. split; [|exact Hpost]. rewrite Eg', Eg, <- app_assoc. reflexivity.
    + destruct Hb as (-> & Hfull). exists s, (e :: q), []. simpl. rewrite app_nil_r.
      split; [reflexivity|]. split; [reflexivity|]. split; [exact HI|]. auto.
Qed.

Lemma QI_ext : forall k cap s s' q, users s' = users s -> getq s' = getq s -> granted s' = granted s ->
  intrs s' = intrs s -> next_id s' = next_id s -> now s' = now s -> QI k cap s q -> QI k cap s' q.
Proof.
  intros k cap s s' q Eu Eq Eg Ei En Et H. destruct H. constructor; rewrite ?Eu, ?Eq, ?Eg, ?Ei, ?En, ?Et; assumption.
Qed.

Lemma trigger_put_ok : forall k cap act s, 1 <= cap -> QI k cap s (queue s) -> act_ok k act s (queue s) ->
  exists s' new, trigger_put k cap act s = Some s' /\ queue s = new ++ queue s' /\ Inv k cap s'
    /\ granted s' = granted s ++ map rid new.
Proof.
  intros k cap act s Hcap HI Hact.
  destruct (scan_ok k cap act Hcap (queue s) s HI Hact) as (s1 & q' & new & Hs & Hq & HI1 & Eg & Hpost).
  exists (set_queue s1 q'), new. unfold trigger_put. rewrite Hs. simpl.
  split; [reflexivity|]. split; [exact Hq|]. split; [|exact Eg]. split; simpl.
  - eapply QI_ext; [..|exact HI1]; reflexivity.
  - intros Hlt Hne. simpl in Hlt. destruct Hpost as [->|Hfull]; [congruence|lia].
Qed.

Definition release_state (s : state) (r : nat) : state :=
  mkState (remove_id r (users s)) (queue s) [] (pending s ++ [ERel (next_id s)]) (granted s) (intrs s) (dead s) (S (next_id s)) (now s).

Lemma release_eq : forall s r, getq s = [] -> release s r = Some (release_state s r).
Proof. intros s r H. unfold release, trigger_get. simpl. rewrite H. reflexivity. Qed.

Lemma release_Inv : forall k cap s r, Inv k cap s -> Inv k cap (release_state s r).
Proof.
  intros k cap s r [H HJ]. split.
  - destruct (QI_del_user _ _ _ _ r H). constructor; simpl in *; try assumption.
    + (* i_getq *) reflexivity.
    + (* i_fresh *) intros x Hx. specialize (i_fresh0 x Hx). lia.
    + (* i_gfresh *) intros i Hi. specialize (i_gfresh0 i Hi). lia.
  - intros _ _. exists (next_id s). simpl. apply in_or_app; right; left; reflexivity.
Qed.

Definition new_req (s : state) (p : nat) (prio : Z) (pre : bool) : req := mkReq (next_id s) p prio (now s) pre None.

(* the put queue as it stands when the scan of the action begins *)
Definition qscan (k : kind) (s : state) (a : action) : list req :=
  match a with
  | ARequest p prio pre => enqueue k (queue s) (new_req s p prio pre)
  | ACancel _ r | AExit _ r => if existsb (Nat.eqb r) (granted s) then queue s else remove_id r (queue s)
  | _ => queue s
  end.

Lemma request_QI : forall k cap s p prio pre, QI k cap s (queue s) ->
  forallb (fun r => negb (rproc r =? p)) (users s ++ queue s) && negb (is_dead s p) = true ->
  let e := new_req s p prio pre in
  QI k cap (bump_id (set_queue s (enqueue k (queue s) e))) (enqueue k (queue s) e)
  /\ act_ok k (Some p) (bump_id (set_queue s (enqueue k (queue s) e))) (enqueue k (queue s) e).
Proof.
  intros k cap s p prio pre H Hadm e. destruct H.
  apply andb_true_iff in Hadm. destruct Hadm as [Hadm _]. rewrite forallb_forall in Hadm.
  assert (P : Permutation (users s ++ enqueue k (queue s) e) (e :: users s ++ queue s)).
  { rewrite (enqueue_perm k (queue s) e). symmetry. apply Permutation_middle. }
  split.
  - constructor; simpl.
    + (* i_cap *) exact i_cap0.
    + (* i_getq *) exact i_getq0.
    + (* i_ids *) eapply Permutation_NoDup; [apply Permutation_map; symmetry; exact P|]. simpl. constructor; [|exact i_ids0].
      intros Hc. apply in_map_iff in Hc. destruct Hc as (x & E & Hx). specialize (i_fresh0 x Hx). lia.
    + (* i_procs *) eapply Permutation_NoDup; [apply Permutation_map; symmetry; exact P|]. simpl. constructor; [|exact i_procs0].
      intros Hc. apply in_map_iff in Hc. destruct Hc as (x & E & Hx). specialize (Hadm x Hx).
      apply negb_true_iff, Nat.eqb_neq in Hadm. congruence.
    + (* i_fresh *) intros x Hx. apply (Permutation_in _ P) in Hx. destruct Hx as [<-|Hx]; [simpl; lia|]. specialize (i_fresh0 x Hx). lia.
    + (* i_gfresh *) intros i Hi. specialize (i_gfresh0 i Hi). lia.
    + (* i_ug *) exact i_ug0.
    + (* i_qg *) intros x Hx Hc. apply enqueue_in in Hx. destruct Hx as [->|Hx]; [|exact (i_qg0 x Hx Hc)].
      simpl in Hc. specialize (i_gfresh0 _ Hc). lia.
    + (* i_sorted *) apply enqueue_rsorted; [exact i_sorted0|]. intros y Hy. simpl. apply i_fresh0. apply in_or_app; right; exact Hy.
    + (* i_strict *) exact i_strict0.
    + (* i_nointr *) exact i_nointr0.
    + (* i_since *) exact i_since0.
    + (* i_uu *) exact i_uu0.
    + (* i_uq *) intros u h Hu Hh E. apply enqueue_in in Hh. destruct Hh as [->|Hh]; [|exact (i_uq0 u h Hu Hh E)].
      simpl. apply i_fresh0. apply in_or_app; left; exact Hu.
  - intros _ u Hu Hp. simpl in Hu. assert (In u (users s ++ queue s)) by (apply in_or_app; left; exact Hu).
    specialize (Hadm u H). apply negb_true_iff, Nat.eqb_neq in Hadm. congruence.
Qed.

Lemma cancel_ok : forall k cap s p r, 1 <= cap -> Inv k cap s -> adm s (ACancel p r) = true ->
  exists s' new, cancel k cap p s r = Some s' /\ Inv k cap s' /\ rsorted k (qscan k s (ACancel p r))
    /\ qscan k s (ACancel p r) = new ++ queue s' /\ granted s' = granted s ++ map rid new.
Proof.
  intros k cap s p r Hcap [HI HJ] Hadm. unfold cancel, qscan. simpl in Hadm.
  destruct (existsb (Nat.eqb r) (granted s)) eqn:Eg.
  - exists s, []. simpl. rewrite app_nil_r. split; [reflexivity|]. split; [split; assumption|].
    split; [destruct HI; assumption|]. split; reflexivity.
  - apply andb_true_iff in Hadm. destruct Hadm as [Hadm _]. simpl in Hadm. apply existsb_exists in Hadm. destruct Hadm as (x & Hx & E).
    apply andb_true_iff in E. destruct E as [E1 E2]. apply Nat.eqb_eq in E1, E2.
    assert (Hh : has_id r (queue s) = true) by (apply has_id_in; rewrite <- E1; apply in_map; exact Hx).
    rewrite Hh.
    assert (HI0 : QI k cap (set_queue s (remove_id r (queue s))) (remove_id r (queue s))).
    { destruct HI. constructor; simpl; try assumption.
      - apply nodup_remove_r; assumption.
      - apply nodup_remove_r; assumption.
      - intros y Hy. apply i_fresh0. apply in_app_or in Hy. apply in_or_app. destruct Hy as [Hy|Hy]; [left; exact Hy|right; eapply remove_id_in; exact Hy].
      - intros y Hy. apply i_qg0. eapply remove_id_in; exact Hy.
      - apply remove_id_sorted; assumption.
      - intros u h0 Hu Hh0 E. apply (i_uq0 u h0 Hu); [eapply remove_id_in; exact Hh0|exact E]. }
    assert (Hact : act_ok k (Some p) (set_queue s (remove_id r (queue s))) (remove_id r (queue s))).
    { intros _ u Hu Hp. simpl in Hu. exfalso. destruct HI.
      apply (nodup_app_neq rproc _ _ u x i_procs0 Hu Hx). congruence. }
    destruct (trigger_put_ok k cap (Some p) _ Hcap HI0 Hact) as (s' & new & Ht & Hq & HInv & Eg').
    exists s', new. split; [exact Ht|]. split; [exact HInv|]. split; [destruct HI0; assumption|].
    split; [exact Hq|exact Eg'].
Qed.

Lemma remove_ev_keeps_rel : forall e j l, (forall i, e <> ERel i) -> In (ERel j) l -> In (ERel j) (remove_ev e l).
Proof.
  intros e j l He; induction l as [|x t IH]; intros H; simpl in *; [exact H|].
  destruct (ev_eqb x e) eqn:E.
  - destruct H as [->|H]; [|exact H]. exfalso. destruct e; simpl in E; [discriminate|]. apply (He i); reflexivity.
  - destruct H as [->|H]; [left; reflexivity|right; apply IH; exact H].
Qed.

Lemma step_ok : forall k cap s a, 1 <= cap -> Inv k cap s -> adm s a = true ->
  exists s' new, step k cap s a = Some s' /\ Inv k cap s' /\ rsorted k (qscan k s a)
    /\ qscan k s a = new ++ queue s' /\ granted s' = granted s ++ map rid new.
Proof.
  intros k cap s a Hcap HInv Hadm. destruct a as [p prio pre|r|p r|p r|e|t|p].
  - (* request *)
    destruct HInv as [HI HJ]. simpl in Hadm.
    destruct (request_QI k cap s p prio pre HI Hadm) as [HI0 Hact].
    destruct (trigger_put_ok k cap (Some p) _ Hcap HI0 Hact) as (s' & new & Ht & Hq & HInv' & Eg).
    exists s', new. split; [exact Ht|]. split; [exact HInv'|]. split; [destruct HI0; assumption|]. split; [exact Hq|exact Eg].
  - (* release *)
    exists (release_state s r), []. simpl. rewrite app_nil_r.
    split; [apply release_eq; destruct HInv as [[] _]; assumption|]. split; [apply release_Inv; exact HInv|].
    split; [destruct HInv as [[] _]; assumption|]. split; reflexivity.
  - (* cancel *)
    destruct (cancel_ok k cap s p r Hcap HInv Hadm) as (s' & new & Hc & HInv' & Hs & Hq & Eg).
    exists s', new. split; [exact Hc|]. split; [exact HInv'|]. split; [exact Hs|]. split; [exact Hq|exact Eg].
  - (* with-exit = cancel; release *)
    destruct (cancel_ok k cap s p r Hcap HInv Hadm) as (s1 & new & Hc & HInv1 & Hs & Hq & Eg).
    exists (release_state s1 r), new. simpl. rewrite Hc.
    split; [apply release_eq; destruct HInv1 as [[] _]; assumption|]. split; [apply release_Inv; exact HInv1|].
    split; [exact Hs|]. split; [exact Hq|exact Eg].
  - (* the kernel processes an event *)
    simpl in Hadm. simpl. rewrite Hadm. destruct HInv as [HI HJ]. destruct e as [i|i].
    + exists (set_getq (set_pending s (remove_ev (EReq i) (pending s))) []), []. rewrite app_nil_r.
      split; [unfold trigger_get; simpl; destruct HI as [? Hg]; rewrite Hg; reflexivity|].
      split; [|split; [destruct HI; assumption|split; reflexivity]].
      split; simpl.
      * eapply QI_ext; [..|exact HI]; try reflexivity. simpl. destruct HI; auto.
      * intros Hlt Hne. destruct (HJ Hlt Hne) as (j & Hj). exists j. apply remove_ev_keeps_rel; [intros ? ?; discriminate|exact Hj].
    + assert (HI0 : QI k cap (set_pending s (remove_ev (ERel i) (pending s))) (queue (set_pending s (remove_ev (ERel i) (pending s))))).
      { simpl. eapply QI_ext; [..|exact HI]; reflexivity. }
      assert (Hact : act_ok k None (set_pending s (remove_ev (ERel i) (pending s))) (queue (set_pending s (remove_ev (ERel i) (pending s))))).
      { intros _; exact Logic.I. }
      destruct (trigger_put_ok k cap None _ Hcap HI0 Hact) as (s' & new & Ht & Hq & HInv' & Eg).
      exists s', new. split; [exact Ht|]. split; [exact HInv'|]. split; [destruct HI; assumption|]. split; [exact Hq|exact Eg].
  - (* the clock moves *)
    exists (set_now s t), []. simpl. rewrite app_nil_r. destruct HInv as [HI HJ].
    split; [reflexivity|]. split; [|split; [destruct HI; assumption|split; reflexivity]].
    simpl in Hadm. destruct (pending s); [|discriminate]. apply Z.ltb_lt in Hadm.
    split; simpl.
    + destruct HI. constructor; simpl; try assumption.
      intros x Hx. destruct (i_since0 x Hx) as (t0 & E & Hle). exists t0; split; [exact E|lia].
    + exact HJ.
  - (* a process ends *)
    exists (add_dead s p), []. simpl. rewrite app_nil_r. destruct HInv as [HI HJ].
    split; [reflexivity|]. split; [|split; [destruct HI; assumption|split; reflexivity]].
    split; simpl; [eapply QI_ext; [..|exact HI]; reflexivity|exact HJ].
Qed.

Lemma init_Inv : forall k cap t0, Inv k cap (init t0).
Proof.
  intros k cap t0. split.
  - constructor; simpl; try (intros ? []); try constructor; try lia; try reflexivity.
  - intros _ Hne. simpl in Hne. congruence.
Qed.

Lemma run_Inv : forall k cap, 1 <= cap -> forall acts s0 s, Inv k cap s0 -> run k cap s0 acts = Some s -> Inv k cap s.
Proof.
  intros k cap Hcap acts; induction acts as [|a t IH]; intros s0 s H0 Hr; simpl in Hr.
  - inversion Hr; subst; exact H0.
  - destruct (adm s0 a) eqn:Ea; [|discriminate].
    destruct (step_ok k cap s0 a Hcap H0 Ea) as (s1 & new & Hs & H1 & _). rewrite Hs in Hr. eapply IH; eassumption.
Qed.

Lemma reach_Inv : forall k cap t0 acts s, 1 <= cap -> run k cap (init t0) acts = Some s -> Inv k cap s.
Proof. intros k cap t0 acts s Hcap Hr. eapply run_Inv; [exact Hcap|apply init_Inv|exact Hr]. Qed.

Theorem users_le_capacity : forall k cap t0 acts s, 1 <= cap ->
  run k cap (init t0) acts = Some s -> length (users s) <= cap.
Proof. intros k cap t0 acts s Hcap Hr. destruct (reach_Inv k cap t0 acts s Hcap Hr) as [[] _]. assumption. Qed.

Theorem queue_sorted : forall k cap t0 acts s, 1 <= cap ->
  run k cap (init t0) acts = Some s -> StronglySorted (fun x y => rank_ltb k x y = true) (queue s).
Proof. intros k cap t0 acts s Hcap Hr. destruct (reach_Inv k cap t0 acts s Hcap Hr) as [[] _]. assumption. Qed.

Lemma pre_first_spec a b : (b2z (negb a) < b2z (negb b))%Z <-> a = true /\ b = false.
Proof. destruct a, b; cbn; intuition (discriminate || lia). Qed.
Lemma negb_eq_iff a b : negb a = negb b <-> a = b.
Proof. destruct a, b; cbn; split; congruence. Qed.

(* the sort key, then arrival: after the comparisons are turned into propositions the two sides differ only in how
   the cases are grouped *)
Lemma rank_key_spec x y :
  key_ltb (rkey x) (rkey y) || key_eqb (rkey x) (rkey y) && (rid x <? rid y) = true <->
  (rprio x < rprio y)%Z \/ (rprio x = rprio y /\
    ((rtime x < rtime y)%Z \/ (rtime x = rtime y /\
    ((rpre x = true /\ rpre y = false) \/ (rpre x = rpre y /\ rid x < rid y))))).
Proof.
  rewrite orb_true_iff, andb_true_iff, key_ltb_spec, key_eqb_eq, Nat.ltb_lt. unfold rkey, klt, key.
  rewrite !pair_equal_spec, pre_first_spec, negb_eq_iff. tauto.
Qed.

(* what the rank is: arrival order for Resource; (priority, time, preempting first, arrival) otherwise *)
Theorem rank_meaning : forall k x y, rank_ltb k x y = true <->
  match k with
  | KRes => rid x < rid y
  | _ => (rprio x < rprio y)%Z \/ (rprio x = rprio y /\
         ((rtime x < rtime y)%Z \/ (rtime x = rtime y /\
         ((rpre x = true /\ rpre y = false) \/ (rpre x = rpre y /\ rid x < rid y)))))
  end.
Proof. intros k x y. destruct k; simpl; [apply Nat.ltb_lt|apply rank_key_spec|apply rank_key_spec]. Qed.

(* every admissible action succeeds (nothing raises), and the requests it grants are a prefix of the queue *)
Theorem grant_is_head : forall k cap t0 acts s a, 1 <= cap ->
  run k cap (init t0) acts = Some s -> adm s a = true ->
  exists s' new, step k cap s a = Some s' /\ qscan k s a = new ++ queue s' /\ granted s' = granted s ++ map rid new.
Proof.
  intros k cap t0 acts s a Hcap Hr Hadm.
  destruct (step_ok k cap s a Hcap (reach_Inv k cap t0 acts s Hcap Hr) Hadm) as (s' & new & Hs & _ & _ & Hq & Hg).
  exists s', new. auto.
Qed.

Lemma sorted_app_lt : forall (R : req -> req -> Prop) l1 l2 x y, StronglySorted R (l1 ++ l2) -> In x l1 -> In y l2 -> R x y.
Proof. intros R l1 l2 x y H. apply sorted_app_iff in H. apply H. Qed.

(* a request granted by an action ranks before every request that is still waiting after it *)
Theorem no_overtaking : forall k cap t0 acts s a s', 1 <= cap ->
  run k cap (init t0) acts = Some s -> adm s a = true -> step k cap s a = Some s' ->
  forall x y, In x (qscan k s a) -> In (rid x) (granted s') -> In y (queue s') -> rank_ltb k x y = true.
Proof.
  intros k cap t0 acts s a s' Hcap Hr Hadm Hs x y Hx Hg Hy.
  destruct (step_ok k cap s a Hcap (reach_Inv k cap t0 acts s Hcap Hr) Hadm) as (s2 & new & Hs2 & HInv & Hsort & Hq & _).
  rewrite Hs in Hs2. inversion Hs2; subst s2. rewrite Hq in Hx, Hsort. apply in_app_or in Hx. destruct Hx as [Hx|Hx].
  - exact (sorted_app_lt _ _ _ _ _ Hsort Hx Hy).
  - exfalso. destruct HInv as [[] _]. exact (i_qg0 x Hx Hg).
Qed.

Theorem free_slot_has_release : forall k cap t0 acts s, 1 <= cap -> run k cap (init t0) acts = Some s ->
  length (users s) < cap -> queue s <> [] -> exists i, In (ERel i) (pending s).
Proof. intros k cap t0 acts s Hcap Hr. destruct (reach_Inv k cap t0 acts s Hcap Hr) as [_ HJ]. exact HJ. Qed.

Theorem no_idle_slot_at_advance : forall k cap t0 acts s t, 1 <= cap -> run k cap (init t0) acts = Some s ->
  adm s (AAdvance t) = true -> queue s <> [] -> length (users s) = cap.
Proof.
  intros k cap t0 acts s t Hcap Hr Hadm Hne.
  pose proof (users_le_capacity k cap t0 acts s Hcap Hr) as Hle.
  destruct (Nat.eq_dec (length (users s)) cap) as [E|E]; [exact E|exfalso].
  assert (Hlt : length (users s) < cap) by lia.
  destruct (free_slot_has_release k cap t0 acts s Hcap Hr Hlt Hne) as (i & Hi).
  simpl in Hadm. destruct (pending s); [destruct Hi|discriminate].
Qed.

Definition released (s : state) : state :=
  mkState (users s) (queue s) (getq s) (pending s ++ [ERel (next_id s)]) (granted s) (intrs s) (dead s) (S (next_id s)) (now s).

Lemma release_nonuser : forall k cap s r, Inv k cap s -> ~ In r (map rid (users s)) ->
  step k cap s (ARelease r) = Some (released s).
Proof.
  intros k cap s r [HI _] Hn. simpl. destruct HI. rewrite (release_eq s r i_getq0).
  unfold release_state, released. rewrite (remove_id_notin r (users s) Hn), i_getq0. reflexivity.
Qed.

(* releasing a request that is not a user changes nothing but adds one (harmless) triggered Release event *)
Theorem release_idempotent : forall k cap t0 acts s r, 1 <= cap -> run k cap (init t0) acts = Some s ->
  ~ In r (map rid (users s)) -> step k cap s (ARelease r) = Some (released s).
Proof. intros k cap t0 acts s r Hcap Hr. apply release_nonuser. exact (reach_Inv k cap t0 acts s Hcap Hr). Qed.

Lemma remove_id_gone : forall i l, NoDup (map rid l) -> ~ In i (map rid (remove_id i l)).
Proof.
  intros i l H. destruct (remove_id_cases i l) as [[Hn ->]|(l1 & y & l2 & -> & <- & Hn & ->)]; [exact Hn|].
  rewrite map_app in *. apply NoDup_remove_2 in H. exact H.
Qed.

(* ... in particular releasing twice *)
Theorem release_twice : forall k cap t0 acts s r s1, 1 <= cap -> run k cap (init t0) acts = Some s ->
  step k cap s (ARelease r) = Some s1 -> step k cap s1 (ARelease r) = Some (released s1).
Proof.
  intros k cap t0 acts s r s1 Hcap Hr Hs.
  pose proof (reach_Inv k cap t0 acts s Hcap Hr) as HInv.
  assert (E : s1 = release_state s r).
  { simpl in Hs. destruct HInv as [[] _]. rewrite (release_eq s r i_getq0) in Hs. inversion Hs; reflexivity. }
  subst s1. apply release_nonuser; [apply release_Inv; exact HInv|].
  simpl. apply remove_id_gone. destruct HInv as [[] _]. rewrite map_app in i_ids0.
  clear - i_ids0. induction (map rid (users s)) as [|a l IH]; simpl in *; [constructor|].
  inversion i_ids0; subst. constructor; [intros Hc; apply H1; apply in_or_app; left; exact Hc|apply IH; assumption].
Qed.


Definition preempted_state (s : state) (l1 l2 : list req) (w e : req) : state :=
  mkState ((l1 ++ l2) ++ [grant (now s) e]) (queue s) (getq s) (pending s ++ [EReq (rid e)]) (granted s ++ [rid e])
          (intrs s ++ [mkIntr w e (negb (is_dead s (rproc w)))]) (dead s) (next_id s) (now s).

(* One call of PreemptiveResource._do_put, exactly.  With a free slot: plain grant.  Full: let w be the LAST
   user of maximal key (users = l1 ++ w :: l2, nothing in l1 above w, everything in l2 strictly below);
   w is evicted -- removed from users, its process interrupted with Preempted(by = e's process,
   usage_since = w's, this resource) -- and e gets the slot in the same call IF AND ONLY IF e has
   preempt=True and w's key is strictly larger than e's key; otherwise nothing changes at all. *)
Theorem preempt_call : forall cap act s e, 1 <= cap -> length (users s) <= cap -> NoDup (map rid (users s)) ->
  (forall p, act = Some p -> forall u, In u (users s) -> rproc u <> p) ->
  if length (users s) <? cap then do_put KPreempt cap act s e = Some (grant_state s e, true, true)
  else exists w l1 l2, users s = l1 ++ w :: l2
       /\ (forall x, In x l1 -> key_ltb (rkey w) (rkey x) = false)
       /\ (forall x, In x l2 -> key_ltb (rkey x) (rkey w) = true)
       /\ do_put KPreempt cap act s e =
            if rpre e && key_ltb (rkey e) (rkey w) then Some (preempted_state s l1 l2 w e, true, true)
            else Some (s, false, false).
Proof.
  intros cap act s e Hcap Hle Hnd Hact. unfold do_put. rewrite preempt_do_put_spec; [|exact Hcap|].
  2:{ intros p u Ep Hu Hp. exfalso. exact (Hact p Ep u Hu Hp). }
  unfold evicts. destruct (length (users s) <? cap) eqn:E.
  - pose proof E as E2. apply Nat.ltb_lt, Nat.leb_gt in E2. rewrite E2. cbn [andb].
    rewrite res_do_put_eq, E. destruct (worst (users s)); reflexivity.
  - apply Nat.ltb_ge in E. assert (Elen : length (users s) = cap) by lia.
    destruct (worst (users s)) as [w|] eqn:Ew.
    2:{ apply worst_none in Ew. rewrite Ew in Elen. simpl in Elen. lia. }
    pose proof Ew as Ew'. rewrite worst_lastmax in Ew'. apply lastmax_spec in Ew'. destruct Ew' as (l1 & l2 & Hu & H1 & H2).
    exists w, l1, l2. split; [exact Hu|]. split; [exact H1|]. split; [exact H2|].
    replace (cap <=? length (users s)) with true by (symmetry; apply Nat.leb_le; exact E). cbn [andb].
    rewrite res_do_put_eq. destruct (rpre e && key_ltb (rkey e) (rkey w)).
    + (* w leaves users = l1 ++ w :: l2, which frees the slot e takes *)
      assert (Hrem : remove_id (rid w) (users s) = l1 ++ l2).
      { rewrite Hu. apply remove_id_split. rewrite Hu, map_app in Hnd. simpl in Hnd.
        apply NoDup_remove_2 in Hnd. intros Hc; apply Hnd; apply in_or_app; left; exact Hc. }
      replace (length (users (evict_state s w e (negb (is_dead s (rproc w))))) <? cap) with true.
      * unfold grant_state, evict_state, preempted_state. simpl. rewrite Hrem. reflexivity.
      * symmetry. apply Nat.ltb_lt. simpl. rewrite Hrem. rewrite Hu in Elen. rewrite app_length in *. simpl in Elen. lia.
    + replace (length (users s) <? cap) with false by (symmetry; apply Nat.ltb_ge; exact E). reflexivity.
Qed.

Lemma trigger_put_single : forall k cap act s0 e, queue s0 = [e] ->
  trigger_put k cap act s0 =
    match do_put k cap act s0 e with
    | None => None
    | Some (s', tr, pr) => if tr then Some (set_queue s' []) else Some (set_queue s' [e])
    end.
Proof.
  intros k cap act s0 e H. unfold trigger_put. rewrite H. simpl.
  destruct (do_put k cap act s0 e) as [[[s' tr] pr]|]; [destruct tr, pr; reflexivity|reflexivity].
Qed.

(* the same at the level of a request() call on a resource nobody waits for *)
Theorem preempt_request : forall cap t0 acts s p prio pre, 1 <= cap ->
  run KPreempt cap (init t0) acts = Some s -> adm s (ARequest p prio pre) = true -> queue s = [] ->
  let e := new_req s p prio pre in
  if length (users s) <? cap then
    step KPreempt cap s (ARequest p prio pre) =
      Some (mkState (users s ++ [grant (now s) e]) [] [] (pending s ++ [EReq (next_id s)]) (granted s ++ [next_id s])
                    (intrs s) (dead s) (S (next_id s)) (now s))
  else exists w l1 l2, users s = l1 ++ w :: l2
       /\ (forall x, In x l1 -> key_ltb (rkey w) (rkey x) = false)
       /\ (forall x, In x l2 -> key_ltb (rkey x) (rkey w) = true)
       /\ step KPreempt cap s (ARequest p prio pre) =
            if pre && key_ltb (rkey e) (rkey w)
            then Some (mkState ((l1 ++ l2) ++ [grant (now s) e]) [] [] (pending s ++ [EReq (next_id s)])
                               (granted s ++ [next_id s]) (intrs s ++ [mkIntr w e (negb (is_dead s (rproc w)))])
                               (dead s) (S (next_id s)) (now s))
            else Some (mkState (users s) [e] [] (pending s) (granted s) (intrs s) (dead s) (S (next_id s)) (now s)).
Proof.
  intros cap t0 acts s p prio pre Hcap Hr Hadm Hq e.
  destruct (reach_Inv KPreempt cap t0 acts s Hcap Hr) as [HI _]. destruct HI.
  rewrite Hq, app_nil_r in *.
  set (s0 := bump_id (set_queue s [e])).
  assert (Hstep : step KPreempt cap s (ARequest p prio pre) =
     match do_put KPreempt cap (Some p) s0 e with
     | None => None
     | Some (s', tr, pr) => if tr then Some (set_queue s' []) else Some (set_queue s' [e])
     end).
  { change (step KPreempt cap s (ARequest p prio pre)) with
      (trigger_put KPreempt cap (Some p) (bump_id (set_queue s (enqueue KPreempt (queue s) e)))).
    rewrite Hq. change (enqueue KPreempt [] e) with [e]. fold s0.
    apply trigger_put_single. reflexivity. }
  assert (Hcall := preempt_call cap (Some p) s0 e Hcap).
  change (users s0) with (users s) in Hcall. specialize (Hcall i_cap0 i_ids0).
  assert (Hnp : forall p0, Some p = Some p0 -> forall u, In u (users s) -> rproc u <> p0).
  { intros p0 E u Hu. inversion E; subst p0. simpl in Hadm. rewrite Hq, app_nil_r in Hadm.
    apply andb_true_iff in Hadm. destruct Hadm as [Hadm _]. rewrite forallb_forall in Hadm. specialize (Hadm u Hu). apply negb_true_iff, Nat.eqb_neq in Hadm. exact Hadm. }
  specialize (Hcall Hnp). rewrite Hstep.
  destruct (length (users s) <? cap).
  - rewrite Hcall. unfold set_queue, grant_state, s0, bump_id; simpl. rewrite i_getq0. reflexivity.
  - destruct Hcall as (w & l1 & l2 & Hu & H1 & H2 & Hd). exists w, l1, l2.
    split; [exact Hu|]. split; [exact H1|]. split; [exact H2|]. rewrite Hd.
    change (rpre e) with pre.
    destruct (pre && key_ltb (rkey e) (rkey w)); unfold set_queue, preempted_state, s0, bump_id; simpl; rewrite i_getq0; reflexivity.
Qed.

Lemma sorted_mid : forall (R : req -> req -> Prop) l1 x l2 y, StronglySorted R (l1 ++ x :: l2) -> In y l2 -> R x y.
Proof.
  intros R l1 x l2 y H Hy. apply sorted_app_iff in H as (_ & H & _). apply StronglySorted_inv in H as [_ H].
  rewrite Forall_forall in H. apply H, Hy.
Qed.
Lemma sorted_pre : forall (R : req -> req -> Prop) l1 x l2 y, StronglySorted R (l1 ++ x :: l2) -> In y l1 -> R y x.
Proof.
  intros R l1 x l2 y H Hy. apply (sorted_app_lt R l1 (x :: l2) y x H Hy). left; reflexivity.
Qed.

(* the user that a preempting request evicts -- the last one of maximal key in users -- is the worst-ranked
   current user under the full rank (priority, time, preempting first, arrival): every other user ranks before it *)
Theorem victim_is_worst_ranked : forall cap t0 acts s w u, 1 <= cap -> run KPreempt cap (init t0) acts = Some s ->
  worst (users s) = Some w -> In u (users s) -> u = w \/ rank_ltb KPreempt u w = true.
Proof.
  intros cap t0 acts s w u Hcap Hr Hw Hu.
  destruct (reach_Inv KPreempt cap t0 acts s Hcap Hr) as [HI _]. destruct HI.
  rewrite worst_lastmax in Hw. apply lastmax_spec in Hw. destruct Hw as (l1 & l2 & E & H1 & H2).
  rewrite E in Hu. apply in_app_or in Hu. destruct Hu as [Hu|[Hu|Hu]].
  - right. unfold rank_ltb. destruct (key_ltb (rkey u) (rkey w)) eqn:Elt; [reflexivity|].
    assert (Ek : rkey u = rkey w) by (apply key_total; [exact Elt|apply H1; exact Hu]).
    rewrite Ek, key_eqb_refl. simpl. apply Nat.ltb_lt.
    rewrite E in i_uu0. exact (sorted_pre _ l1 w l2 u i_uu0 Hu Ek).
  - left; symmetry; exact Hu.
  - right. unfold rank_ltb. rewrite (H2 u Hu). reflexivity.
Qed.

(* over every history: whoever was evicted ranked strictly worse than the preempting request that took the slot *)
Theorem evictions_strict : forall k cap t0 acts s i, 1 <= cap -> run k cap (init t0) acts = Some s ->
  In i (intrs s) -> key_ltb (rkey (iby i)) (rkey (ivictim i)) = true /\ rpre (iby i) = true.
Proof. intros k cap t0 acts s i Hcap Hr. destruct (reach_Inv k cap t0 acts s Hcap Hr) as [[] _]. apply i_strict0. Qed.

Theorem only_preemptive_evicts : forall k cap t0 acts s, 1 <= cap -> k <> KPreempt ->
  run k cap (init t0) acts = Some s -> intrs s = [].
Proof. intros k cap t0 acts s Hcap Hk Hr. destruct (reach_Inv k cap t0 acts s Hcap Hr) as [[] _]. apply i_nointr0; exact Hk. Qed.

(* every user carries the time of its grant (the usage_since an eviction will report) *)
Theorem users_have_usage_since : forall k cap t0 acts s u, 1 <= cap -> run k cap (init t0) acts = Some s ->
  In u (users s) -> exists t, rsince u = Some t /\ (t <= now s)%Z.
Proof. intros k cap t0 acts s u Hcap Hr. destruct (reach_Inv k cap t0 acts s Hcap Hr) as [[] _]. apply i_since0. Qed.
(* the hypotheses are satisfiable: a history with waiting, a cancel that lets the next request
   preempt, a double release, a release of a non-user, coinciding operations *)

Definition ex_acts : list action :=
  [ ARequest 0 5 false; AProcess (EReq 0); AAdvance 1;
    ARequest 1 0 false; ARequest 2 1 true; AAdvance 2;
    ACancel 1 1;                              (* the head leaves: request 2 is first now and evicts request 0 *)
    AProcess (EReq 2); ARequest 3 1 true; ARequest 4 0 true;      (* request 4 outranks user 2 and evicts it *)
    ARelease 2; ARelease 2; ARelease 7;
    AProcess (ERel 5); AProcess (EReq 4); AProcess (ERel 6); AProcess (ERel 7); AAdvance 3 ].

Example ex_history : exists s, run KPreempt 1 (init 0) ex_acts = Some s
  /\ map rid (users s) = [4] /\ map rid (queue s) = [3] /\ map intr_fields (intrs s) = [(0, 2, Some 0%Z); (2, 4, Some 2%Z)]
  /\ pending s = [] /\ now s = 3%Z.
Proof. eexists. split; [vm_compute; reflexivity|]. repeat split. Qed.

(* the state before the last action of ex_acts admits the clock advance, has a waiter, and is full *)
Example ex_advance : exists s, run KPreempt 1 (init 0) (removelast ex_acts) = Some s
  /\ adm s (AAdvance 3) = true /\ queue s <> [] /\ length (users s) = 1.
Proof. eexists. split; [vm_compute; reflexivity|]. repeat split. discriminate. Qed.

(* a state where preempt_request applies in its evicting branch *)
Example ex_preempt : exists s, run KPreempt 1 (init 0) [ARequest 0 5 false] = Some s
  /\ adm s (ARequest 1 1 true) = true /\ queue s = [] /\ (length (users s) <? 1) = false.
Proof. eexists. split; [vm_compute; reflexivity|]. repeat split. Qed.

(* the holder's process ends without releasing; a preempting request takes the slot over, nobody is notified *)
Example ex_dead_holder : exists s, run KPreempt 1 (init 0) [ARequest 0 3 true; AEnd 0; ARequest 1 0 true] = Some s
  /\ map rid (users s) = [1] /\ queue s = [] /\ map inotified (intrs s) = [false].
Proof. eexists. split; [vm_compute; reflexivity|]. repeat split. Qed.

Example ex_fifo : exists s, run KRes 2 (init 0)
    [ARequest 0 0 true; ARequest 1 0 true; ARequest 2 0 true; ARequest 3 0 true; ARelease 0; AProcess (ERel 4)] = Some s
  /\ map rid (users s) = [1; 2] /\ map rid (queue s) = [3].
Proof. eexists. split; [vm_compute; reflexivity|]. repeat split. Qed.
