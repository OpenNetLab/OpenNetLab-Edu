(* Bridging lemma (DESIGN 2.6, second tie) for FilterStore._do_get: ONE iteration of `for i, item in enumerate(self.items)`
   (and the `return True` behind the loop) as translated from the tree under test on every run (Gen/Extracted_filterget.v)
   is RUN here on a concrete item list with the request's filter as a function; with fuel 1 + len(items) the run is
   [f_do_get] of the hand-written model (Res/ContainerStore.v): the FIRST matching item is handed out and deleted at ITS
   position, the method always returns True. *)
From Coq Require Import ZArith QArith List Bool Lia.
From ONL Require Import Res.Heap Res.ContainerStore Gen.Extracted_filterget Res.ScanBridge.
Import ListNotations.

Section F.
  Variable A : Type.
  Variable flt : A -> bool.

  Fixpoint run_filter (fuel : nat) (items : list A) (r : fget_st) : option (dores (list A) A) :=
    match fuel with
    | O => None
    | S fu =>
        let i := Z.to_nat (f_i r) in
        let m := match nth_error items i with Some x => flt x | None => false end in
        let '(r', fx) := gen_FilterStore_do_get_iter r (Z.of_nat (length items)) m in
        match fx with
        | [FxReturnTrue] => Some (mkres items None true)
        | [FxDelAt j; FxSucceedItem; FxReturnTrue] =>
            match nth_error items i with
            | Some x => Some (mkres (remove_nth (Z.to_nat j) items) (Some x) true)
            | None => None
            end
        | [FxLoopAgain] => run_filter fu items r'
        | _ => None
        end
    end.


  Lemma run_filter_spec rest : forall pre,
    run_filter (S (length rest)) (pre ++ rest) {| f_i := Z.of_nat (length pre) |} =
    Some (match take_first flt rest with
          | Some (x, r) => mkres (pre ++ r) (Some x) true
          | None => mkres (pre ++ rest) None true
          end).
  Proof.
    induction rest as [|x t IH]; intros pre.
    - cbn [run_filter length f_i take_first]. rewrite Nat2Z.id, app_nil_r.
      unfold gen_FilterStore_do_get_iter. cbn [f_i].
      destruct (Z.ltb_spec (Z.of_nat (length pre)) (Z.of_nat (length pre))); [lia|reflexivity].
    - cbn [run_filter f_i take_first]. rewrite Nat2Z.id, nth_pre.
      unfold gen_FilterStore_do_get_iter. cbn [f_i]. rewrite app_length. cbn [length].
      destruct (Z.ltb_spec (Z.of_nat (length pre)) (Z.of_nat (length pre + S (length t)))); [|lia].
      destruct (flt x) eqn:EF.
      + rewrite Nat2Z.id, remove_pre. reflexivity.
      + replace (Z.of_nat (length pre) + 1)%Z with (Z.of_nat (length (pre ++ [x]))) by (rewrite app_length; cbn; lia).
        replace (pre ++ x :: t) with ((pre ++ [x]) ++ t) by (rewrite <- app_assoc; reflexivity).
        rewrite IH. destruct (take_first flt t) as [[y r]|]; rewrite <- ?app_assoc; reflexivity.
  Qed.

  Lemma bridge_filter_do_get items :
    run_filter (S (length items)) items {| f_i := 0 |} = Some (f_do_get A items flt).
  Proof.
    pose proof (run_filter_spec items []) as H. cbn [app length Z.of_nat] in H. rewrite H. unfold f_do_get.
    destruct (take_first flt items) as [[x r]|]; reflexivity.
  Qed.
End F.
