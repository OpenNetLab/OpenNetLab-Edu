(* Proofs about the generic part of Res/ContainerStore.v (BaseResource: queues, scans, cancel,
   event processing), for every kind of resource whose _do_put/_do_get satisfy a few laws, and for
   every admissible action list. *)
From Coq Require Import ZArith QArith List Bool Arith Lia Sorted Permutation.
From ONL Require Import Res.Heap Res.ContainerStore Res.ListFacts.
Import ListNotations.
Local Open Scope nat_scope.

(* event.triggered after the call: succeed() was called *)
Definition issome {X : Type} (o : option X) : bool := match o with Some _ => true | None => false end.
Section ScanLemmas.
  Context {C P V : Type}.
  Variable doit : C -> P -> dores C V.

  (* a request that is not triggered leaves the content alone *)
  Definition nonesame : Prop := forall c p, r_val (doit c p) = None -> r_c (doit c p) = c.
  (* the method returns True exactly when it triggered the event (Container, Store, PriorityStore; all puts) *)
  Definition blocking : Prop := forall c p, r_proceed (doit c p) = issome (r_val (doit c p)).
  (* the method always returns True (FilterStore._do_get) *)
  Definition nonblocking : Prop := forall c p, r_proceed (doit c p) = true.
  (* serving somebody else never makes an unsatisfiable request satisfiable *)
  Definition antimono : Prop :=
    forall c p p', r_val (doit c p) = None -> r_val (doit (r_c (doit c p')) p) = None.

  (* the graph of [scan]: one constructor for each way an iteration of the loop can end *)
  Inductive scanR : C -> list (nat * P) -> C -> list (nat * P) -> list (nat * P * V) -> Prop :=
  | scan_end c : scanR c [] c [] []
  | scan_grant c r t v c' rem gs :
      r_val (doit c (snd r)) = Some v -> r_proceed (doit c (snd r)) = true ->
      scanR (r_c (doit c (snd r))) t c' rem gs -> scanR c (r :: t) c' rem ((r, v) :: gs)
  | scan_grant_break c r t v :
      r_val (doit c (snd r)) = Some v -> r_proceed (doit c (snd r)) = false ->
      scanR c (r :: t) (r_c (doit c (snd r))) t [(r, v)]
  | scan_skip c r t c' rem gs :
      r_val (doit c (snd r)) = None -> r_proceed (doit c (snd r)) = true ->
      scanR (r_c (doit c (snd r))) t c' rem gs -> scanR c (r :: t) c' (r :: rem) gs
  | scan_break c r t :
      r_val (doit c (snd r)) = None -> r_proceed (doit c (snd r)) = false ->
      scanR c (r :: t) (r_c (doit c (snd r))) (r :: t) [].

  Lemma scan_scanR q : forall c c' rem gs, scan doit c q = (c', rem, gs) -> scanR c q c' rem gs.
  Proof.
    induction q as [|r t IH]; intros c c' rem gs H; cbn [scan] in H.
    - injection H as <- <- <-. constructor.
    - destruct (r_val (doit c (snd r))) as [v|] eqn:Ev; destruct (r_proceed (doit c (snd r))) eqn:Ep.
      + destruct (scan doit (r_c (doit c (snd r))) t) as [[c1 rem1] gs1] eqn:Es.
        injection H as <- <- <-. apply scan_grant; auto.
      + injection H as <- <- <-. apply scan_grant_break; auto.
      + destruct (scan doit (r_c (doit c (snd r))) t) as [[c1 rem1] gs1] eqn:Es.
        injection H as <- <- <-. apply scan_skip; auto.
      + injection H as <- <- <-. apply scan_break; auto.
  Qed.

  Lemma scan_perm c q c' rem gs : scanR c q c' rem gs -> Permutation q (map fst gs ++ rem).
  Proof.
    induction 1; cbn [map fst app].
    - constructor.
    - constructor. assumption.
    - reflexivity.
    - apply Permutation_cons_app. assumption.
    - reflexivity.
  Qed.

  Lemma scan_Forall (F : nat * P -> Prop) c q c' rem gs :
    scanR c q c' rem gs -> Forall F q -> Forall F rem /\ Forall F (map fst gs).
  Proof.
    intros H Fq. apply scan_perm in H. apply (Permutation_Forall H), Forall_app in Fq. tauto.
  Qed.

  (* what is left is a subsequence of the queue; what is granted too *)
  Lemma scan_sorted c q c' rem gs :
    scanR c q c' rem gs -> StronglySorted lt (ids q) ->
    StronglySorted lt (ids rem) /\ StronglySorted lt (ids (map fst gs)).
  Proof.
    unfold ids. induction 1 as [c|c r t v c' rem gs _ _ H IH|c r t v _ _|c r t c' rem gs _ _ H IH|c r t _ _];
      cbn [map fst]; intros Hs.
    - split; constructor.
    - apply StronglySorted_inv in Hs as [Hs Hr]. rewrite Forall_map in Hr.
      destruct (scan_Forall _ _ _ _ _ _ H Hr) as [_ Hg]. destruct (IH Hs) as [H1 H2].
      split; [exact H1|]. constructor; [exact H2|]. rewrite Forall_map. exact Hg.
    - apply StronglySorted_inv in Hs as [Hs _]. split; [exact Hs|repeat constructor].
    - apply StronglySorted_inv in Hs as [Hs Hr]. rewrite Forall_map in Hr.
      destruct (scan_Forall _ _ _ _ _ _ H Hr) as [Hm _]. destruct (IH Hs) as [H1 H2].
      split; [|exact H2]. constructor; [exact H1|]. rewrite Forall_map. exact Hm.
    - split; [exact Hs|constructor].
  Qed.

  Lemma scan_nogrant : nonesame -> forall c q c' rem, scanR c q c' rem [] -> c' = c /\ rem = q.
  Proof.
    intros Hn c q c' rem H. remember [] as gs eqn:E.
    induction H as [c| | |c r t c' rem gs Ev _ _ IH|c r t Ev _]; try discriminate.
    - auto.
    - destruct (IH E) as [-> ->]. rewrite (Hn _ _ Ev). auto.
    - rewrite (Hn _ _ Ev). auto.
  Qed.

  (* blocking scans grant a prefix of the queue, in order, and stop in front of a request that
     cannot be granted *)
  Lemma scan_blocking : nonesame -> blocking -> forall c q c' rem gs,
    scanR c q c' rem gs ->
    q = map fst gs ++ rem /\
    match rem with [] => True | r :: _ => r_val (doit c' (snd r)) = None end.
  Proof.
    intros Hn Hb. induction 1 as [c|c r t v c' rem gs _ _ _ IH|c r t v Ev Ep|c r t c' rem gs Ev Ep _ _|c r t Ev _].
    - auto.
    - destruct IH as [-> H2]. auto.
    - rewrite Hb, Ev in Ep. discriminate.
    - rewrite Hb, Ev in Ep. discriminate.
    - rewrite (Hn _ _ Ev). auto.
  Qed.

  Lemma scan_keeps_none : nonesame -> antimono -> forall c q c' rem gs p,
    scanR c q c' rem gs -> r_val (doit c p) = None -> r_val (doit c' p) = None.
  Proof. intros Hn Ha c q c' rem gs p. induction 1; auto. Qed.

  (* a scan that never breaks leaves only requests that cannot be granted *)
  Lemma scan_nonblocking : nonesame -> nonblocking -> antimono -> forall c q c' rem gs,
    scanR c q c' rem gs -> forall r, In r rem -> r_val (doit c' (snd r)) = None.
  Proof.
    intros Hn Hb Ha. induction 1 as [c|c r t v c' rem gs _ _ _ IH|c r t v _ Ep|c r t c' rem gs Ev _ H IH|c r t _ Ep];
      intros x Hx; try (rewrite Hb in Ep; discriminate).
    - destruct Hx.
    - auto.
    - destruct Hx as [<-|Hx]; [|auto]. rewrite (Hn _ _ Ev) in H. eapply scan_keeps_none; eauto.
  Qed.

  Lemma scan_preserves (Pp : P -> Prop) (Q : C -> Prop) :
    (forall c p, Pp p -> Q c -> Q (r_c (doit c p))) ->
    forall c q c' rem gs, scanR c q c' rem gs -> Forall (fun r => Pp (snd r)) q -> Q c -> Q c'.
  Proof. intros HQ. induction 1; intros F Hc; [exact Hc|inversion F; subst; auto ..]. Qed.

  Lemma scan_content : forall (Q : C -> Prop), (forall c p, Q c -> Q (r_c (doit c p))) ->
    forall q c c' rem gs, scan doit c q = (c', rem, gs) -> Q c -> Q c'.
  Proof.
    intros Q HQ q c c' rem gs H. apply scan_scanR in H.
    apply (scan_preserves (fun _ => True) Q (fun c p _ => HQ c p) _ _ _ _ _ H), Forall_forall. trivial.
  Qed.

  (* the grants of one scan, as a chain of successful calls from c to c' *)
  Inductive chain : C -> list (nat * P * V) -> C -> Prop :=
  | chain_nil c : chain c [] c
  | chain_cons c r v l c' :
      r_val (doit c (snd r)) = Some v -> chain (r_c (doit c (snd r))) l c' -> chain c ((r, v) :: l) c'.

  Lemma scan_chain : nonesame -> forall c q c' rem gs, scanR c q c' rem gs -> chain c gs c'.
  Proof.
    intros Hn. induction 1 as [c|c r t v c' rem gs Ev _ _ IH|c r t v Ev _|c r t c' rem gs Ev _ _ IH|c r t Ev _].
    - constructor.
    - constructor; assumption.
    - constructor; [assumption|constructor].
    - rewrite (Hn _ _ Ev) in IH. exact IH.
    - rewrite (Hn _ _ Ev). constructor.
  Qed.

  (* refinement for scans that do not break: every request left behind saw, when the scan visited it,
     a content from which the final one is reached by serving later requests only *)
  Lemma scan_nonblocking_older : nonesame -> nonblocking -> forall c q c' rem gs,
    scanR c q c' rem gs -> StronglySorted lt (ids q) ->
    forall r, In r rem ->
    exists cr g1 g2, gs = g1 ++ g2 /\ chain c g1 cr /\ chain cr g2 c' /\ r_val (doit cr (snd r)) = None /\
                     Forall (fun g => fst (fst g) < fst r) g1 /\ Forall (fun g => fst r < fst (fst g)) g2.
  Proof.
    intros Hn Hb. unfold ids.
    induction 1 as [c|c r t v c' rem gs Ev _ H IH|c r t v _ Ep|c r t c' rem gs Ev _ H IH|c r t _ Ep];
      cbn [map]; intros Hs x Hx; try (rewrite Hb in Ep; discriminate).
    - destruct Hx.
    - (* r is granted before x is visited *)
      apply StronglySorted_inv in Hs as [Hs Hr]. rewrite Forall_map in Hr.
      destruct (IH Hs x Hx) as (cr & g1 & g2 & -> & Hc1 & Hc2 & Hv & F1 & F2).
      destruct (scan_Forall _ _ _ _ _ _ H Hr) as [Hm _]. rewrite Forall_forall in Hm.
      exists cr, ((r, v) :: g1), g2. split; [reflexivity|]. split; [constructor; assumption|].
      split; [exact Hc2|]. split; [exact Hv|]. split; [|exact F2]. constructor; [apply Hm, Hx|exact F1].
    - apply StronglySorted_inv in Hs as [Hs Hr]. rewrite Forall_map in Hr. rewrite (Hn _ _ Ev) in H, IH.
      destruct Hx as [<-|Hx]; [|exact (IH Hs x Hx)].
      (* r itself: nothing was granted before it in this call, everything granted comes later in the queue *)
      destruct (scan_Forall _ _ _ _ _ _ H Hr) as [_ Hg]. rewrite Forall_map in Hg.
      exists c, [], gs. split; [reflexivity|]. split; [constructor|]. split; [apply (scan_chain Hn _ _ _ _ _ H)|].
      split; [exact Ev|]. split; [constructor|exact Hg].
  Qed.
End ScanLemmas.

(* lists of increasing ids *)
Lemma nodup_app_disj (l1 l2 : list nat) x : NoDup (l1 ++ l2) -> In x l1 -> In x l2 -> False.
Proof.
  induction l1 as [|a t IH]; cbn [app]; intros H H1 H2; [destruct H1|].
  inversion H as [|? ? Hna Hnt]; subst. destruct H1 as [->|H1]; [apply Hna, in_or_app; auto|auto].
Qed.

Lemma ss_snoc (l : list nat) n :
  StronglySorted lt l -> Forall (fun i => i < n) l -> StronglySorted lt (l ++ [n]).
Proof. intros H F. apply sorted_snoc; [exact H|]. apply Forall_forall, F. Qed.

Lemma ss_app_l (l1 l2 : list nat) : StronglySorted lt (l1 ++ l2) -> StronglySorted lt l1.
Proof. intros H. apply sorted_app_iff in H. apply H. Qed.

Lemma ss_app_r (l1 l2 : list nat) : StronglySorted lt (l1 ++ l2) -> StronglySorted lt l2.
Proof. intros H. apply sorted_app_iff in H. apply H. Qed.

Lemma ss_nodup (l : list nat) : StronglySorted lt l -> NoDup l.
Proof.
  induction l as [|a t IH]; intros H; [constructor|].
  apply StronglySorted_inv in H as [H Ha]. constructor; [|auto].
  intros Hin. rewrite Forall_forall in Ha. specialize (Ha a Hin). lia.
Qed.

Lemma perm_drop (F : nat -> Prop) l x l' :
  Permutation l (x :: l') -> Forall F l /\ NoDup l -> Forall F l' /\ NoDup l'.
Proof.
  intros Hp [Hf Hn]. apply (Permutation_Forall Hp) in Hf. apply (Permutation_NoDup Hp) in Hn.
  inversion Hf; inversion Hn; auto.
Qed.

Section QueueOps.
  Context {P : Type}.

  Lemma mem_id_in i (q : list (nat * P)) : mem_id i q = true <-> In i (ids q).
  Proof.
    unfold ids. induction q as [|r t IH]; cbn [mem_id map In]; [split; [discriminate|tauto]|].
    rewrite orb_true_iff, Nat.eqb_eq, IH. tauto.
  Qed.

  Lemma remove_id_split i (q : list (nat * P)) :
    mem_id i q = true ->
    exists a r b, q = a ++ r :: b /\ fst r = i /\ remove_id i q = a ++ b /\ ~ In i (ids a).
  Proof.
    induction q as [|r t IH]; cbn [mem_id remove_id]; [discriminate|].
    destruct (Nat.eqb (fst r) i) eqn:E.
    - intros _. apply Nat.eqb_eq in E. exists [], r, t. cbn. auto.
    - cbn [orb]. intros H. destruct (IH H) as (a & x & b & -> & Hx & -> & Hn).
      exists (r :: a), x, b. repeat split; auto. cbn [ids map In]. apply Nat.eqb_neq in E.
      intros [Hr|Hr]; [auto|apply Hn, Hr].
  Qed.

  Lemma remove_id_perm i (q : list (nat * P)) : mem_id i q = true -> Permutation (ids q) (i :: ids (remove_id i q)).
  Proof.
    intros H. destruct (remove_id_split i q H) as (a & r & b & -> & <- & -> & _).
    unfold ids. rewrite !map_app. symmetry. apply Permutation_middle.
  Qed.

  Lemma remove_id_sorted pre i (q : list (nat * P)) :
    StronglySorted lt (pre ++ ids q) -> StronglySorted lt (pre ++ ids (remove_id i q)).
  Proof.
    unfold ids. revert pre. induction q as [|r t IH]; intros pre H; cbn [remove_id map] in *; [exact H|].
    destruct (Nat.eqb (fst r) i); [eapply sorted_app_drop, H|].
    specialize (IH (pre ++ [fst r])). rewrite <- !app_assoc in IH. exact (IH H).
  Qed.

  Lemma Forall_remove_id (Pr : nat * P -> Prop) i q : Forall Pr q -> Forall Pr (remove_id i q).
  Proof.
    induction q as [|r t IH]; cbn [remove_id]; intros F; [constructor|].
    inversion F; subst. destruct (Nat.eqb (fst r) i); auto.
  Qed.

  Lemma find_id_in i (q : list (nat * P)) k : find_id i q = Some k -> In (i, k) q.
  Proof.
    induction q as [|r t IH]; cbn [find_id]; [discriminate|].
    destruct (Nat.eqb (fst r) i) eqn:E.
    - apply Nat.eqb_eq in E. intros [= <-]. left. destruct r; cbn in *; subst; auto.
    - intros H. right. auto.
  Qed.

  (* removing the first entry with id i does not remove an entry that differs from it *)
  Lemma remove_id_keeps i (q : list (nat * P)) k x :
    find_id i q = Some k -> In x q -> x <> (i, k) -> In x (remove_id i q).
  Proof.
    induction q as [|r t IH]; cbn [find_id remove_id]; [discriminate|].
    destruct (Nat.eqb (fst r) i) eqn:E.
    - apply Nat.eqb_eq in E. intros [= <-] [<-|Hx] Hne; [|exact Hx].
      exfalso. apply Hne. destruct r; cbn in *; subst; auto.
    - intros H [<-|Hx] Hne; [left; auto|right; auto].
  Qed.
End QueueOps.

Section Generic.
  Variable K : kind.

  (* what the theorems need to know about _do_put/_do_get.  [gblock] = true: a get that is not granted
     stops the scan (Container, Store, PriorityStore); false: FilterStore *)
  Record laws (gblock : bool) : Prop := {
    l_pns : nonesame (k_do_put K);
    l_pbl : blocking (k_do_put K);
    l_gns : nonesame (k_do_get K);
    l_gbl : if gblock then blocking (k_do_get K)
            else nonblocking (k_do_get K) /\ antimono (k_do_get K)
  }.

  Definition gput (g : nat * KP K * unit) : grant K := GPut (fst (fst g)) (snd (fst g)).
  Definition gget (g : nat * KG K * KV K) : grant K := GGet (fst (fst g)) (snd (fst g)) (snd g).

  Lemma trigger_put_spec s : exists c rem gs,
    scanR (k_do_put K) (content s) (putq s) c rem gs /\
    trigger_put s = mkst c rem (getq s) (trig s ++ map (fun g => (fst (fst g), EvPut)) gs)
                         (log s ++ map gput gs) (next_id s) (now s).
  Proof.
    unfold trigger_put. destruct (scan (k_do_put K) (content s) (putq s)) as [[c rem] gs] eqn:Es.
    exists c, rem, gs. split; [apply scan_scanR, Es|reflexivity].
  Qed.

  Lemma trigger_get_spec s : exists c rem gs,
    scanR (k_do_get K) (content s) (getq s) c rem gs /\
    trigger_get s = mkst c (putq s) rem (trig s ++ map (fun g => (fst (fst g), EvGet)) gs)
                         (log s ++ map gget gs) (next_id s) (now s).
  Proof.
    unfold trigger_get. destruct (scan (k_do_get K) (content s) (getq s)) as [[c rem] gs] eqn:Es.
    exists c, rem, gs. split; [apply scan_scanR, Es|reflexivity].
  Qed.

  Lemma gid_gput gs : map grant_id (map gput gs) = ids (map fst gs).
  Proof. unfold ids. rewrite !map_map. reflexivity. Qed.
  Lemma gid_gget gs : map grant_id (map gget gs) = ids (map fst gs).
  Proof. unfold ids. rewrite !map_map. reflexivity. Qed.

  (* a step is a queue operation followed by the rescan that the Python code runs after it (Put/Get.__init__, cancel,
     the callback of a processed event) *)
  (* which of _trigger_put / _trigger_get runs after the queue operation *)
  Inductive rescan := RNone | RPut | RGet.
  Definition rescan_of (r : rescan) (s : state K) : state K :=
    match r with RNone => s | RPut => trigger_put s | RGet => trigger_get s end.

  Definition enq_put (s : state K) p := mkst (content s) (putq s ++ [(next_id s, p)]) (getq s) (trig s) (log s) (S (next_id s)) (now s).
  Definition enq_get (s : state K) g := mkst (content s) (putq s) (getq s ++ [(next_id s, g)]) (trig s) (log s) (S (next_id s)) (now s).
  Definition del_put (s : state K) i := mkst (content s) (remove_id i (putq s)) (getq s) (trig s) (log s) (next_id s) (now s).
  Definition del_get (s : state K) i := mkst (content s) (putq s) (remove_id i (getq s)) (trig s) (log s) (next_id s) (now s).
  Definition del_trig (s : state K) i := mkst (content s) (putq s) (getq s) (remove_id i (trig s)) (log s) (next_id s) (now s).

  Inductive edit (fixed : bool) (s : state K) : rescan -> state K -> Prop :=
  | ed_none : edit fixed s RNone s                          (* an argument that raises; cancel of a triggered request *)
  | ed_put p : k_pvalid K p = true -> edit fixed s RPut (enq_put s p)
  | ed_get g : k_gvalid K g = true -> edit fixed s RGet (enq_get s g)
  | ed_cancel_put i : mem_id i (putq s) = true -> edit fixed s (if fixed then RPut else RNone) (del_put s i)
  | ed_cancel_get i : mem_id i (getq s) = true -> edit fixed s (if fixed then RGet else RNone) (del_get s i)
  | ed_process i k : find_id i (trig s) = Some k ->
      edit fixed s (match k with EvPut => RGet | EvGet => RPut end) (del_trig s i)
  | ed_advance t : trig s = [] -> edit fixed s RNone (mkst (content s) (putq s) (getq s) [] (log s) (next_id s) t).

  Lemma step_cases fixed s a s' :
    step fixed s a = Some s' -> exists r s1, edit fixed s r s1 /\ s' = rescan_of r s1.
  Proof.
    destruct a as [p|g|i|i|t]; cbn [step]; intros H.
    - destruct (k_pvalid K p) eqn:Ev; injection H as <-; [exists RPut, (enq_put s p)|exists RNone, s]; split; auto using edit.
    - destruct (k_gvalid K g) eqn:Ev; injection H as <-; [exists RGet, (enq_get s g)|exists RNone, s]; split; auto using edit.
    - destruct (mem_id i (putq s)) eqn:Mp; [|destruct (mem_id i (getq s)) eqn:Mg; [|destruct (Nat.ltb i (next_id s)); [|discriminate]]];
        injection H as <-.
      + exists (if fixed then RPut else RNone), (del_put s i). split; [constructor; exact Mp|destruct fixed; reflexivity].
      + exists (if fixed then RGet else RNone), (del_get s i). split; [constructor; exact Mg|destruct fixed; reflexivity].
      + exists RNone, s. split; [constructor|reflexivity].
    - destruct (find_id i (trig s)) as [k|] eqn:Ef; [|discriminate]. injection H as <-.
      exists (match k with EvPut => RGet | EvGet => RPut end), (del_trig s i).
      split; [constructor; exact Ef|destruct k; reflexivity].
    - destruct (trig s) eqn:Et; [|discriminate]. destruct (Qlt_bool (now s) t); [|discriminate]. injection H as <-.
      exists RNone, (mkst (content s) (putq s) (getq s) [] (log s) (next_id s) t). split; [constructor; exact Et|reflexivity].
  Qed.

  Lemma step_preserves fixed (Pr : state K -> Prop) :
    (forall s r s1, Pr s -> edit fixed s r s1 -> Pr s1) ->
    (forall s, Pr s -> Pr (trigger_put s)) -> (forall s, Pr s -> Pr (trigger_get s)) ->
    forall s a s', Pr s -> step fixed s a = Some s' -> Pr s'.
  Proof.
    intros He Hp Hg s a s' H Hs. destruct (step_cases _ _ _ _ Hs) as (r & s1 & E & ->).
    apply He in E; [|exact H]. destruct r; cbn [rescan_of]; auto.
  Qed.

  Lemma edit_content_log fixed s r s1 : edit fixed s r s1 -> content s1 = content s /\ log s1 = log s.
  Proof. destruct 1; auto. Qed.

  (* induction over executions *)
  Lemma run_ind (fixed : bool) (Pr : state K -> Prop) :
    (forall s a s', Pr s -> step fixed s a = Some s' -> Pr s') ->
    forall acts s0 s, Pr s0 -> run fixed s0 acts = Some s -> Pr s.
  Proof.
    intros Hstep. induction acts as [|a t IH]; intros s0 s H0 H; cbn [run] in H.
    - injection H as <-. exact H0.
    - destruct (step fixed s0 a) as [s1|] eqn:E; [|discriminate].
      apply (IH s1 s); [eapply Hstep; eauto|exact H].
  Qed.

  Lemma run_app fixed (acts1 : list (action K)) : forall acts2 s0 s,
    run fixed s0 (acts1 ++ acts2) = Some s ->
    exists s1, run fixed s0 acts1 = Some s1 /\ run fixed s1 acts2 = Some s.
  Proof.
    induction acts1 as [|a t IH]; intros acts2 s0 s H; cbn [app run] in *.
    - eauto.
    - destruct (step fixed s0 a) as [s1|]; [|discriminate]. eauto.
  Qed.

  (* well-formedness: queues in arrival order, every id used once *)
  Definition allids (s : state K) : list nat := ids (putq s) ++ ids (getq s) ++ map grant_id (log s).

  Record WF (s : state K) : Prop := {
    wf_pq : StronglySorted lt (ids (putq s));
    wf_gq : StronglySorted lt (ids (getq s));
    wf_ids : Forall (fun i => i < next_id s) (allids s) /\ NoDup (allids s)
  }.

  Lemma WF_init c0 t0 : WF (init c0 t0).
  Proof. split; cbn; repeat constructor. Qed.

  Lemma WF_trigger_put s : WF s -> WF (trigger_put s).
  Proof.
    intros [Hp Hg [Hl Hn]]. destruct (trigger_put_spec s) as (c & rem & gs & Hs & ->).
    assert (Hperm : Permutation (allids s) (ids rem ++ ids (getq s) ++ map grant_id (log s ++ map gput gs))).
    { unfold allids. rewrite map_app, gid_gput. pose proof (Permutation_map fst (scan_perm _ _ _ _ _ _ Hs)) as Hq.
      fold (ids (putq s)) in Hq. rewrite Hq, map_app. fold (ids rem) (ids (map fst gs)).
      rewrite <- !app_assoc. etransitivity; [apply Permutation_app_comm|]. rewrite <- !app_assoc. reflexivity. }
    split; cbn [putq getq]; [apply (scan_sorted _ _ _ _ _ _ Hs Hp)|exact Hg|].
    split; [apply (Permutation_Forall Hperm), Hl|apply (Permutation_NoDup Hperm), Hn].
  Qed.

  Lemma WF_trigger_get s : WF s -> WF (trigger_get s).
  Proof.
    intros [Hp Hg [Hl Hn]]. destruct (trigger_get_spec s) as (c & rem & gs & Hs & ->).
    assert (Hperm : Permutation (allids s) (ids (putq s) ++ ids rem ++ map grant_id (log s ++ map gget gs))).
    { unfold allids. rewrite map_app, gid_gget. pose proof (Permutation_map fst (scan_perm _ _ _ _ _ _ Hs)) as Hq.
      fold (ids (getq s)) in Hq. rewrite Hq, map_app. fold (ids rem) (ids (map fst gs)).
      apply Permutation_app_head. rewrite <- !app_assoc.
      etransitivity; [apply Permutation_app_comm|]. rewrite <- !app_assoc. reflexivity. }
    split; cbn [putq getq]; [exact Hp|apply (scan_sorted _ _ _ _ _ _ Hs Hg)|].
    split; [apply (Permutation_Forall Hperm), Hl|apply (Permutation_NoDup Hperm), Hn].
  Qed.

  Lemma WF_ids_fresh s l' : Permutation l' (next_id s :: allids s) ->
    Forall (fun i => i < next_id s) (allids s) /\ NoDup (allids s) ->
    Forall (fun i => i < S (next_id s)) l' /\ NoDup l'.
  Proof.
    intros Hp [Hl Hn]. symmetry in Hp. split.
    - apply (Permutation_Forall Hp). constructor; [lia|]. eapply Forall_impl; [|exact Hl]. cbn; lia.
    - apply (Permutation_NoDup Hp). constructor; [|exact Hn].
      intros Hin. rewrite Forall_forall in Hl. specialize (Hl _ Hin). lia.
  Qed.

  Lemma WF_edit fixed s r s1 : WF s -> edit fixed s r s1 -> WF s1.
  Proof.
    intros [Hp Hg Hi] E. pose proof Hi as [Hl _]. unfold allids in Hl. apply Forall_app in Hl as [Lp Lg]. apply Forall_app in Lg as [Lg _].
    destruct E as [|p _|g _|i Mp|i Mg|i k _|t _]; try (split; assumption);
      split; unfold allids, ids in *; cbn [putq getq log next_id enq_put enq_get del_put del_get]; try assumption.
    - (* enqueue put: queue *) rewrite map_app. apply ss_snoc; assumption.
    - (* enqueue put: ids *) apply (WF_ids_fresh s); [|exact Hi]. unfold allids, ids. rewrite map_app, <- app_assoc.
      symmetry. apply Permutation_middle.
    - (* enqueue get: queue *) rewrite map_app. apply ss_snoc; assumption.
    - (* enqueue get: ids *) apply (WF_ids_fresh s); [|exact Hi]. unfold allids, ids. rewrite map_app.
      etransitivity; [|apply Permutation_sym, Permutation_middle]. apply Permutation_app_head.
      rewrite <- app_assoc. symmetry. apply Permutation_middle.
    - (* cancel put: queue *) apply (remove_id_sorted []), Hp.
    - (* cancel put: ids *) eapply perm_drop; [|exact Hi]. apply (Permutation_app_tail _ (remove_id_perm i _ Mp)).
    - (* cancel get: queue *) apply (remove_id_sorted []), Hg.
    - (* cancel get: ids *) eapply perm_drop; [|exact Hi]. etransitivity; [|apply Permutation_sym, Permutation_middle].
      apply Permutation_app_head, (Permutation_app_tail _ (remove_id_perm i _ Mg)).
  Qed.

  Lemma WF_step fixed s a s' : WF s -> step fixed s a = Some s' -> WF s'.
  Proof. apply step_preserves; eauto using WF_edit, WF_trigger_put, WF_trigger_get. Qed.

  Lemma WF_run fixed acts c0 t0 s : run fixed (init c0 t0) acts = Some s -> WF s.
  Proof. apply run_ind with (Pr := WF); [apply WF_step|apply WF_init]. Qed.

  Lemma run_inv fixed (Pr : state K -> Prop) :
    (forall s r s1, WF s -> Pr s -> edit fixed s r s1 -> Pr s1) ->
    (forall s, Pr s -> Pr (trigger_put s)) -> (forall s, Pr s -> Pr (trigger_get s)) ->
    forall acts c0 t0 s, Pr (init c0 t0) -> run fixed (init c0 t0) acts = Some s -> Pr s.
  Proof.
    intros He Hp Hg acts c0 t0 s H0 Hr.
    apply (run_ind fixed (fun s => WF s /\ Pr s)) in Hr; [apply Hr| |split; [apply WF_init|exact H0]].
    apply step_preserves.
    - intros s0 r s1 [W F] E. split; [exact (WF_edit _ _ _ _ W E)|exact (He _ _ _ W F E)].
    - intros s0 [W F]. split; [apply WF_trigger_put, W|apply Hp, F].
    - intros s0 [W F]. split; [apply WF_trigger_get, W|apply Hg, F].
  Qed.

  (* what a step adds to the log comes from one rescan *)
  Lemma step_get_scan fixed (s : state K) a s' :
    WF s -> step fixed s a = Some s' ->
    (exists q1 gs, StronglySorted lt (ids q1) /\ scanR (k_do_get K) (content s) q1 (content s') (getq s') gs /\
                   log s' = log s ++ map gget gs)
    \/ (exists gs, log s' = log s ++ map gput gs).
  Proof.
    intros W H. destruct (step_cases _ _ _ _ H) as (r & s1 & E & ->).
    destruct (edit_content_log _ _ _ _ E) as [Ec El]. apply (WF_edit _ _ _ _ W) in E. destruct r; cbn [rescan_of].
    - right. exists []. rewrite El. cbn. rewrite app_nil_r. reflexivity.
    - right. destruct (trigger_put_spec s1) as (c & rem & gs & _ & ->). exists gs. cbn [log]. rewrite El. reflexivity.
    - left. destruct (trigger_get_spec s1) as (c & rem & gs & Hs & ->). exists (getq s1), gs. cbn [content getq log].
      rewrite <- Ec, El. split; [apply E|]. split; [exact Hs|reflexivity].
  Qed.
End Generic.

(* no stranded request: if the head of a queue could be granted, an event whose processing rescans
   that queue is still due at the current instant *)
Section Settled.
  Variable K : kind.
  Variable gblock : bool.
  Hypothesis L : laws K gblock.

  Definition put_settled (s : state K) : Prop :=
    match putq s with [] => True | r :: _ => r_val (k_do_put K (content s) (snd r)) = None end.

  Definition get_head_settled (s : state K) : Prop :=
    match getq s with [] => True | r :: _ => r_val (k_do_get K (content s) (snd r)) = None end.

  Definition get_all_settled (s : state K) : Prop :=
    forall r, In r (getq s) -> r_val (k_do_get K (content s) (snd r)) = None.

  Definition get_settled (s : state K) : Prop :=
    if gblock then get_head_settled s else get_all_settled s.

  Definition has_ev (k : evk) (s : state K) : Prop := exists i, In (i, k) (trig s).

  Definition Jput (s : state K) : Prop := put_settled s \/ has_ev EvGet s.
  Definition Jget (s : state K) : Prop := get_settled s \/ has_ev EvPut s.
  Definition J (s : state K) : Prop := Jput s /\ Jget s.

  (* a rescan settles its own queue; if it granted nothing the other queue is as it was, and if it granted
     something the event of that grant is pending *)
  Lemma J_trigger_put s : Jget s -> J (trigger_put s).
  Proof.
    intros HJ. destruct (trigger_put_spec K s) as (c & rem & gs & Hs & ->). split.
    - left. apply (scan_blocking _ (l_pns _ _ L) (l_pbl _ _ L) _ _ _ _ _ Hs).
    - destruct gs as [|g gs'].
      + destruct (scan_nogrant _ (l_pns _ _ L) _ _ _ _ Hs) as [-> _]. cbn [map]. rewrite !app_nil_r. exact HJ.
      + right. exists (fst (fst g)). cbn [trig]. apply in_or_app. right. left. reflexivity.
  Qed.

  Lemma J_trigger_get s : Jput s -> J (trigger_get s).
  Proof.
    intros HJ. destruct (trigger_get_spec K s) as (c & rem & gs & Hs & ->). split.
    - destruct gs as [|g gs'].
      + destruct (scan_nogrant _ (l_gns _ _ L) _ _ _ _ Hs) as [-> _]. cbn [map]. rewrite !app_nil_r. exact HJ.
      + right. exists (fst (fst g)). cbn [trig]. apply in_or_app. right. left. reflexivity.
    - left. unfold get_settled. pose proof (l_gbl _ _ L) as Hg. destruct gblock.
      + apply (scan_blocking _ (l_gns _ _ L) Hg _ _ _ _ _ Hs).
      + destruct Hg as [Hnb Ham]. exact (scan_nonblocking _ (l_gns _ _ L) Hnb Ham _ _ _ _ _ Hs).
  Qed.

  Lemma J_init c0 t0 : J (init c0 t0).
  Proof.
    split; left; cbn; auto. unfold get_settled, get_head_settled, get_all_settled.
    destruct gblock; cbn; auto. intros r [].
  Qed.

  (* before the rescan that follows a queue operation, the half of J about the OTHER queue still holds *)
  Lemma J_edit s r s1 : J s -> edit K true s r s1 ->
    match r with RNone => J s1 | RPut => Jget s1 | RGet => Jput s1 end.
  Proof.
    intros [Hp Hg] E. destruct E as [|p _|g _|i _|i _|i k Ef|t Et]; try assumption.
    - split; assumption.
    - (* the processed event is not of the kind the surviving half mentions *)
      destruct k; [destruct Hp as [Hp|[j Hj]]|destruct Hg as [Hg|[j Hj]]]; try (left; assumption);
        right; exists j; apply (remove_id_keeps _ _ _ _ Ef Hj); discriminate.
    - split; [destruct Hp as [Hp|[j Hj]]|destruct Hg as [Hg|[j Hj]]]; try (left; assumption); rewrite Et in Hj; destruct Hj.
  Qed.

  (* the repaired cancel (fixed = true) *)
  Lemma J_step s a s' : J s -> step true s a = Some s' -> J s'.
  Proof.
    intros HJ H. destruct (step_cases K _ _ _ _ H) as (r & s1 & E & ->). apply (J_edit _ _ _ HJ) in E.
    destruct r; [exact E|apply J_trigger_put, E|apply J_trigger_get, E].
  Qed.

  (* whenever the clock may advance, nobody at the head of a queue can be served *)
  Theorem heads_blocked_generic acts c0 t0 s :
    run true (init c0 t0) acts = Some s -> trig s = [] -> put_settled s /\ get_settled s.
  Proof.
    intros Hr Ht.
    assert (HJ : J s) by (eapply run_ind with (Pr := J); eauto using J_step, J_init).
    destruct HJ as [[Hp|[i Hi]] [Hg|[j Hj]]]; rewrite ?Ht in *; try contradiction. auto.
  Qed.

  Lemma advance_admissible fixed (s : state K) t s' : step fixed s (AAdvance t) = Some s' -> trig s = [].
  Proof. cbn [step]. destruct (trig s); [auto|discriminate]. Qed.

  Theorem heads_blocked_at_advance acts c0 t0 s t s' :
    run true (init c0 t0) acts = Some s ->
    step true s (AAdvance t) = Some s' ->
    (match putq s with [] => True | r :: _ => r_val (k_do_put K (content s) (snd r)) = None end) /\
    (if gblock
     then match getq s with [] => True | r :: _ => r_val (k_do_get K (content s) (snd r)) = None end
     else forall r, In r (getq s) -> r_val (k_do_get K (content s) (snd r)) = None).
  Proof.
    intros Hr Ha. apply advance_admissible in Ha.
    destruct (heads_blocked_generic _ _ _ _ Hr Ha) as [Hp Hg]. split; [exact Hp|].
    unfold get_settled, get_head_settled, get_all_settled in Hg. destruct gblock; exact Hg.
  Qed.
End Settled.

(* first come first served: the ids of the granted requests of one kind, in the order in which they
   were granted, followed by the ids still waiting in queue order, are strictly increasing.  Ids are
   creation indices, so: nobody is granted while an older request of the same kind waits (the state
   right after such a grant would have the younger id before the older one). *)
Section Order.
  Variable K : kind.
  Variable gblock : bool.
  Hypothesis L : laws K gblock.

  Definition put_ids (l : list (grant K)) : list nat :=
    flat_map (fun g => match g with GPut i _ => [i] | GGet _ _ _ => [] end) l.
  Definition get_ids (l : list (grant K)) : list nat :=
    flat_map (fun g => match g with GGet i _ _ => [i] | GPut _ _ => [] end) l.

  Definition fcfs_put (s : state K) : Prop := StronglySorted lt (put_ids (log s) ++ ids (putq s)).
  Definition fcfs_get (s : state K) : Prop := StronglySorted lt (get_ids (log s) ++ ids (getq s)).

  Lemma put_ids_app l1 l2 : put_ids (l1 ++ l2) = put_ids l1 ++ put_ids l2.
  Proof. apply flat_map_app. Qed.
  Lemma get_ids_app l1 l2 : get_ids (l1 ++ l2) = get_ids l1 ++ get_ids l2.
  Proof. apply flat_map_app. Qed.
  Lemma put_ids_gput gs : put_ids (map (gput K) gs) = ids (map fst gs).
  Proof. induction gs as [|[[i p] v] t IH]; cbn; [auto|f_equal; auto]. Qed.
  Lemma get_ids_gget gs : get_ids (map (gget K) gs) = ids (map fst gs).
  Proof. induction gs as [|[[i p] v] t IH]; cbn; [auto|f_equal; auto]. Qed.
  Lemma put_ids_gget gs : put_ids (map (gget K) gs) = [].
  Proof. induction gs as [|[[i p] v] t IH]; cbn; auto. Qed.
  Lemma get_ids_gput gs : get_ids (map (gput K) gs) = [].
  Proof. induction gs as [|[[i p] v] t IH]; cbn; auto. Qed.
  Lemma put_ids_incl l : incl (put_ids l) (map grant_id l).
  Proof.
    induction l as [|g t IH]; cbn; [intros x []|].
    destruct g; cbn; [apply incl_cons; [left; auto|apply incl_tl; auto]|apply incl_tl; auto].
  Qed.
  Lemma get_ids_incl l : incl (get_ids l) (map grant_id l).
  Proof.
    induction l as [|g t IH]; cbn; [intros x []|].
    destruct g; cbn; [apply incl_tl; auto|apply incl_cons; [left; auto|apply incl_tl; auto]].
  Qed.

  (* a blocking scan moves a prefix of the queue to the end of the log *)
  Lemma fcfs_put_trigger_put s : fcfs_put s -> fcfs_put (trigger_put s).
  Proof.
    unfold fcfs_put. intros H. destruct (trigger_put_spec K s) as (c & rem & gs & Hs & ->). cbn [log putq].
    destruct (scan_blocking _ (l_pns _ _ L) (l_pbl _ _ L) _ _ _ _ _ Hs) as [Hq _].
    rewrite put_ids_app, put_ids_gput, <- app_assoc.
    rewrite Hq in H. unfold ids in *. rewrite map_app in H. exact H.
  Qed.

  Lemma fcfs_put_trigger_get s : fcfs_put s -> fcfs_put (trigger_get s).
  Proof.
    unfold fcfs_put. intros H. destruct (trigger_get_spec K s) as (c & rem & gs & Hs & ->). cbn [log putq].
    rewrite put_ids_app, put_ids_gget, app_nil_r. exact H.
  Qed.

  Lemma fcfs_get_trigger_put s : fcfs_get s -> fcfs_get (trigger_put s).
  Proof.
    unfold fcfs_get. intros H. destruct (trigger_put_spec K s) as (c & rem & gs & Hs & ->). cbn [log getq].
    rewrite get_ids_app, get_ids_gput, app_nil_r. exact H.
  Qed.

  Lemma fcfs_get_trigger_get s : gblock = true -> fcfs_get s -> fcfs_get (trigger_get s).
  Proof.
    unfold fcfs_get. intros Hb H. destruct (trigger_get_spec K s) as (c & rem & gs & Hs & ->). cbn [log getq].
    pose proof (l_gbl _ _ L) as Hg. rewrite Hb in Hg.
    destruct (scan_blocking _ (l_gns _ _ L) Hg _ _ _ _ _ Hs) as [Hq _].
    rewrite get_ids_app, get_ids_gget, <- app_assoc.
    rewrite Hq in H. unfold ids in *. rewrite map_app in H. exact H.
  Qed.

  Lemma lt_next_put s : WF K s -> Forall (fun i => i < next_id s) (put_ids (log s) ++ ids (putq s)).
  Proof.
    intros [_ _ [Hl _]]. unfold allids in Hl. rewrite Forall_forall in *. intros x Hx. apply Hl.
    apply in_app_or in Hx as [Hx|Hx]; apply in_or_app; [right; apply in_or_app; right|left; auto].
    apply put_ids_incl; auto.
  Qed.

  Lemma lt_next_get s : WF K s -> Forall (fun i => i < next_id s) (get_ids (log s) ++ ids (getq s)).
  Proof.
    intros [_ _ [Hl _]]. unfold allids in Hl. rewrite Forall_forall in *. intros x Hx. apply Hl.
    apply in_app_or in Hx as [Hx|Hx]; apply in_or_app; right; apply in_or_app; [right|left; auto].
    apply get_ids_incl; auto.
  Qed.

  Lemma fcfs_put_edit fixed s r s1 : WF K s -> fcfs_put s -> edit K fixed s r s1 -> fcfs_put s1.
  Proof.
    intros W F E. destruct E as [|p _| |i _| | |]; try exact F; unfold fcfs_put; cbn [log putq enq_put del_put].
    - unfold ids. rewrite map_app, app_assoc. apply ss_snoc; [exact F|apply lt_next_put; exact W].
    - apply remove_id_sorted, F.
  Qed.

  Lemma fcfs_get_edit fixed s r s1 : WF K s -> fcfs_get s -> edit K fixed s r s1 -> fcfs_get s1.
  Proof.
    intros W F E. destruct E as [| |g _| |i _| |]; try exact F; unfold fcfs_get; cbn [log getq enq_get del_get].
    - unfold ids. rewrite map_app, app_assoc. apply ss_snoc; [exact F|apply lt_next_get; exact W].
    - apply remove_id_sorted, F.
  Qed.

  Theorem puts_fcfs_generic fixed acts c0 t0 s :
    run fixed (init c0 t0) acts = Some s -> fcfs_put s.
  Proof.
    apply (run_inv K fixed fcfs_put);
      [apply fcfs_put_edit|apply fcfs_put_trigger_put|apply fcfs_put_trigger_get|constructor].
  Qed.

  Theorem gets_fcfs_generic fixed acts c0 t0 s :
    gblock = true -> run fixed (init c0 t0) acts = Some s -> fcfs_get s.
  Proof.
    intros Hb. apply (run_inv K fixed fcfs_get);
      [apply fcfs_get_edit|apply fcfs_get_trigger_put|intros s0; apply fcfs_get_trigger_get, Hb|constructor].
  Qed.

  (* the log is a legal sequence of operations from the initial content to the current one *)
  Inductive path : KC K -> list (grant K) -> KC K -> Prop :=
  | path_nil c : path c [] c
  | path_put c i p l c' :
      r_val (k_do_put K c p) = Some tt -> path (r_c (k_do_put K c p)) l c' -> path c (GPut i p :: l) c'
  | path_get c i g v l c' :
      r_val (k_do_get K c g) = Some v -> path (r_c (k_do_get K c g)) l c' -> path c (GGet i g v :: l) c'.

  Lemma path_app c l1 c1 l2 c2 : path c l1 c1 -> path c1 l2 c2 -> path c (l1 ++ l2) c2.
  Proof. induction 1; cbn [app]; intros; [auto|constructor; auto|constructor; auto]. Qed.

  Lemma path_split l1 : forall c l2 c2, path c (l1 ++ l2) c2 -> exists c1, path c l1 c1 /\ path c1 l2 c2.
  Proof.
    induction l1 as [|g t IH]; cbn [app]; intros c l2 c2 H.
    - exists c. split; [constructor|exact H].
    - inversion H; subst.
      + destruct (IH _ _ _ H5) as (c1 & H1 & H2). exists c1. split; [constructor; auto|auto].
      + destruct (IH _ _ _ H5) as (c1 & H1 & H2). exists c1. split; [constructor; auto|auto].
  Qed.

  Lemma path_det c l c1 : path c l c1 -> forall c2, path c l c2 -> c1 = c2.
  Proof. induction 1; intros c2 H2; inversion H2; subst; auto. Qed.

  Lemma path_content (Q : KC K -> Prop) :
    (forall c p, Q c -> Q (r_c (k_do_put K c p))) -> (forall c g, Q c -> Q (r_c (k_do_get K c g))) ->
    forall c l c', path c l c' -> Q c -> Q c'.
  Proof. intros Hp Hg. induction 1; auto. Qed.

  Lemma chain_path_put c gs c' : chain (k_do_put K) c gs c' -> path c (map (gput K) gs) c'.
  Proof. induction 1 as [|c r [] l c' Hv _ IH]; cbn [map]; constructor; assumption. Qed.
  Lemma chain_path_get c gs c' : chain (k_do_get K) c gs c' -> path c (map (gget K) gs) c'.
  Proof. induction 1; cbn [map]; constructor; assumption. Qed.

  Definition log_path (c0 : KC K) (s : state K) : Prop := path c0 (log s) (content s).

  Lemma log_path_trigger_put c0 s : log_path c0 s -> log_path c0 (trigger_put s).
  Proof.
    unfold log_path. intros H. destruct (trigger_put_spec K s) as (c & rem & gs & Hs & ->). cbn [log content].
    eapply path_app; [exact H|]. apply chain_path_put, (scan_chain _ (l_pns _ _ L) _ _ _ _ _ Hs).
  Qed.

  Lemma log_path_trigger_get c0 s : log_path c0 s -> log_path c0 (trigger_get s).
  Proof.
    unfold log_path. intros H. destruct (trigger_get_spec K s) as (c & rem & gs & Hs & ->). cbn [log content].
    eapply path_app; [exact H|]. apply chain_path_get, (scan_chain _ (l_gns _ _ L) _ _ _ _ _ Hs).
  Qed.

  Theorem log_is_path fixed acts c0 t0 s :
    run fixed (init c0 t0) acts = Some s -> path c0 (log s) (content s).
  Proof.
    apply (run_inv K fixed (log_path c0)); [|apply log_path_trigger_put|apply log_path_trigger_get|constructor].
    intros s0 r s1 _ F E. destruct (edit_content_log _ _ _ _ _ E) as [Ec El]. unfold log_path. rewrite Ec, El. exact F.
  Qed.

  (* every request event is triggered at most once, and a triggered request is in no queue *)
  Theorem triggered_once fixed (acts : list (action K)) c0 t0 s :
    run fixed (init c0 t0) acts = Some s ->
    NoDup (map grant_id (log s)) /\
    (forall i, In i (map grant_id (log s)) -> ~ In i (ids (putq s)) /\ ~ In i (ids (getq s))).
  Proof.
    intros Hr. apply WF_run in Hr. destruct Hr as [_ _ [_ Hn]]. unfold allids in Hn.
    split.
    - apply nodup_app_r in Hn. apply nodup_app_r in Hn. exact Hn.
    - intros i Hi. split; intros Hq.
      + apply (nodup_app_disj _ _ i Hn Hq). apply in_or_app. right. exact Hi.
      + apply nodup_app_r in Hn. apply (nodup_app_disj _ _ i Hn Hq Hi).
  Qed.
End Order.

(* invariants of the content: whatever every _do_put/_do_get call on a VALID request (one that passed
   the constructor's argument check) preserves, holds in every reachable state *)
Section ContentInvK.
  Variable K : kind.
  Variable Q : KC K -> Prop.
  Hypothesis HP : forall c p, k_pvalid K p = true -> Q c -> Q (r_c (k_do_put K c p)).
  Hypothesis HG : forall c g, k_gvalid K g = true -> Q c -> Q (r_c (k_do_get K c g)).

  Definition CI (s : state K) : Prop :=
    Q (content s) /\ Forall (fun r => k_pvalid K (snd r) = true) (putq s)
    /\ Forall (fun r => k_gvalid K (snd r) = true) (getq s).

  Lemma CI_trigger_put s : CI s -> CI (trigger_put s).
  Proof.
    intros (Hc & Hp & Hg). destruct (trigger_put_spec K s) as (c & rem & gs & Hs & ->).
    split; [exact (scan_preserves _ _ Q HP _ _ _ _ _ Hs Hp Hc)|].
    split; [apply (scan_Forall _ _ _ _ _ _ _ Hs Hp)|exact Hg].
  Qed.

  Lemma CI_trigger_get s : CI s -> CI (trigger_get s).
  Proof.
    intros (Hc & Hp & Hg). destruct (trigger_get_spec K s) as (c & rem & gs & Hs & ->).
    split; [exact (scan_preserves _ _ Q HG _ _ _ _ _ Hs Hg Hc)|].
    split; [exact Hp|apply (scan_Forall _ _ _ _ _ _ _ Hs Hg)].
  Qed.

  Lemma CI_edit fixed s r s1 : CI s -> edit K fixed s r s1 -> CI s1.
  Proof.
    intros (Hc & Hp & Hg) E. destruct E as [|p Ev|g Ev|i _|i _|i k _|t _]; repeat split; try assumption;
      cbn [putq getq enq_put enq_get del_put del_get]; auto using Forall_remove_id.
    - apply Forall_app. auto.
    - apply Forall_app. auto.
  Qed.

  Theorem content_invariant fixed (acts : list (action K)) c0 t0 s :
    Q c0 -> run fixed (init c0 t0) acts = Some s -> Q (content s).
  Proof.
    intros H0 Hr. apply (run_inv K fixed CI) in Hr; [apply Hr| | | |repeat split; auto; constructor].
    - intros s0 r s1 _. apply CI_edit.
    - apply CI_trigger_put.
    - apply CI_trigger_get.
  Qed.
End ContentInvK.
