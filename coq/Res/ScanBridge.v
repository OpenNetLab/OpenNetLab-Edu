(* Bridging lemmas (DESIGN 2.6, second tie) for the scan loops BaseResource._trigger_put / _trigger_get, generic part.
   The translator turns the loop into its initialisation and ONE iteration (Gen/Extracted_scan.v: the state record is the
   loop index idx; observations: len(queue), whether the current request is triggered after _do_xxx, what _do_xxx returned,
   whether queue.pop(idx) differs from the request).  Here the generated iteration is RUN: [run_scan f iter fuel s q r]
   iterates it on a concrete queue q with _do_xxx given as a function f (new state, triggered?, returned value; None = it
   raised), popping at idx where the iteration says so, until the iteration stops asking for another round.
   [gscan] is the recursion both hand-written models use (Res/Resource.v [scan], Res/ContainerStore.v [scan] up to the
   representation of the grants).  Main lemma: with fuel = 1 + length of the queue the run of the generated iteration from
   the generated initialisation IS gscan, for every f, state and queue: requests are visited in queue order, a granted
   request leaves the queue at its own position, an ungranted one is stepped over, and the scan stops exactly when _do_xxx
   returns False. *)
From Coq Require Import ZArith List Bool Lia.
From ONL Require Import Gen.Extracted_scan.
Import ListNotations.

(* what one iteration must be (both generated iterations are checked against it below) *)
Definition ref_iter (r : scan_st) (n_queue : Z) (triggered proceed : bool) : scan_st * list scan_fx :=
  if Z.ltb (l_idx r) n_queue then
    if triggered then (r, if proceed then [FxDo; FxPopAtIdx; FxLoopAgain] else [FxDo; FxPopAtIdx])
    else ({| l_idx := l_idx r + 1 |}, if proceed then [FxDo; FxLoopAgain] else [FxDo])
  else (r, []).

Lemma gen_put_iter_ok r n t p : gen_trigger_put_iter r n t p false = ref_iter r n t p.
Proof. unfold gen_trigger_put_iter, ref_iter. destruct r as [i]; cbn [l_idx]. destruct (Z.ltb i n), t, p; reflexivity. Qed.
Lemma gen_get_iter_ok r n t p : gen_trigger_get_iter r n t p false = ref_iter r n t p.
Proof. unfold gen_trigger_get_iter, ref_iter. destruct r as [i]; cbn [l_idx]. destruct (Z.ltb i n), t, p; reflexivity. Qed.
Lemma gen_put_init_ok r : gen_trigger_put_init r = ({| l_idx := 0 |}, []).
Proof. reflexivity. Qed.
Lemma gen_get_init_ok r : gen_trigger_get_init r = ({| l_idx := 0 |}, []).
Proof. reflexivity. Qed.

Fixpoint remove_nth {A : Type} (i : nat) (l : list A) : list A :=
  match l, i with
  | [], _ => []
  | _ :: t, O => t
  | x :: t, S j => x :: remove_nth j t
  end.

Lemma nth_pre {A} (pre rest : list A) x : nth_error (pre ++ x :: rest) (length pre) = Some x.
Proof. rewrite nth_error_app2 by lia. rewrite Nat.sub_diag. reflexivity. Qed.

Lemma remove_pre {A} (pre rest : list A) x : remove_nth (length pre) (pre ++ x :: rest) = pre ++ rest.
Proof. induction pre as [|y l IH]; cbn; [reflexivity|]. rewrite IH. reflexivity. Qed.

Section Scan.
  Context {St A : Type}.
  Variable f : St -> A -> option (St * bool * bool).

  (* the recursion of the hand-written models: [kept] = the requests before idx (reversed), [rest] = queue[idx:] *)
  Fixpoint gscan (s : St) (kept rest : list A) : option (St * list A) :=
    match rest with
    | [] => Some (s, rev kept)
    | e :: rest' =>
        match f s e with
        | None => None
        | Some (s', triggered, proceed) =>
            if triggered then
              if proceed then gscan s' kept rest' else Some (s', rev kept ++ rest')
            else
              if proceed then gscan s' (e :: kept) rest' else Some (s', rev kept ++ e :: rest')
        end
    end.

  (* running an iteration function on a concrete queue *)
  Variable iter : scan_st -> Z -> bool -> bool -> bool -> scan_st * list scan_fx.

  Fixpoint run_scan (fuel : nat) (s : St) (q : list A) (r : scan_st) : option (St * list A) :=
    match fuel with
    | O => None
    | S fu =>
        let i := Z.to_nat (l_idx r) in
        match nth_error q i with
        | None =>                                             (* no request at idx: the observations do not matter *)
            match snd (iter r (Z.of_nat (length q)) false false false) with [] => Some (s, q) | _ => None end
        | Some e =>
            match f s e with
            | None => None                                    (* _do_xxx raised *)
            | Some (s', triggered, proceed) =>
                let '(r', fx) := iter r (Z.of_nat (length q)) triggered proceed false in
                match fx with
                | [FxDo] => Some (s', q)
                | [FxDo; FxLoopAgain] => run_scan fu s' q r'
                | [FxDo; FxPopAtIdx] => Some (s', remove_nth i q)
                | [FxDo; FxPopAtIdx; FxLoopAgain] => run_scan fu s' (remove_nth i q) r'
                | _ => None
                end
            end
        end
    end.

  Hypothesis iter_ok : forall r n t p, iter r n t p false = ref_iter r n t p.

  Lemma nth_mid (kept rest : list A) e : nth_error (rev kept ++ e :: rest) (length kept) = Some e.
  Proof. rewrite <- (rev_length kept). apply nth_pre. Qed.

  Lemma remove_mid (kept rest : list A) e : remove_nth (length kept) (rev kept ++ e :: rest) = rev kept ++ rest.
  Proof. rewrite <- (rev_length kept). apply remove_pre. Qed.

  Lemma run_scan_gscan rest : forall s kept,
    run_scan (S (length rest)) s (rev kept ++ rest) {| l_idx := Z.of_nat (length kept) |} = gscan s kept rest.
  Proof.
    induction rest as [|e rest' IH]; intros s kept.
    - cbn [length run_scan gscan l_idx]. rewrite Nat2Z.id, app_nil_r.
      replace (nth_error (rev kept) (length kept)) with (@None A)
        by (symmetry; apply nth_error_None; rewrite rev_length; lia).
      rewrite iter_ok. unfold ref_iter. cbn [l_idx]. rewrite rev_length.
      destruct (Z.ltb_spec (Z.of_nat (length kept)) (Z.of_nat (length kept))); [lia|reflexivity].
    - cbn [run_scan gscan l_idx]. rewrite Nat2Z.id, nth_mid.
      destruct (f s e) as [[[s' tr] pr]|]; [|reflexivity].
      rewrite iter_ok. unfold ref_iter. cbn [l_idx].
      rewrite app_length, rev_length. cbn [length].
      destruct (Z.ltb_spec (Z.of_nat (length kept)) (Z.of_nat (length kept + S (length rest')))); [|lia].
      destruct tr, pr; cbn [l_idx]; rewrite ?remove_mid; try reflexivity.
      + apply IH.
      + replace (Z.of_nat (length kept) + 1)%Z with (Z.of_nat (length (e :: kept))) by (cbn [length]; lia).
        replace (rev kept ++ e :: rest') with (rev (e :: kept) ++ rest') by (cbn [rev]; rewrite <- app_assoc; reflexivity).
        apply IH.
  Qed.

  (* from the generated initialisation, on the whole queue *)
  Lemma run_scan_from_init (init : scan_st -> scan_st * list scan_fx) r0 s q :
    init r0 = ({| l_idx := 0 |}, []) ->
    run_scan (S (length q)) s q (fst (init r0)) = gscan s [] q.
  Proof. intros H. rewrite H. exact (run_scan_gscan q s []). Qed.
End Scan.
