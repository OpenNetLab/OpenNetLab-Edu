(* Facts about lists that the proofs about both resource models (Res/Resource.v, Res/ContainerStore.v) use. *)
From Coq Require Import List Sorted.
Import ListNotations.

Lemma nodup_app_r {A} (l r : list A) : NoDup (l ++ r) -> NoDup r.
Proof. induction l as [|x t IH]; cbn [app]; intros H; [exact H|]. inversion H; auto. Qed.

Lemma sorted_app_iff {A} (R : A -> A -> Prop) l1 l2 :
  StronglySorted R (l1 ++ l2) <->
  StronglySorted R l1 /\ StronglySorted R l2 /\ forall x y, In x l1 -> In y l2 -> R x y.
Proof.
  induction l1 as [|a t IH]; cbn [app].
  - split; [intros H; repeat split; [constructor|exact H|intros x y []]|tauto].
  - split.
    + intros H. apply StronglySorted_inv in H as [H Ha]. apply IH in H as (H1 & H2 & H3).
      rewrite Forall_app, !Forall_forall in Ha. destruct Ha as [Ha1 Ha2].
      split; [constructor; [exact H1|apply Forall_forall, Ha1]|]. split; [exact H2|].
      intros x y [<-|Hx] Hy; auto.
    + intros (H1 & H2 & H3). apply StronglySorted_inv in H1 as [H1 Ha]. constructor.
      * apply IH. repeat split; auto. intros x y Hx. apply H3. right. exact Hx.
      * apply Forall_app. split; [exact Ha|]. apply Forall_forall. intros y Hy. apply H3; [left; reflexivity|exact Hy].
Qed.

Lemma sorted_snoc {A} (R : A -> A -> Prop) l e :
  StronglySorted R l -> (forall y, In y l -> R y e) -> StronglySorted R (l ++ [e]).
Proof.
  intros H He. apply sorted_app_iff. split; [exact H|]. split; [repeat constructor|].
  intros x y Hx [<-|[]]. apply He, Hx.
Qed.

Lemma sorted_app_drop {A} (R : A -> A -> Prop) l1 x l2 :
  StronglySorted R (l1 ++ x :: l2) -> StronglySorted R (l1 ++ l2).
Proof.
  intros H. apply sorted_app_iff in H as (H1 & H2 & H3). apply StronglySorted_inv in H2 as [H2 _].
  apply sorted_app_iff. split; [exact H1|]. split; [exact H2|]. intros a b Ha Hb. apply H3; [exact Ha|right; exact Hb].
Qed.
