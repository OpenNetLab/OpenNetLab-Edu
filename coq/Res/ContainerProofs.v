(* Container (container.py): bounds, conservation, and what "cannot be granted" means for it. *)
From Coq Require Import ZArith QArith List Bool Arith Lia Lqa Sorted Permutation.
From ONL Require Import Res.Heap Res.ContainerStore Res.ContainerStoreProofs.
Import ListNotations.

Lemma container_laws cap : laws (Container cap) true.
Proof.
  split; cbn.
  - intros c p. unfold c_do_put. destruct (room_for cap c p); cbn; [discriminate|auto].
  - intros c p. unfold c_do_put. destruct (room_for cap c p); cbn; auto.
  - intros c p. unfold c_do_get. destruct (Qle_bool p c); cbn; [discriminate|auto].
  - intros c p. unfold c_do_get. destruct (Qle_bool p c); cbn; auto.
Qed.

Definition in_bounds (cap : option Q) (level : Q) : Prop :=
  0 <= level /\ match cap with Some c => level <= c | None => True end.

Lemma amount_ok_pos a : amount_ok a = true -> 0 < a.
Proof.
  unfold amount_ok, Qlt_bool. intros H. apply negb_true_iff in H.
  destruct (Qlt_le_dec 0 a) as [Hl|Hl]; [exact Hl|].
  apply Qle_bool_iff in Hl. rewrite Hl in H. discriminate.
Qed.

Lemma put_in_bounds cap c p :
  amount_ok p = true -> in_bounds cap c -> in_bounds cap (r_c (c_do_put cap c p)).
Proof.
  unfold in_bounds, c_do_put. intros Hp [H0 H1]. apply amount_ok_pos in Hp.
  destruct (room_for cap c p) eqn:E; cbn [r_c]; [|auto].
  pose proof (Qred_correct (c + p)) as Hr.
  destruct cap as [cp|]; cbn [room_for] in E.
  - apply Qle_bool_iff in E. split; lra.
  - split; [lra|exact I].
Qed.

Lemma get_in_bounds cap c p :
  amount_ok p = true -> in_bounds cap c -> in_bounds cap (r_c (c_do_get c p)).
Proof.
  unfold in_bounds, c_do_get. intros Hp [H0 H1]. apply amount_ok_pos in Hp.
  destruct (Qle_bool p c) eqn:E; cbn [r_c]; [|auto].
  pose proof (Qred_correct (c - p)) as Hr. apply Qle_bool_iff in E.
  split; [lra|]. destruct cap as [cp|]; [lra|exact I].
Qed.

Theorem level_bounds cap fixed (acts : list (action (Container cap))) (init_level t0 : Q) s :
  in_bounds cap init_level ->
  run fixed (init (K:=Container cap) init_level t0) acts = Some s ->
  in_bounds cap (content s).
Proof.
  intros H0 Hr.
  apply (content_invariant (Container cap) (in_bounds cap)) with (fixed := fixed) (acts := acts) (c0 := init_level) (t0 := t0); auto.
  - intros c p Hv Hc. apply put_in_bounds; auto.
  - intros c p Hv Hc. apply get_in_bounds; auto.
Qed.

(* conservation *)
Fixpoint put_sum {cap} (l : list (grant (Container cap))) : Q :=
  match l with
  | [] => 0
  | GPut _ p :: t => p + put_sum t
  | GGet _ _ _ :: t => put_sum t
  end.

Fixpoint get_sum {cap} (l : list (grant (Container cap))) : Q :=
  match l with
  | [] => 0
  | GPut _ _ :: t => get_sum t
  | GGet _ g _ :: t => g + get_sum t
  end.

Lemma path_sum cap c l c' : path (Container cap) c l c' -> c' == c + put_sum l - get_sum l.
Proof.
  induction 1 as [c|c i p l c' Hv Hp IH|c i g v l c' Hv Hp IH]; cbn [put_sum get_sum].
  - lra.
  - cbn in Hv, Hp, IH. unfold c_do_put in *. destruct (room_for cap c p); [|discriminate].
    cbn [r_c] in IH. pose proof (Qred_correct (c + p)) as Hr. lra.
  - cbn in Hv, Hp, IH. unfold c_do_get in *. destruct (Qle_bool g c); [|discriminate].
    cbn [r_c] in IH. pose proof (Qred_correct (c - g)) as Hr. lra.
Qed.

Theorem level_conservation cap fixed (acts : list (action (Container cap))) (init_level t0 : Q) s :
  run fixed (init (K:=Container cap) init_level t0) acts = Some s ->
  content s == init_level + put_sum (log s) - get_sum (log s).
Proof.
  intros Hr. apply path_sum. eapply (log_is_path (Container cap) true (container_laws cap)); eauto.
Qed.

(* what the heads of the queues look like when the clock may advance *)
Theorem container_heads_blocked cap (acts : list (action (Container cap))) (init_level t0 : Q) s t s' :
  run true (init (K:=Container cap) init_level t0) acts = Some s ->
  step true s (AAdvance t) = Some s' ->
  (forall i a rest, putq s = (i, a) :: rest ->
     match cap with Some c => c - content s < a | None => False end) /\
  (forall i a rest, getq s = (i, a) :: rest -> content s < a).
Proof.
  intros Hr Ha. apply advance_admissible in Ha.
  destruct (heads_blocked_generic (Container cap) true (container_laws cap) _ _ _ _ Hr Ha) as [Hp Hg].
  split.
  - intros i a rest Hq. unfold put_settled in Hp. rewrite Hq in Hp. cbn in Hp.
    unfold c_do_put in Hp. destruct (room_for cap (content s) a) eqn:E; [discriminate|].
    destruct cap as [c|]; cbn [room_for] in E; [|discriminate].
    destruct (Qlt_le_dec (c - content s) a) as [Hl|Hl]; [exact Hl|].
    apply Qle_bool_iff in Hl. cbn in Hl, E. rewrite Hl in E. discriminate.
  - intros i a rest Hq. unfold get_settled, get_head_settled in Hg. rewrite Hq in Hg. cbn in Hg.
    unfold c_do_get in Hg. destruct (Qle_bool a (content s)) eqn:E; [discriminate|].
    destruct (Qlt_le_dec (content s) a) as [Hl|Hl]; [exact Hl|].
    apply Qle_bool_iff in Hl. cbn in Hl, E. rewrite Hl in E. discriminate.
Qed.

(* the code as found (cancel without rescan) strands a satisfiable request:
   capacity 10, level 5: put(10) blocks, put(1) queues behind it, the first is cancelled;
   the clock may advance although 10 - 5 >= 1 *)
Definition K10 : kind := Container (Some 10).
Definition stranded_history : list (action K10) :=
  [@APut K10 10; @APut K10 1; @AAdvance K10 1; @ACancel K10 0%nat].

Lemma heads_blocked_refuted_unfixed :
  exists (acts : list (action (Container (Some 10)))) s t s',
    run false (init (K:=Container (Some 10)) 5 0) acts = Some s /\ step false s (AAdvance t) = Some s' /\
    exists i a rest, putq s = (i, a) :: rest /\ a <= 10 - content s.
Proof.
  exists stranded_history, (mkst (K:=K10) 5 [(1%nat, 1)] [] [] [] 2%nat 1), 6.
  eexists. split; [reflexivity|]. split; [reflexivity|].
  exists 1%nat, 1, []. split; [reflexivity|]. cbn. lra.
Qed.

(* the same history on the repaired model: the put(1) is granted by the cancel *)
Example stranded_history_repaired :
  match run true (init (K:=Container (Some 10)) 5 0) stranded_history with
  | Some s => (ids (putq s), map grant_id (log s), Qeq_bool (content s) 6) = ([], [1%nat], true)
  | None => False
  end.
Proof. vm_compute. reflexivity. Qed.

(* non-vacuity of the theorems: an admissible history with blocking, cancels and advances *)
Example container_example :
  match run true (init (K:=Container (Some 3)) (1#2) 0) (let K := Container (Some 3) in
     [@APut K 2; @AGet K 3; @AGet K (1#2); @AProcess K 0%nat; @APut K (1#2); @AProcess K 3%nat; @AProcess K 1%nat;
      @AAdvance K 2; @APut K 5; @APut K 1; @ACancel K 4%nat; @AProcess K 5%nat; @AProcess K 2%nat; @AAdvance K 3]) with
  | Some s => (ids (putq s), ids (getq s), map grant_id (log s), Qeq_bool (content s) (1#2)) =
              ([], [], [0; 3; 1; 5; 2]%nat, true)
  | None => False
  end.
Proof. vm_compute. reflexivity. Qed.
