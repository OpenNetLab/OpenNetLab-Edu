(* Model of onl/sim/resources/base.py (Put, Get, BaseResource._trigger_put/_trigger_get) and
   onl/sim/resources/resource.py (Request, Release, Resource, PriorityRequest, SortedQueue,
   PriorityResource, Preempted, PreemptiveResource) for ONE resource, as a nondeterministic automaton
   with explicit micro-steps.  Executable; no proofs here (the model must still run when a proof breaks).

   An execution is a list of actions.  What the processes do (request / release / cancel / with-exit),
   in which order the kernel processes the triggered events of the resource, and when the clock moves are
   all chosen by the environment; the theorems (ResourceProofs.v) quantify over every admissible choice. *)
From Coq Require Import ZArith List Bool Arith.
Import ListNotations.

Inductive kind := KRes | KPrio | KPreempt.          (* Resource | PriorityResource | PreemptiveResource *)

(* a Request / PriorityRequest object.  rid = creation index among the events of this resource (object
   identity), rproc = the process that was active when it was created (Put.proc), rsince = usage_since
   (class default None, set by Resource._do_put). For kind KRes priority and preempt are not used. *)
Record req := mkReq { rid : nat; rproc : nat; rprio : Z; rtime : Z; rpre : bool; rsince : option Z }.

(* ---- PriorityRequest.key = (priority, time, not preempt), compared as Python compares tuples -------- *)
Definition key := (Z * Z * bool)%type.
Definition rkey (r : req) : key := (rprio r, rtime r, negb (rpre r)).
Definition bool_ltb (a b : bool) : bool := negb a && b.                  (* False < True *)
Definition key_ltb (a b : key) : bool :=
  match a, b with
  | (p1, t1, n1), (p2, t2, n2) =>
      (p1 <? p2)%Z || ((p1 =? p2)%Z && ((t1 <? t2)%Z || ((t1 =? t2)%Z && bool_ltb n1 n2)))
  end.
Definition key_eqb (a b : key) : bool :=
  match a, b with
  | (p1, t1, n1), (p2, t2, n2) => (p1 =? p2)%Z && (t1 =? t2)%Z && Bool.eqb n1 n2
  end.

(* list.sort(key=lambda e: e.key) / sorted(..., key=...): a STABLE sort that only uses `<` on keys.
   Stable insertion sort; (the result of a stable sort is unique, so the algorithm does not matter). *)
Fixpoint ins (x : req) (l : list req) : list req :=
  match l with
  | [] => [x]
  | y :: t => if key_ltb (rkey y) (rkey x) then y :: ins x t else x :: y :: t
  end.
Fixpoint ssort (l : list req) : list req :=
  match l with
  | [] => []
  | x :: t => ins x (ssort t)
  end.

(* PutQueue.append:  list.append for Resource;  SortedQueue.append = append, then sort, for the others *)
Definition enqueue (k : kind) (q : list req) (e : req) : list req :=
  match k with
  | KRes => q ++ [e]
  | _ => ssort (q ++ [e])
  end.

(* list.remove(x) on a list of event objects (identity comparison): removes the first occurrence *)
Fixpoint remove_id (i : nat) (l : list req) : list req :=
  match l with
  | [] => []
  | x :: t => if rid x =? i then t else x :: remove_id i t
  end.
Definition has_id (i : nat) (l : list req) : bool := existsb (fun x => rid x =? i) l.

(* ---- events of the resource that the kernel has to process ------------------------------------------ *)
Inductive ev := EReq (i : nat) | ERel (i : nat).   (* a granted Request (callback _trigger_get) | a Release (callback _trigger_put) *)
Definition ev_eqb (a b : ev) : bool :=
  match a, b with
  | EReq i, EReq j => i =? j
  | ERel i, ERel j => i =? j
  | _, _ => false
  end.
Fixpoint remove_ev (e : ev) (l : list ev) : list ev :=
  match l with
  | [] => []
  | x :: t => if ev_eqb x e then t else x :: remove_ev e t
  end.
Definition has_ev (e : ev) (l : list ev) : bool := existsb (fun x => ev_eqb x e) l.

(* an eviction: victim removed from users; if its process is still alive (inotified):
   victim.proc.interrupt(Preempted(by=evictor.proc, usage_since=victim.usage_since, resource=self)) *)
Record intr := mkIntr { ivictim : req; iby : req; inotified : bool }.
Definition intr_fields (i : intr) : nat * nat * option Z :=       (* (interrupted process, by, usage_since) *)
  (rproc (ivictim i), rproc (iby i), rsince (ivictim i)).

Record state := mkState {
  users : list req;            (* Resource.users, in grant order *)
  queue : list req;            (* Resource.queue = put_queue *)
  getq : list (nat * nat);     (* get_queue: (id of the Release event, id of the request it names) *)
  pending : list ev;           (* triggered and not yet processed events of this resource, in trigger order;
                                  every one of them is on the kernel's agenda for `now` *)
  granted : list nat;          (* ids of all Request events that have ever been triggered, in grant order *)
  intrs : list intr;           (* evictions so far; those with inotified = true issued an Interruption *)
  dead : list nat;             (* processes whose generator has ended (Process.is_alive is False) *)
  next_id : nat;
  now : Z }.

Definition init (t0 : Z) : state := mkState [] [] [] [] [] [] [] 0 t0.

Definition set_users (s : state) (u : list req) :=
  mkState u (queue s) (getq s) (pending s) (granted s) (intrs s) (dead s) (next_id s) (now s).
Definition set_queue (s : state) (q : list req) :=
  mkState (users s) q (getq s) (pending s) (granted s) (intrs s) (dead s) (next_id s) (now s).
Definition set_getq (s : state) (g : list (nat * nat)) :=
  mkState (users s) (queue s) g (pending s) (granted s) (intrs s) (dead s) (next_id s) (now s).
Definition set_pending (s : state) (p : list ev) :=
  mkState (users s) (queue s) (getq s) p (granted s) (intrs s) (dead s) (next_id s) (now s).
Definition add_intr (s : state) (i : intr) :=
  mkState (users s) (queue s) (getq s) (pending s) (granted s) (intrs s ++ [i]) (dead s) (next_id s) (now s).
Definition add_dead (s : state) (p : nat) :=
  mkState (users s) (queue s) (getq s) (pending s) (granted s) (intrs s) (p :: dead s) (next_id s) (now s).
Definition bump_id (s : state) :=
  mkState (users s) (queue s) (getq s) (pending s) (granted s) (intrs s) (dead s) (S (next_id s)) (now s).
Definition set_now (s : state) (t : Z) :=
  mkState (users s) (queue s) (getq s) (pending s) (granted s) (intrs s) (dead s) (next_id s) t.

(* ---- the scan loop shared by _trigger_put and _trigger_get --------------------------------------------
     idx = 0
     while idx < len(q):
         e = q[idx]
         proceed = self._do_xxx(e)
         if not e.triggered: idx += 1
         elif q.pop(idx) != e: raise RuntimeError       (pop(idx) IS e: _do_xxx never touches q)
         if not proceed: break
   [kept] = the elements before idx (reversed), [rest] = q[idx:].  [f] is _do_put/_do_get; it returns the
   new state, whether the event is triggered afterwards, and its return value; None = it raised. *)
Fixpoint scan {A : Type} (f : state -> A -> option (state * bool * bool)) (s : state)
         (kept rest : list A) : option (state * list A) :=
  match rest with
  | [] => Some (s, rev kept)
  | e :: rest' =>
      match f s e with
      | None => None
      | Some (s', triggered, proceed) =>
          if triggered then
            if proceed then scan f s' kept rest' else Some (s', rev kept ++ rest')
          else
            if proceed then scan f s' (e :: kept) rest' else Some (s', rev kept ++ e :: rest')
      end
  end.

(* Resource._do_put (this fork returns True when it granted, False otherwise) *)
Definition res_do_put (cap : nat) (s : state) (e : req) : state * bool * bool :=
  if length (users s) <? cap then
    let e' := mkReq (rid e) (rproc e) (rprio e) (rtime e) (rpre e) (Some (now s)) in   (* usage_since = now *)
    (mkState (users s ++ [e']) (queue s) (getq s)
             (pending s ++ [EReq (rid e)])                                            (* event.succeed() *)
             (granted s ++ [rid e]) (intrs s) (dead s) (next_id s) (now s), true, true)
  else (s, false, false).

(* sorted(self.users, key=lambda e: e.key)[-1] *)
Definition worst (u : list req) : option req :=
  match rev (ssort u) with
  | [] => None
  | w :: _ => Some w
  end.

Definition is_dead (s : state) (p : nat) : bool := existsb (Nat.eqb p) (dead s).

(* PreemptiveResource._do_put  (the test is `preempt.key > event.key`, i.e. event.key < preempt.key):
       self.users.remove(preempt)
       if preempt.proc.is_alive:                      (fix: ffa1b36; a dead process cannot be interrupted)
           preempt.proc.interrupt(Preempted(by=event.proc, usage_since=preempt.usage_since, resource=self))
   [active] = env.active_process: Process.interrupt raises RuntimeError when the victim is the active
   process (after the victim was already removed from users); that is the None below. *)
Definition preempt_do_put (cap : nat) (active : option nat) (s : state) (e : req)
  : option (state * bool * bool) :=
  if (cap <=? length (users s)) && rpre e then
    match worst (users s) with
    | None => None                                              (* IndexError: sorted([])[-1] *)
    | Some w =>
        if key_ltb (rkey e) (rkey w) then
          let s1 := set_users s (remove_id (rid w) (users s)) in
          if is_dead s (rproc w) then Some (res_do_put cap (add_intr s1 (mkIntr w e false)) e)
          else
          match active with
          | Some a => if a =? rproc w then None                 (* "A process is not allowed to interrupt itself." *)
                      else Some (res_do_put cap (add_intr s1 (mkIntr w e true)) e)
          | None => Some (res_do_put cap (add_intr s1 (mkIntr w e true)) e)
          end
        else Some (res_do_put cap s e)
    end
  else Some (res_do_put cap s e).

Definition do_put (k : kind) (cap : nat) (active : option nat) (s : state) (e : req)
  : option (state * bool * bool) :=
  match k with
  | KPreempt => preempt_do_put cap active s e
  | _ => Some (res_do_put cap s e)
  end.

(* Resource._do_get:  users.remove(event.request) if present; event.succeed(); return True *)
Definition do_get (s : state) (g : nat * nat) : option (state * bool * bool) :=
  Some (mkState (remove_id (snd g) (users s)) (queue s) (getq s) (pending s ++ [ERel (fst g)])
                (granted s) (intrs s) (dead s) (next_id s) (now s), true, true).

Definition trigger_put (k : kind) (cap : nat) (active : option nat) (s : state) : option state :=
  match scan (do_put k cap active) s [] (queue s) with
  | Some (s', q') => Some (set_queue s' q')
  | None => None
  end.

Definition trigger_get (s : state) : option state :=
  match scan do_get s [] (getq s) with
  | Some (s', g') => Some (set_getq s' g')
  | None => None
  end.

(* ---- actions ------------------------------------------------------------------------------------------ *)
Inductive action :=
| ARequest (p : nat) (prio : Z) (pre : bool)   (* process p calls resource.request(prio, pre)  (request() for KRes) *)
| ARelease (r : nat)                           (* somebody calls resource.release(<request r>) *)
| ACancel (p : nat) (r : nat)                  (* process p calls <request r>.cancel()   (also __exit__ with GeneratorExit) *)
| AExit (p : nat) (r : nat)                    (* process p leaves `with <request r>`: __exit__ = cancel(), then resource.release(self) *)
| AProcess (e : ev)                            (* the kernel's step() processes the triggered event e *)
| AAdvance (t : Z)                             (* the clock moves to t *)
| AEnd (p : nat).                              (* the generator of process p ends (with or without having released) *)

(* Release.__init__ / Get.__init__:  get_queue.append(self); callbacks.append(_trigger_put); _trigger_get(None) *)
Definition release (s : state) (r : nat) : option state :=
  trigger_get (bump_id (set_getq s (getq s ++ [(next_id s, r)]))).

(* Put.cancel (as repaired by fix: e27f019):
     if not self.triggered:
         self.resource.put_queue.remove(self)          (ValueError when absent)
         self.resource._trigger_put(None)              (rescan; p is the active process) *)
Definition cancel (k : kind) (cap : nat) (p : nat) (s : state) (r : nat) : option state :=
  if existsb (Nat.eqb r) (granted s) then Some s
  else if has_id r (queue s) then trigger_put k cap (Some p) (set_queue s (remove_id r (queue s)))
  else None.

Definition step (k : kind) (cap : nat) (s : state) (a : action) : option state :=
  match a with
  | ARequest p prio pre =>
      (* PriorityRequest.__init__: key from (priority, env.now, not preempt);  Put.__init__: proc = active
         process, put_queue.append(self), callbacks.append(_trigger_get), _trigger_put(None) *)
      let e := mkReq (next_id s) p prio (now s) pre None in
      trigger_put k cap (Some p) (bump_id (set_queue s (enqueue k (queue s) e)))
  | ARelease r => release s r
  | ACancel p r => cancel k cap p s r
  | AExit p r => match cancel k cap p s r with Some s1 => release s1 r | None => None end
  | AProcess e =>
      if has_ev e (pending s) then
        let s1 := set_pending s (remove_ev e (pending s)) in
        match e with
        | EReq _ => trigger_get s1                               (* callbacks[0] of a Request = _trigger_get *)
        | ERel _ => trigger_put k cap None s1         (* callbacks[0] of a Release = _trigger_put *)
        end
      else None
  | AAdvance t => Some (set_now s t)
  | AEnd p => Some (add_dead s p)
  end.

(* ---- admissible histories ----------------------------------------------------------------------------
   - a process holds or awaits at most one request of the resource (the quantifier of C06),
   - cancel()/__exit__ is called on a request that has been granted, or is still queued and then by the
     process that made it (a second cancel of a cancelled request raises ValueError in list.remove; no
     claim is made about it),
   - the kernel processes only events that are triggered and unprocessed,
   - the clock advances only when no triggered event of the resource is unprocessed (they are all
     scheduled for `now`; C01), and it moves forward,
   - a process that has ended does nothing any more.  (It may have ended holding a slot or queueing.) *)
Definition adm (s : state) (a : action) : bool :=
  match a with
  | ARequest p _ _ => forallb (fun r => negb (rproc r =? p)) (users s ++ queue s) && negb (is_dead s p)
  | ARelease _ => true
  | ACancel p r | AExit p r =>
      (existsb (Nat.eqb r) (granted s) || existsb (fun x => (rid x =? r) && (rproc x =? p)) (queue s))
      && negb (is_dead s p)
  | AProcess e => has_ev e (pending s)
  | AAdvance t => match pending s with [] => (now s <? t)%Z | _ => false end
  | AEnd p => negb (is_dead s p)
  end.

Fixpoint run (k : kind) (cap : nat) (s : state) (l : list action) : option state :=
  match l with
  | [] => Some s
  | a :: t =>
      if adm s a then
        match step k cap s a with
        | Some s' => run k cap s' t
        | None => None
        end
      else None
  end.

(* ---- ranks ------------------------------------------------------------------------------------------- *)
(* queue rank: arrival for Resource; (priority, time, preempting first), then arrival, for the others *)
Definition rank_ltb (k : kind) (x y : req) : bool :=
  match k with
  | KRes => rid x <? rid y
  | _ => key_ltb (rkey x) (rkey y) || (key_eqb (rkey x) (rkey y) && (rid x <? rid y))
  end.

(* ---- correspondence: replay an observed action list and compare after every action ---------------------- *)
(* observation after an action: now, ids of users, ids of the queue, resource.count, pending events in agenda
   order, ids of triggered requests (ascending), number of Interruption events created so far *)
Definition snap := (Z * list nat * list nat * nat * list ev * list nat * nat)%type.

Fixpoint listnat_eqb (a b : list nat) : bool :=
  match a, b with
  | [], [] => true
  | x :: a', y :: b' => (x =? y) && listnat_eqb a' b'
  | _, _ => false
  end.
Fixpoint listev_eqb (a b : list ev) : bool :=
  match a, b with
  | [], [] => true
  | x :: a', y :: b' => ev_eqb x y && listev_eqb a' b'
  | _, _ => false
  end.
Definition subset_nat (a b : list nat) : bool := forallb (fun x => existsb (Nat.eqb x) b) a.

Definition snap_ok (s : state) (o : snap) : bool :=
  match o with
  | (t, us, qs, cnt, pe, tr, ni) =>
      (now s =? t)%Z && listnat_eqb (map rid (users s)) us && listnat_eqb (map rid (queue s)) qs
      && (length (users s) =? cnt) && listev_eqb (pending s) pe
      && (length (granted s) =? length tr) && subset_nat tr (granted s) && subset_nat (granted s) tr
      && (length (filter inotified (intrs s)) =? ni) && match getq s with [] => true | _ => false end
  end.

Fixpoint replay (k : kind) (cap : nat) (s : state) (l : list (action * snap)) : option state :=
  match l with
  | [] => Some s
  | (a, o) :: t =>
      if adm s a then
        match step k cap s a with
        | Some s' => if snap_ok s' o then replay k cap s' t else None
        | None => None
        end
      else None
  end.

Definition optZ_eqb (a b : option Z) : bool :=
  match a, b with
  | None, None => true
  | Some x, Some y => (x =? y)%Z
  | _, _ => false
  end.
Fixpoint intrs_eqb (a : list intr) (b : list (nat * nat * option Z)) : bool :=
  match a, b with
  | [], [] => true
  | i :: a', (v, by_, us) :: b' =>
      match intr_fields i with
      | (v', by', us') => (v' =? v) && (by' =? by_) && optZ_eqb us' us && intrs_eqb a' b'
      end
  | _, _ => false
  end.

(* the whole observed execution is admissible for the model, the model shows the observed state after
   every action, and it issued exactly the observed interrupts *)
Definition agree (k : kind) (cap : nat) (t0 : Z) (l : list (action * snap)) (is : list (nat * nat * option Z)) : bool :=
  match replay k cap (init t0) l with
  | Some s => intrs_eqb (filter inotified (intrs s)) is
  | None => false
  end.

(* diagnosis: index of the first action at which the replay stops, and the model's state there *)
Fixpoint first_bad (k : kind) (cap : nat) (s : state) (n : nat) (l : list (action * snap)) : option (nat * bool * option state) :=
  match l with
  | [] => None
  | (a, o) :: t =>
      if adm s a then
        match step k cap s a with
        | Some s' => if snap_ok s' o then first_bad k cap s' (S n) t else Some (n, true, Some s')
        | None => Some (n, true, None)
        end
      else Some (n, false, Some s)
  end.

(* ---- interface for the generated case files (everything given as Z literals) --------------------------- *)
Definition zn (z : Z) : nat := Z.to_nat z.
Definition Rq (p prio : Z) (pre : bool) : action := ARequest (zn p) prio pre.
Definition Rl (r : Z) : action := ARelease (zn r).
Definition Cn (p r : Z) : action := ACancel (zn p) (zn r).
Definition Ex (p r : Z) : action := AExit (zn p) (zn r).
Definition Pq (i : Z) : action := AProcess (EReq (zn i)).      (* a Request event is processed *)
Definition Pr (i : Z) : action := AProcess (ERel (zn i)).      (* a Release event is processed *)
Definition Ad (t : Z) : action := AAdvance t.
Definition En (p : Z) : action := AEnd (zn p).
Definition mkev (x : bool * Z) : ev := if fst x then ERel (zn (snd x)) else EReq (zn (snd x)).
Definition Sn (t : Z) (us qs : list Z) (cnt : Z) (pe : list (bool * Z)) (tr : list Z) (ni : Z) : snap :=
  (t, map zn us, map zn qs, zn cnt, map mkev pe, map zn tr, zn ni).
Definition In3 (v b : Z) (us : option Z) : nat * nat * option Z := (zn v, zn b, us).
Definition kind_of (z : Z) : kind := if (z =? 0)%Z then KRes else if (z =? 1)%Z then KPrio else KPreempt.
Definition agreeZ (k cap t0 : Z) (l : list (action * snap)) (is : list (nat * nat * option Z)) : bool :=
  agree (kind_of k) (zn cap) t0 l is.
(* readable dump of a state for diagnosis *)
Definition dump (s : state) :=
  (now s, map rid (users s), map rid (queue s), pending s, granted s,
   map (fun i => (intr_fields i, inotified i)) (intrs s), dead s, next_id s).
Definition diagZ (k cap t0 : Z) (l : list (action * snap)) :=
  match first_bad (kind_of k) (zn cap) (init t0) 0 l with
  | None => None
  | Some (n, admissible, st) => Some (n, admissible, option_map dump st)
  end.
