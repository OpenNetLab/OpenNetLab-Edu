(* Standalone model of onl/sim/resources/base.py (BaseResource, Put, Get) with the four concrete
   resources of container.py and store.py, as a nondeterministic automaton with explicit micro-steps.

   What is modelled, line by line:
     base.py Put.__init__ : put_queue.append(self); callbacks.append(_trigger_get); _trigger_put(None)
     base.py Get.__init__ : get_queue.append(self); callbacks.append(_trigger_put); _trigger_get(None)
     base.py Put.cancel, Get.cancel : if not triggered: queue.remove(self)  [+ rescan, fix: e27f019]
     base.py BaseResource._trigger_put, _trigger_get : the idx/proceed scan loops  ([scan])
     core.py Environment.step : a triggered event is popped from the agenda and its callbacks run; the first
                     callback of a Put event is _trigger_get, of a Get event _trigger_put  ([AProcess])
   An execution is a list of [action]s.  Nothing is assumed about who issues the operations or how
   they interleave inside one instant: theorems quantify over ALL admissible action lists.  The only
   fact about the kernel that is used is: a triggered event is scheduled for `now`, so the clock does
   not advance while a triggered, unprocessed event of the resource exists ([AAdvance] admissible only
   when [trig] is empty).
   Executable; no proofs here. *)
From Coq Require Import ZArith QArith List Bool Arith.
From ONL Require Import Res.Heap.
Import ListNotations.

(* result of one _do_put/_do_get call: the new content, Some v iff event.succeed(v) was called,
   and the boolean the method returns (True: the scan goes on, False: break) *)
Record dores (C V : Type) := mkres { r_c : C; r_val : option V; r_proceed : bool }.
Arguments mkres {C V}.
Arguments r_c {C V}.
Arguments r_val {C V}.
Arguments r_proceed {C V}.

Record kind := mkkind {
  KC : Type;                      (* content: level / items *)
  KP : Type;                      (* parameter of a put request: amount / item *)
  KG : Type;                      (* parameter of a get request: amount / nothing / filter *)
  KV : Type;                      (* value a get event is triggered with *)
  k_pvalid : KP -> bool;          (* argument check in the request constructor; false: ValueError, no request *)
  k_gvalid : KG -> bool;
  k_do_put : KC -> KP -> dores KC unit;
  k_do_get : KC -> KG -> dores KC KV
}.

(* ------------------------------------------------------------------------------------------------
   the scan loop of _trigger_put / _trigger_get (identical code):

        idx = 0
        while idx < len(queue):
            ev = queue[idx]
            proceed = self._do(ev)
            if not ev.triggered:   idx += 1
            elif queue.pop(idx) != ev:  raise RuntimeError(...)      # cannot happen: queue[idx] is ev
            if not proceed: break

   The recursion is on the part of the queue from idx on: [r] is queue[idx], [t] what follows; the
   entries before idx are the ones kept by earlier iterations.  Returns the content, the queue after
   the loop and the requests triggered by it, in order, with their values. *)
Section Scan.
  Context {C P V : Type}.
  Variable doit : C -> P -> dores C V.

  Fixpoint scan (c : C) (q : list (nat * P)) : C * list (nat * P) * list (nat * P * V) :=
    match q with
    | [] => (c, [], [])
    | r :: t =>
        let res := doit c (snd r) in
        match r_val res with
        | None =>                                   (* not triggered: idx += 1 *)
            if r_proceed res
            then let '(c', rem, gs) := scan (r_c res) t in (c', r :: rem, gs)
            else (r_c res, r :: t, [])
        | Some v =>                                 (* triggered: queue.pop(idx) *)
            if r_proceed res
            then let '(c', rem, gs) := scan (r_c res) t in (c', rem, (r, v) :: gs)
            else (r_c res, t, [(r, v)])
        end
    end.
End Scan.

Inductive evk := EvPut | EvGet.
Definition evk_eqb (a b : evk) : bool :=
  match a, b with EvPut, EvPut | EvGet, EvGet => true | _, _ => false end.

Inductive grant (K : kind) :=
| GPut (id : nat) (p : KP K)
| GGet (id : nat) (g : KG K) (v : KV K).
Arguments GPut {K}.
Arguments GGet {K}.

Definition grant_id {K} (g : grant K) : nat :=
  match g with GPut i _ => i | GGet i _ _ => i end.

Record state (K : kind) := mkst {
  content : KC K;
  putq : list (nat * KP K);       (* put_queue: (request id, parameter); ids are creation indices *)
  getq : list (nat * KG K);       (* get_queue *)
  trig : list (nat * evk);        (* triggered, not yet processed request events (on the agenda for `now`) *)
  log : list (grant K);           (* ghost: every succeed() so far, in the order they happened *)
  next_id : nat;
  now : Q
}.
Arguments mkst {K}.
Arguments content {K}.
Arguments putq {K}.
Arguments getq {K}.
Arguments trig {K}.
Arguments log {K}.
Arguments next_id {K}.
Arguments now {K}.

Inductive action (K : kind) :=
| APut (p : KP K)                 (* resource.put(p)  *)
| AGet (g : KG K)                 (* resource.get(g)  *)
| ACancel (id : nat)              (* request.cancel() / __exit__ of a with block *)
| AProcess (id : nat)             (* Environment.step pops the triggered request event id: its rescan callback runs *)
| AAdvance (t : Q).               (* the clock moves to t *)
Arguments APut {K}.
Arguments AGet {K}.
Arguments ACancel {K}.
Arguments AProcess {K}.
Arguments AAdvance {K}.

Definition Qlt_bool (a b : Q) : bool := negb (Qle_bool b a).

Fixpoint mem_id {P : Type} (i : nat) (q : list (nat * P)) : bool :=
  match q with [] => false | r :: t => Nat.eqb (fst r) i || mem_id i t end.

(* list.remove(x): the first occurrence *)
Fixpoint remove_id {P : Type} (i : nat) (q : list (nat * P)) : list (nat * P) :=
  match q with [] => [] | r :: t => if Nat.eqb (fst r) i then t else r :: remove_id i t end.

Fixpoint find_id {P : Type} (i : nat) (q : list (nat * P)) : option P :=
  match q with [] => None | r :: t => if Nat.eqb (fst r) i then Some (snd r) else find_id i t end.

Section Step.
  Variable K : kind.

  Definition trigger_put (s : state K) : state K :=
    let '(c, rem, gs) := scan (k_do_put K) (content s) (putq s) in
    mkst c rem (getq s)
         (trig s ++ map (fun g => (fst (fst g), EvPut)) gs)
         (log s ++ map (fun g => GPut (fst (fst g)) (snd (fst g))) gs)
         (next_id s) (now s).

  Definition trigger_get (s : state K) : state K :=
    let '(c, rem, gs) := scan (k_do_get K) (content s) (getq s) in
    mkst c (putq s) rem
         (trig s ++ map (fun g => (fst (fst g), EvGet)) gs)
         (log s ++ map (fun g => GGet (fst (fst g)) (snd (fst g)) (snd g)) gs)
         (next_id s) (now s).

  Definition log_has (i : nat) (s : state K) : bool := existsb (fun g => Nat.eqb (grant_id g) i) (log s).

  (* [fixed = true]: the repaired cancel (rescan after the removal); [false]: the code as found.
     None = the action is not admissible in s.  Calls that raise ValueError (an invalid amount; cancel of
     a request that was already cancelled: list.remove(x) with x not in the list) leave the state as it
     is; [raises] tells them apart. *)
  Definition step (fixed : bool) (s : state K) (a : action K) : option (state K) :=
    match a with
    | APut p =>
        if k_pvalid K p then
          Some (trigger_put (mkst (content s) (putq s ++ [(next_id s, p)]) (getq s) (trig s) (log s)
                                  (S (next_id s)) (now s)))
        else Some s
    | AGet g =>
        if k_gvalid K g then
          Some (trigger_get (mkst (content s) (putq s) (getq s ++ [(next_id s, g)]) (trig s) (log s)
                                  (S (next_id s)) (now s)))
        else Some s
    | ACancel i =>
        if mem_id i (putq s) then
          let s1 := mkst (content s) (remove_id i (putq s)) (getq s) (trig s) (log s) (next_id s) (now s) in
          Some (if fixed then trigger_put s1 else s1)
        else if mem_id i (getq s) then
          let s1 := mkst (content s) (putq s) (remove_id i (getq s)) (trig s) (log s) (next_id s) (now s) in
          Some (if fixed then trigger_get s1 else s1)
        else if Nat.ltb i (next_id s) then Some s    (* triggered: nothing happens; cancelled before: raises *)
        else None                                    (* no such request *)
    | AProcess i =>
        match find_id i (trig s) with
        | None => None                               (* not a triggered, unprocessed event *)
        | Some k =>
            let s1 := mkst (content s) (putq s) (getq s) (remove_id i (trig s)) (log s) (next_id s) (now s) in
            Some (match k with EvPut => trigger_get s1 | EvGet => trigger_put s1 end)
        end
    | AAdvance t =>
        match trig s with
        | [] => if Qlt_bool (now s) t
                then Some (mkst (content s) (putq s) (getq s) [] (log s) (next_id s) t) else None
        | _ :: _ => None                             (* an event of this resource is still due at `now` *)
        end
    end.

  Definition raises (s : state K) (a : action K) : bool :=
    match a with
    | APut p => negb (k_pvalid K p)
    | AGet g => negb (k_gvalid K g)
    | ACancel i => negb (mem_id i (putq s)) && negb (mem_id i (getq s)) && Nat.ltb i (next_id s)
                   && negb (log_has i s)
    | _ => false
    end.

  Fixpoint run (fixed : bool) (s : state K) (acts : list (action K)) : option (state K) :=
    match acts with
    | [] => Some s
    | a :: t => match step fixed s a with Some s' => run fixed s' t | None => None end
    end.

  (* for the correspondence: the state after every action, and whether the call raised;
     None as soon as an action is not admissible *)
  Fixpoint trace (fixed : bool) (s : state K) (acts : list (action K)) : option (list (state K * bool)) :=
    match acts with
    | [] => Some []
    | a :: t =>
        match step fixed s a with
        | None => None
        | Some s' => match trace fixed s' t with
                     | None => None
                     | Some l => Some ((s', raises s a) :: l)
                     end
        end
    end.

  Definition init (c0 : KC K) (t0 : Q) : state K := mkst c0 [] [] [] [] 0%nat t0.
End Step.

Arguments trigger_put {K}.
Arguments trigger_get {K}.
Arguments step {K}.
Arguments raises {K}.
Arguments run {K}.
Arguments trace {K}.
Arguments init {K}.

(* ------------------------------------------------------------------------------------------------
   Container (container.py:77-91).  capacity None = float('inf').  Levels are kept reduced. *)
Definition room_for (cap : option Q) (level amount : Q) : bool :=
  match cap with
  | None => true                                   (* inf - level >= amount *)
  | Some c => Qle_bool amount (c - level)          (* self._capacity - self._level >= event.amount *)
  end.

Definition c_do_put (cap : option Q) (level amount : Q) : dores Q unit :=
  if room_for cap level amount
  then mkres (Qred (level + amount)) (Some tt) true
  else mkres level None false.

Definition c_do_get (level amount : Q) : dores Q unit :=
  if Qle_bool amount level                         (* self._level >= event.amount *)
  then mkres (Qred (level - amount)) (Some tt) true
  else mkres level None false.

Definition amount_ok (a : Q) : bool := Qlt_bool 0 a.    (* if amount <= 0: raise ValueError *)

Definition Container (cap : option Q) : kind :=
  mkkind Q Q Q unit amount_ok amount_ok (c_do_put cap) c_do_get.

(* ------------------------------------------------------------------------------------------------
   Store (store.py:87-100) *)
Definition has_room (cap : option Q) (n : nat) : bool :=
  match cap with
  | None => true
  | Some c => Qle_bool (inject_Z (Z.of_nat n) + 1) c    (* len(self.items) + 1 <= self._capacity *)
  end.

(* the guard before fix: 2019701:  len(self.items) < self._capacity  (admits ceil(capacity) items) *)
Definition has_room_old (cap : option Q) (n : nat) : bool :=
  match cap with
  | None => true
  | Some c => Qlt_bool (inject_Z (Z.of_nat n)) c
  end.

Section Stores.
  Variable A : Type.

  Definition s_do_put (cap : option Q) (items : list A) (item : A) : dores (list A) unit :=
    if has_room cap (length items)
    then mkres (items ++ [item]) (Some tt) true     (* self.items.append(event.item) *)
    else mkres items None false.

  Definition s_do_get (items : list A) (_ : unit) : dores (list A) A :=
    match items with
    | x :: t => mkres t (Some x) true               (* event.succeed(self.items.pop(0)) *)
    | [] => mkres [] None false
    end.

  Definition Store (cap : option Q) : kind :=
    mkkind (list A) A unit A (fun _ => true) (fun _ => true) (s_do_put cap) s_do_get.

  (* the Store of the code as found (old capacity guard), only used by the refutation theorem *)
  Definition s_do_put_old (cap : option Q) (items : list A) (item : A) : dores (list A) unit :=
    if has_room_old cap (length items)
    then mkres (items ++ [item]) (Some tt) true
    else mkres items None false.

  Definition Store_unfixed (cap : option Q) : kind :=
    mkkind (list A) A unit A (fun _ => true) (fun _ => true) (s_do_put_old cap) s_do_get.

  (* PriorityStore (store.py:116-129); [key] is what `<` compares (PriorityItem.priority).
     The error result of the heap functions (out of fuel / bad index) is mapped to "nothing happens";
     HeapProofs.heappush_total / heappop_total show it never occurs, for any list. *)
  Variable key : A -> Z.

  Definition p_do_put (cap : option Q) (items : list A) (item : A) : dores (list A) unit :=
    if has_room cap (length items)
    then match heappush key items item with
         | Some h => mkres h (Some tt) true
         | None => mkres items None false
         end
    else mkres items None false.

  Definition p_do_get (items : list A) (_ : unit) : dores (list A) A :=
    match items with
    | _ :: _ =>
        match heappop key items with
        | Some (x, h) => mkres h (Some x) true
        | None => mkres items None false
        end
    | [] => mkres [] None false
    end.

  Definition PriorityStore (cap : option Q) : kind :=
    mkkind (list A) A unit A (fun _ => true) (fun _ => true) (p_do_put cap) p_do_get.

  (* FilterStore._do_get (store.py, as repaired by fix: 937b0a6):
        for i, item in enumerate(self.items):
            if event.filter(item): del self.items[i]; event.succeed(item); break
        return True
     the matched element itself is removed (the loop as found is [f_do_get_old] below). *)
  Fixpoint take_first (f : A -> bool) (l : list A) : option (A * list A) :=
    match l with
    | [] => None
    | x :: t =>
        if f x then Some (x, t)
        else match take_first f t with
             | Some (y, t') => Some (y, x :: t')
             | None => None
             end
    end.

  Definition f_do_get (items : list A) (f : A -> bool) : dores (list A) A :=
    match take_first f items with
    | Some (x, rest) => mkres rest (Some x) true
    | None => mkres items None true
    end.

  Definition FilterStore (cap : option Q) : kind :=
    mkkind (list A) A (A -> bool) A (fun _ => true) (fun _ => true) (s_do_put cap) f_do_get.

  (* FilterStore._do_get as found (before fix: 937b0a6):
        for item in self.items:
            if event.filter(item): self.items.remove(item); event.succeed(item); break
     list.remove(item) removes the first element that compares EQUAL to item (Python ==, here [veq]),
     which need not be the matched element.  Only used by the refutation theorem. *)
  Variable veq : A -> A -> bool.

  Fixpoint remove_eq (x : A) (l : list A) : list A :=
    match l with
    | [] => []
    | y :: t => if veq x y then t else y :: remove_eq x t
    end.

  Definition f_do_get_old (items : list A) (f : A -> bool) : dores (list A) A :=
    match find f items with
    | Some x => mkres (remove_eq x items) (Some x) true
    | None => mkres items None true
    end.

  Definition FilterStore_unfixed (cap : option Q) : kind :=
    mkkind (list A) A (A -> bool) A (fun _ => true) (fun _ => true) (s_do_put cap) f_do_get_old.
End Stores.

Arguments take_first {A}.

(* the request ids of a queue, in queue order (also what the harness records of a queue, Res/ContainerStoreObs.v) *)
Definition ids {P : Type} (q : list (nat * P)) : list nat := map fst q.
