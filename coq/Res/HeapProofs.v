(* Proofs about the heapq transcription Res/Heap.v.  Res/Heap.v is Elem/Heap.v with the comparison `a < b` fixed
   to `key a <? key b`: the two files define the same functions (the equalities hold by conversion), so that
   heappush/heappop keep the heap invariant and the multiset, and heappop returns a minimum, is read off
   Elem/HeapProofs.v.  Proved here: the error result (out of fuel / bad index) never occurs, for ANY list, heap
   or not. *)
From Coq Require Import ZArith List Bool Arith Lia Permutation.
From ONL Require Import Elem.Heap Elem.HeapProofs.
From ONL Require Import Res.Heap.
Import ListNotations.

Section Total.
  Variable A : Type.
  Variable ltb : A -> A -> bool.

  Lemma par_lt i : 0 < i -> Elem.Heap.par i < i.
  Proof. intros H. destruct (par_spec i H); lia. Qed.

  (* _siftdown only reads positions below pos *)
  Lemma siftdown_total : forall fuel (h : list A) x pos,
    pos < fuel -> pos < length h -> Elem.Heap.siftdown ltb fuel h 0 x pos <> None.
  Proof.
    induction fuel as [|f IH]; intros h x pos Hf Hl; [lia|]. rewrite siftdown_S.
    destruct (Nat.ltb 0 pos) eqn:E; [|discriminate].
    apply Nat.ltb_lt in E. pose proof (par_lt pos E) as Hp.
    destruct (nth_error h (Elem.Heap.par pos)) as [parent|] eqn:En.
    - destruct (ltb x parent); [|discriminate]. apply IH; [lia|]. rewrite upd_length. lia.
    - apply nth_error_None in En. lia.
  Qed.

  (* the loop of _siftup moves to a child that exists, so length - pos fuel is enough *)
  Lemma siftup_loop_total : forall fuel (h : list A) pos,
    length h - pos <= fuel -> pos < length h ->
    exists h' leaf, Elem.Heap.siftup_loop ltb fuel h pos = Some (h', leaf) /\ length h' = length h /\ leaf < length h.
  Proof.
    induction fuel as [|f IH]; intros h pos Hf Hl; [lia|]. rewrite siftup_loop_S.
    destruct (Nat.ltb (2 * pos + 1) (length h)) eqn:E; [|exists h, pos; auto].
    apply Nat.ltb_lt in E.
    destruct (nth_error h (2 * pos + 1)) as [cl|] eqn:E1; [|apply nth_error_None in E1; lia].
    assert (Hpick : exists cp,
      (if Nat.ltb (2 * pos + 1 + 1) (length h)
       then match nth_error h (2 * pos + 1 + 1) with
            | None => None
            | Some cr => Some (if negb (ltb cl cr) then 2 * pos + 1 + 1 else 2 * pos + 1)
            end
       else Some (2 * pos + 1)) = Some cp /\ pos < cp < length h).
    { destruct (Nat.ltb (2 * pos + 1 + 1) (length h)) eqn:E2.
      - apply Nat.ltb_lt in E2.
        destruct (nth_error h (2 * pos + 1 + 1)) as [cr|] eqn:E3; [|apply nth_error_None in E3; lia].
        destruct (negb (ltb cl cr)); eexists; split; try reflexivity; lia.
      - eexists; split; [reflexivity|lia]. }
    destruct Hpick as (cp & -> & Hcp).
    destruct (nth_error h cp) as [c|] eqn:E4; [|apply nth_error_None in E4; lia].
    destruct (IH (Elem.Heap.upd h pos c) cp) as (h' & leaf & Hs & Hl1 & Hl2); rewrite ?upd_length in *; try lia.
    exists h', leaf. auto.
  Qed.

  Lemma heappush_never_fails h x : Elem.Heap.heappush ltb h x <> None.
  Proof. unfold Elem.Heap.heappush. apply siftdown_total; rewrite app_length; cbn; lia. Qed.

  Lemma heappop_never_fails h : h <> [] -> Elem.Heap.heappop ltb h <> None.
  Proof.
    intros Hne. destruct (exists_last Hne) as (h0 & lastelt & ->). unfold Elem.Heap.heappop.
    rewrite app_length. cbn [length]. replace (length h0 + 1 - 1) with (length h0) by lia.
    rewrite nth_error_app2 by lia. rewrite Nat.sub_diag. cbn [nth_error].
    rewrite firstn_app, firstn_all, Nat.sub_diag. cbn [firstn]. rewrite app_nil_r.
    destruct h0 as [|r t]; [discriminate|]. cbn [Elem.Heap.upd]. unfold Elem.Heap.siftup. cbn [nth_error].
    destruct (siftup_loop_total (length (lastelt :: t)) (lastelt :: t) 0) as (h' & leaf & -> & Hl1 & Hl2); [lia|cbn; lia|].
    destruct (Elem.Heap.siftdown ltb (S leaf) (Elem.Heap.upd h' leaf lastelt) 0 lastelt leaf) eqn:Es; [discriminate|].
    exfalso. revert Es. apply siftdown_total; [lia|]. rewrite upd_length. lia.
  Qed.
End Total.

Lemma hlt_irrefl {A} (key : A -> Z) a : hlt key a a = false.
Proof. apply Z.ltb_irrefl. Qed.
Lemma hlt_trans {A} (key : A -> Z) a b c : hlt key a b = true -> hlt key b c = true -> hlt key a c = true.
Proof. unfold hlt. rewrite !Z.ltb_lt. lia. Qed.
Lemma hlt_negtrans {A} (key : A -> Z) a b c : hlt key a b = false -> hlt key b c = false -> hlt key a c = false.
Proof. unfold hlt. rewrite !Z.ltb_ge. lia. Qed.

Section HeapProofs.
  Variable A : Type.
  Variable key : A -> Z.

  (* the invariant heapq maintains: heap[(i-1)>>1] <= heap[i], i.e. not heap[i] < heap[parent] *)
  Definition heap_ok (l : list A) : Prop :=
    forall i x p, 0 < i -> nth_error l i = Some x -> nth_error l (par i) = Some p -> (key p <= key x)%Z.

  Lemma heap_ok_inv l : heap_ok l <-> heap_inv (hlt key) l.
  Proof. split; intros H i x p Hi Hx Hp; apply Z.ltb_ge, (H i x p Hi Hx Hp). Qed.

  Lemma heap_ok_nil : heap_ok [].
  Proof. apply heap_ok_inv, heap_inv_nil. Qed.

  Theorem heappush_spec h x :
    heap_ok h -> exists h', heappush key h x = Some h' /\ heap_ok h' /\ Permutation (x :: h) h'.
  Proof.
    intros Hok. apply heap_ok_inv in Hok.
    destruct (Elem.HeapProofs.heappush_spec A (hlt key) (hlt_irrefl key) (hlt_trans key) (hlt_negtrans key) h x Hok) as (h' & E & Hok' & Hp).
    exists h'. split; [exact E|]. split; [apply heap_ok_inv, Hok'|symmetry; exact Hp].
  Qed.

  Theorem heappop_spec h :
    h <> [] -> heap_ok h ->
    exists x h', heappop key h = Some (x, h') /\ heap_ok h' /\ Permutation h (x :: h') /\
                 forall y, In y h -> (key x <= key y)%Z.
  Proof.
    intros Hne Hok. apply heap_ok_inv in Hok.
    destruct (Elem.HeapProofs.heappop_spec A (hlt key) (hlt_irrefl key) (hlt_trans key) (hlt_negtrans key) h Hok Hne) as (x & h' & E & Hok' & Hp & Hmin).
    exists x, h'. split; [exact E|]. split; [apply heap_ok_inv, Hok'|]. split; [exact Hp|].
    intros y Hy. apply Z.ltb_ge, Hmin, Hy.
  Qed.

  (* the error result never occurs, whatever the list looks like *)
  Theorem heappush_total h x : heappush key h x <> None.
  Proof. apply (heappush_never_fails A (hlt key)). Qed.

  Theorem heappop_total h : h <> [] -> heappop key h <> None.
  Proof. apply (heappop_never_fails A (hlt key)). Qed.

  Theorem heap_total h x : heappush key h x <> None /\ (h <> [] -> heappop key h <> None).
  Proof. split; [apply heappush_total|apply heappop_total]. Qed.
End HeapProofs.

(* six items of equal priority pushed with tags 0..5 leave in the order CPython's heapq produces *)
Example heap_ties :
  let push := fun h x => match heappush (fun p : Z * Z => fst p) h x with Some h' => h' | None => h end in
  let h := fold_left push [(1, 0); (1, 1); (1, 2); (1, 3); (1, 4); (1, 5)]%Z [] in
  (fix pops (n : nat) (h : list (Z * Z)) : list Z :=
     match n with O => [] | S k => match heappop (fun p => fst p) h with Some (x, h') => snd x :: pops k h' | None => [] end end) 6 h
  = [0; 2; 5; 4; 1; 3]%Z.
Proof. vm_compute. reflexivity. Qed.
