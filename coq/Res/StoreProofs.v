(* Store, PriorityStore, FilterStore (store.py): capacity bound, every accepted item is handed out
   exactly once, the order disciplines, and what "cannot be granted" means for them. *)
From Coq Require Import ZArith QArith List Bool Arith Lia Sorted Permutation.
From ONL Require Import Res.Heap Res.HeapProofs Res.ContainerStore Res.ContainerStoreProofs.
Import ListNotations.
Local Open Scope nat_scope.
Definition len_ok (cap : option Q) (n : nat) : Prop :=
  match cap with Some c => (inject_Z (Z.of_nat n) <= c)%Q | None => True end.

(* what the constructor enforces: capacity > 0 (or infinite) *)
Definition cap_pos (cap : option Q) : Prop :=
  match cap with Some c => (0 < c)%Q | None => True end.

Lemma has_room_succ cap n : has_room cap n = true -> len_ok cap (S n).
Proof.
  unfold has_room, len_ok. destruct cap as [c|]; [|auto]. intros H. apply Qle_bool_iff in H.
  rewrite Nat2Z.inj_succ. unfold Z.succ. rewrite inject_Z_plus. exact H.
Qed.

Lemma has_room_false cap n :
  has_room cap n = false -> exists c, cap = Some c /\ (c < inject_Z (Z.of_nat n) + 1)%Q.
Proof.
  unfold has_room. destruct cap as [c|]; [|discriminate]. intros H. exists c. split; [auto|].
  destruct (Qlt_le_dec c (inject_Z (Z.of_nat n) + 1)) as [Hl|Hl]; [exact Hl|].
  apply Qle_bool_iff in Hl. rewrite Hl in H. discriminate.
Qed.

Section TakeFirst.
  Context {A : Type}.

  Lemma take_first_some (f : A -> bool) l x rest :
    take_first f l = Some (x, rest) ->
    exists a b, l = a ++ x :: b /\ rest = a ++ b /\ f x = true /\ forall y, In y a -> f y = false.
  Proof.
    revert x rest. induction l as [|z t IH]; cbn [take_first]; intros x rest H; [discriminate|].
    destruct (f z) eqn:E.
    - injection H as <- <-. exists [], t. cbn. repeat split; auto. intros y [].
    - destruct (take_first f t) as [[y t']|]; [|discriminate]. injection H as <- <-.
      destruct (IH _ _ eq_refl) as (a & b & -> & -> & Hx & Ha).
      exists (z :: a), b. cbn. repeat split; auto. intros w [<-|Hw]; auto.
  Qed.

  Lemma take_first_none (f : A -> bool) l : take_first f l = None <-> forall y, In y l -> f y = false.
  Proof.
    induction l as [|z t IH]; cbn [take_first].
    - split; [intros _ y []|auto].
    - destruct (f z) eqn:E.
      + split; [discriminate|]. intros H. rewrite (H z) in E; [discriminate|left; auto].
      + destruct (take_first f t) as [[y t']|].
        * split; [discriminate|]. intros H.
          assert (Hn : Some (y, t') = None) by (apply IH; intros w Hw; apply H; right; exact Hw).
          discriminate.
        * split; [|auto]. intros _ w [<-|Hw]; [exact E|]. apply IH; auto.
  Qed.
  Lemma f_do_get_some items (f : A -> bool) v : r_val (f_do_get A items f) = Some v ->
    exists a b, items = a ++ v :: b /\ r_c (f_do_get A items f) = a ++ b /\ f v = true /\ forall y, In y a -> f y = false.
  Proof.
    unfold f_do_get. destruct (take_first f items) as [[x rest]|] eqn:E; [|discriminate]. intros [= <-].
    apply take_first_some in E as (a & b & -> & -> & Hx & Ha). exists a, b. auto.
  Qed.

  Lemma f_do_get_none items (f : A -> bool) : r_val (f_do_get A items f) = None <-> forall y, In y items -> f y = false.
  Proof.
    rewrite <- take_first_none. unfold f_do_get.
    destruct (take_first f items) as [[x rest]|]; split; intros H; (reflexivity || discriminate H).
  Qed.
End TakeFirst.

(* the laws of the generic development *)
Lemma store_laws A cap : laws (Store A cap) true.
Proof.
  split; cbn.
  - intros c p. unfold s_do_put. destruct (has_room cap (length c)); cbn; [discriminate|auto].
  - intros c p. unfold s_do_put. destruct (has_room cap (length c)); cbn; auto.
  - intros c p. unfold s_do_get. destruct c; cbn; [auto|discriminate].
  - intros c p. unfold s_do_get. destruct c; cbn; auto.
Qed.

Lemma prio_laws A key cap : laws (PriorityStore A key cap) true.
Proof.
  split; cbn.
  - intros c p. unfold p_do_put. destruct (has_room cap (length c)); cbn; [|auto].
    destruct (heappush key c p); cbn; [discriminate|auto].
  - intros c p. unfold p_do_put. destruct (has_room cap (length c)); cbn; [|auto].
    destruct (heappush key c p); cbn; auto.
  - intros c p. unfold p_do_get. destruct c as [|a t]; cbn [r_c r_val]; [auto|].
    destruct (heappop key (a :: t)) as [[x h]|]; cbn; [discriminate|auto].
  - intros c p. unfold p_do_get. destruct c as [|a t]; cbn [r_proceed r_val]; [auto|].
    destruct (heappop key (a :: t)) as [[x h]|]; cbn; auto.
Qed.

Lemma filter_laws A cap : laws (FilterStore A cap) false.
Proof.
  split; cbn.
  - intros c p. unfold s_do_put. destruct (has_room cap (length c)); cbn; [discriminate|auto].
  - intros c p. unfold s_do_put. destruct (has_room cap (length c)); cbn; auto.
  - intros c f. unfold f_do_get. destruct (take_first f c) as [[x rest]|]; cbn; [discriminate|auto].
  - split.
    + intros c f. unfold f_do_get. destruct (take_first f c) as [[x rest]|]; cbn; auto.
    + (* what f rejected before another getter was served it rejects afterwards: the content only lost an item *)
      intros c f f' Hf. apply f_do_get_none. intros y Hy. apply (proj1 (f_do_get_none c f) Hf).
      destruct (r_val (f_do_get A c f')) as [v|] eqn:E'.
      * apply f_do_get_some in E' as (a & b & -> & E' & _). rewrite E' in Hy.
        apply in_app_or in Hy as [Hy|Hy]; apply in_or_app; [left|right; right]; exact Hy.
      * unfold f_do_get in *. destruct (take_first f' c) as [[x rest]|]; [discriminate|exact Hy].
Qed.

(* what all three stores share: the content is a list of items; an accepted put adds its item, a granted
   get removes the item it hands out (as multisets) *)
Section StoreLike.
  Variable K : kind.
  Variable A : Type.
  Variable items : KC K -> list A.
  Variable pitem : KP K -> A.
  Variable vitem : KV K -> A.
  Variable I : KC K -> Prop.         (* an invariant of the content (heap shape for PriorityStore) *)
  Hypothesis I_put : forall c p, I c -> I (r_c (k_do_put K c p)).
  Hypothesis I_get : forall c g, I c -> I (r_c (k_do_get K c g)).
  Hypothesis put_perm : forall c p, I c -> r_val (k_do_put K c p) = Some tt ->
    Permutation (items (r_c (k_do_put K c p))) (pitem p :: items c).
  Hypothesis get_perm : forall c g v, I c -> r_val (k_do_get K c g) = Some v ->
    Permutation (items c) (vitem v :: items (r_c (k_do_get K c g))).

  Definition accepted (l : list (grant K)) : list A :=
    flat_map (fun g => match g with GPut _ p => [pitem p] | GGet _ _ _ => [] end) l.
  Definition delivered (l : list (grant K)) : list A :=
    flat_map (fun g => match g with GGet _ _ v => [vitem v] | GPut _ _ => [] end) l.

  Lemma path_perm c l c' : path K c l c' -> I c ->
    Permutation (items c ++ accepted l) (items c' ++ delivered l).
  Proof.
    induction 1 as [c|c i p l c' Hv Hp IH|c i g v l c' Hv Hp IH]; intros Hc; cbn [accepted delivered flat_map app].
    - apply Permutation_refl.
    - fold (accepted l). fold (delivered l). specialize (IH (I_put _ p Hc)).
      etransitivity; [|exact IH]. etransitivity; [apply Permutation_sym, Permutation_middle|].
      change (pitem p :: items c ++ accepted l) with ((pitem p :: items c) ++ accepted l).
      apply Permutation_app_tail. apply Permutation_sym. apply put_perm; auto.
    - fold (accepted l). fold (delivered l). specialize (IH (I_get _ g Hc)).
      etransitivity; [|apply Permutation_middle].
      etransitivity; [apply Permutation_app_tail; apply (get_perm _ _ _ Hc Hv)|]. cbn [app].
      constructor. exact IH.
  Qed.
End StoreLike.

Arguments accepted {K A} pitem l.
Arguments delivered {K A} vitem l.
Section Stores.
  Variable A : Type.
  Variable cap : option Q.
  Hypothesis Hcap : cap_pos cap.

  Let idA := fun x : A => x.
  Lemma store_path_fifo c l c' :
    path (Store A cap) c l c' -> c ++ accepted (K:=Store A cap) idA l = delivered (K:=Store A cap) idA l ++ c'.
  Proof.
    induction 1 as [c|c i p l c' Hv Hp IH|c i g v l c' Hv Hp IH]; cbn [accepted delivered flat_map app].
    - rewrite app_nil_r. reflexivity.
    - cbn in Hv, Hp, IH. unfold s_do_put in *. destruct (has_room cap (length c)); [|discriminate].
      cbn [r_c] in IH. rewrite <- app_assoc in IH. exact IH.
    - cbn in Hv, Hp, IH. unfold s_do_get in *. destruct c as [|x t]; [discriminate|].
      cbn [r_val r_c] in *. injection Hv as <-. unfold idA at 2. cbn [app]. f_equal. exact IH.
  Qed.

  Theorem store_fifo fixed (acts : list (action (Store A cap))) t0 s :
    run fixed (init (K:=Store A cap) [] t0) acts = Some s ->
    accepted (K:=Store A cap) idA (log s) = delivered (K:=Store A cap) idA (log s) ++ content s.
  Proof.
    intros Hr. apply (log_is_path (Store A cap) true (store_laws A cap)) in Hr.
    apply store_path_fifo in Hr. exact Hr.
  Qed.

  Lemma s_put_len c p : len_ok cap (length c) -> len_ok cap (length (r_c (s_do_put A cap c p))).
  Proof.
    unfold s_do_put. intros H. destruct (has_room cap (length c)) eqn:E; cbn [r_c]; [|auto].
    rewrite app_length. cbn [length]. replace (length c + 1) with (S (length c)) by lia.
    apply has_room_succ; auto.
  Qed.

  Lemma len_ok_le n m : m <= n -> len_ok cap n -> len_ok cap m.
  Proof.
    unfold len_ok. destruct cap as [c|]; [|auto]. intros Hle H.
    eapply Qle_trans; [|exact H]. rewrite <- Zle_Qle. lia.
  Qed.

  Lemma len_ok_0 : len_ok cap 0.
  Proof.
    unfold len_ok. destruct cap as [c|] eqn:E; [|auto]. cbn in Hcap. cbn. apply Qlt_le_weak. exact Hcap.
  Qed.

  Theorem store_bounded fixed (acts : list (action (Store A cap))) t0 s :
    run fixed (init (K:=Store A cap) [] t0) acts = Some s -> len_ok cap (length (content s)).
  Proof.
    intros Hr.
    apply (content_invariant (Store A cap) (fun c => len_ok cap (length c))) with (fixed := fixed) (acts := acts) (c0 := []) (t0 := t0); auto.
    - intros c p _ H. apply s_put_len. exact H.
    - intros c g _ H. cbn. unfold s_do_get. destruct c as [|x t]; cbn [r_c]; [auto|].
      eapply len_ok_le; [|exact H]. cbn; lia.
    - apply len_ok_0.
  Qed.

  Theorem store_delivered_once fixed (acts : list (action (Store A cap))) t0 s :
    run fixed (init (K:=Store A cap) [] t0) acts = Some s ->
    Permutation (accepted (K:=Store A cap) idA (log s)) (content s ++ delivered (K:=Store A cap) idA (log s)).
  Proof. intros Hr. rewrite (store_fifo _ _ _ _ Hr). apply Permutation_app_comm. Qed.

  Lemma s_put_blocked items item : r_val (s_do_put A cap items item) = None ->
    exists c, cap = Some c /\ (c < inject_Z (Z.of_nat (length items)) + 1)%Q.
  Proof. unfold s_do_put. destruct (has_room cap (length items)) eqn:E; [discriminate|]. intros _. apply has_room_false, E. Qed.

  Theorem store_heads_blocked (acts : list (action (Store A cap))) t0 s t s' :
    run true (init (K:=Store A cap) [] t0) acts = Some s ->
    step true s (AAdvance t) = Some s' ->
    (putq s <> [] -> exists c, cap = Some c /\ (c < inject_Z (Z.of_nat (length (content s))) + 1)%Q) /\
    (getq s <> [] -> content s = []).
  Proof.
    intros Hr Ha. apply advance_admissible in Ha.
    destruct (heads_blocked_generic (Store A cap) true (store_laws A cap) _ _ _ _ Hr Ha) as [Hp Hg].
    split.
    - intros Hne. unfold put_settled in Hp. destruct (putq s) as [|[i p] rest]; [congruence|].
      exact (s_put_blocked _ _ Hp).
    - intros Hne. unfold get_settled, get_head_settled in Hg. destruct (getq s) as [|[i g] rest]; [congruence|].
      cbn in Hg. unfold s_do_get in Hg. destruct (content s); [auto|discriminate].
  Qed.
  Theorem filter_bounded fixed (acts : list (action (FilterStore A cap))) t0 s :
    run fixed (init (K:=FilterStore A cap) [] t0) acts = Some s -> len_ok cap (length (content s)).
  Proof.
    intros Hr.
    apply (content_invariant (FilterStore A cap) (fun c => len_ok cap (length c))) with (fixed := fixed) (acts := acts) (c0 := []) (t0 := t0); auto.
    - intros c p _ H. apply s_put_len. exact H.
    - intros c f _ H. change (len_ok cap (length (r_c (f_do_get A c f)))). destruct (r_val (f_do_get A c f)) as [v|] eqn:E.
      + apply f_do_get_some in E as (a & b & -> & -> & _). eapply len_ok_le; [|exact H]. rewrite !app_length. cbn; lia.
      + unfold f_do_get in *. destruct (take_first f c) as [[x rest]|]; [discriminate|exact H].
    - apply len_ok_0.
  Qed.

  Theorem filter_delivered_once fixed (acts : list (action (FilterStore A cap))) t0 s :
    run fixed (init (K:=FilterStore A cap) [] t0) acts = Some s ->
    Permutation (accepted (K:=FilterStore A cap) idA (log s)) (content s ++ delivered (K:=FilterStore A cap) idA (log s)).
  Proof.
    intros Hr. apply (log_is_path (FilterStore A cap) false (filter_laws A cap)) in Hr.
    apply (path_perm (FilterStore A cap) A (fun c => c) idA idA (fun _ => True)) in Hr; auto.
    - intros c p _ Hv. cbn in *. unfold s_do_put in *. destruct (has_room cap (length c)); [|discriminate].
      cbn [r_c]. apply Permutation_sym, Permutation_cons_append.
    - intros c f v _ Hv. apply f_do_get_some in Hv as (a & b & -> & E & _).
      replace (r_c (k_do_get (FilterStore A cap) (a ++ v :: b) f)) with (a ++ b) by (symmetry; exact E).
      apply Permutation_sym, Permutation_middle.
  Qed.

  (* every get receives the first item, in insertion order, that its filter accepts; puts append *)
  Theorem filter_first_match fixed (acts : list (action (FilterStore A cap))) t0 s l1 i f x l2 :
    run fixed (init (K:=FilterStore A cap) [] t0) acts = Some s ->
    log s = l1 ++ GGet i f x :: l2 ->
    exists a b, path (FilterStore A cap) [] l1 (a ++ x :: b) /\ f x = true /\ (forall y, In y a -> f y = false) /\
                path (FilterStore A cap) (a ++ b) l2 (content s).
  Proof.
    intros Hr Hl. apply (log_is_path (FilterStore A cap) false (filter_laws A cap)) in Hr.
    rewrite Hl in Hr. apply path_split in Hr as (c1 & H1 & H2).
    inversion H2 as [| |c i' g v l c' Hv Hp]; subst.
    apply f_do_get_some in Hv as (a & b & -> & E & Hx & Ha).
    exists a, b. split; [exact H1|]. split; [exact Hx|]. split; [exact Ha|]. rewrite <- E. exact Hp.
  Qed.

  Theorem put_appends_filter fixed (acts : list (action (FilterStore A cap))) t0 s l1 i p l2 :
    run fixed (init (K:=FilterStore A cap) [] t0) acts = Some s ->
    log s = l1 ++ GPut i p :: l2 ->
    exists c1, path (FilterStore A cap) [] l1 c1 /\ path (FilterStore A cap) (c1 ++ [p]) l2 (content s).
  Proof.
    intros Hr Hl. apply (log_is_path (FilterStore A cap) false (filter_laws A cap)) in Hr.
    rewrite Hl in Hr. apply path_split in Hr as (c1 & H1 & H2).
    inversion H2 as [|c i' p' l c' Hv Hp|]; subst.
    cbn in Hv, Hp. unfold s_do_put in *. destruct (has_room cap (length c1)); [|discriminate].
    exists c1. auto.
  Qed.

  Theorem filter_heads_blocked (acts : list (action (FilterStore A cap))) t0 s t s' :
    run true (init (K:=FilterStore A cap) [] t0) acts = Some s ->
    step true s (AAdvance t) = Some s' ->
    (putq s <> [] -> exists c, cap = Some c /\ (c < inject_Z (Z.of_nat (length (content s))) + 1)%Q) /\
    (forall i f, In (i, f) (getq s) -> forall y, In y (content s) -> f y = false).
  Proof.
    intros Hr Ha. apply advance_admissible in Ha.
    destruct (heads_blocked_generic (FilterStore A cap) false (filter_laws A cap) _ _ _ _ Hr Ha) as [Hp Hg].
    split.
    - intros Hne. unfold put_settled in Hp. destruct (putq s) as [|[i p] rest]; [congruence|].
      exact (s_put_blocked _ _ Hp).
    - intros i f Hin. apply f_do_get_none, (Hg _ Hin).
  Qed.

  (* a getter is overtaken only by items its filter rejects *)
  Lemma filter_chain_in c gs c' :
    chain (k_do_get (FilterStore A cap)) c gs c' -> forall i f x, In (i, f, x) gs -> In x c.
  Proof.
    induction 1 as [c|c [i p] v l c' Hv Hc IH]; intros j f x Hin; [destruct Hin|].
    apply f_do_get_some in Hv as (a & b & -> & E & _).
    destruct Hin as [Hin|Hin].
    - injection Hin as _ _ <-. apply in_or_app. right. left. auto.
    - assert (Hx : In x (a ++ b)) by (rewrite <- E; exact (IH _ _ _ Hin)).
      apply in_app_or in Hx as [Hx|Hx]; apply in_or_app; [left|right; right]; exact Hx.
  Qed.

  Theorem filter_overtake_only_nonmatching fixed (acts : list (action (FilterStore A cap))) t0 s a s' news :
    run fixed (init (K:=FilterStore A cap) [] t0) acts = Some s ->
    step fixed s a = Some s' ->
    log s' = log s ++ news ->
    forall b fb x, In (GGet b fb x) news ->
    forall o fo, In (o, fo) (getq s') -> o < b -> fo x = false.
  Proof.
    intros Hr Hs Hl b fb x Hin o fo Ho Hlt.
    apply WF_run in Hr.
    destruct (step_get_scan _ _ _ _ _ Hr Hs) as [(q1 & gs & Hsort & Hscan & Hlog)|(gs & Hlog)].
    - rewrite Hlog in Hl. apply app_inv_head in Hl. subst news.
      apply in_map_iff in Hin as ([[b' fb'] x'] & Heq & Hin). cbn in Heq. injection Heq as -> -> ->.
      destruct (filter_laws A cap) as [_ _ Lns [Lnb _]].
      destruct (scan_nonblocking_older _ Lns Lnb _ _ _ _ _ Hscan Hsort _ Ho)
        as (cr & g1 & g2 & -> & Hc1 & Hc2 & Hv & F1 & F2).
      cbn [fst snd] in *.
      apply in_app_or in Hin as [Hin|Hin].
      + rewrite Forall_forall in F1. specialize (F1 _ Hin). cbn in F1. lia.
      + pose proof (filter_chain_in _ _ _ Hc2 _ _ _ Hin) as Hx.
        exact (proj1 (f_do_get_none cr fo) Hv x Hx).
    - rewrite Hlog in Hl. apply app_inv_head in Hl. subst news.
      apply in_map_iff in Hin as ([[b' p'] u] & Heq & _). discriminate.
  Qed.
End Stores.

Section Prio.
  Variable A : Type.
  Variable key : A -> Z.
  Variable cap : option Q.
  Hypothesis Hcap : cap_pos cap.
  Let KP := PriorityStore A key cap.
  Let idA := fun x : A => x.

  Lemma p_put_ok c p : heap_ok A key c -> heap_ok A key (r_c (p_do_put A key cap c p)).
  Proof.
    intros H. unfold p_do_put. destruct (has_room cap (length c)); cbn [r_c]; [|auto].
    destruct (heappush_spec A key c p H) as (h' & -> & Hok & _). exact Hok.
  Qed.

  Lemma p_get_ok c g : heap_ok A key c -> heap_ok A key (r_c (p_do_get A key c g)).
  Proof.
    intros H. unfold p_do_get. destruct c as [|a t]; cbn [r_c]; [auto|].
    destruct (heappop_spec A key (a :: t) ltac:(discriminate) H) as (x & h' & -> & Hok & _). exact Hok.
  Qed.

  Lemma p_do_put_some c p : heap_ok A key c -> r_val (p_do_put A key cap c p) = Some tt ->
    heap_ok A key (r_c (p_do_put A key cap c p)) /\ Permutation (p :: c) (r_c (p_do_put A key cap c p)).
  Proof.
    intros Hok. unfold p_do_put. destruct (has_room cap (length c)); [|discriminate].
    destruct (heappush_spec A key c p Hok) as (h' & -> & Hok' & Hp). auto.
  Qed.

  Lemma p_do_get_some c g v : heap_ok A key c -> r_val (p_do_get A key c g) = Some v ->
    heap_ok A key (r_c (p_do_get A key c g)) /\ Permutation c (v :: r_c (p_do_get A key c g)) /\
    forall y, In y c -> (key v <= key y)%Z.
  Proof.
    intros Hok. unfold p_do_get. destruct c as [|a t]; [discriminate|].
    destruct (heappop_spec A key (a :: t) ltac:(discriminate) Hok) as (x & h' & -> & Hok' & Hp & Hmin). intros [= <-]. auto.
  Qed.

  Lemma prio_path_ok l c : path KP [] l c -> heap_ok A key c.
  Proof.
    intros H. apply (path_content KP (heap_ok A key) (fun c p => p_put_ok c p) (fun c g => p_get_ok c g) _ _ _ H), heap_ok_nil.
  Qed.

  Lemma prio_heap_ok fixed (acts : list (action KP)) t0 s :
    run fixed (init (K:=KP) [] t0) acts = Some s -> heap_ok A key (content s).
  Proof. intros Hr. apply (log_is_path KP true (prio_laws A key cap)) in Hr. exact (prio_path_ok _ _ Hr). Qed.

  Theorem prio_delivered_once fixed (acts : list (action KP)) t0 s :
    run fixed (init (K:=KP) [] t0) acts = Some s ->
    Permutation (accepted (K:=KP) idA (log s)) (content s ++ delivered (K:=KP) idA (log s)).
  Proof.
    intros Hr. apply (log_is_path KP true (prio_laws A key cap)) in Hr.
    apply (path_perm KP A (fun c => c) idA idA (heap_ok A key)) in Hr; auto.
    - intros c p. apply p_put_ok.
    - intros c g. apply p_get_ok.
    - intros c p Hok Hv. apply Permutation_sym, (p_do_put_some c p Hok Hv).
    - intros c g v Hok Hv. apply (p_do_get_some c g v Hok Hv).
    - apply heap_ok_nil.
  Qed.

  (* every get receives an item of smallest priority among the items held at that moment *)
  Theorem prio_min fixed (acts : list (action KP)) t0 s l1 i g x l2 :
    run fixed (init (K:=KP) [] t0) acts = Some s ->
    log s = l1 ++ GGet i g x :: l2 ->
    exists c1, path KP [] l1 c1 /\ In x c1 /\ forall y, In y c1 -> (key x <= key y)%Z.
  Proof.
    intros Hr Hl. apply (log_is_path KP true (prio_laws A key cap)) in Hr.
    rewrite Hl in Hr. apply path_split in Hr as (c1 & H1 & H2).
    pose proof (prio_path_ok _ _ H1) as Hok.
    inversion H2 as [| |c i' g' v l c' Hv Hp]; subst.
    destruct (p_do_get_some _ _ _ Hok Hv) as (_ & Hperm & Hmin).
    exists c1. split; [exact H1|]. split; [|exact Hmin].
    eapply Permutation_in; [apply Permutation_sym; exact Hperm|left; auto].
  Qed.

  Theorem prio_bounded fixed (acts : list (action KP)) t0 s :
    run fixed (init (K:=KP) [] t0) acts = Some s -> len_ok cap (length (content s)).
  Proof.
    intros Hr.
    assert (H : heap_ok A key (content s) /\ len_ok cap (length (content s))).
    { apply (content_invariant KP (fun c => heap_ok A key c /\ len_ok cap (length c))) with (fixed := fixed) (acts := acts) (c0 := []) (t0 := t0); auto.
      - intros c p _ [Hok Hlen]. split; [apply p_put_ok; auto|]. cbn. unfold p_do_put.
        destruct (has_room cap (length c)) eqn:E; cbn [r_c]; [|auto].
        destruct (heappush_spec A key c p Hok) as (h' & -> & _ & Hp). cbn [r_c].
        rewrite <- (Permutation_length Hp). cbn [length]. apply has_room_succ; auto.
      - intros c g _ [Hok Hlen]. split; [apply p_get_ok; auto|]. cbn. unfold p_do_get.
        destruct c as [|a t]; cbn [r_c]; [auto|].
        destruct (heappop_spec A key (a :: t) ltac:(discriminate) Hok) as (x & h' & -> & _ & Hp & _). cbn [r_c].
        apply (len_ok_le cap Hcap (length (a :: t))); [|exact Hlen]. rewrite (Permutation_length Hp). cbn; lia.
      - split; [apply heap_ok_nil|apply len_ok_0; auto]. }
    apply H.
  Qed.

  Theorem prio_heads_blocked (acts : list (action KP)) t0 s t s' :
    run true (init (K:=KP) [] t0) acts = Some s ->
    step true s (AAdvance t) = Some s' ->
    (putq s <> [] -> exists c, cap = Some c /\ (c < inject_Z (Z.of_nat (length (content s))) + 1)%Q) /\
    (getq s <> [] -> content s = []).
  Proof.
    intros Hr Ha. apply advance_admissible in Ha.
    destruct (heads_blocked_generic KP true (prio_laws A key cap) _ _ _ _ Hr Ha) as [Hp Hg].
    split.
    - intros Hne. unfold put_settled in Hp. destruct (putq s) as [|[i p] rest]; [congruence|].
      cbn in Hp. unfold p_do_put in Hp. destruct (has_room cap (length (content s))) eqn:E.
      + exfalso. pose proof (heappush_total A key (content s) p) as Ht.
        destruct (heappush key (content s) p); [discriminate|congruence].
      + apply has_room_false in E. exact E.
    - intros Hne. unfold get_settled, get_head_settled in Hg. destruct (getq s) as [|[i g] rest]; [congruence|].
      cbn in Hg. unfold p_do_get in Hg. destruct (content s) as [|a r]; [auto|]. exfalso.
      pose proof (heappop_total A key (a :: r) ltac:(discriminate)) as Ht.
      destruct (heappop key (a :: r)) as [[x h]|]; [discriminate|congruence].
  Qed.
End Prio.

(* non-vacuity: admissible histories with blocking, several events pending at one instant, ties,
   a non-matching filter getter that is overtaken, a cancel and clock advances *)
Local Open Scope Z_scope.

Definition fmod_ex (m r : Z) : Z -> bool := fun x => Z.eqb (x mod m) r.

Definition obs_of {K : kind} (o : option (state K)) :=
  match o with
  | Some s => Some (content s, ids (putq s), ids (getq s),
                    map (fun g => match g with GPut i _ => (i, None) | GGet i _ v => (i, Some v) end) (log s))
  | None => None
  end.

Example store_example :
  let K := Store Z (Some 1%Q) in
  obs_of (run true (init (K:=K) [] 0%Q)
    [@APut K 1; @APut K 2; @AGet K tt; @AProcess K 0%nat; @AProcess K 2%nat; @AProcess K 1%nat;
     @AAdvance K 1%Q; @AGet K tt; @AProcess K 3%nat; @AAdvance K 2%Q])
  = Some ([], [], [], [(0%nat, None); (2%nat, Some 1); (1%nat, None); (3%nat, Some 2)]).
Proof. vm_compute. reflexivity. Qed.

Example prio_example :
  let K := PriorityStore (Z * Z) fst None in
  obs_of (run true (init (K:=K) [] 0%Q)
    [@APut K (2, 0); @APut K (1, 1); @APut K (1, 2); @APut K (0, 3); @AGet K tt; @AGet K tt;
     @AProcess K 0%nat; @AProcess K 1%nat; @AProcess K 2%nat; @AProcess K 3%nat; @AProcess K 4%nat;
     @AProcess K 5%nat; @AAdvance K 1%Q])
  = Some ([(1, 1); (2, 0)], [], [],
          [(0%nat, None); (1%nat, None); (2%nat, None); (3%nat, None); (4%nat, Some (0, 3)); (5%nat, Some (1, 2))]).
Proof. vm_compute. reflexivity. Qed.

Example filter_example :
  let K := FilterStore Z (Some 4%Q) in
  obs_of (run true (init (K:=K) [] 0%Q)
    [@AGet K (fmod_ex 5 0); @AGet K (fmod_ex 2 0); @APut K 1; @APut K 2; @APut K 3; @APut K 4;
     @AProcess K 2%nat; @AProcess K 3%nat; @AProcess K 1%nat; @AProcess K 4%nat; @AProcess K 5%nat;
     @AGet K (fmod_ex 3 0); @ACancel K 0%nat; @AProcess K 6%nat; @AAdvance K 1%Q])
  = Some ([1; 4], [], [],
          [(2%nat, None); (3%nat, None); (4%nat, None); (5%nat, None); (1%nat, Some 2); (6%nat, Some 3)]).
Proof. vm_compute. reflexivity. Qed.

(* the capacity guard of the pinned commit (len(items) < capacity) lets a store of capacity 5/2 hold
   three items; the repaired guard (fix: 2019701) stops at two *)
Definition KU : kind := Store_unfixed Z (Some (5 # 2)%Q).
Definition over_capacity_history : list (action KU) := [@APut KU 0; @APut KU 1; @APut KU 2].

Lemma store_bounded_refuted_unfixed :
  exists (acts : list (action KU)) (s : state KU),
    run true (init (K:=KU) [] 0%Q) acts = Some s /\
    ~ (inject_Z (Z.of_nat (length (content s))) <= 5 # 2)%Q.
Proof.
  exists over_capacity_history,
    (mkst (K:=KU) [0; 1; 2] [] [] [(0%nat, EvPut); (1%nat, EvPut); (2%nat, EvPut)]
          [GPut (K:=KU) 0%nat 0; GPut (K:=KU) 1%nat 1; GPut (K:=KU) 2%nat 2] 3%nat 0%Q).
  split; [reflexivity|]. intros H. exact (H eq_refl).
Qed.

Example over_capacity_history_repaired :
  let K := Store Z (Some (5 # 2)%Q) in
  obs_of (run true (init (K:=K) [] 0%Q) [@APut K 0; @APut K 1; @APut K 2])
  = Some ([0; 1], [2%nat], [], [(0%nat, None); (1%nat, None)]).
Proof. vm_compute. reflexivity. Qed.
(* items that carry the id of their put next to their value: (value, put-id).  Equal values with distinct
   put-ids are distinct items for the model (Leibniz equality); Python's == sees the value only. *)
Section PutIds.
  Variable V T : Type.
  Variable cap : option Q.
  Let KF := FilterStore (V * T) cap.
  Let idA := fun x : V * T => x.

  (* if every accepted item has its own put-id, then no put-id is handed out twice or both handed out
     and still held, and every accepted put-id is held or was handed out *)
  Theorem filter_put_ids_exactly_once fixed (acts : list (action KF)) t0 s :
    run fixed (init (K:=KF) [] t0) acts = Some s ->
    NoDup (map snd (accepted (K:=KF) idA (log s))) ->
    NoDup (map snd (content s ++ delivered (K:=KF) idA (log s))) /\
    forall t, In t (map snd (accepted (K:=KF) idA (log s))) <->
              In t (map snd (content s ++ delivered (K:=KF) idA (log s))).
  Proof.
    intros Hr Hn. pose proof (filter_delivered_once (V * T) cap fixed acts t0 s Hr) as Hp.
    apply (Permutation_map snd) in Hp. split.
    - eapply Permutation_NoDup; eauto.
    - intros t. split; intros H; [eapply Permutation_in; eauto|eapply Permutation_in; [apply Permutation_sym|]; eauto].
  Qed.
End PutIds.

(* FilterStore._do_get as found (list.remove(item): first EQUAL element): items (1, id 0) and (1, id 1),
   a filter that accepts only put-id 1: the getter receives (1, 1), which is STILL in the store, and
   (1, 0) is gone -- one accepted item lost, another handed out and kept *)
Definition veq_value (a b : Z * nat) : bool := Z.eqb (fst a) (fst b).
Definition KFU : kind := FilterStore_unfixed (Z * nat) veq_value None.
Definition equal_items_history : list (action KFU) :=
  [@APut KFU (1, 0%nat); @APut KFU (1, 1%nat); @AGet KFU (fun x => Nat.eqb (snd x) 1)].

Lemma filter_delivered_once_refuted_unfixed :
  exists (acts : list (action KFU)) (s : state KFU),
    run true (init (K:=KFU) [] 0%Q) acts = Some s /\
    ~ Permutation (accepted (K:=KFU) (fun x => x) (log s))
                  (content s ++ delivered (K:=KFU) (fun x => x) (log s)) /\
    exists x, In x (content s) /\ In x (delivered (K:=KFU) (fun x => x) (log s)).
Proof.
  exists equal_items_history,
    (mkst (K:=KFU) [(1, 1%nat)] [] [] [(0%nat, EvPut); (1%nat, EvPut); (2%nat, EvGet)]
          [GPut (K:=KFU) 0%nat (1, 0%nat); GPut (K:=KFU) 1%nat (1, 1%nat);
           GGet (K:=KFU) 2%nat (fun x => Nat.eqb (snd x) 1) (1, 1%nat)] 3%nat 0%Q).
  split; [reflexivity|]. cbn. split.
  - intros Hp. assert (Hin : In (1, 0%nat) [(1, 1%nat); (1, 1%nat)]).
    { eapply Permutation_in; [exact Hp|left; reflexivity]. }
    cbn in Hin. destruct Hin as [Hc|[Hc|[]]]; discriminate.
  - exists (1, 1%nat). split; left; reflexivity.
Qed.

Example equal_items_history_repaired :
  let K := FilterStore (Z * nat) None in
  obs_of (run true (init (K:=K) [] 0%Q)
    [@APut K (1, 0%nat); @APut K (1, 1%nat); @AGet K (fun x => Nat.eqb (snd x) 1)])
  = Some ([(1, 0%nat)], [], [], [(0%nat, None); (1%nat, None); (2%nat, Some (1, 1%nat))]).
Proof. vm_compute. reflexivity. Qed.
